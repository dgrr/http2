(* Proofs/CliMsgDisp.v - C02 (c) / C20 (client): dispatch in three parts, and the micro-moves a step is made of.

   cl_dispatch = disp_ok (loadReq + acquireFor) ; disp_feed (readStream, the checks on the header block, the Ctx
   written back) ; disp_tail (finish / setLastErr / goneAway).
   mv1 / feedmove / mvs: every step of the model is a sequence of quiet moves (Proofs/CliMsgMoves.v) and of the few
   moves that are not: a new Ctx, a Ctx queued, writeRequest's registration + HEADERS, one frame fed to the request
   on its stream, a result taken by its caller. *)
From H2V Require Import Base.Bytes Base.MachineInt Gen.GenConsts Impl.ServerConn Impl.ClientConn
  Proofs.CliBase Proofs.CliMsgMoves.
From Coq Require Import ZArith Lia ZifyN ZifyNat ZifyBool List.
Import ListNotations.
Local Open Scope N_scope.
Set Default Proof Using "Type".

Lemma u32_next_id (n : N) : n <= cl_maxStreamID -> u32 (n + 2) = n + 2.
Proof. unfold cl_maxStreamID. intro LE. apply N.mod_small. change (2 ^ 32) with 4294967296. lia. Qed.

Section Disp.
Context {hstate : Type}.
Variable dec_field : hstate -> N -> bytes -> dec_res hstate.
Implicit Types c : cconn hstate.

(* loadReq + acquireFor: inl (connection, the Ctx that takes the frame) or inr (the read loop is parked) *)
Definition disp_ok c (id : N) : (cconn hstate * option cctx) + cconn hstate :=
  match cl_req_find (cc_reqQueued c) id with
  | None => inl (c, None)
  | Some tag =>
    match cl_acquire_for [] c tag id with
    | CLOk => inl (c, cl_ctx_get c tag)
    | CLRefused => inl (cl_take_req_count c id, None)
    | CLBlocked | CLSelf => inr (cl_go_stuck 0 [] c false tag)
    end
  end.

(* readStream and what dispatch makes of its answer, up to writing the Ctx back *)
Definition disp_feed c0 (fr : sframe) (ok : option cctx) : cconn hstate * option cctx * bool * cl_rserr :=
  let '(c1, res', ended, err) := cl_read_stream dec_field c0 fr (match ok with Some x => Some (ct_resp x) | None => None end) in
  let ok1 := match ok, res' with Some x, Some r => Some (ctu_resp x r) | _, _ => ok end in
  let '(ok2, err2) :=
    match ok1, err with
    | Some x, CRSNone =>
      if (cc_hdrStream c1 =? 0) && (fkind_eqb (sf_kind fr) KHeaders || fkind_eqb (sf_kind fr) KCont) then
        if (cc_hdrStatus c1 =? 0)%Z then
          if negb (ct_gotStatus x) || negb (cc_hdrEndStream c1) then (ok1, CRSStream CEMalformed) else (ok1, CRSNone)
        else if ct_gotStatus x then (ok1, CRSStream CEMalformed)
        else
          let final := (200 <=? cc_hdrStatus c1)%Z in
          (Some (ctu_gotStatus x final), if negb final && cc_hdrEndStream c1 then CRSStream CEMalformed else CRSNone)
      else (ok1, err)
    | _, _ => (ok1, err)
    end in
  let err2 :=
    match ok2, err2 with
    | Some x, CRSNone => if fkind_eqb (sf_kind fr) KData && negb (ct_gotStatus x) then CRSStream CEMalformed else err2
    | _, _ => err2
    end in
  let c2 := match ok2 with Some x => cl_ctx_put c1 x | None => c1 end in
  (c2, ok2, ended, err2).

Definition disp_tail c2 (id : N) (ok2 : option cctx) (ended : bool) (err2 : cl_rserr) : cconn hstate * cl_dres :=
  match err2 with
  | CRSPanic => (c2, CDPanic)
  | CRSConn e =>
    let c3 := cl_set_last_err c2 e in
    (match ok2 with Some x => cl_finish c3 (ct_tag x) id e | None => c3 end, CDStop)
  | CRSStream e =>
    let c3 := match ok2 with Some x => cl_finish c2 (ct_tag x) id e | None => c2 end in
    (c3, if cl_gone_away c3 then CDStop else CDCont)
  | CRSNone =>
    let c3 := match ok2 with
              | Some x => if ended then cl_finish c2 (ct_tag x) id CENil else c2
              | None => c2
              end in
    (c3, if cl_gone_away c3 then CDStop else CDCont)
  end.

Lemma cl_dispatch_eq c fr :
  cl_dispatch dec_field c fr =
  match disp_ok c (sf_sid fr) with
  | inr c' => (c', CDStuck)
  | inl (c0, ok) =>
    let '(c2, ok2, ended, err2) := disp_feed c0 fr ok in disp_tail c2 (sf_sid fr) ok2 ended err2
  end.
Proof.
  unfold cl_dispatch, disp_ok, disp_feed, disp_tail.
  destruct (cl_req_find (cc_reqQueued c) (sf_sid fr)) as [tag|]; [destruct (cl_acquire_for [] c tag (sf_sid fr))|];
    try reflexivity;
    match goal with |- context [cl_read_stream dec_field ?a ?b ?r] => destruct (cl_read_stream dec_field a b r) as [[[c1 res'] ended] err] end;
    repeat match goal with |- context [let '(_, _) := ?p in _] => destruct p eqn:? end; reflexivity.
Qed.


Definition frame_in_seq c (fr : sframe) : bool :=
  negb (fkind_eqb (sf_kind fr) KPush) &&
  (if cc_hdrStream c =? 0 then negb (fkind_eqb (sf_kind fr) KCont)
   else fkind_eqb (sf_kind fr) KCont && (sf_sid fr =? cc_hdrStream c)).

(* the read loop would park on the Ctx.lck of the request waiting on the frame's stream *)
Definition dispatch_stuck c (fr : sframe) : bool :=
  match cl_req_find (cc_reqQueued c) (sf_sid fr) with
  | Some tag => match cl_acquire_for [] c tag (sf_sid fr) with CLBlocked | CLSelf => true | _ => false end
  | None => false
  end.

(* the stream frame (sid <> 0) the read loop takes in and goes through in step e, if any *)
Definition cl_taken c (e : cevent) : option sframe :=
  match e with
  | CEvRL (RFrame fr) =>
    if cl_rl_live c && negb (cc_netClosed c) && negb (sf_sid fr =? 0) && frame_in_seq c fr && negb (dispatch_stuck c fr)
    then Some fr else None
  | _ => None
  end.

Variable enc_field : hstate -> bytes -> bytes -> bool -> bytes * hstate.
Variable enc_set_max : hstate -> N -> hstate.

Definition rq_has_body (rq : crequest) : bool :=
  match cq_body rq with CStream _ _ => true | CBuf b => negb (cl_is_nil b) end.

(* writeRequest from nextID to openStreams++ *)
Definition reg_state c1 (tag : N) (x : cctx) : cconn hstate * bytes :=
  let id := cc_nextID c1 in
  let c2 := ccu_nextID c1 (u32 (id + 2)) in
  let '(blk, e') := cl_request_block enc_field (cc_enc c2) (ct_req x) in
  let c3 := ccu_enc c2 e' in
  let c4 := cl_ctx_put c3 (ctu_sid (ctu_conn x true) id) in
  let c5 := ccu_open (ccu_reqQueued c4 (cc_reqQueued c4 ++ [(id, tag)])) (cc_open c4 + 1)%Z in
  (c5, blk).

Definition open_pending c5 (id tag : N) (rq : crequest) : cconn hstate :=
  if rq_has_body rq then
    let pb :=
      match cq_body rq with
      | CStream reads size => mkCPB id tag [] (cc_streamWindow c5) (Some reads) size 0 (size =? 0)%Z
      | CBuf b => mkCPB id tag b (cc_streamWindow c5) None (-1) 0 false
      end in
    ccu_pending c5 (cc_pending c5 ++ [pb])
  else c5.

Lemma ccu_pending_same c : ccu_pending c (cc_pending c) = c.
Proof. destruct c; reflexivity. Qed.

(* registration written as one chain of setters: every other field is read off by computation *)
Lemma reg_open_eq c tag x : exists e' p,
  open_pending (fst (reg_state c tag x)) (cc_nextID c) tag (ct_req x) =
  ccu_pending (ccu_open (ccu_reqQueued (ccu_ctxs (ccu_enc (ccu_nextID c (u32 (cc_nextID c + 2))) e')
                                                 (cl_ctxs_put (cc_ctxs c) (ctu_sid (ctu_conn x true) (cc_nextID c))))
                                       (cc_reqQueued c ++ [(cc_nextID c, tag)])) (cc_open c + 1)%Z) p.
Proof.
  unfold reg_state. destruct (cl_request_block _ _ _) as [blk e']. exists e'. cbn [fst]. unfold open_pending.
  destruct (rq_has_body (ct_req x)); eexists; [reflexivity | symmetry; apply ccu_pending_same].
Qed.

Lemma reg_ctx_get c tag x : cl_ctx_get c tag = Some x -> forall t,
  cl_ctx_get (open_pending (fst (reg_state c tag x)) (cc_nextID c) tag (ct_req x)) t =
  if t =? tag then Some (ctu_sid (ctu_conn x true) (cc_nextID c)) else cl_ctx_get c t.
Proof.
  intros G t. destruct (reg_open_eq c tag x) as (e' & p & ->). destruct (cl_ctxs_get_In _ _ _ G) as [_ T].
  unfold cl_ctx_get in *. cc_cbn. rewrite cl_ctxs_get_put. cc_cbn. rewrite T.
  destruct (t =? tag) eqn:E; [|reflexivity]. apply N.eqb_eq in E. rewrite E, G. reflexivity.
Qed.

Inductive mv1 : cconn hstate -> cconn hstate -> Prop :=
| m_q c c' : qm q1 c c' -> mv1 c c'
| m_addctx c tag rq armed : cl_ctx_get c tag = None -> mv1 c (ccu_ctxs c (cc_ctxs c ++ [cl_new_ctx tag rq armed]))
| m_inq c tag x : cl_ctx_get c tag = Some x -> ct_sid x = 0 -> ~ In tag (cc_inQ c) -> mv1 c (ccu_inQ c (cc_inQ c ++ [tag]))
| m_encsize c : mv1 c (ccu_enc (ccu_encTableSeen c (cc_encTableSize c)) (enc_set_max (cc_enc c) (cc_encTableSize c)))
| m_open c tag x :
    cl_ctx_get c tag = Some x -> ct_sid x = 0 -> ~ In tag (cc_inQ c) -> cc_nextID c <= cl_maxStreamID -> cl_wl_live c = true ->
    mv1 c (let '(c5, blk) := reg_state c tag x in
           cl_note (open_pending c5 (cc_nextID c) tag (ct_req x)) (COHeaders (cc_nextID c) (negb (rq_has_body (ct_req x))) blk))
| m_open_fail c tag x c' :
    cl_ctx_get c tag = Some x -> ct_sid x = 0 -> ~ In tag (cc_inQ c) -> cc_nextID c <= cl_maxStreamID ->
    qm q1 (open_pending (fst (reg_state c tag x)) (cc_nextID c) tag (ct_req x)) c' -> cl_wl_live c' = false ->
    cl_req_find (cc_reqQueued c') (cc_nextID c) = None ->
    mv1 c c'
| m_result c tag x e :
    cl_ctx_get c tag = Some x -> ct_err x = Some e ->
    mv1 c (let x2 := ctu_pooled (ctu_returned (ctu_resolved (ctu_done (ctu_armed (ctu_err x None) false) true) true) true)
                                ((if ct_armed x then negb (ct_fired x) else true) && ct_finished x) in
           cl_note (cl_ctx_put c x2) (COResult tag (cl_retryable e) e (ct_resp x2))).

(* what readLoop does with dispatch's answer *)
Definition rl_after (p : cconn hstate * cl_dres) : cconn hstate :=
  match p with
  | (c2, CDCont) => c2
  | (c2, CDStop) => cl_rl_exit c2 2
  | (c2, CDStuck) => c2
  | (c2, CDPanic) => cl_rl_panic c2
  end.

(* one frame through dispatch, the lookup done: ok = the Ctx that takes it *)
Definition feedmove (fr : sframe) c c3 : Prop :=
  cl_rl_live c = true /\ sf_sid fr <> 0 /\ frame_in_seq c fr = true /\
  exists ok,
    match ok with
    | Some x => cl_req_find (cc_reqQueued c) (sf_sid fr) = Some (ct_tag x) /\ cl_ctx_get c (ct_tag x) = Some x /\ ct_sid x = sf_sid fr
    | None => cl_req_find (cc_reqQueued c) (sf_sid fr) = None
    end /\
    c3 = rl_after (let '(c2, ok2, ended, err2) := disp_feed c fr ok in disp_tail c2 (sf_sid fr) ok2 ended err2).

(* a step: micro-moves, among them at most one feed - of the frame the step takes in *)
Inductive mvs : option sframe -> cconn hstate -> cconn hstate -> Prop :=
| ms_refl c : mvs None c c
| ms_step tk c c1 c2 : mv1 c c1 -> mvs tk c1 c2 -> mvs tk c c2
| ms_feed fr c c1 c2 : feedmove fr c c1 -> mvs None c1 c2 -> mvs (Some fr) c c2.

Lemma mvs_trans tk a b c : mvs None a b -> mvs tk b c -> mvs tk a c.
Proof.
  intro H. remember None as n eqn:E. revert E. induction H as [| tk0 a a1 b M H IH | fr a a1 b F H IH]; intros E Q; [exact Q | | discriminate].
  eapply ms_step; [exact M | apply IH; assumption].
Qed.

Lemma mvs_q c c' : qm q1 c c' -> mvs None c c'.
Proof. intro Q. eapply ms_step; [apply m_q, Q | apply ms_refl]. Qed.
Lemma mvs_q2 c c' : qm q2 c c' -> mvs None c c'.
Proof. intro Q. apply mvs_q, qm_weaken, Q. Qed.
Lemma mvs_one c c' : mv1 c c' -> mvs None c c'.
Proof. intro M. eapply ms_step; [exact M | apply ms_refl]. Qed.
Lemma mvs_snoc_q tk a b c : mvs tk a b -> qm q1 b c -> mvs tk a c.
Proof.
  intros H Q. induction H as [c0 | tk0 a a1 b M H IH | fr a a1 b F H IH].
  - apply mvs_q, Q.
  - eapply ms_step; [exact M | apply IH, Q].
  - eapply ms_feed; [exact F | apply IH, Q].
Qed.

End Disp.
