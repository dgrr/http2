(* Proofs/CliResInst.v - C12/C11: the theorems of Proofs/CliResThms.v and CliResGoAway.v for the instance with the real HPACK
   coder, in the vocabulary of Proofs/CliDefs.v (cli_run, cli_tr, cli_log, results_for, ...). *)
From H2V Require Import Base.Bytes Base.MachineInt Gen.GenConsts Impl.Hpack Impl.ServerConn Impl.ServerInst
     Impl.ClientConn Impl.ClientInst Proofs.HpackTotal Proofs.CliBase Proofs.CliDefs
     Proofs.CliResInv Proofs.CliResStep Proofs.CliResMoves Proofs.CliResThms Proofs.CliResGoAway Proofs.CliResNil Proofs.CliResComplete.
From Coq Require Import ZArith Lia ZifyN ZifyNat ZifyBool List Bool.
Import ListNotations.
Local Open Scope N_scope.

(* the HPACK decoder of the instance never panics (C03_next_field_no_panic) *)
Lemma cli_dec_no_panic : no_panic_dec cli_dec_field.
Proof.
  intros hp n b. unfold cli_dec_field, srv_dec_field. pose proof (next_field_no_panic hp empty_field true n b) as H.
  destruct (nf_res (next_field hp empty_field true n b)) as [[rest [|]]|e|w]; try discriminate.
  destruct (e =? E_unexpected_size); discriminate.
Qed.

Notation crun cfg first evs := (cl_run cli_dec_field cli_enc_field set_max_table_size cfg cli_init_hpack first evs).
Notation cstep cfg := (cl_step cli_dec_field cli_enc_field set_max_table_size cfg).

Lemma cli_run_eq cfg first evs : cli_run cfg first evs = crun cfg first evs.
Proof. reflexivity. Qed.
Lemma cli_tr_eq cfg first evs : cli_tr cfg first evs = rev (cc_out (crun cfg first evs)).
Proof. reflexivity. Qed.

Lemma cli_new_app (c c' : cst) l : cc_out c' = l ++ cc_out c -> cli_new c c' = rev l.
Proof.
  intro H. unfold cli_new, cst_out. rewrite H, app_length. replace (length l + length (cc_out c) - length (cc_out c))%nat with (length l) by lia.
  rewrite firstn_app, Nat.sub_diag, firstn_all. cbn [firstn]. rewrite app_nil_r. reflexivity.
Qed.

Lemma cli_log_from_In cfg c evs e : In e (cli_log_from cfg c evs) ->
  exists pre post, evs = pre ++ le_ev e :: post /\ le_before e = fold_left (cli_step cfg) pre c /\
                   le_after e = cli_step cfg (le_before e) (le_ev e) /\ le_items e = cli_new (le_before e) (le_after e).
Proof.
  revert c. induction evs as [|a evs IH]; intros c H; [destruct H|]. cbn [cli_log_from] in H. destruct H as [<-|H].
  - exists [], evs. cbn. auto.
  - destruct (IH _ H) as (pre & post & -> & B & A & I). exists (a :: pre), post. cbn. auto.
Qed.

Lemma cli_log_In cfg first evs e : In e (cli_log cfg first evs) ->
  exists pre post, evs = pre ++ le_ev e :: post /\ le_before e = crun cfg first pre /\
                   le_after e = cstep cfg (le_before e) (le_ev e) /\ le_items e = cli_new (le_before e) (le_after e).
Proof. apply cli_log_from_In. Qed.

Lemma results_for_length tag tr : length (results_for tag tr) = length (filter (is_res_of tag) tr).
Proof.
  induction tr as [|o tr IH]; [reflexivity|]. unfold results_for in *. cbn [flat_map filter]. rewrite app_length, IH.
  destruct o; cbn [is_res_of]; try reflexivity. destruct (tag0 =? tag); reflexivity.
Qed.

Lemma filter_rev_length {A} (f : A -> bool) l : length (filter f (rev l)) = length (filter f l).
Proof.
  induction l as [|a l IH]; [reflexivity|]. cbn [rev filter]. rewrite filter_app, app_length, IH. cbn [filter].
  destruct (f a); cbn [length]; lia.
Qed.

Lemma results_of_In tag retry e resp tr : In (tag, retry, e, resp) (results_of tr) <-> In (COResult tag retry e resp) tr.
Proof.
  unfold results_of. rewrite in_flat_map. split.
  - intros (o & Ho & H). destruct o; cbn in H; try contradiction. destruct H as [H|[]]. inversion H; subst. exact Ho.
  - intro H. eexists. split; [exact H | left; reflexivity].
Qed.

Lemma i_results_exact cfg first evs tag :
  length (results_for tag (cli_tr cfg first evs)) =
  match cst_ctx (cli_run cfg first evs) tag with Some x => if ct_returned x then 1%nat else 0%nat | None => 0%nat end.
Proof.
  rewrite cli_tr_eq, results_for_length, filter_rev_length.
  apply (results_exact cli_dec_field cli_enc_field set_max_table_size cfg cli_init_hpack first evs tag).
Qed.

Lemma i_at_most_one_result cfg first evs tag : (length (results_for tag (cli_tr cfg first evs)) <= 1)%nat.
Proof.
  rewrite cli_tr_eq, results_for_length, filter_rev_length.
  apply (results_at_most_once cli_dec_field cli_enc_field set_max_table_size cfg cli_init_hpack first evs tag).
Qed.

Lemma i_inv cfg first evs : inv (cli_run cfg first evs).
Proof. apply inv_run. Qed.

Lemma i_no_delivery_after_return cfg first evs tag x :
  cst_ctx (cli_run cfg first evs) tag = Some x -> ct_returned x = true ->
  ct_err x = None /\ ct_resolved x = true /\ ct_done x = true.
Proof.
  intros G R. destruct (i_inv cfg first evs) as [St _]. destruct (s_ret _ St _ _ G) as [A B]. destruct (B R). rewrite A. auto.
Qed.

Lemma existsb_rev_false {A} (f : A -> bool) l : (forall a, In a l -> f a = false) -> existsb f (rev l) = false.
Proof.
  intro H. destruct (existsb f (rev l)) eqn:E; [|reflexivity]. apply existsb_exists in E. destruct E as (a & Ha & Fa).
  apply in_rev in Ha. rewrite (H a Ha) in Fa. discriminate.
Qed.

Lemma i_no_self_deadlock cfg first evs : existsb is_deadlock (cli_tr cfg first evs) = false.
Proof.
  rewrite cli_tr_eq. apply existsb_rev_false. intros o Ho.
  apply (trace_safe cli_dec_field cli_enc_field set_max_table_size cfg cli_init_hpack first evs o Ho).
Qed.

Lemma i_no_panic cfg first evs : existsb is_panic_item (cli_tr cfg first evs) = false.
Proof.
  rewrite cli_tr_eq. apply existsb_rev_false. intros o Ho.
  destruct (trace_safe cli_dec_field cli_enc_field set_max_table_size cfg cli_init_hpack first evs o Ho) as [_ H].
  destruct (is_panic_item o) eqn:E; [|reflexivity]. exfalso. apply H; [destruct o; try discriminate; reflexivity | exact cli_dec_no_panic].
Qed.

Lemma i_never_stuck cfg first evs : let c := cli_run cfg first evs in
  cc_rl_stuck c = false /\ cc_wl_stuck c = false /\ forall x, In x (cc_ctxs c) -> ct_lckStuck x = false.
Proof. apply never_stuck. Qed.

Lemma i_no_stranding cfg first evs : let c := cli_run cfg first evs in cc_wl_done c = true ->
  cc_closed c = true /\ cc_reqQueued c = [] /\
  forall x, In x (cc_ctxs c) -> answered x = true \/ (ct_writing x = true /\ In (ct_tag x) (cc_inQ c)).
Proof. apply no_stranding. Qed.

Lemma i_request_position cfg first evs : let c := cli_run cfg first evs in
  NoDup (map ct_tag (cc_ctxs c)) /\ NoDup (cc_inQ c) /\ NoDup (map snd (cc_reqQueued c)) /\ NoDup (map fst (cc_reqQueued c)) /\
  (forall t, In t (cc_inQ c) -> ~ In t (map snd (cc_reqQueued c))) /\
  (forall t, In t (cc_inQ c) \/ In t (map snd (cc_reqQueued c)) -> cl_ctx_get c t <> None) /\
  (forall x, In x (cc_ctxs c) -> ~ In (ct_tag x) (cc_inQ c) -> ~ In (ct_tag x) (map snd (cc_reqQueued c)) -> answered x = true).
Proof. apply request_position. Qed.

Lemma existsb_false_In {A} (f : A -> bool) l a : existsb f l = false -> In a l -> f a = false.
Proof.
  intros H Ha. destruct (f a) eqn:E; [|reflexivity]. assert (existsb f l = true) by (apply existsb_exists; eauto). congruence.
Qed.

Lemma i_dropped_means_answered cfg first evs x : let c := cli_run cfg first evs in
  In x (cc_ctxs c) -> cst_refers c (ct_tag x) = false -> answered x = true.
Proof.
  cbv zeta. intros Hx Rf. destruct (i_request_position cfg first evs) as (_ & _ & _ & _ & _ & _ & H). apply (H x Hx).
  - intro J. unfold cst_refers in Rf. apply orb_false_iff in Rf. destruct Rf as [_ Rf].
    pose proof (existsb_false_In _ _ _ Rf J) as F. rewrite N.eqb_refl in F. discriminate.
  - intro J. apply in_map_iff in J. destruct J as ([i u] & Hu & J). cbn in Hu. subst u.
    unfold cst_refers in Rf. apply orb_false_iff in Rf. destruct Rf as [Rf _]. apply orb_false_iff in Rf. destruct Rf as [Rf _].
    pose proof (existsb_false_In _ _ _ Rf J) as F. cbn in F. rewrite N.eqb_refl in F. discriminate.
Qed.

Lemma i_rl_exit_closes cfg first evs : cc_rl_done (cli_run cfg first evs) = true -> cc_closed (cli_run cfg first evs) = true.
Proof. apply rl_exit_closes. Qed.

Lemma i_wl_done_enabled cfg (c : cst) : cc_closed c = true -> cl_wl_live c = true -> cc_wl_done (cli_step cfg c CEvWLDone) = true.
Proof. apply wl_done_enabled. Qed.

Lemma i_reach cfg first evs : cl_reachable cli_dec_field cli_enc_field set_max_table_size cfg cli_init_hpack first (cli_run cfg first evs).
Proof. apply cl_run_reachable. Qed.

Lemma i_check_answers cfg first evs t x : let c := cli_run cfg first evs in
  cst_ctx c t = Some x -> ct_writing x = true -> cc_closed c = true ->
  exists x', cst_ctx (cli_step cfg c (CEvSubmitCheck t)) t = Some x' /\ ct_writing x' = false /\
             (ct_sid x = 0 -> answered x' = true) /\ (ct_sid x <> 0 -> x' = ctu_writing x false).
Proof. cbv zeta. intros G W C. apply (check_answers _ _ _ _ _ _ _ _ _ (i_reach cfg first evs) G W C). Qed.

Lemma i_timeout_answers cfg first evs t x : let c := cli_run cfg first evs in
  cst_ctx c t = Some x -> ct_armed x = true -> ct_fired x = false ->
  exists x', cst_ctx (cli_step cfg c (CEvTimeout t)) t = Some x' /\ answered x' = true /\
             (ct_returned x = false -> ct_err x = None -> ct_err x' = Some CETimeout).
Proof. cbv zeta. intros G A F. apply (timeout_answers _ _ _ _ _ _ _ _ _ (i_reach cfg first evs) G A F). Qed.

Lemma i_write_after_close cfg first evs tag rq q :
  cc_closed (cli_run cfg first evs) = true -> cst_ctx (cli_run cfg first evs) tag = None ->
  exists x, cst_ctx (cli_run cfg first (evs ++ [CEvSubmit tag rq q; CEvSubmitCheck tag])) tag = Some x /\
            ct_err x <> None /\ ct_returned x = false /\ ct_sid x = 0.
Proof.
  intros C G. destruct (write_after_close _ _ _ _ _ _ _ tag rq q (i_reach cfg first evs) C G) as (x & Gx & A & Z & Rt).
  exists x. unfold cli_run. rewrite cl_run_app. cbn [cl_run_from fold_left]. split; [exact Gx|]. split; [|auto].
  intro E. unfold answered in A. rewrite E, Rt in A. discriminate.
Qed.

Lemma headers_of_nil_iff l : headers_of l = [] <-> Forall (fun o => is_headers o = false) l.
Proof.
  unfold headers_of. induction l as [|o l IH]; cbn [flat_map]; [split; auto|]. split.
  - intro H. apply app_eq_nil in H. destruct H as [H1 H2]. constructor; [destruct o; try reflexivity; discriminate | apply IH, H2].
  - intro H. inversion H; subst. destruct o; try discriminate; cbn [app]; apply IH; assumption.
Qed.

(* (a) once goAway is set no step writes a HEADERS frame *)
Lemma i_no_new_stream_after_goaway cfg first evs e :
  In e (cli_log cfg first evs) -> cc_goAway (le_before e) = true -> headers_of (le_items e) = [].
Proof.
  intros He GA. destruct (cli_log_In cfg first evs e He) as (pre & post & _ & B & A & I).
  set (c := le_before e) in *. assert (R : cl_reachable cli_dec_field cli_enc_field set_max_table_size cfg cli_init_hpack first c) by (rewrite B; apply cl_run_reachable).
  destruct (ss_out _ _ _ _ (sum_any cli_dec_field cli_enc_field set_max_table_size cfg c (le_ev e) (inv_reachable _ _ _ _ _ _ c R))) as (l & Hl & _).
  rewrite I, A, (cli_new_app c _ l Hl). apply headers_of_nil_iff. apply Forall_rev.
  apply (goaway_no_headers cli_dec_field cli_enc_field set_max_table_size cfg cli_init_hpack first c (le_ev e) l R GA Hl).
Qed.

Lemma header_ids_filter tr : header_ids tr = hdr_sids tr.
Proof.
  unfold header_ids, headers_of, hdr_sids. induction tr as [|o tr IH]; [reflexivity|]. cbn [flat_map]. rewrite map_app, IH.
  destruct o; reflexivity.
Qed.

Lemma hdr_sids_filter out : hdr_sids out = hdr_sids (filter is_headers out).
Proof. unfold hdr_sids. induction out as [|o out IH]; [reflexivity|]. destruct o; cbn [filter is_headers flat_map]; rewrite <- ?IH; reflexivity. Qed.

Lemma hdr_sids_rev out : hdr_sids (rev out) = rev (hdr_sids out).
Proof. unfold hdr_sids. induction out as [|o out IH]; [reflexivity|]. cbn [rev flat_map]. rewrite flat_map_app, IH, rev_app_distr. cbn [flat_map]. rewrite app_nil_r.
  destruct o; reflexivity. Qed.

(* ... for ever: the stream ids on the wire stay what they were when the GOAWAY had been taken in *)
Lemma i_goaway_no_headers_ever cfg first evs1 evs2 : cc_goAway (cli_run cfg first evs1) = true ->
  cc_goAway (cli_run cfg first (evs1 ++ evs2)) = true /\
  header_ids (cli_tr cfg first (evs1 ++ evs2)) = header_ids (cli_tr cfg first evs1).
Proof.
  intro GA. destruct (goaway_no_headers_ever cli_dec_field cli_enc_field set_max_table_size cfg cli_init_hpack first evs1 evs2 GA) as [G F].
  split; [exact G|]. rewrite !header_ids_filter, !cli_tr_eq, !hdr_sids_rev. f_equal.
  rewrite hdr_sids_filter, (hdr_sids_filter (cc_out (crun cfg first evs1))). f_equal. exact F.
Qed.

(* (b) the step that takes a GOAWAY in *)
Lemma i_goaway_step cfg first evs fr : let c := cli_run cfg first evs in
  cl_rl_live c = true -> cc_netClosed c = false -> sf_kind fr = KGoAway -> sf_sid fr = 0 ->
  let c' := cli_step cfg c (CEvRL (RFrame fr)) in
  cc_goAway c' = true /\ cc_closeRef c' = sf_dep fr /\
  cc_reqQueued c' = filter (fun e => negb (sf_dep fr <? fst e)) (cc_reqQueued c) /\
  forall id t, In (id, t) (cc_reqQueued c) -> sf_dep fr < id ->
    exists x x', cst_ctx c t = Some x /\ cst_ctx c' t = Some x' /\ ct_sid x = id /\
                 ct_finished x' = true /\ answered x' = true /\ (answered x = false -> ct_err x' = Some CEGoAway).
Proof. cbv zeta. intros RL NC K Z. apply (goaway_step _ _ _ _ _ _ _ fr (i_reach cfg first evs) RL NC K Z). Qed.

(* (c) retryable only for a request this connection never put on the wire, or that the server disclaimed *)
Definition goaway_below cfg first (evs : list cevent) (id : N) : Prop :=
  exists pre fr post, evs = pre ++ CEvRL (RFrame fr) :: post /\ sf_kind fr = KGoAway /\ sf_sid fr = 0 /\ sf_dep fr < id /\
    cl_rl_live (cli_run cfg first pre) = true /\ cc_netClosed (cli_run cfg first pre) = false.

Lemma i_retry_sound cfg first evs tag retry err resp :
  In (tag, retry, err, resp) (results_of (cli_tr cfg first evs)) ->
  retry = cl_retryable err /\
  (retry = true ->
   ~ In (cst_sid (cli_run cfg first evs) tag) (header_ids (cli_tr cfg first evs)) \/
   (err = CEGoAway /\ goaway_below cfg first evs (cst_sid (cli_run cfg first evs) tag))).
Proof.
  intro H. apply results_of_In in H. rewrite cli_tr_eq in H. apply in_rev in H.
  pose proof (retry_flag cli_dec_field cli_enc_field set_max_table_size cfg cli_init_hpack first evs _ _ _ _ H) as F.
  split; [exact F|]. intro Rt. subst retry.
  destruct (retry_sound cli_dec_field cli_enc_field set_max_table_size cfg cli_init_hpack first evs _ _ _ _ H Rt) as (x & G & D).
  unfold cst_sid, cst_ctx. unfold cl_ctx_get in G. unfold cli_run. rewrite G.
  destruct D as [D|[-> GA]]; [left | right; split; [reflexivity | exact GA]].
  rewrite header_ids_filter, cli_tr_eq, hdr_sids_rev. intro J. apply in_rev in J. exact (D J).
Qed.


Lemma i_nil_complete cfg first evs tag retry resp :
  In (tag, retry, CENil, resp) (results_of (cli_tr cfg first evs)) ->
  exists x, cst_ctx (cli_run cfg first evs) tag = Some x /\ ct_sid x <> 0 /\
    exists pre fr post, evs = pre ++ CEvRL (RFrame fr) :: post /\ sf_sid fr = ct_sid x /\
      cl_rl_live (cli_run cfg first pre) = true /\ cc_netClosed (cli_run cfg first pre) = false /\
      es_seen (cli_run cfg first pre) fr /\
      exists t0 x0, In (ct_sid x, t0) (cc_reqQueued (cli_run cfg first pre)) /\ cst_ctx (cli_run cfg first pre) t0 = Some x0 /\
                    ct_done x0 = false /\ status_seen cli_dec_field (cli_run cfg first pre) fr x0.
Proof.
  intro H. apply results_of_In in H. rewrite cli_tr_eq in H. apply in_rev in H.
  apply (nil_complete cli_dec_field cli_enc_field set_max_table_size cfg cli_init_hpack first evs tag retry resp H).
Qed.


Lemma i_finished_not_held cfg first evs t x : cst_ctx (cli_run cfg first evs) t = Some x -> ct_finished x = true ->
  cst_refers (cli_run cfg first evs) t = false.
Proof.
  intros G F. destruct (finished_not_held cli_dec_field cli_enc_field set_max_table_size cfg cli_init_hpack first evs t x G F) as (N1 & N2 & N3).
  unfold cst_refers. apply orb_false_iff. split; [apply orb_false_iff; split|].
  - destruct (existsb _ (cc_reqQueued _)) eqn:E; [|reflexivity]. exfalso. apply existsb_exists in E. destruct E as ([i u] & J & Hu). cbn in Hu.
    apply N.eqb_eq in Hu. subst u. apply N2. apply in_map_iff. exists (i, t). auto.
  - destruct (existsb _ (cc_pending _)) eqn:E; [|reflexivity]. exfalso. apply existsb_exists in E. destruct E as (pb & J & Hu).
    apply N.eqb_eq in Hu. apply N3. apply in_map_iff. exists pb. auto.
  - destruct (existsb _ (cc_inQ _)) eqn:E; [|reflexivity]. exfalso. apply existsb_exists in E. destruct E as (u & J & Hu).
    apply N.eqb_eq in Hu. subst u. exact (N1 J).
Qed.

Lemma i_pool_put_safe cfg first evs e tag :
  In e (cli_log cfg first evs) -> In (COPoolPut tag) (le_items e) ->
  le_ev e = CEvReceive tag /\ cst_refers (le_after e) tag = false /\
  exists x, cst_ctx (le_before e) tag = Some x /\ ct_finished x = true /\ (ct_armed x = true -> ct_fired x = false) /\
            cst_ctx (le_after e) tag = Some (recv_ctx x) /\ ct_pooled (recv_ctx x) = true /\
            ct_armed (recv_ctx x) = false /\ ct_done (recv_ctx x) = true /\ ct_resolved (recv_ctx x) = true.
Proof.
  intros He Hin. destruct (cli_log_In cfg first evs e He) as (pre & post & Hev & B & A & I).
  set (c := le_before e) in *.
  assert (R : cl_reachable cli_dec_field cli_enc_field set_max_table_size cfg cli_init_hpack first c) by (rewrite B; apply cl_run_reachable).
  destruct (ss_out _ _ _ _ (sum_any cli_dec_field cli_enc_field set_max_table_size cfg c (le_ev e) (inv_reachable _ _ _ _ _ _ c R))) as (l & Hl & _).
  rewrite I, A, (cli_new_app c _ l Hl) in Hin. apply in_rev in Hin.
  destruct (pool_put_safe _ _ _ _ _ _ c (le_ev e) l tag R Hl Hin) as (Ee & x & G & Fi & Tm & N1 & N2 & N3 & Q1 & Q2 & Q3 & G' & Rest).
  split; [exact Ee|]. split.
  - (* the state after is a run: the Ctx there is finished too *)
    assert (RA : le_after e = cli_run cfg first (pre ++ [le_ev e])) by (rewrite A; unfold cli_run; rewrite cl_run_snoc, <- B; reflexivity).
    rewrite RA. apply (i_finished_not_held cfg first (pre ++ [le_ev e]) tag (recv_ctx x)); [rewrite <- RA, A; exact G'|].
    cbn. exact Fi.
  - exists x. rewrite A. auto 10.
Qed.

(* C11 (b): requests at or below last-stream-id complete *)
(* the decoder of the instance reads the byte 0x88 as (":status", "200") whatever its state (static table, index 8) *)
Lemma cli_dec_200 d n : exists d', cli_dec_field d n [136] = DField hpack_state S_status [50; 48; 48] [] d'.
Proof. exists d. vm_compute. reflexivity. Qed.

Lemma i_completes cfg first evs id tag x : let c := cli_run cfg first evs in
  cl_rl_live c = true -> cc_netClosed c = false -> cc_hdrStream c = 0 ->
  In (id, tag) (cc_reqQueued c) -> cst_ctx c tag = Some x -> ct_done x = false -> ct_err x = None -> ct_gotStatus x = false ->
  let c1 := cli_step cfg c (CEvRL (RFrame (hdr200 id))) in
  exists x1, cst_ctx c1 tag = Some x1 /\ ct_err x1 = Some CENil /\ ct_finished x1 = true /\ ct_gotStatus x1 = true /\
             cr_status (ct_resp x1) = 200%Z /\ ~ In (id, tag) (cc_reqQueued c1) /\
             exists l, cc_out (cli_step cfg c1 (CEvReceive tag)) = l ++ cc_out c1 /\ In (COResult tag false CENil (ct_resp x1)) l.
Proof.
  cbv zeta. intros RL NC HS I G Dn En GS.
  apply (completes cli_dec_field cli_enc_field set_max_table_size cfg cli_init_hpack first cli_dec_200 _ id tag x (i_reach cfg first evs) RL NC HS I G Dn En GS).
Qed.
