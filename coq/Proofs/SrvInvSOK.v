(* Proofs/SrvInvSOK.v - the per-stream invariant behind C13 (d)(e): what is known of the request a table stream has
   accumulated: body length, header-list size, buffered header bytes. It is closed under everything the stream loop
   does to a stream (Qclosed), so it holds of every table stream while the loop runs and of every dispatched request. *)
From H2V Require Import Base.Bytes Base.MachineInt Base.Result Gen.GenConsts Impl.ServerConn Proofs.SrvBase
  Proofs.SrvInvMoves Proofs.SrvInvDecomp.
From Coq Require Import ZArith Lia ZifyN ZifyNat ZifyBool.
Local Open Scope N_scope.

(* RFC 7540 6.5.2: the size of a header field is name + value + 32 *)
Definition hsz (k v : bytes) : Z := (Z.of_N (len k) + Z.of_N (len v) + 32)%Z.
Definition fields_size (l : list (bytes * bytes)) : Z := fold_right (fun kv acc => (hsz (fst kv) (snd kv) + acc)%Z) 0%Z l.
Definition psize (present : bool) (k v : bytes) : Z := if present then hsz k v else 0%Z.
Definition auth_of (r : request) : bytes := match rq_authority r with Some a => a | None => [] end.

(* the header list a stream has decoded so far: its regular fields (trailers included) and the pseudo-headers seen *)
Definition hdr_list_size (h : hdr) : Z :=
  (fields_size (rq_fields (hd_req h)) + psize (hd_pMethod h) S_method (rq_method (hd_req h)) +
   psize (hd_pPath h) S_path (rq_uri (hd_req h)) + psize (hd_pScheme h) S_scheme (rq_scheme (hd_req h)) +
   psize (hd_pAuth h) S_authority (auth_of (hd_req h)))%Z.

(* the header list of a complete request, from the request alone *)
Definition req_list_size (r : request) : Z :=
  (fields_size (rq_fields r) + hsz S_method (rq_method r) + hsz S_path (rq_uri r) + hsz S_scheme (rq_scheme r) +
   match rq_authority r with Some a => hsz S_authority a | None => 0 end)%Z.

Lemma fields_size_app l k v : fields_size (l ++ [(k, v)]) = (fields_size l + hsz k v)%Z.
Proof. unfold fields_size. induction l as [|x l IH]; cbn [app fold_right fst snd]; [lia|]. rewrite IH. lia. Qed.

Lemma bytes_eqb_true a : forall b, bytes_eqb a b = true -> a = b.
Proof.
  induction a as [|x a IH]; intros [|y b]; cbn [bytes_eqb]; try discriminate; [reflexivity|].
  intro H. apply andb_prop in H. destruct H as [H1 H2]. f_equal; [lia | auto].
Qed.

Section SOK.
Variable hstate : Type.
Variable dec_field : hstate -> N -> bytes -> dec_res hstate.
Variable cfg : config.
Notation L := (cf_maxHeaderList cfg).

(* the part about the header list, without the carried-over bytes *)
Record HK0 (h : hdr) : Prop := mkHK0 {
  hk_size : hd_headerListSize h = hdr_list_size h;
  hk_lim : (0 < L -> hd_headerListSize h <= L)%Z;
  hk_auth : hd_pAuth h = match rq_authority (hd_req h) with Some _ => true | None => false end
}.

Record SOK (s : stream) : Prop := mkSOK {
  so_hdr : HK0 (get_hdr s);
  so_prev : (0 < L -> Z.of_N (len (st_prev s)) <= L)%Z;
  so_body : (Z.of_N (len (rq_body (st_req s))) <= st_recvBody s)%Z;
  so_body_lim : (0 < cf_maxBody cfg -> Z.of_N (len (rq_body (st_req s))) <= cf_maxBody cfg)%Z;
  so_flags : st_state s <> SClosed -> st_headersFinished s = true ->
             st_pMethod s = true /\ st_pScheme s = true /\ st_pPath s = true
}.

Ltac hk_simpl :=
  unfold hdr_list_size, auth_of in *;
  cbn [hd_req hd_pMethod hd_pPath hd_pScheme hd_pAuth hd_headerListSize hd_prev hd_headersFinished
       rq_fields rq_method rq_uri rq_scheme rq_authority rq_body
       rq_set_method rq_set_uri rq_set_scheme rq_set_authority rq_add_field auth_of psize] in *.

Lemma header_field_ok h k v h' : HK0 h -> header_field cfg h k v = inr h' ->
  HK0 h' /\ hd_prev h' = hd_prev h /\ hd_headersFinished h' = hd_headersFinished h /\
  rq_body (hd_req h') = rq_body (hd_req h).
Proof.
  intros [Hs Hl Ha]. unfold header_field.
  set (size := (hd_headerListSize h + Z.of_N (len k) + Z.of_N (len v) + 32)%Z).
  assert (SZ : size = (hd_headerListSize h + hsz k v)%Z) by (unfold size, hsz; lia).
  destruct ((0 <? L) && (L <? size))%Z eqn:Lim; [discriminate|].
  pose proof (limit_check_false _ _ Lim) as HL.
  clearbody size. clear Lim.
  destruct (has_upper_case k); [discriminate|].
  destruct (is_pseudo k).
  - cbn [hd_regularSeen]. destruct (hd_regularSeen h); [discriminate|].
    destruct (bytes_eqb k S_method) eqn:E1.
    { apply bytes_eqb_true in E1. subst k. cbn [hd_pMethod]. destruct (hd_pMethod h) eqn:P; [discriminate|].
      intro H; inversion H; subst h'; clear H. split; [|repeat split]. constructor; hk_simpl; try assumption.
      rewrite P in Hs. hk_simpl. lia. }
    destruct (bytes_eqb k S_path) eqn:E2.
    { apply bytes_eqb_true in E2. subst k. cbn [hd_pPath]. destruct (hd_pPath h) eqn:P; [discriminate|].
      intro H; inversion H; subst h'; clear H. split; [|repeat split]. constructor; hk_simpl; try assumption.
      rewrite P in Hs. hk_simpl. lia. }
    destruct (bytes_eqb k S_scheme) eqn:E3.
    { apply bytes_eqb_true in E3. subst k. cbn [hd_pScheme]. destruct (hd_pScheme h) eqn:P; [discriminate|].
      intro H; inversion H; subst h'; clear H. split; [|repeat split]. constructor; hk_simpl; try assumption.
      rewrite P in Hs. hk_simpl. lia. }
    destruct (bytes_eqb k S_authority) eqn:E4; [|discriminate].
    { apply bytes_eqb_true in E4. subst k. cbn [hd_pAuth]. destruct (hd_pAuth h) eqn:P; [discriminate|].
      intro H; inversion H; subst h'; clear H. split; [|repeat split]. constructor; hk_simpl; try reflexivity; try assumption.
      rewrite P in Hs. hk_simpl. lia. }
  - destruct (is_connection_specific k); [discriminate|]. destruct (_ && _)%bool; [discriminate|].
    match goal with |- match ?cl with inl _ => _ | inr _ => _ end = _ -> _ => destruct cl as [e|[n hascl]] end; [discriminate|].
    intro H; inversion H; subst h'; clear H. split; [|repeat split]. constructor; hk_simpl; try assumption.
    rewrite fields_size_app. lia.
Qed.

Lemma header_loop_ok fuel : forall eh d h b d' h' e rest,
  HK0 h -> hd_prev h = [] -> hd_headersFinished h = false ->
  header_loop dec_field fuel cfg eh d h b = (d', h', e, rest) ->
  HK0 h' /\ hd_headersFinished h' = false /\ rq_body (hd_req h') = rq_body (hd_req h) /\
  (e <> None -> hd_prev h' = []).
Proof.
  induction fuel as [|fuel IH]; intros eh d h b d' h' e rest HK HP HF; cbn [header_loop].
  - intro H; inversion H; subst. auto.
  - destruct b as [|b0 b]; [intro H; inversion H; subst; auto|].
    destruct (dec_field d (hd_blockFields h) (b0 :: b)) as [k v rest0 st|st|st|st|] eqn:D.
    + destruct (header_field cfg h k v) as [er|h1] eqn:HFd.
      * intro H; inversion H; subst. auto.
      * destruct (header_field_ok _ _ _ _ HK HFd) as (K1 & P1 & F1 & B1). intro H.
        destruct (IH _ _ _ _ _ _ _ _ K1 (eq_trans P1 HP) (eq_trans F1 HF) H) as (K2 & F2 & B2 & P2).
        split; [exact K2|]. split; [exact F2|]. split; [congruence | exact P2].
    + intro H; inversion H; subst. auto.
    + destruct (negb eh).
      * intro H; inversion H; subst. split; [destruct HK; constructor; assumption|]. split; [assumption|]. split; [reflexivity|]. intro N. congruence.
      * intro H; inversion H; subst. auto.
    + intro H; inversion H; subst. auto.
    + intro H; inversion H; subst. auto.
Qed.

Lemma get_hdr_set_hdr s h : get_hdr (set_hdr s h) = h.
Proof. destruct h. reflexivity. Qed.

(* what a stream error leaves behind is closed: only the header and body facts matter *)
Lemma SOK_closed_of s x :
  HK0 (get_hdr x) -> st_prev x = [] \/ st_prev x = st_prev s -> st_req x = st_req s \/ rq_body (st_req x) = rq_body (st_req s) ->
  (st_recvBody s <= st_recvBody x)%Z -> SOK s -> st_state x = SClosed -> SOK x.
Proof.
  intros HK HP HR HV [K P B BL FL] HC. constructor.
  - assumption.
  - destruct HP as [-> | ->]; [cbn; lia | assumption].
  - destruct HR as [-> | ->]; lia.
  - destruct HR as [-> | ->]; assumption.
  - congruence.
Qed.

Lemma handle_header_frame_ok (c : sconn hstate) s fr c1 s1 e : SOK s ->
  handle_header_frame dec_field cfg c s fr = (c1, s1, e) ->
  (forall code, e <> Some (EGoAway code)) ->
  HK0 (get_hdr s1) /\ st_headersFinished s1 = false /\ rq_body (st_req s1) = rq_body (st_req s) /\
  st_recvBody s1 = st_recvBody s /\ st_state s1 = st_state s /\
  (e = None -> (0 < L -> Z.of_N (len (st_prev s1)) <= L)%Z) /\ (e <> None -> st_prev s1 = []).
Proof.
  intros [K P B BL FL] H NG. unfold handle_header_frame in H.
  destruct (_ && _)%bool; [inversion H; subst; exfalso; eapply NG; reflexivity|].
  destruct (_ && _)%bool; [inversion H; subst; exfalso; eapply NG; reflexivity|].
  set (h0 := get_hdr s) in *.
  match type of H with context [header_loop dec_field ?f cfg ?eh ?d ?h1 ?b] =>
    destruct (header_loop dec_field f cfg eh d h1 b) as [[[d' h2] e2] rest] eqn:HL;
    assert (K1 : HK0 h1) by (destruct K; constructor; assumption);
    destruct (header_loop_ok _ _ _ _ _ _ _ _ _ K1 eq_refl eq_refl HL) as (K2 & F2 & B2 & P2)
  end.
  cbn [hd_req] in B2.
  assert (COMMON : forall (cc : sconn hstate) ee, (cc, set_hdr s h2, ee) = (c1, s1, e) ->
            HK0 (get_hdr s1) /\ st_headersFinished s1 = false /\ rq_body (st_req s1) = rq_body (st_req s) /\
            st_recvBody s1 = st_recvBody s /\ st_state s1 = st_state s).
  { intros cc ee E. inversion E; subst. rewrite get_hdr_set_hdr. split; [exact K2|]. split; [exact F2|].
    split; [exact B2|]. split; reflexivity. }
  assert (FIN : forall (cc : sconn hstate) ee, ee <> None -> e2 <> None -> (cc, set_hdr s h2, ee) = (c1, s1, e) ->
            HK0 (get_hdr s1) /\ st_headersFinished s1 = false /\ rq_body (st_req s1) = rq_body (st_req s) /\
            st_recvBody s1 = st_recvBody s /\ st_state s1 = st_state s /\
            (e = None -> (0 < L -> Z.of_N (len (st_prev s1)) <= L)%Z) /\ (e <> None -> st_prev s1 = [])).
  { intros cc ee NE NE2 E. destruct (COMMON _ _ E) as (A1 & A2 & A3 & A4 & A5). inversion E; subst.
    split; [exact A1|]. split; [exact A2|]. split; [exact A3|]. split; [exact A4|]. split; [exact A5|].
    split; [intro; contradiction | intros _; exact (P2 NE2)]. }
  destruct e2 as [[code|code|]|].
  - inversion H; subst. exfalso. eapply NG. reflexivity.
  - match type of H with context [discard_fragment ?a ?b ?c0 ?d ?e ?f] => destruct (discard_fragment a b c0 d e f) as [c3 [de|]] end;
      (eapply FIN; [| |exact H]; discriminate).
  - eapply FIN; [| |exact H]; discriminate.
  - destruct ((0 <? L) && (L <? Z.of_N (len (hd_prev h2))))%Z eqn:Lim.
    + inversion H; subst. exfalso. eapply NG. reflexivity.
    + destruct (COMMON _ _ H) as (A1 & A2 & A3 & A4 & A5). inversion H; subst.
      split; [exact A1|]. split; [exact A2|]. split; [exact A3|]. split; [exact A4|]. split; [exact A5|].
      split; [|intro N; contradiction].
      intros _. exact (limit_check_false _ _ Lim).
Qed.

Lemma SOK_get_hdr_eq s x : get_hdr x = get_hdr s -> st_recvBody x = st_recvBody s -> st_state x = st_state s \/ st_state x = SClosed ->
  SOK s -> SOK x.
Proof.
  intros E ER ES [K P B BL FL].
  assert (E1 : st_prev x = st_prev s) by (apply (f_equal hd_prev) in E; exact E).
  assert (E2 : st_req x = st_req s) by (apply (f_equal hd_req) in E; exact E).
  assert (E3 : st_headersFinished x = st_headersFinished s) by (apply (f_equal hd_headersFinished) in E; exact E).
  assert (E4 : st_pMethod x = st_pMethod s) by (apply (f_equal hd_pMethod) in E; exact E).
  assert (E5 : st_pScheme x = st_pScheme s) by (apply (f_equal hd_pScheme) in E; exact E).
  assert (E6 : st_pPath x = st_pPath s) by (apply (f_equal hd_pPath) in E; exact E).
  constructor; rewrite ?E, ?E1, ?E2, ?ER, ?E3, ?E4, ?E5, ?E6; try assumption.
  destruct ES as [-> | ->]; [assumption | congruence].
Qed.

Lemma SOK_new id w k t : SOK (set_orig_started (new_stream id w) k t).
Proof.
  constructor; cbn; try lia; try discriminate.
  constructor; cbn; [reflexivity | lia | reflexivity].
Qed.
Lemma SOK_set_state_closed s : SOK s -> SOK (set_state s SClosed).
Proof. apply SOK_get_hdr_eq; auto. Qed.
Lemma SOK_set_weReset s : SOK s -> SOK (set_weReset s).
Proof. apply SOK_get_hdr_eq; auto. Qed.
Lemma SOK_set_flags s a b d : SOK s -> SOK (set_flags s a b d).
Proof. apply SOK_get_hdr_eq; auto. Qed.
Lemma SOK_set_window s w : SOK s -> SOK (set_window s w).
Proof. apply SOK_get_hdr_eq; auto. Qed.
Lemma SOK_set_snd s n : SOK s -> SOK (set_snd s n).
Proof. apply SOK_get_hdr_eq; auto. Qed.

Lemma SOK_handle_state fr s : SOK s -> SOK (handle_state fr s).
Proof.
  intro H. unfold handle_state.
  assert (H0 : SOK (if fkind_eqb (sf_kind fr) KRst then set_state s SClosed else s))
    by (destruct (fkind_eqb (sf_kind fr) KRst); auto using SOK_set_state_closed).
  set (s0 := if fkind_eqb (sf_kind fr) KRst then set_state s SClosed else s) in *. clearbody s0.
  (* any change of state that does not leave SClosed keeps the invariant *)
  assert (ST : forall st, st_state s0 <> SClosed -> SOK (set_state s0 st)).
  { intros st NC. destruct H0 as [K P B BL FL]. constructor; try assumption. intros _. apply FL. assumption. }
  destruct (st_state s0) eqn:E; repeat match goal with |- context [if ?b then _ else _] => destruct b end;
    try assumption; try (apply ST; congruence); auto using SOK_set_state_closed.
Qed.

Lemma SOK_frame (c : sconn hstate) s fr c' s' e : SOK s -> handle_frame dec_field cfg c s fr = (c', s', e) ->
  match e with
  | None => SOK s'
  | Some (EReset _) => SOK (set_state (set_weReset s') SClosed)
  | _ => True
  end.
Proof.
  intros HS H. unfold handle_frame in H.
  destruct (verify_state s fr) as [ve|] eqn:V.
  { assert (G : exists code, ve = EGoAway code).
    { unfold verify_state in V.
      destruct (st_state s); try discriminate; repeat match type of V with (if ?b then _ else _) = _ => destruct b end;
        inversion V; subst; eauto. }
    destruct G as (code & ->). inversion H; subst. exact I. }
  assert (SAME : forall ee, (c, s, ee) = (c', s', e) ->
            match e with None => SOK s' | Some (EReset _) => SOK (set_state (set_weReset s') SClosed) | _ => True end).
  { intros ee E. inversion E; subst. destruct e as [[| |]|]; auto using SOK_set_state_closed, SOK_set_weReset. }
  assert (HDRS : (if (3 <=? sstate_rank (st_state s)) && negb (continuing_headers s fr)
     then (c, s, Some (EGoAway c_ProtocolError))
     else
      let '(c1, s1, e) := handle_header_frame dec_field cfg c s fr in
      match e with
      | Some e0 => (c1, s1, Some e0)
      | None =>
          if flag_has (sf_flags fr) FL_EH
          then
           let fin := match st_prev s1 with [] => true | _ :: _ => false end in
           let s2 := set_headers_finished s1 fin in
           if negb fin
           then (c1, s2, Some (EGoAway c_ProtocolError))
           else match validate_request_pseudo_headers s2 with
                | Some e0 => (c1, s2, Some e0)
                | None => (c1, s2, None)
                end
          else (c1, s1, None)
      end) = (c', s', e) ->
      match e with None => SOK s' | Some (EReset _) => SOK (set_state (set_weReset s') SClosed) | _ => True end).
  { clear H. intro H. destruct (_ && _)%bool; [inversion H; subst; exact I|].
    destruct (handle_header_frame dec_field cfg c s fr) as [[c1 s1] e1] eqn:HH.
    assert (OK1 := fun NG => handle_header_frame_ok c s fr c1 s1 e1 HS HH NG).
    destruct e1 as [e1|].
    - inversion H; subst. destruct e1 as [code|code|]; try exact I.
      destruct OK1 as (A1 & A2 & A3 & A4 & A5 & A6 & A7); [intros; discriminate|].
      destruct HS as [K P B BL FL]. constructor; cbn; try assumption.
      + rewrite A7 by discriminate. cbn. lia.
      + rewrite A3, A4. assumption.
      + rewrite A3. assumption.
      + congruence.
    - destruct OK1 as (A1 & A2 & A3 & A4 & A5 & A6 & A7); [intros; discriminate|].
      assert (S1 : SOK s1).
      { destruct HS as [K P B BL FL]. constructor; try assumption; try (rewrite ?A3, ?A4; assumption); [auto | congruence]. }
      destruct (flag_has (sf_flags fr) FL_EH); [|inversion H; subst; exact S1].
      cbv zeta in H. destruct (st_prev s1) eqn:PV; cbn [negb] in H; [|inversion H; subst; exact I].
      set (s2 := set_headers_finished s1 true) in *.
      assert (G2 : get_hdr s2 = let h := get_hdr s1 in mkHdr true (hd_prev h) (hd_pMethod h) (hd_pScheme h) (hd_pPath h) (hd_pAuth h)
                     (hd_regularSeen h) (hd_contentLength h) (hd_hasCL h) (hd_headerListSize h) (hd_blockFields h) (hd_path h) (hd_req h))
        by reflexivity.
      assert (S2c : SOK (set_state (set_weReset s2) SClosed)).
      { destruct S1 as [K P B BL FL]. constructor; cbn; try assumption; [|congruence].
        destruct K as [K1 K2 K3]. constructor; assumption. }
      unfold validate_request_pseudo_headers in H.
      destruct (negb (st_pMethod s2) || negb (st_pScheme s2) || negb (st_pPath s2))%bool eqn:FLG.
      + inversion H; subst. exact S2c.
      + destruct (st_path s2); inversion H; subst; [exact S2c|].
        destruct S1 as [K P B BL FL]. constructor; cbn; try assumption.
        * destruct K as [K1 K2 K3]. constructor; assumption.
        * intros _ _. cbn in FLG. destruct (st_pMethod s1), (st_pScheme s1), (st_pPath s1); try discriminate; auto. }
  destruct (sf_kind fr) eqn:KD; try (inversion H; subst; exact I); try (apply HDRS; exact H).
  - (* DATA *)
    destruct (negb _); [inversion H; subst; exact I|]. destruct (3 <=? _); [inversion H; subst; exact I|].
    destruct HS as [K P B BL FL].
    assert (PL : (0 <= Z.of_N (len (sf_payload fr)))%Z) by lia.
    destruct ((0 <? cf_maxBody cfg) && (cf_maxBody cfg <? st_recvBody s + Z.of_N (len (sf_payload fr))))%Z eqn:Lim.
    + inversion H; subst. constructor; cbn; try assumption; [lia | congruence].
    + inversion H; subst. constructor; cbn; try assumption.
      * destruct K as [K1 K2 K3]. constructor; assumption.
      * unfold len in *. rewrite app_length. lia.
      * intro HB. unfold len in *. rewrite app_length. apply andb_false_iff in Lim. destruct Lim; lia.
  - destruct (_ && _)%bool; [apply (SAME _ H)|]. destruct (_ =? _); apply (SAME _ H).
  - destruct (sstate_eqb _ _); apply (SAME _ H).
  - destruct (sstate_eqb _ _); [apply (SAME _ H)|]. destruct (_ =? _); [apply (SAME _ H)|].
    destruct (_ <? _)%Z; inversion H; subst; auto using SOK_set_state_closed, SOK_set_weReset, SOK_set_window.
Qed.

Theorem SOK_closed : Qclosed hstate dec_field cfg SOK.
Proof.
  constructor.
  - apply SOK_new.
  - apply SOK_set_state_closed.
  - apply SOK_handle_state.
  - apply SOK_set_weReset.
  - apply SOK_set_flags.
  - apply SOK_set_window.
  - apply SOK_set_snd.
  - apply SOK_frame.
Qed.

End SOK.
