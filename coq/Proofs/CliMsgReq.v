(* Proofs/CliMsgReq.v - C02 (b): the HEADERS frames of a run, against the requests the callers gave.

   enc_chain e0 l e   the encoder, started in state e0, has produced the header blocks of the list l = [(rq1, blk1); ...]
                      in this order - each one cl_request_block applied to the request: :authority, :method, :path,
                      :scheme, user-agent (stored in the table), then every other field, name in lower case, except
                      user-agent and the connection-specific ones (not stored) - with SetMaxTableSize calls in between,
                      and is now in state e.
   ReqInv             the HEADERS frames written so far are exactly those blocks, each on the stream its request's Ctx
                      carries, END_STREAM set iff the request has no body; while the write loop lives the encoder is at
                      the end of the chain (every block produced has been written). *)
From H2V Require Import Base.Bytes Base.MachineInt Gen.GenConsts Impl.ServerConn Impl.ClientConn
  Spec.Http2Messages Spec.Http2Responses Proofs.CliBase Proofs.SrvIsoRef Proofs.CliMsgRef Proofs.CliMsgAuto Proofs.CliMsgMoves
  Proofs.CliMsgDisp Proofs.CliMsgStep Proofs.CliMsgInv Proofs.CliMsgFeed Proofs.CliMsgIds.
From Coq Require Import ZArith Lia ZifyN ZifyNat ZifyBool List.
Import ListNotations.
Local Open Scope N_scope.

(* encoder operations: inl n = SetMaxTableSize(n); inr = a header block (eop), with its stream and Ctx (rop) *)
Notation eop := (N + crequest * bytes)%type.
Notation rop := (N + (N * N * crequest * bytes))%type.

Section Req.
Context {hstate : Type}.
Variable dec_field : hstate -> N -> bytes -> dec_res hstate.
Variable enc_field : hstate -> bytes -> bytes -> bool -> bytes * hstate.
Variable enc_set_max : hstate -> N -> hstate.
Variable cfg : cl_config.
Implicit Types c : cconn hstate.

(* The micro-moves are those of the model run with an encoder whose SetMaxTableSize does nothing (smid): a step of the
   real model is a step of that model, preceded - when the write loop takes a request in and the table size the server
   asked for is not the one the encoder has seen - by the one SetMaxTableSize call of writeRequest (step_split). That
   way the size applied is known to be the cc_encTableSize of the state the step starts in. *)
Notation smid := (fun (e : hstate) (_ : N) => e).
Notation step := (cl_step dec_field enc_field enc_set_max cfg).
Notation stepi := (cl_step dec_field enc_field smid cfg).
Notation mvs := (mvs dec_field enc_field smid).
Notation mv1 := (mv1 enc_field smid).
Notation feedmove := (feedmove dec_field).

(* a Ctx keeps its request, and its stream once it has one *)
Definition srk c c' : Prop :=
  forall t x, cl_ctx_get c t = Some x ->
    exists x', cl_ctx_get c' t = Some x' /\ ct_req x' = ct_req x /\ (ct_sid x <> 0 -> ct_sid x' = ct_sid x).

Lemma srk_refl c : srk c c. Proof. intros t x G. exists x. auto. Qed.
Lemma srk_same c c' : cc_ctxs c' = cc_ctxs c -> srk c c'.
Proof. intros E t x G. exists x. unfold cl_ctx_get in *. rewrite E. auto. Qed.
Lemma srk_trans a b c : srk a b -> srk b c -> srk a c.
Proof.
  intros H1 H2 t x G. destruct (H1 t x G) as (y & Gy & Ry & Sy). destruct (H2 t y Gy) as (z & Gz & Rz & Sz).
  exists z. split; [exact Gz|]. split; [congruence|]. intro N0. rewrite Sz; [exact (Sy N0) | rewrite (Sy N0); exact N0].
Qed.

Lemma srk_ctxs_q c c' : ctxs_q c c' -> srk c c'.
Proof.
  intros Q t x G. destruct (ctxs_q_get_rev _ _ _ _ Q G) as (x' & G' & QX). destruct (ctx_q_view _ _ QX) as (V1 & _ & _ & V4).
  exists x'. repeat split; auto.
Qed.
Lemma srk_qm P c c' : qm P c c' -> srk c c'.
Proof. intro Q. apply srk_ctxs_q. exact (qm_ctx _ _ _ Q). Qed.

(* one Ctx replaced by a version of itself *)
Lemma srk_put c x x2 : cl_ctx_get c (ct_tag x2) = Some x -> ct_req x2 = ct_req x -> (ct_sid x <> 0 -> ct_sid x2 = ct_sid x) -> srk c (cl_ctx_put c x2).
Proof.
  intros G R S t y Gy. rewrite cl_ctx_get_put. destruct (t =? ct_tag x2) eqn:E.
  - replace t with (ct_tag x2) in * by lia. rewrite G in Gy. inversion Gy; subst y. rewrite G. exists x2. auto.
  - exists y. auto.
Qed.

Lemma srk_ctx_upd c tag f : (forall x, ct_tag (f x) = ct_tag x /\ ct_req (f x) = ct_req x /\ ct_sid (f x) = ct_sid x) -> srk c (cl_ctx_upd c tag f).
Proof.
  intro F. unfold cl_ctx_upd. destruct (cl_ctx_get c tag) as [x|] eqn:G; [|apply srk_refl].
  destruct (F x) as (T & R & S). apply (srk_put c x (f x)); [|exact R | intros _; exact S].
  rewrite T. destruct (cl_ctxs_get_In _ _ _ G) as [_ E]. rewrite E. exact G.
Qed.

Lemma srk_finish c tag id e : srk c (cl_finish c tag id e).
Proof.
  unfold cl_finish. eapply srk_trans; [|apply srk_ctx_upd].
  - apply (srk_qm q2). eapply qm_trans; [apply qm_take_req_count|].
    destruct (cl_pend_get _ id); [|apply qm_refl]. eapply qm_trans; [apply qm_pending | apply qm_close_body].
  - intro x. rewrite ct_tag_cl_ctx_resolve. rewrite cl_ctx_resolve_eq.
    destruct (negb (ct_resolved (ctu_finished x true)) && match ct_err (ctu_finished x true) with None => true | Some _ => false end); repeat split.
Qed.

(* a frame through dispatch *)
Lemma disp_feed_sr c fr ok :
  match disp_feed dec_field c fr ok with
  | (c2, ok2, ended, err2) =>
    match ok, ok2 with Some x, Some x2 => ct_req x2 = ct_req x /\ ct_sid x2 = ct_sid x | _, _ => True end
  end.
Proof.
  unfold disp_feed.
  destruct (cl_read_stream dec_field c fr (match ok with Some x => Some (ct_resp x) | None => None end)) as [[[c1 res'] ended] err].
  destruct ok as [x|], res' as [r|], err; cbn [ct_gotStatus ctu_resp ctu_gotStatus];
    repeat match goal with |- context [if ?b then _ else _] => destruct b end; cbn; auto.
Qed.

Lemma srk_tail c2 id ok2 ended err2 :
  (forall e, err2 = CRSConn e -> err_special e = false) -> srk c2 (rl_after (disp_tail c2 id ok2 ended err2)).
Proof.
  intro HC. unfold disp_tail. destruct err2 as [|e|e|].
  - rewrite rl_after_ga. eapply srk_trans; [|apply (srk_qm q2), after_ga_qm].
    destruct ok2 as [x2|]; [destruct ended; [apply srk_finish | apply srk_refl] | apply srk_refl].
  - rewrite rl_after_ga. eapply srk_trans; [|apply (srk_qm q2), after_ga_qm]. destruct ok2; [apply srk_finish | apply srk_refl].
  - cbn [rl_after]. eapply srk_trans; [|apply (srk_qm q2), qm_rl_exit].
    eapply srk_trans; [apply (srk_qm q2), qm_set_last_err, HC; reflexivity|]. destruct ok2; [apply srk_finish | apply srk_refl].
  - cbn [rl_after]. apply (srk_qm q2), qm_rl_panic.
Qed.

Lemma srk_feedmove c fr c3 : herr_ok c -> feedmove fr c c3 -> srk c c3.
Proof.
  intros HE F. pose proof F as (_ & S0 & _).
  destruct (feedmove_cases dec_field c fr c3 HE F) as (ok & c1 & res' & ended & err & ok2 & err2 & _ & DFE & -> & F1 & _ & _ & HC & _ & CS).
  pose proof (disp_feed_sr c fr ok) as SR. rewrite DFE in SR.
  assert (S1 : srk c c1).
  { intros t x G. pose proof (fm_ctx _ _ _ (F1 None) t ltac:(discriminate)) as CX. rewrite G in CX.
    destruct (cl_ctx_get c1 t) as [x1|]; [|contradiction]. destruct (ctx_q_view _ _ CX) as (V1 & _ & _ & V4). exists x1. repeat split; auto. }
  eapply srk_trans; [exact S1|]. eapply srk_trans; [|apply srk_tail, HC].
  destruct ok as [x|], ok2 as [x2|]; try contradiction; [|apply srk_refl].
  destruct CS as (G & SX & LK & _). destruct SR as [R2 S2].
  destruct (S1 _ _ G) as (x1 & G1 & R1 & SS1).
  apply (srk_put c1 x1 x2); [rewrite LK; exact G1 | congruence | intros _; rewrite S2; symmetry; apply SS1; lia].
Qed.

Inductive enc_chain (e0 : hstate) : list (crequest * bytes) -> hstate -> Prop :=
| ec_nil : enc_chain e0 [] e0
| ec_size l e n : enc_chain e0 l e -> enc_chain e0 l (enc_set_max e n)
| ec_req l e rq blk e' : enc_chain e0 l e -> cl_request_block enc_field e rq = (blk, e') -> enc_chain e0 (l ++ [(rq, blk)]) e'.

(* ... with the SetMaxTableSize calls: inl n = SetMaxTableSize(n), inr (rq, blk) = the block blk encoded for rq *)
Inductive enc_chain_s (e0 : hstate) : list eop -> hstate -> Prop :=
| ecs_nil : enc_chain_s e0 [] e0
| ecs_size l e n : enc_chain_s e0 l e -> enc_chain_s e0 (l ++ [inl n]) (enc_set_max e n)
| ecs_req l e rq blk e' : enc_chain_s e0 l e -> cl_request_block enc_field e rq = (blk, e') -> enc_chain_s e0 (l ++ [inr (rq, blk)]) e'.

Definition rights_of {A B} (l : list (A + B)) : list B := flat_map (fun o => match o with inr b => [b] | inl _ => [] end) l.
Definition sizes_of {A B} (l : list (A + B)) : list A := flat_map (fun o => match o with inl n => [n] | inr _ => [] end) l.

Lemma rights_of_app {A B} (a b : list (A + B)) : rights_of (a ++ b) = rights_of a ++ rights_of b.
Proof. apply flat_map_app. Qed.
Lemma sizes_of_app {A B} (a b : list (A + B)) : sizes_of (a ++ b) = sizes_of a ++ sizes_of b.
Proof. apply flat_map_app. Qed.

Lemma enc_chain_s_forget e0 l e : enc_chain_s e0 l e -> enc_chain e0 (rights_of l) e.
Proof.
  induction 1 as [|l e n H IH|l e rq blk e' H IH RB]; [apply ec_nil | |]; rewrite rights_of_app; cbn [rights_of flat_map app].
  - rewrite app_nil_r. apply ec_size, IH.
  - eapply ec_req; [exact IH | exact RB].
Qed.

Definition hdrs_of (tr : list coutev) : list (N * bool * bytes) :=
  flat_map (fun o => match o with COHeaders sid es b => [(sid, es, b)] | _ => [] end) tr.

Lemma hdrs_of_app a b : hdrs_of (a ++ b) = hdrs_of a ++ hdrs_of b.
Proof. apply flat_map_app. Qed.

Lemma hdrs_of_q1 l : forallb q1 l = true -> hdrs_of (rev l) = [].
Proof.
  intro F. rewrite forallb_forall in F. apply flat_map_nil. intros o H. apply in_rev in H.
  pose proof (F o H) as Q. destruct o; try reflexivity. discriminate.
Qed.

(* entries: stream, tag, request, block *)
Definition rentry : Type := (N * N * crequest * bytes)%type.
Definition re_hdr (r : rentry) : N * bool * bytes := let '(id, tag, rq, blk) := r in (id, negb (rq_has_body rq), blk).
Definition re_rb (r : rentry) : crequest * bytes := let '(id, tag, rq, blk) := r in (rq, blk).
(* what the encoder did, with the stream and the Ctx of each block *)
Definition rop_eop (o : rop) : eop := match o with inl n => inl n | inr r => inr (re_rb r) end.

Lemma rights_of_rop l : rights_of (map rop_eop l) = map re_rb (rights_of l).
Proof. induction l as [|[n|r] l IH]; [reflexivity | exact IH|]. cbn [map rop_eop rights_of flat_map app]. f_equal. exact IH. Qed.
Lemma sizes_of_rop l : sizes_of (map rop_eop l) = sizes_of l.
Proof. induction l as [|[n|r] l IH]; [reflexivity | | exact IH]. cbn [map rop_eop sizes_of flat_map app]. f_equal. exact IH. Qed.

Definition ReqInv (e0 : hstate) c : Prop :=
  exists l : list rentry,
    hdrs_of (rev (cc_out c)) = map re_hdr l /\
    (forall id tag rq blk, In (id, tag, rq, blk) l -> id <> 0 /\ exists x, cl_ctx_get c tag = Some x /\ ct_sid x = id /\ ct_req x = rq) /\
    exists e, enc_chain e0 (map re_rb l) e /\ (cl_wl_live c = true -> e = cc_enc c).

(* the same with the sizes: every size applied satisfies Psz *)
Definition ReqInvS (Psz : N -> Prop) (e0 : hstate) c : Prop :=
  exists ops : list rop,
    hdrs_of (rev (cc_out c)) = map re_hdr (rights_of ops) /\
    (forall id tag rq blk, In (id, tag, rq, blk) (rights_of ops) ->
       id <> 0 /\ exists x, cl_ctx_get c tag = Some x /\ ct_sid x = id /\ ct_req x = rq) /\
    Forall Psz (sizes_of ops) /\
    exists e, enc_chain_s e0 (map rop_eop ops) e /\ (cl_wl_live c = true -> e = cc_enc c).

Lemma ReqInvS_ReqInv Psz e0 c : ReqInvS Psz e0 c -> ReqInv e0 c.
Proof.
  intros (ops & H1 & H2 & _ & e & H3 & H4). exists (rights_of ops). split; [exact H1|]. split; [exact H2|].
  exists e. split; [|exact H4]. rewrite <- rights_of_rop. apply enc_chain_s_forget, H3.
Qed.

Section WithP.
Variable Psz : N -> Prop.
Notation ReqInvS := (ReqInvS Psz).

Lemma ReqInv_keep e0 c c' :
  srk c c' -> (exists new, cc_out c' = new ++ cc_out c /\ hdrs_of (rev new) = []) -> cc_enc c' = cc_enc c ->
  (cl_wl_live c' = true -> cl_wl_live c = true) -> ReqInvS e0 c -> ReqInvS e0 c'.
Proof.
  intros SR (new & EO & FO) EN WL (l & H1 & H2 & HP & e & H3 & H4). exists l. split; [|split; [|split]].
  - rewrite EO, rev_app_distr, hdrs_of_app, H1, FO, app_nil_r. reflexivity.
  - intros id tag rq blk I. destruct (H2 id tag rq blk I) as (N0 & x & G & S & R). split; [exact N0|].
    destruct (SR tag x G) as (x' & G' & R' & S'). exists x'. split; [exact G'|]. split; [rewrite S'; [exact S | rewrite S; exact N0] | congruence].
  - exact HP.
  - exists e. split; [exact H3|]. intro L. rewrite EN. exact (H4 (WL L)).
Qed.

Lemma ReqInv_mv1 e0 c c' : Pre c -> IdInv c -> ReqInvS e0 c -> mv1 c c' -> ReqInvS e0 c'.
Proof.
  intros P II RI M. destruct M as [c c' Q|c tag rq armed G|c tag x G S0 NI|c|c tag x G S0 NI LE L|c tag x c' G S0 NI LE Q L F|c tag x e G E].
  - apply (ReqInv_keep e0 c c'); [exact (srk_qm _ _ _ Q) | | exact (qm_enc _ _ _ Q) | exact (qm_wl _ _ _ Q) | exact RI].
    destruct (qm_out _ _ _ Q) as (new & EO & FO). exists new. split; [exact EO | exact (hdrs_of_q1 _ FO)].
  - apply (ReqInv_keep e0 c); try reflexivity; [|exists []; split; reflexivity | auto | exact RI].
    intros t y Gy. exists y. split; [|auto]. unfold cl_ctx_get in *. cbn. rewrite cl_ctxs_get_app, Gy. reflexivity.
  - apply (ReqInv_keep e0 c); try reflexivity; [apply srk_same; reflexivity | exists []; split; reflexivity | auto | exact RI].
  - (* the size move of the model whose SetMaxTableSize does nothing: the encoder stays *)
    apply (ReqInv_keep e0 c); try reflexivity; [apply srk_same; reflexivity | exists []; split; reflexivity | auto | exact RI].
  - (* the request goes out *)
    destruct (reg_state_facts enc_field c tag x G LE) as (E1 & E2 & E3 & _ & _ & _ & _ & E8). unfold reg_state in *.
    change (cc_enc (ccu_nextID c (u32 (cc_nextID c + 2)))) with (cc_enc c) in *.
    destruct (cl_request_block enc_field (cc_enc c) (ct_req x)) as [blk e'] eqn:RB. cbn [fst] in *.
    destruct RI as (l & H1 & H2 & HP & e & H3 & H4). specialize (H4 L). subst e.
    destruct II as (k & _ & NXT & _). specialize (NXT L).
    exists (l ++ [inr (cc_nextID c, tag, ct_req x, blk)]). rewrite rights_of_app, sizes_of_app. cbn [rights_of sizes_of flat_map app]. rewrite app_nil_r.
    split; [|split; [|split]].
    + cbn [cl_note cc_out ccu_out rev]. rewrite E2, hdrs_of_app, H1, map_app. reflexivity.
    + intros id t rq b I. apply in_app_or in I. destruct I as [I|[I|[]]].
      * destruct (H2 id t rq b I) as (N0 & y & Gy & Sy & Ry). split; [exact N0|].
        assert (t <> tag) by (intro; subst t; rewrite G in Gy; inversion Gy; subst y; congruence).
        exists y. change (cl_ctx_get (cl_note ?a ?o) t) with (cl_ctx_get a t). rewrite E8. replace (t =? tag) with false by lia. repeat split; assumption.
      * inversion I; subst id t rq b. split; [lia|]. eexists. change (cl_ctx_get (cl_note ?a ?o) tag) with (cl_ctx_get a tag).
        rewrite E8, N.eqb_refl. split; [reflexivity|]. split; reflexivity.
    + exact HP.
    + exists e'. split.
      * rewrite map_app. cbn [map rop_eop re_rb]. eapply ecs_req; [exact H3 | exact RB].
      * intros _. cbn [cl_note cc_enc ccu_out]. unfold open_pending. destruct (rq_has_body (ct_req x)); [destruct (cq_body (ct_req x))|]; reflexivity.
  - (* the HEADERS write failed: the write loop is over *)
    destruct (reg_state_facts enc_field c tag x G LE) as (E1 & E2 & E3 & _ & _ & _ & _ & E8).
    destruct RI as (l & H1 & H2 & HP & e & H3 & H4). exists l. split; [|split; [|split]].
    + destruct (qm_out _ _ _ Q) as (new & EO & FO). rewrite EO, rev_app_distr, hdrs_of_app, E2, H1, (hdrs_of_q1 new FO), app_nil_r. reflexivity.
    + intros id t rq b I. destruct (H2 id t rq b I) as (N0 & y & Gy & Sy & Ry). split; [exact N0|].
      assert (t <> tag) by (intro; subst t; rewrite G in Gy; inversion Gy; subst y; congruence).
      assert (GR : cl_ctx_get (open_pending (fst (reg_state enc_field c tag x)) (cc_nextID c) tag (ct_req x)) t = Some y).
      { rewrite E8. replace (t =? tag) with false by lia. exact Gy. }
      destruct (srk_qm _ _ _ Q t y GR) as (y' & Gy' & Ry' & Sy'). exists y'. split; [exact Gy'|]. split; [rewrite Sy'; [exact Sy | rewrite Sy; exact N0] | congruence].
    + exact HP.
    + exists e. split; [exact H3|]. intro L'. rewrite L in L'. discriminate.
  - apply (ReqInv_keep e0 c); try reflexivity; [|exists [COResult tag (cl_retryable e) e (ct_resp x)]; split; reflexivity | auto | exact RI].
    cbv zeta. apply (srk_put c x); [cbn; destruct (cl_ctxs_get_In _ _ _ G) as [_ T]; rewrite T; exact G | reflexivity | reflexivity].
Qed.

Lemma hdrs_of_q2 l : forallb q2 l = true -> hdrs_of (rev l) = [].
Proof. intro F. apply hdrs_of_q1. exact (q2_q1_all _ F). Qed.

Lemma ReqInv_feed e0 c fr c3 : Pre c -> feedmove fr c c3 -> ReqInvS e0 c -> ReqInvS e0 c3.
Proof.
  intros P F RI. destruct (feedmove_fm dec_field c fr c3 (p_herr _ P) F) as (tg & FM & _ & _).
  apply (ReqInv_keep e0 c c3); [exact (srk_feedmove c fr c3 (p_herr _ P) F) | | exact (fm_enc _ _ _ FM) | exact (fm_wl _ _ _ FM) | exact RI].
  destruct (fm_out _ _ _ FM) as (new & EO & FO). exists new. split; [exact EO | exact (hdrs_of_q2 _ FO)].
Qed.

Lemma PreIdReq_mvs e0 tk c c' : mvs tk c c' -> Pre c -> IdInv c -> ReqInvS e0 c -> Pre c' /\ IdInv c' /\ ReqInvS e0 c'.
Proof.
  intro M. induction M as [c|tk c c1 c2 M1 M IH|fr c c1 c2 F M IH]; intros P I R.
  - split; [assumption | split; assumption].
  - assert (PI : Pre c1 /\ IdInv c1) by (eapply (PreId_mvs dec_field enc_field smid); [eapply ms_step; [exact M1 | apply ms_refl] | exact P | exact I]).
    destruct PI as [P1 I1]. apply IH; [exact P1 | exact I1 | exact (ReqInv_mv1 e0 c c1 P I R M1)].
  - assert (PI : Pre c1 /\ IdInv c1) by (eapply (PreId_mvs dec_field enc_field smid); [eapply ms_feed; [exact F | apply ms_refl] | exact P | exact I]).
    destruct PI as [P1 I1]. apply IH; [exact P1 | exact I1 | exact (ReqInv_feed e0 c fr c1 P F R)].
Qed.

(* the one SetMaxTableSize call of writeRequest *)
Definition setsz c : cconn hstate :=
  ccu_enc (ccu_encTableSeen c (cc_encTableSize c)) (enc_set_max (cc_enc c) (cc_encTableSize c)).

Lemma ReqInv_setsz e0 c : Psz (cc_encTableSize c) -> ReqInvS e0 c -> ReqInvS e0 (setsz c).
Proof.
  intros PS (l & H1 & H2 & HP & e & H3 & H4). exists (l ++ [inl (cc_encTableSize c)]).
  rewrite rights_of_app, sizes_of_app. cbn [rights_of sizes_of flat_map app]. rewrite app_nil_r.
  split; [exact H1|]. split; [exact H2|]. split; [apply Forall_app; split; [exact HP | constructor; [exact PS | constructor]]|].
  exists (enc_set_max e (cc_encTableSize c)). split; [rewrite map_app; apply ecs_size, H3|].
  intro L. change (cl_wl_live (setsz c)) with (cl_wl_live c) in L. rewrite (H4 L). reflexivity.
Qed.

End WithP.

Lemma write_request_split c tag :
  cl_write_request enc_field enc_set_max c tag = cl_write_request enc_field smid c tag \/
  cl_write_request enc_field enc_set_max c tag = cl_write_request enc_field smid (setsz c) tag.
Proof.
  unfold cl_write_request.
  change (cl_can_open_stream (setsz c)) with (cl_can_open_stream c). change (cl_ctx_get (setsz c) tag) with (cl_ctx_get c tag).
  destruct (negb (cl_can_open_stream c)); [left; reflexivity|].
  destruct (cl_ctx_get c tag) as [x|]; [|left; reflexivity].
  destruct (ct_lckStuck x); [left; reflexivity|]. destruct (ct_done x); [left; reflexivity|].
  destruct (cc_encTableSize c =? cc_encTableSeen c) eqn:E; cbn [negb].
  - left. reflexivity.
  - right. change (cc_encTableSize (setsz c)) with (cc_encTableSize c). change (cc_encTableSeen (setsz c)) with (cc_encTableSize c).
    rewrite N.eqb_refl. cbn [negb]. reflexivity.
Qed.

Lemma wl_in_split c :
  cl_wl_in enc_field enc_set_max cfg c = cl_wl_in enc_field smid cfg c \/
  cl_wl_in enc_field enc_set_max cfg c = cl_wl_in enc_field smid cfg (setsz c).
Proof.
  unfold cl_wl_in. change (cc_inQ (setsz c)) with (cc_inQ c). destruct (cc_inQ c) as [|tag q]; [left; reflexivity|].
  destruct (write_request_split (ccu_inQ c q) tag) as [E|E]; rewrite E; [left; reflexivity | right; reflexivity].
Qed.

Lemma step_split c e :
  step c e = stepi c e \/ (e = CEvWLIn /\ step c e = stepi (setsz c) e).
Proof.
  destruct e; cbn [cl_step]; [left; reflexivity | left; reflexivity | | left; reflexivity ..].
  change (cl_wl_live (setsz c)) with (cl_wl_live c).
  destruct (cl_wl_live c); [|left; reflexivity]. destruct (wl_in_split c) as [E|E]; rewrite E; [left; reflexivity | right; split; reflexivity].
Qed.

Variable h0 : hstate.
Variable first : bytes.
Notation run := (cl_run dec_field enc_field enc_set_max cfg h0 first).
Notation init := (cl_init enc_set_max h0 first).

Lemma ReqInv_init Psz : ReqInvS Psz (cc_enc init) init.
Proof.
  exists []. split; [|split; [|split]].
  - unfold cl_init. destruct (cl_settings_deserialize false first); reflexivity.
  - intros id tag rq blk [].
  - constructor.
  - exists (cc_enc init). split; [constructor | reflexivity].
Qed.

(* every size the encoder is given is the cc_encTableSize of a state the run went through *)
Theorem ReqInvS_run (Psz : N -> Prop) evs :
  (forall pre post, evs = pre ++ post -> Psz (cc_encTableSize (run pre))) ->
  Pre (run evs) /\ IdInv (run evs) /\ ReqInvS Psz (cc_enc init) (run evs).
Proof.
  induction evs as [|e evs IH] using rev_ind; intro HP.
  - rewrite (cl_run_nil hstate). split; [eapply (Pre_init dec_field enc_field) | split; [eapply (Pre_init dec_field enc_field) | apply ReqInv_init]].
  - destruct IH as (P & I & R). { intros pre post E. apply (HP pre (post ++ [e])). rewrite E, app_assoc. reflexivity. }
    pose proof (HP evs [e] eq_refl) as PS. rewrite (cl_run_snoc hstate). set (c := run evs) in *.
    destruct (step_split c e) as [E|[-> E]]; rewrite E.
    + exact (PreIdReq_mvs Psz _ _ _ _ (step_mvs dec_field enc_field smid cfg c e P) P I R).
    + destruct (PreId_mvs dec_field enc_field enc_set_max None c (setsz c) (mvs_one _ _ _ _ _ (m_encsize enc_field enc_set_max c)) P I) as [P1 I1].
      exact (PreIdReq_mvs Psz _ _ _ _ (step_mvs dec_field enc_field smid cfg (setsz c) CEvWLIn P1) P1 I1 (ReqInv_setsz Psz _ c PS R)).
Qed.

Theorem ReqInv_run evs : Pre (run evs) /\ IdInv (run evs) /\ ReqInv (cc_enc init) (run evs).
Proof.
  destruct (ReqInvS_run (fun _ => True) evs (fun _ _ _ => I)) as (P & I1 & R). split; [exact P|]. split; [exact I1|]. exact (ReqInvS_ReqInv _ _ _ R).
Qed.

(* C02 (b), the header blocks: the HEADERS frames written in a run are, in order, the encoder's blocks for the requests of
   the Ctx that went out on those streams; END_STREAM is on the frame iff the request has no body *)
Theorem request_blocks evs :
  exists l : list rentry,
    hdrs_of (cl_trace (run evs)) = map re_hdr l /\
    (forall id tag rq blk, In (id, tag, rq, blk) l ->
       id <> 0 /\ exists x, cl_ctx_get (run evs) tag = Some x /\ ct_sid x = id /\ ct_req x = rq) /\
    exists e, enc_chain (cc_enc init) (map re_rb l) e /\ (cl_wl_live (run evs) = true -> e = cc_enc (run evs)).
Proof. destruct (ReqInv_run evs) as (_ & _ & R). exact R. Qed.

(* ... with the SetMaxTableSize calls in between, each with a value cc_encTableSize had at the start of a step *)
Theorem request_blocks_sizes (Psz : N -> Prop) evs :
  (forall pre post, evs = pre ++ post -> Psz (cc_encTableSize (run pre))) ->
  exists ops : list rop,
    hdrs_of (cl_trace (run evs)) = map re_hdr (rights_of ops) /\
    (forall id tag rq blk, In (id, tag, rq, blk) (rights_of ops) ->
       id <> 0 /\ exists x, cl_ctx_get (run evs) tag = Some x /\ ct_sid x = id /\ ct_req x = rq) /\
    Forall Psz (sizes_of ops) /\
    exists e, enc_chain_s (cc_enc init) (map rop_eop ops) e /\ (cl_wl_live (run evs) = true -> e = cc_enc (run evs)).
Proof. intro HP. destruct (ReqInvS_run Psz evs HP) as (_ & _ & R). exact R. Qed.

(* END_STREAM is on the HEADERS frame exactly when the request has no body *)
Theorem end_stream_on_headers evs id es blk :
  In (COHeaders id es blk) (cl_trace (run evs)) ->
  exists tag x, cl_ctx_get (run evs) tag = Some x /\ ct_sid x = id /\ es = negb (rq_has_body (ct_req x)).
Proof.
  intro H. destruct (request_blocks evs) as (l & H1 & H2 & _).
  assert (I : In (id, es, blk) (hdrs_of (cl_trace (run evs)))).
  { unfold hdrs_of. apply in_flat_map. exists (COHeaders id es blk). split; [exact H | left; reflexivity]. }
  rewrite H1 in I. apply in_map_iff in I. destruct I as ([[[i t] rq] b] & E & I). cbn in E. inversion E; subst i es b.
  destruct (H2 id t rq blk I) as (_ & x & G & S & R). exists t, x. repeat split; try assumption. rewrite R. reflexivity.
Qed.

End Req.
