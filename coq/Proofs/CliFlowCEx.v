(* Proofs/CliFlowCEx.v - C07, "and finishes": sample runs for the examples of Props/C07.v (the instance with the real
   HPACK coder), and the completion corollary for that instance. ex_leak is the run that refuted the corollary before
   /repo 35b3178: sendPending debited c.connWindow in its critical section and did not give the bytes back when the
   request turned out to have been taken back (acquireFor failed), so the client's connection window stayed below the
   server's for ever. It hands them back now (addWindow(0, n)), and the run completes. *)
From Coq Require Import List NArith ZArith Bool.
From H2V Require Import Base.Bytes Base.MachineInt Base.Result Gen.GenConsts Impl.Hpack Impl.ServerConn Impl.ServerInst
  Impl.ClientConn Impl.ClientInst Proofs.CliDefs Spec.FlowLedger Proofs.SrvFlowLedger
  Proofs.CliFlowMoves Proofs.CliFlowOut Proofs.CliFlowSettings Proofs.CliFlowSafe Proofs.CliFlowEs Proofs.CliFlowStall Proofs.CliFlowExamples
  Proofs.CliFlowCBody Proofs.CliFlowCInv Proofs.CliFlowCThm.
Import ListNotations.
Local Open Scope N_scope.

Definition ex_chunk (n v : N) : bytes := repeat v (N.to_nat n).

(* a body of 100000 bytes streamed in eight reads of odd sizes, the last one with EOF; a buffered body of 70000 bytes *)
Definition ex_reads8 : list (bytes * rerr) :=
  [(ex_chunk 7001 1, RNil); (ex_chunk 12345 2, RNil); (ex_chunk 16384 3, RNil); (ex_chunk 9999 4, RNil); (ex_chunk 16383 5, RNil);
   (ex_chunk 16001 6, RNil); (ex_chunk 11111 7, RNil); (ex_chunk 10776 8, REof)].
Definition ex_up_streamed : crequest := ex_post (CStream ex_reads8 (-1)).
Definition ex_up_buffered : crequest := ex_post (CBuf (ex_chunk 70000 9)).

(* both uploads share the connection window (65535): the streamed one takes all of it; then a connection grant, a stream
   grant, SETTINGS lowering INITIAL_WINDOW_SIZE to 60000 and raising MAX_FRAME_SIZE to 32768: both bodies blocked by the
   connection window *)
Definition ex_two_uploads_blocked : list cevent :=
  [CEvSubmit 0 ex_up_streamed true; CEvSubmit 1 ex_up_buffered true; CEvWLIn; CEvWLIn;
   CEvRL (ex_winupd 0 30000); CEvWLWin [];
   CEvRL (ex_winupd 1 20000); CEvRL (ex_settings 4 60000); CEvRL (ex_settings 5 32768); CEvWLWin [3; 1]; CEvWLOut; CEvWLOut].
(* more grants, in pieces: both bodies go out completely *)
Definition ex_two_uploads_done : list cevent :=
  ex_two_uploads_blocked ++
  [CEvRL (ex_winupd 0 100000); CEvWLWin [1; 3];
   CEvRL (ex_winupd 1 50000); CEvRL (ex_winupd 3 50000); CEvWLWin []].

(* what a state looks like to flow control: (stream, bytes buffered, stream window) of every pending body, the
   connection window, the winCh token, MAX_FRAME_SIZE, the request table *)
Definition ex_flow (c : cst) : list (N * N * Z) * Z * bool * N * list (N * N) :=
  (map (fun pb => (pb_id pb, len (pb_body pb), pb_window pb)) (cc_pending c), cc_connWindow c, cc_winCh c, cc_maxFrame c, cc_reqQueued c).

(* the former leak. INITIAL_WINDOW_SIZE 10, cancel timers armed. A 65000-byte upload sends 10 bytes and waits; its timer
   runs out and the caller takes the Ctx back before the timer goroutine has cancelled the stream; the server, which
   knows nothing of this, grants the stream 65000: the write loop debits 64990 bytes from the stream and the connection,
   finds the Ctx gone, drops the body and (since 35b3178) hands the 64990 bytes back to c.connWindow. The next upload
   (1000 bytes) is granted its stream window and goes out completely. Before the fix it stopped after 535 bytes: the
   client's connection window was 0, the server's 64990 *)
Definition ex_leak : list cevent :=
  [CEvSubmit 0 (ex_post (CBuf (ex_chunk 65000 7))) true; CEvWLIn;
   CEvTimeout 0; CEvReceive 0;
   CEvRL (ex_winupd 1 65000); CEvWLWin []; CEvTimeoutCancel 0; CEvWLOut;
   CEvSubmit 1 (ex_post (CBuf (ex_chunk 1000 8))) true; CEvWLIn;
   CEvRL (ex_winupd 3 2000); CEvWLWin []].

(* the completion corollary for the instance, with no hypothesis about the client's own windows *)
Definition completes_when_granted_strong_statement : Prop :=
  forall (cfg : cl_config) (first : bytes) (evs : list cevent) (tag : N) (x : cctx) (w : Z),
    let c := cli_run cfg first evs in
    let L := lrun ledger0 (cli_ledger cfg first evs) in
    cl_settings_deserialize false first <> None -> GOK ledger0 (cli_ledger cfg first evs) ->
    cl_ctx_get c tag = Some x -> cl_wl_live c = true -> cc_winCh c = false ->
    In (ct_sid x, tag) (cc_reqQueued c) -> ct_done x = false ->
    (0 < l_conn L)%Z -> l_strm L (ct_sid x) = Some w -> (0 < w)%Z ->
    data_bytes (ct_sid x) (cl_trace c) = fst (rq_body (ct_req x)) /\ end_streams (ct_sid x) (cl_trace c) = 1%nat.

Theorem completes_when_granted_strong : completes_when_granted_strong_statement.
Proof.
  intros cfg first evs tag x w c L NN GK G LV WC HT DN CP SW WP.
  destruct (completes_when_granted hpack_state cli_dec_field cli_enc_field set_max_table_size cfg cli_init_hpack first evs tag x w NN GK G LV WC HT DN CP SW WP)
    as (A & B & _).
  split; assumption.
Qed.

(* What the examples of Props/C07.v read off the server's ledger after ex_two_uploads_done, evaluated once. *)
Lemma ex_two_uploads_done_ledger :
  let c := cli_run ex_cfg [] ex_two_uploads_done in
  let h := cli_ledger ex_cfg [] ex_two_uploads_done in
  let L := lrun ledger0 h in
  gokb h = true /\ (l_conn L, l_strm L 1, l_strm L 3) = (25535%Z, Some 30000%Z, Some 40000%Z) /\
  cc_connWindow c = l_conn L /\ (0 <? l_conn L)%Z = true /\ l_strm L 1 = Some 30000%Z /\ l_strm L 3 = Some 40000%Z /\
  cl_wl_live c = true /\ cc_winCh c = false /\ cc_reqQueued c = [(1, 0); (3, 1)].
Proof. vm_compute. repeat split. Qed.
