(* Proofs/TeardownProofs.v -- the statements of Props/Teardown.v, collected from the pieces:
     TeardownGen                        generic lemmas (wait cycles, leads-to rules, traces)
     TeardownSrvInv, SrvS1, SrvS2, SrvEx   server: invariants and rank, S1, S2, examples and finding
     TeardownCliInv, CliLocks           client: frames and invariants, lock order (S3)
     TeardownCliEx                      client: findings and example
     TeardownCliLive1, CliLive5         client: liveness under fairness (S3), trigger closed
     TeardownCliGone0, CliGone1         client: the same with the trigger "the peer is gone" *)
From Coq Require Import Arith Lia Bool List.
Import ListNotations.
From H2V Require Import Impl.Teardown Proofs.TeardownGen Proofs.TeardownSrvInv Proofs.TeardownSrvS1 Proofs.TeardownSrvS2 Proofs.TeardownSrvEx Proofs.TeardownCliLocks Proofs.TeardownCliEx Proofs.TeardownCliLive5 Proofs.TeardownCliGone1.

Module Final.

Theorem ordered_no_wait_cycle :
  forall (Proc : Type) (wants : Proc -> option nat) (holds : Proc -> nat -> Prop),
    ordered wants holds -> ~ wait_cycle wants holds.
Proof. intros Proc w h. apply ordered_no_wait_cycle. Qed.

Section Server.
Import Srv.
Variable cap : nat.
Hypothesis cap_pos : 1 <= cap.
Notation guard := (Srv.guard cap).
Notation reachable := (Srv.reachable cap).
Definition srv_step (a : act) : Prop := is_env a = false.
Definition srv_no_refill (a : act) : Prop := refills a = false.

Theorem S1_rank : forall s a, refills a = false -> guard a s -> rank (eff a s) < rank s.
Proof using All. intros; apply (SrvP.rank_decreases cap); auto. Qed.

Theorem S1_bounded : forall s l s',
  path guard eff srv_no_refill s l s' -> length l + rank s' <= rank s.
Proof using All. intros; eapply SrvP1.bounded_paths; eauto. Qed.

Theorem S1_progress : forall s, reachable s -> dead s = true ->
  quiet s \/ exists a, srv_step a /\ guard a s.
Proof using All. intros; eapply SrvP1.progress_dead; eauto using SrvP.reachable_inv. Qed.

Theorem S1_can_finish : forall s, reachable s -> dead s = true ->
  exists l s', path guard eff srv_step s l s' /\ quiet s' /\ length l <= rank s.
Proof using All. intros; eapply SrvP1.can_finish; eauto. Qed.

Theorem S1_must_finish : forall s l s', reachable s -> dead s = true ->
  path guard eff srv_step s l s' -> (forall a, srv_step a -> ~ guard a s') -> quiet s'.
Proof using All. intros; eapply SrvP1.must_finish; eauto. Qed.

Theorem S1_exited_stay : forall s a, loops_exited s -> guard a s -> loops_exited (eff a s).
Proof using All. intros; eapply SrvP1.loops_exited_stable; eauto. Qed.

Theorem S1_exited_never_parks : forall s, reachable s -> loops_exited s ->
  (0 < h_send s -> guard HStop s) /\ (pg s = PWrite -> guard (PWr ViaStop) s) /\
  (0 < Srv.i_wr s -> guard (IWr ViaStop) s).
Proof using All. intros; eapply SrvP1.exited_never_parks; eauto using SrvP.reachable_inv. Qed.

Theorem S1_example : exists s,
  reachable s /\ dead s = true /\ sv s = RWrite false /\ sl s = SBody /\ wr s = 1 /\ h_run s = 1 /\
  ~ quiet s.
Proof using All. exists (SrvEx.s1_state). apply SrvEx.s1_example; auto. Qed.

Section Runs.
Variable r : run guard eff.
Hypothesis F : fair_run cap r.
Hypothesis R0 : reachable (st r 0).

Theorem S2_stream_goroutine_finishes : leadsto r sl_exited (fun s => sl s = SDone).
Proof using All. eapply SrvP2.sl_finishes; eauto. Qed.

Theorem S2_unpark_forward :
  leadsto r (fun s => sl_exited s /\ sv s = RFwd) (fun s => sv s <> RFwd).
Proof using All. eapply SrvP2.unpark_forward; eauto. Qed.

Theorem S2_unpark_write :
  leadsto r (fun s => sl_exited s /\ exists b, sv s = RWrite b) (fun s => forall b, sv s <> RWrite b).
Proof using All. eapply SrvP2.unpark_write; eauto. Qed.

Theorem S2_serve_returns :
  leadsto r (fun s => sl_exited s /\ sv_leaving cap s) loops_exited.
Proof using All. eapply SrvP2.serve_returns; eauto. Qed.

Theorem S2_dead_returns :
  leadsto r (fun s => sl_exited s /\ dead s = true) loops_exited.
Proof using All. eapply SrvP2.dead_returns; eauto. Qed.
End Runs.

Theorem S2_example : exists s,
  reachable s /\ sl_exited s /\ sv_leaving cap s /\ sv s = RWrite true /\ wr s = 1 /\
  stalled s = true.
Proof using All. exists SrvEx.s2_state. apply SrvEx.s2_example; auto. Qed.

Theorem S2_silent_peer_never_returns :
  exists r : run guard eff,
    fair_run cap r /\ reachable (st r 0) /\ sl_exited (st r 0) /\
    forall i, sv (st r i) = RRead /\ wl (st r i) = WSock true /\ sv (st r i) <> VEnd.
Proof using All. apply SrvEx.silent_peer_never_returns; auto. Qed.

Theorem S2_silent_state : exists s,
  reachable s /\ sv s = RRead /\ sl s = SDone /\ wl s = WSock true /\ stalled s = true /\
  gone s = false /\ sclosed s = false /\
  forall a, guard a s -> (exists b, a = EPeerSend b) \/ a = EPeerClose \/ (exists b, a = EReqTimer b).
Proof using All.
  exists SrvEx.silent_state. split; [apply SrvEx.silent_reachable; auto|].
  pose proof SrvEx.silent_shape as (H1 & H2 & H3 & H4 & H5 & H6).
  repeat split; auto. apply SrvEx.silent_only_peer; auto.
Qed.

Theorem S1_ping_winds_down : forall s a, wstop s = true -> guard a s ->
  wstop (eff a s) = true /\
  pg_pot (pg (eff a s)) <= pg_pot (pg s) /\
  (pg_act a = true -> pg_pot (pg (eff a s)) < pg_pot (pg s)).
Proof using All.
  intros s a W G. split; [apply SrvP1.wstop_stable; auto|]. eapply SrvP1.ping_winds_down; eauto.
Qed.

Theorem S1_ping_bounded : forall s l s', wstop s = true ->
  path guard eff (fun _ => True) s l s' -> count_pg l + pg_pot (pg s') <= pg_pot (pg s).
Proof using All. intros; eapply SrvP1.ping_bounded_after_close; eauto. Qed.
End Server.

Theorem S2_example_reader_full : exists s,
  Srv.reachable 1 s /\ Srv.sl_exited s /\ Srv.sv_leaving 1 s /\ Srv.sv s = Srv.RFwd /\
  Srv.rd s = 1 /\ Srv.stalled s = true.
Proof. exists SrvEx.s2b_state. apply SrvEx.s2b_example. Qed.

Section Client.
Import Cli.
Variable cap : nat.
Hypothesis cap_pos : 1 <= cap.
Notation guard := (Cli.guard cap).
Notation reachable := (Cli.reachable cap).
Definition only_env (s : state) : Prop := forall a, guard a s -> is_env a = true.

Theorem S3_lock_order : forall a o i, In (o, i) (nest a) -> mrank o < mrank i.
Proof. exact CliP2.lock_order. Qed.

Theorem S3_ordered : forall s, reachable s -> ordered (wants s) (holds s).
Proof using All. intros; eapply CliP2.ordered_reachable; eauto. Qed.

Theorem S3_no_wait_cycle : forall s, reachable s -> ~ wait_cycle (wants s) (holds s).
Proof using All. intros; eapply CliP2.no_wait_cycle; eauto. Qed.

Theorem S3_no_self_wait : forall s p m, reachable s -> wants s p = Some m -> ~ holds s p m.
Proof using All. intros; eapply CliP2.no_self_wait; eauto. Qed.

Section Runs.
Variable r : run guard eff.
Hypothesis F : fair_run cap r.
Hypothesis R0 : reachable (st r 0).
Hypothesis NS : forall i, stalled (st r i) = false \/ dead (st r i) = true.

Theorem S3_both_loops_exit :
  leadsto r (fun s => closed s = true) (fun s => loops_exited s /\ done s = true).
Proof using All. eapply CliL6.both_loops_exit; eauto. Qed.

Theorem S3_no_stranding :
  leadsto r (fun s => closed s = true)
    (fun s => loops_exited s /\ (delivered s \/ raced s = true)).
Proof using All. eapply CliL6.no_stranding; eauto. Qed.

Theorem S3_gone_closes :
  leadsto r (fun s => gone s = true) (fun s => closed s = true).
Proof using All. eapply CliG1.gone_closes; eauto. Qed.

Theorem S3_gone_no_stranding :
  leadsto r (fun s => gone s = true)
    (fun s => loops_exited s /\ (delivered s \/ raced s = true)).
Proof using All. eapply CliG1.gone_no_stranding; eauto. Qed.
End Runs.

Theorem S3_example : exists s,
  reachable s /\ closed s = true /\ done s = false /\ stalled s = false /\
  wl s = LWrite HX /\ rl s = RHold HO /\ uc s = UClose CDone /\
  xc s = KErr /\ xloc s = XTab /\ xerr s = false.
Proof using All. exists CliEx.s3_state. apply CliEx.s3_example; auto. Qed.

Theorem F1_close_behind_stuck_write : exists s,
  reachable s /\ only_env s /\
  wl s = LWrite HX /\ uc s = UClose CLock /\ done s = true /\
  sclosed s = false /\ xc s = KErr /\ xerr s = false.
Proof using All. exists CliEx.f1_state. apply CliEx.close_behind_stuck_write; auto. Qed.

Theorem F1b_roundtrip_stuck_in_takeback : exists s,
  reachable s /\ only_env s /\
  xc s = KTb /\ lx s = LxWl /\ wl s = LWrite HX /\ tx s = TDone.
Proof using All. exists CliEx.f1b_state. apply CliEx.roundtrip_stuck_in_takeback; auto. Qed.

Theorem F2_write_parked_past_timeout : exists s,
  reachable s /\ only_env s /\
  xc s = KW1 /\ xerr s = true /\ tx s = TDone /\ done s = false /\
  wl s = LWrite HO /\ inq s = cap.
Proof using All. exists (CliEx.f2_state cap). apply CliEx.write_parked_past_timeout; auto. Qed.

Theorem F4_stranded_by_close_race : exists s,
  reachable s /\ loops_exited s /\ done s = true /\
  xc s = KErr /\ xloc s = XIn /\ xerr s = false /\ tx s = TOff /\ raced s = true /\
  (forall a, guard a s -> a = EPeerStall \/ a = ETick \/ a = EUserClose).
Proof using All. exists CliEx.f4_state. apply CliEx.stranded_by_close_race; auto. Qed.

Theorem S3_write_loop_never_sends_on_out : forall s a,
  g_wl a -> guard a s -> outq (eff a s) <= outq s.
Proof using All. intros; eapply CliP2.write_loop_never_sends_on_out; eauto. Qed.

Theorem S3_out_parks_hold_nothing : forall s p m,
  reachable s -> parked_on_out s p -> ~ holds s p m.
Proof using All. intros; eapply CliP2.out_parks_hold_nothing; eauto. Qed.

End Client.
End Final.
