(* Proofs/SrvRfcSend.v - C08: what sending response data does: DATA frames on the stream,
   ending in END_STREAM or in RST_STREAM(INTERNAL_ERROR) exactly when the response is over. *)
From H2V Require Import Base.Bytes Base.MachineInt Base.Result Gen.GenConsts Impl.ServerConn.
From H2V Require Import Proofs.SrvBase Proofs.SrvRfcDefs Proofs.SrvRfcModel.
From Coq Require Import ZArith Lia ZifyN ZifyNat ZifyBool.
Local Open Scope N_scope.

(* a response in progress that has run out of reader has its end marked *)
Definition Psnd (n : sendst) : Prop := sn_bodyStream n = None -> sn_pendingEnd n = true /\ sn_pending n <> [].

Lemma refill_pending_spec n n1 : refill_pending n = Some n1 ->
  (sn_bodyStream n = None -> n1 = n) /\
  (sn_bodyStream n <> None -> sn_bodyStream n1 <> None /\ (sn_pending n = [] -> sn_pending n1 = [] -> sn_pendingEnd n1 = true)).
Proof.
  unfold refill_pending. destruct (sn_bodyStream n) as [reads|] eqn:B.
  - intro H. split; [discriminate|]. intros _.
    destruct reads as [|[ch er] t].
    + inversion H; subst. cbn. split; [discriminate | auto].
    + destruct er.
      * destruct ch as [|c0 ch']; [discriminate|]. inversion H; subst. cbn. split; [discriminate|]. intros _ X; discriminate.
      * inversion H; subst. cbn. split; [discriminate | auto].
      * discriminate.
  - intro H. inversion H; subst. split; [reflexivity | congruence].
Qed.

(* what sendData queues: DATA frames and possibly one RST_STREAM *)
Definition data_or_rst (o : outev) : Prop := match o with OData _ _ _ | ORst _ _ => True | _ => False end.

Lemma data_or_rst_facts d : Forall data_or_rst d ->
  (forall sid rq, ~ In (ODispatch sid rq) d) /\ (forall o, In o d -> is_goaway o = None) /\ existsb is_exit d = false.
Proof.
  intro F. split; [|split].
  - intros sid rq H. rewrite Forall_forall in F. exact (F _ H).
  - intros o H. rewrite Forall_forall in F. specialize (F _ H). destruct o; try contradiction; reflexivity.
  - induction F as [|o t Ho _ IH]; [reflexivity|]. cbn [existsb]. rewrite IH. destruct o; try contradiction; reflexivity.
Qed.

Section Send.
Variable hstate : Type.
Notation sconn := (sconn hstate).
Implicit Types c : sconn.

(* only the output list and the connection send window change *)
Definition sd c c' (d : list outev) : Prop := c' = upd_clientWindow (upd_out c (d ++ sc_out c)) (sc_clientWindow c').

Lemma sd_refl c : sd c c [].
Proof. unfold sd. destruct c; reflexivity. Qed.
Lemma sd_trans a b c d1 d2 : sd a b d1 -> sd b c d2 -> sd a c (d2 ++ d1).
Proof.
  unfold sd. intros H1 H2. rewrite H2 at 1. rewrite H1 at 1 2. sc_cbn. rewrite app_assoc. reflexivity.
Qed.
Lemma sd_note_cw c o w : sd c (upd_clientWindow (note c o) w) [o].
Proof. unfold sd, note. reflexivity. Qed.
Lemma sd_note c o : sd c (note c o) [o].
Proof. unfold sd, note. destruct c; reflexivity. Qed.
Lemma sd_wr c c' d : sd c c' d -> wr hstate c -> wr hstate c'.
Proof. unfold sd, wr. intros -> [A B]. sc_cbn. auto. Qed.
Lemma sd_out c c' d : sd c c' d -> sc_out c' = d ++ sc_out c.
Proof. unfold sd. intros ->. reflexivity. Qed.

Lemma send_data_loop_spec fuel : forall c sid n c1 n1 done wres, wr hstate c -> Psnd n ->
  send_data_loop fuel c sid n = (c1, n1, done, wres) ->
  exists d, sd c c1 d /\ Forall data_or_rst d /\
    match done, wres with
    | false, _ => filter noisy d = [] /\ wres = false /\ (sn_bodyStream n1 = None -> sn_pendingEnd n1 = true)
    | true, false => exists chunk, filter noisy d = [OData sid true chunk]
    | true, true => filter noisy d = [ORst sid c_InternalError]
    end.
Proof.
  induction fuel as [|fuel IH]; intros c sid n c1 n1 done wres W P; cbn [send_data_loop].
  - intro H. inversion H; subst. exists []. split; [apply sd_refl|]. split; [constructor|]. split; [reflexivity|]. split; [reflexivity|]. intro B. apply P, B.
  - (* the common tail: queue one DATA frame *)
    assert (GO : forall n0, Psnd n0 -> sn_pending n0 <> [] ->
      (let avail := zmin (sn_window n0) (sc_clientWindow c) in
       if (avail <=? 0)%Z then (c, n0, false, false)
       else
         let step := zmin (zmin (Z.of_N maxDataFrameSize) avail) (Z.of_N (len (sn_pending n0))) in
         let chunk := takeN (Z.to_N step) (sn_pending n0) in
         let rest := dropN (Z.to_N step) (sn_pending n0) in
         let e := sn_pendingEnd n0 && match rest with [] => true | _ => false end in
         let c1 := emit c (OData sid e chunk) in
         let c2 := upd_clientWindow c1 (sc_clientWindow c1 - step) in
         let n' := mkSnd (sn_window n0 - step) rest (sn_pendingEnd n0) (sn_bodyStream n0) (sn_bodySize n0) (sn_bodyRead n0) in
         if e then (c2, n', true, false) else send_data_loop fuel c2 sid n') = (c1, n1, done, wres) ->
      exists d, sd c c1 d /\ Forall data_or_rst d /\
        match done, wres with
        | false, _ => filter noisy d = [] /\ wres = false /\ (sn_bodyStream n1 = None -> sn_pendingEnd n1 = true)
        | true, false => exists chunk, filter noisy d = [OData sid true chunk]
        | true, true => filter noisy d = [ORst sid c_InternalError]
        end).
    { intros n0 P0 NE. cbv zeta. destruct (_ <=? 0)%Z.
      - intro H. inversion H; subst. exists []. split; [apply sd_refl|]. split; [constructor|]. split; [reflexivity|]. split; [reflexivity|].
        intro B. apply P0, B.
      - rewrite (emit_wr hstate c _ W).
        match goal with |- context [note c (OData sid ?e ?ch)] => set (ee := e); set (chunk := ch) end.
        match goal with |- context [upd_clientWindow (note c _) ?w] => set (ww := w) end.
        pose proof (sd_note_cw c (OData sid ee chunk) ww) as S1.
        destruct ee eqn:EE.
        + intro H. inversion H; subst. exists [OData sid true chunk]. split; [exact S1|]. split; [repeat constructor|]. exists chunk. reflexivity.
        + intro H. apply IH in H.
          * destruct H as (d & S2 & FD & M). exists (d ++ [OData sid false chunk]). split; [eapply sd_trans; eassumption|].
            split; [apply Forall_app; split; [exact FD | repeat constructor]|].
            rewrite filter_app. cbn [filter noisy strip_late]. rewrite app_nil_r. exact M.
          * eapply sd_wr; eassumption.
          * intro B. cbn [sn_bodyStream sn_pendingEnd sn_pending] in *. destruct (P0 B) as [PE _]. split; [exact PE|].
            subst ee. rewrite PE in EE. cbn [andb] in EE. intro X. rewrite X in EE. discriminate. }
    destruct (sn_pending n) as [|p0 pt] eqn:EP.
    + destruct (sn_bodyStream n) as [reads|] eqn:EB.
      * destruct (refill_pending n) as [nr|] eqn:RF.
        -- destruct (refill_pending_spec n nr RF) as [_ R2]. destruct R2 as [R2 R3]; [congruence|].
           destruct (sn_pending nr) as [|q0 qt] eqn:EQ.
           ++ intro H. inversion H; subst. rewrite (R3 EP eq_refl). rewrite (emit_wr hstate c _ W).
              exists [OData sid true []]. split; [apply sd_note|]. split; [repeat constructor|]. exists []. reflexivity.
           ++ rewrite <- EQ. apply GO; [intro B; congruence | congruence].
        -- intro H. inversion H; subst. unfold write_reset. rewrite (emit_wr hstate c _ W).
           exists [ORst sid c_InternalError]. split; [apply sd_note|]. split; [repeat constructor | reflexivity].
      * destruct (P EB) as [_ X]. congruence.
    + rewrite <- EP. apply GO; [exact P | congruence].
Qed.

Definition send_ok (s : stream) : Prop := has_more_to_send s = true -> st_bodyStream s = None -> st_pendingEnd s = true.

(* sendData: c1 = c but for outputs and the send window; s1 = s but for its sending part and
   the reset mark; finished exactly with END_STREAM or RST_STREAM as the last frame *)
Lemma send_data_spec c s c1 s1 fin : wr hstate c -> has_more_to_send s = true -> send_ok s ->
  send_data c s = (c1, s1, fin) ->
  exists d, sd c c1 d /\ Forall data_or_rst d /\
    st_id s1 = st_id s /\ st_state s1 = st_state s /\ st_headersFinished s1 = st_headersFinished s /\
    st_responded s1 = st_responded s /\ st_handlerRunning s1 = st_handlerRunning s /\ st_orig s1 = st_orig s /\
    (if fin then
       (exists chunk, filter noisy d = [OData (st_id s) true chunk] /\ st_weReset s1 = st_weReset s) \/
       (filter noisy d = [ORst (st_id s) c_InternalError] /\ st_weReset s1 = true)
     else filter noisy d = [] /\ st_weReset s1 = st_weReset s /\ send_ok s1).
Proof.
  intros W HM SO. unfold send_data.
  destruct (send_data_loop _ c (st_id s) (get_snd s)) as [[[c1' n1] dn] wres] eqn:L.
  assert (P : Psnd (get_snd s)).
  { intro B. cbn in B. split; [apply SO; assumption|]. cbn. unfold has_more_to_send in HM. rewrite B in HM.
    destruct (st_pending s); [discriminate | congruence]. }
  destruct (send_data_loop_spec _ _ _ _ _ _ _ _ W P L) as (d & S & FD & M).
  intro H. inversion H; subst. exists d. split; [exact S|]. split; [exact FD|].
  destruct fin.
  - destruct wres; cbn; repeat split; auto.
    destruct M as [chunk M]. left. exists chunk. auto.
  - destruct M as (M1 & -> & M3). cbn. repeat split; auto.
    unfold send_ok. cbn. intros _ B. apply M3, B.
Qed.

(* nothing goes out while the windows are closed and read bytes are waiting *)
Lemma send_data_stalled c s : st_pending s <> [] -> (zmin (st_window s) (sc_clientWindow c) <= 0)%Z ->
  snd (send_data c s) = false.
Proof.
  intros NE Wd. unfold send_data. destruct (send_data_fuel (get_snd s)) as [|fuel]; [reflexivity|].
  cbn [send_data_loop]. change (sn_pending (get_snd s)) with (st_pending s). destruct (st_pending s) as [|p0 pt] eqn:EP; [congruence|].
  cbv zeta. change (sn_window (get_snd s)) with (st_window s).
  replace (zmin (st_window s) (sc_clientWindow c) <=? 0)%Z with true by (symmetry; apply Z.leb_le; exact Wd). reflexivity.
Qed.

End Send.
