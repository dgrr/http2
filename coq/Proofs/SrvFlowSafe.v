(* Proofs/SrvFlowSafe.v - C06 safety: the server's send windows never exceed the peer's ledger, and every DATA frame
   fits the ledger's windows at the moment it is queued. *)
From H2V Require Import Base.Bytes Base.MachineInt Base.Result Gen.GenConsts Impl.ServerConn Proofs.SrvBase
  Spec.FlowLedger Proofs.SrvFlowLedger Proofs.SrvFlowDefs Proofs.SrvFlowSend Proofs.SrvFlowEff.
From Coq Require Import ZArith Lia ZifyN ZifyNat ZifyBool List.
Import ListNotations.
Local Open Scope N_scope.
Set Default Proof Using "Type".

Lemma ldatas_quiet new : Forall quiet_out new -> ldatas new = [].
Proof.
  induction 1 as [|o l Ho _ IH]; [reflexivity|]. rewrite ldatas_cons, IH, app_nil_r.
  unfold ldata_of. unfold quiet_out in Ho. destruct (strip o); try reflexivity; contradiction.
Qed.

Section Safe.
Variable hstate : Type.
Variable dec_field : hstate -> N -> bytes -> dec_res hstate.
Variable enc_field : hstate -> bytes -> bytes -> bool -> bytes * hstate.
Variable enc_set_max : hstate -> N -> hstate.
Variable cfg : config.
Notation sconn := (sconn hstate).
Implicit Types c : sconn.

(* a piece of a step: the trace grows, its DATA frames are valid for the ledger *)

(* every DATA frame in the list is on a stream satisfying P, and no longer than the smallest SETTINGS_MAX_FRAME_SIZE *)
Definition data_on (P : N -> Prop) (new : list outev) : Prop :=
  forall o sid es pl, In o new -> strip o = OData sid es pl -> P sid /\ len pl <= 16384.

Definition LedOn (P : N -> Prop) c (L : ledger) c' (L' : ledger) : Prop :=
  exists new, sc_out c' = new ++ sc_out c /\ data_on P new /\
              lvalid L (ldatas (rev new)) /\ L' = lrun L (ldatas (rev new)).

Lemma data_on_nil P : data_on P [].
Proof. intros o sid es pl []. Qed.
Lemma data_on_app P a b : data_on P a -> data_on P b -> data_on P (a ++ b).
Proof. intros Ha Hb o sid es pl Hin. apply in_app_or in Hin. destruct Hin; eauto. Qed.
Lemma data_on_quiet P new : Forall quiet_out new -> data_on P new.
Proof.
  intros H o sid es pl Hin E. rewrite Forall_forall in H. specialize (H o Hin). unfold quiet_out in H.
  rewrite E in H. contradiction.
Qed.

Lemma LedOn_refl P c L : LedOn P c L c L.
Proof. exists []. split; [reflexivity | split; [apply data_on_nil | split; [exact I | reflexivity]]]. Qed.

Lemma LedOn_trans P a La b Lb c Lc : LedOn P a La b Lb -> LedOn P b Lb c Lc -> LedOn P a La c Lc.
Proof.
  intros (n1 & E1 & D1 & V1 & ->) (n2 & E2 & D2 & V2 & ->). exists (n2 ++ n1).
  rewrite rev_app_distr, ldatas_app. split; [|split; [|split]].
  - rewrite E2, E1, app_assoc. reflexivity.
  - apply data_on_app; assumption.
  - apply lvalid_app. split; assumption.
  - rewrite lrun_app. reflexivity.
Qed.

Lemma LedOn_weaken (P Q : N -> Prop) a La b Lb : (forall x, P x -> Q x) -> LedOn P a La b Lb -> LedOn Q a La b Lb.
Proof.
  intros H (n & E & D & V & ->). exists n. split; [assumption | split; [|split; [assumption | reflexivity]]].
  intros o sid es pl Hin Ho. destruct (D _ _ _ _ Hin Ho). auto.
Qed.

Lemma LedOn_quiet P c c' L : out_ext quiet_out c c' -> LedOn P c L c' L.
Proof.
  intros (new & E & F). exists new. rewrite (ldatas_quiet (rev new)) by (apply Forall_rev; assumption).
  split; [assumption | split; [apply data_on_quiet; assumption | split; [exact I | reflexivity]]].
Qed.

(* a trace extension without DATA *)
Definition nodata_out (o : outev) : Prop := match strip o with OData _ _ _ => False | _ => True end.
Lemma ldatas_nodata new : Forall nodata_out new -> ldatas new = [].
Proof.
  induction 1 as [|o l Ho _ IH]; [reflexivity|]. rewrite ldatas_cons, IH, app_nil_r.
  unfold ldata_of. unfold nodata_out in Ho. destruct (strip o); try reflexivity; contradiction.
Qed.
Lemma LedOn_nodata P c c' L : out_ext nodata_out c c' -> LedOn P c L c' L.
Proof.
  intros (new & E & F). exists new.
  assert (F' : Forall nodata_out (rev new)).
  { apply Forall_forall. intros o Ho. rewrite Forall_forall in F. apply F, in_rev. assumption. }
  rewrite (ldatas_nodata _ F'). split; [assumption | split; [|split; [exact I | reflexivity]]].
  intros o sid es pl Hin Ho. rewrite Forall_forall in F. specialize (F o Hin). unfold nodata_out in F. rewrite Ho in F.
  contradiction.
Qed.

Lemma data_on_ldatas P new : data_on P new ->
  Forall (fun e => match e with LData s _ => P s | _ => False end) (ldatas new).
Proof.
  induction new as [|o l IH]; intro D; [constructor|]. rewrite ldatas_cons. apply Forall_app. split.
  - unfold ldata_of. destruct (strip o) eqn:E; try constructor; [|constructor].
    eapply D; [left; reflexivity | exact E].
  - apply IH. intros o' sid es pl Hin. apply D. right. assumption.
Qed.

Lemma data_on_rev P new : data_on P new -> data_on P (rev new).
Proof. intros D o sid es pl Hin. apply D. apply in_rev. assumption. Qed.

Lemma LedOn_init P c L c' L' : LedOn P c L c' L' -> l_init L' = l_init L.
Proof. intros (n & _ & _ & _ & ->). apply l_init_lrun_data, ldatas_is_ldata. Qed.

Lemma LedOn_other P c L c' L' sid : LedOn P c L c' L' -> ~ P sid -> l_strm L' sid = l_strm L sid.
Proof.
  intros (n & _ & D & _ & ->) NP. apply l_strm_lrun_data_other.
  eapply Forall_impl; [|apply data_on_ldatas, data_on_rev, D].
  intros [] H; try contradiction. intro; subst. contradiction.
Qed.

Definition held (L : ledger) (s : stream) : Prop :=
  exists w, l_strm L (st_id s) = Some w /\ (st_window s <= w)%Z.

(* ex: the id of the stream the stream loop is working on, whose table entry may be stale *)
Record SimX (ex : option N) c (L : ledger) : Prop := mkSim {
  sim_init : sc_initWin c = l_init L;
  sim_conn : (sc_clientWindow c <= l_conn L)%Z;
  sim_strm : forall s, In s (sc_strms c) -> Some (st_id s) <> ex -> held L s;
  sim_nodup : NoDup (map st_id (sc_strms c));
  sim_le : forall s, In s (sc_strms c) -> st_id s <= sc_lastID c;
  sim_hi : sc_lastID c <= sc_highestID c;
  sim_fresh : forall sid w, sc_highestID c < sid -> l_strm L sid = Some w -> (l_init L <= w)%Z
}.
Notation Sim := (SimX None).

Lemma Sim_SimX ex c L : Sim c L -> SimX ex c L.
Proof. intros []. constructor; auto. intros s Hs _. apply sim_strm0; [assumption | discriminate]. Qed.

Lemma SimX_Quiet ex c c' L : Quiet c c' -> SimX ex c L -> SimX ex c' L.
Proof.
  intros Q []. destruct Q. constructor.
  - congruence.
  - rewrite q_clientWindow. assumption.
  - rewrite q_strms. assumption.
  - rewrite q_strms. assumption.
  - rewrite q_strms, q_lastID. assumption.
  - rewrite q_lastID. exact (N.le_trans _ _ _ sim_hi0 q_highestID).
  - intros sid w H. apply sim_fresh0. exact (N.le_lt_trans _ _ _ q_highestID H).
Qed.

(* write-back of the stream being worked on *)
Lemma SimX_put ex c L x : SimX ex c L -> (ex = None \/ ex = Some (st_id x)) -> held L x -> st_id x <= sc_lastID c ->
  Sim (put c x) L.
Proof.
  intros [] Hex Hx Hle. constructor; unfold put; sc_cbn; auto.
  - intros s Hs _. apply strms_put_In_strong in Hs; [|assumption]. destruct Hs as [->|[Hs E]]; [assumption|].
    apply sim_strm0; [assumption|]. destruct Hex as [->| ->]; [discriminate | congruence].
  - rewrite strms_put_ids. assumption.
  - intros s Hs. apply strms_put_In in Hs. destruct Hs as [->|Hs]; auto.
Qed.

Lemma SimX_close ex c L s : SimX ex c L -> (ex = None \/ ex = Some (st_id s)) -> Sim (close_stream c s) L.
Proof.
  intros [] Hex. pose proof (Frame_close_stream _ c s) as [].
  constructor.
  - rewrite sc_initWin_close_stream. assumption.
  - rewrite sc_clientWindow_close_stream. assumption.
  - rewrite sc_strms_close_stream. intros s0 Hs _.
    pose proof (strms_del_not_In _ _ _ sim_nodup0 Hs) as Hne. apply strms_del_In in Hs.
    apply sim_strm0; [assumption|]. destruct Hex as [->| ->]; [discriminate | congruence].
  - rewrite sc_strms_close_stream. apply strms_del_NoDup. assumption.
  - rewrite sc_strms_close_stream, sc_lastID_close_stream. intros s0 Hs. apply strms_del_In in Hs. auto.
  - rewrite sc_lastID_close_stream. exact (N.le_trans _ _ _ sim_hi0 f_highestID).
  - intros sid w H. apply sim_fresh0. exact (N.le_lt_trans _ _ _ f_highestID H).
Qed.

Lemma emit_cases c o :
  exists pre, sc_out (emit c o) = pre ++ sc_out c /\ (pre = [] \/ pre = [o] \/ pre = [OLate o]).
Proof.
  rewrite sc_out_emit. destruct (sc_wl_dead c); [exists []; auto|].
  destruct (sc_sl_done c); [exists [OLate o] | exists [o]]; auto.
Qed.

(* one chunk of z bytes on sid, queued (pre = [frame]) or dropped because the write loop is gone (pre = []) *)
Lemma led_chunk (L : ledger) sid w z es pl pre :
  l_strm L sid = Some w -> Z.of_N (len pl) = z -> (z <= 16384)%Z ->
  (pre = [] \/ pre = [OData sid es pl] \/ pre = [OLate (OData sid es pl)]) ->
  (z = 0 \/ (0 < z /\ z <= l_conn L /\ z <= w))%Z ->
  lvalid L (ldatas pre) /\ data_on (eq sid) pre /\
  (l_conn L - z <= l_conn (lrun L (ldatas pre)))%Z /\
  exists w', l_strm (lrun L (ldatas pre)) sid = Some w' /\ (w - z <= w')%Z.
Proof.
  intros Hw Hz Hmax Hpre Hok.
  assert (Z0 : (0 <= z)%Z) by flia.
  destruct Hpre as [->|Hpre].
  - cbn. split; [exact I|]. split; [apply data_on_nil|]. split; [flia|]. exists w. split; [assumption | flia].
  - assert (E : ldatas pre = [LData sid z]) by (destruct Hpre as [->| ->]; cbn; rewrite Hz; reflexivity).
    rewrite E. cbn [lvalid lallowed lrun fold_left lstep l_conn l_strm]. rewrite Hw.
    split; [split; [exists w; split; [reflexivity | exact Hok] | exact I]|].
    split.
    { intros o s0 es0 pl0 Hin Ho. destruct Hpre as [->| ->]; destruct Hin as [<-|[]]; cbn in Ho;
        inversion Ho; subst; (split; [reflexivity | flia]). }
    split; [flia|]. exists (w - z)%Z. rewrite strm_upd_same. split; [reflexivity | flia].
Qed.

Lemma SDL_led sid c n r k : SDL sid c n r k -> forall (L : ledger) w,
  (sc_clientWindow c <= l_conn L)%Z -> l_strm L sid = Some w -> (sn_window n <= w)%Z ->
  exists L', LedOn (eq sid) c L (fst (fst (fst r))) L' /\
    (sc_clientWindow (fst (fst (fst r))) <= l_conn L')%Z /\
    exists w', l_strm L' sid = Some w' /\ (sn_window (snd (fst (fst r))) <= w')%Z.
Proof.
  induction 1; intros L w Hc Hw Hn; cbn [fst snd].
  - exists L. split; [apply LedOn_refl|]. eauto.
  - exists L. split; [apply LedOn_refl|]. eauto.
  - exists L. split; [apply LedOn_quiet; unfold write_reset; apply out_ext_emit; exact I|].
    unfold write_reset. rewrite sc_clientWindow_emit. cbn [sd_closed sn_window]. eauto.
  - (* end of a streamed body: an empty END_STREAM frame *)
    assert (W1 : sn_window n1 = sn_window n) by eauto using refill_window.
    destruct (sn_pendingEnd n1).
    + destruct (emit_cases c (OData sid true [])) as (pre & E & Hpre).
      destruct (led_chunk L sid w 0%Z true [] pre Hw eq_refl ltac:(flia) Hpre (or_introl eq_refl)) as (V & D & C & w' & Hw' & Hle).
      exists (lrun L (ldatas pre)). split.
      * exists pre. assert (R : rev pre = pre) by (destruct Hpre as [->|[->| ->]]; reflexivity). rewrite R. auto.
      * rewrite sc_clientWindow_emit. split; [flia|]. exists w'. split; [assumption | flia].
    + exists L. split; [apply LedOn_refl|]. split; [assumption|]. exists w. split; [assumption | flia].
  - exists L. split; [apply LedOn_refl|]. split; [assumption|]. exists w. split; [assumption|].
    rewrite (sd_src_window _ _ H). assumption.
  - (* the last chunk *)
    pose proof (sd_src_window _ _ H) as W1. pose proof (sd_src_pending _ _ H) as P1.
    destruct (sd_step_bounds _ c n1 P1 H0) as (B1 & B2 & B3 & B4 & B5).
    pose proof (sd_chunk_len _ c n1 P1 H0) as CL.
    destruct (emit_cases c (OData sid (sd_es c n1) (sd_chunk c n1))) as (pre & E & Hpre).
    destruct (led_chunk L sid w (sd_step c n1) _ _ pre Hw CL B2 Hpre) as (V & D & C & w' & Hw' & Hle); [right; flia|].
    exists (lrun L (ldatas pre)). split.
    + exists pre. assert (R : rev pre = pre) by (destruct Hpre as [->|[->| ->]]; reflexivity). rewrite R.
      unfold sd_c2. sc_cbn. auto.
    + unfold sd_c2, sd_n'. sc_cbn. cbn [sn_window]. split; [flia|]. exists w'. split; [assumption | flia].
  - (* a chunk, and on *)
    pose proof (sd_src_window _ _ H) as W1. pose proof (sd_src_pending _ _ H) as P1.
    destruct (sd_step_bounds _ c n1 P1 H0) as (B1 & B2 & B3 & B4 & B5).
    pose proof (sd_chunk_len _ c n1 P1 H0) as CL.
    destruct (emit_cases c (OData sid (sd_es c n1) (sd_chunk c n1))) as (pre & E & Hpre).
    destruct (led_chunk L sid w (sd_step c n1) _ _ pre Hw CL B2 Hpre) as (V & D & C & w' & Hw' & Hle); [right; flia|].
    destruct (IHSDL (lrun L (ldatas pre)) w') as (L' & Led & C' & w'' & Hw'' & Hle'').
    + unfold sd_c2. sc_cbn. flia.
    + assumption.
    + unfold sd_n'. cbn [sn_window]. flia.
    + exists L'. split; [|eauto].
      eapply LedOn_trans; [|exact Led]. exists pre.
      assert (R : rev pre = pre) by (destruct Hpre as [->|[->| ->]]; reflexivity). rewrite R.
      unfold sd_c2. sc_cbn. auto.
Qed.

End Safe.
