(* Proofs/SrvIsoErr.v - C09 (b): stream errors stay stream errors.
   1. Theorem stream_errors_stay: a step of the stream loop (a frame, a handler completion, the request timer -
      the only steps that send RST_STREAM) that produces no error output (GOAWAY, panic) leaves sc_closing,
      sc_closeRef and sc_rl_done alone, and ends the stream loop only to complete a shutdown that was already
      under way.
   2. The catalogue: which stream-scoped failure produces which reaction (Lemmas cat_...). *)
From H2V Require Import Base.Bytes Base.MachineInt Base.Result Gen.GenConsts Impl.ServerConn Proofs.SrvBase
  Proofs.SrvIsoRef Proofs.SrvIsoMoves Proofs.SrvIsoSteps Proofs.SrvIsoHdr Proofs.SrvIsoHdrStep Proofs.SrvIsoRun.
From Coq Require Import ZArith Lia ZifyN ZifyNat ZifyBool.
Local Open Scope N_scope.

Section Err.
Variable hstate : Type.
Variable dec_field : hstate -> N -> bytes -> dec_res hstate.
Variable enc_field : hstate -> bytes -> bytes -> bool -> bytes * hstate.
Variable enc_set_max : hstate -> N -> hstate.
Variable cfg : config.
Variable h0 : hstate.
Notation sconn := (sconn hstate).
Notation step := (step dec_field enc_field enc_set_max cfg).
Notation run := (run dec_field enc_field enc_set_max cfg h0).
Implicit Types c : sconn.

Definition sl_event (e : event) : Prop := e = EvSL \/ (exists sid r, e = EvDone sid r) \/ e = EvTimer.

Theorem stream_errors_stay evs e :
  clean dec_field enc_field enc_set_max cfg h0 evs -> sl_event e ->
  sc_wl_dead (run evs) = false ->
  (gcount (sc_out (step (run evs) e)) <= gcount (sc_out (run evs)))%nat ->
  sc_closing (step (run evs) e) = sc_closing (run evs) /\
  sc_closeRef (step (run evs) e) = sc_closeRef (run evs) /\
  sc_rl_done (step (run evs) e) = sc_rl_done (run evs) /\
  (sc_sl_done (step (run evs) e) = sc_sl_done (run evs) \/
   (sc_sl_done (step (run evs) e) = true /\
    (sc_closing (run evs) = true \/ (e = EvSL /\ sc_readerQ (run evs) = [] /\ sc_rl_done (run evs) = true)))).
Proof.
  intros CL SE W G. set (c := run evs) in *.
  assert (EC : forall c0, sc_closing c0 = sc_closing c -> sc_closeRef c0 = sc_closeRef c -> sc_rl_done c0 = sc_rl_done c ->
               sc_sl_done c0 = sc_sl_done c -> sc_wl_dead c0 = false -> sc_out c0 = sc_out c ->
               eff c0 (step c e) ->
               sc_closing (step c e) = sc_closing c /\ sc_closeRef (step c e) = sc_closeRef c /\
               sc_rl_done (step c e) = sc_rl_done c /\
               (sc_sl_done (step c e) = sc_sl_done c \/ (sc_sl_done (step c e) = true /\
                 (sc_closing c = true \/ (e = EvSL /\ sc_readerQ c = [] /\ sc_rl_done c = true))))).
  { intros c0 E1 E2 E3 E4 W0 EO EF. rewrite <- EO in G.
    destruct (eff_clean _ _ _ EF W0 G) as (C1 & C2 & D). destruct EF as ((_ & _ & B3 & _) & _).
    repeat split; try congruence. destruct D as [D|[D1 D2]]; [left | right; split; [|left]]; congruence. }
  destruct SE as [->|[(sid & r & ->)| ->]].
  - destruct (sc_sl_done c) eqn:Hd.
    { rewrite step_EvSL, Hd. repeat split; auto; rewrite ?Hd; auto. }
    destruct (sc_readerQ c) as [|fr q] eqn:RQ.
    { rewrite step_EvSL, Hd, RQ. destruct (sc_rl_done c) eqn:Hr; [|repeat split; auto; rewrite ?Hd; auto].
      unfold note. sc_cbn. repeat split; auto. right. split; [reflexivity|]. right. auto. }
    apply (EC (upd_readerQ c q)); try reflexivity; [exact Hd | exact W|].
    destruct (is_hdr_frame fr) eqn:IHF.
    + destruct (hdr_step_reference _ dec_field enc_field enc_set_max cfg h0 evs fr q CL Hd RQ IHF W G)
        as (n & carry & _ & (fs & n' & carry' & _ & EF & _)). exact EF.
    + rewrite step_EvSL, Hd, RQ. eapply hmvs_eff.
      apply (hmvs_sl_frame_other _ dec_field enc_set_max cfg (sf_sid fr) false _ fr IHF (fun _ => eq_refl) (no_open_block_false _ _)).
  - destruct (sc_sl_done c) eqn:Hd.
    { rewrite step_EvDone, Hd. repeat split; auto; rewrite ?Hd; auto. }
    apply (EC c); try reflexivity; [exact Hd | exact W|]. rewrite step_EvDone, Hd. eapply (hmvs_eff _ sid false).
    apply hmvs_sl_done. intro K; discriminate K.
  - destruct (sc_sl_done c) eqn:Hd.
    { rewrite step_EvTimer, Hd. repeat split; auto; rewrite ?Hd; auto. }
    apply (EC c); try reflexivity; [exact Hd | exact W|]. rewrite step_EvTimer, Hd. eapply (hmvs_eff _ 0 false). apply hmvs_sl_timer.
Qed.

End Err.

Section Cat.
Set Default Proof Using "Type".
Variable hstate : Type.
Variable dec_field : hstate -> N -> bytes -> dec_res hstate.
Variable enc_set_max : hstate -> N -> hstate.
Variable cfg : config.
Notation sconn := (sconn hstate).
Implicit Types c : sconn.


(* 1. a malformed request: the field that is refused gives PROTOCOL_ERROR (or ENHANCE_YOUR_CALM for a
   content-length above the body limit); by handle_frame_hdr_spec (hfo_reset) the whole block has been decoded
   by then, and the reaction is RST_STREAM on that stream, which is closed *)
Lemma cat_malformed_field h k v code : header_field cfg h k v = inl (EReset code) ->
  code = c_ProtocolError \/ (code = c_EnhanceYourCalm /\ bytes_eqb k S_content_length = true).
Proof. intro H. pose proof (header_field_spec cfg h k v) as S. rewrite H in S. apply S. Qed.

Lemma cat_stream_error_reaction c3 s3 code fr wc :
  fkind_eqb (sf_kind fr) KRst = false -> st_responded s3 = false ->
  ftail_rest cfg c3 s3 (Some (EReset code)) fr wc =
  (let s5 := set_state (set_state (set_weReset s3) SClosed) SClosed in
   let cc := close_stream (put (write_reset c3 (st_id s3) code) s5) s5 in
   if wc && can_close_after_goaway cc then brk cc else cont cc).
Proof. intros NR R. unfold ftail_rest. cbn [write_error]. apply after_frame_closed; [exact NR | reflexivity | exact R]. Qed.

(* 2. a request body over the limit: RST_STREAM(ENHANCE_YOUR_CALM), the connection window is credited *)
Lemma cat_body_over_limit c s fr :
  sf_kind fr = KData -> verify_state s fr = None -> st_headersFinished s = true -> sstate_rank (st_state s) < 3 ->
  (0 < cf_maxBody cfg)%Z -> (cf_maxBody cfg < st_recvBody s + Z.of_N (len (sf_payload fr)))%Z ->
  handle_frame dec_field cfg c s fr =
  (credit_conn_window cfg c (Z.of_N (sf_len fr)),
   set_recv s (st_recvBody s + Z.of_N (len (sf_payload fr)))%Z (st_req s), Some (EReset c_EnhanceYourCalm)).
Proof.
  intros K V HF RK M1 M2. unfold handle_frame. rewrite V, K, HF. cbn [negb].
  replace (3 <=? sstate_rank (st_state s)) with false by lia.
  replace ((0 <? cf_maxBody cfg)%Z && (cf_maxBody cfg <? st_recvBody s + Z.of_N (len (sf_payload fr)))%Z)%bool with true by lia.
  reflexivity.
Qed.

(* 3. a refused stream (concurrency limit, or the connection is closing): RST_STREAM(REFUSED_STREAM), the id is
   remembered as reset by the server, and the header block is decoded and dropped *)
Lemma cat_refused c fr :
  sf_kind fr = KHeaders -> sf_sid fr <> 0 ->
  (if sf_sid fr <=? sc_lastID c then strms_search (sc_strms c) (sf_sid fr) else None) = None ->
  in_ring c (sf_sid fr) = false -> sc_highestID c < sf_sid fr ->
  ((cf_maxStreams cfg <=? sc_open c)%Z || sc_closing c)%bool = true ->
  sl_frame dec_field enc_set_max cfg c fr =
  discard_or_break (discard_header_block dec_field cfg
    (mark_closed (write_reset (upd_highestID c (sf_sid fr)) (sf_sid fr) c_RefusedStreamError) (sf_sid fr) true) fr).
Proof.
  intros K NZ NF NR HI RF. unfold sl_frame. replace (sf_sid fr =? 0) with false by lia. rewrite K. cbn [fkind_eqb andb].
  rewrite NF, NR. cbn [andb]. replace (sf_sid fr <=? sc_highestID c) with false by lia. sc_cbn. rewrite RF. reflexivity.
Qed.

(* 4. the peer cancels a stream (RST_STREAM on a stream that is not idle): nothing is sent, the stream is closed
   (close_stream keeps its slot while the handler runs: sc_gone_close_stream, sc_open_close_stream) *)
Lemma cat_peer_rst c s fr : sf_kind fr = KRst -> st_state s <> SIdle ->
  handle_frame dec_field cfg c s fr = (c, s, None) /\ handle_state fr s = set_state s SClosed.
Proof.
  intros K NI. split.
  - unfold handle_frame, verify_state, continuing_headers. rewrite K. cbn [fkind_eqb andb orb].
    destruct (st_state s) eqn:E; try congruence; reflexivity.
  - unfold handle_state. rewrite K. reflexivity.
Qed.

Lemma cat_peer_rst_close c s fr wc : sf_kind fr = KRst ->
  (st_responded s && negb (st_handlerRunning s) && has_more_to_send s)%bool = false ->
  after_frame cfg c s fr wc =
  (let s' := set_state s SClosed in let cc := close_stream (put c s') s' in
   if wc && can_close_after_goaway cc then brk cc else cont cc).
Proof.
  intros K NS. unfold after_frame. unfold handle_state. rewrite K. cbn [fkind_eqb st_state set_state].
  unfold sstate_eqb. cbn [sstate_rank st_state set_state st_responded st_handlerRunning st_headersFinished].
  change (4 =? 3) with false. cbn [andb].
  replace (has_more_to_send (set_state s SClosed)) with (has_more_to_send s) by reflexivity. rewrite NS.
  cbn [st_state set_state sstate_rank]. change (4 =? 4) with true. reflexivity.
Qed.

(* 5. a WINDOW_UPDATE that takes a stream window over 2^31-1: RST_STREAM(FLOW_CONTROL_ERROR) *)
Lemma cat_window_overflow c s fr :
  sf_kind fr = KWinUpd -> verify_state s fr = None -> st_state s <> SIdle -> sf_inc fr <> 0 ->
  (MAXWIN < st_window s + Z.of_N (sf_inc fr))%Z ->
  handle_frame dec_field cfg c s fr = (c, set_window s (st_window s + Z.of_N (sf_inc fr)), Some (EReset c_FlowControlError)).
Proof.
  intros K V NI NZ OV. unfold handle_frame. rewrite V, K.
  replace (sstate_eqb (st_state s) SIdle) with false by (destruct (st_state s); try reflexivity; congruence).
  replace (sf_inc fr =? 0) with false by lia. cbv zeta.
  replace (MAXWIN <? st_window s + Z.of_N (sf_inc fr))%Z with true by lia. reflexivity.
Qed.

(* 6. frames still in flight for a stream the server has reset (the ring says weReset): DATA is dropped and the
   connection window credited; a header block is decoded and dropped; never a GOAWAY (unless the block itself
   does not decode: discard_fragment_spec) *)
Lemma cat_inflight_data c fr :
  sf_kind fr = KData -> sf_sid fr <> 0 ->
  (if sf_sid fr <=? sc_lastID c then strms_search (sc_strms c) (sf_sid fr) else None) = None ->
  in_ring c (sf_sid fr) = true -> ring_find c (sf_sid fr) = Some true ->
  sl_frame dec_field enc_set_max cfg c fr = cont (credit_conn_window cfg c (Z.of_N (sf_len fr))).
Proof.
  intros K NZ NF IR RFi. unfold sl_frame. replace (sf_sid fr =? 0) with false by lia. rewrite K. cbn [fkind_eqb andb].
  rewrite NF, IR, RFi. reflexivity.
Qed.

Lemma cat_inflight_headers c fr :
  sf_kind fr = KHeaders -> sf_sid fr <> 0 ->
  (if sf_sid fr <=? sc_lastID c then strms_search (sc_strms c) (sf_sid fr) else None) = None ->
  in_ring c (sf_sid fr) = true -> ring_find c (sf_sid fr) = Some true ->
  sl_frame dec_field enc_set_max cfg c fr = discard_or_break (discard_header_block dec_field cfg c fr).
Proof.
  intros K NZ NF IR RFi. unfold sl_frame. replace (sf_sid fr =? 0) with false by lia. rewrite K. cbn [fkind_eqb andb].
  rewrite NF, IR, RFi. reflexivity.
Qed.

Lemma cat_inflight_continuation c fr :
  sf_kind fr = KCont -> sf_sid fr <> 0 -> sc_discardID c = sf_sid fr ->
  sl_frame dec_field enc_set_max cfg c fr = discard_or_break (discard_header_block dec_field cfg c fr).
Proof.
  intros K NZ ED. unfold sl_frame. replace (sf_sid fr =? 0) with false by lia. rewrite K, ED. cbn [fkind_eqb andb].
  replace (negb (sf_sid fr =? 0)) with true by (symmetry; apply negb_true_iff; lia). rewrite N.eqb_refl. reflexivity.
Qed.

(* ... and a block that is dropped either decodes (the decoder and the carry follow the reference) or ends the
   connection because it does NOT decode: there is no third way *)
Lemma cat_discard_outcome c fr :
  df_out dec_field (if fkind_eqb (sf_kind fr) KCont then c else upd_discard c (sc_discardID c) [] 0) (sf_sid fr) (sf_payload fr)
         (flag_has (sf_flags fr) FL_EH)
         (fst (discard_header_block dec_field cfg c fr)) (snd (discard_header_block dec_field cfg c fr)).
Proof. apply dd_discard_header_block. Qed.

End Cat.

(* the one exception: the header LIST limit is a connection error (known finding) *)
Section Limit.
Variable cfg : config.

(* the exception, decidable: a size (of the header list so far, or of a carried incomplete field) above a
   configured limit *)
Definition over_header_list_limit (size : Z) : bool := ((0 <? cf_maxHeaderList cfg) && (cf_maxHeaderList cfg <? size))%Z.

Definition field_size (k v : bytes) : Z := (Z.of_N (len k) + Z.of_N (len v) + 32)%Z.
Fixpoint fields_size (fs : list (bytes * bytes)) : Z :=
  match fs with [] => 0 | (k, v) :: t => field_size k v + fields_size t end%Z.
Lemma fields_size_nonneg fs : (0 <= fields_size fs)%Z.
Proof. induction fs as [|[k v] t IH]; cbn [fields_size]; unfold field_size; lia. Qed.
Lemma over_mono a b : (a <= b)%Z -> over_header_list_limit b = false -> over_header_list_limit a = false.
Proof. unfold over_header_list_limit. lia. Qed.

(* header_field raises a connection error exactly when the list is over the limit *)
Lemma header_field_goaway_iff h k v code :
  header_field cfg h k v = inl (EGoAway code) <->
  code = c_EnhanceYourCalm /\ over_header_list_limit (hd_headerListSize h + field_size k v) = true.
Proof.
  pose proof (header_field_spec cfg h k v) as S. cbv zeta in S. unfold over_header_list_limit, field_size.
  rewrite Z.add_assoc, Z.add_assoc. split.
  - intro H. rewrite H in S. destruct S as [O ->]. auto.
  - intros [-> O]. unfold header_field. cbv zeta. rewrite O. reflexivity.
Qed.

Lemma header_field_size h k v h' : header_field cfg h k v = inr h' ->
  hd_headerListSize h' = (hd_headerListSize h + field_size k v)%Z.
Proof.
  intro H. pose proof (header_field_spec cfg h k v) as S. rewrite H in S. cbv zeta in S.
  unfold field_size. rewrite Z.add_assoc, Z.add_assoc. apply S.
Qed.

Variable hstate : Type.
Variable dec_field : hstate -> N -> bytes -> dec_res hstate.

(* the decoder consumes input: every decoded field takes at least one octet (for the real HPACK model:
   srv_dec_shrinks in Proofs/SrvIsoInst.v) *)
Hypothesis dec_shrinks : forall d n b k v rest d', dec_field d n b = DField _ k v rest d' -> (length rest < length b)%nat.

Lemma ref_pre_len d n b fs d' n' rest : ref_pre dec_field d n b fs d' n' rest -> (length rest + length fs <= length b)%nat.
Proof using dec_shrinks.
  induction 1 as [|d n b k v rest0 dm fs d' n' rest' Hb E H IH]; cbn [length]; [lia|].
  pose proof (dec_shrinks _ _ _ _ _ _ _ E). lia.
Qed.
Lemma ref_run_len eh d n b fs d' n' carry : ref_run dec_field eh d n b fs d' n' carry -> (length fs <= length b)%nat.
Proof using dec_shrinks.
  induction 1 as [d n|d n b d' Hb E|d n b d' Hb He E|d n b k v rest dm fs d' n' carry Hb E H IH]; cbn [length]; try lia.
  pose proof (dec_shrinks _ _ _ _ _ _ _ E). lia.
Qed.

(* OUTSIDE THE EXCEPTION a header block that decodes never ends the connection: whatever is wrong with its fields is
   a stream error. The loop: *)
Lemma header_loop_not_fatal eh d n b fs d' n' carry :
  ref_run dec_field eh d n b fs d' n' carry ->
  forall fuel h, hd_blockFields h = n -> (length fs < fuel)%nat ->
  over_header_list_limit (hd_headerListSize h + fields_size fs) = false ->
  let r := header_loop dec_field fuel cfg eh d h b in
  snd (fst r) = None \/ exists code, snd (fst r) = Some (EReset code).
Proof.
  clear dec_shrinks.
  induction 1 as [d n|d n b d' Hb E|d n b d' Hb He E|d n b k v rest dm fs d' n' carry Hb E H IH];
    intros [|fuel] h Hn Hf OV; try (cbn [length] in Hf; lia); cbn [header_loop]; cbv zeta.
  - left. reflexivity.
  - destruct b; [congruence|]. rewrite Hn, E. left. reflexivity.
  - destruct b; [congruence|]. rewrite Hn, E, He. left. reflexivity.
  - destruct b; [congruence|]. rewrite Hn, E. cbn [fields_size] in OV.
    destruct (header_field cfg h k v) as [e|h1] eqn:HF.
    + cbn [fst snd]. destruct (header_field_err cfg _ _ _ _ HF) as [F|[code ->]]; [|right; eexists; reflexivity].
      exfalso. destruct e as [code|code|]; cbn [fatal_err] in F; [|destruct F|].
      * apply header_field_goaway_iff in HF. destruct HF as [_ HF].
        pose proof (fields_size_nonneg fs) as NN.
        assert (OK : over_header_list_limit (hd_headerListSize h + field_size k v) = false) by (eapply over_mono; [|exact OV]; lia).
        congruence.
      * pose proof (header_field_spec cfg h k v) as S. rewrite HF in S. exact S.
    + apply IH.
      * destruct (header_field_inr cfg _ _ _ _ HF) as (_ & B & _). lia.
      * cbn [length] in Hf. lia.
      * rewrite (header_field_size _ _ _ _ HF). rewrite <- OV. f_equal. lia.
Qed.

Lemma ref_run_split d n b fs1 d1 n1 rest : ref_pre dec_field d n b fs1 d1 n1 rest ->
  forall eh fs d' n' carry, ref_run dec_field eh d n b fs d' n' carry ->
  exists fs2, fs = fs1 ++ fs2 /\ ref_run dec_field eh d1 n1 rest fs2 d' n' carry.
Proof.
  clear dec_shrinks.
  induction 1 as [|d n b k v rest0 dm fs1 d1 n1 rest' Hb E H IH]; intros eh fs d' n' carry R; [exists fs; auto|].
  inversion R as [d0 n0|d0 n0 b0 d0' Hb0 E0|d0 n0 b0 d0' Hb0 He0 E0|d0 n0 b0 k0 v0 rest1 dm0 fs0 d0' n0' carry0 Hb0 E0 R0]; subst; try congruence.
  rewrite E in E0. inversion E0; subst. destruct (IH _ _ _ _ _ R0) as (fs2 & -> & R2). exists fs2. auto.
Qed.

(* ... and the frame: a HEADERS / CONTINUATION frame that is acceptable in its stream's state and whose fragment
   decodes, with the header list and the carried bytes within the limit, never gives a connection error *)
Theorem header_frame_not_fatal (c : sconn hstate) s fr fs d' n' carry' :
  is_hdr_kind (sf_kind fr) = true -> verify_state s fr = None -> rank_ok s fr -> trailer_ok s fr ->
  (fkind_eqb (sf_kind fr) KHeaders && (sf_dep fr =? st_id s))%bool = false ->
  ref_run dec_field (eh_of fr) (sc_dec c) (hn0 s fr) (hb0 s fr) fs d' n' carry' ->
  over_header_list_limit (st_headerListSize s + fields_size fs) = false ->
  over_header_list_limit (Z.of_N (len carry')) = false ->
  snd (handle_frame dec_field cfg c s fr) = None \/ exists code, snd (handle_frame dec_field cfg c s fr) = Some (EReset code).
Proof using dec_shrinks.
  intros HK V [RK _] TO DEP R OV OC.
  assert (HH : snd (handle_header_frame dec_field cfg c s fr) = None \/ exists code, snd (handle_header_frame dec_field cfg c s fr) = Some (EReset code)).
  { unfold handle_header_frame. unfold trailer_ok in TO. rewrite TO, DEP. cbv zeta.
    fold (hh1 s fr). change (hd_prev (get_hdr s) ++ sf_payload fr) with (hb0 s fr). change (flag_has (sf_flags fr) FL_EH) with (eh_of fr).
    pose proof (ref_run_len _ _ _ _ _ _ _ _ R) as LEN.
    pose proof (header_loop_not_fatal _ _ _ _ _ _ _ _ R (S (length (hb0 s fr))) (hh1 s fr) (hh1_bf s fr)) as NF.
    cbv zeta in NF.
    destruct (header_loop dec_field (S (length (hb0 s fr))) cfg (eh_of fr) (sc_dec c) (hh1 s fr) (hb0 s fr)) as [[[d1 h2] e0] rest] eqn:HL.
    cbn [fst snd] in NF. specialize (NF (le_n_S _ _ LEN) OV).
    pose proof (header_loop_ref _ dec_field cfg _ _ _ _ _ _ _ _ _ HL) as SP. unfold header_loop_spec in SP.
    destruct NF as [->|[code ->]].
    - destruct SP as (fs' & hF & carry'' & R' & HF & -> & _). rewrite hh1_bf in R'.
      destruct (ref_run_det _ dec_field _ _ _ _ _ _ _ _ _ _ _ _ R R') as (_ & _ & _ & <-).
      destruct (hfold_frame cfg _ _ _ HF) as (PV & _ & _). cbn [hh1 hd_prev] in PV.
      cbn [hd_set_prev hd_prev]. rewrite PV. cbn [app]. unfold over_header_list_limit in OC. rewrite OC. left. reflexivity.
    - destruct SP as [(fs1 & k & v & RP & HF & FE)|[_ []]]. rewrite hh1_bf in RP.
      destruct (ref_run_split _ _ _ _ _ _ _ RP _ _ _ _ _ R) as (fs2 & _ & R2).
      pose proof (ref_run_len _ _ _ _ _ _ _ _ R2) as LEN2.
      unfold discard_fragment. sc_cbn. cbn [app].
      rewrite (discard_loop_complete _ dec_field _ _ _ _ _ _ _ _ R2 (S (length rest))) by lia.
      destruct (eh_of fr); cbn [fst snd]; [right; eexists; reflexivity|].
      unfold over_header_list_limit in OC. rewrite OC. cbn [fst snd]. right. eexists. reflexivity. }
  rewrite (handle_frame_hdr _ dec_field cfg c s fr HK), V. unfold hframe_hdr. rewrite RK.
  pose proof (handle_header_frame_spec _ dec_field cfg c s fr) as HS.
  destruct (handle_header_frame dec_field cfg c s fr) as [[c1 s1] e]. cbn [fst snd] in *.
  destruct HH as [->|[code ->]]; [|right; eexists; reflexivity].
  inversion HS as [| fs' hF d1 n1 carry1 TO' R' HF|]; subst.
  fold (eh_of fr). destruct (eh_of fr) eqn:EH; [|left; reflexivity].
  pose proof (ref_run_eh_carry _ _ _ _ _ _ _ _ _ R') as ->.
  cbn [set_hdr st_prev hd_set_prev hd_prev negb]. cbv zeta.
  destruct (validate_request_pseudo_headers _) as [e|] eqn:VR; [|left; reflexivity].
  apply validate_err in VR. subst e. right. eexists. reflexivity.
Qed.

End Limit.
