(* Proofs/SrvRfcDefs.v - C08: how the server model is observed against Spec/Rfc7540Streams.v.
   - abs_frame / abs_input : what the specification sees of a frame;
   - feed                  : the lockstep schedule (EvRL i; EvSL) and handler completions;
   - new_out, reaction_of  : what the model did with a frame, read off the trace delta;
   - spec_feed             : the specification state following the model (the frame's
                             reaction, then everything the server sent on its own account);
   - R                     : the abstraction relation (DESIGN.md Appendix F);
   - check_from            : an executable check of "every reaction is allowed" used to search
                             for counterexamples by vm_compute. *)
From H2V Require Import Base.Bytes Base.MachineInt Base.Result Gen.GenConsts Impl.ServerConn Proofs.SrvBase.
From H2V Require Spec.Rfc7540Streams.
From Coq Require Import ZArith Lia.
Local Open Scope N_scope.

Module RS := H2V.Spec.Rfc7540Streams.

(* ---------- abstraction of inputs ---------- *)

Definition abs_kind (k : fkind) : RS.kind :=
  match k with
  | KData => RS.DATA | KHeaders => RS.HEADERS | KPriority => RS.PRIORITY | KRst => RS.RST_STREAM
  | KSettings => RS.SETTINGS | KPush => RS.PUSH_PROMISE | KPing => RS.PING | KGoAway => RS.GOAWAY
  | KWinUpd => RS.WINDOW_UPDATE | KCont => RS.CONTINUATION
  end.

(* The flag bits are handed over as they are on the wire, whatever the frame type: the
   specification reads END_STREAM on DATA and HEADERS only, END_HEADERS on HEADERS and
   CONTINUATION only. *)
Definition abs_frame (f : sframe) : RS.frame :=
  RS.mkF (abs_kind (sf_kind f)) (sf_sid f) (flag_has (sf_flags f) FL_ES) (flag_has (sf_flags f) FL_EH)
         (match sf_kind f with KHeaders | KPriority => sf_dep f =? sf_sid f | _ => false end)
         (sf_inc f).

(* RBadFrame None: the frame reader failed without naming a code (short fixed-size frame,
   bad padding): the model closes; any code would do for the specification. *)
Definition abs_input (i : rl_input) : RS.input :=
  match i with
  | RFrame f => RS.Frame (abs_frame f)
  | RUnknownType => RS.UnknownType
  | RBadFrame (Some c) => RS.Malformed c
  | RBadFrame None => RS.Malformed c_FrameSizeError
  | RLEof => RS.Eof
  end.

Definition input_sid (i : rl_input) : N := match i with RFrame f => sf_sid f | _ => 0 end.

(* ---------- reading the trace ---------- *)

Fixpoint strip_late (o : outev) : outev := match o with OLate o' => strip_late o' | _ => o end.

Definition is_goaway (o : outev) : option N := match strip_late o with OGoAway _ code => Some code | _ => None end.
Definition is_exit (o : outev) : bool := match strip_late o with OExit _ _ | OPanic _ _ => true | _ => false end.
Definition is_rst (sid : N) (o : outev) : option N :=
  match strip_late o with ORst s code => if s =? sid then Some code else None | _ => None end.

Fixpoint first_some {A} (f : outev -> option A) (l : list outev) : option A :=
  match l with
  | [] => None
  | o :: t => match f o with Some x => Some x | None => first_some f t end
  end.

(* d: the outputs of the steps that dealt with the frame, oldest first.
   Process stands for "no error signalled": whether the frame took effect or was dropped
   cannot be read off the outputs; `resolve` lets the specification decide, and the
   relation R then checks that the model's stream state moved accordingly. *)
Definition classify (sid : N) (d : list outev) : RS.reaction :=
  match first_some is_goaway d with
  | Some code => RS.ConnErr code
  | None =>
    if existsb is_exit d then RS.ConnClose
    else match (if sid =? 0 then None else first_some (is_rst sid) d) with
         | Some code => RS.StreamErr code
         | None => RS.Process
         end
  end.

Definition resolve (s : RS.state) (i : RS.input) (r : RS.reaction) : RS.reaction :=
  match r with
  | RS.Process => if RS.may_process s i then RS.Process else RS.Ignore
  | _ => r
  end.

Definition sent_of (o : outev) : list RS.sent :=
  match strip_late o with
  | OHeaders sid true _ | OData sid true _ => [RS.SentEndStream sid]
  | ORst sid _ => [RS.SentRst sid]
  | OGoAway _ _ => [RS.SentGoAway]
  | OExit _ _ | OPanic _ _ => [RS.Closed_connection]
  | _ => []
  end.

Section Obs.
Variable hstate : Type.
Variable dec_field : hstate -> N -> bytes -> dec_res hstate.
Variable enc_field : hstate -> bytes -> bytes -> bool -> bytes * hstate.
Variable enc_set_max : hstate -> N -> hstate.
Variable cfg : config.
Notation sconn := (sconn hstate).
Notation step := (step dec_field enc_field enc_set_max cfg).

(* ---------- the schedule ---------- *)

Inductive local : Type := LClock (t : Z) | LTimer | LIdle | LCloser.
Definition local_event (l : local) : event :=
  match l with LClock t => EvClock t | LTimer => EvTimer | LIdle => EvIdle | LCloser => EvCloser end.

Inductive item : Type :=
| IIn (i : rl_input)                 (* the peer's next frame: read loop, then stream loop *)
| IDone (sid : N) (r : response)     (* a handler returns *)
| ILocal (l : local).                (* time passes, timers fire *)

Definition feed (c : sconn) (it : item) : sconn :=
  match it with
  | IIn i => step (step c (EvRL i)) EvSL
  | IDone sid r => step c (EvDone sid r)
  | ILocal l => step c (local_event l)
  end.

(* outputs added between c and c', oldest first *)
Definition new_out (c c' : sconn) : list outev :=
  rev (firstn (length (sc_out c') - length (sc_out c)) (sc_out c')).

Definition reaction_of (c : sconn) (i : rl_input) (c' : sconn) : RS.reaction :=
  classify (input_sid i) (new_out c c').

(* The closed streams the model no longer remembers are forgotten by the specification too
   (RFC 5.1: "an endpoint MAY choose to limit the period over which it ignores frames"): the
   period is the time the id stays in the 256-entry ring. *)
Definition sync_forget (c' : sconn) (s : RS.state) : RS.state :=
  fold_left (fun s id => if in_ring c' id then s else RS.forget s id) (map fst (RS.known s)) s.

(* the specification follows: the reaction to the frame, then what the server sent on its
   own account in the same steps, then the closed streams it has stopped remembering *)
Definition spec_feed (c : sconn) (it : item) (s : RS.state) : RS.state :=
  let c' := feed c it in
  let s1 := match it with
            | IIn i => RS.spec_next s (abs_input i) (resolve s (abs_input i) (reaction_of c i c'))
            | _ => s
            end in
  sync_forget c' (fold_left RS.spec_sent (flat_map sent_of (new_out c c')) s1).

Definition item_ok (c : sconn) (it : item) (s : RS.state) : bool :=
  match it with
  | IIn i => RS.allowed s (abs_input i) (resolve s (abs_input i) (reaction_of c i (feed c it)))
  | _ => true
  end.

(* ---------- the places where the model is known to differ from the RFC ---------- *)

(* D1: a PRIORITY frame on an even stream id (an idle stream of the server's own id space,
       RFC 6.3 allows it) is a connection error in the read loop.
   D3: a WINDOW_UPDATE on a stream the peer itself closed with RST_STREAM is ignored
       (RFC 5.1: stream error STREAM_CLOSED); the ring does not record who closed.
   D6: a SETTINGS or GOAWAY frame carrying the id of a recently closed or half-closed stream is
       answered with GOAWAY(STREAM_CLOSED); RFC 6.5/6.8 name PROTOCOL_ERROR.
   D7: the peer resets a stream whose response still has bytes to send: sendData runs once more on it, and if the
       body reader fails right then RST_STREAM(INTERNAL_ERROR) goes out in the same step as the peer's RST_STREAM
       is processed (RFC 6.4).  Only when no read bytes are waiting or both send windows are open at that moment:
       the stream loop leaves no stream in such a state (sendData only stops on a closed window with bytes in hand;
       the window half is C06_no_stall), but that invariant is not part of this proof, and the bounded search never
       meets the case. *)
Definition known_deviation (c : sconn) (s : RS.state) (i : rl_input) : bool :=
  match i with
  | RFrame f =>
    match sf_kind f with
    | KPriority => N.even (sf_sid f) && negb (sf_sid f =? 0)
    | KSettings | KGoAway =>
      negb (sf_sid f =? 0) &&
      (in_ring c (sf_sid f) ||
       match strms_search (sc_strms c) (sf_sid f) with Some st => sstate_eqb (st_state st) SHalfClosed | None => false end)
    | KRst =>
      match strms_search (sc_strms c) (sf_sid f) with
      | Some st => st_responded st && negb (st_handlerRunning st) && has_more_to_send st &&
                   (match st_pending st with [] => true | _ => false end || (0 <? zmin (st_window st) (sc_clientWindow c))%Z)
      | None => false
      end
    | KWinUpd =>
      match ring_find c (sf_sid f), RS.st_of s (sf_sid f) with
      | Some false, RS.Closed RS.PeerRst => true
      | _, _ => false
      end
    | _ => false
    end
  | _ => false
  end.

(* ---------- the frames seen on each stream ---------- *)

Definition frames_on (sid : N) (its : list item) : list RS.frame :=
  flat_map (fun it => match it with
                      | IIn (RFrame f) => if sf_sid f =? sid then [abs_frame f] else []
                      | _ => []
                      end) its.

(* ---------- the abstraction relation ---------- *)

Definition tbl (c : sconn) (id : N) : option stream := strms_search (sc_strms c) id.

(* how one stream id looks in the model *)
Inductive mview : Type :=
| MTbl (st : sstate)     (* in the stream table, with this state *)
| MRing (weReset : bool) (* closed and remembered in the ring; reset by the server or not *)
| MOld                   (* not above the highest id the peer has used, and forgotten *)
| MNew.                  (* above the highest id the peer has used *)

Definition view (c : sconn) (id : N) : mview :=
  match tbl c id with
  | Some st => MTbl (st_state st)
  | None =>
    match ring_find c id with
    | Some b => MRing b
    | None => if id <=? sc_highestID c then MOld else MNew
    end
  end.

(* ... and what the specification must think of it *)
Definition rel (m : mview) (x : RS.sstate) : Prop :=
  match m with
  | MTbl SOpen => x = RS.Open
  | MTbl SHalfClosed => x = RS.HalfClosedRemote
  | MTbl _ => False
  | MRing true => x = RS.Closed RS.WeRst
  | MRing false => x = RS.Closed RS.PeerEnd \/ x = RS.Closed RS.PeerRst
  | MOld => x = RS.Closed RS.Implicit
  | MNew => x = RS.Idle
  end.

Definition R_stream (c : sconn) (s : RS.state) (id : N) : Prop := rel (view c id) (RS.st_of s id).

Definition R_block (c : sconn) (s : RS.state) : Prop :=
  RS.block s = if sc_expectCont c =? 0 then None else Some (sc_expectCont c).

(* While both loops run: between two items of the lockstep schedule the forwarding queue
   is empty and every stream id looks the same on both sides.  Once a loop has ended nothing
   is processed any more, and the specification has seen the connection die. *)
Definition over (c : sconn) : bool := sc_sl_done c || sc_rl_done c.

Definition R (c : sconn) (s : RS.state) : Prop :=
  if over c then RS.dead s = true
  else sc_readerQ c = [] /\ (forall id, N.odd id = true -> R_stream c s id) /\ R_block c s /\
       RS.goaway s = sc_closing c /\ RS.highest s = sc_highestID c.

(* the same, decidable on a finite set of ids (for the search) *)
Definition sstate_eqb' (a b : RS.sstate) : bool :=
  match a, b with
  | RS.Idle, RS.Idle | RS.Open, RS.Open | RS.HalfClosedRemote, RS.HalfClosedRemote
  | RS.HalfClosedLocal, RS.HalfClosedLocal => true
  | RS.Closed RS.PeerEnd, RS.Closed RS.PeerEnd | RS.Closed RS.PeerRst, RS.Closed RS.PeerRst
  | RS.Closed RS.WeRst, RS.Closed RS.WeRst | RS.Closed RS.Implicit, RS.Closed RS.Implicit => true
  | _, _ => false
  end.
Definition is_closed (x : RS.sstate) : bool := match x with RS.Closed _ => true | _ => false end.

Definition rel_b (m : mview) (x : RS.sstate) : bool :=
  match m with
  | MTbl SOpen => sstate_eqb' x RS.Open
  | MTbl SHalfClosed => sstate_eqb' x RS.HalfClosedRemote
  | MTbl _ => false
  | MRing true => sstate_eqb' x (RS.Closed RS.WeRst)
  | MRing false => sstate_eqb' x (RS.Closed RS.PeerEnd) || sstate_eqb' x (RS.Closed RS.PeerRst)
  | MOld => sstate_eqb' x (RS.Closed RS.Implicit)
  | MNew => sstate_eqb' x RS.Idle
  end.
Definition R_stream_b (c : sconn) (s : RS.state) (id : N) : bool := rel_b (view c id) (RS.st_of s id).

Definition R_b (ids : list N) (c : sconn) (s : RS.state) : bool :=
  if over c then RS.dead s
  else forallb (fun id => negb (N.odd id) || R_stream_b c s id) ids
   && match RS.block s with None => sc_expectCont c =? 0 | Some b => negb (b =? 0) && (sc_expectCont c =? b) end
   && Bool.eqb (RS.goaway s) (sc_closing c) && (RS.highest s =? sc_highestID c)
   && match sc_readerQ c with [] => true | _ => false end.

(* ---------- running both side by side ---------- *)

(* 0: fine; k+1: the k-th item (from 0) got a reaction the specification does not allow;
   1000+k+1: R fails (on `ids`) after the k-th item *)
Fixpoint check_from (ids : list N) (k : nat) (c : sconn) (s : RS.state) (its : list item) : nat :=
  match its with
  | [] => O
  | it :: t =>
    if negb (item_ok c it s) then S k
    else
      let c' := feed c it in
      let s' := spec_feed c it s in
      if negb (R_b ids c' s') then (1000 + S k)%nat else check_from ids (S k) c' s' t
  end.

Fixpoint run_items (c : sconn) (s : RS.state) (its : list item) : sconn * RS.state :=
  match its with
  | [] => (c, s)
  | it :: t => run_items (feed c it) (spec_feed c it s) t
  end.

End Obs.
