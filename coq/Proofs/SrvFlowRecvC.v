(* Proofs/SrvFlowRecvC.v - C14 (server), which DATA frames are debited from the connection receive window:
   exactly those on a stream of the table that can take DATA, and those on a stream the server itself reset
   and still remembers; every other DATA frame ends the connection (GOAWAY). *)
From H2V Require Import Base.Bytes Base.MachineInt Base.Result Gen.GenConsts Impl.ServerConn Proofs.SrvBase
  Spec.FlowLedger Proofs.SrvFlowLedger Proofs.SrvFlowDefs Proofs.SrvFlowSend Proofs.SrvFlowEff Proofs.SrvFlowRecv.
From Coq Require Import ZArith Lia ZifyN ZifyNat ZifyBool List.
Import ListNotations.
Local Open Scope N_scope.
Set Default Proof Using "Type".

Section Acct.
Variable hstate : Type.
Variable dec_field : hstate -> N -> bytes -> dec_res hstate.
Variable enc_field : hstate -> bytes -> bytes -> bool -> bytes * hstate.
Variable enc_set_max : hstate -> N -> hstate.
Variable cfg : config.
Notation sconn := (sconn hstate).
Implicit Types c : sconn.
Notation CStep := (CStep hstate cfg).
Notation NoCredit := (NoCredit hstate).
Notation step := (step dec_field enc_field enc_set_max cfg).

(* the stream can take DATA (open, header block finished), or the server reset it and still remembers *)
Definition data_creditable c (fr : sframe) : bool :=
  match (if sf_sid fr <=? sc_lastID c then strms_search (sc_strms c) (sf_sid fr) else None) with
  | Some s => data_accepts s
  | None => in_ring c (sf_sid fr) && match ring_find c (sf_sid fr) with Some b => b | None => false end
  end.

Lemma NoCredit_upd_strms c l : NoCredit c (upd_strms c l).
Proof. split; [apply Frame_upd_strms | apply out_ext_same; reflexivity]. Qed.

Lemma dead_end c0 c2 (sid code : N) x : NoCredit c0 c2 ->
  sc_closing (fst (brk (put (write_goaway c2 sid code) x))) = true /\
  CStep c0 (fst (brk (put (write_goaway c2 sid code) x))) 0.
Proof.
  intro N0. split; [unfold brk, note; cbn [fst]; sc_cbn; rewrite sc_closing_put; apply sc_closing_write_goaway|].
  apply CStep_NoCredit. eapply NoCredit_trans; [exact N0|].
  eapply NoCredit_trans; [apply NoCredit_Quiet, Quiet_write_goaway|].
  eapply NoCredit_trans; [apply NoCredit_put | apply NoCredit_Quiet, Quiet_brk].
Qed.

Lemma goaway_cont c (sid code : N) :
  sc_closing (fst (cont (write_goaway c sid code))) = true /\ CStep c (fst (cont (write_goaway c sid code))) 0.
Proof.
  cbn [fst cont]. split; [apply sc_closing_write_goaway | apply CStep_NoCredit, NoCredit_Quiet, Quiet_write_goaway].
Qed.

Theorem data_accounting c fr : cfg_ok cfg -> sf_kind fr = KData -> sf_sid fr <> 0 -> wire_ok fr ->
  let c' := fst (sl_frame dec_field enc_set_max cfg c fr) in
  if data_creditable c fr then CStep c c' (Z.of_N (sf_len fr))
  else sc_closing c' = true /\ CStep c c' 0.
Proof.
  intros Cfg K NZ WO. cbv zeta.
  assert (Z0 : (sf_sid fr =? 0) = false) by flia.
  assert (DC : fkind_eqb (sf_kind fr) KCont && negb (sc_discardID c =? 0) && (sf_sid fr =? sc_discardID c) = false)
    by (rewrite K; reflexivity).
  assert (LN : (0 <= Z.of_N (sf_len fr))%Z) by flia.
  rewrite (sl_frame_stream _ dec_field enc_set_max cfg c fr Z0 DC).
  unfold data_creditable, sl_pre. cbv zeta.
  destruct (if sf_sid fr <=? sc_lastID c then strms_search (sc_strms c) (sf_sid fr) else None) as [s|] eqn:FD.
  - (* a stream of the table *)
    assert (Id : st_id s = sf_sid fr).
    { destruct (sf_sid fr <=? sc_lastID c); [|discriminate]. apply strms_search_In in FD. apply FD. }
    unfold sl_tail. rewrite K. cbn [fkind_eqb].
    pose proof (handle_frame_data _ dec_field cfg c s fr K) as HD. cbv zeta in HD.
    destruct (data_accepts s).
    + rewrite HD. match goal with |- context [if ?b then _ else _] => destruct b end; cbn [write_error].
      * eapply (CStep_eq _ _ _ _ (Z.of_N (sf_len fr) + (0 + 0))%Z); [flia|].
        eapply CStep_trans; [apply credit_cstep; assumption|].
        eapply CStep_trans; [apply CStep_NoCredit, NoCredit_Quiet, Quiet_write_reset | apply CStep_NoCredit, after_frame_NoCredit].
      * eapply (CStep_eq _ _ _ _ (Z.of_N (sf_len fr) + 0)%Z); [flia|].
        eapply CStep_trans; [apply consume_cstep; [exact Cfg | unfold wire_ok in WO; flia | cbn [st_id set_recv]; rewrite Id; exact NZ]|].
        apply CStep_NoCredit, after_frame_NoCredit.
    + destruct HD as (code & NE & ->). cbn [write_error].
      assert (NE' : negb (code =? c_NoError) = true) by flia. rewrite NE'.
      apply dead_end. apply NoCredit_refl.
  - (* no such stream *)
    rewrite K. cbn [fkind_eqb andb].
    destruct (in_ring c (sf_sid fr)) eqn:IR; cbn [andb].
    + destruct (match ring_find c (sf_sid fr) with Some b => b | None => false end).
      * cbn [fst cont]. apply credit_cstep; assumption.
      * apply goaway_cont.
    + destruct (sf_sid fr <? sc_lastID c); [apply goaway_cont|].
      unfold sl_tail. rewrite K. cbn [fkind_eqb].
      match goal with |- context [handle_frame dec_field cfg ?c2 ?s fr] =>
        assert (HF : handle_frame dec_field cfg c2 s fr = (c2, s, Some (EGoAway c_ProtocolError)))
          by (unfold handle_frame, verify_state; rewrite K; reflexivity);
        rewrite HF end.
      cbn [write_error]. change (negb (c_ProtocolError =? c_NoError)) with true. cbn iota.
      apply dead_end. apply NoCredit_upd_strms.
Qed.
End Acct.
