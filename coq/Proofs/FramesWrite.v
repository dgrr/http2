(* C05, write half: WriteTo puts on the wire exactly the RFC encoding of the frame the
   API value stands for. *)
From Coq Require Import List NArith ZArith Bool Lia.
From Coq Require Import ZifyN ZifyNat ZifyBool.
From H2V Require Import Base.Bytes Base.MachineInt Base.Result Gen.GenConsts Spec.Rfc7540Frames
  Impl.Pools Impl.Frames Impl.FrameView Proofs.HpackBytes Proofs.FramesBits Proofs.FramesSpec.
Import ListNotations.
Local Open Scope N_scope.
Ltac Zify.zify_post_hook ::= Z.div_mod_to_equations.

Lemma flags_of_lt pre bd : pre < 256 -> flags_of pre bd < 256.
Proof.
  intros H. destruct bd; cbn [flags_of]; try assumption;
    repeat first [ assumption | apply (set_bit_lt _ 0 _ 8) | apply (set_bit_lt _ 2 _ 8)
                 | apply (set_bit_lt _ 3 _ 8) | apply (set_bit_lt _ 5 _ 8) | reflexivity ].
Qed.

(* the PADDED / PRIORITY / ACK bits that go out are the ones the body asks for *)
Lemma flag_padded_data pre es hp b : flag (flags_of pre (BData es hp b)) PADDED = hp.
Proof. apply (flag_set_bit _ 3). Qed.

Lemma flags_headers pre hp st w es eh pr raw :
  flag (flags_of pre (BHeaders hp st w es eh pr raw)) PADDED = hp /\
  flag (flags_of pre (BHeaders hp st w es eh pr raw)) PRIORITY_FLAG = pr.
Proof.
  cbn [flags_of]. split; [apply (flag_set_bit _ 3)|].
  rewrite (flag_set_bit _ 3). apply (flag_set_bit _ 5).
Qed.

Lemma flag_ack_settings pre st : flag (flags_of pre (BSettings st)) ACK = st_ack st.
Proof. apply (flag_set_bit _ 0). Qed.

Lemma flag_padded_pp pre pad ended st hdr : flag (flags_of pre (BPushPromise pad ended st hdr)) PADDED = false.
Proof. apply (flag_set_bit _ 3). Qed.

Lemma len_repeat0 n : len (repeat 0 (N.to_nat n)) = n.
Proof. unfold len. rewrite repeat_length. apply N2Nat.id. Qed.

Lemma add_padding_spec b n : 9 <= n -> n < 256 ->
  add_padding b n = Ok (with_pad (Some (repeat 0 (N.to_nat n))) b).
Proof.
  intros L H. unfold add_padding, with_pad.
  assert (len b + n =? 0 = false) as -> by (apply N.eqb_neq; lia).
  rewrite len_repeat0, u8_small by assumption. reflexivity.
Qed.

Lemma low31_mod s : N.land s mask31 = s mod 2 ^ 31.
Proof. apply mask31_low31. Qed.

Lemma word31_false v : word31 false v = v.
Proof. reflexivity. Qed.

Lemma settings_encode_spec st :
  settings_encode st = flat_map setting_bytes (sent_settings st).
Proof.
  unfold settings_encode, sent_settings.
  change c_defaultHeaderTableSize with 4096. change c_defaultWindowSize with 65535.
  change c_defaultDataFrameSize with 16384.
  change c_HeaderTableSize with 1. change c_EnablePush with 2. change c_MaxConcurrentStreams with 3.
  change c_MaxWindowSize with 4. change c_MaxFrameSize with 5. change c_MaxHeaderListSize with 6.
  rewrite !flat_map_app, !setting_entry_be.
  destruct (st_tableSize st =? 4096); destruct (st_enablePush st); destruct (st_windowSize st =? 65535);
    destruct (st_frameSize st =? 0); destruct (st_frameSize st =? 16384); destruct (st_headerSize st =? 0);
    cbn [negb andb orb flat_map setting_bytes fst snd app]; rewrite ?app_nil_r; reflexivity.
Qed.

Lemma of_signed32_lt z : of_signed 32 z < 2 ^ 32.
Proof. unfold of_signed. change (Z.of_N (2 ^ 32)) with 4294967296%Z. change (2 ^ 32) with 4294967296. lia. Qed.

Definition same_value (bd bd1 : body) : Prop :=
  body_type bd1 = body_type bd /\ (body_ok bd -> body_ok bd1) /\
  forall pre s pn, frame_of pre s bd1 pn = frame_of pre s bd pn.

Lemma same_value_refl bd : same_value bd bd.
Proof. unfold same_value. split; [reflexivity|]. split; [auto|reflexivity]. Qed.

Lemma serialize_spec f bd padn : 9 <= padn -> padn < 256 ->
  exists f1 bd1, serialize f bd padn = Ok (f1, bd1) /\
    fh_flags f1 = flags_of (fh_flags f) bd /\ fh_payload f1 = payload_bytes (payload_of bd padn) /\
    fh_kind f1 = fh_kind f /\ fh_stream f1 = fh_stream f /\ fh_maxLen f1 = fh_maxLen f /\
    same_value bd bd1.
Proof.
  intros L H.
  destruct bd as [es hp b|hp st w es eh pr raw|st w|c|st|pad ended st hdr|ack d|st c d|inc|eh raw];
    cbn [serialize payload_of flags_of pad_of].
  - destruct hp.
    + rewrite (add_padding_spec b padn L H). cbn [bind]. do 2 eexists. split; [reflexivity|].
      cbn [fh_flags fh_payload fh_kind fh_stream fh_maxLen set_payload set_flags payload_bytes].
      repeat (split; [reflexivity|]); try apply same_value_refl.
    + do 2 eexists. split; [reflexivity|].
      cbn [fh_flags fh_payload fh_kind fh_stream fh_maxLen set_payload set_flags payload_bytes with_pad].
      repeat (split; [reflexivity|]); try apply same_value_refl.
  - assert ((if pr then uint32_to_bytes (N.land st mask31) ++ [w] else []) ++ raw =
            (match (if pr then Some (mkPrio false (st mod 2 ^ 31) w) else None) with
             | Some p => prio_bytes p | None => [] end) ++ raw) as E.
    { destruct pr; [|reflexivity]. unfold prio_bytes. cbn [p_excl p_dep p_weight].
      rewrite word31_false, uint32_to_bytes_be, low31_mod. reflexivity. }
    rewrite E. destruct hp.
    + rewrite (add_padding_spec _ padn L H). cbn [bind]. do 2 eexists. split; [reflexivity|].
      cbn [fh_flags fh_payload fh_kind fh_stream fh_maxLen set_payload set_flags payload_bytes].
      repeat (split; [reflexivity|]); try apply same_value_refl.
    + do 2 eexists. split; [reflexivity|].
      cbn [fh_flags fh_payload fh_kind fh_stream fh_maxLen set_payload set_flags payload_bytes with_pad].
      repeat (split; [reflexivity|]); try apply same_value_refl.
  - do 2 eexists. split; [reflexivity|].
    cbn [fh_flags fh_payload fh_kind fh_stream fh_maxLen set_payload payload_bytes].
    unfold prio_bytes. cbn [p_excl p_dep p_weight]. rewrite word31_false, uint32_to_bytes_be.
    repeat (split; [reflexivity|]); try apply same_value_refl.
  - do 2 eexists. split; [reflexivity|].
    cbn [fh_flags fh_payload fh_kind fh_stream fh_maxLen set_payload set_length payload_bytes].
    rewrite uint32_to_bytes_be. repeat (split; [reflexivity|]); try apply same_value_refl.
  - destruct (st_ack st) eqn:A.
    + do 2 eexists. split; [reflexivity|].
      cbn [fh_flags fh_payload fh_kind fh_stream fh_maxLen set_payload set_flags payload_bytes flat_map].
      repeat (split; [reflexivity|]); try apply same_value_refl.
    + do 2 eexists. split; [reflexivity|].
      cbn [fh_flags fh_payload fh_kind fh_stream fh_maxLen set_payload set_flags payload_bytes].
      rewrite settings_encode_spec. split; [reflexivity|]. split; [reflexivity|].
      split; [reflexivity|]. split; [reflexivity|]. split; [reflexivity|].
      destruct st. unfold same_value. split; [reflexivity|]. split; [auto|reflexivity].
  - do 2 eexists. split; [reflexivity|].
    cbn [fh_flags fh_payload fh_kind fh_stream fh_maxLen set_payload set_flags payload_bytes with_pad].
    rewrite word31_false, uint32_to_bytes_be, low31_mod. repeat (split; [reflexivity|]); try apply same_value_refl.
  - do 2 eexists. split; [reflexivity|].
    cbn [fh_flags fh_payload fh_kind fh_stream fh_maxLen set_payload set_flags payload_bytes].
    repeat (split; [reflexivity|]); try apply same_value_refl.
  - do 2 eexists. split; [reflexivity|].
    cbn [fh_flags fh_payload fh_kind fh_stream fh_maxLen set_payload payload_bytes].
    rewrite word31_false, !uint32_to_bytes_be. repeat (split; [reflexivity|]); try apply same_value_refl.
  - do 2 eexists. split; [reflexivity|].
    cbn [fh_flags fh_payload fh_kind fh_stream fh_maxLen set_payload set_length payload_bytes].
    rewrite uint32_to_bytes_be, word31_top_low by apply of_signed32_lt. repeat (split; [reflexivity|]); try apply same_value_refl.
  - do 2 eexists. split; [reflexivity|].
    cbn [fh_flags fh_payload fh_kind fh_stream fh_maxLen set_payload set_flags payload_bytes].
    repeat (split; [reflexivity|]); try apply same_value_refl.
Qed.

(* the frame the value stands for is well-formed *)
Lemma body_type_code bd padn : of_signed 8 (body_type bd) = type_code (payload_of bd padn).
Proof. destruct bd; reflexivity. Qed.

Lemma wf_pad_of fl hp padn : padn < 256 -> flag fl PADDED = hp -> wf_pad fl (pad_of hp padn).
Proof.
  intros H F. unfold pad_of, wf_pad. destruct hp; [|exact F].
  split; [exact F|]. split; [apply bytes_ok_repeat0|]. rewrite len_repeat0. assumption.
Qed.

Lemma mod31_lt s : s mod 2 ^ 31 < 2 ^ 31.
Proof. apply N.mod_lt. discriminate. Qed.

Lemma sent_settings_wf st : body_ok (BSettings st) -> Forall wf_setting (sent_settings st).
Proof.
  cbn [body_ok]. intros (H1 & H3 & H4 & H5 & H6). unfold sent_settings.
  repeat (apply Forall_app; split);
    repeat match goal with |- context [if ?c then _ else _] => destruct c end;
    repeat constructor; cbn [fst snd]; try assumption;
    try (change (2 ^ 16) with 65536; lia); try (change (2 ^ 32) with 4294967296; lia).
Qed.

Lemma wf_frame_of pre s bd padn :
  pre < 256 -> s < 2 ^ 32 -> body_ok bd -> padn < 256 ->
  payload_len (frame_of pre s bd padn) < 2 ^ 24 -> wf (frame_of pre s bd padn).
Proof.
  intros Hp Hs Hb Hn Hl. unfold wf, frame_of in *. cbn [f_flags f_stream f_body] in *.
  split; [apply flags_of_lt; assumption|]. split; [apply low31_lt|]. split; [exact Hl|]. clear Hl.
  destruct bd as [es hp b|hp st w es eh pr raw|st w|c|st|pad ended st hdr|ack d|st c d|inc|eh raw];
    cbn [payload_of wf_body body_ok] in *.
  - split; [|exact Hb]. apply wf_pad_of; [assumption|]. apply flag_padded_data.
  - destruct Hb as (H1 & H2 & H3). destruct (flags_headers pre hp st w es eh pr raw) as [FP FQ].
    split; [apply wf_pad_of; assumption|]. split; [assumption|].
    destruct pr; [|exact FQ]. split; [exact FQ|]. split; [apply mod31_lt|assumption].
  - exact Hb.
  - exact Hb.
  - rewrite (flag_ack_settings pre st). destruct (st_ack st).
    + split; [constructor|reflexivity].
    + split; [apply sent_settings_wf; exact Hb|discriminate].
  - destruct Hb as [H1 H2]. split; [apply (flag_padded_pp pre pad ended st hdr)|].
    split; [apply mod31_lt|assumption].
  - exact Hb.
  - exact Hb.
  - apply low31_lt.
  - exact Hb.
Qed.

Theorem write_to_spec f bd padn :
  fh_body f = Some bd -> fh_kind f = body_type bd -> fh_flags f < 256 -> fh_stream f < 2 ^ 32 ->
  body_ok bd -> 9 <= padn -> padn < 256 ->
  let fr := frame_of (fh_flags f) (fh_stream f) bd padn in
  payload_len fr < 2 ^ 24 ->
  wf fr /\
  exists f' bd', write_to f padn = Ok (spec_write fr, f') /\
    fh_body f' = Some bd' /\ same_value bd bd' /\ fh_kind f' = fh_kind f /\
    fh_flags f' = f_flags fr /\ fh_stream f' = fh_stream f.
Proof.
  intros Hb Hk Hf Hs Ho L9 L256 fr Hl.
  pose proof (wf_frame_of _ _ _ _ Hf Hs Ho L256 Hl) as W. split; [exact W|].
  destruct (serialize_spec f bd padn L9 L256) as (f1 & bd1 & S & F1 & P1 & K1 & S1 & M1 & SV).
  unfold write_to. rewrite Hb, S. cbn [bind].
  do 2 eexists. split.
  - f_equal. f_equal.
    unfold spec_write, parse_header_bytes, header_bytes.
    cbn [fh_length fh_kind fh_flags fh_stream fh_payload put_body set_length].
    rewrite P1, F1, K1, S1, Hk.
    unfold fr, payload_len in *. unfold frame_of in *. cbn [f_body f_flags f_rsv f_stream] in *.
    rewrite u32_small by (change (2 ^ 32) with 4294967296; change (2 ^ 24) with 16777216 in Hl; lia).
    rewrite uint24_to_bytes_be, uint32_to_bytes_be, (body_type_code bd padn).
    rewrite u8_small by (apply flags_of_lt; assumption).
    rewrite word31_top_low by assumption. reflexivity.
  - cbn [fh_body fh_kind fh_flags fh_stream put_body set_length].
    split; [reflexivity|]. split; [exact SV|]. split; [exact K1|]. split; [exact F1|exact S1].
Qed.

(* SETTINGS: the peer that applies the parameters on the wire to the RFC's initial values
   ends up with exactly the values the accessors hold (MaxFrameSize 0 = "not set") *)
Theorem settings_meaning st :
  st_frameSize st <> 0 ->
  apply_settings initial_params (sent_settings st) = params_of st.
Proof.
  intros NZ. unfold sent_settings, apply_settings, params_of, initial_params.
  rewrite !fold_left_app.
  destruct (st_tableSize st =? 4096) eqn:A; [apply N.eqb_eq in A|];
  destruct (st_enablePush st);
  destruct (st_windowSize st =? 65535) eqn:C; try apply N.eqb_eq in C;
  destruct (st_frameSize st =? 0) eqn:D; try (apply N.eqb_eq in D; contradiction);
  destruct (st_frameSize st =? 16384) eqn:E; try apply N.eqb_eq in E;
  destruct (st_headerSize st =? 0) eqn:F;
  cbn [fold_left apply_setting fst snd orb]; try rewrite A; try rewrite C; try rewrite E; reflexivity.
Qed.
