(* Proofs/SrvFlowCExactB.v - C06 completion: exact windows, part 2: flushStreams, afterFrame, the frame arm, every
   step, and the theorem over runs. *)
From H2V Require Import Base.Bytes Base.MachineInt Base.Result Gen.GenConsts Impl.ServerConn Proofs.SrvBase
  Spec.FlowLedger Proofs.SrvFlowLedger Proofs.SrvFlowDefs Proofs.SrvFlowSend Proofs.SrvFlowEff Proofs.SrvFlowSafe
  Proofs.SrvFlowSafeB Proofs.SrvFlowSafeC Proofs.SrvFlowRecv Proofs.SrvFlowStall Proofs.SrvFlowCDecomp Proofs.SrvFlowCRing Proofs.SrvFlowCExact.
From Coq Require Import ZArith Lia ZifyN ZifyNat ZifyBool List.
Import ListNotations.
Local Open Scope N_scope.
Set Default Proof Using "Type".

Section Exact2.
Variable hstate : Type.
Variable dec_field : hstate -> N -> bytes -> dec_res hstate.
Variable enc_field : hstate -> bytes -> bytes -> bool -> bytes * hstate.
Variable enc_set_max : hstate -> N -> hstate.
Variable cfg : config.
Notation sconn := (sconn hstate).
Implicit Types c : sconn.
Notation Sim := (SimX hstate None).
Notation LedOn := (LedOn hstate).
Notation ExX := (ExX hstate).
Notation RI := (RI hstate).

Lemma send_data_wl c s : sc_wl_dead (fst (fst (send_data c s))) = sc_wl_dead c.
Proof. apply (f_wl_dead _ _ _ (proj1 (send_data_NoCredit _ c s))). Qed.

(* a piece of a step that keeps the windows exact *)
Definition GoodX c (L : ledger) c' : Prop :=
  exists L', LedOn (fun _ => True) c L c' L' /\ (sc_sl_done c' = true \/ ExX None c' L').

Lemma flush_loop_exact ids : forall c done L, Sim c L -> ExX None c L -> sc_wl_dead c = false ->
  exists L', LedOn (fun _ => True) c L (fst (flush_loop c ids done)) L' /\ ExX None (fst (flush_loop c ids done)) L'.
Proof.
  induction ids as [|id t IH]; intros c done L S X WD; cbn [flush_loop].
  - exists L. split; [apply LedOn_refl | assumption].
  - destruct (strms_search (sc_strms c) id) as [s|] eqn:F; [|apply IH; assumption].
    destruct (st_responded s && negb (st_handlerRunning s) && has_more_to_send s); [|apply IH; assumption].
    apply strms_search_In in F. destruct F as [Hin Hid].
    assert (Hx : heldx L s) by (apply (x_strm _ _ _ _ X); [assumption | discriminate]).
    assert (Hle : st_id s <= sc_lastID c) by (apply (sim_le _ _ _ _ S); assumption).
    destruct (send_data_led _ None c s L S (or_introl eq_refl) (heldx_held _ _ Hx) Hle) as (L1 & Led & S1 & H1 & I1 & Lid).
    destruct (send_data_exact _ None c s L S X WD (or_introl eq_refl) Hx Hle) as (L1' & Led' & X1 & Hx1).
    assert (EL : L1' = L1) by (eapply LedOn_unique; eassumption). subst L1'.
    pose proof (send_data_wl c s) as W1.
    destruct (send_data c s) as [[c1 s1] fin]. cbn [fst snd] in *.
    assert (S2 : Sim (put c1 s1) L1).
    { eapply SimX_put; [exact S1 | right; congruence | exact H1 | rewrite I1, Lid; exact Hle]. }
    assert (X2 : ExX None (put c1 s1) L1).
    { eapply ExX_put; [exact X1 | apply (sim_nodup _ _ _ _ S1) | right; congruence | exact Hx1]. }
    destruct (IH (put c1 s1) (if fin then done ++ [id] else done) L1 S2 X2) as (L' & Led2 & X').
    { unfold put. sc_cbn. congruence. }
    exists L'. split; [|exact X'].
    eapply LedOn_trans; [eapply LedOn_weaken; [|exact Led]; auto|].
    eapply LedOn_trans; [|exact Led2]. apply LedOn_quiet. apply out_ext_same. reflexivity.
Qed.

Lemma flush_streams_exact c L : Sim c L -> ExX None c L -> sc_wl_dead c = false ->
  exists L', LedOn (fun _ => True) c L (flush_streams c) L' /\ ExX None (flush_streams c) L'.
Proof.
  intros S X WD. unfold flush_streams.
  destruct (flush_loop_exact (map st_id (sc_strms c)) c [] L S X WD) as (L' & Led & X').
  destruct (flush_loop c (map st_id (sc_strms c)) []) as [c1 done]. cbn [fst] in *.
  exists L'. split.
  - eapply LedOn_trans; [exact Led|]. apply LedOn_quiet. apply (close_all_Closes _ done c1).
  - eapply ExX_Closes; [apply close_all_Closes | exact X'].
Qed.

Lemma GoodX_brk_cont c L c' (b : bool) L' :
  LedOn (fun _ => True) c L c' L' -> ExX None c' L' -> GoodX c L (fst (if b then brk c' else cont c')).
Proof.
  intros Led S. destruct b; cbn [fst cont].
  - exists L'. split; [|left; reflexivity].
    eapply LedOn_trans; [exact Led|]. apply LedOn_quiet. apply (q_out _ _ _ (Quiet_brk _ c')).
  - exists L'. split; [exact Led | right; exact S].
Qed.

Lemma after_frame_exact ex c s fr wc L :
  SimX hstate ex c L -> ExX ex c L -> sc_wl_dead c = false ->
  (ex = None \/ ex = Some (st_id s)) -> heldx L s -> st_id s <= sc_lastID c ->
  GoodX c L (fst (after_frame cfg c s fr wc)).
Proof.
  intros S X WD Hex Hx Hid. destruct (after_frame_cases _ cfg c s fr wc) as (c2 & s2 & M & E).
  destruct (handle_state_eff fr s) as ((I1 & W1 & _) & _).
  set (s1 := handle_state fr s) in *.
  assert (Hx1 : heldx L s1) by (eapply heldx_same_win; eassumption).
  assert (M' : exists L2, LedOn (fun _ => True) c L c2 L2 /\ SimX hstate (Some (st_id s)) c2 L2 /\ ExX (Some (st_id s)) c2 L2 /\
                          heldx L2 s2 /\ st_id s2 = st_id s).
  { destruct M as [s0 _ _|s0 _ _|c1 s3 fin _ _ SD|_ _].
    - exists L. split; [apply LedOn_quiet, (q_out _ _ _ (Quiet_write_reset _ c _ _))|].
      split; [eapply SimX_Quiet; [apply Quiet_write_reset | eapply SimX_some; eassumption]|].
      split; [eapply ExX_Quiet; [apply Quiet_write_reset | eapply ExX_some; eassumption]|].
      split; [eapply heldx_same_win; [| |exact Hx1]; reflexivity | exact I1].
    - exists L. split; [apply LedOn_quiet, (q_out _ _ _ (Quiet_note _ c (ODispatch _ _) I))|].
      split; [eapply SimX_Quiet; [apply (Quiet_note _ c (ODispatch _ _) I) | eapply SimX_some; eassumption]|].
      split; [eapply ExX_Quiet; [apply (Quiet_note _ c (ODispatch _ _) I) | eapply ExX_some; eassumption]|].
      split; [eapply heldx_same_win; [| |exact Hx1]; reflexivity | exact I1].
    - destruct (send_data_led _ ex c s1 L S) as (L1 & Led & S1 & Hh1 & Id1 & Lid); rewrite ?I1; try assumption.
      { apply heldx_held, Hx1. }
      destruct (send_data_exact _ ex c s1 L S X WD) as (L1' & Led' & X1 & Hx2); rewrite ?I1; try assumption.
      assert (EL : L1' = L1) by (eapply LedOn_unique; eassumption). subst L1'.
      rewrite SD in *. cbn [fst snd] in *. rewrite I1 in *.
      exists L1. split; [eapply LedOn_weaken; [|exact Led]; auto|].
      split; [exact S1|]. split; [exact X1|]. split.
      + destruct fin; [eapply heldx_same_win; [| |exact Hx2]; reflexivity | exact Hx2].
      + destruct fin; exact Id1.
    - exists L. split; [apply LedOn_refl|].
      split; [eapply SimX_some; eassumption|]. split; [eapply ExX_some; eassumption|]. auto. }
  destruct M' as (L2 & Led & S2 & X2 & H2 & I2).
  assert (X3 : ExX None (put c2 s2) L2).
  { eapply ExX_put; [exact X2 | apply (sim_nodup _ _ _ _ S2) | right; congruence | exact H2]. }
  assert (G3 : LedOn (fun _ => True) c L (put_close c2 s2) L2 /\ ExX None (put_close c2 s2) L2).
  { unfold put_close. destruct (sstate_eqb (st_state s2) SClosed).
    - split.
      + eapply LedOn_trans; [exact Led|]. apply LedOn_quiet.
        apply (out_ext_trans _ _ c2 (put c2 s2)); [apply out_ext_same; reflexivity | apply close_stream_out].
      + eapply ExX_close; [exact X3 | | left; reflexivity].
        unfold put. sc_cbn. rewrite strms_put_ids. apply (sim_nodup _ _ _ _ S2).
    - split; [|exact X3]. eapply LedOn_trans; [exact Led|]. apply LedOn_quiet. apply out_ext_same. reflexivity. }
  destruct G3 as [Led3 X3'].
  destruct E as [-> | ->]; [apply (GoodX_brk_cont c L _ false L2) | apply (GoodX_brk_cont c L _ true L2)]; assumption.
Qed.

Lemma lgrants_strm fr : sf_sid fr <> 0 ->
  lgrants_of fr = match sf_kind fr with
                  | KHeaders => [LOpen (sf_sid fr)]
                  | KWinUpd => [LGrant (sf_sid fr) (Z.of_N (sf_inc fr))]
                  | _ => []
                  end.
Proof. intro NZ. unfold lgrants_of. replace (sf_sid fr =? 0) with false by flia. reflexivity. Qed.

(* grants on a stream that is not in the table *)
Lemma ExX_grants_absent c L fr : ExX None c L -> sf_sid fr <> 0 ->
  (forall s, In s (sc_strms c) -> st_id s <> sf_sid fr) -> (sf_kind fr = KHeaders -> sf_sid fr <= sc_highestID c) ->
  ExX None c (lrun L (lgrants_of fr)).
Proof.
  intros [xc xs xf] NZ NI HH. rewrite (lgrants_strm fr NZ).
  assert (NZ' : N.eqb (sf_sid fr) 0 = false) by flia.
  destruct (sf_kind fr) eqn:K; try (constructor; assumption); cbn [lrun fold_left lstep].
  - destruct (l_strm L (sf_sid fr)) eqn:E; [constructor; assumption|]. constructor; cbn [l_conn l_strm].
    + assumption.
    + intros s Hs Hne. unfold heldx. cbn [l_strm]. rewrite strm_upd_other by (apply NI; exact Hs). apply xs; assumption.
    + intros sid Hs. specialize (HH eq_refl). rewrite strm_upd_other by flia. auto.
  - rewrite NZ'. destruct (l_strm L (sf_sid fr)) eqn:E; [|constructor; assumption]. constructor; cbn [l_conn l_strm].
    + assumption.
    + intros s Hs Hne. unfold heldx. cbn [l_strm]. rewrite strm_upd_other by (apply NI; exact Hs). apply xs; assumption.
    + intros sid Hs. destruct (N.eq_dec sid (sf_sid fr)) as [->|NE]; [rewrite (xf _ Hs) in E; discriminate|].
      rewrite strm_upd_other by assumption. auto.
Qed.

Lemma found_None_absent c fr L : Sim c L -> found hstate c fr = None -> forall s, In s (sc_strms c) -> st_id s <> sf_sid fr.
Proof.
  intros S F s Hs. unfold found in F. destruct (sf_sid fr <=? sc_lastID c) eqn:LE.
  - eapply strms_search_None; eassumption.
  - pose proof (sim_le _ _ _ _ S s Hs). flia.
Qed.

(* the stream the frame is handled on, after the frame's grants: its ledger window is its window plus the increment *)
Definition winc (fr : sframe) : Z := if fkind_eqb (sf_kind fr) KWinUpd then Z.of_N (sf_inc fr) else 0%Z.

Lemma Origin_exact c fr c1 s L : sf_sid fr <> 0 -> Sim c L -> ExX None c L -> Origin c fr c1 s ->
  ExX (Some (st_id s)) c1 (lrun L (lgrants_of fr)) /\
  l_strm (lrun L (lgrants_of fr)) (st_id s) = Some (st_window s + winc fr)%Z.
Proof.
  intros NZ S X O. rewrite (lgrants_strm fr NZ). unfold winc.
  assert (NZ' : N.eqb (sf_sid fr) 0 = false) by flia.
  destruct O as [s LE F | KH FD HI LA].
  - apply strms_search_In in F. destruct F as [Hin Hid].
    assert (Hx : heldx L s) by (apply (x_strm _ _ _ _ X); [assumption | discriminate]). unfold heldx in Hx.
    assert (X' : ExX (Some (st_id s)) c L) by (eapply ExX_some; [left; reflexivity | exact X]).
    destruct (sf_kind fr) eqn:K; cbn [fkind_eqb lrun fold_left lstep];
      try (split; [exact X' | rewrite Hx; f_equal; flia]).
    + rewrite <- Hid, Hx. split; [exact X' | rewrite Hx; f_equal; flia].
    + rewrite NZ', <- Hid, Hx. destruct X' as [xc xs xf]. split.
      * constructor; cbn [l_conn l_strm]; [assumption | |].
        -- intros s0 Hs Hne. unfold heldx. cbn [l_strm]. rewrite strm_upd_other by congruence. apply xs; assumption.
        -- intros sid Hs. pose proof (sim_le _ _ _ _ S s Hin). pose proof (sim_hi _ _ _ _ S).
           rewrite strm_upd_other by flia. auto.
      * cbn [l_strm]. apply strm_upd_same.
  - rewrite KH. cbn [fkind_eqb lrun fold_left lstep].
    destruct X as [xc xs xf]. rewrite (xf _ HI).
    assert (NI : forall s0, In s0 (sc_strms c) -> st_id s0 <> sf_sid fr).
    { intros s0 Hs. destruct (sf_sid fr <=? sc_lastID c) eqn:LE.
      - eapply strms_search_None; eassumption.
      - pose proof (sim_le _ _ _ _ S s0 Hs). flia. }
    split.
    + constructor; sc_cbn; cbn [l_conn l_strm].
      * assumption.
      * intros s0 Hs Hne. apply in_app_or in Hs. destruct Hs as [Hs|[<-|[]]]; [|congruence].
        unfold heldx. cbn [l_strm]. rewrite strm_upd_other by (apply NI; exact Hs). apply xs; [assumption | discriminate].
      * intros sid Hs. rewrite strm_upd_other by flia. apply xf. flia.
    + cbn [l_strm]. unfold new_strm at 1. cbn [st_id set_orig_started new_stream]. rewrite strm_upd_same.
      unfold new_strm. cbn [st_window set_orig_started new_stream]. rewrite (sim_init _ _ _ _ S). f_equal. flia.
Qed.

(* what handleFrame does to the window of its stream, when the stream loop goes on to afterFrame *)
Lemma HFok_window c2 s fr cX sX : HFok dec_field cfg c2 s fr cX sX -> st_window sX = (st_window s + winc fr)%Z.
Proof.
  intro HF. unfold winc. destruct (fkind_eqb (sf_kind fr) KWinUpd) eqn:K.
  - apply fkind_eqb_eq in K. unfold HFok, handle_frame in HF. rewrite K in HF.
    destruct (verify_state s fr) as [e|] eqn:V.
    { unfold verify_state in V. destruct (st_state s); repeat match type of V with context [if ?b then _ else _] => destruct b end;
        inversion V; subst; destruct HF as (E & _); discriminate E. }
    destruct (sstate_eqb (st_state s) SIdle); [destruct HF as (E & _); discriminate E|].
    destruct (sf_inc fr =? 0); [destruct HF as (E & _); discriminate E|].
    match type of HF with context [if ?b then _ else _] => destruct b end.
    + destruct HF as (_ & ->). reflexivity.
    + destruct HF as (_ & ->). reflexivity.
  - destruct (HFok_eff _ dec_field cfg c2 s fr cX sX HF) as (c3 & s3 & _ & _ & _ & _ & WW & SW & _).
    destruct SW as (_ & -> & _). destruct WW as [->|[KW _]]; [flia|]. rewrite KW in K. discriminate.
Qed.

Lemma after_pre_exact c fr c1 s c2 cX sX L : Sim c L -> ExX None c L -> sf_sid fr <> 0 -> Origin c fr c1 s ->
  Closes c1 c2 -> HFok dec_field cfg c2 s fr cX sX ->
  ExX (Some (st_id sX)) cX (lrun L (lgrants_of fr)) /\ heldx (lrun L (lgrants_of fr)) sX.
Proof.
  intros S X NZ Or CL HF.
  destruct (Origin_exact c fr c1 s L NZ S X Or) as (X1 & H1).
  pose proof (ExX_Closes _ _ _ _ _ CL X1) as X2.
  pose proof (HFok_window _ _ _ _ _ HF) as WX.
  destruct (HFok_eff _ dec_field cfg c2 s fr cX sX HF) as (c3 & s3 & R & Q & _ & SS & _ & SW & _).
  assert (IX : st_id sX = st_id s) by (destruct SW as (-> & _); apply SS).
  rewrite IX. split.
  - eapply ExX_Quiet; [exact Q|]. eapply ExX_Recv; eassumption.
  - unfold heldx. rewrite IX, WX. exact H1.
Qed.

Lemma settings_exact c fr L : Sim c L -> ExX None c L ->
  let newInit := signed 32 (sf_set_win fr) in
  let delta := (newInit - sc_initWin c)%Z in
  ExX None (emit (upd_strms (upd_initWin (settings_c0 enc_set_max c fr) newInit) (map (bump delta) (sc_strms c))) OSettingsAck)
      (lstep L (LInit newInit)).
Proof.
  intros S X newInit delta.
  destruct (settings_c0_fields _ enc_set_max c fr) as (E1 & E2 & E3 & E4 & E5 & E6).
  destruct X as [xc xs xf].
  constructor; rewrite ?sc_clientWindow_emit, ?sc_strms_emit, ?sc_highestID_emit; sc_cbn.
  - rewrite E3. assumption.
  - intros s Hs _. apply in_map_iff in Hs. destruct Hs as (s0 & <- & Hs0).
    unfold heldx. cbn [l_strm lstep bump st_id set_window st_window]. rewrite (xs s0 Hs0) by discriminate.
    subst delta. rewrite (sim_init _ _ _ _ S). reflexivity.
  - rewrite E5. intros sid H0. cbn [l_strm lstep]. rewrite (xf _ H0). reflexivity.
Qed.

Lemma winupd_exact c inc L : ExX None c L ->
  ExX None (upd_clientWindow c (sc_clientWindow c + Z.of_N inc)) (lstep L (LGrant 0 (Z.of_N inc))).
Proof.
  intros [xc xs xf]. constructor; sc_cbn; cbn [lstep N.eqb l_conn l_strm]; [flia | assumption | assumption].
Qed.

Lemma sl_frame_exact c fr L : Sim c L -> ExX None c L -> RI c -> sc_wl_dead c = false ->
  GoodX c (lrun L (lgrants_of fr)) (fst (sl_frame dec_field enc_set_max cfg c fr)).
Proof.
  intros S X HR WD.
  destruct (sl_frame_SLX _ dec_field enc_set_max cfg c fr)
    as [c' Q R G0 G1 HH D | c' F O SD | Z K HW c0 newInit delta Fa | Z K W | NZ K | c1 s p NZ Or KH Hp | c1 s c2 cX sX NZ Or CL HF].
  - (* nothing that matters *)
    exists (lrun L (lgrants_of fr)). split; [apply LedOn_quiet, Q | right].
    pose proof (ExX_Quiet _ _ _ _ _ Q X) as X'.
    destruct (N.eq_dec (sf_sid fr) 0) as [Z|NZ]; [rewrite (G0 Z); exact X'|].
    destruct (G1 NZ) as [E|FN]; [rewrite E; exact X'|].
    apply ExX_grants_absent; [exact X' | exact NZ | |].
    + rewrite (q_strms _ _ _ Q). eapply found_None_absent; eassumption.
    + intro KH. apply HH; [exact NZ | exact KH | exact HR | apply (sim_hi _ _ _ _ S)].
  - exists (lrun L (lgrants_of fr)). split; [apply LedOn_quiet, O | left; exact SD].
  - (* SETTINGS_INITIAL_WINDOW_SIZE *)
    assert (E : lgrants_of fr = [LInit newInit]).
    { unfold lgrants_of. replace (sf_sid fr =? 0) with true by flia. rewrite K, HW. reflexivity. }
    rewrite E. cbn [lrun fold_left].
    pose proof (settings_Sim _ enc_set_max c fr L S) as S2. cbv zeta in S2. fold c0 newInit delta in S2.
    pose proof (settings_exact c fr L S X) as X2. cbv zeta in X2. fold c0 newInit delta in X2.
    destruct (flush_streams_exact _ _ S2 X2) as (L' & Led & X').
    { rewrite sc_wl_dead_emit. sc_cbn. unfold c0, settings_c0. destruct (sf_set_hastable fr); exact WD. }
    exists L'. split; [|right; exact X'].
    eapply LedOn_trans; [|exact Led]. apply LedOn_quiet.
    eapply out_ext_trans; [|apply out_ext_emit; exact I]. apply out_ext_same. sc_cbn. apply (settings_c0_fields _ enc_set_max c fr).
  - (* WINDOW_UPDATE on the connection *)
    assert (E : lgrants_of fr = [LGrant 0 (Z.of_N (sf_inc fr))]).
    { unfold lgrants_of. replace (sf_sid fr =? 0) with true by flia. rewrite K. reflexivity. }
    rewrite E. cbn [lrun fold_left].
    destruct (flush_streams_exact _ _ (winupd_Sim _ c (sf_inc fr) L S) (winupd_exact c (sf_inc fr) L X)) as (L' & Led & X').
    { exact WD. }
    exists L'. split; [|right; exact X'].
    eapply LedOn_trans; [|exact Led]. apply LedOn_quiet. apply out_ext_same. reflexivity.
  - assert (E : lgrants_of fr = []) by (rewrite (lgrants_strm fr NZ), K; reflexivity).
    rewrite E. cbn [lrun fold_left].
    pose proof (Recv_credit _ cfg c (Z.of_N (sf_len fr))) as R.
    exists L. split; [|right; eapply ExX_Recv; eassumption].
    apply LedOn_nodata. eapply out_ext_weaken; [apply winupd_nodata | apply R].
  - (* the previous stream's header block is not finished *)
    destruct (Origin_Sim _ c fr c1 s L NZ S Or) as (S1 & _ & _ & Is & _).
    destruct (Origin_exact c fr c1 s L NZ S X Or) as (X1 & H1).
    set (L1 := lrun L (lgrants_of fr)) in *.
    assert (W0 : winc fr = 0%Z) by (unfold winc; rewrite KH; reflexivity).
    assert (X1' : ExX None c1 L1).
    { destruct X1 as [xc xs xf]. constructor; [assumption| |assumption]. intros s0 Hs _.
      destruct (N.eq_dec (st_id s0) (st_id s)) as [E|NE]; [|apply xs; [assumption | congruence]].
      assert (s0 = s).
      { destruct Or as [s LE F | KH' FD HI LA].
        - apply strms_search_In in F. destruct F as [Hin _]. eapply (NoDup_map_inj _ _ st_id); [apply (sim_nodup _ _ _ _ S) | exact Hs | exact Hin | exact E].
        - eapply (NoDup_map_inj _ _ st_id); [apply (sim_nodup _ _ _ _ S1) | exact Hs | | exact E]. sc_cbn. apply in_or_app. right. left. reflexivity. }
      subst s0. unfold heldx. rewrite H1, W0. f_equal. flia. }
    exists L1. split.
    + apply LedOn_quiet. eapply out_ext_trans; [apply (Origin_Frame _ _ _ _ _ Or)|].
      eapply out_ext_trans; [apply (q_out _ _ _ (Quiet_write_goaway _ c1 (st_id p) c_ProtocolError))|]. apply out_ext_same. reflexivity.
    + right. eapply ExX_put; [eapply ExX_Quiet; [apply Quiet_write_goaway | exact X1'] | | left; reflexivity |].
      * rewrite sc_strms_write_goaway. apply (sim_nodup _ _ _ _ S1).
      * eapply heldx_same_win; [| |apply (x_strm _ _ _ _ X1' p Hp); discriminate]; reflexivity.
  - (* the frame is handled on its stream *)
    pose proof (cr_closes _ _ _ CL) as CL'.
    destruct (after_pre_Sim _ dec_field cfg c fr c1 s c2 cX sX L S NZ Or CL' HF) as (SX & HX & LeX & IdX & OX).
    destruct (after_pre_exact c fr c1 s c2 cX sX L S X NZ Or CL' HF) as (XX & HxX).
    assert (WX : sc_wl_dead cX = false).
    { destruct (HFok_eff _ dec_field cfg c2 s fr cX sX HF) as (c3 & s3 & R & Q & _).
      rewrite (q_wl_dead _ _ _ Q), (rv_wl_dead _ _ _ R), (f_wl_dead _ _ _ (cl_frame _ _ _ CL')),
        (f_wl_dead _ _ _ (proj1 (Origin_Frame _ _ _ _ _ Or))). exact WD. }
    destruct (after_frame_exact (Some (st_id sX)) cX sX fr (sc_closing c) _ (Sim_SimX _ _ _ _ SX) XX WX (or_intror eq_refl) HxX LeX)
      as (L' & Led & G).
    exists L'. split; [|exact G]. eapply LedOn_trans; [apply LedOn_nodata; exact OX | exact Led].
Qed.

Lemma sl_done_exact c sid r L : Sim c L -> ExX None c L -> sc_wl_dead c = false -> GoodX c L (fst (sl_done enc_field cfg c sid r)).
Proof.
  intros S X WD. unfold sl_done.
  destruct (take_stream (sc_gone c) sid) as [[s rest]|].
  - cbn [fst cont]. exists L.
    pose proof (Quiet_release_gone _ c rest (set_flags s (st_responded s) false true)) as Q.
    split; [apply LedOn_quiet, Q | right; eapply ExX_Quiet; eassumption].
  - destruct (strms_search (sc_strms c) sid) as [s|] eqn:F; [|exists L; split; [apply LedOn_refl | right; exact X]].
    destruct (negb (st_handlerRunning s)); [exists L; split; [apply LedOn_refl | right; exact X]|].
    apply strms_search_In in F. destruct F as [Hin Hid].
    set (s1 := set_flags s (st_responded s) false (st_abandoned s)).
    assert (Hx1 : heldx L s1).
    { eapply heldx_same_win; [| |apply (x_strm _ _ _ _ X s Hin); discriminate]; reflexivity. }
    assert (Le1 : st_id s1 <= sc_lastID c) by apply (sim_le _ _ _ _ S s Hin).
    destruct (finish_request_led _ enc_field None c s1 r L S (or_introl eq_refl) (heldx_held _ _ Hx1) Le1) as (L1 & Led & S1 & Hh & I1 & Lid).
    destruct (finish_request_exact _ enc_field None c s1 r L S X WD (or_introl eq_refl) Hx1 Le1) as (L1' & Led' & X1 & Hx2).
    assert (EL : L1' = L1) by (eapply LedOn_unique; eassumption). subst L1'.
    destruct (finish_request enc_field c s1 r) as [[c1 s2] fin]. cbn [fst snd] in *.
    set (c2 := if fin then close_stream (put c1 (set_state s2 SClosed)) (set_state s2 SClosed) else put c1 s2).
    assert (G : LedOn (fun _ => True) c L c2 L1 /\ ExX None c2 L1).
    { subst c2. destruct fin.
      - assert (X2 : ExX None (put c1 (set_state s2 SClosed)) L1).
        { eapply ExX_put; [exact X1 | apply (sim_nodup _ _ _ _ S1) | right; cbn [st_id set_state]; rewrite I1; reflexivity|].
          eapply heldx_same_win; [| |exact Hx2]; reflexivity. }
        split; [|eapply ExX_close; [exact X2 | | left; reflexivity]].
        + eapply LedOn_trans; [eapply LedOn_weaken; [|exact Led]; auto|]. apply LedOn_quiet.
          apply (out_ext_trans _ _ c1 (put c1 (set_state s2 SClosed))); [apply out_ext_same; reflexivity | apply close_stream_out].
        + unfold put. sc_cbn. rewrite strms_put_ids. apply (sim_nodup _ _ _ _ S1).
      - split; [|eapply ExX_put; [exact X1 | apply (sim_nodup _ _ _ _ S1) | right; rewrite I1; reflexivity | exact Hx2]].
        eapply LedOn_trans; [eapply LedOn_weaken; [|exact Led]; auto|]. apply LedOn_quiet. apply out_ext_same. reflexivity. }
    destruct G as [Led2 X2].
    eapply GoodX_brk_cont; eassumption.
Qed.

End Exact2.
