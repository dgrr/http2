(* C03: the structure of nextField. A call scans the dynamic table size updates the input starts
   with ([scan], a function of the bytes and the SETTINGS limit only), applies them
   ([apply_upd]), and decodes at most one field ([one_field], no loop). *)
From Coq Require Import List NArith ZArith Bool Lia.
From H2V Require Import Base.Bytes Base.MachineInt Base.Result Gen.GenConsts Gen.GenStatic
     Impl.Huffman Impl.Hpack Proofs.HpackDefs Proofs.HpackBytes Proofs.HpackInt Proofs.HpackStr
     Proofs.HpackTable.
Import ListNotations.
Local Open Scope N_scope.
Local Opaque huffman_root.

Arguments N.land : simpl never.
Arguments N.pow : simpl never.

(* "Reading value" *)
Definition read_value (hf1 : field) (b1 : bytes) : field * result bytes :=
  match read_string b1 with
  | Err e => (hf1, Err e)
  | Panic w => (hf1, Panic w)
  | Ok (b2, dst) => (set_value hf1 dst, Ok b2)
  end.

Lemma read_literal_index hp hf bits b :
  read_literal hp hf true bits b =
  match read_int bits b with
  | Err e => (hf, Err e)
  | Panic w => (hf, Panic w)
  | Ok (b1, n) =>
      match peek hp n with
      | None => (hf, Err E_index_not_found)
      | Some hf2 => read_value (set_key hf (f_key hf2)) b1
      end
  end.
Proof.
  unfold read_literal, read_value.
  destruct (read_int bits b) as [[b1 n]|e|w]; try reflexivity.
  destruct (peek hp n) as [hf2|]; [|reflexivity].
  destruct b1 as [|x b1]; reflexivity.
Qed.

Lemma read_literal_name hp hf bits c b1 :
  read_literal hp hf false bits (c :: b1) =
  match read_string b1 with
  | Err e => (hf, Err e)
  | Panic w => (hf, Panic w)
  | Ok (b2, dst) => read_value (set_key hf dst) b2
  end.
Proof.
  unfold read_literal, read_value.
  destruct (read_string b1) as [[b2 dst]|e|w]; try reflexivity.
  destruct b2 as [|x b2]; reflexivity.
Qed.

(* one field, no loop *)
Definition is_upd (c : N) : bool :=
  negb (N.land c 128 =? 128) && negb (N.land c 64 =? 64) && negb (N.land c 240 =? 16) &&
  negb (N.land c 240 =? 0) && (N.land c 32 =? 32).

Definition one_field (hp : hpack_state) (hf0 : field) (b : bytes) : nf_out :=
  match b with
  | [] => mkNF hp hf0 (Ok ([], false))
  | c :: _ =>
      let hf := set_sens hf0 false in
      if N.land c 128 =? 128 then
        match read_int 7 b with
        | Err e => mkNF hp hf (Err e)
        | Panic w => mkNF hp hf (Panic w)
        | Ok (b1, n) =>
            match peek hp n with
            | None => mkNF hp hf (Err E_index_not_found)
            | Some hf2 => mkNF hp hf2 (Ok (b1, true))
            end
        end
      else if N.land c 64 =? 64 then
        match read_literal hp hf (negb (c =? 64)) 6 b with
        | (hf1, Ok b1) => mkNF (add_dynamic hp hf1) hf1 (Ok (b1, true))
        | (hf1, r) => nf_done hp hf1 r
        end
      else if N.land c 240 =? 16 then
        let '(hf1, r) := read_literal hp (set_sens hf true) (negb (N.land c 15 =? 0)) 4 b in
        nf_done hp hf1 r
      else if N.land c 240 =? 0 then
        let '(hf1, r) := read_literal hp hf (negb (N.land c 15 =? 0)) 4 b in
        nf_done hp hf1 r
      else mkNF hp hf (Ok (b, true))
  end.

(* hp.maxTableSize = uint32(n); hp.shrink() *)
Definition upd (hp : hpack_state) (n : N) : hpack_state := shrink (with_max hp n).

Lemma nfl_cons fuel hp hf bs fp c r :
  next_field_loop fuel hp hf bs fp (c :: r) =
  if is_upd c then
    match read_int 5 (c :: r) with
    | Err e => mkNF hp (set_sens hf false) (Err e)
    | Panic w => mkNF hp (set_sens hf false) (Panic w)
    | Ok (b1, n) =>
        if negb bs || (0 <? fp) then mkNF hp (set_sens hf false) (Err E_dynamic_update)
        else if h_max_settings hp <? n then mkNF hp (set_sens hf false) (Err E_dynamic_update_max)
        else match fuel with
             | O => mkNF hp (set_sens hf false) (Panic P_fuel)
             | S fuel' => next_field_loop fuel' (upd hp (u32 n)) (set_sens hf false) bs fp b1
             end
    end
  else one_field hp hf (c :: r).
Proof.
  unfold is_upd, one_field.
  destruct fuel as [|fuel]; cbn [next_field_loop];
    destruct (N.land c 128 =? 128); cbn [negb andb]; try reflexivity;
    destruct (N.land c 64 =? 64); cbn [negb andb]; try reflexivity;
    destruct (N.land c 240 =? 16); cbn [negb andb]; try reflexivity;
    destruct (N.land c 240 =? 0); cbn [negb andb]; try reflexivity;
    destruct (N.land c 32 =? 32); reflexivity.
Qed.

Lemma nfl_nil fuel hp hf bs fp : next_field_loop fuel hp hf bs fp [] = mkNF hp hf (Ok ([], false)).
Proof. destruct fuel; reflexivity. Qed.

(* the size updates a call starts with *)
Inductive scan_end : Type :=
| SEnd                      (* the input is used up: return b, false, nil *)
| SErr (e : N)
| SPanic (w : N)
| SField (b : bytes).       (* b starts with an octet that is not a size update *)

Fixpoint scan (fuel : nat) (lim : N) (allowed : bool) (b : bytes) : list N * scan_end :=
  match b with
  | [] => ([], SEnd)
  | c :: _ =>
      if is_upd c then
        match read_int 5 b with
        | Err e => ([], SErr e)
        | Panic w => ([], SPanic w)
        | Ok (b1, n) =>
            if negb allowed then ([], SErr E_dynamic_update)
            else if lim <? n then ([], SErr E_dynamic_update_max)
            else match fuel with
                 | O => ([], SPanic P_fuel)
                 | S fuel' => let '(ns, e) := scan fuel' lim allowed b1 in (u32 n :: ns, e)
                 end
        end
      else ([], SField b)
  end.

Definition apply_upd (hp : hpack_state) (ns : list N) : hpack_state := fold_left upd ns hp.

Definition allowed_of (bs : bool) (fp : N) : bool := bs && (fp =? 0).

(* the HeaderField after the scan: sensible is cleared at the top of the loop *)
Definition hf_after (hf : field) (b : bytes) : field :=
  match b with [] => hf | _ :: _ => set_sens hf false end.

Definition nf_of_scan (hp : hpack_state) (hf : field) (b : bytes) (s : list N * scan_end) : nf_out :=
  let hp' := apply_upd hp (fst s) in
  match snd s with
  | SEnd => mkNF hp' (hf_after hf b) (Ok ([], false))
  | SErr e => mkNF hp' (hf_after hf b) (Err e)
  | SPanic w => mkNF hp' (hf_after hf b) (Panic w)
  | SField b' => one_field hp' (hf_after hf b) b'
  end.

Lemma upd_settings hp n : h_max_settings (upd hp n) = h_max_settings hp.
Proof. reflexivity. Qed.

Lemma apply_upd_settings : forall ns hp, h_max_settings (apply_upd hp ns) = h_max_settings hp.
Proof.
  induction ns as [|n ns IH]; intros hp; [reflexivity|]. cbn [apply_upd fold_left].
  change (fold_left upd ns (upd hp n)) with (apply_upd (upd hp n) ns). rewrite IH. reflexivity.
Qed.

Lemma set_sens_idem hf : set_sens (set_sens hf false) false = set_sens hf false.
Proof. reflexivity. Qed.

Lemma one_field_set_sens hp hf c r : one_field hp (set_sens hf false) (c :: r) = one_field hp hf (c :: r).
Proof. reflexivity. Qed.

Theorem nfl_scan : forall fuel hp hf bs fp b,
  next_field_loop fuel hp hf bs fp b =
  nf_of_scan hp hf b (scan fuel (h_max_settings hp) (allowed_of bs fp) b).
Proof.
  induction fuel as [|fuel IH]; intros hp hf bs fp b.
  - destruct b as [|c r]; [reflexivity|]. rewrite nfl_cons. cbn [scan].
    destruct (is_upd c) eqn:Eu; [|reflexivity].
    destruct (read_int 5 (c :: r)) as [[b1 n]|e|w]; try reflexivity.
    unfold allowed_of. replace (0 <? fp) with (negb (fp =? 0))
      by (destruct (N.eqb_spec fp 0), (N.ltb_spec 0 fp); try reflexivity; lia).
    rewrite <- negb_andb. destruct (negb (bs && (fp =? 0))); [reflexivity|].
    destruct (h_max_settings hp <? n); reflexivity.
  - destruct b as [|c r]; [reflexivity|]. rewrite nfl_cons. cbn [scan].
    destruct (is_upd c) eqn:Eu; [|reflexivity].
    destruct (read_int 5 (c :: r)) as [[b1 n]|e|w]; try reflexivity.
    unfold allowed_of. replace (0 <? fp) with (negb (fp =? 0))
      by (destruct (N.eqb_spec fp 0), (N.ltb_spec 0 fp); try reflexivity; lia).
    rewrite <- negb_andb. destruct (negb (bs && (fp =? 0))) eqn:Ea; [reflexivity|].
    destruct (h_max_settings hp <? n); [reflexivity|].
    rewrite IH. rewrite upd_settings. unfold allowed_of.
    destruct (scan fuel (h_max_settings hp) (bs && (fp =? 0)) b1) as [ns e].
    unfold nf_of_scan. cbn [fst snd apply_upd fold_left].
    destruct e as [|e|w|b']; destruct b1; reflexivity.
Qed.

Lemma next_field_scan hp hf bs fp b :
  next_field hp hf bs fp b =
  nf_of_scan hp hf b (scan (S (length b)) (h_max_settings hp) (allowed_of bs fp) b).
Proof. apply nfl_scan. Qed.

(* every first octet has a case: the switch has no default *)
Definition kind_okb (c : N) : bool :=
  (N.land c 128 =? 128) || (N.land c 64 =? 64) || (N.land c 240 =? 16) || (N.land c 240 =? 0) ||
  (N.land c 32 =? 32).

Lemma kind_table : forallb kind_okb (map N.of_nat (seq 0 256)) = true.
Proof. vm_compute. reflexivity. Qed.

Lemma kind_ok c : kind_okb c = true.
Proof.
  unfold kind_okb. rewrite (land_low8 c 128), (land_low8 c 64), (land_low8 c 240), (land_low8 c 32)
    by (compute; reflexivity).
  apply (byte_table _ kind_table). apply N.mod_lt. discriminate.
Qed.

(* not a size update: one of the four field cases applies *)
Lemma not_upd_cases c : is_upd c = false ->
  N.land c 128 =? 128 = true \/
  (N.land c 128 =? 128 = false /\ N.land c 64 =? 64 = true) \/
  (N.land c 128 =? 128 = false /\ N.land c 64 =? 64 = false /\ N.land c 240 =? 16 = true) \/
  (N.land c 128 =? 128 = false /\ N.land c 64 =? 64 = false /\ N.land c 240 =? 16 = false /\
   N.land c 240 =? 0 = true).
Proof.
  intros H. pose proof (kind_ok c) as K. unfold is_upd in H. unfold kind_okb in K.
  destruct (N.land c 128 =? 128); [auto|].
  destruct (N.land c 64 =? 64); [auto|].
  destruct (N.land c 240 =? 16); [auto 6|].
  destruct (N.land c 240 =? 0); [auto 8|].
  destruct (N.land c 32 =? 32); discriminate.
Qed.

(* the pure core of a literal and of a field *)

(* key, value, rest *)
Definition rl_core (hp : hpack_state) (by_index : bool) (bits : N) (b : bytes) : result (bytes * bytes * bytes) :=
  if by_index then
    match read_int bits b with
    | Err e => Err e
    | Panic w => Panic w
    | Ok (b1, n) =>
        match peek hp n with
        | None => Err E_index_not_found
        | Some hf2 =>
            match read_string b1 with
            | Err e => Err e
            | Panic w => Panic w
            | Ok (b2, v) => Ok (f_key hf2, v, b2)
            end
        end
    end
  else
    match b with
    | [] => Panic P_hpack_index
    | _ :: b1 =>
        match read_string b1 with
        | Err e => Err e
        | Panic w => Panic w
        | Ok (b2, k) =>
            match read_string b2 with
            | Err e => Err e
            | Panic w => Panic w
            | Ok (b3, v) => Ok (k, v, b3)
            end
        end
    end.

Lemma read_literal_core hp hf by_index bits b :
  match rl_core hp by_index bits b with
  | Ok (k, v, rest) => read_literal hp hf by_index bits b = (mkF k v (f_sens hf), Ok rest)
  | Err e => snd (read_literal hp hf by_index bits b) = Err e
  | Panic w => snd (read_literal hp hf by_index bits b) = Panic w
  end.
Proof.
  unfold rl_core. destruct by_index.
  - rewrite read_literal_index.
    destruct (read_int bits b) as [[b1 n]|e|w]; try reflexivity.
    destruct (peek hp n) as [hf2|]; [|reflexivity]. unfold read_value.
    destruct (read_string b1) as [[b2 v]|e|w]; reflexivity.
  - destruct b as [|c b1]; [reflexivity|]. rewrite read_literal_name.
    destruct (read_string b1) as [[b2 k]|e|w]; try reflexivity. unfold read_value.
    destruct (read_string b2) as [[b3 v]|e|w]; reflexivity.
Qed.

(* the field, the rest, whether the field is added to the table *)
Definition lit_core (hp : hpack_state) (by_index : bool) (bits : N) (b : bytes) (sens store : bool)
  : result (field * bytes * bool) :=
  match rl_core hp by_index bits b with
  | Ok (k, v, rest) => Ok (mkF k v sens, rest, store)
  | Err e => Err e
  | Panic w => Panic w
  end.

Definition one_core (hp : hpack_state) (b : bytes) : result (field * bytes * bool) :=
  match b with
  | [] => Panic P_hpack_index
  | c :: _ =>
      if N.land c 128 =? 128 then
        match read_int 7 b with
        | Err e => Err e
        | Panic w => Panic w
        | Ok (b1, n) =>
            match peek hp n with
            | None => Err E_index_not_found
            | Some hf2 => Ok (hf2, b1, false)
            end
        end
      else if N.land c 64 =? 64 then lit_core hp (negb (c =? 64)) 6 b false true
      else if N.land c 240 =? 16 then lit_core hp (negb (N.land c 15 =? 0)) 4 b true false
      else lit_core hp (negb (N.land c 15 =? 0)) 4 b false false
  end.

Definition nf_of_core (hp : hpack_state) (r : result (field * bytes * bool)) (o : nf_out) : Prop :=
  match r with
  | Ok (f, rest, store) => o = mkNF (if store then add_dynamic hp f else hp) f (Ok (rest, true))
  | Err e => nf_res o = Err e /\ nf_hp o = hp
  | Panic w => nf_res o = Panic w /\ nf_hp o = hp
  end.

(* a literal: what readLiteral returns, against its pure core *)
Lemma nf_of_lit hp hf bi bits b store hf1 res :
  read_literal hp hf bi bits b = (hf1, res) ->
  nf_of_core hp (lit_core hp bi bits b (f_sens hf) store)
    (match res with
     | Ok b1 => mkNF (if store then add_dynamic hp hf1 else hp) hf1 (Ok (b1, true))
     | Err e => mkNF hp hf1 (Err e)
     | Panic w => mkNF hp hf1 (Panic w)
     end).
Proof.
  intro E. pose proof (read_literal_core hp hf bi bits b) as L. rewrite E in L. unfold lit_core.
  destruct (rl_core hp bi bits b) as [[[k v] rest]|e|w]; cbn [snd] in L;
    [injection L as -> ->; reflexivity | subst res; split; reflexivity | subst res; split; reflexivity].
Qed.

Theorem one_field_core hp hf c r : is_upd c = false ->
  nf_of_core hp (one_core hp (c :: r)) (one_field hp hf (c :: r)).
Proof.
  intros Hu. unfold one_field, one_core.
  destruct (not_upd_cases c Hu) as [H1 | [[H1 H2] | [[H1 [H2 H3]] | [H1 [H2 [H3 H4]]]]]].
  - rewrite H1. destruct (read_int 7 (c :: r)) as [[b1 n]|e|w]; try (split; reflexivity).
    destruct (peek hp n) as [hf2|]; [reflexivity | split; reflexivity].
  - rewrite H1, H2. destruct (read_literal hp _ _ 6 (c :: r)) as [hf1 res] eqn:E.
    apply (nf_of_lit _ _ _ _ _ true) in E. destruct res; exact E.
  - rewrite H1, H2, H3. destruct (read_literal hp _ _ 4 (c :: r)) as [hf1 res] eqn:E.
    apply (nf_of_lit _ _ _ _ _ false) in E. destruct res; exact E.
  - rewrite H1, H2, H3, H4. destruct (read_literal hp _ _ 4 (c :: r)) as [hf1 res] eqn:E.
    apply (nf_of_lit _ _ _ _ _ false) in E. destruct res; exact E.
Qed.
