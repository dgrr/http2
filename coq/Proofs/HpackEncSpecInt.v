(* Specification-level facts about RFC 7541 5.1 integers and the length of Huffman-coded strings:
   [spec_dec_int] inverts [spec_enc_int] (whatever follows), and [spec_encode s] is at most
   4 times as long as s (a code word has at most 30 bits). Nothing here mentions the implementation model of hpack.go. *)
From Coq Require Import List NArith ZArith Bool Lia.
From Coq Require Import ZifyN ZifyNat ZifyBool.
From H2V Require Import Base.Bytes Spec.Rfc7541Huffman Spec.Rfc7541
     Proofs.HpackBytes Proofs.HuffmanBits Proofs.HuffmanTable Proofs.HuffmanEncode Proofs.HuffmanDecode.
Import ListNotations.
Local Open Scope N_scope.
Ltac Zify.zify_post_hook ::= Z.div_mod_to_equations.

Lemma pow7S a : 2 ^ (7 * N.of_nat (S a)) = 128 * 2 ^ (7 * N.of_nat a).
Proof.
  replace (7 * N.of_nat (S a)) with (7 + 7 * N.of_nat a) by lia.
  rewrite N.pow_add_r. reflexivity.
Qed.

Lemma dec_cont_cons a x rest m : dec_cont (S a) (x :: rest) m =
  if x <? 128 then Some (x * 2 ^ m, rest)
  else match dec_cont a rest (m + 7) with
       | Some (v, r) => Some ((x - 128) * 2 ^ m + v, r)
       | None => None
       end.
Proof. reflexivity. Qed.

Lemma dec_enc_cont : forall a f w m rest,
  w < 2 ^ (7 * N.of_nat (S a)) -> w < 2 ^ N.of_nat (S f) ->
  dec_cont (S a) (enc_cont (S f) w ++ rest) m = Some (w * 2 ^ m, rest).
Proof.
  induction a as [|a IH]; intros f w m rest H1 H2.
  - change (2 ^ (7 * N.of_nat 1)) with 128 in H1.
    cbn [enc_cont]. apply N.ltb_lt in H1. rewrite H1. cbn [app]. rewrite dec_cont_cons, H1. reflexivity.
  - cbn [enc_cont]. destruct (w <? 128) eqn:E.
    + cbn [app]. rewrite dec_cont_cons, E. reflexivity.
    + apply N.ltb_ge in E.
      assert (w mod 128 < 128) as Hm by (apply N.mod_lt; discriminate).
      destruct f as [|f].
      { change (2 ^ N.of_nat 1) with 2 in H2. lia. }
      cbn [app]. rewrite dec_cont_cons.
      replace (w mod 128 + 128 <? 128) with false by (symmetry; apply N.ltb_ge; lia).
      rewrite IH.
      * f_equal. f_equal. rewrite N.add_sub, N.pow_add_r. change (2 ^ 7) with 128.
        rewrite (N.div_mod w 128) at 3 by discriminate. ring.
      * rewrite pow7S in H1. apply N.div_lt_upper_bound; [discriminate | exact H1].
      * rewrite Nat2N.inj_succ, N.pow_succ_r' in H2.
        apply N.div_lt_upper_bound; [discriminate|]. lia.
Qed.

Lemma mod_pattern_add pat v n : pat mod 2 ^ n = 0 -> v < 2 ^ n -> (pat + v) mod 2 ^ n = v.
Proof.
  intros Hp Hv. assert (2 ^ n <> 0) as Hk by (apply N.pow_nonzero; discriminate).
  rewrite <- N.add_mod_idemp_l by exact Hk. rewrite Hp, N.add_0_l. apply N.mod_small. exact Hv.
Qed.

Theorem spec_dec_enc_int n pat v rest :
  pat mod 2 ^ n = 0 -> v < 2 ^ 63 ->
  spec_dec_int n (spec_enc_int n pat v ++ rest) = Some (v, rest).
Proof.
  intros Hp Hv. unfold spec_enc_int.
  assert (0 < 2 ^ n) as Hpos by (apply N.neq_0_lt_0, N.pow_nonzero; discriminate).
  destruct (v <? 2 ^ n - 1) eqn:E.
  - cbn [app spec_dec_int]. apply N.ltb_lt in E.
    rewrite mod_pattern_add by (assumption || lia).
    apply N.ltb_lt in E. rewrite E. reflexivity.
  - cbn [app spec_dec_int]. apply N.ltb_ge in E.
    rewrite mod_pattern_add by (assumption || lia).
    rewrite N.ltb_irrefl.
    set (w := v - (2 ^ n - 1)).
    unfold max_cont_octets. rewrite dec_enc_cont.
    + f_equal. f_equal. change (2 ^ 0) with 1. lia.
    + apply N.le_lt_trans with v; [lia|]. exact Hv.
    + apply N.lt_le_trans with (2 ^ N.of_nat (N.size_nat w)); [apply size_nat_gt|].
      apply N.pow_le_mono_r; lia.
Qed.

(* the first octet carries the pattern: what the dispatch on the first octet looks at *)
Lemma spec_enc_int_head n pat v :
  exists x tl, spec_enc_int n pat v = x :: tl /\
               (x = pat + v /\ v < 2 ^ n - 1 \/ x = pat + (2 ^ n - 1)).
Proof.
  unfold spec_enc_int. destruct (v <? 2 ^ n - 1) eqn:E.
  - apply N.ltb_lt in E. eexists; eexists; split; [reflexivity|]. left. split; [reflexivity | exact E].
  - eexists; eexists; split; [reflexivity|]. right. reflexivity.
Qed.

Lemma spec_enc_int_head_range n pat v x tl : 0 < n ->
  spec_enc_int n pat v = x :: tl -> pat <= x < pat + 2 ^ n.
Proof.
  intros Hn H. destruct (spec_enc_int_head n pat v) as [x' [tl' [E R]]].
  rewrite H in E. injection E as -> ->.
  assert (0 < 2 ^ n) as Hpos by (apply N.neq_0_lt_0, N.pow_nonzero; discriminate).
  destruct R as [[-> L] | ->]; lia.
Qed.

(* 2: length of a Huffman-coded string *)
Lemma code_string_length_le t : bytes_ok t = true -> (length (code_string t) <= 30 * length t)%nat.
Proof.
  induction t as [|a t IH]; intros H; [simpl; lia|].
  cbn [bytes_ok forallb] in H. apply andb_prop in H. destruct H as [Ha Ht].
  apply N.ltb_lt in Ha. fold (bytes_ok t) in Ht.
  rewrite code_string_cons, app_length. pose proof (code_bits_len_bounds a Ha).
  specialize (IH Ht). simpl length. lia.
Qed.

Lemma spec_encode_length s : bytes_ok s = true -> (length (spec_encode s) <= 4 * length s)%nat.
Proof.
  intros H. pose proof (code_string_length_le s H) as L.
  pose proof (f_equal (@length bool) (spec_encode_bits s)) as E.
  rewrite bytes_bits_length, app_length, ones_length in E.
  destruct (pad_len_props (length (code_string s))) as [P1 P2].
  destruct s as [|a s]; [reflexivity|]. simpl length in *. lia.
Qed.

Lemma spec_encode_len s : bytes_ok s = true -> len (spec_encode s) <= 4 * len s.
Proof. intros H. pose proof (spec_encode_length s H). unfold len. lia. Qed.
