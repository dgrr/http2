(* Proofs/SrvInvFrame.v - frame conditions (C19): which components of the connection each loop can change.
   rl_step (the read loop) leaves every component owned by the stream loop alone; sl_frame / sl_done / sl_timer (the
   stream loop) leave the read loop's components alone. The frame lemmas hold of every state: forall c x, proj (f c x) = proj c. *)
From H2V Require Import Base.Bytes Base.MachineInt Base.Result Gen.GenConsts Impl.ServerConn Proofs.SrvBase
  Proofs.SrvFlowSend Proofs.SrvInvMoves.
From Coq Require Import ZArith Lia.
Local Open Scope N_scope.

Section Frame.
Variable hstate : Type.
Variable dec_field : hstate -> N -> bytes -> dec_res hstate.
Variable enc_field : hstate -> bytes -> bytes -> bool -> bytes * hstate.
Variable enc_set_max : hstate -> N -> hstate.
Variable cfg : config.
Notation sconn := (sconn hstate).
Implicit Types c : sconn.

(* everything the stream loop owns *)
Definition slview (c : sconn) :=
  (sc_strms c, sc_gone c, sc_open c, sc_initWin c, sc_ring c, sc_oldest c, sc_lastID c, sc_highestID c,
   (sc_clientWindow c, sc_currentWindow c, sc_enc c, sc_dec c, sc_sl_done c, sc_discardID c, sc_discardPrev c,
    sc_discardFields c),
   (* and what neither loop owns *)
   (sc_closer c, sc_wl_dead c, sc_now c)).

Lemma slview_emit c o : slview (emit c o) = slview c.
Proof. rewrite emit_eq. reflexivity. Qed.
Lemma slview_write_goaway c sid code : slview (write_goaway c sid code) = slview c.
Proof. rewrite write_goaway_upd. reflexivity. Qed.
Lemma slview_rl_exit c why : slview (rl_exit c why) = slview c.
Proof. reflexivity. Qed.
Lemma slview_forward c fr : slview (forward c fr) = slview c.
Proof. unfold forward. destruct (sc_sl_done c); reflexivity. Qed.
Lemma slview_upd_expectCont c n : slview (upd_expectCont c n) = slview c.
Proof. reflexivity. Qed.

Theorem rl_step_frame c i : slview (rl_step cfg c i) = slview c.
Proof.
  unfold rl_step. destruct i as [fr| |[code|]|].
  - assert (R : forall c1 : sconn, slview c1 = slview c -> slview (rl_dispatch c1 fr) = slview c).
    { intros c1 H1. unfold rl_dispatch. destruct (negb (sf_sid fr =? 0)).
      - destruct (check_frame_with_stream fr) as [e|]; [|rewrite slview_forward; assumption].
        rewrite slview_rl_exit, write_error_fst. destruct e; rewrite ?slview_write_goaway; assumption.
      - destruct (sf_kind fr); repeat match goal with |- context [if ?b then _ else _] => destruct b end;
          rewrite ?slview_rl_exit, ?slview_forward, ?slview_write_goaway, ?slview_emit; assumption. }
    destruct (negb (sc_expectCont c =? 0)).
    + destruct (_ || _)%bool; [rewrite slview_rl_exit, slview_write_goaway; reflexivity|].
      destruct (flag_has (sf_flags fr) FL_EH); apply R; reflexivity.
    + destruct (fkind_eqb (sf_kind fr) KCont); [rewrite slview_rl_exit, slview_write_goaway; reflexivity|].
      destruct (_ && _)%bool; apply R; reflexivity.
  - destruct (negb _); [rewrite slview_rl_exit, slview_write_goaway|]; reflexivity.
  - rewrite slview_rl_exit, slview_write_goaway. reflexivity.
  - reflexivity.
  - reflexivity.
Qed.

(* the read loop reads sc_lastID (under goAwayMu) and sets the shared atomics only through write_goaway *)
Theorem rl_step_closing c i : sc_closing c = true -> sc_closing (rl_step cfg c i) = true.
Proof.
  intro H.
  assert (G : forall c1 : sconn, sc_closing c1 = true -> forall sid code why,
              sc_closing (rl_exit (write_goaway c1 sid code) why) = true).
  { intros. rewrite sc_closing_rl_exit. apply sc_closing_write_goaway. }
  unfold rl_step. destruct i as [fr| |[code|]|].
  - assert (R : forall c1 : sconn, sc_closing c1 = true -> sc_closing (rl_dispatch c1 fr) = true).
    { intros c1 H1. unfold rl_dispatch. destruct (negb (sf_sid fr =? 0)).
      - destruct (check_frame_with_stream fr) as [e|]; [|rewrite sc_closing_forward; assumption].
        rewrite sc_closing_rl_exit. apply sc_closing_write_error. assumption.
      - destruct (sf_kind fr); repeat match goal with |- context [if ?b then _ else _] => destruct b end;
          rewrite ?sc_closing_rl_exit, ?sc_closing_forward, ?sc_closing_emit; auto using sc_closing_write_goaway. }
    destruct (negb (sc_expectCont c =? 0)).
    + destruct (_ || _)%bool; [apply G; assumption|].
      destruct (flag_has (sf_flags fr) FL_EH); apply R; assumption.
    + destruct (fkind_eqb (sf_kind fr) KCont); [apply G; assumption|].
      destruct (_ && _)%bool; apply R; assumption.
  - destruct (negb _); [apply G|]; assumption.
  - apply G. assumption.
  - rewrite sc_closing_rl_exit. assumption.
  - rewrite sc_closing_rl_exit. assumption.
Qed.

(* what the read loop owns, and what neither loop owns *)
Definition rlview (c : sconn) := (sc_expectCont c, sc_rl_done c, sc_readerQ c, (sc_closer c, sc_wl_dead c, sc_now c)).

Lemma rlview_proj (a b : sconn) : rlview a = rlview b ->
  sc_expectCont a = sc_expectCont b /\ sc_rl_done a = sc_rl_done b /\ sc_readerQ a = sc_readerQ b.
Proof. unfold rlview. intro H. inversion H. auto. Qed.

Lemma rlview_lite c c' : lite cfg c c' -> rlview c' = rlview c.
Proof. intros [H _]. unfold same_core in H. decompose [and] H. unfold rlview. congruence. Qed.
Lemma rlview_quiet c c' : quiet_core c c' -> rlview c' = rlview c.
Proof. intros [H _]. unfold same_core in H. decompose [and] H. unfold rlview. congruence. Qed.

Lemma rlview_emit c o : rlview (emit c o) = rlview c.
Proof. rewrite emit_eq. reflexivity. Qed.
Lemma rlview_note c o : rlview (note c o) = rlview c.
Proof. reflexivity. Qed.
Lemma rlview_write_reset c sid code : rlview (write_reset c sid code) = rlview c.
Proof. apply rlview_emit. Qed.
Lemma rlview_write_goaway c sid code : rlview (write_goaway c sid code) = rlview c.
Proof. rewrite write_goaway_upd. reflexivity. Qed.
Lemma rlview_put c x : rlview (put c x) = rlview c.
Proof. reflexivity. Qed.
Lemma rlview_mark_closed c id w : rlview (mark_closed c id w) = rlview c.
Proof. rewrite mark_closed_eq. reflexivity. Qed.
Lemma rlview_release_stream c s : rlview (release_stream c s) = rlview c.
Proof. rewrite release_stream_eq. reflexivity. Qed.
Lemma rlview_close_stream c s : rlview (close_stream c s) = rlview c.
Proof.
  rewrite close_stream_eq. cbv zeta. destruct (st_handlerRunning s); [|rewrite rlview_release_stream];
    unfold close_discard; destruct (_ && _ && _)%bool; apply (rlview_mark_closed c).
Qed.
Lemma rlview_brk c : rlview (fst (brk c)) = rlview c.
Proof. reflexivity. Qed.
Lemma rlview_write_error c s e : rlview (fst (write_error c s e)) = rlview c.
Proof. rewrite write_error_fst. destruct e, s; rewrite ?rlview_write_goaway, ?rlview_write_reset; reflexivity. Qed.

Lemma rlview_credit_conn_window c n : rlview (credit_conn_window cfg c n) = rlview c.
Proof. rewrite credit_conn_window_eq. reflexivity. Qed.
Lemma rlview_consume_recv_window c s fr n : rlview (consume_recv_window cfg c s fr n) = rlview c.
Proof. rewrite consume_recv_window_eq. reflexivity. Qed.

Lemma rlview_brk_if (b : bool) c : rlview (fst (if b then brk c else cont c)) = rlview c.
Proof. destruct b; reflexivity. Qed.

Lemma rlview_close_all ids : forall c, rlview (close_all c ids) = rlview c.
Proof.
  induction ids as [|id t IH]; intros c; cbn [close_all]; [reflexivity|].
  destruct (strms_search (sc_strms c) id); [rewrite IH, rlview_close_stream|rewrite IH]; reflexivity.
Qed.

Lemma rlview_send_data c s : rlview (fst (fst (send_data c s))) = rlview c.
Proof. rewrite send_data_conn. reflexivity. Qed.

Lemma rlview_flush_loop ids : forall c done, rlview (fst (flush_loop c ids done)) = rlview c.
Proof.
  induction ids as [|id t IH]; intros c done; cbn [flush_loop]; [reflexivity|].
  destruct (strms_search (sc_strms c) id) as [s|]; [|apply IH].
  destruct (_ && _)%bool; [|apply IH].
  pose proof (rlview_send_data c s) as L. destruct (send_data c s) as [[c1 s1] fin]. cbn [fst] in L.
  rewrite IH, rlview_put. exact L.
Qed.

Lemma rlview_flush_streams c : rlview (flush_streams c) = rlview c.
Proof.
  unfold flush_streams. pose proof (rlview_flush_loop (map st_id (sc_strms c)) c []) as L.
  destruct (flush_loop c (map st_id (sc_strms c)) []) as [c1 done]. cbn [fst] in L. rewrite rlview_close_all. exact L.
Qed.

Lemma rlview_implicit_close fuel : forall c sid, rlview (implicit_close fuel c sid) = rlview c.
Proof.
  induction fuel as [|fuel IH]; intros c sid; cbn [implicit_close]; [reflexivity|].
  destruct (sc_strms c) as [|n t]; [reflexivity|]. destruct (_ && _)%bool; [|reflexivity].
  rewrite IH, rlview_write_reset, rlview_close_stream. reflexivity.
Qed.

Lemma rlview_close_heads n : forall c, rlview (close_heads n c) = rlview c.
Proof.
  induction n as [|n IH]; intros c; cbn [close_heads]; [reflexivity|].
  destruct (sc_strms c) as [|s t]; [reflexivity|]. rewrite IH, rlview_close_stream, rlview_write_reset. reflexivity.
Qed.

Theorem sl_timer_frame c : rlview (fst (sl_timer cfg c)) = rlview c.
Proof. unfold sl_timer. destruct (_ <=? 0)%Z; cbn [fst cont]; [reflexivity | apply rlview_close_heads]. Qed.

Lemma rlview_discard_header_block c fr : rlview (fst (discard_header_block dec_field cfg c fr)) = rlview c.
Proof. apply rlview_quiet, quiet_discard_header_block. Qed.

Lemma rlview_discard_or_break (r : sconn * option h2err) : rlview (fst (discard_or_break r)) = rlview (fst r).
Proof.
  destruct r as [c1 [e|]]; [|reflexivity]. destruct e; cbn [discard_or_break fst];
    rewrite ?rlview_brk, ?rlview_write_error, ?rlview_note; reflexivity.
Qed.

Lemma rlview_handle_frame c s fr : rlview (fst (fst (handle_frame dec_field cfg c s fr))) = rlview c.
Proof.
  apply (handle_frame_conn _ dec_field cfg (fun c' _ => rlview c' = rlview c)).
  - reflexivity.
  - cbv zeta. intros e _. apply rlview_quiet, quiet_handle_header_frame.
  - apply rlview_credit_conn_window.
  - intro s1. apply rlview_consume_recv_window.
Qed.

Lemma rlview_after_frame c s fr wc : rlview (fst (after_frame cfg c s fr wc)) = rlview c.
Proof.
  destruct (after_frame_cases _ cfg c s fr wc) as (c2 & s2 & M & E).
  assert (R : rlview (put_close c2 s2) = rlview c).
  { unfold put_close. destruct (sstate_eqb _ _); rewrite ?rlview_close_stream, rlview_put;
      (destruct M as [| |c1 s3 fin _ _ SD|]; [apply rlview_write_reset | apply rlview_note | | reflexivity]);
      rewrite <- (rlview_send_data c (handle_state fr s)), SD; reflexivity. }
  destruct E as [-> | ->]; [|rewrite rlview_brk]; exact R.
Qed.

Theorem sl_frame_frame c fr : rlview (fst (sl_frame dec_field enc_set_max cfg c fr)) = rlview c.
Proof.
  unfold sl_frame. destruct (sf_sid fr =? 0).
  { destruct (sf_kind fr); try reflexivity.
    - set (c0 := if sf_set_hastable fr then upd_enc c (enc_set_max (sc_enc c) (sf_set_table fr)) else c).
      assert (E0 : rlview c0 = rlview c) by (subst c0; destruct (sf_set_hastable fr); reflexivity).
      destruct (sf_set_haswin fr); [|cbn [cont fst]; rewrite rlview_emit; exact E0].
      cbv zeta. match goal with |- context [let '(aa, bb) := ?B in _] => destruct B as [lB over] end.
      destruct over; cbn [cont fst]; rewrite ?rlview_brk, ?rlview_write_goaway, ?rlview_flush_streams, ?rlview_emit; exact E0.
    - destruct (_ <? _)%Z; cbn [cont fst]; rewrite ?rlview_brk, ?rlview_write_goaway, ?rlview_flush_streams; reflexivity. }
  destruct (_ && _ && _)%bool; [rewrite rlview_discard_or_break; apply rlview_discard_header_block|].
  cbv zeta.
  (* once the stream is known *)
  assert (TL : forall c2 s, rlview c2 = rlview c -> rlview (fst
     (let '(c3, s3, e) := handle_frame dec_field cfg c2 s fr in
      match e with
      | Some e =>
        let '(c4, s4) := write_error c3 (Some s3) e in
        let s5 := match s4 with Some x => set_state x SClosed | None => set_state s3 SClosed end in
        match e with
        | EGoAway code => if negb (code =? c_NoError) then brk (put c4 s5) else after_frame cfg c4 s5 fr (sc_closing c)
        | EReset _ => after_frame cfg c4 s5 fr (sc_closing c)
        | EPanic => brk (note c3 (OPanic 1 0))
        end
      | None => after_frame cfg c3 s3 fr (sc_closing c)
      end)) = rlview c).
  { intros c2 s H2. pose proof (rlview_handle_frame c2 s fr) as L.
    destruct (handle_frame dec_field cfg c2 s fr) as [[c3 s3] e]. cbn [fst] in L. rewrite H2 in L.
    destruct e as [e|]; [|rewrite rlview_after_frame; exact L].
    pose proof (rlview_write_error c3 (Some s3) e) as LE. destruct (write_error c3 (Some s3) e) as [c4 s4]. cbn [fst] in LE.
    destruct e as [code|code|]; [destruct (negb _)| |];
      rewrite ?rlview_after_frame, ?rlview_brk, ?rlview_put, ?rlview_note; congruence. }
  assert (WK : forall c1 s, rlview c1 = rlview c -> rlview (fst
     (let pre2 : (sconn * bool) + sconn :=
        if fkind_eqb (sf_kind fr) KHeaders then
          match get_previous_headers (sc_strms c1) with
          | Some p =>
            if negb (st_headersFinished p) then
              let '(c2, p') := write_error c1 (Some p) (EGoAway c_ProtocolError) in
              inl (cont (match p' with Some p' => put c2 p' | None => c2 end))
            else inr (implicit_close (S (length (sc_strms c1))) c1 (st_id s))
          | None => inr (implicit_close (S (length (sc_strms c1))) c1 (st_id s))
          end
        else inr c1 in
      match pre2 with
      | inl r => r
      | inr c2 =>
        let '(c3, s3, e) := handle_frame dec_field cfg c2 s fr in
        match e with
        | Some e =>
          let '(c4, s4) := write_error c3 (Some s3) e in
          let s5 := match s4 with Some x => set_state x SClosed | None => set_state s3 SClosed end in
          match e with
          | EGoAway code => if negb (code =? c_NoError) then brk (put c4 s5) else after_frame cfg c4 s5 fr (sc_closing c)
          | EReset _ => after_frame cfg c4 s5 fr (sc_closing c)
          | EPanic => brk (note c3 (OPanic 1 0))
          end
        | None => after_frame cfg c3 s3 fr (sc_closing c)
        end
      end)) = rlview c).
  { intros c1 s H1. cbv zeta. destruct (fkind_eqb (sf_kind fr) KHeaders); [|apply TL; exact H1].
    destruct (get_previous_headers (sc_strms c1)) as [p|]; [|apply TL; rewrite rlview_implicit_close; exact H1].
    destruct (negb (st_headersFinished p)); [|apply TL; rewrite rlview_implicit_close; exact H1].
    cbn [write_error cont fst]. rewrite rlview_put, rlview_write_goaway. exact H1. }
  destruct (if sf_sid fr <=? sc_lastID c then strms_search (sc_strms c) (sf_sid fr) else None) as [s|].
  { apply WK. reflexivity. }
  assert (RF : forall c1 : sconn, rlview c1 = rlview c -> rlview (fst (discard_or_break (discard_header_block dec_field cfg
                 (mark_closed (write_reset c1 (sf_sid fr) c_RefusedStreamError) (sf_sid fr) true) fr))) = rlview c).
  { intros c1 H1. rewrite rlview_discard_or_break, rlview_discard_header_block, rlview_mark_closed, rlview_write_reset. exact H1. }
  destruct (fkind_eqb (sf_kind fr) KRst).
  { destruct (_ && _)%bool; cbn [cont fst]; rewrite ?rlview_write_goaway; reflexivity. }
  destruct (in_ring c (sf_sid fr)).
  { destruct (sf_kind fr); repeat match goal with |- context [if ?b then _ else _] => destruct b end; cbn [cont fst];
      rewrite ?rlview_write_goaway, ?rlview_discard_or_break, ?rlview_discard_header_block, ?rlview_credit_conn_window;
      reflexivity. }
  destruct (fkind_eqb (sf_kind fr) KPriority).
  { destruct (_ =? _); cbn [cont fst]; rewrite ?rlview_write_reset; reflexivity. }
  destruct (fkind_eqb (sf_kind fr) KHeaders); cbn [andb].
  - destruct (sf_sid fr <=? sc_highestID c); [cbn [cont fst]; rewrite rlview_write_goaway; reflexivity|].
    destruct (_ || _)%bool; [apply RF; reflexivity|].
    destruct (_ <? _); [cbn [cont fst]; rewrite rlview_write_goaway; reflexivity|].
    destruct (sc_closing _); [apply RF; reflexivity|]. apply WK. reflexivity.
  - destruct (_ <? _); [cbn [cont fst]; rewrite rlview_write_goaway; reflexivity|]. apply WK. reflexivity.
Qed.

Lemma rlview_finish_request c s r : rlview (fst (fst (finish_request enc_field c s r))) = rlview c.
Proof.
  unfold finish_request. destruct (response_block enc_field (sc_enc c) r) as [blk e'].
  destruct (negb _); cbn [fst]; [rewrite rlview_emit; reflexivity|].
  rewrite rlview_send_data, rlview_emit. reflexivity.
Qed.

Theorem sl_done_frame c sid r : rlview (fst (sl_done enc_field cfg c sid r)) = rlview c.
Proof.
  unfold sl_done. destruct (take_stream (sc_gone c) sid) as [[s rest]|].
  { cbn [cont fst]. rewrite rlview_release_stream. reflexivity. }
  destruct (strms_search (sc_strms c) sid) as [s|]; [|reflexivity].
  destruct (negb (st_handlerRunning s)); [reflexivity|].
  match goal with |- context [finish_request enc_field c ?s1 r] =>
    pose proof (rlview_finish_request c s1 r) as L; destruct (finish_request enc_field c s1 r) as [[c1 s2] fin] end.
  cbn [fst] in L. cbv zeta. rewrite rlview_brk_if. destruct fin; rewrite ?rlview_close_stream, rlview_put; exact L.
Qed.

Notation step := (step dec_field enc_field enc_set_max cfg).

(* an event of the read loop changes nothing the stream loop owns *)
Theorem read_loop_event_frame c i : slview (step c (EvRL i)) = slview c.
Proof. rewrite step_EvRL. destruct (sc_rl_done c); [reflexivity | apply rl_step_frame]. Qed.

Definition stream_loop_event (e : event) : Prop :=
  match e with EvSL | EvDone _ _ | EvTimer | EvCloser => True | _ => False end.

(* an event of the stream loop leaves the read loop's variables alone and at most takes the head of sc.reader *)
Theorem stream_loop_event_frame c e : stream_loop_event e ->
  sc_expectCont (step c e) = sc_expectCont c /\ sc_rl_done (step c e) = sc_rl_done c /\
  (sc_readerQ (step c e) = sc_readerQ c \/ exists fr, sc_readerQ c = fr :: sc_readerQ (step c e)).
Proof.
  pose proof rlview_proj as P.
  destruct e; cbn [stream_loop_event]; try contradiction; intros _.
  - rewrite step_EvSL. destruct (sc_sl_done c); [auto|].
    destruct (sc_readerQ c) as [|fr q] eqn:RQ.
    + destruct (sc_rl_done c) eqn:Hr; [|rewrite RQ; auto]. cbn. rewrite RQ. auto.
    + destruct (P _ _ (sl_frame_frame (upd_readerQ c q) fr)) as (E1 & E2 & E3). rewrite E1, E2, E3.
      repeat split. right. exists fr. reflexivity.
  - rewrite step_EvDone. destruct (sc_sl_done c); [auto|].
    destruct (P _ _ (sl_done_frame c sid r)) as (E1 & E2 & E3). rewrite E1, E2, E3. auto.
  - rewrite step_EvTimer. destruct (sc_sl_done c); [auto|].
    destruct (P _ _ (sl_timer_frame c)) as (E1 & E2 & E3). rewrite E1, E2, E3. auto.
  - rewrite step_EvCloser. destruct (_ && _)%bool; auto.
Qed.

End Frame.
