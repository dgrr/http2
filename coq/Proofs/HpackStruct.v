(* C03: structural properties of one field and of the scan of size updates, valid for any input:
   progress, and what happens when more input is appended (the basis of split invariance). *)
From Coq Require Import List NArith ZArith Bool Lia.
From H2V Require Import Base.Bytes Base.MachineInt Base.Result Gen.GenConsts Gen.GenStatic
     Impl.Huffman Impl.Hpack Proofs.HpackDefs Proofs.HpackBytes Proofs.HpackInt Proofs.HpackStr
     Proofs.HpackTable Proofs.HpackNext.
Import ListNotations.
Local Open Scope N_scope.
Local Opaque huffman_root.

Arguments N.land : simpl never.
Arguments N.pow : simpl never.

Lemma bytes_len_ind (P : bytes -> Prop) :
  (forall b, (forall b', (length b' < length b)%nat -> P b') -> P b) -> forall b, P b.
Proof.
  intros H b. remember (length b) as n eqn:Hn. revert b Hn.
  induction n as [n IH] using lt_wf_ind. intros b ->. apply H. intros b' Hlt. eapply IH; [exact Hlt | reflexivity].
Qed.

Lemma rl_core_ok hp bi bits b k v rest : rl_core hp bi bits b = Ok (k, v, rest) ->
  exists pre, b = pre ++ rest /\ pre <> [] /\ forall y, rl_core hp bi bits (b ++ y) = Ok (k, v, rest ++ y).
Proof.
  unfold rl_core. destruct bi.
  - destruct (read_int bits b) as [[b1 n]|e|w] eqn:E1; try discriminate.
    destruct (peek hp n) as [hf2|] eqn:Ep; [|discriminate].
    destruct (read_string b1) as [[b2 v']|e|w] eqn:E2; try discriminate.
    intros H. injection H as <- <- <-.
    destruct (read_int_ok _ _ _ _ E1) as [p1 [Hb1 [Hn1 Hy1]]].
    destruct (read_string_ok _ _ _ E2) as [p2 [Hb2 [Hn2 Hy2]]].
    exists (p1 ++ p2). split; [rewrite <- app_assoc, <- Hb2; exact Hb1|].
    split; [destruct p1; [congruence | discriminate]|].
    intros y. rewrite Hy1, Ep, Hy2. reflexivity.
  - destruct b as [|c b1]; [discriminate|].
    destruct (read_string b1) as [[b2 k']|e|w] eqn:E1; try discriminate.
    destruct (read_string b2) as [[b3 v']|e|w] eqn:E2; try discriminate.
    intros H. injection H as <- <- <-.
    destruct (read_string_ok _ _ _ E1) as [p1 [Hb1 [Hn1 Hy1]]].
    destruct (read_string_ok _ _ _ E2) as [p2 [Hb2 [Hn2 Hy2]]].
    exists (c :: p1 ++ p2). split; [cbn [app]; rewrite <- app_assoc, <- Hb2, <- Hb1; reflexivity|].
    split; [discriminate|].
    intros y. cbn [app]. rewrite Hy1, Hy2. reflexivity.
Qed.

Lemma rl_core_err hp bi bits b e : rl_core hp bi bits b = Err e -> e <> E_unexpected_size ->
  forall y, rl_core hp bi bits (b ++ y) = Err e.
Proof.
  unfold rl_core. destruct bi.
  - destruct (read_int bits b) as [[b1 n]|e1|w] eqn:E1; try discriminate.
    + destruct (read_int_ok _ _ _ _ E1) as [p1 [Hb1 [Hn1 Hy1]]].
      destruct (peek hp n) as [hf2|] eqn:Ep.
      * destruct (read_string b1) as [[b2 v']|e2|w] eqn:E2; try discriminate.
        intros H Hne y. injection H as ->. rewrite Hy1, Ep.
        destruct (read_string_err _ _ E2) as [Hl | [_ Hy2]]; [contradiction|]. rewrite Hy2. reflexivity.
      * intros H Hne y. rewrite Hy1, Ep. exact H.
    + intros H Hne y. injection H as ->.
      destruct (read_int_err _ _ _ E1) as [Hl | [_ Hy1]]; [contradiction|]. rewrite Hy1. reflexivity.
  - destruct b as [|c b1]; [discriminate|].
    destruct (read_string b1) as [[b2 k']|e1|w] eqn:E1; try discriminate.
    + destruct (read_string_ok _ _ _ E1) as [p1 [Hb1 [Hn1 Hy1]]].
      destruct (read_string b2) as [[b3 v']|e2|w] eqn:E2; try discriminate.
      intros H Hne y. injection H as ->. cbn [app]. rewrite Hy1.
      destruct (read_string_err _ _ E2) as [Hl | [_ Hy2]]; [contradiction|]. rewrite Hy2. reflexivity.
    + intros H Hne y. injection H as ->. cbn [app].
      destruct (read_string_err _ _ E1) as [Hl | [_ Hy1]]; [contradiction|]. rewrite Hy1. reflexivity.
Qed.

Lemma lit_core_ok hp bi bits b sens store f rest st : lit_core hp bi bits b sens store = Ok (f, rest, st) ->
  exists pre, b = pre ++ rest /\ pre <> [] /\
    forall y, lit_core hp bi bits (b ++ y) sens store = Ok (f, rest ++ y, st).
Proof.
  unfold lit_core. destruct (rl_core hp bi bits b) as [[[k v] rest']|e|w] eqn:E; try discriminate.
  intros H. injection H as <- <- <-.
  destruct (rl_core_ok _ _ _ _ _ _ _ E) as [pre [Hb [Hne Hy]]]. exists pre. split; [exact Hb|].
  split; [exact Hne|]. intros y. rewrite Hy. reflexivity.
Qed.

Lemma lit_core_err hp bi bits b sens store e : lit_core hp bi bits b sens store = Err e ->
  e <> E_unexpected_size -> forall y, lit_core hp bi bits (b ++ y) sens store = Err e.
Proof.
  unfold lit_core. destruct (rl_core hp bi bits b) as [[[k v] rest']|e'|w] eqn:E; try discriminate.
  intros H Hne y. injection H as ->. rewrite (rl_core_err _ _ _ _ _ E Hne). reflexivity.
Qed.

Theorem one_core_ok hp b f rest st : one_core hp b = Ok (f, rest, st) ->
  exists pre, b = pre ++ rest /\ pre <> [] /\ forall y, one_core hp (b ++ y) = Ok (f, rest ++ y, st).
Proof.
  destruct b as [|c r]; [discriminate|]. unfold one_core. cbn [app].
  change (c :: r ++ ?y) with ((c :: r) ++ y).
  destruct (N.land c 128 =? 128).
  - destruct (read_int 7 (c :: r)) as [[b1 n]|e|w] eqn:E1; try discriminate.
    destruct (peek hp n) as [hf2|] eqn:Ep; [|discriminate].
    intros H. injection H as <- <- <-.
    destruct (read_int_ok _ _ _ _ E1) as [p1 [Hb1 [Hn1 Hy1]]].
    exists p1. split; [exact Hb1|]. split; [exact Hn1|]. intros y.
    change (c :: r ++ y) with ((c :: r) ++ y). rewrite Hy1, Ep. reflexivity.
  - destruct (N.land c 64 =? 64); [|destruct (N.land c 240 =? 16)]; intros H;
      destruct (lit_core_ok _ _ _ _ _ _ _ _ _ H) as [pre [Hb [Hne Hy]]];
      exists pre; (split; [exact Hb|]); (split; [exact Hne|]); intros y;
      change (c :: r ++ y) with ((c :: r) ++ y); apply Hy.
Qed.

Theorem one_core_err hp b e : one_core hp b = Err e -> e <> E_unexpected_size ->
  forall y, one_core hp (b ++ y) = Err e.
Proof.
  destruct b as [|c r]; [discriminate|]. unfold one_core. cbn [app].
  destruct (N.land c 128 =? 128).
  - destruct (read_int 7 (c :: r)) as [[b1 n]|e1|w] eqn:E1; try discriminate.
    + destruct (read_int_ok _ _ _ _ E1) as [p1 [Hb1 [Hn1 Hy1]]].
      destruct (peek hp n) as [hf2|] eqn:Ep; [discriminate|].
      intros H Hne y. change (c :: r ++ y) with ((c :: r) ++ y). rewrite Hy1, Ep. exact H.
    + intros H Hne y. injection H as ->.
      destruct (read_int_err _ _ _ E1) as [Hl | [_ Hy1]]; [contradiction|].
      change (c :: r ++ y) with ((c :: r) ++ y). rewrite Hy1. reflexivity.
  - destruct (N.land c 64 =? 64); [|destruct (N.land c 240 =? 16)]; intros H Hne y;
      change (c :: r ++ y) with ((c :: r) ++ y); apply lit_core_err; assumption.
Qed.

(* the scan with its fuel normalised *)
Definition scanN (lim : N) (allowed : bool) (b : bytes) : list N * scan_end :=
  scan (S (length b)) lim allowed b.

Lemma scan_fuel : forall f1 f2 lim al b, (length b < f1)%nat -> (length b < f2)%nat ->
  scan f1 lim al b = scan f2 lim al b.
Proof.
  induction f1 as [|f1 IH]; intros f2 lim al b H1 H2; [lia|].
  destruct f2 as [|f2]; [lia|].
  destruct b as [|c r]; [reflexivity|]. cbn [scan].
  destruct (is_upd c); [|reflexivity].
  destruct (read_int 5 (c :: r)) as [[b1 n]|e|w] eqn:E; try reflexivity.
  apply read_int_ok_length in E. cbn [length] in *.
  destruct (negb al); [reflexivity|]. destruct (lim <? n); [reflexivity|].
  rewrite (IH f2) by lia. reflexivity.
Qed.

Lemma scanN_nil lim al : scanN lim al [] = ([], SEnd).
Proof. reflexivity. Qed.

Lemma scan_S f lim al c r :
  scan (S f) lim al (c :: r) =
  if is_upd c then
    match read_int 5 (c :: r) with
    | Err e => ([], SErr e)
    | Panic w => ([], SPanic w)
    | Ok (b1, n) =>
        if negb al then ([], SErr E_dynamic_update)
        else if lim <? n then ([], SErr E_dynamic_update_max)
        else let '(ns, e) := scan f lim al b1 in (u32 n :: ns, e)
    end
  else ([], SField (c :: r)).
Proof. reflexivity. Qed.

Lemma scanN_cons lim al c r :
  scanN lim al (c :: r) =
  if is_upd c then
    match read_int 5 (c :: r) with
    | Err e => ([], SErr e)
    | Panic w => ([], SPanic w)
    | Ok (b1, n) =>
        if negb al then ([], SErr E_dynamic_update)
        else if lim <? n then ([], SErr E_dynamic_update_max)
        else let '(ns, e) := scanN lim al b1 in (u32 n :: ns, e)
    end
  else ([], SField (c :: r)).
Proof.
  unfold scanN. rewrite scan_S.
  destruct (is_upd c); [|reflexivity].
  destruct (read_int 5 (c :: r)) as [[b1 n]|e|w] eqn:E; try reflexivity.
  apply read_int_ok_length in E.
  destruct (negb al); [reflexivity|]. destruct (lim <? n); [reflexivity|].
  rewrite (scan_fuel (length (c :: r)) (S (length b1))) by lia. reflexivity.
Qed.

Lemma next_field_scanN hp hf bs fp b :
  next_field hp hf bs fp b = nf_of_scan hp hf b (scanN (h_max_settings hp) (allowed_of bs fp) b).
Proof. apply next_field_scan. Qed.

Lemma scanN_no_panic lim al : forall b w, snd (scanN lim al b) <> SPanic w.
Proof.
  induction b as [b IH] using bytes_len_ind. intros w.
  destruct b as [|c r]; [rewrite scanN_nil; discriminate|]. rewrite scanN_cons.
  destruct (is_upd c); [|discriminate].
  pose proof (read_int_no_panic 5 (c :: r)) as Hnp.
  destruct (read_int 5 (c :: r)) as [[b1 n]|e|w'] eqn:E; try discriminate.
  destruct (negb al); [discriminate|]. destruct (lim <? n); [discriminate|].
  apply read_int_ok_length in E. specialize (IH b1 E w).
  destruct (scanN lim al b1) as [ns e]. exact IH.
Qed.

(* the field found after the updates is a suffix, starting with an octet that is not an update *)
Lemma scanN_field lim al : forall b ns b', scanN lim al b = (ns, SField b') ->
  (exists c r, b' = c :: r /\ is_upd c = false) /\
  exists pre, b = pre ++ b' /\ (ns <> [] -> pre <> []).
Proof.
  induction b as [b IH] using bytes_len_ind. intros ns b'.
  destruct b as [|c r]; [rewrite scanN_nil; discriminate|]. rewrite scanN_cons.
  destruct (is_upd c) eqn:Eu.
  - destruct (read_int 5 (c :: r)) as [[b1 n]|e|w'] eqn:E; try discriminate.
    destruct (negb al); [discriminate|]. destruct (lim <? n); [discriminate|].
    destruct (read_int_ok _ _ _ _ E) as [p1 [Hb1 [Hn1 _]]].
    apply read_int_ok_length in E. specialize (IH b1 E).
    destruct (scanN lim al b1) as [ns1 e1]. intros H. injection H as <- ->.
    destruct (IH ns1 b' eq_refl) as [Hc [pre [Hp _]]]. split; [exact Hc|].
    exists (p1 ++ pre). split; [rewrite <- app_assoc, <- Hp; exact Hb1|].
    intros _. destruct p1; [congruence | discriminate].
  - intros H. injection H as <- <-. split; [exists c, r; auto|]. exists []. split; [reflexivity | congruence].
Qed.

Lemma scanN_end_nonempty lim al : forall b ns, scanN lim al b = (ns, SEnd) -> b <> [] -> ns <> [].
Proof.
  intros b ns. destruct b as [|c r]; [congruence|]. rewrite scanN_cons.
  destruct (is_upd c); [|discriminate].
  destruct (read_int 5 (c :: r)) as [[b1 n]|e|w']; try discriminate.
  destruct (negb al); [discriminate|]. destruct (lim <? n); [discriminate|].
  destruct (scanN lim al b1) as [ns1 e1]. intros H _. injection H as <- _. discriminate.
Qed.

(* appending input: the scan of b is a prefix of the scan of b ++ y *)
Theorem scanN_ext lim al y : forall b,
  match scanN lim al b with
  | (ns, SField b') => scanN lim al (b ++ y) = (ns, SField (b' ++ y))
  | (ns, SEnd) => scanN lim al (b ++ y) = (ns ++ fst (scanN lim al y), snd (scanN lim al y))
  | (ns, SErr e) =>
      if e =? E_unexpected_size then exists ns' e', scanN lim al (b ++ y) = (ns ++ ns', e')
      else scanN lim al (b ++ y) = (ns, SErr e)
  | (ns, SPanic _) => True
  end.
Proof.
  induction b as [b IH] using bytes_len_ind.
  destruct b as [|c r].
  - rewrite scanN_nil. cbn [app]. destruct (scanN lim al y); reflexivity.
  - rewrite scanN_cons. cbn [app]. rewrite scanN_cons. change (c :: r ++ y) with ((c :: r) ++ y).
    destruct (is_upd c) eqn:Eu; [|reflexivity].
    destruct (read_int 5 (c :: r)) as [[b1 n]|e|w'] eqn:E; [| |exact I].
    + destruct (read_int_ok _ _ _ _ E) as [p1 [Hb1 [Hn1 Hy1]]]. rewrite Hy1.
      destruct (negb al); [reflexivity|]. destruct (lim <? n); [reflexivity|].
      apply read_int_ok_length in E. specialize (IH b1 E).
      destruct (scanN lim al b1) as [ns1 e1].
      destruct e1 as [|e1|w1|b1'].
      * rewrite IH. reflexivity.
      * destruct (e1 =? E_unexpected_size).
        -- destruct IH as [ns' [e' IH]]. rewrite IH. exists ns', e'. reflexivity.
        -- rewrite IH. reflexivity.
      * exact I.
      * rewrite IH. reflexivity.
    + destruct (read_int_err _ _ _ E) as [-> | [-> Hy1]].
      * change (E_unexpected_size =? E_unexpected_size) with true. cbv iota.
        match goal with |- exists ns' e', ?X = _ => destruct X as [ns' e']; exists ns', e'; reflexivity end.
      * rewrite Hy1. reflexivity.
Qed.

Lemma apply_upd_app hp a b : apply_upd hp (a ++ b) = apply_upd (apply_upd hp a) b.
Proof. unfold apply_upd. apply fold_left_app. Qed.

Lemma apply_upd_cons hp n ns : apply_upd hp (n :: ns) = apply_upd (upd hp n) ns.
Proof. reflexivity. Qed.

Lemma upd_fit hp n : fsum (h_dynamic hp) < 2 ^ 32 ->
  upd hp n = with_dynamic (with_max hp n) (fit n (h_dynamic hp)).
Proof. intros H. unfold upd. rewrite shrink_dynamic by exact H. reflexivity. Qed.

Lemma fsum_fit_mono mx dyn : fsum (fit mx dyn) <= fsum dyn.
Proof. destruct (fit_suffix mx dyn) as [pre Hp]. rewrite Hp at 2. rewrite fsum_app. lia. Qed.

Lemma fsum_upd hp n : fsum (h_dynamic hp) < 2 ^ 32 ->
  fsum (h_dynamic (upd hp n)) <= n /\ fsum (h_dynamic (upd hp n)) <= fsum (h_dynamic hp).
Proof.
  intros H. rewrite upd_fit by exact H. cbn [with_dynamic h_dynamic].
  split; [apply fsum_fit_le | apply fsum_fit_mono].
Qed.

Lemma fsum_apply_upd : forall ns hp, fsum (h_dynamic hp) < 2 ^ 32 ->
  fsum (h_dynamic (apply_upd hp ns)) <= fsum (h_dynamic hp) /\
  forall n, In n ns -> fsum (h_dynamic (apply_upd hp ns)) <= n.
Proof.
  induction ns as [|m ns IH]; intros hp H; [split; [cbn; lia | contradiction]|].
  rewrite apply_upd_cons. destruct (fsum_upd hp m H) as [U1 U2].
  destruct (IH (upd hp m) ltac:(lia)) as [I1 I2]. split; [lia|].
  intros n [->|Hin]; [lia | apply I2; exact Hin].
Qed.

Lemma with_max_same hp : with_max hp (h_max hp) = hp.
Proof. destruct hp; reflexivity. Qed.

Lemma last_cons_default {A} (x : A) l d d' : last (x :: l) d = last (x :: l) d'.
Proof.
  revert x. induction l as [|y l IH]; intros x; [reflexivity|].
  change (last (x :: y :: l) ?z) with (last (y :: l) z). apply IH.
Qed.

Lemma with_max_with_max hp a b : with_max (with_max hp a) b = with_max hp b.
Proof. reflexivity. Qed.

(* updates that the table already satisfies only set the maximum *)
Lemma apply_upd_stable : forall ns hp, fsum (h_dynamic hp) < 2 ^ 32 ->
  (forall n, In n ns -> fsum (h_dynamic hp) <= n) ->
  apply_upd hp ns = with_max hp (last ns (h_max hp)).
Proof.
  induction ns as [|m ns IH]; intros hp H Hall; [cbn [apply_upd fold_left last]; symmetry; apply with_max_same|].
  rewrite apply_upd_cons.
  assert (Hu : upd hp m = with_max hp m).
  { rewrite upd_fit by exact H. rewrite fit_all by (apply Hall; left; reflexivity). destruct hp; reflexivity. }
  rewrite Hu, IH.
  - rewrite with_max_with_max. f_equal. destruct ns as [|m' ns]; [reflexivity|].
    change (last (m :: m' :: ns) ?z) with (last (m' :: ns) z). apply last_cons_default.
  - exact H.
  - intros n Hin. apply Hall. right. exact Hin.
Qed.

Lemma apply_upd_max : forall ns hp, h_max (apply_upd hp ns) = last ns (h_max hp).
Proof.
  induction ns as [|m ns IH]; intros hp; [reflexivity|]. rewrite apply_upd_cons, IH.
  destruct ns as [|m' ns]; [reflexivity|].
  change (last (m :: m' :: ns) ?z) with (last (m' :: ns) z). apply last_cons_default.
Qed.

Theorem apply_upd_idem hp ns : fsum (h_dynamic hp) < 2 ^ 32 ->
  apply_upd (apply_upd hp ns) ns = apply_upd hp ns.
Proof.
  intros H. destruct (fsum_apply_upd ns hp H) as [F1 F2].
  rewrite (apply_upd_stable ns (apply_upd hp ns)) by (try lia; exact F2).
  destruct ns as [|m ns]; [apply with_max_same|].
  rewrite (last_cons_default m ns _ (h_max hp)), <- apply_upd_max. apply with_max_same.
Qed.

(* the scan of size updates uses the input up, or fails, or stops at a field representation, which the pure
   core accepts or refuses; after a refusal only the result and the state are determined *)
Inductive nf_view (hp : hpack_state) (hf : field) (bs : bool) (k : N) (b : bytes) : nf_out -> Prop :=
| NV_end ns : scanN (h_max_settings hp) (allowed_of bs k) b = (ns, SEnd) ->
    nf_view hp hf bs k b (mkNF (apply_upd hp ns) (hf_after hf b) (Ok ([], false)))
| NV_scan_err ns e : scanN (h_max_settings hp) (allowed_of bs k) b = (ns, SErr e) ->
    nf_view hp hf bs k b (mkNF (apply_upd hp ns) (hf_after hf b) (Err e))
| NV_field ns pre c r f rest st :
    scanN (h_max_settings hp) (allowed_of bs k) b = (ns, SField (c :: r)) -> is_upd c = false ->
    b = pre ++ c :: r -> (ns <> [] -> pre <> []) ->
    one_core (apply_upd hp ns) (c :: r) = Ok (f, rest, st) ->
    nf_view hp hf bs k b
      (mkNF (if st then add_dynamic (apply_upd hp ns) f else apply_upd hp ns) f (Ok (rest, true)))
| NV_refused ns pre c r e o :
    scanN (h_max_settings hp) (allowed_of bs k) b = (ns, SField (c :: r)) -> is_upd c = false ->
    b = pre ++ c :: r -> one_core (apply_upd hp ns) (c :: r) = Err e ->
    nf_res o = Err e -> nf_hp o = apply_upd hp ns ->
    nf_view hp hf bs k b o
| NV_panic ns c r w o :
    scanN (h_max_settings hp) (allowed_of bs k) b = (ns, SField (c :: r)) ->
    one_core (apply_upd hp ns) (c :: r) = Panic w -> nf_res o = Panic w -> nf_hp o = apply_upd hp ns ->
    nf_view hp hf bs k b o.

Lemma next_field_view hp hf bs k b : nf_view hp hf bs k b (next_field hp hf bs k b).
Proof.
  rewrite next_field_scanN. pose proof (scanN_no_panic (h_max_settings hp) (allowed_of bs k) b) as NP.
  destruct (scanN (h_max_settings hp) (allowed_of bs k) b) as [ns e] eqn:Es.
  unfold nf_of_scan. cbn [fst snd] in *. destruct e as [|e|w|b'].
  - apply NV_end. exact Es.
  - apply NV_scan_err. exact Es.
  - destruct (NP w eq_refl).
  - destruct (scanN_field _ _ _ _ _ Es) as [[c [r [-> Hu]]] [pre [Hb Hpre]]].
    pose proof (one_field_core (apply_upd hp ns) (hf_after hf b) c r Hu) as C. unfold nf_of_core in C.
    destruct (one_core (apply_upd hp ns) (c :: r)) as [[[f rest] st]|e|w] eqn:Ec.
    + rewrite C. eapply NV_field; eassumption.
    + destruct C as [C1 C2]. eapply NV_refused; eassumption.
    + destruct C as [C1 C2]. eapply NV_panic; eassumption.
Qed.
