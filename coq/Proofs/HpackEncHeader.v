(* C04, part 3: AppendHeader (hpack.go) as a pure function of the encoder state and the field.

   [ahdr hp hf store] = (the octets appended, the state afterwards). [append_header_app] holds for
   every state, dst, field: AppendHeader never panics, and dst is only ever a prefix of its result
   (C04_no_panic, C04_append_header_prefix). *)
From Coq Require Import List NArith ZArith Bool Lia.
From H2V Require Import Base.Bytes Base.MachineInt Base.Result Gen.GenConsts Impl.Huffman Impl.Hpack
     Proofs.HpackEncInt Proofs.HpackEncString.
Import ListNotations.
Local Open Scope N_scope.

(* the size update(s) a pending change of the table size puts in front of the field *)
Definition aupd (hp : hpack_state) : bytes :=
  if h_pending hp then
    (if h_pending_min hp <? h_max hp then aint 32 5 (h_pending_min hp) else []) ++ aint 32 5 (h_max hp)
  else [].

(* the choice of representation: Huffman?, prefix bits, pattern, state afterwards *)
Definition achoice (hp : hpack_state) (hf : field) (store : bool) (index : N) (fullMatch : bool)
  : bool * N * N * hpack_state :=
  let c := negb (h_no_compress hp) in
  if f_sens hf then (false, 4, 16, hp)
  else if 0 <? index then
    if fullMatch then (c, 7, 128, hp)
    else if negb store then (c, 4, 0, hp)
    else (c, 6, 64, if index <? c_maxIndex then add_dynamic hp hf else hp)
  else if negb store || h_no_dynamic hp then (c, 6, 0, hp)
  else (c, 6, 64, add_dynamic hp hf).

Definition afield (hp : hpack_state) (hf : field) (store : bool) : bytes * hpack_state :=
  let '(index, fullMatch) := search hp hf in
  let '(c, bits, pat, hp') := achoice hp hf store index fullMatch in
  ((if 0 <? index then aint pat bits index else pat :: astr (f_key hf) c)
     ++ (if negb (bits =? 7) then astr (f_value hf) c else []), hp').

Definition ahdr (hp : hpack_state) (hf : field) (store : bool) : bytes * hpack_state :=
  let hp1 := if h_pending hp then with_pending hp false else hp in
  let '(x, hp') := afield hp1 hf store in
  (aupd hp ++ x, hp').

(* AppendHeader after the "if hp.pendingSizeUpdate" block *)
Definition append_field (hp : hpack_state) (dst : bytes) (hf : field) (store : bool)
  : result (bytes * hpack_state) :=
  let c := negb (h_no_compress hp) in
  let '(index, fullMatch) := search hp hf in
  let '(c, bits, dst, hp) :=
    if f_sens hf then (false, 4, dst ++ [16], hp)
    else if 0 <? index then
      if fullMatch then (c, 7, dst ++ [128], hp)
      else if negb store then (c, 4, dst ++ [0], hp)
      else (c, 6, dst ++ [64], if index <? c_maxIndex then add_dynamic hp hf else hp)
    else if negb store || h_no_dynamic hp then (c, 6, dst ++ [0], hp)
    else (c, 6, dst ++ [64], add_dynamic hp hf) in
  bind (if 0 <? index then append_int dst bits index else append_string dst (f_key hf) c) (fun d1 =>
  bind (if negb (bits =? 7) then append_string d1 (f_value hf) c else Ok d1) (fun d2 =>
  Ok (d2, hp))).

Lemma append_header_split hp dst hf store :
  append_header hp dst hf store =
  bind (if h_pending hp then
          let hp := with_pending hp false in
          bind (if h_pending_min hp <? h_max hp
                then append_int (dst ++ [32]) 5 (h_pending_min hp) else Ok dst) (fun d1 =>
          bind (append_int (d1 ++ [32]) 5 (h_max hp)) (fun d2 => Ok (d2, hp)))
        else Ok (dst, hp)) (fun dh => append_field (snd dh) (fst dh) hf store).
Proof.
  unfold append_header, append_field.
  destruct (if h_pending hp then _ else _) as [[d h]| |]; reflexivity.
Qed.

Lemma append_field_app hp dst hf store :
  append_field hp dst hf store = Ok (dst ++ fst (afield hp hf store), snd (afield hp hf store)).
Proof.
  unfold append_field, afield, achoice.
  destruct (search hp hf) as [index fullMatch].
  destruct (f_sens hf).
  { destruct (0 <? index); cbn [negb N.eqb Pos.eqb fst snd];
      rewrite ?append_int_app, ?append_string_app; cbn [bind];
      rewrite ?append_string_app; cbn [bind fst snd];
      rewrite <- ?app_assoc; reflexivity. }
  destruct (0 <? index).
  - destruct fullMatch; [|destruct (negb store)]; cbn [negb N.eqb Pos.eqb fst snd];
      rewrite ?append_int_app; cbn [bind];
      rewrite ?append_string_app; cbn [bind fst snd];
      rewrite <- ?app_assoc, ?app_nil_r; reflexivity.
  - destruct (negb store || h_no_dynamic hp); cbn [negb N.eqb Pos.eqb fst snd];
      rewrite ?append_string_app; cbn [bind];
      rewrite ?append_string_app; cbn [bind fst snd];
      rewrite <- ?app_assoc; reflexivity.
Qed.

Theorem append_header_app hp dst hf store :
  append_header hp dst hf store = Ok (dst ++ fst (ahdr hp hf store), snd (ahdr hp hf store)).
Proof.
  rewrite append_header_split. unfold ahdr, aupd.
  destruct (h_pending hp) eqn:Ep.
  - cbv zeta.
    replace (h_pending_min (with_pending hp false)) with (h_pending_min hp) by (destruct hp; reflexivity).
    replace (h_max (with_pending hp false)) with (h_max hp) by (destruct hp; reflexivity).
    destruct (h_pending_min hp <? h_max hp).
    + rewrite append_int_app. cbn [bind]. rewrite append_int_app. cbn [bind fst snd].
      rewrite append_field_app.
      destruct (afield (with_pending hp false) hf store) as [x hp']. cbn [fst snd].
      rewrite <- !app_assoc. reflexivity.
    + cbn [bind]. rewrite append_int_app. cbn [bind fst snd].
      rewrite append_field_app.
      destruct (afield (with_pending hp false) hf store) as [x hp']. cbn [fst snd app].
      rewrite <- !app_assoc. reflexivity.
  - cbn [bind fst snd]. rewrite append_field_app.
    destruct (afield hp hf store) as [x hp']. reflexivity.
Qed.

(* C04_no_panic *)
Theorem append_header_no_panic : forall st dst hf store, is_panic (append_header st dst hf store) = false.
Proof. intros. rewrite append_header_app. reflexivity. Qed.

Theorem append_header_total : forall st dst hf store,
  exists x st', append_header st dst hf store = Ok (dst ++ x, st').
Proof. intros st dst hf store. rewrite append_header_app. eexists; eexists; reflexivity. Qed.

(* C04_append_header_prefix *)
Theorem append_header_prefix : forall st dst hf store x st',
  append_header st dst hf store = Ok (dst ++ x, st') <-> append_header st [] hf store = Ok (x, st').
Proof.
  intros st dst hf store x st'. rewrite !append_header_app. cbn [app]. split; intros H.
  - injection H as H1 H2. apply app_inv_head in H1. rewrite H1, H2. reflexivity.
  - injection H as H1 H2. rewrite H1, H2. reflexivity.
Qed.

Fixpoint afields (hp : hpack_state) (fs : list (field * bool)) : bytes * hpack_state :=
  match fs with
  | [] => ([], hp)
  | (hf, store) :: fs' =>
      let '(x, hp1) := ahdr hp hf store in
      let '(y, hp2) := afields hp1 fs' in (x ++ y, hp2)
  end.

Lemma encode_fields_app : forall fs hp dst,
  encode_fields hp dst fs = Ok (dst ++ fst (afields hp fs), snd (afields hp fs)).
Proof.
  induction fs as [|[hf store] fs IH]; intros hp dst.
  - cbn. rewrite app_nil_r. reflexivity.
  - cbn [encode_fields afields]. rewrite append_header_app.
    destruct (ahdr hp hf store) as [x hp1]. cbn [fst snd].
    rewrite IH. destruct (afields hp1 fs) as [y hp2]. cbn [fst snd].
    rewrite <- app_assoc. reflexivity.
Qed.

Lemma encode_block_pure hp fs : encode_block hp fs = Ok (afields hp fs).
Proof.
  unfold encode_block. rewrite encode_fields_app. cbn [app].
  destruct (afields hp fs); reflexivity.
Qed.
