(* Proofs/CliFlowSafe.v - C07 (a): the client's DATA frames against the server's ledger of Spec/FlowLedger.v.
   Sim c L relates a state of the client to the ledger the server keeps: the client's windows are never above
   the ledger's. It is closed under the moves of Proofs/CliFlowMoves.v while the server's grants keep every
   window at or below 2^31-1 (LB), so every run is a valid history. *)
From H2V Require Import Base.Bytes Base.MachineInt Base.Result Gen.GenConsts Impl.ServerConn Impl.ClientConn
     Proofs.CliBase Proofs.CliDefs Spec.FlowLedger Proofs.SrvFlowLedger Proofs.CliFlowMoves Proofs.CliFlowOut Proofs.CliFlowSettings.
From Coq Require Import ZArith Lia ZifyN ZifyNat ZifyBool List Bool.
Import ListNotations.
Local Open Scope N_scope.
Set Default Proof Using "Type".

Definition MAXW : Z := 2147483647.

(* what the frames written mean to the ledger: HEADERS opens the stream, DATA spends payload bytes *)
Definition ledger_out (items : list coutev) : list levent :=
  flat_map (fun o => match o with
                     | COHeaders sid _ _ => [LOpen sid]
                     | COData sid _ p => [LData sid (Z.of_N (len p))]
                     | _ => []
                     end) items.

Lemma ledger_out_app a b : ledger_out (a ++ b) = ledger_out a ++ ledger_out b.
Proof. apply flat_map_app. Qed.

(* the server keeps its own side of RFC 7540 6.9.1: no window above 2^31-1 *)
Definition LB (L : ledger) : Prop :=
  (l_conn L <= MAXW)%Z /\ forall sid w, l_strm L sid = Some w -> (w <= MAXW)%Z.
Definition GOK (L : ledger) (h : list levent) : Prop := forall pre post, h = pre ++ post -> LB (lrun L pre).

Lemma GOK_nil L h : GOK L h -> LB L.
Proof. intro G. apply (G [] h). reflexivity. Qed.

Lemma GOK_app L a b : GOK L (a ++ b) -> GOK L a /\ GOK (lrun L a) b.
Proof.
  intro G. split.
  - intros pre post E. apply (G pre (post ++ b)). rewrite E, <- app_assoc. reflexivity.
  - intros pre post E. rewrite <- lrun_app. apply (G (a ++ pre) post). rewrite E, <- app_assoc. reflexivity.
Qed.

Lemma GOK_pre L a b : GOK L (a ++ b) -> LB (lrun L a).
Proof. intro G. apply (G a b). reflexivity. Qed.

(* the window part of a settings value *)
Definition win_of (st : csettings) : option Z := if cs_hasWin st then Some (Z.of_N (cs_window st)) else None.
Definition last_init_opt (l : list levent) (cur : option Z) : option Z :=
  fold_left (fun a e => match e with LInit v => Some v | _ => a end) l cur.

Definition win_small (o : option Z) : Prop := match o with Some v => (0 <= v <= 2147483647)%Z | None => True end.

(* the same on the ledger's side *)
Definition is_linit (e : levent) : Prop := match e with LInit _ => True | _ => False end.
Definition last_init (l : list levent) (cur : Z) : Z :=
  fold_left (fun a e => match e with LInit v => v | _ => a end) l cur.

Lemma lrun_inits l : Forall is_linit l -> forall L,
  l_init (lrun L l) = last_init l (l_init L) /\ l_conn (lrun L l) = l_conn L /\
  forall x, l_strm (lrun L l) x =
            match l_strm L x with Some w => Some (w + (last_init l (l_init L) - l_init L))%Z | None => None end.
Proof.
  induction 1 as [|e t He Ht IH]; intro L.
  - cbn. split; [reflexivity|]. split; [reflexivity|]. intro x. destruct (l_strm L x); [f_equal; lia | reflexivity].
  - destruct e as [v| | |]; try contradiction. rewrite lrun_cons. destruct (IH (lstep L (LInit v))) as (A & B & C).
    unfold last_init in *. cbn [fold_left]. cbn [lstep l_init l_conn l_strm] in A, B, C.
    split; [exact A|]. split; [exact B|]. intro x. rewrite C. destruct (l_strm L x); [f_equal; lia | reflexivity].
Qed.

Lemma lvalid_linits l : Forall is_linit l -> forall L, lvalid L l.
Proof. induction 1 as [|e t He Ht IH]; intro L; cbn [lvalid]; [exact I|]. split; [destruct e; try contradiction; exact I | apply IH]. Qed.

Lemma inits_of_linit d : Forall is_linit (inits_of d).
Proof.
  unfold inits_of. induction (settings_pairs d) as [|[k v] t IH]; cbn [flat_map fst snd]; [constructor|].
  destruct (k =? c_MaxWindowSize); cbn [app]; [constructor; [exact I | exact IH] | exact IH].
Qed.

Lemma last_init_opt_some l : Forall is_linit l -> forall a, last_init_opt l (Some a) = Some (last_init l a).
Proof. induction 1 as [|e t He Ht IH]; intro a; [reflexivity|]. destruct e; try contradiction. cbn. apply IH. Qed.

Lemma last_init_spec l : Forall is_linit l -> forall cur,
  last_init l cur = match last_init_opt l None with Some v => v | None => cur end.
Proof.
  destruct 1 as [|e t He Ht]; intro cur; [reflexivity|]. destruct e; try contradiction.
  unfold last_init, last_init_opt. cbn [fold_left]. fold (last_init_opt t (Some v)). rewrite last_init_opt_some by assumption. reflexivity.
Qed.

Lemma last_init_opt_none l : Forall is_linit l -> last_init_opt l None = None -> l = [].
Proof.
  destruct 1 as [|e t He Ht]; [reflexivity|]. destruct e; try contradiction.
  unfold last_init_opt. cbn [fold_left]. fold (last_init_opt t (Some v)). rewrite last_init_opt_some by assumption. discriminate.
Qed.

Lemma inits_last ps : forall cur,
  last_init_opt (flat_map (fun kv => if fst kv =? c_MaxWindowSize then [LInit (Z.of_N (snd kv))] else []) ps) cur =
  plast (fun v => Some (Z.of_N v)) ps 4 cur.
Proof.
  unfold last_init_opt, plast. induction ps as [|kv t IH]; intro cur; cbn [flat_map fold_left]; [reflexivity|].
  rewrite fold_left_app, IH. change c_MaxWindowSize with 4. destruct (fst kv =? 4); reflexivity.
Qed.

Lemma deserialize_win payload st : cl_settings_deserialize false payload = Some st ->
  win_of st = last_init_opt (inits_of payload) None /\ win_small (win_of st).
Proof.
  intro DS. destruct (deserialize_facts _ _ DS) as (E & VAL & _ & HW & _). unfold win_of, inits_of.
  rewrite inits_last, (plast_map (fun n => Some (Z.of_N n)) (fun v => v) _ 4 None (cs_window cl_settings_default)), HW.
  replace (cs_window st) with (pairs_last (settings_pairs payload) 4 (cs_window cl_settings_default)) by (rewrite E; reflexivity).
  split; [reflexivity|]. destruct (pairs_has _ 4); [|exact I]. cbn [win_small].
  assert (R : pairs_last (settings_pairs payload) 4 (cs_window cl_settings_default) <= 2147483647)
    by (apply pairs_last_window_range; [exact VAL | cbn [cl_settings_default cs_window]; unfold c_defaultWindowSize; lia]).
  lia.
Qed.

Lemma len_takeN k (b : bytes) : len (takeN k b) = N.min k (len b).
Proof. unfold len, takeN. rewrite firstn_length. lia. Qed.
Lemma len_dropN k (b : bytes) : len (dropN k b) = len b - k.
Proof. unfold len, dropN. rewrite skipn_length. lia. Qed.
Lemma takeN_dropN k (b : bytes) : takeN k b ++ dropN k b = b.
Proof. apply firstn_skipn. Qed.
Lemma len_nil_iff (b : bytes) : len b = 0 <-> b = [].
Proof. unfold len. destruct b; cbn [length]; split; intro H; try reflexivity; try discriminate; lia. Qed.

Lemma data_frames_led fuel : forall sid step body endb L w,
  l_strm L sid = Some w -> (0 < len body -> (Z.of_N (len body) <= l_conn L)%Z /\ (Z.of_N (len body) <= w)%Z) -> 0 < step ->
  let h := ledger_out (cl_data_frames fuel sid step body endb) in
  lvalid L h /\ l_conn (lrun L h) = (l_conn L - Z.of_N (len body))%Z /\ l_init (lrun L h) = l_init L /\
  l_strm (lrun L h) sid = Some (w - Z.of_N (len body))%Z /\ forall x, x <> sid -> l_strm (lrun L h) x = l_strm L x.
Proof.
  assert (ONE : forall sid body endb L w,
             l_strm L sid = Some w -> (0 < len body -> (Z.of_N (len body) <= l_conn L)%Z /\ (Z.of_N (len body) <= w)%Z) ->
             let h := ledger_out [COData sid endb body] in
             lvalid L h /\ l_conn (lrun L h) = (l_conn L - Z.of_N (len body))%Z /\ l_init (lrun L h) = l_init L /\
             l_strm (lrun L h) sid = Some (w - Z.of_N (len body))%Z /\ forall x, x <> sid -> l_strm (lrun L h) x = l_strm L x).
  { intros sid body endb L w S C. cbn [ledger_out flat_map app lvalid lrun fold_left lstep lallowed]. rewrite S.
    cbn [l_conn l_init l_strm]. split; [split; [|exact I]; exists w; split; [reflexivity|]; destruct (N.eq_dec (len body) 0); [left; lia | right; lia]|].
    split; [reflexivity|]. split; [reflexivity|]. split; [apply strm_upd_same | intros x NE; apply strm_upd_other; exact NE]. }
  induction fuel as [|fuel IH]; intros sid step body endb L w S C ST; cbn [cl_data_frames]; [apply ONE; assumption|].
  destruct (len body <=? step) eqn:E; [apply ONE; assumption|]. apply N.leb_gt in E.
  cbn [ledger_out flat_map]. fold (ledger_out (cl_data_frames fuel sid step (dropN step body) endb)).
  cbn [app lvalid]. rewrite lrun_cons.
  assert (LT : len (takeN step body) = step) by (rewrite len_takeN; lia).
  assert (LD : len (dropN step body) = len body - step) by apply len_dropN.
  set (L1 := lstep L (LData sid (Z.of_N (len (takeN step body))))).
  assert (S1 : l_strm L1 sid = Some (w - Z.of_N step)%Z).
  { subst L1. cbn [lstep]. rewrite S. cbn [l_strm]. rewrite LT. apply strm_upd_same. }
  assert (C1 : l_conn L1 = (l_conn L - Z.of_N step)%Z) by (subst L1; cbn [lstep l_conn]; rewrite LT; reflexivity).
  destruct (IH sid step (dropN step body) endb L1 (w - Z.of_N step)%Z S1) as (V & A & B & Cc & Dd); [lia | exact ST|].
  split; [split; [|exact V]|].
  - cbn [lallowed]. exists w. split; [exact S|]. right. lia.
  - split; [rewrite A, C1; lia|]. split; [rewrite B; reflexivity|]. split; [rewrite Cc; f_equal; lia|].
    intros x NE. rewrite Dd by exact NE. subst L1. cbn [lstep]. rewrite S. cbn [l_strm]. apply strm_upd_other. exact NE.
Qed.

Lemma write_data_led mf sid body endb L w :
  l_strm L sid = Some w -> (0 < len body -> (Z.of_N (len body) <= l_conn L)%Z /\ (Z.of_N (len body) <= w)%Z) ->
  let h := ledger_out (cl_write_data mf sid body endb) in
  lvalid L h /\ l_conn (lrun L h) = (l_conn L - Z.of_N (len body))%Z /\ l_init (lrun L h) = l_init L /\
  l_strm (lrun L h) sid = Some (w - Z.of_N (len body))%Z /\ forall x, x <> sid -> l_strm (lrun L h) x = l_strm L x.
Proof.
  intros S C. cbv zeta. unfold cl_write_data.
  match goal with |- context [if ?b then c_defaultDataFrameSize else mf] => set (step := if b then c_defaultDataFrameSize else mf) end.
  assert (ST : 0 < step).
  { subst step. destruct (mf =? 0) eqn:E; cbn [orb]; [reflexivity|]. apply N.eqb_neq in E.
    destruct (c_maxFrameSize <? mf); [reflexivity | lia]. }
  destruct body as [|b0 bt].
  - destruct endb.
    + cbn [ledger_out flat_map app lvalid lrun fold_left lstep lallowed len length]. rewrite S. cbn [l_conn l_init l_strm].
      split; [split; [|exact I]; exists w; split; [reflexivity | left; reflexivity]|].
      split; [cbn; lia|]. split; [reflexivity|]. split; [rewrite strm_upd_same; f_equal; cbn; lia|].
      intros x NE; apply strm_upd_other; exact NE.
    + cbn. rewrite S. split; [exact I|]. split; [lia|]. split; [reflexivity|]. split; [f_equal; lia | reflexivity].
  - apply data_frames_led; assumption.
Qed.

(* the frames that go through c.out *)
Definition qclass (o : coutev) : Prop := match o with COHeaders _ _ _ | COData _ _ _ => False | _ => True end.

Lemma ledger_out_qclass l : Forall qclass l -> ledger_out l = [].
Proof. induction 1 as [|o t Ho Ht IH]; [reflexivity|]. cbn [ledger_out flat_map]. fold (ledger_out t). rewrite IH. destruct o; try contradiction; reflexivity. Qed.

Section Sim.
Variable hstate : Type.
Variable enc_field : hstate -> bytes -> bytes -> bool -> bytes * hstate.
Variable enc_set_max : hstate -> N -> hstate.
Notation cconn := (cconn hstate).
Notation move := (move hstate).
Notation apply := (apply hstate enc_field enc_set_max).
Notation valid := (valid hstate).
Notation items := (items hstate).

(* d: how far the connection window is below the ledger's; no pending body's window is further below its own *)
Record Sim (d : Z) (c : cconn) (L : ledger) : Prop := mkSim {
  sim_init : l_init L = cc_streamWindow c;
  sim_sw : (0 <= cc_streamWindow c <= MAXW)%Z;
  sim_conn : (0 <= cc_connWindow c)%Z /\ (0 <= d)%Z /\ (l_conn L - cc_connWindow c = d)%Z;
  sim_nodup : NoDup (map pb_id (cc_pending c));
  sim_ids : forall pb, In pb (cc_pending c) -> pb_id pb < cc_nextID c;
  sim_fresh : forall sid w, l_strm L sid = Some w -> sid < cc_nextID c;
  sim_pend : forall pb, In pb (cc_pending c) ->
             exists w, l_strm L (pb_id pb) = Some w /\ (0 <= w - pb_window pb <= d)%Z /\ (cc_streamWindow c - MAXW <= pb_window pb)%Z;
  sim_q : Forall qclass (cc_outQ c)
}.

(* the history a move stands for: the grants it applies, then the frames it writes *)
Definition lof (m : move) (c : cconn) : list levent := grants_of m ++ ledger_out (items m c).

(* WINDOW_UPDATE increments are not negative (they are 31-bit numbers on the wire) *)
Definition mv_pos (m : move) : Prop := match m with MAddWindow _ inc => (0 <= inc)%Z | _ => True end.

Lemma Sim_same d (c c' : cconn) L :
  cc_streamWindow c' = cc_streamWindow c -> cc_connWindow c' = cc_connWindow c -> cc_pending c' = cc_pending c ->
  cc_nextID c' = cc_nextID c -> (Forall qclass (cc_outQ c) -> Forall qclass (cc_outQ c')) -> Sim d c L -> Sim d c' L.
Proof.
  intros A B C D E [s1 s2 s3 s4 s5 s6 s7 s8]. constructor; rewrite ?A, ?B, ?C, ?D; auto.
Qed.

Lemma refill_same pb pb' : cl_refill pb = Some pb' -> pb_id pb' = pb_id pb /\ pb_window pb' = pb_window pb.
Proof.
  unfold cl_refill. destruct (pb_stream pb) as [reads|]; [|intro H; inversion H; split; reflexivity].
  destruct reads as [|[ch e] t].
  - cbn [cl_is_nil]. intro H. inversion H. destruct (_ && _)%Z; split; reflexivity.
  - destruct e.
    + destruct (cl_is_nil ch); [discriminate|]. intro H. inversion H. destruct (_ && _)%Z; split; reflexivity.
    + intro H. inversion H. destruct (cl_is_nil ch); destruct (_ && _)%Z; split; reflexivity.
    + discriminate.
Qed.

Lemma LB_sub L L' : LB L -> (l_conn L' <= l_conn L)%Z ->
  (forall sid w', l_strm L' sid = Some w' -> exists w, l_strm L sid = Some w /\ (w' <= w)%Z) -> LB L'.
Proof.
  intros [A B] C D. split; [unfold MAXW in *; flia|]. intros sid w' H. destruct (D _ _ H) as (w & E & F).
  specialize (B _ _ E). flia.
Qed.

(* WINDOW_UPDATE *)
Lemma add_window_Sim d (c : cconn) L sid inc : (0 <= inc)%Z -> Sim d c L -> LB (lstep L (LGrant sid inc)) ->
  Sim d (cl_add_window c sid inc) (lstep L (LGrant sid inc)).
Proof.
  intros P [s1 s2 s3 s4 s5 s6 s7 s8] [B1 B2]. unfold cl_add_window, cl_signal_window.
  destruct (sid =? 0) eqn:S0.
  - cbn [lstep] in *. rewrite S0 in *. cbn [l_conn l_strm l_init] in *.
    constructor; cc_cbn; cbn [l_conn l_strm l_init]; auto.
    rewrite cl_i32_id; unfold MAXW in *; flia.
  - apply N.eqb_neq in S0. destruct (cl_pend_get (cc_pending c) sid) as [pb|] eqn:G.
    + destruct (cl_pend_get_In _ _ _ G) as [HI EI]. destruct (s7 pb HI) as (w & W1 & W2 & W3). rewrite EI in W1.
      cbn [lstep] in *. rewrite (proj2 (N.eqb_neq sid 0) S0) in *. rewrite W1 in *. cbn [l_conn l_strm l_init] in *.
      assert (WB : (w + inc <= MAXW)%Z) by (apply (B2 sid); apply strm_upd_same).
      assert (I32 : cl_i32 (pb_window pb + inc) = (pb_window pb + inc)%Z) by (apply cl_i32_id; unfold MAXW in *; flia).
      constructor; cc_cbn; cbn [l_conn l_strm l_init]; auto.
      * rewrite cl_pend_put_ids. exact s4.
      * intros p HP. apply (pend_put_In _ _ _ s4) in HP. destruct HP as [->|[HP _]]; [cbn [pb_id pbu_window]; apply s5; exact HI | apply s5; exact HP].
      * intros x wx. unfold strm_upd. destruct (x =? sid) eqn:E; [apply N.eqb_eq in E; subst x; intros _; apply (s6 _ _ W1) | apply s6].
      * intros p HP. apply (pend_put_In _ _ _ s4) in HP. destruct HP as [->|[HP NE]].
        -- cbn [pb_id pb_window pbu_window]. rewrite EI, strm_upd_same, I32. exists (w + inc)%Z. split; [reflexivity|]. flia.
        -- cbn [pb_id pbu_window] in NE. rewrite EI in NE. rewrite strm_upd_other by exact NE. apply s7. exact HP.
    + cbn [lstep]. rewrite (proj2 (N.eqb_neq sid 0) S0).
      assert (PN : forall p, In p (cc_pending c) -> pb_id p <> sid) by (apply cl_pend_get_None; exact G).
      destruct (l_strm L sid) as [w|] eqn:W1.
      * constructor; cc_cbn; cbn [l_conn l_strm l_init]; auto.
        -- intros x wx. unfold strm_upd. destruct (x =? sid) eqn:E; [apply N.eqb_eq in E; subst x; intros _; apply (s6 _ _ W1) | apply s6].
        -- intros p HP. rewrite strm_upd_other by (apply PN; exact HP). apply s7. exact HP.
      * constructor; cc_cbn; auto.
Qed.

Lemma write_out_Sim d (c : cconn) L o : qclass o -> Sim d c L -> Sim d (cl_write_out c o) L.
Proof.
  intros Q S. unfold cl_write_out. destruct (cc_closed c); [exact S|].
  apply (Sim_same d c); try reflexivity; [|exact S]. cc_cbn. intro H. apply Forall_app. split; [exact H | repeat constructor; exact Q].
Qed.

(* SETTINGS *)
Lemma settings_Sim d (c : cconn) L payload st :
  cl_settings_deserialize false payload = Some st -> Sim d c L -> LB (lrun L (inits_of payload)) ->
  Sim d (cl_handle_settings c st) (lrun L (inits_of payload)).
Proof.
  intros DS [s1 s2 s3 s4 s5 s6 s7 s8] [B1 B2].
  destruct (deserialize_win _ _ DS) as [WO WS].
  pose proof (inits_of_linit payload) as AL.
  unfold cl_handle_settings. apply write_out_Sim; [exact I|]. unfold win_of in WO, WS.
  set (c1 := ccu_maxFrame _ _). set (c2 := if cl_settings_has st c_HeaderTableSize then _ else c1).
  assert (F2 : cc_streamWindow c2 = cc_streamWindow c /\ cc_connWindow c2 = cc_connWindow c /\ cc_pending c2 = cc_pending c /\
               cc_nextID c2 = cc_nextID c /\ cc_outQ c2 = cc_outQ c).
  { subst c2 c1. destruct (cl_settings_has st c_HeaderTableSize); repeat split. }
  destruct F2 as (F21 & F22 & F23 & F24 & F25). clearbody c2. clear c1.
  destruct (cs_hasWin st) eqn:HW.
  - (* SETTINGS_INITIAL_WINDOW_SIZE *)
    cbn [win_small] in WS.
    destruct (lrun_inits _ AL L) as (LI & LC & LS).
    rewrite (last_init_spec _ AL), <- WO in LI, LS. set (v := Z.of_N (cs_window st)) in *.
    assert (IV : cl_i32 v = v) by (apply cl_i32_id; flia).
    assert (ID : cl_i32 (v - cc_streamWindow c) = (v - cc_streamWindow c)%Z) by (apply cl_i32_id; unfold MAXW in *; flia).
    unfold cl_apply_initial_window, cl_signal_window. rewrite IV. cc_cbn. rewrite F21, F23, ID.
    set (L' := lrun L (inits_of payload)) in *.
    assert (PW : forall pb, In pb (cc_pending c) ->
                 exists w, l_strm L (pb_id pb) = Some w /\ (0 <= w - pb_window pb <= d)%Z /\ (cc_streamWindow c - MAXW <= pb_window pb)%Z /\
                           cl_i32 (pb_window pb + (v - cc_streamWindow c)) = (pb_window pb + (v - cc_streamWindow c))%Z).
    { intros pb HI. destruct (s7 pb HI) as (w & W1 & W2 & W3). exists w. split; [exact W1|]. split; [exact W2|]. split; [exact W3|].
      assert (WB : (w + (v - l_init L) <= MAXW)%Z) by (apply (B2 (pb_id pb)); rewrite LS, W1; reflexivity).
      apply cl_i32_id. unfold MAXW in *. rewrite s1 in WB. flia. }
    constructor; cc_cbn.
    + exact LI.
    + unfold MAXW. flia.
    + rewrite F22, LC. exact s3.
    + rewrite map_map. cbn [pb_id pbu_window]. exact s4.
    + rewrite F24. intros p HP. apply in_map_iff in HP. destruct HP as (q & <- & HQ). cbn [pb_id pbu_window]. apply s5. exact HQ.
    + rewrite F24. intros x wx HX. rewrite LS in HX. destruct (l_strm L x) eqn:E; [|discriminate]. eapply s6. exact E.
    + intros p HP. apply in_map_iff in HP. destruct HP as (q & <- & HQ). cbn [pb_id pb_window pbu_window].
      destruct (PW q HQ) as (w & W1 & W2 & W3 & W4). rewrite W4, LS, W1. exists (w + (v - l_init L))%Z. split; [reflexivity|].
      rewrite s1. flia.
    + rewrite F25. exact s8.
  - (* no window in this frame *)
    assert (E : inits_of payload = []) by (apply last_init_opt_none; [exact AL | symmetry; exact WO]).
    rewrite E. cbn [lrun fold_left].
    apply (Sim_same d c); try assumption; [rewrite F25; auto | constructor; assumption].
Qed.

(* one critical section of sendPending and the DATA run it decides *)
Lemma cs_n_facts (c : cconn) pb :
  (0 <= cs_n c pb <= Z.of_N (len (pb_body pb)))%Z /\
  ((0 < cs_n c pb)%Z -> (cs_n c pb <= pb_window pb)%Z /\ (cs_n c pb <= cc_connWindow c)%Z).
Proof.
  unfold cs_n, cl_zmin.
  destruct (Z.of_N (len (pb_body pb)) <? pb_window pb)%Z eqn:A; [apply Z.ltb_lt in A | apply Z.ltb_ge in A].
  - destruct (Z.of_N (len (pb_body pb)) <? cc_connWindow c)%Z eqn:B; [apply Z.ltb_lt in B | apply Z.ltb_ge in B].
    + destruct (Z.of_N (len (pb_body pb)) <? 0)%Z eqn:C; [apply Z.ltb_lt in C | apply Z.ltb_ge in C]; flia.
    + destruct (cc_connWindow c <? 0)%Z eqn:C; [apply Z.ltb_lt in C | apply Z.ltb_ge in C]; flia.
  - destruct (pb_window pb <? cc_connWindow c)%Z eqn:B; [apply Z.ltb_lt in B | apply Z.ltb_ge in B].
    + destruct (pb_window pb <? 0)%Z eqn:C; [apply Z.ltb_lt in C | apply Z.ltb_ge in C]; flia.
    + destruct (cc_connWindow c <? 0)%Z eqn:C; [apply Z.ltb_lt in C | apply Z.ltb_ge in C]; flia.
Qed.

Lemma cs_chunk_len (c : cconn) pb : Z.of_N (len (cs_chunk c pb)) = cs_n c pb.
Proof. unfold cs_chunk. rewrite len_takeN. pose proof (cs_n_facts c pb) as [A _]. flia. Qed.

Lemma send_Sim d (c : cconn) L id wr pb :
  cl_pend_get (cc_pending c) id = Some pb -> Sim d c L -> LB L ->
  let h := ledger_out (items (MSend id wr) c) in
  lvalid L h /\ Sim (if wr then d else d + cs_n c pb) (apply (MSend id wr) c) (lrun L h).
Proof.
  intros G [s1 s2 (s3 & s3d & s3e) s4 s5 s6 s7 s8] [B1 B2]. cbv zeta. cbn [items]. rewrite (apply_send hstate enc_field enc_set_max c id pb wr G), G.
  destruct (cl_pend_get_In _ _ _ G) as [HI EI]. destruct (s7 pb HI) as (w & W1 & W2 & W3). rewrite EI in W1.
  pose proof (cs_n_facts c pb) as [N1 N2]. pose proof (cs_chunk_len c pb) as CL.
  pose proof (B2 _ _ W1) as WB.
  set (n := cs_n c pb) in *.
  assert (IC : cl_i32 (cc_connWindow c - n) = (cc_connWindow c - n)%Z).
  { apply cl_i32_id. unfold MAXW in *. destruct (Z_lt_le_dec 0 n) as [P|P]; [destruct (N2 P)|]; flia. }
  assert (IW : cl_i32 (pb_window pb - n) = (pb_window pb - n)%Z).
  { apply cl_i32_id. unfold MAXW in *. destruct (Z_lt_le_dec 0 n) as [P|P]; [destruct (N2 P)|]; flia. }
  (* the state after the critical section against a ledger that has seen k of the n bytes *)
  assert (CS : forall L' k, (0 <= k <= n)%Z -> l_init L' = l_init L -> l_conn L' = (l_conn L - k)%Z -> l_strm L' id = Some (w - k)%Z ->
                 (forall x, x <> id -> l_strm L' x = l_strm L x) -> Sim (d + (n - k)) (cs_conn c pb id) L').
  { intros L' k K LI LC LW LO. unfold cs_conn. fold n. rewrite IC.
    assert (FR : forall x wx, l_strm L' x = Some wx -> x < cc_nextID c).
    { intros x wx HX. destruct (N.eq_dec x id) as [->|NE]; [apply (s6 _ _ W1) | rewrite LO in HX by exact NE; apply (s6 _ _ HX)]. }
    assert (OTH : forall p, In p (cc_pending c) -> pb_id p <> id ->
              exists w0, l_strm L' (pb_id p) = Some w0 /\ (0 <= w0 - pb_window p <= d + (n - k))%Z /\ (cc_streamWindow c - MAXW <= pb_window p)%Z).
    { intros p HP NE. rewrite LO by exact NE. destruct (s7 p HP) as (w0 & A1 & A2 & A3). exists w0. split; [exact A1|]. split; [flia | exact A3]. }
    assert (CW : (0 <= cc_connWindow c - n)%Z /\ (0 <= d + (n - k))%Z /\ (l_conn L' - (cc_connWindow c - n) = d + (n - k))%Z).
    { rewrite LC. destruct (Z_lt_le_dec 0 n) as [P|P]; [destruct (N2 P)|]; flia. }
    destruct (cs_end c pb).
    - constructor; cc_cbn; auto.
      + rewrite LI. exact s1.
      + apply pend_del_NoDup. exact s4.
      + intros p HP. apply s5. eapply cl_pend_del_In. exact HP.
      + intros p HP. apply OTH; [eapply cl_pend_del_In; exact HP | exact (pend_del_not_In _ _ _ s4 HP)].
    - constructor; cc_cbn; auto.
      + rewrite LI. exact s1.
      + rewrite cl_pend_put_ids. exact s4.
      + intros p HP. apply (pend_put_In _ _ _ s4) in HP. destruct HP as [->|[HP _]]; [unfold cs_pb; cbn [pb_id pbu_body pbu_window]; apply s5; exact HI | apply s5; exact HP].
      + intros p HP. apply (pend_put_In _ _ _ s4) in HP. destruct HP as [->|[HP NE]].
        * unfold cs_pb. fold n. cbn [pb_id pb_window pbu_body pbu_window]. rewrite IW, EI. exists (w - k)%Z. split; [exact LW|]. split; [flia|].
          unfold MAXW in *. destruct (Z_lt_le_dec 0 n) as [P|P]; [destruct (N2 P)|]; flia.
        * unfold cs_pb in NE. cbn [pb_id pbu_body pbu_window] in NE. rewrite EI in NE. apply OTH; assumption. }
  destruct wr.
  - (* the DATA run is written *)
    assert (CC : 0 < len (cs_chunk c pb) -> (Z.of_N (len (cs_chunk c pb)) <= l_conn L)%Z /\ (Z.of_N (len (cs_chunk c pb)) <= w)%Z).
    { intro P0. rewrite CL. assert (P : (0 < n)%Z) by flia. destruct (N2 P). flia. }
    destruct (write_data_led (cc_maxFrame c) id (cs_chunk c pb) (cs_end c pb) L w W1 CC) as (V & A & B & Cc & Dd).
    split; [exact V|]. rewrite CL in A, Cc.
    pose proof (CS _ n (conj (proj1 N1) (Z.le_refl n)) B A Cc Dd) as S2. replace (d + (n - n))%Z with d in S2 by flia.
    apply (Sim_same d (cs_conn c pb id)); try apply cc_pending_cl_notes; [apply cc_streamWindow_cl_notes | apply cc_connWindow_cl_notes | apply cc_nextID_cl_notes | | exact S2].
    unfold cs_sent. rewrite cc_outQ_cl_notes. auto.
  - (* nothing is written *)
    cbn [ledger_out flat_map lvalid lrun fold_left]. split; [exact I|].
    pose proof (CS L 0%Z (conj (Z.le_refl 0) (proj1 N1)) eq_refl) as S2. rewrite !Z.sub_0_r in S2. apply S2; [flia | exact W1 | reflexivity].
Qed.

Lemma u32_next (id : N) : id <= cl_maxStreamID -> u32 (id + 2) = id + 2.
Proof. intro H. unfold u32, wrap, cl_maxStreamID in *. change (2 ^ 32) with 4294967296. apply N.mod_small. flia. Qed.

Lemma NoDup_app_snoc (l : list N) x : NoDup l -> ~ In x l -> NoDup (l ++ [x]).
Proof.
  intros ND NI. induction l as [|a t IH]; cbn [app]; [constructor; [intros []|constructor]|].
  inversion ND; subst. constructor.
  - intro H. apply in_app_or in H. destruct H as [H|[H|[]]]; [contradiction|]. apply NI. left. symmetry. exact H.
  - apply IH; [assumption|]. intro H. apply NI. right. exact H.
Qed.

Lemma headers_Sim d (c : cconn) L blk opb :
  valid (MHeaders blk opb) c -> Sim d c L -> LB L ->
  Sim d (apply (MHeaders blk opb) c) (lstep L (LOpen (cc_nextID c))).
Proof.
  intros (CW & IDS & GA & OP & RQ & PB & _) [s1 s2 s3 s4 s5 s6 s7 s8] [B1 B2].
  assert (NS : l_strm L (cc_nextID c) = None).
  { destruct (l_strm L (cc_nextID c)) as [w|] eqn:E; [|reflexivity]. apply s6 in E. flia. }
  cbn [lstep]. rewrite NS. cbn [apply]. rewrite (u32_next _ IDS).
  assert (FR : forall x wx, strm_upd (l_strm L) (cc_nextID c) (Some (l_init L)) x = Some wx -> x < cc_nextID c + 2).
  { intros x wx. unfold strm_upd. destruct (x =? cc_nextID c) eqn:E; [apply N.eqb_eq in E; subst x; intros _; flia|].
    intro H. apply s6 in H. flia. }
  assert (OLD : forall p, In p (cc_pending c) ->
                exists w, strm_upd (l_strm L) (cc_nextID c) (Some (l_init L)) (pb_id p) = Some w /\ (0 <= w - pb_window p <= d)%Z /\
                          (cc_streamWindow c - MAXW <= pb_window p)%Z).
  { intros p HP. rewrite strm_upd_other; [apply s7; exact HP|]. pose proof (s5 p HP). flia. }
  destruct opb as [pb|].
  - destruct (PB pb eq_refl) as [PI PW].
    constructor; cc_cbn; cbn [l_init l_conn l_strm]; auto.
    + rewrite map_app. cbn [map]. apply NoDup_app_snoc; [exact s4|]. rewrite PI. intro X. apply in_map_iff in X.
      destruct X as (p & E & HP). pose proof (s5 p HP). flia.
    + intros p HP. apply in_app_or in HP. destruct HP as [HP|[<-|[]]]; [pose proof (s5 p HP); flia | flia].
    + intros p HP. apply in_app_or in HP. destruct HP as [HP|[<-|[]]]; [apply OLD; exact HP|].
      rewrite PI, strm_upd_same, PW. exists (l_init L). split; [reflexivity|]. unfold MAXW. flia.
  - constructor; cc_cbn; cbn [l_init l_conn l_strm]; auto.
    intros p HP. pose proof (s5 p HP). flia.
Qed.

Lemma pending_sub_Sim d (c c' : cconn) L :
  cc_streamWindow c' = cc_streamWindow c -> cc_connWindow c' = cc_connWindow c -> cc_nextID c' = cc_nextID c ->
  cc_outQ c' = cc_outQ c -> (forall p, In p (cc_pending c') -> In p (cc_pending c)) -> NoDup (map pb_id (cc_pending c')) ->
  Sim d c L -> Sim d c' L.
Proof.
  intros A B C D E F [s1 s2 s3 s4 s5 s6 s7 s8]. constructor; rewrite ?A, ?B, ?C, ?D; auto.
Qed.

(* the critical section of a request that has been taken back: the chunk goes back to the connection window, which the
   server's ledger never saw go down *)
Lemma cs_conn_cw (c : cconn) pb id : cc_connWindow (cs_conn c pb id) = cl_i32 (cc_connWindow c - cs_n c pb).
Proof. unfold cs_conn. destruct (cs_end c pb); reflexivity. Qed.

Lemma send_back_Sim d (c : cconn) L id pb :
  cl_pend_get (cc_pending c) id = Some pb -> Sim d c L -> LB L -> Sim d (apply (MSendBack id) c) L.
Proof.
  intros G S [B1 _]. cbn [apply]. rewrite G. unfold send_back. cbv zeta.
  pose proof (cs_n_facts c pb) as [N1 N2]. destruct (cl_pend_get_In _ _ _ G) as [HI EI].
  pose proof S as [s1 s2 (s3 & s3d & s3e) s4 s5 s6 s7 s8]. set (n := cs_n c pb) in *.
  assert (IC : cl_i32 (cc_connWindow c - n) = (cc_connWindow c - n)%Z).
  { apply cl_i32_id. unfold MAXW in *. destruct (Z_lt_le_dec 0 n) as [P0|P0]; [destruct (N2 P0)|]; flia. }
  set (c3 := if (0 <? n)%Z then cl_add_window (cs_conn c pb id) 0 n else cs_conn c pb id).
  assert (CW3 : cc_connWindow c3 = cc_connWindow c).
  { subst c3. destruct (0 <? n)%Z eqn:NP; [apply Z.ltb_lt in NP | apply Z.ltb_ge in NP].
    - unfold cl_add_window, cl_signal_window. cbn [N.eqb]. cc_cbn. rewrite cs_conn_cw. fold n. rewrite IC.
      replace (cc_connWindow c - n + n)%Z with (cc_connWindow c) by flia. apply cl_i32_id. unfold MAXW in *. flia.
    - rewrite cs_conn_cw. fold n. rewrite IC. flia. }
  assert (F3 : cc_streamWindow c3 = cc_streamWindow c /\ cc_nextID c3 = cc_nextID c /\ cc_outQ c3 = cc_outQ c /\
               cc_pending c3 = cc_pending (cs_conn c pb id)).
  { subst c3. unfold cs_conn. destruct (0 <? n)%Z, (cs_end c pb); repeat split. }
  destruct F3 as (SW3 & NX3 & Q3 & PN3).
  assert (KEY : forall p, In p (cc_pending c3) -> pb_id p <> id -> In p (cc_pending c)).
  { intros p HP NE. rewrite PN3 in HP. unfold cs_conn in HP. destruct (cs_end c pb); cc_cbn_in HP; [eapply cl_pend_del_In; exact HP|].
    apply (pend_put_In _ _ _ s4) in HP. destruct HP as [->|[HP _]]; [|exact HP].
    exfalso. apply NE. unfold cs_pb. cbn [pb_id pbu_body pbu_window]. exact EI. }
  assert (ND3 : NoDup (map pb_id (cc_pending c3))).
  { rewrite PN3. unfold cs_conn. destruct (cs_end c pb); cc_cbn; [apply pend_del_NoDup | rewrite cl_pend_put_ids]; exact s4. }
  destruct (cl_pend_get (cc_pending c3) id) as [pb3|] eqn:G3; apply (pending_sub_Sim d c); cc_cbn; try assumption.
  - intros p HP. apply KEY; [eapply cl_pend_del_In; exact HP | exact (pend_del_not_In _ _ _ ND3 HP)].
  - apply pend_del_NoDup. exact ND3.
  - intros p HP. apply KEY; [exact HP | exact (cl_pend_get_None _ _ G3 p HP)].
Qed.

(* the bytes a move debits without writing them or handing them back *)
Definition lost (m : move) (c : cconn) : Z :=
  match m with
  | MSend id false => match cl_pend_get (cc_pending c) id with Some pb => cs_n c pb | None => 0%Z end
  | _ => 0%Z
  end.

(* only frames of the classes that go through c.out are ever queued *)
Lemma outQ_apply m (c : cconn) : Forall qclass (cc_outQ c) -> Forall qclass (cc_outQ (apply m c)).
Proof.
  intro Q.
  assert (W : forall (c0 : cconn) o, qclass o -> Forall qclass (cc_outQ c0) -> Forall qclass (cc_outQ (cl_write_out c0 o))).
  { intros c0 o QO H. rewrite cc_outQ_cl_write_out. destruct (cc_closed c0); [exact H | apply Forall_app; split; [exact H | repeat constructor; exact QO]]. }
  destruct m; cbn [apply]; try exact Q.
  - destruct (quietb o); exact Q.
  - rewrite cc_outQ_cl_take_req_count. exact Q.
  - constructor.
  - destruct (pushb o) eqn:P; [apply W; [destruct o; try discriminate; exact I | exact Q] | exact Q].
  - destruct (cc_outQ c) as [|o q] eqn:E; [rewrite E; constructor | inversion Q; assumption].
  - cc_cbn. destruct (cc_outQ c); [exact Q | inversion Q; assumption].
  - unfold recv_data, cl_update_window.
    repeat match goal with |- context [if ?b then _ else _] => destruct b end; repeat (apply W; [exact I|]); exact Q.
  - destruct (cl_settings_deserialize false payload) as [st|]; [|exact Q]. unfold cl_handle_settings. apply W; [exact I|].
    destruct (cl_settings_has st c_HeaderTableSize), (cs_hasWin st); exact Q.
  - rewrite cc_outQ_cl_add_window. exact Q.
  - destruct (cl_pend_get _ _) as [pb|]; [destruct (cl_refill pb)|]; exact Q.
  - destruct (cl_pend_get _ _) as [pb|]; [|exact Q]. destruct wr; [rewrite cc_outQ_cl_notes|]; unfold cs_conn; destruct (cs_end c pb); exact Q.
  - destruct (cl_pend_get _ _) as [pb|]; [|exact Q]. sb_cases c pb; exact Q.
  - destruct (negb _); exact Q.
  - destruct opb; exact Q.
Qed.

(* what a move that is not about flow control writes goes through c.out, or is no frame: no ledger event, nothing lost *)
Lemma items_quiet m (c : cconn) : flow_move hstate m = false -> Forall qclass (cc_outQ c) -> Forall qclass (items m c).
Proof.
  intros F Q. destruct m; try discriminate F; cbn [items]; try constructor.
  - destruct (quietb o) eqn:E; constructor; [|constructor]. destruct o; try discriminate; exact I.
  - destruct (cc_outQ c) as [|o q]; constructor; [|constructor]. inversion Q; assumption.
  - exact I.
  - constructor.
Qed.

Lemma quiet_lof m (c : cconn) : flow_move hstate m = false -> Forall qclass (cc_outQ c) -> lof m c = [] /\ lost m c = 0%Z.
Proof.
  intros F Q. unfold lof. rewrite (ledger_out_qclass _ (items_quiet m c F Q)). destruct m; try discriminate F; split; reflexivity.
Qed.

(* every move keeps the simulation, along the history it stands for *)
Lemma mv_Sim d m (c : cconn) L :
  valid m c -> mv_pos m -> Sim d c L -> LB L -> LB (lrun L (grants_of m)) ->
  lvalid L (lof m c) /\ Sim (d + lost m c) (apply m c) (lrun L (lof m c)).
Proof.
  intros V P S B BG. destruct (flow_move hstate m) eqn:FM.
  2:{ destruct (quiet_lof m c FM (sim_q _ _ _ S)) as [-> ->]. destruct (apply_quiet hstate enc_field enc_set_max m c FM) as (A1 & A2 & A3 & A4).
      rewrite Z.add_0_r. split; [exact I|]. apply (Sim_same d c); auto. apply outQ_apply. }
  unfold lof. destruct m; try discriminate FM; cbn [grants_of items app ledger_out flat_map lvalid lrun fold_left]; try (cbn [lost]; rewrite Z.add_0_r).
  - (* MSettings *)
    cbn [apply grants_of] in *. destruct (cl_settings_deserialize false payload) as [st|] eqn:DS.
    + rewrite app_nil_r in *. split; [apply lvalid_linits; apply inits_of_linit|]. apply settings_Sim; assumption.
    + cbn [app lvalid lrun fold_left]. split; [exact I | exact S].
  - (* MAddWindow *)
    cbn [app lvalid lrun fold_left lallowed] in *. split; [split; exact I|]. apply add_window_Sim; assumption.
  - (* MPendDel *)
    split; [exact I|]. cbn [apply].
    apply (pending_sub_Sim d c); try reflexivity; [| |exact S]; cc_cbn.
    + intros p. apply cl_pend_del_In.
    + apply pend_del_NoDup. apply (sim_nodup _ _ _ S).
  - (* MPendAddDel *)
    split; [exact I|]. destruct V as [PI IDS]. cbn [apply].
    assert (E : cl_pend_del (cc_pending c ++ [pb]) (pb_id pb) = cc_pending c).
    { apply pend_del_app_last. intros p HP. pose proof (sim_ids _ _ _ S p HP). flia. }
    rewrite E. apply (Sim_same d c); try reflexivity; auto.
  - (* MRefill *)
    split; [exact I|]. destruct V as (pb & pb' & G & RC & RF). cbn [apply]. rewrite G, RF.
    destruct (refill_same _ _ RF) as [RI RW]. destruct (cl_pend_get_In _ _ _ G) as [HI EI].
    destruct S as [s1 s2 s3 s4 s5 s6 s7 s8]. constructor; cc_cbn; auto.
    + rewrite cl_pend_put_ids. exact s4.
    + intros p HP. apply (pend_put_In _ _ _ s4) in HP. destruct HP as [->|[HP _]]; [rewrite RI; apply s5; exact HI | apply s5; exact HP].
    + intros p HP. apply (pend_put_In _ _ _ s4) in HP. destruct HP as [->|[HP _]]; [rewrite RI, RW; apply s7; exact HI | apply s7; exact HP].
  - (* MSend *)
    destruct V as (pb & G & _). pose proof (send_Sim d c L id wr pb G S B) as X. cbv zeta in X. cbn [items] in X.
    replace (lost (MSend id wr) c) with (if wr then 0%Z else cs_n c pb) by (destruct wr; cbn [lost]; rewrite ?G; reflexivity).
    destruct wr; rewrite ?Z.add_0_r; exact X.
  - (* MSendBack *)
    destruct V as (pb & G & _). split; [exact I|]. apply (send_back_Sim d c L id pb); assumption.
  - (* MNextID *)
    split; [exact I|]. cbn [apply]. rewrite (u32_next _ V). destruct S as [s1 s2 s3 s4 s5 s6 s7 s8]. constructor; cc_cbn; auto.
    + intros p HP. pose proof (s5 p HP). flia.
    + intros x wx HX. pose proof (s6 _ _ HX). flia.
  - (* MHeaders *)
    split; [split; exact I|]. apply headers_Sim; assumption.
Qed.

Fixpoint mlof (c : cconn) (ms : list move) : list levent :=
  match ms with
  | [] => []
  | m :: t => lof m c ++ mlof (apply m c) t
  end.

Fixpoint mlost (c : cconn) (ms : list move) : Z :=
  match ms with
  | [] => 0%Z
  | m :: t => (lost m c + mlost (apply m c) t)%Z
  end.

Lemma mvs_Sim (c : cconn) ms c' : mvs enc_field enc_set_max c ms c' -> Forall mv_pos ms ->
  forall d L, Sim d c L -> GOK L (mlof c ms) -> lvalid L (mlof c ms) /\ Sim (d + mlost c ms) c' (lrun L (mlof c ms)).
Proof.
  induction 1 as [c|c m ms c' V M IH]; intros P d L S G; cbn [mlof mlost] in *.
  - rewrite Z.add_0_r. split; [exact I | exact S].
  - inversion P as [|? ? P1 P2]; subst.
    assert (B : LB L) by (eapply GOK_nil; exact G).
    assert (BG : LB (lrun L (grants_of m))).
    { unfold lof in G. rewrite <- app_assoc in G. eapply GOK_pre. exact G. }
    destruct (mv_Sim d m c L V P1 S B BG) as [V1 S1].
    apply GOK_app in G. destruct G as [_ G2].
    destruct (IH P2 _ _ S1 G2) as [V2 S2]. rewrite Z.add_assoc.
    split; [apply lvalid_app; split; assumption | rewrite lrun_app; exact S2].
Qed.

Lemma items_rl_quiet e m (c : cconn) : is_rl e -> ev_ok e m -> ledger_out (items m c) = [].
Proof.
  intros R E. destruct e; try contradiction. destruct m; cbn [items]; try reflexivity; try (cbn in E; first [contradiction | discriminate]).
  destruct (quietb o) eqn:Q; [|reflexivity]. destruct o; try discriminate; reflexivity.
Qed.

Lemma grants_not_rl e (m : move) : ~ is_rl e -> ev_ok e m -> grants_of m = [].
Proof.
  intros R E. destruct m; try reflexivity; cbn in E; destruct E as (fr & -> & _); exfalso; apply R; exact I.
Qed.

Lemma mlof_split e ms : Forall (ev_ok e) ms -> forall (c : cconn),
  mlof c ms = flat_map grants_of ms ++ ledger_out (mitems hstate enc_field enc_set_max c ms).
Proof.
  intro F. assert (RL : is_rl e \/ ~ is_rl e) by (destruct e; cbn; tauto).
  induction F as [|m t Hm Ht IH]; intro c; cbn [mlof flat_map mitems]; [reflexivity|].
  rewrite IH, ledger_out_app. unfold lof. destruct RL as [R|R].
  - rewrite (items_rl_quiet e m c R Hm). cbn [app]. rewrite app_nil_r, app_assoc. reflexivity.
  - rewrite (grants_not_rl e m R Hm). cbn [app]. assert (E : flat_map grants_of t = []).
    { clear IH. induction Ht as [|m' t' Hm' Ht' IH']; [reflexivity|]. cbn [flat_map]. rewrite (grants_not_rl e m' R Hm'), IH'. reflexivity. }
    rewrite E. reflexivity.
Qed.

Lemma ev_ok_pos e (m : move) : ev_ok e m -> mv_pos m.
Proof. destruct m; cbn [ev_ok mv_pos]; try (intros; exact I). intros (fr & _ & _ & _ & ->). flia. Qed.

End Sim.

Section Run.
Variable hstate : Type.
Variable dec_field : hstate -> N -> bytes -> dec_res hstate.
Variable enc_field : hstate -> bytes -> bytes -> bool -> bytes * hstate.
Variable enc_set_max : hstate -> N -> hstate.
Variable cfg : cl_config.
Variable h0 : hstate.
Notation cconn := (cconn hstate).
Notation step := (cl_step dec_field enc_field enc_set_max cfg).

(* what a step means to the ledger: the grants it takes in, then the streams it opens and the DATA it sends *)
Definition g_tl_step (c : cconn) (e : cevent) : list levent :=
  g_ledger_in hstate c e ++ ledger_out (g_new hstate c (step c e)).

Fixpoint g_timeline_from (c : cconn) (evs : list cevent) : list levent :=
  match evs with
  | [] => []
  | e :: t => g_tl_step c e ++ g_timeline_from (step c e) t
  end.

Definition g_ledger (first : bytes) (evs : list cevent) : list levent :=
  inits_of first ++ g_timeline_from (cl_init enc_set_max h0 first) evs.

(* the step as moves, and its history as theirs *)
Lemma step_mlof (c : cconn) e : exists ms, mvs enc_field enc_set_max c ms (step c e) /\ Forall (ev_ok e) ms /\
  g_tl_step c e = mlof hstate enc_field enc_set_max c ms.
Proof.
  destruct (step_D hstate dec_field enc_field enc_set_max cfg c e) as (ms & M & F & GR & _). exists ms. split; [exact M|]. split; [exact F|].
  unfold g_tl_step. rewrite (mlof_split hstate enc_field enc_set_max e ms F c), GR, (mvs_new _ _ _ _ _ _ M). reflexivity.
Qed.

Definition SimE (c : cconn) (L : ledger) : Prop := exists d, Sim hstate d c L.

Lemma step_Sim (c : cconn) e L : SimE c L -> GOK L (g_tl_step c e) ->
  lvalid L (g_tl_step c e) /\ SimE (step c e) (lrun L (g_tl_step c e)).
Proof.
  intros [d S] G. destruct (step_mlof c e) as (ms & M & F & E). rewrite E in *.
  destruct (mvs_Sim hstate enc_field enc_set_max c ms _ M (Forall_impl _ (ev_ok_pos hstate e) F) d L S G) as [V S1].
  split; [exact V | eexists; exact S1].
Qed.

Lemma timeline_Sim evs : forall (c : cconn) L, SimE c L -> GOK L (g_timeline_from c evs) ->
  lvalid L (g_timeline_from c evs) /\ SimE (fold_left step evs c) (lrun L (g_timeline_from c evs)).
Proof.
  induction evs as [|e t IH]; intros c L S G; cbn [g_timeline_from fold_left]; [split; [exact I | exact S]|].
  apply GOK_app in G. destruct G as [G1 G2]. destruct (step_Sim c e L S G1) as [V1 S1]. destruct (IH _ _ S1 G2) as [V2 S2].
  rewrite lrun_app. split; [apply lvalid_app; split; assumption | exact S2].
Qed.

Lemma Sim_init first : cl_settings_deserialize false first <> None ->
  Sim hstate 0 (cl_init enc_set_max h0 first) (lrun ledger0 (inits_of first)).
Proof.
  intro NN. unfold cl_init. destruct (cl_settings_deserialize false first) as [st|] eqn:DS; [|congruence].
  destruct (deserialize_win _ _ DS) as [WO WS]. pose proof (inits_of_linit first) as AL.
  destruct (lrun_inits _ AL ledger0) as (LI & LC & LS). rewrite (last_init_spec _ AL), <- WO in LI.
  destruct (deserialize_facts _ _ DS) as (_ & _ & _ & HW & HAS).
  assert (H4 : cl_settings_has st c_MaxWindowSize = cs_hasWin st) by (rewrite HW; apply HAS; unfold c_MaxWindowSize; flia).
  unfold win_of in *. cbn [cl_settings_merge cs_window]. rewrite H4.
  assert (NS : forall x, l_strm (lrun ledger0 (inits_of first)) x = None) by (intro x; rewrite LS; reflexivity).
  destruct (cs_hasWin st).
  - cbn [win_small] in WS. rewrite cl_i32_id by flia.
    constructor; cc_cbn; try (rewrite LC); cbn [ledger0 l_conn]; try exact LI; unfold MAXW, DEFAULT_WINDOW, c_defaultWindowSize; try flia.
    + constructor.
    + intros pb [].
    + intros x w. rewrite NS. discriminate.
    + intros pb [].
    + constructor.
  - cbn [cs_window cl_settings_default]. rewrite cl_i32_id by (unfold c_defaultWindowSize; flia).
    constructor; cc_cbn; try (rewrite LC); cbn [ledger0 l_conn l_init] in *; try exact LI; unfold MAXW, DEFAULT_WINDOW, c_defaultWindowSize; try flia.
    + constructor.
    + intros pb [].
    + intros x w. rewrite NS. discriminate.
    + intros pb [].
    + constructor.
Qed.

(* the run against the ledger of its own history *)
Lemma run_Sim first evs : cl_settings_deserialize false first <> None -> GOK ledger0 (g_ledger first evs) ->
  lvalid ledger0 (g_ledger first evs) /\
  SimE (cl_run dec_field enc_field enc_set_max cfg h0 first evs) (lrun ledger0 (g_ledger first evs)).
Proof.
  intros NN G. unfold g_ledger in *. apply GOK_app in G. destruct G as [_ G]. rewrite lrun_app.
  destruct (timeline_Sim evs _ _ (ex_intro _ 0%Z (Sim_init first NN)) G) as [V S].
  split; [apply lvalid_app; split; [apply lvalid_linits, inits_of_linit | exact V] | exact S].
Qed.

(* C07 (a), window form: while the server's grants keep every window at or below 2^31-1, every DATA frame the
   client writes fits the connection window and its stream's window of the server's ledger at that moment *)
Theorem ledger_safe first evs : cl_settings_deserialize false first <> None ->
  GOK ledger0 (g_ledger first evs) -> lvalid ledger0 (g_ledger first evs).
Proof. intros NN G. apply (run_Sim first evs NN G). Qed.

Theorem ledger_within_grants first evs : cl_settings_deserialize false first <> None ->
  GOK ledger0 (g_ledger first evs) -> within_grants (g_ledger first evs).
Proof. intros NN G. apply lvalid_within_grants. apply ledger_safe; assumption. Qed.

End Run.
