(* C03: one representation. The pure core of nextField's field cases (HpackNext.one_core)
   against spec_dec_repr followed by spec_step, on reachable states. *)
From Coq Require Import List NArith ZArith Bool Lia.
From H2V Require Import Base.Bytes Base.MachineInt Base.Result Gen.GenConsts Gen.GenStatic
     Impl.Huffman Impl.Hpack Spec.Rfc7541Huffman Spec.Rfc7541
     Proofs.HpackDefs Proofs.HpackBytes Proofs.HpackStatic Proofs.HpackInt Proofs.HpackStr
     Proofs.HpackTable Proofs.HpackNext.
Import ListNotations.
Local Open Scope N_scope.
Local Opaque huffman_root.

Arguments N.land : simpl never.
Arguments N.pow : simpl never.

(* the specification's parsers consume input *)
Lemma dec_cont_length : forall a b m v rest, dec_cont a b m = Some (v, rest) -> (length rest < length b)%nat.
Proof.
  induction a as [|a IH]; intros b m v rest H; [discriminate|].
  destruct b as [|x b]; [discriminate|]. cbn [dec_cont] in H.
  destruct (x <? 128).
  - injection H as _ <-. cbn [length]. lia.
  - destruct (dec_cont a b (m + 7)) as [[v' r']|] eqn:E; [|discriminate].
    injection H as _ <-. apply IH in E. cbn [length]. lia.
Qed.

Lemma spec_dec_int_length n b v rest : spec_dec_int n b = Some (v, rest) -> (length rest < length b)%nat.
Proof.
  destruct b as [|x b]; [discriminate|]. cbn [spec_dec_int].
  destruct (x mod 2 ^ n <? 2 ^ n - 1).
  - intros H. injection H as _ <-. cbn [length]. lia.
  - destruct (dec_cont max_cont_octets b 0) as [[w r]|] eqn:E; [|discriminate].
    intros H. injection H as _ <-. apply dec_cont_length in E. cbn [length]. lia.
Qed.

Lemma spec_dec_str_length b h s rest : spec_dec_str b = Some (h, s, rest) -> (length rest < length b)%nat.
Proof.
  destruct b as [|x b]; [discriminate|]. cbn [spec_dec_str].
  destruct (spec_dec_int 7 (x :: b)) as [[n r]|] eqn:E; [|discriminate].
  apply spec_dec_int_length in E.
  destruct (len r <? n); [discriminate|].
  assert (Hd : (length (dropN n r) <= length r)%nat) by (unfold dropN; rewrite skipn_length; lia).
  destruct (128 <=? x).
  - destruct (spec_huff_decode (takeN n r)); [|discriminate]. intros H. injection H as _ _ <-. lia.
  - intros H. injection H as _ _ <-. lia.
Qed.

Lemma dec_literal_length m b r rest : dec_literal m b = Some (r, rest) -> (length rest < length b)%nat.
Proof.
  unfold dec_literal. destruct (spec_dec_int (mode_prefix m) b) as [[i r0]|] eqn:E; [|discriminate].
  apply spec_dec_int_length in E.
  destruct (i =? 0).
  - destruct (spec_dec_str r0) as [[[hn nm] r1]|] eqn:E1; [|discriminate]. apply spec_dec_str_length in E1.
    destruct (spec_dec_str r1) as [[[hv vl] r2]|] eqn:E2; [|discriminate]. apply spec_dec_str_length in E2.
    intros H. injection H as _ <-. lia.
  - destruct (spec_dec_str r0) as [[[hv vl] r1]|] eqn:E1; [|discriminate]. apply spec_dec_str_length in E1.
    intros H. injection H as _ <-. lia.
Qed.

Lemma spec_dec_repr_length b r rest : spec_dec_repr b = Some (r, rest) -> (length rest < length b)%nat.
Proof.
  destruct b as [|x b]; [discriminate|]. cbn [spec_dec_repr].
  destruct (128 <=? x).
  - destruct (spec_dec_int 7 (x :: b)) as [[i r0]|] eqn:E; [|discriminate].
    intros H. injection H as _ <-. eapply spec_dec_int_length; exact E.
  - destruct (64 <=? x); [apply dec_literal_length|].
    destruct (32 <=? x).
    + destruct (spec_dec_int 5 (x :: b)) as [[i r0]|] eqn:E; [|discriminate].
      intros H. injection H as _ <-. eapply spec_dec_int_length; exact E.
    + destruct (16 <=? x); apply dec_literal_length.
Qed.

(* what the table holds *)
Lemma table_ok_in st f : table_ok st -> In f (h_dynamic st) ->
  field_ok f = true /\ fsize f <= h_max_settings st.
Proof.
  intros Hok Hin. pose proof (table_ok_fsum st Hok) as [F1 F2].
  destruct Hok as [H1 [_ [H3 _]]]. rewrite forallb_forall in H1. split; [apply H1; exact Hin|].
  pose proof (fsum_in f _ Hin). lia.
Qed.

Lemma peek_ok st n f : table_ok st -> peek st n = Some f ->
  field_ok f = true /\ fsize f <= N.max (h_max_settings st) 64.
Proof.
  intros Hok Hp. destruct (peek_in _ _ _ Hp) as [Hin|Hin].
  - destruct (static_field_in f Hin) as [H1 H2]. split; [exact H1|]. unfold fsize. lia.
  - destruct (table_ok_in st f Hok Hin) as [H1 H2]. split; [exact H1 | lia].
Qed.

Lemma field_ok_inv f : field_ok f = true -> bytes_ok (f_key f) = true /\ bytes_ok (f_value f) = true /\ f_sens f = false.
Proof.
  unfold field_ok. intros H. apply andb_prop in H. destruct H as [H H3]. apply andb_prop in H.
  destruct H as [H1 H2]. destruct (f_sens f); [discriminate|]. auto.
Qed.

Definition name_of (t : dtable) (nr : nameref) : option bytes :=
  match nr with
  | NameLit n => Some n
  | NameIdx i => match lookup t i with Some (n, _) => Some n | None => None end
  end.

Lemma spec_step_literal t s m nr hn hv value :
  spec_step t s (Literal m nr hn hv value) =
  match name_of t nr with
  | None => None
  | Some n =>
      match m with
      | Incremental => Some (Some (n, value, false), add_entry t (n, value))
      | Without => Some (Some (n, value, false), t)
      | Never => Some (Some (n, value, true), t)
      end
  end.
Proof. destruct nr; reflexivity. Qed.

Theorem rl_core_spec hp m c r :
  bytes_ok (c :: r) = true -> table_ok hp ->
  let b := c :: r in
  let bi := negb (c mod 2 ^ mode_prefix m =? 0) in
  match dec_literal m b with
  | None => exists e, rl_core hp bi (mode_prefix m) b = Err e
  | Some (rp, rest) =>
      exists nr hn hv value, rp = Literal m nr hn hv value /\
        match name_of (abs hp) nr with
        | None => exists e, rl_core hp bi (mode_prefix m) b = Err e
        | Some name =>
            rl_core hp bi (mode_prefix m) b = Ok (name, value, rest) /\
            bytes_ok name = true /\ bytes_ok value = true /\ bytes_ok rest = true /\
            len name + len value + 32 + 2 * len rest <= N.max (h_max_settings hp) 64 + 2 * len b
        end
  end.
Proof.
  intros Hok Htab b bi. unfold dec_literal.
  assert (Hbits : 1 <= mode_prefix m <= 8) by (destruct m; cbn; lia).
  pose proof (read_int_spec (mode_prefix m) b Hbits Hok) as HI.
  destruct (spec_dec_int (mode_prefix m) b) as [[i r0]|] eqn:ES.
  2:{ destruct HI as [e HI]. exists e. unfold rl_core, bi.
      (* an integer that fails has an all-ones prefix, so the key is an index *)
      destruct (negb (c mod 2 ^ mode_prefix m =? 0)) eqn:Ebi.
      - rewrite HI. reflexivity.
      - exfalso. apply negb_false_iff, N.eqb_eq in Ebi. unfold b in ES. cbn [spec_dec_int] in ES.
        rewrite Ebi in ES.
        assert (2 ^ 1 <= 2 ^ mode_prefix m) by (apply N.pow_le_mono_r; lia).
        change (2 ^ 1) with 2 in *.
        replace (0 <? 2 ^ mode_prefix m - 1) with true in ES by (symmetry; apply N.ltb_lt; lia).
        discriminate. }
  destruct HI as [HI Hi].
  pose proof (spec_dec_int_prefix (mode_prefix m) c r i r0 ltac:(lia) ES) as Hz.
  pose proof (read_int_ok _ _ _ _ HI) as [p0 [Hb0 [Hne0 _]]].
  assert (Hr0 : bytes_ok r0 = true) by (unfold b in Hb0; rewrite Hb0 in Hok; apply bytes_ok_app_iff in Hok; tauto).
  assert (Hl0 : len r0 + 1 <= len b).
  { rewrite Hb0, len_app. destruct p0; [congruence|]. rewrite len_cons. lia. }
  unfold bi, rl_core.
  destruct (N.eqb_spec i 0) as [Hi0|Hi0].
  - (* the name is a string literal; the prefix is zero, nothing but the first octet was read *)
    replace (c mod 2 ^ mode_prefix m =? 0) with true by (symmetry; apply N.eqb_eq; tauto). cbn [negb].
    assert (r0 = r).
    { unfold b in ES. cbn [spec_dec_int] in ES. destruct (c mod 2 ^ mode_prefix m <? 2 ^ mode_prefix m - 1).
      - injection ES as _ <-. reflexivity.
      - destruct (dec_cont max_cont_octets r 0) as [[w r']|]; [|discriminate]. injection ES as E1 _.
        assert (2 ^ 1 <= 2 ^ mode_prefix m) by (apply N.pow_le_mono_r; lia). change (2 ^ 1) with 2 in *. lia. }
    subst r0. unfold b.
    pose proof (read_string_spec r Hr0) as HS1.
    destruct (spec_dec_str r) as [[[hn nm] r1]|].
    2:{ destruct HS1 as [e ->]. exists e. reflexivity. }
    destruct HS1 as [-> [Hnm [Hr1 Hl1]]].
    pose proof (read_string_spec r1 Hr1) as HS2.
    destruct (spec_dec_str r1) as [[[hv vl] r2]|].
    2:{ destruct HS2 as [e ->]. exists e. reflexivity. }
    destruct HS2 as [-> [Hvl [Hr2 Hl2]]].
    exists (NameLit nm), hn, hv, vl. split; [reflexivity|]. cbn [name_of].
    split; [reflexivity|]. split; [exact Hnm|]. split; [exact Hvl|]. split; [exact Hr2|].
    unfold b in Hl0. lia.
  - replace (c mod 2 ^ mode_prefix m =? 0) with false by (symmetry; apply N.eqb_neq; tauto). cbn [negb].
    rewrite HI.
    pose proof (peek_lookup hp i ltac:(change (2 ^ 64) with (2 * 2 ^ 63); lia) (table_ok_length hp Htab)) as HP.
    pose proof (read_string_spec r0 Hr0) as HS1.
    destruct (spec_dec_str r0) as [[[hv vl] r1]|].
    + destruct HS1 as [HS1 [Hvl [Hr1 Hl1]]].
      exists (NameIdx i), false, hv, vl. split; [reflexivity|]. cbn [name_of].
      destruct (peek hp i) as [hf2|] eqn:Ep.
      * cbn [option_map] in HP. rewrite <- HP. unfold entry_of. rewrite HS1.
        destruct (peek_ok _ _ _ Htab Ep) as [Hf2 Hsz]. apply field_ok_inv in Hf2. destruct Hf2 as [Hk [_ _]].
        split; [reflexivity|]. split; [exact Hk|]. split; [exact Hvl|]. split; [exact Hr1|].
        unfold fsize in Hsz. lia.
      * cbn [option_map] in HP. rewrite <- HP. exists E_index_not_found. reflexivity.
    + destruct (peek hp i) as [hf2|]; [|exists E_index_not_found; reflexivity].
      destruct HS1 as [e ->]. exists e. reflexivity.
Qed.

(* the first octet of a field representation, as the specification sees it *)
Lemma not_upd_byte c : c < 256 -> is_upd c = false -> c < 32 \/ 64 <= c.
Proof.
  intros Hc Hu. unfold is_upd in Hu.
  destruct (N.ltb_spec c 64) as [H64|H64]; [|right; exact H64].
  destruct (dispatch_low c H64) as [D1 [D2 D3]].
  rewrite dispatch_128, dispatch_64, D1, D2, D3 in Hu by lia.
  destruct (N.leb_spec 128 c); [lia|]. destruct (N.leb_spec 64 c); [lia|]. cbn [negb andb] in Hu.
  destruct (N.leb_spec 16 c), (N.ltb_spec c 32), (N.ltb_spec c 16), (N.leb_spec 32 c);
    cbn [negb andb] in Hu; try discriminate; lia.
Qed.

Lemma upd_byte c : c < 256 -> is_upd c = true -> 32 <= c < 64.
Proof.
  intros Hc Hu. unfold is_upd in Hu. rewrite dispatch_128 in Hu by exact Hc.
  destruct (N.leb_spec 128 c); [discriminate|]. rewrite dispatch_64 in Hu by lia.
  destruct (N.leb_spec 64 c); [discriminate|].
  destruct (dispatch_low c ltac:(lia)) as [_ [_ D3]]. rewrite D3 in Hu.
  destruct (N.leb_spec 32 c); [lia|]. rewrite !andb_false_r in Hu. discriminate.
Qed.

(* what one successfully decoded field looks like *)
Definition field_result (hp : hpack_state) (b : bytes) (fld : hfield) (t' : dtable) (rest : bytes)
           (f : field) (st : bool) : Prop :=
  triple_of f = fld /\
  t' = (if st then add_entry (abs hp) (entry_of f) else abs hp) /\
  (st = true -> f_sens f = false) /\
  bytes_ok (f_key f) = true /\ bytes_ok (f_value f) = true /\ bytes_ok rest = true /\
  fsize f + 2 * len rest <= N.max (h_max_settings hp) 64 + 2 * len b.

(* a literal of mode m: never-indexed literals are sensitive, incrementally indexed ones are stored *)
Lemma lit_core_spec hp m c r at_start bi :
  bytes_ok (c :: r) = true -> table_ok hp -> bi = negb (c mod 2 ^ mode_prefix m =? 0) ->
  let b := c :: r in
  let sens := match m with Never => true | _ => false end in
  let store := match m with Incremental => true | _ => false end in
  match dec_literal m b with
  | None => exists e, lit_core hp bi (mode_prefix m) b sens store = Err e
  | Some (rp, rest) =>
      match spec_step (abs hp) at_start rp with
      | None => exists e, lit_core hp bi (mode_prefix m) b sens store = Err e
      | Some (None, _) => False
      | Some (Some fld, t') =>
          exists f st, lit_core hp bi (mode_prefix m) b sens store = Ok (f, rest, st) /\ field_result hp b fld t' rest f st
      end
  end.
Proof.
  intros Hok Htab -> b sens store. pose proof (rl_core_spec hp m c r Hok Htab) as HL. cbv zeta in HL.
  unfold lit_core. fold b in HL |- *.
  destruct (dec_literal m b) as [[rp rest]|]; [|destruct HL as [e ->]; exists e; reflexivity].
  destruct HL as [nr [hn [hv [vl [-> HL]]]]]. rewrite spec_step_literal.
  destruct (name_of (abs hp) nr) as [nm|]; [|destruct HL as [e ->]; exists e; reflexivity].
  destruct HL as [-> [Hk [Hv [Hrest Hsz]]]].
  unfold sens, store. destruct m; eexists _, _; (split; [reflexivity|]);
    unfold field_result, triple_of, entry_of, fsize; cbn [f_key f_value f_sens];
    repeat (split; [reflexivity || assumption || discriminate|]); lia.
Qed.

Theorem one_core_spec hp c r at_start :
  bytes_ok (c :: r) = true -> is_upd c = false -> table_ok hp ->
  let b := c :: r in
  match spec_dec_repr b with
  | None => exists e, one_core hp b = Err e
  | Some (rp, rest) =>
      match spec_step (abs hp) at_start rp with
      | None => exists e, one_core hp b = Err e
      | Some (None, _) => False
      | Some (Some fld, t') => exists f st, one_core hp b = Ok (f, rest, st) /\ field_result hp b fld t' rest f st
      end
  end.
Proof.
  intros Hok Hu Htab b. pose proof Hok as Hok'. apply bytes_ok_cons_iff in Hok'. destruct Hok' as [Hc Hr].
  unfold b, spec_dec_repr, one_core. rewrite (dispatch_128 c Hc).
  destruct (N.leb_spec 128 c) as [H128|H128].
  - (* indexed *)
    pose proof (read_int_spec 7 (c :: r) ltac:(lia) Hok) as HI.
    destruct (spec_dec_int 7 (c :: r)) as [[i r0]|] eqn:ES.
    2:{ destruct HI as [e ->]. exists e. reflexivity. }
    destruct HI as [HI Hi]. rewrite HI. cbn [spec_step].
    pose proof (peek_lookup hp i ltac:(change (2 ^ 64) with (2 * 2 ^ 63); lia) (table_ok_length hp Htab)) as HP.
    destruct (peek hp i) as [hf2|] eqn:Ep; cbn [option_map] in HP; rewrite <- HP.
    + unfold entry_of. exists hf2, false. split; [reflexivity|].
      destruct (peek_ok _ _ _ Htab Ep) as [Hf2 Hsz]. apply field_ok_inv in Hf2. destruct Hf2 as [Hk [Hv Hs]].
      pose proof (read_int_ok _ _ _ _ HI) as [p0 [Hb0 [Hne0 _]]].
      assert (Hr0 : bytes_ok r0 = true) by (rewrite Hb0 in Hok; apply bytes_ok_app_iff in Hok; tauto).
      assert (Hl0 : len r0 <= len (c :: r)) by (rewrite Hb0, len_app; lia).
      unfold field_result, triple_of. rewrite Hs. repeat (split; [reflexivity || assumption || discriminate|]). lia.
    + exists E_index_not_found. reflexivity.
  - rewrite (dispatch_64 c H128).
    destruct (N.leb_spec 64 c) as [H64|H64].
    + (* literal with incremental indexing *)
      apply (lit_core_spec hp Incremental c r at_start _ Hok Htab).
      cbn [mode_prefix]. change (2 ^ 6) with 64. rewrite (dispatch_eq64 c H64 H128). reflexivity.
    + assert (Hlt : c < 32) by (destruct (not_upd_byte c Hc Hu); lia).
      replace (32 <=? c) with false by (symmetry; apply N.leb_gt; exact Hlt).
      destruct (dispatch_low c H64) as [D1 [D2 _]]. rewrite D1.
      destruct (N.leb_spec 16 c) as [H16|H16].
      * (* never indexed *)
        replace (c <? 32) with true by (symmetry; apply N.ltb_lt; exact Hlt). cbn [andb].
        apply (lit_core_spec hp Never c r at_start _ Hok Htab).
        cbn [mode_prefix]. change (2 ^ 4) with 16. rewrite (dispatch_15 c Hc). reflexivity.
      * (* without indexing *)
        cbn [andb]. apply (lit_core_spec hp Without c r at_start _ Hok Htab).
        cbn [mode_prefix]. change (2 ^ 4) with 16. rewrite (dispatch_15 c Hc). reflexivity.
Qed.
