(* Proofs/TeardownGen.v -- blocking-structure model (Impl/Teardown.v), generic lemmas: wait cycles, leads-to under weak and strong fairness, concrete traces.
   Statements: Props/Teardown.v; overview: Proofs/TeardownProofs.v. *)
From Coq Require Import Arith Lia Bool List.
Import ListNotations.
From H2V Require Import Impl.Teardown.

Section WaitCycleProofs.
  Context {Proc : Type}.
  Variable wants : Proc -> option nat.
  Variable holds : Proc -> nat -> Prop.

  Lemma chain_wants : forall l p q, wait_chain wants holds p l q -> exists m, wants p = Some m.
  Proof.
    intros l; destruct l as [|x l]; cbn; intros p q H.
    - destruct H as (m & H & _); eauto.
    - destruct H as ((m & H & _) & _); eauto.
  Qed.

  Lemma chain_increasing :
    ordered wants holds ->
    forall l p q m, wait_chain wants holds p l q -> wants p = Some m ->
      exists m', holds q m' /\ m <= m'.
  Proof.
    intros Ho; induction l as [|x l IH]; cbn; intros p q m H Hw.
    - destruct H as (m0 & H1 & H2). rewrite Hw in H1; inversion H1; subst. eauto.
    - destruct H as ((m0 & H1 & H2) & Hc). rewrite Hw in H1; inversion H1; subst m0.
      destruct (chain_wants _ _ _ Hc) as (mx & Hx).
      destruct (IH _ _ _ Hc Hx) as (m' & Hq & Hle).
      exists m'; split; auto. specialize (Ho _ _ _ Hx H2). lia.
  Qed.

  Theorem ordered_no_wait_cycle : ordered wants holds -> ~ wait_cycle wants holds.
  Proof.
    intros Ho (p & l & Hc).
    destruct (chain_wants _ _ _ Hc) as (m & Hw).
    destruct (chain_increasing Ho _ _ _ _ Hc Hw) as (m' & Hh & Hle).
    specialize (Ho _ _ _ Hw Hh). lia.
  Qed.
End WaitCycleProofs.

Section LeadsTo.
  Context {St Act : Type}.
  Variable guard : Act -> St -> Prop.
  Variable eff : Act -> St -> St.
  Variable r : run guard eff.
  Variable Inv : St -> Prop.
  Hypothesis Inv_run : forall i, Inv (st r i).

  Notation "P ~> Q" := (leadsto r P Q) (at level 70).

  Lemma run_step : forall i, st r (S i) = st r i \/ exists a, guard a (st r i) /\ st r (S i) = eff a (st r i).
  Proof.
    intros i. pose proof (run_ok _ _ r i) as H. destruct (lab r i); [right|left]; eauto.
  Qed.

  (* a set closed under every step (inside Inv) *)
  Definition stable (S : St -> Prop) : Prop :=
    forall s a, Inv s -> S s -> guard a s -> S (eff a s).

  Lemma stable_run : forall S, stable S -> forall i j, i <= j -> S (st r i) -> S (st r j).
  Proof.
    intros S HS i j Hij Hi. induction Hij; auto.
    destruct (run_step m) as [E|(a & G & E)]; rewrite E; auto.
  Qed.

  Lemma lt_refl : forall P, P ~> P.
  Proof. intros P i H; exists i; auto. Qed.

  Lemma lt_weaken : forall (P P' Q Q' : St -> Prop),
    P ~> Q -> (forall s, Inv s -> P' s -> P s) -> (forall s, Inv s -> Q s -> Q' s) -> P' ~> Q'.
  Proof.
    intros P P' Q Q' H HP HQ i Hi. destruct (H i (HP _ (Inv_run i) Hi)) as (j & Hj & Hq).
    exists j; split; auto.
  Qed.

  Lemma lt_trans : forall P Q R, P ~> Q -> Q ~> R -> P ~> R.
  Proof.
    intros P Q R H1 H2 i Hi. destruct (H1 i Hi) as (j & Hj & Hq).
    destruct (H2 j Hq) as (k & Hk & Hr). exists k; split; auto; lia.
  Qed.

  Lemma lt_or : forall P1 P2 Q, P1 ~> Q -> P2 ~> Q -> (fun s => P1 s \/ P2 s) ~> Q.
  Proof. intros P1 P2 Q H1 H2 i [H|H]; eauto. Qed.

  Lemma lt_stable : forall P Q S, P ~> Q -> stable S -> (fun s => P s /\ S s) ~> (fun s => Q s /\ S s).
  Proof.
    intros P Q S H HS i (Hp & Hs). destruct (H i Hp) as (j & Hj & Hq).
    exists j; repeat split; auto. eapply stable_run; eauto.
  Qed.

  Lemma lt_variant : forall (P Q : St -> Prop) (v : St -> nat),
    (forall n, (fun s => P s /\ v s = n) ~> (fun s => Q s \/ (P s /\ v s < n))) -> P ~> Q.
  Proof.
    intros P Q v H.
    assert (forall n i, P (st r i) -> v (st r i) < n -> exists j, i <= j /\ Q (st r j)) as K.
    { induction n; intros i Hp Hv; [lia|].
      destruct (H (v (st r i)) i (conj Hp eq_refl)) as (j & Hj & [Hq|(Hp' & Hv')]).
      - eauto.
      - destruct (IHn j Hp' ltac:(lia)) as (k & Hk & Hq). exists k; split; auto; lia. }
    intros i Hp. eapply K; eauto.
  Qed.

  Lemma walk_unless : forall (P Q : St -> Prop),
    (forall s a, Inv s -> P s -> guard a s -> P (eff a s) \/ Q (eff a s)) ->
    forall i j, i <= j -> P (st r i) -> (exists m, i <= m /\ m <= j /\ Q (st r m)) \/ P (st r j).
  Proof.
    intros P Q H1 i j Hij Hi. induction Hij; auto.
    destruct IHHij as [(m0 & ? & ? & ?)|Hp]; [left; exists m0; repeat split; auto|].
    destruct (run_step m) as [E|(a & Ga & E)]; rewrite E; auto.
    destruct (H1 _ _ (Inv_run m) Hp Ga) as [?|Hq]; auto.
    left; exists (S m); repeat split; auto. rewrite E; auto.
  Qed.

  (* P unless Q, and A leads to B: then from P /\ A either Q shows up or P is still there when B does *)
  Lemma lt_unless : forall (P Q A B : St -> Prop),
    (forall s a, Inv s -> P s -> guard a s -> P (eff a s) \/ Q (eff a s)) ->
    A ~> B -> (fun s => P s /\ A s) ~> (fun s => Q s \/ (P s /\ B s)).
  Proof.
    intros P Q A B H1 HAB i (Hp & Ha). destruct (HAB i Ha) as (j & Hj & Hb).
    destruct (walk_unless P Q H1 i j Hj Hp) as [(m & ? & ? & ?)|Hp'].
    - exists m; auto.
    - exists j; auto.
  Qed.

  Definition enabled (G : Act -> Prop) (s : St) : Prop := exists a, G a /\ guard a s.

  (* The basic rule, for one goroutine G.  While P lasts and Q has not shown up: a step of anybody
     else keeps P or establishes Q, a step of G establishes Q, and G can move. *)
  Section Step.
    Variables (G : Act -> Prop) (P Q : St -> Prop).
    Hypothesis others : forall s a, Inv s -> P s -> guard a s -> G a \/ P (eff a s) \/ Q (eff a s).
    Hypothesis own : forall s a, Inv s -> P s -> G a -> guard a s -> Q (eff a s).

    Lemma step_unless : forall s a, Inv s -> P s -> guard a s -> P (eff a s) \/ Q (eff a s).
    Proof. intros s a I HP Ga. destruct (others s a I HP Ga) as [HG|[H|H]]; auto. Qed.

    Lemma lt_step : fair G r -> (forall s, Inv s -> P s -> Q s \/ enabled G s) -> P ~> Q.
    Proof.
      intros HF H3 i Hi. destruct (HF i) as (j & Hij & Hj).
      destruct (walk_unless P Q step_unless i j Hij Hi) as [(m & ? & ? & ?)|Hp]; [exists m; auto|].
      destruct (H3 _ (Inv_run j) Hp) as [Hq|(a & Ha & Ga)]; [exists j; auto|].
      destruct Hj as [Ht|Hd]; [|exfalso; eapply Hd; eauto].
      pose proof (run_ok _ _ r j) as Hr. unfold taken in Ht. destruct (lab r j) as [b|]; [|tauto].
      destruct Hr as (Gb & E). exists (S j); split; [lia|]. rewrite E; auto.
    Qed.

    (* under strong fairness G need not stay enabled: it only has to become enabled again and
       again for as long as P lasts *)
    Lemma lt_step_s : sfair G r -> P ~> (fun s => Q s \/ enabled G s) -> P ~> Q.
    Proof.
      intros HF H3 i Hi. destruct (HF i) as [(j & Hij & Ht)|(j & Hij & Hd)];
        (destruct (walk_unless P Q step_unless i j Hij Hi) as [(m & ? & ? & ?)|Hp]; [exists m; auto|]).
      - pose proof (run_ok _ _ r j) as Hr. unfold taken in Ht. destruct (lab r j) as [b|]; [|tauto].
        destruct Hr as (Gb & E). exists (S j); split; [lia|]. rewrite E; auto.
      - destruct (H3 j Hp) as (k & Hk & [Hq|(a & Ga & Gd)]); [exists k; split; auto; lia|].
        exfalso. eapply (Hd k Hk); eauto.
    Qed.

    (* G waits for something that is handed back: B (somebody has it) leads to C (it is free),
       and with C, and P still there, G can move *)
    Lemma lt_wait : forall B C : St -> Prop, sfair G r -> B ~> C ->
      (forall s, Inv s -> P s -> B s \/ C s) ->
      (forall s, Inv s -> P s -> C s -> Q s \/ enabled G s) ->
      P ~> Q.
    Proof.
      intros B C HF HBC H3 H4. apply lt_step_s; auto. intros i Hp.
      destruct (H3 _ (Inv_run i) Hp) as [Hb|Hc]; [|exists i; auto using Inv_run].
      destruct (lt_unless P Q B C step_unless HBC i (conj Hp Hb)) as (j & Hj & [Hq|(Hp' & Hc)]);
        exists j; split; auto using Inv_run.
    Qed.
  End Step.

  (* The same with a variant.  Until Q holds, S lasts; nobody's step raises v, every step of G
     lowers it, and G can move. *)
  Lemma lt_rank : forall (G : Act -> Prop) (S Q : St -> Prop) (v : St -> nat),
    fair G r ->
    (forall s a, Inv s -> S s -> guard a s ->
       G a \/ Q (eff a s) \/ (S (eff a s) /\ v (eff a s) <= v s)) ->
    (forall s a, Inv s -> S s -> G a -> guard a s -> Q (eff a s) \/ (S (eff a s) /\ v (eff a s) < v s)) ->
    (forall s, Inv s -> S s -> Q s \/ enabled G s) ->
    S ~> Q.
  Proof.
    intros G S Q v HF H1 H2 H3. apply (lt_variant S _ v). intros n.
    apply (lt_step G (fun s => S s /\ v s = n)); auto.
    - intros s a I (Hs & <-) Ga. destruct (H1 s a I Hs Ga) as [?|[?|(Hs' & Hv)]]; auto.
      apply Nat.lt_eq_cases in Hv. destruct Hv; auto.
    - intros s a I (Hs & <-) HG Ga. destruct (H2 s a I Hs HG Ga) as [?|(? & ?)]; auto.
    - intros s I (Hs & _). destruct (H3 s I Hs); auto.
  Qed.

  Lemma stable_and : forall S T : St -> Prop, stable S -> stable T -> stable (fun s => S s /\ T s).
  Proof. intros S T HS HT s a I (H1 & H2) Ga; split; eauto. Qed.

  (* chaining while keeping what is stable *)
  Lemma lt_then : forall P Q R : St -> Prop, P ~> Q -> stable Q -> Q ~> R -> P ~> (fun s => Q s /\ R s).
  Proof.
    intros P Q R H1 HS H2 i Hi. destruct (H1 i Hi) as (j & Hj & Hq). destruct (H2 j Hq) as (k & Hk & Hr).
    exists k; split; [lia|]. split; auto. eapply stable_run; eauto.
  Qed.

  Lemma sfair_fair : forall G, sfair G r -> fair G r.
  Proof.
    intros G H i. destruct (H i) as [(j & Hj & Ht)|(j & Hj & Hd)]; exists j; split; auto.
  Qed.

End LeadsTo.

Lemma reach_run : forall {St Act} (guard : Act -> St -> Prop) eff init (r : run guard eff),
  reach guard eff init (st r 0) -> forall i, reach guard eff init (st r i).
Proof.
  intros. induction i; auto.
  destruct (run_step guard eff r i) as [E|(a & G & E)]; rewrite E; auto.
  apply reach_step; auto.
Qed.

Lemma path_length_rank : forall {St Act} (guard : Act -> St -> Prop) eff (ok : Act -> Prop)
  (P : St -> Prop) (rank : St -> nat),
  (forall s a, P s -> guard a s -> P (eff a s)) ->
  (forall s a, P s -> ok a -> guard a s -> rank (eff a s) < rank s) ->
  forall s l s', P s -> path guard eff ok s l s' -> length l + rank s' <= rank s.
Proof.
  intros St Act guard eff ok P rank HP Hr s l s' Hs Hp. induction Hp; cbn; [lia|].
  specialize (IHHp (HP _ _ Hs H0)). specialize (Hr _ _ Hs H H0). lia.
Qed.

Lemma path_reach : forall {St Act} (guard : Act -> St -> Prop) eff init ok s l s',
  reach guard eff init s -> path guard eff ok s l s' -> reach guard eff init s'.
Proof. intros. induction H0; auto. apply IHpath. apply reach_step; auto. Qed.

Section Traces.
  Context {St Act : Type}.
  Variable guard : Act -> St -> Prop.
  Variable eff : Act -> St -> St.
  Variable init : St -> Prop.

  Fixpoint run_acts (l : list Act) (s : St) : St :=
    match l with [] => s | a :: l' => run_acts l' (eff a s) end.
  Fixpoint guards (l : list Act) (s : St) : Prop :=
    match l with [] => True | a :: l' => guard a s /\ guards l' (eff a s) end.

  Lemma reach_acts : forall l s, reach guard eff init s -> guards l s ->
    reach guard eff init (run_acts l s).
  Proof.
    induction l; cbn; intros s R G; auto. destruct G. apply IHl; auto. apply reach_step; auto.
  Qed.

  Lemma guards_cons_intro : forall a l s s',
    guard a s -> s' = eff a s -> guards l s' -> guards (a :: l) s.
  Proof. intros; subst; split; auto. Qed.

  Definition const_run (s : St) : run guard eff.
  Proof. refine {| st := fun _ => s; lab := fun _ => None |}. intros; reflexivity. Defined.
End Traces.

Ltac norm_eq :=
  match goal with |- ?x = ?rhs => let v := eval cbv -[Init.Nat.pred Init.Nat.add] in rhs in unify x v; reflexivity end.
Ltac guards_tac :=
  repeat first [ exact I
               | eapply guards_cons_intro;
                 [solve [cbn; repeat split; eauto; try lia; try discriminate] | norm_eq | ] ].
