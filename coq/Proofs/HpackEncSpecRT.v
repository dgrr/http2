(* Specification-level round trips of RFC 7541 5.2 and 6: [spec_dec_str] inverts [spec_enc_str],
   [spec_dec_repr] inverts [spec_enc_repr] up to [canon] (the H bit of a name that is not sent),
   and a block parses back into the representations it was made of. Nothing here mentions the
   implementation model of hpack.go. *)
From Coq Require Import List NArith ZArith Bool Lia.
From H2V Require Import Base.Bytes Spec.Rfc7541Huffman Spec.Rfc7541
     Proofs.HuffmanBits Proofs.HuffmanDecode Proofs.HpackSpecHuff Proofs.HpackEncSpecInt.
Import ListNotations.
Local Open Scope N_scope.

Lemma takeN_len_app (d rest : bytes) : takeN (len d) (d ++ rest) = d.
Proof. unfold takeN, len. rewrite Nat2N.id. apply firstn_app_len. reflexivity. Qed.

Lemma dropN_len_app (d rest : bytes) : dropN (len d) (d ++ rest) = rest.
Proof. unfold dropN, len. rewrite Nat2N.id. apply skipn_app_len. reflexivity. Qed.

Lemma spec_dec_str_cons x tl : spec_dec_str (x :: tl) =
  match spec_dec_int 7 (x :: tl) with
  | None => None
  | Some (n, rest) =>
      if len rest <? n then None
      else if 128 <=? x then
             match spec_huff_decode (takeN n rest) with
             | Some s => Some (true, s, dropN n rest)
             | None => None
             end
           else Some (false, takeN n rest, dropN n rest)
  end.
Proof. reflexivity. Qed.

Theorem spec_dec_enc_str h s rest : bytes_ok s = true -> len s < 2 ^ 32 ->
  spec_dec_str (spec_enc_str h s ++ rest) = Some (h, s, rest).
Proof.
  intros Hok Hlen. unfold spec_enc_str.
  set (d := if h then spec_encode s else s).
  set (pat := if h then 128 else 0).
  assert (len d < 2 ^ 63) as Hd.
  { change (2 ^ 32) with 4294967296 in Hlen. change (2 ^ 63) with 9223372036854775808.
    subst d. destruct h; [pose proof (spec_encode_len s Hok)|]; lia. }
  assert (spec_dec_int 7 (spec_enc_int 7 pat (len d) ++ d ++ rest) = Some (len d, d ++ rest)) as Hint.
  { apply spec_dec_enc_int; [subst pat; destruct h; reflexivity | exact Hd]. }
  rewrite <- app_assoc.
  destruct (spec_enc_int_head 7 pat (len d)) as [x [tl [E R]]].
  rewrite E in *. cbn [app] in *. rewrite spec_dec_str_cons, Hint.
  replace (len (d ++ rest) <? len d) with false
    by (symmetry; apply N.ltb_ge; unfold len; rewrite app_length; lia).
  rewrite takeN_len_app, dropN_len_app.
  assert ((128 <=? x) = h) as ->.
  { change (2 ^ 7 - 1) with 127 in R. subst pat. destruct h.
    - apply N.leb_le. destruct R as [[-> _]| ->]; lia.
    - apply N.leb_gt. destruct R as [[-> L]| ->]; lia. }
  subst d. destruct h; [|reflexivity].
  rewrite (spec_huff_decode_encode s Hok). reflexivity.
Qed.

(* the form the parser returns: with an indexed name there is no name string, hence no H bit *)
Definition canon (r : repr) : repr :=
  match r with
  | Literal m (NameIdx i) _ hval value => Literal m (NameIdx i) false hval value
  | _ => r
  end.

(* representations an encoder can write and a decoder within the limits of the specification
   (9 continuation octets) reads back *)
Definition str_wf (s : bytes) : Prop := bytes_ok s = true /\ len s < 2 ^ 32.

Definition repr_wf (r : repr) : Prop :=
  match r with
  | Indexed i => i < 2 ^ 63
  | Literal _ (NameIdx i) _ _ v => 0 < i < 2 ^ 63 /\ str_wf v
  | Literal _ (NameLit n) _ _ v => str_wf n /\ str_wf v
  | SizeUpdate n => n < 2 ^ 63
  end.

Lemma mode_pattern_mod m : mode_pattern m mod 2 ^ mode_prefix m = 0.
Proof. destruct m; reflexivity. Qed.

Lemma spec_dec_repr_cons x tl : spec_dec_repr (x :: tl) =
  if 128 <=? x then
    match spec_dec_int 7 (x :: tl) with Some (i, rest) => Some (Indexed i, rest) | None => None end
  else if 64 <=? x then dec_literal Incremental (x :: tl)
  else if 32 <=? x then
    match spec_dec_int 5 (x :: tl) with Some (n, rest) => Some (SizeUpdate n, rest) | None => None end
  else if 16 <=? x then dec_literal Never (x :: tl)
  else dec_literal Without (x :: tl).
Proof. reflexivity. Qed.

Lemma spec_dec_repr_literal m x tl : mode_pattern m <= x < mode_pattern m + 2 ^ mode_prefix m ->
  spec_dec_repr (x :: tl) = dec_literal m (x :: tl).
Proof.
  intros H. rewrite spec_dec_repr_cons.
  destruct m; cbn [mode_pattern mode_prefix] in H;
    [change (2 ^ 6) with 64 in H | change (2 ^ 4) with 16 in H | change (2 ^ 4) with 16 in H].
  - replace (128 <=? x) with false by (symmetry; apply N.leb_gt; lia).
    replace (64 <=? x) with true by (symmetry; apply N.leb_le; lia). reflexivity.
  - replace (128 <=? x) with false by (symmetry; apply N.leb_gt; lia).
    replace (64 <=? x) with false by (symmetry; apply N.leb_gt; lia).
    replace (32 <=? x) with false by (symmetry; apply N.leb_gt; lia).
    replace (16 <=? x) with false by (symmetry; apply N.leb_gt; lia). reflexivity.
  - replace (128 <=? x) with false by (symmetry; apply N.leb_gt; lia).
    replace (64 <=? x) with false by (symmetry; apply N.leb_gt; lia).
    replace (32 <=? x) with false by (symmetry; apply N.leb_gt; lia).
    replace (16 <=? x) with true by (symmetry; apply N.leb_le; lia). reflexivity.
Qed.

Lemma mode_prefix_pos m : 0 < mode_prefix m.
Proof. destruct m; reflexivity. Qed.

Theorem spec_dec_enc_repr r rest : repr_wf r ->
  spec_dec_repr (spec_enc_repr r ++ rest) = Some (canon r, rest).
Proof.
  intros Hwf. destruct r as [i | m [i | name] hname hval value | n]; cbn [spec_enc_repr canon repr_wf] in *.
  - (* Indexed *)
    pose proof (spec_dec_enc_int 7 128 i rest eq_refl Hwf) as Hint.
    destruct (spec_enc_int_head 7 128 i) as [x [tl [E R]]].
    pose proof (spec_enc_int_head_range 7 128 i x tl eq_refl E) as Rg.
    rewrite E in *. cbn [app] in *. rewrite spec_dec_repr_cons.
    replace (128 <=? x) with true by (symmetry; apply N.leb_le; lia).
    rewrite Hint. reflexivity.
  - (* Literal, indexed name *)
    destruct Hwf as [[Hi0 Hi] [Hv1 Hv2]].
    rewrite <- app_assoc.
    pose proof (spec_dec_enc_int (mode_prefix m) (mode_pattern m) i (spec_enc_str hval value ++ rest)
                  (mode_pattern_mod m) Hi) as Hint.
    destruct (spec_enc_int_head (mode_prefix m) (mode_pattern m) i) as [x [tl [E R]]].
    pose proof (spec_enc_int_head_range _ _ _ x tl (mode_prefix_pos m) E) as Rg.
    rewrite E in *. cbn [app] in *. rewrite (spec_dec_repr_literal m) by exact Rg.
    unfold dec_literal. rewrite Hint.
    replace (i =? 0) with false by (symmetry; apply N.eqb_neq; lia).
    rewrite (spec_dec_enc_str hval value rest Hv1 Hv2). reflexivity.
  - (* Literal, literal name *)
    destruct Hwf as [[Hn1 Hn2] [Hv1 Hv2]].
    cbn [app]. rewrite (spec_dec_repr_literal m)
      by (pose proof (mode_prefix_pos m); assert (0 < 2 ^ mode_prefix m) by (apply N.neq_0_lt_0, N.pow_nonzero; discriminate); lia).
    unfold dec_literal.
    assert (spec_dec_int (mode_prefix m) (mode_pattern m :: (spec_enc_str hname name ++ spec_enc_str hval value) ++ rest)
            = Some (0, (spec_enc_str hname name ++ spec_enc_str hval value) ++ rest)) as ->.
    { destruct m; reflexivity. }
    cbn [N.eqb]. rewrite <- app_assoc.
    rewrite (spec_dec_enc_str hname name _ Hn1 Hn2).
    rewrite (spec_dec_enc_str hval value rest Hv1 Hv2). reflexivity.
  - (* SizeUpdate *)
    pose proof (spec_dec_enc_int 5 32 n rest eq_refl Hwf) as Hint.
    destruct (spec_enc_int_head 5 32 n) as [x [tl [E R]]].
    pose proof (spec_enc_int_head_range 5 32 n x tl eq_refl E) as Rg.
    change (2 ^ 5) with 32 in Rg.
    rewrite E in *. cbn [app] in *. rewrite spec_dec_repr_cons.
    replace (128 <=? x) with false by (symmetry; apply N.leb_gt; lia).
    replace (64 <=? x) with false by (symmetry; apply N.leb_gt; lia).
    replace (32 <=? x) with true by (symmetry; apply N.leb_le; lia).
    rewrite Hint. reflexivity.
Qed.

Lemma spec_enc_repr_nonempty r : exists x tl, spec_enc_repr r = x :: tl.
Proof.
  destruct r as [i | m [i | name] hname hval value | n]; cbn [spec_enc_repr].
  - destruct (spec_enc_int_head 7 128 i) as [x [tl [E _]]]. rewrite E. eexists; eexists; reflexivity.
  - destruct (spec_enc_int_head (mode_prefix m) (mode_pattern m) i) as [x [tl [E _]]]. rewrite E.
    eexists; eexists; reflexivity.
  - eexists; eexists; reflexivity.
  - destruct (spec_enc_int_head 5 32 n) as [x [tl [E _]]]. rewrite E. eexists; eexists; reflexivity.
Qed.

Lemma spec_enc_block_cons r rs : spec_enc_block (r :: rs) = spec_enc_repr r ++ spec_enc_block rs.
Proof. reflexivity. Qed.

Lemma spec_enc_block_app a b : spec_enc_block (a ++ b) = spec_enc_block a ++ spec_enc_block b.
Proof. unfold spec_enc_block. apply flat_map_app. Qed.

Lemma parse_reprs_cons fuel x tl : parse_reprs (S fuel) (x :: tl) =
  match spec_dec_repr (x :: tl) with
  | None => None
  | Some (r, rest) => match parse_reprs fuel rest with Some rs => Some (r :: rs) | None => None end
  end.
Proof. reflexivity. Qed.

Theorem parse_enc_block : forall rs fuel, Forall repr_wf rs -> (length (spec_enc_block rs) <= fuel)%nat ->
  parse_reprs fuel (spec_enc_block rs) = Some (map canon rs).
Proof.
  induction rs as [|r rs IH]; intros fuel Hwf Hf.
  - destruct fuel; reflexivity.
  - inversion Hwf as [|r' rs' Hr Hrs]; subst.
    rewrite spec_enc_block_cons in *.
    pose proof (spec_dec_enc_repr r (spec_enc_block rs) Hr) as Hd.
    destruct (spec_enc_repr_nonempty r) as [x [tl E]]. rewrite E in *. cbn [app] in *.
    destruct fuel as [|fuel]; [simpl in Hf; lia|].
    rewrite parse_reprs_cons, Hd, IH; [reflexivity | exact Hrs |].
    simpl in Hf. rewrite app_length in Hf. lia.
Qed.

Corollary spec_parse_enc_block rs : Forall repr_wf rs ->
  spec_parse_block (spec_enc_block rs) = Some (map canon rs).
Proof. intros H. unfold spec_parse_block. apply parse_enc_block; [exact H | lia]. Qed.

(* the meaning does not look at the H bits *)
Lemma spec_step_canon t a r : spec_step t a (canon r) = spec_step t a r.
Proof. destruct r as [i | m [i | name] hname hval value | n]; reflexivity. Qed.

Lemma sem_from_canon : forall rs t a, sem_from t a (map canon rs) = sem_from t a rs.
Proof.
  induction rs as [|r rs IH]; intros t a; [reflexivity|].
  cbn [map sem_from]. rewrite spec_step_canon.
  destruct (spec_step t a r) as [[[f|] t']|]; [rewrite IH; reflexivity | apply IH | reflexivity].
Qed.

Theorem spec_decode_enc_block t rs : Forall repr_wf rs ->
  spec_decode_block t (spec_enc_block rs) = spec_sem t rs.
Proof.
  intros H. unfold spec_decode_block. rewrite (spec_parse_enc_block rs H).
  unfold spec_sem. apply sem_from_canon.
Qed.
