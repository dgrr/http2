(* C04, part 5: one call of AppendHeader, seen by the decoder of the specification.

   For an encoder state whose table fits its maximum ([K]) and a field of byte strings, what
   AppendHeader appends (after the size updates, which HpackEncBlock.v handles) is the encoding of
   one representation [frepr], whose meaning on the encoder's own table, read as the peer's, is
   the field itself, and which leaves the peer's table equal to the encoder's new one. *)
From Coq Require Import List NArith ZArith Bool Lia.
From H2V Require Import Base.Bytes Base.MachineInt Base.Result Gen.GenConsts Gen.GenStatic
     Impl.Huffman Impl.Hpack Spec.Rfc7541Huffman Spec.Rfc7541
     Proofs.HpackDefs Proofs.HpackBytes Proofs.HpackStatic Proofs.HpackTable
     Proofs.HpackEncInt Proofs.HpackEncString Proofs.HpackEncHeader Proofs.HpackEncSearch
     Proofs.HpackEncSpecInt Proofs.HpackEncSpecRT.
Import ListNotations.
Local Open Scope N_scope.

(* the encoder state between calls: both sizes are the peer's setting, a uint32 with room to
   spare, and the table fits *)
Definition K (hp : hpack_state) : Prop :=
  h_max hp = h_max_settings hp /\ h_max hp < 2 ^ 31 /\ fsum (h_dynamic hp) <= h_max hp.

Definition fld_ok (hf : field) : Prop :=
  bytes_ok (f_key hf) = true /\ bytes_ok (f_value hf) = true /\ fsize hf < 2 ^ 31.

(* the representation AppendHeader chooses *)
Definition mode_of_pattern (pat : N) : mode :=
  if pat =? 16 then Never else if pat =? 64 then Incremental else Without.

Definition frepr (hp : hpack_state) (hf : field) (store : bool) : repr :=
  let '(index, fm) := search hp hf in
  let '(c, bits, pat, _) := achoice hp hf store index fm in
  if 0 <? index then
    if bits =? 7 then Indexed index
    else Literal (mode_of_pattern pat) (NameIdx index) false c (f_value hf)
  else Literal (mode_of_pattern pat) (NameLit (f_key hf)) c c (f_value hf).

Definition is_never (r : repr) : Prop := exists nr a b v, r = Literal Never nr a b v.
Definition is_update (r : repr) : bool := match r with SizeUpdate _ => true | _ => false end.

Lemma pow31_32 x : x < 2 ^ 31 -> x < 2 ^ 32.
Proof. change (2 ^ 31) with 2147483648. change (2 ^ 32) with 4294967296. lia. Qed.

Lemma pow63_64 x : x < 2 ^ 63 -> x < 2 ^ 64.
Proof. change (2 ^ 63) with 9223372036854775808. change (2 ^ 64) with 18446744073709551616. lia. Qed.

Lemma fld_ok_strs hf : fld_ok hf -> str_wf (f_key hf) /\ str_wf (f_value hf).
Proof.
  intros [H1 [H2 H3]]. unfold fsize in H3. unfold str_wf.
  change (2 ^ 31) with 2147483648 in H3. change (2 ^ 32) with 4294967296.
  repeat split; try assumption; lia.
Qed.

Lemma enc_indexed index : index < 2 ^ 63 -> aint 128 7 index ++ [] = spec_enc_repr (Indexed index).
Proof.
  intros H. rewrite app_nil_r. cbn [spec_enc_repr].
  apply aint_is_spec; [lia | reflexivity | reflexivity | apply pow63_64; exact H].
Qed.

Lemma enc_lit_idx m index c value : index < 2 ^ 63 -> str_wf value ->
  aint (mode_pattern m) (mode_prefix m) index ++ astr value c
  = spec_enc_repr (Literal m (NameIdx index) false c value).
Proof.
  intros H [V1 V2]. cbn [spec_enc_repr]. rewrite (astr_is_spec value c V1 V2). f_equal.
  apply aint_is_spec; [destruct m; cbn; lia | destruct m; reflexivity | apply mode_pattern_mod | apply pow63_64; exact H].
Qed.

Lemma enc_lit_name m key c value : str_wf key -> str_wf value ->
  (mode_pattern m :: astr key c) ++ astr value c = spec_enc_repr (Literal m (NameLit key) c c value).
Proof.
  intros [K1 K2] [V1 V2]. cbn [spec_enc_repr].
  rewrite (astr_is_spec value c V1 V2), (astr_is_spec key c K1 K2). reflexivity.
Qed.

Definition mode_sens (m : mode) : bool := match m with Never => true | _ => false end.
Definition mode_table (m : mode) (t : dtable) (e : entry) : dtable :=
  match m with Incremental => add_entry t e | _ => t end.

Lemma step_lit_idx t a m i hn hv value key v0 : lookup t i = Some (key, v0) ->
  spec_step t a (Literal m (NameIdx i) hn hv value)
  = Some (Some (key, value, mode_sens m), mode_table m t (key, value)).
Proof. intros H. cbn [spec_step]. rewrite H. destruct m; reflexivity. Qed.

Lemma step_lit_name t a m hn hv value key :
  spec_step t a (Literal m (NameLit key) hn hv value)
  = Some (Some (key, value, mode_sens m), mode_table m t (key, value)).
Proof. destruct m; reflexivity. Qed.

Lemma step_indexed t a i key v0 : lookup t i = Some (key, v0) ->
  spec_step t a (Indexed i) = Some (Some (key, v0, false), t).
Proof. intros H. cbn [spec_step]. rewrite H. reflexivity. Qed.

Lemma K_length hp : K hp -> N.of_nat (length (h_dynamic hp)) < 2 ^ 63.
Proof.
  intros [_ [H2 H3]]. pose proof (fsum_length (h_dynamic hp)).
  change (2 ^ 31) with 2147483648 in H2. change (2 ^ 63) with 9223372036854775808. lia.
Qed.

Lemma K_length_small hp : K hp -> N.of_nat (length (h_dynamic hp)) < 2 ^ 31.
Proof.
  intros [_ [H2 H3]]. pose proof (fsum_length (h_dynamic hp)).
  change (2 ^ 31) with 2147483648 in *. lia.
Qed.

Lemma K_add hp hf : K hp -> fld_ok hf ->
  K (add_dynamic hp hf) /\ abs (add_dynamic hp hf) = add_entry (abs hp) (f_key hf, f_value hf) /\
  h_max (add_dynamic hp hf) = h_max hp /\ h_pending (add_dynamic hp hf) = h_pending hp /\
  h_pending_min (add_dynamic hp hf) = h_pending_min hp /\
  h_no_compress (add_dynamic hp hf) = h_no_compress hp /\ h_no_dynamic (add_dynamic hp hf) = h_no_dynamic hp.
Proof.
  intros [K1 [K2 K3]] [_ [_ F]].
  assert (fsum (h_dynamic hp) + fsize hf < 2 ^ 32) as Hs.
  { change (2 ^ 31) with 2147483648 in *. change (2 ^ 32) with 4294967296. lia. }
  split; [|split; [exact (abs_add_dynamic hp hf Hs)|]].
  - rewrite (add_dynamic_fit hp hf Hs). unfold K. cbn [with_dynamic h_max h_max_settings h_dynamic].
    split; [exact K1|]. split; [exact K2|]. apply fsum_fit_le.
  - rewrite (add_dynamic_fit hp hf Hs). cbn. repeat split; reflexivity.
Qed.

Record field_fact (hp : hpack_state) (hf : field) (store : bool) : Prop := mkFF {
  ff_bytes : fst (afield hp hf store) = spec_enc_repr (frepr hp hf store);
  ff_wf : repr_wf (frepr hp hf store);
  ff_canon : canon (frepr hp hf store) = frepr hp hf store;
  ff_step : forall a, spec_step (abs hp) a (frepr hp hf store)
                      = Some (Some (triple_of hf), abs (snd (afield hp hf store)));
  ff_K : K (snd (afield hp hf store));
  ff_max : h_max (snd (afield hp hf store)) = h_max hp;
  ff_pending : h_pending (snd (afield hp hf store)) = h_pending hp;
  ff_sens : f_sens hf = true -> is_never (frepr hp hf store);
  ff_update : is_update (frepr hp hf store) = false
}.

Lemma triple_eq hf s : f_sens hf = s -> (f_key hf, f_value hf, s) = triple_of hf.
Proof. intros <-. reflexivity. Qed.

Theorem field_step hp hf store : K hp -> fld_ok hf -> field_fact hp hf store.
Proof.
  intros HK Hf.
  pose proof (K_length hp HK) as Hlen.
  destruct (fld_ok_strs hf Hf) as [Hkey Hval].
  destruct (search hp hf) as [index fm] eqn:Es.
  pose proof (search_spec hp hf index fm Hlen Es) as Hhit.
  assert (index < 2 ^ 63) as Hidx.
  { destruct Hhit as [[_ [_ Hd]]|[Hs _]].
    - pose proof (dyn_hit_range _ _ _ Hlen Hd) as R. unfold c_maxIndex in R.
      pose proof (K_length_small hp HK) as Hsm.
      change (2 ^ 31) with 2147483648 in Hsm. change (2 ^ 63) with 9223372036854775808 in *. lia.
    - rewrite static_len_61 in Hs. change (2 ^ 63) with 9223372036854775808. lia. }
  assert (0 < index -> exists v, lookup (abs hp) index = Some (f_key hf, v) /\ (fm = true -> v = f_value hf)) as Hlook
    by (intros Hpos; exact (search_lookup hp hf index fm Hlen Es Hpos)).
  assert (fm = false -> index <? c_maxIndex = true) as Hstatic.
  { intros ->. pose proof (search_name_only_static hp hf index Hlen Es) as L.
    rewrite static_len_61 in L. apply N.ltb_lt. unfold c_maxIndex. lia. }
  destruct (K_add hp hf HK Hf) as [KA [AA [MA [PA _]]]].
  destruct (f_sens hf) eqn:Esens.
  { (* never indexed *)
    destruct (0 <? index) eqn:Epos.
    - pose proof (proj1 (N.ltb_lt _ _) Epos) as Hpos. destruct (Hlook Hpos) as [v0 [L _]].
      constructor; unfold afield, frepr, achoice; rewrite Es, Esens, Epos; cbn [fst snd N.eqb Pos.eqb negb mode_of_pattern].
      + apply (enc_lit_idx Never index false (f_value hf) Hidx Hval).
      + cbn [repr_wf]. split; [lia | exact Hval].
      + reflexivity.
      + intros a. rewrite (step_lit_idx _ a Never index false false (f_value hf) _ _ L).
        cbn [mode_sens mode_table]. rewrite (triple_eq hf true Esens). reflexivity.
      + exact HK.
      + reflexivity.
      + reflexivity.
      + intros _. eexists; eexists; eexists; eexists; reflexivity.
      + reflexivity.
    - constructor; unfold afield, frepr, achoice; rewrite Es, Esens, Epos; cbn [fst snd N.eqb Pos.eqb negb mode_of_pattern].
      + apply (enc_lit_name Never (f_key hf) false (f_value hf) Hkey Hval).
      + cbn [repr_wf]. split; assumption.
      + reflexivity.
      + intros a. rewrite step_lit_name. cbn [mode_sens mode_table]. rewrite (triple_eq hf true Esens). reflexivity.
      + exact HK.
      + reflexivity.
      + reflexivity.
      + intros _. eexists; eexists; eexists; eexists; reflexivity.
      + reflexivity. }
  destruct (0 <? index) eqn:Epos.
  - pose proof (proj1 (N.ltb_lt _ _) Epos) as Hpos. destruct (Hlook Hpos) as [v0 [L V]].
    destruct fm.
    + (* indexed *)
      rewrite (V eq_refl) in L.
      constructor; unfold afield, frepr, achoice; rewrite Es, Esens, Epos;
        cbn [fst snd N.eqb Pos.eqb negb mode_of_pattern].
      * apply (enc_indexed index Hidx).
      * exact Hidx.
      * reflexivity.
      * intros a. rewrite (step_indexed _ a index _ _ L). rewrite (triple_eq hf false Esens). reflexivity.
      * exact HK.
      * reflexivity.
      * reflexivity.
      * discriminate.
      * reflexivity.
    + destruct store.
      * (* incremental indexing, static name *)
        constructor; unfold afield, frepr, achoice; rewrite Es, Esens, (Hstatic eq_refl), Epos;
          cbn [fst snd N.eqb Pos.eqb negb mode_of_pattern].
        -- apply (enc_lit_idx Incremental index _ (f_value hf) Hidx Hval).
        -- cbn [repr_wf]. split; [lia | exact Hval].
        -- reflexivity.
        -- intros a. rewrite (step_lit_idx _ a Incremental index false _ (f_value hf) _ _ L).
           cbn [mode_sens mode_table]. rewrite (triple_eq hf false Esens), AA. reflexivity.
        -- exact KA.
        -- exact MA.
        -- exact PA.
        -- discriminate.
        -- reflexivity.
      * (* without indexing, static name *)
        constructor; unfold afield, frepr, achoice; rewrite Es, Esens, Epos;
          cbn [fst snd N.eqb Pos.eqb negb mode_of_pattern].
        -- apply (enc_lit_idx Without index _ (f_value hf) Hidx Hval).
        -- cbn [repr_wf]. split; [lia | exact Hval].
        -- reflexivity.
        -- intros a. rewrite (step_lit_idx _ a Without index false _ (f_value hf) _ _ L).
           cbn [mode_sens mode_table]. rewrite (triple_eq hf false Esens). reflexivity.
        -- exact HK.
        -- reflexivity.
        -- reflexivity.
        -- discriminate.
        -- reflexivity.
  - destruct (negb store || h_no_dynamic hp) eqn:Est.
    + (* without indexing, literal name *)
      constructor; unfold afield, frepr, achoice; rewrite Es, Esens, Epos, Est;
        cbn [fst snd N.eqb Pos.eqb negb mode_of_pattern].
      * apply (enc_lit_name Without (f_key hf) _ (f_value hf) Hkey Hval).
      * cbn [repr_wf]. split; assumption.
      * reflexivity.
      * intros a. rewrite step_lit_name. cbn [mode_sens mode_table]. rewrite (triple_eq hf false Esens). reflexivity.
      * exact HK.
      * reflexivity.
      * reflexivity.
      * discriminate.
      * reflexivity.
    + (* incremental indexing, literal name *)
      constructor; unfold afield, frepr, achoice; rewrite Es, Esens, Epos, Est;
        cbn [fst snd N.eqb Pos.eqb negb mode_of_pattern].
      * apply (enc_lit_name Incremental (f_key hf) _ (f_value hf) Hkey Hval).
      * cbn [repr_wf]. split; assumption.
      * reflexivity.
      * intros a. rewrite step_lit_name. cbn [mode_sens mode_table]. rewrite (triple_eq hf false Esens), AA. reflexivity.
      * exact KA.
      * exact MA.
      * exact PA.
      * discriminate.
      * reflexivity.
Qed.
