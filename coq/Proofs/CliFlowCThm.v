(* Proofs/CliFlowCThm.v - C07, "and finishes": the whole-run theorems.
   UP: a request that is still on the request table and whose Ctx is still the caller's has its body pending or
   END_STREAM written. With the bookkeeping of Proofs/CliFlowCRun.v, the no-stall theorem of Proofs/CliFlowStall.v
   and the window bounds of Proofs/CliFlowCWin.v: upload_whole_run and completes_when_granted. *)
From H2V Require Import Base.Bytes Base.MachineInt Base.Result Gen.GenConsts Impl.ServerConn Impl.ClientConn
     Proofs.CliBase Proofs.CliResInv Proofs.CliResStep Proofs.CliResMoves Proofs.CliResThms
     Proofs.CliDefs Spec.FlowLedger Proofs.SrvFlowLedger Proofs.CliFlowMoves Proofs.CliFlowOut Proofs.CliFlowSettings Proofs.CliFlowSafe Proofs.CliFlowEs
     Proofs.CliFlowStall Proofs.CliFlowCBody Proofs.CliFlowCInv Proofs.CliFlowCSend Proofs.CliFlowCStep Proofs.CliFlowCRun
     Proofs.CliFlowCCov Proofs.CliFlowCWin Proofs.CliFlowCExact.
From Coq Require Import ZArith Lia ZifyN ZifyNat ZifyBool List Bool.
Import ListNotations.
Local Open Scope N_scope.

Section Thm.
Variable hstate : Type.
Variable dec_field : hstate -> N -> bytes -> dec_res hstate.
Variable enc_field : hstate -> bytes -> bytes -> bool -> bytes * hstate.
Variable enc_set_max : hstate -> N -> hstate.
Variable cfg : cl_config.
Variable h0 : hstate.
Variable first : bytes.
Notation cconn := (cconn hstate).
Notation move := (move hstate).
Notation apply := (apply hstate enc_field enc_set_max).
Notation valid := (valid hstate).
Notation mvs := (mvs enc_field enc_set_max).
Notation step := (cl_step dec_field enc_field enc_set_max cfg).
Notation run := (cl_run dec_field enc_field enc_set_max cfg h0 first).
Notation Bk := (Bk hstate).
Notation pget := (pget hstate).
Notation tbl := (tbl hstate).

(* the request table grows only by the stream writeRequest opens *)
Lemma mv_tbl m (c : cconn) i t : In (i, t) (cc_reqQueued (apply m c)) -> In (i, t) (cc_reqQueued c) \/ cc_nextID c <= i.
Proof.
  assert (SAME : cc_reqQueued (apply m c) = cc_reqQueued c -> In (i, t) (cc_reqQueued (apply m c)) -> In (i, t) (cc_reqQueued c) \/ cc_nextID c <= i).
  { intros ->. auto. }
  destruct m; try (apply SAME; reflexivity).
  - apply SAME. cbn [CliFlowMoves.apply]. destruct (quietb o); reflexivity.
  - cbn [CliFlowMoves.apply]. rewrite cc_reqQueued_cl_take_req_count. intro H. apply filter_In in H. left. apply H.
  - cbn [CliFlowMoves.apply]. cbn [cc_reqQueued ccu_open ccu_reqQueued]. intro H. apply in_app_or in H.
    destruct H as [H|[H|[]]]; [left; exact H | right; inversion H; apply N.le_refl].
  - cbn [CliFlowMoves.apply]. cbn [cc_reqQueued ccu_reqQueued]. intro H. apply filter_In in H. left. apply H.
  - cbn [CliFlowMoves.apply]. cbn [cc_reqQueued ccu_reqQueued]. intros [].
  - apply SAME. cbn [CliFlowMoves.apply]. destruct (pushb o); [|reflexivity]. apply cc_reqQueued_cl_write_out.
  - apply SAME. cbn [CliFlowMoves.apply]. destruct (cc_outQ c); reflexivity.
  - apply SAME. cbn [CliFlowMoves.apply]. rewrite recv_data_eq. reflexivity.
  - apply SAME. cbn [CliFlowMoves.apply]. destruct (cl_settings_deserialize false payload); [apply cc_reqQueued_cl_handle_settings | reflexivity].
  - apply SAME. cbn [CliFlowMoves.apply]. apply cc_reqQueued_cl_add_window.
  - apply SAME. cbn [CliFlowMoves.apply]. destruct (cl_pend_get _ _) as [pb|]; [|reflexivity]. destruct (cl_refill pb); reflexivity.
  - apply SAME. cbn [CliFlowMoves.apply]. destruct (cl_pend_get _ _) as [pb|]; [|reflexivity].
    destruct wr; [rewrite cc_reqQueued_cl_notes|]; unfold cs_conn; destruct (cs_end c pb); reflexivity.
  - apply SAME. cbn [CliFlowMoves.apply]. destruct (cl_pend_get _ _) as [pb|]; [|reflexivity]. sb_cases c pb; reflexivity.
  - apply SAME. cbn [CliFlowMoves.apply]. destruct (negb _); reflexivity.
  - apply SAME. cbn [CliFlowMoves.apply]. destruct opb; reflexivity.
Qed.

Lemma mvs_tbl (c : cconn) ms c' : mvs c ms c' -> forall i t, In (i, t) (cc_reqQueued c') -> In (i, t) (cc_reqQueued c) \/ cc_nextID c <= i.
Proof.
  induction 1 as [c|c m ms c' V M IH]; intros i t H; [left; exact H|].
  destruct (IH i t H) as [X|X].
  - apply (mv_tbl m c i t X).
  - right. pose proof (proj1 (apply_ids hstate enc_field enc_set_max m c V)). lia.
Qed.

Lemma step_tbl (c : cconn) e i t : In (i, t) (cc_reqQueued (step c e)) -> In (i, t) (cc_reqQueued c) \/ cc_nextID c <= i.
Proof. destruct (step_D hstate dec_field enc_field enc_set_max cfg c e) as (ms & M & _). apply (mvs_tbl c ms _ M). Qed.

Lemma step_esn_mono (c : cconn) e id : (esn id (cc_out c) <= esn id (cc_out (step c e)))%nat.
Proof.
  destruct (step_D hstate dec_field enc_field enc_set_max cfg c e) as (ms & M & _).
  rewrite (mvs_out _ _ _ _ _ _ M), esn_app. lia.
Qed.

Lemma step_live (c : cconn) e : cl_wl_live (step c e) = true -> cl_wl_live c = true.
Proof. destruct (step_D hstate dec_field enc_field enc_set_max cfg c e) as (ms & M & _). apply (mvs_live hstate enc_field enc_set_max _ _ _ M). Qed.

(* a request on the table keeps its body pending until END_STREAM *)
Definition UP (c : cconn) : Prop :=
  forall id tag x, In (id, tag) (cc_reqQueued c) -> cl_ctx_get c tag = Some x -> ct_done x = false -> cl_wl_live c = true ->
    pget c id <> None \/ esn id (cc_out c) = 1%nat.

Lemma Bk_esn_le (ex : Prop) B ok id (c : cconn) : Bk ex B ok id c -> (esn id (cc_out c) <= 1)%nat.
Proof. intros [_ _ [X|(X & _)] _]; lia. Qed.

Theorem UP_run evs : UP (run evs).
Proof.
  induction evs as [|e evs IH] using rev_ind.
  - intros id tag x H. exfalso. revert H. unfold cl_run, cl_init. cbn [fold_left].
    destruct (cl_settings_deserialize false first); cbn; auto.
  - rewrite (run_snoc hstate). set (c := run evs) in *.
    pose proof (inv_run dec_field enc_field enc_set_max cfg h0 first evs) as Hi. fold c in Hi.
    pose proof (inv_run dec_field enc_field enc_set_max cfg h0 first (evs ++ [e])) as Hi'. rewrite (run_snoc hstate) in Hi'. fold c in Hi'.
    pose proof (LK_run hstate dec_field enc_field enc_set_max cfg h0 first (evs ++ [e])) as LK'. rewrite (run_snoc hstate) in LK'. fold c in LK'.
    pose proof (ES_run hstate dec_field enc_field enc_set_max cfg h0 first evs) as E. fold c in E.
    destruct (NS_RNG_run hstate dec_field enc_field enc_set_max cfg h0 first evs) as [R NSc]. fold c in R, NSc.
    pose proof (sum_any dec_field enc_field enc_set_max cfg c e Hi) as SS.
    destruct Hi as [S A]. destruct Hi' as [S' A'].
    intros id tag x' HT G' DN' LV'.
    destruct (s_rq _ S' id tag HT) as (x2 & G2 & SD' & CN' & NZ & LT'). rewrite G' in G2. inversion G2. subst x2. clear G2.
    pose proof (LK' tag x' G' CN') as K'. rewrite SD' in K'. pose proof (Bk_esn_le _ _ _ _ _ K') as LE1.
    (* the Ctx before the step *)
    destruct (cl_ctx_get c tag) as [x|] eqn:G.
    2:{ destruct (ss_new _ _ _ _ SS tag x' G G') as (rq & q & _ & _ & SZ & _). congruence. }
    destruct (ss_old _ _ _ _ SS tag x G) as (x'' & G'' & M). rewrite G' in G''. inversion G''. subst x''. clear G''.
    destruct (cmove_keeps hstate c e tag x x' M) as (_ & DM & KEEP).
    assert (DN : ct_done x = false) by (destruct (ct_done x); [rewrite (DM eq_refl) in DN'; discriminate | reflexivity]).
    pose proof (step_live c e LV') as LV.
    destruct (step_tbl c e id tag HT) as [HT0|NEW].
    + (* the request was on the table *)
      destruct (IH id tag x HT0 G DN LV) as [PG|ES1].
      * destruct (pget c id) as [pb|] eqn:GP; [|congruence].
        destruct (pget (step c e) id) as [pb'|] eqn:GP'; [left; discriminate|]. right.
        destruct (step_Cw hstate dec_field enc_field enc_set_max cfg c e S R E id pb GP GP') as [X|[X|(x0 & X1 & X2)]].
        -- pose proof (step_esn_mono c e id) as MN. clear - X MN LE1. lia.
        -- exfalso. apply X. unfold CliFlowCCov.tbl. apply in_map_iff. exists (id, tag). split; [reflexivity | exact HT].
        -- exfalso. apply cl_pend_get_In in GP. destruct GP as [HI EI].
           assert (TG : tag = pb_tag pb) by (apply (proj2 (s_pending _ S pb HI)); rewrite EI; exact HT0).
           rewrite <- TG, G in X1. inversion X1. subst x0. congruence.
      * right. pose proof (step_esn_mono c e id) as MN. clear - ES1 MN LE1. lia.
    + (* the step has opened its stream *)
      destruct KEEP as [[CC SD]|(EW & LV0 & (q & Q) & _ & SD)].
      * exfalso. pose proof (proj1 (s_sid _ S tag x G)) as LT0. clear - LT0 NEW SD SD'. lia.
      * subst e. assert (IDE : id = cc_nextID c) by congruence. rewrite IDE in *. clear IDE.
        cbn [cl_step] in *. rewrite LV0 in *.
        destruct (wl_in_new hstate dec_field enc_field enc_set_max cfg c tag q x S R E NSc LV0 Q G LT' LV') as [X|[X|X]].
        -- left. exact X.
        -- right. clear - X LE1. lia.
        -- exfalso. apply X. unfold CliFlowCCov.tbl. apply in_map_iff. exists (cc_nextID c, tag). split; [reflexivity | exact HT].
Qed.

(* the Request of a Ctx is the one its caller submitted *)
Lemma submit_req (c : cconn) tag rq q x : cl_ctx_get c tag = None -> cl_ctx_get (cl_submit cfg c tag rq q) tag = Some x -> ct_req x = rq.
Proof.
  intros G. unfold cl_submit. rewrite G. cbv zeta.
  set (c1 := ccu_ctxs c (cc_ctxs c ++ [cl_new_ctx tag rq (ccf_armTimers cfg)])).
  assert (G1 : cl_ctx_get c1 tag = Some (cl_new_ctx tag rq (ccf_armTimers cfg))).
  { unfold cl_ctx_get, c1. cbn [cc_ctxs ccu_ctxs]. rewrite cl_ctxs_get_app. unfold cl_ctx_get in G. rewrite G. cbn [cl_ctxs_get cl_new_ctx ct_tag].
    rewrite N.eqb_refl. reflexivity. }
  destruct (_ && _).
  - unfold cl_resolve. rewrite cl_ctx_get_upd by (intro y; apply ct_tag_cl_ctx_resolve). rewrite N.eqb_refl, G1.
    intro H. inversion H. rewrite (proj1 (resolve_keeps _ _)). reflexivity.
  - rewrite cl_ctx_get_upd by (intro y; reflexivity). rewrite N.eqb_refl.
    assert (G2 : cl_ctx_get (ccu_inQ c1 (cc_inQ c1 ++ [tag])) tag = Some (cl_new_ctx tag rq (ccf_armTimers cfg))) by exact G1.
    rewrite G2. intro H. inversion H. reflexivity.
Qed.

Theorem ctx_submitted evs tag x : cl_ctx_get (run evs) tag = Some x ->
  exists pre rq q post, evs = pre ++ CEvSubmit tag rq q :: post /\ cl_ctx_get (run pre) tag = None /\ ct_req x = rq.
Proof.
  revert x. induction evs as [|e evs IH] using rev_ind; intros x G.
  - exfalso. revert G. unfold cl_run, cl_init. cbn [fold_left]. destruct (cl_settings_deserialize false first); cbn; discriminate.
  - rewrite (run_snoc hstate) in G. set (c := run evs) in *.
    pose proof (inv_run dec_field enc_field enc_set_max cfg h0 first evs) as Hi. fold c in Hi.
    pose proof (sum_any dec_field enc_field enc_set_max cfg c e Hi) as SS.
    destruct (cl_ctx_get c tag) as [x0|] eqn:G0.
    + destruct (ss_old _ _ _ _ SS tag x0 G0) as (x'' & G'' & M). rewrite G in G''. inversion G''. subst x''.
      destruct (cmove_keeps hstate c e tag x0 x M) as (RQ & _).
      destruct (IH x0 eq_refl) as (pre & rq & q & post & EQ & GN & RQ0).
      exists pre, rq, q, (post ++ [e]). split; [rewrite EQ, <- app_assoc; reflexivity|]. split; [exact GN | congruence].
    + destruct (ss_new _ _ _ _ SS tag x G0 G) as (rq & q & EE & _). subst e. cbn [cl_step] in G.
      exists evs, rq, q, []. split; [reflexivity|]. split; [exact G0 | apply (submit_req c tag rq q x G0 G)].
Qed.

Lemma trace_data (c : cconn) id : data_bytes id (cl_trace c) = dbytes id (cc_out c).
Proof. apply dbytes_data_bytes. Qed.
Lemma trace_es (c : cconn) id : end_streams id (cl_trace c) = esn id (cc_out c).
Proof. apply esn_end_streams. Qed.

(* the request of tag has been given stream ct_sid x; B: its body as the connection sees it *)
Theorem upload_whole_run evs tag x :
  let c := run evs in
  cl_ctx_get c tag = Some x -> ct_conn x = true ->
  let id := ct_sid x in
  let B := fst (rq_body (ct_req x)) in
  let ok := snd (rq_body (ct_req x)) in
  (exists rest, data_bytes id (cl_trace c) ++ rest = B) /\
  (end_streams id (cl_trace c) <= 1)%nat /\
  (end_streams id (cl_trace c) = 1%nat -> data_bytes id (cl_trace c) = B /\ ok = true /\ cl_pend_get (cc_pending c) id = None) /\
  (cl_wl_live c = true -> forall pb, cl_pend_get (cc_pending c) id = Some pb ->
     end_streams id (cl_trace c) = 0%nat /\ data_bytes id (cl_trace c) ++ pb_all pb = B /\ pb_ok pb = ok /\
     (cc_winCh c = false -> pb_body pb <> [] /\ (cl_zmin (pb_window pb) (cc_connWindow c) <= 0)%Z)) /\
  (cl_wl_live c = true -> In (id, tag) (cc_reqQueued c) -> ct_done x = false ->
     cl_pend_get (cc_pending c) id <> None \/ end_streams id (cl_trace c) = 1%nat).
Proof.
  cbv zeta. intros G CN. rewrite !trace_data, !trace_es.
  pose proof (LK_run hstate dec_field enc_field enc_set_max cfg h0 first evs tag x G CN) as K.
  pose proof (Bk_esn_le _ _ _ _ _ K) as LE. destruct K as [k1 k2 k3 k4].
  split; [exact k2|]. split; [exact LE|]. split.
  { intro E1. destruct k3 as [Z|(_ & A & B & C)]; [rewrite Z in E1; discriminate|]. repeat split; assumption. }
  split.
  - intros LV pb GP. destruct (k4 LV pb GP) as [A B].
    assert (E0 : esn (ct_sid x) (cc_out (run evs)) = 0%nat).
    { destruct k3 as [Z|(_ & _ & _ & C)]; [exact Z|]. unfold CliFlowCInv.pget in C. congruence. }
    split; [exact E0|]. split; [exact A|]. split; [exact B|]. intro WC.
    apply (no_stall hstate dec_field enc_field enc_set_max cfg h0 first evs pb LV WC). apply cl_pend_get_In in GP. apply GP.
  - intros LV HT DN. apply (UP_run evs (ct_sid x) tag x HT G DN LV).
Qed.

(* while the request is on the request table and the caller has not taken its Ctx back, the write loop is alive and
   has caught up (no winCh token): either all of the body and END_STREAM are out, or the rest is pending and a window
   is not positive *)
Theorem upload_dichotomy evs tag x :
  let c := run evs in
  cl_ctx_get c tag = Some x -> cl_wl_live c = true -> cc_winCh c = false ->
  In (ct_sid x, tag) (cc_reqQueued c) -> ct_done x = false ->
  let id := ct_sid x in
  let B := fst (rq_body (ct_req x)) in
  (data_bytes id (cl_trace c) = B /\ end_streams id (cl_trace c) = 1%nat /\ snd (rq_body (ct_req x)) = true /\
   cl_pend_get (cc_pending c) id = None) \/
  (exists pb, cl_pend_get (cc_pending c) id = Some pb /\ data_bytes id (cl_trace c) ++ pb_all pb = B /\
              end_streams id (cl_trace c) = 0%nat /\ pb_body pb <> [] /\ (cl_zmin (pb_window pb) (cc_connWindow c) <= 0)%Z).
Proof.
  cbv zeta. intros G LV WC HT DN.
  destruct (s_rq _ (proj1 (inv_run dec_field enc_field enc_set_max cfg h0 first evs)) _ _ HT) as (x2 & G2 & _ & CN & _).
  rewrite G in G2. inversion G2. subst x2.
  destruct (upload_whole_run evs tag x G CN) as (_ & _ & U3 & U4 & U5).
  destruct (cl_pend_get (cc_pending (run evs)) (ct_sid x)) as [pb|] eqn:GP.
  - right. exists pb. destruct (U4 LV pb eq_refl) as (A & B & _ & C). destruct (C WC) as [C1 C2]. repeat split; assumption.
  - left. destruct (U5 LV HT DN) as [X|X]; [congruence|]. destruct (U3 X) as (A & B & C). repeat split; assumption.
Qed.

(* the corollary, in terms of what the server granted: if in the server's ledger the connection window and the stream's
   window are positive, the whole body and END_STREAM have been sent (while the write loop runs the client's windows are
   the ledger's: Proofs/CliFlowCExact.v) *)
Theorem completes_when_granted evs tag x w :
  let c := run evs in
  let L := lrun ledger0 (g_ledger hstate dec_field enc_field enc_set_max cfg h0 first evs) in
  cl_settings_deserialize false first <> None ->
  GOK ledger0 (g_ledger hstate dec_field enc_field enc_set_max cfg h0 first evs) ->
  cl_ctx_get c tag = Some x -> cl_wl_live c = true -> cc_winCh c = false ->
  In (ct_sid x, tag) (cc_reqQueued c) -> ct_done x = false ->
  (0 < l_conn L)%Z -> l_strm L (ct_sid x) = Some w -> (0 < w)%Z ->
  data_bytes (ct_sid x) (cl_trace c) = fst (rq_body (ct_req x)) /\ end_streams (ct_sid x) (cl_trace c) = 1%nat /\
  cl_pend_get (cc_pending c) (ct_sid x) = None.
Proof.
  cbv zeta. intros NN GK G LV WC HT DN CP SW WP.
  destruct (upload_dichotomy evs tag x G LV WC HT DN) as [(A & B & _ & C)|(pb & GP & _ & _ & _ & BL)]; [repeat split; assumption|].
  exfalso. destruct (windows_exact hstate dec_field enc_field enc_set_max cfg h0 first evs NN GK LV) as [CWE WV].
  apply cl_pend_get_In in GP. destruct GP as [HI EI]. pose proof (WV pb HI) as W1. rewrite EI, SW in W1. inversion W1 as [W2].
  rewrite CWE, <- W2 in BL. rewrite zmin_min in BL. clear - BL CP WP. lia.
Qed.

End Thm.
