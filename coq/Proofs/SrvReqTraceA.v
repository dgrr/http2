(* Proofs/SrvReqTraceA.v - C01, the trace-level statement for one request, part 1: vocabulary bridges.
   The statement of Props/C01.v speaks the language of Proofs/SrvIso*.v (ref_frames_fs, hfold, request_of); the
   lock-step run of a request from a `ready` state is proved in Proofs/SrvMsg*.v (block_dec, vrun, req_fold).
   Here: the two frame lists are the same, the two decoding relations agree when the decoder makes progress,
   and what hfold accepts is what the automaton vrun accepts. *)
From H2V Require Import Base.Bytes Base.MachineInt Base.Result Gen.GenConsts Impl.ServerConn
  Proofs.SrvBase Proofs.SrvMsgDefs Proofs.SrvMsgPure Proofs.SrvMsgStream
  Proofs.SrvIsoRef Proofs.SrvIsoSteps Proofs.SrvIsoHdr Proofs.SrvIsoRun.
From Coq Require Import ZArith Lia ZifyN ZifyNat ZifyBool List.
Import ListNotations.
Local Open Scope N_scope.

(* the frames of the statement (verbatim from Props/C01.v) *)
Definition conts1 (sid : N) : list bytes -> list sframe :=
  fix conts (l : list bytes) : list sframe :=
    match l with
    | [] => []
    | [f] => [mkSFrame KCont FL_EH sid (len f) f 0 0 0 false 0 false 0]
    | f :: t => mkSFrame KCont 0 sid (len f) f 0 0 0 false 0 false 0 :: conts t
    end.
Definition datas1 (sid : N) : list bytes -> list sframe :=
  fix datas (l : list bytes) : list sframe :=
    match l with
    | [] => []
    | [d] => [mkSFrame KData FL_ES sid (len d) d 0 0 0 false 0 false 0]
    | d :: t => mkSFrame KData 0 sid (len d) d 0 0 0 false 0 false 0 :: datas t
    end.
Definition req_frames1 (sid : N) (hfrags : list bytes) (chunks : list bytes) : list sframe :=
  match hfrags with
  | [] => []
  | f0 :: rest =>
    mkSFrame KHeaders ((if match rest with [] => true | _ => false end then FL_EH else 0) +
                       (if match chunks with [] => true | _ => false end then FL_ES else 0)) sid (len f0) f0 0 0 0 false 0 false 0 ::
    conts1 sid rest ++ datas1 sid chunks
  end.

Lemma conts1_eq sid l : conts1 sid l = cont_frames sid l.
Proof.
  induction l as [|f t IH]; [reflexivity|].
  destruct t as [|g t]; [reflexivity|].
  change (conts1 sid (f :: g :: t)) with (mkSFrame KCont 0 sid (len f) f 0 0 0 false 0 false 0 :: conts1 sid (g :: t)).
  rewrite IH. reflexivity.
Qed.

Lemma datas1_eq sid l : datas1 sid l = data_frames sid true l.
Proof.
  induction l as [|f t IH]; [reflexivity|].
  destruct t as [|g t]; [reflexivity|].
  change (datas1 sid (f :: g :: t)) with (mkSFrame KData 0 sid (len f) f 0 0 0 false 0 false 0 :: datas1 sid (g :: t)).
  rewrite IH. reflexivity.
Qed.

Lemma req_frames1_eq sid hfrags chunks : hfrags <> [] ->
  req_frames1 sid hfrags chunks = req_frames sid hfrags chunks None.
Proof.
  intro NE. destruct hfrags as [|f0 rest]; [congruence|].
  unfold req_frames1, req_frames, block_frames. rewrite conts1_eq, datas1_eq. cbn [app]. f_equal.
  destruct rest, chunks; reflexivity.
Qed.

(* the header-block fragments of the request are its HEADERS and CONTINUATION frames *)
Lemma filter_cont_frames sid l : sid <> 0 -> filter is_hdr_frame (cont_frames sid l) = cont_frames sid l.
Proof.
  intro NZ. induction l as [|f t IH]; [reflexivity|]. cbn [cont_frames filter].
  assert (E : is_hdr_frame (cont_frame sid (is_nil t) f) = true).
  { unfold is_hdr_frame, cont_frame. cbn [sf_sid sf_kind]. replace (sid =? 0) with false by lia. reflexivity. }
  rewrite E, IH. reflexivity.
Qed.
Lemma filter_data_frames sid es l : filter is_hdr_frame (data_frames sid es l) = [].
Proof.
  induction l as [|f t IH]; [reflexivity|]. cbn [data_frames filter].
  assert (E : is_hdr_frame (data_frame sid (es && is_nil t) f) = false).
  { unfold is_hdr_frame, data_frame. cbn [sf_sid sf_kind]. apply andb_false_r. }
  rewrite E, IH. reflexivity.
Qed.
Lemma filter_req_frames sid hfrags chunks : sid <> 0 ->
  filter is_hdr_frame (req_frames sid hfrags chunks None) = block_frames sid (is_nil chunks) hfrags.
Proof.
  intro NZ. unfold req_frames. rewrite filter_app, filter_data_frames, app_nil_r.
  destruct hfrags as [|f0 rest]; [reflexivity|]. cbn [block_frames filter].
  assert (E : is_hdr_frame (headers_frame sid (is_nil chunks) (is_nil rest) f0) = true).
  { unfold is_hdr_frame, headers_frame. cbn [sf_sid sf_kind]. replace (sid =? 0) with false by lia. reflexivity. }
  rewrite E, filter_cont_frames by exact NZ. reflexivity.
Qed.

Section Dec.
Variable hstate : Type.
Variable dec_field : hstate -> N -> bytes -> dec_res hstate.
(* every decoded field consumes input (for the real HPACK decoder: srv_dec_shrinks in Proofs/SrvIsoInst.v) *)
Hypothesis progress : forall d n b k v rest d1, dec_field d n b = DField hstate k v rest d1 -> (length rest < length b)%nat.

Lemma ref_run_frag_dec eh d n b fs d' n' carry :
  ref_run dec_field eh d n b fs d' n' carry -> frag_dec dec_field eh d n b fs d' n' carry.
Proof.
  induction 1 as [d n|d n b d' Hb E|d n b d' Hb He E|d n b k v rest dm fs d' n' carry Hb E H IH].
  - constructor.
  - apply fd_none; assumption.
  - apply fd_short; assumption.
  - eapply fd_field; [exact Hb | exact E | eapply progress; exact E | exact IH].
Qed.

Lemma rff_nil_inv st0 fs st : ref_frames_fs dec_field st0 [] fs st -> fs = [] /\ st = st0.
Proof.
  intro H. inversion H as [|frs fr fs0 fs1 sa sb Ha Hb E]; [auto|]. destruct frs; discriminate.
Qed.

Lemma rff_cons_inv st0 fr frs fs st' :
  ref_frames_fs dec_field st0 (fr :: frs) fs st' ->
  exists st1 fs1 fs2,
    ref_run dec_field (eh_of fr) (fst (fst st0)) (if is_cont fr then snd (fst st0) else 0)
            ((if is_cont fr then snd st0 else []) ++ sf_payload fr) fs1 (fst (fst st1)) (snd (fst st1)) (snd st1) /\
    ref_frames_fs dec_field st1 frs fs2 st' /\ fs = fs1 ++ fs2.
Proof.
  intro H. remember (fr :: frs) as L eqn:EL. revert fr frs EL.
  induction H as [|frs0 fr0 fs0 fsx st st'' H IH R]; intros fr frs EL; [discriminate|].
  destruct frs0 as [|a frs0'].
  - cbn [app] in EL. inversion EL; subst fr0 frs. destruct (rff_nil_inv _ _ _ H) as [-> ->].
    exists st'', fsx, []. split; [exact R|]. split; [constructor | rewrite app_nil_r; reflexivity].
  - cbn [app] in EL. inversion EL; subst a frs.
    destruct (IH fr frs0' eq_refl) as (st1 & fs1 & fs2 & R1 & F2 & ->).
    exists st1, fs1, (fs2 ++ fsx). split; [exact R1|]. split; [|rewrite app_assoc; reflexivity].
    eapply rff_snoc; eassumption.
Qed.

Lemma conts_block_dec sid : forall frags, frags <> [] -> forall d n prev fs st',
  ref_frames_fs dec_field (d, n, prev) (cont_frames sid frags) fs st' -> snd st' = [] ->
  exists carries, block_dec dec_field d n prev frags fs (fst (fst st')) carries.
Proof.
  induction frags as [|f t IH]; intros NE d n prev fs st' H C; [congruence|].
  cbn [cont_frames] in H. destruct (rff_cons_inv _ _ _ _ _ H) as (st1 & fs1 & fs2 & R & F & ->).
  change (is_cont (cont_frame sid (is_nil t) f)) with true in R. cbn [fst snd sf_payload cont_frame] in R.
  assert (EH : eh_of (cont_frame sid (is_nil t) f) = is_nil t) by (unfold eh_of, cont_frame; cbn [sf_flags]; apply fl_has_eh).
  change (mkSFrame KCont (fl_of false (is_nil t)) sid (len f) f 0 0 0 false 0 false 0) with (cont_frame sid (is_nil t) f) in R.
  rewrite EH in R.
  destruct t as [|g t].
  - cbn [cont_frames is_nil] in *. destruct (rff_nil_inv _ _ _ F) as [-> ->]. rewrite C in R.
    exists []. rewrite app_nil_r. eapply bd_last. apply ref_run_frag_dec. exact R.
  - cbn [is_nil] in R. destruct st1 as [[d1 n1] c1]. cbn [fst snd] in *.
    destruct (IH ltac:(discriminate) d1 n1 c1 fs2 st' F C) as (carries & B).
    exists (c1 :: carries). eapply bd_more; [discriminate | apply ref_run_frag_dec; exact R | exact B].
Qed.

Lemma block_frames_block_dec sid es frags d fs st' : frags <> [] ->
  ref_frames_fs dec_field (d, 0, []) (block_frames sid es frags) fs st' -> snd st' = [] ->
  exists carries, block_dec dec_field d 0 [] frags fs (fst (fst st')) carries.
Proof.
  intros NE H C. destruct frags as [|f t]; [congruence|]. cbn [block_frames] in H.
  destruct (rff_cons_inv _ _ _ _ _ H) as (st1 & fs1 & fs2 & R & F & ->).
  change (is_cont (headers_frame sid es (is_nil t) f)) with false in R. cbn [fst snd sf_payload headers_frame] in R.
  assert (EH : eh_of (headers_frame sid es (is_nil t) f) = is_nil t) by (unfold eh_of, headers_frame; cbn [sf_flags]; apply fl_has_eh).
  change (mkSFrame KHeaders (fl_of es (is_nil t)) sid (len f) f 0 0 0 false 0 false 0) with (headers_frame sid es (is_nil t) f) in R.
  rewrite EH in R.
  destruct t as [|g t].
  - cbn [cont_frames is_nil] in *. destruct (rff_nil_inv _ _ _ F) as [-> ->]. rewrite C in R.
    exists []. rewrite app_nil_r. eapply bd_last. apply ref_run_frag_dec. exact R.
  - cbn [is_nil] in R. destruct st1 as [[d1 n1] c1]. cbn [fst snd] in *.
    destruct (conts_block_dec sid (g :: t) ltac:(discriminate) d1 n1 c1 fs2 st' F C) as (carries & B).
    exists (c1 :: carries). eapply bd_more; [discriminate | apply ref_run_frag_dec; exact R | exact B].
Qed.

End Dec.

Section Acc.
Variable cfg : config.

Lemma hfold_fields_loop fs : forall h,
  hfold cfg h fs = match fields_loop cfg h fs with inr h' => Some h' | inl _ => None end.
Proof.
  induction fs as [|[k v] t IH]; intro h; cbn [hfold fields_loop]; [reflexivity|].
  destruct (header_field cfg h k v); [reflexivity | apply IH].
Qed.

(* the header list is within the limit *)
Lemma hfold_size fs : forall h hF, hfold cfg h fs = Some hF -> list_over cfg (hd_headerListSize h) = false ->
  list_over cfg (hd_headerListSize h + fsize fs) = false.
Proof.
  induction fs as [|[k v] t IH]; intros h hF H L0.
  - cbn [fsize fold_right]. rewrite Z.add_0_r. exact L0.
  - cbn [hfold] in H. rewrite header_field_vstep in H. cbv zeta in H.
    destruct (list_over cfg (hd_headerListSize h + Z.of_N (len k) + Z.of_N (len v) + 32)) eqn:L1; [discriminate|].
    destruct (vstep cfg (vabs h) (classify k) v) as [code|st1]; [discriminate|].
    specialize (IH _ _ H). cbn [hdr_of hd_headerListSize] in IH. specialize (IH L1).
    rewrite fsize_cons. cbn [fst snd].
    replace (hd_headerListSize h + (Z.of_N (len k) + Z.of_N (len v) + 32 + fsize t))%Z
      with (hd_headerListSize h + Z.of_N (len k) + Z.of_N (len v) + 32 + fsize t)%Z by lia.
    exact IH.
Qed.

Lemma hfold_vrun fs h hF : hfold cfg h fs = Some hF -> list_over cfg (hd_headerListSize h) = false ->
  exists st', vrun cfg (vabs h) fs = inr st' /\
    hF = hdr_of h st' (hd_headerListSize h + fsize fs) (hd_blockFields h + N.of_nat (length fs)) (req_fold (hd_req h) fs).
Proof.
  intros H L0. pose proof (hfold_size fs h hF H L0) as L.
  rewrite hfold_fields_loop, (fields_loop_vrun cfg fs h L) in H.
  destruct (vrun cfg (vabs h) fs) as [code|st']; [discriminate|]. exists st'. split; [reflexivity|]. inversion H. reflexivity.
Qed.

End Acc.

(* ref_frames_fs by computation (for examples) *)
Section RffRun.
Variable hstate : Type.
Variable dec_field : hstate -> N -> bytes -> dec_res hstate.

Lemma rff_cons st0 fr frs fs1 fs2 st1 st' :
  ref_run dec_field (eh_of fr) (fst (fst st0)) (if is_cont fr then snd (fst st0) else 0)
          ((if is_cont fr then snd st0 else []) ++ sf_payload fr) fs1 (fst (fst st1)) (snd (fst st1)) (snd st1) ->
  ref_frames_fs dec_field st1 frs fs2 st' ->
  ref_frames_fs dec_field st0 (fr :: frs) (fs1 ++ fs2) st'.
Proof.
  intros R H. induction H as [|frs0 fr0 fs0 fsx st st'' H IH R2].
  - rewrite app_nil_r. change [fr] with ([] ++ [fr]). change fs1 with ([] ++ fs1). eapply rff_snoc; [constructor | exact R].
  - rewrite app_assoc. change (fr :: frs0 ++ [fr0]) with ((fr :: frs0) ++ [fr0]). eapply rff_snoc; [exact IH | exact R2].
Qed.

Fixpoint rff_run (st : hst hstate) (frs : list sframe) : option (list (bytes * bytes) * hst hstate) :=
  match frs with
  | [] => Some ([], st)
  | fr :: t =>
    match dec_block_ref dec_field (fst (fst st)) (if is_cont fr then snd (fst st) else 0)
                        (if is_cont fr then snd st else []) (sf_payload fr) (eh_of fr) with
    | ROk fs d' n' c' =>
      match rff_run (d', n', c') t with Some (fs2, st') => Some (fs ++ fs2, st') | None => None end
    | _ => None
    end
  end.

Lemma rff_run_sound frs : forall st fs st', rff_run st frs = Some (fs, st') -> ref_frames_fs dec_field st frs fs st'.
Proof.
  induction frs as [|fr t IH]; intros st fs st' H; cbn [rff_run] in H.
  - inversion H; subst. constructor.
  - destruct (dec_block_ref dec_field _ _ _ _ _) as [fs1 d' n' c'| | |] eqn:R; try discriminate.
    destruct (rff_run (d', n', c') t) as [[fs2 st2]|] eqn:R2; [|discriminate]. inversion H; subst.
    apply (rff_cons st fr t fs1 fs2 (d', n', c') st'); [cbn [fst snd]; apply dec_block_ref_sound; exact R | apply IH; exact R2].
Qed.
End RffRun.
