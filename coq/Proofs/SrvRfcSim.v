(* Proofs/SrvRfcSim.v - C08: the invariant carried along a lockstep run (the abstraction
   relation R plus what its preservation needs), and the lemmas that re-establish it from
   a description of what a step did to the table, the ring and the outputs. *)
From H2V Require Import Base.Bytes Base.MachineInt Base.Result Gen.GenConsts Impl.ServerConn.
From H2V Require Import Proofs.SrvBase Proofs.SrvRfcDefs Proofs.SrvRfcSpec Proofs.SrvRfcModel.
From Coq Require Import ZArith Lia ZifyN ZifyNat ZifyBool.
Local Open Scope N_scope.

Definition active (x : RS.sstate) : bool :=
  match x with RS.Open | RS.HalfClosedLocal | RS.HalfClosedRemote => true | _ => false end.

(* the relation before the highest id is taken into account: an id that is neither in the
   table nor in the ring is not active in the specification *)
Definition rel1 (m : mview) (x : RS.sstate) : Prop :=
  match m with
  | MOld | MNew => active x = false
  | _ => rel m x
  end.

(* how the view of an id that a step does not touch may move: forgotten by the ring,
   or overtaken by a higher id *)
Definition vdrift (m m' : mview) : Prop :=
  m' = m \/ (match m with MTbl _ => False | _ => True end /\ match m' with MOld | MNew => True | _ => False end).

(* ... and its state in the specification *)
Definition sdrift (x x' : RS.sstate) : Prop := x' = x \/ (x = RS.Idle /\ x' = RS.Closed RS.Implicit).

Lemma rel_drift m m' x x' : rel m x -> vdrift m m' -> sdrift x x' -> rel1 m' x'.
Proof.
  intros Hr [->|[Hm Hm']] Hs.
  - destruct Hs as [->|[-> ->]].
    + destruct m as [st|b| |]; cbn in *; try exact Hr; subst; reflexivity.
    + destruct m as [st|b| |]; cbn in *; try reflexivity.
      * destruct st; try contradiction; discriminate.
      * destruct b; [discriminate | destruct Hr; discriminate].
  - destruct m' as [st|b| |]; try contradiction; cbn.
    + destruct m as [st|b| |]; try contradiction; cbn in Hr.
      * destruct b; [subst x | destruct Hr; subst x]; destruct Hs as [->|[E ->]]; try reflexivity; discriminate.
      * subst x. destruct Hs as [->|[E ->]]; reflexivity.
      * subst x. destruct Hs as [->|[E ->]]; reflexivity.
    + destruct m as [st|b| |]; try contradiction; cbn in Hr.
      * destruct b; [subst x | destruct Hr; subst x]; destruct Hs as [->|[E ->]]; try reflexivity; discriminate.
      * subst x. destruct Hs as [->|[E ->]]; reflexivity.
      * subst x. destruct Hs as [->|[E ->]]; reflexivity.
Qed.

Lemma sdrift_refl x : sdrift x x. Proof. left; reflexivity. Qed.
Lemma vdrift_refl m : vdrift m m. Proof. left; reflexivity. Qed.

Section Sim.
Variable hstate : Type.
Notation sconn := (sconn hstate).
Notation view := (view hstate).
Notation tbl := (tbl hstate).
Implicit Types c : sconn.

(* an untouched id: same table entry (as far as its state goes), ring entry kept or dropped,
   highest id not lowered *)
Lemma vdrift_intro c c' id :
  option_map st_state (tbl c' id) = option_map st_state (tbl c id) ->
  (ring_find c' id = ring_find c id \/ ring_find c' id = None) ->
  vdrift (view c id) (view c' id).
Proof.
  intros Ht Hr. unfold view. destruct (tbl c id) as [st|] eqn:T, (tbl c' id) as [st'|] eqn:T'; cbn in Ht; try discriminate.
  - left. congruence.
  - destruct Hr as [Hr|Hr]; rewrite Hr.
    + destruct (ring_find c id); [left; reflexivity|].
      right. split; [destruct (id <=? sc_highestID c); exact I | destruct (id <=? sc_highestID c'); exact I].
    + right. split; [destruct (ring_find c id); [exact I | destruct (id <=? sc_highestID c); exact I]
                    | destruct (id <=? sc_highestID c'); exact I].
Qed.

Lemma rel1_rel c s id : wf s -> RS.highest s = sc_highestID c -> N.odd id = true ->
  rel1 (view c id) (RS.st_of s id) ->
  match view c id with MOld => exists w, RS.st_of s id = RS.Closed w | m => rel m (RS.st_of s id) end.
Proof.
  intros W H O. unfold view. destruct (tbl c id); [auto|]. destruct (ring_find c id); [auto|].
  destruct (id <=? sc_highestID c) eqn:L; cbn [rel1 rel]; intro A.
  - destruct (RS.st_of s id) eqn:X; try discriminate; [|eauto].
    pose proof (st_of_idle_gt s id W O X). lia.
  - destruct (RS.st_of s id) eqn:X; try discriminate; [reflexivity|].
    pose proof (st_of_closed_le s id w W X). lia.
Qed.

Lemma sync_forget_props c' s : wf s ->
  wf (sync_forget hstate c' s) /\ RS.highest (sync_forget hstate c' s) = RS.highest s /\
  RS.block (sync_forget hstate c' s) = RS.block s /\ RS.goaway (sync_forget hstate c' s) = RS.goaway s /\
  RS.dead (sync_forget hstate c' s) = RS.dead s /\
  forall id, RS.st_of (sync_forget hstate c' s) id =
    if negb (in_ring c' id) && existsb (N.eqb id) (map fst (RS.known s))
    then match RS.st_of s id with RS.Closed _ => RS.Closed RS.Implicit | x => x end
    else RS.st_of s id.
Proof. intro W. exact (fold_fstep_props (in_ring c') (map fst (RS.known s)) s W). Qed.

Lemma rel_sync c' s id : wf s -> RS.highest s = sc_highestID c' -> N.odd id = true ->
  rel1 (view c' id) (RS.st_of s id) -> rel (view c' id) (RS.st_of (sync_forget hstate c' s) id).
Proof.
  intros W H O R1. pose proof (rel1_rel c' s id W H O R1) as R0.
  destruct (sync_forget_props c' s W) as (_ & _ & _ & _ & _ & St). rewrite St. clear St.
  unfold view in *. destruct (tbl c' id) as [st|].
  - destruct (negb _ && _); [|exact R0]. cbn [rel] in R0.
    destruct (st_state st); try contradiction; rewrite R0; reflexivity.
  - rewrite in_ring_find. destruct (ring_find c' id) as [b|]; cbn [negb andb]; [exact R0|].
    destruct (id <=? sc_highestID c') eqn:L.
    + destruct R0 as [w Hw]. rewrite Hw. cbn [rel].
      destruct (existsb (N.eqb id) (map fst (RS.known s))) eqn:K; [reflexivity|].
      destruct w; try reflexivity; (rewrite (closed_known s id _ Hw) in K; [discriminate | congruence]).
    + cbn [rel] in R0. rewrite R0. destruct (existsb _ _); reflexivity.
Qed.

(* structure of the table and the ring *)
Record AuxT c : Prop := mkAuxT {
  A_rl : sc_rl_done c = false;
  A_wl : sc_wl_dead c = false;
  A_q : sc_readerQ c = [];
  A_nodup : NoDup (map st_id (sc_strms c));
  A_ids : forall st, In st (sc_strms c) -> N.odd (st_id st) = true /\ st_id st <= sc_lastID c;
  A_last : sc_lastID c <= sc_highestID c;
  A_ring : ring_ok hstate c;
  A_tr : forall st, In st (sc_strms c) -> in_ring c (st_id st) = false;
  A_st : forall st, In st (sc_strms c) ->
         (st_state st = SOpen \/ st_state st = SHalfClosed) /\ st_weReset st = false /\
         (st_responded st = true \/ st_handlerRunning st = true -> st_state st = SHalfClosed /\ st_headersFinished st = true) /\
         (st_state st = SHalfClosed -> st_headersFinished st = true -> st_responded st = true);
  A_snd : forall st, In st (sc_strms c) -> has_more_to_send st = true -> st_bodyStream st = None -> st_pendingEnd st = true
}.

(* header blocks in progress: read loop, table and discard register agree *)
Record AuxH c : Prop := mkAuxH {
  A_fin : forall st, In st (sc_strms c) -> st_headersFinished st = false -> st_id st = sc_expectCont c;
  A_ec : forall st, sc_expectCont c <> 0 -> tbl c (sc_expectCont c) = Some st -> st_headersFinished st = false;
  A_ec_odd : sc_expectCont c <> 0 -> N.odd (sc_expectCont c) = true;
  A_disc : sc_discardID c <> 0 -> tbl c (sc_discardID c) = None /\ sc_discardID c <= sc_highestID c
}.

Definition Aux c : Prop := AuxT c /\ AuxH c.

(* outside a header block every stream of the table has its headers *)
Lemma all_finished c st : AuxT c -> AuxH c -> sc_expectCont c = 0 -> In st (sc_strms c) -> st_headersFinished st = true.
Proof.
  intros AT AH E0 H. destruct (st_headersFinished st) eqn:F; [reflexivity|]. exfalso.
  pose proof (A_fin _ AH st H F) as X. rewrite E0 in X. destruct (A_ids _ AT st H) as [O _]. rewrite X in O. discriminate.
Qed.

(* where a table stream is in its request, read off its state (RS.phase) *)
Definition phase_of (st : stream) : RS.phase :=
  match st_state st, st_headersFinished st with
  | SOpen, false => RS.PHead false
  | SOpen, true => RS.PBody
  | SHalfClosed, false => RS.PHead true
  | SHalfClosed, true => RS.PDone
  | _, _ => RS.PBad
  end.

(* ph: ghost state, the phase reached by the frames received so far on each stream id *)
Record Sim c (s : RS.state) (ph : N -> RS.phase) : Prop := mkSim {
  S_aux : Aux c;
  S_wf : wf s;
  S_str : forall id, N.odd id = true -> rel (view c id) (RS.st_of s id);
  S_blk : R_block hstate c s;
  S_ga : RS.goaway s = sc_closing c;
  S_hi : RS.highest s = sc_highestID c;
  S_cont : sc_expectCont c <> 0 -> tbl c (sc_expectCont c) = None ->
           sc_discardID c = sc_expectCont c \/ RS.dead s = true;
  S_ph : forall st, In st (sc_strms c) -> ph (st_id st) = phase_of st;
  S_new : sc_closing c = false -> forall id, N.odd id = true -> sc_highestID c < id -> ph id = RS.PStart
}.

(* what holds between two items of the schedule *)
Definition Post c (s : RS.state) (ph : N -> RS.phase) : Prop :=
  wf s /\ if sc_sl_done c then RS.dead s = true else Sim c s ph.

Lemma Sim_R c s ph : sc_sl_done c = false -> Sim c s ph -> R hstate c s.
Proof.
  intros Hsl H. unfold R, over. rewrite Hsl, (A_rl c (proj1 (S_aux c s ph H))). cbn [orb].
  split; [exact (A_q c (proj1 (S_aux c s ph H)))|]. split; [exact (S_str c s ph H)|]. split; [exact (S_blk c s ph H)|].
  split; [exact (S_ga c s ph H) | exact (S_hi c s ph H)].
Qed.

(* re-establishing Sim from the state before forgetting *)
Lemma Sim_intro c' s2 ph :
  Aux c' -> wf s2 ->
  (forall id, N.odd id = true -> rel1 (view c' id) (RS.st_of s2 id)) ->
  R_block hstate c' s2 -> RS.goaway s2 = sc_closing c' -> RS.highest s2 = sc_highestID c' ->
  (sc_expectCont c' <> 0 -> tbl c' (sc_expectCont c') = None -> sc_discardID c' = sc_expectCont c' \/ RS.dead s2 = true) ->
  (forall st, In st (sc_strms c') -> ph (st_id st) = phase_of st) ->
  (sc_closing c' = false -> forall id, N.odd id = true -> sc_highestID c' < id -> ph id = RS.PStart) ->
  Sim c' (sync_forget hstate c' s2) ph.
Proof.
  intros HA W Hs Hb Hg Hh Hc Hp Hn. destruct (sync_forget_props c' s2 W) as (W' & H' & B' & G' & D' & _).
  constructor; try assumption.
  - intros id O. apply rel_sync; auto.
  - unfold R_block in *. rewrite B'. exact Hb.
  - rewrite G'. exact Hg.
  - rewrite H'. exact Hh.
  - rewrite D'. exact Hc.
Qed.

End Sim.
