(* Proofs/CliFlowCExact.v - C07, "and finishes": while the write loop runs, the client's connection send window IS the
   server's ledger window.
   The only thing that takes the client's window below the ledger's is a critical section of sendPending whose bytes are
   debited and then neither written nor handed back: the DATA write failed, or the write loop parked for ever on a Ctx
   lock. Both end the write loop in the same select case. (A request taken back between the critical section and
   acquireFor hands its chunk back: MSendBack.) So a step after which the write loop still runs consists of lossless
   moves only (mvsL, DL: the decomposition of Proofs/CliFlowMoves.v once more for the two select cases that send), and
   lossless moves leave the deficit d of Sim (Proofs/CliFlowSafe.v) as it is: 0. With the deficit bound of Proofs/CliFlowCWin.v every pending body's
   window is then the ledger's too. *)
From H2V Require Import Base.Bytes Base.MachineInt Base.Result Gen.GenConsts Impl.ServerConn Impl.ClientConn
     Proofs.CliBase Proofs.CliDefs Spec.FlowLedger Proofs.SrvFlowLedger Proofs.CliFlowMoves Proofs.CliFlowOut Proofs.CliFlowSettings Proofs.CliFlowSafe Proofs.CliFlowEs
     Proofs.CliFlowStall Proofs.CliFlowCInv Proofs.CliFlowCWin.
From Coq Require Import ZArith Lia ZifyN ZifyNat ZifyBool List Bool.
Import ListNotations.
Local Open Scope N_scope.

Section Exact.
Variable hstate : Type.
Variable enc_field : hstate -> bytes -> bytes -> bool -> bytes * hstate.
Variable enc_set_max : hstate -> N -> hstate.
Notation cconn := (cconn hstate).
Notation move := (move hstate).
Notation apply := (apply hstate enc_field enc_set_max).
Notation valid := (valid hstate).
Notation items := (items hstate).
Notation mvs := (mvs enc_field enc_set_max).
Notation Sim := (Sim hstate).
Notation lof := (lof hstate).
Notation mlof := (mlof hstate enc_field enc_set_max).

(* a critical section that writes nothing has debited nothing *)
Definition lossless (m : move) (c : cconn) : Prop :=
  match m with
  | MSend id false => forall pb, cl_pend_get (cc_pending c) id = Some pb -> cs_n c pb = 0%Z
  | _ => True
  end.

Lemma lossless_lost m (c : cconn) : lossless m c -> lost hstate m c = 0%Z.
Proof.
  destruct m; try reflexivity. destruct wr; [reflexivity|]. cbn [lossless lost]. intro H.
  destruct (cl_pend_get (cc_pending c) id) as [pb|]; [apply H|]; reflexivity.
Qed.

(* sequences of lossless moves *)
Inductive mvsL : cconn -> list move -> cconn -> Prop :=
| mvsL_nil c : mvsL c [] c
| mvsL_cons c m ms c' : valid m c -> lossless m c -> mvsL (apply m c) ms c' -> mvsL c (m :: ms) c'.

Lemma mvsL_mvs c ms c' : mvsL c ms c' -> mvs c ms c'.
Proof. induction 1; constructor; assumption. Qed.

Lemma mvsL_app a la b lb c : mvsL a la b -> mvsL b lb c -> mvsL a (la ++ lb) c.
Proof. induction 1; cbn [app]; [auto|]. intro. constructor; auto. Qed.

Lemma mvsL_lost (c : cconn) ms c' : mvsL c ms c' -> mlost hstate enc_field enc_set_max c ms = 0%Z.
Proof. induction 1 as [c|c m ms c' V LS M IH]; cbn [mlost]; [reflexivity|]. rewrite IH, (lossless_lost m c LS). reflexivity. Qed.

(* DL: as DD of Proofs/CliFlowMoves.v, by lossless moves *)
Definition DL (P : move -> Prop) (g : list levent) (r : list sframe) (c c' : cconn) : Prop :=
  exists ms, mvsL c ms c' /\ Forall P ms /\ flat_map grants_of ms = g /\ flat_map rdatas_of ms = r.

Lemma DL_refl P c : DL P [] [] c c.
Proof. exists []. repeat split; constructor. Qed.

Lemma DL_trans P g1 g2 r1 r2 a b c : DL P g1 r1 a b -> DL P g2 r2 b c -> DL P (g1 ++ g2) (r1 ++ r2) a c.
Proof.
  intros (m1 & A1 & F1 & G1 & R1) (m2 & A2 & F2 & G2 & R2). exists (m1 ++ m2). split; [eapply mvsL_app; eassumption|].
  split; [apply Forall_app; auto|]. rewrite !flat_map_app. split; congruence.
Qed.

Lemma DL_trans0 P g r a b c : DL P [] [] a b -> DL P g r b c -> DL P g r a c.
Proof. intros X Y. exact (DL_trans P [] g [] r a b c X Y). Qed.

Lemma DL_step (P : move -> Prop) g r m (c c' : cconn) :
  valid m c -> lossless m c -> P m -> DL P g r (apply m c) c' -> DL P (grants_of m ++ g) (rdatas_of m ++ r) c c'.
Proof.
  intros V LS H (ms & M & F & GG & RR). exists (m :: ms). split; [constructor; assumption|].
  split; [constructor; assumption|]. cbn [flat_map]. rewrite GG, RR. split; reflexivity.
Qed.

(* moves that are never a critical section without a write *)
Definition nolost (m : move) : Prop := match m with MSend _ false => False | _ => True end.

Lemma nolost_lossless m c : nolost m -> lossless m c.
Proof. destruct m; cbn; auto. destruct wr; [auto | intros []]. Qed.

Lemma DD_DL (P : move -> Prop) g r (c c' : cconn) : DD enc_field enc_set_max P g r c c' -> (forall m, P m -> nolost m) -> DL P g r c c'.
Proof.
  intros (ms & M & F & G & R) H. exists ms. split; [|repeat split; assumption].
  clear G R. induction M as [c|c m ms c' V M IH]; [constructor|]. inversion F; subst.
  constructor; [exact V | apply nolost_lossless, H; assumption | apply IH; assumption].
Qed.

Lemma anym_nolost (m : move) : anym m -> nolost m.
Proof. destruct m; cbn; auto. intros []. Qed.

Lemma DL_weaken (P Q : move -> Prop) g r c c' : (forall m, P m -> Q m) -> DL P g r c c' -> DL Q g r c c'.
Proof. intros I (ms & A & F & G). exists ms. split; [assumption|]. split; [|assumption]. eapply Forall_impl; eassumption. Qed.

End Exact.

(* the two select cases that send are lossless moves when the write loop survives them *)
Lemma wlout_ev_ok {hstate} e (m : move hstate) : is_wlf e -> ev_ok CEvWLOut m -> ev_ok e m.
Proof.
  intros W H. destruct e; try contradiction; destruct m; cbn in *; auto; try discriminate; try contradiction;
    try (destruct H as (fr & X & _); discriminate); try (destruct H as [X _]; discriminate).
Qed.

Lemma wlout_nolost {hstate} (m : move hstate) : ev_ok CEvWLOut m -> nolost hstate m.
Proof. destruct m; cbn; auto. destruct wr; auto. Qed.

Section DecompL.
Variable hstate : Type.
Variable dec_field : hstate -> N -> bytes -> dec_res hstate.
Variable enc_field : hstate -> bytes -> bytes -> bool -> bytes * hstate.
Variable enc_set_max : hstate -> N -> hstate.
Variable cfg : cl_config.
Notation cconn := (cconn hstate).
Notation move := (move hstate).
Notation apply := (apply hstate enc_field enc_set_max).
Notation valid := (valid hstate).
Notation D := (D enc_field enc_set_max).
Notation DL := (DL hstate enc_field enc_set_max).
Notation step := (cl_step dec_field enc_field enc_set_max cfg).
Notation Lstep := (DL_step hstate enc_field enc_set_max).
Notation Ltrans0 := (DL_trans0 hstate enc_field enc_set_max).
Notation Lrefl := (DL_refl hstate enc_field enc_set_max).

(* moves that are never a critical section without a write are lossless *)
Lemma Lnl e (a b : cconn) : D (fun m => ev_ok e m /\ nolost hstate m) [] a b -> DL (ev_ok e) [] [] a b.
Proof.
  intro X. apply (DL_weaken hstate enc_field enc_set_max (fun m => ev_ok e m /\ nolost hstate m)); [intros m H; apply H|].
  apply (DD_DL hstate enc_field enc_set_max _ [] [] a b X). intros m H. apply H.
Qed.

(* what any goroutine does *)
Lemma Lany e (a b : cconn) : D anym [] a b -> DL (ev_ok e) [] [] a b.
Proof. intro X. apply Lnl. revert X. apply D_weaken. intros m A. split; [apply anym_ev_ok | apply anym_nolost]; exact A. Qed.

(* the bottom of the loop, the loop's exit *)
Lemma Lout e (a b : cconn) : is_wlf e -> D (ev_ok CEvWLOut) [] a b -> DL (ev_ok e) [] [] a b.
Proof. intros W X. apply Lnl. revert X. apply D_weaken. intros m H. split; [apply (wlout_ev_ok e m W) | apply wlout_nolost]; exact H. Qed.

Lemma send_pending_DL e fuel : is_wlf e -> forall (c : cconn) id,
  snd (cl_send_pending fuel c id) = CSPOk -> DL (ev_ok e) [] [] c (fst (cl_send_pending fuel c id)).
Proof.
  intro W. induction fuel as [|fuel IH]; intros c id; [intros _; apply Lrefl|].
  destruct (send_pending_view hstate fuel c id)
    as [G|pb pb' G RC RF|pb c1 stuck G RC RF DP|pb G RC N0 EE|pb G RC ACQ CW|pb G RC ACQ V EE|pb G RC ACQ V EE|pb c3 stuck G RC ACQ DP|pb G RC];
    cbn [fst snd]; try discriminate; intro R.
  - apply Lrefl.
  - apply (Lstep _ _ _ (MRefill id)); [eapply valid_refill; eassumption | exact I | exact W |].
    rewrite (apply_refill hstate enc_field enc_set_max c id pb pb' G RF). apply IH. exact R.
  - apply (DL_weaken hstate enc_field enc_set_max (fun m => anym m \/ m = MWlReset id)); [intros m [H| ->]; [apply anym_ev_ok; exact H | exact W]|].
    apply DD_DL; [|intros m [H| ->]; [apply anym_nolost; exact H | exact I]].
    apply read_failed_D; [left; assumption | right; reflexivity | eapply delete_pending_D'; exact DP].
  - apply (Lstep _ _ _ (MSend id false)); [eapply valid_send_false; eassumption | | exact W |].
    + cbn [lossless]. intros pb0 G0. rewrite G in G0. inversion G0. subst pb0. exact N0.
    + rewrite (apply_send hstate enc_field enc_set_max c id pb false G). apply Lrefl.
  - apply (Lstep _ _ _ (MSend id true)); [exact V | exact I | exact W |].
    rewrite (apply_send hstate enc_field enc_set_max c id pb true G). apply Lany. apply close_body_D.
  - apply (Lstep _ _ _ (MSend id true)); [exact V | exact I | exact W |].
    rewrite (apply_send hstate enc_field enc_set_max c id pb true G). apply IH. exact R.
  - apply (Lstep _ _ _ (MSendBack id)); [eapply valid_send_back; eassumption | exact I | exact W |].
    cbn [CliFlowMoves.apply]. rewrite G. pose proof (delete_pending_tail hstate enc_field enc_set_max 1 [] (sb_pre hstate c pb id) id) as DT.
    rewrite DP in DT. apply Lany. exact DT.
Qed.

Lemma flush_pending_DL e ids : is_wlf e -> forall (c : cconn),
  snd (cl_flush_pending c ids) = CSPOk -> DL (ev_ok e) [] [] c (fst (cl_flush_pending c ids)).
Proof.
  intro W. induction ids as [|id t IH]; intros c R; cbn [cl_flush_pending] in *; [apply Lrefl|].
  pose proof (send_pending_DL e (cl_send_fuel c id) W c id) as H.
  destruct (cl_send_pending (cl_send_fuel c id) c id) as [c1 r]. cbn [fst snd] in *.
  destruct r; cbn [snd] in R; try discriminate. eapply Ltrans0; [apply H; reflexivity | apply IH; exact R].
Qed.

Lemma wl_win_DL (c : cconn) order : RNG hstate c -> cl_wl_live (cl_wl_win cfg c order) = true ->
  DL (ev_ok (CEvWLWin order)) [] [] c (cl_wl_win cfg c order).
Proof.
  intros R. unfold cl_wl_win. destruct (cc_winCh c); cbn [negb]; [|intros _; apply Lrefl].
  set (c1 := ccu_winCh c false) in *.
  assert (R1 : RNG hstate c1) by (destruct R as [r1 r2 r3 r4]; constructor; assumption).
  pose proof (flush_pending_post hstate (cl_pending_order c1 order) c1 R1) as FP.
  pose proof (flush_pending_DL (CEvWLWin order) (cl_pending_order c1 order) I c1) as FD.
  destruct (cl_flush_pending c1 (cl_pending_order c1 order)) as [c2 r]. cbn [fst snd] in *. destruct FP as [_ _ _ _ _ f6].
  destruct r; intro H.
  - apply (Lstep _ _ _ MWinCh); [exact I | exact I | exact I |]. cbn [CliFlowMoves.apply]. fold c1.
    eapply Ltrans0; [apply FD; reflexivity|]. apply (Lout (CEvWLWin order) _ _ I). apply wl_after_D. exact I.
  - rewrite wl_exit_dead in H. discriminate.
  - unfold cl_wl_live in H. rewrite f6, andb_false_r in H. discriminate.
Qed.

Definition wr_live (r : cl_wrres) : bool := match r with CWRNil => true | CWRErr CENoStreams => true | _ => false end.

Lemma write_request_DL e (c : cconn) tag : e = CEvWLIn ->
  wr_live (snd (cl_write_request enc_field enc_set_max c tag)) = true ->
  DL (ev_ok e) [] [] c (fst (cl_write_request enc_field enc_set_max c tag)).
Proof.
  intro W. assert (WL : is_wlf e) by (rewrite W; exact I).
  destruct (write_request_view hstate enc_field enc_set_max c tag) as [CO|GX|x GX LS|x GX DN|x r CO GX LS DN F1 SYN GO];
    cbn [fst snd wr_live]; try discriminate; try (intros _; apply Lrefl).
  intro X. apply (Lstep _ _ _ MEncSync); [exact I | exact I | exact W |].
  destruct GO as [IDS|blk opb IDS EO V|opb c8 stuck IDS EO CW DP]; cbn [fst snd wr_live] in X |- *; [discriminate X | | destruct stuck; discriminate X].
  eapply Ltrans0; [apply Lnl, wr_open_D; try assumption; [intros m A; split; [apply anym_ev_ok | apply anym_nolost]; exact A | split; [exact W | exact I] | split; [exact W | exact I]]|].
  apply (Lstep _ _ _ (MHeaders blk opb)); [exact V | exact I | exact W |].
  destruct opb; [|apply Lrefl]. rewrite fst_wr_res. apply send_pending_DL; [exact WL|].
  destruct (cl_send_pending _ _ _) as [c8 r8]. destruct r8; [reflexivity | discriminate X | discriminate X].
Qed.

Lemma wl_in_DL (c : cconn) : RNG hstate c -> ES hstate c -> NS hstate c -> cl_wl_live c = true ->
  cl_wl_live (cl_wl_in enc_field enc_set_max cfg c) = true -> DL (ev_ok CEvWLIn) [] [] c (cl_wl_in enc_field enc_set_max cfg c).
Proof.
  intros R E N LV. unfold cl_wl_in. destruct (cc_inQ c) as [|tag q] eqn:Q; [intros _; apply Lrefl|].
  set (cq := ccu_inQ c q).
  assert (Rq : RNG hstate cq) by (destruct R as [r1 r2 r3 r4]; constructor; assumption).
  assert (Eq : ES hstate cq) by (apply (ES_same hstate c); try reflexivity; auto).
  assert (Nq : NSb hstate cq) by (intros WC p HP; apply (N LV WC p HP)).
  pose proof (write_request_DL CEvWLIn cq tag eq_refl) as WD.
  destruct (cl_write_request enc_field enc_set_max cq tag) as [c1 r] eqn:WR. cbn [fst snd] in WD.
  pose proof (write_request_NS hstate enc_field enc_set_max cq tag c1 r Rq Eq Nq WR) as WP.
  assert (POP : forall c', DL (ev_ok CEvWLIn) [] [] cq c' -> DL (ev_ok CEvWLIn) [] [] c c').
  { intros c' X. apply (Lstep _ _ _ MInQPop); [exact I | exact I | reflexivity |]. cbn [CliFlowMoves.apply]. rewrite Q. exact X. }
  destruct r as [|er|]; intro H.
  - apply POP. eapply Ltrans0; [apply WD; reflexivity|]. apply (Lout CEvWLIn _ _ I). apply wl_after_D. exact I.
  - destruct er; try (rewrite wl_exit_dead in H; discriminate).
    apply POP. eapply Ltrans0; [apply WD; reflexivity|]. apply Lany. apply resolve_D.
  - exfalso. unfold cl_wl_live in H. cbn [wr_post] in WP. rewrite WP, andb_false_r in H. discriminate.
Qed.

(* every step after which the write loop still runs consists of lossless moves *)
Theorem step_DL (c : cconn) e : RNG hstate c -> ES hstate c -> NS hstate c -> cl_wl_live (step c e) = true ->
  DL (ev_ok e) (g_ledger_in hstate c e) (g_rdata_in hstate dec_field c e) c (step c e).
Proof.
  intros R E N LV'.
  assert (GEN : ~ is_wlf e -> DL (ev_ok e) (g_ledger_in hstate c e) (g_rdata_in hstate dec_field c e) c (step c e)).
  { intro NW. apply (DD_DL hstate enc_field enc_set_max); [apply step_D|].
    intros m EV. destruct m; cbn [nolost]; try exact I. destruct wr; [exact I|]. apply NW. exact EV. }
  destruct e; try (apply GEN; intros []; fail); cbn [cl_step g_ledger_in g_rdata_in] in *.
  - destruct (cl_wl_live c) eqn:LV; [apply wl_in_DL; assumption | apply Lrefl].
  - destruct (cl_wl_live c) eqn:LV; [apply wl_win_DL; assumption | apply Lrefl].
Qed.

End DecompL.

Section ExactRun.
Variable hstate : Type.
Variable dec_field : hstate -> N -> bytes -> dec_res hstate.
Variable enc_field : hstate -> bytes -> bytes -> bool -> bytes * hstate.
Variable enc_set_max : hstate -> N -> hstate.
Variable cfg : cl_config.
Variable h0 : hstate.
Variable first : bytes.
Notation cconn := (cconn hstate).
Notation step := (cl_step dec_field enc_field enc_set_max cfg).
Notation run := (cl_run dec_field enc_field enc_set_max cfg h0 first).
Notation g_tl_step := (g_tl_step hstate dec_field enc_field enc_set_max cfg).
Notation g_timeline_from := (g_timeline_from hstate dec_field enc_field enc_set_max cfg).
Notation g_ledger := (g_ledger hstate dec_field enc_field enc_set_max cfg h0).

Lemma timeline_app a : forall (c : cconn) b,
  g_timeline_from c (a ++ b) = g_timeline_from c a ++ g_timeline_from (fold_left step a c) b.
Proof.
  induction a as [|e t IH]; intros c b; cbn [app CliFlowSafe.g_timeline_from fold_left]; [reflexivity|].
  rewrite IH, app_assoc. reflexivity.
Qed.

Lemma ledger_snoc evs e : g_ledger first (evs ++ [e]) = g_ledger first evs ++ g_tl_step (run evs) e.
Proof.
  unfold CliFlowSafe.g_ledger. rewrite timeline_app. cbn [CliFlowSafe.g_timeline_from]. rewrite app_nil_r, app_assoc. reflexivity.
Qed.

(* C07: while the write loop runs, the client's connection send window is exactly the server's ledger window *)
Theorem conn_window_exact evs : cl_settings_deserialize false first <> None -> GOK ledger0 (g_ledger first evs) ->
  cl_wl_live (run evs) = true -> cc_connWindow (run evs) = l_conn (lrun ledger0 (g_ledger first evs)).
Proof.
  intros NN. induction evs as [|e evs IH] using rev_ind; intros G LV.
  - unfold CliFlowSafe.g_ledger. cbn [CliFlowSafe.g_timeline_from]. rewrite app_nil_r.
    destruct (lrun_inits _ (inits_of_linit first) ledger0) as (_ & LC & _). rewrite LC.
    unfold cl_run, cl_init. cbn [fold_left]. destruct (cl_settings_deserialize false first); [reflexivity | congruence].
  - rewrite ledger_snoc in *. unfold cl_run in *. rewrite fold_left_app in *. cbn [fold_left] in *. fold (run evs) in *.
    set (c := run evs) in *. apply GOK_app in G. destruct G as [G1 G2].
    pose proof (ES_run hstate dec_field enc_field enc_set_max cfg h0 first evs) as E. fold c in E.
    destruct (NS_RNG_run hstate dec_field enc_field enc_set_max cfg h0 first evs) as [R NSc]. fold c in R, NSc.
    destruct (step_DL hstate dec_field enc_field enc_set_max cfg c e R E NSc LV) as (ms & ML & F & GR & _).
    pose proof (mvsL_mvs hstate enc_field enc_set_max _ _ _ ML) as M.
    assert (LVc : cl_wl_live c = true) by (apply (mvs_live hstate enc_field enc_set_max _ _ _ M); exact LV).
    assert (EQ : g_tl_step c e = mlof hstate enc_field enc_set_max c ms).
    { unfold CliFlowSafe.g_tl_step. rewrite (mlof_split hstate enc_field enc_set_max e ms F c), GR, (mvs_new _ _ _ _ _ _ M). reflexivity. }
    rewrite EQ in *. rewrite lrun_app.
    (* the deficit was 0 and the moves are lossless *)
    destruct (run_Sim hstate dec_field enc_field enc_set_max cfg h0 first evs NN G1) as [_ [d S]]. fold c in S.
    destruct (mvs_Sim hstate enc_field enc_set_max c ms _ M (Forall_impl _ (ev_ok_pos hstate e) F) d _ S G2) as [_ S1].
    rewrite (mvsL_lost hstate enc_field enc_set_max c ms _ ML) in S1. destruct S as [_ _ (_ & _ & X) _ _ _ _ _]. destruct S1 as [_ _ (_ & _ & X1) _ _ _ _ _].
    rewrite (IH G1 LVc) in X. clear - X X1. lia.
Qed.

(* and so is the window of every pending body *)
Theorem windows_exact evs : cl_settings_deserialize false first <> None -> GOK ledger0 (g_ledger first evs) ->
  cl_wl_live (run evs) = true ->
  cc_connWindow (run evs) = l_conn (lrun ledger0 (g_ledger first evs)) /\
  forall pb, In pb (cc_pending (run evs)) -> l_strm (lrun ledger0 (g_ledger first evs)) (pb_id pb) = Some (pb_window pb).
Proof.
  intros NN G LV. pose proof (conn_window_exact evs NN G LV) as CW. split; [exact CW|]. intros pb HP.
  destruct (windows_vs_ledger hstate dec_field enc_field enc_set_max cfg h0 first evs NN G) as [_ WV].
  destruct (WV pb HP) as (w & W1 & W2 & W3). rewrite W1. f_equal. rewrite CW in W3. clear - W2 W3. lia.
Qed.

End ExactRun.
