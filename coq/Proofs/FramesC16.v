(* C05 (read half) and C16. Results and errors are consequences of read_refines_spec; the allocation,
   the bytes taken and the pool log (read_shape) are read off the model directly. *)
From Coq Require Import List NArith ZArith Bool Lia.
From Coq Require Import ZifyN ZifyNat ZifyBool.
From H2V Require Import Base.Bytes Base.MachineInt Base.Result Gen.GenConsts Spec.Rfc7540Frames
  Impl.Pools Impl.Frames Impl.FrameView Proofs.HpackBytes Proofs.FramesBits Proofs.FramesSpec Proofs.FramesRead.
Import ListNotations.
Local Open Scope N_scope.
Ltac Zify.zify_post_hook ::= Z.div_mod_to_equations.

(* C05, read: every well-formed frame an independent writer can produce *)
Theorem read_written_frame f rest max :
  wf f -> settings_valid (f_body f) = true -> payload_len f <= effective_limit max -> bytes_ok rest = true ->
  let r := read_frame_with_size max (spec_write f ++ rest) in
  ro_res r = Ok (view max f) /\ ro_used r = 9 + payload_len f.
Proof.
  intros W V L B r.
  assert (bytes_ok (spec_write f ++ rest) = true) as Bb by (rewrite bytes_ok_app, (spec_write_bytes_ok f W), B; reflexivity).
  pose proof (read_refines_spec max _ Bb) as R. fold r in R.
  rewrite (spec_read_write _ f rest W L) in R. cbn [read_expect] in R. rewrite V in R. tauto.
Qed.

(* a well-formed SETTINGS frame carrying a value 6.5.2 forbids is refused, whole frame consumed *)
Theorem read_written_bad_settings f rest max :
  wf f -> settings_valid (f_body f) = false -> payload_len f <= effective_limit max -> bytes_ok rest = true ->
  let r := read_frame_with_size max (spec_write f ++ rest) in
  (exists e, ro_res r = Err e /\ (e = E_settings_proto \/ e = E_settings_flow)) /\ ro_used r = 9 + payload_len f.
Proof.
  intros W V L B r.
  assert (bytes_ok (spec_write f ++ rest) = true) as Bb by (rewrite bytes_ok_app, (spec_write_bytes_ok f W), B; reflexivity).
  pose proof (read_refines_spec max _ Bb) as R. fold r in R.
  rewrite (spec_read_write _ f rest W L) in R. cbn [read_expect] in R. rewrite V in R. tauto.
Qed.

(* 1. never panics *)
Theorem read_total max b : bytes_ok b = true -> forall w, ro_res (read_frame_with_size max b) <> Panic w.
Proof.
  intros B w. pose proof (read_refines_spec max b B) as R.
  destruct (spec_read (effective_limit max) b) as [| |k|k|f k]; cbn [read_expect] in R.
  - destruct R as [e ->]. discriminate.
  - destruct R as [-> _]. discriminate.
  - destruct R as [-> _]. discriminate.
  - destruct R as [[e ->] _]. discriminate.
  - destruct R as [_ R]. destruct (settings_valid (f_body f)); [rewrite R|destruct R as (e & -> & _)]; discriminate.
Qed.

(* the RFC reader's Frame outcome is spec_parse of exactly the consumed bytes *)
Lemma spec_read_frame limit b f k : bytes_ok b = true ->
  spec_read limit b = Frame f k ->
  k = 9 + payload_len f /\ k <= len b /\ payload_len f <= limit /\ wf f /\
  takeN k b = spec_write f /\ spec_parse (takeN k b) = Some (f, []).
Proof.
  intros B S.
  assert (exists rest, spec_parse b = Some (f, rest) /\ payload_len f <= limit /\ k = 9 + payload_len f) as (rest & P & L & K).
  { unfold spec_read in S. unfold spec_parse.
    destruct (parse_header b) as [[[[[[n ty] fl] r] sid] rest0]|] eqn:H; [|discriminate].
    destruct (limit <? n) eqn:TL; [discriminate|]. apply N.ltb_ge in TL.
    destruct (len rest0 <? n) eqn:SH; [discriminate|]. apply N.ltb_ge in SH.
    destruct (9 <? ty); [discriminate|].
    assert (n <=? len rest0 = true) as -> by (apply N.leb_le; assumption).
    destruct (parse_payload ty fl (takeN n rest0)) as [body|] eqn:PP; [|discriminate].
    injection S as <- <-. eexists. split; [reflexivity|].
    assert (bytes_ok rest0 = true) as B0.
    { unfold parse_header in H.
      destruct b as [|l2 [|l1 [|l0 [|ty' [|fl' [|s3 [|s2 [|s1 [|s0 rest']]]]]]]]]; try discriminate.
      injection H as _ _ _ _ _ <-. rewrite !bytes_ok_cons in B.
      repeat (apply andb_prop in B; destruct B as [_ B]). exact B. }
    destruct (payload_bytes_parse ty fl _ body (bytes_ok_takeN n rest0 B0) PP) as (E & _ & _).
    unfold payload_len. cbn [f_body]. rewrite E, len_takeN by assumption. auto. }
  destruct (spec_write_parse b f rest B P) as [E W].
  assert (takeN k b = spec_write f) as T.
  { rewrite E, K, <- spec_write_len. apply takeN_len_app. }
  split; [exact K|]. split.
  { rewrite E, len_app, spec_write_len. lia. }
  split; [exact L|]. split; [exact W|]. split; [exact T|].
  rewrite T, <- (app_nil_r (spec_write f)). apply spec_parse_write. exact W.
Qed.

(* 2. whatever is returned is a correct reading of exactly the consumed bytes *)
Theorem read_sound max b fr :
  bytes_ok b = true -> ro_res (read_frame_with_size max b) = Ok fr ->
  exists f, let k := ro_used (read_frame_with_size max b) in
    spec_parse (takeN k b) = Some (f, []) /\ takeN k b = spec_write f /\ wf f /\
    fr = view max f /\ k = 9 + payload_len f /\ k <= len b /\ payload_len f <= effective_limit max.
Proof.
  intros B O. pose proof (read_refines_spec max b B) as R.
  destruct (spec_read (effective_limit max) b) as [| |k|k|f k] eqn:S; cbn [read_expect] in R.
  - destruct R as [e R]. congruence.
  - destruct R as [R _]. congruence.
  - destruct R as [R _]. congruence.
  - destruct R as [[e R] _]. congruence.
  - destruct R as [U R]. destruct (spec_read_frame _ b f k B S) as (K & Lb & Ll & W & T & P).
    destruct (settings_valid (f_body f)).
    + exists f. cbv zeta. rewrite U. rewrite R in O. injection O as <-. auto 10.
    + destruct R as (e & R & _). congruence.
Qed.

(* unknown frame types: the unknown-type error, after discarding exactly the frame *)
Theorem read_unknown_type max b n ty fl r sid rest :
  bytes_ok b = true -> parse_header b = Some (n, ty, fl, r, sid, rest) ->
  9 < ty -> n <= effective_limit max -> n <= len rest ->
  let o := read_frame_with_size max b in
  ro_res o = Err E_unknown_type /\ ro_used o = 9 + n /\ ro_alloc o = 0.
Proof.
  intros B H T L S o. pose proof (read_refines_spec max b B) as R. fold o in R.
  unfold spec_read in R. rewrite H in R.
  assert (effective_limit max <? n = false) as E1 by (apply N.ltb_ge; assumption).
  assert (len rest <? n = false) as E2 by (apply N.ltb_ge; assumption).
  assert (9 <? ty = true) as E3 by (apply N.ltb_lt; assumption).
  rewrite E1, E2, E3 in R. exact R.
Qed.

(* a frame above the limit is refused before anything is allocated, whatever its type *)
Theorem read_too_large max b n ty fl r sid rest :
  bytes_ok b = true -> parse_header b = Some (n, ty, fl, r, sid, rest) ->
  effective_limit max < n ->
  let o := read_frame_with_size max b in
  ro_res o = Err E_too_large /\ ro_used o = 9 /\ ro_alloc o = 0.
Proof.
  intros B H L o. pose proof (read_refines_spec max b B) as R. fold o in R.
  unfold spec_read in R. rewrite H in R.
  assert (effective_limit max <? n = true) as E1 by (apply N.ltb_lt; assumption).
  rewrite E1 in R. exact R.
Qed.

(* readFrom, for any hand-off of frame bodies: the bytes taken are there, a buffer is asked for only of a length
   that passed checkLen, and the one frame body acquired is the one the header ends up holding *)
Lemma read_from_gen_shape acq f input : fh_body f = None ->
  let r := read_from_gen acq f input in
  rf_used r <= len input /\
  (rf_alloc r = 0 \/
   c_DefaultFrameSize <= len input /\ check_len (rf_alloc r) (fh_maxLen f) = false /\
   exists k fl sid, parse_values (takeN c_DefaultFrameSize input) = Ok (rf_alloc r, k, fl, sid)) /\
  rf_events r = match fh_body (rf_f r) with Some _ => [Acq PFrame oid_frame] | None => [] end.
Proof.
  intros Hb. unfold read_from_gen.
  destruct (len input <? c_DefaultFrameSize) eqn:S9; [cbn [rf_used rf_alloc rf_events rf_f]; rewrite Hb; auto using N.le_0_l|].
  pose proof S9 as H9. apply N.ltb_ge in H9. pose proof (len_dropN c_DefaultFrameSize input) as LR.
  change c_DefaultFrameSize with 9 in *.
  destruct (parse_values (takeN 9 input)) as [[[[n kind] fl] sid]|e|w] eqn:P;
    [|cbn [rf_used rf_alloc rf_events rf_f]; rewrite Hb; auto..].
  cbv zeta. destruct (check_len n (fh_maxLen f)) eqn:CL; [cbn [rf_used rf_alloc rf_events rf_f fh_body]; rewrite Hb; auto|].
  destruct (_ || _)%bool; [cbn [rf_used rf_alloc rf_events rf_f fh_body]; rewrite Hb; repeat split; auto; lia|].
  destruct (acq kind) as [bd|e|w]; [|cbn [rf_used rf_alloc rf_events rf_f fh_body]; rewrite Hb; auto..].
  assert (A : n = 0 \/ 9 <= len input /\ check_len n (fh_maxLen f) = false /\
              exists k fl0 sid0, Ok (n, kind, fl, sid) = Ok (n, k, fl0, sid0)) by (right; eauto 10).
  destruct (0 <? n).
  - destruct (len (dropN 9 input) <? n) eqn:SH; [cbn [rf_used rf_alloc rf_events rf_f fh_body put_body set_payload]; repeat split; auto; lia|].
    apply N.ltb_ge in SH.
    destruct (deserialize bd fl _ n); cbn [rf_used rf_alloc rf_events rf_f fh_body put_body set_payload]; repeat split; auto; lia.
  - destruct (deserialize bd fl _ n); cbn [rf_used rf_alloc rf_events rf_f fh_body put_body]; repeat split; auto.
Qed.

(* the caller's part: the header is released on every error, with its body if it holds one *)
Lemma finish_read_linear r :
  rf_events r = match fh_body (rf_f r) with Some _ => [Acq PFrame oid_frame] | None => [] end ->
  (forall w, rf_err r <> Panic w) -> linear (ro_events (finish_read r)) (handed (finish_read r)) = true.
Proof.
  intros E NP. unfold finish_read, handed. rewrite E.
  destruct (rf_err r) as [u|e|w]; [| |destruct (NP w eq_refl)];
    cbn [ro_res ro_events]; destruct (fh_body (rf_f r)); reflexivity.
Qed.

(* the allocation asked for, the bytes taken and the pool log of every call *)
Lemma read_shape max b : bytes_ok b = true ->
  let r := read_frame_with_size max b in
  ro_alloc r <= effective_limit max /\ ro_used r <= len b /\ linear (ro_events r) (handed r) = true.
Proof.
  intros B. pose proof (read_total max b B) as NP. cbv zeta. unfold read_frame_with_size, read_from in *.
  destruct (read_from_gen_shape acquire_frame (set_maxlen acquire_header max) b eq_refl) as (U & A & E).
  set (r := read_from_gen acquire_frame (set_maxlen acquire_header max) b) in *.
  assert (FR : ro_alloc (finish_read r) = rf_alloc r /\ ro_used (finish_read r) = rf_used r)
    by (unfold finish_read; destruct (rf_err r); auto).
  destruct FR as [-> ->]. split; [|split; [exact U|]].
  - destruct A as [-> | (H9 & CL & k & fl & sid & P)]; [apply N.le_0_l|]. change (fh_maxLen (set_maxlen acquire_header max)) with max in CL.
    destruct b as [|l2 [|l1 [|l0 [|ty [|fl' [|s3 [|s2 [|s1 [|s0 rest]]]]]]]]]; try (unfold len in H9; cbn [length] in H9; change c_DefaultFrameSize with 9 in H9; lia).
    apply bytes_ok_4 in B. destruct B as (Hl2 & Hl1 & Hl0 & Hty & B).
    apply bytes_ok_1 in B. destruct B as (Hfl & B).
    apply bytes_ok_4 in B. destruct B as (Hs3 & Hs2 & Hs1 & Hs0 & B).
    change (takeN c_DefaultFrameSize (l2 :: l1 :: l0 :: ty :: fl' :: s3 :: s2 :: s1 :: s0 :: rest)) with [l2; l1; l0; ty; fl'; s3; s2; s1; s0] in P.
    rewrite parse_values_spec in P by assumption. injection P as EA _ _ _. rewrite <- EA in CL |- *.
    rewrite check_len_eff in CL by (apply unbe3_lt; assumption). apply N.ltb_ge. exact CL.
  - apply finish_read_linear; [exact E|]. intros w Hw. apply (NP w). unfold finish_read. fold r. rewrite Hw. reflexivity.
Qed.

(* 2b. the payload buffer asked for never exceeds the limit *)
Theorem read_alloc_bounded max b : bytes_ok b = true ->
  ro_alloc (read_frame_with_size max b) <= effective_limit max.
Proof. intros B. apply (read_shape max b B). Qed.

Theorem read_used_bounded max b : bytes_ok b = true ->
  ro_used (read_frame_with_size max b) <= len b.
Proof. intros B. apply (read_shape max b B). Qed.

(* 5. pool safety: on success and on every error path the log is linear, and exactly the
   returned *FrameHeader and its body are left with the caller *)
Theorem read_pool_safe max b : bytes_ok b = true ->
  let r := read_frame_with_size max b in linear (ro_events r) (handed r) = true.
Proof. intros B. apply (read_shape max b B). Qed.

(* 3. impossible structure is never returned as a frame *)
Lemma unpad_impossible fl p : flag fl PADDED = true -> pad_impossible p -> unpad fl p = None.
Proof.
  unfold unpad, pad_impossible. intros -> H. destruct p as [|pl q]; [reflexivity|].
  assert (pl <=? len q = false) as -> by (apply N.leb_gt; assumption). reflexivity.
Qed.

Lemma impossible_none ty fl p : impossible ty fl p -> parse_payload ty fl p = None.
Proof.
  unfold impossible.
  intros [[-> H]|[[-> H]|[[-> H]|[[-> H]|[[-> H]|[[-> H]|[[T [F H]]|[[-> H]|[-> [F H]]]]]]]]]]; unfold parse_payload.
  - destruct p as [|a [|b [|c [|d [|w [|x r]]]]]]; try reflexivity. exfalso. apply H. reflexivity.
  - destruct p as [|a [|b [|c [|d [|x r]]]]]; try reflexivity. exfalso. apply H. reflexivity.
  - destruct H as [H|[F H]].
    + destruct (parse_settings p) as [items|] eqn:S; [|destruct (flag fl ACK && negb (len p =? 0)); reflexivity].
      exfalso. apply H. eapply parse_settings_len. eassumption.
    + rewrite F. assert (len p =? 0 = false) as -> by (apply N.eqb_neq; assumption). reflexivity.
  - assert (len p =? 8 = false) as -> by (apply N.eqb_neq; assumption). reflexivity.
  - destruct p as [|a [|b [|c [|d [|e [|f [|g [|h debug]]]]]]]]; try reflexivity.
    exfalso. unfold len in H. cbn [length] in H. lia.
  - destruct p as [|a [|b [|c [|d [|x r]]]]]; try reflexivity. exfalso. apply H. reflexivity.
  - rewrite (unpad_impossible fl p F H). destruct T as [->|[->| ->]]; reflexivity.
  - destruct H as (pad & c & -> & L).
    destruct c as [|a [|b [|c' [|d frag]]]]; try reflexivity. exfalso. unfold len in L. cbn [length] in L. lia.
  - destruct H as (pad & c & -> & L). rewrite F.
    destruct c as [|a [|b [|c' [|d [|w frag]]]]]; try reflexivity. exfalso. unfold len in L. cbn [length] in L. lia.
Qed.

Lemma impossible_known ty fl p : impossible ty fl p -> ty <= 9.
Proof.
  unfold impossible.
  intros [[-> _]|[[-> _]|[[-> _]|[[-> _]|[[-> _]|[[-> _]|[[[->|[->| ->]] _]|[[-> _]|[-> _]]]]]]]]]; lia.
Qed.

Theorem structure_rejected max b n ty fl r sid rest :
  bytes_ok b = true -> parse_header b = Some (n, ty, fl, r, sid, rest) -> n <= len rest ->
  impossible ty fl (takeN n rest) ->
  exists e, ro_res (read_frame_with_size max b) = Err e.
Proof.
  intros B H L I. pose proof (read_refines_spec max b B) as R.
  unfold spec_read in R. rewrite H in R.
  destruct (effective_limit max <? n); [destruct R as [-> _]; eauto|].
  assert (len rest <? n = false) as E2 by (apply N.ltb_ge; assumption).
  assert (9 <? ty = false) as E3 by (apply N.ltb_ge; eapply impossible_known; eassumption).
  rewrite E2, E3, (impossible_none _ _ _ I) in R. destruct R as [R _]. exact R.
Qed.

(* 4. a frame cut short anywhere is an error *)
Lemma parse_header_short l : len l < 9 -> parse_header l = None.
Proof.
  intros H. destruct l as [|l2 [|l1 [|l0 [|ty [|fl [|s3 [|s2 [|s1 [|s0 rest]]]]]]]]]; try reflexivity.
  exfalso. unfold len in H. cbn [length] in H. lia.
Qed.

Lemma len_takeN_le n (l : bytes) : len (takeN n l) <= n.
Proof. unfold len, takeN. pose proof (firstn_le_length (N.to_nat n) l). lia. Qed.

Theorem truncation max b n ty fl r sid rest k :
  bytes_ok b = true -> parse_header b = Some (n, ty, fl, r, sid, rest) -> k < 9 + n ->
  exists e, ro_res (read_frame_with_size max (takeN k b)) = Err e.
Proof.
  intros B H K. pose proof (read_refines_spec max _ (bytes_ok_takeN k b B)) as R.
  assert (spec_read (effective_limit max) (takeN k b) = Short \/ spec_read (effective_limit max) (takeN k b) = TooLarge) as S.
  { destruct (N.lt_ge_cases k 9) as [K9|K9].
    - left. unfold spec_read. rewrite parse_header_short; [reflexivity|].
      pose proof (len_takeN_le k b). lia.
    - unfold parse_header in H.
      destruct b as [|l2 [|l1 [|l0 [|ty' [|fl' [|s3 [|s2 [|s1 [|s0 rest']]]]]]]]]; try discriminate.
      injection H as <- <- <- <- <- <-.
      assert (takeN k (l2 :: l1 :: l0 :: ty' :: fl' :: s3 :: s2 :: s1 :: s0 :: rest') =
              l2 :: l1 :: l0 :: ty' :: fl' :: s3 :: s2 :: s1 :: s0 :: takeN (k - 9) rest') as ->.
      { unfold takeN. replace (N.to_nat k) with (9 + N.to_nat (k - 9))%nat by lia. reflexivity. }
      unfold spec_read, parse_header.
      destruct (effective_limit max <? unbe [l2; l1; l0]); [right; reflexivity|].
      assert (len (takeN (k - 9) rest') <? unbe [l2; l1; l0] = true) as ->.
      { apply N.ltb_lt. pose proof (len_takeN_le (k - 9) rest'). lia. }
      left. reflexivity. }
  destruct S as [S|S]; rewrite S in R; cbn [read_expect] in R.
  - exact R.
  - destruct R as [-> _]. eauto.
Qed.

(* position: after a frame the reader stands at the next one - a stream of frames read one
   call after the other on the same reader gives each frame in turn *)
Fixpoint read_many (max : N) (n : nat) (b : bytes) : list (result fhdr) :=
  match n with
  | O => []
  | S n' =>
      let r := read_frame_with_size max b in
      ro_res r :: read_many max n' (dropN (ro_used r) b)
  end.

Definition readable (max : N) (f : frame) : Prop :=
  wf f /\ settings_valid (f_body f) = true /\ payload_len f <= effective_limit max.

Lemma stream_bytes_ok fs : Forall wf fs -> bytes_ok (flat_map spec_write fs) = true.
Proof.
  induction 1 as [|f fs W _ IH]; [reflexivity|].
  cbn [flat_map]. rewrite bytes_ok_app, (spec_write_bytes_ok f W), IH. reflexivity.
Qed.

Theorem read_stream max fs rest :
  Forall (readable max) fs -> bytes_ok rest = true ->
  read_many max (length fs) (flat_map spec_write fs ++ rest) = map (fun f => Ok (view max f)) fs.
Proof.
  intros F B. induction F as [|f fs (W & V & L) F IH]; [reflexivity|].
  cbn [length read_many flat_map map]. rewrite <- app_assoc.
  assert (bytes_ok (flat_map spec_write fs ++ rest) = true) as Bt.
  { rewrite bytes_ok_app, B, stream_bytes_ok; [reflexivity|].
    eapply Forall_impl; [|exact F]. intros a (Wa & _). exact Wa. }
  destruct (read_written_frame f _ max W V L Bt) as [R U]. rewrite R, U. f_equal.
  rewrite <- spec_write_len, dropN_len_app. exact IH.
Qed.
