(* Proofs/SrvMsgSettings.v - C18 (server): every SETTINGS frame the read loop hands over is applied and acknowledged
   exactly once, in order, by the stream loop, for every schedule (event list); what the acknowledging step does. *)
From H2V Require Import Base.Bytes Base.MachineInt Base.Result Gen.GenConsts Impl.ServerConn
     Proofs.SrvBase Proofs.SrvFlowEff Proofs.SrvInvFrame Proofs.SrvMsgAck.
From Coq Require Import ZArith Lia ZifyN ZifyNat ZifyBool.
Local Open Scope N_scope.

Section Settings.
Variable hstate : Type.
Variable dec_field : hstate -> N -> bytes -> dec_res hstate.
Variable enc_field : hstate -> bytes -> bytes -> bool -> bytes * hstate.
Variable enc_set_max : hstate -> N -> hstate.
Variable cfg : config.
Notation sconn := (sconn hstate).
Notation step := (step dec_field enc_field enc_set_max cfg).
Notation run_from := (run_from dec_field enc_field enc_set_max cfg).
Implicit Types c : sconn.

(* the read loop never acknowledges *)
Lemma NX_rl_exit c0 c why : NX c0 c -> NX c0 (rl_exit c why).
Proof. intro H. unfold rl_exit. apply NX_note; [reflexivity|]. eapply NX_same; [|exact H]. reflexivity. Qed.

Lemma NX_rl_step c i : NX c (rl_step cfg c i).
Proof.
  apply (rl_step_rel _ cfg (NX (hstate:=hstate))).
  - apply NX_refl.
  - apply NX_trans.
  - intros a b _ E. eapply NX_same; [exact E | apply NX_refl].
  - intros a x code. apply NX_write_goaway, NX_refl.
  - intros a why. apply NX_rl_exit, NX_refl.
  - intros a d. apply NX_emit; [reflexivity | apply NX_refl].
Qed.

(* the stream loop is about to take a SETTINGS frame off the queue *)
Definition sl_takes c (e : event) : list sframe :=
  match e with
  | EvSL => if sc_sl_done c then [] else match sc_readerQ c with fr :: _ => if is_set fr then [fr] else [] | [] => [] end
  | _ => []
  end.

(* ... and will apply it (no window overflow) *)
Definition applies c (e : event) : bool :=
  match sl_takes c e with fr :: _ => negb (overflows c fr) | [] => false end.

(* the read loop is about to hand a SETTINGS frame (stream 0, not an ACK) to the stream loop *)
Definition rl_gives c (e : event) : list sframe :=
  match e with
  | EvRL (RFrame fr) =>
    if negb (sc_rl_done c) && is_set fr && negb (flag_has (sf_flags fr) FL_ES) && (sc_expectCont c =? 0) && negb (sc_sl_done c)
    then [fr] else []
  | _ => []
  end.

Lemma overflows_readerQ c q fr : overflows (upd_readerQ c q) fr = overflows c fr.
Proof. reflexivity. Qed.

Lemma sc_out_emit_ack c : sc_sl_done c = false ->
  acks (sc_out (emit c OSettingsAck)) = (acks (sc_out c) + (if sc_wl_dead c then 0 else 1))%nat.
Proof.
  intro S. rewrite sc_out_emit, S. destruct (sc_wl_dead c); [lia|]. unfold acks. cbn [filter is_ack unlate length]. lia.
Qed.

Theorem step_acks c e :
  acks (sc_out (step c e)) = (acks (sc_out c) + (if applies c e && negb (sc_wl_dead c) then 1 else 0))%nat.
Proof.
  assert (Z : forall c', NX c c' -> acks (sc_out c') = (acks (sc_out c) + 0)%nat) by (intros c' H; rewrite (NX_acks _ _ _ H); lia).
  assert (RFL := NX_refl hstate c).
  destruct e; unfold applies, sl_takes.
  - cbn [andb]. rewrite step_EvRL. destruct (sc_rl_done c); apply Z; [exact RFL | apply NX_rl_step].
  - rewrite step_EvSL. destruct (sc_sl_done c) eqn:SD; [cbn [andb]; apply Z; exact RFL|].
    destruct (sc_readerQ c) as [|fr q] eqn:Q.
    + cbn [andb]. apply Z. destruct (sc_rl_done c); [apply NX_note; [reflexivity|]; eapply NX_same; [|exact RFL]; reflexivity | exact RFL].
    + destruct (is_set fr) eqn:IS.
      * pose proof (settings_step _ dec_field enc_set_max cfg (upd_readerQ c q) fr IS) as ST. cbv zeta in ST.
        rewrite overflows_readerQ in ST. destruct (overflows c fr).
        -- cbn [negb andb]. destruct ST as [NXs _]. rewrite (NX_acks _ _ _ NXs). sc_cbn. lia.
        -- cbn [negb andb]. destruct ST as (_ & _ & _ & _ & l & El & Fl).
           rewrite El, acks_app, (acks_nack _ Fl), sc_out_emit_ack by (sc_cbn; exact SD). sc_cbn.
           destruct (sc_wl_dead c); cbn [negb]; lia.
      * cbn [andb]. apply Z. apply NX_sl_frame; [exact IS|]. eapply NX_same; [|exact RFL]. reflexivity.
  - cbn [andb]. rewrite step_EvDone. destruct (sc_sl_done c); apply Z; [exact RFL | apply NX_sl_done; exact RFL].
  - cbn [andb]. rewrite step_EvClock. destruct (_ <? _)%Z; apply Z; [eapply NX_same; [|exact RFL]; reflexivity | exact RFL].
  - cbn [andb]. rewrite step_EvTimer. destruct (sc_sl_done c); apply Z; [exact RFL | apply NX_sl_timer; exact RFL].
  - cbn [andb]. rewrite step_EvIdle. apply Z. eapply NX_same; [reflexivity|]. apply NX_write_goaway. exact RFL.
  - cbn [andb]. rewrite step_EvCloser. destruct (_ && _)%bool; apply Z; [apply NX_brk|]; exact RFL.
  - cbn [andb]. rewrite step_EvWriteFail. apply Z. eapply NX_same; [|exact RFL]. reflexivity.
Qed.

(* the queue between the loops is first in, first out *)
Lemma rlview_readerQ (a b : sconn) : rlview hstate a = rlview hstate b -> sc_readerQ a = sc_readerQ b.
Proof. unfold rlview. intro H. inversion H. reflexivity. Qed.

Lemma rlview_wl (a b : sconn) : rlview hstate a = rlview hstate b -> sc_wl_dead a = sc_wl_dead b.
Proof. unfold rlview. intro H. inversion H. reflexivity. Qed.

Lemma filter_snoc_not (f : sframe -> bool) l x : f x = false -> filter f (l ++ [x]) = filter f l.
Proof. intro H. rewrite filter_app. cbn [filter]. rewrite H. apply app_nil_r. Qed.

Lemma rl_step_settings c fr : is_set fr = true ->
  rl_step cfg c (RFrame fr) =
  if negb (sc_expectCont c =? 0) then rl_exit (write_goaway c 0 c_ProtocolError) 1
  else if negb (flag_has (sf_flags fr) FL_ES) then forward c fr else c.
Proof.
  unfold is_set. intro IS. apply andb_true_iff in IS. destruct IS as [Z0 K]. apply fkind_eqb_eq in K.
  unfold rl_step. rewrite K, Z0. cbn [fkind_eqb negb orb andb].
  destruct (negb (sc_expectCont c =? 0)); reflexivity.
Qed.

Theorem step_queue c e :
  filter is_set (sc_readerQ c) ++ rl_gives c e = sl_takes c e ++ filter is_set (sc_readerQ (step c e)).
Proof.
  destruct e; unfold rl_gives, sl_takes; try rewrite app_nil_r; cbn [app].
  - (* the read loop *)
    rewrite step_EvRL. destruct (sc_rl_done c) eqn:RD.
    { destruct i; cbn [negb andb]; rewrite ?app_nil_r; reflexivity. }
    cbn [negb andb].
    destruct i as [fr| |code|];
      try (rewrite app_nil_r;
           match goal with |- _ = filter _ (sc_readerQ (rl_step cfg c ?i)) =>
             destruct (rl_step_eff hstate cfg c i) as [_ [[Q _] | (fr' & E & _)]]; [rewrite Q; reflexivity | discriminate] end).
    destruct (is_set fr) eqn:IS; cbn [andb].
    + rewrite (rl_step_settings c fr IS).
      destruct (flag_has (sf_flags fr) FL_ES); cbn [negb andb].
      { rewrite app_nil_r. destruct (sc_expectCont c =? 0); cbn [negb]; [reflexivity | rewrite sc_readerQ_rl_exit, sc_readerQ_write_goaway; reflexivity]. }
      destruct (sc_expectCont c =? 0); cbn [negb andb]; [|rewrite app_nil_r, sc_readerQ_rl_exit, sc_readerQ_write_goaway; reflexivity].
      unfold forward. destruct (sc_sl_done c); cbn [negb].
      * rewrite app_nil_r, sc_readerQ_rl_exit. reflexivity.
      * sc_cbn. rewrite filter_app. cbn [filter]. rewrite IS. reflexivity.
    + rewrite app_nil_r.
      destruct (rl_step_eff hstate cfg c (RFrame fr)) as [_ [[Q _] | (fr' & E & Q & _)]]; [rewrite Q; reflexivity|].
      inversion E; subst fr'. rewrite Q, filter_snoc_not by exact IS. reflexivity.
  - (* the stream loop takes the head of the queue *)
    rewrite step_EvSL. destruct (sc_sl_done c); [reflexivity|].
    destruct (sc_readerQ c) as [|fr q] eqn:Q.
    + destruct (sc_rl_done c); [cbn; rewrite Q; reflexivity | rewrite Q; reflexivity].
    + rewrite (rlview_readerQ _ _ (sl_frame_frame hstate dec_field enc_set_max cfg (upd_readerQ c q) fr)). sc_cbn.
      cbn [filter]. destruct (is_set fr); reflexivity.
  - rewrite step_EvDone. destruct (sc_sl_done c); [reflexivity|].
    rewrite (rlview_readerQ _ _ (sl_done_frame hstate enc_field cfg c sid r)). reflexivity.
  - rewrite step_EvClock. destruct (_ <? _)%Z; reflexivity.
  - rewrite step_EvTimer. destruct (sc_sl_done c); [reflexivity|].
    rewrite (rlview_readerQ _ _ (sl_timer_frame hstate cfg c)). reflexivity.
  - rewrite step_EvIdle. sc_cbn. rewrite sc_readerQ_write_goaway. reflexivity.
  - rewrite step_EvCloser. destruct (_ && _)%bool; reflexivity.
  - rewrite step_EvWriteFail. reflexivity.
Qed.

Fixpoint forwarded c (evs : list event) : list sframe :=
  match evs with [] => [] | e :: t => rl_gives c e ++ forwarded (step c e) t end.
Fixpoint taken c (evs : list event) : list sframe :=
  match evs with [] => [] | e :: t => sl_takes c e ++ taken (step c e) t end.
Fixpoint applied c (evs : list event) : nat :=
  match evs with [] => 0 | e :: t => ((if applies c e && negb (sc_wl_dead c) then 1 else 0) + applied (step c e) t)%nat end.

(* in order: the frames the stream loop has taken are a prefix of the frames the read loop has forwarded, and the
   rest is waiting in the queue, in order *)
Theorem settings_fifo evs : forall c,
  filter is_set (sc_readerQ c) ++ forwarded c evs = taken c evs ++ filter is_set (sc_readerQ (run_from c evs)).
Proof.
  induction evs as [|e t IH]; intro c; [cbn; rewrite app_nil_r; reflexivity|].
  cbn [forwarded taken]. rewrite run_from_cons, app_assoc, step_queue, <- app_assoc, IH, app_assoc. reflexivity.
Qed.

(* exactly once: one acknowledgement per frame applied, nothing else acknowledges *)
Theorem settings_acks evs : forall c, acks (sc_out (run_from c evs)) = (acks (sc_out c) + applied c evs)%nat.
Proof.
  induction evs as [|e t IH]; intro c; [cbn; lia|].
  rewrite run_from_cons, IH, step_acks. cbn [applied]. lia.
Qed.

(* while the loops live, every frame taken is applied and acknowledged *)
Lemma sl_done_mono c e : sc_sl_done c = true -> sc_sl_done (step c e) = true.
Proof.
  intro H. destruct e.
  - rewrite step_EvRL. destruct (sc_rl_done c); [exact H|].
    destruct (rl_step_eff hstate cfg c i) as [[] _]. congruence.
  - rewrite step_EvSL, H. exact H.
  - rewrite step_EvDone, H. exact H.
  - rewrite step_EvClock. destruct (_ <? _)%Z; exact H.
  - rewrite step_EvTimer, H. exact H.
  - rewrite step_EvIdle. sc_cbn. rewrite sc_sl_done_write_goaway. exact H.
  - rewrite step_EvCloser, H. rewrite andb_false_r. exact H.
  - rewrite step_EvWriteFail. exact H.
Qed.

Lemma wl_dead_mono c e : sc_wl_dead c = true -> sc_wl_dead (step c e) = true.
Proof.
  intro H. destruct e.
  - rewrite step_EvRL. destruct (sc_rl_done c); [exact H|].
    destruct (rl_step_eff hstate cfg c i) as [[] _]. congruence.
  - rewrite step_EvSL. destruct (sc_sl_done c); [exact H|]. destruct (sc_readerQ c) as [|fr q] eqn:Q.
    + destruct (sc_rl_done c); exact H.
    + rewrite (rlview_wl _ _ (sl_frame_frame hstate dec_field enc_set_max cfg (upd_readerQ c q) fr)). exact H.
  - rewrite step_EvDone. destruct (sc_sl_done c); [exact H|].
    rewrite (rlview_wl _ _ (sl_done_frame hstate enc_field cfg c sid r)). exact H.
  - rewrite step_EvClock. destruct (_ <? _)%Z; exact H.
  - rewrite step_EvTimer. destruct (sc_sl_done c); [exact H|].
    rewrite (rlview_wl _ _ (sl_timer_frame hstate cfg c)). exact H.
  - rewrite step_EvIdle. sc_cbn. rewrite sc_wl_dead_write_goaway. exact H.
  - rewrite step_EvCloser. destruct (_ && _)%bool; exact H.
  - rewrite step_EvWriteFail. reflexivity.
Qed.

Lemma sl_alive_back evs : forall c, sc_sl_done (run_from c evs) = false -> sc_sl_done c = false.
Proof.
  induction evs as [|e t IH]; intros c H; [exact H|]. rewrite run_from_cons in H. specialize (IH _ H).
  destruct (sc_sl_done c) eqn:S; [|reflexivity]. rewrite (sl_done_mono c e S) in IH. discriminate.
Qed.
Lemma wl_alive_back evs : forall c, sc_wl_dead (run_from c evs) = false -> sc_wl_dead c = false.
Proof.
  induction evs as [|e t IH]; intros c H; [exact H|]. rewrite run_from_cons in H. specialize (IH _ H).
  destruct (sc_wl_dead c) eqn:S; [|reflexivity]. rewrite (wl_dead_mono c e S) in IH. discriminate.
Qed.

Theorem applied_all evs : forall c,
  sc_sl_done (run_from c evs) = false -> sc_wl_dead (run_from c evs) = false -> applied c evs = length (taken c evs).
Proof.
  induction evs as [|e t IH]; intros c S W; [reflexivity|].
  cbn [applied taken]. rewrite run_from_cons in S, W. rewrite app_length, (IH _ S W).
  pose proof (sl_alive_back t _ S) as S1. rewrite (wl_alive_back (e :: t) c W). cbn [negb]. rewrite andb_true_r.
  unfold applies. destruct (sl_takes c e) as [|fr l] eqn:T; [reflexivity|].
  assert (L : l = [] /\ e = EvSL /\ sc_sl_done c = false /\ exists q, sc_readerQ c = fr :: q /\ is_set fr = true).
  { unfold sl_takes in T. destruct e; try discriminate. destruct (sc_sl_done c); [discriminate|].
    destruct (sc_readerQ c) as [|f q]; [discriminate|]. destruct (is_set f) eqn:IS; [|discriminate].
    inversion T; subst. eauto 10. }
  destruct L as (-> & -> & SD & q & Q & IS). cbn [length].
  destruct (overflows c fr) eqn:OV; [|reflexivity]. exfalso.
  rewrite step_EvSL, SD, Q in S1.
  pose proof (settings_step _ dec_field enc_set_max cfg (upd_readerQ c q) fr IS) as ST. cbv zeta in ST.
  rewrite overflows_readerQ, OV in ST. destruct ST as [_ ST]. congruence.
Qed.

(* the acknowledgements of a live connection: one per SETTINGS frame taken off the queue; with none waiting, one per
   frame the read loop has accepted *)
Theorem settings_acked_once evs c :
  sc_sl_done (run_from c evs) = false -> sc_wl_dead (run_from c evs) = false ->
  acks (sc_out (run_from c evs)) = (acks (sc_out c) + length (taken c evs))%nat /\
  (length (filter is_set (sc_readerQ c)) + length (forwarded c evs) =
   length (taken c evs) + length (filter is_set (sc_readerQ (run_from c evs))))%nat.
Proof.
  intros S W. split.
  - rewrite settings_acks, (applied_all evs c S W). reflexivity.
  - rewrite <- !app_length, settings_fifo. reflexivity.
Qed.

(* the acknowledging step (a, d): the values are in force when the ACK is queued *)
Theorem settings_applied_step c fr q :
  sc_sl_done c = false -> sc_readerQ c = fr :: q -> is_set fr = true -> overflows c fr = false ->
  let c' := step c EvSL in
  sc_enc c' = enc_after enc_set_max c fr /\ sc_initWin c' = initWin_after c fr /\
  sc_sl_done c' = false /\ sc_readerQ c' = q /\
  exists l, sc_out c' = l ++ (if sc_wl_dead c then [] else [OSettingsAck]) ++ sc_out c /\ Forall nack l.
Proof.
  intros SD Q IS OV. cbv zeta. rewrite step_EvSL, SD, Q.
  pose proof (settings_step _ dec_field enc_set_max cfg (upd_readerQ c q) fr IS) as ST. cbv zeta in ST.
  rewrite overflows_readerQ, OV in ST. destruct ST as (E & I & S & W & l & El & Fl).
  split; [exact E|]. split; [exact I|]. split; [rewrite S; exact SD|].
  split; [rewrite (rlview_readerQ _ _ (sl_frame_frame hstate dec_field enc_set_max cfg (upd_readerQ c q) fr)); reflexivity|].
  exists l. split; [|exact Fl]. rewrite El, sc_out_emit. sc_cbn. rewrite SD. destruct (sc_wl_dead c); reflexivity.
Qed.

(* a SETTINGS frame whose INITIAL_WINDOW_SIZE overflows a stream window: GOAWAY, no acknowledgement, the loop ends *)
Theorem settings_overflow_step c fr q :
  sc_sl_done c = false -> sc_readerQ c = fr :: q -> is_set fr = true -> overflows c fr = true ->
  sc_sl_done (step c EvSL) = true /\ acks (sc_out (step c EvSL)) = acks (sc_out c).
Proof.
  intros SD Q IS OV. rewrite step_EvSL, SD, Q.
  pose proof (settings_step _ dec_field enc_set_max cfg (upd_readerQ c q) fr IS) as ST. cbv zeta in ST.
  rewrite overflows_readerQ, OV in ST. destruct ST as [N S]. split; [exact S|]. rewrite (NX_acks _ _ _ N). reflexivity.
Qed.

(* (b) a frame the parser refuses with an h2 connection error: GOAWAY(code), then the read loop ends *)
Theorem bad_frame_goaway c code :
  sc_rl_done c = false ->
  let c' := step c (EvRL (RBadFrame (Some code))) in
  sc_rl_done c' = true /\ sc_closing c' = true /\ sc_readerQ c' = sc_readerQ c /\
  sc_out c' = OExit 0 1 :: (if sc_wl_dead c then [] else [if sc_sl_done c then OLate (OGoAway (sc_lastID c) code) else OGoAway (sc_lastID c) code])
              ++ sc_out c.
Proof.
  intro RD. cbv zeta. rewrite step_EvRL, RD. cbn [rl_step].
  rewrite sc_rl_done_rl_exit, sc_closing_rl_exit, sc_readerQ_rl_exit, sc_out_rl_exit,
    sc_closing_write_goaway, sc_readerQ_write_goaway, sc_out_write_goaway. repeat split.
  destruct (sc_wl_dead c); [reflexivity|]. destruct (sc_sl_done c); reflexivity.
Qed.

(* a frame refused without an h2 code (larger than the advertised MAX_FRAME_SIZE, truncated, ...): the read loop
   ends; nothing reaches the stream loop *)
Theorem refused_frame_not_forwarded c o :
  sc_readerQ (step c (EvRL (RBadFrame o))) = sc_readerQ c /\ (sc_rl_done c = false -> sc_rl_done (step c (EvRL (RBadFrame o))) = true).
Proof.
  rewrite step_EvRL. destruct (sc_rl_done c); [split; [reflexivity | discriminate]|].
  destruct o; cbn [rl_step]; rewrite sc_readerQ_rl_exit, sc_rl_done_rl_exit, ?sc_readerQ_write_goaway; split; reflexivity.
Qed.

(* (c) the response header block goes out as ONE frame, whatever its size *)
Theorem response_headers_one_frame c sid r s :
  sc_sl_done c = false -> sc_wl_dead c = false ->
  take_stream (sc_gone c) sid = None -> strms_search (sc_strms c) sid = Some s -> st_handlerRunning s = true ->
  In (OHeaders sid (negb match rs_body r with BStream _ _ => true | BBuffered [] => false | BBuffered _ => true end)
               (fst (response_block enc_field (sc_enc c) r)))
     (sc_out (step c (EvDone sid r))).
Proof.
  intros SD WD G T HR. rewrite step_EvDone, SD. unfold sl_done. rewrite G, T, HR. cbn [negb].
  assert (I : st_id s = sid) by (apply strms_search_In in T; apply T).
  set (s1 := set_flags s (st_responded s) false (st_abandoned s)).
  assert (X : forall c1 : sconn, (forall o, In o (sc_out (fst (fst (finish_request enc_field c s1 r)))) -> In o (sc_out c1)) ->
              In (OHeaders sid (negb match rs_body r with BStream _ _ => true | BBuffered [] => false | BBuffered _ => true end)
                           (fst (response_block enc_field (sc_enc c) r))) (sc_out c1)).
  { intros c1 Inc. apply Inc. unfold finish_request. destruct (response_block enc_field (sc_enc c) r) as [blk e'] eqn:RB.
    cbn [fst]. assert (E : In (OHeaders sid (negb match rs_body r with BStream _ _ => true | BBuffered [] => false | BBuffered _ => true end) blk)
                            (sc_out (emit (upd_enc c e') (OHeaders (st_id s1) (negb match rs_body r with BStream _ _ => true | BBuffered [] => false | BBuffered _ => true end) blk)))).
    { rewrite sc_out_emit. sc_cbn. rewrite WD, SD. left. unfold s1. cbn [st_id set_flags]. rewrite I. reflexivity. }
    destruct (negb _); cbn [fst]; [exact E|].
    match goal with |- In _ (sc_out (fst (fst (send_data ?cc ?ss)))) =>
      destruct (NX_send_data hstate cc cc ss (NX_refl hstate cc)) as (l & El & _) end.
    rewrite El. apply in_or_app. right. exact E. }
  destruct (finish_request enc_field c s1 r) as [[c1 s2] fin] eqn:FR. cbn [fst] in X.
  match goal with |- In _ (sc_out (fst (if ?b then brk ?x else cont ?x))) =>
    assert (Y : forall o, In o (sc_out c1) -> In o (sc_out x)) end.
  { intros o Ho. destruct fin.
    - rewrite sc_out_close_stream. destruct (st_handlerRunning (set_state s2 SClosed)); [|apply in_cons]; rewrite sc_out_put; exact Ho.
    - rewrite sc_out_put. exact Ho. }
  destruct (_ && _)%bool; cbn [fst brk cont].
  - unfold note. sc_cbn. apply in_cons. apply X. exact Y.
  - apply X. exact Y.
Qed.

End Settings.

Arguments sl_takes {hstate}. Arguments applies {hstate}. Arguments rl_gives {hstate}.
Arguments forwarded {hstate}. Arguments taken {hstate}. Arguments applied {hstate}.
