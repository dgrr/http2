(* C15: HuffmanEncode computes the RFC 7541 encoding. *)
From Coq Require Import List NArith Bool Lia.
From H2V Require Import Base.Bytes Base.MachineInt Base.Result Gen.GenHuffman
  Spec.XNetTables Spec.Rfc7541Huffman Impl.Huffman Proofs.HpackBytes Proofs.HuffmanBits Proofs.HuffmanTable.
Import ListNotations.
Local Open Scope N_scope.

Lemma bits_of_top8 l code : 8 <= l ->
  bits_of (N.to_nat l) code = bits8 (u8 (N.shiftr code (l - 8))) ++ bits_of (N.to_nat (l - 8)) code.
Proof.
  intros H. replace (N.to_nat l) with (8 + N.to_nat (l - 8))%nat by lia.
  rewrite bits_of_app, bits8_u8, N2Nat.id. reflexivity.
Qed.

(* the drain loop emits whole bytes from the top of the pending bits *)
Lemma enc_drain_spec : forall f code l out l2,
  enc_drain f code l = (out, l2) -> l < 8 * N.of_nat f + 8 ->
  l2 < 8 /\ (exists q, l = 8 * q + l2) /\
  forall Y, packl (bits_of (N.to_nat l) code ++ Y) = out ++ packl (bits_of (N.to_nat l2) code ++ Y).
Proof.
  induction f as [|f IH]; intros code l out l2 E Hl.
  - simpl in E. injection E as <- <-. split; [lia|]. split; [exists 0; lia|]. reflexivity.
  - cbn [enc_drain] in E. destruct (8 <=? l) eqn:C.
    + apply N.leb_le in C.
      destruct (enc_drain f code (l - 8)) as [out' l'] eqn:E'.
      injection E as <- <-.
      destruct (IH code (l - 8) out' l' E') as [H1 [[q Hq] H3]]; [lia|].
      split; [assumption|]. split; [exists (q + 1); lia|].
      intros Y. rewrite (bits_of_top8 l code C), <- app_assoc, packl_bits8 by apply u8_lt.
      rewrite H3. reflexivity.
    + apply N.leb_gt in C. injection E as <- <-.
      split; [lia|]. split; [exists 0; lia|]. reflexivity.
Qed.

Lemma code_string_cons b s : code_string (b :: s) = code_bits b ++ code_string s.
Proof. reflexivity. Qed.

Lemma enc_loop_spec : forall src code l k,
  bytes_ok src = true -> l < 8 -> (k < 8)%nat ->
  ((N.to_nat l + length (code_string src) + k) mod 8 = 0)%nat ->
  enc_loop src code l = packl (bits_of (N.to_nat l) code ++ code_string src ++ ones k).
Proof.
  induction src as [|b rest IH]; intros code l k Hok Hl Hk Hmod.
  - cbn [enc_loop]. change (code_string []) with (@nil bool) in *. cbn [app length] in *.
    destruct (0 <? l) eqn:C.
    + apply N.ltb_lt in C.
      assert (k = N.to_nat (8 - l)) as Ek.
      { assert (N.to_nat l + 0 + k = 8)%nat; [|lia].
        assert (0 < N.to_nat l + 0 + k < 16)%nat as R by lia.
        remember (N.to_nat l + 0 + k)%nat as t.
        destruct (Nat.eq_dec t 8); [assumption|].
        exfalso. clear - Hmod R n.
        do 16 (destruct t as [|t]; [simpl in Hmod; lia|]). lia. }
      assert (8 - l = N.of_nat k) as En by lia.
      rewrite En.
      rewrite <- (bits_of_ones k k) by lia.
      rewrite <- (bits_of_lor_shift (N.to_nat l) k 64 code (2 ^ N.of_nat k - 1)).
      * replace (N.to_nat l + k)%nat with 8%nat by lia.
        change (bits_of 8 ?x) with (bits8 x).
        rewrite <- bits8_u8. rewrite <- (app_nil_r (bits8 _)).
        rewrite packl_bits8 by apply u8_lt. reflexivity.
      * lia.
      * assert (0 < 2 ^ N.of_nat k) by (apply N.neq_0_lt_0, N.pow_nonzero; lia). lia.
    + apply N.ltb_ge in C. assert (l = 0) by lia. subst l.
      assert (k = 0%nat) as ->.
      { simpl in Hmod. do 8 (destruct k as [|k]; [simpl in Hmod; try lia|]); try lia. }
      reflexivity.
  - cbn [bytes_ok forallb] in Hok. apply andb_prop in Hok. destruct Hok as [Hb Hrest].
    apply N.ltb_lt in Hb. fold (bytes_ok rest) in Hrest.
    destruct (sym_ok b Hb) as [[Hn5 Hn30] Hc].
    cbn [enc_loop]. cbv zeta. rewrite len_of_rfc, code_of_rfc.
    assert (u8 (l + rfc_len b) = l + rfc_len b) as Eu.
    { unfold u8, wrap. apply N.mod_small. change (2 ^ 8) with 256. lia. }
    rewrite Eu.
    set (code1 := N.lor (u64 (N.shiftl code (rfc_len b))) (rfc_code b)).
    destruct (enc_drain 32 code1 (l + rfc_len b)) as [out l2] eqn:E.
    destruct (enc_drain_spec _ _ _ _ _ E) as [H1 [[q Hq] H3]]; [simpl; lia|].
    rewrite code_string_cons in *. rewrite app_length, code_bits_length in Hmod.
    rewrite (IH code1 l2 k Hrest H1 Hk).
    + rewrite <- H3. f_equal. rewrite <- (app_assoc (code_bits b)).
      rewrite (app_assoc (bits_of (N.to_nat l) code)). f_equal.
      replace (N.to_nat (l + rfc_len b)) with (N.to_nat l + N.to_nat (rfc_len b))%nat by lia.
      unfold code1, u64. rewrite <- (N2Nat.id (rfc_len b)) at 2.
      rewrite bits_of_lor_shift.
      * reflexivity.
      * lia.
      * rewrite N2Nat.id. exact Hc.
    + replace (N.to_nat l2 + length (code_string rest) + k)%nat
        with ((N.to_nat l + (N.to_nat (rfc_len b) + length (code_string rest)) + k) - 8 * N.to_nat q)%nat by lia.
      assert (8 * N.to_nat q <= N.to_nat l + (N.to_nat (rfc_len b) + length (code_string rest)) + k)%nat by lia.
      remember (N.to_nat l + (N.to_nat (rfc_len b) + length (code_string rest)) + k)%nat as T.
      clear - Hmod H.
      apply Nat.mod_divides in Hmod; [|lia]. destruct Hmod as [c Hc]. subst T.
      replace (8 * c - 8 * N.to_nat q)%nat with ((c - N.to_nat q) * 8)%nat by lia.
      apply Nat.mod_mul. lia.
Qed.

Lemma pad_len_props n : (pad_len n < 8)%nat /\ ((n + pad_len n) mod 8 = 0)%nat.
Proof.
  unfold pad_len. split; [apply Nat.mod_upper_bound; lia|].
  pose proof (Nat.mod_upper_bound n 8 ltac:(lia)) as Hr.
  pose proof (Nat.div_mod n 8 ltac:(lia)) as Hd.
  remember (n mod 8)%nat as r. remember (n / 8)%nat as d.
  destruct (Nat.eq_dec r 0) as [->|Hnz].
  - change ((8 - 0) mod 8)%nat with 0%nat.
    replace (n + 0)%nat with (d * 8)%nat by lia. apply Nat.mod_mul. lia.
  - rewrite (Nat.mod_small (8 - r) 8) by lia.
    replace (n + (8 - r))%nat with ((d + 1) * 8)%nat by lia. apply Nat.mod_mul. lia.
Qed.

Theorem encode_is_spec : forall s, bytes_ok s = true -> huffman_encode s = spec_encode s.
Proof.
  intros s Hs. unfold huffman_encode, spec_encode. cbv zeta.
  destruct (pad_len_props (length (code_string s))) as [P1 P2].
  rewrite (enc_loop_spec s 0 0 (pad_len (length (code_string s))) Hs); [reflexivity|lia|exact P1|exact P2].
Qed.
