(* Closed() of a connection is monotone in the pool model (Impl/ClientPool.v): a connection the client made and that
   reads as closed reads as closed in every later state, whatever events follow; so no later pickConn hands it out.
   (pl_is_closed answers true for an unknown id as well; `shut` below is the strict reading: made AND closed.) *)
From Coq Require Import List NArith Bool Lia.
From H2V Require Import Impl.ClientPool Proofs.PoolThms.
Import ListNotations.
Local Open Scope N_scope.

Definition shut_in (st : list pl_conn) (id : N) : bool :=
  match pl_find st id with Some c => plc_closed c | None => false end.
Definition shut (p : pool) (id : N) : bool := shut_in (pl_stat p) id.

Lemma shut_is_closed p id : shut p id = true -> pl_is_closed p id = true.
Proof. unfold shut, shut_in, pl_is_closed. destruct (pl_find (pl_stat p) id); [tauto | discriminate]. Qed.

Lemma shut_made p id : shut p id = true -> In id (map plc_id (pl_stat p)).
Proof.
  unfold shut, shut_in. destruct (pl_find (pl_stat p) id) as [c|] eqn:F; [|discriminate].
  intros _. eapply pl_find_Some_In. exact F.
Qed.

Lemma shut_set_closed st id x : shut_in st x = true -> shut_in (pl_set st id pl_mark_closed) x = true.
Proof.
  unfold shut_in. destruct (N.eq_dec x id) as [E|E].
  - subst x. rewrite (pl_find_set_same _ _ _ mark_closed_id). destruct (pl_find st id); cbn [option_map]; [reflexivity | tauto].
  - rewrite (pl_find_set_other _ _ _ _ mark_closed_id E). tauto.
Qed.

Lemma shut_set_can st id b x : shut_in st x = true -> shut_in (pl_set st id (pl_mark_can b)) x = true.
Proof.
  unfold shut_in. destruct (N.eq_dec x id) as [E|E].
  - subst x. rewrite (pl_find_set_same _ _ _ (mark_can_id b)). destruct (pl_find st id); cbn [option_map pl_mark_can plc_closed]; tauto.
  - rewrite (pl_find_set_other _ _ _ _ (mark_can_id b) E). tauto.
Qed.

Lemma shut_create p d q c o x : Inv p -> pl_create_conn p d = (q, c, o) -> shut p x = true -> shut q x = true.
Proof.
  intros I H S. destruct d; cbn [pl_create_conn] in H; inversion H; subst; clear H; unfold shut in *; cbn [pl_stat]; try exact S.
  unfold shut_in. cbn [pl_find plc_id].
  destruct (N.eqb_spec (pl_next p) x) as [E|E]; [|exact S].
  exfalso. pose proof (inv_fresh p I x (shut_made p x S)) as L. lia.
Qed.

Lemma shut_close_all p l q o x : pl_close_all p l = (q, o) -> shut p x = true -> shut q x = true.
Proof.
  revert p q o. induction l as [|id r IH]; cbn [pl_close_all]; intros p q o H S; [inversion H; subst; exact S|].
  destruct (pl_is_closed p id); [exact (IH _ _ _ H S)|].
  destruct (pl_close_all (pl_upd_stat p (pl_set (pl_stat p) id pl_mark_closed)) r) as [p1 o1] eqn:R. inversion H; subst.
  refine (IH _ _ _ R _). unfold shut. cbn [pl_upd_stat pl_stat]. apply shut_set_closed. exact S.
Qed.

Lemma shut_step p e x : Inv p -> shut p x = true -> shut (pl_state_of (pl_step p e)) x = true.
Proof.
  apply (step_ind (fun p => shut p x = true)). clear p. intros p q I S M. destruct M as [| |p id|p id b| |p q o Hc H]; try exact S.
  - eapply shut_create; eassumption.
  - apply shut_set_closed, S.
  - apply shut_set_can, S.
  - unfold pl_client_close in H. rewrite Hc in H. eapply shut_close_all; [exact H | exact S].
Qed.
(* a connection that has been closed stays closed *)
Theorem closed_conn_stays_closed evs1 evs2 x : shut (pl_run evs1) x = true -> shut (pl_run_from (pl_run evs1) evs2) x = true.
Proof. apply (run_from_ind (fun p => shut p x = true)); [intros; apply shut_step; assumption | apply Inv_run]. Qed.

Lemma run_from_app evs1 evs2 : pl_run_from (pl_run evs1) evs2 = pl_run (evs1 ++ evs2).
Proof. unfold pl_run, pl_run_from. rewrite fold_left_app. reflexivity. Qed.

(* ... and no later pickConn returns it: not from the list (it reads as closed), not as a fresh dial (its number is used) *)
Theorem closed_conn_never_picked evs1 evs2 x d q o :
  shut (pl_run evs1) x = true -> pl_pick_conn (pl_run_from (pl_run evs1) evs2) d <> (q, PRConn x, o).
Proof.
  intros S H. pose proof (closed_conn_stays_closed evs1 evs2 x S) as S2. rewrite run_from_app in *.
  destruct (pick_conn_has_room _ _ _ _ _ H) as [(_ & C & _)|(_ & _ & C & _)].
  - rewrite (shut_is_closed _ _ S2) in C. discriminate.
  - assert (S3 : shut q x = true).
    { pose proof (shut_step _ (PEvPick d) x (Inv_run _) S2) as K. unfold pl_state_of in K. cbn [pl_step] in K. rewrite H in K. exact K. }
    rewrite (shut_is_closed _ _ S3) in C. discriminate.
Qed.

(* the premise is met: connection 1 of the example run is closed; it stays so and is not picked after a further dial *)
Example ex_shut : shut (pl_run (ex_evs ++ [PEvClientClose])) 1 = true /\ shut (pl_run ex_evs) 7 = false.
Proof. vm_compute. auto. Qed.
