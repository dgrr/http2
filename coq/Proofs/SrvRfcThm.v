(* Proofs/SrvRfcThm.v - C08: the theorems about whole lockstep runs. *)
From H2V Require Import Base.Bytes Base.MachineInt Base.Result Gen.GenConsts Impl.ServerConn.
From H2V Require Import Proofs.SrvBase Proofs.SrvRfcDefs Proofs.SrvRfcSpec Proofs.SrvRfcModel Proofs.SrvRfcSim Proofs.SrvRfcStep Proofs.SrvRfcRl Proofs.SrvRfcFlush Proofs.SrvRfcMain.
From Coq Require Import ZArith Lia ZifyN ZifyNat ZifyBool.
Local Open Scope N_scope.

Section Thm.
Variable hstate : Type.
Variable dec_field : hstate -> N -> bytes -> dec_res hstate.
Variable enc_field : hstate -> bytes -> bytes -> bool -> bytes * hstate.
Variable enc_set_max : hstate -> N -> hstate.
Variable cfg : config.
Variable h0 : hstate.
Notation sconn := (sconn hstate).
Notation feed := (feed hstate dec_field enc_field enc_set_max cfg).
Notation spec_feed := (spec_feed hstate dec_field enc_field enc_set_max cfg).
Notation item_ok := (item_ok hstate dec_field enc_field enc_set_max cfg).
Notation run_items := (run_items hstate dec_field enc_field enc_set_max cfg).
Notation step_goal := (step_goal hstate dec_field enc_field enc_set_max cfg).
Notation Sim := (Sim hstate).
Notation Post := (Post hstate).
Implicit Types c : sconn.

Lemma step_all c s ph it : Post c s ph -> step_goal c s ph it.
Proof.
  intros [W P]. destruct (sc_sl_done c) eqn:Hsl; [apply over_step; assumption|].
  rename P into HS. pose proof (S_aux _ _ _ _ HS) as [AT AH].
  destruct it as [i|sid r|l].
  - apply G_goal; [exact W|].
    destruct i as [fr| | |]; try (apply G_other_input; [exact HS | exact Hsl | intros fr0; discriminate]).
    destruct (rl_frame hstate dec_field enc_field enc_set_max cfg c s ph fr HS Hsl) as [G|(ec' & SQ & E & Cases)]; [exact G|].
    destruct Cases as [[Od Kok]|[Z KK]].
    + apply (G_stream_frame hstate dec_field enc_field enc_set_max cfg c s ph fr ec' HS Hsl SQ Od Kok E).
    + (* stream 0: SETTINGS, WINDOW_UPDATE *)
      assert (EC : sc_expectCont c = 0 /\ ec' = 0).
      { destruct SQ as [(E0 & _ & ->)|(_ & K & _)]; [|destruct KK as [[K' _]|[K' _]]; congruence].
        split; [exact E0|]. destruct KK as [[K' _]|[K' _]]; rewrite K'; reflexivity. }
      destruct EC as [E0 ->]. rewrite (upd_expectCont_id hstate c 0 E0) in E.
      apply (G_conn_frame hstate dec_field enc_field enc_set_max cfg c s ph fr HS Hsl E0); auto.
      destruct KK as [[K _]|[K I0]]; [left; exact K | right; split; assumption].
  - apply Gloc_goal; [exact W | intros i; discriminate|]. apply G_done; assumption.
  - apply Gloc_goal; [exact W | intros i; discriminate|]. apply G_local; assumption.
Qed.

Lemma Post_init : Post (init_conn cfg h0) RS.init (fun _ => RS.PStart).
Proof.
  split; [apply wf_init|]. cbn [sc_sl_done init_conn].
  constructor.
  - split.
    + constructor; try (unfold ring_ok); cbn; try reflexivity; try (intros st []); try lia; try constructor; try constructor; try lia.
    + constructor; cbn [init_conn sc_strms sc_expectCont sc_discardID]; try (intros st []); intros; congruence.
  - apply wf_init.
  - intros id O. unfold SrvRfcDefs.view, SrvRfcDefs.tbl. cbn. 
    replace (id <=? 0) with false by (destruct id; [discriminate | reflexivity]). cbn.
    unfold RS.st_of. rewrite <- N.negb_odd, O. cbn. replace (id <=? 0) with false by (destruct id; [discriminate | reflexivity]). reflexivity.
  - reflexivity.
  - reflexivity.
  - reflexivity.
  - cbn. congruence.
  - intros st [].
  - reflexivity.
Qed.

Fixpoint ph_run (ph : N -> RS.phase) (its : list item) : N -> RS.phase :=
  match its with [] => ph | it :: t => ph_run (ph_next ph it) t end.

Lemma run_items_app c s a b : run_items c s (a ++ b) = let '(c1, s1) := run_items c s a in run_items c1 s1 b.
Proof. revert c s. induction a as [|it a IH]; intros c s; cbn [app SrvRfcDefs.run_items]; [reflexivity | apply IH]. Qed.

Lemma run_Post its : forall c s ph, Post c s ph ->
  Post (fst (run_items c s its)) (snd (run_items c s its)) (ph_run ph its).
Proof.
  induction its as [|it t IH]; intros c s ph P; cbn [SrvRfcDefs.run_items ph_run fst snd]; [exact P|].
  destruct (step_all c s ph it P) as (_ & P' & _). apply IH; assumption.
Qed.

Lemma Post_R c s ph : Post c s ph -> R hstate c s.
Proof.
  intros [W P]. unfold R, over. destruct (sc_sl_done c) eqn:Hsl; cbn [orb]; [exact P|].
  pose proof (Sim_R hstate c s ph Hsl P) as X. unfold R, over in X. rewrite Hsl in X. exact X.
Qed.

(* C08 (a): every reaction is allowed, and the abstraction relation is kept *)

Notation c_init := (init_conn cfg h0).

Theorem reactions_allowed its :
  R hstate (fst (run_items c_init RS.init its)) (snd (run_items c_init RS.init its)) /\
  forall pre it post, its = pre ++ it :: post ->
    let c := fst (run_items c_init RS.init pre) in
    let s := snd (run_items c_init RS.init pre) in
    sc_sl_done c = false ->
    match it with
    | IIn i => item_ok c it s = true \/ known_deviation hstate c s i = true
    | _ => True
    end.
Proof.
  split.
  - eapply Post_R. apply run_Post, Post_init.
  - intros pre it post -> c s Hsl.
    pose proof (run_Post pre _ _ _ Post_init) as P. fold c s in P.
    destruct (step_all c s _ it P) as (A & _). apply A, Hsl.
Qed.

(* C08 (c): a request is dispatched only from a complete sequence of frames *)

Lemma ph_run_app ph a b : ph_run (ph_run ph a) b = ph_run ph (a ++ b).
Proof. revert ph. induction a as [|it a IH]; intro ph; cbn [ph_run app]; [reflexivity | apply IH]. Qed.

Lemma ph_run_frames its : forall ph sid, ph_run ph its sid = fold_left RS.request_step (frames_on sid its) (ph sid).
Proof.
  induction its as [|it t IH]; intros ph sid; cbn [ph_run SrvRfcDefs.frames_on flat_map]; [reflexivity|].
  rewrite IH, fold_left_app. f_equal. destruct it as [[fr| | |]|? ?|?]; cbn [ph_next]; try reflexivity.
  rewrite (N.eqb_sym sid). destruct (sf_sid fr =? sid); reflexivity.
Qed.

Theorem dispatch_only_legal its sid rq :
  In (ODispatch sid rq) (trace (fst (run_items c_init RS.init its))) ->
  exists pre post, its = pre ++ post /\ RS.complete_request (frames_on sid pre) = true.
Proof.
  intros Hin. unfold trace in Hin. apply in_rev in Hin. revert Hin.
  induction its as [|it its IH] using rev_ind; intros Hin; [cbn in Hin; destruct Hin|].
  rewrite run_items_app in Hin.
  pose proof (run_Post its _ _ _ Post_init) as P.
  destruct (run_items c_init RS.init its) as [c s] eqn:RI. cbn [fst snd] in *.
  destruct (step_all c s _ it P) as (_ & _ & Hd & (d & Ho)).
  cbn [SrvRfcDefs.run_items fst] in Hin. rewrite Ho in Hin. apply in_app_or in Hin. destruct Hin as [Hin|Hin].
  - (* dispatched by this item *)
    assert (X : In (ODispatch sid rq) (new_out hstate c (feed c it))) by (rewrite (new_out_ext hstate _ _ _ Ho); apply in_rev; rewrite rev_involutive; exact Hin).
    pose proof (Hd sid rq X) as PD. exists (its ++ [it]), []. split; [rewrite app_nil_r; reflexivity|].
    unfold RS.complete_request. rewrite <- (ph_run_frames (its ++ [it]) (fun _ => RS.PStart) sid), <- ph_run_app. cbn [ph_run]. rewrite PD. reflexivity.
  - destruct (IH Hin) as (pre & post & E & C). exists pre, (post ++ [it]). split; [rewrite E, app_assoc; reflexivity | exact C].
Qed.

End Thm.
