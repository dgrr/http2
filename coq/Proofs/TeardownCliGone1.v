(* Proofs/TeardownCliGone1.v -- blocking-structure model (Impl/Teardown.v), client, S3 with the stronger trigger: once the peer is
   gone the read loop notices and somebody enters Close.
   Statements: Props/Teardown.v; overview: Proofs/TeardownProofs.v. *)
From Coq Require Import Arith Lia Bool List.
Import ListNotations.
From H2V Require Import Impl.Teardown Proofs.TeardownGen Proofs.TeardownCliInv Proofs.TeardownCliLive1 Proofs.TeardownCliGone0 Proofs.TeardownCliLive5.

Module CliG1.
Import Cli CliP CliL2 CliGd CliL6.

Section Q.
Variable cap : nat.
Notation guard := (Cli.guard cap).

(* with closed unset nobody is inside Close past the CAS, and nobody has left it *)
Lemma open_facts : forall s, inv2 s -> closed s = false ->
  (forall c, rl s = RClose c -> c = CCas) /\ rl s <> RDone /\ (wl_t s -> OB s).
Proof.
  intros s I Hc. pose proof (i_mid0 _ I Hc) as Hm. unfold midn, cpc in Hm.
  assert (forall c, wl s = LClose c -> c = CCas) as A1.
  { intros c E; rewrite E in Hm; destruct c; cbn in Hm; auto; lia. }
  repeat split.
  - intros c E; rewrite E in Hm; destruct c; cbn in Hm; auto; lia.
  - intros E. pose proof (i_rdone _ I E). congruence.
  - unfold wl_t, OB. pose proof (i_wtorn _ I) as Ht.
    destruct (wl s) eqn:E; try contradiction; auto; try (specialize (Ht eq_refl); congruence).
    rewrite (A1 _ eq_refl); auto.
Qed.

(* while the peer is gone and closed unset: a step of anybody but the read loop changes neither,
   unless it sets closed; a step of the read loop lowers [rm] *)
Lemma pg_others : forall n s a, PG s /\ rm s = n -> guard a s ->
  g_rl a \/ ((PG (eff a s) /\ rm (eff a s) = n) /\ rl (eff a s) = rl s) \/ QG n (eff a s).
Proof.
  intros n s a ((Hg & Hc) & Hn) G. destruct (rd_frame cap a s G) as [Ga|(E1 & E2)]; auto.
  { unfold dead. rewrite Hg; auto. }
  right. destruct (closed (eff a s)) eqn:Ec; [right; left; auto|].
  left. unfold PG, rm in *. rewrite E1, E2. auto using gone_mono.
Qed.
Lemma pg_own : forall n s a, PG s /\ rm s = n -> g_rl a -> guard a s -> QG n (eff a s).
Proof.
  intros n s a ((Hg & Hc) & <-) Ga G. destruct (closed (eff a s)) eqn:Ec; [left; auto|].
  right; right. unfold PG. auto using gone_mono, (rl_lowers cap).
Qed.

(* nobody but the write loop takes from c.out, and nobody adds to a full one *)
Lemma outq_full : forall s a, guard a s -> cap <= outq s ->
  g_selout a \/ a = LT3Out \/ outq (eff a s) = outq s.
Proof. intros s a G Ho. guard_cases a G; cbn; auto; try lia; right; right; eff_simpl; auto. Qed.
End Q.

Section P.
Variable cap : nat.
Notation guard := (Cli.guard cap).
Notation reachable := (Cli.reachable cap).
Variable r : run guard eff.
Hypothesis F : fair_run cap r.
Hypothesis R0 : reachable (st r 0).
Hypothesis NS : forall i, stalled (st r i) = false \/ dead (st r i) = true.

Notation Inv_run := (CliL2.Inv_run cap r R0 NS).
Notation "P ~> Q" := (leadsto r P Q) (at level 70).
Notation step := (lt_step guard eff r (Inv cap) Inv_run).
Notation wait := (lt_wait guard eff r (Inv cap) Inv_run).
Notation rank := (lt_rank guard eff r (Inv cap) Inv_run).
Notation enabled := (enabled guard).
Notation Frl := (Frl cap r F).
Notation Fwl := (Fwl cap r F).
Notation weak := (weak cap r).

(* -- whoever has seen the connection fail goes into Close: closed gets set -- *)
Lemma ccas_step : forall p, p < 3 -> (fun s => cpc p s = Some CCas) ~> (fun s => closed s = true).
Proof using F R0 NS.
  intros p Hp. apply close_step; auto.
  - intros s a Hc Ga G. apply (close_own cap p CCas a s Hp Hc Ga G).
  - intros s _ Hc. right. destruct (closed s) eqn:E; [exists (CCasLose p) | exists (CCasWin p)];
      (split; [apply g_of_close; cbn; auto | cbn; auto]).
Qed.
Lemma obW0 : (fun s => wl s = LT0) ~> (fun s => cpc 0 s = Some CCas).
Proof using F R0 NS.
  apply (step g_wl); auto using weak, Fwl.
  - intros s a _ Hw G. destruct (wl_frame a s) as [Ga|[Ga|E]]; auto; [|right; left; congruence].
    rewrite (body_guard cap a s Ga G) in Hw; discriminate.
  - intros s a _ Hw Ga G. own_cases a Ga G. reflexivity.
  - intros s _ Hw. right. exists LSetErr; cbn; auto.
Qed.
Lemma obR0 : (fun s => rl s = RExit) ~> (fun s => cpc 1 s = Some CCas).
Proof using F R0 NS.
  apply (step g_rl); auto using weak, Frl.
  - intros s a _ Hw G. destruct (rl_frame a s) as [Ga|E]; auto. right; left; congruence.
  - intros s a _ Hw Ga G. own_cases a Ga G. reflexivity.
  - intros s _ Hw. right. exists RDeferClose; cbn; auto.
Qed.
Lemma ob_closes : OB ~> (fun s => closed s = true).
Proof using F R0 NS.
  intros i [H|[H|[H|H]]].
  - apply (lt_trans _ _ _ _ _ _ obW0 (ccas_step 0 ltac:(lia))); auto.
  - apply (ccas_step 0); [lia|]. cbn; rewrite H; auto.
  - apply (lt_trans _ _ _ _ _ _ obR0 (ccas_step 1 ltac:(lia))); auto.
  - apply (ccas_step 1); [lia|]. cbn; rewrite H; auto.
Qed.

(* -- the write loop does not sit on X's Ctx.lck: its socket write fails, and bwLck is free or
      the GOAWAY race is taken -- *)
Lemma wx_release : (fun s => gone s = true /\ wl_hold s = HX) ~> (fun s => wl s = LT0 \/ wl_hold s <> HX).
Proof using F R0 NS.
  apply (rank g_wl _ _ (fun s => match wl s with LLockB _ => 1 | _ => 0 end)); auto using weak, Fwl.
  - intros s a _ (Hg & Hh) G. destruct (wl_frame a s) as [Ga|[Ga|E]]; auto.
    + unfold wl_hold in Hh. rewrite (body_guard cap a s Ga G) in Hh; discriminate.
    + right; right. unfold wl_hold in *. rewrite E. auto using gone_mono.
  - intros s a _ (Hg & Hh) Ga G. unfold wl_hold in *. own_cases a Ga G; try discriminate.
    + left; right; cbn; discriminate.
    + right. cbn. unfold wl_hold. rewrite H. auto.
    + unfold dead in *. rewrite Hg in *; discriminate.
    + left; left; eff_simpl; reflexivity.
    + left; left; reflexivity.
  - intros s _ (Hg & Hh). right. unfold wl_hold in Hh.
    destruct (wl s) as [| | |[]|[]| | | | | |] eqn:E; try discriminate.
    + exists LGoAwayRace; cbn; auto.
    + exists (LWriteFail false); cbn; repeat split; eauto. unfold dead; rewrite Hg; auto.
Qed.

(* -- a full c.out gets a free slot: the write loop comes back to its select, and the c.out case
      is served (strong fairness to that case) -- or the write loop leaves -- *)
Hypothesis cap_pos : 1 <= cap.
Notation P3 := (CliGd.P3 cap).
Notation Q3 := (CliGd.Q3 cap).
Lemma out_slot : P3 ~> Q3.
Proof using cap_pos F R0 NS.
  apply (wait g_selout) with (B := wl_iter) (C := fun s => wl s = LSel \/ wl_t s);
    auto using (Fso cap r F), (wl_iter_end cap r F R0 NS).
  - intros s a _ ((Hc & Ho & Ho') & Hl) G. unfold CliGd.P3, CliGd.Q3.
    destruct (closed (eff a s)) eqn:Ec; auto.
    destruct (outq_full cap s a G Ho) as [Ga|[->|E]]; auto.
    + destruct Hl as [Hl|Hl]; unfold wl_iter in *; destruct G as (G & _); rewrite G in Hl; [discriminate|contradiction].
    + rewrite E. destruct (wl_loop_unless cap s a Hl G); [right; left; repeat split; auto | auto].
  - intros s a _ ((Hc & Ho & Ho') & Hl) Ga G. destruct a; try contradiction.
    right; right. cbn in *. lia.
  - intros s _ (_ & [Hl|Hl]); auto.
  - intros s _ ((Hc & Ho & Ho') & _) [Hs|Ht]; [right | left; right; left; auto].
    exists (LSelOut 0); cbn; repeat split; auto; lia.
Qed.

(* -- the read loop notices: by where it is -- *)
Lemma g_free : forall n, (fun s => (PG s /\ rm s = n) /\ rl_free s) ~> QG n.
Proof using F R0 NS.
  intros n. apply (step g_rl); auto using weak, Frl.
  - intros s a _ (HP & Hf) G. destruct (pg_others cap n s a HP G) as [Ga|[(HP' & Er)|Q]]; auto.
    right; left; split; auto. unfold rl_free; rewrite Er; auto.
  - intros s a _ (HP & _). apply pg_own; auto.
  - intros s _ ((Hg & Hn) & Hf). right. unfold rl_free in Hf. destruct (rl s) eqn:E; try contradiction.
    + exists RReadFail; cbn; repeat split; auto. unfold dead; rewrite (proj1 Hg); auto.
    + exists (RIterEnd false); cbn; eauto.
    + exists (RHoldFinish false false); cbn; eauto.
    + exists RPostEnd; cbn; eauto.
Qed.

Lemma g_acq : forall n, (fun s => (PG s /\ rm s = n) /\ rl s = RAcq) ~> QG n.
Proof using F R0 NS.
  intros n.
  apply (wait g_rl) with (B := fun s => gone s = true /\ wl_hold s = HX)
                         (C := fun s => wl s = LT0 \/ wl_hold s <> HX); auto using Frl, wx_release.
  - intros s a _ (HP & Hf) G. destruct (pg_others cap n s a HP G) as [Ga|[(HP' & Er)|Q]]; auto.
    right; left; split; auto. congruence.
  - intros s a _ (HP & _). apply pg_own; auto.
  - intros s _ (((Hg & _) & _) & _). destruct (wl_hold s) eqn:E; auto; right; right; discriminate.
  - intros s ((I1 & _) & _) (_ & Ha) [Ht|Hh]; [left; right; left; left; auto | right].
    assert (lx s = LxNone) by (apply lx_none; auto; unfold rl_hold; rewrite Ha; discriminate).
    destruct (xdone s) eqn:E; [exists RAcqXFail | exists RAcqX]; cbn; auto.
Qed.

Lemma g_out : forall n, (fun s => (PG s /\ rm s = n) /\ rl_outp s) ~> QG n.
Proof using cap_pos F R0 NS.
  intros n. apply (wait g_rl) with (B := P3) (C := Q3); auto using Frl, out_slot.
  - intros s a _ (HP & Hf) G. destruct (pg_others cap n s a HP G) as [Ga|[(HP' & Er)|Q]]; auto.
    right; left; split; auto. unfold rl_outp in *. rewrite Er; auto.
  - intros s a _ (HP & _). apply pg_own; auto.
  - intros s ((_ & _ & I3 & _) & _) (((_ & Hc) & _) & _). pose proof (i_out _ _ I3).
    unfold CliGd.P3, CliGd.Q3. destruct (lt_dec (outq s) cap); auto.
    assert (wl_loop s \/ wl_t s) as [Hl|Ht]; auto.
    { unfold wl_loop, wl_iter, wl_t. destruct (wl s); auto. }
    left. repeat split; auto; lia.
  - intros s ((_ & I2 & _) & _) (((_ & Hc) & _) & Ho) [Hq|[Hq|Hq]]; [congruence | left | right].
    + right; left. apply (open_facts s I2 Hc); auto.
    + destruct Ho as [E|(k & st & E)]; [exists ROutSend | exists RPostSend]; cbn; eauto.
Qed.

Lemma pg_step : forall n, (fun s => PG s /\ rm s = n) ~> QG n.
Proof using cap_pos F R0 NS.
  intros n i HP. pose proof HP as ((Hg & Hc) & Hn). destruct (Inv_run i) as ((_ & I2 & _) & _).
  destruct (open_facts _ I2 Hc) as (Hr & Hd & _).
  destruct (rl (st r i)) eqn:E.
  - apply (g_free n); split; auto. unfold rl_free; rewrite E; auto.
  - apply (g_free n); split; auto. unfold rl_free; rewrite E; auto.
  - apply (g_acq n); auto.
  - apply (g_free n); split; auto. unfold rl_free; rewrite E; auto.
  - apply (g_free n); split; auto. unfold rl_free; rewrite E; auto.
  - apply (g_out n); split; auto. right; eauto.
  - apply (g_out n); split; auto. left; auto.
  - exists i; split; auto. right; left. unfold OB; auto.
  - exists i; split; auto. right; left. rewrite (Hr _ eq_refl) in E. unfold OB; auto.
  - congruence.
Qed.

Lemma pg_notices : PG ~> (fun s => closed s = true \/ OB s).
Proof using cap_pos F R0 NS.
  apply (lt_variant guard eff r PG _ rm). intros n i H.
  destruct (pg_step n i H) as (j & Hj & [Hq|[Hq|Hq]]); exists j; split; auto.
Qed.

(* S3, the stronger trigger: once the peer is gone somebody enters Close *)
Theorem gone_closes : (fun s => gone s = true) ~> (fun s => closed s = true).
Proof using cap_pos F R0 NS.
  intros i Hg. destruct (closed (st r i)) eqn:Ec; [exists i; auto|].
  destruct (pg_notices i (conj Hg Ec)) as (j & Hj & [Hq|Hq]).
  - exists j; auto.
  - destruct (ob_closes j Hq) as (k & Hk & Hq'). exists k; split; auto; lia.
Qed.

Theorem gone_no_stranding :
  (fun s => gone s = true) ~> (fun s => loops_exited s /\ (delivered s \/ raced s = true)).
Proof using cap_pos F R0 NS.
  eapply lt_trans; [apply gone_closes | apply (no_stranding cap r F R0 NS cap_pos)].
Qed.
End P.
End CliG1.
