(* Proofs/SrvMsgPure.v - C20, the pure part: what `header_field`, folded over a decoded field list, accepts.
   No decoder, no connection state.
     header_field_vstep   header_field = size check, then the eight-flag automaton vstep
     fields_loop_inr/inl  the fold
     parse_uint_decimal   parseUint = 1*DIGIT, at most 2^63-1 *)
From H2V Require Import Base.Bytes Base.MachineInt Base.Result Gen.GenConsts Impl.ServerConn Spec.Http2Messages
     Proofs.SrvBase Proofs.SrvMsgDefs.
From Coq Require Import ZArith Lia ZifyN ZifyNat ZifyBool.
Local Open Scope N_scope.

Lemma bytes_eqb_eq a : forall b, bytes_eqb a b = true <-> a = b.
Proof.
  induction a as [|x a IH]; intros [|y b]; cbn [bytes_eqb]; split; try reflexivity; try discriminate.
  - intro H. apply andb_true_iff in H. destruct H as [H1 H2]. apply IH in H2. f_equal; [lia | assumption].
  - intro H. inversion H; subst. apply andb_true_iff. split; [lia | apply IH; reflexivity].
Qed.
Lemma bytes_eqb_refl a : bytes_eqb a a = true.
Proof. apply bytes_eqb_eq. reflexivity. Qed.
Lemma bytes_eqb_neq a b : a <> b -> bytes_eqb a b = false.
Proof. intro H. destruct (bytes_eqb a b) eqn:E; [|reflexivity]. apply bytes_eqb_eq in E. contradiction. Qed.

(* header_field is the size check followed by vstep *)
Lemma header_field_vstep cfg h k v :
  header_field cfg h k v =
  let size := (hd_headerListSize h + Z.of_N (len k) + Z.of_N (len v) + 32)%Z in
  if list_over cfg size then inl (EGoAway c_EnhanceYourCalm)
  else match vstep cfg (vabs h) (classify k) v with
       | inl code => inl (EReset code)
       | inr st' => inr (hdr_of h st' size (hd_blockFields h + 1) (req_step (hd_req h) (k, v)))
       end.
Proof.
  unfold header_field, list_over, classify, req_step, classify. cbv zeta. cbn [fst snd].
  destruct ((0 <? cf_maxHeaderList cfg)%Z && _)%bool; [reflexivity|].
  destruct (has_upper_case k); [reflexivity|].
  destruct (ServerConn.is_pseudo k).
  - cbn [hd_regularSeen hd_pMethod hd_pPath hd_pScheme hd_pAuth].
    destruct (bytes_eqb k S_method).
    { unfold vstep, vabs; cbn [v_r v_m]. destruct (hd_regularSeen h); [reflexivity|]. destruct (hd_pMethod h); reflexivity. }
    destruct (bytes_eqb k S_path).
    { unfold vstep, vabs; cbn [v_r v_p]. destruct (hd_regularSeen h); [reflexivity|]. destruct (hd_pPath h); reflexivity. }
    destruct (bytes_eqb k S_scheme).
    { unfold vstep, vabs; cbn [v_r v_s]. destruct (hd_regularSeen h); [reflexivity|]. destruct (hd_pScheme h); reflexivity. }
    destruct (bytes_eqb k S_authority).
    { unfold vstep, vabs; cbn [v_r v_a]. destruct (hd_regularSeen h); [reflexivity|]. destruct (hd_pAuth h); reflexivity. }
    unfold vstep. destruct (hd_regularSeen h); reflexivity.
  - destruct (is_connection_specific k); [reflexivity|].
    destruct (bytes_eqb k S_te) eqn:T.
    { apply bytes_eqb_eq in T. subst k. cbn [andb]. unfold vstep.
      destruct (bytes_eqb v S_trailers); cbn [negb]; reflexivity. }
    cbn [andb]. destruct (bytes_eqb k S_content_length).
    { unfold vstep, body_over. destruct (parse_uint v) as [n|]; [|reflexivity].
      destruct ((0 <? cf_maxBody cfg)%Z && _)%bool; [reflexivity|].
      unfold vabs; cbn [v_has v_cl hd_hasCL hd_contentLength].
      destruct (hd_hasCL h && negb (n =? hd_contentLength h)%Z)%bool; reflexivity. }
    reflexivity.
Qed.

Lemma fsize_nonneg fs : (0 <= fsize fs)%Z.
Proof. induction fs as [|f t IH]; cbn [fsize fold_right]; [lia|]. fold (fsize t). lia. Qed.

Lemma fsize_cons f t : fsize (f :: t) = (Z.of_N (len (fst f)) + Z.of_N (len (snd f)) + 32 + fsize t)%Z.
Proof. reflexivity. Qed.

Lemma fsize_app a b : fsize (a ++ b) = (fsize a + fsize b)%Z.
Proof. induction a as [|f t IH]; [reflexivity|]. rewrite <- app_comm_cons, !fsize_cons, IH. lia. Qed.

Lemma list_over_mono cfg a b : (a <= b)%Z -> list_over cfg b = false -> list_over cfg a = false.
Proof. unfold list_over. lia. Qed.

Lemma len_cons {A} (x : A) (l : list A) : N.of_nat (length (x :: l)) = 1 + N.of_nat (length l).
Proof. cbn [length]. lia. Qed.

Lemma vabs_hdr_of h st size nf rq : vabs (hdr_of h st size nf rq) = st.
Proof. destruct st; reflexivity. Qed.

Lemma req_fold_cons r f t : req_fold r (f :: t) = req_fold (req_step r f) t.
Proof. reflexivity. Qed.

Lemma fields_loop_inr cfg : forall fs h st',
  list_over cfg (hd_headerListSize h + fsize fs) = false ->
  vrun cfg (vabs h) fs = inr st' ->
  fields_loop cfg h fs =
  inr (hdr_of h st' (hd_headerListSize h + fsize fs) (hd_blockFields h + N.of_nat (length fs)) (req_fold (hd_req h) fs)).
Proof.
  induction fs as [|[k v] t IH]; intros h st' Hs Hv.
  - cbn [vrun] in Hv. inversion Hv; subst. cbn [fields_loop fsize fold_right length req_fold fold_left].
    destruct h; unfold hdr_of, vabs; cbn. f_equal. f_equal; lia.
  - cbn [vrun] in Hv. cbn [fields_loop]. rewrite header_field_vstep. cbv zeta.
    rewrite fsize_cons in Hs. cbn [fst snd] in Hs. pose proof (fsize_nonneg t) as Ht.
    assert (Hs1 : list_over cfg (hd_headerListSize h + Z.of_N (len k) + Z.of_N (len v) + 32) = false)
      by (eapply list_over_mono; [|exact Hs]; lia).
    rewrite Hs1.
    destruct (vstep cfg (vabs h) (classify k) v) as [code|st1] eqn:E; [discriminate|].
    rewrite (IH _ st'); [| | rewrite vabs_hdr_of; exact Hv ].
    + f_equal. unfold hdr_of. cbn [hd_headersFinished hd_prev hd_headerListSize hd_blockFields hd_req].
      rewrite fsize_cons, req_fold_cons, len_cons. cbn [fst snd]. f_equal; lia.
    + unfold hdr_of. cbn [hd_headerListSize]. eapply list_over_mono; [|exact Hs]. lia.
Qed.

Lemma fields_loop_inl cfg : forall fs h code,
  list_over cfg (hd_headerListSize h + fsize fs) = false ->
  vrun cfg (vabs h) fs = inl code ->
  fields_loop cfg h fs = inl (EReset code).
Proof.
  induction fs as [|[k v] t IH]; intros h code Hs Hv; [discriminate|].
  cbn [vrun] in Hv. cbn [fields_loop]. rewrite header_field_vstep. cbv zeta.
  rewrite fsize_cons in Hs. cbn [fst snd] in Hs. pose proof (fsize_nonneg t) as Ht.
  assert (Hs1 : list_over cfg (hd_headerListSize h + Z.of_N (len k) + Z.of_N (len v) + 32) = false)
    by (eapply list_over_mono; [|exact Hs]; lia).
  rewrite Hs1.
  destruct (vstep cfg (vabs h) (classify k) v) as [c|st1] eqn:E.
  - inversion Hv; subst. reflexivity.
  - apply IH; [| rewrite vabs_hdr_of; exact Hv]. unfold hdr_of. cbn [hd_headerListSize].
    eapply list_over_mono; [|exact Hs]. lia.
Qed.

(* within the header-list limit the fold is the automaton *)
Lemma fields_loop_vrun cfg fs h :
  list_over cfg (hd_headerListSize h + fsize fs) = false ->
  fields_loop cfg h fs =
  match vrun cfg (vabs h) fs with
  | inl code => inl (EReset code)
  | inr st' => inr (hdr_of h st' (hd_headerListSize h + fsize fs) (hd_blockFields h + N.of_nat (length fs)) (req_fold (hd_req h) fs))
  end.
Proof.
  intro H. destruct (vrun cfg (vabs h) fs) as [code|st'] eqn:V;
    [apply fields_loop_inl | apply fields_loop_inr]; assumption.
Qed.

(* over the header-list limit: some field is refused (with GOAWAY(ENHANCE_YOUR_CALM) if it is the one that
   crosses the limit, with the stream error of an earlier invalid field otherwise) *)
Lemma fields_loop_over cfg : forall fs h,
  list_over cfg (hd_headerListSize h) = false ->
  list_over cfg (hd_headerListSize h + fsize fs) = true -> exists e, fields_loop cfg h fs = inl e.
Proof.
  induction fs as [|[k v] t IH]; intros h H0 Hs.
  - exfalso. cbn [fsize fold_right] in Hs. rewrite Z.add_0_r in Hs. congruence.
  - cbn [fields_loop]. rewrite header_field_vstep. cbv zeta.
    destruct (list_over cfg (hd_headerListSize h + Z.of_N (len k) + Z.of_N (len v) + 32)) eqn:E1; [eauto|].
    destruct (vstep cfg (vabs h) (classify k) v) as [c|st1] eqn:E; [eauto|].
    apply IH; unfold hdr_of; cbn [hd_headerListSize]; [exact E1|].
    rewrite fsize_cons in Hs. cbn [fst snd] in Hs. rewrite <- Hs. f_equal. lia.
Qed.

(* parseUint is 1*DIGIT up to 2^63-1 *)
Definition dec_fold (b : bytes) (acc : N) : N := fold_left (fun acc c => 10 * acc + (c - 48)) b acc.

Lemma dec_fold_ge b : forall acc, acc <= dec_fold b acc.
Proof.
  induction b as [|c r IH]; intro acc; cbn [dec_fold fold_left]; [lia|].
  fold (dec_fold r (10 * acc + (c - 48))). specialize (IH (10 * acc + (c - 48))). lia.
Qed.

Lemma parse_uint_loop_spec : forall b acc, (Z.of_N acc <= MAXINT)%Z ->
  parse_uint_loop b (Z.of_N acc) =
  if forallb digit b
  then (if (Z.of_N (dec_fold b acc) <=? MAXINT)%Z then Some (Z.of_N (dec_fold b acc)) else None)
  else None.
Proof.
  induction b as [|c r IH]; intros acc Ha.
  - cbn [parse_uint_loop forallb dec_fold fold_left]. destruct (Z.leb_spec (Z.of_N acc) MAXINT); [reflexivity | lia].
  - cbn [parse_uint_loop forallb dec_fold fold_left]. fold (dec_fold r (10 * acc + (c - 48))).
    unfold digit at 1.
    destruct ((c <? 48) || (57 <? c))%bool eqn:Ed.
    { replace ((48 <=? c) && (c <=? 57))%bool with false by lia. reflexivity. }
    replace ((48 <=? c) && (c <=? 57))%bool with true by lia. cbn [andb].
    set (d := Z.of_N (c - 48)).
    assert (Hd : (0 <= d <= 9)%Z) by (subst d; lia).
    pose proof (Z.div_mod (MAXINT - d) 10 ltac:(lia)) as Hdm.
    pose proof (Z.mod_pos_bound (MAXINT - d) 10 ltac:(lia)) as Hmb.
    destruct (Z.ltb_spec ((MAXINT - d) / 10) (Z.of_N acc)) as [Hov|Hok].
    + (* overflow: the value is above MAXINT whatever follows *)
      pose proof (dec_fold_ge r (10 * acc + (c - 48))) as Hge.
      assert (Hbig : (MAXINT < Z.of_N (dec_fold r (10 * acc + (c - 48))))%Z) by (subst d; lia).
      destruct (forallb digit r); [|reflexivity].
      destruct (Z.leb_spec (Z.of_N (dec_fold r (10 * acc + (c - 48)))) MAXINT); [lia | reflexivity].
    + replace (Z.of_N acc * 10 + d)%Z with (Z.of_N (10 * acc + (c - 48))) by (subst d; lia).
      apply IH. subst d. lia.
Qed.

Lemma parse_uint_decimal v :
  parse_uint v = match decimal v with
                 | Some n => if (Z.of_N n <=? MAXINT)%Z then Some (Z.of_N n) else None
                 | None => None
                 end.
Proof.
  unfold parse_uint, decimal. destruct v as [|c r]; [reflexivity|].
  change 0%Z with (Z.of_N 0). rewrite parse_uint_loop_spec by (unfold MAXINT; lia).
  fold (dec_fold (c :: r) 0). destruct (forallb digit (c :: r)); reflexivity.
Qed.

(* names: the specification's tests through classify *)
Definition cls_eqb (a b : cls) : bool :=
  match a, b with
  | KUpper, KUpper | KMethod, KMethod | KPath, KPath | KScheme, KScheme | KAuth, KAuth | KBadPseudo, KBadPseudo
  | KConn, KConn | KTe, KTe | KCL, KCL | KPlain, KPlain => true
  | _, _ => false
  end.
Definition cls_pseudo (c : cls) : bool :=
  match c with KMethod | KPath | KScheme | KAuth | KBadPseudo => true | _ => false end.

Definition consts : list bytes :=
  [S_method; S_path; S_scheme; S_authority; S_connection; S_keep_alive; S_proxy_connection; S_transfer_encoding;
   S_upgrade; S_te; S_content_length].

Lemma consts_dec k : In k consts \/ forallb (fun c => negb (bytes_eqb k c)) consts = true.
Proof.
  destruct (forallb (fun c => negb (bytes_eqb k c)) consts) eqn:E; [right; reflexivity | left].
  apply not_true_iff_false in E. rewrite forallb_forall in E.
  destruct (in_dec (list_eq_dec N.eq_dec) k consts) as [I|NI]; [assumption|].
  exfalso. apply E. intros c Hc. rewrite bytes_eqb_neq; [reflexivity|]. intro; subst. contradiction.
Qed.

Lemma lower_upper k : lower_case k = negb (has_upper_case k).
Proof. reflexivity. Qed.

Record name_view (k v : bytes) : Prop := mkNV {
  nv_up : classify k <> KUpper;
  nv_pseudo : Http2Messages.is_pseudo (k, v) = cls_pseudo (classify k);
  nv_m : has_name P_method (k, v) = cls_eqb (classify k) KMethod;
  nv_p : has_name P_path (k, v) = cls_eqb (classify k) KPath;
  nv_s : has_name P_scheme (k, v) = cls_eqb (classify k) KScheme;
  nv_a : has_name P_authority (k, v) = cls_eqb (classify k) KAuth;
  nv_conn : name_in connection_specific (k, v) = cls_eqb (classify k) KConn;
  nv_te : has_name H_te (k, v) = cls_eqb (classify k) KTe;
  nv_cl : has_name H_content_length (k, v) = cls_eqb (classify k) KCL
}.

Lemma is_pseudo_eqb y k' : ServerConn.is_pseudo (y :: k') = (y =? 58).
Proof.
  unfold ServerConn.is_pseudo. destruct y as [|p]; [reflexivity|].
  do 6 (destruct p as [p|p|]; try reflexivity).
Qed.
Lemma not_pseudo_neq k r : ServerConn.is_pseudo k = false -> bytes_eqb k (58 :: r) = false.
Proof.
  destruct k as [|x k']; [reflexivity|]. rewrite is_pseudo_eqb. cbn [bytes_eqb]. intro H. rewrite H. reflexivity.
Qed.
Lemma pseudo_neq k x r : ServerConn.is_pseudo k = true -> x <> 58 -> bytes_eqb k (x :: r) = false.
Proof.
  destruct k as [|y k']; [reflexivity|]. rewrite is_pseudo_eqb. cbn [bytes_eqb]. intros H Hx.
  apply N.eqb_eq in H. subst y. destruct (N.eqb_spec 58 x); [congruence | reflexivity].
Qed.

Lemma view k v : lower_case k = true -> name_view k v.
Proof.
  intro L. rewrite lower_upper in L. apply negb_true_iff in L.
  destruct (consts_dec k) as [I|NI].
  - cbn [consts In] in I.
    repeat (destruct I as [I|I]; [subst k; constructor; vm_compute; congruence|]). destruct I.
  - cbn [consts forallb] in NI. repeat (apply andb_true_iff in NI; destruct NI as [? NI]).
    repeat match goal with H : negb _ = true |- _ => apply negb_true_iff in H end.
    assert (C : classify k = if ServerConn.is_pseudo k then KBadPseudo else KPlain).
    { unfold classify, is_connection_specific. rewrite L.
      repeat match goal with H : bytes_eqb k _ = false |- _ => rewrite H; clear H end. reflexivity. }
    assert (P : Http2Messages.is_pseudo (k, v) = ServerConn.is_pseudo k) by reflexivity.
    destruct (ServerConn.is_pseudo k) eqn:Ps; constructor; rewrite ?P, C; try discriminate; try assumption;
      cbn [cls_eqb cls_pseudo]; unfold name_in, connection_specific; cbn [existsb]; unfold has_name; cbn [fst];
      repeat match goal with
             | H : bytes_eqb k ?c = false |- context [bytes_eqb k ?d] => change d with c; rewrite H
             end; reflexivity.
Qed.

(* the automaton's verdict is wf_request *)
Definition lowerf (f : field) : bool := lower_case (fst f).
Definition none (n : bytes) (fs : list field) : bool := negb (existsb (has_name n) fs).
Definition upto (seen : bool) (n : bytes) (fs : list field) : bool := if seen then none n fs else at_most_once n fs.

Lemma filter_none {A} (p : A -> bool) l : Nat.leb (length (filter p l)) 0 = negb (existsb p l).
Proof. induction l as [|x t IH]; [reflexivity|]. cbn [filter existsb]. destruct (p x); [reflexivity | exact IH]. Qed.

Lemma none_cons n f t : none n (f :: t) = negb (has_name n f) && none n t.
Proof. unfold none. cbn [existsb]. apply negb_orb. Qed.
Lemma amo_cons n f t : at_most_once n (f :: t) = if has_name n f then none n t else at_most_once n t.
Proof.
  unfold at_most_once, occurrences, none. cbn [filter]. destruct (has_name n f); [|reflexivity].
  cbn [length Nat.leb]. apply filter_none.
Qed.
Lemma once_split n fs : once n fs = existsb (has_name n) fs && at_most_once n fs.
Proof.
  unfold once, at_most_once, occurrences. induction fs as [|f t IH]; [reflexivity|].
  cbn [filter existsb]. destruct (has_name n f); [|exact IH].
  cbn [length orb andb]. destruct (length (filter (has_name n) t)) as [|[|m]]; reflexivity.
Qed.
Lemma pne_none t : existsb (has_name P_path) t = false -> path_not_empty t = true.
Proof.
  unfold path_not_empty. induction t as [|f t IH]; [reflexivity|]. cbn [existsb forallb]. intro H.
  apply orb_false_iff in H. destruct H as [H1 H2]. rewrite H1, (IH H2). reflexivity.
Qed.
Lemma bytes_eqb_nil v : bytes_eqb v [] = is_nil v.
Proof. destruct v; reflexivity. Qed.

Section Verdict.
Variable cfg : config.
Variable n : N.
Hypothesis Hbody : body_over cfg (Z.of_N n) = false.
Hypothesis Hn : (Z.of_N n <= MAXINT)%Z.

Definition TR (tr : list field) : bool :=
  forallb lowerf tr && no_pseudo tr && no_connection_fields tr && te_ok tr && content_length_ok n tr.

Lemma vacc_cons st k v t :
  vacc cfg st ((k, v) :: t) n = match vstep cfg st (classify k) v with inl _ => false | inr st1 => vacc cfg st1 t n end.
Proof. unfold vacc. cbn [vrun]. destruct (vstep cfg st (classify k) v); reflexivity. Qed.

Ltac bsplit := rewrite ?andb_true_iff, ?negb_true_iff, ?orb_false_iff, ?negb_false_iff in *.

Lemma TR_cons k v t :
  TR ((k, v) :: t) = true <->
  lower_case k = true /\ Http2Messages.is_pseudo (k, v) = false /\ name_in connection_specific (k, v) = false /\
  (if has_name H_te (k, v) then bytes_eqb v V_trailers else true) = true /\
  (if has_name H_content_length (k, v) then match decimal v with Some m => m =? n | None => false end else true) = true /\
  TR t = true.
Proof.
  unfold TR, no_pseudo, no_connection_fields, te_ok, content_length_ok, lowerf. cbn [forallb existsb fst snd].
  bsplit. tauto.
Qed.

Lemma upper_rejected st k v : lower_case k = false -> vstep cfg st (classify k) v = inl c_ProtocolError.
Proof.
  rewrite lower_upper. intro H. apply negb_false_iff in H. unfold classify. rewrite H. reflexivity.
Qed.

(* content-length: one step *)
Definition cl_field_ok (v : bytes) : bool := match decimal v with Some m => m =? n | None => false end.

Lemma cl_step st v :
  match vstep cfg st KCL v with
  | inl _ => v_cl_ok st n = true -> cl_field_ok v = false
  | inr st1 => st1 = mkV (v_m st) (v_s st) (v_p st) (v_a st) true (v_cl st1) true (v_path st) /\
               (v_cl_ok st1 n = true <-> v_cl_ok st n = true /\ cl_field_ok v = true)
  end.
Proof.
  unfold vstep, cl_field_ok. rewrite parse_uint_decimal. destruct (decimal v) as [m|]; [|reflexivity].
  destruct (Z.leb_spec (Z.of_N m) MAXINT) as [Hm|Hm].
  2:{ intros _. lia. }
  destruct (body_over cfg (Z.of_N m)) eqn:Bo.
  { intros _. destruct (N.eqb_spec m n); [subst; congruence | reflexivity]. }
  unfold v_cl_ok. destruct (v_has st); cbn [andb].
  - destruct (Z.eqb_spec (Z.of_N m) (v_cl st)) as [E|E]; cbn [negb v_has v_cl].
    + split; [reflexivity|]. lia.
    + lia.
  - cbn [v_has v_cl]. split; [reflexivity|]. lia.
Qed.

(* after a regular field only regular fields may follow *)
Lemma vacc_regular : forall fs st, v_r st = true -> (vacc cfg st fs n = true <-> v_cl_ok st n = true /\ TR fs = true).
Proof.
  induction fs as [|[k v] t IH]; intros st Hr.
  - unfold vacc, TR. cbn. tauto.
  - rewrite vacc_cons, TR_cons. destruct (lower_case k) eqn:L.
    2:{ rewrite upper_rejected by assumption. split; [discriminate | intros (_ & ? & _); discriminate]. }
    destruct (view k v L) as [Vu Vp Vm Vpa Vs Va Vc Vt Vl]. rewrite Vp, Vc, Vt, Vl.
    destruct (classify k) eqn:C; try congruence; cbn [cls_pseudo cls_eqb].
    1-5,6: (unfold vstep; rewrite ?Hr; cbn [orb]; split; [discriminate | intros (_ & _ & ? & ? & _); discriminate]).
    + (* te *) unfold vstep. change V_trailers with S_trailers. destruct (bytes_eqb v S_trailers).
      * rewrite IH by reflexivity. unfold v_cl_ok; cbn [v_has v_cl]. tauto.
      * split; [discriminate | intros (_ & _ & _ & _ & ? & _); discriminate].
    + (* content-length *)
      pose proof (cl_step st v) as S. fold (cl_field_ok v). destruct (vstep cfg st KCL v) as [c|st1].
      * split; [discriminate|]. intros (A & _ & _ & _ & _ & B & _). rewrite (S A) in B. discriminate.
      * destruct S as [E S]. rewrite IH by (rewrite E; reflexivity). rewrite S. tauto.
    + (* plain *) unfold vstep. rewrite IH by reflexivity. unfold v_cl_ok; cbn [v_has v_cl]. tauto.
Qed.

(* the first block, from any state of the flags *)
Definition ex (nm : bytes) (fs : list field) : bool := existsb (has_name nm) fs.

Definition G (st : vst) (fs : list field) : Prop :=
  forallb lowerf fs = true /\ pseudo_defined fs = true /\
  (if v_r st then no_pseudo fs else pseudo_first fs) = true /\
  no_connection_fields fs = true /\ te_ok fs = true /\
  upto (v_m st) P_method fs = true /\ upto (v_s st) P_scheme fs = true /\
  upto (v_p st) P_path fs = true /\ upto (v_a st) P_authority fs = true /\
  (v_m st || ex P_method fs) = true /\ (v_s st || ex P_scheme fs) = true /\ (v_p st || ex P_path fs) = true /\
  (if ex P_path fs then path_not_empty fs else negb (is_nil (v_path st))) = true /\
  v_cl_ok st n = true /\ content_length_ok n fs = true.

Definition accepted (st : vst) (fs : list field) : Prop :=
  exists st1, vrun cfg st fs = inr st1 /\ v_valid st1 = true /\ v_cl_ok st1 n = true.

Lemma upto_cons seen nm f t :
  upto seen nm (f :: t) = if has_name nm f then negb seen && none nm t else upto seen nm t.
Proof. unfold upto. rewrite none_cons, amo_cons. destruct seen, (has_name nm f); reflexivity. Qed.

Lemma G_cons st k v t :
  G st ((k, v) :: t) <->
  lower_case k = true /\ forallb lowerf t = true /\
  (if Http2Messages.is_pseudo (k, v) then name_in request_pseudo (k, v) else true) = true /\ pseudo_defined t = true /\
  (if Http2Messages.is_pseudo (k, v) then (if v_r st then false else pseudo_first t) else no_pseudo t) = true /\
  name_in connection_specific (k, v) = false /\ no_connection_fields t = true /\
  (if has_name H_te (k, v) then bytes_eqb v V_trailers else true) = true /\ te_ok t = true /\
  (if has_name P_method (k, v) then negb (v_m st) && none P_method t else upto (v_m st) P_method t) = true /\
  (if has_name P_scheme (k, v) then negb (v_s st) && none P_scheme t else upto (v_s st) P_scheme t) = true /\
  (if has_name P_path (k, v) then negb (v_p st) && none P_path t else upto (v_p st) P_path t) = true /\
  (if has_name P_authority (k, v) then negb (v_a st) && none P_authority t else upto (v_a st) P_authority t) = true /\
  (v_m st || (has_name P_method (k, v) || ex P_method t)) = true /\
  (v_s st || (has_name P_scheme (k, v) || ex P_scheme t)) = true /\
  (v_p st || (has_name P_path (k, v) || ex P_path t)) = true /\
  (if has_name P_path (k, v) || ex P_path t
   then (if has_name P_path (k, v) then negb (bytes_eqb v []) else true) && path_not_empty t
   else negb (is_nil (v_path st))) = true /\
  v_cl_ok st n = true /\
  (if has_name H_content_length (k, v) then cl_field_ok v else true) = true /\ content_length_ok n t = true.
Proof.
  unfold G. rewrite !upto_cons.
  unfold pseudo_defined, no_connection_fields, te_ok, content_length_ok, path_not_empty, ex, lowerf, no_pseudo, cl_field_ok.
  cbn [forallb existsb pseudo_first fst snd].
  destruct (Http2Messages.is_pseudo (k, v)), (v_r st); cbn [negb orb]; bsplit; (split; intros HH; decompose [and] HH; clear HH; repeat split; assumption).
Qed.

Lemma accepted_cons st k v t :
  accepted st ((k, v) :: t) <-> exists st1, vstep cfg st (classify k) v = inr st1 /\ accepted st1 t.
Proof.
  unfold accepted. cbn [vrun]. destruct (vstep cfg st (classify k) v) as [c|st1].
  - split; [intros (? & ? & _); discriminate | intros (? & ? & _); discriminate].
  - split; [intros H; exists st1; auto | intros (? & E & H); inversion E; subst; assumption].
Qed.

Lemma ex_inr st' (P : vst -> Prop) : (exists st1 : vst, @inr N vst st' = inr st1 /\ P st1) <-> P st'.
Proof. split; [intros (? & E & H); inversion E; subst; assumption | intro H; exists st'; auto]. Qed.
Lemma ex_inl c (P : vst -> Prop) : (exists st1 : vst, @inl N vst c = inr st1 /\ P st1) <-> False.
Proof. split; [intros (? & E & _); discriminate | intros []]. Qed.

Ltac absurd_hyp :=
  match goal with
  | H : false = true |- _ => discriminate H
  | H : true = false |- _ => discriminate H
  | H : False |- _ => destruct H
  end.
Ltac fin := bsplit; split; intros HH; try (exfalso; exact HH); decompose [and] HH; clear HH;
            try absurd_hyp; repeat split; auto; try (rewrite ?orb_true_r; reflexivity).
Ltac gstep IH := cbn [orb negb andb]; rewrite ?ex_inr, ?ex_inl, ?IH; unfold G, v_cl_ok; cbn [v_m v_s v_p v_a v_r v_cl v_has v_path upto orb negb andb].

Lemma V_trailers_eq : V_trailers = S_trailers.
Proof. reflexivity. Qed.

Lemma accepted_G : forall fs st, accepted st fs <-> G st fs.
Proof.
  induction fs as [|[k v] t IH]; intros st.
  - unfold accepted, G, v_valid, ex. cbn [vrun forallb pseudo_defined existsb]. unfold upto, none, at_most_once, no_pseudo.
    cbn. rewrite !orb_false_r. split.
    + intros (st1 & E & V & C). inversion E; subst. bsplit. destruct V as [[[-> ->] ->] ?].
      destruct (v_r st1), (v_a st1); repeat split; auto.
    + intros H. exists st. bsplit. decompose [and] H. repeat split; auto.
  - rewrite accepted_cons, G_cons. destruct (lower_case k) eqn:L.
    2:{ rewrite upper_rejected by assumption. split; [intros (? & ? & _); discriminate | intros (? & _); discriminate]. }
    destruct (view k v L) as [Vu Vp Vm Vpa Vs Va Vc Vt Vl]. rewrite Vp, Vm, Vpa, Vs, Va, Vc, Vt, Vl.
    unfold name_in, request_pseudo. cbn [existsb]. rewrite Vm, Vpa, Vs, Va.
    destruct (classify k) eqn:C; try congruence; cbn [cls_pseudo cls_eqb orb andb]; unfold vstep.
    + abstract (destruct (v_r st) eqn:Er, (v_m st) eqn:Em; gstep IH; rewrite ?Er, ?Em; cbn [negb andb orb]; fin).
    + destruct (v_r st) eqn:Er, (v_p st) eqn:Em; gstep IH; rewrite ?Er, ?Em; cbn [negb andb orb]; try solve [abstract fin].
      unfold none, ex. rewrite bytes_eqb_nil. destruct (existsb (has_name P_path) t) eqn:X; cbn [negb]; [abstract fin|].
      rewrite (pne_none _ X). abstract fin.
    + abstract (destruct (v_r st) eqn:Er, (v_s st) eqn:Em; gstep IH; rewrite ?Er, ?Em; cbn [negb andb orb]; fin).
    + abstract (destruct (v_r st) eqn:Er, (v_a st) eqn:Em; gstep IH; rewrite ?Er, ?Em; cbn [negb andb orb]; fin).
    + destruct (v_r st).
      * abstract (gstep IH; fin).
      * abstract (gstep IH; fin).
    + abstract (gstep IH; fin).
    + rewrite V_trailers_eq. destruct (bytes_eqb v S_trailers).
      * gstep IH. destruct (v_r st). { abstract fin. } { abstract fin. }
      * gstep IH. abstract fin.
    + 
      pose proof (cl_step st v) as S. unfold vstep in S. 
      destruct (match parse_uint v with Some z => _ | None => _ end) as [c|st1].
      * gstep IH. split; [intros [] | intros HH; decompose [and] HH; clear HH]. 
        match goal with A : (if v_has st then _ else _) = true |- _ => fold (v_cl_ok st n) in A; rewrite (S A) in *; discriminate end.
      * destruct S as [E S]. gstep IH. fold (v_cl_ok st1 n) (v_cl_ok st n). rewrite S. rewrite E.
        cbn [v_m v_s v_p v_a v_r v_cl v_has v_path upto]. destruct (v_r st); abstract fin.
    + gstep IH; destruct (v_r st); abstract fin.
Qed.

Lemma vacc2_iff st fs tr : vacc2 cfg st fs tr n = true <-> G st fs /\ TR tr = true.
Proof.
  rewrite <- accepted_G. unfold vacc2, accepted. destruct (vrun cfg st fs) as [c|st1].
  - split; [discriminate | intros [(? & ? & _) _]; discriminate].
  - rewrite andb_true_iff, vacc_regular by reflexivity.
    assert (E : v_cl_ok (v_setr st1) n = v_cl_ok st1 n) by reflexivity. rewrite E. split.
    + intros (V & C & T). split; [exists st1; auto | assumption].
    + intros [(x & X & V & C) T]. inversion X; subst. auto.
Qed.

Theorem vacc2_wf fs tr : vacc2 cfg v0 fs tr n = wf_request fs tr n.
Proof.
  apply eq_true_iff_eq. rewrite vacc2_iff. unfold G, TR, wf_request, v0, v_cl_ok.
  cbn [v_m v_s v_p v_a v_r v_cl v_has v_path upto orb is_nil negb].
  rewrite !once_split. fold (ex P_method fs) (ex P_scheme fs) (ex P_path fs).
  unfold no_connection_fields, te_ok, content_length_ok, lowerf.
  rewrite !forallb_app, !existsb_app. destruct (ex P_path fs); bsplit;
    (split; intros HH; decompose [and] HH; clear HH; try absurd_hyp; repeat split; auto).
Qed.
End Verdict.
