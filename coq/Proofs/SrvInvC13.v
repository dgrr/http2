(* Proofs/SrvInvC13.v - the statements of Props/C13.v (a)(b)(c), from the structural invariant. *)
From H2V Require Import Base.Bytes Base.MachineInt Base.Result Gen.GenConsts Impl.ServerConn Proofs.SrvBase
  Proofs.SrvInvMoves Proofs.SrvInvDecomp Proofs.SrvInvSteps Proofs.SrvInvSlots.
From Coq Require Import ZArith Lia ZifyN ZifyNat ZifyBool Permutation.
Local Open Scope N_scope.

Section C13.
Variable hstate : Type.
Variable dec_field : hstate -> N -> bytes -> dec_res hstate.
Variable enc_field : hstate -> bytes -> bytes -> bool -> bytes * hstate.
Variable enc_set_max : hstate -> N -> hstate.
Variable cfg : config.
Variable h0 : hstate.
Notation Q := QT.
Notation sconn := (sconn hstate).
Notation mv := (mv hstate dec_field cfg Q).
Notation mvs := (mvs hstate dec_field cfg Q).
Notation step := (step dec_field enc_field enc_set_max cfg).
Notation run := (run dec_field enc_field enc_set_max cfg h0).
Notation SI := (SI cfg Q).

(* (a) the handlers running never exceed the open-stream count, which never exceeds the limit *)
Theorem slots_bound evs :
  let c := run evs in (0 <= running c <= sc_open c)%Z /\ (sc_open c <= Z.max 0 (cf_maxStreams cfg))%Z.
Proof. apply (SI_slots _ cfg _ Q). apply SI_run_T. Qed.

(* the open-stream count is exactly: HEADERS-opened streams in the table + abandoned streams whose handler runs *)
Theorem open_exact evs :
  let c := run evs in
  sc_open c = (count_hdr (sc_strms c) + Z.of_nat (length (sc_gone c)))%Z /\
  Forall (fun s => st_orig s = KHeaders /\ st_handlerRunning s = true) (sc_gone c).
Proof. destruct (SI_run_T _ dec_field enc_field enc_set_max cfg h0 evs). split; assumption. Qed.

(* an abandoned stream stays in sc_gone (and so keeps its slot) until an EvDone takes it out *)
Lemma mv_gone_kept a b : mv None a b -> incl (sc_gone a) (sc_gone b).
Proof.
  intro M. remember None as o eqn:EO.
  destruct M; try discriminate EO; rewrite ?sc_gone_write_goaway, ?sc_gone_mark_closed; try apply incl_refl.
  - rewrite (lite_gone _ _ _ _ H0). apply incl_refl.
  - rewrite sc_gone_close_stream. destruct (st_handlerRunning x); [apply incl_tl|]; apply incl_refl.
  - destruct H0 as [SC _]. destruct SC as (_ & S2 & _). rewrite S2. apply incl_refl.
Qed.
Lemma mvs_gone_kept l a b : mvs l a b -> l = [] -> incl (sc_gone a) (sc_gone b).
Proof.
  induction 1 as [c|o l a b c M MS IH]; intro E; [apply incl_refl|]. destruct o; [discriminate|].
  eapply incl_tran; [apply mv_gone_kept; exact M | apply IH; exact E].
Qed.
Lemma omvs_gone_kept pc a b : omvs hstate pc a b -> sc_gone b = sc_gone a.
Proof. intro M. apply (omvs_keeps _ _ _ _ M). Qed.

Theorem abandoned_keeps_slot evs e :
  (forall sid r, e <> EvDone sid r) -> incl (sc_gone (run evs)) (sc_gone (step (run evs) e)).
Proof.
  intro NE. pose proof (SI_run_T _ dec_field enc_field enc_set_max cfg h0 evs) as HS.
  assert (SH := step_shape hstate dec_field enc_field enc_set_max cfg Q
           (QT_closed _ dec_field cfg) (run evs) e (SI_ids_ok _ _ _ _ HS)).
  destruct e; try (destruct SH as (c0 & O & M); rewrite <- (omvs_gone_kept _ _ _ O); apply (mvs_gone_kept _ _ _ M eq_refl)).
  exfalso. eapply NE. reflexivity.
Qed.

(* (b) the closed-stream memory *)
Theorem ring_bound evs : (length (sc_ring (run evs)) <= 256)%nat.
Proof. eapply si_ring. apply SI_run_T. Qed.

(* (c) the stream table: bounded by the open-stream count, not by the number of frames *)
Theorem table_bound evs :
  let c := run evs in
  (Z.of_nat (length (sc_strms c)) <= sc_open c + 1)%Z /\
  (sc_sl_done c = false -> Forall (fun s => st_orig s = KHeaders) (sc_strms c) /\
                           (Z.of_nat (length (sc_strms c)) <= sc_open c)%Z).
Proof.
  intro c. pose proof (SI_run_T _ dec_field enc_field enc_set_max cfg h0 evs) as HS. fold c in HS.
  pose proof (si_open _ _ _ _ HS) as O. pose proof (si_len _ _ _ _ HS) as L. pose proof (si_hdrs _ _ _ _ HS) as A.
  split; [lia|]. intro Hd. split; [auto|]. rewrite (count_hdr_all _ (A Hd)) in O. lia.
Qed.

End C13.
