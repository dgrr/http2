(* Proofs/SrvIsoRun.v - C09 (a) over whole runs: the HPACK decoder state after any run in which the stream
   loop raised no connection error while handling a header-block fragment is the reference decoder folded
   over the fragments the stream loop has handled - whatever happened to the streams they belonged to.
   Also: the frame condition (no other step touches the decoder), and the contiguity of header blocks in the
   stream loop's input (what the read loop guarantees). *)
From H2V Require Import Base.Bytes Base.MachineInt Base.Result Gen.GenConsts Impl.ServerConn Proofs.SrvBase
  Proofs.SrvInvFrame Proofs.SrvIsoRef Proofs.SrvIsoMoves Proofs.SrvIsoSteps Proofs.SrvIsoHdr Proofs.SrvIsoHdrStep.
From Coq Require Import ZArith Lia ZifyN ZifyNat ZifyBool.
Local Open Scope N_scope.

Section Run.
Variable hstate : Type.
Variable dec_field : hstate -> N -> bytes -> dec_res hstate.
Variable enc_field : hstate -> bytes -> bytes -> bool -> bytes * hstate.
Variable enc_set_max : hstate -> N -> hstate.
Variable cfg : config.
Notation sconn := (sconn hstate).
Notation step := (step dec_field enc_field enc_set_max cfg).
Implicit Types c : sconn.

Definition sl_takes c (e : event) : option sframe :=
  match e with
  | EvSL => if sc_sl_done c then None else hd_error (sc_readerQ c)
  | _ => None
  end.

(* the header-block fragment handled in this step, if any *)
Definition hdr_taken c (e : event) : list sframe :=
  match sl_takes c e with
  | Some fr => if is_hdr_frame fr then [fr] else []
  | None => []
  end.

Fixpoint hframes_from c (evs : list event) : list sframe :=
  match evs with
  | [] => []
  | e :: t => hdr_taken c e ++ hframes_from (step c e) t
  end.

Lemma hframes_from_app c a b : hframes_from c (a ++ b) = hframes_from c a ++ hframes_from (run_from dec_field enc_field enc_set_max cfg c a) b.
Proof.
  revert c. induction a as [|e a IH]; intro c; [reflexivity|].
  cbn [app hframes_from]. rewrite IH, <- app_assoc. reflexivity.
Qed.

(* the frame condition: only header-block fragments touch the decoder *)
Definition rsame c c' : Prop :=
  sc_dec c' = sc_dec c /\ sc_discardID c' = sc_discardID c /\ sc_discardPrev c' = sc_discardPrev c /\
  sc_discardFields c' = sc_discardFields c /\ sc_strms c' = sc_strms c /\ sc_ring c' = sc_ring c /\
  sc_lastID c' = sc_lastID c /\ sc_highestID c' = sc_highestID c /\ sc_sl_done c' = sc_sl_done c /\
  sc_wl_dead c' = sc_wl_dead c.

(* rsame is part of what the read loop leaves alone (Proofs/SrvInvFrame.v) *)
Lemma rsame_rl_step c i : rsame c (rl_step cfg c i).
Proof. pose proof (rl_step_frame _ cfg c i) as E. unfold slview in E. inversion E. unfold rsame. repeat split; assumption. Qed.

Lemma no_open_block_false c : no_open_block false c.
Proof. intro K. discriminate K. Qed.

(* C09 (a), converse: a step that does not handle a header-block fragment leaves the decoder alone *)
Theorem dec_frame_condition c e : hdr_taken c e = [] -> sc_dec (step c e) = sc_dec c.
Proof.
  intro HT. destruct e as [i| |sid r|t| | | |].
  - rewrite step_EvRL. destruct (sc_rl_done c); [reflexivity|]. apply rsame_rl_step.
  - rewrite step_EvSL. unfold hdr_taken, sl_takes in HT.
    destruct (sc_sl_done c); [reflexivity|].
    destruct (sc_readerQ c) as [|fr q]; [destruct (sc_rl_done c); reflexivity|].
    cbn [hd_error] in HT. destruct (is_hdr_frame fr) eqn:IH; [discriminate|].
    rewrite (hmvs_dec _ _ _ _ _ (hmvs_sl_frame_other _ dec_field enc_set_max cfg (sf_sid fr) false _ fr IH (fun _ => eq_refl) (no_open_block_false _))).
    reflexivity.
  - rewrite step_EvDone. destruct (sc_sl_done c); [reflexivity|].
    apply (hmvs_dec _ sid false). apply hmvs_sl_done. intro K; discriminate K.
  - rewrite step_EvClock. destruct (_ <? _)%Z; reflexivity.
  - rewrite step_EvTimer. destruct (sc_sl_done c); [reflexivity|]. apply (hmvs_dec _ 0 false). apply hmvs_sl_timer.
  - rewrite step_EvIdle. apply sc_dec_write_goaway.
  - rewrite step_EvCloser. destruct (_ && _)%bool; reflexivity.
  - reflexivity.
Qed.

(* header blocks are contiguous in the stream loop's input *)
(* walking through the queue from the block in progress (0: none): Some fin = the block open at the end *)
Fixpoint qwalk (cur : N) (q : list sframe) : option N :=
  match q with
  | [] => Some cur
  | fr :: t =>
    if is_hdr_frame fr then
      if is_cont fr then (if cur =? sf_sid fr then qwalk (next_cur fr) t else None)
      else (if cur =? 0 then qwalk (next_cur fr) t else None)
    else (if cur =? 0 then qwalk 0 t else None)
  end.

Lemma qwalk_app cur q1 q2 : qwalk cur (q1 ++ q2) = match qwalk cur q1 with Some m => qwalk m q2 | None => None end.
Proof.
  revert cur. induction q1 as [|fr t IH]; intro cur; cbn [app qwalk]; [reflexivity|].
  destruct (is_hdr_frame fr); [destruct (is_cont fr)|]; destruct (_ =? _); auto.
Qed.

(* the queue continues the block in progress, and ends where the read loop is *)
Definition QI c (cur : N) : Prop :=
  exists fin, qwalk cur (sc_readerQ c) = Some fin /\ (sc_rl_done c = false -> fin = sc_expectCont c).

Lemma QI_ext c c' cur : sc_readerQ c' = sc_readerQ c -> sc_rl_done c' = sc_rl_done c -> sc_expectCont c' = sc_expectCont c ->
  QI c cur -> QI c' cur.
Proof. intros E1 E2 E3 (fin & W & F). exists fin. rewrite E1, E2, E3. auto. Qed.

Lemma QI_exit c cur c' : sc_readerQ c' = sc_readerQ c -> sc_rl_done c' = true -> QI c cur -> QI c' cur.
Proof. intros E1 E2 (fin & W & F). exists fin. rewrite E1, E2. split; [exact W | discriminate]. Qed.

Lemma QI_forward c cur fr m : sc_rl_done c = false ->
  qwalk (sc_expectCont c) [fr] = Some m ->
  QI c cur -> QI (forward (upd_expectCont c m) fr) cur.
Proof.
  intros Hr W1 (fin & W & F). specialize (F Hr). subst fin. unfold forward. sc_cbn.
  destruct (sc_sl_done c).
  - exists (sc_expectCont c). unfold rl_exit, note. sc_cbn. split; [exact W | discriminate].
  - exists m. sc_cbn. rewrite qwalk_app, W. split; [exact W1 | reflexivity].
Qed.

Lemma check_frame_odd fr : check_frame_with_stream fr = None -> sf_sid fr <> 0.
Proof.
  unfold check_frame_with_stream. destruct (N.land (sf_sid fr) 1 =? 0) eqn:E; [discriminate|]. intros _ Z. rewrite Z in E. discriminate.
Qed.

Lemma sum_if (A B C : Type) (b : bool) (x y : B) (G : A -> C) (F : B -> C) :
  match (if b then inr x else inr y) with inl a => G a | inr c0 => F c0 end = F (if b then x else y).
Proof. destruct b; reflexivity. Qed.

Lemma QI_rl_step c cur i : sc_rl_done c = false -> QI c cur -> QI (rl_step cfg c i) cur.
Proof.
  intros Hr Q.
  assert (EX : forall c1 why, sc_readerQ c1 = sc_readerQ c -> QI (rl_exit c1 why) cur).
  { intros c1 why E. eapply QI_exit; [| |exact Q]; unfold rl_exit, note; sc_cbn; [exact E | reflexivity]. }
  assert (GX : forall code why, QI (rl_exit (write_goaway c 0 code) why) cur).
  { intros. apply EX, sc_readerQ_write_goaway. }
  unfold rl_step. destruct i as [fr| |[code|]|]; try (apply EX; reflexivity); try apply GX.
  2:{ destruct (negb _); [apply GX | exact Q]. }
  destruct (negb (sc_expectCont c =? 0)) eqn:EC.
  - (* a block is open: only its CONTINUATION is acceptable *)
    apply negb_true_iff in EC.
    destruct (negb (fkind_eqb (sf_kind fr) KCont) || negb (sf_sid fr =? sc_expectCont c))%bool eqn:OK; [apply GX|].
    apply orb_false_elim in OK. destruct OK as [K1 K2]. apply negb_false_iff in K1. apply negb_false_iff in K2.
    assert (NZ : negb (sf_sid fr =? 0) = true) by (apply negb_true_iff; lia). rewrite NZ.
    assert (QW : qwalk (sc_expectCont c) [fr] = Some (if flag_has (sf_flags fr) FL_EH then 0 else sc_expectCont c)).
    { cbn [qwalk]. unfold is_hdr_frame, is_hdr_kind, is_cont, next_cur, eh_of. rewrite NZ, K1. cbn [orb andb].
      rewrite orb_true_r. replace (sc_expectCont c =? sf_sid fr) with true by lia.
      destruct (flag_has _ _); [reflexivity|]. f_equal. lia. }
    assert (EE : forall c1 e, sc_readerQ c1 = sc_readerQ c -> QI (rl_exit (fst (write_error c1 None e)) 1) cur).
    { intros c1 e E. apply EX. rewrite sc_readerQ_write_error. exact E. }
    destruct (flag_has (sf_flags fr) FL_EH) eqn:EH.
    + destruct (check_frame_with_stream fr) as [e|]; [apply EE; reflexivity|].
      apply QI_forward; [exact Hr | exact QW | exact Q].
    + destruct (check_frame_with_stream fr) as [e|]; [apply EE; reflexivity|].
      destruct Q as (fin & Wk & F). specialize (F Hr). subst fin. unfold forward.
      destruct (sc_sl_done c); [exists (sc_expectCont c); unfold rl_exit, note; sc_cbn; split; [exact Wk | discriminate]|].
      exists (sc_expectCont c). sc_cbn. rewrite qwalk_app, Wk. split; [exact QW | reflexivity].
  - (* no block is open *)
    apply negb_false_iff in EC. assert (E0 : sc_expectCont c = 0) by lia.
    destruct (fkind_eqb (sf_kind fr) KCont) eqn:K1; [apply GX|].
    rewrite sum_if.
    set (c1 := if fkind_eqb (sf_kind fr) KHeaders && negb (flag_has (sf_flags fr) FL_EH) then upd_expectCont c (sf_sid fr) else c).
    assert (RQ1 : sc_readerQ c1 = sc_readerQ c) by (subst c1; destruct (_ && _)%bool; reflexivity).
    destruct (negb (sf_sid fr =? 0)) eqn:NZ.
    + destruct (check_frame_with_stream fr) as [e|].
      * apply EX. rewrite sc_readerQ_write_error. exact RQ1.
      * set (m := if fkind_eqb (sf_kind fr) KHeaders && negb (flag_has (sf_flags fr) FL_EH) then sf_sid fr else 0).
        assert (QW : qwalk (sc_expectCont c) [fr] = Some m).
        { cbn [qwalk]. unfold is_hdr_frame, is_hdr_kind, is_cont, next_cur, eh_of. rewrite NZ, K1, E0. cbn [andb N.eqb].
          rewrite orb_false_r. subst m. destruct (fkind_eqb (sf_kind fr) KHeaders); [|reflexivity].
          destruct (flag_has _ _); reflexivity. }
        destruct Q as (fin & Wk & F). specialize (F Hr). subst fin. unfold forward.
        replace (sc_sl_done c1) with (sc_sl_done c) by (subst c1; destruct (_ && _)%bool; reflexivity).
        destruct (sc_sl_done c).
        { exists (sc_expectCont c). unfold rl_exit, note. sc_cbn. rewrite RQ1. split; [exact Wk | discriminate]. }
        exists m. sc_cbn. rewrite RQ1, qwalk_app, Wk. split; [exact QW|]. intros _.
        subst c1 m. destruct (_ && _)%bool; sc_cbn; [reflexivity | lia].
    + (* connection-level frames: never part of a block, the read loop's state does not move *)
      apply negb_false_iff in NZ.
      assert (C1 : c1 = c \/ (fkind_eqb (sf_kind fr) KHeaders = true)).
      { subst c1. destruct (fkind_eqb (sf_kind fr) KHeaders); [right; reflexivity | left; reflexivity]. }
      assert (QW : qwalk (sc_expectCont c) [fr] = Some 0).
      { cbn [qwalk]. unfold is_hdr_frame. replace (negb (sf_sid fr =? 0)) with false by (symmetry; apply negb_false_iff; exact NZ).
        cbn [andb]. rewrite E0. reflexivity. }
      assert (FW : QI (forward c fr) cur).
      { destruct Q as (fin & Wk & F). specialize (F Hr). subst fin. unfold forward.
        destruct (sc_sl_done c); [exists (sc_expectCont c); unfold rl_exit, note; sc_cbn; split; [exact Wk | discriminate]|].
        exists 0. sc_cbn. rewrite qwalk_app, Wk. split; [exact QW | intros _; lia]. }
      destruct C1 as [->|KH].
      * destruct (sf_kind fr); try apply GX; try (apply EX; reflexivity).
        -- destruct (negb _); [exact FW | exact Q].
        -- destruct (negb _); [|exact Q]. revert Q. apply QI_ext; [apply sc_readerQ_emit | apply sc_rl_done_emit | apply sc_expectCont_emit].
        -- destruct (sf_inc fr =? 0); [apply GX | exact FW].
      * assert (KHe : sf_kind fr = KHeaders) by (destruct (sf_kind fr); try discriminate KH; reflexivity).
        rewrite KHe. apply EX. rewrite sc_readerQ_write_goaway. exact RQ1.
Qed.

Variable h0 : hstate.
Notation run := (run dec_field enc_field enc_set_max cfg h0).

Definition hframes (evs : list event) : list sframe := hframes_from (init_conn cfg h0) evs.

Lemma hframes_snoc evs e : hframes (evs ++ [e]) = hframes evs ++ hdr_taken (run evs) e.
Proof. unfold hframes. rewrite hframes_from_app. cbn [hframes_from]. rewrite app_nil_r. reflexivity. Qed.

(* decoder state, fields of the open block decoded so far, bytes carried over to the next fragment *)
Definition hst : Type := (hstate * N * bytes)%type.

Definition ref_frame (st : hst) (fr : sframe) (st' : hst) : Prop :=
  exists fs, ref_run dec_field (eh_of fr) (fst (fst st)) (if is_cont fr then snd (fst st) else 0)
                     ((if is_cont fr then snd st else []) ++ sf_payload fr) fs (fst (fst st')) (snd (fst st')) (snd st').

Inductive ref_frames (st0 : hst) : list sframe -> hst -> Prop :=
| rf_nil : ref_frames st0 [] st0
| rf_snoc frs fr st st' : ref_frames st0 frs st -> ref_frame st fr st' -> ref_frames st0 (frs ++ [fr]) st'.

Lemma ref_frame_det st fr st1 st2 : ref_frame st fr st1 -> ref_frame st fr st2 -> st1 = st2.
Proof.
  intros [fs1 R1] [fs2 R2]. destruct (ref_run_det _ dec_field _ _ _ _ _ _ _ _ _ _ _ _ R1 R2) as (_ & E1 & E2 & E3).
  destruct st1 as [[d1 n1] c1], st2 as [[d2 n2] c2]. cbn [fst snd] in *. congruence.
Qed.

Lemma ref_frames_det st0 frs st1 : ref_frames st0 frs st1 -> forall st2, ref_frames st0 frs st2 -> st1 = st2.
Proof.
  induction 1 as [|frs fr st st' RF IH R]; intros st2 H2.
  - inversion H2 as [|frs' fr' sa sb Ha Hb E]; [reflexivity|]. destruct frs'; discriminate.
  - inversion H2 as [E|frs' fr' sa sb Ha Hb E]; [destruct frs; discriminate|].
    apply app_inj_tail in E. destruct E as [-> ->]. rewrite (IH _ Ha) in R. eapply ref_frame_det; eassumption.
Qed.

(* the block left open by the fragments handled so far *)
Definition cur_of (frs : list sframe) : N := fold_left (fun _ fr => next_cur fr) frs 0.
Lemma cur_of_snoc frs fr : cur_of (frs ++ [fr]) = next_cur fr.
Proof. unfold cur_of. rewrite fold_left_app. reflexivity. Qed.

(* a step is clean if, when it handles a header-block fragment, the write loop is alive and no error output
   (GOAWAY, panic) is produced *)
Definition clean_step c (e : event) : Prop :=
  forall fr, hdr_taken c e = [fr] -> sc_wl_dead c = false /\ (gcount (sc_out (step c e)) <= gcount (sc_out c))%nat.

Fixpoint clean_from c (evs : list event) : Prop :=
  match evs with
  | [] => True
  | e :: t => clean_step c e /\ clean_from (step c e) t
  end.
Definition clean (evs : list event) : Prop := clean_from (init_conn cfg h0) evs.

Lemma clean_from_app c a b : clean_from c (a ++ b) <-> clean_from c a /\ clean_from (run_from dec_field enc_field enc_set_max cfg c a) b.
Proof.
  revert c. induction a as [|e a IH]; intro c; cbn [app clean_from]; [rewrite run_from_nil; tauto|].
  rewrite IH, run_from_cons. tauto.
Qed.
Lemma clean_snoc evs e : clean (evs ++ [e]) <-> clean evs /\ clean_step (run evs) e.
Proof. unfold clean. rewrite clean_from_app. cbn [clean_from]. rewrite <- run_eq. tauto. Qed.

Lemma HG_ext c c' cur n carry : sc_strms c' = sc_strms c -> sc_lastID c' = sc_lastID c -> sc_highestID c' = sc_highestID c ->
  sc_discardID c' = sc_discardID c -> sc_discardPrev c' = sc_discardPrev c -> sc_discardFields c' = sc_discardFields c ->
  sc_ring c' = sc_ring c -> HG c cur n carry -> HG c' cur n carry.
Proof.
  intros E1 E2 E3 E4 E5 E6 E7 [H C]. split; [eapply HInv_ext; eassumption|].
  unfold carry_at. rewrite E1, E4, E5, E6. exact C.
Qed.

Lemma HG_rsame c c' cur n carry : rsame c c' -> HG c cur n carry -> HG c' cur n carry.
Proof. unfold rsame. intro R. decompose [and] R. apply HG_ext; assumption. Qed.

Lemma HG_hmvs own c c' cur n carry : hmvs own true c c' -> sc_sl_done c' = false -> HG c cur n carry -> HG c' cur n carry.
Proof.
  intros M Hd [H C]. split; [eapply hmvs_HInv; eassumption|]. intro NZ. eapply hmvs_carry; eauto.
Qed.

Definition RunInv (evs : list event) : Prop :=
  exists n carry, ref_frames (h0, 0, []) (hframes evs) (sc_dec (run evs), n, carry) /\
    (sc_sl_done (run evs) = false ->
     HG (run evs) (cur_of (hframes evs)) n carry /\ QI (run evs) (cur_of (hframes evs))).

Lemma HInv_init : HInv (eq 0) (init_conn cfg h0).
Proof.
  constructor; unfold init_conn; sc_cbn.
  - constructor.
  - constructor.
  - intros s [].
  - lia.
  - intro H. congruence.
  - intros e [].
Qed.

Lemma sl_done_mono c e : sc_sl_done c = true -> sc_sl_done (step c e) = true.
Proof.
  intro H. destruct e as [i| |sid r|t| | | |].
  - rewrite step_EvRL. destruct (sc_rl_done c); [exact H|]. destruct (rsame_rl_step c i) as (_ & _ & _ & _ & _ & _ & _ & _ & E & _). congruence.
  - rewrite step_EvSL, H. exact H.
  - rewrite step_EvDone, H. exact H.
  - rewrite step_EvClock. destruct (_ <? _)%Z; exact H.
  - rewrite step_EvTimer, H. exact H.
  - rewrite step_EvIdle. sc_cbn. rewrite sc_sl_done_write_goaway. exact H.
  - rewrite step_EvCloser, H. rewrite andb_false_r. exact H.
  - exact H.
Qed.

(* a step that takes no header-block fragment, seen from a stream `own` that the DATA frame taken, if any, belongs
   to: the other streams keep what they have collected, no id goes down *)
Lemma plain_step_oth own c e : hdr_taken c e = [] ->
  (forall fr, sl_takes c e = Some fr -> sf_kind fr = KData -> sf_sid fr = own) ->
  sc_sl_done (step c e) = false -> oth own c (step c e) /\ sc_highestID c <= sc_highestID (step c e).
Proof.
  intros HT KD Hd'.
  assert (ID : oth own c c /\ sc_highestID c <= sc_highestID c) by (split; [apply oth_refl | apply N.le_refl]).
  assert (MV : forall c0 c1, sc_strms c0 = sc_strms c -> sc_highestID c0 = sc_highestID c -> hmvs own false c0 c1 ->
               sc_sl_done c1 = false -> oth own c c1 /\ sc_highestID c <= sc_highestID c1).
  { intros c0 c1 E1 E2 M Hd1. rewrite <- E2. split; [|apply (hmvs_highest _ _ _ _ _ M Hd1)].
    eapply oth_trans; [apply (oth_same_strms _ _ c c0); exact E1 | eapply hmvs_other; [exact M | exact Hd1]]. }
  destruct e as [i| |sid r|t| | | |].
  - rewrite step_EvRL. destruct (sc_rl_done c); [exact ID|].
    destruct (rsame_rl_step c i) as (_ & _ & _ & _ & E & _ & _ & E8 & _).
    split; [apply oth_same_strms; exact E | rewrite E8; apply N.le_refl].
  - rewrite step_EvSL in *. unfold hdr_taken, sl_takes in HT, KD. destruct (sc_sl_done c) eqn:Hd; [exact ID|].
    destruct (sc_readerQ c) as [|fr q] eqn:RQ; [destruct (sc_rl_done c); [discriminate Hd' | exact ID]|].
    cbn [hd_error] in HT, KD. destruct (is_hdr_frame fr) eqn:IHF; [discriminate|].
    apply (MV (upd_readerQ c q)); [reflexivity | reflexivity | | exact Hd'].
    apply (hmvs_sl_frame_other _ dec_field enc_set_max cfg own false _ fr IHF (KD fr eq_refl) (no_open_block_false _)).
  - rewrite step_EvDone in *. destruct (sc_sl_done c); [exact ID|].
    apply (MV c); [reflexivity | reflexivity | | exact Hd']. apply hmvs_sl_done. intro K; discriminate K.
  - rewrite step_EvClock. destruct (_ <? _)%Z; [|exact ID]. split; [apply oth_same_strms; reflexivity | apply N.le_refl].
  - rewrite step_EvTimer in *. destruct (sc_sl_done c); [exact ID|].
    apply (MV c); [reflexivity | reflexivity | apply hmvs_sl_timer | exact Hd'].
  - rewrite step_EvIdle.
    split; [apply oth_same_strms, sc_strms_write_goaway | sc_cbn; rewrite sc_highestID_write_goaway; apply N.le_refl].
  - rewrite step_EvCloser in *. destruct (_ && _)%bool; [discriminate Hd' | exact ID].
  - split; [apply oth_same_strms; reflexivity | apply N.le_refl].
Qed.

Theorem run_inv evs : clean evs -> RunInv evs.
Proof.
  induction evs as [|e evs IH] using rev_ind.
  - intros _. exists 0, []. split; [constructor|]. intros _. split.
    + split; [apply HInv_init | intro H; exfalso; apply H; reflexivity].
    + exists 0. split; reflexivity.
  - intro CL. apply clean_snoc in CL. destruct CL as [CL CS]. specialize (IH CL).
    destruct IH as (n & carry & RF & IHd). unfold RunInv. rewrite hframes_snoc, run_snoc.
    set (c := run evs) in *. set (frs := hframes evs) in *.
    destruct (hdr_taken c e) as [|fr [|fr2 t]] eqn:HT.
    + (* not a header-block fragment *)
      rewrite app_nil_r. exists n, carry. rewrite (dec_frame_condition c e HT). split; [exact RF|].
      intro Hd'. assert (Hd : sc_sl_done c = false).
      { destruct (sc_sl_done c) eqn:E; [|reflexivity]. rewrite (sl_done_mono c e E) in Hd'. discriminate. }
      destruct (IHd Hd) as [G Q]. set (cur := cur_of frs) in *.
      destruct e as [i| |sid r|t| | | |].
      * rewrite step_EvRL in *. destruct (sc_rl_done c) eqn:Hr; [split; assumption|].
        split; [eapply HG_rsame; [apply rsame_rl_step | exact G] | apply QI_rl_step; assumption].
      * rewrite step_EvSL in *. rewrite Hd in *. unfold hdr_taken, sl_takes in HT. rewrite Hd in HT.
        destruct (sc_readerQ c) as [|fr q] eqn:RQ.
        { destruct (sc_rl_done c); [discriminate Hd' | split; assumption]. }
        cbn [hd_error] in HT. destruct (is_hdr_frame fr) eqn:IHF; [discriminate|].
        destruct Q as (fin & Wk & F). rewrite RQ in Wk. cbn [qwalk] in Wk. rewrite IHF in Wk.
        destruct (cur =? 0) eqn:C0; [|discriminate]. assert (cur = 0) by lia. clear C0.
        set (c0 := upd_readerQ c q) in *.
        assert (G0 : HG c0 cur n carry) by (eapply HG_ext; [..|exact G]; reflexivity).
        assert (NOB : no_open_block true c0).
        { intros _. destruct G0 as [[ND FP IDS _ _ _] _]. split; [exact ND|].
          replace cur with 0 in FP by congruence. apply all_hf_of_P0; [intros s Is; apply IDS; exact Is | exact FP]. }
        pose proof (hmvs_sl_frame_other _ dec_field enc_set_max cfg (sf_sid fr) true c0 fr IHF (fun _ => eq_refl) NOB) as M.
        split; [eapply HG_hmvs; eassumption|].
        pose proof (hmvs_base _ _ _ _ _ M) as (_ & _ & B3 & B4 & B5 & _).
        exists fin. rewrite B3, B4, B5. unfold c0. sc_cbn. replace cur with 0 by congruence. split; [exact Wk | exact F].
      * rewrite step_EvDone in *. rewrite Hd in *.
        assert (M : hmvs sid true c (fst (sl_done enc_field cfg c sid r))).
        { apply hmvs_sl_done. intros _ s SS Run. destruct G as [[_ FP _ _ _ _] _]. rewrite Forall_forall in FP.
          destruct (FP s) as (_ & _ & P3 & _); [apply strms_search_In in SS; tauto | auto]. }
        split; [eapply HG_hmvs; eassumption|].
        pose proof (hmvs_base _ _ _ _ _ M) as (_ & _ & B3 & B4 & B5 & _). eapply QI_ext; [exact B4 | exact B3 | exact B5 | exact Q].
      * rewrite step_EvClock in *. destruct (_ <? _)%Z; [|split; assumption].
        split; [eapply HG_ext; [..|exact G]; reflexivity | eapply QI_ext; [..|exact Q]; reflexivity].
      * rewrite step_EvTimer in *. rewrite Hd in *.
        pose proof (hmvs_sl_timer _ cfg 0 true c) as M.
        split; [eapply HG_hmvs; eassumption|].
        pose proof (hmvs_base _ _ _ _ _ M) as (_ & _ & B3 & B4 & B5 & _). eapply QI_ext; [exact B4 | exact B3 | exact B5 | exact Q].
      * rewrite step_EvIdle in *.
        assert (M : hmvs 0 true c (write_goaway c 0 c_NoError)) by apply hmvs_one, hm_goaway.
        pose proof (hmvs_base _ _ _ _ _ M) as (_ & _ & B3 & B4 & B5 & _).
        split; [eapply HG_ext; [..|eapply HG_hmvs; [exact M | exact Hd' | exact G]]; reflexivity
               | eapply QI_ext; [exact B4 | exact B3 | exact B5 | exact Q]].
      * rewrite step_EvCloser in *. destruct (_ && _)%bool; [discriminate Hd' | split; assumption].
      * rewrite step_EvWriteFail in *.
        split; [eapply HG_ext; [..|exact G]; reflexivity | eapply QI_ext; [..|exact Q]; reflexivity].
    + (* a header-block fragment *)
      destruct (CS fr HT) as [W GC].
      unfold hdr_taken, sl_takes in HT. destruct e; try discriminate HT.
      destruct (sc_sl_done c) eqn:Hd; [discriminate|]. destruct (sc_readerQ c) as [|fr' q] eqn:RQ; [discriminate|].
      cbn [hd_error] in HT. destruct (is_hdr_frame fr') eqn:IHF; [|discriminate]. inversion HT; subst fr'.
      destruct (IHd eq_refl) as [G Q]. set (cur := cur_of frs) in *.
      rewrite step_EvSL in *. rewrite Hd, RQ in *.
      set (c0 := upd_readerQ c q) in *.
      assert (G0 : HG c0 cur n carry) by (eapply HG_ext; [..|exact G]; reflexivity).
      destruct Q as (fin & Wk & F). rewrite RQ in Wk. cbn [qwalk] in Wk. rewrite IHF in Wk.
      assert (KC : is_cont fr = true -> cur = sf_sid fr).
      { intro IC. rewrite IC in Wk. destruct (cur =? sf_sid fr) eqn:E; [lia | discriminate]. }
      assert (KH : is_cont fr = false -> cur = 0).
      { intro IC. rewrite IC in Wk. destruct (cur =? 0) eqn:E; [lia | discriminate]. }
      assert (Wk' : qwalk (next_cur fr) q = Some fin).
      { destruct (is_cont fr); destruct (_ =? _); [exact Wk | discriminate | exact Wk | discriminate]. }
      destruct (sl_frame_hdr _ dec_field enc_field enc_set_max cfg c0 fr cur n carry IHF Hd W G0 KC KH GC)
        as (fs & n' & carry' & R & EF & GP).
      exists n', carry'. split.
      * eapply rf_snoc; [exact RF|]. exists fs. cbn [fst snd]. exact R.
      * intro Hd'. rewrite cur_of_snoc. split; [apply GP; exact Hd'|].
        destruct EF as ((_ & _ & B3 & B4 & B5 & _) & _). exists fin. rewrite B3, B4, B5. exact (conj Wk' F).
    + (* impossible: one frame per step *)
      unfold hdr_taken in HT. destruct (sl_takes c e); [destruct (is_hdr_frame s)|]; discriminate.
Qed.

(* C09 (a) over a run: the decoder state is the reference folded over the fragments handled *)
Theorem dec_is_reference evs : clean evs ->
  exists n carry, ref_frames (h0, 0, []) (hframes evs) (sc_dec (run evs), n, carry).
Proof. intro CL. destruct (run_inv evs CL) as (n & carry & RF & _). exists n, carry. exact RF. Qed.

End Run.

Arguments hframes {hstate}. Arguments ref_frames {hstate}. Arguments ref_frame {hstate}. Arguments clean {hstate}.
Arguments clean_step {hstate}. Arguments hdr_taken {hstate}. Arguments sl_takes {hstate}. Arguments QI {hstate}.
Arguments RunInv {hstate}. Arguments rsame {hstate}.

(* the decoder state does not depend on what became of the streams *)
Section Indep.
Variable hstate : Type.
Variable dec_field : hstate -> N -> bytes -> dec_res hstate.
Variable enc_field enc_field' : hstate -> bytes -> bytes -> bool -> bytes * hstate.
Variable enc_set_max enc_set_max' : hstate -> N -> hstate.
Variable h0 : hstate.

(* all the reference looks at: HEADERS or CONTINUATION, END_HEADERS, the fragment *)
Definition frag (fr : sframe) : bool * bool * bytes := (is_cont fr, eh_of fr, sf_payload fr).

Lemma ref_frame_frag st fr fr' st' : frag fr = frag fr' -> ref_frame dec_field st fr st' -> ref_frame dec_field st fr' st'.
Proof. unfold frag, ref_frame. intro E. inversion E as [[E1 E2 E3]]. rewrite E1, E2, E3. auto. Qed.

Lemma ref_frames_frag st0 frs st : ref_frames dec_field st0 frs st ->
  forall frs', map frag frs = map frag frs' -> ref_frames dec_field st0 frs' st.
Proof.
  induction 1 as [|frs fr st st' RF IH R]; intros frs' E.
  - destruct frs'; [constructor | discriminate].
  - destruct frs' as [|x l] using rev_ind; [rewrite map_app in E; destruct (map frag frs); discriminate|].
    rewrite !map_app in E. cbn [map] in E. apply app_inj_tail in E. destruct E as [E1 E2].
    eapply rf_snoc; [apply IH; exact E1 | eapply ref_frame_frag; eassumption].
Qed.

(* Two runs - any two configurations (limits), any two event lists (other frames, handler completions,
   timers, stream fates) - in which the stream loop has handled the same header-block fragments in the same
   order leave the HPACK decoder in the same state. *)
Theorem hpack_state_independent cfg cfg' evs evs' :
  clean dec_field enc_field enc_set_max cfg h0 evs -> clean dec_field enc_field' enc_set_max' cfg' h0 evs' ->
  map frag (hframes dec_field enc_field enc_set_max cfg h0 evs) = map frag (hframes dec_field enc_field' enc_set_max' cfg' h0 evs') ->
  sc_dec (run dec_field enc_field enc_set_max cfg h0 evs) = sc_dec (run dec_field enc_field' enc_set_max' cfg' h0 evs').
Proof.
  intros C1 C2 E.
  destruct (dec_is_reference _ _ _ _ _ _ _ C1) as (n1 & k1 & R1).
  destruct (dec_is_reference _ _ _ _ _ _ _ C2) as (n2 & k2 & R2).
  pose proof (ref_frames_frag _ _ _ R1 _ E) as R1'.
  pose proof (ref_frames_det _ dec_field _ _ _ R1' _ R2) as EQ. inversion EQ. reflexivity.
Qed.

End Indep.

Section Exec.
Variable hstate : Type.
Variable dec_field : hstate -> N -> bytes -> dec_res hstate.
Variable enc_field : hstate -> bytes -> bytes -> bool -> bytes * hstate.
Variable enc_set_max : hstate -> N -> hstate.
Variable cfg : config.
Variable h0 : hstate.
Notation step := (step dec_field enc_field enc_set_max cfg).

Definition cleanb_step (c : sconn hstate) (e : event) : bool :=
  match hdr_taken c e with
  | [_] => negb (sc_wl_dead c) && Nat.leb (gcount (sc_out (step c e))) (gcount (sc_out c))
  | _ => true
  end.
Fixpoint cleanb_from (c : sconn hstate) (evs : list event) : bool :=
  match evs with
  | [] => true
  | e :: t => cleanb_step c e && cleanb_from (step c e) t
  end.
Definition cleanb (evs : list event) : bool := cleanb_from (init_conn cfg h0) evs.

Lemma cleanb_from_sound evs : forall c, cleanb_from c evs = true -> clean_from _ dec_field enc_field enc_set_max cfg c evs.
Proof.
  induction evs as [|e t IH]; intros c H; cbn [cleanb_from clean_from] in *; [exact I|].
  apply andb_prop in H. destruct H as [H1 H2]. split; [|apply IH; exact H2].
  intros fr HT. unfold cleanb_step in H1. rewrite HT in H1. apply andb_prop in H1. destruct H1 as [W G].
  apply negb_true_iff in W. apply Nat.leb_le in G. auto.
Qed.
Lemma cleanb_sound evs : cleanb evs = true -> clean dec_field enc_field enc_set_max cfg h0 evs.
Proof. apply cleanb_from_sound. Qed.

(* the reference as a function: None when a fragment does not decode (or the fuel of the model runs out) *)
Definition ref_step (st : option (hst hstate)) (fr : sframe) : option (hst hstate) :=
  match st with
  | None => None
  | Some (d, n, carry) =>
    match dec_block_ref dec_field d (if is_cont fr then n else 0) (if is_cont fr then carry else []) (sf_payload fr) (eh_of fr) with
    | ROk _ d' n' carry' => Some (d', n', carry')
    | _ => None
    end
  end.
Definition ref_fold (st0 : hst hstate) (frs : list sframe) : option (hst hstate) := fold_left ref_step frs (Some st0).

Lemma ref_fold_sound st0 frs : forall st, ref_fold st0 frs = Some st -> ref_frames dec_field st0 frs st.
Proof.
  induction frs as [|fr frs IH] using rev_ind; intros st H.
  - inversion H; subst. constructor.
  - unfold ref_fold in H. rewrite fold_left_app in H. cbn [fold_left] in H.
    destruct (fold_left ref_step frs (Some st0)) as [[[d n] carry]|] eqn:E; [|discriminate].
    cbn [ref_step] in H.
    destruct (dec_block_ref dec_field d _ _ _ _) as [fs d' n' carry'| | |] eqn:R; try discriminate.
    inversion H; subst. eapply rf_snoc; [apply IH; exact E|].
    exists fs. cbn [fst snd]. apply dec_block_ref_sound. exact R.
Qed.

End Exec.

Section RunStep.
Variable hstate : Type.
Variable dec_field : hstate -> N -> bytes -> dec_res hstate.
Variable enc_field : hstate -> bytes -> bytes -> bool -> bytes * hstate.
Variable enc_set_max : hstate -> N -> hstate.
Variable cfg : config.
Variable h0 : hstate.
Notation step := (step dec_field enc_field enc_set_max cfg).
Notation run := (run dec_field enc_field enc_set_max cfg h0).

(* C09 (a), per step, for every state reached without a connection error of the stream loop on a header
   block: the fragment the stream loop takes next is decoded as the reference says, from the ghost of the
   run so far (n fields, carry), whatever happens to its stream - unless this very step raises a connection error. *)
Theorem hdr_step_reference evs fr q :
  clean dec_field enc_field enc_set_max cfg h0 evs ->
  sc_sl_done (run evs) = false -> sc_readerQ (run evs) = fr :: q -> is_hdr_frame fr = true ->
  sc_wl_dead (run evs) = false ->
  (gcount (sc_out (step (run evs) EvSL)) <= gcount (sc_out (run evs)))%nat ->
  exists n carry,
    ref_frames dec_field (h0, 0, []) (hframes dec_field enc_field enc_set_max cfg h0 evs) (sc_dec (run evs), n, carry) /\
    hdr_post dec_field cfg (upd_readerQ (run evs) q) (if is_cont fr then n else 0)
             ((if is_cont fr then carry else []) ++ sf_payload fr) fr (step (run evs) EvSL).
Proof.
  intros CL Hd RQ IHF W GC. destruct (run_inv _ dec_field enc_field enc_set_max cfg h0 evs CL) as (n & carry & RF & IHd).
  destruct (IHd Hd) as [G Q]. exists n, carry. split; [exact RF|].
  set (c := run evs) in *. set (cur := cur_of (hframes dec_field enc_field enc_set_max cfg h0 evs)) in *.
  rewrite step_EvSL in *. rewrite Hd, RQ in *.
  set (c0 := upd_readerQ c q) in *.
  assert (G0 : HG c0 cur n carry) by (eapply HG_ext; [..|exact G]; reflexivity).
  destruct Q as (fin & Wk & F). rewrite RQ in Wk. cbn [qwalk] in Wk. rewrite IHF in Wk.
  assert (KC : is_cont fr = true -> cur = sf_sid fr).
  { intro IC. rewrite IC in Wk. destruct (cur =? sf_sid fr) eqn:E; [lia | discriminate]. }
  assert (KH : is_cont fr = false -> cur = 0).
  { intro IC. rewrite IC in Wk. destruct (cur =? 0) eqn:E; [lia | discriminate]. }
  exact (sl_frame_hdr _ dec_field enc_field enc_set_max cfg c0 fr cur n carry IHF Hd W G0 KC KH GC).
Qed.

(* the same, spelled out: n, carry = where the run so far left the open block; fs, n', carry' = what the
   reference makes of this fragment; afterwards the decoder is the reference's and, when the block goes on, the
   carry is where the next CONTINUATION will look for it (the stream's previousHeaderBytes, or the discard
   registers when the stream is gone) *)
Theorem hdr_step_reference_explicit evs fr q :
  clean dec_field enc_field enc_set_max cfg h0 evs ->
  sc_sl_done (run evs) = false -> sc_readerQ (run evs) = fr :: q -> is_hdr_frame fr = true ->
  sc_wl_dead (run evs) = false ->
  (gcount (sc_out (step (run evs) EvSL)) <= gcount (sc_out (run evs)))%nat ->
  exists n carry fs n' carry',
    ref_frames dec_field (h0, 0, []) (hframes dec_field enc_field enc_set_max cfg h0 evs) (sc_dec (run evs), n, carry) /\
    ref_run dec_field (eh_of fr) (sc_dec (run evs)) (if is_cont fr then n else 0)
            ((if is_cont fr then carry else []) ++ sf_payload fr) fs (sc_dec (step (run evs) EvSL)) n' carry' /\
    (eh_of fr = true -> carry' = []) /\
    (eh_of fr = false -> sc_sl_done (step (run evs) EvSL) = false ->
     carry_at (step (run evs) EvSL) (sf_sid fr) = Some (n', carry')).
Proof.
  intros CL Hd RQ IHF W GC.
  destruct (hdr_step_reference evs fr q CL Hd RQ IHF W GC) as (n & carry & RF & (fs & n' & carry' & R & _ & GP)).
  exists n, carry, fs, n', carry'. split; [exact RF|]. split; [exact R|]. split.
  - intro EH. rewrite EH in R. eapply ref_run_eh_carry. exact R.
  - intros EH Hd'. destruct (GP Hd') as ([_ CA] & _). unfold next_cur in CA. rewrite EH in CA. apply CA.
    unfold is_hdr_frame in IHF. apply andb_prop in IHF. destruct IHF as [Z _]. apply negb_true_iff in Z. lia.
Qed.

End RunStep.

Section RefFs.
Variable hstate : Type.
Variable dec_field : hstate -> N -> bytes -> dec_res hstate.

Inductive ref_frames_fs (st0 : hst hstate) : list sframe -> list (bytes * bytes) -> hst hstate -> Prop :=
| rff_nil : ref_frames_fs st0 [] [] st0
| rff_snoc frs fr fs0 fs st st' :
    ref_frames_fs st0 frs fs0 st ->
    ref_run dec_field (eh_of fr) (fst (fst st)) (if is_cont fr then snd (fst st) else 0)
            ((if is_cont fr then snd st else []) ++ sf_payload fr) fs (fst (fst st')) (snd (fst st')) (snd st') ->
    ref_frames_fs st0 (frs ++ [fr]) (fs0 ++ fs) st'.

Lemma ref_frames_fs_forget st0 frs fs st : ref_frames_fs st0 frs fs st -> ref_frames dec_field st0 frs st.
Proof. induction 1; [constructor|]. eapply rf_snoc; [eassumption|]. eexists. eassumption. Qed.

End RefFs.
Arguments ref_frames_fs {hstate}.
