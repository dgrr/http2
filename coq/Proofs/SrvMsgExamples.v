(* Proofs/SrvMsgExamples.v - C20: concrete requests on the server instantiated with the real HPACK model: the hypotheses
   of the theorems of SrvMsgC20.v are satisfiable (by computation), and what the theorems say is what the model does. *)
From H2V Require Import Base.Bytes Base.MachineInt Base.Result Gen.GenConsts Impl.Hpack Impl.ServerConn Impl.ServerInst
     Spec.Http2Messages Proofs.SrvBase Proofs.SrvMsgDefs Proofs.SrvMsgStream Proofs.SrvMsgCheck Proofs.SrvMsgC20.
From Coq Require Import ZArith Lia String.
Local Open Scope N_scope.
Import ListNotations.

(* a header block: every field as a literal without indexing, new name, no Huffman (RFC 7541 6.2.2) *)
Definition lit (f : field) : bytes := 0 :: len (fst f) :: fst f ++ len (snd f) :: snd f.
Definition blk (fs : list field) : bytes := List.concat (map lit fs).
Definition F (k v : string) : field := (octets k, octets v).

Definition cfgE : config := mkCfg 100 4096 1000 0 4194304.
Definition c_init : sconn hpack_state := init_conn cfgE srv_init_hpack.

Notation srv_request_decodes := (request_decodes srv_dec_field).
Notation srv_run_from := (run_from srv_dec_field srv_enc_field set_max_table_size cfgE).

Ltac decodes_tac :=
  unfold decodes; apply block_run_f_sound; vm_compute; reflexivity.

(* a well-formed POST: header block cut in the middle of a field, two DATA frames, a trailer *)
Definition fs1 : list field :=
  [F ":method" "POST"; F ":scheme" "https"; F ":path" "/upload"; F ":authority" "example.org";
   F "content-type" "text/plain"; F "content-length" "5"; F "te" "trailers"].
Definition tr1 : list field := [F "x-checksum" "abc"].
Definition hfrags1 : list bytes := [firstn 40 (blk fs1); skipn 40 (blk fs1)].
Definition chunks1 : list bytes := [octets "he"; octets "llo"].
Definition tfrags1 : option (list bytes) := Some [blk tr1].
Definition d_after1 : hpack_state := srv_init_hpack.   (* literals without indexing leave the table alone *)
Definition carries1 : list bytes := [skipn 29 (firstn 40 (blk fs1))].

Example ex1_ready : ready cfgE c_init 1.
Proof. apply ready_init; [reflexivity | vm_compute; reflexivity]. Qed.

Example ex1_decodes : srv_request_decodes (sc_dec c_init) hfrags1 tfrags1 fs1 tr1 d_after1 carries1.
Proof.
  exists srv_init_hpack, carries1, []. split; [decodes_tac|]. split; [decodes_tac | reflexivity].
Qed.

Example ex1_hyps : within_limits cfgE fs1 tr1 carries1 5 = true /\ wf_request fs1 tr1 5 = true.
Proof. split; vm_compute; reflexivity. Qed.

Example ex1_trace :
  trace (srv_run_from c_init (lockstep (req_frames 1 hfrags1 chunks1 tfrags1))) =
  [OWinUpd 1 2; OWinUpd 1 3; ODispatch 1 (the_request fs1 chunks1 tr1)].
Proof. vm_compute. reflexivity. Qed.

(* malformed requests: the stream alone is refused *)

(* (i) a pseudo-header field in the trailers (after a header block without any regular field) *)
Definition fs2 : list field := [F ":method" "GET"; F ":scheme" "https"; F ":path" "/"].
Definition tr2 : list field := [F ":authority" "x"].
Example ex2_hyps :
  srv_request_decodes (sc_dec c_init) [blk fs2] (Some [blk tr2]) fs2 tr2 srv_init_hpack [] /\
  header_limits cfgE fs2 tr2 [] = true /\ within_limits cfgE fs2 tr2 [] 0 && wf_request fs2 tr2 0 = false.
Proof.
  split; [|split; vm_compute; reflexivity].
  exists srv_init_hpack, [], []. split; [decodes_tac|]. split; [decodes_tac | reflexivity].
Qed.
Example ex2_trace :
  trace (srv_run_from c_init (lockstep (req_frames 1 [blk fs2] [] (Some [blk tr2])))) = [ORst 1 c_ProtocolError; ORelease 1 true].
Proof. vm_compute. reflexivity. Qed.

(* (ii) two content-length fields that disagree; the body matches the second one.
   The request dies in the header block: its DATA frames are only counted against the connection window *)
Definition body_hello : list bytes := [octets "hello"].
Definition body_hi : list bytes := [octets "hi"].
Definition body_x : list bytes := [octets "x"].
Definition fs3 : list field := fs2 ++ [F "content-length" "3"; F "content-length" "5"].
Example ex3_hyps :
  srv_request_decodes (sc_dec c_init) [blk fs3] None fs3 [] srv_init_hpack [] /\
  header_limits cfgE fs3 [] [] = true /\ within_limits cfgE fs3 [] [] 5 && wf_request fs3 [] 5 = false.
Proof.
  split; [|split; vm_compute; reflexivity].
  exists srv_init_hpack, [], []. split; [decodes_tac|]. repeat split.
Qed.
Example ex3_trace :
  trace (srv_run_from c_init (lockstep (req_frames 1 [blk fs3] body_hello None))) = [ORst 1 c_ProtocolError; ORelease 1 true].
Proof. vm_compute. reflexivity. Qed.

(* (iii) an upper-case name in the FIRST of two fragments: the rest of the block (a CONTINUATION frame) is still decoded,
   then DATA arrives for the dead stream *)
Definition fs4 : list field := fs2 ++ [F "X-Custom" "1"; F "accept" "*/*"].
Definition hfrags4 : list bytes := [firstn 45 (blk fs4); skipn 45 (blk fs4)].
Definition carries4 : list bytes := [skipn 37 (firstn 45 (blk fs4))].
Example ex4_hyps :
  srv_request_decodes (sc_dec c_init) hfrags4 None fs4 [] srv_init_hpack carries4 /\
  header_limits cfgE fs4 [] carries4 = true /\
  within_limits cfgE fs4 [] carries4 2 && wf_request fs4 [] 2 = false.
Proof.
  split; [|split; vm_compute; reflexivity].
  exists srv_init_hpack, carries4, []. split; [decodes_tac|]. repeat split.
Qed.
Example ex4_trace :
  trace (srv_run_from c_init (lockstep (req_frames 1 hfrags4 body_hi None))) = [ORst 1 c_ProtocolError; ORelease 1 true].
Proof. vm_compute. reflexivity. Qed.

(* (iv) a declared content-length over MaxRequestBodySize: ENHANCE_YOUR_CALM, still only the stream *)
Definition fs5 : list field := fs2 ++ [F "content-length" "5000"].
Example ex5_hyps :
  srv_request_decodes (sc_dec c_init) [blk fs5] None fs5 [] srv_init_hpack [] /\
  header_limits cfgE fs5 [] [] = true /\ within_limits cfgE fs5 [] [] 1 && wf_request fs5 [] 1 = false.
Proof.
  split; [|split; vm_compute; reflexivity].
  exists srv_init_hpack, [], []. split; [decodes_tac|]. repeat split.
Qed.
Example ex5_trace :
  trace (srv_run_from c_init (lockstep (req_frames 1 [blk fs5] body_x None))) = [ORst 1 c_EnhanceYourCalm; ORelease 1 true].
Proof. vm_compute. reflexivity. Qed.

(* over the header-list limit: not dispatched (and here the connection is given up: GOAWAY) *)
Definition cfgS : config := mkCfg 100 100 1000 0 4194304.
Example ex6_hyps :
  srv_request_decodes srv_init_hpack [blk fs1] None fs1 [] srv_init_hpack [] /\ within_limits cfgS fs1 [] [] 0 = false.
Proof.
  split; [|vm_compute; reflexivity].
  exists srv_init_hpack, [], []. split; [decodes_tac|]. repeat split.
Qed.
Example ex6_trace :
  trace (run_from srv_dec_field srv_enc_field set_max_table_size cfgS (init_conn cfgS srv_init_hpack)
                  (lockstep (req_frames 1 [blk fs1] [] None))) =
  [OGoAway 1 c_EnhanceYourCalm; OExit 1 0].
Proof. vm_compute. reflexivity. Qed.

(* another position in the history: stream 1 has been dispatched and its handler is still running,
   stream 3 was refused (malformed), the request comes on stream 5 *)
Definition c_mid : sconn hpack_state :=
  srv_run_from c_init (lockstep (req_frames 1 hfrags1 chunks1 tfrags1 ++ req_frames 3 [blk fs3] body_hello None)).

Example ex7_ready : ready cfgE c_mid 5.
Proof.
  split; [|repeat split; vm_compute; reflexivity].
  constructor; try (vm_compute; reflexivity).
  - vm_compute. discriminate.
  - vm_compute. discriminate.
  - let l := eval vm_compute in (sc_strms c_mid) in
    assert (E : sc_strms c_mid = l) by (vm_compute; reflexivity); rewrite E.
    constructor; [|constructor]. intros _. split; [reflexivity | discriminate].
Qed.
Example ex7_decodes : srv_request_decodes (sc_dec c_mid) [blk fs2] None fs2 [] srv_init_hpack [].
Proof. exists srv_init_hpack, [], []. split; [decodes_tac|]. repeat split. Qed.
Example ex7_hyps : within_limits cfgE fs2 [] [] 0 = true /\ wf_request fs2 [] 0 = true.
Proof. split; vm_compute; reflexivity. Qed.
Example ex7_trace :
  trace (srv_run_from c_mid (lockstep (req_frames 5 [blk fs2] [] None))) =
  trace c_mid ++ [ODispatch 5 (the_request fs2 [] [])].
Proof. vm_compute. reflexivity. Qed.
