(* Proofs/TeardownSrvS2.v -- blocking-structure model (Impl/Teardown.v), server, S2: fair runs.
   Statements: Props/Teardown.v; overview: Proofs/TeardownProofs.v. *)
From Coq Require Import Arith Lia Bool List.
Import ListNotations.
From H2V Require Import Impl.Teardown Proofs.TeardownGen Proofs.TeardownSrvInv Proofs.TeardownSrvS1.

Module SrvP2.
Import Srv SrvP SrvP1.

Ltac act_cases a := destruct a; try match goal with c : wchoice |- _ => destruct c end.
Ltac injs :=
  repeat match goal with
         | H : RWrite _ = RWrite _ |- _ => inversion H; clear H; subst
         | H : WSock _ = WSock _ |- _ => inversion H; clear H; subst
         end.
Ltac rwk :=
  repeat match goal with
         | H : sv ?s = _ |- _ => progress (rewrite H in * )
         | H : sl ?s = _ |- _ => progress (rewrite H in * )
         | H : wl ?s = _ |- _ => progress (rewrite H in * )
         end.
(* the cases of an enabled action [a] of one goroutine ([Ga : g_sv a], say; [G : guard a s]): the
   guard is broken into its equations, and the cases whose guard names another program point
   than the context does are closed *)
Ltac own_cases a Ga G :=
  act_cases a; cbn in Ga; try contradiction; cbn in G; break; rwk; injs; try congruence; cbn; rwk; cbn.

(* each goroutine's program point is its own *)
Lemma sv_frame : forall a s, g_sv a \/ sv (eff a s) = sv s.
Proof. intros a s; act_cases a; cbn; auto. Qed.
Lemma sl_frame : forall a s, g_sl a \/ sl (eff a s) = sl s.
Proof. intros a s; act_cases a; cbn; auto. Qed.
Lemma wl_frame : forall a s, g_wl a \/ wl (eff a s) = wl s.
Proof. intros a s; act_cases a; cbn; auto. Qed.

Section P.
Variable cap : nat.
Hypothesis cap_pos : 1 <= cap.
Notation guard := (Srv.guard cap).
Notation reachable := (Srv.reachable cap).
Notation inv := (SrvP.inv cap).

Variable r : run guard eff.
Hypothesis F : fair_run cap r.
Hypothesis R0 : reachable (st r 0).

Lemma Inv_run : forall i, inv (st r i).
Proof. intros; apply reachable_inv; apply reach_run; auto. Qed.

Notation "P ~> Q" := (leadsto r P Q) (at level 70).
Notation step := (lt_step guard eff r inv Inv_run).
Notation rank := (lt_rank guard eff r inv Inv_run).
Notation weaken := (lt_weaken guard eff r inv Inv_run).
Notation and_then := (lt_then guard eff r inv Inv_run).
Notation stable := (stable guard eff inv).
Notation keep := (lt_stable guard eff r inv Inv_run _ _ _).

Let Fsv : fair g_sv r := proj1 F.
Let Fsl : fair g_sl r := proj1 (proj2 F).
Let Fwl : fair g_wl r := proj1 (proj2 (proj2 F)).
Let Ftmo : fair g_tmo r := proj2 (proj2 (proj2 (proj2 (proj2 (proj2 F))))).

(* -- the stream loop's goroutine finishes its three statements -- *)
Lemma sl_exited_stable : stable sl_exited.
Proof.
  unfold sl_exited; intros s a _ H G. destruct (sl_frame a s) as [Ga|E]; [|rewrite E; auto].
  own_cases a Ga G; cbn; auto; destruct H as [H|[H|[H|H]]]; discriminate.
Qed.
Lemma sl_finishes : sl_exited ~> (fun s => sl s = SDone).
Proof.
  apply (rank g_sl _ _ (fun s => sl_rank (sl s))); auto using Fsl.
  - intros s a I H G. pose proof (sl_exited_stable s a I H G).
    destruct (sl_frame a s) as [Ga|E]; auto. right; right. rewrite E; auto.
  - intros s a I H Ga G. pose proof (sl_exited_stable s a I H G). unfold sl_exited in H.
    own_cases a Ga G; cbn; auto; destruct H as [H|[H|[H|H]]]; discriminate.
  - intros s _ [H|[H|[H|H]]]; auto; right;
      [exists SCloseHStop | exists SStopPing | exists SCloseWStop]; cbn; auto.
Qed.
Lemma sl_done_stable : stable (fun s => sl s = SDone).
Proof. intros s a _ H G. destruct (sl_frame a s) as [Ga|E]; [own_cases a Ga G | congruence]. Qed.

(* one step of Serve's goroutine at program point [p], with S stable *)
Lemma sv_at : forall p (S Q : state -> Prop), stable S ->
  (forall s a, inv s -> sv s = p -> S s -> g_sv a -> guard a s -> Q (eff a s)) ->
  (forall s, inv s -> sv s = p -> S s -> enabled guard g_sv s) ->
  (fun s => sv s = p /\ S s) ~> Q.
Proof.
  intros p S Q HS H2 H3. apply (step g_sv); auto using Fsv.
  - intros s a I (Hp & Hs) G. destruct (sv_frame a s) as [Ga|E]; auto.
    right; left; split; [congruence | eapply HS; eauto].
  - intros s a I (Hp & Hs); auto.
  - intros s I (Hp & Hs); auto.
Qed.
(* -- Serve's teardown, once readLoop has returned, ends within the drain timeout -- *)
Lemma sv_to_wait : (fun s => sv s = VStop \/ sv s = VCloseRd) ~> (fun s => sv s = VWait).
Proof.
  apply (rank g_sv _ _ (fun s => sv_rank (sv s))); auto using Fsv.
  - intros s a _ H G. destruct (sv_frame a s) as [Ga|E]; auto. right; right. rewrite E; auto.
  - intros s a _ H Ga G. own_cases a Ga G; cbn; auto; destruct H; discriminate.
  - intros s _ [H|H]; right; [exists VStopTimers | exists VCloseReader]; cbn; auto.
Qed.
Lemma svWait1 : (fun s => sv s = VWait /\ wdone s = false /\ tmo s = false) ~>
                (fun s => sv s = VWait /\ (wdone s = true \/ tmo s = true)).
Proof.
  apply (step g_tmo); auto using Ftmo.
  - intros s a _ (Hp & Hw & Ht) G. right. act_cases a; cbn in G |- *; break; try congruence; auto.
  - intros s a _ (Hp & Hw & Ht) Ga G. destruct a; try contradiction. cbn; auto.
  - intros s _ (H1 & H2 & H3). right. exists EDrainTimeout; cbn; auto.
Qed.
Lemma wait_over_stable : stable (fun s => wdone s = true \/ tmo s = true).
Proof. intros s a _ H G. act_cases a; cbn; auto. Qed.
Lemma svWait2 : (fun s => sv s = VWait /\ (wdone s = true \/ tmo s = true)) ~> (fun s => sv s = VEnd).
Proof.
  apply sv_at; auto using wait_over_stable.
  - intros s a _ Hp _ Ga G. own_cases a Ga G; reflexivity.
  - intros s _ Hp [H|H]; [exists VWaitDone | exists VWaitTmo]; cbn; auto.
Qed.
Definition sv_tearing (s : state) : Prop :=
  sv s = VStop \/ sv s = VCloseRd \/ sv s = VWait \/ sv s = VEnd.
Lemma sv_teardown : sv_tearing ~> (fun s => sv s = VEnd).
Proof.
  assert ((fun s => sv s = VWait) ~> (fun s => sv s = VEnd)) as K.
  { intros i H. destruct (wdone (st r i)) eqn:E1; [|destruct (tmo (st r i)) eqn:E2].
    1,2: apply svWait2; auto.
    eapply (lt_trans _ _ _ _ _ _ svWait1 svWait2); eauto. }
  intros i [H|[H|[H|H]]]; [| | apply K; auto | exists i; auto].
  all: eapply (lt_trans _ _ _ _ _ _ sv_to_wait K); eauto.
Qed.
Lemma sv_end_stable : stable (fun s => sv s = VEnd).
Proof. intros s a _ H G. destruct (sv_frame a s) as [Ga|E]; [own_cases a Ga G | congruence]. Qed.

(* -- the parking points of the read loop, once the stream loop's goroutine is through: sc.write
      takes the writeStop case, forward the handlerStop case -- *)
Lemma svWrite : forall b,
  (fun s => sv s = RWrite b /\ sl s = SDone) ~> (fun s => sv s = if b then VStop else RRead).
Proof.
  intros b. apply sv_at; auto using sl_done_stable.
  - intros s a _ Hs _ Ga G. own_cases a Ga G; reflexivity.
  - intros s I Hs Hd. exists (RWr ViaStop); cbn; repeat split; eauto.
    destruct I. rewrite i_wstop0, Hd; auto.
Qed.
Lemma svFwd : (fun s => sv s = RFwd /\ sl s = SDone) ~> (fun s => sv s = RRead \/ sv s = VStop).
Proof.
  apply sv_at; auto using sl_done_stable.
  - intros s a _ Hs _ Ga G. own_cases a Ga G; cbn; auto.
  - intros s I Hs Hd. exists RFwdStop; cbn; repeat split; eauto.
    destruct I. rewrite i_hstop0, Hd; auto.
Qed.
(* reader is full: forward can only take the handlerStop case *)
Lemma full_stable : stable (fun s => cap <= rd s /\ sl s = SDone).
Proof.
  intros s a I (Hr & Hd) G. split; [|eapply sl_done_stable; eauto].
  act_cases a; cbn in G |- *; break; try lia; congruence.
Qed.
Lemma svFwdFull : (fun s => sv s = RFwd /\ cap <= rd s /\ sl s = SDone) ~> (fun s => sv s = VStop).
Proof.
  apply sv_at; auto using full_stable.
  - intros s a _ Hs (Hr & _) Ga G. own_cases a Ga G; try reflexivity. lia.
  - intros s I Hs (_ & Hd). exists RFwdStop; cbn; repeat split; eauto.
    destruct I. rewrite i_hstop0, Hd; auto.
Qed.

(* -- once the socket is dead and writeStop closed, the write loop's goroutine ends -- *)
Definition wl_rank_dead (p : wl_pc) : nat :=
  match p with
  | WDone => 0 | WCloseDone => 1 | WCloseSock => 2 | WFlush => 3 | WSock true => 3 | WDrain => 4
  | WSock false => 5 | WSelect => 6
  end.
Definition wlP (s : state) : Prop := dead s = true /\ sl s = SDone.
Lemma wlP_stable : stable wlP.
Proof.
  intros s a I (H1 & H2) G. split; [apply dead_stable; auto | eapply sl_done_stable; eauto].
Qed.
Lemma wl_finishes : wlP ~> (fun s => wl s = WDone).
Proof.
  apply (rank g_wl _ _ (fun s => wl_rank_dead (wl s))); auto using Fwl.
  - intros s a I HP G. pose proof (wlP_stable s a I HP G).
    destruct (wl_frame a s) as [Ga|E]; auto. right; right. rewrite E; auto.
  - intros s a I HP Ga G. pose proof (wlP_stable s a I HP G). destruct HP as (D & _).
    own_cases a Ga G; cbn; auto; try congruence; right; split; auto; destruct x; cbn; lia.
  - intros s I (D & Hs). destruct I.
    destruct (wl s) eqn:E; auto; right.
    + exists WStop; cbn; repeat split; auto. rewrite i_wstop0, Hs; auto.
    + exists WSockFail; cbn; repeat split; eauto.
    + destruct (Nat.eq_dec (wr s) 0); [exists WDrainEmpty | exists WDrainTake]; cbn; repeat split; auto; lia.
    + exists WFlushRet; cbn; repeat split; auto.
    + exists WSockClose; cbn; auto.
    + exists WDoneClose; cbn; auto.
Qed.

(* -- S2: the read loop does not stay parked on reader or in sc.write -- *)
Lemma sv_pc_dec : forall p q : sv_pc, {p = q} + {p <> q}.
Proof. decide equality; apply bool_dec. Qed.

Theorem unpark_forward :
  (fun s => sl_exited s /\ sv s = RFwd) ~> (fun s => sv s <> RFwd).
Proof.
  intros i (Hx & Hs).
  destruct (sl_finishes i Hx) as (j & Hj & Hd).
  destruct (sv_pc_dec (sv (st r j)) RFwd) as [E|E]; [|exists j; auto].
  destruct (svFwd j (conj E Hd)) as (k & Hk & Hq).
  exists k; split; [lia|]. destruct Hq; congruence.
Qed.

Theorem unpark_write :
  (fun s => sl_exited s /\ exists b, sv s = RWrite b) ~> (fun s => forall b, sv s <> RWrite b).
Proof.
  intros i (Hx & Hs).
  destruct (sl_finishes i Hx) as (j & Hj & Hd).
  destruct (sv (st r j)) eqn:E; try (exists j; split; [auto | intros; congruence]).
  destruct (svWrite ret j (conj E Hd)) as (k & Hk & Hq). exists k; split; [lia|].
  intros b; rewrite Hq; destruct ret; discriminate.
Qed.

(* -- S2: once the read loop is on its way out, Serve returns and everything unwinds -- *)
Lemma leaving_stable : stable (fun s => sl_exited s /\ sv_leaving cap s).
Proof.
  intros s a I (Hx & Hl) G. split; [eapply sl_exited_stable; eauto|].
  unfold sv_leaving, sl_exited in *.
  act_cases a; cbn in G |- *; break; auto;
    try (destruct Hl as [Hl|[(Hl & Hr)|[Hl|[Hl|[Hl|Hl]]]]]; rw_pcs; injs; cbn; auto 10; try congruence; try lia; fail).
  all: destruct Hx as [Hx|[Hx|[Hx|Hx]]]; congruence.
Qed.

Lemma leaving_to_teardown : (fun s => sv_leaving cap s /\ sl s = SDone) ~> sv_tearing.
Proof.
  intros i (Hl & Hd). destruct Hl as [Hl|[(Hl & Hr)|Hl]].
  - destruct (svWrite true i (conj Hl Hd)) as (k & Hk & Hq). exists k; unfold sv_tearing; auto.
  - destruct (svFwdFull i (conj Hl (conj Hr Hd))) as (k & Hk & Hq). exists k; unfold sv_tearing; auto.
  - exists i; auto.
Qed.

(* the common end: Serve's teardown, then the write loop's *)
Lemma tearing_returns : (fun s => sv_tearing s /\ sl s = SDone) ~> loops_exited.
Proof.
  apply weaken with (P := fun s => sv_tearing s /\ sl s = SDone)
    (Q := fun s => ((sv s = VEnd /\ sl s = SDone)) /\ wl s = WDone); [|auto|unfold loops_exited; tauto].
  eapply and_then; [apply (keep sv_teardown sl_done_stable)
                   | auto using stable_and, sv_end_stable, sl_done_stable |].
  eapply weaken; [apply wl_finishes | | auto].
  intros s I (H1 & H2). split; auto. destruct I. unfold dead.
  rewrite i_svend0; [apply orb_true_r | rewrite H1; auto].
Qed.

Theorem serve_returns :
  (fun s => sl_exited s /\ sv_leaving cap s) ~> loops_exited.
Proof.
  eapply lt_trans; [|eapply lt_trans; [apply (keep leaving_to_teardown sl_done_stable)
                                      | apply tearing_returns]].
  eapply weaken; [apply (keep sl_finishes leaving_stable) | cbn; tauto | cbn; tauto].
Qed.

(* -- S2/S1 under fairness: if the socket is dead (the peer closed, or the write loop closed it
      after its drain), the read loop leaves whatever it is doing -- *)
Definition sv_rank_dead (s : state) : nat :=
  20 * b2n (rdy s) + sv_rank (sv s).
Definition sv_reading (s : state) : Prop := sv s = RRead \/ sv s = RFwd \/ exists b, sv s = RWrite b.

(* with the socket dead no frame arrives (EPeerSend needs it alive) *)
Lemma rdy_frame : forall a s, guard a s -> dead s = true -> g_sv a \/ rdy (eff a s) = rdy s.
Proof.
  intros a s G D. act_cases a; cbn; auto. unfold dead in D. destruct G as (G1 & G2 & _).
  rewrite G1, G2 in D; discriminate.
Qed.

Lemma rd_finishes : (fun s => wlP s /\ sv_reading s) ~> sv_tearing.
Proof.
  apply (rank g_sv _ _ sv_rank_dead); auto using Fsv.
  - intros s a I (HP & Hr) G. pose proof (wlP_stable s a I HP G).
    destruct (rdy_frame a s G (proj1 HP)) as [Ga|E1]; auto.
    destruct (sv_frame a s) as [Ga|E2]; auto.
    right; right. unfold sv_reading, sv_rank_dead. rewrite E1, E2. auto.
  - intros s a I (HP & Hr) Ga G. pose proof (wlP_stable s a I HP G).
    unfold sv_reading, sv_tearing, sv_rank_dead in *.
    own_cases a Ga G; repeat match goal with b : bool |- _ => destruct b end; cbn; auto;
      right; (split; [split; eauto|]); rewrite ?H1; cbn; lia.
  - intros s I ((D & Hs) & Hr). right. destruct I.
    destruct Hr as [Hr|[Hr|(b' & Hr)]].
    + exists RReadFail; cbn; auto.
    + exists RFwdStop; cbn; repeat split; auto. rewrite i_hstop0, Hs; auto.
    + exists (RWr ViaStop); cbn; repeat split; eauto. rewrite i_wstop0, Hs; auto.
Qed.

Lemma reading_or_tearing : forall s, sv_reading s \/ sv_tearing s.
Proof. intros s; unfold sv_reading, sv_tearing; destruct (sv s); eauto 8. Qed.

Theorem dead_returns : (fun s => sl_exited s /\ dead s = true) ~> loops_exited.
Proof.
  assert (stable (fun s => dead s = true)) as HS by (intros s a I H G; apply dead_stable; auto).
  eapply lt_trans; [|apply tearing_returns].
  eapply lt_trans; [apply (keep sl_finishes HS)|].
  intros i (Hs & Hd). destruct (reading_or_tearing (st r i)) as [Hr|Ht]; [|exists i; auto].
  apply (keep rd_finishes sl_done_stable i). unfold wlP; auto.
Qed.
End P.
End SrvP2.
