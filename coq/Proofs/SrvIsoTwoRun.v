(* Proofs/SrvIsoTwoRun.v - C09 (c): the two-run ("relational") invariant behind non-interference.

   sc_currentWindow (the connection receive window the server still has to announce) is read by ONE function of the
   model, credit_conn_window, and all it decides there is whether a connection-level WINDOW_UPDATE (OWinUpd 0 _) is
   queued now or later. sc_out is never read. So two states that agree on every field but these two, and whose outputs
   agree once the connection-level WINDOW_UPDATEs are struck out (relation R), are taken by every function of the
   model - hence by every step, with the same event - to two states in the same relation. *)
From H2V Require Import Base.Bytes Base.MachineInt Base.Result Gen.GenConsts Impl.ServerConn Proofs.SrvBase
  Proofs.SrvFlowSend Proofs.SrvIsoMoves Proofs.SrvIsoSteps Proofs.SrvIsoRun Proofs.SrvIsoTwoRunOdd.
From Coq Require Import ZArith Lia ZifyN ZifyNat ZifyBool.
Local Open Scope N_scope.

(* connection-level WINDOW_UPDATE, sent or queued late *)
Definition conn_winupd (o : outev) : bool :=
  match o with
  | OWinUpd s _ => s =? 0
  | OLate (OWinUpd s _) => s =? 0
  | _ => false
  end.
Definition keep (o : outev) : bool := negb (conn_winupd o).
Definition filt (l : list outev) : list outev := filter keep l.

Lemma filt_cons_keep o l : keep o = true -> filt (o :: l) = o :: filt l.
Proof. intro K. unfold filt. cbn [filter]. rewrite K. reflexivity. Qed.
Lemma filt_cons_drop o l : keep o = false -> filt (o :: l) = filt l.
Proof. intro K. unfold filt. cbn [filter]. rewrite K. reflexivity. Qed.
Lemma filt_cons_congr o l l' : filt l = filt l' -> filt (o :: l) = filt (o :: l').
Proof. intro E. unfold filt in *. cbn [filter]. rewrite E. reflexivity. Qed.

(* `about_stream g o`: the output o is a frame, a dispatch or a release of stream g *)
Definition about_stream (g : N) (o : outev) : bool :=
  match o with
  | OHeaders s _ _ | OData s _ _ | ORst s _ | ODispatch s _ | ORelease s _ => s =? g
  | OWinUpd s _ => s =? g
  | _ => false
  end.

Lemma about_filt g l : g <> 0 -> filter (about_stream g) (filt l) = filter (about_stream g) l.
Proof.
  intro NZ. induction l as [|o l IH]; [reflexivity|].
  unfold filt in *. cbn [filter]. destruct (keep o) eqn:K.
  - cbn [filter]. rewrite IH. reflexivity.
  - rewrite IH. replace (about_stream g o) with false; [reflexivity|].
    unfold keep in K. destruct o as [| | | |s i| | | | | |o|]; try discriminate K.
    + cbn in K |- *. destruct (s =? 0) eqn:E; [|discriminate K]. apply N.eqb_eq in E. subst s. symmetry. apply N.eqb_neq. lia.
    + reflexivity.
Qed.

Lemma filter_rev_ni {A} (f : A -> bool) l : filter f (rev l) = rev (filter f l).
Proof.
  induction l as [|x l IH]; [reflexivity|]. cbn [rev filter]. rewrite filter_app, IH. cbn [filter].
  destruct (f x); [reflexivity | rewrite app_nil_r; reflexivity].
Qed.

Create HintDb rr.

Section TwoRun.
Variable hstate : Type.
Variable dec_field : hstate -> N -> bytes -> dec_res hstate.
Variable enc_field : hstate -> bytes -> bytes -> bool -> bytes * hstate.
Variable enc_set_max : hstate -> N -> hstate.
Variable cfg : config.
Notation sconn := (sconn hstate).
Implicit Types c : sconn.

Record R (c c' : sconn) : Prop := mkR {
  R_strms : sc_strms c = sc_strms c';
  R_gone : sc_gone c = sc_gone c';
  R_open : sc_open c = sc_open c';
  R_initWin : sc_initWin c = sc_initWin c';
  R_ring : sc_ring c = sc_ring c';
  R_oldest : sc_oldest c = sc_oldest c';
  R_lastID : sc_lastID c = sc_lastID c';
  R_highestID : sc_highestID c = sc_highestID c';
  R_clientWindow : sc_clientWindow c = sc_clientWindow c';
  R_enc : sc_enc c = sc_enc c';
  R_dec : sc_dec c = sc_dec c';
  R_closing : sc_closing c = sc_closing c';
  R_closeRef : sc_closeRef c = sc_closeRef c';
  R_expectCont : sc_expectCont c = sc_expectCont c';
  R_readerQ : sc_readerQ c = sc_readerQ c';
  R_rl_done : sc_rl_done c = sc_rl_done c';
  R_sl_done : sc_sl_done c = sc_sl_done c';
  R_closer : sc_closer c = sc_closer c';
  R_wl_dead : sc_wl_dead c = sc_wl_dead c';
  R_now : sc_now c = sc_now c';
  R_discardID : sc_discardID c = sc_discardID c';
  R_discardPrev : sc_discardPrev c = sc_discardPrev c';
  R_discardFields : sc_discardFields c = sc_discardFields c';
  R_out : filt (sc_out c) = filt (sc_out c') }.

Ltac Rrw H := rewrite <- ?(R_strms _ _ H), <- ?(R_gone _ _ H), <- ?(R_open _ _ H), <- ?(R_initWin _ _ H), <- ?(R_ring _ _ H), <- ?(R_oldest _ _ H), <- ?(R_lastID _ _ H), <- ?(R_highestID _ _ H), <- ?(R_clientWindow _ _ H), <- ?(R_enc _ _ H), <- ?(R_dec _ _ H), <- ?(R_closing _ _ H), <- ?(R_closeRef _ _ H), <- ?(R_expectCont _ _ H), <- ?(R_readerQ _ _ H), <- ?(R_rl_done _ _ H), <- ?(R_sl_done _ _ H), <- ?(R_closer _ _ H), <- ?(R_wl_dead _ _ H), <- ?(R_now _ _ H), <- ?(R_discardID _ _ H), <- ?(R_discardPrev _ _ H), <- ?(R_discardFields _ _ H).

Lemma R_refl c : R c c.
Proof. constructor; reflexivity. Qed.
Lemma R_sym c c' : R c c' -> R c' c.
Proof. intros []. constructor; congruence. Qed.
Lemma R_trans a b c : R a b -> R b c -> R a c.
Proof. intros [] []. constructor; congruence. Qed.

Ltac R_upd := intros H; destruct H; constructor; sc_cbn; congruence.
Lemma R_upd_strms c c' l : R c c' -> R (upd_strms c l) (upd_strms c' l). Proof. R_upd. Qed.
Lemma R_upd_gone c c' l : R c c' -> R (upd_gone c l) (upd_gone c' l). Proof. R_upd. Qed.
Lemma R_upd_open c c' n : R c c' -> R (upd_open c n) (upd_open c' n). Proof. R_upd. Qed.
Lemma R_upd_initWin c c' n : R c c' -> R (upd_initWin c n) (upd_initWin c' n). Proof. R_upd. Qed.
Lemma R_upd_lastID c c' n : R c c' -> R (upd_lastID c n) (upd_lastID c' n). Proof. R_upd. Qed.
Lemma R_upd_highestID c c' n : R c c' -> R (upd_highestID c n) (upd_highestID c' n). Proof. R_upd. Qed.
Lemma R_upd_clientWindow c c' n : R c c' -> R (upd_clientWindow c n) (upd_clientWindow c' n). Proof. R_upd. Qed.
Lemma R_upd_enc c c' h : R c c' -> R (upd_enc c h) (upd_enc c' h). Proof. R_upd. Qed.
Lemma R_upd_dec c c' h : R c c' -> R (upd_dec c h) (upd_dec c' h). Proof. R_upd. Qed.
Lemma R_upd_expectCont c c' n : R c c' -> R (upd_expectCont c n) (upd_expectCont c' n). Proof. R_upd. Qed.
Lemma R_upd_readerQ c c' q : R c c' -> R (upd_readerQ c q) (upd_readerQ c' q). Proof. R_upd. Qed.
Lemma R_upd_closer c c' b : R c c' -> R (upd_closer c b) (upd_closer c' b). Proof. R_upd. Qed.
Lemma R_upd_wl_dead c c' b : R c c' -> R (upd_wl_dead c b) (upd_wl_dead c' b). Proof. R_upd. Qed.
Lemma R_upd_now c c' t : R c c' -> R (upd_now c t) (upd_now c' t). Proof. R_upd. Qed.
Lemma R_upd_ring c c' r o : R c c' -> R (upd_ring c r o) (upd_ring c' r o). Proof. R_upd. Qed.
Lemma R_upd_closing c c' b r : R c c' -> R (upd_closing c b r) (upd_closing c' b r). Proof. R_upd. Qed.
Lemma R_upd_done c c' a b : R c c' -> R (upd_done c a b) (upd_done c' a b). Proof. R_upd. Qed.
Lemma R_upd_discard c c' i p n : R c c' -> R (upd_discard c i p n) (upd_discard c' i p n). Proof. R_upd. Qed.
Lemma R_upd_currentWindow c c' w w' : R c c' -> R (upd_currentWindow c w) (upd_currentWindow c' w'). Proof. R_upd. Qed.
Lemma R_upd_out c c' o o' : R c c' -> filt o = filt o' -> R (upd_out c o) (upd_out c' o'). Proof. intros H E; destruct H; constructor; sc_cbn; congruence. Qed.
Hint Resolve R_upd_strms R_upd_gone R_upd_open R_upd_initWin R_upd_lastID R_upd_highestID R_upd_clientWindow R_upd_enc R_upd_dec R_upd_expectCont R_upd_readerQ R_upd_closer R_upd_wl_dead R_upd_now R_upd_ring R_upd_closing R_upd_done R_upd_discard R_upd_currentWindow : rr.

Definition R2 {A : Type} (p p' : sconn * A) : Prop := R (fst p) (fst p') /\ snd p = snd p'.
Definition R3 {A B : Type} (p p' : sconn * A * B) : Prop :=
  R (fst (fst p)) (fst (fst p')) /\ snd (fst p) = snd (fst p') /\ snd p = snd p'.
Definition R4 {A B C : Type} (p p' : sconn * A * B * C) : Prop :=
  R (fst (fst (fst p))) (fst (fst (fst p'))) /\ snd (fst (fst p)) = snd (fst (fst p')) /\
  snd (fst p) = snd (fst p') /\ snd p = snd p'.

Lemma R2_mk {A : Type} c c' (a : A) : R c c' -> R2 (c, a) (c', a).
Proof. intro H. split; [exact H | reflexivity]. Qed.
Lemma R3_mk {A B : Type} c c' (a : A) (b : B) : R c c' -> R3 (c, a, b) (c', a, b).
Proof. intro H. split; [exact H | split; reflexivity]. Qed.
Lemma R4_mk {A B C : Type} c c' (a : A) (b : B) (d : C) : R c c' -> R4 (c, a, b, d) (c', a, b, d).
Proof. intro H. split; [exact H | repeat split; reflexivity]. Qed.
Hint Resolve R2_mk R3_mk R4_mk R_refl : rr.

Lemma R_emit c c' o : R c c' -> R (emit c o) (emit c' o).
Proof.
  intro H. unfold emit. Rrw H. destruct (sc_wl_dead c); [exact H|].
  destruct (sc_sl_done c); apply R_upd_out; try exact H; apply filt_cons_congr, (R_out _ _ H).
Qed.
Lemma R_note c c' o : R c c' -> R (note c o) (note c' o).
Proof. intro H. unfold note. apply R_upd_out; [exact H|]. apply filt_cons_congr, (R_out _ _ H). Qed.

(* a connection-level WINDOW_UPDATE on one side only *)
Lemma R_emit_l c c' x : R c c' -> R (emit c (OWinUpd 0 x)) c'.
Proof.
  intro H. unfold emit. destruct (sc_wl_dead c); [exact H|].
  destruct (sc_sl_done c); (eapply R_trans; [|exact H]); (eapply R_trans; [apply R_upd_out; [apply R_refl|] | ]).
  - apply filt_cons_drop. reflexivity.
  - destruct c; constructor; reflexivity.
  - apply filt_cons_drop. reflexivity.
  - destruct c; constructor; reflexivity.
Qed.
Lemma R_emit_wu c c' x x' : R c c' -> R (emit c (OWinUpd 0 x)) (emit c' (OWinUpd 0 x')).
Proof. intro H. apply R_emit_l. apply R_sym. apply R_emit_l. apply R_sym. exact H. Qed.
Hint Resolve R_emit R_note : rr.

Lemma R_credit_conn_window c c' n : R c c' -> R (credit_conn_window cfg c n) (credit_conn_window cfg c' n).
Proof.
  intro H. unfold credit_conn_window, write_window_update. destruct (n <=? 0)%Z; [exact H|].
  destruct (_ <? _)%Z; destruct (_ <? _)%Z.
  - apply R_emit_wu. apply R_upd_currentWindow, H.
  - apply R_emit_l. apply R_upd_currentWindow, H.
  - apply R_sym. apply R_emit_l. apply R_upd_currentWindow, R_sym, H.
  - apply R_upd_currentWindow, H.
Qed.
Hint Resolve R_credit_conn_window : rr.

Lemma R_in_ring c c' id : R c c' -> in_ring c' id = in_ring c id.
Proof. intro H. unfold in_ring. Rrw H. reflexivity. Qed.
Lemma R_ring_find c c' id : R c c' -> ring_find c' id = ring_find c id.
Proof. intro H. unfold ring_find. Rrw H. reflexivity. Qed.
Lemma R_can_close c c' : R c c' -> can_close_after_goaway c' = can_close_after_goaway c.
Proof. intro H. unfold can_close_after_goaway. Rrw H. reflexivity. Qed.

(* destructing related results *)
Ltac R2_destr L :=
  let P := fresh "P" in pose proof L as P;
  match type of P with
  | R2 ?a ?b => let H1 := fresh "H" in destruct a as [? ?], b as [? ?]; destruct P as [H1 P]; cbn [fst snd] in H1, P; subst
  | R3 ?a ?b => let H1 := fresh "H" in let P2 := fresh "P" in
                destruct a as [[? ?] ?], b as [[? ?] ?]; destruct P as (H1 & P & P2); cbn [fst snd] in H1, P, P2; subst
  | R4 ?a ?b => let H1 := fresh "H" in let P2 := fresh "P" in let P3 := fresh "P" in
                destruct a as [[[? ?] ?] ?], b as [[[? ?] ?] ?]; destruct P as (H1 & P & P2 & P3); cbn [fst snd] in H1, P, P2, P3; subst
  end.

Lemma R_mark_closed c c' id w : R c c' -> R (mark_closed c id w) (mark_closed c' id w).
Proof.
  intro H. unfold mark_closed. rewrite (R_in_ring _ _ id H). Rrw H. destruct (in_ring c id); [exact H|].
  destruct (_ <? _); auto with rr.
Qed.
Lemma R_release_stream c c' s : R c c' -> R (release_stream c s) (release_stream c' s).
Proof. intro H. unfold release_stream. Rrw H. destruct (fkind_eqb _ _); auto with rr. Qed.
Hint Resolve R_mark_closed R_release_stream : rr.

Lemma R_close_stream c c' s : R c c' -> R (close_stream c s) (close_stream c' s).
Proof.
  intro H. unfold close_stream.
  pose proof (R_mark_closed _ _ (st_id s) (st_weReset s) H) as H1.
  set (c1 := mark_closed c _ _) in *. set (c1' := mark_closed c' _ _) in *. cbv zeta. sc_cbn. Rrw H1.
  destruct (_ && _ && _)%bool; destruct (st_handlerRunning _); sc_cbn; Rrw H1; auto with rr.
Qed.
Lemma R_write_reset c c' sid code : R c c' -> R (write_reset c sid code) (write_reset c' sid code).
Proof. intro H. unfold write_reset. auto with rr. Qed.
Lemma R_write_window_update c c' sid inc : R c c' -> R (write_window_update c sid inc) (write_window_update c' sid inc).
Proof. intro H. unfold write_window_update. auto with rr. Qed.
Lemma R_write_goaway c c' sid code : R c c' -> R (write_goaway c sid code) (write_goaway c' sid code).
Proof. intro H. unfold write_goaway. Rrw H. auto with rr. Qed.
Hint Resolve R_close_stream R_write_reset R_write_window_update R_write_goaway : rr.
Lemma R_write_error c c' s e : R c c' -> R2 (write_error c s e) (write_error c' s e).
Proof. intro H. unfold write_error. destruct e, s; auto with rr. Qed.
Lemma R_consume_recv_window c c' s fr n : R c c' -> R (consume_recv_window cfg c s fr n) (consume_recv_window cfg c' s fr n).
Proof. intro H. unfold consume_recv_window. destruct (_ <=? _)%Z; [exact H|]. destruct (flag_has _ _); auto with rr. Qed.
Lemma R_put c c' x : R c c' -> R (put c x) (put c' x).
Proof. intro H. unfold put. Rrw H. auto with rr. Qed.
Hint Resolve R_write_error R_consume_recv_window R_put : rr.
Lemma R_brk c c' : R c c' -> R2 (brk c) (brk c').
Proof. intro H. unfold brk. Rrw H. auto with rr. Qed.
Lemma R_cont c c' : R c c' -> R2 (cont c) (cont c').
Proof. intro H. unfold cont. auto with rr. Qed.
Hint Resolve R_brk R_cont : rr.

Lemma R_discard_fragment c c' id fragment eh :
  R c c' -> R2 (discard_fragment dec_field cfg c id fragment eh) (discard_fragment dec_field cfg c' id fragment eh).
Proof.
  intro H. unfold discard_fragment. Rrw H.
  destruct (discard_loop _ _ _ _ _ _) as [[[d' fields] carry] e].
  destruct e; [auto with rr|]. destruct eh; [auto with rr|]. destruct (_ && _)%bool; auto with rr.
Qed.
Hint Resolve R_discard_fragment : rr.
Lemma R_discard_header_block c c' fr :
  R c c' -> R2 (discard_header_block dec_field cfg c fr) (discard_header_block dec_field cfg c' fr).
Proof. intro H. unfold discard_header_block. Rrw H. destruct (fkind_eqb _ _); auto with rr. Qed.
Hint Resolve R_discard_header_block : rr.

Lemma R_handle_header_frame c c' s fr :
  R c c' -> R3 (handle_header_frame dec_field cfg c s fr) (handle_header_frame dec_field cfg c' s fr).
Proof.
  intro H. unfold handle_header_frame.
  destruct (_ && _)%bool; [auto with rr|]. destruct (_ && _)%bool; [auto with rr|].
  cbv zeta. Rrw H. destruct (header_loop _ _ _ _ _ _ _) as [[[d' h2] e] rest].
  destruct e as [[code|code|]|].
  - auto with rr.
  - sc_cbn. Rrw H.
    R2_destr (R_discard_fragment (upd_discard (upd_dec c d') (sc_discardID c) [] (hd_blockFields h2 + 1))
                (upd_discard (upd_dec c' d') (sc_discardID c) [] (hd_blockFields h2 + 1)) (st_id s) rest
                (flag_has (sf_flags fr) FL_EH) ltac:(auto with rr)).
    destruct o0; auto with rr.
  - auto with rr.
  - destruct (_ && _)%bool; auto with rr.
Qed.
Hint Resolve R_handle_header_frame : rr.

Lemma R_handle_frame c c' s fr :
  R c c' -> R3 (handle_frame dec_field cfg c s fr) (handle_frame dec_field cfg c' s fr).
Proof.
  intro H. unfold handle_frame. destruct (verify_state s fr); [auto with rr|].
  destruct (sf_kind fr); try solve [repeat (match goal with |- context [if ?b then _ else _] => destruct b end); auto with rr].
  - destruct (_ && _)%bool; [auto with rr|]. R2_destr (R_handle_header_frame _ _ s fr H).
    repeat (match goal with |- context [if ?b then _ else _] => destruct b | |- context [match ?b with Some _ => _ | None => _ end] => destruct b end); auto with rr.
  - destruct (_ && _)%bool; [auto with rr|]. R2_destr (R_handle_header_frame _ _ s fr H).
    repeat (match goal with |- context [if ?b then _ else _] => destruct b | |- context [match ?b with Some _ => _ | None => _ end] => destruct b end); auto with rr.
Qed.
Hint Resolve R_handle_frame : rr.

Lemma R_send_data_loop fuel : forall c c' sid n, R c c' -> R4 (send_data_loop fuel c sid n) (send_data_loop fuel c' sid n).
Proof.
  induction fuel as [|fuel IH]; intros c c' sid n H; [cbn [send_data_loop]; auto with rr|]. rewrite !send_data_loop_S.
  assert (G : forall n1, R4 (sd_go fuel c sid n1) (sd_go fuel c' sid n1)).
  { intro n1. unfold sd_go, sd_c2, sd_n', sd_es, sd_rest, sd_chunk, sd_step, sd_avail. Rrw H.
    destruct (_ <=? 0)%Z; [auto with rr|]. destruct (_ && _)%bool; [auto with rr|]. apply IH. auto with rr. }
  destruct (sn_pending n); [|apply G]. destruct (sn_bodyStream n); [|auto with rr].
  destruct (refill_pending n) as [n1|]; [|auto with rr]. destruct (sn_pending n1); [|apply G].
  destruct (sn_pendingEnd n1); auto with rr.
Qed.
Hint Resolve R_send_data_loop : rr.

Lemma R_send_data c c' s : R c c' -> R3 (send_data c s) (send_data c' s).
Proof.
  intro H. unfold send_data. R2_destr (R_send_data_loop (send_data_fuel (get_snd s)) c c' (st_id s) (get_snd s) H).
  auto with rr.
Qed.
Hint Resolve R_send_data : rr.

Lemma R_finish_request c c' s r : R c c' -> R3 (finish_request enc_field c s r) (finish_request enc_field c' s r).
Proof.
  intro H. unfold finish_request. Rrw H. destruct (response_block _ _ _) as [blk e'].
  destruct (negb _); auto with rr.
Qed.
Hint Resolve R_finish_request : rr.

Lemma R_flush_loop ids : forall c c' done, R c c' -> R2 (flush_loop c ids done) (flush_loop c' ids done).
Proof.
  induction ids as [|id t IH]; intros c c' done H; cbn [flush_loop]; [auto with rr|].
  Rrw H. destruct (strms_search _ _) as [s|]; [|auto]. destruct (_ && _ && _)%bool; [|auto].
  R2_destr (R_send_data c c' s H). apply IH. auto with rr.
Qed.
Lemma R_close_all ids : forall c c', R c c' -> R (close_all c ids) (close_all c' ids).
Proof.
  induction ids as [|id t IH]; intros c c' H; cbn [close_all]; [exact H|].
  Rrw H. destruct (strms_search _ _) as [s|]; auto with rr.
Qed.
Lemma R_flush_streams c c' : R c c' -> R (flush_streams c) (flush_streams c').
Proof.
  intro H. unfold flush_streams. Rrw H. R2_destr (R_flush_loop (map st_id (sc_strms c)) c c' [] H).
  apply R_close_all. assumption.
Qed.
Hint Resolve R_flush_streams R_close_all : rr.

Lemma R_implicit_close fuel : forall c c' sid, R c c' -> R (implicit_close fuel c sid) (implicit_close fuel c' sid).
Proof.
  induction fuel as [|fuel IH]; intros c c' sid H; cbn [implicit_close]; [exact H|].
  Rrw H. destruct (sc_strms c) as [|n t]; [exact H|]. destruct (_ && _ && _)%bool; [|exact H].
  apply IH. auto with rr.
Qed.
Hint Resolve R_implicit_close : rr.

Lemma R_brk_if (b : bool) c c' : R c c' -> R2 (if b then brk c else cont c) (if b then brk c' else cont c').
Proof. intro H. destruct b; auto with rr. Qed.

Lemma R_write_back c2 c2' s2 wc : R c2 c2' -> R2 (write_back c2 s2 wc) (write_back c2' s2 wc).
Proof.
  intro H2. unfold write_back. cbv zeta.
  assert (H3 : R (if sstate_eqb (st_state s2) SClosed then close_stream (put c2 s2) s2 else put c2 s2)
                 (if sstate_eqb (st_state s2) SClosed then close_stream (put c2' s2) s2 else put c2' s2))
    by (destruct (sstate_eqb _ _); auto with rr).
  rewrite (R_can_close _ _ H3). apply R_brk_if, H3.
Qed.

Lemma R_after_frame c c' s fr wc : R c c' -> R2 (after_frame cfg c s fr wc) (after_frame cfg c' s fr wc).
Proof.
  intro H. rewrite !after_frame_eq.
  assert (S : R2 (af_sel c (handle_state fr s)) (af_sel c' (handle_state fr s))).
  { unfold af_sel. destruct (_ && _ && _)%bool.
    - destruct (_ && _)%bool; auto with rr.
    - destruct (_ && _ && _)%bool; [|auto with rr].
      R2_destr (R_send_data c c' (handle_state fr s) H). auto with rr. }
  destruct (af_sel c (handle_state fr s)) as [c2 s2], (af_sel c' (handle_state fr s)) as [c2' s2'].
  destruct S as [H2 E]. cbn [fst snd] in H2, E. subst s2'. apply R_write_back, H2.
Qed.
Hint Resolve R_after_frame : rr.

Lemma R_discard_or_break (p p' : sconn * option h2err) : R2 p p' -> R2 (discard_or_break p) (discard_or_break p').
Proof.
  intros H. destruct p as [c1 e], p' as [c1' e']. destruct H as [H E]. cbn [fst snd] in H, E. subst e'.
  unfold discard_or_break. destruct e as [[code|code|]|]; auto with rr.
  - apply R_brk. pose proof (R_write_error _ _ None (EGoAway code) H) as [K _]. exact K.
  - apply R_brk. pose proof (R_write_error _ _ None (EReset code) H) as [K _]. exact K.
Qed.
Hint Resolve R_discard_or_break : rr.

Lemma R_ftail_rest c c' s e fr wc : R c c' -> R2 (ftail_rest cfg c s e fr wc) (ftail_rest cfg c' s e fr wc).
Proof.
  intro H. unfold ftail_rest. destruct e as [e|]; [|auto with rr].
  R2_destr (R_write_error c c' (Some s) e H).
  destruct e as [code|code|]; [destruct (negb _)| |]; auto with rr.
Qed.
Lemma R_ftail c c' s fr wc : R c c' -> R2 (ftail dec_field cfg c s fr wc) (ftail dec_field cfg c' s fr wc).
Proof. intro H. unfold ftail. R2_destr (R_handle_frame c c' s fr H). apply R_ftail_rest. assumption. Qed.
Lemma R_fwork c c' s fr wc : R c c' -> R2 (fwork dec_field cfg c s fr wc) (fwork dec_field cfg c' s fr wc).
Proof.
  intro H. unfold fwork. cbv zeta. Rrw H. destruct (fkind_eqb _ _); [|apply R_ftail, H].
  destruct (get_previous_headers _) as [p|].
  - destruct (negb _).
    + R2_destr (R_write_error c c' (Some p) (EGoAway c_ProtocolError) H). destruct o0; auto with rr.
    + apply R_ftail. auto with rr.
  - apply R_ftail. auto with rr.
Qed.
Hint Resolve R_fwork : rr.

Lemma R_sl_frame c c' fr :
  R c c' -> R2 (sl_frame dec_field enc_set_max cfg c fr) (sl_frame dec_field enc_set_max cfg c' fr).
Proof.
  intro H. unfold sl_frame.
  destruct (sf_sid fr =? 0).
  { destruct (sf_kind fr); auto with rr.
    - (* SETTINGS *)
      assert (H0 : R (if sf_set_hastable fr then upd_enc c (enc_set_max (sc_enc c) (sf_set_table fr)) else c)
                     (if sf_set_hastable fr then upd_enc c' (enc_set_max (sc_enc c') (sf_set_table fr)) else c'))
        by (Rrw H; destruct (sf_set_hastable fr); auto with rr).
      set (c0 := if sf_set_hastable fr then upd_enc c _ else c) in *.
      set (c0' := if sf_set_hastable fr then upd_enc c' _ else c') in *.
      cbv zeta. destruct (sf_set_haswin fr); [|auto with rr].
      sc_cbn. Rrw H0.
      match goal with |- context [let '(aa, bb) := ?B in _] => destruct B as [lB over] end.
      destruct over; auto 7 with rr.
    - (* WINDOW_UPDATE *)
      cbv zeta. Rrw H. destruct (_ <? _)%Z; auto 6 with rr. }
  Rrw H. destruct (_ && _ && _)%bool; [auto with rr|].
  cbv zeta.
  change (match ?pre with inl r => r | inr (c1, s) => _ end) with
    (match pre with inl r => r | inr (c1, s) => fwork dec_field cfg c1 s fr (sc_closing c) end).
  Rrw H. rewrite (R_in_ring _ _ (sf_sid fr) H), (R_ring_find _ _ (sf_sid fr) H).
  destruct (if sf_sid fr <=? sc_lastID c then strms_search (sc_strms c) (sf_sid fr) else None) as [s|]; [auto with rr|].
  destruct (fkind_eqb (sf_kind fr) KRst).
  { destruct (_ && _)%bool; auto with rr. }
  destruct (in_ring c (sf_sid fr)).
  { destruct (sf_kind fr); auto with rr;
      destruct (match ring_find c (sf_sid fr) with Some b => b | None => false end); auto with rr. }
  destruct (fkind_eqb (sf_kind fr) KPriority).
  { destruct (sf_dep fr =? sf_sid fr); auto with rr. }
  destruct (_ && _)%bool; [auto with rr|].
  assert (H0 : R (if fkind_eqb (sf_kind fr) KHeaders then upd_highestID c (sf_sid fr) else c)
                 (if fkind_eqb (sf_kind fr) KHeaders then upd_highestID c' (sf_sid fr) else c'))
    by (destruct (fkind_eqb _ _); auto with rr).
  set (c0 := if fkind_eqb (sf_kind fr) KHeaders then upd_highestID c _ else c) in *.
  set (c0' := if fkind_eqb (sf_kind fr) KHeaders then upd_highestID c' _ else c') in *.
  Rrw H0.
  destruct (_ && _)%bool; [auto 6 with rr|].
  destruct (_ <? _); [auto with rr|].
  destruct (_ && _)%bool; [auto 6 with rr|].
  assert (H1 : R (if fkind_eqb (sf_kind fr) KHeaders then upd_lastID c0 (sf_sid fr) else c0)
                 (if fkind_eqb (sf_kind fr) KHeaders then upd_lastID c0' (sf_sid fr) else c0'))
    by (destruct (fkind_eqb _ _); auto with rr).
  set (c1 := if fkind_eqb (sf_kind fr) KHeaders then upd_lastID c0 _ else c0) in *.
  set (c1' := if fkind_eqb (sf_kind fr) KHeaders then upd_lastID c0' _ else c0') in *.
  sc_cbn. Rrw H1.
  apply R_fwork. destruct (fkind_eqb _ _); sc_cbn; Rrw H1; auto with rr.
Qed.
Hint Resolve R_sl_frame : rr.

Lemma R_sl_done_fn c c' sid r : R c c' -> R2 (sl_done enc_field cfg c sid r) (sl_done enc_field cfg c' sid r).
Proof.
  intro H. unfold sl_done. Rrw H. destruct (take_stream _ _) as [[s rest]|]; [auto with rr|].
  destruct (strms_search _ _) as [s|]; [|auto with rr]. destruct (negb _); [auto with rr|].
  R2_destr (R_finish_request c c' (set_flags s (st_responded s) false (st_abandoned s)) r H).
  cbv zeta.
  match goal with |- R2 (if sc_closing ?a && _ then _ else _) (if sc_closing ?a' && _ then _ else _) =>
    assert (H2 : R a a') by (match goal with |- R (if ?b then _ else _) _ => destruct b end; auto with rr) end.
  Rrw H2. rewrite (R_can_close _ _ H2). apply R_brk_if, H2.
Qed.
Hint Resolve R_sl_done_fn : rr.

Lemma R_close_heads n : forall c c', R c c' -> R (close_heads n c) (close_heads n c').
Proof.
  induction n as [|n IH]; intros c c' H; cbn [close_heads]; [exact H|].
  Rrw H. destruct (sc_strms c) as [|s t]; [exact H|]. apply IH. auto with rr.
Qed.
Lemma R_sl_timer c c' : R c c' -> R2 (sl_timer cfg c) (sl_timer cfg c').
Proof. intro H. unfold sl_timer. Rrw H. destruct (_ <=? _)%Z; auto using R_close_heads with rr. Qed.
Hint Resolve R_sl_timer : rr.

Lemma R_rl_exit c c' why : R c c' -> R (rl_exit c why) (rl_exit c' why).
Proof. intro H. unfold rl_exit. Rrw H. auto with rr. Qed.
Hint Resolve R_rl_exit : rr.
Lemma R_forward c c' fr : R c c' -> R (forward c fr) (forward c' fr).
Proof. intro H. unfold forward. Rrw H. destruct (sc_sl_done c); auto with rr. Qed.
Hint Resolve R_forward : rr.

Lemma R_rl_dispatch c1 c1' fr : R c1 c1' -> R (rl_dispatch c1 fr) (rl_dispatch c1' fr).
Proof.
  intro H1. unfold rl_dispatch. destruct (negb _).
  - destruct (check_frame_with_stream fr) as [e|]; [|auto with rr].
    apply R_rl_exit. pose proof (R_write_error c1 c1' None e H1) as [K _]. exact K.
  - destruct (sf_kind fr); auto with rr; match goal with |- context [if ?b then _ else _] => destruct b end; auto with rr.
Qed.

Lemma R_rl_step c c' i : R c c' -> R (rl_step cfg c i) (rl_step cfg c' i).
Proof.
  intro H. destruct i as [fr| |[code|]|]; [rewrite !rl_step_RFrame; unfold rl_gate | cbn [rl_step]..]; Rrw H; auto with rr.
  - destruct (negb (sc_expectCont c =? 0)).
    + destruct (_ || _)%bool; [auto with rr|]. destruct (flag_has (sf_flags fr) FL_EH); apply R_rl_dispatch; auto with rr.
    + destruct (fkind_eqb (sf_kind fr) KCont); [auto with rr|].
      destruct (fkind_eqb (sf_kind fr) KHeaders && negb (flag_has (sf_flags fr) FL_EH))%bool; apply R_rl_dispatch; auto with rr.
  - destruct (negb _); auto with rr.
Qed.
Hint Resolve R_rl_step : rr.

Notation step := (step dec_field enc_field enc_set_max cfg).
Theorem R_step c c' e : R c c' -> R (step c e) (step c' e).
Proof.
  intro H. destruct e as [i| |sid r|t| | | |].
  - rewrite !step_EvRL. Rrw H. destruct (sc_rl_done c); auto with rr.
  - rewrite !step_EvSL. Rrw H. destruct (sc_sl_done c); [exact H|].
    destruct (sc_readerQ c) as [|fr q].
    + destruct (sc_rl_done c); auto with rr.
    + apply R_sl_frame. auto with rr.
  - rewrite !step_EvDone. Rrw H. destruct (sc_sl_done c); [exact H|]. apply R_sl_done_fn, H.
  - rewrite !step_EvClock. Rrw H. destruct (_ <? _)%Z; auto with rr.
  - rewrite !step_EvTimer. Rrw H. destruct (sc_sl_done c); [exact H|]. apply R_sl_timer, H.
  - rewrite !step_EvIdle. auto with rr.
  - rewrite !step_EvCloser. Rrw H. destruct (_ && _)%bool; [|exact H]. apply R_brk, H.
  - rewrite !step_EvWriteFail. auto with rr.
Qed.

Theorem R_run_from evs : forall c c', R c c' ->
  R (run_from dec_field enc_field enc_set_max cfg c evs) (run_from dec_field enc_field enc_set_max cfg c' evs).
Proof.
  induction evs as [|e evs IH]; intros c c' H; [exact H|]. rewrite !run_from_cons. apply IH, R_step, H.
Qed.

(* once the stream loop has ended nothing is said about any stream *)
Definition quiet c c' : Prop :=
  sc_sl_done c' = sc_sl_done c /\ forall g, filter (about_stream g) (sc_out c') = filter (about_stream g) (sc_out c).
Lemma quiet_refl c : quiet c c. Proof. split; reflexivity. Qed.
Lemma quiet_trans a b c : quiet a b -> quiet b c -> quiet a c.
Proof. intros [A1 A2] [B1 B2]. split; [congruence|]. intro g. rewrite B2. apply A2. Qed.
Lemma quiet_same c c' : sc_sl_done c' = sc_sl_done c -> sc_out c' = sc_out c -> quiet c c'.
Proof. intros A B. split; [exact A|]. intro g. rewrite B. reflexivity. Qed.
Lemma quiet_emit c o : (forall g, about_stream g o = false) -> quiet c (emit c o).
Proof.
  intro NA. unfold emit. destruct (sc_wl_dead c); [apply quiet_refl|].
  destruct (sc_sl_done c) eqn:D; (split; [sc_cbn; congruence|]); intro g; sc_cbn; cbn [filter about_stream]; rewrite ?NA; reflexivity.
Qed.
Lemma quiet_note c o : (forall g, about_stream g o = false) -> quiet c (note c o).
Proof. intro NA. unfold note. split; [reflexivity|]. intro g. sc_cbn. cbn [filter]. rewrite NA. reflexivity. Qed.
Lemma quiet_write_goaway c sid code : quiet c (write_goaway c sid code).
Proof.
  unfold write_goaway. eapply quiet_trans; [|apply quiet_emit; reflexivity]. apply quiet_same; reflexivity.
Qed.
Lemma quiet_rl_exit c why : quiet c (rl_exit c why).
Proof. unfold rl_exit. eapply quiet_trans; [|apply quiet_note; reflexivity]. apply quiet_same; reflexivity. Qed.
Lemma quiet_forward c fr : quiet c (forward c fr).
Proof. unfold forward. destruct (sc_sl_done c); [apply quiet_rl_exit | apply quiet_same; reflexivity]. Qed.
Lemma quiet_goaway_exit c sid code why : quiet c (rl_exit (write_goaway c sid code) why).
Proof. eapply quiet_trans; [apply quiet_write_goaway | apply quiet_rl_exit]. Qed.

Lemma quiet_rl_dispatch c1 fr : quiet c1 (rl_dispatch c1 fr).
Proof.
  unfold rl_dispatch. destruct (negb (sf_sid fr =? 0)).
  - destruct (check_frame_with_stream fr) as [e|]; [|apply quiet_forward].
    rewrite write_error_fst. destruct e; try apply quiet_rl_exit; apply quiet_goaway_exit.
  - destruct (sf_kind fr); repeat match goal with |- context [if ?b then _ else _] => destruct b end;
      try apply quiet_refl; try apply quiet_forward; try (apply quiet_emit; reflexivity); try apply quiet_rl_exit;
      apply quiet_goaway_exit.
Qed.

Lemma quiet_rl_step c i : quiet c (rl_step cfg c i).
Proof.
  destruct i as [fr| |[code|]|].
  - rewrite rl_step_RFrame.
    assert (Q : match rl_gate c fr with inl c' => quiet c c' | inr c1 => quiet c c1 end).
    { unfold rl_gate. repeat match goal with |- context [if ?b then _ else _] => destruct b end;
      try apply quiet_refl; try apply quiet_goaway_exit; apply quiet_same; reflexivity. }
    destruct (rl_gate c fr) as [c'|c1]; [exact Q | eapply quiet_trans; [exact Q | apply quiet_rl_dispatch]].
  - cbn [rl_step]. destruct (negb _); [apply quiet_goaway_exit | apply quiet_refl].
  - apply quiet_goaway_exit.
  - apply quiet_rl_exit.
  - apply quiet_rl_exit.
Qed.

Lemma quiet_step c e : sc_sl_done c = true -> quiet c (step c e).
Proof.
  intro D. destruct e as [i| |sid r|t| | | |].
  - rewrite step_EvRL. destruct (sc_rl_done c); [apply quiet_refl | apply quiet_rl_step].
  - rewrite step_EvSL, D. apply quiet_refl.
  - rewrite step_EvDone, D. apply quiet_refl.
  - rewrite step_EvClock. destruct (_ <? _)%Z; [apply quiet_same; reflexivity | apply quiet_refl].
  - rewrite step_EvTimer, D. apply quiet_refl.
  - rewrite step_EvIdle. eapply quiet_trans; [apply quiet_write_goaway | apply quiet_same; reflexivity].
  - rewrite step_EvCloser, D. rewrite Bool.andb_false_r. apply quiet_refl.
  - rewrite step_EvWriteFail. apply quiet_same; reflexivity.
Qed.

Lemma quiet_run_from evs : forall c, sc_sl_done c = true -> quiet c (run_from dec_field enc_field enc_set_max cfg c evs).
Proof.
  induction evs as [|e evs IH]; intros c D; [apply quiet_refl|]. rewrite run_from_cons.
  pose proof (quiet_step c e D) as Q. eapply quiet_trans; [exact Q|]. apply IH. destruct Q as [Q _]. congruence.
Qed.

(* the cut: a DATA frame in flight for a stream the server has reset *)
Lemma ring_find_in_ring c id b : ring_find c id = Some b -> in_ring c id = true.
Proof.
  unfold ring_find, in_ring. induction (sc_ring c) as [|e l IH]; cbn [find existsb]; [discriminate|].
  destruct (id =? fst e); [reflexivity|]. exact IH.
Qed.

Lemma R_credit_l c c' n : R c c' -> R (credit_conn_window cfg c n) c'.
Proof.
  intro H. unfold credit_conn_window, write_window_update. destruct (n <=? 0)%Z; [exact H|].
  destruct (_ <? _)%Z.
  - apply R_emit_l. eapply R_trans; [|exact H]. constructor; reflexivity.
  - eapply R_trans; [|exact H]. constructor; reflexivity.
Qed.

(* what the read loop does with the frame: it is forwarded (or, the stream loop gone, the read loop stops) *)
Lemma cut_rl c fr :
  sf_kind fr = KData -> sf_sid fr <> 0 -> oddN (sf_sid fr) -> sc_rl_done c = false -> sc_expectCont c = 0 ->
  step c (EvRL (RFrame fr)) = forward c fr.
Proof.
  intros KD NZ ODD RD EC. rewrite step_EvRL, RD. unfold rl_step. rewrite EC, KD. cbn [N.eqb negb fkind_eqb andb].
  replace (sf_sid fr =? 0) with false by lia. cbn [negb]. unfold check_frame_with_stream. rewrite ODD, KD. reflexivity.
Qed.

(* ... and the stream loop: nothing but the credit of the connection window *)
Lemma cut_steps c fr :
  sf_kind fr = KData -> sf_sid fr <> 0 -> oddN (sf_sid fr) ->
  strms_search (sc_strms c) (sf_sid fr) = None -> ring_find c (sf_sid fr) = Some true ->
  sc_readerQ c = [] -> sc_rl_done c = false -> sc_expectCont c = 0 -> sc_sl_done c = false ->
  step (step c (EvRL (RFrame fr))) EvSL = credit_conn_window cfg (upd_readerQ c []) (Z.of_N (sf_len fr)).
Proof.
  intros KD NZ ODD NS RF RQ RD EC SD. rewrite cut_rl by assumption. unfold forward. rewrite SD, RQ. cbn [app].
  rewrite step_EvSL. sc_cbn. rewrite SD. unfold sl_frame. replace (sf_sid fr =? 0) with false by lia. rewrite KD.
  cbn [fkind_eqb andb]. cbv zeta. sc_cbn. rewrite NS.
  replace (in_ring (upd_readerQ (upd_readerQ c [fr]) []) (sf_sid fr)) with (in_ring c (sf_sid fr)) by reflexivity.
  replace (ring_find (upd_readerQ (upd_readerQ c [fr]) []) (sf_sid fr)) with (ring_find c (sf_sid fr)) by reflexivity.
  rewrite (ring_find_in_ring _ _ _ RF), RF. destruct (sf_sid fr <=? sc_lastID c); reflexivity.
Qed.

Lemma cut_R c fr :
  sf_kind fr = KData -> sf_sid fr <> 0 -> oddN (sf_sid fr) ->
  strms_search (sc_strms c) (sf_sid fr) = None -> ring_find c (sf_sid fr) = Some true ->
  sc_readerQ c = [] -> sc_rl_done c = false -> sc_expectCont c = 0 -> sc_sl_done c = false ->
  R (step (step c (EvRL (RFrame fr))) EvSL) c.
Proof.
  intros KD NZ ODD NS RF RQ RD EC SD. rewrite cut_steps by assumption. apply R_credit_l.
  constructor; sc_cbn; congruence.
Qed.

Variable h0 : hstate.
Notation run := (run dec_field enc_field enc_set_max cfg h0).

(* THE TWO RUNS, strong form (stream loop alive at the cut): after any continuation evs2 the two connections are in
   the same state - stream table, ring, HPACK coders, flags, queues, clock, everything - except for the receive
   window still to be announced, and have produced the same outputs in the same order except for connection-level
   WINDOW_UPDATEs. *)
Theorem two_runs_related evs1 fr evs2 :
  let c1 := run evs1 in
  sf_kind fr = KData -> sf_sid fr <> 0 ->
  strms_search (sc_strms c1) (sf_sid fr) = None -> ring_find c1 (sf_sid fr) = Some true ->
  sc_readerQ c1 = [] -> sc_rl_done c1 = false -> sc_expectCont c1 = 0 -> sc_sl_done c1 = false ->
  R (run (evs1 ++ [EvRL (RFrame fr); EvSL] ++ evs2)) (run (evs1 ++ evs2)).
Proof.
  intros c1 KD NZ NS RF RQ RD EC SD. rewrite !run_app, run_from_app.
  apply R_run_from. cbn [run_from fold_left]. apply cut_R; try assumption.
  exact (ring_ids_odd _ dec_field enc_field enc_set_max cfg h0 evs1 _ _ RF).
Qed.

(* THE TWO RUNS, as seen from any stream g (the reset stream itself included): same frames, dispatches and
   releases, in the same order. No hypothesis on the rest of the run: any frames, handler completions, timers,
   errors, a dead write loop, a stream loop that has already ended at the cut. *)
Theorem noninterference evs1 fr evs2 g :
  let c1 := run evs1 in
  sf_kind fr = KData -> sf_sid fr <> 0 -> g <> 0 ->
  strms_search (sc_strms c1) (sf_sid fr) = None -> ring_find c1 (sf_sid fr) = Some true ->
  sc_readerQ c1 = [] -> sc_rl_done c1 = false -> sc_expectCont c1 = 0 ->
  filter (about_stream g) (trace (run (evs1 ++ [EvRL (RFrame fr); EvSL] ++ evs2))) =
  filter (about_stream g) (trace (run (evs1 ++ evs2))).
Proof.
  intros c1 KD NZ GZ NS RF RQ RD EC. unfold trace. rewrite !filter_rev_ni. f_equal.
  pose proof (ring_ids_odd _ dec_field enc_field enc_set_max cfg h0 evs1 _ _ RF) as ODD. unfold oddN in ODD.
  destruct (sc_sl_done c1) eqn:SD.
  - (* the stream loop has ended: the read loop stops at the frame; nothing more is said about any stream *)
    rewrite !run_app, run_from_app. fold c1. cbn [run_from fold_left].
    rewrite cut_rl by assumption. unfold forward. rewrite SD.
    assert (D2 : sc_sl_done (rl_exit c1 2) = true) by (rewrite <- SD; apply quiet_rl_exit).
    rewrite step_EvSL, D2.
    destruct (quiet_run_from evs2 _ D2) as [_ Q1]. destruct (quiet_run_from evs2 _ SD) as [_ Q2].
    rewrite Q1, Q2. apply quiet_rl_exit.
  - pose proof (two_runs_related evs1 fr evs2 KD NZ NS RF RQ RD EC SD) as H.
    rewrite <- (about_filt g _ GZ), (R_out _ _ H). apply about_filt, GZ.
Qed.

(* the statement as it stands in Props/C09.v: `clean` and `sf_sid fr <> g` are not needed *)
Theorem noninterference_as_stated evs1 fr evs2 g :
  let c1 := run evs1 in
  sf_kind fr = KData -> sf_sid fr <> 0 -> sf_sid fr <> g -> g <> 0 ->
  strms_search (sc_strms c1) (sf_sid fr) = None -> ring_find c1 (sf_sid fr) = Some true ->
  sc_readerQ c1 = [] -> sc_rl_done c1 = false -> sc_expectCont c1 = 0 ->
  clean dec_field enc_field enc_set_max cfg h0 (evs1 ++ [EvRL (RFrame fr); EvSL] ++ evs2) ->
  filter (about_stream g) (trace (run (evs1 ++ [EvRL (RFrame fr); EvSL] ++ evs2))) =
  filter (about_stream g) (trace (run (evs1 ++ evs2))).
Proof. intros c1 KD NZ _ GZ NS RF RQ RD EC _. apply noninterference; assumption. Qed.

End TwoRun.

Arguments R {hstate}.
Arguments quiet {hstate}.
