(* Proofs/SrvIsoInst.v - the abstract reference of Proofs/SrvIsoRef.v, for the server instantiated with the real
   HPACK model (Impl/ServerInst.v): it is the header-block loop of Impl/Hpack.v (frame_loop), the function that
   C03 (Props/C03.v) proves to be RFC 7541 and split-invariant. *)
From H2V Require Import Base.Bytes Base.MachineInt Base.Result Gen.GenConsts Impl.Hpack Impl.ServerConn Impl.ServerInst
  Proofs.SrvBase Proofs.SrvIsoRef Proofs.HpackTotal.
From H2V Require Import Proofs.HpackBlock.
From Coq Require Import ZArith Lia ZifyN ZifyNat ZifyBool.
Local Open Scope N_scope.

Definition kv_of (f : field) : bytes * bytes := (f_key f, f_value f).

(* whenever the HPACK model's frame loop accepts a fragment, the server's reference decodes it the same way *)
Lemma ref_run_of_frame_loop fuel : forall hp hf eh n b fs hp' st,
  frame_loop fuel hp hf eh n b = Ok (fs, hp', st) ->
  ref_run srv_dec_field eh hp n b (map kv_of fs) hp' (s_block_fields st) (s_prev st).
Proof.
  induction fuel as [|fuel IH]; intros hp hf eh n b fs hp' st; destruct b as [|x b]; cbn [frame_loop].
  - intro H; inversion H; subst. constructor.
  - discriminate.
  - intro H; inversion H; subst. constructor.
  - pose proof (next_field_ignores_hf hp hf empty_field true n (x :: b)) as (ER & EH & EF). cbv zeta in *.
    assert (SD : srv_dec_field hp n (x :: b) =
                 match nf_res (next_field hp hf true n (x :: b)) with
                 | Ok (rest, true) => DField _ (f_key (nf_hf (next_field hp hf true n (x :: b)))) (f_value (nf_hf (next_field hp hf true n (x :: b)))) rest (nf_hp (next_field hp hf true n (x :: b)))
                 | Ok (_, false) => DNone _ (nf_hp (next_field hp hf true n (x :: b)))
                 | Err e => if e =? E_unexpected_size then DShort _ (nf_hp (next_field hp hf true n (x :: b))) else DFail _ (nf_hp (next_field hp hf true n (x :: b)))
                 | Panic _ => DPanic _
                 end).
    { unfold srv_dec_field. rewrite <- ER, <- EH. destruct (nf_res (next_field hp hf true n (x :: b))) as [[rest [|]]|e|w] eqn:R; try reflexivity.
      rewrite <- (EF rest eq_refl). reflexivity. }
    destruct (nf_res (next_field hp hf true n (x :: b))) as [[rest [|]]|e|w] eqn:R.
    + destruct (frame_loop fuel _ _ eh (n + 1) rest) as [[[fs1 hp1] st1]|e1|w1] eqn:FL; try discriminate.
      intro H; inversion H; subst. cbn [map]. eapply rr_field; [discriminate | exact SD | eapply IH; exact FL].
    + intro H; inversion H; subst. cbn [map s_block_fields s_prev]. apply rr_none; [discriminate | exact SD].
    + destruct ((e =? E_unexpected_size) && (0 <? len (x :: b)) && negb eh)%bool eqn:C; [|discriminate].
      apply andb_prop in C. destruct C as [C C3]. apply andb_prop in C. destruct C as [C1 C2].
      intro H; inversion H; subst. cbn [map s_block_fields s_prev]. rewrite C1 in SD.
      apply rr_short; [discriminate | apply negb_true_iff; exact C3 | exact SD].
    + discriminate.
Qed.

(* one frame of a block (Impl/Hpack.v handle_header_frame: payload, END_HEADERS, CONTINUATION?) *)
Lemma ref_run_of_hpack_frame hp st payload eh ic fs hp' st' :
  Hpack.handle_header_frame hp st (payload, eh, ic) = Ok (fs, hp', st') ->
  ref_run srv_dec_field eh hp (if ic then s_block_fields st else 0) (s_prev st ++ payload) (map kv_of fs) hp'
          (s_block_fields st') (s_prev st').
Proof.
  unfold Hpack.handle_header_frame.
  destruct (frame_loop _ hp empty_field eh (if ic then s_block_fields st else 0) (s_prev st ++ payload)) as [[[fs1 hp1] st1]|e|w] eqn:FL;
    try discriminate.
  destruct (eh && negb (len (s_prev st1) =? 0))%bool; [discriminate|]. intro H; inversion H; subst.
  eapply ref_run_of_frame_loop. exact FL.
Qed.

(* the hypothesis of header_frame_not_fatal (Proofs/SrvIsoErr.v) holds for the real decoder: a decoded field
   consumes at least one octet *)
Lemma srv_dec_shrinks : forall d n b k v rest d',
  srv_dec_field d n b = DField _ k v rest d' -> (length rest < length b)%nat.
Proof.
  intros d n b k v rest d'. unfold srv_dec_field.
  destruct (nf_res (next_field d empty_field true n b)) as [[rest0 [|]]|e|w] eqn:R; try discriminate.
  - intro H; inversion H; subst. destruct b as [|x b].
    + exfalso. revert R. unfold next_field. cbn. discriminate.
    + destruct (next_field_progress d empty_field true n (x :: b) rest true) as [L _]; [discriminate | exact R | exact L].
  - destruct (e =? E_unexpected_size); discriminate.
Qed.
