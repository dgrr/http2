(* Proofs/SrvInvGoAway.v - GOAWAY (C10) and panic-freedom (C17 a) over all event lists:
   after a GOAWAY no stream is opened and last-stream-id stays; which codes a GOAWAY can carry; the stream loop returns
   once the reader is closed and drained; no OPanic unless the HPACK decoder panics. *)
From H2V Require Import Base.Bytes Base.MachineInt Base.Result Gen.GenConsts Impl.ServerConn Proofs.SrvBase
  Proofs.SrvInvMoves Proofs.SrvInvDecomp Proofs.SrvInvSteps Proofs.SrvInvSlots Proofs.SrvInvOut Proofs.SrvInvFrame.
From Coq Require Import ZArith Lia ZifyN ZifyNat ZifyBool Permutation.
Local Open Scope N_scope.

Definition hdr_ids (l : list stream) : list N := map st_id (filter is_hdr l).

Lemma hdr_ids_all l : Forall (fun s => st_orig s = KHeaders) l -> hdr_ids l = map st_id l.
Proof.
  induction 1 as [|s l H _ IH]; [reflexivity|]. unfold hdr_ids in *. cbn [filter].
  apply is_hdr_true in H. rewrite H. cbn [map]. rewrite IH. reflexivity.
Qed.
Lemma hdr_ids_slocw l l' : Forall2 slocw l l' -> hdr_ids l' = hdr_ids l.
Proof.
  induction 1 as [|a b l l' S _ IH]; [reflexivity|]. unfold hdr_ids in *. cbn [filter].
  destruct S as (Si & So). unfold is_hdr in *. rewrite So. destruct (fkind_eqb (st_orig a) KHeaders); cbn [map]; rewrite ?Si, IH; reflexivity.
Qed.
Lemma hdr_ids_app l l' : hdr_ids (l ++ l') = hdr_ids l ++ hdr_ids l'.
Proof. unfold hdr_ids. rewrite filter_app, map_app. reflexivity. Qed.
Lemma hdr_ids_del l id : incl (hdr_ids (strms_del l id)) (hdr_ids l).
Proof.
  intros x I. unfold hdr_ids in *. apply in_map_iff in I. destruct I as (s & E & I). apply filter_In in I.
  destruct I as [I H]. apply in_map_iff. exists s. split; [assumption|]. apply filter_In. split; [|assumption].
  eapply strms_del_In. eassumption.
Qed.

Section GoAway.
Variable hstate : Type.
Variable dec_field : hstate -> N -> bytes -> dec_res hstate.
Variable enc_field : hstate -> bytes -> bytes -> bool -> bytes * hstate.
Variable enc_set_max : hstate -> N -> hstate.
Variable cfg : config.
Notation Q := QT.
Notation sconn := (sconn hstate).
Notation mv := (mv hstate dec_field cfg Q).
Notation mvs := (mvs hstate dec_field cfg Q).
Notation gmv := (gmv hstate dec_field cfg Q).
Notation gmvs := (gmvs hstate dec_field cfg Q).
Notation SI := (SI cfg Q).
Notation OI := (OI hstate dec_field Q).
Notation step := (step dec_field enc_field enc_set_max cfg).
Notation run := (run dec_field enc_field enc_set_max cfg).
Implicit Types c : sconn.

(* (ii) once a GOAWAY is out, no stream is opened *)
Lemma mv_hdr_ids o a b : mv o a b -> SI a -> sc_closing a = true ->
  incl (hdr_ids (sc_strms b)) (hdr_ids (sc_strms a)).
Proof.
  intros M HS CL.
  destruct M; rewrite ?sc_strms_write_goaway, ?sc_strms_mark_closed, ?sc_strms_release_stream; try apply incl_refl.
  - rewrite (lite_strms _ _ _ _ H0). apply incl_refl.
  - sc_cbn. rewrite (hdr_ids_slocw _ _ (sloc_slocw _ _ H0)). apply incl_refl.
  - rewrite sc_strms_put, sc_strms_note, (hdr_ids_slocw _ _ (put_slocw _ _ _ H0 H1)). apply incl_refl.
  - congruence.
  - rewrite sc_strms_close_stream. apply hdr_ids_del.
  - rewrite sc_strms_put, (lite_strms _ _ _ _ H0). rewrite (hdr_ids_slocw _ _ (put_slocw _ _ _ H1 H3)). apply incl_refl.
  - unfold brk, note. sc_cbn. rewrite (hdr_ids_slocw _ _ (sloc_slocw _ _ H0)), hdr_ids_app.
    destruct H1 as [->|(s & -> & No & _)]; [rewrite app_nil_r; apply incl_refl|].
    unfold hdr_ids at 2. cbn [filter]. destruct (is_hdr s) eqn:E; [apply is_hdr_true in E; contradiction|].
    cbn [map]. rewrite app_nil_r. apply incl_refl.
  - destruct H0 as [SC _]. destruct SC as (S1 & _). rewrite S1. apply incl_refl.
Qed.

Lemma omv_strms pc a b : omv hstate pc a b -> sc_strms b = sc_strms a.
Proof. intro M. apply (omv_keeps _ _ _ _ M). Qed.

(* what "frozen" means, from a to b *)
Definition frozen (a b : sconn) : Prop :=
  sc_closing a = true ->
  sc_closing b = true /\ sc_lastID b = sc_lastID a /\ incl (hdr_ids (sc_strms b)) (hdr_ids (sc_strms a)) /\
  forall sid rq, In (ODispatch sid rq) (sc_out b) -> In (ODispatch sid rq) (sc_out a) \/ In sid (hdr_ids (sc_strms a)).

Lemma gmv_frozen pc a b : gmv pc a b -> SI a -> frozen a b.
Proof.
  intros M HS CL. destruct (gmv_delta M HS) as [(l & E & F) (_ & FR)].
  destruct (FR CL) as [Cb Lb]. split; [assumption|]. split; [assumption|]. split.
  - destruct M; [eapply mv_hdr_ids; eassumption | rewrite (omv_strms _ _ _ H); apply incl_refl].
  - intros sid rq I. rewrite E in I. apply in_app_or in I. destruct I as [I|I]; [|left; assumption].
    right. rewrite Forall_forall in F.
    destruct (new_ok_dispatch _ _ _ _ _ _ _ _ (F _ I)) as (s & -> & _ & Is & Hd & _).
    rewrite (hdr_ids_all _ (si_hdrs _ _ _ _ HS Hd)). assumption.
Qed.

Lemma frozen_refl a : frozen a a.
Proof. intro CL. repeat split; auto using incl_refl. Qed.

Lemma frozen_trans a b c : frozen a b -> frozen b c -> frozen a c.
Proof.
  intros F1 F2 CL. destruct (F1 CL) as (C1 & L1 & I1 & D1). destruct (F2 C1) as (C2 & L2 & I2 & D2).
  split; [assumption|]. split; [congruence|]. split; [eapply incl_tran; eassumption|].
  intros sid rq I. destruct (D2 sid rq I) as [I'|I']; [apply D1; assumption | right; apply I1; assumption].
Qed.

Lemma gmvs_frozen pc a b : gmvs pc a b -> SI a -> SI b /\ frozen a b.
Proof.
  induction 1 as [c|a b c M MS IH]; intro HS; [split; [assumption | apply frozen_refl]|].
  destruct (IH (SI_gmv M HS)) as [HSc F2]. split; [assumption|].
  eapply frozen_trans; [eapply gmv_frozen; eassumption | exact F2].
Qed.

Theorem frozen_run_from evs c : SI c -> SI (run_from dec_field enc_field enc_set_max cfg c evs) /\
  frozen c (run_from dec_field enc_field enc_set_max cfg c evs).
Proof.
  intro HS. apply (run_from_ind _ _ _ _ _ (fun b => SI b /\ frozen c b)); [|split; [assumption | apply frozen_refl]].
  intros b e [HSb F]. destruct (gmvs_frozen _ _ _ (SI_gmvs_step_T _ dec_field enc_field enc_set_max cfg b e HSb) HSb) as [HS1 F1].
  split; [assumption | eapply frozen_trans; eassumption].
Qed.

(* C10 (ii): once the connection is closing (a GOAWAY was sent, see oi_goaway), whatever happens next:
   last-stream-id does not move, no HEADERS-opened stream appears in the table, and every request dispatched from
   then on belongs to a stream that was already open at that point *)
Theorem no_stream_after_goaway h0 evs1 evs2 :
  let a := run h0 evs1 in let b := run h0 (evs1 ++ evs2) in
  sc_closing a = true ->
  sc_closing b = true /\ sc_lastID b = sc_lastID a /\ incl (hdr_ids (sc_strms b)) (hdr_ids (sc_strms a)) /\
  forall sid rq, In (ODispatch sid rq) (trace b) -> In (ODispatch sid rq) (trace a) \/ In sid (hdr_ids (sc_strms a)).
Proof.
  intros a b CL. unfold b. rewrite run_app. fold a.
  destruct (frozen_run_from evs2 a (SI_run_T _ dec_field enc_field enc_set_max cfg h0 evs1)) as [_ F].
  destruct (F CL) as (C & L & I & D). repeat split; try assumption.
  intros sid rq H. apply trace_In in H. destruct (D sid rq H); [left; apply trace_In; assumption | right; assumption].
Qed.

(* (iii) the codes *)
Lemma gmvs_codes pc a b : gmvs pc a b -> SI a ->
  forall last code, In (OGoAway last code) (sc_out b) \/ In (OLate (OGoAway last code)) (sc_out b) ->
  (In (OGoAway last code) (sc_out a) \/ In (OLate (OGoAway last code)) (sc_out a)) \/ gcode pc code.
Proof.
  induction 1 as [c|a b c M MS IH]; intros HS last code I; [left; assumption|].
  destruct (IH (SI_gmv M HS) last code I) as [I'|G]; [|right; assumption].
  destruct (gmv_delta M HS) as [(l & E & F) _]. rewrite Forall_forall in F. rewrite E in I'.
  assert (I2 : (exists x, (x = OGoAway last code \/ x = OLate (OGoAway last code)) /\ In x l) \/
               (In (OGoAway last code) (sc_out a) \/ In (OLate (OGoAway last code)) (sc_out a))).
  { destruct I' as [I'|I']; apply in_app_or in I'; destruct I'; eauto. }
  destruct I2 as [(x & Hx & Ix)|I2]; [|left; assumption].
  right. eapply new_ok_goaway; [exact Hx | apply F; exact Ix].
Qed.

(* every GOAWAY a step emits carries a code of the stream loop's list, or the code the event brought with it
   (the frame parser's error code; NO_ERROR when the idle timer closes the connection) *)
Theorem goaway_code_of_step h0 evs e last code :
  let a := run h0 evs in let b := step a e in
  In (OGoAway last code) (sc_out b) \/ In (OLate (OGoAway last code)) (sc_out b) ->
  (In (OGoAway last code) (sc_out a) \/ In (OLate (OGoAway last code)) (sc_out a)) \/
  In code sl_codes \/ parser_code e = Some code.
Proof.
  intros a b I.
  destruct (SIO_run _ dec_field enc_field enc_set_max cfg Q (QT_closed _ dec_field cfg) h0 evs) as [HS _].
  exact (gmvs_codes _ _ _ (SI_gmvs_step_T _ dec_field enc_field enc_set_max cfg a e HS) HS last code I).
Qed.

(* (iv) the functional half of termination *)
(* The model has no blocking, so "the connection handler returns within a bounded time" cannot be stated on it.
   What a model of the blocking structure would have to show: (1) the read loop never blocks for good on
   `sc.reader <- fr` (the stream loop keeps receiving, or `forward` sees it gone), (2) sc.write never blocks for good
   (the write loop keeps draining, or writeStop is closed), (3) after the read loop's exit closes sc.reader, the
   stream loop's select reaches the `!ok` arm after at most len(sc.reader) further iterations.  The functional
   content of (3) is proved here: once the reader is closed, taking frames until the queue is empty ends the loop. *)
Lemma sl_done_stays n : forall c : sconn, sc_sl_done c = true ->
  sc_sl_done (run_from dec_field enc_field enc_set_max cfg c (repeat EvSL n)) = true.
Proof.
  induction n as [|n IH]; intros c Hd; [assumption|]. cbn [repeat]. rewrite run_from_cons, step_EvSL, Hd. auto.
Qed.

Lemma drain_from n : forall c, sc_rl_done c = true -> (length (sc_readerQ c) < n)%nat ->
  sc_sl_done (run_from dec_field enc_field enc_set_max cfg c (repeat EvSL n)) = true.
Proof.
  induction n as [|n IH]; intros c Hr Hl; [lia|]. cbn [repeat]. rewrite run_from_cons, step_EvSL.
  destruct (sc_sl_done c) eqn:Hd; [apply sl_done_stays, Hd|].
  destruct (sc_readerQ c) as [|fr q] eqn:RQ.
  - rewrite Hr. apply sl_done_stays. reflexivity.
  - pose proof (sl_frame_frame _ dec_field enc_set_max cfg (upd_readerQ c q) fr) as FR.
    destruct (rlview_proj _ _ _ FR) as (_ & E2 & E3). cbn [length] in Hl.
    apply IH; [rewrite E2; assumption | rewrite E3; cbn; lia].
Qed.

Theorem stream_loop_returns_when_drained c :
  sc_rl_done c = true ->
  sc_sl_done (run_from dec_field enc_field enc_set_max cfg c (repeat EvSL (S (length (sc_readerQ c))))) = true.
Proof. intro H. apply drain_from; [assumption | lia]. Qed.

Lemma rl_done_after_eof c : sc_rl_done (step c (EvRL RLEof)) = true.
Proof. rewrite step_EvRL. destruct (sc_rl_done c) eqn:H; [assumption | reflexivity]. Qed.

(* C17 (a): no panic *)
Theorem no_panic h0 evs :
  (forall d n b, dec_field d n b <> DPanic hstate) ->
  forall who why, ~ In (OPanic who why) (trace (run h0 evs)) /\ ~ In (OLate (OPanic who why)) (trace (run h0 evs)).
Proof.
  intros NP who why.
  destruct (SIO_run _ dec_field enc_field enc_set_max cfg Q (QT_closed _ dec_field cfg) h0 evs) as [_ HO].
  split; intro I; apply trace_In in I.
  - destruct (oi_panic _ _ _ _ HO _ _ I) as (d & n & b & E). exact (NP d n b E).
  - destruct (oi_late _ _ _ _ HO _ I) as [F|(l & c & E)]; [exact F | discriminate E].
Qed.

(* C10 (i): GOAWAY tells the truth *)
Lemma SIO_T h0 evs : SI (run h0 evs) /\ OI (run h0 evs).
Proof.
  exact (SIO_run _ dec_field enc_field enc_set_max cfg Q (QT_closed _ dec_field cfg) h0 evs).
Qed.

(* every GOAWAY in the trace (also one queued after the stream loop ended) carries a last-stream-id that is at least
   every stream id dispatched anywhere in the whole trace, before or after it *)
Theorem goaway_truth h0 evs last code sid rq :
  let tr := trace (run h0 evs) in
  In (OGoAway last code) tr \/ In (OLate (OGoAway last code)) tr -> In (ODispatch sid rq) tr -> sid <= last.
Proof.
  intros tr HG HD. destruct (SIO_T h0 evs) as [_ HO].
  assert (HG' : In (OGoAway last code) (sc_out (run h0 evs)) \/ In (OLate (OGoAway last code)) (sc_out (run h0 evs)))
    by (destruct HG as [H|H]; apply trace_In in H; auto).
  apply trace_In in HD.
  destruct (oi_goaway _ _ _ _ HO _ _ HG') as [-> _]. destruct (oi_disp _ _ _ _ HO _ _ HD). assumption.
Qed.

(* it carries sc_lastID, and marks the connection as closing *)
Theorem goaway_state h0 evs last code :
  let c := run h0 evs in
  In (OGoAway last code) (trace c) \/ In (OLate (OGoAway last code)) (trace c) ->
  last = sc_lastID c /\ sc_closing c = true.
Proof.
  intros c HG. destruct (SIO_T h0 evs) as [_ HO]. apply (oi_goaway _ _ _ _ HO _ code).
  destruct HG as [H|H]; apply trace_In in H; auto.
Qed.

(* the output only grows *)
Lemma gmvs_out_incl pc a b : gmvs pc a b -> SI a -> forall x, In x (sc_out a) -> In x (sc_out b).
Proof.
  induction 1 as [c|a b c M MS IH]; intros HS x Hx; [assumption|].
  apply (IH (SI_gmv M HS)). destruct (gmv_delta M HS) as [(l & E & _) _]. rewrite E.
  apply in_or_app. right. assumption.
Qed.

Lemma run_from_out_incl evs c : SI c -> forall x, In x (sc_out c) ->
  In x (sc_out (run_from dec_field enc_field enc_set_max cfg c evs)).
Proof.
  intros HS x Hx.
  apply (run_from_ind _ _ _ _ _ (fun b => SI b /\ In x (sc_out b))); [|split; assumption].
  intros b e [HSb Hb]. split; [apply SI_step_T; assumption|].
  eapply gmvs_out_incl; [apply SI_gmvs_step_T| |]; eassumption.
Qed.

Theorem trace_prefix_incl h0 evs1 evs2 x : In x (trace (run h0 evs1)) -> In x (trace (run h0 (evs1 ++ evs2))).
Proof.
  intro H. apply trace_In in H. apply trace_In. rewrite run_app.
  apply run_from_out_incl; [apply SI_run_T | assumption].
Qed.

(* C10 (ii) on traces: after a GOAWAY, every further dispatch is for a stream that was open in the table when the
   GOAWAY had been sent; nothing is opened, and last-stream-id stays *)
Theorem goaway_then_no_new_stream h0 evs1 evs2 last code :
  let a := run h0 evs1 in let b := run h0 (evs1 ++ evs2) in
  In (OGoAway last code) (trace a) \/ In (OLate (OGoAway last code)) (trace a) ->
  sc_lastID b = last /\ incl (hdr_ids (sc_strms b)) (hdr_ids (sc_strms a)) /\
  forall sid rq, In (ODispatch sid rq) (trace b) ->
    In (ODispatch sid rq) (trace a) \/ (In sid (hdr_ids (sc_strms a)) /\ sid <= last).
Proof.
  intros a b HG. destruct (goaway_state h0 evs1 last code HG) as [EL CL]. fold a in EL, CL.
  destruct (no_stream_after_goaway h0 evs1 evs2 CL) as (_ & L & I & D). fold a b in L, I, D.
  split; [congruence|]. split; [assumption|]. intros sid rq H. destruct (D sid rq H) as [H'|H']; [left; assumption|].
  right. split; [assumption|].
  apply (goaway_truth h0 (evs1 ++ evs2) last code sid rq); [|assumption].
  destruct HG as [H1|H1]; [left | right]; apply trace_prefix_incl; assumption.
Qed.

End GoAway.
