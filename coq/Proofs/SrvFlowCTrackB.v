(* Proofs/SrvFlowCTrackB.v - C06 completion: the tracked response through flushStreams and afterFrame. *)
From H2V Require Import Base.Bytes Base.MachineInt Base.Result Gen.GenConsts Impl.ServerConn Proofs.SrvBase
  Spec.FlowLedger Proofs.SrvFlowLedger Proofs.SrvFlowDefs Proofs.SrvFlowSend Proofs.SrvFlowEff Proofs.SrvFlowSafe
  Proofs.SrvFlowSafeB Proofs.SrvFlowSafeC Proofs.SrvFlowEs Proofs.SrvFlowRecv Proofs.SrvFlowStall Proofs.SrvFlowFuel
  Proofs.SrvFlowDone Proofs.SrvFlowCDecomp Proofs.SrvFlowCMono Proofs.SrvFlowCView Proofs.SrvFlowCEarly Proofs.SrvFlowCTrack.
From Coq Require Import ZArith Lia ZifyN ZifyNat ZifyBool List.
Import ListNotations.
Local Open Scope N_scope.
Set Default Proof Using "Type".

Lemma has_more_pending s : st_pending s <> [] -> has_more_to_send s = true.
Proof. unfold has_more_to_send. destruct (st_pending s); [congruence | reflexivity]. Qed.
Lemma has_more_done s : st_pending s = [] -> st_bodyStream s = None -> has_more_to_send s = false.
Proof. unfold has_more_to_send. intros -> ->. reflexivity. Qed.

Section TrackB.
Variable hstate : Type.
Variable dec_field : hstate -> N -> bytes -> dec_res hstate.
Variable enc_field : hstate -> bytes -> bytes -> bool -> bytes * hstate.
Variable enc_set_max : hstate -> N -> hstate.
Variable cfg : config.
Notation sconn := (sconn hstate).
Implicit Types c : sconn.
Notation AbortS := (AbortS hstate).
Notation Keeps := (Keeps hstate).
Notation FrameO := (FrameO hstate).
Notation Live := (Live hstate).
Notation Complete := (Complete hstate).
Notation Sent := (Sent hstate).
Notation Queued := (Queued hstate).
Notation Track := (Track hstate).


Lemma alive_or_abort sid c : AbortS sid c \/ (sc_wl_dead c = false /\ sc_sl_done c = false).
Proof.
  destruct (sc_sl_done c) eqn:SD; [left; left; exact SD|]. destruct (sc_wl_dead c) eqn:WD; [left; right; left; exact WD|].
  right. split; reflexivity.
Qed.

Lemma FrameO_send_data c s : FrameO c (fst (fst (send_data c s))).
Proof. apply FrameO_NoCredit, send_data_NoCredit. Qed.
Lemma FrameO_put c x : FrameO c (put c x).
Proof. apply FrameO_same; [apply Frame_put | reflexivity]. Qed.
Lemma FrameO_close c x : FrameO c (close_stream c x).
Proof. eapply FrameO_Frame; [apply Frame_close_stream | apply close_stream_out]. Qed.

Lemma Queued_same sid es frames c c' : sc_out c' = sc_out c -> Queued sid es frames c -> Queued sid es frames c'.
Proof. intros E (blk & Q). exists blk. rewrite E. exact Q. Qed.

(* the tracked stream after sendData: written back, or closed *)
Lemma live_put c s sid B c1 s1 frames' :
  strms_search (sc_strms c) sid = Some s -> phase s = true -> sc_strms c1 = sc_strms c ->
  st_id s1 = sid -> st_responded s1 = st_responded s -> st_handlerRunning s1 = st_handlerRunning s ->
  st_bodyStream s1 = None -> st_pendingEnd s1 = true -> st_pending s1 <> [] ->
  Queued sid false frames' c1 -> concat (map snd frames') ++ st_pending s1 = B -> es_shape frames' false -> Forall small frames' ->
  Live sid B (put c1 s1).
Proof.
  intros F PT E Id R Ru BS PE PN Q CB ES FS. exists s1, frames'.
  split; [unfold put; sc_cbn; rewrite E, <- Id; eapply search_put_same; rewrite Id; exact F|].
  split; [rewrite <- PT; apply phase_flags; assumption|].
  repeat (split; [assumption|]). assumption.
Qed.

Lemma sent_of_live sid B frames' c s : st_pending s <> [] -> concat (map snd frames') = B ->
  (exists frames0 : list (bool * bytes), concat (map snd frames0) ++ st_pending s = B) ->
  Queued sid false frames' c -> es_shape frames' true -> Forall small frames' -> Sent sid B c.
Proof.
  intros PN CB (f0 & E0) Q ES FS.
  assert (NB : isnil B = false).
  { apply isnil_false. intro X. rewrite X in E0. apply app_eq_nil in E0. destruct E0. contradiction. }
  exists frames'. rewrite NB. auto.
Qed.

(* the stream is still in the table, all of its response queued: it is closed at the end of the pass *)
Definition FinT (sid : N) (B : bytes) c : Prop :=
  exists s, strms_search (sc_strms c) sid = Some s /\ has_more_to_send s = false /\ sid <= sc_highestID c /\ Sent sid B c.

Definition TrackF (done : list N) (sid : N) (B : bytes) c : Prop :=
  AbortS sid c \/ (Live sid B c /\ ~ In sid done) \/ Complete sid B c \/ (In sid done /\ FinT sid B c).

Lemma TrackF_Keeps done done' sid B c c' : Keeps sid c c' -> FrameO c c' -> (In sid done' <-> In sid done) ->
  TrackF done sid B c -> TrackF done' sid B c'.
Proof.
  intros K F D [H|[[H N]|[H|[I (s & S1 & S2 & S3 & S4)]]]].
  - left. eapply AbortS_FrameO; eassumption.
  - right; left. split; [eapply Live_Keeps; eassumption | rewrite D; exact N].
  - right; right; left. eapply Complete_Keeps; eassumption.
  - right; right; right. split; [rewrite D; exact I|]. exists s. rewrite (k_search _ _ _ _ K).
    split; [exact S1|]. split; [exact S2|]. split; [pose proof (k_hi _ _ _ _ K); flia | eapply Sent_Keeps; eassumption].
Qed.

Lemma flush_loop_TrackF sid B ids : forall c done, IdsHi c -> TrackF done sid B c ->
  TrackF (snd (flush_loop c ids done)) sid B (fst (flush_loop c ids done)).
Proof.
  induction ids as [|id t IH]; intros c done HI H; cbn [flush_loop]; [exact H|].
  destruct (strms_search (sc_strms c) id) as [s0|] eqn:F; [|apply IH; assumption].
  destruct (st_responded s0 && negb (st_handlerRunning s0) && has_more_to_send s0) eqn:W; [|apply IH; assumption].
  pose proof (strms_search_In _ _ _ F) as [Hin Hid].
  destruct (send_data_stream _ c s0) as (A1 & A2 & A3 & A4 & A5 & A6 & A7). cbv zeta in *.
  assert (HI' : forall s1, st_id s1 = st_id s0 -> IdsHi (put (fst (fst (send_data c s0))) s1)).
  { intros s1 E x Hx. unfold put in *. sc_cbn. sc_cbn_in Hx. rewrite A6.
    assert (I : In (st_id x) (map st_id (strms_put (sc_strms (fst (fst (send_data c s0)))) s1))) by (apply in_map; exact Hx).
    rewrite strms_put_ids, A5 in I. apply in_map_iff in I. destruct I as (x0 & <- & H0). apply HI, H0. }
  destruct (N.eq_dec id sid) as [->|NE].
  - (* the tracked stream *)
    destruct H as [H|[[H N]|[H|[I (s & S1 & S2 & _)]]]].
    + pose proof (FrameO_send_data c s0) as Fo. destruct (send_data c s0) as [[c1 s1] fin]. cbn [fst snd] in *.
      apply IH; [apply HI'; exact A1|]. left. eapply AbortS_FrameO; [|exact H]. eapply FrameO_trans; [exact Fo | apply FrameO_put].
    + destruct (alive_or_abort sid c) as [Ab|[WD SD]].
      { pose proof (FrameO_send_data c s0) as Fo. destruct (send_data c s0) as [[c1 s1] fin]. cbn [fst snd] in *.
        apply IH; [apply HI'; exact A1|]. left. eapply AbortS_FrameO; [|exact Ab]. eapply FrameO_trans; [exact Fo | apply FrameO_put]. }
      destruct H as (s & frames & S1 & PT & BS & PE & PN & Q & CB & ES & FS).
      assert (s = s0) by congruence. subst s.
      destruct (send_live _ c s0 sid B frames Hid BS PE PN WD SD Q CB ES FS) as (frames' & Q' & FS' & I1 & St1 & R1 & Ru1 & BS1 & PE1 & T1 & SD1 & WD1 & CL1 & X).
      cbv zeta in *. destruct (send_data c s0) as [[c1 s1] fin]. cbn [fst snd] in *.
      apply IH; [apply HI'; exact A1|]. destruct fin.
      * destruct X as (CB' & ES' & P1). right; right; right. split; [apply in_or_app; right; left; reflexivity|].
        exists s1. split; [unfold put; sc_cbn; rewrite T1, <- I1; eapply search_put_same; rewrite I1; exact F|].
        split; [apply has_more_done; assumption|]. split; [unfold put; sc_cbn; rewrite A6; rewrite <- Hid; apply HI, Hin|].
        eapply (sent_of_live sid B frames' _ s0); try eassumption; try (eexists; exact CB); try (eapply Queued_same; [|exact Q']; reflexivity).
      * destruct X as (PN' & CB' & ES'). right; left. split; [|exact N].
        eapply (live_put c s0 sid B c1 s1 frames'); eassumption.
    + destruct H as (H & _). congruence.
    + assert (s = s0) by congruence. subst s. rewrite S2, Bool.andb_false_r in W. discriminate.
  - (* another stream *)
    pose proof (Keeps_send_data _ sid c s0) as K. pose proof (FrameO_send_data c s0) as Fo.
    destruct (send_data c s0) as [[c1 s1] fin]. cbn [fst snd] in *.
    apply IH; [apply HI'; exact A1|].
    eapply TrackF_Keeps; [| | |exact H].
    + eapply Keeps_trans; [apply K; congruence | apply Keeps_put; congruence].
    + eapply FrameO_trans; [exact Fo | apply FrameO_put].
    + destruct fin; [|tauto]. split; [|intro; apply in_or_app; left; assumption].
      intro X. apply in_app_or in X. destruct X as [X|[X|[]]]; [exact X | congruence].
Qed.

Lemma Keeps_close_all sid ids : forall c, strms_search (sc_strms c) sid = None \/ ~ In sid ids -> Keeps sid c (close_all c ids).
Proof.
  induction ids as [|id t IH]; intros c H; cbn [close_all]; [apply Keeps_refl|].
  assert (H' : forall c', Keeps sid c c' -> strms_search (sc_strms c') sid = None \/ ~ In sid t).
  { intros c' K. destruct H as [H|H]; [left; rewrite (k_search _ _ _ _ K); exact H | right; intro X; apply H; right; exact X]. }
  destruct (strms_search (sc_strms c) id) as [s|] eqn:F; [|apply IH, H', Keeps_refl].
  assert (NE : st_id (set_state s SClosed) <> sid).
  { cbn [st_id set_state]. pose proof (strms_search_In _ _ _ F) as [_ Hid]. destruct H as [H|H]; [|intro; apply H; left; congruence].
    intro E. assert (X : id = sid) by congruence. rewrite <- X in H. congruence. }
  pose proof (Keeps_close _ sid c (set_state s SClosed) NE) as K.
  eapply Keeps_trans; [exact K | apply IH, H', K].
Qed.

Lemma flush_streams_Track sid B c : NoDup (map st_id (sc_strms c)) -> IdsHi c -> Track sid B c -> Track sid B (flush_streams c).
Proof.
  intros ND HI H. unfold flush_streams.
  assert (H0 : TrackF [] sid B c).
  { destruct H as [H|[H|H]]; [left; exact H | right; left; split; [exact H | intros []] | right; right; left; exact H]. }
  pose proof (flush_loop_TrackF sid B (map st_id (sc_strms c)) c [] HI H0) as H1.
  assert (ND1 : NoDup (map st_id (sc_strms (fst (flush_loop c (map st_id (sc_strms c)) []))))).
  { clear - ND. generalize (@nil N). generalize (map st_id (sc_strms c)) as ids. intros ids. revert c ND.
    induction ids as [|id t IH]; intros c ND done; cbn [flush_loop]; [exact ND|].
    destruct (strms_search (sc_strms c) id) as [s|]; [|apply IH, ND].
    destruct (st_responded s && negb (st_handlerRunning s) && has_more_to_send s); [|apply IH, ND].
    destruct (send_data_stream _ c s) as (_ & _ & _ & _ & A5 & _). cbv zeta in A5.
    destruct (send_data c s) as [[c1 s1] fin]. cbn [fst snd] in *. apply IH. unfold put. sc_cbn. rewrite strms_put_ids, A5. exact ND. }
  destruct (flush_loop c (map st_id (sc_strms c)) []) as [c1 done]. cbn [fst snd] in *.
  pose proof (close_all_Closes _ done c1) as CL.
  destruct H1 as [H1|[[H1 N1]|[H1|[I1 (s & S1 & S2 & S3 & S4)]]]].
  - left. eapply AbortS_FrameO; [apply FrameO_Closes, CL | exact H1].
  - right; left. eapply Live_Keeps; [apply Keeps_close_all; right; exact N1 | exact H1].
  - right; right. eapply Complete_Keeps; [apply Keeps_close_all; left; apply H1 | exact H1].
  - right; right. split; [|split].
    + destruct (strms_search (sc_strms (close_all c1 done)) sid) as [x|] eqn:Fx; [|reflexivity].
      exfalso. apply strms_search_In in Fx. destruct Fx as [Hx Ex].
      apply (close_all_notin _ done c1 ND1 x Hx). rewrite Ex. exact I1.
    + rewrite (cl_highestID _ _ _ CL). exact S3.
    + destruct S4 as (frames & (blk & Q) & R). exists frames. split; [|exact R]. exists blk.
      destruct (out_quiet_noframe _ _ _ (cl_out _ _ _ CL)) as (new & E & Fn). rewrite E, rf_app, (rf_noframe _ _ Fn). exact Q.
Qed.

(* afterFrame on the tracked stream *)

Lemma handle_state_open fr s : sf_kind fr <> KRst -> st_state s <> SClosed -> st_state (handle_state fr s) <> SClosed.
Proof.
  intros K St. unfold handle_state.
  replace (fkind_eqb (sf_kind fr) KRst) with false by (destruct (sf_kind fr); try reflexivity; congruence).
  destruct (st_state s) eqn:E; repeat match goal with |- context [if ?b then _ else _] => destruct b end;
    cbn [st_state set_state]; congruence.
Qed.

Lemma after_frame_own c s sX fr wc sid B frames :
  NoDup (map st_id (sc_strms c)) -> sid <= sc_highestID c ->
  strms_search (sc_strms c) sid = Some s -> phase s = true -> st_bodyStream s = None -> st_pendingEnd s = true ->
  st_pending s <> [] -> Queued sid false frames c -> concat (map snd frames) ++ st_pending s = B -> es_shape frames false ->
  Forall small frames -> st_state s <> SClosed ->
  same_send s sX -> sf_kind fr <> KRst ->
  Track sid B (fst (after_frame cfg c sX fr wc)).
Proof.
  intros ND Hhi F PT BS PE PN Q CB ES FS St SS K.
  destruct (alive_or_abort sid c) as [Ab|[WD SD]].
  { left. eapply AbortS_FrameO; [apply FrameO_NoCredit, after_frame_NoCredit | exact Ab]. }
  pose proof (strms_search_In _ _ _ F) as [Hin Hid].
  destruct SS as (iX & stX & _ & _ & pX & peX & bX & _ & _ & rX & ruX & _).
  unfold after_frame. cbv zeta.
  destruct (handle_state_eff fr sX) as ((I1 & _ & _ & P1 & PE1 & B1 & _) & R1 & Ru1 & _).
  pose proof (handle_state_open fr sX K ltac:(congruence)) as St1.
  set (s1 := handle_state fr sX) in *.
  assert (PT1 : phase s1 = true) by (rewrite <- PT; apply phase_flags; congruence).
  assert (RS1 : st_responded s1 = true) by (unfold phase in PT1; destruct (st_responded s1); [reflexivity | discriminate]).
  assert (C1 : sstate_eqb (st_state s1) SHalfClosed && st_headersFinished s1 && negb (st_responded s1) = false).
  { rewrite RS1. cbn [negb]. apply Bool.andb_false_r. }
  assert (C2 : st_responded s1 && negb (st_handlerRunning s1) && has_more_to_send s1 = true).
  { fold (phase s1). rewrite PT1. cbn [andb]. apply has_more_pending. congruence. }
  rewrite C1, C2.
  destruct (send_live _ c s1 sid B frames ltac:(congruence) ltac:(congruence) ltac:(congruence) ltac:(congruence) WD SD Q ltac:(congruence) ES FS)
    as (frames' & Q' & FS' & I2 & St2 & R2 & Ru2 & BS2 & PE2 & T2 & SD2 & WD2 & CL2 & X).
  destruct (send_data_stream _ c s1) as (_ & _ & _ & _ & _ & A6 & _).
  cbv zeta in *. destruct (send_data c s1) as [[c1 s2] fin]. cbn [fst snd] in *.
  destruct fin.
  - destruct X as (CB' & ES' & P2). cbn [st_state set_state sstate_eqb sstate_rank N.eqb Pos.eqb].
    set (s3 := set_state s2 SClosed). set (c3 := close_stream (put c1 s3) s3).
    assert (G : Complete sid B c3).
    { split; [|split].
      - subst c3. rewrite sc_strms_close_stream. unfold put. sc_cbn. rewrite T2.
        replace sid with (st_id s3) by (subst s3; cbn [st_id set_state]; congruence). apply strms_search_del_put, ND.
      - subst c3. rewrite sc_highestID_close_stream. unfold put. sc_cbn. rewrite A6. exact Hhi.
      - eapply (sent_of_live sid B frames' _ s); try eassumption; [eauto|].
        destruct Q' as (blk & Q'). exists blk. subst c3.
        destruct (out_quiet_noframe _ _ _ (close_stream_out _ (put c1 s3) s3)) as (new & E & Fn).
        rewrite E, rf_app, (rf_noframe _ _ Fn). exact Q'. }
    match goal with |- context [if ?b then brk c3 else cont c3] => destruct b end; cbn [fst cont]; [|right; right; exact G].
    left. left. reflexivity.
  - destruct X as (PN' & CB' & ES').
    assert (NC : sstate_eqb (st_state s2) SClosed = false).
    { rewrite St2. destruct (st_state s1); try reflexivity. congruence. }
    rewrite NC.
    assert (G : Live sid B (put c1 s2)).
    { eapply (live_put c s sid B c1 s2 frames'); try eassumption; congruence. }
    match goal with |- context [if ?b then brk ?x else cont ?x] => destruct b end; cbn [fst cont]; [|right; left; exact G].
    left. left. reflexivity.
Qed.

End TrackB.
