(* Proofs/SrvIsoRef.v - C09 (a) / C01 (a), part 1: the reference "decode everything" semantics of a
   header-block fragment, purely over the abstract `dec_field`, and how the two decoding loops of the
   server model (header_loop: decode + validate, stops at the first stream error; discard_loop:
   decode and throw away) relate to it.

   ref_run eh d n b fs d' n' carry
      from decoder state d, with n fields of the block already decoded, the bytes b (carry of the
      previous fragment ++ this fragment) decode to the fields fs, leave the decoder in d', n' fields
      decoded, and `carry` = the bytes of a field cut off by the frame boundary (only when eh = false).
      There is no derivation when the bytes do not decode (COMPRESSION_ERROR) or the decoder panics.
   The relation needs no fuel and is functional (ref_run_det).  No assumption on dec_field is used. *)
From H2V Require Import Base.Bytes Base.MachineInt Base.Result Gen.GenConsts Impl.ServerConn Proofs.SrvBase.
From Coq Require Import ZArith Lia ZifyN ZifyNat ZifyBool.
Local Open Scope N_scope.

Definition hd_set_prev (h : hdr) (p : bytes) : hdr :=
  mkHdr (hd_headersFinished h) p (hd_pMethod h) (hd_pScheme h) (hd_pPath h) (hd_pAuth h)
        (hd_regularSeen h) (hd_contentLength h) (hd_hasCL h) (hd_headerListSize h) (hd_blockFields h)
        (hd_path h) (hd_req h).

Lemma hd_set_prev_same h : hd_set_prev h (hd_prev h ++ []) = h.
Proof. destruct h. unfold hd_set_prev. cbn. rewrite app_nil_r. reflexivity. Qed.

Local Arguments DField {hstate}. Local Arguments DNone {hstate}. Local Arguments DShort {hstate}.
Local Arguments DFail {hstate}. Local Arguments DPanic {hstate}.

Section Ref.
Variable hstate : Type.
Variable dec_field : hstate -> N -> bytes -> dec_res hstate.

Inductive ref_run (eh : bool) : hstate -> N -> bytes -> list (bytes * bytes) -> hstate -> N -> bytes -> Prop :=
| rr_nil d n : ref_run eh d n [] [] d n []
| rr_none d n b d' : b <> [] -> dec_field d n b = DNone d' -> ref_run eh d n b [] d' n []
| rr_short d n b d' : b <> [] -> eh = false -> dec_field d n b = DShort d' -> ref_run eh d n b [] d' n b
| rr_field d n b k v rest d1 fs d' n' carry :
    b <> [] -> dec_field d n b = DField k v rest d1 -> ref_run eh d1 (n + 1) rest fs d' n' carry ->
    ref_run eh d n b ((k, v) :: fs) d' n' carry.

(* a prefix of a run: some fields decoded, `rest` still to do *)
Inductive ref_pre : hstate -> N -> bytes -> list (bytes * bytes) -> hstate -> N -> bytes -> Prop :=
| rp_nil d n b : ref_pre d n b [] d n b
| rp_field d n b k v rest d1 fs d' n' rest' :
    b <> [] -> dec_field d n b = DField k v rest d1 -> ref_pre d1 (n + 1) rest fs d' n' rest' ->
    ref_pre d n b ((k, v) :: fs) d' n' rest'.

Lemma ref_run_det eh d n b fs1 d1 n1 c1 fs2 d2 n2 c2 :
  ref_run eh d n b fs1 d1 n1 c1 -> ref_run eh d n b fs2 d2 n2 c2 -> fs1 = fs2 /\ d1 = d2 /\ n1 = n2 /\ c1 = c2.
Proof.
  intro H. revert fs2 d2 n2 c2.
  induction H as [d n|d n b d' Hb E|d n b d' Hb He E|d n b k v rest dm fs d' n' carry Hb E H IH];
    intros fs2 d2 n2 c2 H2; inversion H2; subst; try congruence; auto.
  - rewrite E in *. match goal with H : DNone _ = DNone _ |- _ => inversion H end. auto.
  - rewrite E in *. match goal with H : DShort _ = DShort _ |- _ => inversion H end. auto.
  - match goal with H : dec_field d n b = DField _ _ _ _ |- _ => rewrite E in H; inversion H; subst end.
    match goal with H : ref_run _ _ _ _ _ _ _ _ |- _ => destruct (IH _ _ _ _ H) as (-> & -> & -> & ->) end.
    auto.
Qed.

Lemma ref_pre_run eh d n b fs1 d1 n1 rest fs2 d2 n2 carry :
  ref_pre d n b fs1 d1 n1 rest -> ref_run eh d1 n1 rest fs2 d2 n2 carry ->
  ref_run eh d n b (fs1 ++ fs2) d2 n2 carry.
Proof.
  induction 1 as [|d n b k v rest0 dm fs d' n' rest' Hb E H IH]; intro R; [exact R|].
  cbn [app]. eapply rr_field; eauto.
Qed.

Lemma ref_pre_trans d n b fs1 d1 n1 rest fs2 d2 n2 rest2 :
  ref_pre d n b fs1 d1 n1 rest -> ref_pre d1 n1 rest fs2 d2 n2 rest2 -> ref_pre d n b (fs1 ++ fs2) d2 n2 rest2.
Proof.
  induction 1 as [|d n b k v rest0 dm fs d' n' rest' Hb E H IH]; intro R; [exact R|].
  cbn [app]. eapply rp_field; eauto.
Qed.

Lemma ref_pre_snoc d n b fs d1 n1 rest k v rest' d2 :
  ref_pre d n b fs d1 n1 rest -> rest <> [] -> dec_field d1 n1 rest = DField k v rest' d2 ->
  ref_pre d n b (fs ++ [(k, v)]) d2 (n1 + 1) rest'.
Proof.
  intros H Hr E. eapply ref_pre_trans; [exact H|]. eapply rp_field; [exact Hr | exact E | constructor].
Qed.

Lemma ref_run_count eh d n b fs d' n' carry : ref_run eh d n b fs d' n' carry -> n' = n + N.of_nat (length fs).
Proof. induction 1; cbn [length]; lia. Qed.

Lemma ref_pre_count d n b fs d' n' rest : ref_pre d n b fs d' n' rest -> n' = n + N.of_nat (length fs).
Proof. induction 1; cbn [length]; lia. Qed.

(* with END_HEADERS nothing is carried over *)
Lemma ref_run_eh_carry d n b fs d' n' carry : ref_run true d n b fs d' n' carry -> carry = [].
Proof. induction 1; auto; discriminate. Qed.

(* an executable version (for examples); sound w.r.t. the relation *)
Inductive ref_res : Type :=
| ROk (fs : list (bytes * bytes)) (d : hstate) (n : N) (carry : bytes)
| RBad     (* the bytes do not decode: COMPRESSION_ERROR *)
| RPanic
| RFuel.
Fixpoint ref_loop (fuel : nat) (eh : bool) (d : hstate) (n : N) (b : bytes) : ref_res :=
  match fuel with
  | O => RFuel
  | S fuel' =>
    match b with
    | [] => ROk [] d n []
    | _ =>
      match dec_field d n b with
      | DNone d' => ROk [] d' n []
      | DShort d' => if eh then RBad else ROk [] d' n b
      | DFail _ => RBad
      | DPanic => RPanic
      | DField k v rest d' =>
        match ref_loop fuel' eh d' (n + 1) rest with
        | ROk fs d'' n'' carry => ROk ((k, v) :: fs) d'' n'' carry
        | r => r
        end
      end
    end
  end.

(* dec_block_ref d n carry fragment eh: decode carry ++ fragment *)
Definition dec_block_ref (d : hstate) (n : N) (carry fragment : bytes) (eh : bool) : ref_res :=
  ref_loop (S (length (carry ++ fragment))) eh d n (carry ++ fragment).

Lemma ref_loop_sound fuel : forall eh d n b fs d' n' carry,
  ref_loop fuel eh d n b = ROk fs d' n' carry -> ref_run eh d n b fs d' n' carry.
Proof.
  induction fuel as [|fuel IH]; intros eh d n b fs d' n' carry; cbn [ref_loop]; [discriminate|].
  destruct b as [|x b]; [intro H; inversion H; subst; constructor|].
  destruct (dec_field d n (x :: b)) as [k v rest d1|d1|d1|d1|] eqn:E; try discriminate.
  - destruct (ref_loop fuel eh d1 (n + 1) rest) as [fs1 d2 n2 c2| | |] eqn:R; try discriminate.
    intro H; inversion H; subst. eapply rr_field; [discriminate | exact E | apply IH; exact R].
  - intro H; inversion H; subst. apply rr_none; [discriminate | exact E].
  - destruct eh; [discriminate|]. intro H; inversion H; subst. apply rr_short; [discriminate | reflexivity | exact E].
Qed.

Lemma dec_block_ref_sound d n carry frag eh fs d' n' carry' :
  dec_block_ref d n carry frag eh = ROk fs d' n' carry' -> ref_run eh d n (carry ++ frag) fs d' n' carry'.
Proof. apply ref_loop_sound. Qed.

(* with enough fuel the function finds the run *)
Lemma ref_loop_complete eh d n b fs d' n' carry :
  ref_run eh d n b fs d' n' carry -> forall fuel, (length fs < fuel)%nat -> ref_loop fuel eh d n b = ROk fs d' n' carry.
Proof.
  induction 1 as [d n|d n b d' Hb E|d n b d' Hb He E|d n b k v rest dm fs d' n' carry Hb E H IH];
    intros [|fuel] Hf; try (cbn [length] in Hf; lia); cbn [ref_loop].
  - reflexivity.
  - destruct b; [congruence|]. rewrite E. reflexivity.
  - destruct b; [congruence|]. rewrite E, He. reflexivity.
  - destruct b; [congruence|]. rewrite E, IH; [reflexivity | cbn [length] in Hf; lia].
Qed.

(* discard_loop is the reference *)
Lemma discard_loop_ref fuel : forall eh d n b d' n' carry,
  discard_loop dec_field fuel eh d n b = (d', n', carry, None) ->
  exists fs, ref_run eh d n b fs d' n' carry.
Proof.
  induction fuel as [|fuel IH]; intros eh d n b d' n' carry; cbn [discard_loop]; [discriminate|].
  destruct b as [|x b]; [intro H; inversion H; subst; exists []; constructor|].
  destruct (dec_field d n (x :: b)) as [k v rest d1|d1|d1|d1|] eqn:E; try discriminate.
  - intro H. destruct (IH _ _ _ _ _ _ _ H) as [fs R]. exists ((k, v) :: fs).
    eapply rr_field; [discriminate | exact E | exact R].
  - intro H; inversion H; subst. exists []. apply rr_none; [discriminate | exact E].
  - destruct eh; cbn [negb]; [discriminate|]. intro H; inversion H; subst. exists [].
    apply rr_short; [discriminate | reflexivity | exact E].
Qed.

(* and the other way round, given the fuel *)
Lemma discard_loop_complete eh d n b fs d' n' carry :
  ref_run eh d n b fs d' n' carry -> forall fuel, (length fs < fuel)%nat ->
  discard_loop dec_field fuel eh d n b = (d', n', carry, None).
Proof.
  induction 1 as [d n|d n b d' Hb E|d n b d' Hb He E|d n b k v rest dm fs d' n' carry Hb E H IH];
    intros [|fuel] Hf; try (cbn [length] in Hf; lia); cbn [discard_loop].
  - reflexivity.
  - destruct b; [congruence|]. rewrite E. reflexivity.
  - destruct b; [congruence|]. rewrite E, He. reflexivity.
  - destruct b; [congruence|]. rewrite E. apply IH. cbn [length] in Hf; lia.
Qed.

(* header_loop: the reference, plus validation of each field *)
Variable cfg : config.

(* header_field on a list of fields: None as soon as one is refused *)
Fixpoint hfold (h : hdr) (fs : list (bytes * bytes)) : option hdr :=
  match fs with
  | [] => Some h
  | (k, v) :: t => match header_field cfg h k v with inr h' => hfold h' t | inl _ => None end
  end.

Lemma hfold_app h fs1 fs2 : hfold h (fs1 ++ fs2) = match hfold h fs1 with Some h' => hfold h' fs2 | None => None end.
Proof.
  revert h. induction fs1 as [|[k v] t IH]; intro h; cbn [hfold app]; [reflexivity|].
  destruct (header_field cfg h k v); [reflexivity | apply IH].
Qed.

Lemma header_field_inr h k v h' : header_field cfg h k v = inr h' ->
  hd_prev h' = hd_prev h /\ hd_blockFields h' = hd_blockFields h + 1 /\ hd_headersFinished h' = hd_headersFinished h.
Proof. intro H. pose proof (header_field_spec cfg h k v) as S. rewrite H in S. cbv zeta in S. tauto. Qed.

Lemma hfold_frame fs : forall h h', hfold h fs = Some h' ->
  hd_prev h' = hd_prev h /\ hd_blockFields h' = hd_blockFields h + N.of_nat (length fs) /\
  hd_headersFinished h' = hd_headersFinished h.
Proof.
  induction fs as [|[k v] t IH]; intros h h'; cbn [hfold length].
  - intro H; inversion H; subst. repeat split; lia.
  - destruct (header_field cfg h k v) as [|h1] eqn:E; [discriminate|]. intro H.
    destruct (header_field_inr _ _ _ _ E) as (A & B & C). destruct (IH _ _ H) as (A' & B' & C').
    repeat split; try congruence. lia.
Qed.

(* what header_loop did, by outcome:
   - no error: the whole input was decoded as the reference says, every field was accepted;
   - an error raised by header_field (a stream error, or the header-list limit): the reference decoded
     fs ++ [(k, v)] up to `rest`, the fields fs were accepted, (k, v) was refused; h' is the state before (k, v);
   - other errors (does not decode, panic, fuel): nothing is claimed. *)
Definition header_loop_spec (eh : bool) (d : hstate) (h : hdr) (b : bytes)
  (d' : hstate) (h' : hdr) (e : option h2err) (rest : bytes) : Prop :=
  match e with
  | None =>
    exists fs hF carry, ref_run eh d (hd_blockFields h) b fs d' (hd_blockFields h') carry /\
      hfold h fs = Some hF /\ h' = hd_set_prev hF (hd_prev hF ++ carry) /\ rest = []
  | Some e =>
    (exists fs k v, ref_pre d (hd_blockFields h) b (fs ++ [(k, v)]) d' (hd_blockFields h' + 1) rest /\
       hfold h fs = Some h' /\ header_field cfg h' k v = inl e) \/
    (rest = [] /\ match e with EReset _ => False | _ => True end)
  end.

Lemma header_loop_spec_gen fuel : forall eh d0 h0 b0 fs0 d h b d' h' e rest,
  ref_pre d0 (hd_blockFields h0) b0 fs0 d (hd_blockFields h) b -> hfold h0 fs0 = Some h ->
  header_loop dec_field fuel cfg eh d h b = (d', h', e, rest) ->
  header_loop_spec eh d0 h0 b0 d' h' e rest.
Proof.
  induction fuel as [|fuel IH]; intros eh d0 h0 b0 fs0 d h b d' h' e rest P F; cbn [header_loop].
  - intro H; inversion H; subst. right. split; [reflexivity | exact I].
  - destruct b as [|x b].
    + intro H; inversion H; subst. exists fs0, h', []. rewrite hd_set_prev_same.
      repeat split; auto. rewrite <- (app_nil_r fs0). eapply ref_pre_run; [exact P | constructor].
    + destruct (dec_field d (hd_blockFields h) (x :: b)) as [k v rest1 d1|d1|d1|d1|] eqn:E.
      * destruct (header_field cfg h k v) as [e1|h1] eqn:HF.
        -- intro H; inversion H; subst. left. exists fs0, k, v. repeat split; auto.
           eapply ref_pre_snoc; [exact P | discriminate | exact E].
        -- intro H. eapply (IH eh d0 h0 b0 (fs0 ++ [(k, v)])); [| |exact H].
           ++ destruct (header_field_inr _ _ _ _ HF) as (_ & B & _). rewrite B.
              eapply ref_pre_snoc; [exact P | discriminate | exact E].
           ++ rewrite hfold_app, F. cbn [hfold]. rewrite HF. reflexivity.
      * intro H; inversion H; subst. exists fs0, h', []. rewrite hd_set_prev_same. repeat split; auto.
        rewrite <- (app_nil_r fs0). eapply ref_pre_run; [exact P|]. apply rr_none; [discriminate | exact E].
      * destruct eh; cbn [negb].
        -- intro H; inversion H; subst. right. split; [reflexivity | exact I].
        -- intro H; inversion H; subst. exists fs0, h, (x :: b). repeat split; auto.
           rewrite <- (app_nil_r fs0). eapply ref_pre_run; [exact P|]. cbn [hd_blockFields].
           apply rr_short; [discriminate | reflexivity | exact E].
      * intro H; inversion H; subst. right. split; [reflexivity | exact I].
      * intro H; inversion H; subst. right. split; [reflexivity | exact I].
Qed.

Lemma header_loop_ref fuel eh d h b d' h' e rest :
  header_loop dec_field fuel cfg eh d h b = (d', h', e, rest) -> header_loop_spec eh d h b d' h' e rest.
Proof. apply (header_loop_spec_gen fuel eh d h b [] d h b); [constructor | reflexivity]. Qed.

(* the other direction, given the fuel: if the input decodes and every field is accepted, the loop says so *)
Lemma header_loop_complete eh d n b fs d' n' carry :
  ref_run eh d n b fs d' n' carry -> forall h hF fuel, hd_blockFields h = n -> hfold h fs = Some hF ->
  (length fs < fuel)%nat ->
  header_loop dec_field fuel cfg eh d h b = (d', hd_set_prev hF (hd_prev hF ++ carry), None, []).
Proof.
  induction 1 as [d n|d n b d' Hb E|d n b d' Hb He E|d n b k v rest dm fs d' n' carry Hb E H IH];
    intros h hF [|fuel] Hn F Hf; try (cbn [length] in Hf; lia); cbn [header_loop]; cbn [hfold] in F.
  - inversion F; subst. rewrite hd_set_prev_same. reflexivity.
  - inversion F; subst. destruct b; [congruence|]. rewrite E, hd_set_prev_same. reflexivity.
  - inversion F; subst. destruct b; [congruence|]. rewrite E. cbn [negb]. reflexivity.
  - destruct b; [congruence|]. rewrite Hn, E. destruct (header_field cfg h k v) as [|h1] eqn:HF; [discriminate|].
    apply IH; [|exact F|cbn [length] in Hf; lia].
    destruct (header_field_inr _ _ _ _ HF) as (_ & B & _). lia.
Qed.

(* the key composition: decode-and-validate up to a stream error, then discard the rest
   == discard the whole *)
Lemma header_then_discard eh d n b fs1 d1 n1 rest fs2 d2 n2 carry :
  ref_pre d n b fs1 d1 n1 rest -> ref_run eh d1 n1 rest fs2 d2 n2 carry ->
  ref_run eh d n b (fs1 ++ fs2) d2 n2 carry.
Proof. apply ref_pre_run. Qed.

End Ref.

Arguments ref_run {hstate}. Arguments ref_pre {hstate}. Arguments ROk {hstate}. Arguments RBad {hstate}.
Arguments RPanic {hstate}. Arguments RFuel {hstate}. Arguments ref_loop {hstate}. Arguments dec_block_ref {hstate}.
