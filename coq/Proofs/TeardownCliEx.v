(* Proofs/TeardownCliEx.v -- blocking-structure model (Impl/Teardown.v), client: findings F1 F1b F2 F4 and the example for the liveness theorem.
   Statements: Props/Teardown.v; overview: Proofs/TeardownProofs.v. *)
From Coq Require Import Arith Lia Bool List.
Import ListNotations.
From H2V Require Import Impl.Teardown Proofs.TeardownGen Proofs.TeardownCliInv.

Module CliEx.
Import Cli CliP.

Ltac act_cases a :=
  destruct a;
  try match goal with p : nat |- _ => destruct p as [|[|[|p]]] end.

Section P.
Variable cap : nat.
Hypothesis cap_pos : 1 <= cap.
Notation guard := (Cli.guard cap).
Notation reachable := (Cli.reachable cap).

(* X has just been handed to Conn.Write; q requests are queued in c.in, o frames in c.out *)
Definition start (t : tx_pc) (q o : nat) : state :=
  mk KW1 t LSel RRead UIdle XOut false false false false false LxNone BwNone false false q o
     false false 0 false false false false 0 false.
Lemma start_reach : forall t q o, (t = TArmed \/ t = TOff) -> q <= cap -> o <= cap ->
  reachable (start t q o).
Proof. intros; apply reach_init; unfold init; cbn; repeat split; auto. Qed.

(* ---- F1: Conn.Close behind a socket write that does not return ---- *)
Definition f1_trace : list act :=
  [KSend; KCheckOpen; LSelInX 1; LGoAcqX; LAcqX; LLock; EPeerStall; EUserClose; CCasWin 2;
   CCloseDone 2].
Definition f1_state : state := Eval vm_compute in run_acts eff f1_trace (start TOff 0 0).
Theorem close_behind_stuck_write :
  reachable f1_state /\ (forall a, guard a f1_state -> is_env a = true) /\
  wl f1_state = LWrite HX /\ uc f1_state = UClose CLock /\ done f1_state = true /\
  sclosed f1_state = false /\ xc f1_state = KErr /\ xerr f1_state = false.
Proof.
  split.
  { replace f1_state with (run_acts eff f1_trace (start TOff 0 0)) by (vm_compute; reflexivity).
    apply reach_acts; [apply start_reach; auto; lia | unfold start, f1_trace; guards_tac]. }
  split; [|cbn; repeat split].
  intros a G. unfold f1_state in G. act_cases a; cbn in G; break; try discriminate; try lia; auto.
Qed.

Ltac reach_from t q o tr :=
  match goal with |- reachable ?st =>
    replace st with (run_acts eff tr (start t q o)) by (cbv -[Init.Nat.pred Init.Nat.add]; reflexivity);
    apply reach_acts; [apply start_reach; auto; lia | unfold start, tr; solve [guards_tac]]
  end.
Ltac only_env_tac st :=
  let a := fresh "a" in let G := fresh "G" in
  intros a G; unfold st in G; act_cases a; cbn in G; break; try discriminate; try lia; auto.

(* ... and with the request's timeout armed: the timer resolves the request, the caller receives
   the error, and then parks in takeBack on the Ctx.lck the write loop holds: RoundTrip does not
   return either *)
Definition f1b_trace : list act :=
  f1_trace ++ [ETimerFire; TResolve; KRecv; TDelSkip; TTakeReq; TOutSend].
Definition f1b_state : state := Eval vm_compute in run_acts eff f1b_trace (start TArmed 0 0).
Theorem roundtrip_stuck_in_takeback :
  reachable f1b_state /\ (forall a, guard a f1b_state -> is_env a = true) /\
  xc f1b_state = KTb /\ lx f1b_state = LxWl /\ wl f1b_state = LWrite HX /\ tx f1b_state = TDone.
Proof.
  split; [reach_from TArmed 0 0 f1b_trace|].
  split; [only_env_tac f1b_state | cbn; repeat split].
Qed.

(* ---- F2: Conn.Write parked on a full c.in behind a write loop that is stuck in a socket write;
   nobody closes c.done; the request's own timeout fires, resolves, and changes nothing: the
   caller is not yet listening on ctx.Err ---- *)
Definition f2_trace : list act :=
  [LSelInO 1; LGoLockB HO; LLock; EPeerStall; EOtherCaller; OSend; ETimerFire; TResolve].
Definition f2_state : state := Eval cbv -[Init.Nat.pred Init.Nat.add] in run_acts eff f2_trace (start TArmed cap 0).

Theorem write_parked_past_timeout :
  reachable f2_state /\ (forall a, guard a f2_state -> is_env a = true) /\
  xc f2_state = KW1 /\ xerr f2_state = true /\ tx f2_state = TDone /\ done f2_state = false /\
  wl f2_state = LWrite HO /\ inq f2_state = cap.
Proof.
  split; [reach_from TArmed cap 0 f2_trace|].
  split; [only_env_tac f2_state | cbn; repeat split; lia].
Qed.

(* ---- F4: Close is not atomic.  The read loop wins the CAS and is preempted before
   close(c.done); the write loop leaves on a write error, its own c.Close() returns io.EOF at
   once, it drains an empty c.in and exits; X is then sent on c.in, Write's second select still
   sees c.done open; the read loop finishes Close.  Both loops are gone and X sits in c.in. ---- *)
Definition f4_trace : list act :=
  [EPeerClose; RReadFail; RDeferClose; CCasWin 1; ETick; LSelTick 1; LGoLockB HNone; LLock; LWriteFail false;
   LSetErr; CCasLose 0; LT2Take; LT3End; KSend; KCheckOpen; CCloseDone 1; CLockB 1; CWriteRet 1].
Definition f4_state : state := Eval vm_compute in run_acts eff f4_trace (start TOff 0 0).
Theorem stranded_by_close_race :
  reachable f4_state /\ loops_exited f4_state /\ done f4_state = true /\
  xc f4_state = KErr /\ xloc f4_state = XIn /\ xerr f4_state = false /\ tx f4_state = TOff /\
  raced f4_state = true /\
  (forall a, guard a f4_state -> a = EPeerStall \/ a = ETick \/ a = EUserClose).
Proof.
  split; [reach_from TOff 0 0 f4_trace|].
  unfold loops_exited; cbn. repeat (split; [solve [auto]|]).
  intros a G; unfold f4_state in G; act_cases a; cbn in G; break; try discriminate; try lia; auto.
Qed.

(* ---- example for the liveness theorem: Client.Close has just won the CAS while the write loop
   is writing X's HEADERS under X's Ctx.lck and bwLck, and the read loop is in dispatch for another
   request; the peer is reading ---- *)
Definition s3_trace : list act :=
  [KSend; KCheckOpen; LSelInX 2; LGoAcqX; LAcqX; LLock; EPeerSend; RGet; RGoHoldO; EUserClose;
   CCasWin 2].
Definition s3_state : state := Eval vm_compute in run_acts eff s3_trace (start TArmed 0 0).
Lemma s3_example :
  reachable s3_state /\ closed s3_state = true /\ done s3_state = false /\ stalled s3_state = false /\
  wl s3_state = LWrite HX /\ rl s3_state = RHold HO /\ uc s3_state = UClose CDone /\
  xc s3_state = KErr /\ xloc s3_state = XTab /\ xerr s3_state = false.
Proof.
  split; [reach_from TArmed 0 0 s3_trace | cbn; repeat split].
Qed.
End P.
End CliEx.
