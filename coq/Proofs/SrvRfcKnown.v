(* Proofs/SrvRfcKnown.v - C08: a frame on a stream of the table (or on the stream just made
   for it): how the invariant is re-established when the stream stays, and when it is closed. *)
From H2V Require Import Base.Bytes Base.MachineInt Base.Result Gen.GenConsts Impl.ServerConn.
From H2V Require Import Proofs.SrvBase Proofs.SrvInvDecomp Proofs.SrvRfcDefs Proofs.SrvRfcSpec Proofs.SrvRfcModel Proofs.SrvRfcSim Proofs.SrvRfcEff
  Proofs.SrvRfcSend Proofs.SrvRfcStep Proofs.SrvRfcKit Proofs.SrvRfcRl Proofs.SrvRfcSl.
From Coq Require Import ZArith Lia ZifyN ZifyNat ZifyBool.
Local Open Scope N_scope.

(* what a stream of the table looks like between two frames *)
Definition strm_ok (st : stream) : Prop :=
  (st_state st = SOpen \/ st_state st = SHalfClosed) /\ st_weReset st = false /\
  (st_responded st = true \/ st_handlerRunning st = true -> st_state st = SHalfClosed /\ st_headersFinished st = true) /\
  (st_state st = SHalfClosed -> st_headersFinished st = true -> st_responded st = true) /\
  (has_more_to_send st = true -> st_bodyStream st = None -> st_pendingEnd st = true).

Section Known.
Variable hstate : Type.
Variable dec_field : hstate -> N -> bytes -> dec_res hstate.
Variable enc_field : hstate -> bytes -> bytes -> bool -> bytes * hstate.
Variable enc_set_max : hstate -> N -> hstate.
Variable cfg : config.
Notation sconn := (sconn hstate).
Notation feed := (feed hstate dec_field enc_field enc_set_max cfg).
Notation G := (G hstate).
Notation view := (view hstate).
Notation tbl := (tbl hstate).
Notation Sim := (Sim hstate).
Notation AuxT := (AuxT hstate).
Notation AuxH := (AuxH hstate).
Notation seq_ok := (seq_ok hstate).
Implicit Types c : sconn.

(* the table the stream loop works on: the one it found, or that one with the stream it has
   just made for a HEADERS frame on a new id *)
Definition base c (fr : sframe) (L : list stream) (last' high' : N) : Prop :=
  (L = sc_strms c /\ last' = sc_lastID c /\ high' = sc_highestID c /\ (exists old, tbl c (sf_sid fr) = Some old)) \/
  (exists new, L = sc_strms c ++ [new] /\ st_id new = sf_sid fr /\ tbl c (sf_sid fr) = None /\ ring_find c (sf_sid fr) = None /\
               last' = sf_sid fr /\ high' = sf_sid fr /\ sc_highestID c < sf_sid fr /\ sc_closing c = false).

Lemma AuxT_strm_ok c st : AuxT c -> In st (sc_strms c) -> strm_ok st.
Proof.
  intros AT H. destruct (A_st _ _ AT st H) as (A & B & C & D).
  split; [exact A|]. split; [exact B|]. split; [exact C|]. split; [exact D|]. apply (A_snd _ _ AT st H).
Qed.

Lemma AuxT_streams c c' : AuxT c ->
  sc_rl_done c' = sc_rl_done c -> sc_wl_dead c' = sc_wl_dead c -> sc_readerQ c' = sc_readerQ c ->
  NoDup (map st_id (sc_strms c')) -> sc_lastID c' <= sc_highestID c' -> ring_ok hstate c' ->
  (forall st, In st (sc_strms c') ->
     N.odd (st_id st) = true /\ st_id st <= sc_lastID c' /\ in_ring c' (st_id st) = false /\ strm_ok st) ->
  AuxT c'.
Proof.
  intros AT E1 E2 E3 ND LL RO Hs. constructor; try assumption.
  - rewrite E1. apply (A_rl _ _ AT).
  - rewrite E2. apply (A_wl _ _ AT).
  - rewrite E3. apply (A_q _ _ AT).
  - intros st H. destruct (Hs st H) as (A & B & _). auto.
  - intros st H. apply (Hs st H).
  - intros st H. destruct (Hs st H) as (_ & _ & _ & A & B & C & D & _). auto.
  - intros st H. destruct (Hs st H) as (_ & _ & _ & _ & _ & _ & _ & E). exact E.
Qed.

Lemma base_facts c fr L l' h' : AuxT c -> base c fr L l' h' ->
  NoDup (map st_id L) /\ sc_lastID c <= l' /\ l' <= h' /\ sc_highestID c <= h' /\
  (exists old, strms_search L (sf_sid fr) = Some old) /\
  (forall st, In st L -> st_id st <> sf_sid fr -> In st (sc_strms c)) /\
  (forall id, id <> sf_sid fr -> strms_search L id = tbl c id) /\
  (forall st, In st (sc_strms c) -> st_id st <> sf_sid fr -> In st L) /\
  (forall st, In st (sc_strms c) -> st_id st <= l') /\ sf_sid fr <= l' /\ ring_find c (sf_sid fr) = None.
Proof.
  intros AT [(-> & -> & -> & old & Ho)|(new & -> & Hid & Tn & Rn & -> & -> & Hgt & Hcl)].
  - pose proof (search_In _ _ _ Ho) as HoIn. pose proof (search_id _ _ _ Ho) as Hoid.
    split; [apply (A_nodup _ _ AT)|]. split; [lia|]. split; [apply (A_last _ _ AT)|]. split; [lia|].
    split; [eauto|]. split; [auto|]. split; [reflexivity|]. split; [auto|].
    split; [intros st H; apply (A_ids _ _ AT st H)|].
    split; [rewrite <- Hoid; apply (A_ids _ _ AT old HoIn)|].
    pose proof (A_tr _ _ AT old HoIn) as X. rewrite Hoid, in_ring_find in X. destruct (ring_find c (sf_sid fr)); [discriminate | reflexivity].
  - assert (NI : ~ In (st_id new) (map st_id (sc_strms c))).
    { intro H. apply in_map_iff in H. destruct H as (x & E & H). rewrite Hid in E. exact (tbl_None_In hstate c _ Tn x H E). }
    pose proof (A_last _ _ AT) as LL.
    split; [apply app_nodup; [apply (A_nodup _ _ AT) | exact NI]|]. split; [lia|]. split; [lia|]. split; [lia|].
    split; [exists new; rewrite search_app; unfold SrvRfcDefs.tbl in Tn; rewrite Tn, Hid, N.eqb_refl; reflexivity|].
    split; [intros st H Hne; apply in_app_or in H; destruct H as [H|[<-|[]]]; [exact H | congruence]|].
    split; [intros id Hne; rewrite search_app; unfold SrvRfcDefs.tbl; destruct (strms_search (sc_strms c) id); [reflexivity|];
            rewrite Hid; replace (sf_sid fr =? id) with false by lia; reflexivity|].
    split; [intros st H _; apply in_or_app; left; exact H|].
    split; [intros st H; pose proof (proj2 (A_ids _ _ AT st H)); lia|]. split; [lia | exact Rn].
Qed.

(* without the frame's stream, the table the stream loop works on is the one it found *)
Lemma base_del c fr L l' h' : base c fr L l' h' -> strms_del L (sf_sid fr) = strms_del (sc_strms c) (sf_sid fr).
Proof.
  intros [(-> & _)|(new & -> & <- & Tn & _)]; [reflexivity|].
  rewrite (del_snoc _ _ Tn). symmetry. apply strms_del_notfound, Tn.
Qed.

(* every other stream of the table has its headers (the read loop lets one block at a time through) *)
Lemma others_finished c fr ec' st : AuxT c -> AuxH c -> seq_ok c fr ec' -> In st (sc_strms c) -> st_id st <> sf_sid fr ->
  st_headersFinished st = true.
Proof.
  intros AT AH SQ H Hne. destruct SQ as [(E0 & _)|(_ & _ & Sd & _)]; [exact (all_finished hstate c st AT AH E0 H)|].
  destruct (st_headersFinished st) eqn:F; [reflexivity|]. exfalso. apply Hne. rewrite Sd. exact (A_fin _ _ AH st H F).
Qed.

(* cB, in a step that began in c: the table is L, the ring that of cr, the two ids l' and h', the outputs d came on top *)
Definition kfin c (cr : sconn) (ec' l' h' : N) (L : list stream) (cB : sconn) (d : list outev) : Prop :=
  sc_strms cB = L /\ sc_ring cB = sc_ring cr /\ sc_oldest cB = sc_oldest cr /\ sc_lastID cB = l' /\ sc_highestID cB = h' /\
  sc_rl_done cB = sc_rl_done c /\ sc_wl_dead cB = sc_wl_dead c /\ sc_readerQ cB = sc_readerQ c /\ sc_sl_done cB = false /\
  sc_closing cB = sc_closing c /\ sc_expectCont cB = ec' /\ sc_out cB = d ++ sc_out c.

(* the stream stays in the table *)
Lemma G_keep c s ph fr ec' L l' h' sF c' d :
  Sim c s ph -> seq_ok c fr ec' -> N.odd (sf_sid fr) = true ->
  feed c (IIn (RFrame fr)) = c' -> base c fr L l' h' -> st_id sF = sf_sid fr ->
  kfin c c ec' l' h' (strms_put L sF) c' d -> sc_discardID c' = sc_discardID c ->
  strm_ok sF -> (st_headersFinished sF = false -> ec' = sf_sid fr) -> (ec' <> 0 -> st_headersFinished sF = false) ->
  (RS.allowed s (RS.Frame (abs_frame fr)) (react s fr d) = true \/
   known_deviation hstate c s (RFrame fr) = true) ->
  outs_on (sf_sid fr) d ->
  RS.st_of (spec_after s fr d) (sf_sid fr)
    = (match st_state sF with SOpen => RS.Open | _ => RS.HalfClosedRemote end) ->
  RS.goaway (spec_after s fr d) = RS.goaway s ->
  RS.highest (spec_after s fr d) = h' ->
  RS.request_step (ph (sf_sid fr)) (abs_frame fr) = phase_of sF ->
  (forall sid rq, In (ODispatch sid rq) d -> sid = sf_sid fr /\ phase_of sF = RS.PDone) ->
  G c s ph (RFrame fr) (feed c (IIn (RFrame fr))).
Proof.
  intros HS SQ Od E HB Hid (Hstr & Hring & Hold & Hlast & Hhigh & Hrl & Hwl & Hq & Hsl' & Hcl & Hec & Ho) Hdi Hok Hf1 Hf2 Ha Hon Hst Hga Hhi Hph Hdisp.
  pose proof (S_aux _ _ _ _ HS) as [AT AH]. pose proof (S_wf _ _ _ _ HS) as W.
  destruct (base_facts c fr L l' h' AT HB) as (ND & L1 & L2 & L3 & (old & Hold') & In1 & Tb & In2 & Le & SidLe & Rn).
  assert (TbS : tbl c' (sf_sid fr) = Some sF).
  { unfold SrvRfcDefs.tbl. rewrite Hstr, <- Hid. eapply search_put_same. rewrite Hid. exact Hold'. }
  assert (TbO : forall id, id <> sf_sid fr -> tbl c' id = tbl c id).
  { intros id Hne. unfold SrvRfcDefs.tbl at 1. rewrite Hstr, search_put_other by (rewrite Hid; exact Hne). apply Tb, Hne. }
  assert (InC' : forall st, In st (sc_strms c') -> st = sF \/ (In st (sc_strms c) /\ st_id st <> sf_sid fr)).
  { intros st H. rewrite Hstr in H. destruct (put_In _ _ _ ND H) as [X|[X Y]]; [left; exact X|]. rewrite Hid in Y. right. split; [apply In1; assumption | exact Y]. }
  assert (RF : forall id, ring_find c' id = ring_find c id) by (intro id; apply ring_find_ext, Hring).
  apply (G_live hstate dec_field enc_field enc_set_max cfg c s ph fr c' d E Hsl' Ho Ha).
  - apply (live_tuple_one hstate c c' s (spec_after s fr d) ph _ (sf_sid fr) HS).
    +
      split.
      * apply (AuxT_streams c c' AT Hrl Hwl Hq).
        -- rewrite Hstr. apply put_nodup, ND.
        -- rewrite Hlast, Hhigh. exact L2.
        -- apply (ring_ok_ext _ _ _ Hring Hold), (A_ring _ _ AT).
        -- intros st H. rewrite Hlast, in_ring_find, RF. destruct (InC' st H) as [->|[X Y]].
           ++ rewrite Hid, Rn. auto.
           ++ pose proof (A_tr _ _ AT st X) as Z. rewrite in_ring_find in Z.
              split; [apply (A_ids _ _ AT st X)|]. split; [apply Le, X|]. split; [exact Z | apply (AuxT_strm_ok c st AT X)].
      * constructor.
        -- intros st H Hf. rewrite Hec. destruct (InC' st H) as [->|[X Y]].
           ++ rewrite Hid. symmetry. apply Hf1, Hf.
           ++ rewrite (others_finished c fr ec' st AT AH SQ X Y) in Hf. discriminate.
        -- intros st Hne H. rewrite Hec in Hne, H. destruct (ec'_cases hstate c fr ec' SQ) as [Z|Z]; [exfalso; apply Hne; exact Z|].
           rewrite Z, TbS in H. inversion H; subst st. apply Hf2, Hne.
        -- rewrite Hec. intro Hne. destruct (ec'_cases hstate c fr ec' SQ) as [Z|Z]; [exfalso; apply Hne; exact Z | rewrite Z; exact Od].
        -- rewrite Hdi, Hhigh. intro Hne. destruct (A_disc _ _ AH Hne) as [X Y]. split; [|exact (N.le_trans _ _ _ Y L3)].
           rewrite TbO; [exact X|]. intro Z. rewrite Z in X, Y.
           destruct HB as [(_ & _ & _ & o & Ho')|(new & _ & _ & _ & _ & _ & _ & Hgt & _)]; [rewrite Ho' in X; discriminate | exact (N.lt_irrefl _ (N.le_lt_trans _ _ _ Y Hgt))].
    + intros id Hne. split; [rewrite (TbO id Hne); reflexivity | left; apply RF].
    + intros _. unfold SrvRfcDefs.view. rewrite TbS. cbn [rel1 rel]. rewrite Hst.
      destruct Hok as ([X|X] & _); rewrite X; reflexivity.
    + intros id Hne. apply sdrift_after; [exact W | exact Hne | exact Hon].
    + unfold R_block. rewrite Hec. apply (block_after hstate c s fr ec' (react s fr d) d SQ); [intro Z; rewrite Z in Od; discriminate | exact (S_blk _ _ _ _ HS)].
    + rewrite Hga, Hcl. exact (S_ga _ _ _ _ HS).
    + rewrite Hhi, Hhigh. reflexivity.
    + intros Hne H. exfalso. rewrite Hec in H, Hne. destruct (ec'_cases hstate c fr ec' SQ) as [Z|Z]; [apply Hne; exact Z|]. rewrite Z, TbS in H. discriminate.
    + intros st H. cbn [ph_next]. destruct (InC' st H) as [->|[X Y]].
      * rewrite Hid, N.eqb_refl. exact Hph.
      * replace (st_id st =? sf_sid fr) with false by (symmetry; apply N.eqb_neq, Y). exact (S_ph _ _ _ _ HS st X).
    + intros Hc id O Lt. rewrite Hhigh in Lt. cbn [ph_next].
      replace (id =? sf_sid fr) with false by (symmetry; apply N.eqb_neq, N.neq_sym, N.lt_neq, (N.le_lt_trans _ _ _ (N.le_trans _ _ _ SidLe L2) Lt)).
      apply (S_new _ _ _ _ HS); [rewrite <- Hcl; exact Hc | exact O | exact (N.le_lt_trans _ _ _ L3 Lt)].
  - intros sid rq H. destruct (Hdisp sid rq H) as [-> X]. cbn [ph_next]. rewrite N.eqb_refl, Hph. exact X.
Qed.

(* the stream leaves the table for the ring *)
Lemma G_close c s ph fr ec' L l' h' sF c' d :
  Sim c s ph -> seq_ok c fr ec' -> N.odd (sf_sid fr) = true ->
  feed c (IIn (RFrame fr)) = c' -> base c fr L l' h' -> st_id sF = sf_sid fr ->
  kfin c (mark_closed c (sf_sid fr) (st_weReset sF)) ec' l' h' (strms_del (strms_put L sF) (sf_sid fr)) c' d ->
  (sc_discardID c' = sc_discardID c \/ sc_discardID c' = sf_sid fr) -> (ec' <> 0 -> sc_discardID c' = sf_sid fr) ->
  (RS.allowed s (RS.Frame (abs_frame fr)) (react s fr d) = true \/
   known_deviation hstate c s (RFrame fr) = true) ->
  outs_on (sf_sid fr) d ->
  rel (MRing (st_weReset sF)) (RS.st_of (spec_after s fr d) (sf_sid fr)) ->
  RS.goaway (spec_after s fr d) = RS.goaway s ->
  RS.highest (spec_after s fr d) = h' ->
  (forall sid rq, ~ In (ODispatch sid rq) d) ->
  G c s ph (RFrame fr) (feed c (IIn (RFrame fr))).
Proof.
  intros HS SQ Od E HB Hid (Hstr & Hring & Hold & Hlast & Hhigh & Hrl & Hwl & Hq & Hsl' & Hcl & Hec & Ho) Hdi Hdi2 Ha Hon Hst Hga Hhi Hdisp.
  pose proof (S_aux _ _ _ _ HS) as [AT AH]. pose proof (S_wf _ _ _ _ HS) as W.
  destruct (base_facts c fr L l' h' AT HB) as (_ & L1 & L2 & L3 & _ & _ & _ & _ & _ & SidLe & Rn).
  rewrite <- Hid, strms_del_put, Hid, (base_del c fr L l' h' HB) in Hstr.
  pose proof (tbl_del_same hstate c c' _ (A_nodup _ _ AT) Hstr) as TbS.
  pose proof (tbl_del_other hstate c c' _ Hstr) as TbO.
  assert (InC' : forall st, In st (sc_strms c') -> In st (sc_strms c) /\ st_id st <> sf_sid fr).
  { intros st H. rewrite Hstr in H. apply (del_In _ _ _ (A_nodup _ _ AT) H). }
  destruct (leave_ring hstate c c' _ _ (A_ring _ _ AT) Hring Hold) as (_ & RfS & RfO). rewrite Rn in RfS.
  apply (G_live hstate dec_field enc_field enc_set_max cfg c s ph fr c' d E Hsl' Ho Ha).
  - apply (live_tuple_one hstate c c' s (spec_after s fr d) ph _ (sf_sid fr) HS).
    + split.
      * apply (AuxT_leave hstate c c' _ _ AT Hstr Hring Hold Hrl Hwl Hq); [rewrite Hlast; exact L1 | rewrite Hlast, Hhigh; exact L2].
      * constructor.
        -- intros st H Hf. destruct (InC' st H) as [X Y]. rewrite (others_finished c fr ec' st AT AH SQ X Y) in Hf. discriminate.
        -- intros st Hne H. rewrite Hec in Hne, H. destruct (ec'_cases hstate c fr ec' SQ) as [Z|Z]; [exfalso; apply Hne; exact Z|].
           rewrite Z, TbS in H. discriminate.
        -- rewrite Hec. intro Hne. destruct (ec'_cases hstate c fr ec' SQ) as [Z|Z]; [exfalso; apply Hne; exact Z | rewrite Z; exact Od].
        -- rewrite Hhigh. intro Hne. destruct Hdi as [X|X]; rewrite X in *.
           ++ destruct (A_disc _ _ AH Hne) as [Y Y']. split; [|exact (N.le_trans _ _ _ Y' L3)].
              destruct (N.eq_dec (sc_discardID c) (sf_sid fr)) as [Q|Q]; [rewrite Q; exact TbS | rewrite TbO; assumption].
           ++ split; [exact TbS | exact (N.le_trans _ _ _ SidLe L2)].
    + intros id Hne. split; [rewrite (TbO id Hne); reflexivity | apply RfO, Hne].
    + intros _. unfold SrvRfcDefs.view. rewrite TbS, RfS. cbn [rel1]. exact Hst.
    + intros id Hne. apply sdrift_after; [exact W | exact Hne | exact Hon].
    + unfold R_block. rewrite Hec. apply (block_after hstate c s fr ec' (react s fr d) d SQ); [intro Z; rewrite Z in Od; discriminate | exact (S_blk _ _ _ _ HS)].
    + rewrite Hga, Hcl. exact (S_ga _ _ _ _ HS).
    + rewrite Hhi, Hhigh. reflexivity.
    + intros Hne _. left. rewrite Hec in *. rewrite (Hdi2 Hne). destruct (ec'_cases hstate c fr ec' SQ) as [Z|Z]; [exfalso; apply Hne; exact Z | symmetry; exact Z].
    + intros st H. cbn [ph_next]. destruct (InC' st H) as [X Y].
      replace (st_id st =? sf_sid fr) with false by (symmetry; apply N.eqb_neq, Y). exact (S_ph _ _ _ _ HS st X).
    + intros Hc id O Lt. rewrite Hhigh in Lt. cbn [ph_next].
      replace (id =? sf_sid fr) with false by (symmetry; apply N.eqb_neq, N.neq_sym, N.lt_neq, (N.le_lt_trans _ _ _ (N.le_trans _ _ _ SidLe L2) Lt)).
      apply (S_new _ _ _ _ HS); [rewrite <- Hcl; exact Hc | exact O | exact (N.le_lt_trans _ _ _ L3 Lt)].
  - intros sid rq H. exfalso. exact (Hdisp sid rq H).
Qed.

(* the last step of afterFrame: once GOAWAY has been sent and the last stream it covers is
   gone, the stream loop ends *)
Lemma G_finish c s ph fr c3 d :
  Sim c s ph ->
  feed c (IIn (RFrame fr)) = fst (if sc_closing c && can_close_after_goaway c3 then brk c3 else cont c3) ->
  sc_out c3 = d ++ sc_out c -> (forall o, In o d -> is_goaway o = None) ->
  (forall sid rq, In (ODispatch sid rq) d -> ph_next ph (IIn (RFrame fr)) sid = RS.PDone) ->
  (feed c (IIn (RFrame fr)) = c3 -> G c s ph (RFrame fr) (feed c (IIn (RFrame fr)))) ->
  G c s ph (RFrame fr) (feed c (IIn (RFrame fr))).
Proof.
  intros HS E Ho Hng Hd Hlive.
  destruct (sc_closing c && can_close_after_goaway c3)%bool eqn:C; cbn [fst cont] in E; [|apply Hlive, E].
  apply andb_true_iff in C. destruct C as [C _].
  apply (G_over hstate dec_field enc_field enc_set_max cfg c s ph (RFrame fr) _ (OExit 1 0 :: d) E).
  - reflexivity.
  - rewrite sc_out_brk, Ho. reflexivity.
  - reflexivity.
  - left. cbn [abs_input input_sid filter noisy strip_late rev]. rewrite classify_close.
    + unfold RS.allowed. rewrite (S_ga _ _ _ _ HS), C. cbn. apply orb_true_r.
    + intros o Hin. apply in_app_or in Hin. destruct Hin as [Hin|[<-|[]]]; [|reflexivity]. apply (no_goaway_rev_filter d Hng), Hin.
    + rewrite existsb_app. cbn [existsb is_exit strip_late]. apply orb_true_r.
  - intros sid rq [H|H]; [discriminate | exact (Hd sid rq H)].
Qed.

Definition quiet_ext c c' : Prop :=
  exists dq, sc_out c' = dq ++ sc_out c /\ filter noisy dq = [] /\ (forall sid rq, ~ In (ODispatch sid rq) dq).

(* same as c but for the outputs (quiet ones), the decoder, the windows and the discard registers *)
Definition hf_eff c c' : Prop :=
  sc_strms c' = sc_strms c /\ sc_ring c' = sc_ring c /\ sc_oldest c' = sc_oldest c /\ sc_lastID c' = sc_lastID c /\
  sc_highestID c' = sc_highestID c /\ sc_rl_done c' = sc_rl_done c /\ sc_wl_dead c' = sc_wl_dead c /\
  sc_readerQ c' = sc_readerQ c /\ sc_sl_done c' = sc_sl_done c /\ sc_closing c' = sc_closing c /\
  sc_expectCont c' = sc_expectCont c /\ sc_closeRef c' = sc_closeRef c /\ quiet_ext c c'.

Lemma hf_eff_refl c : hf_eff c c.
Proof. unfold hf_eff. repeat (split; [reflexivity|]). exists []. split; [reflexivity|]. split; [reflexivity | intros sid rq []]. Qed.

Lemma hf_eff_dd c c' : dd hstate c c' -> hf_eff c c'.
Proof.
  intros (d & i & p & n & ->). unfold hf_eff. sc_cbn. repeat (split; [reflexivity|]).
  exists []. split; [reflexivity|]. split; [reflexivity | intros sid rq []].
Qed.

Lemma hf_eff_out c dq w : filter noisy dq = [] -> (forall sid rq, ~ In (ODispatch sid rq) dq) ->
  hf_eff c (upd_currentWindow (upd_out c (dq ++ sc_out c)) w).
Proof. intros Q Nd. unfold hf_eff. repeat (split; [reflexivity|]). exists dq. auto. Qed.

Lemma consume_eff c s fr n : sc_sl_done c = false -> sc_wl_dead c = false ->
  exists dq w, consume_recv_window cfg c s fr n = upd_currentWindow (upd_out c (dq ++ sc_out c)) w /\
               filter noisy dq = [] /\ (forall sid rq, ~ In (ODispatch sid rq) dq).
Proof.
  intros A B. unfold consume_recv_window. destruct (n <=? 0)%Z.
  { exists [], (sc_currentWindow c). split; [destruct c; reflexivity|]. split; [reflexivity | intros sid rq []]. }
  destruct (flag_has (sf_flags fr) FL_ES); [apply (credit_eff hstate cfg c n A B)|].
  unfold write_window_update. rewrite (emit_wr hstate c _ (conj A B)).
  destruct (credit_eff hstate cfg (note c (OWinUpd (st_id s) n)) n A B) as (dw & w & -> & H2 & H3).
  exists (dw ++ [OWinUpd (st_id s) n]), w. split; [|split].
  - cbn [sc_out upd_currentWindow upd_out note]. rewrite <- app_assoc. reflexivity.
  - rewrite filter_app, H2. reflexivity.
  - intros sid rq H. apply in_app_or in H. destruct H as [H|[H|[]]]; [exact (H3 sid rq H) | discriminate].
Qed.

Lemma handle_frame_eff c st fr c3 s3 e : sc_sl_done c = false -> sc_wl_dead c = false ->
  handle_frame dec_field cfg c st fr = (c3, s3, e) -> hf_eff c c3.
Proof.
  intros A B. unfold handle_frame. destruct (verify_state st fr); [intro H; inversion H; subst; apply hf_eff_refl|].
  assert (HH : forall c1 s1 e1, handle_header_frame dec_field cfg c st fr = (c1, s1, e1) -> hf_eff c c1).
  { intros c1 s1 e1 H. apply hf_eff_dd. apply (handle_header_frame_spec hstate dec_field cfg c st fr c1 s1 e1 H). }
  assert (HB : forall X : sconn * stream * option h2err,
     (if (3 <=? sstate_rank (st_state st)) && negb (continuing_headers st fr) then (c, st, Some (EGoAway c_ProtocolError))
      else let '(c1, s1, e0) := handle_header_frame dec_field cfg c st fr in
           match e0 with
           | Some e1 => (c1, s1, Some e1)
           | None =>
             if flag_has (sf_flags fr) FL_EH then
               let fin := match st_prev s1 with [] => true | _ => false end in
               let s2 := set_headers_finished s1 fin in
               if negb fin then (c1, s2, Some (EGoAway c_ProtocolError))
               else match validate_request_pseudo_headers s2 with Some e1 => (c1, s2, Some e1) | None => (c1, s2, None) end
             else (c1, s1, None)
           end) = X -> hf_eff c (fst (fst X))).
  { intros X. destruct (_ && _)%bool; [intros <-; apply hf_eff_refl|].
    destruct (handle_header_frame dec_field cfg c st fr) as [[c1 s1] e0] eqn:Hh. pose proof (HH _ _ _ eq_refl) as Q.
    destruct e0; [intros <-; exact Q|]. destruct (flag_has (sf_flags fr) FL_EH); [|intros <-; exact Q].
    cbv zeta. destruct (negb _); [intros <-; exact Q|]. destruct (validate_request_pseudo_headers _); intros <-; exact Q. }
  destruct (sf_kind fr).
  - (* DATA *)
    clear HB HH. destruct (negb (st_headersFinished st)); [intro H; inversion H; subst; apply hf_eff_refl|].
    destruct (3 <=? sstate_rank (st_state st)); [intro H; inversion H; subst; apply hf_eff_refl|].
    match goal with |- context [if ?b then (credit_conn_window _ _ _, _, _) else _] => destruct b end; intro H; inversion H; subst.
    + destruct (credit_eff hstate cfg c (Z.of_N (sf_len fr)) A B) as (dq & w & -> & Q1 & Q2). apply hf_eff_out; assumption.
    + match goal with |- hf_eff c (consume_recv_window cfg c ?s1 fr ?n) => destruct (consume_eff c s1 fr n A B) as (dq & w & -> & Q1 & Q2) end.
      apply hf_eff_out; assumption.
  - intro H. apply (HB _ H).
  - clear HB HH. destruct (negb (sstate_eqb (st_state st) SIdle) && negb (st_headersFinished st))%bool; [intro H; inversion H; subst; apply hf_eff_refl|].
    destruct (sf_dep fr =? st_id st); intro H; inversion H; subst; apply hf_eff_refl.
  - clear HB HH. destruct (sstate_eqb (st_state st) SIdle); intro H; inversion H; subst; apply hf_eff_refl.
  - intro H; inversion H; subst; apply hf_eff_refl.
  - intro H; inversion H; subst; apply hf_eff_refl.
  - intro H; inversion H; subst; apply hf_eff_refl.
  - intro H; inversion H; subst; apply hf_eff_refl.
  - clear HB HH. destruct (sstate_eqb (st_state st) SIdle); [intro H; inversion H; subst; apply hf_eff_refl|].
    destruct (sf_inc fr =? 0); [intro H; inversion H; subst; apply hf_eff_refl|].
    destruct (MAXWIN <? st_window st + Z.of_N (sf_inc fr))%Z; intro H; inversion H; subst; apply hf_eff_refl.
  - intro H. apply (HB _ H).
Qed.

Definition abs_st (x : sstate) : RS.sstate :=
  match x with SIdle => RS.Idle | SOpen => RS.Open | SHalfClosed => RS.HalfClosedRemote | _ => RS.Closed RS.PeerRst end.

Lemma handle_state_set fr s : handle_state fr s = set_state s (st_state (handle_state fr s)).
Proof.
  unfold handle_state. destruct (fkind_eqb (sf_kind fr) KRst); destruct s; cbn;
    repeat match goal with |- context [if ?b then _ else _] => destruct b | |- context [match ?x with SIdle => _ | _ => _ end] => destruct x end; reflexivity.
Qed.

(* the state handleState gives is the one RFC 5.1 gives *)
Lemma handle_state_receive fr s :
  (st_state s = SIdle /\ sf_kind fr <> KRst) \/ st_state s = SOpen \/ st_state s = SHalfClosed ->
  abs_st (st_state (handle_state fr s)) = RS.receive (abs_st (st_state s)) (abs_frame fr).
Proof.
  unfold handle_state, RS.receive, abs_frame. cbn [RS.f_kind RS.f_es]. destruct s. cbn.
  intros [[H K]|[H|H]]; subst; revert K || idtac; destruct (sf_kind fr); try (intro K; congruence); try intros _;
    cbn; try destruct (flag_has (sf_flags fr) FL_ES); cbn; reflexivity.
Qed.

Lemma set_state_id s x : st_id (set_state s x) = st_id s. Proof. reflexivity. Qed.

(* G_keep and G_close, from the state just before the stream is written back (or closed): the last step of afterFrame follows *)

Lemma G_keep' c s ph fr ec' L l' h' sF cB d :
  Sim c s ph -> sc_sl_done c = false -> seq_ok c fr ec' -> N.odd (sf_sid fr) = true ->
  base c fr L l' h' -> st_id sF = sf_sid fr -> kfin c c ec' l' h' L cB d -> sc_discardID cB = sc_discardID c ->
  feed c (IIn (RFrame fr)) = fst (if sc_closing c && can_close_after_goaway (put cB sF) then brk (put cB sF) else cont (put cB sF)) ->
  (forall o, In o d -> is_goaway o = None) ->
  strm_ok sF -> (st_headersFinished sF = false -> ec' = sf_sid fr) -> (ec' <> 0 -> st_headersFinished sF = false) ->
  (RS.allowed s (RS.Frame (abs_frame fr)) (react s fr d) = true \/
   known_deviation hstate c s (RFrame fr) = true) ->
  outs_on (sf_sid fr) d ->
  RS.st_of (spec_after s fr d) (sf_sid fr)
    = (match st_state sF with SOpen => RS.Open | _ => RS.HalfClosedRemote end) ->
  RS.goaway (spec_after s fr d) = RS.goaway s ->
  RS.highest (spec_after s fr d) = h' ->
  RS.request_step (ph (sf_sid fr)) (abs_frame fr) = phase_of sF ->
  (forall sid rq, In (ODispatch sid rq) d -> sid = sf_sid fr /\ phase_of sF = RS.PDone) ->
  G c s ph (RFrame fr) (feed c (IIn (RFrame fr))).
Proof.
  intros HS Hsl SQ Od HB Hid KF Kd E Hng Hok Hf1 Hf2 Ha Hon Hst Hga Hhi Hph Hdisp.
  apply (G_finish c s ph fr (put cB sF) d HS E).
  - apply KF.
  - exact Hng.
  - intros sid rq H. destruct (Hdisp sid rq H) as [-> X]. cbn [ph_next]. rewrite N.eqb_refl, Hph. exact X.
  - intro E'. apply (G_keep c s ph fr ec' L l' h' sF (put cB sF) d); try assumption.
    destruct KF as (<- & KF). split; [apply sc_strms_put | exact KF].
Qed.

Lemma G_close' c s ph fr ec' L l' h' sF cB d :
  Sim c s ph -> sc_sl_done c = false -> seq_ok c fr ec' -> N.odd (sf_sid fr) = true ->
  base c fr L l' h' -> st_id sF = sf_sid fr -> kfin c c ec' l' h' L cB d ->
  ((st_weReset sF = true /\ st_headersFinished sF = false) \/ sc_discardID cB = sc_discardID c \/ sc_discardID cB = sf_sid fr) ->
  (ec' <> 0 -> sc_discardID cB = sf_sid fr \/ (st_weReset sF = true /\ st_headersFinished sF = false)) ->
  feed c (IIn (RFrame fr)) =
    fst (if sc_closing c && can_close_after_goaway (close_stream (put cB sF) sF) then brk (close_stream (put cB sF) sF) else cont (close_stream (put cB sF) sF)) ->
  (forall o, In o d -> is_goaway o = None) ->
  (RS.allowed s (RS.Frame (abs_frame fr)) (react s fr d) = true \/
   known_deviation hstate c s (RFrame fr) = true) ->
  outs_on (sf_sid fr) d ->
  rel (MRing (st_weReset sF)) (RS.st_of (spec_after s fr d) (sf_sid fr)) ->
  RS.goaway (spec_after s fr d) = RS.goaway s ->
  RS.highest (spec_after s fr d) = h' ->
  (forall sid rq, ~ In (ODispatch sid rq) d) ->
  G c s ph (RFrame fr) (feed c (IIn (RFrame fr))).
Proof.
  intros HS Hsl SQ Od HB Hid (K1 & K2 & K3 & K4 & K5 & K6 & K7 & K8 & K9 & K10 & K11 & K12) Kd Kd2 E Hng Ha Hon Hst Hga Hhi Hdisp.
  set (c3 := close_stream (put cB sF) sF) in *.
  set (d3 := if st_handlerRunning sF then d else ORelease (st_id sF) true :: d).
  assert (O3 : sc_out c3 = d3 ++ sc_out c).
  { unfold c3, d3. rewrite sc_out_close_stream, sc_out_put, K12. destruct (st_handlerRunning sF); reflexivity. }
  assert (F3 : filter noisy d3 = filter noisy d) by (unfold d3; destruct (st_handlerRunning sF); reflexivity).
  assert (Ng3 : forall o, In o d3 -> is_goaway o = None).
  { unfold d3. destruct (st_handlerRunning sF); [exact Hng|]. intros o [<-|H]; [reflexivity | apply Hng, H]. }
  assert (Nd3 : forall sid rq, ~ In (ODispatch sid rq) d3).
  { unfold d3. destruct (st_handlerRunning sF); [exact Hdisp|]. intros sid rq [H|H]; [discriminate | exact (Hdisp sid rq H)]. }
  assert (On3 : outs_on (sf_sid fr) d3) by (unfold outs_on; rewrite F3; exact Hon).
  apply (G_finish c s ph fr c3 d3 HS E O3 Ng3).
  - intros sid rq H. exfalso. exact (Nd3 sid rq H).
  - intro E'.
    assert (DI : sc_discardID c3 = if st_weReset sF && negb (st_headersFinished sF) && negb (sc_discardID cB =? sf_sid fr) then sf_sid fr else sc_discardID cB).
    { unfold c3. rewrite sc_discardID_close_stream, Hid. reflexivity. }
    apply (G_close c s ph fr ec' L l' h' sF c3 d3); try assumption; unfold spec_after, react, after_outs; rewrite ?F3; try assumption.
    + destruct (mark_closed_ring_ext hstate (put cB sF) c (sf_sid fr) (st_weReset sF) K2 K3) as [MR MO]. unfold c3.
      split; [rewrite sc_strms_close_stream, sc_strms_put, K1, Hid; reflexivity|].
      split; [rewrite sc_ring_close_stream, Hid; exact MR|]. split; [rewrite sc_oldest_close_stream, Hid; exact MO|].
      split; [rewrite sc_lastID_close_stream; exact K4|]. split; [rewrite sc_highestID_close_stream; exact K5|].
      split; [rewrite sc_rl_done_close_stream; exact K6|]. split; [rewrite sc_wl_dead_close_stream; exact K7|].
      split; [rewrite sc_readerQ_close_stream; exact K8|]. split; [rewrite sc_sl_done_close_stream; exact K9|].
      split; [rewrite sc_closing_close_stream; exact K10|]. split; [rewrite sc_expectCont_close_stream; exact K11 | exact O3].
    + rewrite DI. destruct Kd as [[X Y]|Kd].
      * rewrite X, Y. cbn [negb andb]. destruct (sc_discardID cB =? sf_sid fr) eqn:Q; cbn [negb]; right; [apply N.eqb_eq in Q; exact Q | reflexivity].
      * destruct (_ && _ && _)%bool; [right; reflexivity | exact Kd].
    + rewrite DI. intro Hne. destruct (Kd2 Hne) as [X|[X Y]].
      * rewrite X, N.eqb_refl, andb_false_r. reflexivity.
      * rewrite X, Y. cbn [negb andb]. destruct (sc_discardID cB =? sf_sid fr) eqn:Q; cbn [negb]; [apply N.eqb_eq in Q; exact Q | reflexivity].
Qed.

Lemma outs_on_of sid d : (forall o, In o (filter noisy d) -> forall so, In so (sent_of o) -> sent_sid so = Some sid \/ sent_sid so = None) -> outs_on sid d.
Proof.
  intros H so Hin. apply in_flat_map in Hin. destruct Hin as (o & Ho & Hso). apply in_rev in Ho. exact (H o Ho so Hso).
Qed.

Lemma outs_on_one sid d o : filter noisy d = [o] -> (forall so, In so (sent_of o) -> sent_sid so = Some sid \/ sent_sid so = None) -> outs_on sid d.
Proof. intros Q H. apply outs_on_of. rewrite Q. intros o' [<-|[]]. exact H. Qed.

(* one noisy output, about this stream *)
Lemma spec_one s f r d o so : wf s -> N.odd (RS.f_sid f) = true -> conn_err r = false -> filter noisy d = [o] -> sent_of o = [so] ->
  sent_sid so = Some (RS.f_sid f) ->
  RS.st_of (after_outs (RS.spec_next s (RS.Frame f) r) d) (RS.f_sid f) = sent_st (next_st (RS.st_of s (RS.f_sid f)) f r) so /\
  RS.goaway (after_outs (RS.spec_next s (RS.Frame f) r) d) = RS.goaway s /\
  RS.highest (after_outs (RS.spec_next s (RS.Frame f) r) d) = RS.highest (RS.spec_next s (RS.Frame f) r).
Proof.
  intros W O CE Q So Sid. rewrite (after_outs_eq _ _ _ Q). cbn [rev app flat_map]. rewrite So. cbn [app fold_left].
  assert (W1 : wf (RS.spec_next s (RS.Frame f) r)) by (apply wf_spec_next, W).
  split; [|split].
  - rewrite st_of_spec_sent by exact W1. rewrite Sid, N.eqb_refl. rewrite st_of_spec_next_same by exact O. rewrite CE. reflexivity.
  - rewrite goaway_spec_sent, goaway_spec_next, CE, orb_false_r. destruct so; try reflexivity; discriminate.
  - apply highest_spec_sent, W1.
Qed.

(* the highest id after a frame that took effect or was answered with RST_STREAM *)
Lemma highest_next_known s f r h' : wf s -> N.odd (RS.f_sid f) = true -> conn_err r = false -> r <> RS.Ignore ->
  (RS.st_of s (RS.f_sid f) = RS.Idle -> next_st RS.Idle f r <> RS.Idle /\ h' = RS.f_sid f /\ RS.highest s < RS.f_sid f) ->
  (RS.st_of s (RS.f_sid f) <> RS.Idle -> h' = RS.highest s) ->
  RS.highest (RS.spec_next s (RS.Frame f) r) = h'.
Proof.
  intros W O CE NI HI HN. rewrite highest_spec_next. rewrite CE, (Zn_of_odd _ O). cbn [negb andb].
  destruct (RS.st_of s (RS.f_sid f)) eqn:X.
  1:{ (* a new id: it becomes the highest *)
      destruct (HI eq_refl) as (A & -> & C).
      replace (match r with RS.Ignore => false | _ => true end) with true by (destruct r; congruence).
      destruct (next_st RS.Idle f r); [congruence | | | |]; apply N.max_r, N.lt_le_incl, C. }
  (* an id already in use is not above the highest *)
  all: rewrite (HN ltac:(discriminate));
    assert (L : RS.f_sid f <= RS.highest s) by (apply st_of_notidle_le; [exact W | congruence]);
    match goal with |- (if ?b then _ else _) = _ => destruct b end; [apply N.max_l, L | reflexivity].
Qed.

(* the state the stream loop works on, relative to the one before the frame *)
Definition kctx c (ec' l' h' : N) (c2 : sconn) : Prop :=
  sc_ring c2 = sc_ring c /\ sc_oldest c2 = sc_oldest c /\ sc_lastID c2 = l' /\ sc_highestID c2 = h' /\
  sc_rl_done c2 = sc_rl_done c /\ sc_wl_dead c2 = sc_wl_dead c /\ sc_readerQ c2 = sc_readerQ c /\ sc_sl_done c2 = sc_sl_done c /\
  sc_closing c2 = sc_closing c /\ sc_expectCont c2 = ec' /\ sc_discardID c2 = sc_discardID c /\ sc_out c2 = sc_out c.

Lemma kfin_of c ec' l' h' c2 cA : sc_sl_done c = false -> kctx c ec' l' h' c2 -> hf_eff c2 cA ->
  exists dq, kfin c c ec' l' h' (sc_strms c2) cA dq /\ filter noisy dq = [] /\ (forall sid rq, ~ In (ODispatch sid rq) dq).
Proof.
  intros Hsl (K1 & K2 & K3 & K4 & K5 & K6 & K7 & K8 & K9 & K10 & K11 & K12)
         (H1 & H2 & H3 & H4 & H5 & H6 & H7 & H8 & H9 & H10 & H11 & H12 & (dq & Q1 & Q2 & Q3)).
  exists dq. split; [|split; assumption].
  unfold kfin. rewrite H2, H3, H4, H5, H6, H7, H8, H9, H10, H11, Q1, K1, K2, K3, K4, K5, K6, K7, K8, K9, K10, K12. auto 20.
Qed.

Lemma quiet_no_goaway dq : filter noisy dq = [] -> forall o, In o dq -> is_goaway o = None.
Proof.
  intros Q o H. destruct (is_goaway o) eqn:G; [|reflexivity]. exfalso.
  assert (N : noisy o = true) by (unfold noisy, is_goaway in *; destruct (strip_late o); try discriminate; reflexivity).
  assert (In o (filter noisy dq)) by (apply filter_In; auto). rewrite Q in H0. destruct H0.
Qed.

Lemma policy_allowed s fr code :
  RS.verdicts s (RS.Frame (abs_frame fr)) = RS.on_stream s (abs_frame fr) -> sf_kind fr <> KRst ->
  (RS.st_of s (sf_sid fr) = RS.Open \/ RS.st_of s (sf_sid fr) = RS.HalfClosedRemote \/
   (RS.st_of s (sf_sid fr) = RS.Idle /\ sf_kind fr = KHeaders /\ N.odd (sf_sid fr) = true)) ->
  (code = c_ProtocolError \/ code = c_InternalError \/ code = c_EnhanceYourCalm \/ code = c_RefusedStreamError \/ code = c_StreamCanceled) ->
  RS.allowed s (RS.Frame (abs_frame fr)) (RS.StreamErr code) = true.
Proof.
  intros V K X C. apply allowed_table. rewrite V. unfold RS.on_stream. rewrite existsb_app. apply orb_true_iff.
  assert (P : existsb (fun v => RS.admits v (RS.StreamErr code)) RS.policy = true).
  { destruct C as [-> | [-> | [-> | [-> | ->]]]]; reflexivity. }
  destruct X as [X|[X|(X & KH & O)]].
  - right. change (RS.f_sid (abs_frame fr)) with (sf_sid fr). rewrite X. unfold abs_frame. cbn [RS.f_kind].
    revert K. destruct (sf_kind fr); intro K; cbn [abs_kind]; try exact P; congruence.
  - right. change (RS.f_sid (abs_frame fr)) with (sf_sid fr). rewrite X. unfold abs_frame. cbn [RS.f_kind].
    revert K. destruct (sf_kind fr); intro K; cbn [abs_kind]; try exact P; congruence.
  - left. unfold RS.by_state. change (RS.f_sid (abs_frame fr)) with (sf_sid fr). rewrite X. unfold abs_frame. cbn [RS.f_kind RS.f_self]. rewrite KH. cbn [abs_kind].
    rewrite <- N.negb_odd, O. cbn [negb]. rewrite !existsb_app, P. rewrite orb_true_r. reflexivity.
Qed.

Lemma classify_nil sid : classify sid [] = RS.Process.
Proof. unfold classify. cbn. destruct (sid =? 0); reflexivity. Qed.

Lemma classify_es sid ch : classify sid [OData sid true ch] = RS.Process.
Proof. unfold classify. cbn. destruct (sid =? 0); reflexivity. Qed.

Lemma handle_state_range fr s : st_state s = SIdle \/ st_state s = SOpen \/ st_state s = SHalfClosed ->
  (st_state (handle_state fr s) = SClosed -> sf_kind fr = KRst) /\
  (st_state (handle_state fr s) = SIdle \/ st_state (handle_state fr s) = SOpen \/ st_state (handle_state fr s) = SHalfClosed \/
   st_state (handle_state fr s) = SClosed) /\
  (st_state s = SHalfClosed -> st_state (handle_state fr s) = SHalfClosed \/ st_state (handle_state fr s) = SClosed).
Proof.
  unfold handle_state. destruct s. cbn. intros [H|[H|H]]; subst; destruct (sf_kind fr); cbn;
    try destruct (flag_has (sf_flags fr) FL_ES); cbn; repeat split; auto; try discriminate; intro X; discriminate.
Qed.

Lemma kfin_note c cr ec' l' h' L cA dq o : kfin c cr ec' l' h' L cA dq -> kfin c cr ec' l' h' L (note cA o) (o :: dq).
Proof.
  unfold kfin, note. sc_cbn. intros (K1 & K2 & K3 & K4 & K5 & K6 & K7 & K8 & K9 & K10 & K11 & K12). rewrite K12.
  repeat split; assumption.
Qed.

Lemma kfin_sd c cr ec' l' h' L cA dq c1 ds : kfin c cr ec' l' h' L cA dq -> sd hstate cA c1 ds -> kfin c cr ec' l' h' L c1 (ds ++ dq).
Proof.
  unfold kfin, sd. intros (K1 & K2 & K3 & K4 & K5 & K6 & K7 & K8 & K9 & K10 & K11 & K12) ->. sc_cbn. rewrite K12, app_assoc.
  repeat split; assumption.
Qed.

Lemma handle_state_not_idle fr s : (st_state s = SIdle -> sf_kind fr = KHeaders) -> st_state (handle_state fr s) <> SIdle.
Proof.
  unfold handle_state. destruct s. cbn. intro H.
  destruct (sf_kind fr) eqn:K; cbn; destruct st_state; cbn; try discriminate;
    try (specialize (H eq_refl); discriminate); destruct (flag_has (sf_flags fr) FL_ES); cbn; discriminate.
Qed.

(* what is known about the stream a frame is handled on *)
Record sfacts c (s : RS.state) (ph : N -> RS.phase) (fr : sframe) (st : stream) (l' h' : N) : Prop := {
  F_id : st_id st = sf_sid fr;
  F_state : st_state st = SIdle \/ st_state st = SOpen \/ st_state st = SHalfClosed;
  F_x : RS.st_of s (sf_sid fr) = abs_st (st_state st);
  F_h1 : st_state st = SIdle -> h' = sf_sid fr /\ sc_highestID c < sf_sid fr /\ sc_closing c = false /\ sf_kind fr = KHeaders /\
                                st_headersFinished st = false /\ st_responded st = false /\ st_handlerRunning st = false /\
                                ph (sf_sid fr) = RS.PStart /\ st_prev st = [] /\ st_pending st = [] /\ st_bodyStream st = None;
  F_h2 : st_state st <> SIdle -> h' = sc_highestID c /\ tbl c (sf_sid fr) = Some st /\ ph (sf_sid fr) = phase_of st /\
                                 (st_headersFinished st = false -> sf_sid fr = sc_expectCont c) /\
                                 (sc_expectCont c = sf_sid fr -> st_headersFinished st = false);
  F_wr : st_weReset st = false;
  F_resp : st_responded st = true \/ st_handlerRunning st = true -> st_state st = SHalfClosed /\ st_headersFinished st = true;
  F_once : st_state st = SHalfClosed -> st_headersFinished st = true -> st_responded st = true;
  F_send : send_ok st
}.


(* everything known when a frame reaches handleFrame *)
Record kin c (s : RS.state) (ph : N -> RS.phase) (fr : sframe) (ec' : N) (c2 : sconn) (st : stream) (l' h' : N) : Prop := {
  K_S : Sim c s ph;
  K_sl : sc_sl_done c = false;
  K_sq : seq_ok c fr ec';
  K_od : N.odd (sf_sid fr) = true;
  K_base : base c fr (sc_strms c2) l' h';
  K_ctx : kctx c ec' l' h' c2;
  K_cw : sc_clientWindow c2 = sc_clientWindow c;
  K_f : sfacts c s ph fr st l' h'
}.


(* afterFrame on a frame that handleFrame accepted.  sX: the stream as handleFrame leaves it, the same as st but for its
   header part *)
Lemma after_ok c s ph fr ec' c2 st l' h' cA sX :
  kin c s ph fr ec' c2 st l' h' -> hf_eff c2 cA -> sc_discardID cA = sc_discardID c -> same_ctl st sX ->
  (st_responded st = true \/ st_handlerRunning st = true -> st_headersFinished sX = true) ->
  RS.verdicts s (RS.Frame (abs_frame fr)) = RS.on_stream s (abs_frame fr) ->
  RS.may_process s (RS.Frame (abs_frame fr)) = true ->
  (st_headersFinished sX = false -> ec' = sf_sid fr) -> (ec' <> 0 -> st_headersFinished sX = false) ->
  (st_state (handle_state fr sX) <> SClosed -> RS.request_step (ph (sf_sid fr)) (abs_frame fr) = phase_of (handle_state fr sX)) ->
  (sf_kind fr = KRst -> st_responded sX = true -> st_handlerRunning sX = false -> has_more_to_send sX = true ->
   (st_pending sX = [] \/ (0 < zmin (st_window sX) (sc_clientWindow cA))%Z) ->
   known_deviation hstate c s (RFrame fr) = true) ->
  feed c (IIn (RFrame fr)) = fst (after_frame cfg cA sX fr (sc_closing c)) ->
  G c s ph (RFrame fr) (feed c (IIn (RFrame fr))).
Proof.
  intros KI HE Hdi SC Hfr V Hmp Hf1 Hf2 Hph Hdev E. pose proof KI as [HS Hsl SQ Od HB KC _ SF].
  destruct SC as (SC1 & SC2 & SC3 & SC4 & SC5 & SC6 & SC7 & SC8 & _).
  assert (Hid : st_id sX = sf_sid fr) by (rewrite SC1; apply (F_id _ _ _ _ _ _ _ SF)).
  assert (Hstate : (st_state sX = SIdle /\ sf_kind fr = KHeaders) \/ st_state sX = SOpen \/ st_state sX = SHalfClosed).
  { rewrite SC2. destruct (F_state _ _ _ _ _ _ _ SF) as [X|[X|X]]; auto. left. split; [exact X | apply (F_h1 _ _ _ _ _ _ _ SF X)]. }
  assert (Hx : RS.st_of s (sf_sid fr) = abs_st (st_state sX)) by (rewrite SC2; exact (F_x _ _ _ _ _ _ _ SF)).
  assert (Hh1 : st_state sX = SIdle -> h' = sf_sid fr /\ sc_highestID c < sf_sid fr).
  { rewrite SC2. intro X. destruct (F_h1 _ _ _ _ _ _ _ SF X) as (P1 & P2 & _). auto. }
  assert (Hh2 : st_state sX <> SIdle -> h' = sc_highestID c) by (rewrite SC2; intro X; apply (F_h2 _ _ _ _ _ _ _ SF X)).
  assert (Hwr : st_weReset sX = false) by (rewrite SC3; exact (F_wr _ _ _ _ _ _ _ SF)).
  assert (Hresp : st_responded sX = true \/ st_handlerRunning sX = true -> st_state sX = SHalfClosed /\ st_headersFinished sX = true).
  { rewrite SC4, SC5, SC2. intro H. split; [apply (F_resp _ _ _ _ _ _ _ SF H) | apply Hfr, H]. }
  assert (Hsend : send_ok sX) by (unfold send_ok, has_more_to_send; rewrite SC6, SC7, SC8; exact (F_send _ _ _ _ _ _ _ SF)).
  pose proof (S_wf _ _ _ _ HS) as W. pose proof (S_aux _ _ _ _ HS) as [AT AH].
  pose proof (Zn_of_odd _ Od) as Zn.
  destruct (kfin_of c ec' l' h' c2 cA Hsl KC HE) as (dq & KF & Qq & Qnd).
  pose proof (quiet_no_goaway dq Qq) as Qng.
  assert (WrA : wr hstate cA).
  { destruct KF as (_ & _ & _ & _ & _ & _ & K7 & _ & K9 & _). split; [exact K9 | rewrite K7; apply (A_wl _ _ AT)]. }
  set (s1 := handle_state fr sX) in *.
  assert (S1 : s1 = set_state sX (st_state s1)) by apply handle_state_set.
  assert (Rcv : abs_st (st_state s1) = RS.receive (RS.st_of s (sf_sid fr)) (abs_frame fr)).
  { rewrite Hx. apply handle_state_receive. destruct Hstate as [[A B]|[A|A]]; auto. left. split; [exact A | congruence]. }
  assert (S1id : st_id s1 = sf_sid fr) by (rewrite S1; exact Hid).
  assert (S1fin : st_headersFinished s1 = st_headersFinished sX) by (rewrite S1; reflexivity).
  assert (S1resp : st_responded s1 = st_responded sX) by (rewrite S1; reflexivity).
  assert (S1run : st_handlerRunning s1 = st_handlerRunning sX) by (rewrite S1; reflexivity).
  assert (S1wr : st_weReset s1 = false) by (rewrite S1; exact Hwr).
  assert (S1more : has_more_to_send s1 = has_more_to_send sX) by (rewrite S1; reflexivity).
  assert (S1send : send_ok s1) by (rewrite S1; exact Hsend).
  assert (FS : RS.f_sid (abs_frame fr) = sf_sid fr) by reflexivity.
  (* the highest id after the frame took effect or was reset *)
  assert (HI : forall r, conn_err r = false -> r <> RS.Ignore -> next_st RS.Idle (abs_frame fr) r <> RS.Idle \/ st_state sX <> SIdle ->
               RS.highest (RS.spec_next s (RS.Frame (abs_frame fr)) r) = h').
  { intros r CE NI NX. apply highest_next_known; try assumption.
    - rewrite FS, Hx. intro X. assert (SI : st_state sX = SIdle) by (destruct (st_state sX); try discriminate; reflexivity).
      destruct (Hh1 SI) as [A B]. split; [destruct NX; [assumption | contradiction]|]. split; [exact A|]. rewrite (S_hi _ _ _ _ HS). exact B.
    - rewrite FS, Hx. intro X. rewrite (S_hi _ _ _ _ HS). apply Hh2. intro SI. rewrite SI in X. apply X. reflexivity. }
  assert (NotIdle1 : st_state s1 <> SIdle).
  { apply handle_state_not_idle. intro SI. destruct Hstate as [[A B]|[A|A]]; [exact B | congruence | congruence]. }
  assert (ProcIdle : next_st RS.Idle (abs_frame fr) RS.Process <> RS.Idle \/ st_state sX <> SIdle).
  { destruct Hstate as [[A B]|[A|A]]; [left | right; congruence | right; congruence].
    cbn [next_st]. unfold RS.receive, abs_frame. cbn [RS.f_kind]. rewrite B. cbn [abs_kind]. destruct (RS.f_es _); discriminate. }
  (* nothing noisy goes out: the frame took effect *)
  assert (QUIET : forall d, filter noisy d = [] ->
            (RS.allowed s (RS.Frame (abs_frame fr)) (react s fr d) = true \/ known_deviation hstate c s (RFrame fr) = true) /\
            outs_on (sf_sid fr) d /\
            RS.st_of (spec_after s fr d) (sf_sid fr) = abs_st (st_state s1) /\
            RS.goaway (spec_after s fr d) = RS.goaway s /\ RS.highest (spec_after s fr d) = h').
  { intros d Fd. unfold spec_after, react. rewrite Fd. cbn [rev]. rewrite classify_nil. cbn [resolve]. rewrite Hmp, (after_outs_quiet _ _ Fd).
    split; [left; apply allowed_table; exact Hmp|]. split; [apply outs_on_of; rewrite Fd; intros o []|].
    split; [rewrite Rcv; apply (st_of_spec_next_same s (abs_frame fr)), Od|]. split; [rewrite goaway_spec_next; apply orb_false_r|].
    apply HI; [reflexivity | discriminate | exact ProcIdle]. }
  unfold after_frame in E. fold s1 in E. cbv zeta in E.
  destruct (sstate_eqb (st_state s1) SHalfClosed && st_headersFinished s1 && negb (st_responded s1))%bool eqn:C1.
  - (* the request is complete *)
    apply andb_true_iff in C1. destruct C1 as [C1 C1r]. apply andb_true_iff in C1. destruct C1 as [C1s C1f].
    apply sstate_eqb_eq in C1s. apply negb_true_iff in C1r.
    assert (Xhc : RS.receive (RS.st_of s (sf_sid fr)) (abs_frame fr) = RS.HalfClosedRemote) by (rewrite <- Rcv, C1s; reflexivity).
    assert (NR : sf_kind fr <> KRst).
    { intro K. unfold s1, handle_state in C1s. rewrite K in C1s. cbn [fkind_eqb] in C1s. cbn in C1s. discriminate. }
    assert (Xst : RS.st_of s (sf_sid fr) = RS.Open \/ RS.st_of s (sf_sid fr) = RS.HalfClosedRemote \/
                  (RS.st_of s (sf_sid fr) = RS.Idle /\ sf_kind fr = KHeaders /\ N.odd (sf_sid fr) = true)).
    { rewrite Hx. destruct Hstate as [[A B]|[A|A]]; rewrite A; cbn [abs_st]; auto. }
    set (s2 := set_flags s1 true (st_handlerRunning s1) (st_abandoned s1)) in *.
    destruct (st_hasCL s2 && negb (st_recvBody s2 =? st_contentLength s2)%Z)%bool eqn:CL.
    + (* content-length does not match: RST_STREAM(PROTOCOL_ERROR) *)
      set (sF := set_state (set_weReset s2) SClosed) in *.
      replace (sstate_eqb (st_state sF) SClosed) with true in E by reflexivity.
      set (d := ORst (sf_sid fr) c_ProtocolError :: dq).
      assert (Fd : filter noisy d = [ORst (sf_sid fr) c_ProtocolError]) by (unfold d; cbn [filter noisy strip_late]; rewrite Qq; reflexivity).
      assert (CLs : classify (sf_sid fr) (rev (filter noisy d)) = RS.StreamErr c_ProtocolError) by (rewrite Fd; apply classify_rst, Zn).
      destruct (spec_one s (abs_frame fr) (RS.StreamErr c_ProtocolError) d _ (RS.SentRst (sf_sid fr)) W Od eq_refl Fd eq_refl eq_refl) as (Q1 & Q2 & Q3).
      change (RS.f_sid (abs_frame fr)) with (sf_sid fr) in Q1.
      apply (G_close' c s ph fr ec' (sc_strms c2) l' h' sF (write_reset cA (sf_sid fr) c_ProtocolError) d HS Hsl SQ Od HB); try assumption;
        unfold spec_after, react; rewrite ?CLs; cbn [resolve].
      * rewrite (write_reset_wr hstate cA _ _ WrA). apply kfin_note, KF.
      * right. left. rewrite sc_discardID_write_reset. exact Hdi.
      * intro Hne. right. split; [reflexivity|]. unfold sF, s2. cbn. rewrite S1fin. apply Hf2, Hne.
      * replace (st_id s2) with (sf_sid fr) in E by (symmetry; exact S1id). exact E.
      * intros o [<-|H]; [reflexivity | apply Qng, H].
      * left. apply policy_allowed; auto.
      * apply (outs_on_one _ d _ Fd). intros so [<-|[]]. left. reflexivity.
      * rewrite Q1. cbn [next_st].
        destruct Xst as [X|[X|(X & KH & _)]]; rewrite X; unfold RS.reset, abs_frame; cbn [RS.f_kind]; rewrite ?KH; cbn [abs_kind sent_st];
          try reflexivity; destruct (abs_kind (sf_kind fr)); reflexivity.
      * exact Q2.
      * rewrite Q3. apply HI; [reflexivity | discriminate|]. 
        destruct Xst as [X|[X|(X & KH & _)]].
        -- right. intro SI. rewrite Hx, SI in X. discriminate.
        -- right. intro SI. rewrite Hx, SI in X. discriminate.
        -- left. cbn [next_st]. unfold RS.reset, abs_frame. cbn [RS.f_kind]. rewrite KH. discriminate.
      * intros sid rq [H|H]; [discriminate | exact (Qnd sid rq H)].
    + (* dispatch *)
      set (sF := set_flags s2 true true (st_abandoned s2)) in *.
      replace (sstate_eqb (st_state sF) SClosed) with false in E by (unfold sF, s2; cbn; rewrite C1s; reflexivity).
      set (d := ODispatch (st_id s2) (st_req s2) :: dq).
      destruct (QUIET d Qq) as (Al & On & Q1 & Q2 & Q3).
      apply (G_keep' c s ph fr ec' (sc_strms c2) l' h' sF (note cA (ODispatch (st_id s2) (st_req s2))) d HS Hsl SQ Od HB); try assumption.
      * apply kfin_note, KF.
      * intros o [<-|H]; [reflexivity | apply Qng, H].
      * unfold strm_ok, sF, s2. cbn. rewrite C1s. repeat split; auto.
      * unfold sF, s2. cbn. rewrite C1f. discriminate.
      * unfold sF, s2. cbn. rewrite C1f. intro Hne. exfalso. rewrite S1fin in C1f. rewrite (Hf2 Hne) in C1f. discriminate.
      * rewrite Q1, C1s. unfold sF, s2. cbn. rewrite C1s. reflexivity.
      * rewrite Hph by (rewrite C1s; discriminate). unfold phase_of, sF, s2. cbn. reflexivity.
      * intros sid rq [H|H]; [|exfalso; exact (Qnd sid rq H)]. inversion H; subst. split; [exact S1id|].
        unfold phase_of, sF, s2. cbn. rewrite C1s, C1f. reflexivity.
  - (* the request is not complete, or is being answered already *)
    assert (Hstate' : st_state sX = SIdle \/ st_state sX = SOpen \/ st_state sX = SHalfClosed) by (destruct Hstate as [[A _]|[A|A]]; auto).
    destruct (handle_state_range fr sX Hstate') as (RgC & Rg & RgH). fold s1 in RgC, Rg, RgH.
    destruct (st_responded s1 && negb (st_handlerRunning s1) && has_more_to_send s1)%bool eqn:C2.
    + (* queued response data goes out *)
      apply andb_true_iff in C2. destruct C2 as [C2 C2m]. apply andb_true_iff in C2. destruct C2 as [C2r C2h]. apply negb_true_iff in C2h.
      destruct (Hresp (or_introl (eq_trans (eq_sym S1resp) C2r))) as [SXhc SXfin].
      assert (Xhcr : RS.st_of s (sf_sid fr) = RS.HalfClosedRemote) by (rewrite Hx, SXhc; reflexivity).
      assert (EC0 : ec' = 0) by (destruct (N.eq_dec ec' 0) as [Z|Z]; [exact Z | rewrite (Hf2 Z) in SXfin; discriminate]).
      destruct (send_data cA s1) as [[c1' s2'] fin] eqn:SD.
      destruct (send_data_spec hstate cA s1 c1' s2' fin WrA C2m S1send SD) as (ds & SDd & FD & Sid & Sst & Sfin & Sresp & Srun & Sorig & Sout).
      destruct (data_or_rst_facts ds FD) as (Dnd & Dng & _).
      pose proof (kfin_sd c c ec' l' h' _ cA dq c1' ds KF SDd) as KF1.
      assert (DI1 : sc_discardID c1' = sc_discardID c) by (unfold sd in SDd; rewrite SDd; sc_cbn; exact Hdi).
      assert (Ng1 : forall o, In o (ds ++ dq) -> is_goaway o = None).
      { intros o H. apply in_app_or in H. destruct H as [H|H]; [apply Dng, H | apply Qng, H]. }
      assert (Nd1 : forall sid rq, ~ In (ODispatch sid rq) (ds ++ dq)).
      { intros sid rq H. apply in_app_or in H. destruct H as [H|H]; [exact (Dnd sid rq H) | exact (Qnd sid rq H)]. }
      destruct fin.
      * (* the response is over: the stream is closed *)
        set (sF := set_state s2' SClosed) in *.
        replace (sstate_eqb (st_state sF) SClosed) with true in E by reflexivity.
        assert (IdF : st_id sF = sf_sid fr) by (unfold sF; cbn; rewrite Sid; exact S1id).
        destruct Sout as [(chunk & Fn & Wr) | (Fn & Wr)].
        -- (* END_STREAM *)
           assert (Fd : filter noisy (ds ++ dq) = [OData (sf_sid fr) true chunk]) by (rewrite filter_app, Qq, app_nil_r, Fn, S1id; reflexivity).
           assert (CLs : classify (sf_sid fr) (rev (filter noisy (ds ++ dq))) = RS.Process) by (rewrite Fd; apply classify_es).
           destruct (spec_one s (abs_frame fr) RS.Process (ds ++ dq) _ (RS.SentEndStream (sf_sid fr)) W Od eq_refl Fd eq_refl eq_refl) as (Q1 & Q2 & Q3).
           change (RS.f_sid (abs_frame fr)) with (sf_sid fr) in Q1.
           apply (G_close' c s ph fr ec' (sc_strms c2) l' h' sF c1' (ds ++ dq) HS Hsl SQ Od HB IdF KF1); try assumption;
             unfold spec_after, react; rewrite ?CLs; cbn [resolve]; rewrite ?Hmp.
           ++ right. left. exact DI1.
           ++ intro Hne. exfalso. apply Hne, EC0.
           ++ left. apply allowed_table. exact Hmp.
           ++ apply (outs_on_one _ _ _ Fd). intros so [<-|[]]. left. reflexivity.
           ++ rewrite Q1. cbn [next_st]. rewrite Xhcr. unfold sF. cbn. rewrite Wr, S1wr.
              unfold RS.receive. destruct (sf_kind fr); cbn; auto.
           ++ exact Q2.
           ++ rewrite Q3. apply HI; [reflexivity | discriminate | exact ProcIdle].
        -- (* the body reader failed: RST_STREAM(INTERNAL_ERROR) *)
           assert (Fd : filter noisy (ds ++ dq) = [ORst (sf_sid fr) c_InternalError]) by (rewrite filter_app, Qq, app_nil_r, Fn, S1id; reflexivity).
           assert (CLs : classify (sf_sid fr) (rev (filter noisy (ds ++ dq))) = RS.StreamErr c_InternalError) by (rewrite Fd; apply classify_rst, Zn).
           destruct (spec_one s (abs_frame fr) (RS.StreamErr c_InternalError) (ds ++ dq) _ (RS.SentRst (sf_sid fr)) W Od eq_refl Fd eq_refl eq_refl) as (Q1 & Q2 & Q3).
           change (RS.f_sid (abs_frame fr)) with (sf_sid fr) in Q1.
           apply (G_close' c s ph fr ec' (sc_strms c2) l' h' sF c1' (ds ++ dq) HS Hsl SQ Od HB IdF KF1); try assumption;
             unfold spec_after, react; rewrite ?CLs; cbn [resolve].
           ++ right. left. exact DI1.
           ++ intro Hne. exfalso. apply Hne, EC0.
           ++ destruct (fkind_eqb (sf_kind fr) KRst) eqn:KR.
              ** right. apply fkind_eqb_eq in KR. apply Hdev; try congruence.
                 destruct (st_pending sX) as [|p0 pt] eqn:EP; [left; reflexivity | right].
                 destruct (Z_lt_le_dec 0 (zmin (st_window sX) (sc_clientWindow cA))) as [L|L]; [exact L | exfalso].
                 assert (P1 : st_pending s1 <> []) by (rewrite S1; cbn; rewrite EP; discriminate).
                 assert (W1 : (zmin (st_window s1) (sc_clientWindow cA) <= 0)%Z) by (rewrite S1; exact L).
                 pose proof (send_data_stalled hstate cA s1 P1 W1) as X. rewrite SD in X. discriminate.
              ** left. apply policy_allowed; auto. apply fkind_eqb_neq, KR.
           ++ apply (outs_on_one _ _ _ Fd). intros so [<-|[]]. left. reflexivity.
           ++ rewrite Q1. cbn [next_st]. rewrite Xhcr. unfold sF. cbn. rewrite Wr.
              unfold RS.reset, abs_frame. cbn. destruct (sf_kind fr); reflexivity.
           ++ exact Q2.
           ++ rewrite Q3. apply HI; [reflexivity | discriminate | right; congruence].
      * (* more to send later *)
        destruct Sout as (Fn & Wr & Sok).
        assert (St2 : st_state s2' = SHalfClosed \/ st_state s2' = SClosed) by (rewrite Sst; apply RgH, SXhc).
        destruct (sstate_eqb (st_state s2') SClosed) eqn:CC.
        -- (* the frame was RST_STREAM *)
           apply sstate_eqb_eq in CC. assert (KR : sf_kind fr = KRst) by (apply RgC; rewrite <- Sst; exact CC).
           assert (Fd : filter noisy (ds ++ dq) = []) by (rewrite filter_app, Qq, Fn; reflexivity).
           destruct (QUIET _ Fd) as (Al & On & Q1 & Q2 & Q3).
           apply (G_close' c s ph fr ec' (sc_strms c2) l' h' s2' c1' (ds ++ dq) HS Hsl SQ Od HB (eq_trans Sid S1id) KF1); try assumption.
           ++ right. left. exact DI1.
           ++ intro Hne. exfalso. apply Hne, EC0.
           ++ rewrite Q1, <- Sst, CC, Wr, S1wr. right. reflexivity.
        -- apply sstate_eqb_neq in CC. destruct St2 as [St2|St2]; [|congruence].
           assert (Fd : filter noisy (ds ++ dq) = []) by (rewrite filter_app, Qq, Fn; reflexivity).
           destruct (QUIET _ Fd) as (Al & On & Q1 & Q2 & Q3).
           apply (G_keep' c s ph fr ec' (sc_strms c2) l' h' s2' c1' (ds ++ dq) HS Hsl SQ Od HB (eq_trans Sid S1id) KF1 DI1); try assumption.
           ++ unfold strm_ok. rewrite St2, Wr, S1wr, Sresp, Srun, Sfin, S1fin. repeat split; auto.
           ++ rewrite Sfin, S1fin, SXfin. discriminate.
           ++ intro Hne. exfalso. apply Hne, EC0.
           ++ rewrite Q1, <- Sst, St2. reflexivity.
           ++ rewrite Hph by (rewrite <- Sst; congruence). unfold phase_of. rewrite Sst, Sfin. reflexivity.
           ++ intros sid rq H. exfalso. exact (Nd1 sid rq H).
    + (* nothing to send *)
      destruct (QUIET dq Qq) as (Al & On & Q1 & Q2 & Q3).
      destruct (sstate_eqb (st_state s1) SClosed) eqn:CC.
      * (* RST_STREAM: the stream is closed *)
        apply sstate_eqb_eq in CC. pose proof (RgC CC) as KR.
        assert (EC0 : ec' = 0) by (destruct SQ as [(_ & _ & ->)|(_ & K & _)]; [rewrite KR; reflexivity | congruence]).
        apply (G_close' c s ph fr ec' (sc_strms c2) l' h' s1 cA dq HS Hsl SQ Od HB S1id KF); try assumption.
        -- right. left. exact Hdi.
        -- intro Hne. exfalso. apply Hne, EC0.
        -- rewrite Q1, CC, S1wr. right. reflexivity.
      * apply sstate_eqb_neq in CC.
        assert (St1 : st_state s1 = SOpen \/ st_state s1 = SHalfClosed) by (destruct Rg as [X|[X|[X|X]]]; [congruence | auto | auto | congruence]).
        apply (G_keep' c s ph fr ec' (sc_strms c2) l' h' s1 cA dq HS Hsl SQ Od HB S1id KF Hdi); try assumption.
        -- unfold strm_ok. rewrite S1wr, S1resp, S1run, S1fin. split; [exact St1|]. split; [reflexivity|]. split; [|split].
           ++ intro H. destruct (Hresp H) as [A B]. split; [|exact B]. destruct (RgH A) as [X|X]; [exact X | congruence].
           ++ intros A B. destruct (st_responded sX) eqn:R; [reflexivity|]. exfalso.
              rewrite A, S1fin, B, S1resp in C1. discriminate.
           ++ exact S1send.
        -- rewrite S1fin. exact Hf1.
        -- rewrite S1fin. exact Hf2.
        -- rewrite Q1. destruct St1 as [X|X]; rewrite X; reflexivity.
        -- apply Hph, CC.
        -- intros sid rq H. exfalso. exact (Qnd sid rq H).
Qed.

Lemma sent_st_closed w o : sent_st (RS.Closed w) o = RS.Closed w.
Proof. destruct o; reflexivity. Qed.

Lemma st_of_fold_closed l : forall s1 id w, wf s1 -> RS.st_of s1 id = RS.Closed w -> RS.st_of (fold_left RS.spec_sent l s1) id = RS.Closed w.
Proof.
  induction l as [|o l IH]; intros s1 id w W H; cbn [fold_left]; [exact H|].
  apply IH; [apply wf_spec_sent, W|]. rewrite st_of_spec_sent by exact W.
  destruct (match sent_sid o with Some j => j =? id | None => false end); [rewrite H; apply sent_st_closed | exact H].
Qed.

Lemma has_goaway_none d : (forall o, In o d -> is_goaway o = None) -> existsb is_exit d = false ->
  has_goaway (flat_map sent_of (rev (filter noisy d))) = false.
Proof.
  intros Hg He. unfold has_goaway. apply not_true_is_false. intro H. apply existsb_exists in H. destruct H as (so & Hin & Hso).
  apply in_flat_map in Hin. destruct Hin as (o & Ho & Hs). apply in_rev in Ho. apply filter_In in Ho. destruct Ho as [Ho _].
  pose proof (Hg o Ho) as G. assert (X : is_exit o = false).
  { destruct (is_exit o) eqn:Q; [|reflexivity]. exfalso. assert (existsb is_exit d = true) by (apply existsb_exists; eauto). congruence. }
  unfold sent_of, is_goaway, is_exit in *. destruct (strip_late o) as [? es ?|? es ?| | | | | | | | | |]; try destruct es; cbn in Hs;
    try contradiction; destruct Hs as [<-|[]]; try discriminate.
Qed.

Lemma classify_rst_first sid code l : (sid =? 0) = false -> (forall o, In o l -> is_goaway o = None) -> existsb is_exit l = false ->
  classify sid (ORst sid code :: l) = RS.StreamErr code.
Proof.
  intros Z Hg He. unfold classify.
  replace (first_some is_goaway (ORst sid code :: l)) with (@None N).
  2:{ cbn [first_some is_goaway strip_late]. symmetry. rewrite <- (app_nil_r l). rewrite first_goaway_skip by exact Hg. reflexivity. }
  cbn [existsb is_exit strip_late orb]. rewrite He, Z. cbn [first_some is_rst strip_late]. rewrite N.eqb_refl. reflexivity.
Qed.

(* afterFrame on a frame that handleFrame answered with a stream error *)
Lemma after_reset c s ph fr ec' c2 st l' h' cA s3 code :
  kin c s ph fr ec' c2 st l' h' -> hf_eff c2 cA -> same_ctl st s3 ->
  (st_headersFinished s3 = false \/ sc_discardID cA = sc_discardID c) ->
  (ec' <> 0 -> st_headersFinished s3 = false) ->
  RS.allowed s (RS.Frame (abs_frame fr)) (RS.StreamErr code) = true ->
  sf_kind fr <> KRst ->
  feed c (IIn (RFrame fr)) =
    fst (after_frame cfg (write_reset cA (sf_sid fr) code) (set_state (set_state (set_weReset s3) SClosed) SClosed) fr (sc_closing c)) ->
  G c s ph (RFrame fr) (feed c (IIn (RFrame fr))).
Proof.
  intros KI HE SC Hdi Hf2 Ha NR E. pose proof KI as [HS Hsl SQ Od HB KC _ SF].
  destruct SC as (C1 & _ & _ & _ & _ & C6 & C7 & C8 & _).
  assert (Hid : st_id s3 = sf_sid fr) by (rewrite C1; apply (F_id _ _ _ _ _ _ _ SF)).
  assert (Hx : RS.st_of s (sf_sid fr) = RS.Open \/ RS.st_of s (sf_sid fr) = RS.HalfClosedRemote \/
               (RS.st_of s (sf_sid fr) = RS.Idle /\ sf_kind fr = KHeaders)).
  { rewrite (F_x _ _ _ _ _ _ _ SF). destruct (F_state _ _ _ _ _ _ _ SF) as [X|[X|X]]; rewrite X; cbn [abs_st]; auto.
    right. right. split; [reflexivity|]. apply (F_h1 _ _ _ _ _ _ _ SF X). }
  assert (Hh1 : RS.st_of s (sf_sid fr) = RS.Idle -> h' = sf_sid fr /\ sc_highestID c < sf_sid fr).
  { rewrite (F_x _ _ _ _ _ _ _ SF). intro Y. assert (X : st_state st = SIdle) by (destruct (st_state st); try discriminate; reflexivity).
    destruct (F_h1 _ _ _ _ _ _ _ SF X) as (P1 & P2 & _). auto. }
  assert (Hh2 : RS.st_of s (sf_sid fr) <> RS.Idle -> h' = sc_highestID c).
  { rewrite (F_x _ _ _ _ _ _ _ SF). intro Y. apply (F_h2 _ _ _ _ _ _ _ SF). intro X. rewrite X in Y. apply Y. reflexivity. }
  assert (Hsend : send_ok s3) by (unfold send_ok, has_more_to_send; rewrite C6, C7, C8; exact (F_send _ _ _ _ _ _ _ SF)).
  pose proof (S_wf _ _ _ _ HS) as W. pose proof (S_aux _ _ _ _ HS) as [AT AH].
  pose proof (Zn_of_odd _ Od) as Zn.
  destruct (kfin_of c ec' l' h' c2 cA Hsl KC HE) as (dq & KF & Qq & Qnd).
  pose proof (quiet_no_goaway dq Qq) as Qng.
  assert (WrA : wr hstate cA).
  { destruct KF as (_ & _ & _ & _ & _ & _ & K7 & _ & K9 & _). split; [exact K9 | rewrite K7; apply (A_wl _ _ AT)]. }
  set (cR := write_reset cA (sf_sid fr) code) in *.
  assert (KFR : kfin c c ec' l' h' (sc_strms c2) cR (ORst (sf_sid fr) code :: dq)).
  { unfold cR. rewrite (write_reset_wr hstate cA _ _ WrA). apply kfin_note, KF. }
  assert (WrR : wr hstate cR) by (unfold cR, write_reset; apply wr_emit, WrA).
  set (s5 := set_state (set_state (set_weReset s3) SClosed) SClosed) in *.
  assert (HS5 : handle_state fr s5 = s5).
  { unfold handle_state. apply fkind_eqb_neq in NR. rewrite NR. reflexivity. }
  unfold after_frame in E. rewrite HS5 in E. cbv zeta in E.
  replace (sstate_eqb (st_state s5) SHalfClosed) with false in E by reflexivity. cbn [andb] in E.
  (* the specification: the stream is closed by our RST_STREAM whatever follows *)
  assert (Spec : forall d', (forall o, In o d' -> is_goaway o = None) -> existsb is_exit d' = false ->
     let d := d' ++ ORst (sf_sid fr) code :: dq in
     classify (sf_sid fr) (rev (filter noisy d)) = RS.StreamErr code /\
     RS.st_of (after_outs (RS.spec_next s (RS.Frame (abs_frame fr)) (RS.StreamErr code)) d) (sf_sid fr) = RS.Closed RS.WeRst /\
     RS.goaway (after_outs (RS.spec_next s (RS.Frame (abs_frame fr)) (RS.StreamErr code)) d) = RS.goaway s /\
     RS.highest (after_outs (RS.spec_next s (RS.Frame (abs_frame fr)) (RS.StreamErr code)) d) = h').
  { intros d' Hg He d.
    assert (Fd : rev (filter noisy d) = ORst (sf_sid fr) code :: rev (filter noisy d')).
    { unfold d. rewrite filter_app. cbn [filter noisy strip_late]. rewrite Qq, rev_app_distr. reflexivity. }
    assert (W1 : wf (RS.spec_next s (RS.Frame (abs_frame fr)) (RS.StreamErr code))) by (apply wf_spec_next, W).
    assert (S1 : RS.st_of (RS.spec_next s (RS.Frame (abs_frame fr)) (RS.StreamErr code)) (sf_sid fr) = RS.Closed RS.WeRst).
    { rewrite (st_of_spec_next_same s (abs_frame fr)) by exact Od. cbn [conn_err next_st]. change (RS.f_sid (abs_frame fr)) with (sf_sid fr).
      destruct Hx as [X|[X|[X KH]]]; rewrite X; unfold RS.reset, abs_frame; cbn [RS.f_kind]; rewrite ?KH; try reflexivity;
        destruct (abs_kind (sf_kind fr)); reflexivity. }
    split; [|split; [|split]].
    - rewrite Fd. apply classify_rst_first; [exact Zn | |].
      + intros o H. apply in_rev in H. apply filter_In in H. apply Hg, H.
      + rewrite existsb_rev, exit_noisy. exact He.
    - unfold after_outs. apply st_of_fold_closed; assumption.
    - unfold after_outs. rewrite goaway_fold_sent, goaway_spec_next. cbn [conn_err]. rewrite orb_false_r.
      rewrite has_goaway_none; [apply orb_false_r | |].
      + intros o H. unfold d in H. apply in_app_or in H. destruct H as [H|[<-|H]]; [apply Hg, H | reflexivity | apply Qng, H].
      + unfold d. rewrite existsb_app, He. cbn [existsb is_exit strip_late orb].
        clear -Qq. induction dq as [|o t IH]; [reflexivity|]. cbn [filter] in Qq. cbn [existsb]. destruct (noisy o) eqn:N; [discriminate|].
        rewrite (IH Qq), orb_false_r. unfold noisy, is_exit in *. destruct (strip_late o); try discriminate; reflexivity.
    - unfold after_outs. rewrite highest_fold_sent by exact W1. apply highest_next_known; try assumption; try reflexivity; try discriminate.
      + change (RS.f_sid (abs_frame fr)) with (sf_sid fr). intro X. destruct (Hh1 X) as [A B]. split; [|split; [exact A | rewrite (S_hi _ _ _ _ HS); exact B]].
        destruct Hx as [Y|[Y|[Y KH]]]; try congruence. cbn [next_st]. unfold RS.reset, abs_frame. cbn [RS.f_kind]. rewrite KH. discriminate.
      + change (RS.f_sid (abs_frame fr)) with (sf_sid fr). intro X. rewrite (S_hi _ _ _ _ HS). apply Hh2, X. }
  assert (Kd2 : forall sF, st_weReset sF = true -> st_headersFinished sF = st_headersFinished s3 ->
                ec' <> 0 -> sc_discardID cR = sf_sid fr \/ (st_weReset sF = true /\ st_headersFinished sF = false)).
  { intros sF A B Hne. right. split; [exact A | rewrite B; apply Hf2, Hne]. }
  destruct (st_responded s5 && negb (st_handlerRunning s5) && has_more_to_send s5)%bool eqn:C2.
  - (* response data was queued: it still goes out *)
    apply andb_true_iff in C2. destruct C2 as [_ C2m].
    destruct (send_data cR s5) as [[c1' s2'] fin] eqn:SD.
    destruct (send_data_spec hstate cR s5 c1' s2' fin WrR C2m Hsend SD) as (ds & SDd & FD & Sid & Sst & Sfin & Sresp & Srun & Sorig & Sout).
    destruct (data_or_rst_facts ds FD) as (Dnd & Dng & Dne).
    pose proof (kfin_sd c c ec' l' h' _ cR _ c1' ds KFR SDd) as KF1.
    destruct (Spec ds Dng Dne) as (CLs & Q1 & Q2 & Q3).
    set (sF := if fin then set_state s2' SClosed else s2') in *.
    assert (StF : st_state sF = SClosed) by (unfold sF; destruct fin; [reflexivity | rewrite Sst; reflexivity]).
    assert (WrF : st_weReset sF = true).
    { unfold sF. destruct fin; cbn.
      - destruct Sout as [(ch & _ & X)|(_ & X)]; rewrite X; reflexivity.
      - destruct Sout as (_ & X & _). rewrite X. reflexivity. }
    assert (FinF : st_headersFinished sF = st_headersFinished s3) by (unfold sF; destruct fin; cbn; rewrite Sfin; reflexivity).
    assert (IdF : st_id sF = sf_sid fr) by (unfold sF; destruct fin; cbn; rewrite Sid; exact Hid).
    replace (sstate_eqb (st_state sF) SClosed) with true in E by (rewrite StF; reflexivity).
    apply (G_close' c s ph fr ec' (sc_strms c2) l' h' sF c1' (ds ++ ORst (sf_sid fr) code :: dq) HS Hsl SQ Od HB IdF KF1); try assumption;
      unfold spec_after, react; rewrite ?CLs; cbn [resolve]; try exact Q2; try exact Q3.
    + destruct Hdi as [X|X]; [left; split; [exact WrF | rewrite FinF; exact X]|].
      right. left. unfold sd in SDd. rewrite SDd. sc_cbn. unfold cR. rewrite sc_discardID_write_reset. exact X.
    + intro Hne. destruct (Kd2 sF WrF FinF Hne) as [X|X]; [|right; exact X]. left. unfold sd in SDd. rewrite SDd. sc_cbn. exact X.
    + intros o H. apply in_app_or in H. destruct H as [H|[<-|H]]; [apply Dng, H | reflexivity | apply Qng, H].
    + left. exact Ha.
    + apply outs_on_of. intros o Ho so Hso. rewrite filter_app in Ho. apply in_app_or in Ho. destruct Ho as [Ho|Ho].
      * apply filter_In in Ho. destruct Ho as [Ho _]. rewrite Forall_forall in FD. specialize (FD o Ho).
        destruct fin.
        -- destruct Sout as [(ch & Fn & _)|(Fn & _)]; assert (X : In o (filter noisy ds)) by (apply filter_In; split; [exact Ho|];
             unfold sent_of in Hso; unfold noisy; destruct (strip_late o) as [? es ?|? es ?| | | | | | | | | |]; try destruct es; try contradiction; reflexivity);
           rewrite Fn in X; destruct X as [<-|[]]; destruct Hso as [<-|[]]; left; cbn; rewrite ?Hid; reflexivity.
        -- destruct Sout as (Fn & _). assert (X : In o (filter noisy ds)) by (apply filter_In; split; [exact Ho|];
             unfold sent_of in Hso; unfold noisy; destruct (strip_late o) as [? es ?|? es ?| | | | | | | | | |]; try destruct es; try contradiction; reflexivity).
           rewrite Fn in X. destruct X.
      * cbn [filter noisy strip_late] in Ho. rewrite Qq in Ho. destruct Ho as [<-|[]]. destruct Hso as [<-|[]]. left. reflexivity.
    + rewrite Q1, WrF. reflexivity.
    + intros sid rq H. apply in_app_or in H. destruct H as [H|[H|H]]; [exact (Dnd sid rq H) | discriminate | exact (Qnd sid rq H)].
  - (* nothing more *)
    destruct (Spec [] ltac:(intros o []) eq_refl) as (CLs & Q1 & Q2 & Q3). cbn [app] in CLs, Q1, Q2, Q3.
    replace (sstate_eqb (st_state s5) SClosed) with true in E by reflexivity.
    apply (G_close' c s ph fr ec' (sc_strms c2) l' h' s5 cR (ORst (sf_sid fr) code :: dq) HS Hsl SQ Od HB Hid KFR); try assumption;
      unfold spec_after, react; rewrite ?CLs; cbn [resolve]; try exact Q2; try exact Q3.
    + destruct Hdi as [X|X]; [left; split; [reflexivity | exact X]|]. right. left. unfold cR. rewrite sc_discardID_write_reset. exact X.
    + intro Hne. apply (Kd2 s5 eq_refl eq_refl Hne).
    + intros o [<-|H]; [reflexivity | apply Qng, H].
    + left. exact Ha.
    + apply outs_on_of. intros o Ho so Hso. cbn [filter noisy strip_late] in Ho. rewrite Qq in Ho. destruct Ho as [<-|[]]. destruct Hso as [<-|[]]. left. reflexivity.
    + rewrite Q1. reflexivity.
    + intros sid rq [H|H]; [discriminate | exact (Qnd sid rq H)].
Qed.

(* the state handleState computes, as a function of the frame type, END_STREAM and the old state *)
Definition hs_state (k : fkind) (es : bool) (x : sstate) : sstate :=
  if fkind_eqb k KRst then SClosed
  else match x with
       | SIdle => if fkind_eqb k KHeaders then (if es then SHalfClosed else SOpen) else SIdle
       | SOpen => if (fkind_eqb k KData || fkind_eqb k KHeaders) && es then SHalfClosed else SOpen
       | o => o
       end.

Lemma handle_state_st fr s : st_state (handle_state fr s) = hs_state (sf_kind fr) (flag_has (sf_flags fr) FL_ES) (st_state s).
Proof.
  unfold handle_state, hs_state. destruct s. cbn. destruct (sf_kind fr); cbn; destruct st_state; cbn;
    try destruct (flag_has (sf_flags fr) FL_ES); reflexivity.
Qed.

Lemma handle_state_fin fr s : st_headersFinished (handle_state fr s) = st_headersFinished s.
Proof. rewrite handle_state_set. reflexivity. Qed.

Lemma phase_of_handle fr s : phase_of (handle_state fr s) =
  match hs_state (sf_kind fr) (flag_has (sf_flags fr) FL_ES) (st_state s), st_headersFinished s with
  | SOpen, false => RS.PHead false
  | SOpen, true => RS.PBody
  | SHalfClosed, false => RS.PHead true
  | SHalfClosed, true => RS.PDone
  | _, _ => RS.PBad
  end.
Proof. unfold phase_of. rewrite handle_state_st, handle_state_fin. reflexivity. Qed.

End Known.
