(* Proofs/SrvFlowCExactC.v - C06 completion: exact windows, part 3: every step of the model, and the theorem:
   after any events, while the stream loop and the write loop run, the server's send windows ARE the windows of
   the peer's ledger (grants counted when the stream loop applies them, DATA when it is queued). *)
From H2V Require Import Base.Bytes Base.MachineInt Base.Result Gen.GenConsts Impl.ServerConn Proofs.SrvBase
  Spec.FlowLedger Proofs.SrvFlowLedger Proofs.SrvFlowDefs Proofs.SrvFlowSend Proofs.SrvFlowEff Proofs.SrvFlowSafe
  Proofs.SrvFlowSafeB Proofs.SrvFlowSafeC Proofs.SrvFlowRecv Proofs.SrvFlowStall Proofs.SrvFlowCDecomp Proofs.SrvFlowCRing
  Proofs.SrvFlowCMono Proofs.SrvFlowCExact Proofs.SrvFlowCExactB.
From Coq Require Import ZArith Lia ZifyN ZifyNat ZifyBool List.
Import ListNotations.
Local Open Scope N_scope.
Set Default Proof Using "Type".

Section Exact3.
Variable hstate : Type.
Variable dec_field : hstate -> N -> bytes -> dec_res hstate.
Variable enc_field : hstate -> bytes -> bytes -> bool -> bytes * hstate.
Variable enc_set_max : hstate -> N -> hstate.
Variable cfg : config.
Variable h0 : hstate.
Notation sconn := (sconn hstate).
Implicit Types c : sconn.
Notation Sim := (SimX hstate None).
Notation ExX := (ExX hstate).
Notation step := (step dec_field enc_field enc_set_max cfg).
Notation tl_step := (tl_step hstate dec_field enc_field enc_set_max cfg).
Notation timeline_from := (timeline_from hstate dec_field enc_field enc_set_max cfg).
Notation Inv := (Inv hstate).
Notation RInv := (RInv hstate).
Notation GoodX := (GoodX hstate).

Definition XInv c (L : ledger) : Prop := sc_sl_done c = true \/ sc_wl_dead c = true \/ ExX None c L.

Lemma GoodX_tl c L g c' : GoodX c (lrun L g) c' ->
  sc_sl_done c' = true \/ ExX None c' (lrun L (g ++ ldatas (new_out hstate c c'))).
Proof. intros (L' & (new & E & _ & _ & ->) & H). rewrite (new_out_ext _ _ _ _ E), lrun_app. exact H. Qed.

Lemma tl_quiet c c' : out_ext quiet_out c c' -> ldatas (new_out hstate c c') = [].
Proof. intros (new & E & F). rewrite (new_out_ext _ _ _ _ E). apply ldatas_quiet, Forall_rev, F. Qed.

Lemma step_exact c e L : Inv c L -> RInv c -> XInv c L -> XInv (step c e) (lrun L (tl_step c e)).
Proof.
  intros HI HR HX. pose proof (step_Mono _ dec_field enc_field enc_set_max cfg c e) as M.
  destruct HX as [SD|[WD|X]]; [left; apply (m_sl _ _ _ M SD) | right; left; apply (m_wl _ _ _ M WD)|].
  destruct (sc_sl_done c) eqn:SD; [left; apply (m_sl _ _ _ M SD)|].
  destruct (sc_wl_dead c) eqn:WD; [right; left; apply (m_wl _ _ _ M WD)|].
  destruct HI as [HI|S]; [congruence|]. destruct HR as [HR|HR]; [congruence|].
  unfold SrvFlowDefs.tl_step.
  assert (QQ : forall c', out_ext quiet_out c c' -> sl_takes hstate c e = None -> ExX None c' L ->
               XInv c' (lrun L (match sl_takes hstate c e with Some fr => lgrants_of fr | None => [] end ++ ldatas (new_out hstate c c')))).
  { intros c' O T X'. rewrite T, (tl_quiet _ _ O). right; right. exact X'. }
  destruct e as [i| |sid r|t| | | |].
  - rewrite step_EvRL. destruct (sc_rl_done c); [apply QQ; [apply out_ext_refl | reflexivity | exact X]|].
    destruct (rl_step_eff _ cfg c i) as [[r1 r2 r3 r4 r5 r6 r7 r8 r9 r10] _].
    apply QQ; [exact r10 | reflexivity|]. eapply ExX_same; [exact r1 | exact r3 | rewrite r6; flia | exact X].
  - rewrite step_EvSL. cbn [sl_takes]. rewrite SD.
    destruct (sc_readerQ c) as [|fr q] eqn:RQ; cbn [hd_error].
    + destruct (sc_rl_done c); [left; reflexivity|]. rewrite (new_out_same _ c c eq_refl). right; right. exact X.
    + assert (S' : Sim (upd_readerQ c q) L) by (eapply SimX_same; [..|exact S]; reflexivity).
      assert (X' : ExX None (upd_readerQ c q) L) by (eapply ExX_same; [..|exact X]; sc_cbn; try reflexivity; flia).
      assert (R' : RI hstate (upd_readerQ c q)) by (revert HR; apply RIP_same; sc_cbn; try reflexivity; flia).
      pose proof (sl_frame_exact _ dec_field enc_set_max cfg (upd_readerQ c q) fr L S' X' R' WD) as G.
      apply GoodX_tl in G. destruct G as [G|G]; [left; exact G | right; right; exact G].
  - rewrite step_EvDone. cbn [sl_takes app]. rewrite SD.
    pose proof (sl_done_exact _ enc_field cfg c sid r L S X WD) as G.
    apply (GoodX_tl c L []) in G. destruct G as [G|G]; [left; exact G | right; right; exact G].
  - rewrite step_EvClock. destruct (sc_now c <? t)%Z; (apply QQ; [apply out_ext_same; reflexivity | reflexivity|]); [|exact X].
    eapply ExX_same; [..|exact X]; sc_cbn; try reflexivity; flia.
  - rewrite step_EvTimer. rewrite SD. unfold sl_timer.
    destruct (cf_maxRequestTime cfg <=? 0)%Z; cbn [fst cont]; [apply QQ; [apply out_ext_refl | reflexivity | exact X]|].
    pose proof (close_heads_Closes _ (count_due cfg (sc_now c) (sc_strms c)) c) as CL.
    apply QQ; [apply CL | reflexivity | eapply ExX_Closes; eassumption].
  - rewrite step_EvIdle.
    pose proof (Quiet_idle _ c) as Q.
    apply QQ; [apply Q | reflexivity | eapply ExX_Quiet; eassumption].
  - rewrite step_EvCloser. destruct (sc_closer c && negb (sc_sl_done c)); [left; reflexivity|].
    apply QQ; [apply out_ext_refl | reflexivity | exact X].
  - rewrite step_EvWriteFail. right; left. reflexivity.
Qed.

Lemma exact_from evs : forall c L, Inv c L -> RInv c -> XInv c L ->
  XInv (run_from dec_field enc_field enc_set_max cfg c evs) (lrun L (timeline_from c evs)).
Proof.
  induction evs as [|e evs IH]; intros c L HI HR HX; [exact HX|].
  rewrite run_from_cons. cbn [SrvFlowDefs.timeline_from]. rewrite lrun_app.
  destruct (StepOK_tl _ dec_field enc_field enc_set_max cfg c e L HI) as (_ & HI' & _).
  apply IH; [exact HI' | apply step_RI, HR | apply step_exact; assumption].
Qed.

(* C06, exactness of the bookkeeping: after any events, while the stream loop and the write loop run, the connection
   send window and the send window of every stream of the table are the windows of the peer's ledger *)
Theorem windows_exact evs :
  let c := run dec_field enc_field enc_set_max cfg h0 evs in
  let L := lrun ledger0 (timeline hstate dec_field enc_field enc_set_max cfg h0 evs) in
  sc_sl_done c = false -> sc_wl_dead c = false ->
  l_conn L = sc_clientWindow c /\ forall s, In s (sc_strms c) -> l_strm L (st_id s) = Some (st_window s).
Proof.
  cbv zeta. intros SD WD.
  assert (X : XInv (run dec_field enc_field enc_set_max cfg h0 evs)
                   (lrun ledger0 (timeline hstate dec_field enc_field enc_set_max cfg h0 evs))).
  { rewrite run_eq. unfold timeline. apply exact_from; [apply Inv_init | |].
    - right. split; [intros e [] | intros s []].
    - right; right. constructor; cbn; [reflexivity | intros s [] | reflexivity]. }
  destruct X as [X|[X|X]]; [congruence | congruence|].
  split; [symmetry; apply (x_conn _ _ _ _ X)|]. intros s Hs. apply (x_strm _ _ _ _ X s Hs). discriminate.
Qed.

End Exact3.
