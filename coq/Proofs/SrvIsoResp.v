(* Proofs/SrvIsoResp.v - C01 (b): what the peer is sent when a handler returns (sl_done), for a buffered body
   that the flow-control windows admit at once: HEADERS carrying response_block of the status and the fields,
   then DATA frames whose payloads concatenate to the body, END_STREAM exactly on the last frame (on HEADERS when
   there is no body), then the stream is released; nothing else on the stream. *)
From H2V Require Import Base.Bytes Base.MachineInt Base.Result Gen.GenConsts Impl.ServerConn Proofs.SrvBase
  Proofs.SrvFlowSend Proofs.SrvIsoMoves.
From Coq Require Import ZArith Lia ZifyN ZifyNat ZifyBool.
Local Open Scope N_scope.

(* DATA frames for a list of chunks: END_STREAM on the last one only *)
Fixpoint data_outs (sid : N) (chunks : list bytes) : list outev :=
  match chunks with
  | [] => []
  | [ch] => [OData sid true ch]
  | ch :: t => OData sid false ch :: data_outs sid t
  end.

Lemma data_outs_cons sid ch t : t <> [] -> data_outs sid (ch :: t) = OData sid false ch :: data_outs sid t.
Proof. destruct t; [congruence | reflexivity]. Qed.

Definition chunk_ok (ch : bytes) : Prop := ch <> [] /\ len ch <= maxDataFrameSize.

Section Resp.
Variable hstate : Type.
Variable enc_field : hstate -> bytes -> bytes -> bool -> bytes * hstate.
Variable cfg : config.
Notation sconn := (sconn hstate).
Implicit Types c : sconn.

Lemma len_pos_cons (x : N) (b : bytes) : 0 < len (x :: b).
Proof. unfold len. cbn [length]. lia. Qed.

(* a buffered body that fits the windows goes out at once *)
Lemma send_data_loop_buffered fuel : forall c sid n,
  sn_bodyStream n = None -> sn_pendingEnd n = true -> sn_pending n <> [] ->
  sc_wl_dead c = false -> sc_sl_done c = false ->
  (Z.of_N (len (sn_pending n)) <= sn_window n)%Z -> (Z.of_N (len (sn_pending n)) <= sc_clientWindow c)%Z ->
  (N.to_nat (len (sn_pending n) / maxDataFrameSize) < fuel)%nat ->
  exists chunks, concat chunks = sn_pending n /\ chunks <> [] /\ Forall chunk_ok chunks /\
    let r := send_data_loop fuel c sid n in
    sc_out (fst (fst (fst r))) = rev (data_outs sid chunks) ++ sc_out c /\
    snd (fst r) = true /\ snd r = false /\ sn_pending (snd (fst (fst r))) = [] /\
    sn_bodyStream (snd (fst (fst r))) = None /\
    upd_out (upd_clientWindow (fst (fst (fst r))) 0) [] = upd_out (upd_clientWindow c 0) [].
Proof.
  induction fuel as [|fuel IH]; intros c sid n BS PE PN W Hd LW LC LF; [exfalso; apply (Nat.nlt_0_r _ LF)|].
  rewrite send_data_loop_S. destruct (sn_pending n) as [|x p] eqn:EP; [congruence|]. rewrite <- EP in *.
  assert (LP : 0 < len (sn_pending n)) by (rewrite EP; apply len_pos_cons).
  unfold sd_go. unfold sd_avail. rewrite zmin_min.
  replace (Z.min (sn_window n) (sc_clientWindow c) <=? 0)%Z with false by lia.
  assert (ST : sd_step c n = Z.min (Z.of_N maxDataFrameSize) (Z.of_N (len (sn_pending n)))).
  { unfold sd_step, sd_avail. rewrite !zmin_min. lia. }
  assert (CH : sd_chunk c n ++ sd_rest c n = sn_pending n) by apply sd_chunk_rest.
  assert (LCk : len (sd_chunk c n) = N.min maxDataFrameSize (len (sn_pending n))).
  { unfold sd_chunk. rewrite len_takeN, ST. lia. }
  assert (LR : len (sd_rest c n) = len (sn_pending n) - N.min maxDataFrameSize (len (sn_pending n))).
  { unfold sd_rest. rewrite len_dropN, ST. lia. }
  assert (CK : chunk_ok (sd_chunk c n)).
  { split; [|rewrite LCk; lia]. intro E. rewrite E in LCk. unfold len in LCk at 1. cbn [length] in LCk. unfold maxDataFrameSize in *. lia. }
  assert (OUT : sc_out (sd_c2 c sid n) = OData sid (sd_es c n) (sd_chunk c n) :: sc_out c).
  { unfold sd_c2. sc_cbn. rewrite sc_out_emit, W, Hd. reflexivity. }
  unfold sd_es. rewrite PE. cbn [andb].
  destruct (sd_rest c n) as [|y rest] eqn:ER.
  - (* the last chunk *)
    exists [sd_chunk c n]. cbn [concat]. rewrite app_nil_r. rewrite app_nil_r in CH.
    split; [exact CH|]. split; [discriminate|]. split; [constructor; [exact CK | constructor]|].
    cbn [fst snd data_outs rev app]. unfold sd_es in OUT. rewrite PE, ER in OUT. cbn [andb] in OUT.
    split; [exact OUT|]. repeat split.
    + unfold sd_n'. cbn [sn_pending]. exact ER.
    + unfold sd_n'. cbn [sn_bodyStream]. exact BS.
    + unfold sd_c2, emit. rewrite W, Hd. reflexivity.
  - (* more to come *)
    rewrite <- ER in *.
    assert (RN : sd_rest c n <> []) by (rewrite ER; discriminate).
    destruct (IH (sd_c2 c sid n) sid (sd_n' c n)) as (chunks & CC & CN & CF & R).
    + exact BS.
    + exact PE.
    + exact RN.
    + unfold sd_c2, emit. rewrite W, Hd. sc_cbn. exact W.
    + unfold sd_c2, emit. rewrite W, Hd. sc_cbn. exact Hd.
    + unfold sd_n'. cbn [sn_pending sn_window]. rewrite ST. lia.
    + unfold sd_n', sd_c2. cbn [sn_pending]. sc_cbn. rewrite ST. lia.
    + unfold sd_n'. cbn [sn_pending]. rewrite LR.
      assert (len (sn_pending n) > maxDataFrameSize).
      { destruct (N.le_gt_cases (len (sn_pending n)) maxDataFrameSize) as [L|L]; [|lia].
        exfalso. rewrite N.min_r in LR by exact L. rewrite N.sub_diag in LR. rewrite ER in LR. pose proof (len_pos_cons y rest). lia. }
      rewrite N.min_l by lia. unfold maxDataFrameSize in *.
      assert ((len (sn_pending n) - 16384) / 16384 = len (sn_pending n) / 16384 - 1).
      { replace (len (sn_pending n)) with ((len (sn_pending n) - 16384) + 1 * 16384) at 2 by lia. rewrite N.div_add by lia. lia. }
      assert (1 <= len (sn_pending n) / 16384) by (apply N.div_le_lower_bound; lia). lia.
    + exists (sd_chunk c n :: chunks). cbn [concat]. rewrite CC. cbn [sd_n' sn_pending].
      split; [exact CH|]. split; [discriminate|]. split; [constructor; assumption|].
      cbv zeta in R. destruct R as (RO & RD & RW & RP & RB & RC).
      rewrite (data_outs_cons sid _ chunks CN). cbn [rev]. rewrite <- app_assoc. cbn [app].
      assert (ES : sd_es c n = false) by (unfold sd_es; rewrite PE; destruct (sd_rest c n); [congruence | reflexivity]).
      rewrite ES in OUT.
      split; [rewrite RO, OUT; reflexivity|]. repeat split; try assumption.
      rewrite RC. unfold sd_c2, emit. rewrite W, Hd. reflexivity.
Qed.

Definition no_body (b : bytes) : bool := match b with [] => true | _ => false end.

(* C01 (b): the handler of an open stream returns a response with a buffered body *)
Theorem sl_done_buffered c sid s r b :
  take_stream (sc_gone c) sid = None -> strms_search (sc_strms c) sid = Some s -> st_handlerRunning s = true ->
  rs_body r = BBuffered b -> st_bodyStream s = None ->
  sc_wl_dead c = false -> sc_sl_done c = false ->
  (Z.of_N (len b) <= st_window s)%Z -> (Z.of_N (len b) <= sc_clientWindow c)%Z ->
  exists chunks tail,
    concat chunks = b /\ Forall chunk_ok chunks /\ (tail = [] \/ tail = [OExit 1 0]) /\
    sc_out (fst (sl_done enc_field cfg c sid r)) =
      tail ++ ORelease sid true :: rev (data_outs sid chunks) ++
      OHeaders sid (no_body b) (fst (response_block enc_field (sc_enc c) r)) :: sc_out c /\
    sc_enc (fst (sl_done enc_field cfg c sid r)) = snd (response_block enc_field (sc_enc c) r) /\
    sc_strms (fst (sl_done enc_field cfg c sid r)) = strms_del (sc_strms c) sid.
Proof.
  intros TG SS Run RB BS W Hd LW LC. destruct (strms_search_In _ _ _ SS) as [_ Ei].
  unfold sl_done. rewrite TG, SS, Run. cbn [negb].
  set (s1 := set_flags s (st_responded s) false (st_abandoned s)).
  unfold finish_request. rewrite RB.
  destruct (response_block enc_field (sc_enc c) r) as [blk e'] eqn:RBK. cbn [fst snd].
  set (c1 := emit (upd_enc c e') (OHeaders (st_id s1) (negb (match b with [] => false | _ => true end)) blk)).
  assert (O1 : sc_out c1 = OHeaders sid (no_body b) blk :: sc_out c).
  { unfold c1. rewrite sc_out_emit. sc_cbn. rewrite W, Hd. cbn [s1 set_flags st_id]. rewrite Ei. destruct b; reflexivity. }
  assert (FIN : forall c2 (x : stream) outs, st_id x = sid -> st_handlerRunning x = false ->
            sc_out c2 = outs ++ sc_out c1 -> sc_strms c2 = sc_strms c -> sc_enc c2 = e' ->
            exists tail, (tail = [] \/ tail = [OExit 1 0]) /\
              sc_out (fst (let c3 := close_stream (put c2 (set_state x SClosed)) (set_state x SClosed) in
                           if sc_closing c3 && can_close_after_goaway c3 then brk c3 else cont c3)) =
              tail ++ ORelease sid true :: outs ++ sc_out c1 /\
              sc_enc (fst (let c3 := close_stream (put c2 (set_state x SClosed)) (set_state x SClosed) in
                           if sc_closing c3 && can_close_after_goaway c3 then brk c3 else cont c3)) = e' /\
              sc_strms (fst (let c3 := close_stream (put c2 (set_state x SClosed)) (set_state x SClosed) in
                           if sc_closing c3 && can_close_after_goaway c3 then brk c3 else cont c3)) = strms_del (sc_strms c) sid).
  { intros c2 x outs Ex Rx EO ES EE. cbv zeta.
    set (c3 := close_stream (put c2 (set_state x SClosed)) (set_state x SClosed)).
    assert (O3 : sc_out c3 = ORelease sid true :: outs ++ sc_out c1).
    { unfold c3. rewrite sc_out_close_stream. cbn [set_state st_handlerRunning st_id]. rewrite Rx, Ex, sc_out_put, EO. reflexivity. }
    assert (E3 : sc_enc c3 = e') by (unfold c3; rewrite sc_enc_close_stream; exact EE).
    assert (S3 : sc_strms c3 = strms_del (sc_strms c) sid).
    { unfold c3. rewrite sc_strms_close_stream, sc_strms_put, ES. cbn [set_state st_id]. rewrite <- Ex.
      exact (strms_del_put (sc_strms c) (set_state x SClosed)). }
    destruct (sc_closing c3 && can_close_after_goaway c3)%bool.
    - exists [OExit 1 0]. split; [auto|]. unfold brk, note. sc_cbn. rewrite O3, E3, S3. auto.
    - exists []. split; [auto|]. cbn [cont fst app]. auto. }
  destruct b as [|x0 b0].
  - (* no body: END_STREAM is on HEADERS *)
    cbn [negb]. destruct (FIN c1 s1 []) as (tail & TL & TO & TE & TS); try reflexivity.
    + exact Ei.
    + unfold c1. rewrite emit_eq. reflexivity.
    + unfold c1. rewrite emit_eq. reflexivity.
    + exists [], tail. split; [reflexivity|]. split; [constructor|]. split; [exact TL|].
      cbn [data_outs rev app] in *. rewrite <- O1. auto.
  - cbn [negb]. set (b := x0 :: b0) in *.
    set (n := mkSnd (st_window s1) b true (st_bodyStream s1) (st_bodySize s1) (st_bodyRead s1)).
    unfold send_data. replace (get_snd (set_snd s1 n)) with n by reflexivity.
    destruct (send_data_loop_buffered (send_data_fuel n) c1 (st_id (set_snd s1 n)) n) as (chunks & CC & CN & CF & R).
    + exact BS.
    + reflexivity.
    + discriminate.
    + unfold c1. rewrite emit_eq. exact W.
    + unfold c1. rewrite emit_eq. exact Hd.
    + exact LW.
    + unfold c1. rewrite emit_eq. exact LC.
    + unfold send_data_fuel. cbn [n sn_pending sn_bodyStream]. replace (st_bodyStream s1) with (@None (list (bytes * rerr))) by (symmetry; exact BS). lia.
    + cbv zeta in R. destruct (send_data_loop (send_data_fuel n) c1 (st_id (set_snd s1 n)) n) as [[[c2 n2] dn] wr].
      cbn [fst snd] in R. destruct R as (RO & RD & RW & RP & RBS & RC). subst dn wr.
      destruct (FIN c2 (set_snd (set_snd s1 n) (mkSnd (sn_window n2) (sn_pending n2) (sn_pendingEnd n2) None (sn_bodySize n2) (sn_bodyRead n2)))
                    (rev (data_outs (st_id (set_snd s1 n)) chunks))) as (tail & TL & TO & TE & TS).
      * exact Ei.
      * reflexivity.
      * exact RO.
      * assert (E : sc_strms (upd_out (upd_clientWindow c2 0) []) = sc_strms (upd_out (upd_clientWindow c1 0) [])) by (rewrite RC; reflexivity).
        sc_cbn_in E. rewrite E. unfold c1. rewrite emit_eq. reflexivity.
      * assert (E : sc_enc (upd_out (upd_clientWindow c2 0) []) = sc_enc (upd_out (upd_clientWindow c1 0) [])) by (rewrite RC; reflexivity).
        sc_cbn_in E. rewrite E. unfold c1. rewrite emit_eq. reflexivity.
      * exists chunks, tail. split; [exact CC|]. split; [exact CF|]. split; [exact TL|].
        cbn [fst snd]. replace (st_id (set_snd s1 n)) with sid in * by (symmetry; exact Ei).
        rewrite <- O1. auto.
Qed.

End Resp.
