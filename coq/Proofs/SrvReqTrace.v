(* Proofs/SrvReqTrace.v - C01, the trace-level statement for one request (Props/C01.v, theorems C01_request_integrity_progress and C01_request_integrity_hpack):
   from any state reached by a clean run that is ready for a new request on sid, the frames of one well-formed request,
   fed in lock-step, make the trace gain exactly one ODispatch sid rq, rq = the fields of the block read as a request
   with the DATA payloads as body.
   Route: (1) such a state is `ready` in the sense of Proofs/SrvMsgStream.v (the invariants of clean runs: Proofs/SrvIsoRun.v
   run_inv, Proofs/SrvInvSlots.v, and Proofs/SrvReqTraceI.v for the ring cursor and the absence of idle streams); (2) the reference decoding of the
   statement is the decoding relation of Proofs/SrvMsgDefs.v when every decoded field consumes input (hypothesis `progress`;
   Proofs/SrvIsoInst.v srv_dec_shrinks for the real HPACK decoder); (3) what hfold accepts is what the validation automaton
   accepts; (4) a clean run carries nothing over the header-list limit across a frame boundary (Proofs/SrvReqTraceB.v);
   then Proofs/SrvMsgReq.v request_run gives the dispatch, the window updates before it, and nothing else. *)
From H2V Require Import Base.Bytes Base.MachineInt Base.Result Gen.GenConsts Impl.ServerConn Spec.Http2Messages
  Proofs.SrvBase Proofs.SrvMsgDefs Proofs.SrvMsgPure Proofs.SrvMsgLoop Proofs.SrvMsgStream Proofs.SrvMsgPhase
  Proofs.SrvMsgReq Proofs.SrvMsgC20 Proofs.SrvInvSlots Proofs.SrvIsoRef Proofs.SrvIsoMoves Proofs.SrvIsoSteps Proofs.SrvIsoHdr
  Proofs.SrvIsoHdrStep Proofs.SrvIsoRun Proofs.SrvIsoReq.
From H2V Require Import Proofs.SrvReqTraceA Proofs.SrvReqTraceB Proofs.SrvReqTraceI.
From H2V Require Import Impl.Hpack Impl.ServerInst Proofs.SrvIsoInst.
From Coq Require Import ZArith Lia ZifyN ZifyNat ZifyBool List.
Import ListNotations.
Local Open Scope N_scope.

Section C.
Variable hstate : Type.
Variable dec_field : hstate -> N -> bytes -> dec_res hstate.
Variable enc_field : hstate -> bytes -> bytes -> bool -> bytes * hstate.
Variable enc_set_max : hstate -> N -> hstate.
Variable cfg : config.
Variable h0 : hstate.
Hypothesis progress : forall d n b k v rest d1, dec_field d n b = DField hstate k v rest d1 -> (length rest < length b)%nat.
Notation sconn := (sconn hstate).
Notation run := (run dec_field enc_field enc_set_max cfg h0).
Notation run_from := (run_from dec_field enc_field enc_set_max cfg).
Notation clean := (clean dec_field enc_field enc_set_max cfg h0).
Notation feeds := (feeds dec_field enc_field enc_set_max cfg).

(* a state reached by a clean run, ready in the sense of the statement, is `ready` *)
Lemma ready_of_clean evs0 sid :
  clean evs0 ->
  N.land sid 1 = 1 -> sc_highestID (run evs0) < sid -> (sc_open (run evs0) < cf_maxStreams cfg)%Z -> sc_closing (run evs0) = false ->
  sc_sl_done (run evs0) = false -> sc_rl_done (run evs0) = false -> sc_wl_dead (run evs0) = false ->
  sc_readerQ (run evs0) = [] -> sc_expectCont (run evs0) = 0 ->
  ready cfg (run evs0) sid.
Proof.
  intros CL O HI OP NC Hsl Hrl Hwl RQ EC.
  destruct (RES_run _ dec_field enc_field enc_set_max cfg h0 evs0 CL) as [OLD NI]. specialize (NI Hsl).
  assert (NZ : sid <> 0) by (intro; subst; discriminate).
  destruct (run_inv _ dec_field enc_field enc_set_max cfg h0 evs0 CL) as (n & carry & _ & IHd).
  destruct (IHd Hsl) as [G (fin & Wk & F)]. rewrite RQ in Wk. cbn [qwalk] in Wk. inversion Wk as [E]. specialize (F Hrl).
  assert (C0 : cur_of (hframes dec_field enc_field enc_set_max cfg h0 evs0) = 0) by congruence.
  pose proof (hg_inv _ _ _ _ _ G) as HV. rewrite C0 in HV. destruct HV as [ND FP IDS LAST DISC RING].
  assert (AH : forall s, In s (sc_strms (run evs0)) -> st_headersFinished s = true).
  { apply all_hf_of_P0; [intros s Is; apply IDS; exact Is | exact FP]. }
  apply (ready_reachable _ dec_field enc_field enc_set_max cfg h0); try assumption.
  - apply run_reachable.
  - destruct (in_ring (run evs0) sid) eqn:IR; [|reflexivity]. exfalso.
    unfold in_ring in IR. apply existsb_exists in IR. destruct IR as (e & Ie & Ee). specialize (RING e Ie). lia.
  - intro Ed. assert (D0 : sc_discardID (run evs0) <> 0) by congruence. destruct (DISC D0) as [_ LE]. lia.
  - apply Forall_forall. intros x Ix _. split; [apply AH; exact Ix|]. rewrite Forall_forall in NI. apply NI. exact Ix.
Qed.

Lemma lockstep_app a b : lockstep (a ++ b) = lockstep a ++ lockstep b.
Proof. unfold lockstep. apply flat_map_app. Qed.

Lemma lo0 : list_over cfg 0 = false.
Proof. unfold list_over. lia. Qed.

Theorem request_integrity_core evs0 sid hfrags chunks fs n1 hF :
  let c0 := run evs0 in
  let evs := flat_map (fun f => [EvRL (RFrame f); EvSL]) (req_frames1 sid hfrags chunks) in
  clean (evs0 ++ evs) ->
  N.land sid 1 = 1 -> sc_highestID c0 < sid -> (sc_open c0 < cf_maxStreams cfg)%Z -> sc_closing c0 = false ->
  sc_sl_done c0 = false -> sc_rl_done c0 = false -> sc_wl_dead c0 = false -> sc_readerQ c0 = [] -> sc_expectCont c0 = 0 ->
  ref_frames_fs dec_field (sc_dec c0, 0, []) (filter is_hdr_frame (req_frames1 sid hfrags chunks)) fs
                (sc_dec (run (evs0 ++ evs)), n1, []) ->
  hfold cfg (hh1 (new_stream sid (sc_initWin c0)) (mkSFrame KHeaders 0 sid 0 [] 0 0 0 false 0 false 0)) fs = Some hF ->
  hd_pMethod hF = true -> hd_pScheme hF = true -> hd_pPath hF = true -> hd_path hF <> [] ->
  ((0 <? cf_maxBody cfg) && (cf_maxBody cfg <? Z.of_N (len (concat chunks))))%Z = false ->
  (hd_hasCL hF = true -> hd_contentLength hF = Z.of_N (len (concat chunks))) ->
  exists pre post,
    trace (run (evs0 ++ evs)) =
    trace c0 ++ pre ++ ODispatch sid (rq_append_body (request_of empty_req fs) (concat chunks)) :: post /\
    (forall rq, ~ In (ODispatch sid rq) (pre ++ post)).
Proof.
  intros c0 evs CL O HI OP NC Hsl Hrl Hwl RQ EC RF HFo PM PS PP PT BL CLn.
  change (hh1 (new_stream sid (sc_initWin c0)) (mkSFrame KHeaders 0 sid 0 [] 0 0 0 false 0 false 0)) with h_init in HFo.
  assert (NZ : sid <> 0) by (intro; subst; discriminate).
  assert (NE : hfrags <> []).
  { (* no HEADERS frame: nothing decodes to an accepted request *)
    intro EHf. rewrite EHf in RF. cbn [req_frames1 filter] in RF. destruct (rff_nil_inv _ _ _ _ _ RF) as [-> _].
    cbn [hfold] in HFo. inversion HFo; subst hF. discriminate PM. }
  unfold evs in *. rewrite (req_frames1_eq sid hfrags chunks NE) in *. fold (lockstep (req_frames sid hfrags chunks None)) in *.
  pose proof (proj1 (clean_from_app _ _ _ _ _ _ _ _) CL) as [CL0 _].
  pose proof (ready_of_clean evs0 sid CL0 O HI OP NC Hsl Hrl Hwl RQ EC) as R0. fold c0 in R0.
  (* the block decodes, in the vocabulary of the lock-step development *)
  rewrite (filter_req_frames sid hfrags chunks NZ) in RF.
  destruct (block_frames_block_dec _ dec_field progress sid (is_nil chunks) hfrags (sc_dec c0) fs _ NE RF eq_refl) as (carries & B).
  cbn [fst snd] in B. set (d' := sc_dec (run (evs0 ++ lockstep (req_frames sid hfrags chunks None)))) in *.
  (* every field is accepted *)
  destruct (hfold_vrun cfg fs h_init hF HFo lo0) as (st' & VR & EhF).
  change (vabs h_init) with v0 in VR. change (hd_headerListSize h_init) with 0%Z in EhF.
  pose proof (hfold_size cfg fs h_init hF HFo lo0) as LO. change (hd_headerListSize h_init) with 0%Z in LO. rewrite Z.add_0_l in LO.
  (* nothing over the limit is carried over a frame boundary *)
  assert (CO : carries_over cfg carries = false).
  { apply (block_carries _ dec_field enc_field enc_set_max cfg h0 c0 sid R0 evs0 (is_nil chunks) hfrags fs d' carries st' eq_refl B);
      [|exact LO | exact VR].
    unfold req_frames in CL. rewrite lockstep_app, app_assoc in CL.
    exact (proj1 (proj1 (clean_from_app _ _ _ _ _ _ _ _) CL)). }
  pose proof (request_run _ dec_field enc_field enc_set_max cfg c0 sid R0 hfrags chunks None fs [] d' d' carries [] B
                          (conj eq_refl (conj eq_refl eq_refl))) as OUT.
  cbv zeta in OUT.
  assert (LIM : within_limits cfg fs [] (carries ++ []) (len (concat chunks)) = true).
  { rewrite within_limits_eq. unfold hlimit. cbn [fsize fold_right carries_over existsb]. rewrite Z.add_0_r, LO, CO.
    unfold body_over. rewrite BL. reflexivity. }
  assert (ACC : vacc2 cfg v0 fs [] (len (concat chunks)) = true).
  { unfold vacc2. rewrite VR. unfold vacc. cbn [vrun].
    assert (E1 : v_m st' = true) by (rewrite <- PM, EhF; reflexivity).
    assert (E2 : v_s st' = true) by (rewrite <- PS, EhF; reflexivity).
    assert (E3 : v_p st' = true) by (rewrite <- PP, EhF; reflexivity).
    assert (E4 : v_path st' <> []) by (intro X; apply PT; rewrite EhF; exact X).
    unfold v_valid. rewrite E1, E2, E3. destruct (v_path st') eqn:VP; [congruence|]. cbn [is_nil negb andb].
    unfold v_cl_ok, v_setr. cbn [v_has v_cl]. destruct (v_has st') eqn:VH; [|reflexivity].
    assert (E5 : hd_hasCL hF = true) by (rewrite EhF; exact VH).
    specialize (CLn E5). rewrite EhF in CLn. cbn [hdr_of hd_contentLength] in CLn. rewrite CLn. apply Z.eqb_refl. }
  unfold outcome in OUT. rewrite LIM, ACC in OUT. cbn [andb] in OUT.
  destruct OUT as (st & size & nf & _ & _ & _ & _ & _ & l & Eo & Fo).
  rewrite <- (run_from_lockstep _ dec_field enc_field enc_set_max cfg) in Eo. unfold c0 in Eo. rewrite <- run_app in Eo.
  (* the request *)
  assert (RQe : final_req fs chunks [] = rq_append_body (request_of empty_req fs) (concat chunks)).
  { unfold final_req. cbn [req_fold fold_left]. f_equal.
    destruct (hfold_request cfg h_init fs hF HFo eq_refl eq_refl eq_refl eq_refl) as (Er & _).
    change (hd_req h_init) with empty_req in Er. rewrite <- Er, EhF. reflexivity. }
  exists (rev l), []. split.
  - unfold trace. rewrite Eo, RQe. cbn [rev]. rewrite rev_app_distr, <- app_assoc. reflexivity.
  - intros rq I. rewrite app_nil_r in I. apply in_rev in I. rewrite Forall_forall in Fo. exact (Fo _ I).
Qed.

End C.

(* the real HPACK decoder: no hypothesis on the coder is left *)
Definition request_integrity_hpack :=
  fun enc_field enc_set_max cfg h0 => request_integrity_core hpack_state srv_dec_field enc_field enc_set_max cfg h0 srv_dec_shrinks.
