(* C03: readString against RFC 7541 5.2 (spec_dec_str), and its structural properties. *)
From Coq Require Import List NArith ZArith Bool Lia.
From H2V Require Import Base.Bytes Base.MachineInt Base.Result Gen.GenConsts Impl.Huffman Impl.Hpack
     Spec.Rfc7541Huffman Spec.Rfc7541 Proofs.HuffmanDecode Proofs.HpackBytes Proofs.HpackInt Proofs.HpackSpecHuff.
Import ListNotations.
Local Open Scope N_scope.
Local Opaque huffman_root.

(* the error classes of HuffmanDecode (any table) *)
Definition huff_class (e : N) : Prop := e = E_huff_index \/ e = E_huff_left \/ e = E_huff_zero.

Lemma dec_inner_err : forall fuel root s e, dec_inner fuel root s = Err e -> huff_class e.
Proof.
  induction fuel as [|fuel IH]; intros root s e H; [discriminate|].
  rewrite dec_inner_S in H.
  destruct (8 <=? d_bits s); [|discriminate].
  cbv zeta in H.
  destruct (step_node (d_node s) (u8 (N.shiftr (d_acc s) (d_bits s - 8)))) as [[[sym cl|sub]|]|e'|w] eqn:E.
  - eapply IH; exact H.
  - eapply IH; exact H.
  - injection H as <-. left. reflexivity.
  - unfold step_node in E. destruct (d_node s); [discriminate|]. destruct (idx sub _); discriminate.
  - discriminate.
Qed.

Lemma dec_bytes_err : forall root src s e, dec_bytes root src s = Err e -> huff_class e.
Proof.
  intros root. induction src as [|b rest IH]; intros s e H; [discriminate|].
  rewrite dec_bytes_cons in H. remember 40%nat as f40 eqn:Hf. clear Hf.
  destruct (dec_inner f40 root _) as [s2|e'|w] eqn:E.
  - eapply IH; exact H.
  - injection H as <-. eapply dec_inner_err; exact E.
  - discriminate.
Qed.

Lemma dec_tail_err : forall fuel root s e, dec_tail fuel root s = Err e -> huff_class e.
Proof.
  induction fuel as [|fuel IH]; intros root s e H; [discriminate|].
  rewrite dec_tail_S in H.
  destruct (0 <? d_bits s); [|discriminate].
  cbv zeta in H.
  destruct (step_node (d_node s) (u8 (N.shiftl (d_acc s) (8 - d_bits s)))) as [[[sym cl|sub]|]|e'|w] eqn:E.
  - destruct (d_bits s <? cl); [discriminate|]. eapply IH; exact H.
  - discriminate.
  - injection H as <-. left. reflexivity.
  - unfold step_node in E. destruct (d_node s); [discriminate|]. destruct (idx sub _); discriminate.
  - discriminate.
Qed.

Lemma huffman_decode_with_err root src e : huffman_decode_with root src = Err e -> huff_class e.
Proof.
  rewrite huffman_decode_with_unfold. remember 16%nat as f16 eqn:Hf. clear Hf.
  destruct (dec_bytes root src _) as [s1|e1|w1] eqn:E1.
  - destruct (dec_tail f16 root s1) as [s2|e2|w2] eqn:E2.
    + unfold dec_finish. destruct (7 <? d_left s2).
      * intros H. injection H as <-. right. left. reflexivity.
      * destruct (_ =? _); [discriminate|]. intros H. injection H as <-. right. right. reflexivity.
    + intros H. injection H as <-. eapply dec_tail_err; exact E2.
    + discriminate.
  - intros H. injection H as <-. eapply dec_bytes_err; exact E1.
  - discriminate.
Qed.

Lemma huffman_decode_err src e : huffman_decode src = Err e -> e <> E_unexpected_size.
Proof.
  intros H. apply huffman_decode_with_err in H. destruct H as [->| [->| ->]]; discriminate.
Qed.

(* structure of readString: valid for any list of N *)
Lemma read_string_cons c b :
  read_string (c :: b) =
  match read_int 7 (c :: b) with
  | Err e => Err e
  | Panic w => Panic w
  | Ok (b1, n) =>
      if len b1 <? n then Err E_unexpected_size
      else if N.land c 128 =? 128 then
        match huffman_decode (takeN n b1) with
        | Ok dst => Ok (dropN n b1, dst)
        | Err e => Err e
        | Panic w => Panic w
        end
      else Ok (dropN n b1, takeN n b1)
  end.
Proof. reflexivity. Qed.

Lemma read_string_ok b rest s : read_string b = Ok (rest, s) ->
  exists pre, b = pre ++ rest /\ pre <> [] /\ forall y, read_string (b ++ y) = Ok (rest ++ y, s).
Proof.
  destruct b as [|c b]; [discriminate|]. rewrite read_string_cons.
  destruct (read_int 7 (c :: b)) as [[b1 n]|e|w] eqn:E; try discriminate.
  destruct (read_int_ok _ _ _ _ E) as [pre [Hb [Hne Hy]]].
  destruct (N.ltb_spec (len b1) n) as [Hlt|Hge]; [discriminate|].
  assert (Hpre : c :: b = (pre ++ takeN n b1) ++ dropN n b1)
    by (rewrite <- app_assoc, takeN_dropN; exact Hb).
  assert (Hne' : pre ++ takeN n b1 <> []) by (destruct pre; [congruence | discriminate]).
  assert (Hext : forall y, len (b1 ++ y) <? n = false)
    by (intros y; apply N.ltb_ge; rewrite len_app; lia).
  destruct (N.land c 128 =? 128) eqn:Eh.
  - destruct (huffman_decode (takeN n b1)) as [dst|e|w] eqn:Ed; try discriminate.
    intros H. injection H as <- <-. exists (pre ++ takeN n b1). split; [exact Hpre|]. split; [exact Hne'|].
    intros y. change ((c :: b) ++ y) with (c :: (b ++ y)). rewrite read_string_cons.
    change (c :: (b ++ y)) with ((c :: b) ++ y). rewrite Hy, Hext, Eh, takeN_app, Ed, dropN_app by exact Hge.
    reflexivity.
  - intros H. injection H as <- <-. exists (pre ++ takeN n b1). split; [exact Hpre|]. split; [exact Hne'|].
    intros y. change ((c :: b) ++ y) with (c :: (b ++ y)). rewrite read_string_cons.
    change (c :: (b ++ y)) with ((c :: b) ++ y). rewrite Hy, Hext, Eh, takeN_app, dropN_app by exact Hge.
    reflexivity.
Qed.

Lemma read_string_err b e : read_string b = Err e ->
  e = E_unexpected_size \/ (e <> E_unexpected_size /\ forall y, read_string (b ++ y) = Err e).
Proof.
  destruct b as [|c b]; [intros H; injection H as <-; left; reflexivity|]. rewrite read_string_cons.
  destruct (read_int 7 (c :: b)) as [[b1 n]|e'|w] eqn:E; try discriminate.
  - destruct (read_int_ok _ _ _ _ E) as [pre [Hb [Hne Hy]]].
    destruct (N.ltb_spec (len b1) n) as [Hlt|Hge]; [intros H; injection H as <-; left; reflexivity|].
    assert (Hext : forall y, len (b1 ++ y) <? n = false)
      by (intros y; apply N.ltb_ge; rewrite len_app; lia).
    destruct (N.land c 128 =? 128) eqn:Eh; [|discriminate].
    destruct (huffman_decode (takeN n b1)) as [dst|e'|w] eqn:Ed; try discriminate.
    intros H. injection H as <-. right. split; [eapply huffman_decode_err; exact Ed|].
    intros y. change ((c :: b) ++ y) with (c :: (b ++ y)). rewrite read_string_cons.
    change (c :: (b ++ y)) with ((c :: b) ++ y). rewrite Hy, Hext, Eh, takeN_app, Ed by exact Hge.
    reflexivity.
  - intros H. injection H as <-.
    destruct (read_int_err _ _ _ E) as [Hl | [He Hy]]; [left; exact Hl|]. right.
    split; [rewrite He; discriminate|].
    intros y. change ((c :: b) ++ y) with (c :: (b ++ y)). rewrite read_string_cons.
    change (c :: (b ++ y)) with ((c :: b) ++ y). rewrite Hy. reflexivity.
Qed.

Lemma read_string_ok_length b rest s : read_string b = Ok (rest, s) -> (length rest < length b)%nat.
Proof.
  intros H. destruct (read_string_ok _ _ _ H) as [pre [-> [Hne _]]]. rewrite app_length.
  destruct pre; [congruence | simpl; lia].
Qed.

(* value: RFC 7541 5.2 *)
Theorem read_string_spec b : bytes_ok b = true ->
  match spec_dec_str b with
  | Some (h, s, rest) =>
      read_string b = Ok (rest, s) /\ bytes_ok s = true /\ bytes_ok rest = true /\
      len s + 2 * len rest + 2 <= 2 * len b
  | None => exists e, read_string b = Err e
  end.
Proof.
  intros Hok. destruct b as [|c b]; [exists E_unexpected_size; reflexivity|].
  rewrite read_string_cons. cbn [spec_dec_str].
  pose proof (read_int_spec 7 (c :: b) ltac:(lia) Hok) as HI.
  destruct (spec_dec_int 7 (c :: b)) as [[n rest]|] eqn:ES.
  2:{ destruct HI as [e ->]. exists e. reflexivity. }
  destruct HI as [HI _]. rewrite HI.
  destruct (read_int_ok _ _ _ _ HI) as [pre [Hb [Hne _]]].
  assert (Hrest : bytes_ok rest = true) by (rewrite Hb in Hok; apply bytes_ok_app_iff in Hok; tauto).
  assert (Hlen : len (c :: b) >= len rest + 1).
  { rewrite Hb, len_app. destruct pre; [congruence|]. rewrite len_cons. lia. }
  apply bytes_ok_cons_iff in Hok. destruct Hok as [Hc _].
  destruct (N.ltb_spec (len rest) n) as [Hlt|Hge]; [exists E_unexpected_size; reflexivity|].
  rewrite (dispatch_128 c Hc).
  pose proof (len_dropN n rest) as Hd. pose proof (len_takeN n rest Hge) as Ht.
  destruct (128 <=? c).
  - pose proof (spec_huff_agrees (takeN n rest) (bytes_ok_takeN _ _ Hrest)) as HA.
    destruct (spec_huff_decode (takeN n rest)) as [s|] eqn:EH.
    + destruct (huffman_decode (takeN n rest)) as [s'|e|w]; try discriminate.
      injection HA as ->. split; [reflexivity|].
      destruct (spec_huff_decode_ok _ _ (bytes_ok_takeN _ _ Hrest) EH) as [Hs Hbound].
      split; [exact Hs|]. split; [apply bytes_ok_dropN; exact Hrest|].
      unfold len in *. lia.
    + destruct (huffman_decode (takeN n rest)) as [s'|e|w] eqn:ED; try discriminate.
      * exists e. reflexivity.
      * pose proof (decode_total _ (bytes_ok_takeN n _ Hrest)) as HT. rewrite ED in HT. discriminate.
  - split; [reflexivity|]. split; [apply bytes_ok_takeN; exact Hrest|].
    split; [apply bytes_ok_dropN; exact Hrest|]. lia.
Qed.

Lemma read_string_no_panic_ok b : bytes_ok b = true -> is_panic (read_string b) = false.
Proof.
  intros Hok. pose proof (read_string_spec b Hok) as H.
  destruct (spec_dec_str b) as [[[h s] rest]|].
  - destruct H as [-> _]. reflexivity.
  - destruct H as [e ->]. reflexivity.
Qed.
