(* Proofs/SrvMsgLoop.v - C20: the decoding loops of handleHeaderFrame / discardFragment, run over a fragment that the
   (abstract) decoder reads as a given field list (frag_dec): what Proofs/SrvIsoRef.v shows of the reference run. *)
From H2V Require Import Base.Bytes Base.MachineInt Base.Result Gen.GenConsts Impl.ServerConn Spec.Http2Messages
     Proofs.SrvBase Proofs.SrvIsoRef Proofs.SrvMsgDefs Proofs.SrvMsgPure.
From Coq Require Import ZArith Lia ZifyN ZifyNat ZifyBool.
Local Open Scope N_scope.

Definition add_prev (h : hdr) (carry : bytes) : hdr :=
  mkHdr (hd_headersFinished h) (hd_prev h ++ carry) (hd_pMethod h) (hd_pScheme h) (hd_pPath h) (hd_pAuth h)
        (hd_regularSeen h) (hd_contentLength h) (hd_hasCL h) (hd_headerListSize h) (hd_blockFields h) (hd_path h) (hd_req h).

Lemma hd_set_prev_add h carry : hd_set_prev h (hd_prev h ++ carry) = add_prev h carry.
Proof. reflexivity. Qed.

Lemma fields_loop_hfold cfg : forall fs h h', fields_loop cfg h fs = inr h' -> hfold cfg h fs = Some h'.
Proof.
  induction fs as [|[k v] t IH]; intros h h'; cbn [fields_loop hfold]; [intro E; inversion E; reflexivity|].
  destruct (header_field cfg h k v); [discriminate | apply IH].
Qed.

Section Loop.
Variable hstate : Type.
Variable dec_field : hstate -> N -> bytes -> dec_res hstate.
Variable cfg : config.

Notation frag_dec := (frag_dec dec_field).

(* frag_dec is the reference run of a fragment, with the promise that every field consumes input *)
Lemma frag_dec_ref eh d n b fs d' n' carry : frag_dec eh d n b fs d' n' carry -> ref_run dec_field eh d n b fs d' n' carry.
Proof. induction 1; [apply rr_nil | apply rr_none | apply rr_short | eapply rr_field]; eassumption. Qed.

Lemma frag_dec_fields eh d n b fs d' n' carry : frag_dec eh d n b fs d' n' carry -> (length fs <= length b)%nat.
Proof. induction 1; cbn [length]; lia. Qed.

(* with END_HEADERS nothing is carried over *)
Lemma frag_dec_eh d n b fs d' n' carry : frag_dec true d n b fs d' n' carry -> carry = [].
Proof. intro H. exact (ref_run_eh_carry _ dec_field _ _ _ _ _ _ _ (frag_dec_ref _ _ _ _ _ _ _ _ H)). Qed.

Lemma frag_dec_count eh d n b fs d' n' carry : frag_dec eh d n b fs d' n' carry -> n' = n + N.of_nat (length fs).
Proof. intro H. exact (ref_run_count _ dec_field _ _ _ _ _ _ _ _ (frag_dec_ref _ _ _ _ _ _ _ _ H)). Qed.

Lemma frag_dec_carry_len eh d n b fs d' n' carry : frag_dec eh d n b fs d' n' carry -> (length carry <= length b)%nat.
Proof. induction 1; cbn [length]; lia. Qed.

(* all fields accepted *)
Lemma header_loop_ok eh d n b fs d' n' carry :
  frag_dec eh d n b fs d' n' carry ->
  forall h h' fuel, hd_blockFields h = n -> fields_loop cfg h fs = inr h' -> (length b < fuel)%nat ->
  header_loop dec_field fuel cfg eh d h b = (d', add_prev h' carry, None, []).
Proof.
  intros H h h' fuel Hn Hf Hfu. rewrite <- hd_set_prev_add.
  apply (header_loop_complete _ dec_field cfg _ _ _ _ _ _ _ _ (frag_dec_ref _ _ _ _ _ _ _ _ H));
    [exact Hn | apply fields_loop_hfold; exact Hf | exact (Nat.le_lt_trans _ _ _ (frag_dec_fields _ _ _ _ _ _ _ _ H) Hfu)].
Qed.

(* a field is refused: the loop stops there; what is left of the fragment still decodes *)
Lemma header_loop_err eh d n b fs d' n' carry :
  frag_dec eh d n b fs d' n' carry ->
  forall h e fuel, hd_blockFields h = n -> fields_loop cfg h fs = inl e -> (length b < fuel)%nat ->
  exists d1 h1 rest fs2,
    header_loop dec_field fuel cfg eh d h b = (d1, h1, Some e, rest) /\
    frag_dec eh d1 (hd_blockFields h1 + 1) rest fs2 d' n' carry /\
    hd_headersFinished h1 = hd_headersFinished h /\ hd_prev h1 = hd_prev h.
Proof.
  induction 1 as [d n | d n b d' Hb Hd | d n b d' Hb He Hd | d n b k v rest d1 fs d' n' carry Hb Hd Hl Hrest IH];
    intros h e fuel Hn Hf Hfu; try (cbn [fields_loop] in Hf; discriminate).
  destruct fuel as [|fuel]; [lia|]. cbn [header_loop]. destruct b; [congruence|]. rewrite Hn, Hd.
  cbn [fields_loop] in Hf. destruct (header_field cfg h k v) as [e1|h1] eqn:E.
  - inversion Hf; subst. exists d1, h, rest, fs. repeat split; assumption.
  - destruct (header_field_inr cfg _ _ _ _ E) as (P & B & F).
    destruct (IH h1 e fuel) as (d2 & h2 & rest2 & fs2 & A1 & A2 & A3 & A4); [lia | assumption | lia |].
    exists d2, h2, rest2, fs2. repeat split; try assumption; congruence.
Qed.

Lemma discard_loop_ok eh d n b fs d' n' carry :
  frag_dec eh d n b fs d' n' carry ->
  forall fuel, (length b < fuel)%nat -> discard_loop dec_field fuel eh d n b = (d', n', carry, None).
Proof.
  intros H fuel Hfu. apply (discard_loop_complete _ dec_field _ _ _ _ _ _ _ _ (frag_dec_ref _ _ _ _ _ _ _ _ H)).
  exact (Nat.le_lt_trans _ _ _ (frag_dec_fields _ _ _ _ _ _ _ _ H) Hfu).
Qed.

Notation sconn := (sconn hstate).

(* discardFragment over a fragment that decodes *)
Lemma discard_fragment_ok (c : sconn) id frag eh fs d' n' carry :
  frag_dec eh (sc_dec c) (sc_discardFields c) (sc_discardPrev c ++ frag) fs d' n' carry ->
  discard_fragment dec_field cfg c id frag eh =
  if eh then (upd_discard (upd_dec c d') 0 [] n', None)
  else (upd_discard (upd_dec c d') id carry n',
        if list_over cfg (Z.of_N (len carry)) then Some (EGoAway c_EnhanceYourCalm) else None).
Proof.
  intro H. unfold discard_fragment. rewrite (discard_loop_ok _ _ _ _ _ _ _ _ H) by lia.
  destruct eh; [reflexivity|]. unfold list_over. destruct ((0 <? cf_maxHeaderList cfg)%Z && _)%bool; reflexivity.
Qed.

End Loop.
