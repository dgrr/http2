(* C03: totality for ANY input (no bytes_ok hypothesis): HuffmanDecode, readString, nextField
   and the header-block loop never panic and never run out of fuel; the result of nextField does
   not depend on what the caller's HeaderField held. *)
From Coq Require Import List NArith ZArith Bool Lia.
From H2V Require Import Base.Bytes Base.MachineInt Base.Result Gen.GenConsts Gen.GenStatic
     Impl.Huffman Impl.Hpack Proofs.HuffmanTable Proofs.HuffmanDecode
     Proofs.HpackDefs Proofs.HpackBytes Proofs.HpackInt Proofs.HpackStr
     Proofs.HpackTable Proofs.HpackNext Proofs.HpackStruct Proofs.HpackBlock.
Import ListNotations.
Local Open Scope N_scope.
Local Opaque huffman_root.

Arguments N.land : simpl never.
Arguments N.pow : simpl never.
Arguments N.shiftl : simpl never.
Arguments N.shiftr : simpl never.

(* HuffmanDecode on any list of N: only the shape of the table matters *)
Definition good (node : hnode) : Prop := exists f p, node_okb f p node = true.

Lemma good_root : good huffman_root.
Proof. exists 5%nat, []. exact root_ok_check. Qed.

(* one table look-up from a good node *)
Lemma step_good node i : good node -> i < 256 ->
  step_node node i = Ok None \/
  (exists sym cl, step_node node i = Ok (Some (HLeaf sym cl)) /\ 1 <= cl <= 8) \/
  (exists sub, step_node node i = Ok (Some (HSub sub)) /\ good (HSub sub)).
Proof.
  intros [f [p Hok]] Hi. destruct (node_ok_inv f p node Hok) as [f' [sub [-> [-> [_ Hall]]]]].
  destruct (Hall i Hi) as [e [He Hent]]. unfold step_node. rewrite He.
  destruct e as [[sym cl|sub']|].
  - right. left. exists sym, cl. split; [reflexivity|]. cbn [entry_ok] in Hent. tauto.
  - right. right. exists sub'. split; [reflexivity|]. exists f', (p ++ [i]). exact Hent.
  - left. reflexivity.
Qed.

Lemma dec_inner_total root : good root -> forall fuel s,
  good (d_node s) -> d_bits s < 7 + N.of_nat fuel -> (0 < fuel)%nat -> d_bits s < 256 ->
  match dec_inner fuel root s with
  | Ok s' => good (d_node s') /\ d_bits s' < 8
  | Err _ => True
  | Panic _ => False
  end.
Proof.
  intros Hroot. induction fuel as [|fuel IH]; intros s Hg Hb Hf Hb256; [lia|].
  rewrite dec_inner_S. destruct (N.leb_spec 8 (d_bits s)) as [H8|H8]; [|split; [exact Hg | exact H8]].
  cbv zeta.
  destruct (step_good (d_node s) (u8 (N.shiftr (d_acc s) (d_bits s - 8))) Hg (u8_lt _))
    as [E | [[sym [cl [E Hcl]]] | [sub [E Hsub]]]]; rewrite E.
  - exact I.
  - rewrite subw8_small by lia. apply IH; cbn [d_node d_bits]; try assumption; lia.
  - assert (Hu : u8 (d_bits s - 8) = d_bits s - 8) by (apply u8_small; lia).
    apply IH; cbn [d_node d_bits]; rewrite ?Hu; try assumption; lia.
Qed.

Lemma dec_bytes_total root : good root -> forall src s,
  good (d_node s) -> d_bits s < 8 ->
  match dec_bytes root src s with
  | Ok s' => good (d_node s') /\ d_bits s' < 8
  | Err _ => True
  | Panic _ => False
  end.
Proof.
  intros Hroot. induction src as [|b rest IH]; intros s Hg Hb; [split; assumption|].
  rewrite dec_bytes_cons. remember 40%nat as f40 eqn:Hf.
  assert (Hu : u8 (d_bits s + 8) = d_bits s + 8) by (apply u8_small; lia).
  rewrite Hu.
  pose proof (dec_inner_total root Hroot f40
    (mkD (N.lor (u32 (N.shiftl (d_acc s) 8)) b) (u8 (d_bits s + 8)) (u8 (d_left s + 8)) (d_node s) (d_out s))) as T.
  cbn [d_node d_bits] in T. rewrite Hu in T. specialize (T Hg ltac:(subst f40; lia) ltac:(subst f40; lia) ltac:(lia)).
  clear Hf. destruct (dec_inner f40 root _) as [s2|e|w]; [|exact I|contradiction].
  destruct T as [T1 T2]. apply IH; assumption.
Qed.

Lemma dec_tail_total root : good root -> forall fuel s,
  good (d_node s) -> d_bits s < N.of_nat fuel -> d_bits s < 8 ->
  match dec_tail fuel root s with
  | Ok _ => True
  | Err _ => True
  | Panic _ => False
  end.
Proof.
  intros Hroot. induction fuel as [|fuel IH]; intros s Hg Hb Hb8; [lia|].
  rewrite dec_tail_S. destruct (N.ltb_spec 0 (d_bits s)) as [H0|H0]; [|exact I].
  cbv zeta.
  destruct (step_good (d_node s) (u8 (N.shiftl (d_acc s) (8 - d_bits s))) Hg (u8_lt _))
    as [E | [[sym [cl [E Hcl]]] | [sub [E Hsub]]]]; rewrite E.
  - exact I.
  - destruct (N.ltb_spec (d_bits s) cl) as [Hlt|Hge]; [exact I|].
    rewrite subw8_small by lia. apply IH; cbn [d_node d_bits]; try assumption; lia.
  - exact I.
Qed.

Theorem huffman_decode_no_panic b : is_panic (huffman_decode b) = false.
Proof.
  unfold huffman_decode. rewrite huffman_decode_with_unfold. remember 16%nat as f16 eqn:Hf.
  pose proof (dec_bytes_total huffman_root good_root b (mkD 0 0 0 huffman_root [])) as T.
  cbn [d_node d_bits] in T. specialize (T good_root ltac:(lia)).
  destruct (dec_bytes huffman_root b _) as [s1|e|w]; [|reflexivity|contradiction].
  destruct T as [T1 T2].
  pose proof (dec_tail_total huffman_root good_root f16 s1 T1 ltac:(subst f16; lia) T2) as T'.
  clear Hf. destruct (dec_tail f16 huffman_root s1) as [s2|e|w]; [|reflexivity|contradiction].
  unfold dec_finish. destruct (7 <? d_left s2); [reflexivity|]. destruct (_ =? _); reflexivity.
Qed.

(* readString, a literal, one field *)
Lemma read_string_no_panic b : is_panic (read_string b) = false.
Proof.
  destruct b as [|c r]; [reflexivity|]. rewrite read_string_cons.
  pose proof (read_int_no_panic 7 (c :: r)) as HI.
  destruct (read_int 7 (c :: r)) as [[b1 n]|e|w]; [|reflexivity|discriminate].
  destruct (len b1 <? n); [reflexivity|]. destruct (N.land c 128 =? 128); [|reflexivity].
  pose proof (huffman_decode_no_panic (takeN n b1)) as HH.
  destruct (huffman_decode (takeN n b1)); [reflexivity | reflexivity | discriminate].
Qed.

Lemma rl_core_no_panic hp bi bits c r : is_panic (rl_core hp bi bits (c :: r)) = false.
Proof.
  unfold rl_core. destruct bi.
  - pose proof (read_int_no_panic bits (c :: r)) as HI.
    destruct (read_int bits (c :: r)) as [[b1 n]|e|w]; [|reflexivity|discriminate].
    destruct (peek hp n); [|reflexivity].
    pose proof (read_string_no_panic b1) as HS.
    destruct (read_string b1) as [[b2 v]|e|w]; [reflexivity|reflexivity|discriminate].
  - pose proof (read_string_no_panic r) as HS.
    destruct (read_string r) as [[b2 k]|e|w]; [|reflexivity|discriminate].
    pose proof (read_string_no_panic b2) as HS2.
    destruct (read_string b2) as [[b3 v]|e|w]; [reflexivity|reflexivity|discriminate].
Qed.

Lemma one_core_no_panic hp c r : is_panic (one_core hp (c :: r)) = false.
Proof.
  unfold one_core.
  destruct (N.land c 128 =? 128).
  - pose proof (read_int_no_panic 7 (c :: r)) as HI.
    destruct (read_int 7 (c :: r)) as [[b1 n]|e|w]; [|reflexivity|discriminate].
    destruct (peek hp n); reflexivity.
  - destruct (N.land c 64 =? 64); [|destruct (N.land c 240 =? 16)]; unfold lit_core;
      match goal with |- context [rl_core ?h ?bi ?bits (c :: r)] =>
        pose proof (rl_core_no_panic h bi bits c r) as HR;
        destruct (rl_core h bi bits (c :: r)) as [[[k v] rest]|e|w]; [reflexivity|reflexivity|discriminate]
      end.
Qed.

Theorem next_field_no_panic : forall st hf blockStart fp b,
  is_panic (nf_res (next_field st hf blockStart fp b)) = false.
Proof.
  intros st hf bs fp b.
  destruct (next_field_view st hf bs fp b) as [ns _|ns e _|ns pre c r f rest st' _ _ _ _ _|ns pre c r e o _ _ _ _ -> _|ns c r w o _ Hc _ _];
    try reflexivity.
  pose proof (one_core_no_panic (apply_upd st ns) c r) as NP. rewrite Hc in NP. discriminate.
Qed.

Theorem next_field_ignores_hf : forall st hf hf' blockStart fp b,
  let o := next_field st hf blockStart fp b in
  let o' := next_field st hf' blockStart fp b in
  nf_res o = nf_res o' /\ nf_hp o = nf_hp o' /\
  (forall rest, nf_res o = Ok (rest, true) -> nf_hf o = nf_hf o').
Proof.
  intros st hf hf' bs fp b. cbv zeta. rewrite (next_field_scanN st hf').
  destruct (next_field_view st hf bs fp b)
    as [ns Es|ns e Es|ns pre c r f rest st' Es Hu _ _ Hc|ns pre c r e o Es Hu _ Hc Hr Hh|ns c r w o _ Hc _ _];
    try (rewrite Es; unfold nf_of_scan; cbn [fst snd nf_res nf_hp nf_hf]).
  - split; [reflexivity|]. split; [reflexivity|]. discriminate.
  - split; [reflexivity|]. split; [reflexivity|]. discriminate.
  - pose proof (one_field_core (apply_upd st ns) (hf_after hf' b) c r Hu) as C'. unfold nf_of_core in C'.
    rewrite Hc in C'. rewrite C'. auto.
  - pose proof (one_field_core (apply_upd st ns) (hf_after hf' b) c r Hu) as C'. unfold nf_of_core in C'.
    rewrite Hc in C'. destruct C' as [-> ->]. rewrite Hr, Hh. split; [reflexivity|]. split; [reflexivity|]. discriminate.
  - pose proof (one_core_no_panic (apply_upd st ns) c r) as NP. rewrite Hc in NP. discriminate.
Qed.

(* the loop and the frames *)
Lemma frameN_no_panic : forall b hp hf eh k, is_panic (frameN hp hf eh k b) = false.
Proof.
  induction b as [b IH] using bytes_len_ind. intros hp hf eh k.
  destruct b as [|c r]; [reflexivity|]. rewrite frameN_cons. cbv zeta.
  pose proof (next_field_no_panic hp hf true k (c :: r)) as NP.
  destruct (nf_res (next_field hp hf true k (c :: r))) as [[rest [|]]|e|w] eqn:E.
  - apply next_field_progress in E; [|discriminate]. destruct E as [E _].
    specialize (IH rest E (nf_hp (next_field hp hf true k (c :: r))) (nf_hf (next_field hp hf true k (c :: r))) eh (k + 1)).
    destruct (frameN _ _ eh (k + 1) rest) as [[[fs hp'] st]|e|w]; [reflexivity|reflexivity|discriminate].
  - reflexivity.
  - destruct (_ && _); reflexivity.
  - discriminate.
Qed.

Lemma handle_header_frame_frameN hp st payload eh cont :
  handle_header_frame hp st (payload, eh, cont) =
  match frameN hp empty_field eh (if cont then s_block_fields st else 0) (s_prev st ++ payload) with
  | Ok (fs, hp', st') =>
      if eh && negb (len (s_prev st') =? 0) then Err E_headers_incomplete else Ok (fs, hp', st')
  | Err e => Err e
  | Panic w => Panic w
  end.
Proof. unfold handle_header_frame. rewrite frame_loop_frameN by lia. reflexivity. Qed.

Theorem block_decode_frames_no_panic : forall st frs, is_panic (block_decode_frames st frs) = false.
Proof.
  intros st frs. unfold block_decode_frames. generalize (mkS [] 0) as ss. revert st.
  induction frs as [|[[payload eh] cont] frs IH]; intros st ss; [reflexivity|].
  cbn [frames_from]. rewrite handle_header_frame_frameN.
  pose proof (frameN_no_panic (s_prev ss ++ payload) st empty_field eh (if cont then s_block_fields ss else 0)) as NP.
  destruct (frameN st empty_field eh _ (s_prev ss ++ payload)) as [[[fs hp'] st']|e|w]; [|reflexivity|discriminate].
  destruct (eh && negb (len (s_prev st') =? 0)); [reflexivity|].
  specialize (IH hp' st'). destruct (frames_from hp' st' frs) as [[fs' hp'']|e|w]; [reflexivity|reflexivity|discriminate].
Qed.
