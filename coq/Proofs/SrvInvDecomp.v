(* Proofs/SrvInvDecomp.v - the moves of the stream loop, and the decomposition of sl_frame / sl_done /
   sl_timer into sequences of moves (see Proofs/SrvInvMoves.v for the idea). The section is generic in the HPACK coder
   and in a per-stream predicate Q closed under what the stream loop does to a table stream (Qclosed), so that
   value-level invariants of table streams ride along. *)
From H2V Require Import Base.Bytes Base.MachineInt Base.Result Gen.GenConsts Impl.ServerConn Proofs.SrvBase
  Proofs.SrvFlowSend Proofs.SrvInvMoves.
From Coq Require Import ZArith Lia ZifyN ZifyNat ZifyBool.
Local Open Scope N_scope.

Section Tbl.

Lemma search_put_other l x id : id <> st_id x -> strms_search (strms_put l x) id = strms_search l id.
Proof. apply SrvBase.search_put_other. Qed.

Lemma put_none l x : strms_search l (st_id x) = None -> strms_put l x = l.
Proof. apply SrvBase.put_none. Qed.

Lemma Forall2_sloc_refl l : Forall2 sloc l l.
Proof. induction l; constructor; auto using sloc_refl. Qed.

Lemma put_sloc l x old : strms_search l (st_id x) = Some old -> sloc old x -> Forall2 sloc l (strms_put l x).
Proof.
  induction l as [|y t IH]; cbn [strms_search strms_put]; [discriminate|].
  destruct (st_id y =? st_id x) eqn:E; intros H S.
  - inversion H; subst. constructor; [assumption | apply Forall2_sloc_refl].
  - constructor; [apply sloc_refl | auto].
Qed.

Lemma search_app_found l l' id s : strms_search l id = Some s -> strms_search (l ++ l') id = Some s.
Proof.
  induction l as [|y t IH]; cbn [strms_search app]; [discriminate|].
  destruct (st_id y =? id); auto.
Qed.

Lemma search_none_gt l m sid : (forall s, In s l -> st_id s <= m) -> m < sid -> strms_search l sid = None.
Proof.
  intros H Hm. induction l as [|y t IH]; cbn [strms_search]; [reflexivity|].
  assert (st_id y <= m) by (apply H; left; reflexivity).
  replace (st_id y =? sid) with false by lia. apply IH. intros; apply H; right; assumption.
Qed.

Lemma sloc_set_state s st : sloc s (set_state s st). Proof. repeat split; auto. Qed.
Lemma sloc_set_weReset s : sloc s (set_weReset s). Proof. repeat split; auto. Qed.
Lemma sloc_reset_closed s : sloc s (set_state (set_weReset s) SClosed). Proof. repeat split; auto. Qed.
Lemma sloc_set_window s w : sloc s (set_window s w). Proof. repeat split; auto. Qed.
Lemma sloc_set_snd s n : sloc s (set_snd s n). Proof. repeat split; auto. Qed.
Lemma sloc_set_hdr s h : sloc s (set_hdr s h). Proof. repeat split; auto. Qed.
Lemma sloc_set_recv s r q : sloc s (set_recv s r q). Proof. repeat split; auto. Qed.
Lemma sloc_set_headers_finished s b : sloc s (set_headers_finished s b). Proof. repeat split; auto. Qed.

Lemma sloc_handle_state fr s : sloc s (handle_state fr s).
Proof.
  unfold handle_state.
  assert (H0 : sloc s (if fkind_eqb (sf_kind fr) KRst then set_state s SClosed else s)).
  { destruct (fkind_eqb (sf_kind fr) KRst); auto using sloc_refl, sloc_set_state. }
  set (s0 := if fkind_eqb (sf_kind fr) KRst then set_state s SClosed else s) in *. clearbody s0.
  destruct (st_state s0); repeat match goal with |- context [if ?b then _ else _] => destruct b end;
    eauto using sloc_trans, sloc_set_state.
Qed.

End Tbl.

Section Moves.
Variable hstate : Type.
Variable dec_field : hstate -> N -> bytes -> dec_res hstate.
Variable enc_field : hstate -> bytes -> bytes -> bool -> bytes * hstate.
Variable enc_set_max : hstate -> N -> hstate.
Variable cfg : config.
Variable Q : stream -> Prop.
Notation sconn := (sconn hstate).
Notation lite := (lite cfg).
Implicit Types c : sconn.

(* what a stream is like when its request is handed to a handler *)
Definition dispatchable (x : stream) : Prop :=
  st_state x = SHalfClosed /\ st_headersFinished x = true /\
  (st_hasCL x = true -> st_recvBody x = st_contentLength x).

(* One move. The label is the stream whose handler has just been taken back (sl_done), if any.
   Every move but the last kind (mv_post) starts in a state where the stream loop is running. *)
Inductive mv : option N -> sconn -> sconn -> Prop :=
| mv_lite c c' : sc_sl_done c = false -> lite c c' -> mv None c c'
| mv_goaway c sid code : sc_sl_done c = false -> In code sl_codes -> mv None c (write_goaway c sid code)
| mv_mark c id w : sc_sl_done c = false -> mv None c (mark_closed c id w)
| mv_highest c sid : sc_sl_done c = false -> sc_highestID c < sid -> mv None c (upd_highestID c sid)
| mv_strms c l : sc_sl_done c = false -> Forall2 sloc (sc_strms c) l -> (Forall Q (sc_strms c) -> Forall Q l) ->
    mv None c (upd_strms c l)
| mv_dispatch c old x : sc_sl_done c = false -> strms_search (sc_strms c) (st_id x) = Some old ->
    st_orig x = st_orig old -> st_responded old = false -> st_handlerRunning x = true -> st_responded x = true ->
    (Q old -> Q x) -> dispatchable x ->
    mv None c (put (note c (ODispatch (st_id x) (st_req x))) x)
| mv_create c sid s : sc_sl_done c = false -> sc_closing c = false -> (sc_open c < cf_maxStreams cfg)%Z ->
    sc_highestID c < sid -> st_id s = sid -> st_orig s = KHeaders -> st_handlerRunning s = false ->
    st_responded s = false -> Q s ->
    mv None c (upd_open (upd_strms (upd_lastID (upd_highestID c sid) sid) (sc_strms c ++ [s])) (sc_open c + 1))
| mv_close c old x : sc_sl_done c = false -> strms_search (sc_strms c) (st_id x) = Some old -> sloc old x ->
    (Q old -> Q x) -> mv None c (close_stream c x)
| mv_done_gone c sid s rest : sc_sl_done c = false -> take_stream (sc_gone c) sid = Some (s, rest) ->
    mv (Some sid) c (release_stream (upd_gone c rest) (set_flags s (st_responded s) false true))
| mv_returned c c1 old x : sc_sl_done c = false -> lite c c1 ->       (* c1: the response has been queued *)
    strms_search (sc_strms c) (st_id x) = Some old -> take_stream (sc_gone c) (st_id x) = None ->
    st_orig x = st_orig old -> st_handlerRunning old = true -> st_handlerRunning x = false ->
    (st_responded old = true -> st_responded x = true) -> (Q old -> Q x) ->
    mv (Some (st_id x)) c (put c1 x)
| mv_brk c : sc_sl_done c = false -> mv None c (fst (brk c))
| mv_fatal c l extra : sc_sl_done c = false -> Forall2 sloc (sc_strms c ++ extra) l ->
    (extra = [] \/ exists s, extra = [s] /\ st_orig s <> KHeaders /\ st_handlerRunning s = false /\ st_responded s = false) ->
    mv None c (fst (brk (upd_strms c l)))
| mv_panic c : sc_sl_done c = false -> (exists d n b, dec_field d n b = DPanic hstate) ->
    mv None c (note c (OPanic 1 0))
(* once the loop has ended: what an error path left behind in the untracked components *)
| mv_post c c' : sc_sl_done c = true -> quiet_core c c' -> mv None c c'.

Definition olist (o : option N) : list N := match o with Some x => [x] | None => [] end.

Inductive mvs : list N -> sconn -> sconn -> Prop :=
| mvs_nil c : mvs [] c c
| mvs_cons o l a b c : mv o a b -> mvs l b c -> mvs (olist o ++ l) a c.

Lemma mvs_one o a b : mv o a b -> mvs (olist o) a b.
Proof. intro H. rewrite <- (app_nil_r (olist o)). econstructor; [eassumption | constructor]. Qed.

Lemma mvs_trans l1 l2 a b c : mvs l1 a b -> mvs l2 b c -> mvs (l1 ++ l2) a c.
Proof.
  induction 1 as [|o l a b b' M MS IH]; intro H2; [assumption|].
  rewrite <- app_assoc. econstructor; [eassumption | auto].
Qed.

Lemma mvs0_trans a b c : mvs [] a b -> mvs [] b c -> mvs [] a c.
Proof. intros H1 H2. exact (mvs_trans [] [] a b c H1 H2). Qed.

Lemma mvs0_one a b : mv None a b -> mvs [] a b.
Proof. intro H. exact (mvs_one None a b H). Qed.

(* an invariant closed under moves is preserved by sequences of moves *)
Lemma mvs_ind_inv (P : sconn -> Prop) :
  (forall o a b, mv o a b -> P a -> P b) -> forall l a b, mvs l a b -> P a -> P b.
Proof. intros H l a b M. induction M; eauto. Qed.

(* a reflexive transitive relation containing the moves contains their sequences *)
Lemma mvs_ind_rel (R : sconn -> sconn -> Prop) :
  (forall a, R a a) -> (forall a b c, R a b -> R b c -> R a c) -> (forall o a b, mv o a b -> R a b) ->
  forall l a b, mvs l a b -> R a b.
Proof. intros Hr Ht Hm l a b M. induction M; eauto. Qed.

Lemma mvs0_lite a b : sc_sl_done a = false -> lite a b -> mvs [] a b.
Proof. intros. apply mvs0_one. constructor; assumption. Qed.

(* Q is kept by everything the stream loop does to a table stream. handle_frame: when it succeeds; when it fails
   with a stream error the stream is reset and closed at once, and only that is required to satisfy Q *)
Record Qclosed : Prop := mkQclosed {
  qc_new : forall id w k t, Q (set_orig_started (new_stream id w) k t);
  qc_closed : forall s, Q s -> Q (set_state s SClosed);
  qc_handle_state : forall fr s, Q s -> Q (handle_state fr s);
  qc_weReset : forall s, Q s -> Q (set_weReset s);
  qc_flags : forall s a b d, Q s -> Q (set_flags s a b d);
  qc_window : forall s w, Q s -> Q (set_window s w);
  qc_snd : forall s n, Q s -> Q (set_snd s n);
  qc_frame : forall (c : sconn) s fr c' s' e, Q s -> handle_frame dec_field cfg c s fr = (c', s', e) ->
    match e with
    | None => Q s'
    | Some (EReset _) => Q (set_state (set_weReset s') SClosed)
    | _ => True
    end
}.
Hypothesis HQc : Qclosed.
Lemma HQ_new : forall id w k t, Q (set_orig_started (new_stream id w) k t). Proof. apply HQc. Qed.
Lemma HQ_closed : forall s, Q s -> Q (set_state s SClosed). Proof. apply HQc. Qed.
Lemma HQ_handle_state : forall fr s, Q s -> Q (handle_state fr s). Proof. apply HQc. Qed.
Lemma HQ_weReset : forall s, Q s -> Q (set_weReset s). Proof. apply HQc. Qed.
Lemma HQ_flags : forall s a b d, Q s -> Q (set_flags s a b d). Proof. apply HQc. Qed.
Lemma HQ_window : forall s w, Q s -> Q (set_window s w). Proof. apply HQc. Qed.
Lemma HQ_snd : forall s n, Q s -> Q (set_snd s n). Proof. apply HQc. Qed.
Local Hint Resolve HQ_new HQ_closed HQ_handle_state HQ_weReset HQ_flags HQ_window HQ_snd : core.

(* s is a working copy of a table stream: the table holds `old` under s's id *)
Definition work (c : sconn) (s : stream) : Prop :=
  exists old, strms_search (sc_strms c) (st_id s) = Some old /\ sloc old s /\ (Q old -> Q s).

Lemma work_lite c c' s : lite c c' -> work c s -> work c' s.
Proof. intros L (old & H1 & H2 & H3). exists old. rewrite (lite_strms _ _ _ _ L). auto. Qed.

Lemma work_strms c c' s : sc_strms c' = sc_strms c -> work c s -> work c' s.
Proof. intros E (old & H1 & H2 & H3). exists old. rewrite E. auto. Qed.

Lemma work_upd s s' c : sloc s s' -> (Q s -> Q s') -> work c s -> work c s'.
Proof.
  intros S HQ (old & H1 & H2 & H3). exists old. pose proof S as (Si & _). rewrite Si. split; [assumption|].
  split; [eapply sloc_trans; eassumption | tauto].
Qed.

Lemma work_found c s : strms_search (sc_strms c) (st_id s) = Some s -> work c s.
Proof. intro H. exists s. split; [assumption|]. split; [apply sloc_refl | tauto]. Qed.

(* write-back of a working copy *)
Lemma mvs_put c s : sc_sl_done c = false -> work c s -> mvs [] c (put c s).
Proof.
  intros Hd (old & H1 & H2 & H3). apply mvs0_one. unfold put. constructor; [assumption | eapply put_sloc; eassumption|].
  intro F. apply strms_put_Forall; [assumption|]. apply H3. rewrite Forall_forall in F. apply F.
  apply strms_search_In in H1. tauto.
Qed.

Lemma search_put_work c s : work c s -> strms_search (sc_strms (put c s)) (st_id s) = Some s.
Proof. intros (old & H1 & _). rewrite sc_strms_put. eapply search_put_same. eassumption. Qed.

(* write-back, then close if the stream is closed *)
Lemma mvs_put_close c s : sc_sl_done c = false -> work c s ->
  mvs [] c (if sstate_eqb (st_state s) SClosed then close_stream (put c s) s else put c s).
Proof.
  intros Hd W. destruct (sstate_eqb (st_state s) SClosed); [|apply mvs_put; assumption].
  eapply mvs0_trans; [apply mvs_put; eassumption|]. apply mvs0_one.
  apply mv_close with (old := s) (x := s); [rewrite sc_sl_done_put; assumption | apply search_put_work; assumption | apply sloc_refl | auto].
Qed.

Lemma mvs_close_all ids : forall c, sc_sl_done c = false -> mvs [] c (close_all c ids).
Proof.
  induction ids as [|id t IH]; intros c Hd; cbn [close_all]; [constructor|].
  destruct (strms_search (sc_strms c) id) as [s|] eqn:E; [|auto].
  eapply mvs0_trans; [|apply IH; rewrite sc_sl_done_close_stream; assumption].
  apply mvs0_one. apply mv_close with (old := s) (x := set_state s SClosed); [assumption | | apply sloc_set_state | apply HQ_closed].
  cbn [set_state st_id]. destruct (strms_search_In _ _ _ E) as [_ <-]. assumption.
Qed.

Lemma sloc_send_data c s : sloc s (snd (fst (send_data c s))).
Proof.
  unfold send_data. destruct (send_data_loop _ c (st_id s) (get_snd s)) as [[[c1 n1] dn] wr]. cbn [fst snd].
  destruct wr; eauto using sloc_trans, sloc_set_snd, sloc_set_weReset.
Qed.

Lemma Q_send_data c s : Q s -> Q (snd (fst (send_data c s))).
Proof.
  intro H. unfold send_data. destruct (send_data_loop _ c (st_id s) (get_snd s)) as [[[c1 n1] dn] wr]. cbn [fst snd].
  destruct wr; auto.
Qed.

Lemma mvs_flush_loop ids : forall c done, sc_sl_done c = false ->
  mvs [] c (fst (flush_loop c ids done)) /\ sc_sl_done (fst (flush_loop c ids done)) = false.
Proof.
  induction ids as [|id t IH]; intros c done Hd; cbn [flush_loop]; [split; [constructor | assumption]|].
  destruct (strms_search (sc_strms c) id) as [s|] eqn:E; [|auto].
  destruct (_ && _)%bool; [|auto].
  pose proof (lite_send_data _ cfg c s Hd) as L. pose proof (sloc_send_data c s) as S.
  pose proof (Q_send_data c s) as HQ.
  destruct (send_data c s) as [[c1 s1] fin]. cbn [fst snd] in *.
  assert (Hd1 : sc_sl_done c1 = false) by (rewrite (lite_sl_done _ _ _ _ L); assumption).
  assert (W : work c1 s1).
  { eapply work_lite; [eassumption|]. eapply work_upd; [eassumption | assumption|]. apply work_found.
    destruct (strms_search_In _ _ _ E) as [_ ->]. assumption. }
  destruct (IH (put c1 s1) (if fin then done ++ [id] else done)) as [M D]; [rewrite sc_sl_done_put; assumption|].
  split; [|assumption].
  eapply mvs0_trans; [apply mvs0_lite; eassumption|]. eapply mvs0_trans; [apply (mvs_put c1 s1 Hd1 W) | exact M].
Qed.

Lemma mvs_flush_streams c : sc_sl_done c = false -> mvs [] c (flush_streams c).
Proof.
  intro Hd. unfold flush_streams.
  destruct (mvs_flush_loop (map st_id (sc_strms c)) c [] Hd) as [M D].
  destruct (flush_loop c (map st_id (sc_strms c)) []) as [c1 done]. cbn [fst] in *.
  eapply mvs0_trans; [exact M | apply mvs_close_all; assumption].
Qed.

Lemma sc_sl_done_close_all ids : forall c, sc_sl_done (close_all c ids) = sc_sl_done c.
Proof.
  induction ids as [|id t IH]; intros c; cbn [close_all]; [reflexivity|].
  destruct (strms_search (sc_strms c) id); [|auto]. rewrite IH, sc_sl_done_close_stream. reflexivity.
Qed.

Lemma sc_sl_done_flush_streams c : sc_sl_done c = false -> sc_sl_done (flush_streams c) = false.
Proof.
  intro Hd. unfold flush_streams.
  destruct (mvs_flush_loop (map st_id (sc_strms c)) c [] Hd) as [M D].
  destruct (flush_loop c (map st_id (sc_strms c)) []) as [c1 done]. cbn [fst] in *.
  rewrite sc_sl_done_close_all. assumption.
Qed.

Lemma mvs_implicit_close fuel : forall c sid, sc_sl_done c = false ->
  mvs [] c (implicit_close fuel c sid) /\ sc_sl_done (implicit_close fuel c sid) = false /\
  (forall x, strms_search (sc_strms c) sid = Some x -> strms_search (sc_strms (implicit_close fuel c sid)) sid = Some x).
Proof.
  induction fuel as [|fuel IH]; intros c sid Hd; cbn [implicit_close]; [repeat split; [constructor | assumption | auto]|].
  destruct (sc_strms c) as [|n t] eqn:E; [repeat split; [constructor | assumption | rewrite E; auto]|].
  destruct (_ && _)%bool eqn:Cnd; [|repeat split; [constructor | assumption | rewrite E; auto]].
  set (x := set_state (set_weReset n) SClosed).
  assert (Hd1 : sc_sl_done (close_stream c x) = false) by (rewrite sc_sl_done_close_stream; assumption).
  assert (Hd2 : sc_sl_done (write_reset (close_stream c x) (st_id n) c_StreamCanceled) = false)
    by (rewrite sc_sl_done_write_reset; assumption).
  destruct (IH _ sid Hd2) as (M & D & K). subst x. repeat split; [|assumption|].
  - eapply mvs0_trans; [|eapply mvs0_trans; [|exact M]].
    + apply mvs0_one. apply mv_close with (old := n) (x := set_state (set_weReset n) SClosed); [assumption | | | auto].
      * rewrite E. cbn [set_state st_id set_weReset strms_search]. rewrite N.eqb_refl. reflexivity.
      * apply sloc_reset_closed.
    + apply mvs0_lite; [assumption | apply lite_write_reset; assumption].
  - intros y Hy. apply K. rewrite sc_strms_write_reset, sc_strms_close_stream.
    rewrite search_del_other; [rewrite E; assumption|]. cbn [set_state st_id set_weReset]. lia.
Qed.

Lemma mvs_close_heads n : forall c, sc_sl_done c = false -> mvs [] c (close_heads n c).
Proof.
  induction n as [|n IH]; intros c Hd; cbn [close_heads]; [constructor|].
  destruct (sc_strms c) as [|s t] eqn:E; [constructor|].
  eapply mvs0_trans; [|apply IH; rewrite sc_sl_done_close_stream, sc_sl_done_write_reset; assumption].
  eapply mvs0_trans; [apply mvs0_lite; [assumption | apply lite_write_reset; assumption]|].
  apply mvs0_one. apply mv_close with (old := s) (x := set_state (set_weReset s) SClosed).
  - rewrite sc_sl_done_write_reset; assumption.
  - rewrite sc_strms_write_reset, E. cbn [set_state st_id set_weReset strms_search]. rewrite N.eqb_refl. reflexivity.
  - apply sloc_reset_closed.
  - auto.
Qed.

Theorem mvs_sl_timer c : sc_sl_done c = false -> mvs [] c (fst (sl_timer cfg c)).
Proof.
  intro Hd. unfold sl_timer. destruct (_ <=? 0)%Z; cbn [fst cont]; [constructor | apply mvs_close_heads; assumption].
Qed.

Lemma mvs_brk_if (b : bool) c : sc_sl_done c = false -> mvs [] c (fst (if b then brk c else cont c)).
Proof. intro Hd. destruct b; [apply mvs0_one, mv_brk; assumption | constructor]. Qed.

Lemma sc_sl_done_put_close c s :
  sc_sl_done (if sstate_eqb (st_state s) SClosed then close_stream (put c s) s else put c s) = sc_sl_done c.
Proof. destruct (sstate_eqb _ _); [rewrite sc_sl_done_close_stream|]; apply sc_sl_done_put. Qed.

Lemma mvs_after_frame c s fr wc : sc_sl_done c = false -> work c s -> mvs [] c (fst (after_frame cfg c s fr wc)).
Proof.
  intros Hd W. destruct (after_frame_cases _ cfg c s fr wc) as (c2 & s2 & M & E).
  assert (W1 : work c (handle_state fr s)) by (eapply work_upd; [apply sloc_handle_state | apply HQ_handle_state | exact W]).
  set (s1 := handle_state fr s) in *. clearbody s1.
  (* write-back after a lite change of the connection *)
  assert (T : forall c2 s2, lite c c2 -> work c2 s2 -> mvs [] c (put_close c2 s2) /\ sc_sl_done (put_close c2 s2) = false).
  { intros c3 s3 L W3. assert (Hd3 : sc_sl_done c3 = false) by (rewrite (lite_sl_done _ _ _ _ L); assumption).
    split; [|unfold put_close; rewrite sc_sl_done_put_close; exact Hd3].
    eapply mvs0_trans; [apply mvs0_lite; eassumption | apply (mvs_put_close c3 s3 Hd3 W3)]. }
  assert (G : mvs [] c (put_close c2 s2) /\ sc_sl_done (put_close c2 s2) = false).
  { destruct M as [s0 Cnd CL|s0 Cnd CL|c1 s3 fin _ _ SD|_ _].
    - (* content-length mismatch: reset *)
      assert (L : lite c (write_reset c (st_id s0) c_ProtocolError)) by (apply lite_write_reset; assumption).
      apply T; [exact L|]. eapply work_lite; [exact L|]. eapply work_upd; [| |exact W1].
      + repeat split; auto.
      + intro. unfold s0. auto.
    - (* the request is complete: dispatch *)
      apply andb_prop in Cnd. destruct Cnd as [Cnd Hr]. apply andb_prop in Cnd. destruct Cnd as [Hs Hf].
      assert (Hst : st_state s1 = SHalfClosed) by (destruct (st_state s1); try discriminate; reflexivity).
      set (x := set_flags s0 true true (st_abandoned s0)).
      unfold put_close. replace (sstate_eqb (st_state x) SClosed) with false by (cbn [x s0 set_flags st_state]; rewrite Hst; reflexivity).
      destruct W1 as (old & S1 & S2 & S3).
      assert (MD : mv None c (put (note c (ODispatch (st_id x) (st_req x))) x)).
      { apply mv_dispatch with (old := old).
        - exact Hd.
        - exact S1.
        - destruct S2 as (_ & E2 & _). exact E2.
        - destruct S2 as (_ & _ & _ & I). destruct (st_responded old); [|reflexivity].
          rewrite I in Hr by reflexivity. discriminate.
        - reflexivity.
        - reflexivity.
        - intro. unfold x, s0. auto.
        - repeat split; [exact Hst | exact Hf|]. cbn [x s0 set_flags st_hasCL st_recvBody st_contentLength]. intro HC.
          cbn [s0 set_flags st_hasCL st_recvBody st_contentLength] in CL. rewrite HC in CL. cbn [andb] in CL.
          destruct (Z.eqb_spec (st_recvBody s1) (st_contentLength s1)); [assumption | discriminate]. }
      split; [apply mvs0_one; exact MD | rewrite sc_sl_done_put, sc_sl_done_note; assumption].
    - (* more of the response can go *)
      pose proof (lite_send_data _ cfg c s1 Hd) as L. pose proof (sloc_send_data c s1) as S.
      pose proof (Q_send_data c s1) as HQ. rewrite SD in L, S, HQ. cbn [fst snd] in *.
      apply T; [exact L|]. eapply work_lite; [exact L|]. eapply work_upd; [| |exact W1].
      + destruct fin; eauto using sloc_trans, sloc_set_state.
      + destruct fin; auto.
    - apply T; [apply lite_refl | exact W1]. }
  destruct G as [G Hd3]. destruct E as [-> | ->]; [exact G|].
  eapply mvs0_trans; [exact G | apply mvs0_one, mv_brk, Hd3].
Qed.

(* how an error path that ends the loop is replayed: the GOAWAY (or the panic note) and the break on the state
   before the handler ran, then what the handler left behind in the untracked components *)
Lemma quiet_goaway_brk c c1 sid code : quiet_core c c1 ->
  quiet_core (fst (brk (write_goaway c sid code))) (fst (brk (write_goaway c1 sid code))).
Proof. intro H. apply quiet_cong_brk, quiet_cong_write_goaway, H. Qed.

Lemma quiet_note_brk c c1 o : quiet_core c c1 -> quiet_core (fst (brk (note c o))) (fst (brk (note c1 o))).
Proof. intro H. apply quiet_cong_brk, quiet_cong_note, H. Qed.

Lemma mvs_discard_or_break c (r : sconn * option h2err) :
  sc_sl_done c = false -> (snd r = None -> lite c (fst r)) -> quiet_core c (fst r) -> disc_oerr dec_field (snd r) ->
  mvs [] c (fst (discard_or_break r)).
Proof.
  intros Hd L QC G. destruct r as [c1 [e|]]; cbn [fst snd] in *.
  - destruct e as [code|code|]; cbn [discard_or_break write_error fst]; [| destruct G |].
    + eapply mvs0_trans; [apply mvs0_one, (mv_goaway c 0 code); [assumption | exact G]|].
      eapply mvs0_trans; [apply mvs0_one, mv_brk; rewrite sc_sl_done_write_goaway; assumption|].
      apply mvs0_one, mv_post; [reflexivity | apply quiet_goaway_brk; assumption].
    + eapply mvs0_trans; [apply mvs0_one, mv_panic; [assumption | exact G]|].
      eapply mvs0_trans; [apply mvs0_one, mv_brk; rewrite sc_sl_done_note; assumption|].
      apply mvs0_one, mv_post; [reflexivity | apply quiet_note_brk; assumption].
  - cbn [discard_or_break cont fst]. apply mvs0_lite; auto.
Qed.

(* the refusal of a stream: RST_STREAM(REFUSED_STREAM), remember the id, decode and drop the block *)
Lemma mvs_refuse c fr :
  sc_sl_done c = false ->
  mvs [] c (fst (discard_or_break (discard_header_block dec_field cfg
                (mark_closed (write_reset c (sf_sid fr) c_RefusedStreamError) (sf_sid fr) true) fr))).
Proof.
  intro Hd.
  eapply mvs0_trans; [apply mvs0_lite; [assumption | apply lite_write_reset; assumption]|].
  eapply mvs0_trans; [apply mvs0_one, mv_mark; rewrite sc_sl_done_write_reset; assumption|].
  apply mvs_discard_or_break.
  - rewrite sc_sl_done_mark_closed, sc_sl_done_write_reset. assumption.
  - apply lite_discard_header_block.
  - apply quiet_discard_header_block.
  - apply discard_header_block_err.
Qed.

(* handleFrame, the reaction to its error, handleState and what follows *)
Definition frame_tail (c2 : sconn) (s : stream) (fr : sframe) (wasClosing : bool) : sconn * bool :=
  let '(c3, s3, e) := handle_frame dec_field cfg c2 s fr in
  match e with
  | Some e =>
    let '(c4, s4) := write_error c3 (Some s3) e in
    let s5 := match s4 with Some x => set_state x SClosed | None => set_state s3 SClosed end in
    match e with
    | EGoAway code => if negb (code =? c_NoError) then brk (put c4 s5) else after_frame cfg c4 s5 fr wasClosing
    | EReset _ => after_frame cfg c4 s5 fr wasClosing
    | EPanic => brk (note c3 (OPanic 1 0))
    end
  | None => after_frame cfg c3 s3 fr wasClosing
  end.

Lemma sloc_handle_header_frame c s fr : sloc s (snd (fst (handle_header_frame dec_field cfg c s fr))).
Proof.
  unfold handle_header_frame.
  destruct (_ && _)%bool; [apply sloc_refl|]. destruct (_ && _)%bool; [apply sloc_set_headers_finished|].
  destruct (header_loop dec_field _ cfg _ (sc_dec c) _ _) as [[[d' h2] e] rest].
  destruct e as [[code|code|]|]; cbn [fst snd]; try apply sloc_set_hdr.
  - match goal with |- context [discard_fragment ?a ?b ?c0 ?d ?e ?f] => destruct (discard_fragment a b c0 d e f) as [c3 [de|]] end;
    cbn [fst snd]; apply sloc_set_hdr.
  - destruct (_ && _)%bool; cbn [fst snd]; apply sloc_set_hdr.
Qed.

Lemma sloc_handle_frame c s fr : sloc s (snd (fst (handle_frame dec_field cfg c s fr))).
Proof.
  unfold handle_frame. destruct (verify_state s fr); [apply sloc_refl|].
  pose proof (sloc_handle_header_frame c s fr) as LH.
  match goal with |- context [match sf_kind fr with KHeaders => ?X | _ => _ end] => set (hb := X) end.
  assert (HH : sloc s (snd (fst hb))).
  { subst hb. destruct (_ && _)%bool; [apply sloc_refl|].
    destruct (handle_header_frame dec_field cfg c s fr) as [[c1 s1] e]. cbn [fst snd] in LH.
    destruct e; [exact LH|]. destruct (flag_has (sf_flags fr) FL_EH); [|exact LH].
    cbv zeta. destruct (negb _); [eauto using sloc_trans, sloc_set_headers_finished|].
    destruct (validate_request_pseudo_headers _); cbn [fst snd]; eauto using sloc_trans, sloc_set_headers_finished. }
  clearbody hb.
  destruct (sf_kind fr); try exact HH; try apply sloc_refl;
  repeat match goal with |- context [if ?b then _ else _] => destruct b end; cbn [fst snd];
  auto using sloc_refl, sloc_set_recv, sloc_set_window.
Qed.

Lemma quiet_fatal_put c c3 sid code x : quiet_core c c3 ->
  quiet_core (fst (brk (upd_strms (write_goaway c sid code) (strms_put (sc_strms c) x))))
             (fst (brk (put (write_goaway c3 sid code) x))).
Proof.
  intro H. unfold put. rewrite sc_strms_write_goaway, (proj1 (proj1 H)).
  apply quiet_cong_brk, quiet_cong_upd_strms, quiet_cong_write_goaway, H.
Qed.

Lemma mvs_frame_tail c s fr wc : sc_sl_done c = false -> work c s -> mvs [] c (fst (frame_tail c s fr wc)).
Proof.
  intros Hd W. unfold frame_tail.
  pose proof (lite_handle_frame _ dec_field cfg c s fr Hd) as L.
  pose proof (quiet_handle_frame _ dec_field cfg c s fr) as QC.
  pose proof (sloc_handle_frame c s fr) as S.
  pose proof (handle_frame_err _ dec_field cfg c s fr) as G.
  pose proof (fun Qs => qc_frame HQc c s fr (fst (fst (handle_frame dec_field cfg c s fr)))
                         (snd (fst (handle_frame dec_field cfg c s fr))) (snd (handle_frame dec_field cfg c s fr)) Qs) as HQf.
  destruct (handle_frame dec_field cfg c s fr) as [[c3 s3] e]. cbn [fst snd] in *.
  (* the working copy after the frame, when Q is known of it *)
  assert (W3 : lite c c3 -> forall x, sloc s3 x -> (Q s -> Q x) -> work c3 x).
  { intros L3 x Sx Qx. eapply work_lite; [exact L3|]. eapply work_upd; [eapply sloc_trans; [exact S | exact Sx] | exact Qx | exact W]. }
  destruct e as [[code|code|]|].
  - (* connection error: GOAWAY, the stream is written back, the loop ends *)
    cbn [write_error]. cbn [good_oerr good_err] in G.
    replace (negb (code =? c_NoError)) with true by (symmetry; apply negb_true_iff, sl_codes_nonzero; exact G).
    assert (Q3 : quiet_core c c3) by (apply QC; intro F; exact F).
    destruct W as (old & H1 & H2 & _). pose proof S as (Si & _).
    set (x := set_state (set_state s3 SClosed) SClosed).
    eapply mvs0_trans; [apply mvs0_one, (mv_goaway c (st_id s3) code); [assumption | exact G]|].
    eapply mvs0_trans.
    + apply mvs0_one.
      apply (mv_fatal (write_goaway c (st_id s3) code) (strms_put (sc_strms c) x) []);
        [rewrite sc_sl_done_write_goaway; assumption | | left; reflexivity].
      rewrite app_nil_r, sc_strms_write_goaway. eapply put_sloc; [cbn [x set_state st_id]; rewrite Si; exact H1|].
      eapply sloc_trans; [exact H2|]. eapply sloc_trans; [exact S|].
      eapply sloc_trans; apply sloc_set_state.
    + apply mvs0_one, mv_post; [reflexivity|].
      apply quiet_fatal_put. exact Q3.
  - (* stream error *)
    cbn [write_error].
    assert (L3 : lite c c3) by (apply L; exact I).
    assert (Hd3 : sc_sl_done c3 = false) by (rewrite (lite_sl_done _ _ _ _ L3); assumption).
    eapply mvs0_trans; [apply mvs0_lite; eassumption|].
    assert (L4 : lite c3 (write_reset c3 (st_id s3) code)) by (apply lite_write_reset; assumption).
    eapply mvs0_trans; [apply mvs0_lite; eassumption|].
    apply mvs_after_frame; [rewrite sc_sl_done_write_reset; assumption|].
    eapply work_lite; [exact L4|]. apply (W3 L3).
    + eapply sloc_trans; [apply sloc_reset_closed | apply sloc_set_state].
    + intro Qs. apply HQ_closed. exact (HQf Qs eq_refl).
  - (* the decoder panicked *)
    cbn [write_error].
    assert (Q3 : quiet_core c c3) by (apply QC; intro F; exact F).
    eapply mvs0_trans; [apply mvs0_one, mv_panic; [assumption | exact G]|].
    eapply mvs0_trans; [apply mvs0_one, mv_brk; rewrite sc_sl_done_note; assumption|].
    apply mvs0_one, mv_post; [reflexivity | apply quiet_note_brk; assumption].
  - assert (L3 : lite c c3) by (apply L; exact I).
    assert (Hd3 : sc_sl_done c3 = false) by (rewrite (lite_sl_done _ _ _ _ L3); assumption).
    eapply mvs0_trans; [apply mvs0_lite; eassumption|].
    apply mvs_after_frame; [assumption | apply (W3 L3); [apply sloc_refl | intro Qs; exact (HQf Qs eq_refl)]].
Qed.

(* the HEADERS prelude, then the frame *)
Definition frame_work (c1 : sconn) (s : stream) (fr : sframe) (wasClosing : bool) : sconn * bool :=
  let pre2 : (sconn * bool) + sconn :=
    if fkind_eqb (sf_kind fr) KHeaders then
      match get_previous_headers (sc_strms c1) with
      | Some p =>
        if negb (st_headersFinished p) then
          let '(c2, p') := write_error c1 (Some p) (EGoAway c_ProtocolError) in
          inl (cont (match p' with Some p' => put c2 p' | None => c2 end))
        else inr (implicit_close (S (length (sc_strms c1))) c1 (st_id s))
      | None => inr (implicit_close (S (length (sc_strms c1))) c1 (st_id s))
      end
    else inr c1 in
  match pre2 with
  | inl r => r
  | inr c2 => frame_tail c2 s fr wasClosing
  end.

Lemma work_implicit_close c s :
  sc_sl_done c = false -> work c s -> work (implicit_close (S (length (sc_strms c))) c (st_id s)) s.
Proof.
  intros Hd (old & H1 & H2 & H3).
  destruct (mvs_implicit_close (S (length (sc_strms c))) c (st_id s) Hd) as (_ & _ & K).
  exists old. auto.
Qed.

Lemma mvs_frame_work c s fr wc :
  sc_sl_done c = false -> NoDup (map st_id (sc_strms c)) -> work c s -> mvs [] c (fst (frame_work c s fr wc)).
Proof.
  intros Hd ND W. unfold frame_work.
  assert (IC : mvs [] c (fst (frame_tail (implicit_close (S (length (sc_strms c))) c (st_id s)) s fr wc))).
  { destruct (mvs_implicit_close (S (length (sc_strms c))) c (st_id s) Hd) as (M & D & _).
    eapply mvs0_trans; [exact M|]. apply mvs_frame_tail; [assumption | apply work_implicit_close; assumption]. }
  destruct (fkind_eqb (sf_kind fr) KHeaders); [|apply mvs_frame_tail; assumption].
  destruct (get_previous_headers (sc_strms c)) as [p|] eqn:GP; [|exact IC].
  destruct (negb (st_headersFinished p)); [|exact IC].
  cbn [write_error cont fst].
  eapply mvs0_trans; [apply mvs0_one, (mv_goaway c (st_id p) c_ProtocolError); [assumption | in_codes]|].
  apply mvs_put; [rewrite sc_sl_done_write_goaway; assumption|].
  exists p. rewrite sc_strms_write_goaway. cbn [set_state st_id].
  split; [apply NoDup_search; [assumption | apply get_previous_headers_In; assumption]|].
  split; [apply sloc_set_state | auto].
Qed.

(* the precondition of the decomposition: ids in the table are distinct and not above lastID <= highestID *)
Definition ids_ok (c : sconn) : Prop :=
  NoDup (map st_id (sc_strms c)) /\ (forall s, In s (sc_strms c) -> st_id s <= sc_lastID c) /\
  sc_lastID c <= sc_highestID c.

Lemma bumpall_spec (delta : Z) : forall l pre,
  let r := (fix bumpall (pre : list stream) (l : list stream) {struct l} : list stream * bool :=
          match l with
          | [] => (pre, false)
          | s :: t =>
            let s' := set_window s (st_window s + delta) in
            if (MAXWIN <? st_window s')%Z then (pre ++ s' :: t, true) else bumpall (pre ++ [s']) t
          end) pre l in
  exists l', fst r = pre ++ l' /\ Forall2 sloc l l' /\ (Forall Q l -> Forall Q l').
Proof.
  induction l as [|s t IH]; intros pre.
  - exists []. rewrite app_nil_r. repeat split; auto.
  - cbv zeta. cbv zeta in IH.
    destruct (MAXWIN <? st_window (set_window s (st_window s + delta)))%Z eqn:OV.
    + exists (set_window s (st_window s + delta) :: t). cbn [fst]. repeat split.
      * constructor; [apply sloc_set_window | apply Forall2_sloc_refl].
      * intro F. inversion F; subst. constructor; auto.
    + destruct (IH (pre ++ [set_window s (st_window s + delta)])) as (l' & E & F2 & FQ).
      exists (set_window s (st_window s + delta) :: l'). repeat split.
      * etransitivity; [exact E|]. rewrite <- app_assoc. reflexivity.
      * constructor; [apply sloc_set_window | assumption].
      * intro F. inversion F; subst. constructor; auto.
Qed.

Theorem mvs_sl_frame c fr : sc_sl_done c = false -> ids_ok c -> mvs [] c (fst (sl_frame dec_field enc_set_max cfg c fr)).
Proof.
  intros Hd (ND & IL & LH). unfold sl_frame.
  destruct (sf_sid fr =? 0) eqn:Z0.
  { (* connection-level frames *)
    destruct (sf_kind fr); try (cbn [cont fst]; constructor).
    - (* SETTINGS *)
      set (c0 := if sf_set_hastable fr then upd_enc c (enc_set_max (sc_enc c) (sf_set_table fr)) else c).
      assert (L0 : lite c c0) by (subst c0; destruct (sf_set_hastable fr); [apply lite_upd_enc | apply lite_refl]).
      assert (Hd0 : sc_sl_done c0 = false) by (rewrite (lite_sl_done _ _ _ _ L0); assumption).
      eapply mvs0_trans; [apply mvs0_lite; eassumption|].
      destruct (sf_set_haswin fr).
      + cbv zeta.
        match goal with |- context [let '(aa, bb) := ?B in _] =>
          assert (BS : exists l', fst B = [] ++ l' /\ Forall2 sloc (sc_strms (upd_initWin c0 (signed 32 (sf_set_win fr)))) l' /\
                                   (Forall Q (sc_strms (upd_initWin c0 (signed 32 (sf_set_win fr)))) -> Forall Q l'))
            by (apply (bumpall_spec (signed 32 (sf_set_win fr) - sc_initWin c0)));
          destruct B as [lB over] end.
        destruct BS as (lq & E & F2 & FQ). cbn [fst app] in E. subst lB.
        set (c1 := upd_initWin c0 (signed 32 (sf_set_win fr))) in *.
        assert (L1 : lite c0 c1) by apply lite_upd_initWin.
        assert (Hd1 : sc_sl_done c1 = false) by reflexivity || (rewrite (lite_sl_done _ _ _ _ L1); assumption).
        eapply mvs0_trans; [apply mvs0_lite; eassumption|].
        eapply mvs0_trans; [apply mvs0_one, (mv_strms c1 lq); assumption|].
        destruct over.
        * eapply mvs0_trans; [apply mvs0_one, (mv_goaway _ 0 c_FlowControlError); [rewrite sc_sl_done_upd_strms; assumption | in_codes]|].
          apply mvs0_one, mv_brk. rewrite sc_sl_done_write_goaway, sc_sl_done_upd_strms. assumption.
        * cbn [cont fst].
          eapply mvs0_trans; [apply mvs0_lite; [|apply (lite_emit _ cfg (upd_strms c1 lq) OSettingsAck I)]; rewrite sc_sl_done_upd_strms; assumption|].
          apply mvs_flush_streams. rewrite sc_sl_done_emit, sc_sl_done_upd_strms. assumption.
      + cbn [cont fst]. apply mvs0_lite; [assumption | apply (lite_emit _ cfg c0 OSettingsAck I Hd0)].
    - (* WINDOW_UPDATE *)
      eapply mvs0_trans; [apply mvs0_lite; [assumption | apply lite_upd_clientWindow]|].
      destruct (_ <? _)%Z.
      + eapply mvs0_trans; [apply mvs0_one, (mv_goaway _ 0 c_FlowControlError); [assumption | in_codes]|].
        apply mvs0_one, mv_brk. rewrite sc_sl_done_write_goaway. assumption.
      + cbn [cont fst]. apply mvs_flush_streams. assumption. }
  destruct (_ && _ && _)%bool.
  { apply mvs_discard_or_break; [assumption | apply lite_discard_header_block | apply quiet_discard_header_block | apply discard_header_block_err]. }
  cbv zeta.
  assert (GA : forall sid code, In code sl_codes -> mvs [] c (fst (cont (write_goaway c sid code)))).
  { intros. cbn [cont fst]. apply mvs0_one, mv_goaway; assumption. }
  (* the rest, once the stream is known *)
  change (match ?pre with inl r => r | inr (c1, s) => _ end) with
    (match pre with inl r => r | inr (c1, s) => frame_work c1 s fr (sc_closing c) end).
  destruct (if sf_sid fr <=? sc_lastID c then strms_search (sc_strms c) (sf_sid fr) else None) as [s|] eqn:Found.
  { (* a stream of the table *)
    apply mvs_frame_work; [assumption | assumption|]. apply work_found.
    destruct (sf_sid fr <=? sc_lastID c); [|discriminate].
    destruct (strms_search_In _ _ _ Found) as [_ ->]. assumption. }
  assert (NF : strms_search (sc_strms c) (sf_sid fr) = None).
  { destruct (sf_sid fr <=? sc_lastID c) eqn:Le; [assumption|]. eapply search_none_gt; [exact IL | lia]. }
  destruct (fkind_eqb (sf_kind fr) KRst).
  { destruct (_ && _)%bool; [apply GA; in_codes | constructor]. }
  destruct (in_ring c (sf_sid fr)).
  { destruct (sf_kind fr); try (apply GA; in_codes); try (cbn [cont fst]; constructor).
    - destruct (match ring_find c (sf_sid fr) with Some b => b | None => false end); [|apply GA; in_codes].
      cbn [cont fst]. apply mvs0_lite; [assumption | apply lite_credit_conn_window; assumption].
    - destruct (match ring_find c (sf_sid fr) with Some b => b | None => false end); [|apply GA; in_codes].
      apply mvs_discard_or_break; [assumption | apply lite_discard_header_block | apply quiet_discard_header_block | apply discard_header_block_err]. }
  destruct (fkind_eqb (sf_kind fr) KPriority) eqn:KP.
  { destruct (sf_dep fr =? sf_sid fr); cbn [cont fst]; [|constructor]. apply mvs0_lite; [assumption | apply lite_write_reset; assumption]. }
  destruct (fkind_eqb (sf_kind fr) KHeaders) eqn:KH; cbn [andb].
  - (* HEADERS opening a stream *)
    destruct (sf_sid fr <=? sc_highestID c) eqn:HI; [apply GA; in_codes|].
    assert (HI' : sc_highestID c < sf_sid fr) by lia.
    set (ch := upd_highestID c (sf_sid fr)).
    assert (MH : mvs [] c ch) by (apply mvs0_one, mv_highest; assumption).
    assert (Hdh : sc_sl_done ch = false) by assumption.
    destruct ((cf_maxStreams cfg <=? sc_open ch)%Z || sc_closing c)%bool eqn:Ref.
    { eapply mvs0_trans; [exact MH | apply mvs_refuse; assumption]. }
    destruct (sf_sid fr <? sc_lastID ch).
    { eapply mvs0_trans; [exact MH|]. cbn [cont fst]. apply mvs0_one, mv_goaway; [assumption | in_codes]. }
    destruct (sc_closing ch) eqn:Cl.
    { eapply mvs0_trans; [exact MH | apply mvs_refuse; assumption]. }
    apply orb_false_elim in Ref. destruct Ref as [Ref _].
    set (s := set_orig_started (new_stream (sf_sid fr) (sc_initWin (upd_lastID ch (sf_sid fr)))) (sf_kind fr)
                               (sc_now (upd_lastID ch (sf_sid fr)))).
    set (c3 := upd_open _ _).
    assert (KHe : sf_kind fr = KHeaders) by (destruct (sf_kind fr); try discriminate; reflexivity).
    assert (MC : mv None c c3).
    { subst c3. apply (mv_create c (sf_sid fr) s).
      - exact Hd.
      - exact Cl.
      - change (sc_open ch) with (sc_open c) in Ref. lia.
      - exact HI'.
      - reflexivity.
      - unfold s. rewrite KHe. reflexivity.
      - reflexivity.
      - reflexivity.
      - apply HQ_new. }
    eapply mvs0_trans; [apply mvs0_one; exact MC|].
    apply mvs_frame_work; [exact Hd | |].
    + change (sc_strms c3) with (sc_strms c ++ [s]). rewrite map_app. apply NoDup_app_one; [assumption|]. cbn [map].
      intro I. apply in_map_iff in I. destruct I as (y & Ey & Iy).
      eapply strms_search_None; [exact NF | exact Iy | exact Ey].
    + apply work_found. change (sc_strms c3) with (sc_strms c ++ [s]). apply search_app_last. exact NF.
  - (* any other frame on an unknown stream: the stream is made, the frame is refused, the loop ends *)
    destruct (sf_sid fr <? sc_lastID c); [apply GA; in_codes|].
    set (s := set_orig_started (new_stream (sf_sid fr) (sc_initWin c)) (sf_kind fr) (sc_now c)).
    unfold frame_work. rewrite KH. unfold frame_tail, handle_frame.
    assert (V : verify_state s fr = Some (EGoAway c_ProtocolError)).
    { unfold verify_state. cbn [s set_orig_started new_stream st_state]. rewrite KH, KP. reflexivity. }
    rewrite V. cbn [write_error].
    replace (negb (c_ProtocolError =? c_NoError)) with true by reflexivity.
    set (x := set_state (set_state s SClosed) SClosed).
    eapply mvs0_trans; [apply mvs0_one, (mv_goaway c (st_id s) c_ProtocolError); [assumption | in_codes]|].
    apply mvs0_one.
    assert (E : fst (brk (put (write_goaway (upd_strms c (sc_strms c ++ [s])) (st_id s) c_ProtocolError) x)) =
                fst (brk (upd_strms (write_goaway c (st_id s) c_ProtocolError) (strms_put (sc_strms c ++ [s]) x)))).
    { unfold put, write_goaway, emit. sc_cbn. destruct (sc_wl_dead c); [reflexivity|]. destruct (sc_sl_done c); reflexivity. }
    rewrite E. apply mv_fatal with (extra := [s]).
    + rewrite sc_sl_done_write_goaway. assumption.
    + rewrite sc_strms_write_goaway. eapply put_sloc.
      * change (st_id x) with (st_id s). apply search_app_last. exact NF.
      * eapply sloc_trans; apply sloc_set_state.
    + right. exists s. repeat split; try reflexivity. cbn [s set_orig_started st_orig].
      destruct (sf_kind fr); try discriminate; congruence.
Qed.

Lemma sloc_finish_request c s r :
  let s' := snd (fst (finish_request enc_field c s r)) in sloc s s' /\ (Q s -> Q s').
Proof.
  unfold finish_request. destruct (response_block enc_field (sc_enc c) r) as [blk e'].
  destruct (negb _); cbn [fst snd]; [split; [apply sloc_refl | auto]|].
  match goal with |- context [send_data ?c1 ?s1] => pose proof (sloc_send_data c1 s1) as S; pose proof (Q_send_data c1 s1) as HQ;
    destruct (send_data c1 s1) as [[c2 s2] fin] end.
  cbn [fst snd] in *. split; [eapply sloc_trans; [apply sloc_set_snd | exact S] | auto].
Qed.

(* EvDone: nothing happens (no handler of sid is known to run), or the first move is the return of sid's handler *)
Theorem mvs_sl_done c sid r : sc_sl_done c = false ->
  (fst (sl_done enc_field cfg c sid r) = c /\ take_stream (sc_gone c) sid = None /\
   forall s, strms_search (sc_strms c) sid = Some s -> st_handlerRunning s = false) \/
  (exists b, mv (Some sid) c b /\ mvs [] b (fst (sl_done enc_field cfg c sid r))).
Proof.
  intro Hd. unfold sl_done.
  destruct (take_stream (sc_gone c) sid) as [[s rest]|] eqn:TS.
  { right. cbn [cont fst]. eexists. split; [apply mv_done_gone; eassumption | constructor]. }
  destruct (strms_search (sc_strms c) sid) as [s|] eqn:SS; [|left; repeat split; intros; discriminate].
  destruct (negb (st_handlerRunning s)) eqn:HR.
  { left. repeat split. intros s' E. inversion E; subst. apply negb_true_iff. assumption. }
  right. apply negb_false_iff in HR.
  destruct (strms_search_In _ _ _ SS) as [_ Es].
  set (s1 := set_flags s (st_responded s) false (st_abandoned s)).
  pose proof (lite_finish_request _ enc_field cfg c s1 r Hd) as L.
  destruct (sloc_finish_request c s1 r) as [S HQ].
  destruct (finish_request enc_field c s1 r) as [[c1 s2] fin]. cbn [fst snd] in *.
  assert (Hd1 : sc_sl_done c1 = false) by (rewrite (lite_sl_done _ _ _ _ L); assumption).
  destruct S as (Si & So & Sr & Sp). cbn [s1 set_flags st_id st_orig st_handlerRunning st_responded] in Si, So, Sr, Sp.
  assert (RET : forall x, st_id x = st_id s2 -> st_orig x = st_orig s2 -> st_handlerRunning x = st_handlerRunning s2 ->
                          (st_responded s2 = true -> st_responded x = true) -> (Q s2 -> Q x) ->
                          mv (Some sid) c (put c1 x)).
  { intros x Xi Xo Xr Xp XQ. rewrite <- Es, <- Si, <- Xi.
    apply mv_returned with (old := s); rewrite ?Xi, ?Si, ?Es; try assumption; try congruence.
    - auto.
    - intro Qs. apply XQ, HQ. unfold s1. auto. }
  destruct fin.
  - set (x := set_state s2 SClosed).
    exists (put c1 x). split; [apply (RET x eq_refl eq_refl eq_refl (fun h => h) (HQ_closed s2))|].
    eapply mvs0_trans.
    + apply mvs0_one. apply mv_close with (old := x) (x := x); [rewrite sc_sl_done_put; assumption | | apply sloc_refl | auto].
      rewrite sc_strms_put. eapply search_put_same. rewrite (lite_strms _ _ _ _ L).
      change (st_id x) with (st_id s2). rewrite Si, Es. exact SS.
    + apply mvs_brk_if. rewrite sc_sl_done_close_stream, sc_sl_done_put. assumption.
  - exists (put c1 s2). split; [apply (RET s2 eq_refl eq_refl eq_refl (fun h => h) (fun h => h))|].
    apply mvs_brk_if. rewrite sc_sl_done_put. assumption.
Qed.

End Moves.
Arguments ids_ok {hstate}.
Arguments dispatchable x : simpl never.
