(* Arithmetic behind the frame codec: the shift/or/mask expressions of the Go code are the
   big-endian encodings of the specification. *)
From Coq Require Import List NArith ZArith Bool Lia.
From Coq Require Import ZifyN ZifyNat ZifyBool.
From H2V Require Import Base.Bytes Base.MachineInt Base.Result Spec.Rfc7540Frames Impl.Pools Impl.Frames
  Impl.FrameView Proofs.HpackBytes.
Import ListNotations.
Local Open Scope N_scope.
Ltac Zify.zify_post_hook ::= Z.div_mod_to_equations.

Lemma shlw32_byte b n : b < 256 -> n <= 24 -> shlw 32 b n = b * 2 ^ n.
Proof.
  intros Hb Hn. unfold shlw, wrap. rewrite N.shiftl_mul_pow2.
  apply N.mod_small.
  assert (2 ^ n <= 2 ^ 24) by (apply N.pow_le_mono_r; lia).
  change (2 ^ 32) with (256 * 2 ^ 24). change (2 ^ 24) with 16777216 in *. nia.
Qed.

Lemma shlw16_byte b : b < 256 -> shlw 16 b 8 = b * 256.
Proof.
  intros Hb. unfold shlw, wrap. rewrite N.shiftl_mul_pow2. change (2 ^ 8) with 256. change (2 ^ 16) with 65536.
  apply N.mod_small. lia.
Qed.

Lemma unbe2 a b : unbe [a; b] = a * 256 + b.
Proof. reflexivity. Qed.
Lemma unbe3 a b c : unbe [a; b; c] = (a * 256 + b) * 256 + c.
Proof. reflexivity. Qed.
Lemma unbe4 a b c d : unbe [a; b; c; d] = ((a * 256 + b) * 256 + c) * 256 + d.
Proof. reflexivity. Qed.

Lemma unbe2_lt a b : a < 256 -> b < 256 -> unbe [a; b] < 2 ^ 16.
Proof. rewrite unbe2. change (2 ^ 16) with 65536. lia. Qed.
Lemma unbe3_lt a b c : a < 256 -> b < 256 -> c < 256 -> unbe [a; b; c] < 2 ^ 24.
Proof. rewrite unbe3. change (2 ^ 24) with 16777216. lia. Qed.
Lemma unbe4_lt a b c d : a < 256 -> b < 256 -> c < 256 -> d < 256 -> unbe [a; b; c; d] < 2 ^ 32.
Proof. rewrite unbe4. change (2 ^ 32) with 4294967296. lia. Qed.

Lemma be2_eq x : be 2 x = [(x / 256) mod 256; x mod 256].
Proof. cbn [be]. change (256 ^ N.of_nat 1) with 256. change (256 ^ N.of_nat 0) with 1. rewrite N.div_1_r. reflexivity. Qed.
Lemma be3_eq x : be 3 x = [(x / 65536) mod 256; (x / 256) mod 256; x mod 256].
Proof.
  cbn [be]. change (256 ^ N.of_nat 2) with 65536. change (256 ^ N.of_nat 1) with 256.
  change (256 ^ N.of_nat 0) with 1. rewrite N.div_1_r. reflexivity.
Qed.
Lemma be4_eq x : be 4 x = [(x / 16777216) mod 256; (x / 65536) mod 256; (x / 256) mod 256; x mod 256].
Proof.
  cbn [be]. change (256 ^ N.of_nat 3) with 16777216. change (256 ^ N.of_nat 2) with 65536.
  change (256 ^ N.of_nat 1) with 256. change (256 ^ N.of_nat 0) with 1. rewrite N.div_1_r. reflexivity.
Qed.

Lemma be2_unbe a b : a < 256 -> b < 256 -> be 2 (unbe [a; b]) = [a; b].
Proof. intros. rewrite be2_eq, unbe2. f_equal; [|f_equal]; lia. Qed.
Lemma be3_unbe a b c : a < 256 -> b < 256 -> c < 256 -> be 3 (unbe [a; b; c]) = [a; b; c].
Proof. intros. rewrite be3_eq, unbe3. f_equal; [|f_equal; [|f_equal]]; lia. Qed.
Lemma be4_unbe a b c d : a < 256 -> b < 256 -> c < 256 -> d < 256 -> be 4 (unbe [a; b; c; d]) = [a; b; c; d].
Proof. intros. rewrite be4_eq, unbe4. f_equal; [|f_equal; [|f_equal; [|f_equal]]]; lia. Qed.

Lemma unbe_be2 x : x < 2 ^ 16 -> unbe (be 2 x) = x.
Proof. change (2 ^ 16) with 65536. intros. rewrite be2_eq, unbe2. lia. Qed.
Lemma unbe_be3 x : x < 2 ^ 24 -> unbe (be 3 x) = x.
Proof. change (2 ^ 24) with 16777216. intros. rewrite be3_eq, unbe3. lia. Qed.
Lemma unbe_be4 x : x < 2 ^ 32 -> unbe (be 4 x) = x.
Proof. change (2 ^ 32) with 4294967296. intros. rewrite be4_eq, unbe4. lia. Qed.

Lemma be_length n x : length (be n x) = n.
Proof. induction n; cbn [be length]; congruence. Qed.

Lemma be_bytes_ok n x : bytes_ok (be n x) = true.
Proof.
  induction n; cbn [be bytes_ok forallb]; [reflexivity|].
  fold (bytes_ok (be n x)). rewrite IHn, andb_true_r. unfold byte_ok. apply N.ltb_lt.
  apply N.mod_lt. discriminate.
Qed.

Lemma lor_add_num a b k m : m = 2 ^ k -> b < m -> N.lor (a * m) b = a * m + b.
Proof. intros -> H. apply lor_mul_pow2_add. assumption. Qed.

Lemma bytes_to_uint32_unbe a b c d r :
  a < 256 -> b < 256 -> c < 256 -> d < 256 ->
  bytes_to_uint32 (a :: b :: c :: d :: r) = Ok (unbe [a; b; c; d]).
Proof.
  intros. unfold bytes_to_uint32. f_equal.
  rewrite !shlw32_byte by lia.
  change (2 ^ 24) with 16777216. change (2 ^ 16) with 65536. change (2 ^ 8) with 256.
  rewrite (lor_add_num a (b * 65536) 24 16777216 eq_refl) by lia.
  replace (a * 16777216 + b * 65536) with ((a * 256 + b) * 65536) by lia.
  rewrite (lor_add_num _ (c * 256) 16 65536 eq_refl) by lia.
  replace ((a * 256 + b) * 65536 + c * 256) with (((a * 256 + b) * 256 + c) * 256) by lia.
  rewrite (lor_add_num _ d 8 256 eq_refl) by lia.
  rewrite unbe4. reflexivity.
Qed.

Lemma bytes_to_uint24_unbe a b c r :
  a < 256 -> b < 256 -> c < 256 -> bytes_to_uint24 (a :: b :: c :: r) = Ok (unbe [a; b; c]).
Proof.
  intros. unfold bytes_to_uint24. f_equal.
  rewrite !shlw32_byte by lia.
  change (2 ^ 16) with 65536. change (2 ^ 8) with 256.
  rewrite (lor_add_num a (b * 256) 16 65536 eq_refl) by lia.
  replace (a * 65536 + b * 256) with ((a * 256 + b) * 256) by lia.
  rewrite (lor_add_num _ c 8 256 eq_refl) by lia.
  rewrite unbe3. reflexivity.
Qed.

Lemma key16_unbe a b : a < 256 -> b < 256 -> N.lor (shlw 16 a 8) b = unbe [a; b].
Proof.
  intros. rewrite shlw16_byte by assumption.
  rewrite (lor_add_num a b 8 256 eq_refl) by lia. reflexivity.
Qed.

Lemma value32_unbe a b c d : a < 256 -> b < 256 -> c < 256 -> d < 256 ->
  N.lor (N.lor (N.lor (shlw 32 a 24) (shlw 32 b 16)) (shlw 32 c 8)) d = unbe [a; b; c; d].
Proof.
  intros Ha Hb Hc Hd. pose proof (bytes_to_uint32_unbe a b c d [] Ha Hb Hc Hd) as E.
  unfold bytes_to_uint32 in E. injection E. trivial.
Qed.

Lemma mask31_low31 s : N.land s mask31 = low31 s.
Proof. unfold mask31, low31. change (2 ^ 31 - 1) with (N.ones 31). apply N.land_ones. Qed.

Lemma u8_shiftr n k : u8 (N.shiftr n k) = (n / 2 ^ k) mod 256.
Proof. unfold u8, wrap. rewrite N.shiftr_div_pow2. reflexivity. Qed.

Lemma uint32_to_bytes_be n : uint32_to_bytes n = be 4 n.
Proof.
  unfold uint32_to_bytes. rewrite be4_eq, !u8_shiftr. unfold u8, wrap. reflexivity.
Qed.

Lemma uint24_to_bytes_be n : uint24_to_bytes n = be 3 n.
Proof.
  unfold uint24_to_bytes. rewrite be3_eq, !u8_shiftr. unfold u8, wrap. reflexivity.
Qed.

Lemma setting_entry_be id v : setting_entry id v = be 2 id ++ be 4 v.
Proof.
  unfold setting_entry. rewrite be2_eq, be4_eq, !u8_shiftr. unfold u8, wrap. reflexivity.
Qed.

(* word31: one leading bit and 31 value bits *)
Lemma word31_lt r v : v < 2 ^ 31 -> word31 r v < 2 ^ 32.
Proof. unfold word31. change (2 ^ 32) with 4294967296. change (2 ^ 31) with 2147483648. destruct r; lia. Qed.
Lemma top_bit_word31 r v : v < 2 ^ 31 -> top_bit (word31 r v) = r.
Proof.
  unfold top_bit, word31. change (2 ^ 31) with 2147483648. intros. destruct r.
  - apply N.leb_le. lia.
  - apply N.leb_gt. lia.
Qed.
Lemma low31_word31 r v : v < 2 ^ 31 -> low31 (word31 r v) = v.
Proof. unfold low31, word31. change (2 ^ 31) with 2147483648. intros. destruct r; lia. Qed.
Lemma word31_top_low x : x < 2 ^ 32 -> word31 (top_bit x) (low31 x) = x.
Proof.
  unfold word31, top_bit, low31. change (2 ^ 32) with 4294967296. change (2 ^ 31) with 2147483648. intros.
  destruct (2147483648 <=? x) eqn:E; [apply N.leb_le in E|apply N.leb_gt in E]; lia.
Qed.
Lemma low31_lt x : low31 x < 2 ^ 31.
Proof. unfold low31. apply N.mod_lt. discriminate. Qed.

(* flags: Has with a one-bit constant is the RFC's bit test; with(f, on) sets or clears that bit *)
Lemma has_pow2 fl i : has fl (2 ^ i) = flag fl i.
Proof.
  unfold has, flag. destruct (N.testbit fl i) eqn:E.
  - apply N.eqb_eq, N.bits_inj. intro n. rewrite N.land_spec, N.pow2_bits_eqb.
    destruct (N.eqb_spec i n) as [<-|_]; [rewrite E; reflexivity | apply andb_false_r].
  - apply N.eqb_neq. intro H. apply (f_equal (fun x => N.testbit x i)) in H.
    rewrite N.land_spec, N.pow2_bits_true, E in H. discriminate H.
Qed.

Lemma has_flag fl : has fl 1 = flag fl 0 /\ has fl 4 = flag fl 2 /\ has fl 8 = flag fl 3 /\ has fl 32 = flag fl 5.
Proof. exact (conj (has_pow2 fl 0) (conj (has_pow2 fl 2) (conj (has_pow2 fl 3) (has_pow2 fl 5)))). Qed.

Lemma flag_set_bit fl i on j : flag (set_bit fl (2 ^ i) on) j = if i =? j then on else flag fl j.
Proof.
  unfold flag, set_bit. destruct on; [rewrite N.lor_spec | rewrite N.ldiff_spec]; rewrite N.pow2_bits_eqb;
    destruct (i =? j); cbn [negb]; [apply orb_true_r | apply orb_false_r | apply andb_false_r | apply andb_true_r].
Qed.

(* the four bits the frame bodies write, as the Go code names them *)
Lemma flag_set1 fl on j : flag (set_bit fl 1 on) j = if 0 =? j then on else flag fl j.
Proof. apply (flag_set_bit fl 0). Qed.
Lemma flag_set4 fl on j : flag (set_bit fl 4 on) j = if 2 =? j then on else flag fl j.
Proof. apply (flag_set_bit fl 2). Qed.
Lemma flag_set8 fl on j : flag (set_bit fl 8 on) j = if 3 =? j then on else flag fl j.
Proof. apply (flag_set_bit fl 3). Qed.
Lemma flag_set32 fl on j : flag (set_bit fl 32 on) j = if 5 =? j then on else flag fl j.
Proof. apply (flag_set_bit fl 5). Qed.
#[export] Hint Rewrite flag_set1 flag_set4 flag_set8 flag_set32 : setbit.

Lemma set_bit_lt fl i on n : fl < 2 ^ n -> i < n -> set_bit fl (2 ^ i) on < 2 ^ n.
Proof.
  intros H I. apply N.mod_small_iff; [apply N.pow_nonzero; discriminate|]. apply N.bits_inj. intro m.
  destruct (N.lt_ge_cases m n) as [L|G]; [apply N.mod_pow2_bits_low, L|].
  rewrite N.mod_pow2_bits_high by exact G. symmetry. change (flag (set_bit fl (2 ^ i) on) m = false).
  rewrite flag_set_bit. replace (i =? m) with false by (symmetry; apply N.eqb_neq; lia).
  unfold flag. rewrite <- (N.mod_small fl (2 ^ n)) by exact H. apply N.mod_pow2_bits_high, G.
Qed.
