(* Proofs/CliMsgMoves.v - C02 / C20 (client): "quiet moves" of the client connection.

   qm P c c'   c' is c after something that
                 - leaves the read loop's decoder and header-block registers alone,
                 - leaves nextID and the write loop's encoder alone,
                 - changes no Ctx in (tag, streamID, Response, gotStatus, Request), and does not put nil
                   (nor ErrNoMoreStreamIDs) into an Err channel,
                 - only REMOVES entries from reqQueued and from the in queue,
                 - adds to the trace only items satisfying P (no HEADERS, no result; for P = q2 no DATA either),
                 - revives no loop.
   Everything the model does is a quiet move except: Conn.Write (a new Ctx), writeRequest up to its HEADERS frame,
   dispatch (header/DATA frames go into the Response of the request on the frame's stream), and the caller
   taking its result.  Reflexive, transitive; one lemma per helper function. *)
From H2V Require Import Base.Bytes Base.MachineInt Gen.GenConsts Impl.ServerConn Impl.ClientConn Proofs.CliBase.
From Coq Require Import ZArith Lia ZifyN ZifyNat ZifyBool List.
Import ListNotations.
Local Open Scope N_scope.
Set Default Proof Using "Type".

Lemma NoDup_snoc {A} (l : list A) a : NoDup l -> ~ In a l -> NoDup (l ++ [a]).
Proof. intros H NI. apply (NoDup_Add (Add_app a l [])). rewrite app_nil_r. auto. Qed.

Lemma flat_map_nil {A B} (f : A -> list B) l : (forall a, In a l -> f a = []) -> flat_map f l = [].
Proof.
  induction l as [|a t IH]; intro H; [reflexivity|]. cbn [flat_map].
  rewrite (H a (or_introl eq_refl)), IH; [reflexivity | intros b Hb; apply H; right; exact Hb].
Qed.

Definition q1 (o : coutev) : bool := match o with COHeaders _ _ _ | COResult _ _ _ _ => false | _ => true end.
Definition q2 (o : coutev) : bool := match o with COHeaders _ _ _ | COResult _ _ _ _ | COData _ _ _ => false | _ => true end.
Definition q0 (o : coutev) : bool := match o with COResult _ _ _ _ => false | _ => true end.
Lemma q1_q0_all l : forallb q1 l = true -> forallb q0 l = true.
Proof. induction l as [|o t IH]; [reflexivity|]. cbn [forallb]. intro H. apply andb_true_iff in H. destruct H as [A B]. rewrite (IH B), andb_true_r. destruct o; auto. Qed.
Lemma q2_q1 o : q2 o = true -> q1 o = true. Proof. destruct o; auto. Qed.
Lemma q2_q1_all l : forallb q2 l = true -> forallb q1 l = true.
Proof. induction l as [|o t IH]; [reflexivity|]. cbn [forallb]. intro H. apply andb_true_iff in H. destruct H as [A B]. rewrite (q2_q1 _ A), (IH B). reflexivity. Qed.

(* errors whose delivery the properties single out *)
Definition err_special (e : cerr) : bool := match e with CENil | CENoIDs => true | _ => false end.

(* the part of a Ctx a quiet move keeps *)
Definition cvw (x : cctx) : N * cresponse * bool * crequest := (ct_sid x, ct_resp x, ct_gotStatus x, ct_req x).
Definition ctx_q (x x' : cctx) : Prop :=
  ct_tag x' = ct_tag x /\ cvw x' = cvw x /\ (forall e, ct_err x' = Some e -> err_special e = true -> ct_err x = Some e).

Lemma ctx_q_refl x : ctx_q x x. Proof. repeat split; auto. Qed.
Lemma ctx_q_trans x y z : ctx_q x y -> ctx_q y z -> ctx_q x z.
Proof. intros (A & B & C) (A' & B' & C'). repeat split; [congruence | congruence | intros e H S; apply C; [apply C'|]; assumption]. Qed.

Section Moves.
Context {hstate : Type}.
Implicit Types c : cconn hstate.

(* Conn.Write hands a new Ctx to the connection *)
Lemma ctx_get_addctx c tag rq armed : cl_ctx_get c tag = None -> forall t,
  cl_ctx_get (ccu_ctxs c (cc_ctxs c ++ [cl_new_ctx tag rq armed])) t = if t =? tag then Some (cl_new_ctx tag rq armed) else cl_ctx_get c t.
Proof.
  intros GN t. unfold cl_ctx_get in *. cbn [cc_ctxs ccu_ctxs]. rewrite cl_ctxs_get_app. cbn [cl_ctxs_get ct_tag cl_new_ctx].
  rewrite (N.eqb_sym tag t). destruct (t =? tag) eqn:E.
  - apply N.eqb_eq in E. subst t. rewrite GN. reflexivity.
  - destruct (cl_ctxs_get (cc_ctxs c) t); reflexivity.
Qed.

(* hdrErr only ever holds the error of a malformed response header *)
Lemma rhf_err rs st r k v : forall e, snd (cl_read_header_field rs st r k v) = Some e -> e = CEMalformed.
Proof.
  unfold cl_read_header_field. intro e.
  repeat match goal with
         | |- context [if ?b then _ else _] => destruct b
         | |- context [match parse_uint ?x with _ => _ end] => destruct (parse_uint x)
         end; cbn [snd]; intro H; inversion H; reflexivity.
Qed.

Lemma hdr_loop_herr (dec_field : hstate -> N -> bytes -> dec_res hstate) fuel : forall eh d n rs st he res b,
  (forall e, he = Some e -> e = CEMalformed) ->
  forall e, snd (fst (fst (fst (cl_hdr_loop dec_field fuel eh d n rs st he res b)))) = Some e -> e = CEMalformed.
Proof.
  induction fuel as [|fuel IH]; intros eh d n rs st he res b H; cbn [cl_hdr_loop]; [exact H|].
  destruct b as [|x b]; [exact H|].
  destruct (dec_field d n (x :: b)) as [k v rest d1|d1|d1|d1|]; try exact H.
  - destruct res as [r|]; [destruct he as [e0|]|]; try (apply IH; exact H).
    pose proof (rhf_err rs st r k v) as E. destruct (cl_read_header_field rs st r k v) as [[[rs1 st1] r1] e1]. apply IH. exact E.
  - destruct (negb eh); exact H.
Qed.

Definition ctxs_q c c' : Prop :=
  forall tag, match cl_ctx_get c' tag, cl_ctx_get c tag with
              | Some x', Some x => ctx_q x x'
              | None, None => True
              | _, _ => False
              end.

Record qm (P : coutev -> bool) c c' : Prop := mkQM {
  qm_dec : cc_dec c' = cc_dec c;
  qm_hs : cc_hdrStream c' = cc_hdrStream c;
  qm_hp : cc_hdrPrev c' = cc_hdrPrev c;
  qm_hf : cc_hdrFields c' = cc_hdrFields c;
  qm_he : cc_hdrEndStream c' = cc_hdrEndStream c;
  qm_hr : cc_hdrRegularSeen c' = cc_hdrRegularSeen c;
  qm_hst : cc_hdrStatus c' = cc_hdrStatus c;
  qm_herr : cc_hdrErr c' = cc_hdrErr c;
  qm_next : cc_nextID c' = cc_nextID c;
  qm_enc : cc_enc c' = cc_enc c;
  qm_encSeen : cc_encTableSeen c' = cc_encTableSeen c;
  qm_ctx : ctxs_q c c';
  qm_rq : (forall p, In p (cc_reqQueued c') -> In p (cc_reqQueued c)) /\
          (NoDup (map fst (cc_reqQueued c)) -> NoDup (map fst (cc_reqQueued c')));
  qm_inq : (forall t, In t (cc_inQ c') -> In t (cc_inQ c)) /\ (NoDup (cc_inQ c) -> NoDup (cc_inQ c'));
  qm_le : forall e, cc_lastErr c' = Some e -> err_special e = true -> cc_lastErr c = Some e;
  qm_out : exists new, cc_out c' = new ++ cc_out c /\ forallb P new = true;
  qm_outq : forallb q2 (cc_outQ c) = true -> forallb q2 (cc_outQ c') = true;
  qm_rl : cl_rl_live c' = true -> cl_rl_live c = true;
  qm_wl : cl_wl_live c' = true -> cl_wl_live c = true
}.

Lemma ctxs_q_refl c : ctxs_q c c.
Proof. intro tag. destruct (cl_ctx_get c tag); [apply ctx_q_refl | exact I]. Qed.
Lemma ctxs_q_trans a b c : ctxs_q a b -> ctxs_q b c -> ctxs_q a c.
Proof.
  intros H1 H2 tag. specialize (H1 tag). specialize (H2 tag).
  destruct (cl_ctx_get c tag), (cl_ctx_get b tag), (cl_ctx_get a tag); try contradiction; try exact I.
  eapply ctx_q_trans; eassumption.
Qed.

Lemma ctxs_q_same c c' : cc_ctxs c' = cc_ctxs c -> ctxs_q c c'.
Proof. intros E tag. unfold cl_ctx_get. rewrite E. destruct (cl_ctxs_get (cc_ctxs c) tag); [apply ctx_q_refl | exact I]. Qed.

Lemma qm_refl P c : qm P c c.
Proof.
  constructor; try reflexivity; auto.
  - apply ctxs_q_refl.
  - exists []. split; reflexivity.
Qed.

Lemma qm_trans P a b c : qm P a b -> qm P b c -> qm P a c.
Proof.
  intros [] []. constructor; try congruence; auto.
  - eapply ctxs_q_trans; eassumption.
  - destruct qm_rq0, qm_rq1. split; auto.
  - destruct qm_inq0, qm_inq1. split; auto.
  - destruct qm_out0 as (n0 & E0 & F0), qm_out1 as (n1 & E1 & F1). exists (n1 ++ n0). split.
    + rewrite E1, E0, app_assoc. reflexivity.
    + rewrite forallb_app, F1, F0. reflexivity.
Qed.

Lemma qm_weaken c c' : qm q2 c c' -> qm q1 c c'.
Proof. intros []. constructor; auto. destruct qm_out0 as (n & E & F). exists n. split; [exact E | apply q2_q1_all; exact F]. Qed.

Lemma qm_weaken0 c c' : qm q1 c c' -> qm q0 c c'.
Proof. intros []. constructor; auto. destruct qm_out0 as (n & E & F). exists n. split; [exact E | apply q1_q0_all; exact F]. Qed.

Definition tracked c :=
  (cc_dec c, cc_hdrStream c, cc_hdrPrev c, cc_hdrFields c, cc_hdrEndStream c, cc_hdrRegularSeen c, cc_hdrStatus c, cc_hdrErr c,
   cc_nextID c, cc_enc c, cc_encTableSeen c, cc_ctxs c, cc_reqQueued c, cc_inQ c, cc_lastErr c, cc_out c, cc_outQ c,
   (cc_rl_done c, cc_rl_stuck c, cc_wl_done c, cc_wl_stuck c)).

Lemma qm_same P c c' : tracked c' = tracked c -> qm P c c'.
Proof.
  unfold tracked. intro H. inversion H.
  constructor; auto; try congruence.
  - intro tag. unfold cl_ctx_get. rewrite H12. destruct (cl_ctxs_get (cc_ctxs c) tag); [apply ctx_q_refl | exact I].
  - rewrite H13. split; auto.
  - rewrite H14. split; auto.
  - exists []. split; [rewrite H16; reflexivity | reflexivity].
  - unfold cl_rl_live. congruence.
  - unfold cl_wl_live. congruence.
Qed.

Lemma qm_note P c o : P o = true -> qm P c (cl_note c o).
Proof.
  intro H. constructor; try reflexivity; auto.
  - apply ctxs_q_same; reflexivity.
  - exists [o]. split; [reflexivity | cbn; rewrite H; reflexivity].
Qed.

Lemma qm_notes P c l : forallb P l = true -> qm P c (cl_notes c l).
Proof.
  revert c. induction l as [|o t IH]; intros c H; [apply qm_refl|]. cbn [cl_notes forallb] in *.
  apply andb_true_iff in H. destruct H as [A B]. eapply qm_trans; [apply qm_note; exact A | apply IH; exact B].
Qed.

Lemma qm_ctxs P c l : ctxs_q c (ccu_ctxs c l) -> qm P c (ccu_ctxs c l).
Proof. intro H. constructor; try reflexivity; auto. exists []. split; reflexivity. Qed.

Lemma ctxs_q_put c x x0 : cl_ctx_get c (ct_tag x0) = Some x -> ctx_q x x0 -> ctxs_q c (cl_ctx_put c x0).
Proof.
  intros G Q tag. rewrite cl_ctx_get_put. destruct (tag =? ct_tag x0) eqn:E.
  - replace tag with (ct_tag x0) by lia. rewrite G. exact Q.
  - destruct (cl_ctx_get c tag); [apply ctx_q_refl | exact I].
Qed.

Lemma qm_ctx_put P c x x0 : cl_ctx_get c (ct_tag x0) = Some x -> ctx_q x x0 -> qm P c (cl_ctx_put c x0).
Proof. intros G Q. apply qm_ctxs. exact (ctxs_q_put _ _ _ G Q). Qed.

Lemma qm_ctx_upd P c tag f : (forall x, ctx_q x (f x)) -> qm P c (cl_ctx_upd c tag f).
Proof.
  intro F. unfold cl_ctx_upd. destruct (cl_ctx_get c tag) as [x|] eqn:G; [|apply qm_refl].
  destruct (F x) as (T & _). apply (qm_ctx_put P c x (f x)); [|apply F].
  rewrite T. destruct (cl_ctxs_get_In _ _ _ G) as [_ E]. rewrite E. exact G.
Qed.

(* ctx.resolve with an error that is not nil *)
Lemma ctx_q_resolve x e : err_special e = false -> ctx_q x (cl_ctx_resolve x e).
Proof.
  intro S. rewrite cl_ctx_resolve_eq. destruct (negb (ct_resolved x) && match ct_err x with None => true | Some _ => false end); [|apply ctx_q_refl].
  repeat split. cbn. intros e0 H S0. inversion H; subst. congruence.
Qed.

Lemma qm_resolve P c tag e : err_special e = false -> qm P c (cl_resolve c tag e).
Proof. intro S. apply qm_ctx_upd. intro x. apply ctx_q_resolve, S. Qed.

Lemma qm_resolve_all P c tags e : err_special e = false -> qm P c (cl_resolve_all c tags e).
Proof.
  intro S. revert c. induction tags as [|t r IH]; intro c; [apply qm_refl|]. cbn [cl_resolve_all].
  eapply qm_trans; [apply qm_resolve, S | apply IH].
Qed.

Lemma ctx_q_finished_resolve x e b : err_special e = false -> ctx_q x (cl_ctx_resolve (ctu_finished x b) e).
Proof. intro S. eapply ctx_q_trans; [|apply ctx_q_resolve, S]. repeat split; auto. Qed.

Lemma qm_reqQueued_filter P c f : qm P c (ccu_reqQueued c (filter f (cc_reqQueued c))).
Proof.
  constructor; try reflexivity; auto.
  - apply ctxs_q_same; reflexivity.
  - cbn. split.
    + intros p H. apply filter_In in H. tauto.
    + induction (cc_reqQueued c) as [|p t IH]; [auto|]. cbn [map filter]. intro H. inversion H; subst.
      destruct (f p); [|auto]. cbn [map]. constructor; [|auto]. intro I. apply H2.
      apply in_map_iff in I. destruct I as (q & E & I). apply filter_In in I. apply in_map_iff. exists q. tauto.
  - exists []. split; reflexivity.
Qed.

Lemma qm_reqQueued_nil P c : qm P c (ccu_reqQueued c []).
Proof.
  constructor; try reflexivity; auto.
  - apply ctxs_q_same; reflexivity.
  - cbn. split; [intros p [] | intros _; constructor].
  - exists []. split; reflexivity.
Qed.

Lemma qm_inQ_nil P c : qm P c (ccu_inQ c []).
Proof.
  constructor; try reflexivity; auto.
  - apply ctxs_q_same; reflexivity.
  - cbn. split; [intros p [] | intros _; constructor].
  - exists []. split; reflexivity.
Qed.

Lemma qm_inQ_tail P c t q : cc_inQ c = t :: q -> qm P c (ccu_inQ c q).
Proof.
  intro E. constructor; try reflexivity; auto.
  - apply ctxs_q_same; reflexivity.
  - cbn. rewrite E. split; [intros p H; right; exact H | intro H; inversion H; assumption].
  - exists []. split; reflexivity.
Qed.

Lemma qm_outQ P c q : (forallb q2 (cc_outQ c) = true -> forallb q2 q = true) -> qm P c (ccu_outQ c q).
Proof.
  intro H. constructor; try reflexivity; auto.
  - apply ctxs_q_same; reflexivity.
  - exists []. split; reflexivity.
Qed.

Lemma qm_lastErr P c e : err_special e = false -> qm P c (ccu_lastErr c (Some e)).
Proof.
  intro S. constructor; try reflexivity; auto.
  - apply ctxs_q_same; reflexivity.
  - cbn. intros e0 H S0. inversion H; subst. congruence.
  - exists []. split; reflexivity.
Qed.

Lemma qm_rl_done P c : qm P c (ccu_rl_done c true).
Proof. constructor; try reflexivity; auto; [apply ctxs_q_same; reflexivity | exists []; split; reflexivity | unfold cl_rl_live; cbn; discriminate]. Qed.
Lemma qm_rl_stuck P c : qm P c (ccu_rl_stuck c true).
Proof. constructor; try reflexivity; auto; [apply ctxs_q_same; reflexivity | exists []; split; reflexivity | unfold cl_rl_live; cbn; rewrite andb_false_r; discriminate]. Qed.
Lemma qm_wl_done P c : qm P c (ccu_wl_done c true).
Proof. constructor; try reflexivity; auto; [apply ctxs_q_same; reflexivity | exists []; split; reflexivity | unfold cl_wl_live; cbn; discriminate]. Qed.
Lemma qm_wl_stuck P c : qm P c (ccu_wl_stuck c true).
Proof. constructor; try reflexivity; auto; [apply ctxs_q_same; reflexivity | exists []; split; reflexivity | unfold cl_wl_live; cbn; rewrite andb_false_r; discriminate]. Qed.

Ltac qsame := apply qm_same; reflexivity.
Ltac qset := match goal with |- qm _ ?b (?s ?inner ?v) => unify b inner; apply qm_same; reflexivity end.
Ltac qthen := eapply qm_trans.
Ltac qnote := apply qm_note; reflexivity.

Lemma qm_set_last_err P c e : err_special e = false -> qm P c (cl_set_last_err c e).
Proof. intro S. unfold cl_set_last_err. destruct (cc_lastErr c); [apply qm_refl | apply qm_lastErr, S]. Qed.

Lemma qm_req_del P c id : qm P c (cl_req_del c id).
Proof. apply qm_reqQueued_filter. Qed.

Lemma qm_take_req_count P c id : qm P c (cl_take_req_count c id).
Proof.
  unfold cl_take_req_count. destruct (cl_req_find (cc_reqQueued c) id); [|apply qm_refl].
  qthen; [apply qm_req_del | qsame].
Qed.

Lemma qm_write_out P c o : q2 o = true -> qm P c (cl_write_out c o).
Proof.
  intro H. unfold cl_write_out. destruct (cc_closed c); [apply qm_refl|]. apply qm_outQ.
  intro F. rewrite forallb_app, F. cbn. rewrite H. reflexivity.
Qed.

Lemma qm_signal_window P c : qm P c (cl_signal_window c).
Proof. qsame. Qed.

Lemma qm_close_net c : qm q2 c (cl_close_net c).
Proof. unfold cl_close_net. qthen; [|qset]. destruct (cl_can_write c); [qnote | apply qm_refl]. Qed.

Lemma qm_conn_close c : qm q2 c (cl_conn_close c).
Proof.
  unfold cl_conn_close, cl_close_begin. destruct (cc_closed c); [apply qm_refl|].
  qthen; [|apply qm_close_net]. qsame.
Qed.

Lemma qm_stuck_fold P held : forall c, qm P c (fold_left (fun c t => cl_ctx_upd c t (fun x => ctu_lckStuck x true)) held c).
Proof.
  induction held as [|t r IH]; intro c; [apply qm_refl|]. cbn [fold_left].
  qthen; [|apply IH]. apply qm_ctx_upd. intro x. repeat split; auto.
Qed.

Lemma qm_go_stuck who held c self tag : qm q2 c (cl_go_stuck who held c self tag).
Proof.
  unfold cl_go_stuck.
  assert (A : qm q2 c (cl_note (fold_left (fun c t => cl_ctx_upd c t (fun x => ctu_lckStuck x true)) held c)
                               (if self then COSelfDeadlock who tag else COBlocked who tag))).
  { qthen; [apply qm_stuck_fold|]. apply qm_note. destruct self; reflexivity. }
  destruct (who =? 0); [qthen; [exact A | apply qm_rl_stuck]|].
  destruct (who =? 1); [qthen; [exact A | apply qm_wl_stuck]|]. exact A.
Qed.

Lemma qm_close_body c pb : qm q2 c (cl_close_body c pb).
Proof.
  unfold cl_close_body. destruct (pb_stream pb); [|apply qm_refl].
  qthen; [|qnote]. apply qm_ctx_upd. intro x. repeat split; auto.
Qed.

Lemma qm_pending P c l : qm P c (ccu_pending c l).
Proof. qsame. Qed.

Lemma qm_delete_pending who held c id : qm q2 c (fst (cl_delete_pending who held c id)).
Proof.
  unfold cl_delete_pending. destruct (cl_pend_get (cc_pending c) id) as [pb|]; [|apply qm_refl].
  destruct (pb_stream pb); [|apply qm_pending].
  destruct (cl_acquire_for held _ (pb_tag pb) id); cbn [fst].
  - qthen; [apply qm_pending | apply qm_close_body].
  - apply qm_pending.
  - qthen; [apply qm_pending | apply qm_go_stuck].
  - qthen; [apply qm_pending | apply qm_go_stuck].
Qed.

Lemma qm_cancel_stream P c id code : qm P c (cl_cancel_stream c id code).
Proof. apply qm_write_out. reflexivity. Qed.

Lemma qm_apply_initial_window P c size : qm P c (cl_apply_initial_window c size).
Proof. qsame. Qed.

Lemma qm_add_window P c sid inc : qm P c (cl_add_window c sid inc).
Proof.
  unfold cl_add_window. qthen; [|apply qm_signal_window].
  destruct (sid =? 0); [qsame|]. destruct (cl_pend_get (cc_pending c) sid); [qsame | apply qm_refl].
Qed.

Lemma qm_update_window P c sid n : qm P c (cl_update_window c sid n).
Proof. apply qm_write_out. reflexivity. Qed.

(* writeLoop's exit, with an error that is not nil *)
Lemma qm_wl_exit c le why :
  match le with Some e => err_special e = false | None => True end -> qm q2 c (cl_wl_exit c le why).
Proof.
  intro S. unfold cl_wl_exit.
  set (e := match le with Some e => e | None => CEConn end).
  assert (SE : err_special e = false) by (subst e; destruct le; [exact S | reflexivity]).
  qthen; [|qnote]. qthen; [|apply qm_wl_done]. qthen; [|apply qm_outQ; reflexivity]. qthen; [|apply qm_inQ_nil].
  qthen; [|apply qm_resolve_all, SE]. qthen; [|apply qm_reqQueued_nil]. qthen; [|apply qm_resolve_all, SE].
  qthen; [|apply qm_conn_close]. apply qm_set_last_err, SE.
Qed.

Variable cfg : cl_config.

Lemma qm_wl_after c : qm q2 c (cl_wl_after cfg c).
Proof. unfold cl_wl_after. destruct (negb (ccf_disableAcks cfg) && (3 <=? cc_unacks c)%Z); [apply qm_wl_exit; reflexivity | apply qm_refl]. Qed.

Lemma qm_wl_out c : forallb q2 (cc_outQ c) = true -> qm q2 c (cl_wl_out cfg c).
Proof.
  intro F. unfold cl_wl_out. destruct (cc_outQ c) as [|o q] eqn:E; [apply qm_refl|].
  cbn [forallb] in F. apply andb_true_iff in F. destruct F as [Fo Fq].
  assert (A : qm q2 c (ccu_outQ c q)) by (apply qm_outQ; intros _; exact Fq).
  destruct (cl_can_write (ccu_outQ c q)).
  - qthen; [|apply qm_wl_after]. qthen; [exact A | apply qm_note, Fo].
  - qthen; [exact A | apply qm_wl_exit; reflexivity].
Qed.

Lemma qm_wl_ping c : qm q2 c (cl_wl_ping cfg c).
Proof.
  unfold cl_wl_ping. destruct (cl_can_write c); [|apply qm_wl_exit; reflexivity].
  qthen; [|apply qm_wl_after]. qthen; [|qset]. qnote.
Qed.

Lemma qm_wl_done_ev c : qm q2 c (cl_wl_done c).
Proof. unfold cl_wl_done. destruct (cc_closed c); [apply qm_wl_exit; exact I | apply qm_refl]. Qed.

Lemma qm_rl_exit c why : qm q2 c (cl_rl_exit c why).
Proof. unfold cl_rl_exit. qthen; [|qnote]. qthen; [apply qm_conn_close | apply qm_rl_done]. Qed.

Lemma qm_rl_fail c : qm q2 c (cl_rl_fail c).
Proof. unfold cl_rl_fail. qthen; [|apply qm_rl_exit]. apply qm_set_last_err; reflexivity. Qed.

Lemma qm_rl_panic c : qm q2 c (cl_rl_panic c).
Proof.
  unfold cl_rl_panic. qthen; [|apply qm_rl_exit]. qthen; [|apply qm_reqQueued_nil]. qthen; [|apply qm_resolve_all; reflexivity].
  qthen; [|apply qm_set_last_err; reflexivity]. qnote.
Qed.

Lemma qm_handle_settings c st : qm q2 c (cl_handle_settings c st).
Proof.
  unfold cl_handle_settings. qthen; [|apply qm_write_out; reflexivity].
  destruct (cs_hasWin st).
  - qthen; [|apply qm_apply_initial_window]. destruct (cl_settings_has st c_HeaderTableSize); qsame.
  - destruct (cl_settings_has st c_HeaderTableSize); qsame.
Qed.

(* finish before it marks the Ctx: the stream is off the table, its pending body off the list and closed *)
Definition finish_drop c (id : N) : cconn hstate :=
  match cl_pend_get (cc_pending (cl_take_req_count c id)) id with
  | Some pb => cl_close_body (ccu_pending (cl_take_req_count c id) (cl_pend_del (cc_pending (cl_take_req_count c id)) id)) pb
  | None => cl_take_req_count c id
  end.

Lemma cl_finish_eq c tag id e :
  cl_finish c tag id e = cl_ctx_upd (finish_drop c id) tag (fun x => cl_ctx_resolve (ctu_finished x true) e).
Proof. reflexivity. Qed.

Lemma qm_finish_drop c id : qm q2 c (finish_drop c id).
Proof.
  unfold finish_drop. qthen; [apply qm_take_req_count|].
  destruct (cl_pend_get _ id); [|apply qm_refl]. qthen; [apply qm_pending | apply qm_close_body].
Qed.

Lemma finish_drop_inQ c id : cc_inQ (finish_drop c id) = cc_inQ c.
Proof. unfold finish_drop. destruct (cl_pend_get _ id); [rewrite cc_inQ_cl_close_body; cbn [cc_inQ ccu_pending]|]; apply cc_inQ_cl_take_req_count. Qed.

Lemma finish_drop_rq c id : cc_reqQueued (finish_drop c id) = filter (fun en => negb (fst en =? id)) (cc_reqQueued c).
Proof.
  unfold finish_drop. destruct (cl_pend_get _ id); [rewrite cc_reqQueued_cl_close_body; cbn [cc_reqQueued ccu_pending]|];
    apply cc_reqQueued_cl_take_req_count.
Qed.

Lemma qm_finish c tag id e : err_special e = false -> qm q2 c (cl_finish c tag id e).
Proof.
  intro S. rewrite cl_finish_eq. qthen; [apply qm_finish_drop | apply qm_ctx_upd; intro x; apply ctx_q_finished_resolve, S].
Qed.

Lemma qm_goaway_fail l : forall c, qm q2 c (fst (cl_goaway_fail c l)).
Proof.
  induction l as [|[id tag] t IH]; intro c; [apply qm_refl|]. cbn [cl_goaway_fail].
  destruct (cl_delete_pending 0 [] (ccu_open c (cc_open c - 1)%Z) id) as [c2 stuck] eqn:D.
  assert (A : qm q2 c c2).
  { qthen; [|pose proof (qm_delete_pending 0 [] (ccu_open c (cc_open c - 1)%Z) id) as Q; rewrite D in Q; exact Q]. qsame. }
  destruct stuck; cbn [fst]; [exact A|].
  qthen; [exact A|]. qthen; [|apply IH]. apply qm_ctx_upd. intro x. apply ctx_q_finished_resolve. reflexivity.
Qed.

Lemma qm_goaway c last : qm q2 c (fst (cl_goaway c last)).
Proof.
  unfold cl_goaway. qthen; [|apply qm_goaway_fail]. qthen; [|apply (qm_reqQueued_filter q2 _ (fun e => negb (last <? fst e)))]. qsame.
Qed.

Lemma qm_submit_check c tag : (forall e, cc_lastErr c = Some e -> err_special e = false) -> qm q2 c (cl_submit_check c tag).
Proof.
  intro LE. unfold cl_submit_check. destruct (cl_ctx_get c tag) as [x|] eqn:G; [|apply qm_refl].
  destruct (ct_writing x); cbn [negb]; [|apply qm_refl].
  assert (T : cl_ctx_get c (ct_tag (ctu_writing x false)) = Some x).
  { cbn. destruct (cl_ctxs_get_In _ _ _ G) as [_ E]. rewrite E. exact G. }
  assert (Q : ctx_q x (ctu_writing x false)) by (repeat split; auto).
  destruct (cc_closed c); cbn [negb]; [|exact (qm_ctx_put _ _ _ _ T Q)].
  destruct (ct_lckStuck (ctu_writing x false)).
  { qthen; [exact (qm_ctx_put _ _ _ _ T Q) | apply qm_go_stuck]. }
  destruct (ct_sid (ctu_writing x false) =? 0); [|exact (qm_ctx_put _ _ _ _ T Q)].
  apply (qm_ctx_put _ _ x).
  - rewrite ct_tag_cl_ctx_resolve. exact T.
  - eapply ctx_q_trans; [|apply ctx_q_resolve]. { repeat split; auto. }
    unfold cl_close_err. destruct (cc_lastErr c) as [e|] eqn:L; [exact (LE e eq_refl) | reflexivity].
Qed.

Lemma qm_timeout_fire c tag : qm q2 c (cl_timeout_fire c tag).
Proof.
  unfold cl_timeout_fire. destruct (cl_ctx_get c tag) as [x|] eqn:G; [|apply qm_refl].
  destruct (ct_armed x && negb (ct_fired x)); [|apply qm_refl].
  apply (qm_ctx_put _ _ x).
  - rewrite ct_tag_cl_ctx_resolve. cbn. destruct (cl_ctxs_get_In _ _ _ G) as [_ E]. rewrite E. exact G.
  - eapply ctx_q_trans; [|apply ctx_q_resolve; reflexivity]. repeat split; auto.
Qed.

Lemma qm_timeout_cancel c tag : qm q2 c (cl_timeout_cancel c tag).
Proof.
  unfold cl_timeout_cancel. destruct (cl_ctx_get c tag) as [x|] eqn:G; [|apply qm_refl].
  destruct (ct_fired x && negb (ct_cancelled x)); [|apply qm_refl].
  assert (A : qm q2 c (cl_ctx_put c (ctu_cancelled x true))).
  { apply (qm_ctx_put _ _ x); [|repeat split; auto]. cbn. destruct (cl_ctxs_get_In _ _ _ G) as [_ E]. rewrite E. exact G. }
  destruct (negb (ct_conn x) || (ct_sid x =? 0)); [exact A|].
  destruct (cl_delete_pending 3 [] (cl_ctx_put c (ctu_cancelled x true)) (ct_sid x)) as [c2 stuck] eqn:D.
  assert (B : qm q2 c c2).
  { qthen; [exact A|]. pose proof (qm_delete_pending 3 [] (cl_ctx_put c (ctu_cancelled x true)) (ct_sid x)) as Q. rewrite D in Q. exact Q. }
  destruct stuck; [exact B|]. qthen; [exact B|]. qthen; [apply qm_take_req_count | apply qm_cancel_stream].
Qed.

Lemma qm_close_call c : qm q2 c (cl_close_call c).
Proof. unfold cl_close_call, cl_close_begin. destruct (cc_closed c); [apply qm_refl | qsame]. Qed.

Lemma qm_close_finish c : qm q2 c (cl_close_finish c).
Proof. unfold cl_close_finish. destruct (cc_closing c); [|apply qm_refl]. qthen; [apply qm_close_net | qsame]. Qed.

(* sendPending: DATA frames only *)
Lemma q1_data_frames fuel : forall sid step body endb, forallb q1 (cl_data_frames fuel sid step body endb) = true.
Proof.
  induction fuel as [|f IH]; intros; cbn [cl_data_frames]; [reflexivity|].
  destruct (len body <=? step); [reflexivity|]. cbn [forallb q1]. apply IH.
Qed.
Lemma q1_write_data mf sid body endb : forallb q1 (cl_write_data mf sid body endb) = true.
Proof. unfold cl_write_data. destruct body; [destruct endb; reflexivity | apply q1_data_frames]. Qed.

Lemma qm_send_pending fuel : forall c id, qm q1 c (fst (cl_send_pending fuel c id)).
Proof.
  induction fuel as [|fuel IH]; intros c id; cbn [cl_send_pending]; [apply qm_refl|].
  destruct (cl_pend_get (cc_pending c) id) as [pb|]; [|apply qm_refl].
  destruct (cl_is_nil (pb_body pb) && match pb_stream pb with Some _ => true | None => false end && negb (pb_drained pb)).
  - destruct (cl_refill pb) as [pb'|].
    + qthen; [|apply IH]. apply qm_pending.
    + destruct (cl_delete_pending 1 [] c id) as [c1 stuck] eqn:D.
      assert (A : qm q1 c c1).
      { apply qm_weaken. pose proof (qm_delete_pending 1 [] c id) as Q. rewrite D in Q. exact Q. }
      destruct stuck; cbn [fst]; [exact A|].
      destruct (cl_req_find (cc_reqQueued c1) id); cbn [fst]; [|exact A].
      assert (B : qm q1 c (cl_ctx_upd (cl_take_req_count c1 id) (pb_tag pb) (fun x => cl_ctx_resolve (ctu_finished x true) CEBody))).
      { qthen; [exact A|]. qthen; [apply qm_take_req_count|]. apply qm_ctx_upd; intro x; apply ctx_q_finished_resolve; reflexivity. }
      match goal with |- qm q1 c (fst (if ?b then _ else _)) => destruct b end; cbn [fst]; [|exact B].
      qthen; [exact B | qnote].
  - match goal with |- qm q1 c (fst (if ?b then _ else _)) => destruct b end; cbn [fst].
    { qthen; [|apply qm_pending]. qsame. }
    match goal with |- context [cl_acquire_for [] ?c2 ?t ?i] => set (cc2 := c2); destruct (cl_acquire_for [] cc2 t i) end.
    + destruct (cl_can_write cc2); cbn [fst].
      * match goal with |- context [cl_notes cc2 ?l] => assert (N : qm q1 c (cl_notes cc2 l)) end.
        { qthen; [|apply qm_notes, q1_write_data]. subst cc2. qthen; [|apply qm_pending]. qsame. }
        match goal with |- qm q1 c (fst (if ?b then _ else _)) => destruct b end; cbn [fst].
        -- qthen; [exact N | apply qm_weaken, qm_close_body].
        -- qthen; [exact N | apply IH].
      * subst cc2. qthen; [|apply qm_pending]. qsame.
    + match goal with |- context [cl_delete_pending 1 [] ?a id] => set (cc2' := a) end.
      assert (QA : qm q1 cc2 cc2') by (subst cc2'; match goal with |- context [if ?b then _ else _] => destruct b end; [apply qm_add_window | apply qm_refl]).
      destruct (cl_delete_pending 1 [] cc2' id) as [c3 stuck] eqn:D. cbn [fst].
      qthen; [|apply qm_weaken; pose proof (qm_delete_pending 1 [] cc2' id) as Q; rewrite D in Q; exact Q].
      qthen; [|exact QA]. subst cc2. qthen; [|apply qm_pending]. qsame.
    + cbn [fst]. qthen; [|apply qm_weaken, qm_go_stuck]. subst cc2. qthen; [|apply qm_pending]. qsame.
    + cbn [fst]. qthen; [|apply qm_weaken, qm_go_stuck]. subst cc2. qthen; [|apply qm_pending]. qsame.
Qed.

Lemma qm_flush_pending ids : forall c, qm q1 c (fst (cl_flush_pending c ids)).
Proof.
  induction ids as [|id t IH]; intro c; cbn [cl_flush_pending]; [apply qm_refl|].
  pose proof (qm_send_pending (cl_send_fuel c id) c id) as Q.
  destruct (cl_send_pending (cl_send_fuel c id) c id) as [c1 r]. cbn [fst] in Q.
  destruct r; cbn [fst]; [qthen; [exact Q | apply IH] | exact Q | exact Q].
Qed.

Lemma qm_wl_win c order : qm q1 c (cl_wl_win cfg c order).
Proof.
  unfold cl_wl_win. destruct (cc_winCh c); cbn [negb]; [|apply qm_refl].
  pose proof (qm_flush_pending (cl_pending_order (ccu_winCh c false) order) (ccu_winCh c false)) as Q.
  destruct (cl_flush_pending (ccu_winCh c false) (cl_pending_order (ccu_winCh c false) order)) as [c2 r]. cbn [fst] in Q.
  assert (A : qm q1 c c2) by (qthen; [|exact Q]; qsame).
  destruct r; [qthen; [exact A | apply qm_weaken, qm_wl_after] | qthen; [exact A | apply qm_weaken, qm_wl_exit; reflexivity] | exact A].
Qed.

End Moves.
