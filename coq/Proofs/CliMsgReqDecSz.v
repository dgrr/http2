(* Proofs/CliMsgReqDecSz.v - C02 (client), request side: who writes encTableSize.
   The atomic `encTableSize` (cc_encTableSize: the HPACK table size the write loop applies to its encoder before the next
   request) is written by handleSettings only. Of the moves the model is made of (Proofs/CliFlowMoves.v) only MSettings
   touches it (ets_move), so a function leaves it alone as soon as its decomposition takes no SETTINGS frame in (ets_D);
   then the step (ets_step) and its lifting to runs (ets_run).  Part 2 relates Settings.Read to the parameter pairs of
   the payload. *)
From H2V Require Import Base.Bytes Base.MachineInt Gen.GenConsts Impl.ServerConn Impl.ClientConn
  Proofs.CliBase Proofs.CliDefs Proofs.CliFlowMoves Proofs.CliFlowSettings.
From Coq Require Import ZArith Lia ZifyN ZifyNat ZifyBool List Bool.
Import ListNotations.
Local Open Scope N_scope.
Set Default Proof Using "Type".

(* where the coder plays no part, the decomposition is taken with one that does nothing *)
Definition enc0 {hstate : Type} (h : hstate) (_ _ : bytes) (_ : bool) : bytes * hstate := ([], h).
Definition max0 {hstate : Type} (h : hstate) (_ : N) : hstate := h.

Section Sz.
Context {hstate : Type}.
Variable dec_field : hstate -> N -> bytes -> dec_res hstate.
Variable enc_field : hstate -> bytes -> bytes -> bool -> bytes * hstate.
Variable enc_set_max : hstate -> N -> hstate.
Variable cfg : cl_config.
Implicit Types c : cconn hstate.
Notation ets := cc_encTableSize.

Lemma ets_handle_settings c st :
  ets (cl_handle_settings c st) = if cl_settings_has st c_HeaderTableSize then cs_table st else ets c.
Proof.
  unfold cl_handle_settings. rewrite cc_encTableSize_cl_write_out.
  destruct (cs_hasWin st); rewrite ?cc_encTableSize_cl_apply_initial_window; destruct (cl_settings_has st c_HeaderTableSize); reflexivity.
Qed.

Lemma ets_move ef esm (m : move hstate) c :
  ets (apply hstate ef esm m c) = ets c \/
  exists p st, m = MSettings p /\ cl_settings_deserialize false p = Some st /\ cl_settings_has st c_HeaderTableSize = true /\
               ets (apply hstate ef esm m c) = cs_table st.
Proof.
  destruct m; cbn [apply]; try (left; reflexivity).
  - left. destruct (quietb o); reflexivity.
  - left. apply cc_encTableSize_cl_take_req_count.
  - left. destruct (pushb o); [apply cc_encTableSize_cl_write_out | reflexivity].
  - left. destruct (cc_outQ c); reflexivity.
  - left. unfold recv_data. destruct (_ <? _)%Z; [rewrite cc_encTableSize_cl_update_window; cc_cbn|];
      (destruct has_res; [destruct (negb _ && _); [rewrite cc_encTableSize_cl_update_window|]|]; reflexivity).
  - destruct (cl_settings_deserialize false payload) as [st|] eqn:DS; [|left; reflexivity]. rewrite ets_handle_settings.
    destruct (cl_settings_has st c_HeaderTableSize) eqn:HAS; [right; exists payload, st; auto | left; reflexivity].
  - left. apply cc_encTableSize_cl_add_window.
  - left. destruct (cl_pend_get (cc_pending c) id) as [pb|]; [destruct (cl_refill pb)|]; reflexivity.
  - left. destruct (cl_pend_get (cc_pending c) id) as [pb|]; [|reflexivity]. destruct wr; [rewrite cc_encTableSize_cl_notes|]; reflexivity.
  - left. destruct (cl_pend_get (cc_pending c) id) as [pb|]; [|reflexivity]. sb_cases c pb; reflexivity.
  - left. destruct (negb _); reflexivity.
  - left. destruct opb; reflexivity.
Qed.

Lemma ets_mvs ef esm c ms c' : mvs ef esm c ms c' ->
  ets c' = ets c \/
  exists p st, In (MSettings p) ms /\ cl_settings_deserialize false p = Some st /\ cl_settings_has st c_HeaderTableSize = true /\
               ets c' = cs_table st.
Proof.
  induction 1 as [c|c m ms c' _ _ IH]; [left; reflexivity|].
  destruct IH as [E'|(p & st & I & DS & HAS & E')]; [|right; exists p, st; repeat split; [right; exact I | assumption..]].
  destruct (ets_move ef esm m c) as [E|(p & st & -> & DS & HAS & E)]; [left; congruence | right].
  exists p, st. repeat split; [left; reflexivity | assumption | assumption | congruence].
Qed.

(* moves among which no SETTINGS frame is taken in *)
Lemma ets_D ef esm (P : move hstate -> Prop) g r c c' : (forall p, ~ P (MSettings p)) -> DD ef esm P g r c c' -> ets c' = ets c.
Proof.
  intros NS (ms & M & F & _). destruct (ets_mvs _ _ _ _ _ M) as [E|(p & st & I & _)]; [exact E|].
  rewrite Forall_forall in F. destruct (NS p (F _ I)).
Qed.

(* an event other than a frame taken in by the read loop *)
Lemma ets_De ef esm e g r c c' : (forall fr, e <> CEvRL (RFrame fr)) -> DD ef esm (ev_ok e) g r c c' -> ets c' = ets c.
Proof. intro NF. apply ets_D. intros p (fr & E & _). exact (NF fr E). Qed.

Lemma ets_send_pending fuel c id : ets (fst (cl_send_pending fuel c id)) = ets c.
Proof. apply (ets_De enc0 max0 CEvWLIn [] []); [discriminate | apply send_pending_D; exact I]. Qed.

Lemma ets_flush_pending c ids : ets (fst (cl_flush_pending c ids)) = ets c.
Proof. apply (ets_De enc0 max0 CEvWLIn [] []); [discriminate | apply flush_pending_D; exact I]. Qed.

Lemma ets_write_request c tag : ets (fst (cl_write_request enc_field enc_set_max c tag)) = ets c.
Proof. apply (ets_De enc_field enc_set_max CEvWLIn [] []); [discriminate | apply write_request_D; reflexivity]. Qed.

Lemma ets_wl_exit c le why : ets (cl_wl_exit c le why) = ets c.
Proof. apply (ets_De enc0 max0 CEvWLIn [] []); [discriminate | apply wl_exit_D; exact I]. Qed.

Lemma ets_wl_after c : ets (cl_wl_after cfg c) = ets c.
Proof. apply (ets_De enc0 max0 CEvWLIn [] []); [discriminate | apply wl_after_D; exact I]. Qed.

Lemma ets_rl_exit c why : ets (cl_rl_exit c why) = ets c.
Proof. apply (ets_De enc0 max0 (CEvRL RLEof) [] []); [discriminate | apply rl_exit_D; exact I]. Qed.

Lemma ets_rl_fail c : ets (cl_rl_fail c) = ets c.
Proof. apply (ets_De enc0 max0 (CEvRL RLEof) [] []); [discriminate | apply rl_fail_D; exact I]. Qed.

Lemma ets_rl_panic c : ets (cl_rl_panic c) = ets c.
Proof. apply (ets_De enc0 max0 (CEvRL RLEof) [] []); [discriminate | apply rl_panic_D; exact I]. Qed.

Lemma ets_goaway_fail c l : ets (fst (cl_goaway_fail c l)) = ets c.
Proof.
  revert c. induction l as [|[id tag] t IH]; intro c; [reflexivity|]. cbn [cl_goaway_fail].
  pose proof (cc_encTableSize_cl_delete_pending _ (ccu_open c (cc_open c - 1)%Z) 0 [] id) as DP.
  destruct (cl_delete_pending 0 [] _ id) as [c2 stuck]. cbn [fst] in DP.
  destruct stuck; [exact DP|]. rewrite IH, cc_encTableSize_cl_ctx_upd. exact DP.
Qed.

Lemma ets_goaway c last : ets (fst (cl_goaway c last)) = ets c.
Proof. apply (ets_De enc0 max0 (CEvRL RLEof) [] []); [discriminate | apply goaway_D; exact I]. Qed.

Lemma ets_read_header_fragment c id fragment eh res :
  ets (fst (fst (fst (cl_read_header_fragment dec_field c id fragment eh res)))) = ets c.
Proof. apply (ets_De enc0 max0 (CEvRL RLEof) [] []); [discriminate | apply read_header_fragment_D; exact I]. Qed.

Lemma ets_read_stream c fr res : ets (fst (fst (fst (cl_read_stream dec_field c fr res)))) = ets c.
Proof.
  unfold cl_read_stream. destruct (sf_kind fr); try reflexivity.
  - (* DATA: the move MRecvData *)
    destruct (ets_move enc0 max0 (MRecvData fr (match res with Some _ => true | None => false end)) c) as [E|(p & st & [=] & _)].
    rewrite <- E. cbn [apply]. unfold recv_data. destruct res; reflexivity.
  - rewrite ets_read_header_fragment. reflexivity.
  - apply ets_read_header_fragment.
Qed.

Lemma ets_dispatch c fr : ets (fst (cl_dispatch dec_field c fr)) = ets c.
Proof.
  unfold cl_dispatch. cbv zeta.
  set (pre := match cl_req_find (cc_reqQueued c) (sf_sid fr) with None => _ | Some _ => _ end).
  assert (P : match pre with inr c' => ets c' = ets c | inl (c0, _) => ets c0 = ets c end).
  { subst pre. destruct (cl_req_find (cc_reqQueued c) (sf_sid fr)) as [tag|]; [|reflexivity].
    destruct (cl_acquire_for [] c tag (sf_sid fr));
      [reflexivity | apply cc_encTableSize_cl_take_req_count | apply cc_encTableSize_cl_go_stuck | apply cc_encTableSize_cl_go_stuck]. }
  destruct pre as [[c0 ok]|c']; [|exact P]. rewrite <- P.
  pose proof (ets_read_stream c0 fr (match ok with Some x => Some (ct_resp x) | None => None end)) as RS.
  destruct (cl_read_stream dec_field c0 fr _) as [[[c1 res'] ended] err]. cbn [fst] in RS. rewrite <- RS.
  match goal with |- context [let '(a, b) := ?p in _] => destruct p as [ok2 err2] end.
  (* whatever the checks answer: finish and setLastErr, on c1 with the Ctx written back *)
  match goal with |- context [match ?e with CRSNone => _ | CRSStream _ => _ | CRSConn _ => _ | CRSPanic => _ end] => generalize e end.
  intro err3. destruct ok2 as [x2|], err3; cbn [fst]; try destruct ended;
    rewrite ?cc_encTableSize_cl_finish, ?cc_encTableSize_cl_set_last_err; reflexivity.
Qed.

Lemma ets_rl_frame c fr : ets (cl_rl_frame dec_field c fr) = ets c.
Proof.
  unfold cl_rl_frame.
  assert (X : ets (cl_rl_exit (cl_set_last_err c CEConn) 1) = ets c) by (rewrite ets_rl_exit; apply cc_encTableSize_cl_set_last_err).
  destruct (fkind_eqb (sf_kind fr) KPush); [exact X|]. destruct (negb _ && _); [exact X|]. destruct (_ && _); [exact X|].
  set (c1 := if fkind_eqb (sf_kind fr) KWinUpd then _ else c).
  assert (E1 : ets c1 = ets c) by (subst c1; destruct (fkind_eqb (sf_kind fr) KWinUpd); [apply cc_encTableSize_cl_add_window | reflexivity]).
  pose proof (ets_dispatch c1 fr) as DS. destruct (cl_dispatch dec_field c1 fr) as [c2 r]. cbn [fst] in DS. rewrite <- E1, <- DS.
  destruct r; [reflexivity | apply ets_rl_exit | reflexivity | apply ets_rl_panic].
Qed.

Theorem ets_step (c : cconn hstate) (e : cevent) :
  cc_encTableSize (cl_step dec_field enc_field enc_set_max cfg c e) = cc_encTableSize c \/
  exists fr st, e = CEvRL (RFrame fr) /\ sf_sid fr = 0 /\ sf_kind fr = KSettings /\ flag_has (sf_flags fr) FL_ES = false /\
    cl_rl_live c = true /\ cc_netClosed c = false /\
    cl_settings_deserialize false (sf_payload fr) = Some st /\ cl_settings_has st c_HeaderTableSize = true /\
    cc_encTableSize (cl_step dec_field enc_field enc_set_max cfg c e) = cs_table st.
Proof.
  destruct (step_D hstate dec_field enc_field enc_set_max cfg c e) as (ms & M & F & _).
  destruct (ets_mvs _ _ _ _ _ M) as [E|(p & st & I & DS & HAS & E)]; [left; exact E|].
  rewrite Forall_forall in F. destruct (F _ I) as (fr & -> & K & S0 & ACK & ->).
  (* the read loop is running and its socket open, or the step does nothing of the kind *)
  cbn [cl_step] in *. destruct (cl_rl_live c); [|left; reflexivity].
  unfold cl_rl_step in *. destruct (cc_netClosed c); [left; apply ets_rl_fail|].
  right. exists fr, st. repeat split; assumption.
Qed.

Theorem ets_run (P : N -> Prop) h0 first :
  P (cc_encTableSize (cl_init enc_set_max h0 first)) ->
  forall evs,
  (forall fr st, In (CEvRL (RFrame fr)) evs -> sf_sid fr = 0 -> sf_kind fr = KSettings -> flag_has (sf_flags fr) FL_ES = false ->
     cl_settings_deserialize false (sf_payload fr) = Some st -> cl_settings_has st c_HeaderTableSize = true -> P (cs_table st)) ->
  P (cc_encTableSize (cl_run dec_field enc_field enc_set_max cfg h0 first evs)).
Proof.
  intros HI evs. induction evs as [|e evs IH] using rev_ind; intro HS; [exact HI|].
  rewrite cl_run_snoc.
  destruct (ets_step (cl_run dec_field enc_field enc_set_max cfg h0 first evs) e)
    as [H|(fr & st & -> & S0 & K & ACK & _ & _ & DS & HAS & H)]; rewrite H.
  - apply IH. intros fr st I. apply HS, in_or_app. left. exact I.
  - apply (HS fr st); try assumption. apply in_or_app. right. left. reflexivity.
Qed.

End Sz.

(* Settings.Read and the parameter pairs of the payload (Proofs/CliFlowSettings.v) *)
Lemma deserialize_any_ack ack p st : cl_settings_deserialize ack p = Some st -> cl_settings_deserialize false p = Some st.
Proof. unfold cl_settings_deserialize. destruct (negb _); [discriminate|]. destruct (ack && _); [discriminate | auto]. Qed.

Lemma settings_table_pairs ack p st :
  cl_settings_deserialize ack p = Some st ->
  cs_table st = fold_left (fun a kv => if fst kv =? c_HeaderTableSize then snd kv else a) (settings_pairs p) c_defaultHeaderTableSize /\
  (cl_settings_has st c_HeaderTableSize = true -> exists kv, In kv (settings_pairs p) /\ fst kv = c_HeaderTableSize).
Proof.
  intro R. destruct (deserialize_facts p st (deserialize_any_ack _ _ _ R)) as (-> & _ & _ & _ & HAS). split; [reflexivity|].
  rewrite HAS by (unfold c_HeaderTableSize; lia). intro E.
  apply existsb_exists in E. destruct E as (kv & I & E). exists kv. split; [exact I | apply N.eqb_eq, E].
Qed.

(* the converse: the presence bit is set exactly when the payload carries the parameter *)
Lemma settings_has_table_pairs ack p st :
  cl_settings_deserialize ack p = Some st ->
  cl_settings_has st c_HeaderTableSize = existsb (fun kv => fst kv =? c_HeaderTableSize) (settings_pairs p).
Proof.
  intro R. destruct (deserialize_facts p st (deserialize_any_ack _ _ _ R)) as (_ & _ & _ & _ & HAS).
  apply HAS. unfold c_HeaderTableSize. lia.
Qed.
