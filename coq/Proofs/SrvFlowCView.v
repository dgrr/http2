(* Proofs/SrvFlowCView.v - C06 completion: the response frames (HEADERS, DATA) of one stream in the trace, and what
   the pieces of the stream loop that work on ANOTHER stream leave alone. *)
From H2V Require Import Base.Bytes Base.MachineInt Base.Result Gen.GenConsts Impl.ServerConn Proofs.SrvBase
  Spec.FlowLedger Proofs.SrvFlowLedger Proofs.SrvFlowDefs Proofs.SrvFlowSend Proofs.SrvFlowEff Proofs.SrvFlowSafe
  Proofs.SrvFlowSafeB Proofs.SrvFlowSafeC Proofs.SrvFlowEs Proofs.SrvFlowRecv Proofs.SrvFlowCDecomp Proofs.SrvFlowCMono.
From Coq Require Import ZArith Lia ZifyN ZifyNat ZifyBool List.
Import ListNotations.
Local Open Scope N_scope.
Set Default Proof Using "Type".

(* the response frames on stream sid, in the order of the list *)
Definition on_sid (sid : N) (o : outev) : bool := match frame_sid o with Some s => s =? sid | None => false end.
Definition rf (sid : N) (out : list outev) : list outev := filter (on_sid sid) out.

(* every response frame in the list is on stream i *)
Definition only_on (i : N) (new : list outev) : Prop := Forall (fun o => frame_sid o = None \/ frame_sid o = Some i) new.

Lemma rf_app sid a b : rf sid (a ++ b) = rf sid a ++ rf sid b.
Proof. apply filter_app. Qed.

Lemma rf_only_on sid i new : only_on i new -> i <> sid -> rf sid new = [].
Proof.
  induction 1 as [|o l Ho _ IH]; intro NE; [reflexivity|]. cbn [rf filter]. fold (rf sid l). rewrite (IH NE).
  unfold on_sid. destruct Ho as [->| ->]; [reflexivity|]. replace (i =? sid) with false by lia. reflexivity.
Qed.

Lemma rf_noframe sid new : Forall noframe_out new -> rf sid new = [].
Proof.
  induction 1 as [|o l Ho _ IH]; [reflexivity|]. cbn [rf filter]. fold (rf sid l). rewrite IH.
  unfold on_sid. unfold noframe_out in Ho. rewrite Ho. reflexivity.
Qed.

Lemma only_on_noframe i new : Forall noframe_out new -> only_on i new.
Proof. apply Forall_impl. intros o H. left. exact H. Qed.
Lemma only_on_app i a b : only_on i a -> only_on i b -> only_on i (a ++ b).
Proof. intros. apply Forall_app. split; assumption. Qed.

Lemma search_app_other l x id : id <> st_id x -> strms_search (l ++ [x]) id = strms_search l id.
Proof.
  intro Hn. induction l as [|y t IH]; cbn [strms_search app].
  - replace (st_id x =? id) with false by lia. reflexivity.
  - destruct (st_id y =? id); [reflexivity | exact IH].
Qed.

Lemma search_map_bump delta l id :
  strms_search (map (bump delta) l) id = match strms_search l id with Some s => Some (bump delta s) | None => None end.
Proof.
  induction l as [|y t IH]; cbn [strms_search map]; [reflexivity|]. cbn [bump st_id set_window].
  destruct (st_id y =? id); [reflexivity | exact IH].
Qed.

Section View.
Variable hstate : Type.
Variable dec_field : hstate -> N -> bytes -> dec_res hstate.
Variable enc_field : hstate -> bytes -> bytes -> bool -> bytes * hstate.
Variable enc_set_max : hstate -> N -> hstate.
Variable cfg : config.
Notation sconn := (sconn hstate).
Implicit Types c : sconn.

(* the trace grows by response frames on stream i only *)
Definition ext_on (i : N) c c' : Prop := exists new, sc_out c' = new ++ sc_out c /\ only_on i new.

Lemma ext_on_refl i c : ext_on i c c.
Proof. exists []. split; [reflexivity | constructor]. Qed.
Lemma ext_on_trans i a b c : ext_on i a b -> ext_on i b c -> ext_on i a c.
Proof.
  intros (n1 & E1 & F1) (n2 & E2 & F2). exists (n2 ++ n1). split; [rewrite E2, E1, app_assoc; reflexivity|].
  apply only_on_app; assumption.
Qed.
Lemma ext_on_noframe i c c' : out_ext noframe_out c c' -> ext_on i c c'.
Proof. intros (new & E & F). exists new. split; [exact E | apply only_on_noframe, F]. Qed.
Lemma ext_on_quiet i c c' : out_ext quiet_out c c' -> ext_on i c c'.
Proof. intro O. apply ext_on_noframe, out_quiet_noframe, O. Qed.
Lemma ext_on_same i c c' : sc_out c' = sc_out c -> ext_on i c c'.
Proof. intro E. exists []. split; [exact E | constructor]. Qed.
Lemma ext_on_emit i c o : frame_sid o = None \/ frame_sid o = Some i -> ext_on i c (emit c o).
Proof.
  intro H. destruct (emit_cases _ c o) as (pre & E & Hpre). exists pre. split; [exact E|].
  unfold only_on. destruct Hpre as [->|[->| ->]]; [constructor | constructor; [exact H | constructor] | constructor; [exact H | constructor]].
Qed.
Lemma ext_on_rf i sid c c' : ext_on i c c' -> i <> sid -> rf sid (sc_out c') = rf sid (sc_out c).
Proof. intros (new & E & F) NE. rewrite E, rf_app, (rf_only_on _ _ _ F NE). reflexivity. Qed.
Lemma ext_on_any i c c' : ext_on i c c' -> out_ext any_out c c'.
Proof. intros (new & E & _). exists new. split; [exact E|]. apply Forall_forall. intros; exact I. Qed.

Lemma ext_on_sd_c2 sid c n : ext_on sid c (sd_c2 c sid n).
Proof.
  unfold sd_c2. apply (ext_on_trans sid c (emit c (OData sid (sd_es c n) (sd_chunk c n)))).
  - apply ext_on_emit. right. reflexivity.
  - apply ext_on_same. reflexivity.
Qed.

Lemma SDL_ext_on sid c n r k : SDL sid c n r k -> ext_on sid c (fst (fst (fst r))).
Proof.
  induction 1; cbn [fst].
  - apply ext_on_refl.
  - apply ext_on_refl.
  - unfold write_reset. apply ext_on_emit. left. reflexivity.
  - destruct (sn_pendingEnd n1); [apply ext_on_emit; right; reflexivity | apply ext_on_refl].
  - apply ext_on_refl.
  - apply ext_on_sd_c2.
  - eapply ext_on_trans; [apply ext_on_sd_c2 | exact IHSDL].
Qed.

(* the stream sendData hands back: flags, state, id as before *)
Lemma send_data_stream c s :
  let s' := snd (fst (send_data c s)) in
  st_id s' = st_id s /\ st_state s' = st_state s /\ st_responded s' = st_responded s /\
  st_handlerRunning s' = st_handlerRunning s /\ sc_strms (fst (fst (send_data c s))) = sc_strms c /\
  sc_highestID (fst (fst (send_data c s))) = sc_highestID c /\ ext_on (st_id s) c (fst (fst (send_data c s))).
Proof.
  cbv zeta. unfold send_data.
  destruct (send_data_loop_SDL _ (st_id s) (send_data_fuel (get_snd s)) c (get_snd s)) as [k H].
  pose proof (SDL_Frame _ _ _ _ _ _ H) as (_ & E1 & _ & _ & E4). pose proof (SDL_ext_on _ _ _ _ _ H) as O.
  destruct (send_data_loop (send_data_fuel (get_snd s)) c (st_id s) (get_snd s)) as [[[c1 n1] done] wr].
  cbn [fst snd] in *. destruct wr; cbn; repeat split; assumption.
Qed.

Lemma finish_request_stream c s r :
  let res := finish_request enc_field c s r in
  st_id (snd (fst res)) = st_id s /\ st_state (snd (fst res)) = st_state s /\ st_responded (snd (fst res)) = st_responded s /\
  st_handlerRunning (snd (fst res)) = st_handlerRunning s /\ sc_strms (fst (fst res)) = sc_strms c /\
  sc_highestID (fst (fst res)) = sc_highestID c /\ ext_on (st_id s) c (fst (fst res)).
Proof.
  cbv zeta. unfold finish_request. destruct (response_block enc_field (sc_enc c) r) as [blk e'].
  set (c1 := emit (upd_enc c e') _).
  assert (O1 : ext_on (st_id s) c c1).
  { subst c1. eapply ext_on_trans; [apply (ext_on_same _ c (upd_enc c e')); reflexivity | apply ext_on_emit; right; reflexivity]. }
  match goal with |- context [if ?b then _ else _] => destruct b end; cbn [fst snd].
  - subst c1. rewrite sc_strms_emit, sc_highestID_emit. repeat split. exact O1.
  - match goal with |- context [send_data c1 ?x] => destruct (send_data_stream c1 x) as (A1 & A2 & A3 & A4 & A5 & A6 & A7) end.
    cbv zeta in *. rewrite A1, A2, A3, A4, A5, A6. subst c1. rewrite sc_strms_emit, sc_highestID_emit. repeat split.
    eapply ext_on_trans; [exact O1 | exact A7].
Qed.

(* what is kept for stream sid *)

Record Keeps (sid : N) c c' : Prop := mkKeeps {
  k_search : strms_search (sc_strms c') sid = strms_search (sc_strms c) sid;
  k_rf : rf sid (sc_out c') = rf sid (sc_out c);
  k_hi : sc_highestID c <= sc_highestID c'
}.

Lemma Keeps_refl sid c : Keeps sid c c.
Proof. constructor; reflexivity. Qed.
Lemma Keeps_trans sid a b c : Keeps sid a b -> Keeps sid b c -> Keeps sid a c.
Proof. intros [a1 a2 a3] [b1 b2 b3]. constructor; [congruence | congruence | flia]. Qed.
Lemma Keeps_ext sid i c c' : sc_strms c' = sc_strms c -> sc_highestID c <= sc_highestID c' -> ext_on i c c' -> i <> sid -> Keeps sid c c'.
Proof. intros E H O NE. constructor; [rewrite E; reflexivity | eapply ext_on_rf; eassumption | exact H]. Qed.
Lemma Keeps_Quiet sid c c' : Quiet c c' -> Keeps sid c c'.
Proof.
  intro Q. constructor; [rewrite (q_strms _ _ _ Q); reflexivity | | apply Q].
  destruct (out_quiet_noframe _ _ _ (q_out _ _ _ Q)) as (new & E & F). rewrite E, rf_app, (rf_noframe _ _ F). reflexivity.
Qed.
Lemma Keeps_Recv sid c c' : Recv c c' -> Keeps sid c c'.
Proof.
  intro Q. constructor; [rewrite (rv_strms _ _ _ Q); reflexivity | | rewrite (rv_highestID _ _ _ Q); flia].
  destruct (rv_out _ _ _ Q) as (new & E & F). rewrite E, rf_app, rf_noframe; [reflexivity|].
  eapply Forall_impl; [|exact F]. apply winupd_noframe.
Qed.
Lemma Keeps_put sid c x : st_id x <> sid -> Keeps sid c (put c x).
Proof. intro NE. constructor; unfold put; sc_cbn; [apply search_put_other; congruence | reflexivity | flia]. Qed.
Lemma Keeps_close sid c x : st_id x <> sid -> Keeps sid c (close_stream c x).
Proof.
  intro NE. constructor.
  - rewrite sc_strms_close_stream. apply search_del_other. congruence.
  - destruct (out_quiet_noframe _ _ _ (close_stream_out _ c x)) as (new & E & F). rewrite E, rf_app, (rf_noframe _ _ F). reflexivity.
  - rewrite sc_highestID_close_stream. flia.
Qed.
Lemma Keeps_brk sid c : Keeps sid c (fst (brk c)).
Proof. apply Keeps_Quiet, Quiet_brk. Qed.

Lemma Keeps_send_data sid c s : st_id s <> sid -> Keeps sid c (fst (fst (send_data c s))).
Proof.
  intro NE. destruct (send_data_stream c s) as (_ & _ & _ & _ & A5 & A6 & A7).
  eapply Keeps_ext; [exact A5 | rewrite A6; flia | exact A7 | exact NE].
Qed.

Lemma Keeps_after_frame sid c s fr wc : st_id s <> sid -> Keeps sid c (fst (after_frame cfg c s fr wc)).
Proof.
  intro NE. unfold after_frame. cbv zeta.
  destruct (handle_state_eff fr s) as ((I1 & _) & _). set (s1 := handle_state fr s) in *.
  match goal with |- context [let '(c2, s2) := ?X in _] => assert (M : Keeps sid c (fst X) /\ st_id (snd X) = st_id s) end.
  { destruct (sstate_eqb (st_state s1) SHalfClosed && st_headersFinished s1 && negb (st_responded s1)).
    - match goal with |- context [if ?b then _ else _] => destruct b end; cbn [fst snd].
      + split; [apply Keeps_Quiet, Quiet_write_reset | exact I1].
      + split; [apply Keeps_Quiet, (Quiet_note _ c (ODispatch _ _) I) | exact I1].
    - destruct (st_responded s1 && negb (st_handlerRunning s1) && has_more_to_send s1).
      + pose proof (Keeps_send_data sid c s1) as K. destruct (send_data_stream c s1) as (E & _). cbv zeta in E.
        destruct (send_data c s1) as [[c1 s2] fin]. cbn [fst snd] in *.
        split; [apply K; congruence | destruct fin; cbn [st_id set_state]; congruence].
      + cbn [fst snd]. split; [apply Keeps_refl | exact I1]. }
  match goal with |- context [let '(c2, s2) := ?X in _] => destruct X as [c2 s2] end. cbn [fst snd] in M.
  destruct M as (K & I2).
  assert (G : Keeps sid c (if sstate_eqb (st_state s2) SClosed then close_stream (put c2 s2) s2 else put c2 s2)).
  { eapply Keeps_trans; [exact K|]. destruct (sstate_eqb (st_state s2) SClosed).
    - eapply Keeps_trans; [apply Keeps_put | apply Keeps_close]; congruence.
    - apply Keeps_put. congruence. }
  match goal with |- context [if ?b then brk ?x else cont ?x] => destruct b end; cbn [fst cont]; [|exact G].
  eapply Keeps_trans; [exact G | apply Keeps_brk].
Qed.

Lemma Keeps_flush_loop sid ids : forall c done, strms_search (sc_strms c) sid = None \/ ~ In sid ids ->
  Keeps sid c (fst (flush_loop c ids done)).
Proof.
  induction ids as [|id t IH]; intros c done H; cbn [flush_loop]; [apply Keeps_refl|].
  assert (H' : forall c', Keeps sid c c' -> strms_search (sc_strms c') sid = None \/ ~ In sid t).
  { intros c' K. destruct H as [H|H]; [left; rewrite (k_search _ _ _ K); exact H | right; intro X; apply H; right; exact X]. }
  destruct (strms_search (sc_strms c) id) as [s|] eqn:F; [|apply IH, H', Keeps_refl].
  destruct (st_responded s && negb (st_handlerRunning s) && has_more_to_send s); [|apply IH, H', Keeps_refl].
  assert (NE : st_id s <> sid).
  { pose proof (strms_search_In _ _ _ F) as [_ Hid]. destruct H as [H|H]; [|intro; apply H; left; congruence].
    intro E. assert (X : id = sid) by congruence. rewrite <- X in H. congruence. }
  pose proof (Keeps_send_data sid c s NE) as K. destruct (send_data_stream c s) as (E & _). cbv zeta in E.
  destruct (send_data c s) as [[c1 s1] fin]. cbn [fst snd] in *.
  assert (K2 : Keeps sid c (put c1 s1)) by (eapply Keeps_trans; [exact K | apply Keeps_put; congruence]).
  eapply Keeps_trans; [exact K2 | apply IH, H', K2].
Qed.

End View.
