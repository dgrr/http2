(* Proofs/SrvRfcMain.v - C08: the cases of the step lemma, one lemma per kind of item: a frame on a stream
   (sl_frame's two halves put together), SETTINGS and WINDOW_UPDATE on stream 0, inputs that are not frames,
   clock, timers and shutdown, and any item once the stream loop has ended.  They are combined in
   Proofs/SrvRfcThm.v. *)
From H2V Require Import Base.Bytes Base.MachineInt Base.Result Gen.GenConsts Impl.ServerConn.
From H2V Require Import Proofs.SrvBase Proofs.SrvInvDecomp Proofs.SrvRfcDefs Proofs.SrvRfcSpec Proofs.SrvRfcModel Proofs.SrvRfcSim Proofs.SrvRfcStep Proofs.SrvRfcKit Proofs.SrvRfcRl Proofs.SrvRfcSl Proofs.SrvRfcKnown Proofs.SrvRfcFrame Proofs.SrvRfcBatch Proofs.SrvRfcFlush Proofs.SrvRfcTimer.
From Coq Require Import ZArith Lia ZifyN ZifyNat ZifyBool.
Local Open Scope N_scope.

Section Main.
Variable hstate : Type.
Variable dec_field : hstate -> N -> bytes -> dec_res hstate.
Variable enc_field : hstate -> bytes -> bytes -> bool -> bytes * hstate.
Variable enc_set_max : hstate -> N -> hstate.
Variable cfg : config.
Notation sconn := (sconn hstate).
Notation step := (step dec_field enc_field enc_set_max cfg).
Notation feed := (feed hstate dec_field enc_field enc_set_max cfg).
Notation spec_feed := (spec_feed hstate dec_field enc_field enc_set_max cfg).
Notation item_ok := (item_ok hstate dec_field enc_field enc_set_max cfg).
Notation G := (G hstate).
Notation view := (view hstate).
Notation tbl := (tbl hstate).
Notation Sim := (Sim hstate).
Notation AuxT := (AuxT hstate).
Notation AuxH := (AuxH hstate).
Notation seq_ok := (seq_ok hstate).
Notation base := (base hstate).
Notation kctx := (kctx hstate).
Notation kin := (kin hstate).
Implicit Types c : sconn.

(* a frame on a stream, passed on by the read loop *)
Lemma G_stream_frame c s ph fr ec' :
  Sim c s ph -> sc_sl_done c = false -> seq_ok c fr ec' -> N.odd (sf_sid fr) = true ->
  match sf_kind fr with KPing | KPush => False | _ => True end ->
  feed c (IIn (RFrame fr)) = fst (sl_frame dec_field enc_set_max cfg (upd_expectCont c ec') fr) ->
  G c s ph (RFrame fr) (feed c (IIn (RFrame fr))).
Proof.
  intros HS Hsl SQ Od Kok E. pose proof (S_aux _ _ _ _ HS) as [AT AH].
  pose proof (Zn_of_odd _ Od) as Zn. assert (Znn : sf_sid fr <> 0) by (intro Z; rewrite Z in Od; discriminate).
  (* HEADERS comes outside a header block: no stream of the table is waiting for the rest of one *)
  assert (AllFin : sf_kind fr = KHeaders -> forall p, In p (sc_strms c) -> st_headersFinished p = true).
  { intros KH p Hp. destruct SQ as [(E0 & _)|(_ & K & _)]; [exact (all_finished hstate c p AT AH E0 Hp) | congruence]. }
  set (c1 := upd_expectCont c ec') in *.
  rewrite (sl_frame_split hstate dec_field enc_set_max cfg c1 fr Zn) in E.
  change (sc_discardID c1) with (sc_discardID c) in E. change (sc_closing c1) with (sc_closing c) in E.
  destruct (fkind_eqb (sf_kind fr) KCont && negb (sc_discardID c =? 0) && (sf_sid fr =? sc_discardID c))%bool eqn:DB.
  - (* the rest of a header block that is being thrown away *)
    apply andb_true_iff in DB. destruct DB as [DB D3]. apply andb_true_iff in DB. destruct DB as [D1 D2].
    apply fkind_eqb_eq in D1. apply negb_true_iff in D2. apply N.eqb_neq in D2. apply N.eqb_eq in D3.
    destruct (A_disc _ _ AH D2) as [Tn Le]. rewrite <- D3 in Tn, Le.
    destruct (proj1 (unknown_state hstate dec_field enc_set_max c s ph _ HS Od Tn) Le) as [w Hw].
    apply (G_sl_discard hstate dec_field enc_field enc_set_max cfg c s ph fr ec' HS Hsl SQ Od Tn (or_intror D1) Le); [|exact E].
    destruct SQ as [(_ & K & _)|(E0 & _ & Sd & _)]; [congruence|].
    rewrite verdicts_cont; [| |exact D1].
    + unfold RS.on_stream, RS.by_state. change (RS.f_sid (abs_frame fr)) with (sf_sid fr). rewrite Hw. unfold abs_frame. cbn [RS.f_kind]. rewrite D1. cbn [abs_kind].
      rewrite app_nil_r. destruct w; reflexivity.
    + rewrite (S_blk _ _ _ _ HS : RS.block s = _). replace (sc_expectCont c =? 0) with false by (symmetry; apply N.eqb_neq; exact E0). congruence.
  - destruct (tbl c (sf_sid fr)) as [st|] eqn:T.
    + (* a stream of the table *)
      pose proof (search_In _ _ _ T) as HIn. pose proof (search_id _ _ _ T) as Hid.
      assert (PRE : sl_pre hstate dec_field cfg c1 fr = inr (c1, st)).
      { unfold sl_pre. change (sc_lastID c1) with (sc_lastID c). change (sc_strms c1) with (sc_strms c).
        replace (sf_sid fr <=? sc_lastID c) with true by (symmetry; apply N.leb_le; rewrite <- Hid; apply (A_ids _ _ AT st HIn)).
        unfold SrvRfcDefs.tbl in T. rewrite T. reflexivity. }
      rewrite PRE in E.
      assert (KI : kin c s ph fr ec' c1 st (sc_lastID c) (sc_highestID c)).
      { constructor; auto.
        - left. repeat split; eauto.
        - repeat split.
        - apply sfacts_found; assumption. }
      rewrite sl_known_tail in E.
      * apply (K_any hstate dec_field enc_field enc_set_max cfg c s ph fr ec' c1 st _ _ KI Kok E).
      * intro KH. split.
        -- apply implicit_close_noop. intros n t Hn. change (sc_strms c1) with (sc_strms c) in Hn.
           assert (In n (sc_strms c)) by (rewrite Hn; left; reflexivity).
           destruct (A_st _ _ AT n H) as ([X|X] & _); rewrite X; cbn; rewrite andb_false_r; reflexivity.
        -- intros p Hp. apply (AllFin KH), (get_previous_headers_In _ p Hp).
    + (* no such stream in the table *)
      pose proof (sl_pre_unknown hstate dec_field enc_field enc_set_max cfg c s ph fr ec' HS Hsl SQ Od Kok T DB) as U. fold c1 in U.
      destruct (sl_pre hstate dec_field cfg c1 fr) as [r|[c2 st]] eqn:PRE; [apply U, E|].
      destruct (fkind_eqb (sf_kind fr) KHeaders) eqn:KHb.
      * (* HEADERS opens a stream *)
        apply fkind_eqb_eq in KHb. pose proof U as (Hst & Rn & Ll & Hc). rewrite KHb in Hc. destruct Hc as (Hgt & Hcl & C2).
        change (sc_highestID c1) with (sc_highestID c) in Hgt, C2. change (sc_strms c1) with (sc_strms c) in C2. change (sc_open c1) with (sc_open c) in C2.
        change (ring_find c1 (sf_sid fr)) with (ring_find c (sf_sid fr)) in Rn. change (sc_lastID c1) with (sc_lastID c) in Ll.
        assert (Hid : st_id st = sf_sid fr) by (rewrite Hst; reflexivity).
        assert (KI : kin c s ph fr ec' c2 st (sf_sid fr) (sf_sid fr)).
        { constructor; auto.
          - right. exists st. rewrite C2. cbn. repeat split; auto.
          - rewrite C2. repeat split.
          - rewrite C2. destruct (fkind_eqb (sf_kind fr) KHeaders); reflexivity.
          - apply (sfacts_created hstate dec_field enc_set_max c s ph fr ec' c2 st HS Od T KHb U). }
        rewrite sl_known_tail in E.
        -- apply (K_any hstate dec_field enc_field enc_set_max cfg c s ph fr ec' c2 st _ _ KI Kok E).
        -- intros _.
           assert (S2 : sc_strms c2 = sc_strms c ++ [st]) by (rewrite C2; reflexivity).
           split.
           ++ apply implicit_close_noop. intros n t Hn. rewrite S2 in Hn.
              destruct (sc_strms c) as [|m l] eqn:SC; cbn [app] in Hn; injection Hn as Hn1 Hn2.
              ** rewrite <- Hn1, N.ltb_irrefl. reflexivity.
              ** assert (In n (sc_strms c)) by (rewrite SC, Hn1; left; reflexivity).
                 destruct (A_st _ _ AT n H) as ([X|X] & _); rewrite X; cbn; rewrite andb_false_r; reflexivity.
           ++ intros p Hp. rewrite S2 in Hp. apply (AllFin KHb). apply (get_previous_snoc (sc_strms c) st p); [rewrite Hst, KHb; reflexivity | exact Hp].
      * apply fkind_eqb_neq in KHb.
        apply (K_created_other hstate dec_field enc_field enc_set_max cfg c s ph fr ec' c2 st HS Hsl SQ Od T KHb Kok DB U E).
Qed.

Definition bump (delta : Z) : list stream -> list stream -> list stream * bool :=
  fix bumpall (pre l : list stream) {struct l} : list stream * bool :=
    match l with
    | [] => (pre, false)
    | s :: t =>
      let s' := set_window s (st_window s + delta) in
      if (MAXWIN <? st_window s')%Z then (pre ++ s' :: t, true) else bumpall (pre ++ [s']) t
    end.

Lemma bump_cons delta pre s t :
  bump delta pre (s :: t) =
  let s' := set_window s (st_window s + delta) in
  if (MAXWIN <? st_window s')%Z then (pre ++ s' :: t, true) else bump delta (pre ++ [s']) t.
Proof. reflexivity. Qed.

Lemma sl_frame_settings c fr : sf_sid fr = 0 -> sf_kind fr = KSettings ->
  sl_frame dec_field enc_set_max cfg c fr =
  let c0 := if sf_set_hastable fr then upd_enc c (enc_set_max (sc_enc c) (sf_set_table fr)) else c in
  if sf_set_haswin fr then
    let newInit := signed 32 (sf_set_win fr) in
    let c1 := upd_initWin c0 newInit in
    let '(l', over) := bump (newInit - sc_initWin c0)%Z [] (sc_strms c1) in
    let c2 := upd_strms c1 l' in
    if over then brk (write_goaway c2 0 c_FlowControlError) else cont (flush_streams (emit c2 OSettingsAck))
  else cont (emit c0 OSettingsAck).
Proof. intros Z K. unfold sl_frame. rewrite Z, K. reflexivity. Qed.

Lemma sl_frame_winupd0 c fr : sf_sid fr = 0 -> sf_kind fr = KWinUpd ->
  sl_frame dec_field enc_set_max cfg c fr =
  let w := (sc_clientWindow c + Z.of_N (sf_inc fr))%Z in
  let c1 := upd_clientWindow c w in
  if (MAXWIN <? w)%Z then brk (write_goaway c1 0 c_FlowControlError) else cont (flush_streams c1).
Proof. intros Z K. unfold sl_frame. rewrite Z, K. reflexivity. Qed.

Lemma set_window_shape s w : same_shape s (set_window s w).
Proof. unfold same_shape, strm_ok, has_more_to_send. cbn. auto. Qed.

Lemma bump_shape delta : forall l pre pre0 l' over, Forall2 same_shape pre0 pre ->
  bump delta pre l = (l', over) -> Forall2 same_shape (pre0 ++ l) l'.
Proof.
  induction l as [|s t IH]; intros pre pre0 l' over F.
  - intro H. inversion H; subst. rewrite app_nil_r. exact F.
  - rewrite bump_cons. cbv zeta. destruct (MAXWIN <? _)%Z.
    + intro H. inversion H; subst. apply Forall2_app; [exact F|]. constructor; [apply set_window_shape | apply Forall2_shape_refl].
    + intro H. replace (pre0 ++ s :: t) with ((pre0 ++ [s]) ++ t) by (rewrite <- app_assoc; reflexivity).
      apply (IH _ _ _ _ (Forall2_app F (Forall2_cons _ _ (set_window_shape s _) (Forall2_nil _))) H).
Qed.

Lemma live_tuple_ph c' s2 ph ph' : live_tuple hstate c' s2 ph -> (forall id, N.odd id = true -> ph' id = ph id) -> live_tuple hstate c' s2 ph'.
Proof.
  intros (A & B & C & D & E & F & P1 & P2) H.
  split; [exact A|]. split; [exact B|]. split; [exact C|]. split; [exact D|]. split; [exact E|]. split; [exact F|]. split.
  - intros st0 Hin. rewrite H; [apply P1, Hin|]. destruct A as [AT _]. apply (A_ids _ _ AT st0 Hin).
  - intros Hc id O L. rewrite (H id O). apply P2; assumption.
Qed.

(* SETTINGS and WINDOW_UPDATE on stream 0: their effect on the windows is C06's subject; here: no stream changes state *)
Lemma G_conn_frame c s ph fr :
  Sim c s ph -> sc_sl_done c = false -> sc_expectCont c = 0 -> sf_sid fr = 0 ->
  (sf_kind fr = KSettings \/ sf_kind fr = KWinUpd /\ sf_inc fr <> 0) ->
  feed c (IIn (RFrame fr)) = fst (sl_frame dec_field enc_set_max cfg c fr) ->
  G c s ph (RFrame fr) (feed c (IIn (RFrame fr))).
Proof.
  intros HS Hsl E0 Z KK E. pose proof (S_aux _ _ _ _ HS) as [AT AH]. pose proof (A_wl _ _ AT) as Hwl.
  assert (BN : RS.block s = None) by (rewrite (S_blk _ _ _ _ HS : RS.block s = _), E0; reflexivity).
  assert (NC : sf_kind fr <> KCont) by (destruct KK as [K|[K _]]; congruence).
  assert (V : RS.verdicts s (RS.Frame (abs_frame fr)) = RS.on_connection (abs_frame fr)) by (apply verdicts_conn; assumption).
  assert (VP : RS.may_process s (RS.Frame (abs_frame fr)) = true /\ RS.allowed s (RS.Frame (abs_frame fr)) (RS.ConnErr c_FlowControlError) = true).
  { unfold RS.may_process, RS.allowed. rewrite V. unfold RS.on_connection, abs_frame. cbn [RS.f_kind RS.f_inc].
    destruct KK as [K|[K I0]]; rewrite K; cbn [abs_kind]; [split; reflexivity|].
    replace (sf_inc fr =? 0) with false by (symmetry; apply N.eqb_neq; exact I0). split; reflexivity. }
  destruct VP as [Hmp Hfc].
  assert (S1 : RS.spec_next s (RS.Frame (abs_frame fr)) RS.Process = s).
  { rewrite spec_next_frame. cbn [conn_err]. change (RS.f_sid (abs_frame fr)) with (sf_sid fr). rewrite Z. cbn [N.eqb orb].
    unfold pre_next, RS.in_sequence, abs_frame. cbn [RS.f_kind]. destruct KK as [K|[K _]]; rewrite K; reflexivity. }
  assert (OVER : forall cX dq, feed c (IIn (RFrame fr)) = fst (brk (write_goaway cX 0 c_FlowControlError)) ->
            sc_out cX = dq ++ sc_out c -> sc_sl_done cX = false -> sc_wl_dead cX = false -> filter noisy dq = [] ->
            (forall i rq, ~ In (ODispatch i rq) dq) -> G c s ph (RFrame fr) (feed c (IIn (RFrame fr)))).
  { intros cX dq EX Ho A1 A2 Q Nd.
    apply (G_goaway_over hstate dec_field enc_field enc_set_max cfg c s ph fr _ (sc_lastID cX) c_FlowControlError dq EX eq_refl); auto.
    - rewrite sc_out_brk, sc_out_write_goaway, A2, A1, Ho. reflexivity.
    - apply quiet_no_goaway, Q. }
  assert (LIVE : forall c' d D, feed c (IIn (RFrame fr)) = c' -> gbatch hstate c c' d D [] -> G c s ph (RFrame fr) (feed c (IIn (RFrame fr)))).
  { intros c' d D EX GB.
    assert (CL : classify (sf_sid fr) (rev (filter noisy d)) = RS.Process).
    { rewrite Z. apply classify_conn.
      - intros o H. apply in_rev in H. apply filter_In in H. apply (GB_ng _ _ _ _ _ _ GB), H.
      - rewrite existsb_rev, exit_noisy. apply (GB_ne _ _ _ _ _ _ GB). }
    apply (G_live hstate dec_field enc_field enc_set_max cfg c s ph fr c' d EX (GB_sl _ _ _ _ _ _ GB) (GB_out _ _ _ _ _ _ GB));
      unfold spec_after, react; rewrite ?CL; cbn [resolve]; rewrite ?Hmp.
    - left. apply allowed_table. exact Hmp.
    - rewrite S1. apply (live_tuple_ph c' _ ph); [apply (live_tuple_gbatch hstate c c' s ph d D HS GB)|].
      intros id O. cbn [ph_next]. rewrite Z. destruct (id =? 0) eqn:X; [apply N.eqb_eq in X; rewrite X in O; discriminate | reflexivity].
    - intros i rq H. exfalso. exact (GB_nd _ _ _ _ _ _ GB i rq H). }
  (* flushStreams after the change of a window *)
  assert (FLUSH : forall cX dX, feed c (IIn (RFrame fr)) = flush_streams cX -> gbatch hstate c cX dX [] [] -> G c s ph (RFrame fr) (feed c (IIn (RFrame fr)))).
  { intros cX dX EX GB0. destruct (flush_streams_gbatch hstate c cX dX Hwl GB0) as (d & D & GB). exact (LIVE _ d D EX GB). }
  destruct KK as [K|[K I0]].
  - (* SETTINGS *)
    rewrite (sl_frame_settings c fr Z K) in E. cbv zeta in E.
    assert (C0 : exists e, (if sf_set_hastable fr then upd_enc c (enc_set_max (sc_enc c) (sf_set_table fr)) else c) = upd_enc c e).
    { destruct (sf_set_hastable fr); eexists; [reflexivity|]. instantiate (1 := sc_enc c). destruct c; reflexivity. }
    destruct C0 as [e C0]. rewrite C0 in E. clear C0. set (c0 := upd_enc c e) in *.
    destruct (sf_set_haswin fr).
    + set (delta := (signed 32 (sf_set_win fr) - sc_initWin c0)%Z) in *.
      change (sc_strms (upd_initWin c0 (signed 32 (sf_set_win fr)))) with (sc_strms c) in E.
      destruct (bump delta [] (sc_strms c)) as [l' over] eqn:BP.
      pose proof (bump_shape delta (sc_strms c) [] [] l' over (Forall2_nil _) BP) as SH. cbn [app] in SH.
      set (c2 := upd_strms (upd_initWin c0 (signed 32 (sf_set_win fr))) l') in *.
      destruct over.
      * apply (OVER c2 [] E); auto; intros i rq [].
      * cbn [fst cont] in E. rewrite (emit_wr hstate c2 _ (conj Hsl Hwl)) in E.
        apply (FLUSH (note c2 OSettingsAck) [OSettingsAck] E).
        apply gbatch_rel; try exact AT; try exact Hsl; try reflexivity; [exact SH | intros i rq [H|[]]; discriminate].
    + cbn [fst cont] in E. rewrite (emit_wr hstate c0 _ (conj Hsl Hwl)) in E.
      apply (LIVE (note c0 OSettingsAck) [OSettingsAck] [] E).
      apply gbatch_same; try exact AT; try exact Hsl; try reflexivity. intros i rq [H|[]]; discriminate.
  - (* WINDOW_UPDATE *)
    rewrite (sl_frame_winupd0 c fr Z K) in E. cbv zeta in E.
    set (c1 := upd_clientWindow c (sc_clientWindow c + Z.of_N (sf_inc fr))) in *.
    destruct (MAXWIN <? sc_clientWindow c + Z.of_N (sf_inc fr))%Z.
    + apply (OVER c1 [] E); auto; intros i rq [].
    + cbn [fst cont] in E.
      apply (FLUSH c1 [] E). apply gbatch_same; try exact AT; try exact Hsl; try reflexivity. intros i rq [].
Qed.

Lemma G_other_input c s ph i : Sim c s ph -> sc_sl_done c = false -> (forall fr, i <> RFrame fr) ->
  G c s ph i (feed c (IIn i)).
Proof.
  intros HS Hsl NF. pose proof (S_aux _ _ _ _ HS) as [AT AH].
  pose proof (A_rl _ _ AT) as Hrl. pose proof (A_wl _ _ AT) as Hwl. pose proof (A_q _ _ AT) as Hq.
  pose proof (S_blk _ _ _ _ HS : RS.block s = _) as B.
  destruct i as [fr| |[code|]|]; [exfalso; eapply NF; reflexivity | | | |].
  - (* a frame of unknown type *)
    destruct (sc_expectCont c =? 0) eqn:E0.
    + assert (F : feed c (IIn RUnknownType) = c).
      { unfold SrvRfcDefs.feed. rewrite step_EvRL, Hrl. cbn [rl_step]. rewrite E0. cbn [negb]. apply sl_after_stay; assumption. }
      rewrite F. exists []. split; [reflexivity|]. cbn [abs_input input_sid filter rev]. rewrite classify_nil.
      assert (MP : RS.may_process s RS.UnknownType = false) by (unfold RS.may_process; cbn [RS.verdicts]; rewrite B; reflexivity).
      cbn [resolve]. rewrite MP. split; [|split].
      * left. apply allowed_table. cbn [RS.verdicts]. rewrite B. reflexivity.
      * rewrite Hsl. cbn [RS.spec_next]. unfold after_outs. cbn. apply (Sim_live hstate), HS.
      * intros sid rq [].
    + apply (G_rl_goaway hstate dec_field enc_field enc_set_max cfg c s ph RUnknownType c c_ProtocolError 1 eq_refl Hsl Hwl eq_refl).
      * apply (feed_rl_exit hstate dec_field enc_field enc_set_max cfg c _ _ 1 Hrl);
          [cbn [rl_step]; rewrite E0; reflexivity | rewrite sc_sl_done_write_goaway; exact Hsl | rewrite sc_readerQ_write_goaway; exact Hq].
      * left. apply allowed_table. cbn [abs_input RS.verdicts]. rewrite B. reflexivity.
  - (* a malformed frame for which the reader names an error code *)
    apply (G_rl_goaway hstate dec_field enc_field enc_set_max cfg c s ph (RBadFrame (Some code)) c code 1 eq_refl Hsl Hwl eq_refl).
    + apply (feed_rl_exit hstate dec_field enc_field enc_set_max cfg c _ _ 1 Hrl);
        [reflexivity | rewrite sc_sl_done_write_goaway; exact Hsl | rewrite sc_readerQ_write_goaway; exact Hq].
    + left. apply allowed_table. cbn [abs_input RS.verdicts existsb RS.admits]. rewrite N.eqb_refl. reflexivity.
  - (* a malformed frame: the connection is closed *)
    apply (G_rl_close hstate dec_field enc_field enc_set_max cfg c s ph (RBadFrame None) 3).
    + eapply feed_rl_exit; eauto; try reflexivity.
    + left. apply allowed_table. reflexivity.
  - (* the peer has gone *)
    apply (G_rl_close hstate dec_field enc_field enc_set_max cfg c s ph RLEof 0).
    + eapply feed_rl_exit; eauto; try reflexivity.
    + left. apply allowed_table. reflexivity.
Qed.

Lemma G_local c s ph l : Sim c s ph -> sc_sl_done c = false -> Gloc hstate c s ph (feed c (ILocal l)).
Proof.
  intros HS Hsl. pose proof (S_aux _ _ _ _ HS) as [AT AH]. pose proof (A_wl _ _ AT) as Hwl.
  destruct l as [t| | |]; unfold SrvRfcDefs.feed; cbn [local_event].
  - (* the clock *)
    rewrite step_EvClock. destruct (sc_now c <? t)%Z.
    + apply (Gloc_gbatch hstate c s ph (upd_now c t) [] [] HS). apply gbatch_same; try exact AT; try exact Hsl; try reflexivity. intros i rq [].
    + exact (Gloc_gbatch hstate c s ph c [] [] HS (gbatch_refl hstate c AT Hsl)).
  - (* the request timer: the overdue streams are reset (CANCEL) and closed *)
    rewrite step_EvTimer, Hsl. unfold sl_timer. destruct (cf_maxRequestTime cfg <=? 0)%Z; cbn [fst cont].
    + exact (Gloc_gbatch hstate c s ph c [] [] HS (gbatch_refl hstate c AT Hsl)).
    + destruct (close_heads_live hstate (count_due cfg (sc_now c) (sc_strms c)) c s ph Hsl (S_wf _ _ _ _ HS) (Sim_live hstate c s ph HS))
        as (d & O & Sl & Nd & L).
      exists d. split; [exact O|]. rewrite Sl. split; [exact L | exact Nd].
  - (* idle: GOAWAY(NO_ERROR) *)
    rewrite step_EvIdle, (write_goaway_wr hstate c _ _ (conj Hsl Hwl)). set (c' := upd_closer _ true).
    exists [OGoAway (sc_lastID c) c_NoError]. split; [reflexivity|].
    change (sc_sl_done c') with (sc_sl_done c). rewrite Hsl. split; [|intros i rq [H|[]]; discriminate].
    assert (AO : after_outs s [OGoAway (sc_lastID c) c_NoError] = RS.spec_sent s RS.SentGoAway) by reflexivity. rewrite AO.
    assert (ST : static hstate c c') by repeat split.
    assert (EC : sc_expectCont c' = sc_expectCont c) by reflexivity.
    assert (DI : sc_discardID c' = sc_discardID c) by reflexivity.
    apply (live_tuple_static hstate c c' s _ ph ph HS ST).
    + destruct AH as [F1 F2 F3 F4]. pose proof ST as (A1 & _ & _ & _ & A5 & _). constructor.
      * intros st H. rewrite A1 in H. rewrite EC. apply F1, H.
      * intros st Hne H. rewrite EC in Hne, H. rewrite (tbl_static hstate _ _ _ ST) in H. apply (F2 st Hne H).
      * rewrite EC. exact F3.
      * rewrite DI, A5, (tbl_static hstate _ _ _ ST). exact F4.
    + intro id. rewrite st_of_spec_sent by exact (S_wf _ _ _ _ HS). reflexivity.
    + reflexivity.
    + unfold R_block. rewrite block_spec_sent, EC. exact (S_blk _ _ _ _ HS).
    + reflexivity.
    + rewrite EC, DI, (tbl_static hstate _ _ _ ST). intros Hne T. destruct (S_cont _ _ _ _ HS Hne T) as [X|X]; [left; exact X | right; exact X].
    + reflexivity.
    + discriminate.
  - (* the closer channel *)
    rewrite step_EvCloser. rewrite Hsl. cbn [negb]. rewrite andb_true_r. destruct (sc_closer c).
    + apply (Gloc_over hstate c s ph _ [OExit 1 0]); try reflexivity. intros i rq [H|[]]; discriminate.
    + exact (Gloc_gbatch hstate c s ph c [] [] HS (gbatch_refl hstate c AT Hsl)).
Qed.

Definition not_dispatch (o : outev) : Prop := forall sid rq, o <> ODispatch sid rq.

Inductive nd : list outev -> list outev -> Prop :=
| nd_refl l : nd l l
| nd_cons o l l' : nd l l' -> not_dispatch o -> nd l (o :: l').

Lemma nd_ext l l' : nd l l' -> exists d, l' = d ++ l /\ forall sid rq, ~ In (ODispatch sid rq) d.
Proof.
  induction 1 as [l|o l l' _ (d & -> & Hd) No]; [exists []; split; [reflexivity | intros sid rq []]|].
  exists (o :: d). split; [reflexivity|]. intros sid rq [H|H]; [exact (No sid rq H) | exact (Hd sid rq H)].
Qed.

(* c': the stream loop has ended, and c' has the outputs of c and more, no dispatch among them *)
Definition ov c c' : Prop := sc_sl_done c' = true /\ nd (sc_out c) (sc_out c').

Lemma ov_exit c c1 why : ov c c1 -> ov c (rl_exit c1 why).
Proof. intros [A B]. split; [exact A | apply nd_cons; [exact B | intros ? ?; discriminate]]. Qed.

Lemma ov_emit c c1 o : ov c c1 -> ov c (emit c1 o).
Proof.
  intros [A B]. unfold emit. rewrite A. destruct (sc_wl_dead c1); [split; assumption|].
  split; [exact A | apply nd_cons; [exact B | intros ? ?; discriminate]].
Qed.

Lemma ov_goaway c c1 sid code : ov c c1 -> ov c (write_goaway c1 sid code).
Proof. intro H. unfold write_goaway. cbv zeta. apply ov_emit. exact H. Qed.

Lemma ov_forward c c1 fr : ov c c1 -> ov c (forward c1 fr).
Proof. intro H. unfold forward. rewrite (proj1 H). apply ov_exit, H. Qed.

Lemma rl_step_over c i : sc_sl_done c = true -> ov c (rl_step cfg c i).
Proof.
  intro Hsl. assert (R : ov c c) by (split; [exact Hsl | apply nd_refl]).
  assert (RE : forall n, ov c (upd_expectCont c n)) by (intro n; exact R).
  unfold rl_step, check_frame_with_stream, write_error.
  destruct i as [fr| |[code|]|];
    repeat match goal with
           | |- context [if ?b then _ else _] => destruct b
           | |- context [match sf_kind ?f with _ => _ end] => destruct (sf_kind f)
           end; cbn [fst];
    repeat first [exact R | apply RE | apply ov_exit | apply ov_goaway | apply ov_forward | apply ov_emit].
Qed.

Lemma over_step c s ph it : wf s -> sc_sl_done c = true -> RS.dead s = true -> step_goal hstate dec_field enc_field enc_set_max cfg c s ph it.
Proof.
  intros W Hsl Hd.
  assert (K : sc_sl_done (feed c it) = true /\ nd (sc_out c) (sc_out (feed c it))).
  { unfold SrvRfcDefs.feed. destruct it as [i|sid r|l].
    - rewrite step_EvRL. destruct (sc_rl_done c).
      + rewrite step_EvSL, Hsl. split; [exact Hsl | apply nd_refl].
      + destruct (rl_step_over c i Hsl) as [A B]. rewrite step_EvSL, A. split; [exact A | exact B].
    - rewrite step_EvDone, Hsl. split; [exact Hsl | apply nd_refl].
    - destruct l as [t| | |]; cbn [local_event].
      + rewrite step_EvClock. destruct (_ <? _)%Z; (split; [exact Hsl | apply nd_refl]).
      + rewrite step_EvTimer, Hsl. split; [exact Hsl | apply nd_refl].
      + rewrite step_EvIdle. unfold write_goaway, emit. sc_cbn. rewrite Hsl.
        destruct (sc_wl_dead c); sc_cbn; (split; [exact Hsl|]); [apply nd_refl | apply nd_cons; [apply nd_refl | intros ? ?; discriminate]].
      + rewrite step_EvCloser, Hsl. cbn [negb]. rewrite andb_false_r. split; [exact Hsl | apply nd_refl]. }
  destruct K as [Hsl' Hnd]. destruct (nd_ext _ _ Hnd) as (d & Ho & Hnd').
  pose proof (new_out_ext hstate _ _ _ Ho) as NO.
  unfold step_goal. cbv zeta. split; [intro X; congruence|]. split.
  - unfold SrvRfcSim.Post. rewrite Hsl'.
    unfold SrvRfcDefs.spec_feed. cbv zeta.
    set (s1 := match it with IIn i => RS.spec_next s (abs_input i) _ | _ => s end).
    assert (W1 : wf s1 /\ RS.dead s1 = true).
    { unfold s1. destruct it as [i| |]; [|auto|auto]. split; [apply wf_spec_next, W|].
      destruct (abs_input i) as [f| |code|]; [rewrite dead_spec_next, Hd; reflexivity | | |];
        cbn [RS.spec_next]; match goal with |- context [resolve ?a ?b ?r] => destruct (resolve a b r) end; cbn; auto. }
    destruct W1 as [W1 D1].
    set (s2 := fold_left RS.spec_sent _ s1).
    assert (W2 : wf s2 /\ RS.dead s2 = true) by (unfold s2; split; [apply wf_fold_sent, W1 | rewrite dead_fold_sent, D1; reflexivity]).
    destruct W2 as [W2 D2]. destruct (sync_forget_props hstate (feed c it) s2 W2) as (W3 & _ & _ & _ & D3 & _).
    split; [exact W3 | rewrite D3; exact D2].
  - split; [|exists d; exact Ho]. intros sid rq H. exfalso. rewrite NO in H. apply in_rev in H. exact (Hnd' sid rq H).
Qed.

End Main.
