(* Proofs/TeardownCliGone0.v -- blocking-structure model (Impl/Teardown.v), client, S3 with the peer gone (0): vocabulary.
   Statements: Props/Teardown.v; overview: Proofs/TeardownProofs.v. *)
From Coq Require Import Arith Lia Bool List.
From RecordUpdate Require Import RecordSet.
Import RecordSetNotations.
Import ListNotations.
From H2V Require Import Impl.Teardown Proofs.TeardownCliLive1.

Module CliGd.
Import Cli CliL2.
Definition rlr (p : rl_pc) : nat :=
  match p with
  | RDone => 0 | RClose CWrite => 1 | RClose CLock => 2 | RClose CDone => 3 | RClose CCas => 4
  | RExit => 5 | RRead => 6 | RIter false => 7 | ROut => 8 | RPost k _ => 9 + 2 * k
  | RPostW k _ => 10 + 2 * k | RHold _ => 14 | RAcq => 15 | RIter true => 16
  end.
Definition rm (s : state) : nat := (if rdy s then 20 else 0) + rlr (rl s).
Definition OB (s : state) : Prop :=
  wl s = LT0 \/ wl s = LClose CCas \/ rl s = RExit \/ rl s = RClose CCas.
Definition PG (s : state) : Prop := gone s = true /\ closed s = false.
Definition QG (n : nat) (s : state) : Prop :=
  closed s = true \/ OB s \/ (PG s /\ rm s < n).
Definition rl_free (s : state) : Prop :=
  match rl s with RRead | RIter _ | RHold _ | RPost _ _ => True | _ => False end.
Definition rl_outp (s : state) : Prop := rl s = ROut \/ exists k st, rl s = RPostW k st.

Section D.
Variable cap : nat.
Definition P3 (s : state) : Prop :=
  (closed s = false /\ cap <= outq s /\ outq s <= cap) /\ (wl s = LSel \/ wl_iter s).
Definition Q3 (s : state) : Prop := closed s = true \/ wl_t s \/ outq s < cap.
End D.
End CliGd.
