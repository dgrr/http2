(* Proofs/SrvMsgAck.v - C18 (server): OSettingsAck is emitted by the step that applies a SETTINGS frame and by no other.
   NX c0 c: what c has put out since c0 contains no SETTINGS acknowledgement. *)
From H2V Require Import Base.Bytes Base.MachineInt Base.Result Gen.GenConsts Impl.ServerConn Proofs.SrvBase Proofs.SrvFlowEff.
From Coq Require Import ZArith Lia ZifyN ZifyNat ZifyBool.
Local Open Scope N_scope.

Fixpoint unlate (o : outev) : outev := match o with OLate x => unlate x | _ => o end.
Definition is_ack (o : outev) : bool := match unlate o with OSettingsAck => true | _ => false end.
Definition nack (o : outev) : Prop := is_ack o = false.
Definition acks (l : list outev) : nat := length (filter is_ack l).

Lemma acks_app a b : acks (a ++ b) = (acks a + acks b)%nat.
Proof. unfold acks. rewrite filter_app, app_length. reflexivity. Qed.
Lemma acks_nack l : Forall nack l -> acks l = 0%nat.
Proof. induction 1 as [|o l H _ IH]; [reflexivity|]. unfold acks in *. cbn [filter]. rewrite H. exact IH. Qed.

Section Ack.
Variable hstate : Type.
Variable dec_field : hstate -> N -> bytes -> dec_res hstate.
Variable enc_field : hstate -> bytes -> bytes -> bool -> bytes * hstate.
Variable enc_set_max : hstate -> N -> hstate.
Variable cfg : config.
Notation sconn := (sconn hstate).
Implicit Types c : sconn.

Definition NX c0 c : Prop := exists l, sc_out c = l ++ sc_out c0 /\ Forall nack l.

Lemma NX_refl c : NX c c.
Proof. exists []. split; [reflexivity | constructor]. Qed.
Lemma NX_trans a b c : NX a b -> NX b c -> NX a c.
Proof.
  intros (l1 & E1 & F1) (l2 & E2 & F2). exists (l2 ++ l1). split; [rewrite E2, E1, app_assoc; reflexivity | apply Forall_app; auto].
Qed.
Lemma NX_acks c0 c : NX c0 c -> acks (sc_out c) = acks (sc_out c0).
Proof. intros (l & E & F). rewrite E, acks_app, (acks_nack _ F). reflexivity. Qed.

(* f-style: the state reached by one more operation *)
Lemma NX_same c0 c c' : sc_out c' = sc_out c -> NX c0 c -> NX c0 c'.
Proof. intros E (l & El & F). exists l. split; [rewrite E; exact El | exact F]. Qed.
Lemma NX_emit c0 c o : nack o -> NX c0 c -> NX c0 (emit c o).
Proof.
  intros N1 H. eapply NX_trans; [exact H|]. unfold NX. rewrite sc_out_emit.
  destruct (sc_wl_dead c); [exists []; split; [reflexivity | constructor]|].
  destruct (sc_sl_done c); [exists [OLate o] | exists [o]]; (split; [reflexivity | repeat constructor; exact N1]).
Qed.
Lemma NX_note c0 c o : nack o -> NX c0 c -> NX c0 (note c o).
Proof. intros N1 H. eapply NX_trans; [exact H|]. exists [o]. split; [reflexivity | repeat constructor; exact N1]. Qed.

Lemma NX_write_reset c0 c sid code : NX c0 c -> NX c0 (write_reset c sid code).
Proof. apply NX_emit. reflexivity. Qed.
Lemma NX_write_goaway c0 c x code : NX c0 c -> NX c0 (write_goaway c x code).
Proof. intro H. rewrite write_goaway_eq. apply NX_emit; [reflexivity|]. eapply NX_same; [|exact H]. reflexivity. Qed.
Lemma NX_write_error c0 c s e : NX c0 c -> NX c0 (fst (write_error c s e)).
Proof. intro H. rewrite write_error_fst. destruct e, s; auto using NX_write_goaway, NX_write_reset. Qed.
Lemma NX_put c0 c x : NX c0 c -> NX c0 (put c x).
Proof. apply NX_same. reflexivity. Qed.
Lemma NX_mark_closed c0 c id w : NX c0 c -> NX c0 (mark_closed c id w).
Proof. apply NX_same. apply sc_out_mark_closed. Qed.
Lemma NX_close_stream c0 c s : NX c0 c -> NX c0 (close_stream c s).
Proof.
  intro H. eapply NX_trans; [exact H|]. unfold NX. rewrite sc_out_close_stream.
  destruct (st_handlerRunning s); [exists [] | exists [ORelease (st_id s) true]]; (split; [reflexivity | repeat constructor]).
Qed.
Lemma NX_release_stream c0 c s : NX c0 c -> NX c0 (release_stream c s).
Proof.
  intro H. eapply NX_trans; [exact H|]. unfold NX. rewrite sc_out_release_stream.
  exists [ORelease (st_id s) true]. split; [reflexivity | repeat constructor].
Qed.
Lemma NX_brk c0 c : NX c0 c -> NX c0 (fst (brk c)).
Proof. intro H. unfold brk. cbn [fst]. apply NX_note; [reflexivity|]. eapply NX_same; [|exact H]. reflexivity. Qed.
Lemma NX_brk_if (b : bool) c0 c : NX c0 c -> NX c0 (fst (if b then brk c else cont c)).
Proof. destruct b; [apply NX_brk | auto]. Qed.

Lemma NX_credit c0 c n : NX c0 c -> NX c0 (credit_conn_window cfg c n).
Proof.
  intro H. unfold credit_conn_window, write_window_update.
  destruct (n <=? 0)%Z; [exact H|]. destruct (_ <? _)%Z.
  - apply NX_emit; [reflexivity|]. eapply NX_same; [|exact H]. reflexivity.
  - eapply NX_same; [|exact H]. reflexivity.
Qed.
Lemma NX_consume c0 c s fr n : NX c0 c -> NX c0 (consume_recv_window cfg c s fr n).
Proof.
  intro H. unfold consume_recv_window, write_window_update. destruct (n <=? 0)%Z; [exact H|].
  apply NX_credit. destruct (flag_has _ _); [exact H | apply NX_emit; [reflexivity | exact H]].
Qed.

Lemma NX_close_all ids : forall c0 c, NX c0 c -> NX c0 (close_all c ids).
Proof.
  induction ids as [|id t IH]; intros c0 c H; cbn [close_all]; [exact H|].
  destruct (strms_search (sc_strms c) id); apply IH; [apply NX_close_stream|]; exact H.
Qed.

Lemma NX_send_data_loop fuel : forall c0 c sid n, NX c0 c -> NX c0 (fst (fst (fst (send_data_loop fuel c sid n)))).
Proof.
  induction fuel as [|fuel IH]; intros c0 c sid n H; cbn [send_data_loop]; [exact H|].
  assert (GO : forall c1 n0, NX c0 c1 -> NX c0 (fst (fst (fst
       (let avail := zmin (sn_window n0) (sc_clientWindow c1) in
        if (avail <=? 0)%Z then (c1, n0, false, false)
        else
          let step := zmin (zmin (Z.of_N maxDataFrameSize) avail) (Z.of_N (len (sn_pending n0))) in
          let chunk := takeN (Z.to_N step) (sn_pending n0) in
          let rest := dropN (Z.to_N step) (sn_pending n0) in
          let e := sn_pendingEnd n0 && match rest with [] => true | _ => false end in
          let c2 := emit c1 (OData sid e chunk) in
          let c3 := upd_clientWindow c2 (sc_clientWindow c2 - step) in
          let n' := mkSnd (sn_window n0 - step) rest (sn_pendingEnd n0) (sn_bodyStream n0) (sn_bodySize n0) (sn_bodyRead n0) in
          if e then (c3, n', true, false) else send_data_loop fuel c3 sid n'))))).
  { intros c1 n0 H1. cbv zeta. destruct (_ <=? 0)%Z; [exact H1|].
    assert (X : NX c0 (upd_clientWindow (emit c1 (OData sid (sn_pendingEnd n0 && match dropN (Z.to_N (zmin (zmin (Z.of_N maxDataFrameSize) (zmin (sn_window n0) (sc_clientWindow c1))) (Z.of_N (len (sn_pending n0))))) (sn_pending n0) with [] => true | _ => false end) (takeN (Z.to_N (zmin (zmin (Z.of_N maxDataFrameSize) (zmin (sn_window n0) (sc_clientWindow c1))) (Z.of_N (len (sn_pending n0))))) (sn_pending n0))))
                 (sc_clientWindow (emit c1 (OData sid (sn_pendingEnd n0 && match dropN (Z.to_N (zmin (zmin (Z.of_N maxDataFrameSize) (zmin (sn_window n0) (sc_clientWindow c1))) (Z.of_N (len (sn_pending n0))))) (sn_pending n0) with [] => true | _ => false end) (takeN (Z.to_N (zmin (zmin (Z.of_N maxDataFrameSize) (zmin (sn_window n0) (sc_clientWindow c1))) (Z.of_N (len (sn_pending n0))))) (sn_pending n0)))) - zmin (zmin (Z.of_N maxDataFrameSize) (zmin (sn_window n0) (sc_clientWindow c1))) (Z.of_N (len (sn_pending n0)))))).
    { eapply NX_same; [reflexivity|]. apply NX_emit; [reflexivity | exact H1]. }
    destruct (_ && _)%bool; cbn [fst]; [exact X | apply IH; exact X]. }
  destruct (sn_pending n) eqn:EP.
  - destruct (sn_bodyStream n); [|exact H].
    destruct (refill_pending n) as [n1|].
    + destruct (sn_pending n1) eqn:EP1.
      * cbn [fst]. destruct (sn_pendingEnd n1); [apply NX_emit; [reflexivity | exact H] | exact H].
      * rewrite <- EP1. apply GO. exact H.
    + cbn [fst]. apply NX_write_reset. exact H.
  - rewrite <- EP. apply GO. exact H.
Qed.

Lemma NX_send_data c0 c s : NX c0 c -> NX c0 (fst (fst (send_data c s))).
Proof.
  intro H. unfold send_data. pose proof (NX_send_data_loop (send_data_fuel (get_snd s)) c0 c (st_id s) (get_snd s) H) as L.
  destruct (send_data_loop _ c (st_id s) (get_snd s)) as [[[c1 n1] dn] wr]. exact L.
Qed.

Lemma NX_flush_loop ids : forall c0 c done, NX c0 c -> NX c0 (fst (flush_loop c ids done)).
Proof.
  induction ids as [|id t IH]; intros c0 c done H; cbn [flush_loop]; [exact H|].
  destruct (strms_search (sc_strms c) id) as [s|]; [|apply IH; exact H].
  destruct (_ && _)%bool; [|apply IH; exact H].
  pose proof (NX_send_data c0 c s H) as L. destruct (send_data c s) as [[c1 s1] fin]. cbn [fst] in L.
  apply IH. apply NX_put. exact L.
Qed.

Lemma NX_flush_streams c0 c : NX c0 c -> NX c0 (flush_streams c).
Proof.
  intro H. unfold flush_streams. pose proof (NX_flush_loop (map st_id (sc_strms c)) c0 c [] H) as L.
  destruct (flush_loop c (map st_id (sc_strms c)) []) as [c1 done]. cbn [fst] in L. apply NX_close_all. exact L.
Qed.

Lemma NX_implicit_close fuel : forall c0 c sid, NX c0 c -> NX c0 (implicit_close fuel c sid).
Proof.
  induction fuel as [|fuel IH]; intros c0 c sid H; cbn [implicit_close]; [exact H|].
  destruct (sc_strms c) as [|n t]; [exact H|]. destruct (_ && _)%bool; [|exact H].
  apply IH. apply NX_write_reset. apply NX_close_stream. exact H.
Qed.

Lemma NX_close_heads n : forall c0 c, NX c0 c -> NX c0 (close_heads n c).
Proof.
  induction n as [|n IH]; intros c0 c H; cbn [close_heads]; [exact H|].
  destruct (sc_strms c) as [|s t]; [exact H|]. apply IH. apply NX_close_stream. apply NX_write_reset. exact H.
Qed.

Lemma NX_sl_timer c0 c : NX c0 c -> NX c0 (fst (sl_timer cfg c)).
Proof. intro H. unfold sl_timer. destruct (_ <=? 0)%Z; cbn [fst cont]; [exact H | apply NX_close_heads; exact H]. Qed.

Lemma NX_discard_fragment c0 c id frag eh : NX c0 c -> NX c0 (fst (discard_fragment dec_field cfg c id frag eh)).
Proof.
  intro H. unfold discard_fragment.
  destruct (discard_loop dec_field _ eh (sc_dec c) (sc_discardFields c) (sc_discardPrev c ++ frag)) as [[[d' fields] carry] e].
  destruct e; [|destruct eh; [|destruct (_ && _)%bool]]; cbn [fst]; (eapply NX_same; [|exact H]); reflexivity.
Qed.
Lemma NX_discard_header_block c0 c fr : NX c0 c -> NX c0 (fst (discard_header_block dec_field cfg c fr)).
Proof.
  intro H. unfold discard_header_block. apply NX_discard_fragment.
  destruct (fkind_eqb _ _); [exact H | eapply NX_same; [|exact H]; reflexivity].
Qed.
Lemma NX_discard_or_break c0 (r : sconn * option h2err) : NX c0 (fst r) -> NX c0 (fst (discard_or_break r)).
Proof.
  destruct r as [c1 [e|]]; cbn [fst]; intro H; [|exact H].
  destruct e; cbn [discard_or_break]; apply NX_brk; [apply NX_write_goaway | apply NX_write_goaway | apply NX_note; [reflexivity|]];
    exact H.
Qed.

Lemma NX_handle_header_frame c0 c s fr : NX c0 c -> NX c0 (fst (fst (handle_header_frame dec_field cfg c s fr))).
Proof.
  intro H. unfold handle_header_frame.
  destruct (_ && _)%bool; [exact H|]. destruct (_ && _)%bool; [exact H|]. cbv zeta.
  destruct (header_loop dec_field _ cfg _ (sc_dec c) _ _) as [[[d' h2] e] rest].
  destruct e as [[code|code|]|]; cbn [fst]; try (eapply NX_same; [|exact H]; reflexivity).
  - match goal with |- context [discard_fragment dec_field cfg ?cc ?i ?r ?b] =>
      pose proof (NX_discard_fragment c0 cc i r b) as L; destruct (discard_fragment dec_field cfg cc i r b) as [c3 [de|]] end;
      cbn [fst] in *; apply L; (eapply NX_same; [|exact H]); reflexivity.
  - destruct (_ && _)%bool; cbn [fst]; (eapply NX_same; [|exact H]); reflexivity.
Qed.

Lemma NX_handle_frame c0 c s fr : NX c0 c -> NX c0 (fst (fst (handle_frame dec_field cfg c s fr))).
Proof.
  intro H. unfold handle_frame. destruct (verify_state s fr); [exact H|].
  pose proof (NX_handle_header_frame c0 c s fr H) as LH.
  match goal with |- context [match sf_kind fr with KHeaders => ?X | _ => _ end] => set (hb := X) end.
  assert (HH : NX c0 (fst (fst hb))).
  { subst hb. destruct (_ && _)%bool; [exact H|].
    destruct (handle_header_frame dec_field cfg c s fr) as [[c1 s1] e]. cbn [fst] in LH.
    destruct e; [exact LH|]. destruct (flag_has (sf_flags fr) FL_EH); [|exact LH].
    cbv zeta. destruct (negb _); [exact LH|]. destruct (validate_request_pseudo_headers _); exact LH. }
  clearbody hb.
  destruct (sf_kind fr); try exact H; try exact HH;
    repeat match goal with |- context [if ?b then _ else _] => destruct b end; cbn [fst]; try exact H.
  - apply NX_credit. exact H.
  - apply NX_consume. exact H.
Qed.

Lemma NX_after_frame c0 c s fr wc : NX c0 c -> NX c0 (fst (after_frame cfg c s fr wc)).
Proof.
  intro H. unfold after_frame. set (s1 := handle_state fr s). clearbody s1.
  assert (T : forall c2 s2, NX c0 c2 ->
    NX c0 (fst (let c3 := if sstate_eqb (st_state s2) SClosed then close_stream (put c2 s2) s2 else put c2 s2 in
                if wc && can_close_after_goaway c3 then brk c3 else cont c3))).
  { intros c2 s2 H2. cbv zeta. apply NX_brk_if. destruct (sstate_eqb _ _); [apply NX_close_stream|]; apply NX_put; exact H2. }
  destruct (_ && _ && _)%bool.
  - destruct (_ && _)%bool; apply T; [apply NX_write_reset | apply NX_note; [reflexivity|]]; exact H.
  - destruct (_ && _ && _)%bool; [|apply T; exact H].
    pose proof (NX_send_data c0 c s1 H) as L. destruct (send_data c s1) as [[c1 s2] fin]. cbn [fst] in L.
    apply T. exact L.
Qed.

Lemma NX_finish_request c0 c s r : NX c0 c -> NX c0 (fst (fst (finish_request enc_field c s r))).
Proof.
  intro H. unfold finish_request. destruct (response_block enc_field (sc_enc c) r) as [blk e'].
  assert (X : NX c0 (emit (upd_enc c e') (OHeaders (st_id s) (negb match rs_body r with BStream _ _ => true | BBuffered [] => false | BBuffered _ => true end) blk))).
  { apply NX_emit; [reflexivity|]. eapply NX_same; [|exact H]. reflexivity. }
  destruct (negb _); cbn [fst]; [exact X|]. apply NX_send_data. exact X.
Qed.

Lemma NX_sl_done c0 c sid r : NX c0 c -> NX c0 (fst (sl_done enc_field cfg c sid r)).
Proof.
  intro H. unfold sl_done. destruct (take_stream (sc_gone c) sid) as [[s rest]|].
  - cbn [cont fst]. apply NX_release_stream. eapply NX_same; [|exact H]. reflexivity.
  - destruct (strms_search (sc_strms c) sid) as [s|]; [|exact H].
    destruct (negb _); [exact H|].
    pose proof (NX_finish_request c0 c (set_flags s (st_responded s) false (st_abandoned s)) r H) as L.
    destruct (finish_request enc_field c _ r) as [[c1 s2] fin]. cbn [fst] in L.
    apply NX_brk_if. destruct fin; [apply NX_close_stream|]; apply NX_put; exact L.
Qed.

(* the stream loop, one frame *)
Definition is_set (fr : sframe) : bool := (sf_sid fr =? 0) && fkind_eqb (sf_kind fr) KSettings.

(* any frame but a SETTINGS frame: no acknowledgement *)
Lemma NX_sl_frame c0 c fr : is_set fr = false -> NX c0 c -> NX c0 (fst (sl_frame dec_field enc_set_max cfg c fr)).
Proof.
  intros NS H. unfold is_set in NS. unfold sl_frame. destruct (sf_sid fr =? 0) eqn:Z0.
  { cbn [andb] in NS. destruct (sf_kind fr); try exact H; try discriminate.
    destruct (_ <? _)%Z; cbn [cont fst]; [apply NX_brk, NX_write_goaway | apply NX_flush_streams];
      (eapply NX_same; [|exact H]); reflexivity. }
  clear NS.
  destruct (_ && _ && _)%bool; [apply NX_discard_or_break, NX_discard_header_block; exact H|].
  cbv zeta.
  assert (TL : forall c2 s, NX c0 c2 -> NX c0 (fst
     (let '(c3, s3, e) := handle_frame dec_field cfg c2 s fr in
      match e with
      | Some e =>
        let '(c4, s4) := write_error c3 (Some s3) e in
        let s5 := match s4 with Some x => set_state x SClosed | None => set_state s3 SClosed end in
        match e with
        | EGoAway code => if negb (code =? c_NoError) then brk (put c4 s5) else after_frame cfg c4 s5 fr (sc_closing c)
        | EReset _ => after_frame cfg c4 s5 fr (sc_closing c)
        | EPanic => brk (note c3 (OPanic 1 0))
        end
      | None => after_frame cfg c3 s3 fr (sc_closing c)
      end))).
  { intros c2 s H2. pose proof (NX_handle_frame c0 c2 s fr H2) as L.
    destruct (handle_frame dec_field cfg c2 s fr) as [[c3 s3] e]. cbn [fst] in L.
    destruct e as [e|]; [|apply NX_after_frame; exact L].
    pose proof (NX_write_error c0 c3 (Some s3) e L) as LE. destruct (write_error c3 (Some s3) e) as [c4 s4]. cbn [fst] in LE.
    destruct e as [code|code|]; [destruct (negb _)| |].
    - apply NX_brk, NX_put. exact LE.
    - apply NX_after_frame. exact LE.
    - apply NX_after_frame. exact LE.
    - apply NX_brk, NX_note; [reflexivity | exact L]. }
  assert (WK : forall c1 s, NX c0 c1 -> NX c0 (fst
     (let pre2 : (sconn * bool) + sconn :=
        if fkind_eqb (sf_kind fr) KHeaders then
          match get_previous_headers (sc_strms c1) with
          | Some p =>
            if negb (st_headersFinished p) then
              let '(c2, p') := write_error c1 (Some p) (EGoAway c_ProtocolError) in
              inl (cont (match p' with Some p' => put c2 p' | None => c2 end))
            else inr (implicit_close (S (length (sc_strms c1))) c1 (st_id s))
          | None => inr (implicit_close (S (length (sc_strms c1))) c1 (st_id s))
          end
        else inr c1 in
      match pre2 with
      | inl r => r
      | inr c2 =>
        let '(c3, s3, e) := handle_frame dec_field cfg c2 s fr in
        match e with
        | Some e =>
          let '(c4, s4) := write_error c3 (Some s3) e in
          let s5 := match s4 with Some x => set_state x SClosed | None => set_state s3 SClosed end in
          match e with
          | EGoAway code => if negb (code =? c_NoError) then brk (put c4 s5) else after_frame cfg c4 s5 fr (sc_closing c)
          | EReset _ => after_frame cfg c4 s5 fr (sc_closing c)
          | EPanic => brk (note c3 (OPanic 1 0))
          end
        | None => after_frame cfg c3 s3 fr (sc_closing c)
        end
      end))).
  { intros c1 s H1. cbv zeta. destruct (fkind_eqb (sf_kind fr) KHeaders); [|apply TL; exact H1].
    destruct (get_previous_headers (sc_strms c1)) as [p|]; [|apply TL, NX_implicit_close; exact H1].
    destruct (negb (st_headersFinished p)); [|apply TL, NX_implicit_close; exact H1].
    cbn [write_error cont fst]. apply NX_put, NX_write_goaway. exact H1. }
  destruct (if sf_sid fr <=? sc_lastID c then strms_search (sc_strms c) (sf_sid fr) else None) as [s|].
  { apply WK. exact H. }
  assert (RF : forall c1 : sconn, NX c0 c1 -> NX c0 (fst (discard_or_break (discard_header_block dec_field cfg
                 (mark_closed (write_reset c1 (sf_sid fr) c_RefusedStreamError) (sf_sid fr) true) fr)))).
  { intros c1 H1. apply NX_discard_or_break, NX_discard_header_block, NX_mark_closed, NX_write_reset. exact H1. }
  destruct (fkind_eqb (sf_kind fr) KRst).
  { destruct (_ && _)%bool; cbn [cont fst]; [apply NX_write_goaway|]; exact H. }
  destruct (in_ring c (sf_sid fr)).
  { destruct (sf_kind fr); repeat match goal with |- context [if ?b then _ else _] => destruct b end; cbn [cont fst];
      first [exact H | apply NX_write_goaway; exact H | apply NX_credit; exact H
             | apply NX_discard_or_break, NX_discard_header_block; exact H]. }
  destruct (fkind_eqb (sf_kind fr) KPriority).
  { destruct (sf_dep fr =? sf_sid fr); cbn [cont fst]; [apply NX_write_reset|]; exact H. }
  destruct (fkind_eqb (sf_kind fr) KHeaders); cbn [andb].
  - destruct (sf_sid fr <=? sc_highestID c); [cbn [cont fst]; apply NX_write_goaway; exact H|].
    assert (HU : NX c0 (upd_highestID c (sf_sid fr))) by (eapply NX_same; [|exact H]; reflexivity).
    destruct (_ || _)%bool; [apply RF; exact HU|].
    destruct (_ <? _); [cbn [cont fst]; apply NX_write_goaway; exact HU|].
    destruct (sc_closing _); [apply RF; exact HU|]. apply WK. eapply NX_same; [|exact HU]. reflexivity.
  - destruct (_ <? _); [cbn [cont fst]; apply NX_write_goaway; exact H|]. apply WK. eapply NX_same; [|exact H]. reflexivity.
Qed.

(* What the read loop does between c and rl_step c i is a GOAWAY, a PING acknowledgement, its own exit, or nothing
   that shows in the output: any relation that holds across these holds across the step. *)
Section RlStep.
Variable R : sconn -> sconn -> Prop.
Hypothesis R_refl : forall c, R c c.
Hypothesis R_trans : forall a b c, R a b -> R b c -> R a c.
Hypothesis R_same : forall c c', sc_sl_done c' = sc_sl_done c -> sc_out c' = sc_out c -> R c c'.
Hypothesis R_goaway : forall c x code, R c (write_goaway c x code).
Hypothesis R_rl_exit : forall c why, R c (rl_exit c why).
Hypothesis R_pingack : forall c d, R c (emit c (OPingAck d)).

Lemma rl_step_rel c i : R c (rl_step cfg c i).
Proof.
  assert (G : forall c x code why, R c (rl_exit (write_goaway c x code) why))
    by (intros; eapply R_trans; [apply R_goaway | apply R_rl_exit]).
  assert (F : forall c fr, R c (forward c fr)).
  { intros c1 fr. unfold forward. destruct (sc_sl_done c1); [apply R_rl_exit | apply R_same; reflexivity]. }
  assert (U : forall c x, R c (upd_expectCont c x)) by (intros; apply R_same; reflexivity).
  assert (W : forall c e, R c (fst (write_error c None e)))
    by (intros c1 e; rewrite write_error_fst; destruct e; try apply R_goaway; apply R_refl).
  unfold rl_step. destruct i as [fr| |[code|]|]; try apply R_rl_exit; try apply G.
  2:{ destruct (negb (sc_expectCont c =? 0)); [apply G | apply R_refl]. }
  set (r := if negb (sc_expectCont c =? 0) then _ else _).
  assert (Hr : match r with inl c' => R c c' | inr c1 => R c c1 end).
  { unfold r. destruct (negb (sc_expectCont c =? 0)).
    - destruct (_ || _)%bool; [apply G|]. destruct (flag_has _ _); [apply U | apply R_refl].
    - destruct (fkind_eqb (sf_kind fr) KCont); [apply G|]. destruct (_ && _)%bool; [apply U | apply R_refl]. }
  destruct r as [c'|c1]; [exact Hr|].
  destruct (negb (sf_sid fr =? 0)).
  - destruct (check_frame_with_stream fr).
    + eapply R_trans; [exact Hr|]. eapply R_trans; [apply W | apply R_rl_exit].
    + eapply R_trans; [exact Hr | apply F].
  - destruct (sf_kind fr); try (eapply R_trans; [exact Hr | apply G]).
    + destruct (negb _); [eapply R_trans; [exact Hr | apply F] | exact Hr].
    + destruct (negb _); [|exact Hr]. eapply R_trans; [exact Hr | apply R_pingack].
    + eapply R_trans; [exact Hr | apply R_rl_exit].
    + destruct (sf_inc fr =? 0); [eapply R_trans; [exact Hr | apply G] | eapply R_trans; [exact Hr | apply F]].
Qed.
End RlStep.

(* flushing leaves the encoder, the initial window and the loops alone *)
Definition ev (c : sconn) := (sc_enc c, sc_initWin c, sc_sl_done c, sc_wl_dead c).

Lemma ev_emit c o : ev (emit c o) = ev c. Proof. rewrite emit_eq. reflexivity. Qed.
Lemma ev_put c x : ev (put c x) = ev c. Proof. reflexivity. Qed.
Lemma ev_close_stream c s : ev (close_stream c s) = ev c.
Proof. unfold ev. rewrite sc_enc_close_stream, sc_initWin_close_stream, sc_sl_done_close_stream, sc_wl_dead_close_stream. reflexivity. Qed.
Lemma ev_write_reset c sid code : ev (write_reset c sid code) = ev c. Proof. apply ev_emit. Qed.

Lemma ev_close_all ids : forall c, ev (close_all c ids) = ev c.
Proof.
  induction ids as [|id t IH]; intros c; cbn [close_all]; [reflexivity|].
  destruct (strms_search (sc_strms c) id); [rewrite IH, ev_close_stream|rewrite IH]; reflexivity.
Qed.

Lemma ev_send_data c s : ev (fst (fst (send_data c s))) = ev c.
Proof.
  unfold send_data.
  assert (L : forall fuel c sid n, ev (fst (fst (fst (send_data_loop fuel c sid n)))) = ev c).
  { induction fuel as [|fuel IH]; intros c0 sid n; cbn [send_data_loop]; [reflexivity|].
    assert (GO : forall c1 n0, ev (fst (fst (fst
       (let avail := zmin (sn_window n0) (sc_clientWindow c1) in
        if (avail <=? 0)%Z then (c1, n0, false, false)
        else
          let step := zmin (zmin (Z.of_N maxDataFrameSize) avail) (Z.of_N (len (sn_pending n0))) in
          let chunk := takeN (Z.to_N step) (sn_pending n0) in
          let rest := dropN (Z.to_N step) (sn_pending n0) in
          let e := sn_pendingEnd n0 && match rest with [] => true | _ => false end in
          let c2 := emit c1 (OData sid e chunk) in
          let c3 := upd_clientWindow c2 (sc_clientWindow c2 - step) in
          let n' := mkSnd (sn_window n0 - step) rest (sn_pendingEnd n0) (sn_bodyStream n0) (sn_bodySize n0) (sn_bodyRead n0) in
          if e then (c3, n', true, false) else send_data_loop fuel c3 sid n')))) = ev c1).
    { intros c1 n0. cbv zeta. destruct (_ <=? 0)%Z; [reflexivity|].
      destruct (_ && _)%bool; cbn [fst]; [|rewrite IH]; exact (ev_emit c1 _). }
    destruct (sn_pending n) eqn:EP.
    - destruct (sn_bodyStream n); [|reflexivity].
      destruct (refill_pending n) as [n1|].
      + destruct (sn_pending n1) eqn:EP1.
        * cbn [fst]. destruct (sn_pendingEnd n1); [apply ev_emit | reflexivity].
        * rewrite <- EP1. apply GO.
      + cbn [fst]. apply ev_write_reset.
    - rewrite <- EP. apply GO. }
  specialize (L (send_data_fuel (get_snd s)) c (st_id s) (get_snd s)).
  destruct (send_data_loop _ c (st_id s) (get_snd s)) as [[[c1 n1] dn] wr]. exact L.
Qed.

Lemma ev_flush_loop ids : forall c done, ev (fst (flush_loop c ids done)) = ev c.
Proof.
  induction ids as [|id t IH]; intros c done; cbn [flush_loop]; [reflexivity|].
  destruct (strms_search (sc_strms c) id) as [s|]; [|apply IH].
  destruct (_ && _)%bool; [|apply IH].
  pose proof (ev_send_data c s) as L. destruct (send_data c s) as [[c1 s1] fin]. cbn [fst] in L.
  rewrite IH, ev_put. exact L.
Qed.

Lemma ev_flush_streams c : ev (flush_streams c) = ev c.
Proof.
  unfold flush_streams. pose proof (ev_flush_loop (map st_id (sc_strms c)) c []) as L.
  destruct (flush_loop c (map st_id (sc_strms c)) []) as [c1 done]. cbn [fst] in L. rewrite ev_close_all. exact L.
Qed.

(* the step that applies a SETTINGS frame *)

(* the new INITIAL_WINDOW_SIZE would push a stream's send window over 2^31-1 *)
Definition overflows c (fr : sframe) : bool :=
  sf_set_haswin fr && snd (bumpall (signed 32 (sf_set_win fr) - sc_initWin c) [] (sc_strms c)).

Definition enc_after c (fr : sframe) : hstate :=
  if sf_set_hastable fr then enc_set_max (sc_enc c) (sf_set_table fr) else sc_enc c.
Definition initWin_after c (fr : sframe) : Z :=
  if sf_set_haswin fr then signed 32 (sf_set_win fr) else sc_initWin c.

Lemma settings_step c fr : is_set fr = true ->
  let c' := fst (sl_frame dec_field enc_set_max cfg c fr) in
  if overflows c fr
  then NX c c' /\ sc_sl_done c' = true
  else sc_enc c' = enc_after c fr /\ sc_initWin c' = initWin_after c fr /\
       sc_sl_done c' = sc_sl_done c /\ sc_wl_dead c' = sc_wl_dead c /\
       exists l, sc_out c' = l ++ sc_out (emit c OSettingsAck) /\ Forall nack l.
Proof.
  unfold is_set. intro IS. apply andb_true_iff in IS. destruct IS as [Z0 K]. apply fkind_eqb_eq in K.
  cbv zeta. rewrite (sl_frame_settings _ dec_field enc_set_max cfg c fr Z0 K). cbv zeta.
  unfold overflows, enc_after, initWin_after.
  set (c0 := settings_c0 enc_set_max c fr).
  assert (E0 : sc_out c0 = sc_out c /\ sc_wl_dead c0 = sc_wl_dead c /\ sc_sl_done c0 = sc_sl_done c /\
               sc_initWin c0 = sc_initWin c /\ sc_strms c0 = sc_strms c /\
               sc_enc c0 = (if sf_set_hastable fr then enc_set_max (sc_enc c) (sf_set_table fr) else sc_enc c)).
  { subst c0. unfold settings_c0. destruct (sf_set_hastable fr); sc_cbn; auto 10. }
  destruct E0 as (O0 & W0 & S0 & I0 & T0 & N0).
  assert (EM : forall c1 : sconn, sc_out c1 = sc_out c -> sc_wl_dead c1 = sc_wl_dead c -> sc_sl_done c1 = sc_sl_done c ->
               sc_out (emit c1 OSettingsAck) = sc_out (emit c OSettingsAck)).
  { intros c1 A B C. rewrite !sc_out_emit, A, B, C. reflexivity. }
  destruct (sf_set_haswin fr); cbn [andb].
  - sc_cbn. rewrite I0, T0.
    destruct (bumpall (signed 32 (sf_set_win fr) - sc_initWin c) [] (sc_strms c)) as [l' over]. cbn [snd].
    destruct over.
    + cbn [fst brk]. split; [|reflexivity]. apply NX_note; [reflexivity|]. eapply NX_same; [reflexivity|].
      apply NX_write_goaway. eapply NX_same; [|apply NX_refl]. sc_cbn. exact O0.
    + cbn [fst cont].
      match goal with |- context [flush_streams ?x] => set (cx := x) end.
      pose proof (ev_flush_streams cx) as EV. unfold cx in EV at 2. rewrite ev_emit in EV. inversion EV as [[E1 E2 E3 E4]].
      destruct (NX_flush_streams cx cx (NX_refl cx)) as (l & El & Fl).
      rewrite E1, E2, E3, E4. split; [exact N0|]. split; [reflexivity|]. split; [exact S0|]. split; [exact W0|].
      exists l. split; [|exact Fl]. rewrite El. f_equal. unfold cx. apply EM; sc_cbn; assumption.
  - cbn [fst cont]. rewrite emit_eq at 1 2 3 4. sc_cbn. rewrite N0, I0, S0, W0. repeat split; try reflexivity.
    exists []. split; [|constructor]. cbn [app]. apply EM; assumption.
Qed.

End Ack.

Arguments NX {hstate}. Arguments overflows {hstate}. Arguments enc_after {hstate}. Arguments initWin_after {hstate}.
