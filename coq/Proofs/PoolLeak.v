(* No connection is leaked by the pool (Impl/ClientPool.v): every connection the client ever made is in its list or
   closed, in every reachable state; so once Client.Close has run every connection the client ever made is closed. *)
From Coq Require Import List NArith Bool.
From H2V Require Import Impl.ClientPool Proofs.PoolThms.
Import ListNotations.
Local Open Scope N_scope.

Definition Kept (p : pool) : Prop := forall c, In c (pl_stat p) -> In (plc_id c) (pl_conns p) \/ plc_closed c = true.

Lemma find_of_In st c : NoDup (map plc_id st) -> In c st -> pl_find st (plc_id c) = Some c.
Proof.
  induction st as [|x r IH]; cbn [map pl_find In]; intros N H; [destruct H|].
  inversion N as [|? ? Hn Hr]; subst. destruct H as [E|H].
  - subst x. rewrite N.eqb_refl. reflexivity.
  - destruct (N.eqb_spec (plc_id x) (plc_id c)) as [E|E]; [|exact (IH Hr H)].
    exfalso. apply Hn. rewrite E. apply in_map. exact H.
Qed.

Lemma In_set st id f c : In c (pl_set st id f) -> In c st \/ exists c0, In c0 st /\ plc_id c0 = id /\ c = f c0.
Proof.
  induction st as [|x r IH]; cbn [pl_set In]; [tauto|].
  destruct (N.eqb_spec (plc_id x) id) as [E|E]; cbn [In].
  - intros [H|H]; [right; exists x; auto | left; right; exact H].
  - intros [H|H]; [left; left; exact H|]. destruct (IH H) as [A|(c0 & A & B & C)]; [left; right; exact A | right; exists c0; auto].
Qed.

Lemma Kept_init : Kept pl_init.
Proof. intros c []. Qed.

Lemma Kept_create p d q c o : Kept p -> pl_create_conn p d = (q, c, o) -> Kept q.
Proof.
  intros K H. destruct d; cbn [pl_create_conn] in H; inversion H; subst; clear H; intros x Hx; cbn [pl_stat pl_conns] in *.
  - destruct Hx as [E|Hx]; [subst x; left; left; reflexivity|]. destruct (K x Hx) as [A|A]; [left; right; exact A | right; exact A].
  - exact (K x Hx).
  - exact (K x Hx).
Qed.

Lemma Kept_set_closed p id : Kept p -> Kept (pl_upd_stat p (pl_set (pl_stat p) id pl_mark_closed)).
Proof.
  intros K x Hx. cbn [pl_upd_stat pl_stat pl_conns] in *. destruct (In_set _ _ _ _ Hx) as [A|(c0 & A & B & C)]; [exact (K x A)|].
  subst x. right. reflexivity.
Qed.

Lemma Kept_set_can p id b : Kept p -> Kept (pl_upd_stat p (pl_set (pl_stat p) id (pl_mark_can b))).
Proof.
  intros K x Hx. cbn [pl_upd_stat pl_stat pl_conns] in *. destruct (In_set _ _ _ _ Hx) as [A|(c0 & A & B & C)]; [exact (K x A)|].
  subst x. cbn [pl_mark_can plc_id plc_closed]. exact (K c0 A).
Qed.

Lemma Kept_upd_closing p l : Kept p -> Kept (pl_upd_closing p l).
Proof. intros K x Hx. exact (K x Hx). Qed.

(* the list may lose connections that read as closed *)
Lemma Kept_upd_conns p l : Inv p -> Kept p ->
  (forall id, In id (pl_conns p) -> In id l \/ pl_is_closed p id = true) -> Kept (pl_upd_conns p l).
Proof.
  intros I K H x Hx. cbn [pl_upd_conns pl_stat pl_conns] in *. destruct (K x Hx) as [A|A]; [|right; exact A].
  destruct (H _ A) as [B|B]; [left; exact B|]. right. unfold pl_is_closed in B.
  rewrite (find_of_In _ _ (inv_ids p I) Hx) in B. exact B.
Qed.

Lemma Kept_close_all p l q o : Kept p -> pl_close_all p l = (q, o) -> Kept q.
Proof.
  revert p q o. induction l as [|id r IH]; cbn [pl_close_all]; intros p q o K H; [inversion H; subst; exact K|].
  destruct (pl_is_closed p id); [exact (IH _ _ _ K H)|].
  destruct (pl_close_all (pl_upd_stat p (pl_set (pl_stat p) id pl_mark_closed)) r) as [p1 o1] eqn:R. inversion H; subst.
  exact (IH _ _ _ (Kept_set_closed p id K) R).
Qed.

Lemma Kept_step p e : Inv p -> Kept p -> Kept (pl_state_of (pl_step p e)).
Proof.
  apply (step_ind Kept). clear p. intros p q I K M. destruct M as [p l _ _ L|p d q c o _ C|p id|p id b|p l _|p q o Hc H].
  - apply Kept_upd_conns; assumption.
  - eapply Kept_create; eassumption.
  - apply Kept_set_closed, K.
  - apply Kept_set_can, K.
  - apply Kept_upd_closing, K.
  - unfold pl_client_close in H. rewrite Hc in H.
    (* the list is emptied: every listed connection is closed by close_all, the others were closed already *)
    destruct (close_all_fields _ _ _ _ H) as (_ & B & _ & _ & E & F & G). cbn [pl_conns pl_stat] in *.
    intros x Hx. right.
    assert (N : NoDup (map plc_id (pl_stat q))) by (rewrite E; exact (inv_ids p I)).
    assert (C : pl_is_closed q (plc_id x) = true).
    { assert (Hx' : In (plc_id x) (map plc_id (pl_stat p))) by (rewrite <- E; apply in_map; exact Hx).
      destruct (pl_find_In_Some _ _ Hx') as [c0 F0]. destruct (pl_find_Some _ _ _ F0) as [In0 Id0].
      destruct (K c0 In0) as [A|A].
      - apply G. rewrite <- Id0. exact A.
      - apply F. unfold pl_is_closed. cbn [pl_stat]. rewrite F0. exact A. }
    unfold pl_is_closed in C. rewrite (find_of_In _ _ N Hx) in C. exact C.
Qed.


Theorem kept_run evs : Kept (pl_run evs).
Proof. apply (run_from_ind Kept); [exact Kept_step | exact Inv_init | exact Kept_init]. Qed.

(* once Client.Close has run, every connection the client ever made is closed - and stays so, whatever happens next *)
Theorem no_leak_after_close evs c : pl_closed (pl_run evs) = true -> In c (pl_stat (pl_run evs)) -> plc_closed c = true.
Proof.
  intros Hc Hx. destruct (kept_run evs c Hx) as [A|A]; [|exact A].
  rewrite (inv_closed_empty _ (Inv_run evs) Hc) in A. destruct A.
Qed.
