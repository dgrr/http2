(* Proofs/CliMsgThm.v - C02 (c) and C20 (client): the theorems, over the abstract HPACK coder.

   never_idle evs   the hypothesis on the server: it never sends a frame on a stream the client has not opened yet
                    (RFC 7540 5.1.1; a conforming server cannot do otherwise)
   cl_ghost evs     the reference receiver after the frames the read loop took in during evs (Proofs/CliMsgInv.v)
   own id items     the items (complete header blocks and DATA frames) received on stream id, in order *)
From H2V Require Import Base.Bytes Base.MachineInt Gen.GenConsts Impl.ServerConn Impl.ClientConn
  Spec.Http2Messages Spec.Http2Responses Proofs.CliBase Proofs.SrvIsoRef Proofs.CliMsgRef Proofs.CliMsgAuto Proofs.CliMsgMoves
  Proofs.CliMsgDisp Proofs.CliMsgStep Proofs.CliMsgInv Proofs.CliMsgFeed Proofs.CliMsgRun.
From Coq Require Import ZArith Lia ZifyN ZifyNat ZifyBool List.
Import ListNotations.
Local Open Scope N_scope.

Section Thm.
Context {hstate : Type}.
Variable dec_field : hstate -> N -> bytes -> dec_res hstate.
Variable enc_field : hstate -> bytes -> bytes -> bool -> bytes * hstate.
Variable enc_set_max : hstate -> N -> hstate.
Variable cfg : cl_config.
Variable h0 : hstate.
Variable first : bytes.
Implicit Types c : cconn hstate.

Notation step := (cl_step dec_field enc_field enc_set_max cfg).
Notation run := (cl_run dec_field enc_field enc_set_max cfg h0 first).
Notation ghost := (cl_ghost dec_field enc_field enc_set_max cfg h0 first).
Notation never_idle := (never_idle dec_field enc_field enc_set_max cfg h0 first).
Notation gstep := (gstep dec_field).

Lemma takens_from_snoc evs : forall c e,
  takens_from dec_field enc_field enc_set_max cfg c (evs ++ [e]) =
  takens_from dec_field enc_field enc_set_max cfg c evs ++ match cl_taken (fold_left step evs c) e with Some fr => [fr] | None => [] end.
Proof.
  induction evs as [|a t IH]; intros c e; cbn [app takens_from fold_left]; [rewrite app_nil_r; reflexivity|].
  rewrite IH, app_assoc. reflexivity.
Qed.

Lemma ghost_snoc evs e : ghost (evs ++ [e]) = gopt dec_field (ghost evs) (cl_taken (run evs) e).
Proof.
  unfold cl_ghost, cl_takens. rewrite takens_from_snoc, fold_left_app. unfold cl_run.
  destruct (cl_taken _ e); reflexivity.
Qed.

Lemma never_idle_from_snoc evs : forall c e,
  never_idle_from dec_field enc_field enc_set_max cfg c (evs ++ [e]) <->
  never_idle_from dec_field enc_field enc_set_max cfg c evs /\
  (forall fr, cl_taken (fold_left step evs c) e = Some fr -> sf_sid fr < cc_nextID (fold_left step evs c)).
Proof.
  induction evs as [|a t IH]; intros c e; cbn [app never_idle_from fold_left]; [tauto|]. rewrite IH. tauto.
Qed.

Lemma never_idle_snoc evs e :
  never_idle (evs ++ [e]) <-> never_idle evs /\ (forall fr, cl_taken (run evs) e = Some fr -> sf_sid fr < cc_nextID (run evs)).
Proof. apply never_idle_from_snoc. Qed.

(* a decidable form of the hypothesis, for examples *)
Fixpoint never_idle_fromb c (evs : list cevent) : bool :=
  match evs with
  | [] => true
  | e :: t => (match cl_taken c e with Some fr => sf_sid fr <? cc_nextID c | None => true end) && never_idle_fromb (step c e) t
  end.
Lemma never_idle_fromb_ok evs : forall c, never_idle_fromb c evs = true -> never_idle_from dec_field enc_field enc_set_max cfg c evs.
Proof.
  induction evs as [|e t IH]; intros c H; cbn [never_idle_fromb never_idle_from] in *; [exact Logic.I|].
  apply andb_true_iff in H. destruct H as [A B]. split; [|exact (IH _ B)]. intros fr E. rewrite E in A. lia.
Qed.
Definition never_idleb (evs : list cevent) : bool := never_idle_fromb (cl_init enc_set_max h0 first) evs.
Lemma never_idleb_ok evs : never_idleb evs = true -> never_idle evs.
Proof. apply never_idle_fromb_ok. Qed.

(* C02 (c): a caller that is told "no error" holds the response the server sent on ITS stream *)
Theorem own_response evs tag r resp :
  never_idle evs -> In (COResult tag r CENil resp) (cl_trace (run evs)) ->
  exists x, cl_ctx_get (run evs) tag = Some x /\ ct_sid x <> 0 /\
            let mine := first_end (own (ct_sid x) (g_items (ghost evs))) in
            lax_response mine = true /\ resp = asm cl_empty_resp mine.
Proof.
  intros NI H. destruct (Inv_run dec_field enc_field enc_set_max cfg h0 first evs NI) as [I _].
  apply cl_trace_In in H. destruct (i_res _ _ I tag r resp H) as (x & G & S & R).
  exists x. split; [exact G|]. split; [exact S|]. exact (run_sound _ _ _ R).
Qed.

(* a request that is still waiting has received nothing that ends or refuses its response *)
Theorem waiting_prefix evs id tag :
  never_idle evs -> In (id, tag) (cc_reqQueued (run evs)) ->
  exists x p, cl_ctx_get (run evs) tag = Some x /\ ct_sid x = id /\
              run_items rinit (own id (g_items (ghost evs))) = ICont p /\ existsb item_es (own id (g_items (ghost evs))) = false.
Proof.
  intros NI H. destruct (Inv_run dec_field enc_field enc_set_max cfg h0 first evs NI) as [I _].
  destruct (i_tab _ _ I id tag H) as (x & G & S & _ & _ & _ & (r0 & got & T1 & _)).
  exists x, (r0, got). repeat split; try assumption. exact (run_items_cont_no_es _ _ _ T1).
Qed.

Lemma rl_step_feed c fr tag x :
  cl_rl_live c = true -> cc_netClosed c = false -> sf_sid fr <> 0 -> frame_in_seq c fr = true ->
  cl_req_find (cc_reqQueued c) (sf_sid fr) = Some tag -> cl_acquire_for [] c tag (sf_sid fr) = CLOk -> cl_ctx_get c tag = Some x ->
  exists c1, qm q2 c c1 /\ feed_pre c1 fr (Some x) /\ step c (CEvRL (RFrame fr)) = feed_state dec_field c1 fr (Some x).
Proof.
  intros L NC S0 FS F AQ G.
  set (c1 := if fkind_eqb (sf_kind fr) KWinUpd then cl_add_window c (sf_sid fr) (Z.of_N (sf_inc fr)) else c).
  destruct (winupd_frame c fr) as (Q1 & RQ & CX & L1 & H1). fold c1 in Q1, RQ, CX, L1, H1. rewrite L in L1.
  destruct (acquire_ok dec_field enc_set_max _ _ _ AQ) as (x0 & G0 & SX & TX). rewrite G in G0. inversion G0; subst x0.
  exists c1. split; [exact Q1|]. split.
  - split; [exact L1|]. split; [exact S0|]. split; [rewrite (frame_in_seq_hs c c1 fr H1); exact FS|].
    rewrite TX, RQ. unfold cl_ctx_get. rewrite CX. repeat split; assumption.
  - cbn [cl_step]. rewrite L. unfold cl_rl_step. rewrite NC. replace (sf_sid fr =? 0) with false by lia.
    unfold cl_rl_frame. unfold frame_in_seq in FS.
    destruct (fkind_eqb (sf_kind fr) KPush); [discriminate|]. cbn [negb andb] in FS.
    assert (E : (negb (cc_hdrStream c =? 0) && (negb (fkind_eqb (sf_kind fr) KCont) || negb (sf_sid fr =? cc_hdrStream c))) = false /\
                ((cc_hdrStream c =? 0) && fkind_eqb (sf_kind fr) KCont) = false).
    { destruct (cc_hdrStream c =? 0); cbn [negb andb] in *; [split; [reflexivity | apply negb_true_iff; exact FS]|].
      apply andb_true_iff in FS. destruct FS as [A B]. rewrite A, B. split; reflexivity. }
    destruct E as [E1 E2]. rewrite E1, E2. fold c1.
    rewrite (cl_dispatch_eq dec_field c1 fr). unfold disp_ok. rewrite RQ, F, (acquire_for_ctxs _ c c1 _ _ CX), AQ.
    unfold cl_ctx_get at 1. rewrite CX. unfold cl_ctx_get in G. rewrite G. unfold feed_state.
    destruct (disp_feed dec_field c1 fr (Some x)) as [[[c2 ok2] ended] err2]. unfold rl_after.
    destruct (disp_tail c2 (sf_sid fr) ok2 ended err2) as [c3 []]; reflexivity.
Qed.

(* C20, conversely: when the frame that completes a response the automaton accepts is taken in while the request is
   waiting for it (its Ctx can be taken: not cancelled, not given back) and nothing has resolved it yet, the request
   gets nil and exactly that response *)
Theorem complete_response_delivered evs fr tag x r :
  let e := CEvRL (RFrame fr) in
  never_idle (evs ++ [e]) -> cl_taken (run evs) e = Some fr ->
  cl_req_find (cc_reqQueued (run evs)) (sf_sid fr) = Some tag -> cl_acquire_for [] (run evs) tag (sf_sid fr) = CLOk ->
  cl_ctx_get (run evs) tag = Some x -> ct_err x = None -> ct_resolved x = false ->
  run_items rinit (own (sf_sid fr) (g_items (ghost (evs ++ [e])))) = IDone r ->
  exists x3, cl_ctx_get (run (evs ++ [e])) tag = Some x3 /\ ct_err x3 = Some CENil /\ ct_resp x3 = r /\
             cl_req_find (cc_reqQueued (run (evs ++ [e]))) (sf_sid fr) = None.
Proof.
  intros e NI TK F AQ G EN RN DONE. apply never_idle_snoc in NI. destruct NI as [NI NL].
  destruct (Inv_run dec_field enc_field enc_set_max cfg h0 first evs NI) as [I ID].
  rewrite ghost_snoc, TK in DONE. cbn [gopt] in DONE.
  unfold cl_taken in TK. subst e.
  destruct (cl_rl_live (run evs)) eqn:L; [|discriminate]. destruct (cc_netClosed (run evs)) eqn:NC; [discriminate|].
  destruct (sf_sid fr =? 0) eqn:Z; [discriminate|]. destruct (frame_in_seq (run evs) fr) eqn:FS; [|discriminate]. cbn [negb andb] in TK.
  destruct (rl_step_feed (run evs) fr tag x L NC ltac:(lia) FS F AQ G) as (c1 & Q1 & FP & ST).
  pose proof (Inv_qm _ _ _ I (qm_weaken _ _ Q1)) as I1.
  destruct (Inv_feed_at dec_field _ c1 fr (Some x) I1 FP) as (I2 & NX & FW).
  rewrite (cl_run_snoc _ dec_field enc_field enc_set_max cfg h0 first evs), ST.
  assert (TX : ct_tag x = tag) by (destruct (cl_ctxs_get_In _ _ _ G); assumption).
  destruct (FW EN RN r DONE) as (x3 & G3 & E3 & R3). rewrite TX in G3. exists x3. repeat split; try assumption.
  (* off the table: a request on the table has not seen the end of its response *)
  destruct (cl_req_find (cc_reqQueued (feed_state dec_field c1 fr (Some x))) (sf_sid fr)) as [t|] eqn:F2; [|reflexivity].
  exfalso. destruct (i_tab _ _ I2 _ _ (cl_req_find_In _ _ _ F2)) as (y & _ & _ & _ & _ & _ & (r0 & got & T1 & _)). congruence.
Qed.

(* the caller then takes it: roundTripOnce returns what is in the Err channel, with the Response as it stands *)
Lemma receive_result c tag x e :
  cl_ctx_get c tag = Some x -> ct_returned x = false -> ct_err x = Some e -> ct_lckStuck x = false ->
  In (COResult tag (cl_retryable e) e (ct_resp x)) (cl_trace (step c (CEvReceive tag))).
Proof.
  intros G R E K. apply cl_trace_In. cbn [cl_step]. unfold cl_receive. rewrite G, R, E. cbn [ct_lckStuck ctu_armed ctu_err]. rewrite K.
  match goal with |- context [if ?b then _ else _] => destruct b end; cbn; auto.
Qed.

(* the decoder: the read loop's HPACK state is the reference decoder folded over ALL fragments *)
Theorem decoder_is_reference_ni evs :
  never_idle evs -> cl_rl_live (run evs) = true ->
  cc_dec (run evs) = g_d (ghost evs) /\
  match g_open (ghost evs) with
  | None => cc_hdrStream (run evs) = 0
  | Some (s, es, fs) => cc_hdrStream (run evs) = s /\ cc_hdrFields (run evs) = g_n (ghost evs) /\ cc_hdrPrev (run evs) = g_carry (ghost evs)
  end.
Proof.
  intros NI L. destruct (Inv_run dec_field enc_field enc_set_max cfg h0 first evs NI) as [I _].
  destruct (i_dec _ _ I L) as [A B]. split; [symmetry; exact A|].
  destruct (g_open (ghost evs)) as [[[s es] fs]|]; [|exact B]. destruct B as (B1 & _ & _ & B4 & B5). repeat split; congruence.
Qed.

End Thm.
