(* Proofs/CliResNil.v - C12 (b): a nil result only for a response the server completed: the step that put nil into Err is
   the read loop taking in a frame of the request's stream that carries (or completes a header block that carried)
   END_STREAM, with a status seen. *)
From H2V Require Import Base.Bytes Base.MachineInt Gen.GenConsts Impl.ServerConn Impl.ClientConn Proofs.CliBase
     Proofs.CliResInv Proofs.CliResStep Proofs.CliResMoves Proofs.CliResThms Proofs.CliResGoAway.
From Coq Require Import ZArith Lia ZifyN ZifyNat ZifyBool List Bool.
Import ListNotations.
Local Open Scope N_scope.

Section Nil.
Context {hstate : Type}.
Variable dec_field : hstate -> N -> bytes -> dec_res hstate.
Variable enc_field : hstate -> bytes -> bytes -> bool -> bytes * hstate.
Variable enc_set_max : hstate -> N -> hstate.
Variable cfg : cl_config.
Variable h0 : hstate.
Variable first : bytes.
Implicit Types c : cconn hstate.

Notation step := (cl_step dec_field enc_field enc_set_max cfg).
Notation run := (cl_run dec_field enc_field enc_set_max cfg h0 first).
Notation reach := (cl_reachable dec_field enc_field enc_set_max cfg h0 first).

(* END_STREAM seen: on this DATA frame, on this HEADERS frame (which also ends its block), or on the HEADERS frame whose
   block this CONTINUATION ends (the connection's hdrEndStream register) *)
Definition es_seen c (fr : sframe) : Prop :=
  (sf_kind fr = KData /\ flag_has (sf_flags fr) FL_ES = true) \/
  (sf_kind fr = KHeaders /\ flag_has (sf_flags fr) FL_EH = true /\ flag_has (sf_flags fr) FL_ES = true) \/
  (sf_kind fr = KCont /\ flag_has (sf_flags fr) FL_EH = true /\ cc_hdrEndStream c = true).

(* a FINAL status seen: earlier (gotStatus), or the header block this frame completes carries a :status >= 200
   (an interim 1xx block that ends the stream is malformed) *)
Definition status_seen c (fr : sframe) (x : cctx) : Prop :=
  ct_gotStatus x = true \/
  ((sf_kind fr = KHeaders \/ sf_kind fr = KCont) /\
   (200 <= cc_hdrStatus (rs_conn (cl_read_stream dec_field c fr (Some (ct_resp x)))))%Z).


Lemma rhf_ended c0 id frag eh res :
  snd (fst (cl_read_header_fragment dec_field c0 id frag eh res)) = true ->
  eh = true /\ cc_hdrEndStream c0 = true /\
  cc_hdrStream (rs_conn (cl_read_header_fragment dec_field c0 id frag eh res)) = 0 /\
  snd (cl_read_header_fragment dec_field c0 id frag eh res) = CRSNone /\
  cc_hdrEndStream (rs_conn (cl_read_header_fragment dec_field c0 id frag eh res)) = true.
Proof.
  unfold cl_read_header_fragment, rs_conn.
  destruct (cl_hdr_loop dec_field _ eh (cc_dec c0) (cc_hdrFields c0) (cc_hdrRegularSeen c0) (cc_hdrStatus c0) (cc_hdrErr c0) res _)
    as [[[[[[[d' fields] rseen] status] herr] res'] prev] e].
  destruct e; [destruct eh; cbn [negb]; [destruct herr | destruct (cl_maxHeaderPrev <? len prev)] | | |]; cbn [fst snd]; try discriminate.
  cbn. auto.
Qed.

Lemma chk_nil c1 fr x1 : cc_hdrStream c1 = 0 -> cc_hdrEndStream c1 = true -> (sf_kind fr = KHeaders \/ sf_kind fr = KCont) ->
  fst (disp_chk c1 fr (Some x1) CRSNone) <> None ->
  disp_err3 fr (fst (disp_chk c1 fr (Some x1) CRSNone)) (snd (disp_chk c1 fr (Some x1) CRSNone)) = CRSNone ->
  ct_gotStatus x1 = true \/ (200 <= cc_hdrStatus c1)%Z.
Proof.
  intros Z ES K _ H. unfold disp_chk in H. rewrite Z, ES in H. cbn [N.eqb] in H.
  replace (fkind_eqb (sf_kind fr) KHeaders || fkind_eqb (sf_kind fr) KCont) with true in H by (destruct K as [-> | ->]; reflexivity).
  cbn [andb] in H. destruct (ct_gotStatus x1) eqn:GS; [left; reflexivity|]. right.
  destruct (cc_hdrStatus c1 =? 0)%Z eqn:S0; [cbn [negb orb fst snd] in H; unfold disp_err3 in H; discriminate|].
  cbv zeta in H. destruct (200 <=? cc_hdrStatus c1)%Z eqn:F; [clear - F; lia|].
  cbn [negb andb fst snd] in H. unfold disp_err3 in H. discriminate.
Qed.

(* a header block that ends the request with nil: END_HEADERS on this frame, END_STREAM on the block's HEADERS frame, a final status *)
Lemma rhf_nil c0 fr x : sf_kind fr = KHeaders \/ sf_kind fr = KCont ->
  (let '(c1, res', ended, err) := cl_read_header_fragment dec_field c0 (sf_sid fr) (sf_payload fr) (flag_has (sf_flags fr) FL_EH) (Some (ct_resp x)) in
   let '(ok2, err2) := disp_chk c1 fr (disp_ok1 (Some x) res') err in
   ok2 <> None /\ ended = true /\ disp_err3 fr ok2 err2 = CRSNone) ->
  flag_has (sf_flags fr) FL_EH = true /\ cc_hdrEndStream c0 = true /\
  (ct_gotStatus x = true \/
   (200 <= cc_hdrStatus (fst (fst (fst (cl_read_header_fragment dec_field c0 (sf_sid fr) (sf_payload fr) (flag_has (sf_flags fr) FL_EH) (Some (ct_resp x)))))))%Z).
Proof.
  intros K H. pose proof (rhf_ended c0 (sf_sid fr) (sf_payload fr) (flag_has (sf_flags fr) FL_EH) (Some (ct_resp x))) as RE.
  unfold rs_conn in RE.
  destruct (cl_read_header_fragment dec_field c0 (sf_sid fr) (sf_payload fr) (flag_has (sf_flags fr) FL_EH) (Some (ct_resp x)))
    as [[[c1 res'] ended] err]. cbn [fst snd] in *.
  assert (EN : ended = true) by (destruct (disp_chk c1 fr _ err) as [ok2 err2]; apply H).
  destruct (RE EN) as (EH & ES & Z1 & -> & ES1). split; [exact EH|]. split; [exact ES|].
  set (x1 := match res' with Some r => ctu_resp x r | None => x end).
  assert (OK1 : disp_ok1 (Some x) res' = Some x1) by (unfold disp_ok1, x1; destruct res'; reflexivity).
  rewrite OK1 in H.
  destruct (chk_nil c1 fr x1 Z1 ES1 K) as [GS|HS]; try (destruct (disp_chk c1 fr (Some x1) CRSNone) as [ok2 err2]; apply H).
  - left. unfold x1 in GS. destruct res'; exact GS.
  - right. exact HS.
Qed.

Lemma nil_at_facts c fr : st_ok c -> nil_at dec_field c fr ->
  sf_sid fr <> 0 /\ es_seen c fr /\
  exists t x, In (sf_sid fr, t) (cc_reqQueued c) /\ cl_ctx_get c t = Some x /\ ct_done x = false /\ status_seen c fr x.
Proof.
  intros St H. unfold nil_at, disp_pre in H.
  destruct (cl_req_find (cc_reqQueued c) (sf_sid fr)) as [tag|] eqn:F.
  2:{ exfalso. destruct (cl_read_stream dec_field c fr None) as [[[c1 res'] ended] err]. cbn in H. destruct err; cbn in H; destruct H as [H _]; congruence. }
  pose proof (cl_req_find_In _ _ _ F) as I. destruct (s_rq _ St _ _ I) as (x & G & Sx & Cx & NZ & _).
  unfold cl_acquire_for in H. rewrite G in H. cbn [existsb] in H. rewrite (proj1 (s_nostuck _ St) _ _ G), Sx, Cx, N.eqb_refl in H.
  cbn [negb orb] in H. rewrite orb_false_r in H. destruct (ct_done x) eqn:D; cbn [orb] in H; cbv iota beta in H.
  { exfalso. destruct (cl_read_stream dec_field (cl_take_req_count c (sf_sid fr)) fr None) as [[[c1 res'] ended] err]. cbn in H.
    destruct H as [H _]; congruence. }
  split; [exact NZ|].
  assert (RS : rs_conn (cl_read_stream dec_field c fr (Some (ct_resp x))) = fst (fst (fst (cl_read_stream dec_field c fr (Some (ct_resp x)))))) by reflexivity.
  assert (Goal' : es_seen c fr /\ status_seen c fr x); [|destruct Goal'; split; [assumption|]; exists tag, x; auto].
  unfold status_seen. rewrite RS. clear RS.
  unfold cl_read_stream in *. destruct (sf_kind fr) eqn:K; cbv iota beta in H;
    try (exfalso; match type of H with context [disp_chk ?a ?b ?c ?d] => destruct (disp_chk a b c d) as [ok2 err2] end;
         destruct H as (_ & H & _); discriminate).
  - (* DATA *)
    match type of H with context [disp_chk ?a fr _ CRSNone] => generalize dependent a; intros c3 H end.
    assert (GS : ct_gotStatus x = true).
    { unfold disp_chk, disp_ok1 in H. rewrite K in H. cbn [fkind_eqb orb] in H. rewrite andb_false_r in H.
      destruct (cl_is_nil (sf_payload fr)); cbv iota beta in H; destruct H as (_ & _ & H3); unfold disp_err3 in H3; rewrite K in H3;
        cbn [fkind_eqb andb ct_gotStatus ctu_resp] in H3; destruct (ct_gotStatus x); try reflexivity; discriminate. }
    assert (ES : flag_has (sf_flags fr) FL_ES = true).
    { destruct (disp_chk c3 fr _ CRSNone) as [ok2 err2]. apply H. }
    split; [left; split; [exact K | exact ES] | left; exact GS].
  - (* HEADERS *)
    destruct (rhf_nil _ fr x (or_introl K) H) as (EH & ES & ST).
    split; [right; left; split; [exact K | split; [exact EH | exact ES]]|].
    destruct ST as [GS|HS]; [left; exact GS | right; split; [left; reflexivity | exact HS]].
  - (* CONTINUATION *)
    destruct (rhf_nil c fr x (or_intror K) H) as (EH & ES & ST).
    split; [right; right; split; [exact K | split; [exact EH | exact ES]]|].
    destruct ST as [GS|HS]; [left; exact GS | right; split; [right; reflexivity | exact HS]].
Qed.

(* a dispatch that ends with nil is one of a DATA, HEADERS or CONTINUATION frame (whatever the state) *)
Lemma nil_at_kind c fr : nil_at dec_field c fr -> sf_kind fr = KData \/ sf_kind fr = KHeaders \/ sf_kind fr = KCont.
Proof.
  intro H. unfold nil_at in H. destruct (disp_pre c (sf_sid fr)) as [[c0 ok]|]; [|destruct H].
  unfold cl_read_stream in H. destruct (sf_kind fr) eqn:K; auto; exfalso; cbv iota beta in H;
    match type of H with context [disp_chk ?a ?b ?c ?d] => destruct (disp_chk a b c d) as [ok2 err2] end;
    destruct H as (_ & H & _); discriminate.
Qed.

(* this step takes in a frame on stream sid whose dispatch ends the request with nil *)
Definition nil_now c (e : cevent) (sid : N) : Prop :=
  exists fr, e = CEvRL (RFrame fr) /\ sf_sid fr = sid /\ cl_rl_live c = true /\ cc_netClosed c = false /\
    exists c1, (sf_kind fr <> KWinUpd -> sf_kind fr <> KGoAway -> c1 = c) /\ nil_at dec_field c1 fr.

Lemma nil_now_facts c e sid : st_ok c -> nil_now c e sid ->
  sid <> 0 /\ exists fr, e = CEvRL (RFrame fr) /\ sf_sid fr = sid /\ cl_rl_live c = true /\ cc_netClosed c = false /\ es_seen c fr /\
    exists t x, In (sid, t) (cc_reqQueued c) /\ cl_ctx_get c t = Some x /\ ct_done x = false /\ status_seen c fr x.
Proof.
  intros St (fr & -> & <- & RL & NC & c1 & Hc & Hn).
  assert (c1 = c) by (apply Hc; destruct (nil_at_kind c1 fr Hn) as [K|[K|K]]; rewrite K; discriminate). subst c1.
  destruct (nil_at_facts c fr St Hn) as (NZ & ES & t & x & F). split; [exact NZ|]. exists fr. repeat split; auto. exists t, x. exact F.
Qed.

Definition cp_nil c (e : cevent) : cparams.
Proof.
  refine {| Eok := fun sid er => er <> CENil \/ nil_now c e sid; Vok := fun _ _ => True; Wok := fun _ _ _ => True |}; auto.
Defined.
Instance cplain_nil c e : cplain (cp_nil c e).
Proof. intros sid er A B. left. exact B. Qed.

Lemma sum_nil c e : inv c -> step_sum (CP:=cp_nil c e) dec_field c e (step c e).
Proof.
  intro Hi. apply step_moves; [exact Hi|]. intros i Ei. repeat split; try (intros; exact I).
  - intros fr Hf RL NC c1 Hc Hn. right. exists fr. subst i. repeat split; auto. exists c1. auto.
  - intros fr Hf K Z RL NC id L. left. discriminate.
Qed.

Definition nil_origin (evs : list cevent) (sid : N) : Prop :=
  exists pre fr post, evs = pre ++ CEvRL (RFrame fr) :: post /\ nil_now (run pre) (CEvRL (RFrame fr)) sid.

Lemma nil_origin_snoc evs e sid : nil_origin evs sid -> nil_origin (evs ++ [e]) sid.
Proof. intros (pre & fr & post & -> & H). exists pre, fr, (post ++ [e]). rewrite <- app_assoc. split; [reflexivity | exact H]. Qed.

Lemma nil_origin_nonzero evs : ~ nil_origin evs 0.
Proof.
  intros (pre & fr & post & _ & H). destruct (nil_now_facts _ _ _ (proj1 (inv_run dec_field enc_field enc_set_max cfg h0 first pre)) H) as [NZ _].
  apply NZ. reflexivity.
Qed.

Definition nil_inv (evs : list cevent) : Prop :=
  let c := run evs in
  (forall t x, cl_ctx_get c t = Some x -> ct_err x = Some CENil -> nil_origin evs (ct_sid x)) /\
  (forall t r resp, In (COResult t r CENil resp) (cc_out c) ->
     exists x, cl_ctx_get c t = Some x /\ ct_done x = true /\ nil_origin evs (ct_sid x)).

Lemma nil_err_run evs t x : cl_ctx_get (run evs) t = Some x -> ct_err x = Some CENil -> nil_origin evs (ct_sid x).
Proof.
  revert t x.
  induction evs as [|e evs IH] using rev_ind.
  { intros t x G. exfalso. unfold cl_ctx_get, cl_run, cl_init in G. cbn [fold_left] in G.
    destruct (cl_settings_deserialize false first); discriminate. }
  rewrite cl_run_snoc. rename IH into IH1. set (c := run evs) in *.
  assert (R : reach c) by apply cl_run_reachable. pose proof (inv_reachable _ _ _ _ _ _ c R) as Hi. destruct Hi as [St A].
  pose proof (sum_nil c e (conj St A)) as S. set (c' := step c e) in *.
  assert (CE : cl_close_err c <> CENil).
  { unfold cl_close_err. pose proof (s_lastErr _ St) as L. destruct (cc_lastErr c); [congruence | discriminate]. }
  intros t x' G' E'. destruct (cl_ctx_get c t) as [x|] eqn:G.
    2:{ exfalso. destruct (ss_new _ _ _ _ S _ _ G G') as (rq & q & _ & _ & _ & _ & _ & _ & _ & _ & _ & _ & [(En & _)|(En & _)]); congruence. }
    destruct (ss_old _ _ _ _ S _ _ G) as (x'' & G'' & M). rewrite G' in G''. inversion G''; subst x''. clear G''.
    assert (KEEP : forall y, ct_err y = ct_err x -> ct_sid y = ct_sid x -> cev (CP:=cp_nil c e) y x' -> nil_origin (evs ++ [e]) (ct_sid x')).
    { intros y Ey Sy V. destruct (cev_err _ _ V) as [Es|(En & _ & e0 & Es & Eo)].
      - rewrite Es, Ey in E'. rewrite (cev_sid _ _ V), Sy. apply nil_origin_snoc, (IH1 t x G E').
      - rewrite Es in E'. inversion E'; subst e0. cbn in Eo. destruct Eo as [F|Hn]; [congruence|].
        rewrite (cev_sid _ _ V). destruct Hn as (fr & -> & Hn). exists evs, fr, []. split; [reflexivity|]. exists fr. split; [reflexivity | exact Hn]. }
    destruct M as [V|Ee Wr [->|(CL & Z & ->)]|Ee Ar Fi ->|Ee Fi Ca V|Ee Rr En ->|Ee WL (q & IQ) Dn Z GA V|Ee WL (q & IQ) CO Z ->].
    - apply (KEEP x); auto.
    - apply (KEEP (ctu_writing x false)); auto. apply cev_refl.
    - destruct (resolve_err_cases (ctu_done (ctu_writing x false) true) (cl_close_err c)) as [Es|[_ Es]]; [|rewrite Es in E'; congruence].
      cbn in Es. rewrite Es in E'. rewrite resolve_sid. apply nil_origin_snoc, (IH1 t x G E').
    - destruct (resolve_err_cases (ctu_fired x true) CETimeout) as [Es|[_ Es]]; [|rewrite Es in E'; discriminate].
      cbn in Es. rewrite Es in E'. rewrite resolve_sid. apply nil_origin_snoc, (IH1 t x G E').
    - apply (KEEP (ctu_cancelled x true)); auto.
    - discriminate.
    - exfalso. destruct (cev_err _ _ V) as [Es|(En & _ & e0 & Es & Eo)].
      + cbn in Es. rewrite Es in E'. apply (nil_origin_nonzero evs). rewrite <- Z. apply (IH1 t x G E').
      + rewrite Es in E'. inversion E'; subst e0. cbn in Eo. destruct Eo as [F|(fr & Ef & _)]; [congruence | subst e; discriminate].
    - destruct (resolve_err_cases x CENoStreams) as [Es|[_ Es]]; [|rewrite Es in E'; discriminate].
      rewrite Es in E'. rewrite resolve_sid. apply nil_origin_snoc, (IH1 t x G E').
Qed.

Theorem nil_inv_run evs : nil_inv evs.
Proof.
  split; [apply nil_err_run|]. intros t r resp H.
  apply (results_from_errs dec_field enc_field enc_set_max cfg h0 first (fun e => e = CENil) (fun evs sid _ => nil_origin evs sid)) with (r := r) (er := CENil) (resp := resp);
    [intros ? ? ? ?; apply nil_origin_snoc | intros evs0 t0 x er G E ->; exact (nil_err_run evs0 t0 x G E) | exact H | reflexivity].
Qed.

(* C12 (b): a nil result is only ever given for a response the server completed *)
Theorem nil_complete evs t r resp : In (COResult t r CENil resp) (cc_out (run evs)) ->
  exists x, cl_ctx_get (run evs) t = Some x /\ ct_sid x <> 0 /\
    exists pre fr post, evs = pre ++ CEvRL (RFrame fr) :: post /\ sf_sid fr = ct_sid x /\
      cl_rl_live (run pre) = true /\ cc_netClosed (run pre) = false /\ es_seen (run pre) fr /\
      exists t0 x0, In (ct_sid x, t0) (cc_reqQueued (run pre)) /\ cl_ctx_get (run pre) t0 = Some x0 /\ ct_done x0 = false /\
                    status_seen (run pre) fr x0.
Proof.
  intro H. destruct (proj2 (nil_inv_run evs) t r resp H) as (x & G & _ & (pre & fr & post & -> & Hn)).
  destruct (nil_now_facts _ _ _ (proj1 (inv_run dec_field enc_field enc_set_max cfg h0 first pre)) Hn)
    as (NZ & fr' & Ef & Sf & RL & NC & ES & F). inversion Ef; subst fr'.
  exists x. split; [exact G|]. split; [exact NZ|]. exists pre, fr, post. repeat split; auto.
Qed.

End Nil.
