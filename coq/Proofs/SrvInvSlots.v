(* Proofs/SrvInvSlots.v - the structural invariant SI of the server connection (slots, stream table, closed-stream
   ring, stream ids), proved for every event list by closure under the moves of Proofs/SrvInvSteps.v. *)
From H2V Require Import Base.Bytes Base.MachineInt Base.Result Gen.GenConsts Impl.ServerConn Proofs.SrvBase
  Proofs.SrvInvMoves Proofs.SrvInvDecomp Proofs.SrvInvSteps.
From Coq Require Import ZArith Lia ZifyN ZifyNat ZifyBool Permutation.
Local Open Scope N_scope.

Definition is_hdr (s : stream) : bool := fkind_eqb (st_orig s) KHeaders.
Definition count_hdr (l : list stream) : Z := Z.of_nat (length (filter is_hdr l)).
Definition count_running (l : list stream) : Z := Z.of_nat (length (filter st_handlerRunning l)).

Lemma is_hdr_true s : is_hdr s = true <-> st_orig s = KHeaders.
Proof. apply fkind_eqb_eq. Qed.

Lemma count_hdr_cons s l : count_hdr (s :: l) = ((if is_hdr s then 1 else 0) + count_hdr l)%Z.
Proof. unfold count_hdr. cbn [filter]. destruct (is_hdr s); cbn [length]; lia. Qed.
Lemma count_hdr_app l l' : count_hdr (l ++ l') = (count_hdr l + count_hdr l')%Z.
Proof. unfold count_hdr. rewrite filter_app, app_length. lia. Qed.
Lemma count_hdr_nonneg l : (0 <= count_hdr l)%Z.
Proof. unfold count_hdr. lia. Qed.
Lemma count_hdr_le l : (count_hdr l <= Z.of_nat (length l))%Z.
Proof. unfold count_hdr. induction l as [|a l IH]; cbn [filter length]; [lia|]. destruct (is_hdr a); cbn [length]; lia. Qed.
Lemma count_hdr_all l : Forall (fun s => st_orig s = KHeaders) l -> count_hdr l = Z.of_nat (length l).
Proof.
  induction 1 as [|s l H _ IH]; [reflexivity|]. rewrite count_hdr_cons, IH.
  apply is_hdr_true in H. rewrite H. cbn [length]. lia.
Qed.

Lemma count_running_cons s l : count_running (s :: l) = ((if st_handlerRunning s then 1 else 0) + count_running l)%Z.
Proof. unfold count_running. cbn [filter]. destruct (st_handlerRunning s); cbn [length]; lia. Qed.

Definition run_ok (s : stream) : Prop :=
  st_handlerRunning s = true -> st_orig s = KHeaders /\ st_responded s = true.

Lemma count_running_le_hdr l :
  Forall run_ok l ->
  (count_running l <= count_hdr l)%Z.
Proof.
  induction 1 as [|s l H _ IH]; [reflexivity|]. rewrite count_hdr_cons, count_running_cons. unfold run_ok in H.
  destruct (st_handlerRunning s); [|destruct (is_hdr s); lia].
  destruct (H eq_refl) as [H1 _]. apply is_hdr_true in H1. rewrite H1. lia.
Qed.

(* tables related pointwise on ids and origins have the same shape *)
Definition slocw (a b : stream) : Prop := st_id b = st_id a /\ st_orig b = st_orig a.

Lemma sloc_slocw l l' : Forall2 sloc l l' -> Forall2 slocw l l'.
Proof. induction 1 as [|a b l l' S _ IH]; constructor; [|assumption]. destruct S as (A & B & _). split; assumption. Qed.

Lemma put_slocw l x old : strms_search l (st_id x) = Some old -> st_orig x = st_orig old -> Forall2 slocw l (strms_put l x).
Proof.
  induction l as [|y t IH]; cbn [strms_search strms_put]; [discriminate|].
  destruct (st_id y =? st_id x) eqn:E; intros H S.
  - inversion H; subst. constructor; [split; [lia | assumption]|]. clear. induction t; constructor; [split; reflexivity | assumption].
  - constructor; [split; reflexivity | auto].
Qed.

Lemma slocw_count_hdr l l' : Forall2 slocw l l' -> count_hdr l' = count_hdr l.
Proof.
  induction 1 as [|a b l l' S _ IH]; [reflexivity|]. rewrite !count_hdr_cons, IH.
  destruct S as (_ & So). unfold is_hdr. rewrite So. reflexivity.
Qed.
Lemma slocw_length l l' : Forall2 slocw l l' -> length l' = length l.
Proof. induction 1; cbn [length]; congruence. Qed.
Lemma slocw_ids l l' : Forall2 slocw l l' -> map st_id l' = map st_id l.
Proof. induction 1 as [|a b l l' S _ IH]; [reflexivity|]. cbn [map]. destruct S as (Si & _). congruence. Qed.
Lemma slocw_Forall_orig l l' : Forall2 slocw l l' ->
  Forall (fun s => st_orig s = KHeaders) l -> Forall (fun s => st_orig s = KHeaders) l'.
Proof.
  induction 1 as [|a b l l' S _ IH]; intro F; [constructor|]. inversion F; subst.
  constructor; [destruct S as (_ & So); congruence | auto].
Qed.
Lemma slocw_Forall_le l l' m : Forall2 slocw l l' ->
  (forall s, In s l -> st_id s <= m) -> (forall s, In s l' -> st_id s <= m).
Proof.
  intros F H s I. assert (I' : In (st_id s) (map st_id l')) by (apply in_map; assumption).
  rewrite (slocw_ids _ _ F) in I'. apply in_map_iff in I'. destruct I' as (y & E & Iy). rewrite <- E. auto.
Qed.
Lemma sloc_Forall_run l l' : Forall2 sloc l l' ->
  Forall run_ok l ->
  Forall run_ok l'.
Proof.
  induction 1 as [|a b l l' S _ IH]; intro F; [constructor|]. inversion F as [|? ? Ha Hl]; subst.
  constructor; [|auto]. destruct S as (_ & So & Sr & Sp). intro R. rewrite Sr in R. destruct (Ha R). split; [congruence | auto].
Qed.

(* removing a stream from the table *)
Lemma del_perm l id old : strms_search l id = Some old -> Permutation l (old :: strms_del l id).
Proof.
  induction l as [|y t IH]; cbn [strms_search strms_del]; [discriminate|].
  destruct (st_id y =? id); intro H.
  - inversion H; subst. apply Permutation_refl.
  - eapply perm_trans; [apply perm_skip, IH; assumption | apply perm_swap].
Qed.

Lemma count_hdr_perm l l' : Permutation l l' -> count_hdr l = count_hdr l'.
Proof.
  induction 1 as [|x l l' _ IH|x y l|l l' l'' _ IH1 _ IH2]; rewrite ?count_hdr_cons; lia.
Qed.

Lemma count_hdr_del l id old : strms_search l id = Some old ->
  count_hdr (strms_del l id) = (count_hdr l - (if is_hdr old then 1 else 0))%Z.
Proof. intro H. rewrite (count_hdr_perm _ _ (del_perm _ _ _ H)), count_hdr_cons. lia. Qed.

Lemma length_del l id old : strms_search l id = Some old -> length l = S (length (strms_del l id)).
Proof. intro H. rewrite (Permutation_length (del_perm _ _ _ H)). reflexivity. Qed.

Lemma NoDup_app_l (A : Type) (l l' : list A) : NoDup (l ++ l') -> NoDup l.
Proof.
  induction l as [|a l IH]; cbn [app]; intro H; [constructor|]. inversion H; subst. constructor; [|auto].
  intro I. apply H2. apply in_or_app. left. assumption.
Qed.
Lemma NoDup_app_r (A : Type) (l l' : list A) : NoDup (l ++ l') -> NoDup l'.
Proof. induction l as [|a l IH]; cbn [app]; intro H; [assumption|]. inversion H; subst. auto. Qed.

Lemma take_perm l id s rest : take_stream l id = Some (s, rest) -> Permutation l (s :: rest).
Proof.
  revert s rest. induction l as [|y t IH]; cbn [take_stream]; [discriminate|]. intros s rest.
  destruct (st_id y =? id).
  - intro H; inversion H; subst. apply Permutation_refl.
  - destruct (take_stream t id) as [[x t']|] eqn:T; [|discriminate]. intro H; inversion H; subst.
    eapply perm_trans; [apply perm_skip, IH; reflexivity | apply perm_swap].
Qed.

Section Slots.
Variable hstate : Type.
Variable dec_field : hstate -> N -> bytes -> dec_res hstate.
Variable enc_field : hstate -> bytes -> bytes -> bool -> bytes * hstate.
Variable enc_set_max : hstate -> N -> hstate.
Variable cfg : config.
Variable Q : stream -> Prop.
Notation sconn := (sconn hstate).
Notation mv := (mv hstate dec_field cfg Q).
Notation gmv := (gmv hstate dec_field cfg Q).
Notation gmvs := (gmvs hstate dec_field cfg Q).
Implicit Types c : sconn.

Record SI (c : sconn) : Prop := mkSI {
  si_open : sc_open c = (count_hdr (sc_strms c) + Z.of_nat (length (sc_gone c)))%Z;
  si_gone : Forall (fun s => st_orig s = KHeaders /\ st_handlerRunning s = true) (sc_gone c);
  si_hdrs : sc_sl_done c = false -> Forall (fun s => st_orig s = KHeaders) (sc_strms c);
  si_len : (Z.of_nat (length (sc_strms c)) <= count_hdr (sc_strms c) + 1)%Z;
  si_max : (sc_open c <= Z.max 0 (cf_maxStreams cfg))%Z;
  si_run : Forall run_ok (sc_strms c);
  si_ring : (length (sc_ring c) <= 256)%nat;
  si_hi : sc_lastID c <= sc_highestID c;
  si_ids : sc_sl_done c = false ->
           NoDup (map st_id (sc_strms c ++ sc_gone c)) /\
           (forall s, In s (sc_strms c ++ sc_gone c) -> st_id s <= sc_lastID c);
  si_Q : sc_sl_done c = false -> Forall Q (sc_strms c)
}.

(* SI only looks at these components *)
Definition view (c : sconn) :=
  (sc_strms c, sc_gone c, sc_open c, sc_ring c, sc_lastID c, sc_highestID c, sc_sl_done c).

(* SI is kept when these components stay and the stream loop does not come back to life *)
Lemma SI_keeps c c' :
  sc_strms c' = sc_strms c -> sc_gone c' = sc_gone c -> sc_open c' = sc_open c -> sc_ring c' = sc_ring c ->
  sc_lastID c' = sc_lastID c -> sc_highestID c' = sc_highestID c -> (sc_sl_done c' = false -> sc_sl_done c = false) ->
  SI c -> SI c'.
Proof.
  intros E1 E2 E3 E4 E5 E6 E7 []. constructor; rewrite ?E1, ?E2, ?E3, ?E4, ?E5, ?E6; auto.
Qed.

Lemma SI_view c c' : view c' = view c -> SI c -> SI c'.
Proof. unfold view. intro E. inversion E as [[E1 E2 E3 E4 E5 E6 E7]]. apply SI_keeps; congruence. Qed.

Lemma SI_ids_ok c : SI c -> sc_sl_done c = false -> ids_ok c.
Proof.
  intros H Hd. destruct (si_ids c H Hd) as [ND LE]. repeat split.
  - rewrite map_app in ND. eapply NoDup_app_l. exact ND.
  - intros s I. apply LE. apply in_or_app. left. assumption.
  - apply (si_hi c H).
Qed.

Lemma SI_init h0 : SI (init_conn cfg h0).
Proof using.
  clear dec_field enc_field enc_set_max.   (* lia would pick them up *)
  constructor; unfold init_conn; sc_cbn.
  - reflexivity.
  - constructor.
  - intros _. constructor.
  - cbn. lia.
  - lia.
  - constructor.
  - cbn. lia.
  - lia.
  - intros _. split; [constructor | intros s []].
  - intros _. constructor.
Qed.

Lemma same_core_view c c' : same_core c c' -> view c' = view c.
Proof. intro H. unfold same_core in H. decompose [and] H. unfold view. congruence. Qed.

Lemma lite_view c c' : lite cfg c c' -> view c' = view c.
Proof. intros [H _]. apply same_core_view, H. Qed.

(* the table may be replaced by one of the same shape *)
Lemma SI_upd_strms c l : SI c -> Forall2 slocw (sc_strms c) l -> Forall run_ok l ->
  (sc_sl_done c = false -> Forall Q (sc_strms c) -> Forall Q l) -> SI (upd_strms c l).
Proof.
  intros [] F2 FR FQ. constructor; sc_cbn; try assumption.
  - rewrite (slocw_count_hdr _ _ F2). assumption.
  - intro Hd. eapply slocw_Forall_orig; eauto.
  - rewrite (slocw_count_hdr _ _ F2), (slocw_length _ _ F2). assumption.
  - intro Hd. destruct (si_ids0 Hd) as [ND LE]. rewrite map_app, (slocw_ids _ _ F2), <- map_app. split; [assumption|].
    intros s I. apply in_app_or in I. destruct I as [I|I].
    + eapply slocw_Forall_le; [exact F2 | | exact I]. intros; apply LE, in_or_app; left; assumption.
    + apply LE, in_or_app. right. assumption.
  - auto.
Qed.

Lemma SI_upd_ring c r o : SI c -> (length r <= 256)%nat -> SI (upd_ring c r o).
Proof. intros [] L. constructor; sc_cbn; assumption. Qed.

Lemma SI_mv o a b : mv o a b -> SI a -> SI b.
Proof using.
  clear enc_field enc_set_max.
  intros M H. destruct M.
  - (* lite *) eapply SI_view; [apply lite_view; eassumption | assumption].
  - (* goaway *) eapply SI_view; [|exact H]. rewrite write_goaway_upd. reflexivity.
  - (* mark *)
    rewrite mark_closed_eq. apply SI_upd_ring; [exact H|]. apply (mark_closed_ring_length _ c id w), H.
  - (* highest *)
    destruct H. constructor; sc_cbn; try assumption. lia.
  - (* strms *)
    rename H1 into F2. apply SI_upd_strms; [exact H | apply sloc_slocw, F2 | | auto].
    eapply sloc_Forall_run; [exact F2 | apply H].
  - (* dispatch *)
    rename H1 into SS. rename H2 into Eo. rename H3 into Ro. rename H4 into Rx. rename H5 into Px. rename H6 into HQ.
    pose proof (strms_search_In _ _ _ SS) as [Iold _].
    apply (SI_view (upd_strms c (strms_put (sc_strms c) x))); [reflexivity|]. apply SI_upd_strms; [exact H | | |].
    + eapply put_slocw; eassumption.
    + apply strms_put_Forall; [apply H|]. intros _. split; [|assumption].
      rewrite Eo. pose proof (si_hdrs c H H0) as AH. rewrite Forall_forall in AH. auto.
    + intros _ FQ. apply strms_put_Forall; [exact FQ|]. apply HQ. rewrite Forall_forall in FQ. auto.
  - (* create *)
    rename H3 into HI. rename H4 into Ei. rename H5 into Eo. rename H6 into Er. rename H8 into Qs.
    assert (Hh : is_hdr s = true) by (apply is_hdr_true; assumption).
    destruct H. constructor; sc_cbn; try assumption.
    + rewrite count_hdr_app, count_hdr_cons, Hh. unfold count_hdr at 2. cbn [filter length]. lia.
    + intro Hd. apply Forall_app. split; [auto | repeat constructor; assumption].
    + rewrite count_hdr_app, count_hdr_cons, Hh, app_length. unfold count_hdr at 2. cbn [filter length]. lia.
    + lia.
    + apply Forall_app. split; [assumption|]. constructor; [intro R; congruence | constructor].
    + lia.
    + intro Hd. destruct (si_ids0 Hd) as [ND LE]. split.
      * rewrite <- app_assoc. cbn [app]. rewrite map_app. cbn [map]. rewrite Ei.
        eapply Permutation_NoDup; [apply Permutation_middle|]. rewrite <- map_app. constructor; [|assumption].
        intro I. apply in_map_iff in I. destruct I as (y & Ey & Iy). specialize (LE y Iy). lia.
      * intros y I. rewrite <- app_assoc in I. apply in_app_or in I. cbn [app] in I.
        destruct I as [I|[I|I]]; [| subst; lia |].
        -- specialize (LE y (in_or_app _ _ _ (or_introl I))). lia.
        -- specialize (LE y (in_or_app _ _ _ (or_intror I))). lia.
    + intro Hd. apply Forall_app. split; [auto | repeat constructor; assumption].
  - (* close *)
    rename H1 into SS. rename H2 into SL. destruct SL as (Si & So & Sr & Sp).
    pose proof (strms_search_In _ _ _ SS) as [Iold Eid].
    destruct H.
    assert (Ho : st_orig old = KHeaders).
    { specialize (si_hdrs0 H0). rewrite Forall_forall in si_hdrs0. auto. }
    assert (Hh : is_hdr old = true) by (apply is_hdr_true; assumption).
    assert (Hx : fkind_eqb (st_orig x) KHeaders = true) by (rewrite So; exact Hh).
    destruct (si_ids0 H0) as [ND LE].
    pose proof (del_perm _ _ _ SS) as PM.
    constructor; rewrite ?sc_strms_close_stream, ?sc_gone_close_stream, ?sc_open_close_stream, ?sc_ring_close_stream,
      ?sc_sl_done_close_stream, ?sc_lastID_close_stream, ?sc_highestID_close_stream.
    + rewrite (count_hdr_del _ _ _ SS), Hh, Hx. clear - si_open0. destruct (st_handlerRunning x); cbn [length]; lia.
    + destruct (st_handlerRunning x); [|assumption]. constructor; [|assumption]. split; [|reflexivity].
      cbn [set_flags st_orig]. unfold closed_body. cbn [set_snd st_orig]. congruence.
    + intro. apply strms_del_Forall. auto.
    + rewrite (count_hdr_del _ _ _ SS), Hh. pose proof (length_del _ _ _ SS) as LD. clear - si_len0 LD. lia.
    + rewrite Hx. clear - si_max0. destruct (st_handlerRunning x); lia.
    + apply strms_del_Forall. assumption.
    + apply (mark_closed_ring_length _ c (st_id x) (st_weReset x)). assumption.
    + assumption.
    + intros _. destruct (st_handlerRunning x).
      * split.
        -- eapply Permutation_NoDup; [|exact ND]. rewrite !map_app. cbn [map].
           replace (st_id (set_flags (closed_body x) (st_responded x) true true)) with (st_id old)
             by (unfold closed_body; cbn [set_flags set_snd st_id]; congruence).
           eapply perm_trans; [apply Permutation_app_tail, Permutation_map, PM|]. cbn [map app].
           apply Permutation_middle.
        -- intros y I. apply in_app_or in I. destruct I as [I|[I|I]].
           ++ apply LE, in_or_app. left. eapply strms_del_In. eassumption.
           ++ subst y. unfold closed_body. cbn [set_flags set_snd st_id]. rewrite Si. apply LE, in_or_app. left. assumption.
           ++ apply LE, in_or_app. right. assumption.
      * split.
        -- assert (P2 : Permutation (map st_id (sc_strms c ++ sc_gone c))
                                     (st_id old :: map st_id (strms_del (sc_strms c) (st_id x) ++ sc_gone c))).
           { rewrite !map_app. eapply perm_trans; [apply Permutation_app_tail, Permutation_map, PM|]. reflexivity. }
           pose proof (Permutation_NoDup P2 ND) as ND2. inversion ND2; assumption.
        -- intros y I. apply in_app_or in I. destruct I as [I|I].
           ++ apply LE, in_or_app. left. eapply strms_del_In. eassumption.
           ++ apply LE, in_or_app. right. assumption.
    + intro. apply strms_del_Forall. auto.
  - (* a handler of an abandoned stream has returned *)
    rename H1 into TS. destruct (take_stream_Some _ _ _ _ TS) as (Ei & Is & Len & Sub & Sup).
    pose proof (take_perm _ _ _ _ TS) as PM.
    destruct H.
    assert (Ho : st_orig s = KHeaders) by (rewrite Forall_forall in si_gone0; apply si_gone0; assumption).
    rewrite release_stream_eq. constructor; sc_cbn; rewrite ?sc_open_release_stream; sc_cbn; try assumption.
    + cbn [set_flags st_orig]. rewrite Ho. cbn [fkind_eqb]. rewrite Len in si_open0. lia.
    + rewrite Forall_forall in *. auto.
    + cbn [set_flags st_orig]. rewrite Ho. cbn [fkind_eqb]. lia.
    + intro Hd. destruct (si_ids0 Hd) as [ND LE]. split.
      * assert (P2 : Permutation (map st_id (sc_strms c ++ sc_gone c)) (st_id s :: map st_id (sc_strms c ++ rest))).
        { rewrite !map_app. eapply perm_trans; [apply Permutation_app_head, Permutation_map, PM|]. cbn [map].
          symmetry. apply Permutation_middle. }
        pose proof (Permutation_NoDup P2 ND) as ND2. inversion ND2; assumption.
      * intros y I. apply LE. apply in_app_or in I. apply in_or_app. destruct I; auto.
  - (* a handler has returned *)
    rename H2 into SS. rename H4 into Eo. rename H5 into Ro. rename H6 into Rx. rename H8 into HQ. rename H1 into L.
    pose proof (SI_view _ _ (lite_view _ _ L) H) as H1.
    rewrite <- (lite_strms _ _ _ _ L) in SS. rewrite <- (lite_sl_done _ _ _ _ L) in H0.
    pose proof (strms_search_In _ _ _ SS) as [Iold _].
    apply SI_upd_strms; [exact H1 | | |].
    + eapply put_slocw; eassumption.
    + apply strms_put_Forall; [apply H1|]. intro R. congruence.
    + intros _ FQ. apply strms_put_Forall; [exact FQ|]. apply HQ. rewrite Forall_forall in FQ. auto.
  - (* break *)
    destruct H. constructor; unfold brk, note; sc_cbn; try assumption; try discriminate.
  - (* fatal *)
    rename H1 into F2'. rename H2 into EX. pose proof (sloc_slocw _ _ F2') as F2. destruct H.
    pose proof (si_hdrs0 H0) as AH.
    assert (CE : count_hdr extra = 0%Z /\ Forall run_ok extra /\
                 (Z.of_nat (length (sc_strms c ++ extra)) <= count_hdr (sc_strms c) + 1)%Z).
    { destruct EX as [->|(s & -> & No & Nr & _)].
      - rewrite app_nil_r. repeat split; [constructor | assumption].
      - rewrite count_hdr_cons. assert (is_hdr s = false).
        { destruct (is_hdr s) eqn:E; [|reflexivity]. apply is_hdr_true in E. contradiction. }
        rewrite H. repeat split.
        + constructor; [intro R; congruence | constructor].
        + rewrite app_length, (count_hdr_all _ AH). cbn [length]. lia. }
    destruct CE as (C0 & CR & CL).
    constructor; unfold brk, note; sc_cbn; try assumption; try discriminate.
    + rewrite (slocw_count_hdr _ _ F2), count_hdr_app. lia.
    + rewrite (slocw_count_hdr _ _ F2), (slocw_length _ _ F2), count_hdr_app. lia.
    + eapply sloc_Forall_run; [exact F2'|]. apply Forall_app. split; assumption.
  - (* panic *) eapply SI_view; [|exact H]. reflexivity.
  - (* post: the loop has ended, nothing SI looks at changes *)
    eapply SI_view; [apply same_core_view, H1 | exact H].
Qed.

Lemma SI_omv pc a b : omv hstate pc a b -> SI a -> SI b.
Proof. intro M. destruct (omv_keeps _ _ _ _ M) as (E1 & E2 & E3 & E4 & E5 & E6 & _ & E7). apply SI_keeps; assumption. Qed.

Lemma SI_gmv pc a b : gmv pc a b -> SI a -> SI b.
Proof using. intros M H. destruct M; [eapply SI_mv | eapply SI_omv]; eassumption. Qed.

Lemma SI_mvs l a b : mvs hstate dec_field cfg Q l a b -> SI a -> SI b.
Proof using enc_set_max. intros M. induction M; intro HS; [assumption|]. eauto using SI_mv. Qed.
Lemma SI_omvs pc a b : omvs hstate pc a b -> SI a -> SI b.
Proof. intros M. induction M; intro HS; [assumption|]. eauto using SI_omv. Qed.

Hypothesis HQc : Qclosed hstate dec_field cfg Q.

Notation step := (step dec_field enc_field enc_set_max cfg).
Notation run := (run dec_field enc_field enc_set_max cfg).

Theorem SI_step c e : SI c -> SI (step c e).
Proof.
  apply (inv_step hstate dec_field enc_field enc_set_max cfg Q HQc SI).
  - apply SI_ids_ok.
  - apply SI_gmv.
Qed.

Theorem SI_run h0 evs : SI (run h0 evs).
Proof. apply run_ind; [apply SI_init | intros c e; apply SI_step]. Qed.

Theorem SI_reachable h0 c : reachable dec_field enc_field enc_set_max cfg h0 c -> SI c.
Proof. intro R. induction R; [apply SI_init | apply SI_step; assumption]. Qed.

(* every step is a sequence of moves (for relational facts) *)
Theorem SI_gmvs_step c e : SI c -> gmvs (parser_code e) c (step c e).
Proof.
  intro H. apply (gmvs_step hstate dec_field enc_field enc_set_max cfg Q HQc). apply SI_ids_ok. assumption.
Qed.

End Slots.

Arguments SI {hstate}. Arguments view {hstate}.
Arguments SI_mv {hstate dec_field cfg Q o a b}. Arguments SI_omvs {hstate cfg Q pc a b}. Arguments SI_gmv {hstate dec_field cfg Q pc a b}.

(* the instance without a per-stream predicate, and its corollaries *)
Section SlotsTrue.
Variable hstate : Type.
Variable dec_field : hstate -> N -> bytes -> dec_res hstate.
Variable enc_field : hstate -> bytes -> bytes -> bool -> bytes * hstate.
Variable enc_set_max : hstate -> N -> hstate.
Variable cfg : config.
Variable h0 : hstate.
Notation run := (run dec_field enc_field enc_set_max cfg h0).
Notation sconn := (sconn hstate).

Definition QT (s : stream) : Prop := True.

Lemma QT_closed : Qclosed hstate dec_field cfg QT.
Proof. constructor; intros; try exact I. destruct e as [[| |]|]; exact I. Qed.

Theorem SI_run_T evs : SI cfg QT (run evs).
Proof. apply SI_run. apply QT_closed. Qed.

Theorem SI_reachable_T c : reachable dec_field enc_field enc_set_max cfg h0 c -> SI cfg QT c.
Proof. apply SI_reachable. apply QT_closed. Qed.

Lemma SI_step_T c e : SI cfg QT c -> SI cfg QT (step dec_field enc_field enc_set_max cfg c e).
Proof. apply SI_step. apply QT_closed. Qed.

Lemma SI_gmvs_step_T c e : SI cfg QT c ->
  gmvs hstate dec_field cfg QT (parser_code e) c (step dec_field enc_field enc_set_max cfg c e).
Proof. apply SI_gmvs_step. apply QT_closed. Qed.

(* handlers running for the connection: those of table streams and those of abandoned streams *)
Definition running (c : sconn) : Z := (count_running (sc_strms c) + Z.of_nat (length (sc_gone c)))%Z.

Lemma SI_slots c (Q : stream -> Prop) : SI cfg Q c -> (0 <= running c <= sc_open c)%Z /\ (sc_open c <= Z.max 0 (cf_maxStreams cfg))%Z.
Proof using.
  clear dec_field enc_field enc_set_max h0. intros []. unfold running. pose proof (count_running_le_hdr _ si_run0).
  assert (0 <= count_running (sc_strms c))%Z by (unfold count_running; lia). lia.
Qed.

(* on reachable states, while the stream loop runs: distinct ids in the table, none above lastID *)
Theorem reach_ids c : reachable dec_field enc_field enc_set_max cfg h0 c ->
  sc_sl_done c = true \/
  (NoDup (map st_id (sc_strms c)) /\ Forall (fun s => st_id s <= sc_lastID c) (sc_strms c)).
Proof.
  intro R. pose proof (SI_reachable_T c R) as H. destruct (sc_sl_done c) eqn:Hd; [left; reflexivity | right].
  destruct (SI_ids_ok _ _ _ _ H Hd) as (ND & LE & _). split; [assumption | apply Forall_forall; assumption].
Qed.

End SlotsTrue.
Arguments running {hstate}.
