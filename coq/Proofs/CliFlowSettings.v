(* Proofs/CliFlowSettings.v - Settings.Read / MergeTo of the client model against the list of parameters of the
   payload (RFC 7540 6.5.1): which payloads are refused, and that merging changes exactly the parameters present,
   each to the last value sent for it (C18, C07). *)
From H2V Require Import Base.Bytes Base.MachineInt Base.Result Gen.GenConsts Impl.ServerConn Impl.ClientConn
     Proofs.CliBase Proofs.CliDefs Spec.Rfc7540Frames.
From Coq Require Import ZArith Lia ZifyN ZifyNat ZifyBool List Bool.
Import ListNotations.
Local Open Scope N_scope.

Lemma bytes6_ind (P : bytes -> Prop) :
  (forall d, (length d < 6)%nat -> P d) ->
  (forall k1 k0 v3 v2 v1 v0 rest, P rest -> P (k1 :: k0 :: v3 :: v2 :: v1 :: v0 :: rest)) ->
  forall d, P d.
Proof.
  intros Hs Hc. fix IH 1. intro d.
  destruct d as [|k1 [|k0 [|v3 [|v2 [|v1 [|v0 rest]]]]]]; try (apply Hs; cbn; lia).
  apply Hc. apply IH.
Qed.

Lemma settings_pairs_short d : (length d < 6)%nat -> settings_pairs d = [].
Proof. destruct d as [|k1 [|k0 [|v3 [|v2 [|v1 [|v0 rest]]]]]]; cbn; try reflexivity. lia. Qed.

Lemma settings_read_short d st : (length d < 6)%nat -> cl_settings_read d st = Some st.
Proof. destruct d as [|k1 [|k0 [|v3 [|v2 [|v1 [|v0 rest]]]]]]; cbn [length cl_settings_read]; try reflexivity. lia. Qed.

(* the last value sent for parameter k (seen through f), cur if there is none *)
Definition plast {A} (f : N -> A) (ps : list (N * N)) (k : N) (cur : A) : A :=
  fold_left (fun a kv => if fst kv =? k then f (snd kv) else a) ps cur.
Definition pairs_last (ps : list (N * N)) (k cur : N) : N := plast (fun v => v) ps k cur.
Definition pairs_has (ps : list (N * N)) (k : N) : bool := existsb (fun kv => fst kv =? k) ps.

Lemma plast_absent {A} (f : N -> A) ps k cur : pairs_has ps k = false -> plast f ps k cur = cur.
Proof.
  unfold plast, pairs_has. revert cur. induction ps as [|kv t IH]; intro cur; cbn [existsb fold_left]; [reflexivity|].
  intro H. apply orb_false_iff in H. destruct H as [A0 B]. rewrite A0. apply IH. exact B.
Qed.

Lemma plast_present {A} (f : N -> A) ps k cur cur' : pairs_has ps k = true -> plast f ps k cur = plast f ps k cur'.
Proof.
  unfold plast, pairs_has. revert cur cur'. induction ps as [|kv t IH]; intros cur cur'; cbn [existsb fold_left]; [discriminate|].
  destruct (fst kv =? k) eqn:E; cbn [orb]; [reflexivity | apply IH].
Qed.

(* what holds of the current value and of every valid value sent for k holds of the last *)
Lemma pairs_last_valid (P : N -> Prop) ps k : (forall v, setting_valid (k, v) = true -> P v) -> forallb setting_valid ps = true ->
  forall cur, P cur -> P (pairs_last ps k cur).
Proof.
  intro H. unfold pairs_last, plast. induction ps as [|[k0 v] t IH]; intros V cur C; cbn [fold_left fst snd]; [exact C|].
  cbn [forallb] in V. apply andb_prop in V. destruct V as [V1 V2]. apply IH; [exact V2|].
  destruct (k0 =? k) eqn:E; [|exact C]. apply N.eqb_eq in E. subst k0. apply H. exact V1.
Qed.

Lemma pairs_last_window_range ps : forallb setting_valid ps = true -> forall cur, cur <= 2147483647 -> pairs_last ps 4 cur <= 2147483647.
Proof.
  intro V. apply (pairs_last_valid (fun v => v <= 2147483647)); [|exact V]. intros v H. apply N.leb_le in H. exact H.
Qed.

Lemma pairs_last_frame_range ps : forallb setting_valid ps = true -> forall cur,
  16384 <= cur <= 16777215 -> 16384 <= pairs_last ps 5 cur <= 16777215.
Proof.
  intro V. apply (pairs_last_valid (fun v => 16384 <= v <= 16777215)); [|exact V]. intros v H.
  apply andb_prop in H. destruct H as [A B]. apply N.leb_le in A, B. split; assumption.
Qed.

(* the last value sent for k, if any, seen through f *)
Lemma plast_map {A B} (g : A -> B) (f : N -> A) ps k : forall o d,
  plast (fun v => g (f v)) ps k o = if pairs_has ps k then g (plast f ps k d) else o.
Proof.
  unfold plast, pairs_has. induction ps as [|kv t IH]; intros o d; cbn [fold_left existsb]; [reflexivity|].
  destruct (fst kv =? k); cbn [orb]; [|apply IH].
  rewrite (IH _ (f (snd kv))). destruct (existsb _ t) eqn:E; [reflexivity | f_equal; symmetry; apply (plast_absent f t k _ E)].
Qed.

(* RFC 7540 6.5.2: the values that are a connection error *)
Definition pair_ok (kv : N * N) : bool := setting_valid kv.

(* one parameter *)
Lemma settings_apply_spec st k v :
  cl_settings_apply st k v =
  if setting_valid (k, v) then
    Some (mkCS (if k =? 1 then v else cs_table st)
               (if k =? 2 then negb (v =? 0) else cs_push st)
               (if k =? 3 then v else cs_streams st)
               (if k =? 4 then v else cs_window st)
               (if k =? 5 then v else cs_frame st)
               (if k =? 6 then v else cs_hdr st)
               (if k =? 4 then true else cs_hasWin st)
               (if (1 <=? k) && (k <=? 6) then N.lor (cs_present st) (N.shiftl 1 k) else cs_present st))
  else None.
Proof.
  unfold cl_settings_apply, setting_valid. cbn [fst snd cs_table cs_push cs_streams cs_window cs_frame cs_hdr cs_hasWin cs_present].
  change c_HeaderTableSize with 1. change c_EnablePush with 2. change c_MaxConcurrentStreams with 3.
  change c_MaxWindowSize with 4. change c_MaxFrameSize with 5. change c_MaxHeaderListSize with 6.
  change (2 ^ 31 - 1) with 2147483647. change (2 ^ 14) with 16384. change (2 ^ 24 - 1) with 16777215.
  destruct (k =? 1) eqn:K1; [apply N.eqb_eq in K1; subst k; reflexivity|].
  destruct (k =? 2) eqn:K2.
  { apply N.eqb_eq in K2; subst k. cbn [N.eqb Pos.eqb andb N.leb N.compare Pos.compare Pos.compare_cont].
    destruct (v =? 0) eqn:V0; [apply N.eqb_eq in V0; subst v; reflexivity|].
    destruct (v =? 1) eqn:V1; [apply N.eqb_eq in V1; subst v; reflexivity|].
    cbn [negb andb]. apply N.eqb_neq in V0, V1. destruct (v <=? 1) eqn:L; [apply N.leb_le in L; lia | reflexivity]. }
  destruct (k =? 3) eqn:K3; [apply N.eqb_eq in K3; subst k; reflexivity|].
  destruct (k =? 4) eqn:K4.
  { apply N.eqb_eq in K4; subst k. cbn [N.eqb Pos.eqb andb N.leb N.compare Pos.compare Pos.compare_cont].
    destruct (2147483647 <? v) eqn:V; [apply N.ltb_lt in V | apply N.ltb_ge in V].
    - destruct (v <=? 2147483647) eqn:L; [apply N.leb_le in L; lia | reflexivity].
    - destruct (v <=? 2147483647) eqn:L; [reflexivity | apply N.leb_gt in L; lia]. }
  destruct (k =? 5) eqn:K5.
  { apply N.eqb_eq in K5; subst k. cbn [N.eqb Pos.eqb andb N.leb N.compare Pos.compare Pos.compare_cont].
    destruct (v <? 16384) eqn:A; [apply N.ltb_lt in A | apply N.ltb_ge in A]; cbn [orb].
    - destruct (16384 <=? v) eqn:L; [apply N.leb_le in L; lia | reflexivity].
    - destruct (16384 <=? v) eqn:L; [|apply N.leb_gt in L; lia]. cbn [andb].
      destruct (16777215 <? v) eqn:B; [apply N.ltb_lt in B | apply N.ltb_ge in B].
      + destruct (v <=? 16777215) eqn:L2; [apply N.leb_le in L2; lia | reflexivity].
      + destruct (v <=? 16777215) eqn:L2; [reflexivity | apply N.leb_gt in L2; lia]. }
  apply N.eqb_neq in K1, K2, K3, K4, K5.
  assert (SV : match k with 2 => v <=? 1 | 4 => v <=? 2147483647 | 5 => (16384 <=? v) && (v <=? 16777215) | _ => true end = true).
  { destruct k as [|[[[p|p|]|[p|p|]|]|[[p|p|]|[p|p|]|]|]]; try reflexivity; congruence. }
  rewrite SV. destruct (k =? 6) eqn:K6; [apply N.eqb_eq in K6; subst k; reflexivity|]. destruct st; reflexivity.
Qed.

(* Settings.Read on the whole payload *)
Definition present_after (ps : list (N * N)) (p : N) : N :=
  fold_left (fun p kv => if (1 <=? fst kv) && (fst kv <=? 6) then N.lor p (N.shiftl 1 (fst kv)) else p) ps p.
Definition read_result (ps : list (N * N)) (st : csettings) : csettings :=
  mkCS (pairs_last ps 1 (cs_table st)) (plast (fun v => negb (v =? 0)) ps 2 (cs_push st)) (pairs_last ps 3 (cs_streams st))
       (pairs_last ps 4 (cs_window st)) (pairs_last ps 5 (cs_frame st)) (pairs_last ps 6 (cs_hdr st))
       (cs_hasWin st || pairs_has ps 4) (present_after ps (cs_present st)).

Lemma settings_read_spec d : forall st,
  cl_settings_read d st =
  if forallb setting_valid (settings_pairs d) then Some (read_result (settings_pairs d) st) else None.
Proof.
  induction d as [d Hs|k1 k0 v3 v2 v1 v0 rest IH] using bytes6_ind; intro st.
  - rewrite settings_read_short, settings_pairs_short by assumption. cbn [forallb]. unfold read_result, pairs_last, plast, pairs_has, present_after.
    cbn [fold_left existsb]. rewrite orb_false_r. destruct st; reflexivity.
  - cbn [cl_settings_read settings_pairs forallb]. rewrite settings_apply_spec.
    set (k := k1 * 256 + k0). set (v := ((v3 * 256 + v2) * 256 + v1) * 256 + v0).
    destruct (setting_valid (k, v)); cbn [andb]; [|reflexivity]. rewrite IH.
    destruct (forallb setting_valid (settings_pairs rest)); [|reflexivity]. f_equal.
    unfold read_result, pairs_last, plast, pairs_has, present_after.
    cbn [fold_left existsb fst snd cs_table cs_push cs_streams cs_window cs_frame cs_hdr cs_hasWin cs_present].
    f_equal. destruct (k =? 4), (cs_hasWin st); reflexivity.
Qed.

Lemma present_after_bit ps : forall p id, 1 <= id <= 6 ->
  N.testbit (present_after ps p) id = N.testbit p id || pairs_has ps id.
Proof.
  unfold present_after, pairs_has. induction ps as [|[k v] t IH]; intros p id R; cbn [fold_left existsb fst snd]; [rewrite orb_false_r; reflexivity|].
  rewrite IH by exact R. destruct ((1 <=? k) && (k <=? 6)) eqn:E.
  - rewrite N.lor_spec, N.shiftl_1_l, N.pow2_bits_eqb. rewrite orb_assoc. reflexivity.
  - assert (NE : (k =? id) = false).
    { apply N.eqb_neq. intro X. subst k. apply andb_false_iff in E. destruct E as [E|E]; [apply N.leb_gt in E | apply N.leb_gt in E]; lia. }
    rewrite NE. reflexivity.
Qed.

Lemma settings_deserialize_spec d :
  cl_settings_deserialize false d =
  if (len d mod 6 =? 0) && forallb setting_valid (settings_pairs d)
  then Some (read_result (settings_pairs d) cl_settings_default) else None.
Proof.
  unfold cl_settings_deserialize. destruct (len d mod 6 =? 0); cbn [negb andb]; [|reflexivity]. apply settings_read_spec.
Qed.

(* what a valid payload reads as *)
Lemma deserialize_facts d st : cl_settings_deserialize false d = Some st ->
  st = read_result (settings_pairs d) cl_settings_default /\
  forallb setting_valid (settings_pairs d) = true /\ len d mod 6 = 0 /\
  cs_hasWin st = pairs_has (settings_pairs d) 4 /\
  forall id, 1 <= id <= 6 -> cl_settings_has st id = pairs_has (settings_pairs d) id.
Proof.
  rewrite settings_deserialize_spec. destruct (len d mod 6 =? 0) eqn:M; [|discriminate]. cbn [andb].
  destruct (forallb _ _) eqn:V; [|discriminate]. intro H. inversion H. clear H.
  split; [reflexivity|]. split; [reflexivity|]. split; [apply N.eqb_eq; exact M|]. split; [reflexivity|].
  intros id R. unfold cl_settings_has. cbn [read_result cs_present]. rewrite present_after_bit by exact R.
  replace (1 <=? id) with true by (symmetry; apply N.leb_le; lia).
  replace (id <=? 6) with true by (symmetry; apply N.leb_le; lia). reflexivity.
Qed.

(* MergeTo changes exactly the parameters present, each to the last value sent for it *)
Theorem settings_merge_delta d st dst : cl_settings_deserialize false d = Some st ->
  cl_settings_merge st dst =
  mkCS (pairs_last (settings_pairs d) 1 (cs_table dst))
       (plast (fun v => negb (v =? 0)) (settings_pairs d) 2 (cs_push dst))
       (pairs_last (settings_pairs d) 3 (cs_streams dst))
       (pairs_last (settings_pairs d) 4 (cs_window dst))
       (pairs_last (settings_pairs d) 5 (cs_frame dst))
       (pairs_last (settings_pairs d) 6 (cs_hdr dst))
       (cs_hasWin dst) (cs_present dst).
Proof.
  intro DS. destruct (deserialize_facts _ _ DS) as (E & _ & _ & _ & HAS).
  unfold cl_settings_merge.
  change c_HeaderTableSize with 1. change c_EnablePush with 2. change c_MaxConcurrentStreams with 3.
  change c_MaxWindowSize with 4. change c_MaxFrameSize with 5. change c_MaxHeaderListSize with 6.
  rewrite !HAS by lia. rewrite E. cbn [read_result cs_table cs_push cs_streams cs_window cs_frame cs_hdr].
  set (ps := settings_pairs d). unfold pairs_last.
  assert (X : forall {A} (f : N -> A) k a b, (if pairs_has ps k then plast f ps k a else b) = plast f ps k b).
  { intros A f k a b. destruct (pairs_has ps k) eqn:H; [apply plast_present; exact H | symmetry; apply plast_absent; exact H]. }
  rewrite !X. reflexivity.
Qed.
