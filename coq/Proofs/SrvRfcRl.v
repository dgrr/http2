(* Proofs/SrvRfcRl.v - C08: the read loop's half of a lockstep pair: the frames it answers
   itself (sequencing errors, stream-0 frames, PING), and what it forwards. *)
From H2V Require Import Base.Bytes Base.MachineInt Base.Result Gen.GenConsts Impl.ServerConn.
From H2V Require Import Proofs.SrvBase Proofs.SrvRfcDefs Proofs.SrvRfcSpec Proofs.SrvRfcModel Proofs.SrvRfcSim Proofs.SrvRfcStep Proofs.SrvRfcKit.
From Coq Require Import ZArith Lia ZifyN ZifyNat ZifyBool.
Local Open Scope N_scope.

Section Rl.
Variable hstate : Type.
Variable dec_field : hstate -> N -> bytes -> dec_res hstate.
Variable enc_field : hstate -> bytes -> bytes -> bool -> bytes * hstate.
Variable enc_set_max : hstate -> N -> hstate.
Variable cfg : config.
Notation sconn := (sconn hstate).
Notation step := (step dec_field enc_field enc_set_max cfg).
Notation feed := (feed hstate dec_field enc_field enc_set_max cfg).
Notation G := (G hstate).
Notation view := (view hstate).
Notation tbl := (tbl hstate).
Notation Sim := (Sim hstate).
Implicit Types c : sconn.

Lemma dead_spec_next_conn s i r : conn_err r = true -> RS.dead (RS.spec_next s i r) = true.
Proof.
  intro H. destruct i as [f| |code|].
  - rewrite dead_spec_next, H. apply orb_true_r.
  - destruct r; try discriminate; reflexivity.
  - destruct r; try discriminate; reflexivity.
  - destruct r; try discriminate; reflexivity.
Qed.

Lemma dead_after_outs s1 d : RS.dead s1 = true -> RS.dead (after_outs s1 d) = true.
Proof. intro H. unfold after_outs. rewrite dead_fold_sent, H. reflexivity. Qed.

(* the read loop answers with GOAWAY(code) and leaves; the stream loop follows.  c1: c after the sequencing check *)
Lemma G_rl_goaway c s ph i c1 code why :
  sc_out c1 = sc_out c -> sc_sl_done c1 = false -> sc_wl_dead c1 = false -> sc_lastID c1 = sc_lastID c ->
  feed c (IIn i) = note (upd_done (rl_exit (write_goaway c1 0 code) why) true true) (OExit 1 1) ->
  RS.allowed s (abs_input i) (RS.ConnErr code) = true \/ known_deviation hstate c s i = true ->
  G c s ph i (feed c (IIn i)).
Proof.
  intros Ho Hsl Hwl Hl E Ha. rewrite E.
  exists [OExit 1 1; OExit 0 why; OGoAway (sc_lastID c) code]. split.
  { cbn [sc_out note upd_out upd_done]. sc_cbn. rewrite sc_out_rl_exit, sc_out_write_goaway, Hwl, Hsl, Ho, Hl. reflexivity. }
  cbn [filter noisy strip_late rev app classify first_some is_goaway]. cbn [resolve].
  split; [exact Ha|]. split.
  - cbn [sc_sl_done note upd_out upd_done]. apply dead_after_outs, dead_spec_next_conn. reflexivity.
  - intros sid rq [H|[H|[H|[]]]]; discriminate.
Qed.

(* the read loop leaves without GOAWAY *)
Lemma G_rl_close c s ph i why :
  feed c (IIn i) = note (upd_done (rl_exit c why) true true) (OExit 1 1) ->
  RS.allowed s (abs_input i) RS.ConnClose = true \/ known_deviation hstate c s i = true ->
  G c s ph i (feed c (IIn i)).
Proof.
  intros E Ha. rewrite E.
  exists [OExit 1 1; OExit 0 why]. split; [reflexivity|].
  cbn [filter noisy strip_late rev app classify first_some is_goaway existsb is_exit orb]. cbn [resolve].
  split; [exact Ha|]. split.
  - cbn [sc_sl_done note upd_out upd_done]. apply dead_after_outs, dead_spec_next_conn. reflexivity.
  - intros sid rq [H|[H|[]]]; discriminate.
Qed.

Lemma feed_rl_exit c i c0 why : sc_rl_done c = false ->
  rl_step cfg c i = rl_exit c0 why -> sc_sl_done c0 = false -> sc_readerQ c0 = [] ->
  feed c (IIn i) = note (upd_done (rl_exit c0 why) true true) (OExit 1 1).
Proof.
  intros B E A0 C0. unfold feed. rewrite step_EvRL, B, E.
  apply sl_after_exit; [rewrite sc_sl_done_rl_exit; exact A0 | apply sc_rl_done_rl_exit | rewrite sc_readerQ_rl_exit; exact C0].
Qed.

Lemma upd_expectCont_same c : upd_expectCont c (sc_expectCont c) = c.
Proof. destruct c; reflexivity. Qed.

Lemma upd_expectCont_id c n : sc_expectCont c = n -> upd_expectCont c n = c.
Proof. intros <-. apply upd_expectCont_same. Qed.

Lemma ph_next_odd ph fr id : N.odd id = true -> N.odd (sf_sid fr) = false -> ph_next ph (IIn (RFrame fr)) id = ph id.
Proof.
  intros O E. cbn [ph_next]. destruct (id =? sf_sid fr) eqn:X; [|reflexivity].
  apply N.eqb_eq in X. subst id. congruence.
Qed.

(* a frame of stream 0 that the read loop deals with by itself, without any error *)
Lemma G_rl_static c s ph fr c' d :
  Sim c s ph -> sc_expectCont c = 0 ->
  feed c (IIn (RFrame fr)) = c' -> static hstate c c' -> sc_sl_done c' = false ->
  sc_expectCont c' = 0 -> sc_discardID c' = sc_discardID c -> sc_closing c' = sc_closing c ->
  sc_out c' = d ++ sc_out c -> filter noisy d = [] -> (forall sid rq, ~ In (ODispatch sid rq) d) ->
  sf_sid fr = 0 -> (sf_kind fr = KSettings \/ sf_kind fr = KPing) ->
  G c s ph (RFrame fr) (feed c (IIn (RFrame fr))).
Proof.
  intros HS Hec E St Hsl' Hec' Hdi Hcl Ho Hq Hnd Hz Hk. rewrite E. exists d. split; [exact Ho|].
  rewrite Hq. cbn [rev classify first_some existsb input_sid]. rewrite Hz. cbn [N.eqb].
  assert (B : RS.block s = None) by (rewrite (S_blk _ _ _ _ HS : RS.block s = _), Hec; reflexivity).
  assert (MP : RS.may_process s (abs_input (RFrame fr)) = true).
  { unfold RS.may_process, RS.verdicts, abs_input, abs_frame. cbn [RS.f_kind RS.f_sid]. rewrite B, Hz.
    destruct Hk as [-> | ->]; reflexivity. }
  cbn [resolve]. rewrite MP.
  split.
  { left. unfold RS.allowed. fold (RS.may_process s (abs_input (RFrame fr))). rewrite MP. reflexivity. }
  assert (S1 : RS.spec_next s (abs_input (RFrame fr)) RS.Process = s).
  { cbn [abs_input]. rewrite spec_next_frame. cbn [conn_err]. unfold abs_frame at 1. cbn [RS.f_sid]. rewrite Hz. cbn [N.eqb orb].
    unfold pre_next, RS.in_sequence, abs_frame. cbn [RS.f_kind]. destruct Hk as [-> | ->]; reflexivity. }
  rewrite S1. rewrite Hsl'. unfold after_outs. rewrite Hq. cbn [rev flat_map fold_left].
  split; [|intros sid rq H; exfalso; exact (Hnd sid rq H)].
  pose proof (S_aux _ _ _ _ HS) as [AT AH].
  apply (live_tuple_static hstate c c' s s ph).
  - exact HS.
  - exact St.
  -
    pose proof St as (A1 & _). destruct AH as [F1 F2 F3 F4]. constructor.
    + intros st H. rewrite A1 in H. rewrite Hec', <- Hec. apply F1, H.
    + intros st H. exfalso. apply H. exact Hec'.
    + intros H. exfalso. apply H. exact Hec'.
    + rewrite Hdi. intro H. rewrite (tbl_static hstate c c' _ St). destruct St as (_ & _ & _ & _ & A5 & _). rewrite A5. apply F4, H.
  - reflexivity.
  - reflexivity.
  - unfold R_block. rewrite Hec'. exact B.
  - rewrite Hcl. exact (S_ga _ _ _ _ HS).
  - intros H. exfalso. apply H. exact Hec'.
  - intros st H. apply ph_next_odd; [apply (A_ids _ _ AT st H) | rewrite Hz; reflexivity].
  - intros Hc id O L. rewrite ph_next_odd; [|exact O | rewrite Hz; reflexivity].
    apply (S_new _ _ _ _ HS); [congruence | exact O | exact L].
Qed.

(* what the read loop lets through *)
Definition seq_ok c (fr : sframe) (ec' : N) : Prop :=
  (sc_expectCont c = 0 /\ sf_kind fr <> KCont /\
   ec' = if fkind_eqb (sf_kind fr) KHeaders && negb (flag_has (sf_flags fr) FL_EH) then sf_sid fr else 0) \/
  (sc_expectCont c <> 0 /\ sf_kind fr = KCont /\ sf_sid fr = sc_expectCont c /\
   ec' = if flag_has (sf_flags fr) FL_EH then 0 else sf_sid fr).

Definition forwarded c (fr : sframe) (c' : sconn) : Prop :=
  exists ec', seq_ok c fr ec' /\ c' = fst (sl_frame dec_field enc_set_max cfg (upd_expectCont c ec') fr) /\
  ((N.odd (sf_sid fr) = true /\ match sf_kind fr with KPing | KPush => False | _ => True end) \/
   (sf_sid fr = 0 /\ ((sf_kind fr = KSettings /\ flag_has (sf_flags fr) FL_ES = false) \/
                       (sf_kind fr = KWinUpd /\ sf_inc fr <> 0)))).

Lemma land1_even n : (N.land n 1 =? 0) = N.even n.
Proof. destruct n as [|[p|p|]]; reflexivity. Qed.

Lemma rl_frame c s ph fr : Sim c s ph -> sc_sl_done c = false ->
  G c s ph (RFrame fr) (feed c (IIn (RFrame fr))) \/ forwarded c fr (feed c (IIn (RFrame fr))).
Proof.
  intros HS Hsl. pose proof (S_aux _ _ _ _ HS) as [AT AH].
  pose proof (A_rl _ _ AT) as Hrl. pose proof (A_wl _ _ AT) as Hwl. pose proof (A_q _ _ AT) as Hq.
  pose proof (S_blk _ _ _ _ HS : RS.block s = _) as B.
  (* the read loop leaving with GOAWAY(PROTOCOL_ERROR) *)
  assert (EXIT : forall c1, sc_out c1 = sc_out c -> sc_sl_done c1 = false -> sc_wl_dead c1 = false -> sc_readerQ c1 = [] ->
            sc_lastID c1 = sc_lastID c ->
            rl_step cfg c (RFrame fr) = rl_exit (write_goaway c1 0 c_ProtocolError) 1 ->
            (RS.allowed s (abs_input (RFrame fr)) (RS.ConnErr c_ProtocolError) = true \/ known_deviation hstate c s (RFrame fr) = true) ->
            G c s ph (RFrame fr) (feed c (IIn (RFrame fr)))).
  { intros c1 Ho A1 A2 A3 A4 E Ha. apply (G_rl_goaway c s ph (RFrame fr) c1 c_ProtocolError 1 Ho A1 A2 A4); [|exact Ha].
    apply (feed_rl_exit c (RFrame fr) _ 1 Hrl E); [rewrite sc_sl_done_write_goaway; exact A1 | rewrite sc_readerQ_write_goaway; exact A3]. }
  assert (FWD : forall ec', seq_ok c fr ec' ->
            rl_step cfg c (RFrame fr) =
              (let c1 := upd_expectCont c ec' in
               if negb (sf_sid fr =? 0) then
                 match check_frame_with_stream fr with
                 | Some e => rl_exit (fst (write_error c1 None e)) 1
                 | None => forward c1 fr
                 end
               else
                 match sf_kind fr with
                 | KSettings => if negb (flag_has (sf_flags fr) FL_ES) then forward c1 fr else c1
                 | KWinUpd => if sf_inc fr =? 0 then rl_exit (write_goaway c1 0 c_ProtocolError) 1 else forward c1 fr
                 | KPing => if negb (flag_has (sf_flags fr) FL_ES) then emit c1 (OPingAck (sf_payload fr)) else c1
                 | KGoAway => rl_exit c1 (if sf_code fr =? c_NoError then 0 else 4)
                 | _ => rl_exit (write_goaway c1 0 c_ProtocolError) 1
                 end)).
  { intros ec' [(E0 & K & ->)|(E0 & K & Sd & ->)]; unfold rl_step.
    - rewrite E0. cbn [N.eqb negb]. apply fkind_eqb_neq in K. rewrite K.
      destruct (fkind_eqb (sf_kind fr) KHeaders && negb (flag_has (sf_flags fr) FL_EH))%bool; [reflexivity|].
      rewrite (upd_expectCont_id c 0 E0). reflexivity.
    - replace (sc_expectCont c =? 0) with false by lia. cbn [negb]. rewrite K. cbn [fkind_eqb negb orb].
      replace (sf_sid fr =? sc_expectCont c) with true by lia. cbn [negb].
      destruct (flag_has (sf_flags fr) FL_EH); [reflexivity|].
      rewrite (upd_expectCont_id c (sf_sid fr) (eq_sym Sd)). reflexivity. }
  (* what happens once the sequencing check is passed *)
  assert (REST : forall ec', seq_ok c fr ec' ->
            G c s ph (RFrame fr) (feed c (IIn (RFrame fr))) \/ forwarded c fr (feed c (IIn (RFrame fr)))).
  { intros ec' SQ. pose proof (FWD ec' SQ) as E. cbv zeta in E.
    set (c1 := upd_expectCont c ec') in *.
    assert (C1sl : sc_sl_done c1 = false) by exact Hsl.
    assert (C1q : sc_readerQ c1 = []) by exact Hq.
    assert (FW : rl_step cfg c (RFrame fr) = forward c1 fr -> feed c (IIn (RFrame fr)) = fst (sl_frame dec_field enc_set_max cfg c1 fr)).
    { intro E'. unfold feed. rewrite step_EvRL, Hrl, E'. apply sl_after_forward; assumption. }
    (* block s as seq_ok tells *)
    assert (BK : (sf_kind fr <> KCont /\ RS.block s = None) \/ (sf_kind fr = KCont /\ RS.block s = Some (sf_sid fr) /\ N.odd (sf_sid fr) = true)).
    { destruct SQ as [(E0 & K & _)|(E0 & K & Sd & _)].
      - left. split; [exact K|]. rewrite B, E0. reflexivity.
      - right. split; [exact K|]. split; [rewrite B; replace (sc_expectCont c =? 0) with false by lia; congruence|].
        rewrite Sd. apply (A_ec_odd _ _ AH E0). }
    destruct (sf_sid fr =? 0) eqn:Z; cbn [negb] in E.
    - (* stream 0 *)
      apply N.eqb_eq in Z.
      destruct BK as [[K BN]|[K [BS O]]]; [|rewrite Z in O; discriminate].
      assert (V : RS.verdicts s (RS.Frame (abs_frame fr)) = RS.on_connection (abs_frame fr)) by (apply verdicts_conn; assumption).
      assert (EC0 : sc_expectCont c = 0 /\ ec' = 0).
      { destruct SQ as [(E0 & _ & ->)|(E0 & K' & _)]; [|congruence]. split; [exact E0|].
        destruct (_ && _)%bool; [exact Z | reflexivity]. }
      destruct EC0 as [EC0 EC0']. assert (C1c : c1 = c) by (unfold c1; rewrite EC0'; apply upd_expectCont_id, EC0).
      destruct (sf_kind fr) eqn:KK; try congruence;
        try (left; apply (EXIT c1); try assumption; try reflexivity; try exact E;
             left; apply allowed_table; cbn [abs_input]; rewrite V; unfold RS.on_connection, abs_frame; cbn [RS.f_kind]; rewrite KK; reflexivity).
      + (* SETTINGS *)
        destruct (flag_has (sf_flags fr) FL_ES) eqn:ACK; cbn [negb] in E.
        * left. rewrite C1c in E.
          assert (F : feed c (IIn (RFrame fr)) = c) by (unfold feed; rewrite step_EvRL, Hrl, E; apply sl_after_stay; assumption).
          apply (G_rl_static c s ph fr c []); rewrite ?F; auto using static_refl; try reflexivity;
            try (rewrite KK; auto); try (intros sid rq []).
        * right. exists ec'. split; [exact SQ|]. split; [apply FW, E|]. right. split; [exact Z|]. left. split; [exact KK | exact ACK].
      + (* PING *)
        left. rewrite C1c in E.
        destruct (flag_has (sf_flags fr) FL_ES) eqn:ACK; cbn [negb] in E.
        * assert (F : feed c (IIn (RFrame fr)) = c) by (unfold feed; rewrite step_EvRL, Hrl, E; apply sl_after_stay; assumption).
          apply (G_rl_static c s ph fr c []); rewrite ?F; auto using static_refl; try reflexivity;
            try (rewrite KK; auto); try (intros sid rq []).
        * rewrite (emit_wr hstate c _ (conj Hsl Hwl)) in E.
          assert (F : feed c (IIn (RFrame fr)) = note c (OPingAck (sf_payload fr))).
          { unfold feed. rewrite step_EvRL, Hrl, E. apply sl_after_stay; assumption. }
          apply (G_rl_static c s ph fr (note c (OPingAck (sf_payload fr))) [OPingAck (sf_payload fr)]); rewrite ?F; auto;
            try reflexivity; try (rewrite KK; auto).
          -- repeat split.
          -- intros sid rq [H|[]]; discriminate.
      + (* GOAWAY from the peer: the read loop ends *)
        left. rewrite C1c in E.
        assert (F : feed c (IIn (RFrame fr)) = note (upd_done (rl_exit c (if sf_code fr =? c_NoError then 0 else 4)) true true) (OExit 1 1)).
        { eapply feed_rl_exit; eauto. }
        apply (G_rl_close c s ph (RFrame fr) _ F). left. apply allowed_table. cbn [abs_input]. rewrite V.
        unfold RS.on_connection, abs_frame. cbn [RS.f_kind]. rewrite KK. reflexivity.
      + (* WINDOW_UPDATE *)
        destruct (sf_inc fr =? 0) eqn:I0.
        * left. apply (EXIT c1); try assumption; try reflexivity; try exact E.
          left. apply allowed_table. cbn [abs_input]. rewrite V. unfold RS.on_connection, abs_frame. cbn [RS.f_kind RS.f_inc]. rewrite KK, I0. reflexivity.
        * right. exists ec'. split; [exact SQ|]. split; [apply FW, E|]. right. split; [exact Z|]. right. split; [exact KK | lia].
    - (* a stream *)
      assert (Zn : sf_sid fr <> 0) by lia.
      unfold check_frame_with_stream in E.
      destruct (N.land (sf_sid fr) 1 =? 0) eqn:EV.
      + (* even id *)
        assert (Ev : N.even (sf_sid fr) = true) by (rewrite <- land1_even; exact EV).
        left. apply (EXIT c1); try assumption; try reflexivity; try exact E.
        destruct BK as [[K BN]|[K [BS O]]]; [|rewrite <- N.negb_odd, O in Ev; discriminate].
        destruct (sf_kind fr) eqn:KK; try congruence;
          try (left; apply allowed_table; cbn [abs_input]; rewrite verdicts_stream_bad by (try assumption; rewrite KK; exact I); reflexivity);
          try (left; apply allowed_table; cbn [abs_input]; rewrite verdicts_stream by (try assumption; rewrite KK; exact I);
               unfold RS.on_stream, RS.by_state, abs_frame; cbn [RS.f_kind RS.f_sid]; rewrite (st_of_even s _ Ev), KK, ?Ev; reflexivity).
        right. unfold known_deviation. rewrite KK, Ev. replace (sf_sid fr =? 0) with false by lia. reflexivity.
      + assert (Od : N.odd (sf_sid fr) = true) by (rewrite <- N.negb_even, <- land1_even, EV; reflexivity).
        destruct BK as [[K BN]|[K [BS O]]].
        * revert E. destruct (sf_kind fr) eqn:KK; intro E; try congruence;
            try (right; exists ec'; split; [exact SQ|]; split; [apply FW, E|]; left; split; [exact Od | rewrite KK; exact I]);
            (left; apply (EXIT c1); try assumption; try reflexivity; try exact E;
             left; apply allowed_table; cbn [abs_input]; rewrite verdicts_stream_bad by (try assumption; rewrite KK; exact I); reflexivity).
        * rewrite K in E. right. exists ec'. split; [exact SQ|]. split; [apply FW, E|]. left. split; [exact Od|]. rewrite K. exact I. }
  destruct (sc_expectCont c =? 0) eqn:E0.
  - apply N.eqb_eq in E0. destruct (fkind_eqb (sf_kind fr) KCont) eqn:KC.
    + left. apply (EXIT c); try assumption; try reflexivity.
      * unfold rl_step. rewrite E0. cbn [N.eqb negb]. rewrite KC. reflexivity.
      * left. apply allowed_table. cbn [abs_input]. rewrite verdicts_cont_noblock; [reflexivity | rewrite B, ?E0; reflexivity | apply fkind_eqb_eq, KC].
    + eapply REST. left. split; [exact E0|]. split; [apply fkind_eqb_neq, KC | reflexivity].
  - apply N.eqb_neq in E0. destruct (negb (fkind_eqb (sf_kind fr) KCont) || negb (sf_sid fr =? sc_expectCont c))%bool eqn:X.
    + left. apply (EXIT c); try assumption; try reflexivity.
      * unfold rl_step. replace (sc_expectCont c =? 0) with false by lia. cbn [negb]. rewrite X. reflexivity.
      * left. apply allowed_table. cbn [abs_input]. rewrite (verdicts_block_other s fr (sc_expectCont c)); [reflexivity | |].
        -- rewrite B. try replace (sc_expectCont c =? 0) with false by lia. reflexivity.
        -- apply orb_true_iff in X. destruct X as [X|X]; [left | right].
           ++ apply fkind_eqb_neq. destruct (fkind_eqb _ _); [discriminate | reflexivity].
           ++ destruct (sf_sid fr =? sc_expectCont c) eqn:Y; [discriminate | lia].
    + apply orb_false_iff in X. destruct X as [X1 X2].
      eapply REST. right. split; [exact E0|]. split; [apply fkind_eqb_eq; destruct (fkind_eqb _ _); [reflexivity | discriminate]|].
      split; [destruct (sf_sid fr =? sc_expectCont c) eqn:Y; [lia | discriminate] | reflexivity].
Qed.

End Rl.
