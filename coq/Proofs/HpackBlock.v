(* C03: the header-block loop. Progress of nextField, the loop with its fuel normalised
   ([frameN]), the specification's parse-then-interpret as one interleaved pass ([GN]), and the
   simulation between the two: dec_refines_spec, table_ok_preserved, history, output bounds. *)
From Coq Require Import List NArith ZArith Bool Lia.
From H2V Require Import Base.Bytes Base.MachineInt Base.Result Gen.GenConsts Gen.GenStatic
     Impl.Huffman Impl.Hpack Spec.Rfc7541Huffman Spec.Rfc7541
     Proofs.HpackDefs Proofs.HpackBytes Proofs.HpackStatic Proofs.HpackInt Proofs.HpackStr
     Proofs.HpackTable Proofs.HpackNext Proofs.HpackStruct Proofs.HpackField.
Import ListNotations.
Local Open Scope N_scope.
Local Opaque huffman_root.

Arguments N.land : simpl never.
Arguments N.pow : simpl never.

(* nextField: what an Ok result looks like (any input) *)
Theorem next_field_ok hp hf bs fp b rest d :
  nf_res (next_field hp hf bs fp b) = Ok (rest, d) ->
  exists pre, b = pre ++ rest /\ (b <> [] -> pre <> []) /\ (d = false -> rest = []).
Proof.
  destruct (next_field_view hp hf bs fp b)
    as [ns _|ns e _|ns pre c r f rest' st _ _ Hb _ Hc|ns pre c r e o _ _ _ _ Hr _|ns c r w o _ _ Hr _];
    cbn [nf_res]; try rewrite Hr; try discriminate; intros H; injection H as <- <-.
  - exists b. rewrite app_nil_r. auto.
  - destruct (one_core_ok _ _ _ _ _ Hc) as [pre' [Hb' [Hne' _]]].
    exists (pre ++ pre'). split; [rewrite <- app_assoc, <- Hb'; exact Hb|]. split; [|discriminate].
    intros _. destruct pre'; [congruence|]. destruct pre; discriminate.
Qed.

Theorem next_field_progress hp hf bs fp b rest d : b <> [] ->
  nf_res (next_field hp hf bs fp b) = Ok (rest, d) ->
  (length rest < length b)%nat /\ exists consumed, b = consumed ++ rest.
Proof.
  intros Hb H. destruct (next_field_ok _ _ _ _ _ _ _ H) as [pre [Hp [Hne _]]].
  split; [|exists pre; exact Hp]. specialize (Hne Hb). rewrite Hp, app_length.
  destruct pre; [congruence | cbn [length]; lia].
Qed.

(* the loop of handleHeaderFrame with its fuel normalised *)
Lemma frame_loop_S f hp hf eh k c r :
  frame_loop (S f) hp hf eh k (c :: r) =
  let o := next_field hp hf true k (c :: r) in
  match nf_res o with
  | Panic w => Panic w
  | Ok (_, false) => Ok ([], nf_hp o, mkS [] k)
  | Err e =>
      if (e =? E_unexpected_size) && (0 <? len (c :: r)) && negb eh
      then Ok ([], nf_hp o, mkS (c :: r) k)
      else Err E_compression
  | Ok (rest, true) =>
      match frame_loop f (nf_hp o) (nf_hf o) eh (k + 1) rest with
      | Ok (fs, hp', st) => Ok (nf_hf o :: fs, hp', st)
      | Err e => Err e
      | Panic w => Panic w
      end
  end.
Proof. reflexivity. Qed.

Lemma frame_loop_nil f hp hf eh k : frame_loop f hp hf eh k [] = Ok ([], hp, mkS [] k).
Proof. destruct f; reflexivity. Qed.

Lemma frame_loop_fuel : forall f1 f2 hp hf eh k b, (length b <= f1)%nat -> (length b <= f2)%nat ->
  frame_loop f1 hp hf eh k b = frame_loop f2 hp hf eh k b.
Proof.
  induction f1 as [|f1 IH]; intros f2 hp hf eh k b H1 H2.
  - destruct b; [rewrite !frame_loop_nil; reflexivity | cbn [length] in H1; lia].
  - destruct b as [|c r]; [rewrite !frame_loop_nil; reflexivity|].
    destruct f2 as [|f2]; [cbn [length] in H2; lia|].
    rewrite !frame_loop_S. cbv zeta.
    destruct (nf_res (next_field hp hf true k (c :: r))) as [[rest [|]]|e|w] eqn:E; try reflexivity.
    apply next_field_progress in E; [|discriminate]. destruct E as [E _]. cbn [length] in *.
    rewrite (IH f2) by lia. reflexivity.
Qed.

Definition frameN (hp : hpack_state) (hf : field) (eh : bool) (k : N) (b : bytes)
  : result (list field * hpack_state * strm_state) :=
  frame_loop (length b) hp hf eh k b.

Lemma frameN_nil hp hf eh k : frameN hp hf eh k [] = Ok ([], hp, mkS [] k).
Proof. reflexivity. Qed.

Lemma frameN_cons hp hf eh k c r :
  frameN hp hf eh k (c :: r) =
  let o := next_field hp hf true k (c :: r) in
  match nf_res o with
  | Panic w => Panic w
  | Ok (_, false) => Ok ([], nf_hp o, mkS [] k)
  | Err e =>
      if (e =? E_unexpected_size) && (0 <? len (c :: r)) && negb eh
      then Ok ([], nf_hp o, mkS (c :: r) k)
      else Err E_compression
  | Ok (rest, true) =>
      match frameN (nf_hp o) (nf_hf o) eh (k + 1) rest with
      | Ok (fs, hp', st) => Ok (nf_hf o :: fs, hp', st)
      | Err e => Err e
      | Panic w => Panic w
      end
  end.
Proof.
  unfold frameN. cbn [length]. rewrite frame_loop_S. cbv zeta.
  destruct (nf_res (next_field hp hf true k (c :: r))) as [[rest [|]]|e|w] eqn:E; try reflexivity.
  apply next_field_progress in E; [|discriminate]. destruct E as [E _]. cbn [length] in E.
  rewrite (frame_loop_fuel (length r) (length rest)) by lia. reflexivity.
Qed.

Lemma frame_loop_frameN f hp hf eh k b : (length b <= f)%nat -> frame_loop f hp hf eh k b = frameN hp hf eh k b.
Proof. intros H. unfold frameN. apply frame_loop_fuel; lia. Qed.

(* a size update at the head of the input is applied and the call goes on with the rest *)
Lemma next_field_upd hp hf k c r b1 n : is_upd c = true -> read_int 5 (c :: r) = Ok (b1, n) ->
  allowed_of true k = true -> n <= h_max_settings hp ->
  next_field hp hf true k (c :: r) = next_field (upd hp (u32 n)) (set_sens hf false) true k b1.
Proof.
  intros Hu Hr Ha Hn. rewrite !next_field_scanN, scanN_cons, Hu, Hr, Ha. cbn [negb].
  replace (h_max_settings hp <? n) with false by (symmetry; apply N.ltb_ge; exact Hn).
  rewrite upd_settings.
  destruct (scanN (h_max_settings hp) true b1) as [ns e].
  unfold nf_of_scan. cbn [fst snd]. rewrite apply_upd_cons.
  destruct e; destruct b1; reflexivity.
Qed.

Lemma frameN_upd hp hf k c r b1 n : is_upd c = true -> read_int 5 (c :: r) = Ok (b1, n) ->
  allowed_of true k = true -> n <= h_max_settings hp ->
  frameN hp hf true k (c :: r) = frameN (upd hp (u32 n)) (set_sens hf false) true k b1.
Proof.
  intros Hu Hr Ha Hn. rewrite frameN_cons. cbv zeta. rewrite (next_field_upd hp hf k c r b1 n Hu Hr Ha Hn).
  destruct b1 as [|c1 r1].
  - unfold next_field. rewrite nfl_nil. reflexivity.
  - rewrite frameN_cons. cbv zeta.
    destruct (nf_res (next_field (upd hp (u32 n)) (set_sens hf false) true k (c1 :: r1))) as [[rest [|]]|e|w];
      try reflexivity.
    cbn [negb]. rewrite !andb_false_r. reflexivity.
Qed.

(* the specification in one pass *)
Lemma parse_reprs_fuel : forall f1 f2 b, (length b <= f1)%nat -> (length b <= f2)%nat ->
  parse_reprs f1 b = parse_reprs f2 b.
Proof.
  induction f1 as [|f1 IH]; intros f2 b H1 H2.
  - destruct b; [destruct f2; reflexivity | cbn [length] in H1; lia].
  - destruct b as [|c r]; [destruct f2; reflexivity|].
    destruct f2 as [|f2]; [cbn [length] in H2; lia|].
    cbn [parse_reprs]. destruct (spec_dec_repr (c :: r)) as [[rp rest]|] eqn:E; [|reflexivity].
    apply spec_dec_repr_length in E. cbn [length] in *. rewrite (IH f2) by lia. reflexivity.
Qed.

Definition GN (t : dtable) (at_start : bool) (b : bytes) : option (list hfield * dtable) :=
  match spec_parse_block b with
  | Some rs => sem_from t at_start rs
  | None => None
  end.

Lemma spec_decode_block_GN t b : spec_decode_block t b = GN t true b.
Proof. reflexivity. Qed.

Lemma GN_nil t s : GN t s [] = Some ([], t).
Proof. reflexivity. Qed.

Lemma GN_cons t s c r :
  GN t s (c :: r) =
  match spec_dec_repr (c :: r) with
  | None => None
  | Some (rp, rest) =>
      match spec_step t s rp with
      | None => None
      | Some (None, t') => GN t' s rest
      | Some (Some fld, t') =>
          match GN t' false rest with
          | Some (fs, t'') => Some (fld :: fs, t'')
          | None => None
          end
      end
  end.
Proof.
  unfold GN, spec_parse_block. cbn [length parse_reprs].
  destruct (spec_dec_repr (c :: r)) as [[rp rest]|] eqn:E; [|reflexivity].
  apply spec_dec_repr_length in E. cbn [length] in E.
  rewrite (parse_reprs_fuel (length r) (length rest)) by lia.
  destruct (parse_reprs (length rest) rest) as [rs|].
  - cbn [sem_from]. destruct (spec_step t s rp) as [[[fld|] t']|]; reflexivity.
  - destruct (spec_step t s rp) as [[[fld|] t']|]; reflexivity.
Qed.

(* reachable states stay reachable *)
Lemma table_ok_upd hp n : table_ok hp -> n <= h_max_settings hp ->
  table_ok (upd hp n) /\ abs (upd hp n) = set_max (abs hp) n.
Proof.
  intros Hok Hn. pose proof (table_ok_fsum hp Hok) as [F1 F2].
  destruct Hok as [H1 [H2 [H3 H4]]].
  assert (Hs : fsum (h_dynamic (with_max hp n)) < 2 ^ 32) by (cbn [with_max h_dynamic]; lia).
  split.
  - unfold table_ok. rewrite table_size_abs. rewrite upd_fit by lia.
    cbn [with_dynamic with_max h_dynamic h_max h_max_settings].
    split; [apply forallb_fit; exact H1|]. split; [apply fsum_fit_le|]. split; assumption.
  - unfold upd. rewrite abs_shrink by exact Hs. reflexivity.
Qed.

Lemma table_ok_add hp f : table_ok hp -> field_ok f = true -> fsum (h_dynamic hp) + fsize f < 2 ^ 32 ->
  table_ok (add_dynamic hp f) /\ abs (add_dynamic hp f) = add_entry (abs hp) (entry_of f).
Proof.
  intros Hok Hf Hs. destruct Hok as [H1 [H2 [H3 H4]]]. split; [|apply abs_add_dynamic; exact Hs].
  unfold table_ok. rewrite table_size_abs. rewrite add_dynamic_fit by exact Hs.
  cbn [with_dynamic h_dynamic h_max h_max_settings].
  split.
  - apply forallb_fit. rewrite forallb_app, H1. cbn [forallb]. rewrite Hf. reflexivity.
  - split; [apply fsum_fit_le|]. split; assumption.
Qed.

Lemma add_dynamic_settings hp f : h_max_settings (add_dynamic hp f) = h_max_settings hp.
Proof. reflexivity. Qed.

Definition small (hp : hpack_state) (b : bytes) : Prop := 2 * len b + 2 * h_max_settings hp + 64 < 2 ^ 32.

Definition field_bound (hp : hpack_state) (b : bytes) (f : field) : Prop :=
  fsize f <= N.max (h_max_settings hp) 64 + 2 * len b.

Definition sim_result (hp : hpack_state) (hf : field) (k : N) (b : bytes) : Prop :=
  match GN (abs hp) (k =? 0) b with
  | None => exists e, frameN hp hf true k b = Err e
  | Some (fs, t') =>
      exists fl hp' st', frameN hp hf true k b = Ok (fl, hp', st') /\
        map triple_of fl = fs /\ abs hp' = t' /\ table_ok hp' /\ s_prev st' = [] /\
        h_max_settings hp' = h_max_settings hp /\ (length fl <= length b)%nat /\
        Forall (field_bound hp b) fl
  end.

Lemma field_bound_weaken hp hp' b b' fl : h_max_settings hp' = h_max_settings hp -> len b' <= len b ->
  Forall (field_bound hp' b') fl -> Forall (field_bound hp b) fl.
Proof.
  intros Hs Hl. apply Forall_impl. intros f. unfold field_bound. rewrite Hs. lia.
Qed.

Lemma next_field_scan_err hp hf k c r e :
  scanN (h_max_settings hp) (allowed_of true k) (c :: r) = ([], SErr e) ->
  frameN hp hf true k (c :: r) = Err E_compression.
Proof.
  intros Hs. rewrite frameN_cons. cbv zeta. rewrite next_field_scanN, Hs.
  unfold nf_of_scan. cbn [fst snd nf_res negb]. rewrite andb_false_r. reflexivity.
Qed.

Theorem sim : forall b hp hf k, bytes_ok b = true -> table_ok hp -> small hp b -> sim_result hp hf k b.
Proof.
  induction b as [b IH] using bytes_len_ind. intros hp hf k Hok Htab Hsm.
  unfold sim_result. destruct b as [|c r].
  - rewrite GN_nil, frameN_nil. exists [], hp, (mkS [] k).
    split; [reflexivity|]. split; [reflexivity|]. split; [reflexivity|]. split; [exact Htab|].
    split; [reflexivity|]. split; [reflexivity|]. split; [cbn; lia | constructor].
  - rewrite GN_cons. pose proof Hok as Hok'. apply bytes_ok_cons_iff in Hok'. destruct Hok' as [Hc Hr].
    pose proof (table_ok_fsum hp Htab) as [F1 F2].
    destruct (is_upd c) eqn:Eu.
    + (* a dynamic table size update *)
      destruct (upd_byte c Hc Eu) as [U1 U2].
      cbn [spec_dec_repr].
      replace (128 <=? c) with false by (symmetry; apply N.leb_gt; lia).
      replace (64 <=? c) with false by (symmetry; apply N.leb_gt; lia).
      replace (32 <=? c) with true by (symmetry; apply N.leb_le; lia).
      pose proof (read_int_spec 5 (c :: r) ltac:(lia) Hok) as HI.
      destruct (spec_dec_int 5 (c :: r)) as [[n b1]|] eqn:ES.
      2:{ destruct HI as [e HI]. exists E_compression. apply next_field_scan_err with e.
          rewrite scanN_cons, Eu, HI. reflexivity. }
      destruct HI as [HI _]. cbn [spec_step]. change (dt_limit (abs hp)) with (h_max_settings hp).
      destruct (N.eqb_spec k 0) as [Hk|Hk]; cbn [andb].
      2:{ exists E_compression. apply next_field_scan_err with E_dynamic_update.
          rewrite scanN_cons, Eu, HI. unfold allowed_of.
          replace (k =? 0) with false by (symmetry; apply N.eqb_neq; exact Hk). reflexivity. }
      destruct (N.leb_spec n (h_max_settings hp)) as [Hn|Hn].
      2:{ exists E_compression. apply next_field_scan_err with E_dynamic_update_max.
          rewrite scanN_cons, Eu, HI. unfold allowed_of. subst k. cbn [N.eqb andb negb].
          replace (h_max_settings hp <? n) with true by (symmetry; apply N.ltb_lt; exact Hn). reflexivity. }
      assert (Ha : allowed_of true k = true) by (subst k; reflexivity).
      rewrite (frameN_upd hp hf k c r b1 n Eu HI Ha Hn).
      destruct Htab as [T1 [T2 [T3 T4]]].
      rewrite u32_small by lia.
      destruct (table_ok_upd hp n (conj T1 (conj T2 (conj T3 T4))) Hn) as [Htab' Habs'].
      pose proof (read_int_ok _ _ _ _ HI) as [p0 [Hb0 [Hne0 _]]].
      assert (Hb1 : bytes_ok b1 = true) by (rewrite Hb0 in Hok; apply bytes_ok_app_iff in Hok; tauto).
      assert (Hl1 : len b1 <= len (c :: r)) by (rewrite Hb0, len_app; lia).
      pose proof (read_int_ok_length _ _ _ _ HI) as Hlen.
      assert (Hsm' : small (upd hp n) b1) by (unfold small in *; rewrite upd_settings; lia).
      pose proof (IH b1 Hlen (upd hp n) (set_sens hf false) k Hb1 Htab' Hsm') as R.
      unfold sim_result in R. rewrite Habs' in R.
      replace (k =? 0) with true in R by (symmetry; apply N.eqb_eq; exact Hk).
      destruct (GN (set_max (abs hp) n) true b1) as [[fs t']|]; [|exact R].
      destruct R as [fl [hp' [st' [R1 [R2 [R3 [R4 [R5 [R6 [R7 R8]]]]]]]]]].
      exists fl, hp', st'. split; [exact R1|]. split; [exact R2|]. split; [exact R3|]. split; [exact R4|].
      split; [exact R5|]. split; [rewrite R6; apply upd_settings|]. split; [lia|].
      eapply field_bound_weaken; [apply upd_settings | exact Hl1 | exact R8].
    + (* a header field representation *)
      pose proof (one_core_spec hp c r (k =? 0) Hok Eu Htab) as HS. cbv zeta in HS.
      assert (Hnf : next_field hp hf true k (c :: r) = one_field hp hf (c :: r)).
      { rewrite next_field_scanN, scanN_cons, Eu. reflexivity. }
      pose proof (one_field_core hp hf c r Eu) as HC. unfold nf_of_core in HC.
      assert (Herr : forall e, one_core hp (c :: r) = Err e -> frameN hp hf true k (c :: r) = Err E_compression).
      { intros e He. rewrite He in HC. destruct HC as [HC _].
        rewrite frameN_cons. cbv zeta. rewrite Hnf, HC. cbn [negb]. rewrite andb_false_r. reflexivity. }
      destruct (spec_dec_repr (c :: r)) as [[rp rest]|].
      2:{ destruct HS as [e He]. exists E_compression. eapply Herr; exact He. }
      destruct (spec_step (abs hp) (k =? 0) rp) as [[[fld|] t']|]; [| contradiction |].
      2:{ destruct HS as [e He]. exists E_compression. eapply Herr; exact He. }
      destruct HS as [f [st [Hcore [Q1 [Q2 [Q3 [Q4 [Q5 [Q6 Q7]]]]]]]]].
      rewrite Hcore in HC.
      destruct (one_core_ok _ _ _ _ _ Hcore) as [pre [Hpre [Hpne _]]].
      assert (Hlen : (length rest < length (c :: r))%nat).
      { rewrite Hpre, app_length. destruct pre; [congruence | cbn [length]; lia]. }
      assert (Hlr : len rest <= len (c :: r)) by (unfold len; lia).
      set (hp1 := if st then add_dynamic hp f else hp) in *.
      assert (H1 : table_ok hp1 /\ abs hp1 = t' /\ h_max_settings hp1 = h_max_settings hp).
      { unfold hp1. destruct st.
        - assert (Hfo : field_ok f = true) by (unfold field_ok; rewrite Q4, Q5, (Q3 eq_refl); reflexivity).
          assert (Hs : fsum (h_dynamic hp) + fsize f < 2 ^ 32).
          { destruct Htab as [_ [_ [T3 _]]]. unfold small in Hsm. lia. }
          destruct (table_ok_add hp f Htab Hfo Hs) as [A1 A2]. rewrite Q2. auto.
        - rewrite Q2. auto. }
      destruct H1 as [Htab1 [Habs1 Hset1]].
      assert (Hsm1 : small hp1 rest) by (unfold small in *; rewrite Hset1; lia).
      pose proof (IH rest Hlen hp1 f (k + 1) Q6 Htab1 Hsm1) as R.
      unfold sim_result in R. rewrite Habs1 in R.
      replace (k + 1 =? 0) with false in R by (symmetry; apply N.eqb_neq; lia).
      rewrite frameN_cons. cbv zeta. rewrite Hnf, HC. cbn [nf_res nf_hp nf_hf].
      destruct (GN t' false rest) as [[fs t'']|].
      * destruct R as [fl [hp' [st' [R1 [R2 [R3 [R4 [R5 [R6 [R7 R8]]]]]]]]]].
        rewrite R1. exists (f :: fl), hp', st'. split; [reflexivity|].
        split; [cbn [map]; rewrite Q1, R2; reflexivity|].
        split; [exact R3|]. split; [exact R4|]. split; [exact R5|]. split; [rewrite R6; exact Hset1|].
        split; [cbn [length] in *; lia|].
        constructor.
        -- unfold field_bound. lia.
        -- eapply field_bound_weaken; [exact Hset1 | exact Hlr | exact R8].
      * destruct R as [e R]. rewrite R. exists e. reflexivity.
Qed.

Lemma block_decode_frameN hp b :
  block_decode hp b =
  match frameN hp empty_field true 0 b with
  | Ok (fs, hp', st') =>
      if negb (len (s_prev st') =? 0) then Err E_headers_incomplete else Ok (fs ++ [], hp')
  | Err e => Err e
  | Panic w => Panic w
  end.
Proof.
  unfold block_decode, block_decode_frames. cbn [frames_from handle_header_frame s_prev app].
  rewrite frame_loop_frameN by lia.
  destruct (frameN hp empty_field true 0 b) as [[[fs hp'] st']|e|w]; try reflexivity.
  cbn [andb]. destruct (negb (len (s_prev st') =? 0)); reflexivity.
Qed.

(* everything the block-level theorems need, in one statement *)
Theorem block_decode_sim hp b : bytes_ok b = true -> table_ok hp -> block_small hp b ->
  match spec_decode_block (abs hp) b with
  | None => exists e, block_decode hp b = Err e
  | Some (fs, t') =>
      exists fl hp', block_decode hp b = Ok (fl, hp') /\ map triple_of fl = fs /\ abs hp' = t' /\
        table_ok hp' /\ h_max_settings hp' = h_max_settings hp /\ (length fl <= length b)%nat /\
        Forall (field_bound hp b) fl
  end.
Proof.
  intros Hok Htab Hsm. pose proof (sim b hp empty_field 0 Hok Htab Hsm) as R. unfold sim_result in R.
  rewrite spec_decode_block_GN, block_decode_frameN. change (0 =? 0) with true in R.
  destruct (GN (abs hp) true b) as [[fs t']|].
  - destruct R as [fl [hp' [st' [R1 [R2 [R3 [R4 [R5 [R6 [R7 R8]]]]]]]]]].
    rewrite R1, R5, app_nil_r. exists fl, hp'. cbn [len length N.of_nat N.eqb negb]. auto 10.
  - destruct R as [e ->]. exists e. reflexivity.
Qed.

Theorem dec_refines_spec : forall st b, bytes_ok b = true -> table_ok st -> block_small st b ->
  proj (block_decode st b) = spec_decode_block (abs st) b.
Proof.
  intros st b Hok Htab Hsm. pose proof (block_decode_sim st b Hok Htab Hsm) as R.
  destruct (spec_decode_block (abs st) b) as [[fs t']|].
  - destruct R as [fl [hp' [-> [R2 [R3 _]]]]]. cbn [proj]. rewrite R2, R3. reflexivity.
  - destruct R as [e ->]. reflexivity.
Qed.

Theorem table_ok_preserved : forall st b fs st', bytes_ok b = true -> table_ok st -> block_small st b ->
  block_decode st b = Ok (fs, st') -> table_ok st'.
Proof.
  intros st b fs st' Hok Htab Hsm H. pose proof (block_decode_sim st b Hok Htab Hsm) as R.
  destruct (spec_decode_block (abs st) b) as [[fs0 t']|].
  - destruct R as [fl [hp' [R1 [_ [_ [R4 _]]]]]]. rewrite H in R1. injection R1 as <- <-. exact R4.
  - destruct R as [e R]. rewrite H in R. discriminate.
Qed.

Lemma settings_preserved st b fs st' : bytes_ok b = true -> table_ok st -> block_small st b ->
  block_decode st b = Ok (fs, st') -> h_max_settings st' = h_max_settings st.
Proof.
  intros Hok Htab Hsm H. pose proof (block_decode_sim st b Hok Htab Hsm) as R.
  destruct (spec_decode_block (abs st) b) as [[fs0 t']|].
  - destruct R as [fl [hp' [R1 [_ [_ [_ [R5 _]]]]]]]. rewrite H in R1. injection R1 as <- <-. exact R5.
  - destruct R as [e R]. rewrite H in R. discriminate.
Qed.

Theorem output_bounded : forall st b fs st', bytes_ok b = true -> table_ok st -> block_small st b ->
  block_decode st b = Ok (fs, st') ->
  (length fs <= length b)%nat /\
  Forall (fun f => len (f_key f) + len (f_value f) + 32 <= N.max (h_max_settings st) 64 + 2 * len b + 32) fs.
Proof.
  intros st b fs st' Hok Htab Hsm H. pose proof (block_decode_sim st b Hok Htab Hsm) as R.
  destruct (spec_decode_block (abs st) b) as [[fs0 t']|].
  - destruct R as [fl [hp' [R1 [_ [_ [_ [_ [R6 R7]]]]]]]]. rewrite H in R1. injection R1 as <- <-.
    split; [exact R6|]. eapply Forall_impl; [|exact R7]. intros f. unfold field_bound, fsize. lia.
  - destruct R as [e R]. rewrite H in R. discriminate.
Qed.

Theorem history_refines_spec : forall st bs, forallb bytes_ok bs = true -> table_ok st ->
  Forall (block_small st) bs ->
  proj_history (decode_history st bs) = spec_decode_blocks (abs st) bs.
Proof.
  intros st bs. revert st. induction bs as [|b bs IH]; intros st Hok Htab Hsm; [reflexivity|].
  cbn [forallb] in Hok. apply andb_prop in Hok. destruct Hok as [Hb Hbs].
  inversion Hsm as [|? ? Hsb Hsbs]; subst.
  cbn [decode_history spec_decode_blocks].
  pose proof (block_decode_sim st b Hb Htab Hsb) as R.
  destruct (spec_decode_block (abs st) b) as [[fs t']|].
  - destruct R as [fl [hp' [R1 [R2 [R3 [R4 [R5 _]]]]]]]. rewrite R1.
    assert (Hsm' : Forall (block_small hp') bs).
    { eapply Forall_impl; [|exact Hsbs]. intros x. unfold block_small. rewrite R5. auto. }
    specialize (IH hp' Hbs R4 Hsm'). rewrite R3 in IH. rewrite <- IH.
    destruct (decode_history hp' bs) as [[fss hp'']|e|w]; try reflexivity.
    cbn [proj_history map]. rewrite R2. reflexivity.
  - destruct R as [e ->]. reflexivity.
Qed.
