(* Proofs/SrvIsoMoves.v - C09/C01 groundwork: what every part of the stream loop that is NOT header
   decoding does to the things header decoding depends on.

   Tracked here: the HPACK decoder state (sc_dec), the discard registers (sc_discardID/Prev/Fields), the
   header-decoding view of every table stream (id, headersFinished, previousHeaderBytes, blockFields), the
   closed-stream ring, lastID/highestID, the error outputs (GOAWAY, panic), sc_closing, sc_sl_done.

   `hmv` : one primitive move; `hmvs` : sequences.  Every function of the stream loop other than
   handle_header_frame / discard_* is a sequence of moves (this file and SrvIsoSteps.v); the moves preserve
   the invariant `HInv` and the place where the carry of an unfinished header block lives (`carry_at`). *)
From H2V Require Import Base.Bytes Base.MachineInt Base.Result Gen.GenConsts Impl.ServerConn Proofs.SrvBase
  Proofs.SrvInvDecomp.
From Coq Require Import ZArith Lia ZifyN ZifyNat ZifyBool.
Local Open Scope N_scope.

Section Tbl.

Lemma iso_search_put_other l x id : id <> st_id x -> strms_search (strms_put l x) id = strms_search l id.
Proof. apply search_put_other. Qed.

Lemma iso_put_none l x : strms_search l (st_id x) = None -> strms_put l x = l.
Proof. apply put_none. Qed.

Lemma iso_search_not_in l id : ~ In id (map st_id l) -> strms_search l id = None.
Proof. apply search_notin. Qed.

Lemma iso_search_in l id s : strms_search l id = Some s -> In id (map st_id l).
Proof. intro H. apply strms_search_In in H. destruct H as [I E]. rewrite <- E. apply in_map. assumption. Qed.

Lemma iso_del_gone l id : NoDup (map st_id l) -> ~ In id (map st_id (strms_del l id)).
Proof.
  induction l as [|y t IH]; cbn [strms_del map]; [intros _ []|]. intro ND. inversion ND as [|a b NI ND']; subst.
  destruct (st_id y =? id) eqn:E.
  - replace id with (st_id y) by lia. assumption.
  - cbn [map In]. intros [H|H]; [lia | apply IH; assumption].
Qed.

End Tbl.

Definition conn_err_out (o : outev) : bool :=
  match o with OGoAway _ _ | OPanic _ _ | OLate (OGoAway _ _) => true | _ => false end.
Definition gcount (l : list outev) : nat := length (filter conn_err_out l).

Lemma gcount_app a b : gcount (a ++ b) = (gcount a + gcount b)%nat.
Proof. unfold gcount. rewrite filter_app, app_length. reflexivity. Qed.
Lemma gcount_cons o l : gcount (o :: l) = ((if conn_err_out o then 1 else 0) + gcount l)%nat.
Proof. unfold gcount. cbn [filter]. destruct (conn_err_out o); reflexivity. Qed.

(* the header-decoding view of a stream, and how a stream may evolve outside header decoding *)
Definition hv (s : stream) : N * bool * bytes * N := (st_id s, st_headersFinished s, st_prev s, st_blockFields s).

(* a stream whose header block is open may only be closed once the server has reset it (or answered it:
   impossible, see P) *)
Definition close_ok (k : bool) (x : stream) : Prop :=
  k = true -> st_headersFinished x = false -> st_weReset x = true \/ st_responded x = true.

(* what a stream has collected of its request (C01): only frames of the stream itself may change it *)
Definition rqv (s : stream) :=
  (st_pMethod s, st_pScheme s, st_pPath s, st_pAuth s, st_regularSeen s, st_contentLength s, st_hasCL s,
   st_headerListSize s, st_path s, st_req s, st_recvBody s).

Section TR.
(* the stream the step is about (the frame's stream id) *)
Variable own : N.

(* k = true: strict, the last clause is tracked as well *)
Definition tr (k : bool) (s x : stream) : Prop :=
  (st_id s <> own -> rqv x = rqv s) /\
  hv x = hv s /\
  sstate_rank (st_state s) <= sstate_rank (st_state x) /\
  (st_responded s = true -> st_responded x = true) /\
  (st_responded x = true -> st_responded s = true \/ (st_headersFinished s = true /\ 3 <= sstate_rank (st_state x))) /\
  (st_handlerRunning x = true -> st_handlerRunning s = true \/ st_responded x = true) /\
  (st_weReset s = true -> st_weReset x = true) /\
  (st_state x = SClosed -> st_state s = SClosed \/ close_ok k x).

Lemma tr_refl k s : tr k s s.
Proof. unfold tr. repeat split; auto; lia. Qed.

Lemma tr_id k s x : tr k s x -> st_id x = st_id s.
Proof. intros (_ & H & _). inversion H. reflexivity. Qed.
Lemma tr_hf k s x : tr k s x -> st_headersFinished x = st_headersFinished s.
Proof. intros (_ & H & _). inversion H. reflexivity. Qed.
Lemma tr_prev k s x : tr k s x -> st_prev x = st_prev s.
Proof. intros (_ & H & _). inversion H. reflexivity. Qed.
Lemma tr_bf k s x : tr k s x -> st_blockFields x = st_blockFields s.
Proof. intros (_ & H & _). inversion H. reflexivity. Qed.
Lemma tr_responded k s x : tr k s x -> st_responded s = true -> st_responded x = true.
Proof. unfold tr. tauto. Qed.
Lemma tr_rqv k s x : tr k s x -> st_id s <> own -> rqv x = rqv s.
Proof. unfold tr. tauto. Qed.

Lemma tr_trans k a b c : tr k a b -> tr k b c -> tr k a c.
Proof.
  intros Ta Tb. pose proof (tr_id _ _ _ Ta) as Ei. pose proof (tr_hf _ _ _ Ta) as Eh. pose proof (tr_hf _ _ _ Tb) as Eh'.
  destruct Ta as (A0 & A1 & A2 & A3 & A4 & A5 & A6 & A7). destruct Tb as (B0 & B1 & B2 & B3 & B4 & B5 & B6 & B7).
  split; [intro NO; rewrite B0, A0; [reflexivity | exact NO | rewrite Ei; exact NO]|].
  split; [exact (eq_trans B1 A1)|]. split; [exact (N.le_trans _ _ _ A2 B2)|]. split; [auto|].
  split; [|split; [|split; [auto|]]].
  - intro H. destruct (B4 H) as [H1|[H1 H2]].
    + destruct (A4 H1) as [H3|[H3 H4]]; [left; assumption | right; split; [exact H3 | exact (N.le_trans _ _ _ H4 B2)]].
    + right. split; [rewrite <- Eh; exact H1 | exact H2].
  - intro H. destruct (B5 H) as [H1|H1]; [|right; assumption].
    destruct (A5 H1) as [H2|H2]; [left; assumption | right; auto].
  - intro H. destruct (B7 H) as [H1|H1]; [|right; assumption].
    destruct (A7 H1) as [H2|H2]; [left; assumption|]. right.
    intros K Hf. rewrite Eh' in Hf. destruct (H2 K Hf) as [W|R]; [left; auto | right; auto].
Qed.

Ltac tr_tac := unfold tr, hv; cbn; repeat split; auto; try lia.

(* transformers that keep the state *)
Lemma tr_set_weReset k s : tr k s (set_weReset s). Proof. tr_tac. Qed.
Lemma tr_set_window k s w : tr k s (set_window s w). Proof. tr_tac. Qed.
Lemma tr_set_snd k s n : tr k s (set_snd s n). Proof. tr_tac. Qed.
Lemma tr_set_recv k s r q : st_id s = own -> tr k s (set_recv s r q). Proof. intro E. tr_tac; try (intro NE; congruence). Qed.
Lemma tr_done_flags k s : tr k s (set_flags s (st_responded s) false (st_abandoned s)).
Proof. tr_tac; try (intro; discriminate). Qed.
Lemma tr_respond k s r a : st_headersFinished s = true -> 3 <= sstate_rank (st_state s) -> tr k s (set_flags s true r a).
Proof. intros H1 H2. tr_tac. Qed.

(* closing *)
Lemma tr_set_state_closed k s : close_ok k s -> tr k s (set_state s SClosed).
Proof. intro OK. tr_tac. destruct (st_state s); cbn; lia. Qed.
Lemma tr_reset_closed k s : tr k s (set_state (set_weReset s) SClosed).
Proof. tr_tac; [destruct (st_state s); cbn; lia|]. intros _. right. intros _ _. left. reflexivity. Qed.
Lemma tr_set_state k s st : st <> SClosed -> sstate_rank (st_state s) <= sstate_rank st -> tr k s (set_state s st).
Proof. intros N0 H. tr_tac. intro E. congruence. Qed.
Lemma tr_handle_state k fr s : (st_state (handle_state fr s) = SClosed -> close_ok k s) -> tr k s (handle_state fr s).
Proof.
  unfold handle_state. destruct (fkind_eqb (sf_kind fr) KRst).
  - cbn [st_state set_state]. intro OK. apply tr_set_state_closed. apply OK. reflexivity.
  - intros _. destruct (st_state s) eqn:E;
    repeat match goal with |- context [if ?b then _ else _] => destruct b end;
    try apply tr_refl; apply tr_set_state; try discriminate; rewrite E; cbn; lia.
Qed.

(* the per-stream invariant; idp says which ids may be in the middle of a header block *)
Definition P (idp : N -> Prop) (s : stream) : Prop :=
  (st_headersFinished s = true -> st_prev s = []) /\
  (st_responded s = true -> st_headersFinished s = true /\ 3 <= sstate_rank (st_state s)) /\
  (st_handlerRunning s = true -> st_responded s = true) /\
  (st_headersFinished s = false -> idp (st_id s)) /\
  (st_state s = SClosed -> close_ok true s).

Lemma P_tr idp s x : P idp s -> tr true s x -> P idp x.
Proof.
  unfold P, tr, hv. intros (P1 & P2 & P3 & P4 & P5) (_ & T1 & T2 & T3 & T4 & T5 & T6 & T7). inversion T1 as [[Ti Th Tp Tb]].
  split; [|split; [|split; [|split]]].
  - rewrite Th, Tp. assumption.
  - intro H. destruct (T4 H) as [H1|[H1 H2]].
    + destruct (P2 H1) as [Hf Rk]. split; [congruence | exact (N.le_trans _ _ _ Rk T2)].
    + split; [congruence | assumption].
  - intro H. destruct (T5 H) as [H1|H1]; auto.
  - rewrite Th, Ti. assumption.
  - intro H. destruct (T7 H) as [H1|H1]; [|assumption].
    intros K Hf. rewrite Th in Hf. destruct (P5 H1 K Hf) as [W|R]; [left | right]; auto.
Qed.

Lemma Forall2_tr_refl k l : Forall2 (tr k) l l.
Proof. induction l; constructor; auto using tr_refl. Qed.

Lemma put_tr k l x s : strms_search l (st_id x) = Some s -> tr k s x -> Forall2 (tr k) l (strms_put l x).
Proof.
  induction l as [|y t IH]; cbn [strms_search strms_put]; [discriminate|].
  destruct (st_id y =? st_id x) eqn:E; intros H S.
  - inversion H; subst. constructor; [assumption | apply Forall2_tr_refl].
  - constructor; [apply tr_refl | auto].
Qed.

Lemma Forall2_tr_ids k l l' : Forall2 (tr k) l l' -> map st_id l' = map st_id l.
Proof. induction 1 as [|a b l l' H _ IH]; cbn [map]; [reflexivity|]. rewrite IH, (tr_id _ _ _ H). reflexivity. Qed.

Lemma Forall2_tr_search k l l' id : Forall2 (tr k) l l' ->
  match strms_search l id with
  | Some s => exists x, strms_search l' id = Some x /\ tr k s x
  | None => strms_search l' id = None
  end.
Proof.
  induction 1 as [|a b l l' H _ IH]; cbn [strms_search]; [reflexivity|].
  rewrite (tr_id _ _ _ H). destruct (st_id a =? id); [exists b; auto | exact IH].
Qed.

Lemma Forall2_tr_P idp l l' : Forall2 (tr true) l l' -> Forall (P idp) l -> Forall (P idp) l'.
Proof. induction 1 as [|a b l l' H _ IH]; intro F; [constructor|]. inversion F; subst. constructor; eauto using P_tr. Qed.

Lemma Forall2_tr_In k l l' x : Forall2 (tr k) l l' -> In x l' -> exists s, In s l /\ tr k s x.
Proof.
  induction 1 as [|a b l l' H _ IH]; [intros []|]. intros [->|I]; [exists a; split; [left; reflexivity | assumption]|].
  destruct (IH I) as (s & Is & T). exists s. split; [right|]; assumption.
Qed.

End TR.

Section Moves.
Variable hstate : Type.
Variable own : N.
Local Notation tr := (tr own).
Notation sconn := (sconn hstate).
Implicit Types c : sconn.

Definition oext c c' : Prop := exists new, sc_out c' = new ++ sc_out c.
Lemma oext_refl c : oext c c. Proof. exists []. reflexivity. Qed.
Lemma oext_trans a b c : oext a b -> oext b c -> oext a c.
Proof. intros [l1 E1] [l2 E2]. exists (l2 ++ l1). rewrite E2, E1, app_assoc. reflexivity. Qed.
Lemma oext_same c c' : sc_out c' = sc_out c -> oext c c'.
Proof. intro H. exists []. assumption. Qed.
Lemma oext_gcount c c' : oext c c' -> (gcount (sc_out c) <= gcount (sc_out c'))%nat.
Proof. intros [l E]. rewrite E, gcount_app. lia. Qed.
(* the parts every stream-loop move leaves alone or changes in a known way *)
Definition closing_eff c c' : Prop :=
  (sc_closing c' = sc_closing c /\ sc_closeRef c' = sc_closeRef c) \/
  (sc_closing c' = true /\ (sc_wl_dead c = false -> (gcount (sc_out c) < gcount (sc_out c'))%nat)).
Definition done_eff c c' : Prop :=
  sc_sl_done c' = sc_sl_done c \/
  (sc_sl_done c' = true /\ (sc_closing c = true \/ (sc_wl_dead c = false -> (gcount (sc_out c) < gcount (sc_out c'))%nat))).

(* what never changes in a stream-loop step: the decoder is handled apart *)
Definition base c c' : Prop :=
  oext c c' /\ sc_wl_dead c' = sc_wl_dead c /\ sc_rl_done c' = sc_rl_done c /\ sc_readerQ c' = sc_readerQ c /\
  sc_expectCont c' = sc_expectCont c /\ sc_now c' = sc_now c /\ sc_closer c' = sc_closer c.

(* same header-decoding state *)
Definition hsame c c' : Prop :=
  sc_dec c' = sc_dec c /\ sc_discardID c' = sc_discardID c /\ sc_discardPrev c' = sc_discardPrev c /\
  sc_discardFields c' = sc_discardFields c /\ sc_strms c' = sc_strms c /\ sc_ring c' = sc_ring c /\
  sc_lastID c' = sc_lastID c /\ sc_highestID c' = sc_highestID c /\ sc_sl_done c' = sc_sl_done c /\
  sc_closing c' = sc_closing c /\ sc_closeRef c' = sc_closeRef c /\ base c c'.

Lemma base_refl c : base c c.
Proof. unfold base. repeat split; auto using oext_refl. Qed.
Lemma base_trans a b c : base a b -> base b c -> base a c.
Proof.
  unfold base. intros (A1 & A2 & A3 & A4 & A5 & A6 & A7) (B1 & B2 & B3 & B4 & B5 & B6 & B7).
  repeat split; try congruence. eapply oext_trans; eassumption.
Qed.
Lemma hsame_refl c : hsame c c.
Proof. unfold hsame. repeat (split; [reflexivity|]). apply base_refl. Qed.
Lemma hsame_trans a b c : hsame a b -> hsame b c -> hsame a c.
Proof.
  unfold hsame. intros (A1 & A2 & A3 & A4 & A5 & A6 & A7 & A8 & A9 & A10 & A11 & A12)
                       (B1 & B2 & B3 & B4 & B5 & B6 & B7 & B8 & B9 & B10 & B11 & B12).
  repeat (split; [congruence|]). eapply base_trans; eassumption.
Qed.

(* strict = true: a stream whose header block is still open is only closed if the server reset it
   (then closeStream keeps the carry) or if it has been answered (impossible: see P) *)
Inductive hmv (strict : bool) : sconn -> sconn -> Prop :=
| hm_same c c' : hsame c c' -> hmv strict c c'
| hm_map c l : Forall2 (tr strict) (sc_strms c) l -> hmv strict c (upd_strms c l)
| hm_close c s x : strms_search (sc_strms c) (st_id x) = Some s -> tr strict s x -> close_ok strict x ->
    hmv strict c (close_stream c x)
| hm_mark c id w : id <= sc_highestID c -> hmv strict c (mark_closed c id w)
| hm_highest c sid : sc_highestID c < sid -> hmv strict c (upd_highestID c sid)
| hm_goaway c sid code : hmv strict c (write_goaway c sid code)
| hm_brk c : sc_closing c = true -> hmv strict c (fst (brk c))
| hm_panic c : hmv strict c (fst (brk (note c (OPanic 1 0))))
| hm_fatal c c' : sc_dec c' = sc_dec c -> base c c' -> sc_sl_done c' = true -> closing_eff c c' ->
    (sc_wl_dead c = false -> (gcount (sc_out c) < gcount (sc_out c'))%nat) -> hmv strict c c'.

Inductive hmvs (strict : bool) : sconn -> sconn -> Prop :=
| hms_nil c : hmvs strict c c
| hms_cons a b c : hmv strict a b -> hmvs strict b c -> hmvs strict a c.

Lemma hmvs_one k a b : hmv k a b -> hmvs k a b.
Proof. intro H. econstructor; [eassumption | constructor]. Qed.
Lemma hmvs_trans k a b c : hmvs k a b -> hmvs k b c -> hmvs k a c.
Proof. induction 1; intro H2; [assumption|]. econstructor; [eassumption | auto]. Qed.
Lemma hmvs_same k a b : hsame a b -> hmvs k a b.
Proof. intro H. apply hmvs_one, hm_same, H. Qed.

Lemma hmvs_ind_rel k (R : sconn -> sconn -> Prop) :
  (forall a, R a a) -> (forall a b c, R a b -> R b c -> R a c) -> (forall a b, hmv k a b -> R a b) ->
  forall a b, hmvs k a b -> R a b.
Proof. intros Hr Ht Hm a b M. induction M; eauto. Qed.

(* put = map *)
Lemma hmv_put k c s x : strms_search (sc_strms c) (st_id x) = Some s -> tr k s x -> hmv k c (put c x).
Proof. intros H T. unfold put. apply hm_map. eapply put_tr; eassumption. Qed.

Lemma base_upd_out c new : base c (upd_out c (new ++ sc_out c)).
Proof. unfold base. sc_cbn. repeat split. exists new. reflexivity. Qed.
Lemma base_emit c o : base c (emit c o).
Proof.
  rewrite emit_eq, sc_out_emit. destruct (sc_wl_dead c); [exact (base_upd_out c [])|].
  destruct (sc_sl_done c); [exact (base_upd_out c [OLate o]) | exact (base_upd_out c [o])].
Qed.
Lemma base_note c o : base c (note c o).
Proof. exact (base_upd_out c [o]). Qed.
Lemma base_same_out c c' : sc_out c' = sc_out c -> sc_wl_dead c' = sc_wl_dead c -> sc_rl_done c' = sc_rl_done c ->
  sc_readerQ c' = sc_readerQ c -> sc_expectCont c' = sc_expectCont c -> sc_now c' = sc_now c -> sc_closer c' = sc_closer c ->
  base c c'.
Proof. intros. unfold base. repeat split; auto using oext_same. Qed.

Lemma base_close_stream c x : base c (close_stream c x).
Proof.
  unfold base. rewrite sc_wl_dead_close_stream, sc_rl_done_close_stream, sc_readerQ_close_stream, sc_expectCont_close_stream,
    sc_now_close_stream, sc_closer_close_stream. repeat split. unfold oext. rewrite sc_out_close_stream.
  destruct (st_handlerRunning x); [exists [] | exists [ORelease (st_id x) true]]; reflexivity.
Qed.
Lemma base_mark_closed c id w : base c (mark_closed c id w).
Proof.
  apply base_same_out; [apply sc_out_mark_closed | apply sc_wl_dead_mark_closed | apply sc_rl_done_mark_closed
    | apply sc_readerQ_mark_closed | apply sc_expectCont_mark_closed | apply sc_now_mark_closed | apply sc_closer_mark_closed].
Qed.
Lemma base_write_goaway c sid code : base c (write_goaway c sid code).
Proof.
  rewrite write_goaway_eq. eapply base_trans; [|apply base_emit]. apply base_same_out; reflexivity.
Qed.
Lemma base_brk c : base c (fst (brk c)).
Proof. unfold brk. cbn [fst]. eapply base_trans; [|apply base_note]. apply base_same_out; reflexivity. Qed.

Lemma hmv_base k a b : hmv k a b -> base a b.
Proof.
  intros []; auto.
  - unfold hsame in *. tauto.
  - apply base_same_out; reflexivity.
  - apply base_close_stream.
  - apply base_mark_closed.
  - apply base_same_out; reflexivity.
  - apply base_write_goaway.
  - apply base_brk.
  - eapply base_trans; [apply base_note | apply base_brk].
Qed.

Lemma hmv_dec k a b : hmv k a b -> sc_dec b = sc_dec a.
Proof.
  intros [c c' S|c l _|c s x _ _ _|c id w _|c sid _|c sid code|c _|c|c c' D _ _ _ _].
  - apply S.
  - reflexivity.
  - apply sc_dec_close_stream.
  - apply sc_dec_mark_closed.
  - reflexivity.
  - apply sc_dec_write_goaway.
  - reflexivity.
  - reflexivity.
  - exact D.
Qed.
Lemma hmvs_dec k a b : hmvs k a b -> sc_dec b = sc_dec a.
Proof. apply (hmvs_ind_rel k (fun a b => sc_dec b = sc_dec a)); eauto using hmv_dec. intros; congruence. Qed.

Lemma gcount_write_goaway c sid code : sc_wl_dead c = false ->
  (gcount (sc_out c) < gcount (sc_out (write_goaway c sid code)))%nat.
Proof.
  intro H. rewrite sc_out_write_goaway, H. destruct (sc_sl_done c); rewrite gcount_cons; cbn [conn_err_out]; lia.
Qed.

Lemma closing_eff_refl c : closing_eff c c.
Proof. left. auto. Qed.
Lemma closing_eff_trans a b c : base a b -> base b c -> closing_eff a b -> closing_eff b c -> closing_eff a c.
Proof.
  intros B1 B2 [[E1 F1]|[E1 G1]] [[E2 F2]|[E2 G2]].
  - left. split; congruence.
  - right. split; [assumption|]. intro W. destruct B1 as (O1 & W1 & _). apply oext_gcount in O1.
    rewrite W1 in G2. specialize (G2 W). lia.
  - right. split; [congruence|]. intro W. destruct B2 as (O2 & _). apply oext_gcount in O2. specialize (G1 W). lia.
  - right. split; [assumption|]. intro W. destruct B2 as (O2 & _). apply oext_gcount in O2. specialize (G1 W). lia.
Qed.

Lemma hmv_closing k a b : hmv k a b -> closing_eff a b.
Proof.
  intros []; auto.
  - left. unfold hsame in *. tauto.
  - left. split; reflexivity.
  - left. split; [apply sc_closing_close_stream | apply sc_closeRef_close_stream].
  - left. split; [apply sc_closing_mark_closed | apply sc_closeRef_mark_closed].
  - left. split; reflexivity.
  - right. split; [apply sc_closing_write_goaway | apply gcount_write_goaway].
  - left. split; reflexivity.
  - left. split; reflexivity.
Qed.

Lemma hmv_done k a b : hmv k a b -> done_eff a b.
Proof.
  intros [c c' S|c l _|c s x _ _ _|c id w _|c sid _|c sid code|c Hc|c|c c' _ _ D _ G].
  - left. apply S.
  - left. reflexivity.
  - left. apply sc_sl_done_close_stream.
  - left. apply sc_sl_done_mark_closed.
  - left. reflexivity.
  - left. apply sc_sl_done_write_goaway.
  - right. split; [reflexivity | left; exact Hc].
  - right. split; [reflexivity | right]. intros _. unfold brk, note. sc_cbn. rewrite !gcount_cons. cbn [conn_err_out]. lia.
  - right. split; [exact D | right; exact G].
Qed.

(* the effect of a whole stream-loop step on everything outside header decoding *)
Definition eff c c' : Prop := base c c' /\ closing_eff c c' /\ done_eff c c'.

Lemma eff_refl c : eff c c.
Proof. split; [apply base_refl|]. split; [apply closing_eff_refl | left; reflexivity]. Qed.

(* closing, once set, stays; so "was closing at some point of the step" is "is closing or a GOAWAY went out" *)
Lemma eff_trans a b c : eff a b -> eff b c -> eff a c.
Proof.
  intros (B1 & C1 & D1) (B2 & C2 & D2).
  split; [eapply base_trans; eassumption|]. split; [eapply closing_eff_trans; eassumption|].
  pose proof B1 as (O1 & W1 & _). pose proof B2 as (O2 & _). apply oext_gcount in O1. apply oext_gcount in O2.
  unfold done_eff in *.
  destruct D1 as [E1|[E1 G1]]; destruct D2 as [E2|[E2 G2]].
  - left. congruence.
  - right. split; [assumption|]. destruct G2 as [G2|G2].
    + destruct C1 as [[C1 _]|[_ C1]]; [left; congruence|]. right. intro W. specialize (C1 W). lia.
    + right. intro W. rewrite W1 in G2. specialize (G2 W). lia.
  - right. split; [congruence|]. destruct G1 as [G1|G1]; [left; assumption|]. right. intro W. specialize (G1 W). lia.
  - right. split; [assumption|]. destruct G1 as [G1|G1]; [left; assumption|]. right. intro W. specialize (G1 W). lia.
Qed.

Lemma hmv_eff k a b : hmv k a b -> eff a b.
Proof. intro M. split; [eapply hmv_base; exact M|]. split; [eapply hmv_closing; exact M | eapply hmv_done; exact M]. Qed.

Lemma hmvs_eff k a b : hmvs k a b -> eff a b.
Proof. apply hmvs_ind_rel; eauto using eff_refl, eff_trans, hmv_eff. Qed.

Lemma hmvs_base k a b : hmvs k a b -> base a b.
Proof. intro M. apply (hmvs_eff _ _ _ M). Qed.

Lemma hmvs_closing k a b : hmvs k a b -> closing_eff a b.
Proof. intro M. apply (hmvs_eff _ _ _ M). Qed.

Lemma hmvs_done k a b : hmvs k a b ->
  sc_sl_done b = sc_sl_done a \/
  (sc_sl_done b = true /\ (sc_closing a = true \/ (sc_wl_dead a = false -> (gcount (sc_out a) < gcount (sc_out b))%nat))).
Proof. intro M. apply (hmvs_eff _ _ _ M). Qed.

(* nothing but the decoder, the discard registers and the table changed *)
Lemma eff_quiet c c' : sc_out c' = sc_out c -> sc_wl_dead c' = sc_wl_dead c -> sc_rl_done c' = sc_rl_done c ->
  sc_readerQ c' = sc_readerQ c -> sc_expectCont c' = sc_expectCont c -> sc_now c' = sc_now c -> sc_closer c' = sc_closer c ->
  sc_closing c' = sc_closing c -> sc_closeRef c' = sc_closeRef c -> sc_sl_done c' = sc_sl_done c -> eff c c'.
Proof.
  intros. split; [apply base_same_out; assumption|]. split; [left; split; assumption | left; assumption].
Qed.

(* without an error output: nothing happened to sc_closing, and the loop only ends if the connection was closing *)
Lemma eff_clean c c' : eff c c' -> sc_wl_dead c = false -> (gcount (sc_out c') <= gcount (sc_out c))%nat ->
  sc_closing c' = sc_closing c /\ sc_closeRef c' = sc_closeRef c /\
  (sc_sl_done c' = sc_sl_done c \/ (sc_sl_done c' = true /\ sc_closing c = true)).
Proof.
  intros (B & C & D) W G. destruct C as [[C1 C2]|[_ C]]; [|specialize (C W); lia].
  split; [assumption|]. split; [assumption|].
  destruct D as [D|[D1 [D2|D2]]]; [left; assumption | right; auto | specialize (D2 W); lia].
Qed.

(* the stream loop, once ended, stays ended *)
Lemma eff_sl_done_mono a b : eff a b -> sc_sl_done a = true -> sc_sl_done b = true.
Proof. intros (_ & _ & [E|[E _]]) Hd; [rewrite E|]; assumption. Qed.
Lemma hmvs_sl_done_mono k a b : hmvs k a b -> sc_sl_done a = true -> sc_sl_done b = true.
Proof. intro M. apply eff_sl_done_mono, (hmvs_eff _ _ _ M). Qed.

(* so a relation that composes holds of a sequence with a live end as soon as it holds of every move with a
   live end *)
Lemma hmvs_live_ind k (R : sconn -> sconn -> Prop) :
  (forall a, R a a) -> (forall a b c, R a b -> R b c -> R a c) ->
  (forall a b, hmv k a b -> sc_sl_done b = false -> R a b) ->
  forall a b, hmvs k a b -> sc_sl_done b = false -> R a b.
Proof.
  intros Hr Ht Hm a b M. induction M as [|a b c M MS IH]; intro Hd; [apply Hr|].
  apply (Ht a b c); [apply Hm; [exact M|] | apply IH; exact Hd].
  destruct (sc_sl_done b) eqn:E; [|reflexivity]. rewrite (hmvs_sl_done_mono _ _ _ MS E) in Hd. discriminate Hd.
Qed.

Definition carry_at c (id : N) : option (N * bytes) :=
  if sc_discardID c =? id then Some (sc_discardFields c, sc_discardPrev c)
  else match strms_search (sc_strms c) id with
       | Some s => if st_headersFinished s then None else Some (st_blockFields s, st_prev s)
       | None => None
       end.

Lemma carry_at_ext c c' id : sc_discardID c' = sc_discardID c -> sc_discardPrev c' = sc_discardPrev c ->
  sc_discardFields c' = sc_discardFields c -> sc_strms c' = sc_strms c -> carry_at c' id = carry_at c id.
Proof. intros E1 E2 E3 E4. unfold carry_at. rewrite E1, E2, E3, E4. reflexivity. Qed.

Record HInv (idp : N -> Prop) c : Prop := mkHInv {
  hi_nodup : NoDup (map st_id (sc_strms c));
  hi_P : Forall (P idp) (sc_strms c);
  hi_ids : forall s, In s (sc_strms c) -> st_id s <= sc_lastID c /\ st_id s <> 0;
  hi_last : sc_lastID c <= sc_highestID c;
  hi_disc : sc_discardID c <> 0 -> ~ In (sc_discardID c) (map st_id (sc_strms c)) /\ sc_discardID c <= sc_highestID c;
  hi_ring : forall e, In e (sc_ring c) -> fst e <= sc_highestID c
}.

Lemma HInv_ext idp c c' : sc_strms c' = sc_strms c -> sc_lastID c' = sc_lastID c -> sc_highestID c' = sc_highestID c ->
  sc_discardID c' = sc_discardID c -> sc_ring c' = sc_ring c -> HInv idp c -> HInv idp c'.
Proof. intros E1 E2 E3 E4 E5 []. constructor; rewrite ?E1, ?E2, ?E3, ?E4, ?E5; assumption. Qed.

Lemma mark_closed_ring_In c id w e : In e (sc_ring (mark_closed c id w)) -> e = (id, w) \/ In e (sc_ring c).
Proof.
  unfold mark_closed. destruct (in_ring c id); [auto|]. destruct (_ <? _); sc_cbn.
  - intro H. apply in_app_or in H. destruct H as [H|[H|[]]]; auto.
  - apply set_nth_N_In.
Qed.

Lemma close_discard_regs c x :
  (sc_discardID (close_discard _ c x), sc_discardPrev (close_discard _ c x), sc_discardFields (close_discard _ c x)) =
  if st_weReset x && negb (st_headersFinished x) && negb (sc_discardID c =? st_id x)
  then (st_id x, st_prev x, st_blockFields x) else (sc_discardID c, sc_discardPrev c, sc_discardFields c).
Proof. unfold close_discard. destruct (_ && _ && _)%bool; reflexivity. Qed.

Lemma close_stream_discard c x :
  (sc_discardID (close_stream c x), sc_discardPrev (close_stream c x), sc_discardFields (close_stream c x)) =
  if st_weReset x && negb (st_headersFinished x) && negb (sc_discardID c =? st_id x)
  then (st_id x, st_prev x, st_blockFields x) else (sc_discardID c, sc_discardPrev c, sc_discardFields c).
Proof.
  rewrite close_stream_eq. cbv zeta.
  destruct (st_handlerRunning x);
    [sc_cbn | rewrite sc_discardID_release_stream, sc_discardPrev_release_stream, sc_discardFields_release_stream];
    rewrite close_discard_regs; sc_cbn;
    rewrite sc_discardID_mark_closed, sc_discardPrev_mark_closed, sc_discardFields_mark_closed; reflexivity.
Qed.

(* closing a stream of the table; the discard registers may already be the stream's own *)
Lemma HInv_close_stream idp c x s :
  strms_search (sc_strms c) (st_id x) = Some s -> NoDup (map st_id (sc_strms c)) ->
  Forall (P idp) (strms_del (sc_strms c) (st_id x)) ->
  (forall y, In y (sc_strms c) -> st_id y <= sc_lastID c /\ st_id y <> 0) -> sc_lastID c <= sc_highestID c ->
  (sc_discardID c <> 0 -> sc_discardID c <> st_id x ->
   ~ In (sc_discardID c) (map st_id (sc_strms c)) /\ sc_discardID c <= sc_highestID c) ->
  (forall e, In e (sc_ring c) -> fst e <= sc_highestID c) ->
  HInv idp (close_stream c x).
Proof.
  intros SS ND FP IDS LAST DISC RING. pose proof (close_stream_discard c x) as CD.
  pose proof (strms_search_In _ _ _ SS) as [Is Eid].
  assert (LX : st_id x <= sc_highestID c) by (rewrite <- Eid; exact (N.le_trans _ _ _ (proj1 (IDS s Is)) LAST)).
  constructor; rewrite ?sc_strms_close_stream, ?sc_lastID_close_stream, ?sc_highestID_close_stream.
  - apply strms_del_NoDup. exact ND.
  - exact FP.
  - intros y I. apply IDS. eapply strms_del_In. exact I.
  - exact LAST.
  - destruct (st_weReset x && negb (st_headersFinished x) && negb (sc_discardID c =? st_id x))%bool;
      injection CD as E1 _ _; rewrite E1; [intros _; split; [apply iso_del_gone; exact ND | exact LX]|].
    intro N0. destruct (N.eq_dec (sc_discardID c) (st_id x)) as [E|NE].
    + rewrite E. split; [apply iso_del_gone; exact ND | exact LX].
    + destruct (DISC N0 NE) as [NI LE]. split; [|exact LE]. intro I. apply NI. eapply strms_del_ids_incl. exact I.
  - intros e I. rewrite sc_ring_close_stream in I. destruct (mark_closed_ring_In _ _ _ _ I) as [->|I']; [exact LX | auto].
Qed.

Lemma hmv_HInv idp a b : hmv true a b -> HInv idp a -> sc_sl_done b = false -> HInv idp b.
Proof.
  intros M H Hd. destruct M as [c c' S|c l F|c s x SS T W|c id w Hid|c sid Hs|c sid code|c Hc|c|c c' _ _ D _ _].
  - revert H. apply HInv_ext; apply S.
  - destruct H. constructor; sc_cbn; auto.
    + rewrite (Forall2_tr_ids _ _ _ _ F). assumption.
    + eapply Forall2_tr_P; eassumption.
    + intros y I. destruct (Forall2_tr_In _ _ _ _ _ F I) as (s & Is & Ts). rewrite (tr_id _ _ _ _ Ts). auto.
    + rewrite (Forall2_tr_ids _ _ _ _ F). assumption.
  - destruct H. eapply HInv_close_stream; eauto using strms_del_Forall.
  - destruct H.
    constructor; rewrite ?sc_strms_mark_closed, ?sc_lastID_mark_closed, ?sc_highestID_mark_closed, ?sc_discardID_mark_closed; auto.
    intros e I. destruct (mark_closed_ring_In _ _ _ _ I) as [->|I']; [assumption | auto].
  - destruct H. constructor; sc_cbn; auto; try lia.
    + intro N0. destruct (hi_disc0 N0). split; [assumption | lia].
    + intros e I. specialize (hi_ring0 e I). lia.
  - revert H. apply HInv_ext; [apply sc_strms_write_goaway | apply sc_lastID_write_goaway | apply sc_highestID_write_goaway
      | apply sc_discardID_write_goaway | apply sc_ring_write_goaway].
  - discriminate Hd.
  - discriminate Hd.
  - congruence.
Qed.

Lemma hmvs_HInv idp a b : hmvs true a b -> HInv idp a -> sc_sl_done b = false -> HInv idp b.
Proof.
  intros M H Hd. revert H. apply (hmvs_live_ind true (fun a b => HInv idp a -> HInv idp b)); auto.
  intros x y Mv Hy Hx. eapply hmv_HInv; eassumption.
Qed.

(* the carry of the block in progress stays where the next CONTINUATION will look for it *)
Lemma hmv_carry cur a b v : hmv true a b -> HInv (eq cur) a -> sc_sl_done b = false ->
  carry_at a cur = Some v -> carry_at b cur = Some v.
Proof.
  intros M H Hd. destruct M as [c c' S|c l F|c s x SS T W|c id w Hid|c sid Hs|c sid code|c Hc|c|c c' _ _ D _ _].
  - rewrite (carry_at_ext c c'); [auto | apply S..].
  - unfold carry_at. sc_cbn. destruct (sc_discardID c =? cur); [auto|].
    pose proof (Forall2_tr_search _ _ _ _ cur F) as FS. destruct (strms_search (sc_strms c) cur) as [s|]; [|discriminate].
    destruct FS as (x & -> & T). rewrite (tr_hf _ _ _ _ T), (tr_bf _ _ _ _ T), (tr_prev _ _ _ _ T). auto.
  - unfold carry_at. pose proof (close_stream_discard c x) as CD. rewrite sc_strms_close_stream.
    pose proof (strms_search_In _ _ _ SS) as [Is Eid].
    assert (Px : P (eq cur) x). { eapply P_tr; [|exact T]. destruct H. rewrite Forall_forall in hi_P0. auto. }
    destruct (sc_discardID c =? cur) eqn:Ed.
    + (* in the registers: they are not overwritten *)
      destruct (st_weReset x && negb (st_headersFinished x) && negb (sc_discardID c =? st_id x))%bool eqn:Fire.
      * exfalso. apply andb_prop in Fire. destruct Fire as [Fire F3]. apply andb_prop in Fire. destruct Fire as [_ F2].
        destruct Px as (_ & _ & _ & P4 & _). apply negb_true_iff in F2. specialize (P4 F2). lia.
      * inversion CD as [[E1 E2 E3]]. rewrite E1, E2, E3, Ed. auto.
    + destruct (strms_search (sc_strms c) cur) as [s0|] eqn:S0; [|discriminate].
      destruct (st_headersFinished s0) eqn:H0; [discriminate|]. intro V.
      destruct (N.eq_dec (st_id x) cur) as [Ex|Nx].
      * (* the stream in the middle of its block is closed: it was reset, the carry moves to the registers *)
        rewrite Ex in SS. rewrite SS in S0. inversion S0; subst s0.
        assert (Hx : st_headersFinished x = false) by (rewrite (tr_hf _ _ _ _ T); assumption).
        assert (Wx : st_weReset x = true).
        { destruct (W eq_refl Hx) as [Wx|Rx]; [assumption|]. destruct Px as (_ & P2 & _). destruct (P2 Rx). congruence. }
        rewrite Wx, Hx in CD. replace (sc_discardID c =? st_id x) with false in CD by lia. cbn [andb negb] in CD.
        inversion CD as [[E1 E2 E3]]. rewrite E1, E2, E3. replace (st_id x =? cur) with true by lia.
        rewrite (tr_bf _ _ _ _ T), (tr_prev _ _ _ _ T). assumption.
      * destruct (st_weReset x && negb (st_headersFinished x) && negb (sc_discardID c =? st_id x))%bool eqn:Fire.
        -- exfalso. apply andb_prop in Fire. destruct Fire as [Fire F3]. apply andb_prop in Fire. destruct Fire as [_ F2].
           destruct Px as (_ & _ & _ & P4 & _). apply negb_true_iff in F2. specialize (P4 F2). congruence.
        -- inversion CD as [[E1 E2 E3]]. rewrite E1, Ed. rewrite search_del_other by congruence. rewrite S0, H0. assumption.
  - rewrite (carry_at_ext c (mark_closed c id w)); [auto | apply sc_discardID_mark_closed | apply sc_discardPrev_mark_closed
      | apply sc_discardFields_mark_closed | apply sc_strms_mark_closed].
  - auto.
  - rewrite (carry_at_ext c (write_goaway c sid code)); [auto | apply sc_discardID_write_goaway | apply sc_discardPrev_write_goaway
      | apply sc_discardFields_write_goaway | apply sc_strms_write_goaway].
  - discriminate Hd.
  - discriminate Hd.
  - congruence.
Qed.

Lemma hmvs_carry cur a b v : hmvs true a b -> HInv (eq cur) a -> sc_sl_done b = false ->
  carry_at a cur = Some v -> carry_at b cur = Some v.
Proof.
  intros M H Hd V.
  apply (hmvs_live_ind true (fun a b => HInv (eq cur) a /\ carry_at a cur = Some v ->
                                        HInv (eq cur) b /\ carry_at b cur = Some v) (fun _ X => X)) with (a := a); auto.
  intros x y Mv Hy [Hx Vx]. split; [eapply hmv_HInv | eapply hmv_carry]; eassumption.
Qed.

(* C01 / C09 (c): a step about stream `own` leaves alone what the other streams have collected of their
   requests (rqv) and where they are in their header blocks (hv) *)
Definition oth c c' : Prop :=
  forall x, In x (sc_strms c') -> st_id x <> own ->
  exists s, In s (sc_strms c) /\ st_id s = st_id x /\ rqv x = rqv s /\ hv x = hv s.

Lemma oth_refl c : oth c c.
Proof. intros x Ix _. exists x. auto. Qed.
Lemma oth_trans a b c : oth a b -> oth b c -> oth a c.
Proof.
  intros H1 H2 x Ix NO. destruct (H2 x Ix NO) as (s & Is & Ei & Er & Eh).
  destruct (H1 s Is) as (s' & Is' & Ei' & Er' & Eh'); [congruence|]. exists s'. repeat split; congruence.
Qed.
Lemma oth_same_strms c c' : sc_strms c' = sc_strms c -> oth c c'.
Proof. intros E x Ix _. rewrite E in Ix. exists x. auto. Qed.
Lemma oth_put c x : st_id x = own -> oth c (put c x).
Proof.
  intros E y Iy NO. rewrite sc_strms_put in Iy. destruct (strms_put_In _ _ _ Iy) as [->|Iy']; [congruence|]. exists y. auto.
Qed.

Lemma hmv_other k a b : hmv k a b -> sc_sl_done b = false -> oth a b.
Proof.
  intros M Hd. destruct M as [c c' S|c l F|c s0 x0 SS T W|c id w Hid|c sid Hs|c sid code|c Hc|c|c c' _ _ D _ _].
  - apply oth_same_strms, S.
  - intros x Ix NO. sc_cbn_in Ix. destruct (Forall2_tr_In _ _ _ _ _ F Ix) as (s & Is & T). exists s. split; [exact Is|].
    split; [symmetry; eapply tr_id; exact T|]. split; [|destruct T as (_ & T1 & _); exact T1].
    eapply tr_rqv; [exact T|]. rewrite <- (tr_id _ _ _ _ T). exact NO.
  - intros x Ix NO. rewrite sc_strms_close_stream in Ix. exists x. split; [eapply strms_del_In; exact Ix | auto].
  - apply oth_same_strms, sc_strms_mark_closed.
  - apply oth_same_strms. reflexivity.
  - apply oth_same_strms, sc_strms_write_goaway.
  - discriminate Hd.
  - discriminate Hd.
  - congruence.
Qed.

Lemma hmvs_other k a b : hmvs k a b -> sc_sl_done b = false -> oth a b.
Proof. apply hmvs_live_ind; [apply oth_refl | apply oth_trans | apply hmv_other]. Qed.

(* the moves never add a stream to the table *)
Definition ids_in c c' : Prop := forall x, In x (sc_strms c') -> In (st_id x) (map st_id (sc_strms c)).

Lemma ids_in_same_strms c c' : sc_strms c' = sc_strms c -> ids_in c c'.
Proof. intros E x Ix. rewrite E in Ix. apply in_map. exact Ix. Qed.

Lemma hmv_ids k a b : hmv k a b -> sc_sl_done b = false -> ids_in a b.
Proof.
  intros M Hd. destruct M as [c c' S|c l F|c s0 x0 SS T W|c id w Hid|c sid Hs|c sid code|c Hc|c|c c' _ _ D _ _].
  - apply ids_in_same_strms, S.
  - intros x Ix. sc_cbn_in Ix. rewrite <- (Forall2_tr_ids _ _ _ _ F). apply in_map. exact Ix.
  - intros x Ix. rewrite sc_strms_close_stream in Ix. apply in_map. eapply strms_del_In. exact Ix.
  - apply ids_in_same_strms, sc_strms_mark_closed.
  - apply ids_in_same_strms. reflexivity.
  - apply ids_in_same_strms, sc_strms_write_goaway.
  - discriminate Hd.
  - discriminate Hd.
  - congruence.
Qed.

Lemma hmvs_ids k a b : hmvs k a b -> sc_sl_done b = false -> ids_in a b.
Proof.
  apply (hmvs_live_ind k ids_in); [intro c; apply ids_in_same_strms; reflexivity | | apply hmv_ids].
  intros c1 c2 c3 H1 H2 x Ix. specialize (H2 x Ix). apply in_map_iff in H2. destruct H2 as (y & <- & Iy). apply H1. exact Iy.
Qed.

(* sc_highestID only grows *)
Lemma hmv_highest k a b : hmv k a b -> sc_sl_done b = false -> sc_highestID a <= sc_highestID b.
Proof.
  intros M Hd. destruct M as [c c' S|c l F|c s0 x0 SS T W|c id w Hid|c sid Hs|c sid code|c Hc|c|c c' _ _ D _ _].
  - apply N.eq_le_incl. symmetry. apply S.
  - apply N.le_refl.
  - rewrite sc_highestID_close_stream. apply N.le_refl.
  - rewrite sc_highestID_mark_closed. apply N.le_refl.
  - apply N.lt_le_incl. exact Hs.
  - rewrite sc_highestID_write_goaway. apply N.le_refl.
  - discriminate Hd.
  - discriminate Hd.
  - congruence.
Qed.
Lemma hmvs_highest k a b : hmvs k a b -> sc_sl_done b = false -> sc_highestID a <= sc_highestID b.
Proof. apply (hmvs_live_ind k (fun a b => sc_highestID a <= sc_highestID b)); [intro; apply N.le_refl | intros ? ? ?; apply N.le_trans | apply hmv_highest]. Qed.

End Moves.

Arguments oext {hstate}. Arguments base {hstate}. Arguments hsame {hstate}. Arguments closing_eff {hstate}.
Arguments done_eff {hstate}. Arguments eff {hstate}. Arguments hmv {hstate}. Arguments hmvs {hstate}. Arguments carry_at {hstate}.
Arguments HInv {hstate}. Arguments oth {hstate}. Arguments ids_in {hstate}.

(* a table entry with a proper id, watched from stream 0: after any moves it has what it had collected *)
Lemma hmvs_own hstate k (a b : sconn hstate) sid s x : sid <> 0 -> NoDup (map st_id (sc_strms a)) ->
  strms_search (sc_strms a) sid = Some s -> hmvs 0 k a b -> sc_sl_done b = false ->
  In x (sc_strms b) -> st_id x = sid -> rqv x = rqv s /\ hv x = hv s.
Proof.
  intros NZ ND SS M Hd Ix Ex. assert (X0 : st_id x <> 0) by (rewrite Ex; exact NZ).
  destruct (hmvs_other _ _ _ _ _ M Hd x Ix X0) as (s' & Is' & Ei' & Er' & Eh').
  pose proof (NoDup_search _ _ ND Is') as Sv. rewrite Ei', Ex, SS in Sv. injection Sv as <-. split; assumption.
Qed.
