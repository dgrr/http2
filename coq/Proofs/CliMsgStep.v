(* Proofs/CliMsgStep.v - C02 / C20 (client): every step of the client model is a sequence of micro-moves
   (Proofs/CliMsgDisp.v), with a feed move exactly when the step takes a stream frame in (cl_taken). *)
From H2V Require Import Base.Bytes Base.MachineInt Gen.GenConsts Impl.ServerConn Impl.ClientConn
  Proofs.CliBase Proofs.CliMsgMoves Proofs.CliMsgDisp.
From Coq Require Import ZArith Lia ZifyN ZifyNat ZifyBool List.
Import ListNotations.
Local Open Scope N_scope.

Section Step.
Context {hstate : Type}.
Variable dec_field : hstate -> N -> bytes -> dec_res hstate.
Variable enc_field : hstate -> bytes -> bytes -> bool -> bytes * hstate.
Variable enc_set_max : hstate -> N -> hstate.
Variable cfg : cl_config.
Implicit Types c : cconn hstate.

Notation step := (cl_step dec_field enc_field enc_set_max cfg).
Notation mvs := (mvs dec_field enc_field enc_set_max).
Notation mv1 := (mv1 enc_field enc_set_max).

(* what the decomposition needs to know about the state (part of the invariant of Proofs/CliMsgInv.v) *)
Record Pre c : Prop := mkPre {
  p_inq : NoDup (cc_inQ c) /\ forall t, In t (cc_inQ c) -> exists x, cl_ctx_get c t = Some x /\ ct_sid x = 0;
  p_le : forall e, cc_lastErr c = Some e -> err_special e = false;
  p_outq : forallb q2 (cc_outQ c) = true;
  p_herr : forall e, cc_hdrErr c = Some e -> e = CEMalformed
}.

Lemma close_err_ok c : (forall e, cc_lastErr c = Some e -> err_special e = false) -> err_special (cl_close_err c) = false.
Proof. intro H. unfold cl_close_err. destruct (cc_lastErr c) as [e|]; [exact (H e eq_refl) | reflexivity]. Qed.

Lemma submit_mvs c tag rq q : Pre c -> mvs None c (cl_submit cfg c tag rq q).
Proof.
  intro P. unfold cl_submit. destruct (cl_ctx_get c tag) as [x0|] eqn:G; [apply ms_refl|].
  set (c1 := ccu_ctxs c (cc_ctxs c ++ [cl_new_ctx tag rq (ccf_armTimers cfg)])).
  assert (G1 : cl_ctx_get c1 tag = Some (cl_new_ctx tag rq (ccf_armTimers cfg))).
  { unfold c1. rewrite (ctx_get_addctx c tag rq _ G), N.eqb_refl. reflexivity. }
  eapply ms_step; [apply m_addctx, G|]. fold c1.
  destruct (cc_closed c1 && negb q).
  - apply mvs_q, qm_resolve. apply close_err_ok. exact (p_le _ P).
  - eapply ms_step.
    + apply (m_inq _ _ c1 tag _ G1); [reflexivity|]. intro I. destruct (p_inq _ P) as [_ H]. destruct (H tag I) as (x & Gx & _). congruence.
    + apply mvs_q, qm_ctx_upd. intro x. repeat split; auto.
Qed.

Lemma delete_pending_stuck_wl held c id :
  snd (cl_delete_pending 1 held c id) = true -> cl_wl_live (fst (cl_delete_pending 1 held c id)) = false.
Proof.
  unfold cl_delete_pending. destruct (cl_pend_get (cc_pending c) id) as [pb|]; [|discriminate].
  destruct (pb_stream pb); [|discriminate].
  destruct (cl_acquire_for held _ (pb_tag pb) id); cbn [fst snd]; try discriminate; intros _;
    unfold cl_go_stuck, cl_wl_live; cbn; rewrite andb_false_r; reflexivity.
Qed.

Lemma req_find_take_req_count c id : cl_req_find (cc_reqQueued (cl_take_req_count c id)) id = None.
Proof.
  rewrite cc_reqQueued_cl_take_req_count. apply cl_req_find_None. intro H. apply in_map_iff in H.
  destruct H as ([i t] & E & I). apply filter_In in I. cbn [fst] in *. subst i. destruct I as [_ I]. rewrite N.eqb_refl in I. discriminate.
Qed.

Lemma req_find_qm P c c' id : qm P c c' -> cl_req_find (cc_reqQueued c) id = None -> cl_req_find (cc_reqQueued c') id = None.
Proof.
  intros Q H. apply cl_req_find_None. apply cl_req_find_None in H. intro I. apply H. apply in_map_iff in I. destruct I as (p & E & I).
  apply in_map_iff. exists p. split; [exact E|]. destruct (qm_rq _ _ _ Q) as [R _]. apply R, I.
Qed.

Lemma wl_exit_dead c le why : cl_wl_live (cl_wl_exit c le why) = false.
Proof. reflexivity. Qed.

Lemma wl_in_mvs c : Pre c -> cl_wl_live c = true -> mvs None c (cl_wl_in enc_field enc_set_max cfg c).
Proof.
  intros P L. unfold cl_wl_in. destruct (cc_inQ c) as [|tag q] eqn:EQ; [apply ms_refl|].
  destruct (p_inq _ P) as [ND HQ]. rewrite EQ in ND, HQ. inversion ND as [|? ? NI ND']; subst.
  destruct (HQ tag (or_introl eq_refl)) as (x & G & S0).
  set (c' := ccu_inQ c q).
  assert (Q0 : qm q1 c c') by (apply (qm_inQ_tail _ _ tag), EQ).
  eapply mvs_trans with (b := c'); [apply mvs_q, Q0|].
  unfold cl_write_request.
  destruct (cl_can_open_stream c') eqn:CO; cbn [negb].
  2:{ apply mvs_q, qm_resolve. reflexivity. }
  change (cl_ctx_get c' tag) with (cl_ctx_get c tag). rewrite G.
  destruct (ct_lckStuck x). { apply mvs_q2, qm_go_stuck. }
  destruct (ct_done x). { apply mvs_q2, qm_wl_after. }
  (* the request goes out *)
  set (c1 := if negb (cc_encTableSize c' =? cc_encTableSeen c')
             then ccu_enc (ccu_encTableSeen c' (cc_encTableSize c')) (enc_set_max (cc_enc c') (cc_encTableSize c')) else c').
  assert (M1 : mvs None c' c1).
  { subst c1. destruct (negb (cc_encTableSize c' =? cc_encTableSeen c')); [apply mvs_one, m_encsize | apply ms_refl]. }
  eapply mvs_trans with (b := c1); [exact M1|].
  assert (NX : cc_nextID c1 = cc_nextID c) by (subst c1; destruct (negb (cc_encTableSize c' =? cc_encTableSeen c')); reflexivity).
  assert (LE : cc_nextID c <= cl_maxStreamID).
  { unfold cl_can_open_stream in CO. apply andb_true_iff in CO. destruct CO as [CO _]. apply andb_true_iff in CO. destruct CO as [_ CO].
    change (cc_nextID c') with (cc_nextID c) in CO. lia. }
  replace (cl_maxStreamID <? cc_nextID c1) with false by lia.
  assert (G1 : cl_ctx_get c1 tag = Some x) by (subst c1; destruct (negb (cc_encTableSize c' =? cc_encTableSeen c')); exact G).
  assert (Q1 : cc_inQ c1 = q) by (subst c1; destruct (negb (cc_encTableSize c' =? cc_encTableSeen c')); reflexivity).
  assert (L1 : cl_wl_live c1 = true) by (subst c1; destruct (negb (cc_encTableSize c' =? cc_encTableSeen c')); exact L).
  assert (GA : cc_goAway c1 = false).
  { unfold cl_can_open_stream in CO. apply andb_true_iff in CO. destruct CO as [CO _]. apply andb_true_iff in CO. destruct CO as [CO _].
    apply negb_true_iff in CO. subst c1. destruct (negb (cc_encTableSize c' =? cc_encTableSeen c')); exact CO. }
  pose proof (m_open enc_field enc_set_max c1 tag x G1 S0 ltac:(rewrite Q1; exact NI) ltac:(rewrite NX; exact LE) L1) as MO.
  pose proof (fun cF => m_open_fail enc_field enc_set_max c1 tag x cF G1 S0 ltac:(rewrite Q1; exact NI) ltac:(rewrite NX; exact LE)) as MF.
  unfold reg_state in MO, MF. cbn [fst] in MF.
  destruct (cl_request_block enc_field (cc_enc (ccu_nextID c1 (u32 (cc_nextID c1 + 2)))) (ct_req x)) as [blk e'] eqn:RB.
  cbn [fst] in MF.
  match goal with |- context [cc_goAway ?c5] => change (cc_goAway c5) with (cc_goAway c1) end. rewrite GA.
  fold (rq_has_body (ct_req x)).
  match type of MO with mv1 _ (cl_note ?cc _) => set (c6 := cc) in * end.
  match goal with |- context [cl_can_write ?a] => replace a with c6 end.
  2:{ subst c6. unfold open_pending. destruct (rq_has_body (ct_req x)); [|reflexivity]. destruct (cq_body (ct_req x)); reflexivity. }
  destruct (cl_can_write c6) eqn:CW.
  - (* HEADERS written *)
    match goal with |- context [cl_note ?a ?o] => replace a with c6 by (subst c6; unfold open_pending; destruct (rq_has_body (ct_req x)); [destruct (cq_body (ct_req x))|]; reflexivity) end.
    eapply ms_step; [exact MO|].
    destruct (rq_has_body (ct_req x)); [|apply mvs_q2, qm_wl_after].
    match goal with |- context [cl_send_pending ?f ?a ?i] => pose proof (qm_send_pending f a i) as QS; destruct (cl_send_pending f a i) as [c8 r] end.
    cbn [fst] in QS. destruct r.
    + eapply mvs_trans with (b := c8); [apply mvs_q, QS | apply mvs_q2, qm_wl_after].
    + eapply mvs_trans with (b := c8); [apply mvs_q, QS|]. apply mvs_q2. eapply qm_trans; [|apply qm_wl_exit; reflexivity]; apply qm_resolve; reflexivity.
    + apply mvs_q, QS.
  - (* the HEADERS write failed: the write loop ends *)
    match goal with |- context [cl_delete_pending 1 [] ?a ?i] =>
      pose proof (qm_delete_pending 1 [] a i) as QD; pose proof (delete_pending_stuck_wl [] a i) as DS;
      assert (QA : qm q1 c6 a) by (apply qm_weaken; eapply qm_trans; [|apply qm_take_req_count]; apply qm_set_last_err; reflexivity);
      assert (RF : cl_req_find (cc_reqQueued a) i = None) by apply req_find_take_req_count;
      destruct (cl_delete_pending 1 [] a i) as [c8 stuck] end.
    cbn [fst snd] in *. change (cc_nextID (ccu_nextID c1 (u32 (cc_nextID c1 + 2)))) with (u32 (cc_nextID c1 + 2)) in *.
    assert (Q8 : qm q1 c6 c8) by (eapply qm_trans; [exact QA | apply qm_weaken, QD]).
    assert (R8 : cl_req_find (cc_reqQueued c8) (cc_nextID c1) = None) by (exact (req_find_qm _ _ _ _ QD RF)).
    destruct stuck.
    + apply mvs_one. apply MF; [exact Q8 | exact (DS eq_refl) | exact R8].
    + apply mvs_one. apply MF.
      * eapply qm_trans; [exact Q8|]. apply qm_weaken. eapply qm_trans; [|apply qm_wl_exit; reflexivity]; apply qm_resolve; reflexivity.
      * reflexivity.
      * eapply req_find_qm; [|exact R8]. eapply qm_trans; [|apply qm_wl_exit; reflexivity]; apply (qm_resolve q2); reflexivity.
Qed.


Lemma receive_mvs c tag : mvs None c (cl_receive c tag).
Proof.
  unfold cl_receive. destruct (cl_ctx_get c tag) as [x|] eqn:G; [|apply ms_refl].
  destruct (ct_returned x); [apply ms_refl|]. destruct (ct_err x) as [e|] eqn:E; [|apply ms_refl].
  assert (T : ct_tag x = tag) by (destruct (cl_ctxs_get_In _ _ _ G); assumption).
  destruct (ct_lckStuck (ctu_armed (ctu_err x None) false)).
  - apply mvs_q2. eapply qm_trans; [|apply qm_go_stuck]. apply (qm_ctx_put _ _ x); [cbn; rewrite T; exact G|].
    repeat split; auto. cbn. discriminate.
  - pose proof (m_result enc_field enc_set_max c tag x e G E) as M. cbv zeta in M.
    set (reuse := (if ct_armed x then negb (ct_fired x) else true) && ct_finished x) in M.
    change ((if ct_armed x then negb (ct_fired x) else true) && ct_finished (ctu_armed (ctu_err x None) false)) with reuse.
    destruct reuse.
    + eapply ms_step; [exact M|]. apply mvs_q2, qm_note. reflexivity.
    + apply mvs_one, M.
Qed.

Lemma add_window_live c s i : cl_rl_live (cl_add_window c s i) = cl_rl_live c.
Proof. unfold cl_add_window. destruct (s =? 0); [reflexivity|]. destruct (cl_pend_get (cc_pending c) s); reflexivity. Qed.

(* the loop body credits a WINDOW_UPDATE before dispatch: nothing dispatch looks at changes *)
Lemma winupd_frame c fr :
  let c1 := if fkind_eqb (sf_kind fr) KWinUpd then cl_add_window c (sf_sid fr) (Z.of_N (sf_inc fr)) else c in
  qm q2 c c1 /\ cc_reqQueued c1 = cc_reqQueued c /\ cc_ctxs c1 = cc_ctxs c /\ cl_rl_live c1 = cl_rl_live c /\
  cc_hdrStream c1 = cc_hdrStream c.
Proof.
  cbv zeta. destruct (fkind_eqb (sf_kind fr) KWinUpd); [|split; [apply qm_refl | repeat split]].
  split; [apply qm_add_window|]. split; [apply cc_reqQueued_cl_add_window|]. split; [apply cc_ctxs_cl_add_window|].
  split; [apply add_window_live | apply cc_hdrStream_cl_add_window].
Qed.

Lemma take_req_count_live c id : cl_rl_live (cl_take_req_count c id) = cl_rl_live c.
Proof. unfold cl_take_req_count. destruct (cl_req_find (cc_reqQueued c) id); reflexivity. Qed.

Definition hcd (k : fkind) : bool := fkind_eqb k KHeaders || fkind_eqb k KCont || fkind_eqb k KData.

Lemma disp_feed_other c0 fr ok : hcd (sf_kind fr) = false ->
  disp_feed dec_field c0 fr ok =
  (match ok with Some x => cl_ctx_put c0 (ctu_resp x (ct_resp x)) | None => c0 end,
   match ok with Some x => Some (ctu_resp x (ct_resp x)) | None => None end, false,
   if fkind_eqb (sf_kind fr) KRst then CRSStream (CEReset (sf_code fr)) else CRSNone).
Proof.
  unfold disp_feed, cl_read_stream, hcd.
  destruct (sf_kind fr); cbn [fkind_eqb orb]; try discriminate; intros _; destruct ok; try reflexivity;
    destruct (cc_hdrStream c0 =? 0); reflexivity.
Qed.

Lemma dispatch_other_quiet c fr : hcd (sf_kind fr) = false -> qm q2 c (fst (cl_dispatch dec_field c fr)).
Proof.
  intro K. rewrite cl_dispatch_eq. unfold disp_ok.
  assert (A : forall c0 ok, (match ok with Some x => exists x0, cl_ctx_get c0 (ct_tag x) = Some x0 /\ x = x0 | None => True end) ->
              qm q2 c0 (fst (let '(c2, ok2, ended, err2) := disp_feed dec_field c0 fr ok in disp_tail c2 (sf_sid fr) ok2 ended err2))).
  { intros c0 ok H. rewrite (disp_feed_other _ _ _ K).
    assert (B : qm q2 c0 (match ok with Some x => cl_ctx_put c0 (ctu_resp x (ct_resp x)) | None => c0 end)).
    { destruct ok as [x|]; [|apply qm_refl]. destruct H as (x0 & G & ->). apply (qm_ctx_put _ _ x0); [exact G | repeat split; auto]. }
    destruct (fkind_eqb (sf_kind fr) KRst); unfold disp_tail; cbn [fst].
    - destruct ok as [x|]; [|exact B]. eapply qm_trans; [exact B | apply qm_finish; reflexivity].
    - destruct ok as [x|]; exact B. }
  destruct (cl_req_find (cc_reqQueued c) (sf_sid fr)) as [tag|] eqn:F.
  - destruct (cl_acquire_for [] c tag (sf_sid fr)) eqn:AQ.
    + apply A. destruct (cl_ctx_get c tag) as [x|] eqn:G; [|exact I]. exists x. split; [|reflexivity].
      destruct (cl_ctxs_get_In _ _ _ G) as [_ E]. rewrite E. exact G.
    + eapply qm_trans; [apply qm_take_req_count | apply A; exact I].
    + apply qm_go_stuck.
    + apply qm_go_stuck.
  - apply A. exact I.
Qed.

Lemma acquire_ok c tag id : cl_acquire_for [] c tag id = CLOk -> exists x, cl_ctx_get c tag = Some x /\ ct_sid x = id /\ ct_tag x = tag.
Proof.
  unfold cl_acquire_for. destruct (cl_ctx_get c tag) as [x|] eqn:G; [|discriminate]. cbn [existsb].
  destruct (ct_lckStuck x); [discriminate|]. destruct (ct_done x || negb (ct_conn x) || negb (ct_sid x =? id)) eqn:E; [discriminate|].
  intros _. exists x. repeat split; [lia|]. destruct (cl_ctxs_get_In _ _ _ G); assumption.
Qed.

Lemma frame_in_seq_hs c c' fr : cc_hdrStream c' = cc_hdrStream c -> frame_in_seq c' fr = frame_in_seq c fr.
Proof. intro H. unfold frame_in_seq. rewrite H. reflexivity. Qed.

Lemma acquire_for_ctxs held c c' tag id : cc_ctxs c' = cc_ctxs c -> cl_acquire_for held c' tag id = cl_acquire_for held c tag id.
Proof. intro H. unfold cl_acquire_for, cl_ctx_get. rewrite H. reflexivity. Qed.


Lemma rl_dispatch_mvs c fr : cl_rl_live c = true -> sf_sid fr <> 0 -> frame_in_seq c fr = true ->
  mvs (if negb (dispatch_stuck c fr) then Some fr else None) c
      (rl_after (cl_dispatch dec_field (if fkind_eqb (sf_kind fr) KWinUpd then cl_add_window c (sf_sid fr) (Z.of_N (sf_inc fr)) else c) fr)).
Proof.
  intros L S0 FS.
  set (c1 := if fkind_eqb (sf_kind fr) KWinUpd then cl_add_window c (sf_sid fr) (Z.of_N (sf_inc fr)) else c).
  destruct (winupd_frame c fr) as (Q1 & RQ & CX & L1 & H1). fold c1 in Q1, RQ, CX, L1, H1. rewrite L in L1.
  assert (FS1 : frame_in_seq c1 fr = true) by (rewrite (frame_in_seq_hs c c1 fr H1); exact FS).
  rewrite cl_dispatch_eq. unfold disp_ok, dispatch_stuck. rewrite RQ.
  assert (FEED : forall c0 ok, qm q2 c1 c0 -> cl_rl_live c0 = true -> frame_in_seq c0 fr = true ->
            match ok with
            | Some x => cl_req_find (cc_reqQueued c0) (sf_sid fr) = Some (ct_tag x) /\ cl_ctx_get c0 (ct_tag x) = Some x /\ ct_sid x = sf_sid fr
            | None => cl_req_find (cc_reqQueued c0) (sf_sid fr) = None
            end ->
            mvs (Some fr) c (rl_after (let '(c2, ok2, ended, err2) := disp_feed dec_field c0 fr ok in disp_tail c2 (sf_sid fr) ok2 ended err2))).
  { intros c0 ok Q0 L0 F0 OK. eapply mvs_trans with (b := c0); [apply mvs_q2; eapply qm_trans; eassumption|].
    eapply ms_feed; [|apply ms_refl]. repeat split; try assumption. exists ok. split; [exact OK | reflexivity]. }
  destruct (cl_req_find (cc_reqQueued c) (sf_sid fr)) as [tag|] eqn:F.
  - rewrite (acquire_for_ctxs _ _ _ _ _ CX). destruct (cl_acquire_for [] c tag (sf_sid fr)) eqn:AQ; cbn [negb].
    + rewrite <- (acquire_for_ctxs _ _ c1 _ _ CX) in AQ. destruct (acquire_ok _ _ _ AQ) as (x & G & SX & TX). rewrite G.
      apply FEED; [apply qm_refl | exact L1 | exact FS1|]. rewrite TX, RQ. repeat split; assumption.
    + apply FEED; [apply qm_take_req_count | rewrite take_req_count_live; exact L1 | |apply req_find_take_req_count].
      rewrite (frame_in_seq_hs c1 _ fr (cc_hdrStream_cl_take_req_count _ c1 _)). exact FS1.
    + cbn [rl_after]. apply mvs_q2. eapply qm_trans; [exact Q1 | apply qm_go_stuck].
    + cbn [rl_after]. apply mvs_q2. eapply qm_trans; [exact Q1 | apply qm_go_stuck].
  - cbn [negb]. apply FEED; [apply qm_refl | exact L1 | exact FS1 | rewrite RQ; exact F].
Qed.

(* readLoop's body *)
Lemma rl_frame_mvs c fr : cl_rl_live c = true -> sf_sid fr <> 0 ->
  mvs (if frame_in_seq c fr && negb (dispatch_stuck c fr) then Some fr else None) c (cl_rl_frame dec_field c fr).
Proof.
  intros L S0. unfold cl_rl_frame.
  assert (EXIT : mvs None c (cl_rl_exit (cl_set_last_err c CEConn) 1)).
  { apply mvs_q2. eapply qm_trans; [|apply qm_rl_exit]. apply qm_set_last_err; reflexivity. }
  destruct (frame_in_seq c fr) eqn:FS.
  - pose proof (rl_dispatch_mvs c fr L S0 FS) as D. unfold frame_in_seq in FS.
    destruct (fkind_eqb (sf_kind fr) KPush); [discriminate|]. cbn [negb andb] in *.
    destruct (cc_hdrStream c =? 0); cbn [negb andb].
    + destruct (fkind_eqb (sf_kind fr) KCont); [discriminate|]. exact D.
    + destruct (fkind_eqb (sf_kind fr) KCont); [|discriminate]. cbn [andb negb orb] in *. rewrite FS. cbn [negb]. exact D.
  - cbn [andb]. unfold frame_in_seq in FS.
    destruct (fkind_eqb (sf_kind fr) KPush); [exact EXIT|]. cbn [negb andb] in *.
    destruct (cc_hdrStream c =? 0); cbn [negb andb].
    + apply negb_false_iff in FS. rewrite FS. exact EXIT.
    + destruct (fkind_eqb (sf_kind fr) KCont); cbn [negb andb orb] in *; [rewrite FS|]; exact EXIT.
Qed.

(* the GOAWAY frame goes through the loop body too, on stream 0 *)
Lemma rl_frame_zero_quiet c fr : hcd (sf_kind fr) = false -> qm q2 c (cl_rl_frame dec_field c fr).
Proof.
  intro K. unfold cl_rl_frame.
  assert (EXIT : qm q2 c (cl_rl_exit (cl_set_last_err c CEConn) 1)).
  { eapply qm_trans; [|apply qm_rl_exit]. apply qm_set_last_err; reflexivity. }
  destruct (fkind_eqb (sf_kind fr) KPush); [exact EXIT|].
  match goal with |- context [if ?b then cl_rl_exit _ _ else _] => destruct b end; [exact EXIT|].
  match goal with |- context [if ?b then cl_rl_exit _ _ else _] => destruct b end; [exact EXIT|].
  set (c1 := if fkind_eqb (sf_kind fr) KWinUpd then cl_add_window c (sf_sid fr) (Z.of_N (sf_inc fr)) else c).
  assert (Q1 : qm q2 c c1) by (subst c1; destruct (fkind_eqb (sf_kind fr) KWinUpd); [apply qm_add_window | apply qm_refl]).
  pose proof (dispatch_other_quiet c1 fr K) as D. destruct (cl_dispatch dec_field c1 fr) as [c2 r]. cbn [fst] in D.
  assert (Q2 : qm q2 c c2) by (eapply qm_trans; eassumption).
  destruct r; [exact Q2 | eapply qm_trans; [exact Q2 | apply qm_rl_exit] | exact Q2 | eapply qm_trans; [exact Q2 | apply qm_rl_panic]].
Qed.

Theorem step_mvs c e : Pre c -> mvs (cl_taken c e) c (step c e).
Proof.
  intro P. destruct e as [tag rq q|tag| | |order| | |i|tag|tag|tag| | |]; cbn [cl_step cl_taken].
  - apply submit_mvs, P.
  - apply mvs_q2, qm_submit_check. exact (p_le _ P).
  - destruct (cl_wl_live c) eqn:L; [apply wl_in_mvs; assumption | apply ms_refl].
  - destruct (cl_wl_live c); [apply mvs_q2, qm_wl_out; exact (p_outq _ P) | apply ms_refl].
  - destruct (cl_wl_live c); [apply mvs_q, qm_wl_win | apply ms_refl].
  - destruct (cl_wl_live c); [apply mvs_q2, qm_wl_ping | apply ms_refl].
  - destruct (cl_wl_live c); [apply mvs_q2, qm_wl_done_ev | apply ms_refl].
  - destruct (cl_rl_live c) eqn:L.
    2:{ destruct i; apply ms_refl. }
    unfold cl_rl_step. destruct (cc_netClosed c) eqn:NC.
    { destruct i; cbn [andb negb]; apply mvs_q2, qm_rl_fail. }
    destruct i as [fr| |code|]; [|apply ms_refl | apply mvs_q2, qm_rl_fail | apply mvs_q2, qm_rl_fail].
    cbn [andb negb]. destruct (sf_sid fr =? 0) eqn:Z; cbn [andb negb].
    + destruct (sf_kind fr) eqn:K; try apply ms_refl.
      * destruct (cl_settings_deserialize (flag_has (sf_flags fr) FL_ES) (sf_payload fr)); [|apply mvs_q2, qm_rl_fail].
        destruct (flag_has (sf_flags fr) FL_ES); [apply ms_refl | apply mvs_q2, qm_handle_settings].
      * destruct (flag_has (sf_flags fr) FL_ES); apply mvs_q2; [apply qm_same; reflexivity | apply qm_write_out; reflexivity].
      * pose proof (qm_goaway c (sf_dep fr)) as G. destruct (cl_goaway c (sf_dep fr)) as [c1 stuck]. cbn [fst] in G.
        destruct stuck; apply mvs_q2; [exact G|]. eapply qm_trans; [exact G|]. apply rl_frame_zero_quiet. rewrite K. reflexivity.
      * apply mvs_q2, qm_add_window.
    + apply rl_frame_mvs; [exact L | lia].
  - apply mvs_q2, qm_timeout_fire.
  - apply mvs_q2, qm_timeout_cancel.
  - apply receive_mvs.
  - apply mvs_q2, qm_close_call.
  - apply mvs_q2, qm_close_finish.
  - apply mvs_q2, qm_same. reflexivity.
Qed.

End Step.
