(* Theorems about what a client connection says first (Impl/ClientSetup.v). Closed terms: computation is a proof. *)
From Coq Require Import List NArith ZArith Bool Lia.
From H2V Require Import Base.Bytes Base.Result Gen.GenConsts Impl.Frames Impl.ClientSetup Impl.ClientConn.
Import ListNotations.
Local Open Scope Z_scope.

Definition entries (l : list (N * N)) : bytes := flat_map (fun kv => setting_entry (fst kv) (snd kv)) l.

(* SETTINGS (no flags, stream 0) carrying exactly the announced entries, then WINDOW_UPDATE(0, maxWindow - 65535) *)
Lemma handshake_frames : cli_handshake_frames =
  Ok (uint24_to_bytes (len (entries cli_announced)) ++ [4%N; 0%N; 0%N; 0%N; 0%N; 0%N] ++ entries cli_announced
      ++ [0%N; 0%N; 4%N; 8%N; 0%N; 0%N; 0%N; 0%N; 0%N] ++ uint32_to_bytes (Z.to_N (cli_max_window - 65535))).
Proof. vm_compute. reflexivity. Qed.

(* advertised = enforced: ENABLE_PUSH = 0 is announced; the announced INITIAL_WINDOW_SIZE is the window the client model
   keeps for every stream and the connection (cl_maxWindow), and 65535 + the handshake's WINDOW_UPDATE is that too *)
Lemma announced_values :
  cli_announced = [(c_EnablePush, 0%N); (c_MaxConcurrentStreams, c_defaultConcurrentStreams); (c_MaxWindowSize, Z.to_N cl_maxWindow)] /\
  65535 + (cli_max_window - 65535) = cl_maxWindow /\ 0 < cli_max_window - 65535 <= 2147483647.
Proof. vm_compute. repeat split; try reflexivity; discriminate. Qed.

(* the preface is the one RFC 7540 3.5 prescribes: "PRI * HTTP/2.0\r\n\r\nSM\r\n\r\n" *)
Lemma preface_rfc : cli_preface =
  [80; 82; 73; 32; 42; 32; 72; 84; 84; 80; 47; 50; 46; 48; 13; 10; 13; 10; 83; 77; 13; 10; 13; 10]%N.
Proof. vm_compute. reflexivity. Qed.
