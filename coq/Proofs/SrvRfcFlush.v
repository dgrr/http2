(* Proofs/SrvRfcFlush.v - C08: the steps in which the server sends on its own account (gbatch): a handler's
   response, and flushStreams after a window opens: several streams send in one step; those that finish
   are first noted (P), then closed one after the other (D) and move to the ring; the others keep their state. *)
From H2V Require Import Base.Bytes Base.MachineInt Base.Result Gen.GenConsts Impl.ServerConn.
From H2V Require Import Proofs.SrvBase Proofs.SrvRfcDefs Proofs.SrvRfcSpec Proofs.SrvRfcModel Proofs.SrvRfcSim
  Proofs.SrvRfcSend Proofs.SrvRfcStep Proofs.SrvRfcKit Proofs.SrvRfcKnown Proofs.SrvRfcBatch.
From Coq Require Import ZArith Lia ZifyN ZifyNat ZifyBool.
Local Open Scope N_scope.

Definition fin_sent (w : bool) (id : N) : RS.sent := if w then RS.SentRst id else RS.SentEndStream id.

Lemma sents_on_app id ds d : sents_on id (ds ++ d) = sents_on id d ++ sents_on id ds.
Proof. unfold sents_on. rewrite filter_app, rev_app_distr, flat_map_app, filter_app. reflexivity. Qed.

Section Flush.
Variable hstate : Type.
Notation sconn := (sconn hstate).
Notation tbl := (tbl hstate).
Notation AuxT := (AuxT hstate).
Notation Sim := (Sim hstate).
Notation live_tuple := (live_tuple hstate).
Notation view := (view hstate).
Implicit Types c : sconn.

(* where one stream id stands in the middle of such a step.  P: finished, not closed yet; D: closed *)
Definition gcase c c' (d : list outev) (D P : list (N * bool)) (id : N) : Prop :=
  match tbl c id with
  | None => tbl c' id = None /\ (ring_find c' id = ring_find c id \/ ring_find c' id = None) /\ sents_on id d = []
  | Some st =>
    (exists st', tbl c' id = Some st' /\ st_state st' = st_state st /\ st_headersFinished st' = st_headersFinished st /\
                 strm_ok st' /\ sents_on id d = [] /\ ring_find c' id = None /\ ~ In id (map fst P) /\ ~ In id (map fst D)) \/
    (exists st' w, tbl c' id = Some st' /\ In (id, w) P /\ ~ In id (map fst D) /\ st_state st = SHalfClosed /\ st_headersFinished st = true /\
                   st_weReset st' = w /\ st_headersFinished st' = true /\ st_handlerRunning st' = false /\
                   sents_on id d = [fin_sent w id] /\ ring_find c' id = None) \/
    (exists w, tbl c' id = None /\ In (id, w) D /\ st_state st = SHalfClosed /\ st_headersFinished st = true /\
               (ring_find c' id = Some w \/ ring_find c' id = None) /\ sents_on id d = [fin_sent w id])
  end.

Record gbatch c c' (d : list outev) (D P : list (N * bool)) : Prop := {
  GB_rl : sc_rl_done c' = sc_rl_done c;
  GB_wl : sc_wl_dead c' = sc_wl_dead c;
  GB_sl : sc_sl_done c' = false;
  GB_q : sc_readerQ c' = sc_readerQ c;
  GB_last : sc_lastID c' = sc_lastID c;
  GB_high : sc_highestID c' = sc_highestID c;
  GB_cl : sc_closing c' = sc_closing c;
  GB_ec : sc_expectCont c' = sc_expectCont c;
  GB_di : sc_discardID c' = sc_discardID c;
  GB_out : sc_out c' = d ++ sc_out c;
  GB_ng : forall o, In o d -> is_goaway o = None;
  GB_ne : existsb is_exit d = false;
  GB_nd : forall sid rq, ~ In (ODispatch sid rq) d;
  GB_nodup : NoDup (map st_id (sc_strms c'));
  GB_ring : ring_ok hstate c';
  GB_P : NoDup (map fst P);
  GB_Pin : forall i w, In (i, w) P -> exists st', tbl c' i = Some st';
  GB_case : forall id, gcase c c' d D P id
}.

Lemma gbatch_refl c : AuxT c -> sc_sl_done c = false -> gbatch c c [] [] [].
Proof.
  intros AT Hsl. constructor; try reflexivity; try exact Hsl;
    match goal with
    | |- forall o, In o [] -> _ => intros o []
    | |- forall sid rq, ~ In _ [] => intros sid rq []
    | |- NoDup (map st_id _) => apply (A_nodup _ _ AT)
    | |- ring_ok _ _ => apply (A_ring _ _ AT)
    | |- NoDup (map fst []) => constructor
    | |- forall i w, In (i, w) [] -> _ => intros i w []
    | |- _ => idtac
    end.
  intro id. unfold gcase. destruct (tbl c id) as [st|] eqn:T.
  + left. exists st. pose proof (search_In _ _ _ T) as HIn. pose proof (search_id _ _ _ T) as Hid.
      split; [reflexivity|]. split; [reflexivity|]. split; [reflexivity|]. split; [apply (AuxT_strm_ok hstate c st AT HIn)|].
      split; [reflexivity|]. split; [|split; intros []].
      pose proof (A_tr _ _ AT st HIn) as X. rewrite Hid, in_ring_find in X. destruct (ring_find c id); [discriminate | reflexivity].
  + auto.
Qed.

(* no stream is left between "finished" and "closed": what is known of a stream of the new table *)
Lemma gbatch_keep c c' d D st' : gbatch c c' d D [] -> In st' (sc_strms c') ->
  exists st, In st (sc_strms c) /\ st_id st' = st_id st /\ st_state st' = st_state st /\
             st_headersFinished st' = st_headersFinished st /\ strm_ok st' /\ sents_on (st_id st) d = [] /\
             in_ring c' (st_id st') = false.
Proof.
  intros GB H. pose proof (tbl_In hstate c' (GB_nodup _ _ _ _ _ GB) st' H) as T'.
  pose proof (GB_case _ _ _ _ _ GB (st_id st')) as G. unfold gcase in G.
  destruct (tbl c (st_id st')) as [st|] eqn:T; [|destruct G as (T1 & _); congruence].
  destruct G as [(s1 & T1 & A & B & C & E & F & _)|[(s1 & w & _ & [] & _)|(w & T1 & _)]]; [|congruence].
  assert (s1 = st') by congruence. subst s1. exists st. pose proof (search_In _ _ _ T) as HIn. pose proof (search_id _ _ _ T) as Hid.
  split; [exact HIn|]. split; [symmetry; exact Hid|]. split; [exact A|]. split; [exact B|]. split; [exact C|].
  split; [rewrite Hid; exact E|]. rewrite in_ring_find, F. reflexivity.
Qed.

Lemma live_tuple_gbatch c c' s ph d D : Sim c s ph -> gbatch c c' d D [] -> live_tuple c' (after_outs s d) ph.
Proof.
  intros HS GB. pose proof (S_aux _ _ _ _ HS) as [AT AH]. pose proof (S_wf _ _ _ _ HS) as W.
  pose proof (gbatch_keep c c' d D) as Bkeep. specialize (fun st' => Bkeep st' GB).
  destruct GB as [Brl Bwl Bsl Bq Blast Bhigh Bcl Bec Bdi Bout Bng Bne Bnd Bnodup Bring BP BPin Bcase].
  pose proof (tbl_In hstate c (A_nodup _ _ AT)) as TbIn0.
  split; [split|].
  - apply (AuxT_streams hstate c c' AT Brl Bwl Bq Bnodup); [rewrite Blast, Bhigh; apply (A_last _ _ AT) | exact Bring|].
    intros st' H. destruct (Bkeep st' H) as (st & Hin & Hid & _ & _ & Ok & _ & X).
    destruct (A_ids _ _ AT st Hin) as [O Le]. rewrite <- Hid in O, Le. rewrite Blast. auto.
  - destruct AH as [F1 F2 F3 F4]. constructor.
    + intros st' H Hf. destruct (Bkeep st' H) as (st & Hin & Hid & _ & Hfin & _). rewrite Hid, Bec. apply (F1 st Hin). congruence.
    + intros st' Hne H. rewrite Bec in Hne, H. pose proof (search_In _ _ _ H) as HIn'.
      destruct (Bkeep st' HIn') as (st & Hin & Hid & _ & Hfin & _). rewrite Hfin. apply (F2 st Hne).
      pose proof (search_id _ _ _ H) as X. rewrite <- X, Hid. apply TbIn0, Hin.
    + rewrite Bec. exact F3.
    + rewrite Bdi, Bhigh. intro Hne. destruct (F4 Hne) as [X Y]. split; [|exact Y].
      pose proof (Bcase (sc_discardID c)) as G. unfold gcase in G. rewrite X in G. apply G.
  - split; [|split; [|split; [|split; [|split; [|split]]]]].
    +
      intros id O. rewrite st_of_after_on by exact W. pose proof (S_str _ _ _ _ HS id O) as R.
      pose proof (Bcase id) as G. unfold gcase in G.
      destruct (tbl c id) as [st|] eqn:T.
      * unfold SrvRfcDefs.view in *. rewrite T in R. destruct G as [(st' & T' & Hst & _ & _ & Hs & _)|[(st' & w & _ & [] & _)|(w & T' & _ & Hhc & _ & Hr & Hs)]]; rewrite T', Hs; cbn [fold_left].
        -- rewrite Hst. apply rel_rel1, R.
        -- rewrite Hhc in R. cbn [rel] in R. rewrite R. unfold fin_sent.
           destruct Hr as [Hr|Hr]; rewrite Hr; [destruct w; cbn; auto | destruct (id <=? sc_highestID c'); destruct w; reflexivity].
      * destruct G as (T' & Hr & Hs). rewrite Hs. cbn [fold_left].
        eapply rel_drift; [exact R | | apply sdrift_refl].
        apply vdrift_intro; [unfold SrvRfcDefs.tbl in *; rewrite T, T'; reflexivity | exact Hr].
    + unfold R_block, after_outs. rewrite block_fold_sent, Bec. exact (S_blk _ _ _ _ HS).
    + unfold after_outs. rewrite goaway_fold_sent, (has_goaway_none _ Bng Bne), orb_false_r, Bcl. exact (S_ga _ _ _ _ HS).
    + unfold after_outs. rewrite highest_fold_sent by exact W. rewrite Bhigh. exact (S_hi _ _ _ _ HS).
    + rewrite Bec, Bdi. intros Hne T'.
      assert (T : tbl c (sc_expectCont c) = None).
      { destruct (tbl c (sc_expectCont c)) as [st|] eqn:T; [|reflexivity]. exfalso.
        pose proof (Bcase (sc_expectCont c)) as G. unfold gcase in G. rewrite T in G.
        destruct G as [(st' & X & _)|[(st' & w & _ & [] & _)|(w & _ & _ & _ & Hf & _)]]; [congruence|].
        rewrite (A_ec _ _ AH st Hne T) in Hf. discriminate. }
      destruct (S_cont _ _ _ _ HS Hne T) as [X|X]; [left; exact X | right].
      unfold after_outs. rewrite dead_fold_sent, X. reflexivity.
    + intros st' H. destruct (Bkeep st' H) as (st & Hin & Hid & Hst & Hfin & _). rewrite Hid, (S_ph _ _ _ _ HS st Hin).
      unfold phase_of. rewrite Hst, Hfin. reflexivity.
    + rewrite Bcl, Bhigh. exact (S_new _ _ _ _ HS).
Qed.

Lemma Gloc_gbatch c s ph c' d D : Sim c s ph -> gbatch c c' d D [] -> Gloc hstate c s ph c'.
Proof.
  intros HS GB. exists d. split; [apply (GB_out _ _ _ _ _ GB)|]. rewrite (GB_sl _ _ _ _ _ GB).
  split; [apply (live_tuple_gbatch c c' s ph d D HS GB) | apply (GB_nd _ _ _ _ _ GB)].
Qed.

(* every stream of the table is rewritten in place (SETTINGS changes the windows), the ring stays, nothing noisy is said *)
Lemma gbatch_rel c c' d :
  AuxT c -> Forall2 same_shape (sc_strms c) (sc_strms c') -> sc_ring c' = sc_ring c -> sc_oldest c' = sc_oldest c ->
  sc_rl_done c' = sc_rl_done c -> sc_wl_dead c' = sc_wl_dead c -> sc_sl_done c' = false -> sc_readerQ c' = sc_readerQ c ->
  sc_lastID c' = sc_lastID c -> sc_highestID c' = sc_highestID c -> sc_closing c' = sc_closing c ->
  sc_expectCont c' = sc_expectCont c -> sc_discardID c' = sc_discardID c ->
  sc_out c' = d ++ sc_out c -> filter noisy d = [] -> (forall sid rq, ~ In (ODispatch sid rq) d) ->
  gbatch c c' d [] [].
Proof.
  intros AT F2 A2 A3 A4 A5 Asl A6 A7 A8 A9 A10 A11 Ho Q Nd.
  constructor; try assumption.
  - apply (quiet_no_goaway d Q).
  - apply quiet_exit_false, Q.
  - rewrite (Forall2_ids _ _ F2). apply (A_nodup _ _ AT).
  - apply (ring_ok_ext _ _ _ A2 A3), (A_ring _ _ AT).
  - constructor.
  - intros i w [].
  - intro id. unfold gcase. pose proof (Forall2_search _ _ id F2) as X. fold (tbl c id) (tbl c' id) in X.
    rewrite (ring_find_ext _ c' c id A2), (sents_on_quiet id d Q).
    destruct (tbl c id) as [st|] eqn:T, (tbl c' id) as [st'|]; try contradiction; [|auto].
    left. exists st'. destruct X as (Hid & Hst & Hfin & Hok). pose proof (search_In _ _ _ T) as HIn.
    split; [reflexivity|]. split; [exact Hst|]. split; [exact Hfin|]. split; [apply Hok, (AuxT_strm_ok hstate c st AT HIn)|].
    split; [reflexivity|]. split; [|split; intros []].
    pose proof (A_tr _ _ AT st HIn) as Z. rewrite (search_id _ _ _ T), in_ring_find in Z. destruct (ring_find c id); [discriminate | reflexivity].
Qed.

Lemma gbatch_same c c' d :
  AuxT c -> sc_strms c' = sc_strms c -> sc_ring c' = sc_ring c -> sc_oldest c' = sc_oldest c ->
  sc_rl_done c' = sc_rl_done c -> sc_wl_dead c' = sc_wl_dead c -> sc_sl_done c' = false -> sc_readerQ c' = sc_readerQ c ->
  sc_lastID c' = sc_lastID c -> sc_highestID c' = sc_highestID c -> sc_closing c' = sc_closing c ->
  sc_expectCont c' = sc_expectCont c -> sc_discardID c' = sc_discardID c ->
  sc_out c' = d ++ sc_out c -> filter noisy d = [] -> (forall sid rq, ~ In (ODispatch sid rq) d) ->
  gbatch c c' d [] [].
Proof. intros AT A1. apply (gbatch_rel c c' d AT). rewrite A1. apply Forall2_shape_refl. Qed.

(* one stream sends (sendData); it stays in the table, finished or not *)
Lemma gbatch_send c c1 d D P id st' c2 s2 ds P' :
  gbatch c c1 d D P -> tbl c1 id = Some st' -> ~ In id (map fst P) ->
  sc_strms c2 = strms_put (sc_strms c1) s2 -> sc_ring c2 = sc_ring c1 -> sc_oldest c2 = sc_oldest c1 ->
  sc_rl_done c2 = sc_rl_done c1 -> sc_wl_dead c2 = sc_wl_dead c1 -> sc_sl_done c2 = false -> sc_readerQ c2 = sc_readerQ c1 ->
  sc_lastID c2 = sc_lastID c1 -> sc_highestID c2 = sc_highestID c1 -> sc_closing c2 = sc_closing c1 ->
  sc_expectCont c2 = sc_expectCont c1 -> sc_discardID c2 = sc_discardID c1 -> sc_out c2 = ds ++ sc_out c1 ->
  st_id s2 = id -> st_headersFinished s2 = st_headersFinished st' ->
  (forall o, In o ds -> is_goaway o = None) -> existsb is_exit ds = false -> (forall sid rq, ~ In (ODispatch sid rq) ds) ->
  ((filter noisy ds = [] /\ strm_ok s2 /\ st_state s2 = st_state st' /\ P' = P) \/
   (exists o w, filter noisy ds = [o] /\ sent_of o = [fin_sent w id] /\ st_weReset s2 = w /\ st_state st' = SHalfClosed /\
                st_headersFinished st' = true /\ st_handlerRunning s2 = false /\ P' = (id, w) :: P)) ->
  gbatch c c2 (ds ++ d) D P'.
Proof.
  intros [Brl Bwl Bsl Bq Bl Bh Bcl Bec Bdi Bout Bng Bne Bnd Bnodup Bring BP BPin Bcase] T1 NP A1 A2 A3 A4 A5 A6 A7 A8 A9 A10 A11 A12 A13 Hid Hfin Hng Hne Hnd Hout.
  pose proof (search_id _ _ _ T1) as Hid'.
  subst id. pose proof (tbl_put_same hstate c1 c2 s2 st' A1 T1) as TbS. pose proof (tbl_put_other hstate c1 c2 s2 A1) as TbO.
  set (id := st_id s2) in *.
  assert (Rf : forall i, ring_find c2 i = ring_find c1 i) by (intro i; apply ring_find_ext, A2).
  assert (SO : forall i, i <> id -> sents_on i ds = []).
  { intros i Hn. destruct Hout as [(Q & _)|(o & w & Q & So & _)]; [apply sents_on_quiet, Q|].
    rewrite (sents_on_one i ds o _ Q So). unfold on_id, fin_sent. destruct w; cbn [sent_sid];
      replace (id =? i) with false by (symmetry; apply N.eqb_neq; congruence); reflexivity. }
  assert (PP : forall i, i <> id -> (In i (map fst P') <-> In i (map fst P))).
  { intros i Hn. destruct Hout as [(_ & _ & _ & ->)|(o & w & _ & _ & _ & _ & _ & _ & ->)]; [tauto|]. cbn [map fst In]. split; [intros [X|X]; [congruence | exact X] | auto]. }
  constructor; try congruence.
  - rewrite A13, Bout, app_assoc. reflexivity.
  - intros o H. apply in_app_or in H. destruct H as [H|H]; [apply Hng, H | apply Bng, H].
  - rewrite existsb_app, Hne, Bne. reflexivity.
  - intros sid rq H. apply in_app_or in H. destruct H as [H|H]; [exact (Hnd sid rq H) | exact (Bnd sid rq H)].
  - rewrite A1. apply put_nodup, Bnodup.
  - eapply ring_ok_ext; [exact A2 | exact A3 | exact Bring].
  - destruct Hout as [(_ & _ & _ & ->)|(o & w & _ & _ & _ & _ & _ & _ & ->)]; [exact BP|]. cbn [map fst]. constructor; assumption.
  - intros i w0 Hin. destruct (N.eq_dec i id) as [->|Hn]; [eauto|]. rewrite (TbO i Hn). apply (BPin i w0).
    destruct Hout as [(_ & _ & _ & ->)|(o & w & _ & _ & _ & _ & _ & _ & ->)]; [exact Hin|]. destruct Hin as [E|E]; [inversion E; congruence | exact E].
  - intro i. pose proof (Bcase i) as G. unfold gcase in *. rewrite sents_on_app.
    destruct (N.eq_dec i id) as [->|Hn].
    + (* the stream that sent *)
      destruct (tbl c id) as [st|] eqn:T; [|destruct G as (X & _); congruence].
      destruct G as [(s1 & T1' & B1 & B2 & B3 & B4 & B5 & B6 & B7)|[(s1 & w & _ & Hin & _)|(w & X & _)]];
        [ | exfalso; apply NP; apply in_map_iff; exists (id, w); auto | congruence].
      assert (s1 = st') by congruence. subst s1. rewrite B4. cbn [app].
      destruct Hout as [(Q & Ok2 & Hst & ->)|(o & w & Q & So & Wr & Hhc & Hf & Hrun & ->)].
      * left. exists s2. rewrite Rf, (sents_on_quiet _ _ Q).
        split; [exact TbS|]. split; [rewrite Hst; exact B1|]. split; [rewrite Hfin; exact B2|]. split; [exact Ok2|].
        split; [reflexivity|]. split; [exact B5|]. split; [exact B6 | exact B7].
      * right. left. exists s2, w. rewrite Rf, (sents_on_one _ ds o _ Q So). unfold on_id at 1, fin_sent at 1.
        replace (match sent_sid (if w then RS.SentRst id else RS.SentEndStream id) with Some j => j =? id | None => false end) with true
          by (destruct w; cbn; rewrite N.eqb_refl; reflexivity).
        split; [exact TbS|]. split; [left; reflexivity|]. split; [exact B7|]. split; [rewrite <- B1; exact Hhc|]. split; [rewrite <- B2; exact Hf|].
        split; [exact Wr|]. split; [rewrite Hfin; exact Hf|]. split; [exact Hrun|]. split; [reflexivity | exact B5].
    + (* every other stream *)
      rewrite (TbO i Hn), Rf, (SO i Hn), app_nil_r.
      destruct (tbl c i) as [st|]; [|exact G].
      destruct G as [(s1 & X1 & X2 & X3 & X4 & X5 & X6 & X7 & X8)|[(s1 & w & X1 & X2 & X3)|G]].
      * left. exists s1. split; [exact X1|]. split; [exact X2|]. split; [exact X3|]. split; [exact X4|]. split; [exact X5|].
        split; [exact X6|]. split; [rewrite (PP i Hn); exact X7 | exact X8].
      * right. left. exists s1, w. split; [exact X1|]. split; [|exact X3].
        destruct Hout as [(_ & _ & _ & ->)|(o & w0 & _ & _ & _ & _ & _ & _ & ->)]; [exact X2 | right; exact X2].
      * right. right. exact G.
Qed.

Definition drop_id (id : N) (P : list (N * bool)) : list (N * bool) := filter (fun p => negb (fst p =? id)) P.

Lemma drop_id_In id P i : In i (map fst (drop_id id P)) <-> In i (map fst P) /\ i <> id.
Proof.
  unfold drop_id. induction P as [|[j w] P IH]; cbn [filter map fst In]; [tauto|].
  destruct (j =? id) eqn:E; cbn [negb map fst In]; rewrite IH; split; intros H.
  - destruct H as [H1 H2]. split; [right; exact H1 | exact H2].
  - destruct H as [[H|H] H2]; [subst; apply N.eqb_eq in E; congruence | auto].
  - destruct H as [H|[H1 H2]]; [subst; split; [left; reflexivity | apply N.eqb_neq in E; exact E] | split; [right; exact H1 | exact H2]].
  - destruct H as [[H|H] H2]; [left; exact H | right; auto].
Qed.

Lemma drop_id_In2 id P i w : In (i, w) (drop_id id P) <-> In (i, w) P /\ i <> id.
Proof.
  unfold drop_id. rewrite filter_In. cbn [fst]. split; intros [H1 H2]; split; auto.
  - apply negb_true_iff, N.eqb_neq in H2. exact H2.
  - apply negb_true_iff, N.eqb_neq. exact H2.
Qed.

Lemma drop_id_nodup id P : NoDup (map fst P) -> NoDup (map fst (drop_id id P)).
Proof.
  unfold drop_id. induction P as [|[j w] P IH]; cbn [filter map fst]; [auto|]. intro H. inversion H; subst.
  destruct (j =? id); cbn [negb map fst]; [apply IH; assumption|]. constructor; [|apply IH; assumption].
  intro X. apply (drop_id_In id P j) in X. tauto.
Qed.

(* a stream that has finished is closed *)
Lemma gbatch_close c c1 d D P id w st' :
  gbatch c c1 d D P -> In (id, w) P -> tbl c1 id = Some st' ->
  gbatch c (close_stream c1 (set_state st' SClosed))
         ((if st_handlerRunning st' then [] else [ORelease (st_id st') true]) ++ d) ((id, w) :: D) (drop_id id P).
Proof.
  intros [Brl Bwl Bsl Bq Bl Bh Bcl Bec Bdi Bout Bng Bne Bnd Bnodup Bring BP BPin Bcase] HinP T1.
  pose proof (search_id _ _ _ T1) as Hid.
  set (sC := set_state st' SClosed). set (c2 := close_stream c1 sC).
  pose proof (Bcase id) as G0. unfold gcase in G0.
  destruct (tbl c id) as [st|] eqn:T; [|destruct G0 as (X & _); congruence].
  assert (PD : exists w0, In (id, w0) P /\ ~ In id (map fst D) /\ st_state st = SHalfClosed /\ st_headersFinished st = true /\ st_weReset st' = w0 /\
                          st_headersFinished st' = true /\ st_handlerRunning st' = false /\ sents_on id d = [fin_sent w0 id] /\ ring_find c1 id = None).
  { destruct G0 as [(s1 & _ & _ & _ & _ & _ & _ & NP & _)|[(s1 & w0 & X1 & X2 & X3)|(w0 & X & _)]]; [|exists w0|congruence].
    - exfalso. apply NP. apply in_map_iff. exists (id, w). auto.
    - assert (s1 = st') by congruence. subst s1. tauto. }
  destruct PD as (w0 & HinP0 & ND0 & Hhc & Hfin & Wr & Fin' & Run' & So & Rn).
  assert (Ew : w0 = w).
  { clear -BP HinP HinP0. induction P as [|[j x] P IH]; [destruct HinP|]. cbn [map fst] in BP. inversion BP; subst.
    destruct HinP as [H|H], HinP0 as [H0|H0]; try congruence.
    - inversion H; subst. exfalso. apply H1. apply in_map_iff. exists (id, w0). auto.
    - inversion H0; subst. exfalso. apply H1. apply in_map_iff. exists (id, w). auto.
    - apply IH; assumption. }
  rewrite Ew in *. clear Ew HinP0.
  assert (S2 : sc_strms c2 = strms_del (sc_strms c1) id) by (unfold c2; rewrite sc_strms_close_stream; cbn; rewrite Hid; reflexivity).
  pose proof (tbl_del_same hstate c1 c2 id Bnodup S2) as TbS. pose proof (tbl_del_other hstate c1 c2 id S2) as TbO.
  destruct (close_stream_ring hstate c1 c1 sC eq_refl eq_refl) as [R2 O2']. fold c2 in R2, O2'.
  change (st_id sC) with (st_id st') in R2, O2'. change (st_weReset sC) with (st_weReset st') in R2, O2'. rewrite Hid, Wr in R2, O2'.
  destruct (leave_ring hstate c1 c2 id w Bring R2 O2') as (RO2 & RfS & RfO). rewrite Rn in RfS.
  assert (Run : st_handlerRunning sC = false) by exact Run'.
  rewrite Run'. 
  assert (O2 : sc_out c2 = [ORelease (st_id st') true] ++ sc_out c1) by (unfold c2; rewrite sc_out_close_stream, Run; reflexivity).
  constructor.
  - unfold c2. rewrite sc_rl_done_close_stream. exact Brl.
  - unfold c2. rewrite sc_wl_dead_close_stream. exact Bwl.
  - unfold c2. rewrite sc_sl_done_close_stream. exact Bsl.
  - unfold c2. rewrite sc_readerQ_close_stream. exact Bq.
  - unfold c2. rewrite sc_lastID_close_stream. exact Bl.
  - unfold c2. rewrite sc_highestID_close_stream. exact Bh.
  - unfold c2. rewrite sc_closing_close_stream. exact Bcl.
  - unfold c2. rewrite sc_expectCont_close_stream. exact Bec.
  - unfold c2. rewrite sc_discardID_close_stream. cbn. rewrite Fin'. cbn [negb andb]. rewrite andb_false_r. exact Bdi.
  - rewrite O2, Bout, app_assoc. reflexivity.
  - intros o [<-|H]; [reflexivity | apply Bng, H].
  - cbn [app existsb is_exit strip_late orb]. exact Bne.
  - intros sid rq [H|H]; [discriminate | exact (Bnd sid rq H)].
  - rewrite S2. apply strms_del_NoDup, Bnodup.
  - exact RO2.
  - apply drop_id_nodup, BP.
  - intros i w9 Hin. apply drop_id_In2 in Hin. destruct Hin as [Hin Hn]. rewrite (TbO i Hn). apply (BPin i w9 Hin).
  - intro i. pose proof (Bcase i) as G. unfold gcase in *. rewrite sents_on_app.
    assert (SR : forall j, sents_on j [ORelease (st_id st') true] = []) by (intro j; reflexivity). rewrite SR, app_nil_r.
    destruct (N.eq_dec i id) as [->|Hn].
    + rewrite T. right. right. exists w. split; [exact TbS|]. split; [left; reflexivity|]. split; [exact Hhc|]. split; [exact Hfin|].
      split; [left; exact RfS | exact So].
    + rewrite (TbO i Hn). pose proof (RfO i Hn) as RM.
      destruct (tbl c i) as [st0|].
      * destruct G as [(s1 & X1 & X2 & X3 & X4 & X5 & X6 & X7 & X8)|[(s1 & w1 & X1 & X2 & X3 & X4 & X5 & X6 & X7 & X8 & X9 & X10)|(w1 & X1 & X2 & X3 & X4 & X5 & X6)]].
        -- left. exists s1. split; [exact X1|]. split; [exact X2|]. split; [exact X3|]. split; [exact X4|]. split; [exact X5|].
           split; [destruct RM as [E|E]; rewrite E; [exact X6 | reflexivity]|].
           split; [rewrite drop_id_In; tauto | cbn [map fst In]; intros [E|E]; [congruence | exact (X8 E)]].
        -- right. left. exists s1, w1. split; [exact X1|]. split; [apply drop_id_In2; auto|].
           split; [cbn [map fst In]; intros [E|E]; [congruence | exact (X3 E)]|]. repeat (split; [assumption|]).
           destruct RM as [E|E]; rewrite E; [exact X10 | reflexivity].
        -- right. right. exists w1. split; [exact X1|]. split; [right; exact X2|]. split; [exact X3|]. split; [exact X4|].
           split; [|exact X6]. destruct RM as [E|E]; rewrite E; [exact X5 | right; reflexivity].
      * destruct G as (X1 & X2 & X3). split; [exact X1|]. split; [|exact X3].
        destruct RM as [E|E]; rewrite E; [exact X2 | right; reflexivity].
Qed.

Lemma flush_loop_gbatch c : sc_wl_dead c = false -> forall ids c1 done d P,
  gbatch c c1 d [] P -> NoDup ids -> (forall i, In i ids -> ~ In i (map fst P)) -> (forall i, In i done <-> In i (map fst P)) ->
  exists d' P', gbatch c (fst (flush_loop c1 ids done)) d' [] P' /\
                (forall i, In i (snd (flush_loop c1 ids done)) <-> In i (map fst P')).
Proof.
  intro Hwl. induction ids as [|id t IH]; intros c1 done d P GB ND NP DP; cbn [flush_loop fst snd]; [exists d, P; auto|].
  inversion ND as [|? ? NI ND']; subst.
  assert (NPt : forall i, In i t -> ~ In i (map fst P)) by (intros i H; apply NP; right; exact H).
  destruct (strms_search (sc_strms c1) id) as [st'|] eqn:T1; [|apply (IH c1 done d P GB ND' NPt DP)].
  destruct (st_responded st' && negb (st_handlerRunning st') && has_more_to_send st')%bool eqn:C; [|apply (IH c1 done d P GB ND' NPt DP)].
  apply andb_true_iff in C. destruct C as [C Cm]. apply andb_true_iff in C. destruct C as [Cr Ch]. apply negb_true_iff in Ch.
  (* the stream is one of the table, untouched so far *)
  pose proof (GB_case _ _ _ _ _ GB id) as G0. unfold gcase in G0. fold (tbl c1 id) in T1.
  destruct (tbl c id) as [st|] eqn:T; [|destruct G0 as (X & _); congruence].
  assert (KP : st_state st' = st_state st /\ st_headersFinished st' = st_headersFinished st /\ strm_ok st').
  { destruct G0 as [(s1 & X1 & X2 & X3 & X4 & _)|[(s1 & w & _ & Hin & _)|(w & X & _)]]; [|exfalso|congruence].
    - assert (s1 = st') by congruence. subst s1. auto.
    - apply (NP id (or_introl eq_refl)). apply in_map_iff. exists (id, w). auto. }
  destruct KP as (_ & _ & Ok). destruct Ok as (Os & Ow & Or & Oo & Osend).
  destruct (Or (or_introl Cr)) as [Hhc Hfin].
  pose proof (search_id _ _ _ T1) as Hid.
  assert (W1 : wr hstate c1) by (split; [apply (GB_sl _ _ _ _ _ GB) | rewrite (GB_wl _ _ _ _ _ GB); exact Hwl]).
  destruct (send_data c1 st') as [[c2 s2] fin] eqn:SD.
  destruct (send_data_spec hstate c1 st' c2 s2 fin W1 Cm Osend SD) as (ds & SDd & FD & Sid & Sst & Sfin & Sresp & Srun & Sorig & Sout).
  destruct (data_or_rst_facts ds FD) as (Dnd & Dng & Dne).
  set (P' := if fin then (id, st_weReset s2) :: P else P).
  assert (GB' : gbatch c (put c2 s2) (ds ++ d) [] P').
  { apply (gbatch_send c c1 d [] P id st' (put c2 s2) s2 ds P' GB T1 (NP id (or_introl eq_refl)));
      try (unfold sd in SDd; rewrite SDd; reflexivity); try assumption.
    - unfold sd in SDd. rewrite SDd. apply (GB_sl _ _ _ _ _ GB).
    - rewrite Sid. exact Hid.
    - unfold P'. destruct fin.
      + right. rewrite Hid in Sout. destruct Sout as [(ch & Fn & Wr)|(Fn & Wr)].
        * exists (OData id true ch), false. split; [exact Fn|]. split; [reflexivity|]. split; [rewrite Wr; exact Ow|].
          split; [exact Hhc|]. split; [exact Hfin|]. split; [rewrite Srun; exact Ch|]. rewrite Wr, Ow. reflexivity.
        * exists (ORst id c_InternalError), true. split; [exact Fn|]. split; [reflexivity|]. split; [exact Wr|].
          split; [exact Hhc|]. split; [exact Hfin|]. split; [rewrite Srun; exact Ch|]. rewrite Wr. reflexivity.
      + left. destruct Sout as (Fn & Wr & Sok). split; [exact Fn|]. split; [|split; [exact Sst | reflexivity]].
        unfold strm_ok. rewrite Sst, Wr, Sresp, Srun, Sfin. repeat split; auto. }
  destruct fin.
  - apply (IH (put c2 s2) (done ++ [id]) (ds ++ d) P' GB' ND').
    + intros i H. unfold P'. cbn [map fst In]. intros [X|X]; [subst; contradiction | exact (NPt i H X)].
    + intro i. unfold P'. cbn [map fst In]. rewrite in_app_iff, DP. cbn [In]. tauto.
  - apply (IH (put c2 s2) done (ds ++ d) P' GB' ND'); [exact NPt | exact DP].
Qed.

Lemma close_all_gbatch c : forall ids c1 d D P,
  gbatch c c1 d D P -> (forall i, In i ids -> In i (map fst P) \/ In i (map fst D)) ->
  exists d' D' P', gbatch c (close_all c1 ids) d' D' P' /\ (forall i, In i (map fst P') <-> In i (map fst P) /\ ~ In i ids).
Proof.
  induction ids as [|id t IH]; intros c1 d D P GB H; cbn [close_all].
  { exists d, D, P. split; [exact GB|]. intro i. cbn [In]. tauto. }
  pose proof (GB_case _ _ _ _ _ GB id) as G0. unfold gcase in G0.
  destruct (strms_search (sc_strms c1) id) as [st'|] eqn:T1; fold (tbl c1 id) in T1.
  - (* still in the table: it is one of the finished ones *)
    assert (HP : exists w, In (id, w) P).
    { destruct (tbl c id) as [st|]; [|destruct G0 as (X & _); congruence].
      destruct G0 as [(s1 & _ & _ & _ & _ & _ & _ & NP & NDd)|[(s1 & w & _ & Hin & _)|(w & X & _)]]; [|eauto|congruence].
      exfalso. destruct (H id (or_introl eq_refl)); contradiction. }
    destruct HP as [w HinP].
    pose proof (gbatch_close c c1 d D P id w st' GB HinP T1) as GB'.
    destruct (IH _ _ _ _ GB') as (d' & D' & P' & GB'' & HP').
    + intros i Hi. destruct (N.eq_dec i id) as [->|Hn]; [right; left; reflexivity|].
      destruct (H i (or_intror Hi)) as [X|X]; [left; apply drop_id_In; auto | right; right; exact X].
    + exists d', D', P'. split; [exact GB''|]. intro i. rewrite HP', drop_id_In. cbn [In]. split; [intros [[A B] C]; split; [exact A | intros [X|X]; [congruence | exact (C X)]] | intros [A B]; split; [split; [exact A | intro X; apply B; left; congruence] | intro X; apply B; right; exact X]].
  - (* already gone *)
    assert (NP : ~ In id (map fst P)).
    { intro X. apply in_map_iff in X. destruct X as ([i w] & E & Hin). cbn in E. subst i.
      destruct (GB_Pin _ _ _ _ _ GB id w Hin) as [s9 Y]. congruence. }
    destruct (IH c1 d D P GB) as (d' & D' & P' & GB'' & HP'); [intros i Hi; apply H; right; exact Hi|].
    exists d', D', P'. split; [exact GB''|]. intro i. rewrite HP'. cbn [In]. split; [intros [A B]; split; [exact A | intros [X|X]; [congruence | exact (B X)]] | intros [A B]; split; [exact A | intro X; apply B; right; exact X]].
Qed.

Lemma flush_streams_gbatch c cX dX : sc_wl_dead c = false -> gbatch c cX dX [] [] ->
  exists d D, gbatch c (flush_streams cX) d D [].
Proof.
  intros Hwl GB. unfold flush_streams.
  destruct (flush_loop_gbatch c Hwl (map st_id (sc_strms cX)) cX [] dX [] GB (GB_nodup _ _ _ _ _ GB)) as (d' & P' & GB' & HP').
  - intros i _ [].
  - intro i. tauto.
  - destruct (flush_loop cX (map st_id (sc_strms cX)) []) as [c1 done]. cbn [fst snd] in *.
    destruct (close_all_gbatch c done c1 d' [] P' GB') as (d'' & D' & P'' & GB'' & HP'').
    + intros i Hi. left. apply HP', Hi.
    + assert (P'' = []).
      { destruct P'' as [|[i w] t]; [reflexivity|]. exfalso.
        destruct (HP'' i) as [X _]. destruct (X (or_introl eq_refl)) as [A B]. apply B, HP', A. }
      subst P''. exists d'', D'. exact GB''.
Qed.

Lemma classify_conn l : (forall o, In o l -> is_goaway o = None) -> existsb is_exit l = false -> classify 0 l = RS.Process.
Proof.
  intros Hg He. unfold classify. rewrite He. cbn [N.eqb].
  assert (X : first_some is_goaway l = None).
  { clear He. induction l as [|o t IH]; [reflexivity|]. cbn [first_some]. rewrite (Hg o (or_introl eq_refl)). apply IH. intros o' H. apply Hg. right. exact H. }
  rewrite X. reflexivity.
Qed.

End Flush.

Section Done.
Variable hstate : Type.
Variable dec_field : hstate -> N -> bytes -> dec_res hstate.
Variable enc_field : hstate -> bytes -> bytes -> bool -> bytes * hstate.
Variable enc_set_max : hstate -> N -> hstate.
Variable cfg : config.
Notation sconn := (sconn hstate).
Notation feed := (feed hstate dec_field enc_field enc_set_max cfg).
Notation Gloc := (Gloc hstate).
Notation tbl := (tbl hstate).
Notation Sim := (Sim hstate).
Implicit Types c : sconn.

(* a handler returns: its response goes out as one stream sending (gbatch_send); if that completes the response the
   stream is closed (gbatch_close) *)
Lemma G_done c s ph sid r : Sim c s ph -> sc_sl_done c = false -> Gloc c s ph (feed c (IDone sid r)).
Proof.
  intros HS Hsl. pose proof (S_aux _ _ _ _ HS) as [AT AH]. pose proof (A_wl _ _ AT) as Hwl.
  pose proof (gbatch_refl hstate c AT Hsl) as GB0.
  unfold SrvRfcDefs.feed. rewrite step_EvDone, Hsl. unfold sl_done.
  destruct (take_stream (sc_gone c) sid) as [[sg rest]|] eqn:TK.
  - (* a stream that was closed while its handler ran: released now *)
    cbn [fst cont]. unfold release_stream. cbv zeta.
    destruct (fkind_eqb _ KHeaders);
      (apply (Gloc_gbatch hstate c s ph _ [ORelease (st_id (set_flags sg (st_responded sg) false true)) true] [] HS);
       apply gbatch_same; try exact AT; try exact Hsl; try reflexivity; intros i rq [H|[]]; discriminate).
  - destruct (strms_search (sc_strms c) sid) as [st|] eqn:T; [|exact (Gloc_gbatch hstate c s ph c [] [] HS GB0)].
    destruct (st_handlerRunning st) eqn:RUN; cbn [negb]; [|exact (Gloc_gbatch hstate c s ph c [] [] HS GB0)].
    pose proof (search_In _ _ _ T) as HIn. pose proof (search_id _ _ _ T) as Hid.
    destruct (A_st _ _ AT st HIn) as (_ & Wr & Rh & Once). destruct (Rh (or_intror RUN)) as [Hhc Hfin]. pose proof (Once Hhc Hfin) as Resp.
    set (s1 := set_flags st (st_responded st) false (st_abandoned st)).
    destruct (finish_request enc_field c s1 r) as [[c1 s2] fin] eqn:FR.
    destruct (finish_request_spec hstate enc_field c s1 r c1 s2 fin (conj Hsl Hwl) FR) as (d & e & w & Ec1 & FD & Sid & Sst & Sfin & Sresp & Srun & Sout).
    destruct (hdr_data_rst_facts d FD) as (Dnd & Dng & Dne).
    (* the stream as it is written back *)
    set (sW := if fin then set_state s2 SClosed else s2).
    assert (IdW : st_id sW = st_id st) by (unfold sW; destruct fin; exact Sid).
    assert (GB1 : gbatch hstate c (put c1 sW) d [] (if fin then [(st_id st, st_weReset s2)] else [])).
    { rewrite <- (app_nil_r d).
      apply (gbatch_send hstate c c [] [] [] (st_id st) st (put c1 sW) sW d _ GB0); try (rewrite Ec1; reflexivity); try assumption.
      - unfold SrvRfcDefs.tbl. rewrite Hid. exact T.
      - intros [].
      - rewrite Ec1. exact Hsl.
      - unfold sW. destruct fin; cbn; exact Sfin.
      - unfold sW. destruct fin.
        + right. destruct Sout as [(o & Fq & So & Wr2)|(Fq & Wr2)].
          * exists o, false. change (st_weReset (set_state s2 SClosed)) with (st_weReset s2). rewrite Wr2.
            change (st_weReset s1) with (st_weReset st). rewrite Wr.
            split; [exact Fq|]. split; [exact So|]. split; [reflexivity|]. split; [exact Hhc|]. split; [exact Hfin|]. split; [exact Srun | reflexivity].
          * exists (ORst (st_id st) c_InternalError), true. change (st_weReset (set_state s2 SClosed)) with (st_weReset s2). rewrite Wr2.
            split; [exact Fq|]. split; [reflexivity|]. split; [reflexivity|]. split; [exact Hhc|]. split; [exact Hfin|]. split; [exact Srun | reflexivity].
        + left. destruct Sout as (Fq & Wr2 & Sok). split; [exact Fq|]. split; [|split; [exact Sst | reflexivity]].
          unfold strm_ok. rewrite Sst, Sresp, Srun, Sfin, Wr2. cbn. rewrite Hhc, Hfin, Resp, Wr. repeat split; auto. }
    cbv zeta. destruct fin.
    + assert (TW : tbl (put c1 sW) (st_id st) = Some sW).
      { rewrite <- IdW. apply (tbl_put_same hstate c (put c1 sW) sW st); [rewrite Ec1; reflexivity | rewrite IdW, Hid; exact T]. }
      pose proof (gbatch_close hstate c _ _ _ _ (st_id st) (st_weReset s2) sW GB1 (or_introl eq_refl) TW) as GB2.
      cbn [drop_id filter fst] in GB2. rewrite N.eqb_refl in GB2.
      apply (Gloc_finish hstate c s ph _ _ _ (GB_out _ _ _ _ _ _ GB2) (GB_nd _ _ _ _ _ _ GB2)). intros _.
      exact (Gloc_gbatch hstate c s ph _ _ _ HS GB2).
    + apply (Gloc_finish hstate c s ph _ _ _ (GB_out _ _ _ _ _ _ GB1) (GB_nd _ _ _ _ _ _ GB1)). intros _.
      exact (Gloc_gbatch hstate c s ph _ _ _ HS GB1).
Qed.

End Done.
