(* Proofs/TeardownCliLocks.v -- blocking-structure model (Impl/Teardown.v), client, S3: lock order, no wait cycle, channel parks hold nothing.
   Statements: Props/Teardown.v; overview: Proofs/TeardownProofs.v. *)
From Coq Require Import Arith Lia Bool List.
Import ListNotations.
From H2V Require Import Impl.Teardown Proofs.TeardownGen Proofs.TeardownCliInv.

Module CliP2.
Import Cli CliP.

Section P.
Variable cap : nat.
Notation guard := (Cli.guard cap).
Notation reachable := (Cli.reachable cap).

(* the static table respects the order, and never nests a mutex in itself *)
Theorem lock_order : forall a o i, In (o, i) (nest a) -> mrank o < mrank i.
Proof.
  intros a o i H. destruct a; cbn in H; try contradiction;
    try (destruct h; cbn in H; try contradiction);
    repeat (destruct H as [H|H]; [inversion H; subst; cbn; lia|]); contradiction.
Qed.

Theorem ordered_reachable : forall s, reachable s -> ordered (wants s) (holds s).
Proof.
  intros s R p m m' Hw Hh. destruct (reachable_inv cap s R) as ([] & _).
  unfold wants, holds, wl_hold, rl_hold in *.
  destruct p as [|[|[|[|[|]]]]]; try contradiction; try discriminate.
  - destruct Hh as [(-> & Hh)|[(-> & Hh)|(-> & Hh)]]; rewrite ?Hh in *;
      destruct (wl s) as [| | | | | | |[]| | |]; inversion Hw; subst; cbn in *; try lia; discriminate.
  - destruct Hh as [(-> & Hh)|[(-> & Hh)|(-> & Hh)]]; rewrite ?Hh in *;
      destruct (rl s) as [| | | | | | | |[]|]; inversion Hw; subst; cbn in *; try lia; discriminate.
  - destruct Hh as (-> & Hh); rewrite Hh in *.
    destruct (uc s) as [|[]|]; inversion Hw; subst; discriminate.
Qed.

Theorem no_wait_cycle : forall s, reachable s -> ~ wait_cycle (wants s) (holds s).
Proof. intros s R. apply ordered_no_wait_cycle, ordered_reachable; auto. Qed.

Theorem no_self_wait : forall s p m, reachable s -> wants s p = Some m -> ~ holds s p m.
Proof.
  intros s p m R Hw Hh. pose proof (ordered_reachable s R p m m Hw Hh). lia.
Qed.

(* a goroutine that is parked on a channel send (writeOut) holds no mutex: the read loop queues the
   frames of c.outBuf only after dispatchLocked has released the Ctx.lck; the timer never holds one
   across a step; and the write loop, the only receiver of c.out, never sends on it at all *)
Theorem out_parks_hold_nothing : forall s p m, reachable s -> parked_on_out s p -> ~ holds s p m.
Proof.
  intros s p m R Hp Hh. destruct (reachable_inv cap s R) as ([] & _).
  unfold parked_on_out, holds, rl_hold in *.
  destruct p as [|[|[|[|[|p]]]]]; try contradiction.
  assert (rl s = ROut \/ exists k st, rl s = RPostW k st) as E by exact Hp.
  destruct Hh as [(_ & H)|[(_ & H)|(_ & H)]]; rewrite ?H in *;
    destruct E as [E|(k & st & E)]; rewrite E in *; discriminate.
Qed.

Theorem write_loop_never_sends_on_out : forall s a, g_wl a -> guard a s -> outq (eff a s) <= outq s.
Proof.
  intros s a Ga G. destruct a; cbn in Ga; try contradiction;
    try (destruct p as [|[|[|p]]]; cbn in Ga; try lia; try discriminate);
    cbn; unfold release, resolveX, end_cpc, set_cpc;
    repeat match goal with
           | |- context[match ?x with _ => _ end] => destruct x
           end; cbn; lia.
Qed.
End P.
End CliP2.
