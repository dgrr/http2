(* Proofs/SrvInvExamples.v - the instance with the real HPACK coder, and concrete event lists for the Examples of
   Props/C13.v, C10.v, C17.v, C19.v. *)
From H2V Require Import Base.Bytes Base.MachineInt Base.Result Gen.GenConsts Impl.Hpack Impl.ServerConn Impl.ServerInst
  Proofs.SrvBase Proofs.SrvInvMoves Proofs.SrvInvDecomp Proofs.SrvInvSteps Proofs.SrvInvSlots Proofs.SrvInvOut
  Proofs.SrvInvOwn Proofs.SrvInvGoAway Proofs.HpackTotal.
From Coq Require Import ZArith Lia.
Local Open Scope N_scope.

(* the HPACK decoder of the instance never panics (C03_next_field_no_panic) *)
Lemma srv_dec_field_no_panic hp n b : srv_dec_field hp n b <> DPanic hpack_state.
Proof.
  unfold srv_dec_field. pose proof (next_field_no_panic hp empty_field true n b) as H.
  destruct (nf_res (next_field hp empty_field true n b)) as [[rest [|]]|e|w]; try discriminate.
  destruct (e =? E_unexpected_size); discriminate.
Qed.

(* a connection with two slots *)
Definition cfgx : config := mkCfg 2 4096 1000 0 65535.
(* HEADERS: :method GET, :path /, :scheme https *)
Definition fH (sid fl : N) : sframe := mkSFrame KHeaders fl sid 3 [0x82; 0x84; 0x87] 0 0 0 false 0 false 0.
Definition fRst (sid code : N) : sframe := mkSFrame KRst 0 sid 4 [] 0 code 0 false 0 false 0.
Definition fData (sid fl : N) (b : bytes) : sframe := mkSFrame KData fl sid (len b) b 0 0 0 false 0 false 0.
Definition fSettings : sframe := mkSFrame KSettings 0 0 0 [] 0 0 0 false 4096 false 0.
Definition resp200 : response := mkResp 200 [] (BBuffered [104; 105]).

Definition evs_slots : list event :=
  [EvRL (RFrame fSettings); EvSL;
   EvRL (RFrame (fH 1 5)); EvSL;           (* request 1: dispatched *)
   EvRL (RFrame (fH 3 5)); EvSL;           (* request 3: dispatched *)
   EvRL (RFrame (fH 5 5)); EvSL;           (* refused: both slots taken *)
   EvRL (RFrame (fRst 1 8)); EvSL;         (* the peer cancels 1 while its handler runs: the slot is kept *)
   EvRL (RFrame (fH 7 5)); EvSL].          (* still refused *)
Definition evs_full : list event :=
  evs_slots ++
  [EvDone 1 resp200;                       (* the handler of 1 returns: released now *)
   EvDone 3 resp200;                       (* the response of 3 goes out, 3 is released *)
   EvRL (RFrame (fData 9 0 [1; 2; 3])); EvSL;  (* DATA on an idle stream: GOAWAY(3, PROTOCOL_ERROR), the loop ends *)
   EvRL RLEof; EvSL].

Definition rq_get : request := mkReq [71; 69; 84] [47] [104; 116; 116; 112; 115] None [] [].

(* C17 (a) for the instance: the hypothesis of no_panic is C03's theorem *)
Theorem srv_no_panic cfg evs who why :
  ~ In (OPanic who why) (srv_trace (srv_run cfg evs)) /\ ~ In (OLate (OPanic who why)) (srv_trace (srv_run cfg evs)).
Proof. apply (no_panic hpack_state srv_dec_field srv_enc_field set_max_table_size cfg srv_init_hpack evs srv_dec_field_no_panic). Qed.

(* a POST with a body: HEADERS (:method POST, :path /, :scheme https) without END_STREAM, then DATA with END_STREAM *)
Definition fHpost (sid fl : N) : sframe := mkSFrame KHeaders fl sid 3 [0x83; 0x84; 0x87] 0 0 0 false 0 false 0.
Definition evs_post : list event :=
  [EvRL (RFrame (fHpost 1 4)); EvSL; EvRL (RFrame (fData 1 1 [1; 2; 3])); EvSL].
Definition rq_post : request := mkReq [80; 79; 83; 84] [47] [104; 116; 116; 112; 115] None [] [1; 2; 3].
