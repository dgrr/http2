(* C15: concrete instances (RFC 7541 Appendix C.4.1 and three rejected inputs). *)
From Coq Require Import List NArith Bool.
From H2V Require Import Base.Bytes Base.Result Gen.GenHuffman Spec.XNetTables
  Spec.Rfc7541Huffman Impl.Huffman.
Import ListNotations.
Local Open Scope N_scope.

(* "www.example.com" *)
Definition ex_www : bytes := [119; 119; 119; 46; 101; 120; 97; 109; 112; 108; 101; 46; 99; 111; 109].
(* f1e3 c2e5 f23a 6ba0 ab90 f4ff *)
Definition ex_www_enc : bytes := [241; 227; 194; 229; 242; 58; 107; 160; 171; 144; 244; 255].

Lemma example_www :
  bytes_ok ex_www = true /\ bytes_ok ex_www_enc = true /\
  huffman_encode ex_www = ex_www_enc /\ spec_encode ex_www = ex_www_enc /\
  huffman_decode ex_www_enc = Ok ex_www /\ spec_valid ex_www_enc ex_www.
Proof.
  unfold spec_valid.
  repeat match goal with |- _ /\ _ => split end; vm_compute; reflexivity.
Qed.

(* rejected: an encoded EOS; padding that is not all ones; a whole byte of padding
   (one equation: the decoding table is built once for the three) *)
Lemma rejects_check :
  (huffman_decode [255; 255; 255; 255], huffman_decode [0], huffman_decode [7; 255]) =
  (Err E_huff_index, Err E_huff_zero, Err E_huff_left).
Proof. vm_compute. reflexivity. Qed.

Lemma example_rejects :
  huffman_decode [255; 255; 255; 255] = Err E_huff_index /\
  huffman_decode [0] = Err E_huff_zero /\
  huffman_decode [7; 255] = Err E_huff_left.
Proof.
  pose proof rejects_check as H. apply pair_equal_spec in H as [H H3]. apply pair_equal_spec in H as [H1 H2]. auto.
Qed.
