(* Proofs/SrvIsoHdrStep.v - C09 (a), the step: Theorem sl_frame_hdr.
   From a state where the ghost (cur, n, carry) describes the header block in progress (HG), the stream loop
   handles a HEADERS / CONTINUATION frame; unless it raises a connection error (GOAWAY, panic), the decoder
   state afterwards and the carry are the reference's, wherever the carry now lives, and whatever happened to
   the stream. *)
From H2V Require Import Base.Bytes Base.MachineInt Base.Result Gen.GenConsts Impl.ServerConn Proofs.SrvBase
  Proofs.SrvInvDecomp Proofs.SrvIsoRef Proofs.SrvIsoMoves Proofs.SrvIsoSteps Proofs.SrvIsoHdr.
From Coq Require Import ZArith Lia ZifyN ZifyNat ZifyBool.
Local Open Scope N_scope.

Section HdrStep.
Variable hstate : Type.
Variable dec_field : hstate -> N -> bytes -> dec_res hstate.
Variable enc_field : hstate -> bytes -> bytes -> bool -> bytes * hstate.
Variable enc_set_max : hstate -> N -> hstate.
Variable cfg : config.
Notation sconn := (sconn hstate).
Implicit Types c : sconn.

Definition next_cur (fr : sframe) : N := if eh_of fr then 0 else sf_sid fr.

(* the ghost: the block in progress (cur = 0: none), fields decoded so far, bytes carried over *)
Record HG c (cur n : N) (carry : bytes) : Prop := mkHG {
  hg_inv : HInv (eq cur) c;
  hg_carry : cur <> 0 -> carry_at c cur = Some (n, carry)
}.

(* the table entry of the frame's stream before the step (a new stream if there is none) *)
Definition entry_before (c0 : sconn) (fr : sframe) : stream :=
  match strms_search (sc_strms c0) (sf_sid fr) with
  | Some s => s
  | None => set_orig_started (new_stream (sf_sid fr) (sc_initWin c0)) KHeaders (sc_now c0)
  end.

Definition hd_set_fin (h : hdr) (b : bool) : hdr :=
  mkHdr b (hd_prev h) (hd_pMethod h) (hd_pScheme h) (hd_pPath h) (hd_pAuth h)
        (hd_regularSeen h) (hd_contentLength h) (hd_hasCL h) (hd_headerListSize h) (hd_blockFields h)
        (hd_path h) (hd_req h).

(* what the fragment did to its own stream, if the stream is (still) in the table: its header state is the
   field-by-field fold over the decoded fields, from where it was *)
Definition own_post (s0 : stream) (fr : sframe) (fs : list (bytes * bytes)) (carry' : bytes) (c' : sconn) : Prop :=
  forall x, In x (sc_strms c') -> st_id x = sf_sid fr ->
  exists hF, hfold cfg (hh1 s0 fr) fs = Some hF /\
    get_hdr x = (if eh_of fr then hd_set_fin (hd_set_prev hF []) true else hd_set_prev hF carry') /\
    st_recvBody x = st_recvBody s0.

(* a stream enters the table only as a new stream: its id is above every id seen so far *)
Definition ids_post (c0 : sconn) (fr : sframe) (c' : sconn) : Prop :=
  forall x, In x (sc_strms c') ->
  In (st_id x) (map st_id (sc_strms c0)) \/ (st_id x = sf_sid fr /\ sc_highestID c0 < sf_sid fr).

Definition hdr_post (c0 : sconn) (n0 : N) (b0 : bytes) (fr : sframe) (c' : sconn) : Prop :=
  exists fs n' carry', ref_run dec_field (eh_of fr) (sc_dec c0) n0 b0 fs (sc_dec c') n' carry' /\
    eff c0 c' /\
    (sc_sl_done c' = false -> HG c' (next_cur fr) n' carry' /\ oth (sf_sid fr) c0 c' /\
                              own_post (entry_before c0 fr) fr fs carry' c' /\ ids_post c0 fr c' /\
                              sc_highestID c0 <= sc_highestID c' /\ sf_sid fr <= sc_highestID c').

Lemma hdr_post_pre c1 c2 n0 b0 fr c' : eff c1 c2 -> sc_dec c2 = sc_dec c1 -> oth (sf_sid fr) c1 c2 ->
  entry_before c2 fr = entry_before c1 fr -> ids_post c1 fr c2 -> sc_highestID c1 <= sc_highestID c2 ->
  hdr_post c2 n0 b0 fr c' -> hdr_post c1 n0 b0 fr c'.
Proof.
  intros E D O EB IP HL (fs & n' & carry' & R & E2 & G). exists fs, n', carry'. rewrite <- D.
  split; [exact R|]. split; [eapply eff_trans; eassumption|].
  intro Hd. destruct (G Hd) as (G1 & G2 & G3 & G4 & G5 & G6). split; [exact G1|]. split; [eapply oth_trans; eassumption|].
  split; [rewrite <- EB; exact G3|]. split; [|split; [lia | exact G6]].
  intros x Ix. destruct (G4 x Ix) as [I2|[I2 I3]]; [|right; split; [exact I2 | lia]].
  apply in_map_iff in I2. destruct I2 as (y & Ey & Iy). rewrite <- Ey. apply IP. exact Iy.
Qed.

Lemma ids_post_same c0 fr c' : sc_strms c' = sc_strms c0 -> ids_post c0 fr c'.
Proof. intros E x Ix. left. rewrite E in Ix. apply in_map. exact Ix. Qed.

Lemma get_hdr_views x s : hv x = hv s -> rqv x = rqv s -> get_hdr x = get_hdr s /\ st_recvBody x = st_recvBody s.
Proof. unfold hv, rqv, get_hdr. intros H1 H2. inversion H1. inversion H2. split; congruence. Qed.

Lemma get_hdr_set_hdr s h : get_hdr (set_hdr s h) = h.
Proof. destruct h. reflexivity. Qed.
Lemma get_hdr_finished s h b : get_hdr (set_headers_finished (set_hdr s h) b) = hd_set_fin h b.
Proof. destruct h. reflexivity. Qed.

Lemma P_weaken idp idp' s : P idp s -> st_headersFinished s = true -> P idp' s.
Proof. unfold P. intros (P1 & P2 & P3 & P4 & P5) Hf. repeat split; try tauto. intro H. congruence. Qed.

Lemma P_weaken_imp (idp idp' : N -> Prop) s : (idp (st_id s) -> idp' (st_id s)) -> P idp s -> P idp' s.
Proof. unfold P. intros I (P1 & P2 & P3 & P4 & P5). repeat split; try tauto. Qed.

Lemma all_hf_of_P0 l : (forall s, In s l -> st_id s <> 0) -> Forall (P (eq 0)) l -> forall s, In s l -> st_headersFinished s = true.
Proof.
  intros NZ F s I. rewrite Forall_forall in F. destruct (F s I) as (_ & _ & _ & P4 & _).
  destruct (st_headersFinished s); [reflexivity|]. specialize (P4 eq_refl). specialize (NZ s I). congruence.
Qed.

Lemma gcount_brk c : gcount (sc_out (fst (brk c))) = gcount (sc_out c).
Proof. unfold brk, note. sc_cbn. rewrite gcount_cons. reflexivity. Qed.

Lemma dd_out c c1 : dd c c1 -> sc_out c1 = sc_out c /\ sc_wl_dead c1 = sc_wl_dead c /\ sc_sl_done c1 = sc_sl_done c.
Proof. intros (d & i & p & m & ->). repeat split. Qed.

(* a fatal error is visible: the count of error outputs grows (while the write loop lives) *)
Lemma fatal_discard_or_break c c1 e : dd c c1 -> fatal_err e -> sc_wl_dead c = false ->
  (gcount (sc_out c) < gcount (sc_out (fst (discard_or_break (c1, Some e)))))%nat.
Proof.
  intros D F W. destruct (dd_out _ _ D) as (EO & EW & _).
  destruct e as [code|code|]; cbn [discard_or_break]; [|destruct F|].
  - cbn [write_error fst]. rewrite gcount_brk. rewrite <- EO. apply gcount_write_goaway. congruence.
  - rewrite gcount_brk. unfold note. sc_cbn. rewrite gcount_cons, EO. cbn [conn_err_out]. lia.
Qed.

Lemma fatal_ftail_rest c c3 s3 e fr wc : dd c c3 -> fatal_err e -> sc_wl_dead c = false ->
  (gcount (sc_out c) < gcount (sc_out (fst (ftail_rest cfg c3 s3 (Some e) fr wc))))%nat.
Proof.
  intros D F W. destruct (dd_out _ _ D) as (EO & EW & _). unfold ftail_rest.
  destruct e as [code|code|]; [|destruct F|].
  - cbn [write_error]. cbn [fatal_err] in F. rewrite F. cbn [negb]. rewrite gcount_brk. unfold put. sc_cbn.
    rewrite <- EO. apply gcount_write_goaway. congruence.
  - cbn [write_error]. rewrite gcount_brk. unfold note. sc_cbn. rewrite gcount_cons, EO. cbn [conn_err_out]. lia.
Qed.

(* HInv for states that differ in the decoder / discard registers *)
Lemma HInv_dd idp idp' c d i p m : HInv idp c -> (forall s, In s (sc_strms c) -> st_headersFinished s = true) ->
  (i <> 0 -> ~ In i (map st_id (sc_strms c)) /\ i <= sc_highestID c) ->
  HInv idp' (upd_discard (upd_dec c d) i p m).
Proof.
  intros [] HF D. constructor; sc_cbn; auto.
  rewrite Forall_forall in *. intros s I. eapply P_weaken; eauto.
Qed.

(* the block nobody wants: refused stream, stream the server reset, rest of a failed block *)
Lemma discard_path idp c0 fr :
  HInv idp c0 -> (forall s, In s (sc_strms c0) -> st_headersFinished s = true) ->
  ~ In (sf_sid fr) (map st_id (sc_strms c0)) -> sf_sid fr <= sc_highestID c0 -> sf_sid fr <> 0 ->
  sc_wl_dead c0 = false ->
  (gcount (sc_out (fst (discard_or_break (discard_header_block dec_field cfg c0 fr)))) <= gcount (sc_out c0))%nat ->
  hdr_post c0 (if is_cont fr then sc_discardFields c0 else 0)
           ((if is_cont fr then sc_discardPrev c0 else []) ++ sf_payload fr) fr
           (fst (discard_or_break (discard_header_block dec_field cfg c0 fr))).
Proof.
  intros H HF NI LE NZ W G.
  pose proof (dd_discard_header_block _ dec_field cfg c0 fr) as DF.
  destruct (discard_header_block dec_field cfg c0 fr) as [c1 e]. cbn [fst snd] in DF.
  inversion DF as [c1' e' D F|fs d' n' carry' R]; subst.
  - exfalso.
    assert (D0 : dd c0 c1).
    { eapply dd_trans; [|exact D]. unfold is_cont. destruct (fkind_eqb _ _); [apply dd_refl | apply dd_upd_discard]. }
    pose proof (fatal_discard_or_break c0 c1 e' D0 F W). lia.
  - cbn [discard_or_break cont fst]. exists fs, n', carry'. split; [|split].
    + unfold is_cont. destruct (fkind_eqb (sf_kind fr) KCont); exact R.
    + destruct (fkind_eqb (sf_kind fr) KCont); apply eff_quiet; reflexivity.
    + intros _. fold (eh_of fr).
      assert (E : upd_discard (upd_dec (if fkind_eqb (sf_kind fr) KCont then c0 else upd_discard c0 (sc_discardID c0) [] 0) d')
                    (if eh_of fr then 0 else sf_sid fr) carry' n' =
                  upd_discard (upd_dec c0 d') (if eh_of fr then 0 else sf_sid fr) carry' n')
        by (destruct (fkind_eqb _ _); reflexivity).
      rewrite E. split; [split|].
      * eapply HInv_dd; [exact H | exact HF|]. destruct (eh_of fr); [congruence | auto].
      * unfold next_cur. destruct (eh_of fr); [congruence|]. intros _. unfold carry_at. sc_cbn.
        rewrite N.eqb_refl. reflexivity.
      * split; [apply oth_same_strms; reflexivity|]. split; [|split; [apply ids_post_same; reflexivity | sc_cbn; split; [lia | exact LE]]].
        intros y Iy Ey. exfalso. apply NI. rewrite <- Ey. apply in_map. exact Iy.
Qed.

Lemma HInv_put idp c s x : HInv idp c -> strms_search (sc_strms c) (st_id x) = Some s -> P idp x -> HInv idp (put c x).
Proof.
  intros [] SS Px. destruct (strms_search_In _ _ _ SS) as [Is Ei].
  constructor; unfold put; sc_cbn; auto.
  - rewrite strms_put_ids. assumption.
  - apply strms_put_Forall; assumption.
  - intros y I. destruct (strms_put_In _ _ _ I) as [->|I']; [rewrite <- Ei|]; auto.
  - rewrite strms_put_ids. assumption.
Qed.

Lemma HInv_weaken (idp idp' : N -> Prop) c : (forall id, idp id -> idp' id) -> HInv idp c -> HInv idp' c.
Proof.
  intros I []. constructor; auto. rewrite Forall_forall in *. intros s Is. eapply P_weaken_imp; [apply I | auto].
Qed.

(* if the only stream allowed to be in the middle of a block is not, nobody is *)
Lemma HInv_none sid idp' c s : HInv (eq sid) c -> strms_search (sc_strms c) sid = Some s -> st_headersFinished s = true ->
  HInv idp' c.
Proof.
  intros H SS Hf. pose proof H as [ND FP _ _ _ _]. destruct H. constructor; auto.
  rewrite Forall_forall in *. intros y Iy. eapply P_weaken; [apply FP; exact Iy|].
  destruct (st_headersFinished y) eqn:Hy; [reflexivity|].
  destruct (FP y Iy) as (_ & _ & _ & P4 & _). specialize (P4 Hy).
  pose proof (NoDup_search _ _ ND Iy) as Sy. rewrite <- P4, SS in Sy. inversion Sy; subst. congruence.
Qed.

Lemma validate_err s e : validate_request_pseudo_headers s = Some e -> e = EReset c_ProtocolError.
Proof.
  unfold validate_request_pseudo_headers. destruct (_ || _)%bool; [intro H; inversion H; reflexivity|].
  destruct (st_path s); intro H; inversion H; reflexivity.
Qed.

Lemma handle_state_not_rst fr s : fkind_eqb (sf_kind fr) KRst = false ->
  st_state (handle_state fr s) = SClosed -> st_state s = SClosed.
Proof.
  intros NR. unfold handle_state. rewrite NR.
  destruct (st_state s) eqn:E; repeat match goal with |- context [if ?b then _ else _] => destruct b end;
    cbn [set_state st_state]; rewrite ?E; congruence.
Qed.

Lemma handle_state_closed fr s : fkind_eqb (sf_kind fr) KRst = false -> st_state s = SClosed -> handle_state fr s = s.
Proof. intros NR E. unfold handle_state. rewrite NR, E. reflexivity. Qed.

(* after_frame on a stream that has just been closed without ever being answered *)
Lemma after_frame_closed c s fr wc : fkind_eqb (sf_kind fr) KRst = false -> st_state s = SClosed -> st_responded s = false ->
  after_frame cfg c s fr wc =
  (let c3 := close_stream (put c s) s in if wc && can_close_after_goaway c3 then brk c3 else cont c3).
Proof.
  intros NR E R. unfold after_frame. rewrite (handle_state_closed fr s NR E). unfold sstate_eqb. rewrite E, R. cbn [sstate_rank].
  change (4 =? 3) with false. cbn [andb negb]. rewrite E. cbn [sstate_rank]. change (4 =? 4) with true. reflexivity.
Qed.

Lemma hdr_kind_not_rst fr : is_hdr_kind (sf_kind fr) = true -> fkind_eqb (sf_kind fr) KRst = false.
Proof. unfold is_hdr_kind. destruct (sf_kind fr); cbn; congruence. Qed.

Lemma rank_ok_unanswered idp s fr : P idp s -> rank_ok s fr -> st_responded s = false.
Proof.
  intros (_ & P2 & _) [RK _]. destruct (st_responded s); [|reflexivity]. destruct (P2 eq_refl) as [Hf Rk].
  replace (3 <=? sstate_rank (st_state s)) with true in RK by lia. cbn [andb] in RK.
  apply negb_false_iff in RK. unfold continuing_headers in RK. rewrite Hf in RK. cbn [negb] in RK.
  rewrite andb_false_r in RK. discriminate.
Qed.

Lemma rank_ok_closed idp s fr : P idp s -> rank_ok s fr -> st_state s = SClosed ->
  st_headersFinished s = false /\ close_ok true s.
Proof.
  intros (_ & _ & _ & _ & P5) [RK _] E. split; [|auto]. rewrite E in RK. cbn [sstate_rank] in RK.
  change (3 <=? 4) with true in RK. cbn [andb] in RK. apply negb_false_iff in RK. unfold continuing_headers in RK.
  apply andb_prop in RK. destruct RK as [_ RK]. apply negb_true_iff in RK. exact RK.
Qed.

Lemma P_set_hdr_open idp s h : P idp s -> st_responded s = false -> hd_headersFinished h = false -> idp (st_id s) ->
  (st_state s = SClosed -> st_headersFinished s = false /\ close_ok true s) -> P idp (set_hdr s h).
Proof.
  intros (P1 & P2 & P3 & P4 & P5) R Hf I C. unfold P. cbn [set_hdr st_headersFinished st_prev st_responded st_handlerRunning st_id st_state].
  repeat split; try congruence.
  - exact P3.
  - intro E. destruct (C E) as [Hs OK]. intros K _. apply (OK K Hs).
Qed.

Lemma P_set_hdr_done idp s h : P idp s -> st_responded s = false ->
  P idp (set_headers_finished (set_hdr s (hd_set_prev h [])) true).
Proof.
  intros (P1 & P2 & P3 & P4 & P5) R. unfold P.
  cbn [set_headers_finished set_hdr get_hdr hd_set_prev st_headersFinished st_prev st_responded st_handlerRunning st_id st_state
       hd_prev hd_headersFinished].
  repeat split; try congruence.
  - exact P3.
  - intros _ _ Hf. discriminate.
Qed.

Lemma HInv_upd_dec idp c d : HInv idp c -> HInv idp (upd_dec c d).
Proof. apply HInv_ext; reflexivity. Qed.

(* the fragment goes to a stream of the table *)
(* the stream is worked on as s3 and written back over a connection that differs from c2 in the decoder and
   the discard registers only; what follows is a sequence of moves, whichever stream one watches *)
Lemma hdr_post_moves c2 s fr c3 s3 cn fs n' carry' :
  strms_search (sc_strms c2) (sf_sid fr) = Some s -> st_id s3 = sf_sid fr -> sf_sid fr <= sc_highestID c2 ->
  dd c2 c3 -> (forall own, hmvs own true (put c3 s3) cn) ->
  ref_run dec_field (eh_of fr) (sc_dec c2) (hn0 s fr) (hb0 s fr) fs (sc_dec c3) n' carry' ->
  (sc_sl_done cn = false -> HG cn (next_cur fr) n' carry' /\ own_post s fr fs carry' cn) ->
  hdr_post c2 (hn0 s fr) (hb0 s fr) fr cn.
Proof.
  intros SS E3 LE (d & i & p & m & ->) M R G. exists fs, n', carry'. pose proof (M 0) as M0. split; [|split].
  - rewrite (hmvs_dec _ _ _ _ _ M0). exact R.
  - eapply eff_trans; [|eapply hmvs_eff; exact M0]. apply eff_quiet; reflexivity.
  - intro Hd'. destruct (G Hd') as [G1 G3]. split; [exact G1|]. split; [|split; [|split]].
    + eapply oth_trans; [|eapply hmvs_other; [apply (M (sf_sid fr)) | exact Hd']].
      exact (oth_put _ _ (upd_discard (upd_dec c2 d) i p m) s3 E3).
    + unfold entry_before. rewrite SS. exact G3.
    + intros x Ix. left. pose proof (hmvs_ids _ _ _ _ _ M0 Hd' x Ix) as I2. rewrite sc_strms_put, strms_put_ids in I2. exact I2.
    + pose proof (hmvs_highest _ _ _ _ _ M0 Hd') as HM. split; [exact HM | exact (N.le_trans _ _ _ LE HM)].
Qed.

(* its own entry, if it is still there after the moves: what handle_frame made of it, whatever after_frame
   did to its state and flags *)
Lemma own_post_moves s fr a s3 cn fs carry' hF :
  NoDup (map st_id (sc_strms a)) -> strms_search (sc_strms a) (sf_sid fr) = Some s3 -> sf_sid fr <> 0 ->
  hmvs 0 true a cn -> sc_sl_done cn = false -> hfold cfg (hh1 s fr) fs = Some hF ->
  get_hdr s3 = (if eh_of fr then hd_set_fin (hd_set_prev hF []) true else hd_set_prev hF carry') ->
  st_recvBody s3 = st_recvBody s -> own_post s fr fs carry' cn.
Proof.
  intros ND SP NZ M0 Hd HF GH GR x Ix Ex. destruct (hmvs_own _ _ _ _ _ _ _ NZ ND SP M0 Hd Ix Ex) as [Er Eh].
  destruct (get_hdr_views _ _ Eh Er) as [GH' GR']. exists hF. split; [exact HF|]. rewrite GH', GR'. split; assumption.
Qed.

Lemma ftail_hdr c2 s fr wc :
  is_hdr_kind (sf_kind fr) = true -> st_id s = sf_sid fr ->
  HInv (eq (sf_sid fr)) c2 -> strms_search (sc_strms c2) (sf_sid fr) = Some s ->
  sc_wl_dead c2 = false -> (wc = true -> sc_closing c2 = true) ->
  (gcount (sc_out (fst (ftail dec_field cfg c2 s fr wc))) <= gcount (sc_out c2))%nat ->
  hdr_post c2 (hn0 s fr) (hb0 s fr) fr (fst (ftail dec_field cfg c2 s fr wc)).
Proof.
  intros HK Es H SS W WC G. unfold ftail in *.
  pose proof (handle_frame_hdr_spec _ dec_field cfg c2 s fr HK) as HS.
  destruct (handle_frame dec_field cfg c2 s fr) as [[c3 s3] e]. cbn [fst snd] in HS.
  destruct (strms_search_In _ _ _ SS) as [Is _].
  pose proof H as [ND FP IDS LAST DISC RING].
  assert (Ps : P (eq (sf_sid fr)) s) by (rewrite Forall_forall in FP; auto).
  assert (NZ : sf_sid fr <> 0) by (rewrite <- Es; apply IDS; exact Is).
  assert (LE : sf_sid fr <= sc_highestID c2) by (rewrite <- Es; exact (N.le_trans _ _ _ (proj1 (IDS s Is)) LAST)).
  assert (DN : sc_discardID c2 <> sf_sid fr).
  { intro E. assert (N0 : sc_discardID c2 <> 0) by congruence. destruct (DISC N0) as [NI _]. apply NI.
    rewrite E, <- Es. apply in_map. exact Is. }
  assert (NR := hdr_kind_not_rst fr HK).
  (* an evolution of s written back over the new decoder state *)
  assert (PUT : forall d x, st_id x = st_id s -> P (eq (sf_sid fr)) x ->
            HInv (eq (sf_sid fr)) (put (upd_dec c2 d) x) /\
            strms_search (sc_strms (put (upd_dec c2 d) x)) (sf_sid fr) = Some x).
  { intros d x Ex Px.
    assert (S0 : strms_search (sc_strms (upd_dec c2 d)) (st_id x) = Some s) by (rewrite Ex, Es; exact SS).
    split; [eapply HInv_put; [apply HInv_upd_dec; exact H | exact S0 | exact Px]|].
    rewrite sc_strms_put, <- Es, <- Ex. eapply search_put_same. exact S0. }
  inversion HS as [c1' s1' e' D I F|fs hF d' n' carry' RO EH R HF|fs hF d' n' RO EH R HF
                   |fs k v fs2 hF code d' n' carry' RO R HF FE]; subst.
  - (* a connection error *)
    exfalso. pose proof (fatal_ftail_rest c2 c3 s3 e' fr wc D F W). lia.
  - (* the block goes on *)
    set (s3 := set_hdr s (hd_set_prev hF carry')) in *.
    destruct (hfold_frame cfg _ _ _ HF) as (_ & BF & HFF). cbn [hh1 hd_headersFinished] in HFF. rewrite hh1_bf in BF.
    pose proof (ref_run_count _ _ _ _ _ _ _ _ _ _ R) as CNT.
    assert (R0 := rank_ok_unanswered _ _ _ Ps RO).
    destruct (PUT d' s3 eq_refl) as [HV SP].
    { apply P_set_hdr_open; [exact Ps | exact R0 | exact HFF | symmetry; exact Es | apply (rank_ok_closed _ _ _ Ps RO)]. }
    assert (M : forall own, hmvs own true (put (upd_dec c2 d') s3) (fst (ftail_rest cfg (upd_dec c2 d') s3 None fr wc))).
    { intro own. apply (hmvs_ftail_rest _ dec_field enc_set_max cfg own).
      - exists s. rewrite <- Es in SS. exact SS.
      - exact WC.
      - intros _ CL. apply (handle_state_not_rst _ _ NR) in CL.
        destruct (rank_ok_closed _ _ _ Ps RO CL) as [Hs OK]. intros K _. apply (OK K Hs).
      - intros code Ec. discriminate Ec. }
    apply (hdr_post_moves c2 s fr (upd_dec c2 d') s3 _ fs n' carry' SS Es LE (dd_upd_dec _ _ _) M); [rewrite EH; exact R|].
    intro Hd'. unfold next_cur. rewrite EH. split; [split|].
    + eapply hmvs_HInv; [apply (M 0) | exact HV | exact Hd'].
    + intros _. eapply hmvs_carry; [apply (M 0) | exact HV | exact Hd'|].
      unfold carry_at. rewrite SP. replace (sc_discardID (put (upd_dec c2 d') s3) =? sf_sid fr) with false
        by (symmetry; apply N.eqb_neq; exact DN).
      cbn [s3 set_hdr st_headersFinished hd_set_prev hd_headersFinished st_blockFields hd_blockFields st_prev hd_prev].
      rewrite HFF, BF, <- CNT. reflexivity.
    + eapply own_post_moves; [apply HV | exact SP | exact NZ | apply (M 0) | exact Hd' | exact HF
        | rewrite EH; apply get_hdr_set_hdr | reflexivity].
  - (* the block is complete *)
    set (s3 := set_headers_finished (set_hdr s (hd_set_prev hF [])) true) in *.
    assert (R0 := rank_ok_unanswered _ _ _ Ps RO).
    destruct (PUT d' s3 eq_refl) as [HV SP]; [apply P_set_hdr_done; assumption|].
    assert (M : forall own, hmvs own true (put (upd_dec c2 d') s3)
                  (fst (ftail_rest cfg (upd_dec c2 d') s3 (validate_request_pseudo_headers s3) fr wc))).
    { intro own. apply (hmvs_ftail_rest _ dec_field enc_set_max cfg own).
      - exists s. rewrite <- Es in SS. exact SS.
      - exact WC.
      - intros _ _ _ Hf. discriminate Hf.
      - intros code Ec. apply validate_err in Ec. discriminate Ec. }
    apply (hdr_post_moves c2 s fr (upd_dec c2 d') s3 _ fs n' [] SS Es LE (dd_upd_dec _ _ _) M); [rewrite EH; exact R|].
    intro Hd'. unfold next_cur. rewrite EH. split; [split; [|congruence]|].
    + eapply hmvs_HInv; [apply (M 0) | exact (HInv_none _ _ _ _ HV SP eq_refl) | exact Hd'].
    + eapply own_post_moves; [apply HV | exact SP | exact NZ | apply (M 0) | exact Hd' | exact HF
        | rewrite EH; apply get_hdr_finished | reflexivity].
  - (* a stream error at a field: the stream is reset and closed, the rest of the block has been decoded *)
    set (s3 := set_hdr s hF) in *.
    set (c3 := upd_discard (upd_dec c2 d') (if eh_of fr then 0 else st_id s) carry' n') in *.
    destruct (hfold_frame cfg _ _ _ HF) as (_ & _ & HFF). cbn [hh1 hd_headersFinished] in HFF.
    assert (R0 := rank_ok_unanswered _ _ _ Ps RO).
    assert (M : forall own, hmvs own true (put c3 s3) (fst (ftail_rest cfg c3 s3 (Some (EReset code)) fr wc))).
    { intro own. apply (hmvs_ftail_rest _ dec_field enc_set_max cfg own).
      - exists s. rewrite <- Es in SS. exact SS.
      - exact WC.
      - intro Ec. discriminate Ec.
      - intros code0 Ec. discriminate Ec. }
    apply (hdr_post_moves c2 s fr c3 s3 _ (fs ++ (k, v) :: fs2) n' carry' SS Es LE); [eexists _, _, _, _; reflexivity | exact M | exact R|].
    clear M. unfold ftail_rest. cbn [write_error].
    set (s5 := set_state (set_state (set_weReset s3) SClosed) SClosed).
    set (c4 := write_reset c3 (st_id s3) code).
    rewrite (after_frame_closed c4 s5 fr wc NR eq_refl) by exact R0. cbv zeta.
    set (cc := close_stream (put c4 s5) s5).
    destruct (wc && can_close_after_goaway cc)%bool; [intro Hd'; discriminate Hd'|]. intros _. cbn [cont fst].
    (* c4 is c2 but for the decoder, the registers and the output *)
    destruct (hsame_write_reset _ c3 (st_id s3) code) as (_ & EI & EP & EF & ES & ER & EL & EH & _). fold c4 in EI, EP, EF, ES, ER, EL, EH.
    assert (S5 : strms_search (sc_strms c4) (st_id s5) = Some s) by (rewrite ES; rewrite <- Es in SS; exact SS).
    assert (ND5 : NoDup (map st_id (sc_strms (put c4 s5)))) by (rewrite sc_strms_put, strms_put_ids, ES; exact ND).
    pose proof (close_stream_discard _ (put c4 s5) s5) as CD. fold cc in CD.
    replace (st_headersFinished s5) with false in CD by (symmetry; exact HFF).
    replace (sc_discardID (put c4 s5)) with (if eh_of fr then 0 else st_id s) in CD by (symmetry; exact EI).
    cbn [s5 s3 set_state set_weReset set_hdr st_weReset st_id andb negb] in CD.
    assert (ED : sc_discardID cc = sf_sid fr /\ (eh_of fr = false -> sc_discardPrev cc = carry' /\ sc_discardFields cc = n')).
    { destruct (eh_of fr).
      - replace (0 =? st_id s) with false in CD by (symmetry; apply N.eqb_neq; congruence).
        injection CD as E1 _ _. split; [rewrite E1; exact Es | discriminate].
      - rewrite N.eqb_refl in CD. injection CD as E1 E2 E3. rewrite E1, E2, E3, EP, EF. split; [exact Es | intros _; split; reflexivity]. }
    destruct ED as [ED EC].
    assert (HC : HInv (eq (next_cur fr)) cc).
    { apply (HInv_close_stream _ _ (put c4 s5) s5 s5).
      - rewrite sc_strms_put. eapply search_put_same. exact S5.
      - exact ND5.
      - rewrite sc_strms_put, strms_del_put, ES. apply Forall_forall. intros y Iy.
        rewrite Forall_forall in FP. pose proof (FP y (strms_del_In _ _ _ Iy)) as Py.
        eapply P_weaken; [exact Py|]. destruct (st_headersFinished y) eqn:Hy; [reflexivity|].
        destruct Py as (_ & _ & _ & P4 & _). specialize (P4 Hy). exfalso.
        apply (iso_del_gone _ (st_id s5) ND). apply (in_map st_id) in Iy. rewrite <- P4, <- Es in Iy. exact Iy.
      - intros y Iy. rewrite sc_strms_put in Iy. replace (sc_lastID (put c4 s5)) with (sc_lastID c2) by (symmetry; exact EL).
        destruct (strms_put_In _ _ _ Iy) as [->|Iy']; [apply (IDS s Is) | rewrite ES in Iy'; apply IDS; exact Iy'].
      - replace (sc_lastID (put c4 s5)) with (sc_lastID c2) by (symmetry; exact EL).
        replace (sc_highestID (put c4 s5)) with (sc_highestID c2) by (symmetry; exact EH). exact LAST.
      - replace (sc_discardID (put c4 s5)) with (if eh_of fr then 0 else st_id s) by (symmetry; exact EI).
        destruct (eh_of fr); intros N0 N1; exfalso; [apply N0 | apply N1]; reflexivity.
      - intros e' Ie. replace (sc_highestID (put c4 s5)) with (sc_highestID c2) by (symmetry; exact EH).
        apply RING. replace (sc_ring c2) with (sc_ring c4) by exact ER. exact Ie. }
    split; [split; [exact HC|]|].
    + unfold next_cur. destruct (eh_of fr); [congruence|]. intros _. destruct (EC eq_refl) as [E2 E3].
      unfold carry_at. rewrite ED, E2, E3, N.eqb_refl. reflexivity.
    + (* the stream is gone *)
      intros y Iy Ey. exfalso. destruct HC as [_ _ _ _ DC _]. rewrite ED in DC. destruct (DC NZ) as [NI _].
      apply NI. rewrite <- Ey. apply in_map. exact Iy.
Qed.

Lemma sc_sl_done_implicit_close fuel : forall c sid, sc_sl_done (implicit_close fuel c sid) = sc_sl_done c.
Proof.
  induction fuel as [|fuel IH]; intros c sid; cbn [implicit_close]; [reflexivity|].
  destruct (sc_strms c) as [|n t]; [reflexivity|]. destruct (_ && _ && _)%bool; [|reflexivity].
  rewrite IH, sc_sl_done_write_reset. apply sc_sl_done_close_stream.
Qed.

(* the same after moves that leave the frame's stream where it is *)
Lemma ftail_hdr_moves c1 c2 s fr wc :
  is_hdr_kind (sf_kind fr) = true -> st_id s = sf_sid fr ->
  HInv (eq (sf_sid fr)) c1 -> strms_search (sc_strms c1) (sf_sid fr) = Some s ->
  sc_wl_dead c1 = false -> (wc = true -> sc_closing c1 = true) ->
  hmvs (sf_sid fr) true c1 c2 -> sc_sl_done c2 = false -> strms_search (sc_strms c2) (sf_sid fr) = Some s ->
  sc_closing c2 = sc_closing c1 ->
  (gcount (sc_out (fst (ftail dec_field cfg c2 s fr wc))) <= gcount (sc_out c1))%nat ->
  hdr_post c1 (hn0 s fr) (hb0 s fr) fr (fst (ftail dec_field cfg c2 s fr wc)).
Proof.
  intros HK Es H SS W WC M Hd2 SS2 CL G.
  pose proof (hmvs_base _ _ _ _ _ M) as (OX & W2 & _). apply oext_gcount in OX.
  apply (hdr_post_pre c1 c2).
  - eapply hmvs_eff; exact M.
  - eapply hmvs_dec; exact M.
  - eapply hmvs_other; [exact M | exact Hd2].
  - unfold entry_before. rewrite SS, SS2. reflexivity.
  - intros y Iy. left. exact (hmvs_ids _ _ _ _ _ M Hd2 y Iy).
  - eapply hmvs_highest; [exact M | exact Hd2].
  - apply ftail_hdr; [exact HK | exact Es | eapply hmvs_HInv; [exact M | exact H | exact Hd2] | exact SS2
      | rewrite W2; exact W | rewrite CL; exact WC | exact (Nat.le_trans _ _ _ G OX)].
Qed.

Lemma fwork_hdr c1 s fr wc :
  is_hdr_kind (sf_kind fr) = true -> st_id s = sf_sid fr ->
  HInv (eq (sf_sid fr)) c1 -> strms_search (sc_strms c1) (sf_sid fr) = Some s ->
  sc_sl_done c1 = false -> sc_wl_dead c1 = false -> (wc = true -> sc_closing c1 = true) ->
  (is_cont fr = false -> forall p, get_previous_headers (sc_strms c1) = Some p -> st_headersFinished p = true) ->
  (gcount (sc_out (fst (fwork dec_field cfg c1 s fr wc))) <= gcount (sc_out c1))%nat ->
  hdr_post c1 (hn0 s fr) (hb0 s fr) fr (fst (fwork dec_field cfg c1 s fr wc)).
Proof.
  intros HK Es H SS Hd W WC GP G. unfold fwork in *.
  destruct (fkind_eqb (sf_kind fr) KHeaders) eqn:KH; [|apply ftail_hdr; assumption].
  assert (NC : is_cont fr = false) by (unfold is_cont; destruct (sf_kind fr); try discriminate KH; reflexivity).
  (* the block of the previous HEADERS stream is complete: the prelude is implicit_close *)
  assert (PRE : match get_previous_headers (sc_strms c1) with
                | Some p => negb (st_headersFinished p) = false
                | None => True
                end).
  { destruct (get_previous_headers (sc_strms c1)) as [p|] eqn:GPE; [|exact I]. rewrite (GP NC p eq_refl). reflexivity. }
  destruct (hmvs_implicit_close _ dec_field enc_set_max (sf_sid fr) true (S (length (sc_strms c1))) c1 (st_id s)) as (M & SR & CL).
  assert (SS2 : strms_search (sc_strms (implicit_close (S (length (sc_strms c1))) c1 (st_id s))) (sf_sid fr) = Some s)
    by (rewrite SR; [exact SS | rewrite Es; apply N.le_refl]).
  destruct (get_previous_headers (sc_strms c1)) as [p|]; [rewrite PRE in *|];
    (eapply ftail_hdr_moves; [exact HK | exact Es | exact H | exact SS | exact W | exact WC | exact M
       | rewrite sc_sl_done_implicit_close; exact Hd | exact SS2 | exact CL | exact G]).
Qed.

Lemma get_previous_headers_new l s p : st_orig s = KHeaders -> get_previous_headers (l ++ [s]) = Some p -> In p l.
Proof.
  unfold get_previous_headers. intros O H. rewrite rev_app_distr in H. cbn [rev app filter] in H. rewrite O in H. cbn [fkind_eqb] in H.
  destruct (filter (fun s => fkind_eqb (st_orig s) KHeaders) (rev l)) as [|b t] eqn:E; try discriminate.
  inversion H; subst. apply in_rev. assert (I : In p (filter (fun s => fkind_eqb (st_orig s) KHeaders) (rev l))) by (rewrite E; left; reflexivity).
  apply filter_In in I. tauto.
Qed.

Lemma in_ring_In c id : in_ring c id = true -> exists e, In e (sc_ring c) /\ fst e = id.
Proof.
  unfold in_ring. intro H. apply existsb_exists in H. destruct H as (e & I & E). exists e. split; [exact I | lia].
Qed.

Lemma HInv_allhf idp idp' c : HInv idp c -> (forall s, In s (sc_strms c) -> st_headersFinished s = true) -> HInv idp' c.
Proof.
  intros [] HF. constructor; auto. rewrite Forall_forall in *. intros s I. eapply P_weaken; eauto.
Qed.

Lemma search_none_notin l id : strms_search l id = None -> ~ In id (map st_id l).
Proof.
  intros H I. apply in_map_iff in I. destruct I as (s & E & Is). eapply strms_search_None; eassumption.
Qed.

Lemma P_new id w k t (idp : N -> Prop) : idp id -> P idp (set_orig_started (new_stream id w) k t).
Proof. intro I. unfold P. cbn. repeat split; try congruence; auto. Qed.

(* HEADERS for a new stream that the server refuses: RST_STREAM(REFUSED_STREAM), the block is decoded and dropped *)
Lemma refused_hdr c fr :
  is_cont fr = false -> sf_sid fr <> 0 -> sc_sl_done c = false -> sc_wl_dead c = false ->
  HInv (eq 0) c -> (forall s, In s (sc_strms c) -> st_headersFinished s = true) ->
  ~ In (sf_sid fr) (map st_id (sc_strms c)) -> sc_highestID c < sf_sid fr ->
  let cr := mark_closed (write_reset (upd_highestID c (sf_sid fr)) (sf_sid fr) c_RefusedStreamError) (sf_sid fr) true in
  (gcount (sc_out (fst (discard_or_break (discard_header_block dec_field cfg cr fr)))) <= gcount (sc_out c))%nat ->
  hdr_post c 0 ([] ++ sf_payload fr) fr (fst (discard_or_break (discard_header_block dec_field cfg cr fr))).
Proof.
  intros IC NZ Hd W H AH NI HI cr G.
  assert (Mr : hmvs (sf_sid fr) true c cr).
  { eapply hmvs_trans; [apply hmvs_one, hm_highest; exact HI|].
    eapply hmvs_trans; [apply hmvs_same, (hsame_write_reset _ (upd_highestID c (sf_sid fr)) (sf_sid fr) c_RefusedStreamError)|].
    apply hmvs_one, hm_mark. rewrite sc_highestID_write_reset. apply N.le_refl. }
  assert (ES : sc_strms cr = sc_strms c) by (unfold cr; rewrite sc_strms_mark_closed, sc_strms_write_reset; reflexivity).
  assert (EW : sc_initWin cr = sc_initWin c) by (unfold cr; rewrite sc_initWin_mark_closed, sc_initWin_write_reset; reflexivity).
  assert (EH : sc_highestID cr = sf_sid fr) by (unfold cr; rewrite sc_highestID_mark_closed, sc_highestID_write_reset; reflexivity).
  assert (Hdr : sc_sl_done cr = false) by (unfold cr; rewrite sc_sl_done_mark_closed, sc_sl_done_write_reset; exact Hd).
  assert (Or : sc_out cr = ORst (sf_sid fr) c_RefusedStreamError :: sc_out c).
  { unfold cr. rewrite sc_out_mark_closed, sc_out_write_reset, sc_out_emit. sc_cbn. rewrite W, Hd. reflexivity. }
  clearbody cr. pose proof (hmvs_base _ _ _ _ _ Mr) as (_ & Wr & _ & _ & _ & Nr & _).
  apply (hdr_post_pre c cr).
  - eapply hmvs_eff; exact Mr.
  - eapply hmvs_dec; exact Mr.
  - apply oth_same_strms. exact ES.
  - unfold entry_before. rewrite ES, EW, Nr. reflexivity.
  - apply ids_post_same. exact ES.
  - eapply hmvs_highest; [exact Mr | exact Hdr].
  - pose proof (discard_path (eq 0) cr fr) as DP. rewrite IC in DP. apply DP.
    + eapply hmvs_HInv; [exact Mr | exact H | exact Hdr].
    + rewrite ES. exact AH.
    + rewrite ES. exact NI.
    + rewrite EH. apply N.le_refl.
    + exact NZ.
    + rewrite Wr. exact W.
    + rewrite Or, gcount_cons. exact G.
Qed.

(* HEADERS opens a stream: a new table entry, its id above every id seen so far *)
Lemma opened_hdr c fr wc s c3 :
  is_hdr_kind (sf_kind fr) = true -> is_cont fr = false -> sf_sid fr <> 0 -> sc_sl_done c = false -> sc_wl_dead c = false ->
  HInv (eq 0) c -> (forall x, In x (sc_strms c) -> st_headersFinished x = true) ->
  strms_search (sc_strms c) (sf_sid fr) = None -> sc_highestID c < sf_sid fr -> (wc = true -> sc_closing c = true) ->
  s = set_orig_started (new_stream (sf_sid fr) (sc_initWin c)) KHeaders (sc_now c) ->
  c3 = upd_open (upd_strms (upd_lastID (upd_highestID c (sf_sid fr)) (sf_sid fr)) (sc_strms c ++ [s])) (sc_open c + 1) ->
  (gcount (sc_out (fst (fwork dec_field cfg c3 s fr wc))) <= gcount (sc_out c))%nat ->
  hdr_post c 0 ([] ++ sf_payload fr) fr (fst (fwork dec_field cfg c3 s fr wc)).
Proof.
  intros HK IC NZ Hd W H AH NF HI WC Es E3 G.
  pose proof H as [ND FP IDS LAST DISC RING]. pose proof (search_none_notin _ _ NF) as NI.
  assert (Is3 : st_id s = sf_sid fr) by (rewrite Es; reflexivity).
  assert (KHv : st_orig s = KHeaders) by (rewrite Es; reflexivity).
  assert (PV : st_prev s = []) by (rewrite Es; reflexivity).
  assert (ES : sc_strms c3 = sc_strms c ++ [s]) by (rewrite E3; reflexivity).
  assert (S3 : strms_search (sc_strms c3) (sf_sid fr) = Some s).
  { rewrite ES, <- Is3. apply search_app_last. rewrite Is3. exact NF. }
  assert (H3 : HInv (eq (sf_sid fr)) c3).
  { constructor; rewrite ?ES, ?E3; sc_cbn.
    - rewrite map_app. cbn [map]. rewrite Is3. apply NoDup_app_one; [exact ND | exact NI].
    - apply Forall_app. split.
      + rewrite Forall_forall in *. intros y Iy. eapply P_weaken; [apply FP; exact Iy | apply AH; exact Iy].
      + constructor; [|constructor]. rewrite Es. apply P_new. reflexivity.
    - intros y Iy. apply in_app_or in Iy. destruct Iy as [Iy|[<-|[]]].
      + destruct (IDS y Iy) as [LY NY]. split; [|exact NY].
        exact (N.le_trans _ _ _ LY (N.le_trans _ _ _ LAST (N.lt_le_incl _ _ HI))).
      + rewrite Is3. split; [apply N.le_refl | exact NZ].
    - apply N.le_refl.
    - intro D0. destruct (DISC D0) as [NId LEd]. split; [|exact (N.le_trans _ _ _ LEd (N.lt_le_incl _ _ HI))].
      rewrite map_app. cbn [map]. intro I. apply in_app_or in I. destruct I as [I|[I|[]]]; [tauto|].
      rewrite <- I, Is3 in LEd. exact (N.lt_irrefl _ (N.le_lt_trans _ _ _ LEd HI)).
    - intros e Ie. exact (N.le_trans _ _ _ (RING e Ie) (N.lt_le_incl _ _ HI)). }
  pose proof (fwork_hdr c3 s fr wc HK Is3 H3 S3) as FW. unfold hn0, hb0 in FW. rewrite IC, PV in FW.
  apply (hdr_post_pre c c3).
  - rewrite E3. apply eff_quiet; reflexivity.
  - rewrite E3. reflexivity.
  - intros y Iy NO. rewrite ES in Iy. apply in_app_or in Iy. destruct Iy as [Iy|[<-|[]]]; [exists y; auto|].
    exfalso. apply NO. exact Is3.
  - unfold entry_before. rewrite S3, NF. exact Es.
  - intros y Iy. rewrite ES in Iy. apply in_app_or in Iy.
    destruct Iy as [Iy|[<-|[]]]; [left; apply in_map; exact Iy | right; split; [exact Is3 | exact HI]].
  - rewrite E3. sc_cbn. apply N.lt_le_incl. exact HI.
  - apply FW.
    + rewrite E3. exact Hd.
    + rewrite E3. exact W.
    + rewrite E3. exact WC.
    + intros _ p GP. apply AH. rewrite ES in GP. eapply get_previous_headers_new; [exact KHv | exact GP].
    + replace (sc_out c3) with (sc_out c) by (rewrite E3; reflexivity). exact G.
Qed.

Theorem sl_frame_hdr c fr cur n carry :
  is_hdr_frame fr = true -> sc_sl_done c = false -> sc_wl_dead c = false -> HG c cur n carry ->
  (is_cont fr = true -> cur = sf_sid fr) -> (is_cont fr = false -> cur = 0) ->
  (gcount (sc_out (fst (sl_frame dec_field enc_set_max cfg c fr))) <= gcount (sc_out c))%nat ->
  hdr_post c (if is_cont fr then n else 0) ((if is_cont fr then carry else []) ++ sf_payload fr) fr
           (fst (sl_frame dec_field enc_set_max cfg c fr)).
Proof.
  intros HF Hd W [H CA] KC KH G. unfold is_hdr_frame in HF. apply andb_prop in HF. destruct HF as [Z0 HK].
  apply negb_true_iff in Z0. assert (NZ : sf_sid fr <> 0) by lia.
  unfold sl_frame in *. rewrite Z0 in *.
  pose proof H as [ND FP IDS LAST DISC RING].
  assert (GA : forall c' sid code, sc_wl_dead c' = false -> sc_out c' = sc_out c ->
            (gcount (sc_out (write_goaway c' sid code)) <= gcount (sc_out c))%nat -> False).
  { intros c' sid code W' E L. pose proof (gcount_write_goaway _ c' sid code W') as L'. rewrite E in L'.
    exact (Nat.lt_irrefl _ (Nat.lt_le_trans _ _ _ L' L)). }
  destruct (is_cont fr) eqn:IC.
  - (* CONTINUATION: the block in progress is this stream's *)
    specialize (KC eq_refl). subst cur. specialize (CA NZ).
    assert (KCe : fkind_eqb (sf_kind fr) KCont = true) by exact IC.
    rewrite KCe in *. cbn [andb] in *. unfold carry_at in CA.
    destruct (sc_discardID c =? sf_sid fr) eqn:ED.
    + (* the block is being thrown away *)
      pose proof (proj1 (N.eqb_eq _ _) ED) as EDe.
      assert (D0 : sc_discardID c <> 0) by (rewrite EDe; exact NZ).
      rewrite (N.eqb_sym (sf_sid fr) (sc_discardID c)), ED, (proj2 (N.eqb_neq _ _) D0) in G |- *. cbn [negb andb] in *.
      inversion CA; subst n carry.
      destruct (DISC D0) as [NI LE]. rewrite EDe in NI, LE.
      assert (AH : forall s, In s (sc_strms c) -> st_headersFinished s = true).
      { intros s Is. rewrite Forall_forall in FP. destruct (FP s Is) as (_ & _ & _ & P4 & _).
        destruct (st_headersFinished s); [reflexivity|]. exfalso. apply NI. rewrite (P4 eq_refl). apply in_map. exact Is. }
      pose proof (discard_path (eq (sf_sid fr)) c fr H AH NI LE NZ W G) as DP. rewrite IC in DP. exact DP.
    + (* the block belongs to a stream of the table *)
      rewrite (N.eqb_sym (sf_sid fr) (sc_discardID c)), ED, andb_false_r in G |- *.
      destruct (strms_search (sc_strms c) (sf_sid fr)) as [s|] eqn:SS; [|discriminate].
      destruct (st_headersFinished s) eqn:Hs; [discriminate|]. inversion CA; subst n carry.
      destruct (strms_search_In _ _ _ SS) as [Is Es].
      destruct (IDS s Is) as [LS _]. rewrite Es in LS. rewrite (proj2 (N.leb_le _ _) LS) in G |- *.
      cbv zeta in *.
      change (hdr_post c (st_blockFields s) (st_prev s ++ sf_payload fr) fr (fst (fwork dec_field cfg c s fr (sc_closing c)))).
      change (gcount (sc_out (fst (fwork dec_field cfg c s fr (sc_closing c)))) <= gcount (sc_out c))%nat in G.
      pose proof (fwork_hdr c s fr (sc_closing c) HK Es H SS Hd W (fun x => x)) as FW.
      unfold hn0, hb0 in FW. rewrite IC in FW. apply FW; [intro; discriminate | exact G].
  - (* HEADERS: no block is in progress *)
    specialize (KH eq_refl). subst cur.
    assert (KCe : fkind_eqb (sf_kind fr) KCont = false) by exact IC.
    assert (KHe : fkind_eqb (sf_kind fr) KHeaders = true).
    { unfold is_hdr_kind in HK. rewrite KCe in HK. rewrite orb_false_r in HK. exact HK. }
    assert (KRe : fkind_eqb (sf_kind fr) KRst = false) by (apply hdr_kind_not_rst; exact HK).
    assert (KPe : fkind_eqb (sf_kind fr) KPriority = false) by (destruct (sf_kind fr); try discriminate KHe; reflexivity).
    assert (AH : forall s, In s (sc_strms c) -> st_headersFinished s = true).
    { apply all_hf_of_P0; [intros s Is; apply IDS; exact Is | exact FP]. }
    rewrite KCe in *. cbn [andb] in *. cbv zeta in *.
    change (match ?pre with inl r => r | inr (c1, s) => _ end) with
      (match pre with inl r => r | inr (c1, s) => fwork dec_field cfg c1 s fr (sc_closing c) end) in G |- *.
    destruct (if sf_sid fr <=? sc_lastID c then strms_search (sc_strms c) (sf_sid fr) else None) as [s|] eqn:Found.
    + (* trailers, or a second HEADERS, on a stream of the table *)
      assert (SS : strms_search (sc_strms c) (sf_sid fr) = Some s) by (destruct (_ <=? _); [exact Found | discriminate]).
      destruct (strms_search_In _ _ _ SS) as [Is Es].
      pose proof (fwork_hdr c s fr (sc_closing c) HK Es (HInv_allhf _ _ _ H AH) SS Hd W (fun x => x)) as FW.
      unfold hn0, hb0 in FW. rewrite IC in FW.
      assert (PV : st_prev s = []).
      { rewrite Forall_forall in FP. destruct (FP s Is) as (P1 & _). apply P1. apply AH. exact Is. }
      rewrite PV in FW. apply FW; [|exact G].
      intros _ p GP. apply AH. eapply get_previous_headers_In. exact GP.
    + assert (NF : strms_search (sc_strms c) (sf_sid fr) = None).
      { destruct (sf_sid fr <=? sc_lastID c) eqn:Le; [exact Found|].
        destruct (strms_search (sc_strms c) (sf_sid fr)) as [s|] eqn:SS; [|reflexivity].
        destruct (strms_search_In _ _ _ SS) as [Is Es]. destruct (IDS s Is) as [LS _]. rewrite Es in LS.
        apply N.leb_gt in Le. destruct (N.lt_irrefl _ (N.le_lt_trans _ _ _ LS Le)). }
      pose proof (search_none_notin _ _ NF) as NI.
      rewrite KRe, KPe, KHe in *. cbn [andb] in *.
      destruct (in_ring c (sf_sid fr)) eqn:IR.
      { (* a stream that was closed before *)
        assert (KHv : sf_kind fr = KHeaders) by (destruct (sf_kind fr); try discriminate KHe; reflexivity).
        rewrite KHv in *.
        destruct (match ring_find c (sf_sid fr) with Some b => b | None => false end).
        - destruct (in_ring_In _ _ IR) as (e & Ie & Ee). pose proof (RING e Ie) as LE. rewrite Ee in LE.
          pose proof (discard_path (eq 0) c fr H AH NI LE NZ W G) as DP. rewrite IC in DP. exact DP.
        - exfalso. exact (GA c _ _ W eq_refl G). }
      destruct (sf_sid fr <=? sc_highestID c) eqn:HI; [exfalso; exact (GA c _ _ W eq_refl G)|].
      apply N.leb_gt in HI.
      destruct ((cf_maxStreams cfg <=? sc_open (upd_highestID c (sf_sid fr)))%Z || sc_closing c)%bool;
        [apply (refused_hdr c fr IC NZ Hd W H AH NI HI); exact G|].
      destruct (sf_sid fr <? sc_lastID (upd_highestID c (sf_sid fr))); [exfalso; exact (GA (upd_highestID c (sf_sid fr)) _ _ W eq_refl G)|].
      destruct (sc_closing (upd_highestID c (sf_sid fr))) eqn:CL; [apply (refused_hdr c fr IC NZ Hd W H AH NI HI); exact G|].
      replace (sf_kind fr) with KHeaders in G |- * by (destruct (sf_kind fr); try discriminate KHe; reflexivity).
      apply (opened_hdr c fr (sc_closing c) _ _ HK IC NZ Hd W H AH NF HI); [congruence | reflexivity | reflexivity | exact G].
Qed.

End HdrStep.

Arguments HG {hstate}. Arguments hdr_post {hstate}.
