(* C15, finite part: everything that depends on the concrete value of the generated tables.
   Each fact is a boolean check over a finite domain, evaluated once by vm_compute and
   lifted to a quantified statement. The checks that look at every pair of symbols, or at every
   entry of the decoding table, run over a list built once: looking a symbol up in the
   specification's tables costs as much as the symbol is large. *)
From Coq Require Import List NArith Bool Lia.
From H2V Require Import Base.Bytes Base.MachineInt Base.Result Gen.GenHuffman
  Spec.XNetTables Spec.Rfc7541Huffman Impl.Huffman Proofs.HuffmanBits.
Import ListNotations.
Local Open Scope N_scope.

(* the package tables are the RFC tables *)
Lemma codes_eq : huffman_codes = rfc_codes.
Proof. vm_compute. reflexivity. Qed.

Lemma lens_eq : huffman_code_len = rfc_code_len.
Proof. vm_compute. reflexivity. Qed.

Lemma code_of_rfc b : code_of b = rfc_code b.
Proof. unfold code_of, rfc_code. now rewrite codes_eq. Qed.

Lemma len_of_rfc b : len_of b = rfc_len b.
Proof. unfold len_of, rfc_len. now rewrite lens_eq. Qed.

Definition sym_okb (a : N) : bool :=
  (5 <=? rfc_len a) && (rfc_len a <=? 30) && (rfc_code a <? 2 ^ rfc_len a).

Lemma sym_ok_check : forallb (fun i => sym_okb (N.of_nat i)) (seq 0 256) = true.
Proof. vm_compute. reflexivity. Qed.

Lemma sym_ok a : a < 256 -> 5 <= rfc_len a <= 30 /\ rfc_code a < 2 ^ rfc_len a.
Proof.
  intros H. pose proof sym_ok_check as C. rewrite forallb_forall in C.
  specialize (C (N.to_nat a)). rewrite N2Nat.id in C.
  assert (sym_okb a = true) as S by (apply C, in_seq; lia).
  unfold sym_okb in S. rewrite !andb_true_iff in S. destruct S as [[S1 S2] S3].
  apply N.leb_le in S1, S2. apply N.ltb_lt in S3. auto.
Qed.

Lemma code_bits_length a : length (code_bits a) = N.to_nat (rfc_len a).
Proof. apply bits_of_length. Qed.

Lemma code_bits_len_bounds a : a < 256 -> (5 <= length (code_bits a) <= 30)%nat.
Proof. intros H. rewrite code_bits_length. pose proof (sym_ok a H). lia. Qed.

(* canonical / Kraft / prefix-free *)
Lemma eos_bits_ones : eos_bits = ones 30.
Proof. vm_compute. reflexivity. Qed.

Lemma eos_is_30_ones : rfc_eos_len = 30 /\ rfc_eos_code = 2 ^ 30 - 1.
Proof. split; reflexivity. Qed.

Lemma lens_range_check : forallb (fun l => (1 <=? l) && (l <=? 30)) rfc_lens_eos = true.
Proof. vm_compute. reflexivity. Qed.

(* canonical_code with each symbol's length and width 2^(30-len) looked up once *)
Definition canonical_table (lens : list N) : list N :=
  let ps := combine (seq 0 (length lens)) (map (fun l => (l, 2 ^ (30 - l))) lens) in
  map (fun '(s, (ls, _)) =>
         N.shiftr (fold_right (fun '(t, (lt, w)) acc =>
                                 if (lt <? ls) || ((lt =? ls) && (t <? s)%nat) then w + acc else acc) 0 ps)
                  (30 - ls)) ps.

Lemma combine_seq_nth {A B} (f : A -> B) (l : list A) d :
  forall k, combine (seq k (length l)) (map f l) = map (fun t => (t, f (nth (t - k) l d))) (seq k (length l)).
Proof.
  induction l as [|x l IH]; intro k; [reflexivity|]. cbn [length seq map combine]. rewrite Nat.sub_diag, IH. f_equal.
  apply map_ext_in. intros t Ht. apply in_seq in Ht. replace (t - k)%nat with (S (t - S k)) by lia. reflexivity.
Qed.

Lemma canonical_table_eq lens : canonical_table lens = map (canonical_code lens) (seq 0 (length lens)).
Proof.
  unfold canonical_table. rewrite (combine_seq_nth _ lens 0 0), map_map. apply map_ext. intro s.
  unfold canonical_code, precedes. rewrite !Nat.sub_0_r. f_equal.
  induction (seq 0 (length lens)) as [|t ts IH]; [reflexivity|]. cbn [map fold_right]. rewrite IH, Nat.sub_0_r. reflexivity.
Qed.

Lemma canonical_check : rfc_codes_eos = canonical_table rfc_lens_eos.
Proof. vm_compute. reflexivity. Qed.

Lemma rfc_is_canonical : is_canonical rfc_codes_eos rfc_lens_eos.
Proof. split; [exact lens_range_check | rewrite <- canonical_table_eq; exact canonical_check]. Qed.

Lemma kraft_complete : kraft_sum rfc_lens_eos = 2 ^ 30.
Proof. vm_compute. reflexivity. Qed.

(* each word against the words after it *)
Fixpoint apartb (ws : list (list bool)) : bool :=
  match ws with
  | [] => true
  | a :: t => forallb (fun b => negb (prefixb a b) && negb (prefixb b a)) t && apartb t
  end.

Lemma apartb_sound ws : apartb ws = true -> prefix_free ws.
Proof.
  induction ws as [|a t IH]; intros C i j x y Hi Hj Hp; [destruct i; discriminate|].
  cbn [apartb] in C. apply andb_prop in C. destruct C as [C Ct]. rewrite forallb_forall in C.
  apply prefixb_spec in Hp.
  destruct i as [|i], j as [|j]; cbn [nth_error] in Hi, Hj; [reflexivity | | |f_equal; eapply IH; eauto; now apply prefixb_spec].
  - injection Hi as ->. apply nth_error_In, C, andb_prop in Hj. rewrite Hp in Hj. destruct Hj. discriminate.
  - injection Hj as ->. apply nth_error_In, C, andb_prop in Hi. rewrite Hp in Hi. destruct Hi. discriminate.
Qed.

Lemma prefix_free_check : apartb code_words = true.
Proof. vm_compute. reflexivity. Qed.

Lemma code_words_prefix_free : prefix_free code_words.
Proof. apply apartb_sound, prefix_free_check. Qed.

Lemma code_words_sym a : a < 256 -> nth_error code_words (N.to_nat a) = Some (code_bits a).
Proof.
  intros H. unfold code_words. rewrite nth_error_app1 by (rewrite map_length, seq_length; lia).
  erewrite map_nth_error; [|apply nth_error_seq; lia]. simpl. now rewrite N2Nat.id.
Qed.

Lemma code_words_eos : nth_error code_words 256 = Some eos_bits.
Proof. reflexivity. Qed.

(* usable forms *)
Lemma code_prefix_eq a b : a < 256 -> b < 256 -> is_prefix (code_bits a) (code_bits b) -> a = b.
Proof.
  intros Ha Hb Hp.
  pose proof (code_words_prefix_free _ _ _ _ (code_words_sym a Ha) (code_words_sym b Hb) Hp). lia.
Qed.

Lemma code_not_prefix_eos a : a < 256 -> ~ is_prefix (code_bits a) (ones 30).
Proof.
  intros Ha Hp. rewrite <- eos_bits_ones in Hp.
  pose proof (code_words_prefix_free _ _ _ _ (code_words_sym a Ha) code_words_eos Hp). lia.
Qed.

(* q is a proper prefix of some code word *)
Definition extendsb (q : list bool) : bool :=
  existsb (fun a => prefixb q (code_bits (N.of_nat a)) && (length q <? length (code_bits (N.of_nat a)))%nat)
          (seq 0 256).

Definition extends (q : list bool) : Prop :=
  exists a, a < 256 /\ is_prefix q (code_bits a) /\ (length q < length (code_bits a))%nat.

Lemma extendsb_sound q : extendsb q = true -> extends q.
Proof.
  unfold extendsb. rewrite existsb_exists. intros [i [Hi H]].
  apply in_seq in Hi. apply andb_prop in H. destruct H as [H1 H2].
  exists (N.of_nat i). split; [lia|]. split; [now apply prefixb_spec | now apply Nat.ltb_lt].
Qed.

Fixpoint list_beq (a b : list bool) : bool :=
  match a, b with
  | [], [] => true
  | x :: a', y :: b' => Bool.eqb x y && list_beq a' b'
  | _, _ => false
  end.

Lemma list_beq_eq : forall a b, list_beq a b = true -> a = b.
Proof.
  induction a as [|x a IH]; destruct b as [|y b]; simpl; intros H; try discriminate; [reflexivity|].
  apply andb_prop in H. destruct H as [H1 H2]. apply eqb_prop in H1. subst. f_equal. now apply IH.
Qed.

Definition entry_okb (rec : list N -> hnode -> bool) (p : list N) (i : N) (e : option hnode) : bool :=
  match e with
  | None => list_beq (bytes_bits p ++ firstn 6 (bits8 i)) (ones 30)
  | Some (HLeaf sym l) =>
      (sym <? 256) && (1 <=? l) && (l <=? 8) &&
      list_beq (code_bits sym) (bytes_bits p ++ firstn (N.to_nat l) (bits8 i))
  | Some (HSub s') => rec (p ++ [i]) (HSub s')
  end.

(* node is the table reached from the root by the whole bytes p *)
Fixpoint node_okb (f : nat) (p : list N) (node : hnode) : bool :=
  match f with
  | O => false
  | S f' =>
    match node with
    | HLeaf _ _ => false
    | HSub sub =>
        Nat.eqb (length sub) 256 && extendsb (bytes_bits p) &&
        forallb (fun i => entry_okb (node_okb f') p (N.of_nat i) (nth i sub None)) (seq 0 256)
    end
  end.

(* the same check with the code words taken from cb *)
Section Words.
Variable cb : N -> list bool.

Definition extendst (q : list bool) : bool :=
  existsb (fun a => prefixb q (cb (N.of_nat a)) && (length q <? length (cb (N.of_nat a)))%nat) (seq 0 256).

Definition entry_okt (rec : list N -> hnode -> bool) (p : list N) (i : N) (e : option hnode) : bool :=
  match e with
  | None => list_beq (bytes_bits p ++ firstn 6 (bits8 i)) (ones 30)
  | Some (HLeaf sym l) =>
      (sym <? 256) && (1 <=? l) && (l <=? 8) &&
      list_beq (cb sym) (bytes_bits p ++ firstn (N.to_nat l) (bits8 i))
  | Some (HSub s') => rec (p ++ [i]) (HSub s')
  end.

Fixpoint node_okt (f : nat) (p : list N) (node : hnode) : bool :=
  match f with
  | O => false
  | S f' =>
    match node with
    | HLeaf _ _ => false
    | HSub sub =>
        Nat.eqb (length sub) 256 && extendst (bytes_bits p) &&
        forallb (fun i => entry_okt (node_okt f') p (N.of_nat i) (nth i sub None)) (seq 0 256)
    end
  end.

Hypothesis cb_code : forall a, a < 256 -> cb a = code_bits a.

Lemma node_okt_eq f : forall p node, node_okt f p node = node_okb f p node.
Proof.
  induction f as [|f IH]; intros p node; [reflexivity|]. destruct node as [sym l|sub]; [reflexivity|].
  cbn [node_okt node_okb]. apply f_equal2; [apply f_equal|].
  - apply existsb_ext. intros a Ha. apply in_seq in Ha. rewrite cb_code by lia. reflexivity.
  - apply forallb_ext. intros i _. destruct (nth i sub None) as [[sym l|s']|]; cbn [entry_okt entry_okb]; [|apply IH|reflexivity].
    destruct (sym <? 256) eqn:E; [|reflexivity]. rewrite cb_code by (apply N.ltb_lt; exact E). reflexivity.
Qed.
End Words.

(* package initialisation builds the table, and the table passes the check *)
Lemma root_ok_table :
  (fun ws => match build_root with Some r => node_okt (fun a => nth (N.to_nat a) ws []) 5 [] r | None => false end)
    code_words = true.
Proof. vm_compute. reflexivity. Qed.

Lemma root_built : build_root = Some huffman_root.
Proof. unfold huffman_root. pose proof root_ok_table as H. cbv beta in H. destruct build_root; [reflexivity | discriminate]. Qed.

Lemma root_ok_check : node_okb 5 [] huffman_root = true.
Proof.
  pose proof root_ok_table as H. rewrite root_built in H. rewrite <- H. symmetry. apply node_okt_eq.
  intros a Ha. apply nth_error_nth, code_words_sym, Ha.
Qed.

Definition entry_ok (f : nat) (p : list N) (i : N) (e : option hnode) : Prop :=
  match e with
  | None => bytes_bits p ++ firstn 6 (bits8 i) = ones 30
  | Some (HLeaf sym l) =>
      sym < 256 /\ 1 <= l <= 8 /\ code_bits sym = bytes_bits p ++ firstn (N.to_nat l) (bits8 i)
  | Some (HSub s') => node_okb f (p ++ [i]) (HSub s') = true
  end.

Lemma node_ok_inv f p node :
  node_okb f p node = true ->
  exists f' sub, f = S f' /\ node = HSub sub /\ extends (bytes_bits p) /\
    forall i, i < 256 -> exists e, idx sub i = Some e /\ entry_ok f' p i e.
Proof.
  destruct f as [|f']; [discriminate|]. destruct node as [sym l|sub]; [discriminate|].
  cbn [node_okb]. rewrite !andb_true_iff. intros [[HL HE] HA].
  exists f', sub. split; [reflexivity|]. split; [reflexivity|].
  split; [now apply extendsb_sound|].
  intros i Hi. apply Nat.eqb_eq in HL. rewrite forallb_forall in HA.
  specialize (HA (N.to_nat i)). rewrite N2Nat.id in HA.
  assert (entry_okb (node_okb f') p i (nth (N.to_nat i) sub None) = true) as E
    by (apply HA, in_seq; lia).
  exists (nth (N.to_nat i) sub None). split.
  - unfold idx. apply nth_error_nth'. lia.
  - destruct (nth (N.to_nat i) sub None) as [[sym l|s']|]; cbn [entry_okb entry_ok] in *.
    + rewrite !andb_true_iff in E. destruct E as [[[E1 E2] E3] E4].
      apply N.ltb_lt in E1. apply N.leb_le in E2, E3. apply list_beq_eq in E4. auto.
    + exact E.
    + now apply list_beq_eq.
Qed.

Theorem table_is_rfc :
  huffman_codes = rfc_codes /\ huffman_code_len = rfc_code_len /\
  length rfc_codes = 256%nat /\ length rfc_code_len = 256%nat /\
  rfc_eos_len = 30 /\ rfc_eos_code = 2 ^ 30 - 1 /\ eos_bits = repeat true 30 /\
  is_canonical rfc_codes_eos rfc_lens_eos /\
  kraft_sum rfc_lens_eos = 2 ^ 30 /\
  prefix_free code_words.
Proof.
  split; [exact codes_eq|]. split; [exact lens_eq|].
  split; [reflexivity|]. split; [reflexivity|].
  split; [reflexivity|]. split; [reflexivity|].
  split; [exact eos_bits_ones|].
  split; [exact rfc_is_canonical|].
  split; [exact kraft_complete | exact code_words_prefix_free].
Qed.
