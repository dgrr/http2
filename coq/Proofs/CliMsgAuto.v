(* Proofs/CliMsgAuto.v - C20 (client) / C02 (c), the pure part: what the client makes of the items of ONE stream.

   item_step / run_items   the receiver of one request at the grain of complete header blocks and DATA frames:
                           what dispatch + readStream + readHeaderFragment + readHeaderField do to
                           (Response, gotStatus), written as a function of the decoded field lists.
                           (Inv_feed_at of Proofs/CliMsgFeed.v: this IS what the model does, fragment by fragment.)
   lax_response            the exact set of item lists it answers with nil: those of wf_response of
                           Spec/Http2Responses.v whose content-length values fit an int64 (lax_response_is_wf).
   asm                     the Response it delivers.
   No decoder, no connection state. *)
From H2V Require Import Base.Bytes Base.MachineInt Gen.GenConsts Impl.ServerConn Impl.ClientConn
  Spec.Http2Messages Spec.Http2Responses Proofs.CliMsgRef.
From Coq Require Import ZArith Lia ZifyN ZifyNat ZifyBool.
Local Open Scope N_scope.

(* small facts about byte strings and field lists, as in Proofs/SrvMsgPure.v *)
Lemma bytes_eqb_eq a : forall b, bytes_eqb a b = true <-> a = b.
Proof.
  induction a as [|x a IH]; intros [|y b]; cbn [bytes_eqb]; split; try reflexivity; try discriminate.
  - intro H. apply andb_true_iff in H. destruct H as [H1 H2]. apply IH in H2. f_equal; [lia | assumption].
  - intro H. inversion H; subst. apply andb_true_iff. split; [lia | apply IH; reflexivity].
Qed.
Lemma bytes_eqb_refl a : bytes_eqb a a = true.
Proof. apply bytes_eqb_eq. reflexivity. Qed.
Lemma bytes_eqb_neq a b : a <> b -> bytes_eqb a b = false.
Proof. intro H. destruct (bytes_eqb a b) eqn:E; [|reflexivity]. apply bytes_eqb_eq in E. contradiction. Qed.

(* parseUint is 1*DIGIT up to 2^63-1 *)
Definition dec_fold (b : bytes) (acc : N) : N := fold_left (fun acc c => 10 * acc + (c - 48)) b acc.

Lemma dec_fold_ge b : forall acc, acc <= dec_fold b acc.
Proof.
  induction b as [|c r IH]; intro acc; cbn [dec_fold fold_left]; [lia|].
  fold (dec_fold r (10 * acc + (c - 48))). specialize (IH (10 * acc + (c - 48))). lia.
Qed.

Lemma parse_uint_loop_spec : forall b acc, (Z.of_N acc <= MAXINT)%Z ->
  parse_uint_loop b (Z.of_N acc) =
  if forallb digit b
  then (if (Z.of_N (dec_fold b acc) <=? MAXINT)%Z then Some (Z.of_N (dec_fold b acc)) else None)
  else None.
Proof.
  induction b as [|c r IH]; intros acc Ha.
  - cbn [parse_uint_loop forallb dec_fold fold_left]. destruct (Z.leb_spec (Z.of_N acc) MAXINT); [reflexivity | lia].
  - cbn [parse_uint_loop forallb dec_fold fold_left]. fold (dec_fold r (10 * acc + (c - 48))).
    unfold digit at 1.
    destruct ((c <? 48) || (57 <? c))%bool eqn:Ed.
    { replace ((48 <=? c) && (c <=? 57))%bool with false by lia. reflexivity. }
    replace ((48 <=? c) && (c <=? 57))%bool with true by lia. cbn [andb].
    set (d := Z.of_N (c - 48)).
    assert (Hd : (0 <= d <= 9)%Z) by (subst d; lia).
    pose proof (Z.div_mod (MAXINT - d) 10 ltac:(lia)) as Hdm.
    pose proof (Z.mod_pos_bound (MAXINT - d) 10 ltac:(lia)) as Hmb.
    destruct (Z.ltb_spec ((MAXINT - d) / 10) (Z.of_N acc)) as [Hov|Hok].
    + (* overflow: the value is above MAXINT whatever follows *)
      pose proof (dec_fold_ge r (10 * acc + (c - 48))) as Hge.
      assert (Hbig : (MAXINT < Z.of_N (dec_fold r (10 * acc + (c - 48))))%Z) by (subst d; lia).
      destruct (forallb digit r); [|reflexivity].
      destruct (Z.leb_spec (Z.of_N (dec_fold r (10 * acc + (c - 48)))) MAXINT); [lia | reflexivity].
    + replace (Z.of_N acc * 10 + d)%Z with (Z.of_N (10 * acc + (c - 48))) by (subst d; lia).
      apply IH. subst d. lia.
Qed.

Lemma parse_uint_decimal v :
  parse_uint v = match decimal v with
                 | Some n => if (Z.of_N n <=? MAXINT)%Z then Some (Z.of_N n) else None
                 | None => None
                 end.
Proof.
  unfold parse_uint, decimal. destruct v as [|c r]; [reflexivity|].
  change 0%Z with (Z.of_N 0). rewrite parse_uint_loop_spec by (unfold MAXINT; lia).
  fold (dec_fold (c :: r) 0). destruct (forallb digit (c :: r)); reflexivity.
Qed.

Lemma lower_upper k : lower_case k = negb (has_upper_case k).
Proof. reflexivity. Qed.

Definition lowerf (f : field) : bool := lower_case (fst f).
Definition none (n : bytes) (fs : list field) : bool := negb (existsb (has_name n) fs).
Lemma filter_none {A} (p : A -> bool) l : Nat.leb (length (filter p l)) 0 = negb (existsb p l).
Proof. induction l as [|x t IH]; [reflexivity|]. cbn [filter existsb]. destruct (p x); [reflexivity | exact IH]. Qed.

Lemma none_cons n f t : none n (f :: t) = negb (has_name n f) && none n t.
Proof. unfold none. cbn [existsb]. apply negb_orb. Qed.
Lemma amo_cons n f t : at_most_once n (f :: t) = if has_name n f then none n t else at_most_once n t.
Proof.
  unfold at_most_once, occurrences, none. cbn [filter]. destruct (has_name n f); [|reflexivity].
  cbn [length Nat.leb]. apply filter_none.
Qed.
Lemma once_split n fs : once n fs = existsb (has_name n) fs && at_most_once n fs.
Proof.
  unfold once, at_most_once, occurrences. induction fs as [|f t IH]; [reflexivity|].
  cbn [filter existsb]. destruct (has_name n f); [|exact IH].
  cbn [length orb andb]. destruct (length (filter (has_name n) t)) as [|[|m]]; reflexivity.
Qed.

Definition rprog : Type := (cresponse * bool)%type.     (* Response so far, gotStatus *)
Inductive iout : Type :=
| ICont (p : rprog)        (* the request goes on waiting *)
| IDone (r : cresponse)    (* finish(r, id, nil) *)
| IFail (e : cerr).        (* finish(r, id, e) *)

Definition block_step (p : rprog) (fs : list field) (es : bool) : iout :=
  match hf_fold (false, 0%Z, None, Some (fst p)) fs with
  | (_, _, Some e, _) => IFail e
  | (_, status, None, Some r') =>
    if (status =? 0)%Z then (if negb (snd p) || negb es then IFail CEMalformed else IDone r')
    else if snd p then IFail CEMalformed
    else if es then (if (200 <=? status)%Z then IDone r' else IFail CEMalformed)    (* an interim block cannot end the stream *)
    else ICont (r', (200 <=? status)%Z)
  | (_, _, None, None) => IFail CEMalformed
  end.

Definition data_step (p : rprog) (d : bytes) (es : bool) : iout :=
  if negb (snd p) then IFail CEMalformed
  else
    let r' := if cl_is_nil d then fst p else cl_resp_append_body (fst p) d in
    if es then IDone r' else ICont (r', snd p).

Definition item_step (p : rprog) (i : ritem) : iout :=
  match i with
  | RBlock fs es => block_step p fs es
  | RData d es => data_step p d es
  end.

Fixpoint run_items (p : rprog) (l : list ritem) : iout :=
  match l with
  | [] => ICont p
  | i :: t => match item_step p i with ICont p' => run_items p' t | o => o end
  end.

Definition rinit : rprog := (cl_empty_resp, false).

Lemma run_items_app p l1 l2 :
  run_items p (l1 ++ l2) = match run_items p l1 with ICont p' => run_items p' l2 | o => o end.
Proof.
  revert p. induction l1 as [|i t IH]; intro p; [reflexivity|]. cbn [app run_items].
  destruct (item_step p i); [apply IH | reflexivity | reflexivity].
Qed.

Lemma run_items_done_stable p l1 l2 r : run_items p l1 = IDone r -> run_items p (l1 ++ l2) = IDone r.
Proof. intro H. rewrite run_items_app, H. reflexivity. Qed.
Lemma run_items_fail_stable p l1 l2 e : run_items p l1 = IFail e -> run_items p (l1 ++ l2) = IFail e.
Proof. intro H. rewrite run_items_app, H. reflexivity. Qed.

Definition lax_status (v : bytes) : option Z :=
  match parse_uint v with
  | Some n => if negb (len v =? 3) || ((n <? 100) || (999 <? n))%Z then None else Some n
  | None => None
  end.

Definition app_field (r : cresponse) (f : field) : cresponse :=
  if Http2Messages.is_pseudo f then match lax_status (snd f) with Some n => cl_resp_set_status r n | None => r end
  else if has_name H_content_length f then match parse_uint (snd f) with Some n => cl_resp_set_cl r n | None => r end
  else cl_resp_add_field r (fst f) (snd f).
Definition app_fields (r : cresponse) (fs : list field) : cresponse := fold_left app_field fs r.

Definition app_item (r : cresponse) (i : ritem) : cresponse :=
  match i with
  | RBlock fs _ => app_fields r fs
  | RData d _ => if cl_is_nil d then r else cl_resp_append_body r d
  end.
Definition asm (r : cresponse) (l : list ritem) : cresponse := fold_left app_item l r.

Definition statuses_lax (fs : list field) : bool :=
  forallb (fun f => if has_name P_status f then match lax_status (snd f) with Some _ => true | None => false end else true) fs.
Definition cl_small (fs : list field) : bool :=
  forallb (fun f => if has_name H_content_length f then match parse_uint (snd f) with Some _ => true | None => false end else true) fs.
Definition lax_common (fs : list field) : bool :=
  forallb lowerf fs && response_pseudo_defined fs && no_connection_fields fs && cl_small fs && statuses_lax fs.
Definition lax_head (fs : list field) : bool := lax_common fs && pseudo_first fs && once P_status fs.
Definition lax_trailers (fs : list field) : bool := lax_common fs && no_pseudo fs.
Definition lax_status_of (fs : list field) : Z :=
  match filter (has_name P_status) fs with
  | f :: _ => match lax_status (snd f) with Some n => n | None => 0%Z end
  | [] => 0%Z
  end.

Fixpoint lax_after_final (items : list ritem) : bool :=
  match items with
  | [] => false
  | RData _ true :: rest => match rest with [] => true | _ => false end
  | RData _ false :: rest => lax_after_final rest
  | RBlock fs true :: rest => lax_trailers fs && match rest with [] => true | _ => false end
  | RBlock _ false :: _ => false
  end.

Fixpoint lax_response (items : list ritem) : bool :=
  match items with
  | RBlock fs es :: rest =>
    lax_head fs &&
    (if (lax_status_of fs <? 200)%Z
     then negb es && lax_response rest
     else if es then match rest with [] => true | _ => false end
     else lax_after_final rest)
  | _ => false
  end.

Ltac bsplit := rewrite ?andb_true_iff, ?negb_true_iff, ?orb_false_iff, ?negb_false_iff in *.

Lemma P_status_eq : P_status = S_status. Proof. reflexivity. Qed.
Lemma H_cl_eq : H_content_length = S_content_length. Proof. reflexivity. Qed.

Lemma is_conn_name_in k v : name_in connection_specific (k, v) = is_connection_specific k.
Proof.
  unfold name_in, connection_specific, is_connection_specific, has_name. cbn [existsb fst].
  rewrite orb_false_r, !orb_assoc. reflexivity.
Qed.

(* the accumulated conditions: rs = a regular field has been seen, st = the status so far *)
Definition facc (rs : bool) (st : Z) (fs : list field) : bool :=
  lax_common fs && (if rs then no_pseudo fs else pseudo_first fs)
  && (if (st =? 0)%Z then at_most_once P_status fs else none P_status fs).

Lemma lax_common_cons f t :
  lax_common (f :: t) =
  lowerf f && (if Http2Messages.is_pseudo f then has_name P_status f else true) && negb (name_in connection_specific f)
  && (if has_name H_content_length f then match parse_uint (snd f) with Some _ => true | None => false end else true)
  && (if has_name P_status f then match lax_status (snd f) with Some _ => true | None => false end else true)
  && lax_common t.
Proof.
  unfold lax_common, response_pseudo_defined, no_connection_fields, cl_small, statuses_lax. cbn [forallb existsb].
  rewrite negb_orb.
  repeat match goal with |- context [forallb ?p t] => generalize (forallb p t); intro end.
  repeat match goal with |- context [existsb ?p t] => generalize (existsb p t); intro end.
  destruct (lowerf f), (if Http2Messages.is_pseudo f then has_name P_status f else true), (name_in connection_specific f),
    (if has_name H_content_length f then match parse_uint (snd f) with Some _ => true | None => false end else true),
    (if has_name P_status f then match lax_status (snd f) with Some _ => true | None => false end else true);
    cbn [andb negb]; repeat match goal with b : bool |- _ => destruct b end; reflexivity.
Qed.

Lemma lax_status_pos v n : lax_status v = Some n -> (100 <= n <= 999)%Z.
Proof. unfold lax_status. destruct (parse_uint v) as [m|]; [|discriminate]. destruct (negb (len v =? 3) || ((m <? 100) || (999 <? m))%Z) eqn:E; [discriminate|]. intro H; inversion H; subst. lia. Qed.

(* a pseudo-header name is not content-length, not connection-specific; a regular name is not :status *)
Lemma pseudo_not_cl k v : Http2Messages.is_pseudo (k, v) = true -> has_name H_content_length (k, v) = false.
Proof. unfold Http2Messages.is_pseudo, has_name. cbn [fst]. destruct k as [|x k]; [discriminate|]. intro H. assert (x = 58) by (destruct x as [|p]; [discriminate|]; do 6 (destruct p as [p|p|]; try discriminate); reflexivity). subst x. reflexivity. Qed.
Lemma regular_not_status k v : Http2Messages.is_pseudo (k, v) = false -> has_name P_status (k, v) = false.
Proof. unfold Http2Messages.is_pseudo, has_name. cbn [fst]. destruct k as [|x k]; [reflexivity|]. intro H. change P_status with (58 :: tl P_status). cbn [bytes_eqb]. destruct (N.eqb_spec x 58) as [->|]; [discriminate | reflexivity]. Qed.

(* the step of the fold, by cases *)
Lemma rhf_pseudo rs st r k v : Http2Messages.is_pseudo (k, v) = true ->
  cl_read_header_field rs st r k v =
  if rs then (rs, st, r, Some CEMalformed)
  else if negb (has_name P_status (k, v)) then (rs, st, r, Some CEMalformed)
  else match lax_status v with
       | Some n => if negb (st =? 0)%Z then (rs, st, r, Some CEMalformed) else (rs, n, cl_resp_set_status r n, None)
       | None => (rs, st, r, Some CEMalformed)
       end.
Proof.
  intro P. unfold cl_read_header_field. change (ServerConn.is_pseudo k) with (Http2Messages.is_pseudo (k, v)). rewrite P.
  destruct rs; [reflexivity|]. unfold has_name. cbn [fst]. rewrite P_status_eq.
  destruct (bytes_eqb k S_status); cbn [negb]; [|reflexivity].
  unfold lax_status. destruct (parse_uint v) as [n|]; [|reflexivity].
  destruct (negb (len v =? 3)); cbn [orb]; [reflexivity|].
  destruct ((n <? 100) || (999 <? n))%Z; cbn [orb]; [reflexivity|].
  destruct (negb (st =? 0)%Z); reflexivity.
Qed.

Lemma rhf_regular rs st r k v : Http2Messages.is_pseudo (k, v) = false ->
  cl_read_header_field rs st r k v =
  if negb (lower_case k) || name_in connection_specific (k, v) then (true, st, r, Some CEMalformed)
  else if has_name H_content_length (k, v)
       then match parse_uint v with Some n => (true, st, cl_resp_set_cl r n, None) | None => (true, st, r, Some CEMalformed) end
       else (true, st, cl_resp_add_field r k v, None).
Proof.
  intro P. unfold cl_read_header_field. change (ServerConn.is_pseudo k) with (Http2Messages.is_pseudo (k, v)). rewrite P.
  rewrite lower_upper, negb_involutive, is_conn_name_in.
  destruct (has_upper_case k); [reflexivity|]. destruct (is_connection_specific k); [reflexivity|]. cbn [orb].
  unfold has_name. cbn [fst]. rewrite H_cl_eq. reflexivity.
Qed.

(* the fold stops at the first malformed field: the verdict is "refused" *)
Lemma verdict_err (Q : Prop) (b : bool) rs st r t rs' st' he r' :
  hf_fold (rs, st, Some CEMalformed, Some r) t = (rs', st', he, Some r') -> (b = true -> False) ->
  (he = None <-> b = true) /\ (he = None -> Q) /\ (forall e, he = Some e -> e = CEMalformed).
Proof.
  intros H B. rewrite hf_fold_err in H. inversion H; subst.
  split; [split; [discriminate | intro F; destruct (B F)] | split; [discriminate | intros e E; inversion E; reflexivity]].
Qed.

Lemma hf_fold_verdict : forall fs rs st r rs' st' he r',
  hf_fold (rs, st, None, Some r) fs = (rs', st', he, Some r') ->
  (he = None <-> facc rs st fs = true) /\
  (he = None -> r' = app_fields r fs /\ st' = (if (st =? 0)%Z then lax_status_of fs else st)) /\
  (forall e, he = Some e -> e = CEMalformed).
Proof.
  induction fs as [|[k v] t IH]; intros rs st r rs' st' he r' H.
  - cbn in H. inversion H; subst. split; [|split].
    + split; [intros _|reflexivity]. unfold facc, lax_common. cbn. destruct rs', (st' =? 0)%Z; reflexivity.
    + intros _. split; [reflexivity|]. unfold lax_status_of. cbn. destruct (st' =? 0)%Z eqn:E; [lia|reflexivity].
    + discriminate.
  - cbn [hf_fold fold_left hf_step fst snd] in H.
    unfold facc. rewrite lax_common_cons. cbn [snd].
    destruct (Http2Messages.is_pseudo (k, v)) eqn:P.
    + rewrite (rhf_pseudo _ _ _ _ _ P) in H. rewrite (pseudo_not_cl _ _ P).
      assert (LOW : has_name P_status (k, v) = true -> lowerf (k, v) = true).
      { unfold has_name, lowerf. cbn [fst]. intro E. apply bytes_eqb_eq in E. subst k. reflexivity. }
      assert (NC : has_name P_status (k, v) = true -> name_in connection_specific (k, v) = false).
      { unfold has_name. cbn [fst]. intro E. apply bytes_eqb_eq in E. subst k. reflexivity. }
      unfold no_pseudo. cbn [existsb pseudo_first]. rewrite P. cbn [orb negb].
      destruct rs.
      { apply (verdict_err _ _ _ _ _ _ _ _ _ _ H).
        intro F. bsplit. destruct F as [[_ F] _]. discriminate. }
      destruct (has_name P_status (k, v)) eqn:S; cbn [negb] in H.
      2:{ apply (verdict_err _ _ _ _ _ _ _ _ _ _ H).
          intro F. bsplit. destruct F as [[F _] _]. destruct F as [[[[[_ F] _] _] _] _]. discriminate. }
      rewrite (LOW eq_refl), (NC eq_refl). cbn [negb andb].
      rewrite amo_cons, none_cons, S. cbn [negb andb].
      destruct (lax_status v) as [n|] eqn:LS.
      2:{ apply (verdict_err _ _ _ _ _ _ _ _ _ _ H).
          intro F. discriminate. }
      destruct (st =? 0)%Z eqn:Z0; cbn [negb] in H.
      2:{ apply (verdict_err _ _ _ _ _ _ _ _ _ _ H).
          intro F. bsplit. destruct F as [_ F]. discriminate. }
      fold (hf_fold (false, n, None, Some (cl_resp_set_status r n)) t) in H.
      destruct (IH _ _ _ _ _ _ _ H) as (A & B & C).
      pose proof (lax_status_pos _ _ LS) as Hn.
      unfold facc in A. assert (N0 : (n =? 0)%Z = false) by (clear - Hn; lia). rewrite N0 in A, B.
      split; [|split; [|exact C]].
      * rewrite A. cbn [andb]. reflexivity.
      * intro E. destruct (B E) as [B1 B2]. split.
        -- rewrite B1. unfold app_fields. cbn [fold_left]. f_equal. unfold app_field. rewrite P. cbn [snd]. rewrite LS. reflexivity.
        -- rewrite B2. unfold lax_status_of. cbn [filter]. rewrite S. cbn [snd]. rewrite LS. reflexivity.
    + rewrite (rhf_regular _ _ _ _ _ P) in H. rewrite (regular_not_status _ _ P).
      unfold no_pseudo. cbn [existsb pseudo_first]. rewrite P. cbn [orb].
      rewrite amo_cons, none_cons, (regular_not_status _ _ P). cbn [negb andb].
      unfold lowerf at 1. cbn [fst].
      destruct (lower_case k) eqn:L; cbn [negb orb andb] in *.
      2:{ apply (verdict_err _ _ _ _ _ _ _ _ _ _ H). discriminate. }
      destruct (name_in connection_specific (k, v)) eqn:CS; cbn [negb andb] in *.
      { apply (verdict_err _ _ _ _ _ _ _ _ _ _ H). discriminate. }
      assert (PF : (if rs then negb (existsb Http2Messages.is_pseudo t) else negb (existsb Http2Messages.is_pseudo t)) = no_pseudo t)
        by (destruct rs; reflexivity).
      destruct (has_name H_content_length (k, v)) eqn:CL.
      * destruct (parse_uint v) as [n|] eqn:PU.
        2:{ apply (verdict_err _ _ _ _ _ _ _ _ _ _ H). discriminate. }
        fold (hf_fold (true, st, None, Some (cl_resp_set_cl r n)) t) in H.
        destruct (IH _ _ _ _ _ _ _ H) as (A & B & C). split; [|split; [|exact C]].
        -- rewrite A. unfold facc. rewrite PF. cbn [andb]. reflexivity.
        -- intro E. destruct (B E) as [B1 B2]. split.
           ++ rewrite B1. unfold app_fields. cbn [fold_left]. f_equal. unfold app_field. rewrite P, CL. cbn [snd]. rewrite PU. reflexivity.
           ++ rewrite B2. unfold lax_status_of. cbn [filter]. rewrite (regular_not_status _ _ P). reflexivity.
      * fold (hf_fold (true, st, None, Some (cl_resp_add_field r k v)) t) in H.
        destruct (IH _ _ _ _ _ _ _ H) as (A & B & C). split; [|split; [|exact C]].
        -- rewrite A. unfold facc. rewrite PF. cbn [andb]. reflexivity.
        -- intro E. destruct (B E) as [B1 B2]. split.
           ++ rewrite B1. unfold app_fields. cbn [fold_left]. f_equal. unfold app_field. rewrite P, CL. reflexivity.
           ++ rewrite B2. unfold lax_status_of. cbn [filter]. rewrite (regular_not_status _ _ P). reflexivity.
Qed.

Lemma no_pseudo_first fs : no_pseudo fs = true -> pseudo_first fs = true.
Proof.
  unfold no_pseudo. induction fs as [|f t IH]; [reflexivity|]. cbn [existsb pseudo_first]. rewrite negb_orb.
  intro H. apply andb_true_iff in H. destruct H as [H1 H2]. apply negb_true_iff in H1. rewrite H1. exact H2.
Qed.

Lemma lax_status_of_none fs : none P_status fs = true -> lax_status_of fs = 0%Z.
Proof.
  unfold none, lax_status_of. induction fs as [|f t IH]; [reflexivity|]. cbn [existsb filter]. rewrite negb_orb.
  intro H. apply andb_true_iff in H. destruct H as [H1 H2]. apply negb_true_iff in H1. rewrite H1. exact (IH H2).
Qed.

Lemma lax_status_of_some fs : statuses_lax fs = true -> none P_status fs = false -> (100 <= lax_status_of fs <= 999)%Z.
Proof.
  unfold none, lax_status_of, statuses_lax. induction fs as [|f t IH]; [discriminate|]. cbn [existsb filter forallb]. rewrite negb_orb.
  intros H1 H2. apply andb_true_iff in H1. destruct H1 as [H1 H1'].
  destruct (has_name P_status f) eqn:S.
  - cbn [snd]. destruct (lax_status (snd f)) as [n|] eqn:L; [|discriminate]. exact (lax_status_pos _ _ L).
  - cbn [negb andb] in H2. exact (IH H1' H2).
Qed.

Lemma none_no_pseudo fs : response_pseudo_defined fs = true -> none P_status fs = no_pseudo fs.
Proof.
  unfold response_pseudo_defined, none, no_pseudo. induction fs as [|[k v] t IH]; [reflexivity|]. cbn [forallb existsb].
  intro H. apply andb_true_iff in H. destruct H as [H1 H2]. rewrite !negb_orb, (IH H2). f_equal.
  destruct (Http2Messages.is_pseudo (k, v)) eqn:P; [rewrite H1; reflexivity | rewrite (regular_not_status _ _ P); reflexivity].
Qed.

Lemma lax_common_parts fs : lax_common fs = true -> response_pseudo_defined fs = true /\ statuses_lax fs = true.
Proof. unfold lax_common. intro H. bsplit. tauto. Qed.

Lemma block_step_spec r got fs es :
  block_step (r, got) fs es =
  if got then (if lax_trailers fs && es then IDone (app_fields r fs) else IFail CEMalformed)
  else if lax_head fs then (if es then (if (200 <=? lax_status_of fs)%Z then IDone (app_fields r fs) else IFail CEMalformed)
                            else ICont (app_fields r fs, (200 <=? lax_status_of fs)%Z))
       else IFail CEMalformed.
Proof.
  unfold block_step. cbn [fst snd].
  destruct (hf_fold_some false 0%Z None r fs) as (rs' & st' & he & r' & E). rewrite E.
  destruct (hf_fold_verdict _ _ _ _ _ _ _ _ E) as (A & B & C). unfold facc in A. cbn [Z.eqb] in A, B.
  destruct he as [e|].
  - rewrite (C e eq_refl).
    assert (F : lax_common fs && pseudo_first fs && at_most_once P_status fs = false).
    { destruct (lax_common fs && pseudo_first fs && at_most_once P_status fs) eqn:F; [|reflexivity].
      destruct A as [_ A]. specialize (A eq_refl). discriminate. }
    destruct got.
    + replace (lax_trailers fs) with false; [reflexivity|]. symmetry. unfold lax_trailers.
      destruct (lax_common fs) eqn:LC; [|reflexivity]. cbn [andb] in *.
      destruct (no_pseudo fs) eqn:NP; [|reflexivity]. rewrite (no_pseudo_first _ NP) in F. cbn [andb] in F.
      destruct (lax_common_parts _ LC) as [RP _]. rewrite <- (none_no_pseudo _ RP) in NP.
      unfold at_most_once, occurrences in F. unfold none in NP. rewrite <- filter_none in NP.
      destruct (length (filter (has_name P_status) fs)); [discriminate F | discriminate NP].
    + replace (lax_head fs) with false; [reflexivity|]. symmetry. unfold lax_head. rewrite once_split.
      destruct (lax_common fs), (pseudo_first fs), (at_most_once P_status fs), (existsb (has_name P_status) fs); try reflexivity; discriminate F.
  - destruct A as [A _]. specialize (A eq_refl). destruct (B eq_refl) as [-> ->]. bsplit. destruct A as [[LC PF] AM].
    destruct (lax_common_parts _ LC) as [RP SL].
    destruct (none P_status fs) eqn:NS.
    + rewrite (lax_status_of_none _ NS). cbn [Z.eqb].
      assert (NP : no_pseudo fs = true) by (rewrite <- (none_no_pseudo _ RP); exact NS).
      unfold lax_trailers, lax_head. rewrite LC, NP, PF, once_split. unfold none in NS. apply negb_true_iff in NS. rewrite NS.
      cbn [andb]. destruct got; cbn [negb orb]; [destruct es; reflexivity | reflexivity].
    + pose proof (lax_status_of_some _ SL NS) as R.
      replace (lax_status_of fs =? 0)%Z with false by lia.
      assert (NP : no_pseudo fs = false) by (rewrite <- (none_no_pseudo _ RP); exact NS).
      unfold lax_trailers, lax_head. rewrite LC, NP, PF, once_split, AM. unfold none in NS. apply negb_false_iff in NS. rewrite NS.
      cbn [andb]. destruct got; reflexivity.
Qed.

(* every failure of the automaton is errInvalidStatus & co: the request's own *)
Lemma item_step_fail p i e : item_step p i = IFail e -> e = CEMalformed.
Proof.
  destruct p as [r got]. destruct i as [fs es|d es]; cbn [item_step].
  - rewrite block_step_spec. destruct got; [destruct (lax_trailers fs && es)|destruct (lax_head fs); [destruct es; [destruct (200 <=? lax_status_of fs)%Z|]|]];
      intro H; inversion H; reflexivity.
  - unfold data_step. cbn [fst snd]. destruct got; cbn [negb]; [destruct es|]; intro H; inversion H; reflexivity.
Qed.
Lemma run_items_fail p l e : run_items p l = IFail e -> e = CEMalformed.
Proof.
  revert p. induction l as [|i t IH]; intro p; cbn [run_items]; [discriminate|].
  destruct (item_step p i) eqn:E; [apply IH | discriminate | intro H; inversion H; subst; exact (item_step_fail _ _ _ E)].
Qed.

(* an item with END_STREAM ends the request, one way or the other *)
Definition item_es (i : ritem) : bool := match i with RBlock _ es => es | RData _ es => es end.
Lemma item_step_es p i : item_es i = true -> forall p', item_step p i <> ICont p'.
Proof.
  destruct p as [r got]. destruct i as [fs es|d es]; cbn [item_es item_step]; intros -> p'.
  - rewrite block_step_spec. destruct got; [destruct (lax_trailers fs && true)|destruct (lax_head fs); [destruct (200 <=? lax_status_of fs)%Z|]]; discriminate.
  - unfold data_step. cbn [fst snd]. destruct got; discriminate.
Qed.
Lemma run_items_es p l : existsb item_es l = true -> forall p', run_items p l <> ICont p'.
Proof.
  revert p. induction l as [|i t IH]; intros p H p'; [discriminate|]. cbn [existsb run_items] in *.
  destruct (item_es i) eqn:E.
  - destruct (item_step p i) eqn:S; [exfalso; exact (item_step_es p i E _ S) | discriminate | discriminate].
  - cbn [orb] in H. destruct (item_step p i); [apply IH; exact H | discriminate | discriminate].
Qed.
(* ... and a request that goes on waiting has seen none *)
Lemma run_items_cont_no_es p l p' : run_items p l = ICont p' -> existsb item_es l = false.
Proof. intro H. destruct (existsb item_es l) eqn:E; [|reflexivity]. exfalso. exact (run_items_es p l E _ H). Qed.

(* the items up to and including the first one with END_STREAM *)
Fixpoint first_end (l : list ritem) : list ritem :=
  match l with
  | [] => []
  | i :: t => if item_es i then [i] else i :: first_end t
  end.

Lemma first_end_prefix l : exists post, l = first_end l ++ post.
Proof.
  induction l as [|i t [post IH]]; [exists []; reflexivity|]. cbn [first_end].
  destruct (item_es i); [exists t; reflexivity | exists post; cbn [app]; f_equal; exact IH].
Qed.

Lemma asm_cons r i t : asm r (i :: t) = asm (app_item r i) t.
Proof. reflexivity. Qed.

Lemma run_got_sound : forall items r r', run_items (r, true) items = IDone r' ->
  lax_after_final (first_end items) = true /\ r' = asm r (first_end items).
Proof.
  induction items as [|i t IH]; intros r r'; cbn [run_items]; [discriminate|].
  destruct i as [fs es|d es]; cbn [item_step first_end item_es].
  - rewrite block_step_spec. destruct (lax_trailers fs) eqn:LT; cbn [andb]; [|discriminate].
    destruct es; [|discriminate]. intro H; inversion H; subst. cbn [lax_after_final]. rewrite LT. split; reflexivity.
  - unfold data_step. cbn [fst snd negb]. destruct es.
    + intro H; inversion H; subst. split; reflexivity.
    + intro H. destruct (IH _ _ H) as [A B]. cbn [lax_after_final]. split; [exact A|]. rewrite asm_cons. exact B.
Qed.

Lemma run_got_complete : forall items r, lax_after_final items = true -> run_items (r, true) items = IDone (asm r items).
Proof.
  induction items as [|i t IH]; intros r; cbn [lax_after_final]; [discriminate|].
  destruct i as [fs es|d es]; cbn [run_items item_step].
  - destruct es; [|discriminate]. intro H. apply andb_true_iff in H. destruct H as [H1 H2]. destruct t; [|discriminate].
    rewrite block_step_spec, H1. reflexivity.
  - unfold data_step. cbn [fst snd negb]. destruct es.
    + destruct t; [|discriminate]. reflexivity.
    + intro H. rewrite (IH _ H). reflexivity.
Qed.

Lemma run_sound : forall items r r', run_items (r, false) items = IDone r' ->
  lax_response (first_end items) = true /\ r' = asm r (first_end items).
Proof.
  induction items as [|i t IH]; intros r r'; cbn [run_items]; [discriminate|].
  destruct i as [fs es|d es]; cbn [item_step first_end item_es].
  - rewrite block_step_spec. destruct (lax_head fs) eqn:LH; [|discriminate].
    destruct es.
    + destruct (200 <=? lax_status_of fs)%Z eqn:F; [|discriminate].
      intro H; inversion H; subst. cbn [lax_response]. rewrite LH. replace (lax_status_of fs <? 200)%Z with false by lia. split; reflexivity.
    + destruct (200 <=? lax_status_of fs)%Z eqn:F.
      * intro H. destruct (run_got_sound _ _ _ H) as [A B]. cbn [lax_response]. rewrite LH.
        replace (lax_status_of fs <? 200)%Z with false by lia. cbn [andb]. split; [exact A | rewrite asm_cons; exact B].
      * intro H. destruct (IH _ _ H) as [A B]. cbn [lax_response]. rewrite LH.
        replace (lax_status_of fs <? 200)%Z with true by lia. cbn [andb]. split; [exact A | rewrite asm_cons; exact B].
  - unfold data_step. cbn [fst snd negb]. discriminate.
Qed.

Lemma run_complete : forall items r, lax_response items = true -> run_items (r, false) items = IDone (asm r items).
Proof.
  induction items as [|i t IH]; intros r; cbn [lax_response]; [discriminate|].
  destruct i as [fs es|d es]; [|discriminate]. cbn [run_items item_step]. intro H. apply andb_true_iff in H. destruct H as [LH H].
  rewrite block_step_spec, LH. destruct es.
  - destruct (lax_status_of fs <? 200)%Z eqn:F; [discriminate|]. replace (200 <=? lax_status_of fs)%Z with true by lia.
    destruct t; [reflexivity | discriminate].
  - destruct (lax_status_of fs <? 200)%Z eqn:F.
    + replace (200 <=? lax_status_of fs)%Z with false by lia. rewrite (IH _ H). reflexivity.
    + replace (200 <=? lax_status_of fs)%Z with true by lia. rewrite (run_got_complete _ _ H). reflexivity.
Qed.

(* a complete stream (its last item, and no other, has END_STREAM) gets nil iff it is lax_response, else the
   request fails with a malformed-response error *)
Lemma first_end_id l : existsb item_es (removelast l) = false -> first_end l = l.
Proof.
  induction l as [|i t IH]; [reflexivity|]. cbn [first_end]. destruct t as [|j t'].
  - intros _. destruct (item_es i); reflexivity.
  - change (removelast (i :: j :: t')) with (i :: removelast (j :: t')). cbn [existsb]. intro H.
    apply orb_false_iff in H. destruct H as [H1 H2]. rewrite H1, (IH H2). reflexivity.
Qed.

Theorem run_items_verdict items r :
  existsb item_es items = true -> existsb item_es (removelast items) = false ->
  run_items (r, false) items = if lax_response items then IDone (asm r items) else IFail CEMalformed.
Proof.
  intros E1 E2. destruct (lax_response items) eqn:L; [exact (run_complete _ _ L)|].
  destruct (run_items (r, false) items) as [p'|r'|e] eqn:R.
  - exfalso. exact (run_items_es _ _ E1 _ R).
  - destruct (run_sound _ _ _ R) as [A _]. rewrite (first_end_id _ E2) in A. congruence.
  - rewrite (run_items_fail _ _ _ R). reflexivity.
Qed.

Lemma forallb_filter {A} (p q : A -> bool) l : forallb (fun x => if p x then q x else true) l = forallb q (filter p l).
Proof. induction l as [|x t IH]; [reflexivity|]. cbn [forallb filter]. destruct (p x); cbn [forallb]; rewrite IH; reflexivity. Qed.

Lemma three_digits_lax v n : three_digits v = Some n -> lax_status v = Some (Z.of_N n).
Proof.
  unfold three_digits. destruct v as [|a [|b [|c [|d v]]]]; try discriminate.
  destruct (digit a && digit b && digit c && negb (a =? 48)) eqn:D; [|discriminate]. intro H; inversion H; subst n.
  unfold lax_status. rewrite parse_uint_decimal. unfold decimal. unfold digit in *. cbn [forallb].
  replace ((48 <=? a) && (a <=? 57) && ((48 <=? b) && (b <=? 57) && ((48 <=? c) && (c <=? 57) && true))) with true by lia.
  cbn [fold_left]. unfold MAXINT.
  replace (Z.of_N (10 * (10 * (10 * 0 + (a - 48)) + (b - 48)) + (c - 48)) <=? 9223372036854775807)%Z with true by lia.
  replace ((Z.of_N (10 * (10 * (10 * 0 + (a - 48)) + (b - 48)) + (c - 48)) <? 100) || (999 <? Z.of_N (10 * (10 * (10 * 0 + (a - 48)) + (b - 48)) + (c - 48))))%Z with false by lia.
  cbn [len length N.of_nat Pos.of_succ_nat Pos.succ N.eqb Pos.eqb negb orb]. f_equal. lia.
Qed.

(* and conversely: what the client takes for a status IS three digits, the first one not 0 *)
Lemma lax_three_digits v z : lax_status v = Some z -> three_digits v = Some (Z.to_N z).
Proof.
  unfold lax_status. destruct (parse_uint v) as [n|] eqn:PU; [|discriminate].
  destruct (negb (len v =? 3)) eqn:L3; [discriminate|]. cbn [orb].
  destruct ((n <? 100) || (999 <? n))%Z eqn:R; [discriminate|]. intro H; inversion H; subst z.
  apply negb_false_iff in L3.
  destruct v as [|a [|b [|c [|d v]]]]; try (unfold len in L3; cbn [length] in L3; lia).
  rewrite parse_uint_decimal in PU. unfold decimal in PU. destruct (forallb digit [a; b; c]) eqn:D; [|discriminate].
  change (fold_left (fun acc c0 : N => 10 * acc + (c0 - 48)) [a; b; c] 0) with (10 * (10 * (10 * 0 + (a - 48)) + (b - 48)) + (c - 48)) in PU.
  set (m := 10 * (10 * (10 * 0 + (a - 48)) + (b - 48)) + (c - 48)) in *.
  cbn [forallb] in D. unfold digit in D.
  destruct (Z.of_N m <=? MAXINT)%Z; [|discriminate].
  assert (EN : n = Z.of_N m) by congruence. subst n. clear PU. subst m.
  assert (F : 48 <= a <= 57 /\ 48 <= b <= 57 /\ 48 <= c <= 57) by lia.
  assert (A0 : 100 <= (a - 48) * 100 + (b - 48) * 10 + (c - 48)) by lia.
  unfold three_digits, digit.
  destruct ((48 <=? a) && (a <=? 57) && ((48 <=? b) && (b <=? 57)) && ((48 <=? c) && (c <=? 57)) && negb (a =? 48)) eqn:E; [f_equal; lia|].
  exfalso. lia.
Qed.

(* content-length values that fit Go's int64 (parseUint refuses the others) *)
Definition cl_fits_fields (fs : list field) : bool :=
  forallb (fun f => if has_name H_content_length f
                    then match decimal (snd f) with Some n => (Z.of_N n <=? MAXINT)%Z | None => true end else true) fs.
Definition cl_fits (items : list ritem) : bool :=
  forallb (fun i => match i with RBlock fs _ => cl_fits_fields fs | RData _ _ => true end) items.

Lemma cl_small_numeric fs : cl_small fs = true -> content_lengths_numeric fs = true.
Proof.
  unfold cl_small, content_lengths_numeric. induction fs as [|f t IH]; [reflexivity|]. cbn [forallb]. intro H.
  apply andb_true_iff in H. destruct H as [H1 H2]. rewrite (IH H2), andb_true_r.
  destruct (has_name H_content_length f); [|reflexivity]. rewrite parse_uint_decimal in H1. destruct (decimal (snd f)); [reflexivity | discriminate].
Qed.
Lemma numeric_cl_small fs : content_lengths_numeric fs = true -> cl_fits_fields fs = true -> cl_small fs = true.
Proof.
  unfold cl_small, content_lengths_numeric, cl_fits_fields. induction fs as [|f t IH]; [reflexivity|]. cbn [forallb]. intros H G.
  apply andb_true_iff in H. destruct H as [H1 H2]. apply andb_true_iff in G. destruct G as [G1 G2]. rewrite (IH H2 G2), andb_true_r.
  destruct (has_name H_content_length f); [|reflexivity]. rewrite parse_uint_decimal. destruct (decimal (snd f)); [rewrite G1; reflexivity | discriminate].
Qed.

Lemma once_filter n fs : once n fs = true -> exists f, filter (has_name n) fs = [f].
Proof. unfold once, occurrences. destruct (filter (has_name n) fs) as [|f [|g l]]; try discriminate. eauto. Qed.

Lemma wf_head_lax fs n : wf_head fs = true -> cl_fits_fields fs = true -> status_of fs = Some n ->
  lax_head fs = true /\ lax_status_of fs = Z.of_N n.
Proof.
  unfold wf_head. intros H F S. bsplit. destruct H as [[[[[[H1 H2] H3] H4] H5] H6] H7].
  destruct (once_filter _ _ H5) as [f E]. unfold status_of in S. rewrite E in S. pose proof (three_digits_lax _ _ S) as L.
  assert (SL : statuses_lax fs = true).
  { unfold statuses_lax. rewrite (forallb_filter (has_name P_status) (fun f => match lax_status (snd f) with Some _ => true | None => false end)).
    rewrite E. cbn [forallb]. rewrite L. reflexivity. }
  split.
  - assert (H1' : forallb lowerf fs = true) by exact H1.
    unfold lax_head, lax_common. rewrite H1', H2, H3, H4, H5, SL, (numeric_cl_small _ H7 F). reflexivity.
  - unfold lax_status_of. rewrite E, L. reflexivity.
Qed.

Lemma wf_trailers_lax fs : wf_trailers fs = true -> cl_fits_fields fs = true -> lax_trailers fs = true.
Proof.
  unfold wf_trailers. intros H F. bsplit. destruct H as [[[H1 H2] H3] H4].
  assert (H1' : forallb lowerf fs = true) by exact H1.
  unfold lax_trailers, lax_common. rewrite H1', H3, (numeric_cl_small _ H4 F).
  pose proof H2 as NP. rewrite NP. unfold no_pseudo in H2. apply negb_true_iff in H2.
  assert (RP : response_pseudo_defined fs = true).
  { unfold response_pseudo_defined. clear -H2. induction fs as [|f t IH]; [reflexivity|]. cbn [existsb forallb] in *.
    apply orb_false_iff in H2. destruct H2 as [A B]. rewrite A, (IH B). reflexivity. }
  rewrite RP. cbn [andb].
  unfold statuses_lax. rewrite (forallb_filter (has_name P_status) (fun f => match lax_status (snd f) with Some _ => true | None => false end)).
  pose proof (none_no_pseudo _ RP) as E. rewrite NP in E. unfold none in E. rewrite <- filter_none in E.
  destruct (filter (has_name P_status) fs); [reflexivity | discriminate].
Qed.

Lemma wf_after_final_lax items : wf_after_final items = true -> cl_fits items = true -> lax_after_final items = true.
Proof.
  induction items as [|i t IH]; [discriminate|]. cbn [wf_after_final lax_after_final cl_fits forallb].
  destruct i as [fs es|d es]; intros H F; apply andb_true_iff in F; destruct F as [F1 F2].
  - destruct es; [|discriminate]. apply andb_true_iff in H. destruct H as [H1 H2]. rewrite (wf_trailers_lax _ H1 F1). exact H2.
  - destruct es; [exact H | exact (IH H F2)].
Qed.

(* every well-formed response (with content-length values below 2^63) is one the client answers with nil *)
Theorem wf_response_lax items : wf_response items = true -> cl_fits items = true -> lax_response items = true.
Proof.
  induction items as [|i t IH]; [discriminate|]. cbn [wf_response lax_response cl_fits forallb].
  destruct i as [fs es|d es]; [|discriminate]. intros H F. apply andb_true_iff in F. destruct F as [F1 F2].
  apply andb_true_iff in H. destruct H as [H1 H2]. destruct (status_of fs) as [n|] eqn:S; [|discriminate].
  destruct (wf_head_lax _ _ H1 F1 S) as [LH LS]. rewrite LH, LS. cbn [andb]. unfold informational in H2.
  destruct (n <? 200) eqn:I.
  - replace (Z.of_N n <? 200)%Z with true by (clear - I; lia). apply andb_true_iff in H2. destruct H2 as [A B]. rewrite A. exact (IH B F2).
  - replace (Z.of_N n <? 200)%Z with false by (clear - I; lia). destruct es; [exact H2 | exact (wf_after_final_lax _ H2 F2)].
Qed.

(* the other way round: what the client answers with nil is well formed. It rests on two checks of the client:
   a :status value has exactly three digits (lax_three_digits), and an informational (1xx) block does not end the stream. *)
Lemma lax_head_wf fs n : lax_head fs = true -> status_of fs = Some n -> wf_head fs = true /\ lax_status_of fs = Z.of_N n.
Proof.
  unfold lax_head, lax_common. intros H S. bsplit. destruct H as [[[[[[H1 H2] H3] H4] H5] H6] H7].
  split.
  - unfold wf_head. rewrite H2, H3, H6, H7, S, (cl_small_numeric _ H4), !andb_true_r. exact H1.
  - destruct (once_filter _ _ H7) as [f E]. unfold status_of in S. rewrite E in S. unfold lax_status_of. rewrite E, (three_digits_lax _ _ S). reflexivity.
Qed.

Lemma lax_trailers_wf fs : lax_trailers fs = true -> wf_trailers fs = true.
Proof.
  unfold lax_trailers, lax_common, wf_trailers. intro H. bsplit. destruct H as [[[[[H1 H2] H3] H4] H5] H6].
  rewrite H3, (cl_small_numeric _ H4), H6. repeat split. exact H1.
Qed.

Lemma lax_after_final_wf items : lax_after_final items = true -> wf_after_final items = true.
Proof.
  induction items as [|i t IH]; [discriminate|]. cbn [wf_after_final lax_after_final].
  destruct i as [fs es|d es]; intro H.
  - destruct es; [|discriminate]. apply andb_true_iff in H. destruct H as [H1 H2]. rewrite (lax_trailers_wf _ H1). exact H2.
  - destruct es; [exact H | exact (IH H)].
Qed.

Lemma lax_head_status fs : lax_head fs = true -> exists n, status_of fs = Some n.
Proof.
  unfold lax_head, lax_common. intro H. bsplit. destruct H as [[[[[[H1 H2] H3] H4] H5] H6] H7].
  destruct (once_filter _ _ H7) as [f E]. unfold status_of. rewrite E.
  unfold statuses_lax in H5. rewrite (forallb_filter (has_name P_status) (fun f => match lax_status (snd f) with Some _ => true | None => false end)), E in H5.
  cbn [forallb] in H5. destruct (lax_status (snd f)) as [z|] eqn:L; [|discriminate]. exists (Z.to_N z). exact (lax_three_digits _ _ L).
Qed.

Theorem lax_response_wf items : lax_response items = true -> wf_response items = true.
Proof.
  induction items as [|i t IH]; [discriminate|]. cbn [wf_response lax_response].
  destruct i as [fs es|d es]; [|discriminate]. intros H.
  apply andb_true_iff in H. destruct H as [LH H2].
  destruct (lax_head_status _ LH) as [n S]. rewrite S.
  destruct (lax_head_wf _ _ LH S) as [WH LS]. rewrite WH. rewrite LS in H2. cbn [andb]. unfold informational in *.
  destruct (n <? 200) eqn:I.
  - replace (Z.of_N n <? 200)%Z with true in H2 by lia. apply andb_true_iff in H2. destruct H2 as [A B]. rewrite A. exact (IH B).
  - replace (Z.of_N n <? 200)%Z with false in H2 by lia. destruct es; [exact H2 | exact (lax_after_final_wf _ H2)].
Qed.

(* the accepted set IS the specification's, for content-length values below 2^63 *)
Theorem lax_response_is_wf items : cl_fits items = true -> lax_response items = wf_response items.
Proof.
  intro F. destruct (wf_response items) eqn:W; [exact (wf_response_lax _ W F)|].
  destruct (lax_response items) eqn:L; [|reflexivity]. rewrite (lax_response_wf _ L) in W. discriminate.
Qed.

Definition kept (fs : list field) : list field :=
  filter (fun f => negb (Http2Messages.is_pseudo f) && negb (has_name H_content_length f)) fs.

Lemma app_field_fields r f :
  cr_fields (app_field r f) = cr_fields r ++ kept [f] /\ cr_body (app_field r f) = cr_body r.
Proof.
  unfold app_field, kept. cbn [filter]. destruct (Http2Messages.is_pseudo f); cbn [negb andb].
  - rewrite app_nil_r. destruct (lax_status (snd f)); split; reflexivity.
  - destruct (has_name H_content_length f); cbn [negb].
    + rewrite app_nil_r. destruct (parse_uint (snd f)); [|split; reflexivity]. unfold cl_resp_set_cl.
      destruct (negb (cr_status r =? 0)%Z && ((cr_status r <? 200)%Z || (cr_status r =? 204)%Z || (cr_status r =? 304)%Z)); split; reflexivity.
    + destruct f; split; reflexivity.
Qed.

Lemma app_fields_fields : forall fs r,
  cr_fields (app_fields r fs) = cr_fields r ++ kept fs /\ cr_body (app_fields r fs) = cr_body r.
Proof.
  induction fs as [|f t IH]; intro r; [cbn; rewrite app_nil_r; split; reflexivity|].
  unfold app_fields. cbn [fold_left]. fold (app_fields (app_field r f) t). destruct (IH (app_field r f)) as [A B].
  destruct (app_field_fields r f) as [C D]. rewrite A, B, C, D, <- app_assoc. split; [|reflexivity]. f_equal.
  unfold kept. cbn [filter]. destruct (negb (Http2Messages.is_pseudo f) && negb (has_name H_content_length f)); reflexivity.
Qed.

Lemma app_fields_status : forall fs r,
  response_pseudo_defined fs = true -> statuses_lax fs = true -> at_most_once P_status fs = true ->
  cr_status (app_fields r fs) = if none P_status fs then cr_status r else lax_status_of fs.
Proof.
  induction fs as [|[k v] t IH]; intros r RP SL AM; [reflexivity|].
  unfold app_fields. cbn [fold_left]. fold (app_fields (app_field r (k, v)) t).
  unfold response_pseudo_defined, statuses_lax in RP, SL. cbn [forallb] in RP, SL.
  apply andb_true_iff in RP. destruct RP as [RP1 RP2]. apply andb_true_iff in SL. destruct SL as [SL1 SL2].
  rewrite amo_cons in AM. rewrite none_cons. unfold lax_status_of. cbn [filter].
  destruct (Http2Messages.is_pseudo (k, v)) eqn:P.
  - rewrite RP1 in *. cbn [negb andb snd] in *. destruct (lax_status v) as [n|] eqn:L; [|discriminate].
    assert (AM' : at_most_once P_status t = true).
    { unfold at_most_once, occurrences. unfold none in AM. rewrite <- filter_none in AM. destruct (length (filter (has_name P_status) t)); [reflexivity | discriminate]. }
    rewrite (IH _ RP2 SL2 AM'), AM. unfold app_field. rewrite P. cbn [snd]. rewrite L. reflexivity.
  - rewrite (regular_not_status _ _ P) in *. cbn [negb andb]. rewrite (IH _ RP2 SL2 AM). fold (lax_status_of t).
    destruct (none P_status t); [|reflexivity]. unfold app_field. rewrite P.
    destruct (has_name H_content_length (k, v)); [|reflexivity]. cbn [snd]. destruct (parse_uint v); [|reflexivity].
    unfold cl_resp_set_cl. destruct (negb (cr_status r =? 0)%Z && ((cr_status r <? 200)%Z || (cr_status r =? 204)%Z || (cr_status r =? 304)%Z)); reflexivity.
Qed.

Definition kept_items (items : list ritem) : list field :=
  flat_map (fun i => match i with RBlock fs _ => kept fs | RData _ _ => [] end) items.

(* fields (all blocks: informational, final, trailers - content-length apart, it goes to Header.SetContentLength)
   and body of what is delivered *)
Theorem asm_fields_body : forall items r,
  cr_fields (asm r items) = cr_fields r ++ kept_items items /\
  cl_resp_body (asm r items) = cl_resp_body r ++ body_of items.
Proof.
  induction items as [|i t IH]; intro r; [cbn; rewrite !app_nil_r; split; reflexivity|].
  rewrite asm_cons. destruct (IH (app_item r i)) as [A B]. rewrite A, B. unfold kept_items, body_of. cbn [flat_map].
  rewrite !app_assoc. destruct i as [fs es|d es]; cbn [app_item].
  - destruct (app_fields_fields fs r) as [C D]. unfold cl_resp_body. rewrite C, D, app_nil_r. split; reflexivity.
  - rewrite app_nil_r. unfold cl_resp_body. destruct d as [|x d]; cbn [cl_is_nil]; [rewrite app_nil_r; split; reflexivity|].
    cbn [cl_resp_append_body cr_fields cr_body]. rewrite concat_app. cbn [concat]. rewrite app_nil_r. split; reflexivity.
Qed.

Lemma asm_after_final_status : forall items r, lax_after_final items = true -> cr_status (asm r items) = cr_status r.
Proof.
  induction items as [|i t IH]; intros r; [discriminate|]. cbn [lax_after_final]. rewrite asm_cons.
  destruct i as [fs es|d es]; cbn [app_item].
  - destruct es; [|discriminate]. intro H. apply andb_true_iff in H. destruct H as [H1 H2]. destruct t; [|discriminate]. cbn [asm fold_left].
    unfold lax_trailers in H1. apply andb_true_iff in H1. destruct H1 as [LC NP]. destruct (lax_common_parts _ LC) as [RP SL].
    assert (NS : none P_status fs = true) by (rewrite (none_no_pseudo _ RP); exact NP).
    rewrite (app_fields_status _ _ RP SL), NS; [reflexivity|].
    unfold at_most_once, occurrences. unfold none in NS. rewrite <- filter_none in NS. destruct (length (filter (has_name P_status) fs)); [reflexivity | discriminate].
  - assert (E : cr_status (if cl_is_nil d then r else cl_resp_append_body r d) = cr_status r) by (destruct (cl_is_nil d); reflexivity).
    destruct es; [destruct t; [intros _; exact E | discriminate]|]. intro H. rewrite (IH _ H). exact E.
Qed.

(* the status delivered is the status of the final header list *)
Theorem asm_status : forall items r n fs, wf_response items = true -> cl_fits items = true -> final_head items = Some (n, fs) ->
  cr_status (asm r items) = Z.of_N n.
Proof.
  induction items as [|i t IH]; intros r n fsn; [discriminate|]. cbn [wf_response final_head cl_fits forallb].
  destruct i as [fs es|d es]; [|discriminate]. intros H F FH. apply andb_true_iff in F. destruct F as [F1 F2].
  apply andb_true_iff in H. destruct H as [H1 H2]. destruct (status_of fs) as [m|] eqn:S; [|discriminate].
  destruct (wf_head_lax _ _ H1 F1 S) as [LH LS]. rewrite asm_cons. cbn [app_item].
  destruct (informational m) eqn:I.
  - apply andb_true_iff in H2. destruct H2 as [_ H2]. exact (IH _ _ _ H2 F2 FH).
  - inversion FH; subst m fsn.
    assert (ST : cr_status (app_fields r fs) = Z.of_N n).
    { unfold lax_head in LH. bsplit. destruct LH as [[LC PF] O]. destruct (lax_common_parts _ LC) as [RP SL]. rewrite once_split in O. bsplit.
      destruct O as [EX AM]. rewrite (app_fields_status _ _ RP SL AM). unfold none. rewrite EX. exact LS. }
    destruct es.
    + destruct t; [exact ST | discriminate].
    + rewrite (asm_after_final_status _ _ (wf_after_final_lax _ H2 F2)). exact ST.
Qed.
