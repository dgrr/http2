(* Proofs/CliFlowExamples.v - the instance of the client model with the real HPACK coder: vocabulary for the
   examples of Props/C07.v, Props/C14_client.v, Props/C18_client.v, and a checker for the hypothesis of C07
   (the server's grants keep every window at or below 2^31-1) on concrete histories. Definitions and their
   soundness only. *)
From H2V Require Import Base.Bytes Base.MachineInt Base.Result Gen.GenConsts Impl.Hpack Impl.ServerConn Impl.ServerInst
     Impl.ClientConn Impl.ClientInst Proofs.CliDefs Spec.FlowLedger Proofs.SrvFlowLedger
     Proofs.CliFlowMoves Proofs.CliFlowOut Proofs.CliFlowSettings Proofs.CliFlowSafe Proofs.CliFlowEs Proofs.CliFlowRecv Proofs.CliFlowLimits.
From Coq Require Import ZArith Lia List Bool.
Import ListNotations.
Local Open Scope N_scope.

(* ---------- the instance ---------- *)

Definition cli_ledger (cfg : cl_config) (first : bytes) (evs : list cevent) : list levent :=
  g_ledger hpack_state cli_dec_field cli_enc_field set_max_table_size cfg cli_init_hpack first evs.
Definition cli_rtimeline (cfg : cl_config) (first : bytes) (evs : list cevent) : list revent :=
  rtimeline hpack_state cli_dec_field cli_enc_field set_max_table_size cfg cli_init_hpack first evs.
(* what the last event of evs ++ [e] adds to the trace *)
Definition cli_step_items (cfg : cl_config) (first : bytes) (evs : list cevent) (e : cevent) : list coutev :=
  g_new hpack_state (cli_run cfg first evs) (cli_step cfg (cli_run cfg first evs) e).

(* ---------- a checker for GOK on a concrete history ---------- *)

Definition lbb (L : ledger) (sids : list N) : bool :=
  (l_conn L <=? MAXW)%Z && forallb (fun s => match l_strm L s with Some w => (w <=? MAXW)%Z | None => true end) sids.
Fixpoint gokb_from (L : ledger) (sids : list N) (h : list levent) : bool :=
  lbb L sids && match h with [] => true | e :: t => gokb_from (lstep L e) sids t end.
Definition opened_sids (h : list levent) : list N := flat_map (fun e => match e with LOpen s => [s] | _ => [] end) h.
Definition gokb (h : list levent) : bool := gokb_from ledger0 (opened_sids h) h.

Lemma lbb_LB L sids : (forall sid w, l_strm L sid = Some w -> In sid sids) -> lbb L sids = true -> LB L.
Proof.
  intros DOM H. unfold lbb in H. apply andb_prop in H. destruct H as [A B]. apply Z.leb_le in A. split; [exact A|].
  intros sid w E. rewrite forallb_forall in B. specialize (B sid (DOM _ _ E)). rewrite E in B. apply Z.leb_le in B. exact B.
Qed.

Lemma gokb_from_sound h : forall L sids,
  (forall sid w, l_strm L sid = Some w -> In sid sids) -> (forall s, In (LOpen s) h -> In s sids) ->
  gokb_from L sids h = true -> GOK L h.
Proof.
  induction h as [|e t IH]; intros L sids DOM OP H pre post E; cbn [gokb_from] in H; apply andb_prop in H; destruct H as [H1 H2].
  - destruct pre; [|discriminate]. cbn. apply (lbb_LB L sids DOM H1).
  - destruct pre as [|e' pre]; [cbn; apply (lbb_LB L sids DOM H1)|]. cbn [app] in E. inversion E; subst e' t.
    rewrite lrun_cons. apply (IH (lstep L e) sids) with (post := post); [| |exact H2|reflexivity].
    + intros sid w X. destruct e as [v|s|s inc|s n]; cbn [lstep l_strm] in X.
      * destruct (l_strm L sid) eqn:Y; [eapply DOM; exact Y | discriminate].
      * destruct (l_strm L s) eqn:Y; [eapply DOM; exact X|]. cbn [l_strm] in X. unfold strm_upd in X.
        destruct (N.eqb sid s) eqn:Z; [apply N.eqb_eq in Z; subst sid; apply OP; left; reflexivity | eapply DOM; exact X].
      * destruct (N.eqb s 0); [eapply DOM; exact X|]. destruct (l_strm L s) eqn:Y; [|eapply DOM; exact X].
        cbn [l_strm] in X. unfold strm_upd in X. destruct (N.eqb sid s) eqn:Z; [apply N.eqb_eq in Z; subst sid; eapply DOM; exact Y | eapply DOM; exact X].
      * destruct (l_strm L s) eqn:Y; [|eapply DOM; exact X]. unfold strm_upd in X.
        destruct (N.eqb sid s) eqn:Z; [apply N.eqb_eq in Z; subst sid; eapply DOM; exact Y | eapply DOM; exact X].
    + intros s HI. apply OP. right. exact HI.
Qed.

Lemma gokb_sound h : gokb h = true -> GOK ledger0 h.
Proof.
  intro H. apply (gokb_from_sound h ledger0 (opened_sids h)); [intros sid w X; discriminate | | exact H].
  intros s HI. unfold opened_sids. apply in_flat_map. exists (LOpen s). split; [exact HI | left; reflexivity].
Qed.

(* ---------- sample runs ---------- *)

(* initial window 10, a 25-byte body: 10 bytes go out with the request; a connection grant alone changes nothing;
   stream grants of 7 and then 100 let the rest out, END_STREAM on the last frame *)
Definition ex_first_w10 : bytes := [0; 4; 0; 0; 0; 10].
Definition ex_body25 : bytes := map N.of_nat (seq 1 25).
Definition ex_upload : list cevent :=
  [CEvSubmit 0 (ex_post (CBuf ex_body25)) true; CEvWLIn;
   CEvRL (ex_winupd 0 1000); CEvWLWin [];
   CEvRL (ex_winupd 1 7); CEvWLWin [];
   CEvRL (ex_winupd 1 100); CEvWLWin []].

(* the observation about int32: two WINDOW_UPDATEs whose sum with the window is above 2^31-1 *)
Definition ex_wrap : list cevent :=
  [CEvSubmit 0 (ex_post (CBuf ex_body25)) true; CEvWLIn;
   CEvRL (ex_winupd 1 2147483647); CEvRL (ex_winupd 1 100); CEvWLWin []].

(* payload lengths only *)
Definition brief (o : coutev) : coutev :=
  match o with
  | COHeaders s e b => COHeaders s e []
  | COData s e p => COData s e [len p]
  | COResult t r e _ => COResult t r e cl_empty_resp
  | _ => o
  end.

(* a DATA frame of wire bytes on the wire, all but one of them padding *)
Definition ex_pad_data (sid : N) (es : bool) (wire : N) : rl_input :=
  RFrame (mkSFrame KData (if es then 1 else 0) sid wire [97] 0 0 0 false 0 false 0).
(* a response in n padded DATA frames of 16384 bytes on the wire *)
Definition ex_download (n : nat) : list cevent :=
  [CEvSubmit 0 ex_get true; CEvWLIn; CEvRL (ex_headers 1 false ex_block_200)] ++ repeat (CEvRL (ex_pad_data 1 false 16384)) n.

(* SETTINGS: MAX_CONCURRENT_STREAMS = 1, MAX_FRAME_SIZE = 32768, MAX_CONCURRENT_STREAMS = 7, HEADER_TABLE_SIZE = 100 *)
Definition ex_settings_payload : bytes := [0;3;0;0;0;1; 0;5;0;0;128;0; 0;3;0;0;0;7; 0;1;0;0;0;100].
Definition ex_settings_frame : sframe := mkSFrame KSettings 0 0 24 ex_settings_payload 0 0 0 false 0 false 0.

(* a request with one large header field *)
Definition ex_big_request : crequest :=
  mkCReq [104] [71; 69; 84] [47] [104; 116; 116; 112; 115] [] [([120], repeat 97 (N.to_nat 40000))] (CBuf []).

(* ---------- the HEADERS frame against MAX_FRAME_SIZE (refuted) ---------- *)

Definition hdr_oversize (cfg : cl_config) (first : bytes) (evs : list cevent) (e : cevent) : bool :=
  existsb (fun o => match o with COHeaders _ _ b => cc_maxFrame (cli_run cfg first evs) <? len b | _ => false end)
          (cli_step_items cfg first evs e).

Lemma hdr_oversize_refutes cfg first evs e : hdr_oversize cfg first evs e = true ->
  ~ (forall sid es blk, In (COHeaders sid es blk) (cli_step_items cfg first evs e) -> len blk <= cc_maxFrame (cli_run cfg first evs)).
Proof.
  intros H X. unfold hdr_oversize in H. apply existsb_exists in H. destruct H as (o & HI & T).
  destruct o; try discriminate. apply N.ltb_lt in T. specialize (X _ _ _ HI). lia.
Qed.

(* the witness against "every HEADERS frame fits MAX_FRAME_SIZE": a 40000-byte header value gives one HEADERS frame of
   25014 bytes under the default limit; the refutation and its example in Props/C18_client.v quote it. *)
Lemma ex_big_request_one_frame :
  map (fun o => match o with COHeaders s e b => COHeaders s e [len b] | _ => o end)
      (cli_step_items ex_cfg [] [CEvSubmit 0 ex_big_request true] CEvWLIn) = [COHeaders 1 true [25014]] /\
  cc_maxFrame (cli_run ex_cfg [] [CEvSubmit 0 ex_big_request true]) = 16384.
Proof. vm_compute. repeat split. Qed.
