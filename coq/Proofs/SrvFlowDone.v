(* Proofs/SrvFlowDone.v - C06 completion, for a buffered response body: what one call of sendData puts on the wire,
   exactly; when the windows cover what is left, the response is finished with a single END_STREAM. *)
From H2V Require Import Base.Bytes Base.MachineInt Base.Result Gen.GenConsts Impl.ServerConn Proofs.SrvBase
  Proofs.SrvFlowSend Proofs.SrvFlowFuel.
From Coq Require Import ZArith Lia ZifyN ZifyNat ZifyBool List.
Import ListNotations.
Local Open Scope N_scope.
Set Default Proof Using "Type".

Definition frames_out (sid : N) (frames : list (bool * bytes)) : list outev :=
  map (fun f => OData sid (fst f) (snd f)) frames.

(* END_STREAM flags of a run of DATA frames: none, or only on the last one *)
Definition es_shape (frames : list (bool * bytes)) (fin : bool) : Prop :=
  map fst frames = repeat false (length frames - (if fin then 1 else 0)) ++ (if fin then [true] else []).

Lemma es_shape_app f1 f2 fin : es_shape f1 false -> es_shape f2 fin -> es_shape (f1 ++ f2) fin.
Proof.
  unfold es_shape. intros H1 H2. rewrite map_app, H1, H2, app_length, Nat.sub_0_r, app_nil_r, app_assoc, <- repeat_app.
  assert (L : ((if fin then 1 else 0) <= length f2)%nat).
  { destruct fin; [|lia]. destruct f2; [cbn in H2; discriminate | cbn; lia]. }
  f_equal. f_equal. lia.
Qed.

Section Done.
Variable hstate : Type.
Notation sconn := (sconn hstate).
Implicit Types c : sconn.

(* how many bytes sendData can send now *)
Definition sd_quota c (n : sendst) : N := Z.to_N (Z.max 0 (Z.min (Z.of_N (len (sn_pending n))) (sd_avail c n))).

(* one chunk comes off the quota *)
Lemma sd_quota_chunk sid c n : sn_pending n <> [] -> (0 < sd_avail c n)%Z ->
  sd_quota c n = Z.to_N (sd_step c n) + sd_quota (sd_c2 c sid n) (sd_n' c n).
Proof.
  intros P A. destruct (sd_step_bounds _ c n P A) as (B1 & _ & B3 & B4 & B5).
  unfold sd_quota, sd_avail, sd_c2, sd_n', sd_rest in *. sc_cbn. cbn [sn_window sn_pending].
  rewrite len_dropN. unfold sd_step, sd_avail in *. rewrite !zmin_min in *. lia.
Qed.

Lemma SDL_buffered sid c n r k : SDL sid c n r k -> k = false ->
  sn_bodyStream n = None -> sn_pendingEnd n = true -> sc_wl_dead c = false -> sc_sl_done c = false ->
  let c' := fst (fst (fst r)) in let n' := snd (fst (fst r)) in let fin := snd (fst r) in
  exists frames,
    sc_out c' = rev (frames_out sid frames) ++ sc_out c /\
    concat (map snd frames) = takeN (sd_quota c n) (sn_pending n) /\
    sn_pending n' = dropN (sd_quota c n) (sn_pending n) /\
    Forall (fun f => 0 < len (snd f) <= 16384) frames /\
    es_shape frames (fin && negb (match sn_pending n with [] => true | _ => false end)) /\
    fin = (sd_quota c n =? len (sn_pending n)) /\
    sn_window n' = (sn_window n - Z.of_N (sd_quota c n))%Z /\
    sc_clientWindow c' = (sc_clientWindow c - Z.of_N (sd_quota c n))%Z /\
    sn_bodyStream n' = None /\ sn_pendingEnd n' = true /\ sc_wl_dead c' = false /\ sc_sl_done c' = false.
Proof.
  induction 1; intros Ek BS PE WD SD; cbv zeta; cbn [fst snd]; try discriminate.
  - (* nothing pending *)
    exists []. assert (Q : sd_quota c n = 0) by (unfold sd_quota; rewrite H; change (len []) with 0; lia).
    rewrite Q, H. rewrite takeN_nil, dropN_nil. cbn [frames_out map rev app concat].
    split; [reflexivity|]. split; [reflexivity|]. split; [reflexivity|]. split; [constructor|].
    split; [reflexivity|]. split; [reflexivity|]. split; [lia|]. split; [lia|]. auto.
  - congruence.
  - congruence.
  - (* blocked *)
    destruct H as [P|]; [|congruence].
    exists []. assert (Q : sd_quota c n = 0) by (unfold sd_quota; lia). rewrite Q.
    cbn [frames_out map rev app concat takeN dropN firstn skipn N.to_nat].
    assert (LP : len (sn_pending n) <> 0) by (rewrite len_nil_iff; exact P).
    split; [reflexivity|]. split; [reflexivity|]. split; [reflexivity|]. split; [constructor|].
    split; [reflexivity|]. split; [symmetry; apply N.eqb_neq; lia|]. split; [lia|]. split; [lia|]. auto.
  - (* the last chunk *)
    destruct H as [P|]; [|congruence].
    destruct (sd_step_bounds _ c n P H0) as (B1 & B2 & B3 & B4 & B5).
    unfold sd_es in H1. rewrite PE in H1. cbn [andb] in H1.
    assert (R : sd_rest c n = []) by (destruct (sd_rest c n); [reflexivity | discriminate]).
    assert (LR : len (sd_rest c n) = len (sn_pending n) - Z.to_N (sd_step c n)) by (unfold sd_rest; apply len_dropN).
    rewrite R in LR. change (len []) with 0 in LR.
    assert (ST : sd_step c n = Z.of_N (len (sn_pending n))) by lia.
    assert (Q : sd_quota c n = len (sn_pending n)).
    { unfold sd_quota. unfold sd_step in ST. rewrite !zmin_min in ST. lia. }
    assert (CH : sd_chunk c n = sn_pending n).
    { pose proof (sd_chunk_rest _ c n) as X. rewrite R, app_nil_r in X. exact X. }
    exists [(true, sn_pending n)]. unfold sd_c2, sd_n'. sc_cbn. cbn [sn_pending sn_window sn_bodyStream sn_pendingEnd].
    rewrite sc_out_emit, WD, SD, Q, R, CH. unfold sd_es. rewrite PE, R. cbn [andb frames_out map rev app fst snd concat].
    assert (LP : len (sn_pending n) <> 0) by (rewrite len_nil_iff; exact P).
    rewrite app_nil_r, takeN_ge, dropN_ge by lia.
    split; [reflexivity|]. split; [reflexivity|]. split; [reflexivity|].
    split; [repeat constructor; cbn [snd]; lia|].
    split; [destruct (sn_pending n); [congruence | reflexivity]|].
    split; [symmetry; apply N.eqb_refl|]. rewrite ST, ?sc_wl_dead_emit, ?sc_sl_done_emit. repeat split; try assumption; lia.
  - (* a chunk, and on *)
    destruct H as [P|]; [|congruence].
    destruct (sd_step_bounds _ c n P H0) as (B1 & B2 & B3 & B4 & B5).
    pose proof (sd_chunk_len _ c n P H0) as CL.
    unfold sd_es in H1. rewrite PE in H1. cbn [andb] in H1.
    assert (R : sd_rest c n <> []) by (intro X; rewrite X in H1; discriminate).
    assert (LR : len (sd_rest c n) = len (sn_pending n) - Z.to_N (sd_step c n)) by (unfold sd_rest; apply len_dropN).
    assert (LR0 : len (sd_rest c n) <> 0) by (rewrite len_nil_iff; exact R).
    destruct (IHSDL Ek) as (frames & E & CC & PD & FA & ES & FN & W & CW & B' & P' & W' & S'); clear IHSDL.
    { exact BS. } { exact PE. }
    { unfold sd_c2. sc_cbn. rewrite sc_wl_dead_emit. exact WD. }
    { unfold sd_c2. sc_cbn. rewrite sc_sl_done_emit. exact SD. }
    cbv zeta in E, CC, PD, ES, FN, W, CW.
    pose proof (sd_quota_chunk sid c n P H0) as Q.
    set (q' := sd_quota (sd_c2 c sid n) (sd_n' c n)) in *.
    exists ((false, sd_chunk c n) :: frames).
    assert (O1 : sc_out (sd_c2 c sid n) = OData sid false (sd_chunk c n) :: sc_out c).
    { unfold sd_c2. sc_cbn. rewrite sc_out_emit, WD, SD. unfold sd_es. rewrite PE. cbn [andb].
      destruct (sd_rest c n); [congruence | reflexivity]. }
    split; [rewrite E, O1; cbn [frames_out map rev fst snd]; rewrite <- app_assoc; reflexivity|].
    unfold sd_n' in CC, PD, ES, FN, W. cbn [sn_pending sn_window] in CC, PD, ES, FN, W.
    unfold sd_c2 in CW. sc_cbn_in CW. rewrite Q.
    split; [rewrite takeN_add; cbn [map snd concat]; rewrite CC; reflexivity|].
    split; [rewrite dropN_add; exact PD|].
    split; [constructor; [cbn [snd]; clear - CL B1 B2; lia | exact FA]|].
    split.
    { (* END_STREAM only on the last frame *)
      replace (match sn_pending n with [] => true | _ => false end) with false by (destruct (sn_pending n); [congruence | reflexivity]).
      replace (match sd_rest c n with [] => true | _ => false end) with false in ES by (destruct (sd_rest c n); [congruence | reflexivity]).
      apply (es_shape_app [(false, sd_chunk c n)]); [reflexivity | exact ES]. }
    split.
    { rewrite FN, LR. apply Bool.eq_true_iff_eq. rewrite !N.eqb_eq. clear - B1 B5. lia. }
    split; [rewrite W; clear - B1; lia|]. split; [rewrite CW; clear - B1; lia|]. auto.
Qed.

(* one call of sendData on a stream with a buffered body *)
Theorem send_data_buffered c s :
  st_bodyStream s = None -> st_pendingEnd s = true -> sc_wl_dead c = false -> sc_sl_done c = false ->
  let q := Z.to_N (Z.max 0 (Z.min (Z.of_N (len (st_pending s))) (Z.min (st_window s) (sc_clientWindow c)))) in
  let r := send_data c s in
  exists frames,
    sc_out (fst (fst r)) = rev (frames_out (st_id s) frames) ++ sc_out c /\
    concat (map snd frames) = takeN q (st_pending s) /\
    st_pending (snd (fst r)) = dropN q (st_pending s) /\
    Forall (fun f => 0 < len (snd f) <= 16384) frames /\
    es_shape frames (snd r && negb (match st_pending s with [] => true | _ => false end)) /\
    snd r = (q =? len (st_pending s)) /\
    st_window (snd (fst r)) = (st_window s - Z.of_N q)%Z /\
    sc_clientWindow (fst (fst r)) = (sc_clientWindow c - Z.of_N q)%Z.
Proof.
  intros BS PE WD SD. cbv zeta. unfold send_data.
  pose proof (send_data_SDL _ (st_id s) c (get_snd s)) as H.
  destruct (SDL_buffered _ _ _ _ _ H eq_refl BS PE WD SD) as (frames & E & CC & PD & FA & ES & FN & W & CW & _).
  cbv zeta in E, CC, PD, ES, FN, W, CW.
  destruct (send_data_loop (send_data_fuel (get_snd s)) c (st_id s) (get_snd s)) as [[[c1 n1] done] wr].
  cbn [fst snd] in *. unfold sd_quota, sd_avail in *. rewrite zmin_min in *. cbn [get_snd sn_pending sn_window] in *.
  exists frames. split; [exact E|]. split; [exact CC|].
  split; [destruct wr, done; cbn [st_pending set_weReset set_snd sn_pending]; exact PD|].
  split; [exact FA|]. split; [exact ES|]. split; [exact FN|].
  split; [destruct wr, done; cbn [st_window set_weReset set_snd sn_window]; exact W | exact CW].
Qed.

(* the stream sendData hands back: only the window and the buffer have moved *)
Lemma send_data_buffered_stream c s :
  st_bodyStream s = None -> st_pendingEnd s = true -> sc_wl_dead c = false -> sc_sl_done c = false ->
  let s' := snd (fst (send_data c s)) in
  st_id s' = st_id s /\ st_state s' = st_state s /\ st_headersFinished s' = st_headersFinished s /\
  st_responded s' = st_responded s /\ st_handlerRunning s' = st_handlerRunning s /\
  st_bodyStream s' = None /\ st_pendingEnd s' = true /\
  sc_strms (fst (fst (send_data c s))) = sc_strms c /\ sc_sl_done (fst (fst (send_data c s))) = false /\
  sc_wl_dead (fst (fst (send_data c s))) = false /\ sc_closing (fst (fst (send_data c s))) = sc_closing c /\
  sc_closeRef (fst (fst (send_data c s))) = sc_closeRef c.
Proof.
  intros BS PE WD SD. cbv zeta. unfold send_data.
  pose proof (send_data_SDL _ (st_id s) c (get_snd s)) as H.
  destruct (SDL_buffered _ _ _ _ _ H eq_refl BS PE WD SD) as (frames & _ & _ & _ & _ & _ & _ & _ & _ & B' & P' & W' & S').
  pose proof (SDL_nf _ _ _ _ _ _ H) as NF.
  destruct (send_data_loop (send_data_fuel (get_snd s)) c (st_id s) (get_snd s)) as [[[c1 n1] done] wr].
  cbn [fst snd] in *.
  assert (F : sc_strms c1 = sc_strms c /\ sc_closing c1 = sc_closing c /\ sc_closeRef c1 = sc_closeRef c)
    by (rewrite NF; repeat split).
  destruct F as (F1 & F2 & F3).
  destruct wr, done; cbn [st_id st_state st_headersFinished st_responded st_handlerRunning st_bodyStream st_pendingEnd
                          set_weReset set_snd sn_bodyStream sn_pendingEnd]; repeat split; assumption.
Qed.

(* completion: when both windows cover what is left of the body, it all goes out now, in frames of at most 16384
   bytes, the last one and only the last one with END_STREAM, and sendData reports the response finished *)
Corollary send_data_completes c s :
  st_bodyStream s = None -> st_pendingEnd s = true -> sc_wl_dead c = false -> sc_sl_done c = false ->
  st_pending s <> [] ->
  (Z.of_N (len (st_pending s)) <= st_window s)%Z -> (Z.of_N (len (st_pending s)) <= sc_clientWindow c)%Z ->
  let r := send_data c s in
  snd r = true /\ st_pending (snd (fst r)) = [] /\
  exists frames,
    sc_out (fst (fst r)) = rev (frames_out (st_id s) frames) ++ sc_out c /\
    concat (map snd frames) = st_pending s /\
    Forall (fun f => 0 < len (snd f) <= 16384) frames /\ es_shape frames true.
Proof.
  intros BS PE WD SD P W1 W2. cbv zeta.
  destruct (send_data_buffered c s BS PE WD SD) as (frames & E & CC & PD & FA & ES & FN & _). cbv zeta in *.
  assert (Q : Z.to_N (Z.max 0 (Z.min (Z.of_N (len (st_pending s))) (Z.min (st_window s) (sc_clientWindow c)))) = len (st_pending s)) by lia.
  rewrite Q in *. rewrite N.eqb_refl in FN. rewrite FN in ES.
  replace (match st_pending s with [] => true | _ => false end) with false in ES by (destruct (st_pending s); [congruence | reflexivity]).
  rewrite takeN_ge in CC by lia. rewrite dropN_ge in PD by lia.
  split; [exact FN|]. split; [exact PD|]. exists frames. auto.
Qed.

End Done.
