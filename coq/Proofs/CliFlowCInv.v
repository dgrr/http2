(* Proofs/CliFlowCInv.v - C07, "and finishes": the bookkeeping of one request body.
   Bk ex B ok id c: on stream id, whose request body is B (ok: its reader ends well), the DATA payloads in the
   trace are a prefix of B; END_STREAM has been written at most once, and only after all of B; and (when ex
   holds: the write loop is alive) what is left in the pending body is exactly the rest of B.
   Closed under every move that is not a critical section / a refill of that very stream. *)
From H2V Require Import Base.Bytes Base.MachineInt Base.Result Gen.GenConsts Impl.ServerConn Impl.ClientConn
     Proofs.CliBase Proofs.CliDefs Spec.FlowLedger Proofs.CliFlowMoves Proofs.CliFlowOut Proofs.CliFlowSettings Proofs.CliFlowSafe Proofs.CliFlowEs
     Proofs.CliFlowStall Proofs.CliFlowCBody.
From Coq Require Import ZArith Lia ZifyN ZifyNat ZifyBool List Bool.
Import ListNotations.
Local Open Scope N_scope.
Set Default Proof Using "Type".

Lemma pend_get_map (f : cpending -> cpending) l id : (forall p, pb_id (f p) = pb_id p) ->
  cl_pend_get (map f l) id = option_map f (cl_pend_get l id).
Proof.
  intro H. induction l as [|q t IH]; cbn [map cl_pend_get option_map]; [reflexivity|].
  rewrite H. destruct (pb_id q =? id); [reflexivity | exact IH].
Qed.

Lemma pb_all_window pb w : pb_all (pbu_window pb w) = pb_all pb /\ pb_ok (pbu_window pb w) = pb_ok pb.
Proof. split; reflexivity. Qed.

Section Bk.
Variable hstate : Type.
Variable enc_field : hstate -> bytes -> bytes -> bool -> bytes * hstate.
Variable enc_set_max : hstate -> N -> hstate.
Notation cconn := (cconn hstate).
Notation move := (move hstate).
Notation apply := (apply hstate enc_field enc_set_max).
Notation valid := (valid hstate).
Notation items := (items hstate).
Notation mvs := (mvs enc_field enc_set_max).
Notation D := (D enc_field enc_set_max).

Definition pget (c : cconn) (id : N) : option cpending := cl_pend_get (cc_pending c) id.

Record Bk (ex : Prop) (B : bytes) (ok : bool) (id : N) (c : cconn) : Prop := mkBk {
  bk_open : id < cc_nextID c;
  bk_prefix : exists rest, dbytes id (cc_out c) ++ rest = B;
  bk_es : esn id (cc_out c) = 0%nat \/
          (esn id (cc_out c) = 1%nat /\ dbytes id (cc_out c) = B /\ ok = true /\ pget c id = None);
  bk_exact : ex -> forall pb, pget c id = Some pb -> dbytes id (cc_out c) ++ pb_all pb = B /\ pb_ok pb = ok
}.

Definition same_pb (pb' pb : cpending) : Prop := pb_all pb' = pb_all pb /\ pb_ok pb' = pb_ok pb.

Lemma Bk_frame (ex ex' : Prop) B ok id (c c' : cconn) :
  cc_nextID c <= cc_nextID c' -> dbytes id (cc_out c') = dbytes id (cc_out c) -> esn id (cc_out c') = esn id (cc_out c) ->
  (forall pb', pget c' id = Some pb' -> exists pb, pget c id = Some pb /\ same_pb pb' pb) ->
  (ex' -> ex) -> Bk ex B ok id c -> Bk ex' B ok id c'.
Proof.
  intros NX DB EN PG EX [b1 b2 b3 b4]. constructor.
  - clear - NX b1. lia.
  - rewrite DB. exact b2.
  - rewrite DB, EN. destruct b3 as [b3|(b3 & b5 & b6 & b7)]; [left; exact b3|]. right. repeat split; auto.
    destruct (pget c' id) as [pb'|] eqn:G; [|reflexivity]. destruct (PG pb' eq_refl) as (pb & X & _). congruence.
  - intros E pb' G. destruct (PG pb' G) as (pb & X & S1 & S2). rewrite DB, S1, S2. apply b4; auto.
Qed.

Lemma Bk_weaken (ex ex' : Prop) B ok id (c : cconn) : (ex' -> ex) -> Bk ex B ok id c -> Bk ex' B ok id c.
Proof. intros H K. apply (Bk_frame ex ex' B ok id c c); auto; [apply N.le_refl|]. intros pb' G. exists pb'. split; [exact G | split; reflexivity]. Qed.

(* the moves that are not a critical section of stream id (MSend: written or not; MSendBack: handed back) *)
Definition untouched (id : N) (m : move) : Prop :=
  match m with MSend i _ | MSendBack i => i <> id | _ => True end.

Lemma notes_out l : forall (c : cconn), cc_out (cl_notes c l) = rev l ++ cc_out c.
Proof. intro c. apply (cc_out_cl_notes hstate). Qed.

(* what a move that leaves the stream alone adds to the trace says nothing about it *)
Lemma items_other id m (c : cconn) : valid m c -> ES hstate c -> id < cc_nextID c -> untouched id m ->
  dbl id (items m c) = [] /\ esl id (items m c) = 0%nat.
Proof.
  intros V E OP U. destruct m; cbn [items]; try (split; reflexivity).
  - destruct (quietb o) eqn:Q; [|split; reflexivity]. apply dbl_nostream. constructor; [|constructor]. destruct o; try discriminate; exact I.
  - destruct (cc_outQ c) as [|o q] eqn:Q; [split; reflexivity|]. apply dbl_nostream. constructor; [|constructor].
    pose proof (es_q _ _ E) as QQ. rewrite Q in QQ. inversion QQ as [|? ? QO QT]. destruct o; try contradiction; exact I.
  - cbn [untouched] in U. destruct (cl_pend_get (cc_pending c) id0) as [pb|]; [|split; reflexivity].
    destruct wr; [|split; reflexivity]. rewrite dbl_write_data, esl_write_data.
    replace (id0 =? id) with false by (symmetry; apply N.eqb_neq; exact U). split; reflexivity.
  - unfold dbl, esl. cbn [map concat list_sum fold_right o_data o_es app].
    replace (cc_nextID c =? id) with false by (symmetry; apply N.eqb_neq; clear - OP; lia). split; reflexivity.
Qed.

(* a move that leaves the stream alone keeps its pending body, or drops it, or changes its window *)
Lemma pget_other id m (c : cconn) : valid m c -> ES hstate c -> id < cc_nextID c -> untouched id m ->
  forall pb', pget (apply m c) id = Some pb' -> exists pb, pget c id = Some pb /\ same_pb pb' pb.
Proof.
  intros V E OP U pb'. unfold pget.
  assert (SAME : cc_pending (apply m c) = cc_pending c ->
                 cl_pend_get (cc_pending (apply m c)) id = Some pb' -> exists pb, cl_pend_get (cc_pending c) id = Some pb /\ same_pb pb' pb).
  { intros -> G. exists pb'. split; [exact G | split; reflexivity]. }
  pose proof (es_nodup _ _ E) as ND.
  destruct (flow_move hstate m) eqn:FM; [|apply SAME; apply (apply_quiet hstate enc_field enc_set_max m c FM)].
  destruct m; try discriminate FM; try (apply SAME; reflexivity).
  - (* MSettings *)
    cbn [apply]. destruct (cl_settings_deserialize false payload) as [st|]; [|intro G; exists pb'; split; [exact G | split; reflexivity]].
    unfold cl_handle_settings, cl_apply_initial_window, cl_signal_window, cl_write_out.
    destruct (cl_settings_has st c_HeaderTableSize), (cs_hasWin st); cc_cbn; destruct (cc_closed c); cc_cbn;
      try (intro G; exists pb'; split; [exact G | split; reflexivity]);
      (rewrite pend_get_map by reflexivity; destruct (cl_pend_get (cc_pending c) id) as [pb|]; cbn [option_map]; [|discriminate];
       intro G; inversion G; exists pb; split; [reflexivity | apply pb_all_window]).
  - (* MAddWindow *)
    cbn [apply]. unfold cl_add_window, cl_signal_window. destruct (sid =? 0); cc_cbn; [intro G; exists pb'; split; [exact G | split; reflexivity]|].
    destruct (cl_pend_get (cc_pending c) sid) as [pb|] eqn:GS; cc_cbn; [|intro G; exists pb'; split; [exact G | split; reflexivity]].
    destruct (cl_pend_get_In _ _ _ GS) as [HI EI].
    destruct (N.eq_dec id sid) as [->|NE].
    + rewrite <- EI. change (pb_id pb) with (pb_id (pbu_window pb (cl_i32 (pb_window pb + inc)))) at 1.
      rewrite pend_get_put_same by (cbn [pb_id pbu_window]; rewrite EI, GS; discriminate).
      intro G. inversion G. exists pb. split; [rewrite EI; exact GS | apply pb_all_window].
    + rewrite pend_get_put_other by (cbn [pb_id pbu_window]; rewrite EI; exact NE).
      intro G. exists pb'. split; [exact G | split; reflexivity].
  - (* MPendDel *)
    cbn [apply]. cc_cbn. destruct (N.eq_dec id id0) as [->|NE].
    + rewrite pend_get_del_same by exact ND. discriminate.
    + rewrite pend_get_del_other by exact NE. intro G. exists pb'. split; [exact G | split; reflexivity].
  - (* MPendAddDel *)
    apply SAME. destruct V as [PI _]. cbn [apply]. cc_cbn. apply pend_del_app_last.
    intros p HP. pose proof (es_fresh _ _ E p HP). clear - H PI. lia.
  - (* MRefill *)
    destruct V as (pb & pb1 & G & RC & RF). cbn [apply]. rewrite G, RF. cc_cbn.
    destruct (refill_same _ _ RF) as [RI _]. destruct (cl_pend_get_In _ _ _ G) as [_ EI].
    destruct (N.eq_dec id id0) as [->|NE].
    + rewrite <- EI, <- RI. rewrite pend_get_put_same by (rewrite RI, EI, G; discriminate).
      intro G'. inversion G'. subst pb'. exists pb. split; [rewrite RI, EI; exact G | apply refill_all; assumption].
    + rewrite pend_get_put_other by (rewrite RI, EI; exact NE).
      intro G'. exists pb'. split; [exact G' | split; reflexivity].
  - (* MSend *)
    cbn [untouched] in U. destruct V as (pb & G & _). cbn [apply]. rewrite G. destruct (cl_pend_get_In _ _ _ G) as [_ EI].
    assert (X : cl_pend_get (cc_pending (cs_conn c pb id0)) id = cl_pend_get (cc_pending c) id).
    { unfold cs_conn. destruct (cs_end c pb); cc_cbn.
      - apply pend_get_del_other. intro Y. apply U. symmetry. exact Y.
      - apply pend_get_put_other. unfold cs_pb. cbn [pb_id pbu_body pbu_window]. rewrite EI. intro Y. apply U. symmetry. exact Y. }
    destruct wr; [rewrite cc_pending_cl_notes|]; rewrite X; intro G'; exists pb'; (split; [exact G' | split; reflexivity]).
  - (* MSendBack *)
    cbn [untouched] in U. destruct V as (pb & G & _). cbn [apply]. rewrite G. unfold send_back. cbv zeta. destruct (cl_pend_get_In _ _ _ G) as [_ EI].
    assert (X : cl_pend_get (cc_pending (cs_conn c pb id0)) id = cl_pend_get (cc_pending c) id).
    { unfold cs_conn. destruct (cs_end c pb); cc_cbn.
      - apply pend_get_del_other. intro Y. apply U. symmetry. exact Y.
      - apply pend_get_put_other. unfold cs_pb. cbn [pb_id pbu_body pbu_window]. rewrite EI. intro Y. apply U. symmetry. exact Y. }
    assert (Y : cc_pending (if (0 <? cs_n c pb)%Z then cl_add_window (cs_conn c pb id0) 0 (cs_n c pb) else cs_conn c pb id0) = cc_pending (cs_conn c pb id0))
      by (destruct (0 <? cs_n c pb)%Z; reflexivity).
    set (c3 := if (0 <? cs_n c pb)%Z then _ else _) in *.
    destruct (cl_pend_get (cc_pending c3) id0); cc_cbn; [rewrite pend_get_del_other by (intro Z; apply U; symmetry; exact Z)|];
      rewrite Y, X; intro G'; exists pb'; (split; [exact G' | split; reflexivity]).
  - (* MHeaders *)
    destruct V as (_ & _ & _ & _ & _ & PB & _). cbn [apply]. destruct opb as [pb|]; cc_cbn; [|intro G; exists pb'; split; [exact G | split; reflexivity]].
    destruct (PB pb eq_refl) as [PI _]. rewrite pend_get_app_other by (rewrite PI; clear - OP; lia).
    intro G. exists pb'. split; [exact G | split; reflexivity].
Qed.

Lemma mv_Bk (ex : Prop) B ok id m (c : cconn) : valid m c -> ES hstate c -> untouched id m ->
  Bk ex B ok id c -> Bk ex B ok id (apply m c).
Proof.
  intros V E U K. pose proof (bk_open _ _ _ _ _ K) as OP.
  destruct (items_other id m c V E OP U) as [I1 I2].
  apply (Bk_frame ex ex B ok id c); auto.
  - apply (apply_ids hstate enc_field enc_set_max m c V).
  - rewrite (out_apply hstate enc_field enc_set_max), dbytes_app, I1, app_nil_r. reflexivity.
  - rewrite (out_apply hstate enc_field enc_set_max), esn_app, I2, Nat.add_0_r. reflexivity.
  - apply pget_other; assumption.
Qed.

Lemma mvs_Bk (ex : Prop) B ok id (c : cconn) ms c' : mvs c ms c' -> Forall (untouched id) ms -> ES hstate c ->
  Bk ex B ok id c -> Bk ex B ok id c' /\ ES hstate c'.
Proof.
  induction 1 as [c|c m ms c' V M IH]; intros F E K; [split; assumption|]. inversion F; subst.
  apply IH; [assumption | apply mv_ES; assumption | apply mv_Bk; assumption].
Qed.

Lemma mvs_ES (c : cconn) ms c' : mvs c ms c' -> ES hstate c -> ES hstate c'.
Proof. induction 1 as [c|c m ms c' V M IH]; intro E; [exact E|]. apply IH. apply mv_ES; assumption. Qed.

Lemma mvs_live (c : cconn) ms c' : mvs c ms c' -> cl_wl_live c' = true -> cl_wl_live c = true.
Proof. induction 1 as [c|c m ms c' V M IH]; intro L; [exact L|]. eapply apply_live. apply IH. exact L. Qed.

Lemma D_Bk (P : move -> Prop) g (ex : Prop) B ok id (c c' : cconn) : D P g c c' -> (forall m, P m -> untouched id m) -> ES hstate c ->
  Bk ex B ok id c -> Bk ex B ok id c'.
Proof.
  intros (ms & M & F & _) H E K. apply (mvs_Bk ex B ok id c ms c' M); [|exact E | exact K].
  eapply Forall_impl; [|exact F]. exact H.
Qed.

Lemma D_ES (P : move -> Prop) g (c c' : cconn) : D P g c c' -> ES hstate c -> ES hstate c'.
Proof. intros (ms & M & _) E. eapply mvs_ES; eassumption. Qed.

Lemma D_live (P : move -> Prop) g (c c' : cconn) : D P g c c' -> cl_wl_live c' = true -> cl_wl_live c = true.
Proof. intros (ms & M & _). eapply mvs_live. exact M. Qed.

Lemma anym_untouched id (m : move) : anym m -> untouched id m.
Proof. destruct m; cbn; auto; intros []. Qed.

End Bk.
