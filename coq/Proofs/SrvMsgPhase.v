(* Proofs/SrvMsgPhase.v - C20: the phases a request goes through, and what each of its frames does. *)
From H2V Require Import Base.Bytes Base.MachineInt Base.Result Gen.GenConsts Impl.ServerConn Spec.Http2Messages
     Proofs.SrvBase Proofs.SrvIsoMoves Proofs.SrvMsgDefs Proofs.SrvMsgPure Proofs.SrvMsgLoop Proofs.SrvMsgStream.
From Coq Require Import ZArith Lia ZifyN ZifyNat ZifyBool.
Local Open Scope N_scope.

Section Tail.
Variable hstate : Type.
Variable dec_field : hstate -> N -> bytes -> dec_res hstate.
Variable cfg : config.
Notation sconn := (sconn hstate).
Notation tail := (tail dec_field cfg).
Implicit Types c : sconn.

Definition not_rst (fr : sframe) : Prop := sf_kind fr <> KRst.

Lemma handle_state_closed fr s : not_rst fr -> st_state s = SClosed -> handle_state fr s = s.
Proof.
  intros K C. unfold handle_state. destruct (fkind_eqb (sf_kind fr) KRst) eqn:E; [apply fkind_eqb_eq in E; contradiction|].
  rewrite C. reflexivity.
Qed.

(* a stream that is closed and was never answered leaves the table *)
Lemma after_frame_closed c s fr :
  not_rst fr -> st_state s = SClosed -> st_responded s = false ->
  fst (after_frame cfg c s fr false) = close_stream (put c s) s.
Proof.
  intros K C Rp. unfold after_frame. rewrite (handle_state_closed fr s K C), C, Rp.
  change (sstate_eqb SClosed SHalfClosed) with false. cbn [andb]. rewrite C. reflexivity.
Qed.

(* handleFrame answered with a stream error: RST_STREAM, and the stream is closed *)
Lemma tail_reset c s fr c1 s1 code :
  handle_frame dec_field cfg c s fr = (c1, s1, Some (EReset code)) -> not_rst fr -> st_responded s1 = false ->
  fst (tail c s fr false) = kill c1 (set_state (set_state (set_weReset s1) SClosed) SClosed) code.
Proof.
  intros H K Rp. unfold tail. rewrite H. cbn [write_error reset_stream].
  apply after_frame_closed; [exact K | reflexivity | exact Rp].
Qed.

(* ... with a connection error: GOAWAY, and the stream loop ends *)
Lemma tail_goaway c s fr c1 s1 code :
  handle_frame dec_field cfg c s fr = (c1, s1, Some (EGoAway code)) -> code <> c_NoError ->
  fst (tail c s fr false) =
  fst (brk (put (write_goaway c1 (st_id s1) code) (set_state (set_state s1 SClosed) SClosed))).
Proof.
  intros H K. unfold tail. rewrite H. cbn [write_error].
  replace (code =? c_NoError) with false by lia. reflexivity.
Qed.

Lemma tail_ok c s fr c1 s1 :
  handle_frame dec_field cfg c s fr = (c1, s1, None) -> tail c s fr false = after_frame cfg c1 s1 fr false.
Proof. intro H. unfold tail. rewrite H. reflexivity. Qed.

(* which frame of a block may meet which stream state *)
Definition shape (iscont es : bool) (state : sstate) (h : hdr) : Prop :=
  (iscont = false /\ state = SIdle /\ hd_headersFinished h = false) \/
  (iscont = true /\ (state = SOpen \/ state = SHalfClosed) /\ hd_headersFinished h = false) \/
  (iscont = false /\ es = true /\ state = SOpen /\ hd_headersFinished h = true /\ hd_prev h = []).

Lemma handle_frame_blk c sid win t0 state h recv iscont es eh frag :
  shape iscont es state h ->
  handle_frame dec_field cfg c (S_of sid win t0 state h recv) (blk_frame iscont sid es eh frag) =
  let '(c1, s1, e) := handle_header_frame dec_field cfg c (S_of sid win t0 state h recv) (blk_frame iscont sid es eh frag) in
  match e with
  | Some e => (c1, s1, Some e)
  | None =>
    if eh then
      let s2 := set_headers_finished s1 (is_nil (st_prev s1)) in
      if negb (is_nil (st_prev s1)) then (c1, s2, Some (EGoAway c_ProtocolError))
      else match validate_request_pseudo_headers s2 with Some e => (c1, s2, Some e) | None => (c1, s2, None) end
    else (c1, s1, None)
  end.
Proof.
  intros [(-> & -> & F) | [(-> & [-> | ->] & F) | (-> & -> & -> & F & P)]];
    unfold handle_frame, verify_state, continuing_headers, blk_frame;
    cbn [st_state S_of sf_kind headers_frame cont_frame fkind_eqb orb andb st_headersFinished sstate_rank N.leb negb sf_flags];
    rewrite ?F; cbn [negb andb orb];
    destruct (handle_header_frame dec_field cfg c _ _) as [[c1 s1] [e|]]; try reflexivity;
    rewrite fl_has_eh; destruct eh; try reflexivity; unfold is_nil; destruct (st_prev s1); reflexivity.
Qed.

End Tail.

Section Phase.
Variable hstate : Type.
Variable dec_field : hstate -> N -> bytes -> dec_res hstate.
Variable enc_field : hstate -> bytes -> bytes -> bool -> bytes * hstate.
Variable enc_set_max : hstate -> N -> hstate.
Variable cfg : config.
Notation sconn := (sconn hstate).
Notation tail := (tail dec_field cfg).
Notation ready := (ready cfg).
Implicit Types c : sconn.

Variable c0 : sconn.
Variable sid : N.
Hypothesis R0 : ready c0 sid.
Let R : ready_sl cfg c0 sid := proj1 R0.

Definition winupd (o : outev) : Prop := match o with OWinUpd _ _ => True | _ => False end.
Definition benign (code : N) (o : outev) : Prop :=
  match o with
  | OWinUpd _ _ => True
  | ORst s cd => s = sid /\ cd = code
  | ORelease s w => s = sid /\ w = true
  | _ => False
  end.
Definition nodisp (o : outev) : Prop := forall rq, o <> ODispatch sid rq.

Definition out_ok (P : outev -> Prop) c : Prop := exists l, sc_out c = l ++ sc_out c0 /\ Forall P l.

Lemma out_ok_weaken (P Q : outev -> Prop) c : (forall o, P o -> Q o) -> out_ok P c -> out_ok Q c.
Proof. intros H (l & E & F). exists l. split; [assumption|]. eapply Forall_impl; eassumption. Qed.

Lemma out_ok_cons (P : outev -> Prop) c c' o : sc_out c' = o :: sc_out c -> P o -> out_ok P c -> out_ok P c'.
Proof. intros E Po (l & El & F). exists (o :: l). split; [rewrite E, El; reflexivity | constructor; assumption]. Qed.

Lemma out_ok_same (P : outev -> Prop) c c' : sc_out c' = sc_out c -> out_ok P c -> out_ok P c'.
Proof. intros E (l & El & F). exists l. split; [rewrite E; assumption | assumption]. Qed.

(* the parts of the connection a request never touches, and the loops: ec is the read loop's expectContinuation *)
Record base (c : sconn) (ec : N) : Prop := mkBase {
  b_closing : sc_closing c = false;
  b_sl : sc_sl_done c = false;
  b_rl : sc_rl_done c = false;
  b_wl : sc_wl_dead c = false;
  b_q : sc_readerQ c = [];
  b_cont : sc_expectCont c = ec;
  b_last : sc_lastID c = sid;
  b_high : sc_highestID c = sid;
  b_gone : sc_gone c = sc_gone c0;
  b_enc : sc_enc c = sc_enc c0;
  b_initWin : sc_initWin c = sc_initWin c0;
  b_cw : sc_clientWindow c = sc_clientWindow c0;
  b_closeRef : sc_closeRef c = sc_closeRef c0;
  b_closer : sc_closer c = sc_closer c0;
  b_now : sc_now c = sc_now c0
}.

(* the stream is in the table (at its end), nothing has been said about it to the peer *)
Record alive_core (c : sconn) (ec : N) (s : stream) (d : hstate) : Prop := mkAlive {
  al_base : base c ec;
  al_strms : sc_strms c = sc_strms c0 ++ [s];
  al_dec : sc_dec c = d;
  al_ring : sc_ring c = sc_ring c0;
  al_oldest : sc_oldest c = sc_oldest c0;
  al_open : sc_open c = (sc_open c0 + 1)%Z;
  al_out : out_ok winupd c
}.
Definition alive c ec s d : Prop := alive_core c ec s d /\ sc_discardID c <> sid.

(* what has been sent since c0: RST_STREAM(code) for the stream, its release, and window updates *)
Definition dout (code : N) c : Prop :=
  exists l, sc_out c = l ++ sc_out c0 /\ Forall (benign code) l /\ In (ORst sid code) l.

(* the stream has been reset by the server: out of the table, remembered in the ring *)
Record dead (c : sconn) (ec : N) (code : N) (d : hstate) : Prop := mkDead {
  de_base : base c ec;
  de_strms : sc_strms c = sc_strms c0;
  de_ring : ring_find c sid = Some true;
  de_dec : sc_dec c = d;
  de_open : sc_open c = sc_open c0;
  de_out : dout code c
}.

(* the stream loop has ended *)
Definition gone c : Prop := sc_sl_done c = true /\ out_ok nodisp c.

Lemma winupd_nodisp o : winupd o -> nodisp o.
Proof. destruct o; cbn; try contradiction. intros _ rq. discriminate. Qed.
Lemma benign_nodisp code o : benign code o -> nodisp o.
Proof. destruct o; cbn; try contradiction; intros _ rq; discriminate. Qed.
Lemma winupd_benign code o : winupd o -> benign code o.
Proof. destruct o; cbn; try contradiction. auto. Qed.

(* base speaks of these fields only *)
Definition base_fields c :=
  (sc_closing c, sc_sl_done c, sc_rl_done c, sc_wl_dead c, sc_readerQ c, sc_expectCont c, sc_lastID c, sc_highestID c,
   (sc_gone c, sc_enc c, sc_initWin c, sc_clientWindow c, sc_closeRef c, sc_closer c, sc_now c)).

Lemma base_ext c c' ec : base_fields c' = base_fields c -> base c ec -> base c' ec.
Proof. intros E []. injection E. intros. constructor; congruence. Qed.

Let l0 := sc_strms c0.
Let win := sc_initWin c0.
Let t0 := sc_now c0.

Lemma sid_nz' : sid <> 0.
Proof. destruct R. intro E. subst. discriminate. Qed.

Lemma alive_core_dec c ec s d d' : alive_core c ec s d -> alive_core (upd_dec c d') ec s d'.
Proof. intros []. constructor; try assumption; [apply (base_ext c); [reflexivity | assumption] | reflexivity]. Qed.

Lemma alive_core_discard c ec s d a b n : alive_core c ec s d -> alive_core (upd_discard c a b n) ec s d.
Proof. intros []. constructor; try assumption. apply (base_ext c); [reflexivity | assumption]. Qed.

Lemma alive_core_put c ec s d s' : alive_core c ec s d -> st_id s = sid -> st_id s' = sid -> alive_core (put c s') ec s' d.
Proof.
  intros [] I I'. constructor; try assumption.
  - apply (base_ext c); [reflexivity | assumption].
  - rewrite sc_strms_put, al_strms0. apply put_snoc; [rewrite I; apply (rd_table _ _ _ _ R) | congruence].
Qed.

(* window updates are the only thing sent while a request is being received *)
Lemma out_ok_emit (P : outev -> Prop) c o :
  sc_sl_done c = false -> P o -> out_ok P c -> out_ok P (emit c o).
Proof.
  intros S Po (l & E & F). unfold out_ok. rewrite sc_out_emit, S.
  destruct (sc_wl_dead c); [exists l; auto | exists (o :: l)]. split; [rewrite E; reflexivity | constructor; assumption].
Qed.

Lemma credit_quiet (P : outev -> Prop) c n :
  (forall a b, P (OWinUpd a b)) -> sc_sl_done c = false -> out_ok P c -> out_ok P (credit_conn_window cfg c n).
Proof.
  intros HP S O. unfold credit_conn_window. destruct (n <=? 0)%Z; [assumption|].
  destruct (_ <? _)%Z.
  - unfold write_window_update. apply out_ok_emit; [exact S | apply HP |]. eapply out_ok_same; [|eassumption]. reflexivity.
  - eapply out_ok_same; [|eassumption]. reflexivity.
Qed.

Lemma consume_quiet (P : outev -> Prop) c s fr n :
  (forall a b, P (OWinUpd a b)) -> sc_sl_done c = false -> out_ok P c -> out_ok P (consume_recv_window cfg c s fr n).
Proof.
  intros HP S O. unfold consume_recv_window. destruct (n <=? 0)%Z; [assumption|].
  apply credit_quiet; [assumption | |].
  - destruct (flag_has _ _); [assumption|]. unfold write_window_update. rewrite sc_sl_done_emit. assumption.
  - destruct (flag_has _ _); [assumption|]. unfold write_window_update. apply out_ok_emit; auto.
Qed.

(* the flow-control bookkeeping touches the connection's receive window and what is sent, nothing else *)
Lemma credit_conn_window_eq c n :
  let c' := credit_conn_window cfg c n in c' = upd_out (upd_currentWindow c (sc_currentWindow c')) (sc_out c').
Proof.
  unfold credit_conn_window, write_window_update. cbv zeta.
  destruct (n <=? 0)%Z; [destruct c; reflexivity|]. destruct (_ <? _)%Z; [rewrite emit_eq|]; reflexivity.
Qed.

Lemma consume_recv_window_eq c s fr n :
  let c' := consume_recv_window cfg c s fr n in c' = upd_out (upd_currentWindow c (sc_currentWindow c')) (sc_out c').
Proof.
  unfold consume_recv_window, write_window_update. cbv zeta. destruct (n <=? 0)%Z; [destruct c; reflexivity|].
  rewrite credit_conn_window_eq. destruct (flag_has _ _); [|rewrite emit_eq]; reflexivity.
Qed.

Lemma alive_core_window c ec s d w o :
  alive_core c ec s d -> out_ok winupd (upd_out c o) -> alive_core (upd_out (upd_currentWindow c w) o) ec s d.
Proof. intros [] O. constructor; try assumption. apply (base_ext c); [reflexivity | assumption]. Qed.

Lemma alive_core_credit c ec s d n : alive_core c ec s d -> alive_core (credit_conn_window cfg c n) ec s d.
Proof.
  intro A. rewrite credit_conn_window_eq. apply alive_core_window; [exact A|].
  apply (out_ok_same _ (credit_conn_window cfg c n)); [reflexivity|].
  destruct A as [[] _ _ _ _ _ O]. apply credit_quiet; [intros; exact I | assumption | exact O].
Qed.

Lemma alive_core_consume c ec s d s1 fr n :
  alive_core c ec s d -> alive_core (consume_recv_window cfg c s1 fr n) ec s d.
Proof.
  intro A. rewrite consume_recv_window_eq. apply alive_core_window; [exact A|].
  apply (out_ok_same _ (consume_recv_window cfg c s1 fr n)); [reflexivity|].
  destruct A as [[] _ _ _ _ _ O]. apply consume_quiet; [intros; exact I | assumption | exact O].
Qed.

(* RST_STREAM: the stream leaves the table and is remembered *)
Lemma base_fields_kill c sX code : st_handlerRunning sX = false -> base_fields (kill c sX code) = base_fields c.
Proof.
  intro H. unfold kill. rewrite close_stream_eq. cbv zeta. rewrite H.
  unfold release_stream, note, close_discard, mark_closed, put, write_reset. rewrite emit_eq.
  destruct (in_ring _ _); [|destruct (_ <? _)]; destruct (_ && _ && _)%bool, (fkind_eqb _ _); reflexivity.
Qed.

Lemma kill_dead c ec s d sX code :
  alive_core c ec s d -> st_id s = sid -> st_id sX = sid -> st_weReset sX = true -> st_handlerRunning sX = false ->
  st_orig sX = KHeaders ->
  dead (kill c sX code) ec code d.
Proof.
  intros [] I IX W H O. pose proof al_base0 as B. destruct B.
  assert (OUT : sc_out (kill c sX code) = ORelease sid true :: ORst sid code :: sc_out c).
  { rewrite <- IX. apply kill_out; assumption. }
  constructor.
  - apply (base_ext c); [apply base_fields_kill; exact H | assumption].
  - apply (kill_strms _ c (sc_strms c0) s sX code al_strms0); [rewrite I; apply (rd_table _ _ _ _ R) | congruence].
  - pose proof (kill_ring _ dec_field enc_set_max c sX code) as K. rewrite IX in K. apply K; [| |assumption].
    + rewrite in_ring_eq, al_ring0, <- in_ring_eq. apply (rd_ring _ _ _ _ R).
    + rewrite al_oldest0. apply (rd_oldest _ _ _ _ R).
  - unfold kill. rewrite sc_dec_close_stream, sc_dec_put, sc_dec_write_reset. assumption.
  - rewrite kill_open, al_open0 by assumption. apply Z.add_simpl_r.
  - destruct al_out0 as (l & E & F). exists (ORelease sid true :: ORst sid code :: l). split; [|split].
    + rewrite OUT, E. reflexivity.
    + constructor; [cbn; auto|]. constructor; [cbn; auto|]. eapply Forall_impl; [|exact F]. apply winupd_benign.
    + right. left. reflexivity.
Qed.

(* GOAWAY: the stream loop ends *)
Lemma gone_brk c ec s d x code sY :
  alive_core c ec s d -> gone (fst (brk (put (write_goaway c x code) sY))).
Proof.
  intros []. destruct al_base0. split; [reflexivity|].
  destruct al_out0 as (l & E & F).
  exists (OExit 1 0 :: OGoAway (sc_lastID c) code :: l). split.
  - rewrite sc_out_brk, sc_out_put, sc_out_write_goaway, b_wl0, b_sl0, E. reflexivity.
  - constructor; [intros rq; discriminate|]. constructor; [intros rq; discriminate|].
    eapply Forall_impl; [|exact F]. apply winupd_nodisp.
Qed.

(* after_frame on a stream that has not been answered *)

(* the content-length check at the end of the stream *)
Definition cl_okZ (st : vst) (recv : Z) : bool := negb (v_has st && negb (recv =? v_cl st)%Z).

(* the stream as the handler sees it start *)
Definition D_of (h : hdr) (recv : Z) : stream := set_flags (S_of sid win t0 SHalfClosed h recv) true true false.

Lemma after_frame_continue c state h recv fr :
  handle_state fr (S_of sid win t0 state h recv) = S_of sid win t0 SOpen h recv ->
  fst (after_frame cfg c (S_of sid win t0 state h recv) fr false) = put c (S_of sid win t0 SOpen h recv).
Proof. intro H. unfold after_frame. rewrite H. reflexivity. Qed.

Lemma after_frame_block c state h recv fr :
  handle_state fr (S_of sid win t0 state h recv) = S_of sid win t0 SHalfClosed h recv -> hd_headersFinished h = false ->
  fst (after_frame cfg c (S_of sid win t0 state h recv) fr false) = put c (S_of sid win t0 SHalfClosed h recv).
Proof.
  intros H F. unfold after_frame. rewrite H.
  cbn [st_state S_of st_headersFinished st_responded]. rewrite F.
  change (sstate_eqb SHalfClosed SHalfClosed) with true. change (sstate_eqb SHalfClosed SClosed) with false.
  reflexivity.
Qed.

Lemma after_frame_finish_gen c s fr s1 :
  handle_state fr s = s1 -> st_state s1 = SHalfClosed -> st_headersFinished s1 = true -> st_responded s1 = false ->
  fst (after_frame cfg c s fr false) =
  if st_hasCL s1 && negb (st_recvBody s1 =? st_contentLength s1)%Z
  then kill c (set_state (set_weReset (set_flags s1 true (st_handlerRunning s1) (st_abandoned s1))) SClosed) c_ProtocolError
  else put (note c (ODispatch (st_id s1) (st_req s1)))
           (set_flags (set_flags s1 true (st_handlerRunning s1) (st_abandoned s1)) true true (st_abandoned s1)).
Proof.
  intros H S F Rp. unfold after_frame. rewrite H, S, F, Rp.
  change (sstate_eqb SHalfClosed SHalfClosed) with true. cbn [andb negb].
  cbn [st_hasCL st_recvBody st_contentLength set_flags st_id st_req st_abandoned st_handlerRunning].
  destruct (st_hasCL s1 && negb (st_recvBody s1 =? st_contentLength s1)%Z)%bool.
  - cbn [st_state set_state]. change (sstate_eqb SClosed SClosed) with true. cbv iota. unfold kill.
    cbn [st_id set_state set_weReset fst cont andb]. reflexivity.
  - cbn [st_state set_flags]. rewrite S. change (sstate_eqb SHalfClosed SClosed) with false. reflexivity.
Qed.

Lemma after_frame_finish c state h recv fr :
  handle_state fr (S_of sid win t0 state h recv) = S_of sid win t0 SHalfClosed h recv -> hd_headersFinished h = true ->
  fst (after_frame cfg c (S_of sid win t0 state h recv) fr false) =
  if cl_okZ (vabs h) recv
  then put (note c (ODispatch sid (hd_req h))) (D_of h recv)
  else kill c (set_state (set_weReset (set_flags (S_of sid win t0 SHalfClosed h recv) true false false)) SClosed) c_ProtocolError.
Proof.
  intros H F. rewrite (after_frame_finish_gen c _ fr _ H eq_refl F eq_refl).
  change (st_handlerRunning (S_of sid win t0 SHalfClosed h recv)) with false.
  change (st_abandoned (S_of sid win t0 SHalfClosed h recv)) with false.
  change (st_id (S_of sid win t0 SHalfClosed h recv)) with sid.
  change (st_req (S_of sid win t0 SHalfClosed h recv)) with (hd_req h).
  change (st_hasCL (S_of sid win t0 SHalfClosed h recv)) with (hd_hasCL h).
  change (st_recvBody (S_of sid win t0 SHalfClosed h recv)) with recv.
  change (st_contentLength (S_of sid win t0 SHalfClosed h recv)) with (hd_contentLength h).
  unfold cl_okZ, vabs, D_of. cbn [v_has v_cl].
  destruct (hd_hasCL h && negb (recv =? hd_contentLength h)%Z)%bool; cbn [negb]; reflexivity.
Qed.

(* handle_state on our frames *)
Definition next_state (iscont es : bool) (state : sstate) : sstate :=
  if iscont then state else if es then SHalfClosed else SOpen.

Lemma handle_state_blk iscont es eh frag state h recv h' :
  shape iscont es state h ->
  handle_state (blk_frame iscont sid es eh frag) (S_of sid win t0 state h' recv) =
  S_of sid win t0 (next_state iscont es state) h' recv.
Proof.
  intros [(-> & -> & _) | [(-> & [-> | ->] & _) | (-> & -> & -> & _)]];
    unfold handle_state, blk_frame, next_state;
    cbn [sf_kind headers_frame cont_frame fkind_eqb st_state S_of set_state sf_flags orb andb];
    rewrite ?fl_has_es; try reflexivity.
  destruct es; reflexivity.
Qed.

Lemma handle_state_data es dt h recv :
  handle_state (data_frame sid es dt) (S_of sid win t0 SOpen h recv) = S_of sid win t0 (if es then SHalfClosed else SOpen) h recv.
Proof.
  unfold handle_state. cbn [sf_kind data_frame fkind_eqb st_state S_of set_state sf_flags orb andb].
  rewrite fl_has_es. destruct es; reflexivity.
Qed.

Lemma list_over_0 : list_over cfg 0 = false.
Proof. unfold list_over. lia. Qed.

(* the phases of a request *)
Inductive phase : Type :=
| PhBlock (state : sstate) (st : vst) (size : Z) (nf : N) (carry : bytes) (rq : request) (recv : Z) (d : hstate)
| PhBody (st : vst) (size : Z) (nf : N) (rq : request) (recv : Z) (d : hstate)
| PhDisp (st : vst) (size : Z) (nf : N) (rq : request) (recv : Z) (d : hstate)
| PhDeadBlock (code : N) (carry : bytes) (nf : N) (d : hstate)
| PhDead (code : N) (d : hstate)
| PhGone.

Definition holds (c : sconn) (ec : N) (ph : phase) : Prop :=
  match ph with
  | PhBlock state st size nf carry rq recv d =>
    alive c ec (S_of sid win t0 state (H_of false carry st size nf rq) recv) d /\
    (state = SOpen \/ state = SHalfClosed) /\ list_over cfg size = false
  | PhBody st size nf rq recv d =>
    alive c ec (S_of sid win t0 SOpen (H_of true [] st size nf rq) recv) d /\ v_valid st = true /\ list_over cfg size = false
  | PhDisp st size nf rq recv d =>
    base c ec /\ sc_strms c = sc_strms c0 ++ [D_of (H_of true [] st size nf rq) recv] /\ sc_dec c = d /\
    sc_ring c = sc_ring c0 /\ sc_open c = (sc_open c0 + 1)%Z /\
    exists l, sc_out c = ODispatch sid rq :: l ++ sc_out c0 /\ Forall winupd l
  | PhDeadBlock code carry nf d =>
    dead c ec code d /\ sc_discardID c = sid /\ sc_discardPrev c = carry /\ sc_discardFields c = nf
  | PhDead code d => dead c ec code d
  | PhGone => gone c
  end.

Definition rejected (ph : phase) : Prop :=
  match ph with PhDeadBlock _ _ _ _ | PhDead _ _ | PhGone => True | _ => False end.

(* the request is handed to a handler *)
Lemma disp_holds c ec s d st size nf rq recv :
  alive_core c ec s d -> st_id s = sid ->
  holds (put (note c (ODispatch sid rq)) (D_of (H_of true [] st size nf rq) recv)) ec (PhDisp st size nf rq recv d).
Proof.
  intros [] I. destruct al_out0 as (l & E & F).
  split; [apply (base_ext c); [reflexivity | assumption]|]. split.
  { rewrite sc_strms_put. cbn [sc_strms note upd_out]. rewrite al_strms0.
    apply put_snoc; [rewrite I; apply (rd_table _ _ _ _ R) | symmetry; exact I]. }
  repeat (split; [assumption|]).
  exists l. split; [|assumption]. rewrite sc_out_put, sc_out_note, E. reflexivity.
Qed.

(* one frame of a header block, for a stream that is alive *)
Lemma shape_Htr iscont es state h : shape iscont es state h -> hd_headersFinished h = true -> iscont = false /\ es = true.
Proof. intros [(_ & _ & F) | [(_ & _ & F) | (A & B & _)]]; [congruence | congruence | auto]. Qed.

Lemma blk_not_rst iscont es eh frag : not_rst (blk_frame iscont sid es eh frag).
Proof. unfold not_rst, blk_frame. destruct iscont; discriminate. Qed.

Lemma blk_err c ec state h recv d iscont es eh frag fs d' n' carry e :
  let s := S_of sid win t0 state h recv in
  let fr := blk_frame iscont sid es eh frag in
  let n0 := if iscont then hd_blockFields h else 0 in
  alive c ec s d -> shape iscont es state h ->
  frag_dec dec_field eh d n0 (hd_prev h ++ frag) fs d' n' carry ->
  fields_loop cfg (start_hdr h n0) fs = inl e ->
  let c' := fst (tail c s fr false) in
  match e with
  | EReset code =>
    holds c' ec (if eh then PhDead code d' else if list_over cfg (Z.of_N (len carry)) then PhGone else PhDeadBlock code carry n' d')
  | EGoAway code => code <> c_NoError -> holds c' ec PhGone
  | EPanic => True
  end.
Proof.
  intros s fr n0 AL SH Hdec F c'. destruct AL as [AC DI].
  assert (Hdec' : frag_dec dec_field eh (sc_dec c) n0 (hd_prev h ++ frag) fs d' n' carry)
    by (destruct AC; rewrite al_dec0; exact Hdec).
  destruct (hhf_err _ dec_field enc_field enc_set_max cfg c sid win t0 state h recv iscont es eh frag fs d' n' carry
                    sid_nz' (shape_Htr _ _ _ _ SH) Hdec' e F)
    as (c1 & h_e & e' & HH & Fe & Pe & M).
  pose proof (handle_frame_blk _ dec_field cfg c sid win t0 state h recv iscont es eh frag SH) as HF.
  fold s fr in HH, HF. rewrite HH in HF.
  destruct e as [code|code|]; [| |exact I].
  - (* connection error *)
    destruct M as [-> (d1 & ->)]. intro NE. cbn [holds]. unfold c'. rewrite (tail_goaway _ dec_field cfg _ _ _ _ _ _ HF NE).
    apply (gone_brk _ ec s d1). apply (alive_core_dec c ec s d d1 AC).
  - destruct M as [-> ->].
    assert (AC1 : alive_core (upd_discard (upd_dec c d') (if eh then 0 else sid) (if eh then [] else carry) n') ec s d')
      by (apply alive_core_discard, (alive_core_dec c ec s d), AC).
    pose (c1 := upd_discard (upd_dec c d') (if eh then 0 else sid) (if eh then [] else carry) n').
    fold c1 in AC1, HF.
    set (sX := set_state (set_state (set_weReset (S_of sid win t0 state h_e recv)) SClosed) SClosed).
    assert (KD : forall cd, dead (kill c1 sX cd) ec cd d') by (intro cd; eapply kill_dead; [exact AC1 | reflexivity..]).
    pose proof (blk_not_rst iscont es eh frag) as NR. fold fr in NR.
    destruct eh.
    + cbn [holds]. unfold c'. rewrite (tail_reset _ dec_field cfg _ _ _ _ _ _ HF NR eq_refl). apply KD.
    + destruct (list_over cfg (Z.of_N (len carry))).
      * cbn [holds]. unfold c'. rewrite (tail_goaway _ dec_field cfg _ _ _ _ _ _ HF ltac:(discriminate)).
        apply (gone_brk _ ec s d'). exact AC1.
      * cbn [holds]. unfold c'. rewrite (tail_reset _ dec_field cfg _ _ _ _ _ _ HF NR eq_refl).
        split; [apply KD|].
        (* the discard registers already name the stream: closing it leaves them alone *)
        pose proof (close_stream_discard _ (put (write_reset c1 (st_id sX) code) sX) sX) as KR.
        rewrite sc_discardID_put, sc_discardID_write_reset in KR.
        change (sc_discardID c1) with (st_id sX) in KR. rewrite N.eqb_refl, andb_false_r in KR.
        rewrite sc_discardPrev_put, sc_discardFields_put, sc_discardPrev_write_reset, sc_discardFields_write_reset in KR.
        apply pair_equal_spec in KR as [KR K3]. apply pair_equal_spec in KR as [K1 K2].
        unfold kill. fold sX. rewrite K1, K2, K3. auto.
Qed.


Lemma validate_S_of state hf prev st size nf rq recv :
  validate_request_pseudo_headers (S_of sid win t0 state (H_of hf prev st size nf rq) recv) =
  if v_valid st then None else Some (EReset c_ProtocolError).
Proof.
  unfold validate_request_pseudo_headers, v_valid. cbn [S_of H_of st_pMethod st_pScheme st_pPath st_path hd_pMethod hd_pScheme hd_pPath hd_path].
  destruct (v_m st), (v_s st), (v_p st); cbn [negb orb andb]; try reflexivity. destruct (v_path st); reflexivity.
Qed.

Lemma next_state_cases iscont es state h :
  shape iscont es state h -> next_state iscont es state = SOpen \/ next_state iscont es state = SHalfClosed.
Proof.
  intros [(-> & -> & _) | [(-> & [-> | ->] & _) | (-> & -> & -> & _)]]; unfold next_state; try destruct es; auto.
Qed.

Lemma alive_put_dec c ec s d d' s' :
  alive c ec s d -> st_id s = sid -> st_id s' = sid -> alive (put (upd_dec c d') s') ec s' d'.
Proof.
  intros [AC DI] I I'. split; [|exact DI].
  apply (alive_core_put _ ec s d'); [apply (alive_core_dec c ec s d); exact AC | assumption | assumption].
Qed.

Lemma blk_ok c ec state h recv d iscont es eh frag fs d' n' carry st' :
  let s := S_of sid win t0 state h recv in
  let fr := blk_frame iscont sid es eh frag in
  let n0 := if iscont then hd_blockFields h else 0 in
  alive c ec s d -> shape iscont es state h ->
  frag_dec dec_field eh d n0 (hd_prev h ++ frag) fs d' n' carry ->
  list_over cfg (hd_headerListSize h + fsize fs) = false ->
  vrun cfg (v_start h) fs = inr st' ->
  let c' := fst (tail c s fr false) in
  let state' := next_state iscont es state in
  let size' := (hd_headerListSize h + fsize fs)%Z in
  let rq' := req_fold (hd_req h) fs in
  holds c' ec
    (if eh then
       if v_valid st' then
         match state' with
         | SHalfClosed => if cl_okZ st' recv then PhDisp st' size' n' rq' recv d' else PhDead c_ProtocolError d'
         | _ => PhBody st' size' n' rq' recv d'
         end
       else PhDead c_ProtocolError d'
     else if list_over cfg (Z.of_N (len carry)) then PhGone else PhBlock state' st' size' n' carry rq' recv d').
Proof.
  intros s fr n0 AL SH Hdec Hs Hv c' state' size' rq'. pose proof AL as [AC DI].
  assert (Hdec' : frag_dec dec_field eh (sc_dec c) n0 (hd_prev h ++ frag) fs d' n' carry)
    by (destruct AC; rewrite al_dec0; exact Hdec).
  pose proof (hhf_ok _ dec_field enc_field enc_set_max cfg c sid win t0 state h recv iscont es eh frag fs d' n' carry
                     sid_nz' (shape_Htr _ _ _ _ SH) Hdec' st' Hs Hv) as HH.
  pose proof (handle_frame_blk _ dec_field cfg c sid win t0 state h recv iscont es eh frag SH) as HF.
  fold s fr size' rq' in HH, HF. rewrite HH in HF.
  pose proof (blk_not_rst iscont es eh frag) as NR. fold fr in NR.
  pose proof (next_state_cases _ _ _ _ SH) as NS. fold state' in NS.
  pose proof (fun h' => handle_state_blk iscont es eh frag state h recv h' SH) as HS. fold fr state' in HS.
  destruct eh.
  - (* END_HEADERS: nothing is carried over *)
    pose proof (frag_dec_eh _ dec_field _ _ _ _ _ _ _ Hdec) as ->.
    change (Z.of_N (len [])) with 0%Z in HF. rewrite list_over_0 in HF.
    cbn [st_prev S_of H_of hd_prev is_nil negb] in HF. rewrite set_headers_finished_S_of in HF.
    change (hdr_fin (H_of false [] st' size' n' rq') true) with (H_of true [] st' size' n' rq') in HF.
    rewrite validate_S_of in HF.
    destruct (v_valid st') eqn:V.
    + pose proof (tail_ok _ dec_field cfg _ _ _ _ _ HF) as T. fold c' in T.
      destruct NS as [NS|NS]; rewrite NS in *.
      * (* the stream stays open: DATA or trailers follow *)
        cbn [holds]. unfold c'. rewrite T, (after_frame_continue _ _ _ _ _ (HS _)).
        split; [|split; [exact V | exact Hs]].
        apply (alive_put_dec c ec s d); [exact AL | reflexivity | reflexivity].
      * (* END_STREAM has been seen: the request is complete *)
        unfold c'. rewrite T, (after_frame_finish _ state (H_of true [] st' size' n' rq') recv fr (HS _) eq_refl). rewrite vabs_H_of.
        destruct (cl_okZ st' recv); cbn [holds].
        -- apply (disp_holds _ ec s); [apply (alive_core_dec c ec s d); exact AC | reflexivity].
        -- eapply kill_dead; [apply (alive_core_dec c ec s d); exact AC | reflexivity..].
    + cbn [holds]. unfold c'. rewrite (tail_reset _ dec_field cfg _ _ _ _ _ _ HF NR eq_refl).
      eapply kill_dead; [apply (alive_core_dec c ec s d); exact AC | reflexivity..].
  - destruct (list_over cfg (Z.of_N (len carry))).
    + cbn [holds]. unfold c'. rewrite (tail_goaway _ dec_field cfg _ _ _ _ _ _ HF ltac:(discriminate)).
      apply (gone_brk _ ec s d'). apply (alive_core_dec c ec s d); exact AC.
    + pose proof (tail_ok _ dec_field cfg _ _ _ _ _ HF) as T. cbn [holds]. unfold c'. rewrite T.
      split; [|split; [exact NS | exact Hs]].
      destruct NS as [NS|NS]; rewrite NS in *.
      * rewrite (after_frame_continue _ _ _ _ _ (HS _)). apply (alive_put_dec c ec s d); [exact AL | reflexivity | reflexivity].
      * rewrite (after_frame_block _ state (H_of false carry st' size' n' rq') recv fr (HS _) eq_refl). apply (alive_put_dec c ec s d); [exact AL | reflexivity | reflexivity].
Qed.

Lemma data_step c ec st size nf rq recv d es dt :
  holds c ec (PhBody st size nf rq recv d) ->
  let s := S_of sid win t0 SOpen (H_of true [] st size nf rq) recv in
  let c' := fst (tail c s (data_frame sid es dt) false) in
  let recv' := (recv + Z.of_N (len dt))%Z in
  let rq' := rq_append_body rq dt in
  holds c' ec
    (if body_over cfg recv' then PhDead c_EnhanceYourCalm d
     else if es then (if cl_okZ st recv' then PhDisp st size nf rq' recv' d else PhDead c_ProtocolError d)
     else PhBody st size nf rq' recv' d).
Proof.
  intros (AL & V & LS) s c' recv' rq'. pose proof AL as [AC DI].
  assert (NR : not_rst (data_frame sid es dt)) by discriminate.
  assert (HF : handle_frame dec_field cfg c s (data_frame sid es dt) =
               if body_over cfg recv'
               then (credit_conn_window cfg c (Z.of_N (len dt)), S_of sid win t0 SOpen (H_of true [] st size nf rq) recv', Some (EReset c_EnhanceYourCalm))
               else (consume_recv_window cfg c (S_of sid win t0 SOpen (H_of true [] st size nf rq') recv') (data_frame sid es dt) (Z.of_N (len dt)),
                     S_of sid win t0 SOpen (H_of true [] st size nf rq') recv', None)).
  { unfold handle_frame, verify_state, s. cbn [st_state S_of sf_kind data_frame st_headersFinished H_of hd_headersFinished negb
                                                 sstate_rank N.leb st_recvBody sf_payload sf_len st_req hd_req].
    fold recv'. unfold body_over. destruct ((0 <? cf_maxBody cfg)%Z && (cf_maxBody cfg <? recv')%Z)%bool; reflexivity. }
  destruct (body_over cfg recv').
  - cbn [holds]. unfold c'. rewrite (tail_reset _ dec_field cfg _ _ _ _ _ _ HF NR eq_refl).
    eapply kill_dead; [apply (alive_core_credit c ec s d); exact AC | reflexivity..].
  - pose proof (tail_ok _ dec_field cfg _ _ _ _ _ HF) as T. unfold c'. rewrite T.
    pose proof (handle_state_data es dt (H_of true [] st size nf rq') recv') as HS.
    assert (AC2 : alive_core (consume_recv_window cfg c (S_of sid win t0 SOpen (H_of true [] st size nf rq') recv') (data_frame sid es dt) (Z.of_N (len dt))) ec s d)
      by (apply alive_core_consume; exact AC).
    destruct es.
    + rewrite (after_frame_finish _ SOpen (H_of true [] st size nf rq') recv' _ HS eq_refl). rewrite vabs_H_of.
      destruct (cl_okZ st recv'); cbn [holds].
      * apply (disp_holds _ ec s); [exact AC2 | reflexivity].
      * eapply kill_dead; [exact AC2 | reflexivity..].
    + rewrite (after_frame_continue _ SOpen (H_of true [] st size nf rq') recv' _ HS). cbn [holds].
      split; [|split; assumption]. split.
      * apply (alive_core_put _ ec s d); [exact AC2 | reflexivity | reflexivity].
      * rewrite sc_discardID_put, consume_recv_window_eq. exact DI.
Qed.

(* frames for the stream once it has been reset *)
Lemma dead_dec c ec code d d' : dead c ec code d -> dead (upd_dec c d') ec code d'.
Proof. intros []. constructor; try assumption; [apply (base_ext c); [reflexivity | assumption] | reflexivity]. Qed.

Lemma dead_discard c ec code d a b n : dead c ec code d -> dead (upd_discard c a b n) ec code d.
Proof. intros []. constructor; try assumption. apply (base_ext c); [reflexivity | assumption]. Qed.

Lemma dout_emit code c o : sc_sl_done c = false -> benign code o -> dout code c -> dout code (emit c o).
Proof.
  intros S B (l & E & F & I). unfold dout. rewrite sc_out_emit, S.
  destruct (sc_wl_dead c); [exists l; auto | exists (o :: l)].
  split; [rewrite E; reflexivity | split; [constructor; assumption | right; exact I]].
Qed.

Lemma dead_credit c ec code d n : dead c ec code d -> dead (credit_conn_window cfg c n) ec code d.
Proof.
  intros []. rewrite credit_conn_window_eq. constructor; try assumption; [apply (base_ext c); [reflexivity | assumption]|].
  change (dout code (credit_conn_window cfg c n)). unfold credit_conn_window. destruct (n <=? 0)%Z; [assumption|].
  destruct (_ <? _)%Z; [|assumption]. destruct de_base0. apply dout_emit; [assumption | exact I | assumption].
Qed.

Lemma gone_brk_dead c ec code d x cd :
  dead c ec code d -> gone (fst (brk (write_goaway c x cd))).
Proof.
  intros []. destruct de_base0. split; [reflexivity|]. destruct de_out0 as (l & E & F & _).
  exists (OExit 1 0 :: OGoAway (sc_lastID c) cd :: l). split.
  - rewrite sc_out_brk, sc_out_write_goaway, b_wl0, b_sl0, E. reflexivity.
  - constructor; [intros rq; discriminate|]. constructor; [intros rq; discriminate|].
    eapply Forall_impl; [|exact F]. apply benign_nodisp.
Qed.

Lemma dead_data_step c ec code d es dt :
  holds c ec (PhDead code d) ->
  holds (fst (sl_frame dec_field enc_set_max cfg c (data_frame sid es dt))) ec (PhDead code d).
Proof.
  cbn [holds]. intro D.
  rewrite (sl_frame_dead_data _ dec_field enc_field enc_set_max cfg c sid es dt sid_nz').
  - cbn [cont fst]. apply dead_credit. exact D.
  - rewrite (de_strms _ _ _ _ D). apply (rd_table _ _ _ _ R).
  - apply (de_ring _ _ _ _ D).
Qed.

(* a fragment of a block nobody wants *)
Lemma dead_frag c ec code d iscont es eh frag fs d' n' carry :
  dead c ec code d ->
  (iscont = true -> sc_discardID c = sid) ->
  frag_dec dec_field eh d (if iscont then sc_discardFields c else 0) ((if iscont then sc_discardPrev c else []) ++ frag) fs d' n' carry ->
  let c' := fst (discard_or_break (discard_header_block dec_field cfg c (blk_frame iscont sid es eh frag))) in
  holds c' ec (if eh then PhDead code d' else if list_over cfg (Z.of_N (len carry)) then PhGone else PhDeadBlock code carry n' d').
Proof.
  intros D DI Hdec c'.
  set (cA := if iscont then c else upd_discard c (sc_discardID c) [] 0).
  assert (DA : dead cA ec code d).
  { unfold cA. destruct iscont; [exact D | apply dead_discard; exact D]. }
  assert (E1 : discard_header_block dec_field cfg c (blk_frame iscont sid es eh frag) =
               discard_fragment dec_field cfg cA sid frag eh).
  { unfold discard_header_block, blk_frame, cA. destruct iscont; cbn [sf_kind cont_frame headers_frame fkind_eqb sf_sid sf_payload sf_flags];
      rewrite fl_has_eh; reflexivity. }
  assert (Hdec' : frag_dec dec_field eh (sc_dec cA) (sc_discardFields cA) (sc_discardPrev cA ++ frag) fs d' n' carry).
  { unfold cA. destruct iscont; sc_cbn; rewrite (de_dec _ _ _ _ D); exact Hdec. }
  unfold c'. rewrite E1, (discard_fragment_ok _ dec_field cfg cA sid frag eh _ _ _ _ Hdec').
  destruct eh.
  - cbn [discard_or_break cont fst holds]. apply dead_discard, (dead_dec cA ec code d), DA.
  - destruct (list_over cfg (Z.of_N (len carry))).
    + cbn [discard_or_break write_error fst holds]. apply (gone_brk_dead _ ec code d').
      apply dead_discard, (dead_dec cA ec code d), DA.
    + cbn [discard_or_break cont fst holds]. split; [apply dead_discard, (dead_dec cA ec code d), DA|]. sc_cbn. auto.
Qed.

End Phase.

Arguments PhBlock {hstate}. Arguments PhBody {hstate}. Arguments PhDisp {hstate}. Arguments PhDeadBlock {hstate}.
Arguments PhDead {hstate}. Arguments PhGone {hstate}.
Arguments holds {hstate}. Arguments alive {hstate}. Arguments alive_core {hstate}. Arguments dead {hstate}.
Arguments gone {hstate}. Arguments dout {hstate}. Arguments base {hstate}. Arguments rejected {hstate}. Arguments out_ok {hstate}.
