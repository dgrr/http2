(* The read side of the frame codec: Deserialize of each type against the RFC payload
   parser, and ReadFrameFromWithSize against the RFC reader. *)
From Coq Require Import List NArith ZArith Bool Lia.
From Coq Require Import ZifyN ZifyNat ZifyBool.
From H2V Require Import Base.Bytes Base.MachineInt Base.Result Gen.GenConsts Spec.Rfc7540Frames
  Impl.Pools Impl.Frames Impl.FrameView Proofs.HpackBytes Proofs.FramesBits Proofs.FramesSpec.
Import ListNotations.
Local Open Scope N_scope.
Ltac Zify.zify_post_hook ::= Z.div_mod_to_equations.

Lemma go_slice_from l k : k <= len l -> go_slice l k (len l) = Ok (dropN k l).
Proof.
  intros H. unfold go_slice.
  assert ((k <=? len l) && (len l <=? len l) = true) as ->.
  { apply andb_true_intro. split; apply N.leb_le; lia. }
  f_equal. rewrite <- len_dropN. apply takeN_all.
Qed.

(* CutPadding(payload, len(payload)) is the RFC's padding rule *)
Lemma cut_padding_spec p :
  cut_padding p (Z.of_N (len p)) =
  match p with
  | [] => Err E_padding
  | pl :: q => if pl <=? len q then Ok (takeN (len q - pl) q) else Err E_padding
  end.
Proof.
  unfold cut_padding. destruct p as [|pl q]; [reflexivity|].
  rewrite len_cons.
  assert (((Z.of_N (1 + len q) =? 0) || (Z.of_N (1 + len q) <? 1) || (Z.of_N (1 + len q) <? Z.of_N (1 + len q)))%Z = false) as ->.
  { apply orb_false_intro; [apply orb_false_intro|]; lia. }
  change (go_index (pl :: q) 0) with (Ok pl). cbn [bind].
  destruct (pl <=? len q) eqn:L.
  - apply N.leb_le in L.
    assert (((Z.of_N (1 + len q) <? Z.of_N (1 + len q) - Z.of_N pl - 1) || (Z.of_N (1 + len q) - Z.of_N pl <? 1))%Z = false) as ->.
    { apply orb_false_intro; lia. }
    unfold go_slice. rewrite len_cons.
    replace (Z.to_N (Z.of_N (1 + len q) - Z.of_N pl)) with (1 + (len q - pl)) by lia.
    assert ((1 <=? 1 + (len q - pl)) && (1 + (len q - pl) <=? 1 + len q) = true) as ->.
    { apply andb_true_intro. split; apply N.leb_le; lia. }
    replace (1 + (len q - pl) - 1) with (len q - pl) by lia. reflexivity.
  - apply N.leb_gt in L.
    assert (((Z.of_N (1 + len q) <? Z.of_N (1 + len q) - Z.of_N pl - 1) || (Z.of_N (1 + len q) - Z.of_N pl <? 1))%Z = true) as ->.
    { apply orb_true_intro. right. lia. }
    reflexivity.
Qed.

(* the "if padded, cut" step of Data / Headers / PushPromise against unpad *)
Lemma cut_if_padded fl p :
  (if has fl c_FlagPadded then cut_padding p (Z.of_N (len p)) else Ok p) =
  match unpad fl p with
  | Some (_, c) => Ok c
  | None => Err E_padding
  end.
Proof.
  destruct (has_flag fl) as (_ & _ & HP & _).
  change c_FlagPadded with 8. rewrite HP. unfold unpad. change PADDED with 3.
  destruct (flag fl 3); [|reflexivity].
  rewrite cut_padding_spec. destruct p as [|pl q]; [reflexivity|].
  destruct (pl <=? len q); reflexivity.
Qed.

Lemma other_setting k : k <> 1 -> k <> 2 -> k <> 3 -> k <> 4 -> k <> 5 -> k <> 6 ->
  forall st v, setting_valid (k, v) = true /\ view_value st (k, v) = st.
Proof.
  intros. unfold setting_valid, view_value. cbn [fst snd].
  destruct k as [|[[[q|q|]|[q|q|]|]|[[q|q|]|[q|q|]|]|]]; try (split; reflexivity); congruence.
Qed.

Lemma settings_switch_spec st k v :
  settings_switch st k v =
  if setting_valid (k, v) then Ok (view_value st (k, v))
  else Err (if k =? 4 then E_settings_flow else E_settings_proto).
Proof.
  destruct (N.eq_dec k 1) as [->|N1]; [reflexivity|].
  destruct (N.eq_dec k 2) as [->|N2].
  { change (settings_switch st 2 v) with
      (if negb (v =? 0) && negb (v =? 1) then @Err settings_v E_settings_proto else Ok (st_set_enablePush st (negb (v =? 0)))).
    change (setting_valid (2, v)) with (v <=? 1).
    change (view_value st (2, v)) with (st_set_enablePush st (negb (v =? 0))).
    destruct (v <=? 1) eqn:A; destruct (v =? 0) eqn:B; destruct (v =? 1) eqn:C; try reflexivity;
      try apply N.leb_le in A; try apply N.leb_gt in A; try apply N.eqb_eq in B; try apply N.eqb_neq in B;
      try apply N.eqb_eq in C; try apply N.eqb_neq in C; lia. }
  destruct (N.eq_dec k 3) as [->|N3]; [reflexivity|].
  destruct (N.eq_dec k 4) as [->|N4].
  { change (settings_switch st 4 v) with
      (if 2 ^ 31 - 1 <? v then @Err settings_v E_settings_flow else Ok (st_set_windowSize st v)).
    change (setting_valid (4, v)) with (v <=? 2 ^ 31 - 1).
    change (view_value st (4, v)) with (st_set_windowSize st v).
    change (4 =? 4) with true. cbv iota.
    destruct (v <=? 2 ^ 31 - 1) eqn:A; destruct (2 ^ 31 - 1 <? v) eqn:B; try reflexivity;
      try apply N.leb_le in A; try apply N.leb_gt in A; try apply N.ltb_lt in B; try apply N.ltb_ge in B; lia. }
  destruct (N.eq_dec k 5) as [->|N5].
  { change (settings_switch st 5 v) with
      (if (v <? 2 ^ 14) || (2 ^ 24 - 1 <? v) then @Err settings_v E_settings_proto else Ok (st_set_frameSize st v)).
    change (setting_valid (5, v)) with ((2 ^ 14 <=? v) && (v <=? 2 ^ 24 - 1)).
    change (view_value st (5, v)) with (st_set_frameSize st v).
    destruct (2 ^ 14 <=? v) eqn:A; destruct (v <=? 2 ^ 24 - 1) eqn:B; destruct (v <? 2 ^ 14) eqn:C;
      destruct (2 ^ 24 - 1 <? v) eqn:D; try reflexivity;
      try apply N.leb_le in A; try apply N.leb_gt in A; try apply N.leb_le in B; try apply N.leb_gt in B;
      try apply N.ltb_lt in C; try apply N.ltb_ge in C; try apply N.ltb_lt in D; try apply N.ltb_ge in D; lia. }
  destruct (N.eq_dec k 6) as [->|N6]; [reflexivity|].
  destruct (other_setting k N1 N2 N3 N4 N5 N6 st v) as [V W]. rewrite V, W.
  unfold settings_switch.
  replace (k =? c_HeaderTableSize) with false by (symmetry; apply N.eqb_neq; exact N1).
  replace (k =? c_EnablePush) with false by (symmetry; apply N.eqb_neq; exact N2).
  replace (k =? c_MaxConcurrentStreams) with false by (symmetry; apply N.eqb_neq; exact N3).
  replace (k =? c_MaxWindowSize) with false by (symmetry; apply N.eqb_neq; exact N4).
  replace (k =? c_MaxFrameSize) with false by (symmetry; apply N.eqb_neq; exact N5).
  replace (k =? c_MaxHeaderListSize) with false by (symmetry; apply N.eqb_neq; exact N6).
  reflexivity.
Qed.

Lemma mark_present_view st k : mark_present st k = view_mark st k.
Proof.
  unfold mark_present, view_mark. change c_HeaderTableSize with 1. change c_MaxHeaderListSize with 6.
  destruct ((1 <=? k) && (k <=? 6)) eqn:E; [|reflexivity].
  apply andb_prop in E. destruct E as [A%N.leb_le B%N.leb_le].
  assert (k = 1 \/ k = 2 \/ k = 3 \/ k = 4 \/ k = 5 \/ k = 6) as C by lia.
  destruct C as [->|[->|[->|[->|[->| ->]]]]]; reflexivity.
Qed.

Lemma settings_apply_spec st k v :
  settings_apply st k v =
  if setting_valid (k, v) then Ok (view_setting st (k, v))
  else Err (if k =? 4 then E_settings_flow else E_settings_proto).
Proof.
  unfold settings_apply, view_setting. cbn [fst]. rewrite mark_present_view. apply settings_switch_spec.
Qed.

(* the class of the first invalid parameter *)
Fixpoint first_invalid (items : list (N * N)) : N :=
  match items with
  | [] => 0
  | kv :: rest => if setting_valid kv then first_invalid rest
                  else if fst kv =? 4 then E_settings_flow else E_settings_proto
  end.

Lemma settings_read_spec p : bytes_ok p = true ->
  forall items st, parse_settings p = Some items ->
  settings_read p st =
  if forallb setting_valid items then Ok (fold_left view_setting items st) else Err (first_invalid items).
Proof.
  induction p as [| | | | | |a b c d e f rest IH] using list6_ind; intros B items st; cbn [parse_settings]; try discriminate.
  - intros [= <-]. reflexivity.
  - destruct (parse_settings rest) as [its|] eqn:E; [|discriminate]. intros [= <-].
    rewrite !bytes_ok_cons in B.
    repeat (apply andb_prop in B; destruct B as [?%N.ltb_lt B]).
    cbn [settings_read]. rewrite key16_unbe, value32_unbe by assumption.
    rewrite settings_apply_spec. cbn [forallb first_invalid fold_left fst].
    destruct (setting_valid (unbe [a; b], unbe [c; d; e; f])); [|reflexivity].
    cbn [andb]. apply IH; [assumption|reflexivity].
Qed.

Lemma parse_settings_len p items : parse_settings p = Some items -> len p mod 6 = 0.
Proof.
  revert items. induction p as [| | | | | |a b c d e f rest IH] using list6_ind; intros items; cbn [parse_settings]; try discriminate.
  - reflexivity.
  - destruct (parse_settings rest) as [its|] eqn:E; [|discriminate]. intros _.
    specialize (IH its eq_refl). rewrite !len_cons. lia.
Qed.

Lemma parse_settings_none p : parse_settings p = None -> len p mod 6 <> 0.
Proof.
  induction p as [| | | | | |a b c d e f rest IH] using list6_ind; cbn [parse_settings]; try discriminate;
    try (intros _; unfold len; cbn; discriminate).
  destruct (parse_settings rest) as [its|] eqn:E; [discriminate|]. intros _.
  specialize (IH eq_refl). rewrite !len_cons. lia.
Qed.

(* Deserialize against the RFC payload parser *)
Definition deser_expect (fl : N) (o : option payload) (r : result body) : Prop :=
  match o with
  | Some b =>
      if settings_valid b then r = Ok (view_body fl b)
      else exists e, r = Err e /\ (e = E_settings_proto \/ e = E_settings_flow)
  | None => exists e, r = Err e
  end.

Ltac flags_of fl :=
  let a := fresh "F1" in let b := fresh "F4" in let c := fresh "F8" in let d := fresh "F32" in
  destruct (has_flag fl) as (a & b & c & d);
  change c_FlagEndStream with 1; change c_FlagAck with 1; change c_FlagEndHeaders with 4;
  change c_FlagPadded with 8; change c_FlagPriority with 32;
  change END_STREAM with 0; change ACK with 0; change END_HEADERS with 2; change PADDED with 3;
  change PRIORITY_FLAG with 5.

Lemma deser_data fl p : bytes_ok p = true ->
  deser_expect fl (parse_payload 0 fl p) (deserialize (BData false false []) fl p (len p)).
Proof.
  intros B. unfold deserialize. rewrite (cut_if_padded fl p).
  change (parse_payload 0 fl p) with (match unpad fl p with Some (pad, d) => Some (Data pad d) | None => None end).
  destruct (unpad fl p) as [[pad d]|]; cbn [bind deser_expect settings_valid view_body].
  - flags_of fl. rewrite F1. reflexivity.
  - eexists. reflexivity.
Qed.

Lemma len5 {A} (a b c d e : A) r : length (a :: b :: c :: d :: e :: r) = (5 + length r)%nat.
Proof. reflexivity. Qed.

Lemma deser_headers fl p : bytes_ok p = true ->
  deser_expect fl (parse_payload 1 fl p) (deserialize (BHeaders false 0 0 false false false []) fl p (len p)).
Proof.
  intros B. unfold deserialize. rewrite (cut_if_padded fl p).
  change (parse_payload 1 fl p) with
    (match unpad fl p with
     | None => None
     | Some (pad, c) =>
         if flag fl PRIORITY_FLAG then
           match c with
           | a :: b :: c' :: d :: w :: frag => Some (Headers pad (Some (parse_prio a b c' d w)) frag)
           | _ => None
           end
         else Some (Headers pad None c)
     end).
  destruct (unpad fl p) as [[pad c]|] eqn:U; cbn [bind]; [|eexists; reflexivity].
  destruct (with_pad_unpad fl p pad c B U) as (_ & _ & Bc).
  flags_of fl. rewrite F32, F1, F4.
  destruct (flag fl 5).
  - destruct c as [|a [|b [|c' [|d [|w frag]]]]]; try (eexists; reflexivity).
    apply bytes_ok_4 in Bc. destruct Bc as (Ha & Hb & Hc & Hd & Bf).
    assert (len (a :: b :: c' :: d :: w :: frag) <? 5 = false) as ->.
    { apply N.ltb_ge. unfold len. rewrite len5. lia. }
    rewrite bytes_to_uint32_unbe by assumption.
    change (go_index (a :: b :: c' :: d :: w :: frag) 4) with (Ok w).
    rewrite go_slice_from by (unfold len; rewrite len5; lia).
    cbn [bind deser_expect settings_valid view_body parse_prio p_dep p_weight app].
    rewrite mask31_low31. reflexivity.
  - cbn [deser_expect settings_valid view_body app]. reflexivity.
Qed.

Lemma len_lt_false (l : bytes) k : (N.to_nat k <= length l)%nat -> (len l <? k) = false.
Proof. intros. apply N.ltb_ge. unfold len. lia. Qed.
Lemma len_lt_true (l : bytes) k : (length l < N.to_nat k)%nat -> (len l <? k) = true.
Proof. intros. apply N.ltb_lt. unfold len. lia. Qed.
Lemma len_eq_false (l : bytes) k : length l <> N.to_nat k -> (len l =? k) = false.
Proof. intros. apply N.eqb_neq. unfold len. lia. Qed.
Lemma len_eq_true (l : bytes) k : length l = N.to_nat k -> (len l =? k) = true.
Proof. intros. apply N.eqb_eq. unfold len. lia. Qed.

Ltac len_tests :=
  repeat first
    [ rewrite len_lt_false by (cbn [length]; lia)
    | rewrite len_lt_true by (cbn [length]; lia)
    | rewrite len_eq_false by (cbn [length]; lia)
    | rewrite len_eq_true by (cbn [length]; lia) ].

Lemma deser_priority fl p : bytes_ok p = true ->
  deser_expect fl (parse_payload 2 fl p) (deserialize (BPriority 0 0) fl p (len p)).
Proof.
  intros B. unfold deserialize.
  change (parse_payload 2 fl p) with
    (match p with [a; b; c; d; w] => Some (Priority (parse_prio a b c d w)) | _ => None end).
  destruct p as [|a [|b [|c [|d [|w [|x r]]]]]]; len_tests; cbn [negb]; try (eexists; reflexivity).
  apply bytes_ok_4 in B. destruct B as (Ha & Hb & Hc & Hd & _).
  rewrite bytes_to_uint32_unbe by assumption.
  change (go_index [a; b; c; d; w] 4) with (Ok w).
  cbn [bind deser_expect settings_valid view_body parse_prio p_dep p_weight]. rewrite mask31_low31. reflexivity.
Qed.

Lemma deser_rst fl p : bytes_ok p = true ->
  deser_expect fl (parse_payload 3 fl p) (deserialize (BRstStream 0) fl p (len p)).
Proof.
  intros B. unfold deserialize.
  change (parse_payload 3 fl p) with
    (match p with [a; b; c; d] => Some (RstStream (unbe [a; b; c; d])) | _ => None end).
  destruct p as [|a [|b [|c [|d [|x r]]]]]; len_tests; cbn [negb]; try (eexists; reflexivity).
  apply bytes_ok_4 in B. destruct B as (Ha & Hb & Hc & Hd & _).
  rewrite bytes_to_uint32_unbe by assumption. reflexivity.
Qed.

Lemma deser_wu fl p : bytes_ok p = true ->
  deser_expect fl (parse_payload 8 fl p) (deserialize (BWindowUpdate 0%Z) fl p (len p)).
Proof.
  intros B. unfold deserialize.
  change (parse_payload 8 fl p) with
    (match p with [a; b; c; d] => let x := unbe [a; b; c; d] in Some (WindowUpdate (top_bit x) (low31 x)) | _ => None end).
  destruct p as [|a [|b [|c [|d [|x r]]]]]; len_tests; cbn [negb]; try (eexists; reflexivity).
  apply bytes_ok_4 in B. destruct B as (Ha & Hb & Hc & Hd & _).
  rewrite bytes_to_uint32_unbe by assumption.
  cbn [bind deser_expect settings_valid view_body]. rewrite mask31_low31. reflexivity.
Qed.

Lemma deser_cont fl p :
  deser_expect fl (parse_payload 9 fl p) (deserialize (BContinuation false []) fl p (len p)).
Proof.
  unfold deserialize. flags_of fl. rewrite F4. reflexivity.
Qed.

Lemma deser_ping fl p :
  deser_expect fl (parse_payload 6 fl p) (deserialize (BPing false zeros8) fl p (len p)).
Proof.
  unfold deserialize.
  change (parse_payload 6 fl p) with (if len p =? 8 then Some (Ping p) else None).
  destruct (len p =? 8) eqn:L; cbn [negb]; [|eexists; reflexivity].
  apply N.eqb_eq in L. flags_of fl. rewrite F1.
  cbn [deser_expect settings_valid view_body]. f_equal. f_equal.
  unfold ping_set_data.
  assert (length p = 8%nat) as E by (unfold len in L; lia).
  rewrite (firstn_all2 p) by lia. rewrite E. cbn. apply app_nil_r.
Qed.

Lemma deser_goaway fl p : bytes_ok p = true ->
  deser_expect fl (parse_payload 7 fl p) (deserialize (BGoAway 0 0 []) fl p (len p)).
Proof.
  intros B. unfold deserialize.
  change (parse_payload 7 fl p) with
    (match p with
     | a :: b :: c :: d :: e :: f :: g :: h :: debug =>
         let x := unbe [a; b; c; d] in Some (GoAway (top_bit x) (low31 x) (unbe [e; f; g; h]) debug)
     | _ => None
     end).
  destruct p as [|a [|b [|c [|d [|e [|f [|g [|h debug]]]]]]]]; len_tests; try (eexists; reflexivity).
  apply bytes_ok_4 in B. destruct B as (Ha & Hb & Hc & Hd & B).
  apply bytes_ok_4 in B. destruct B as (He & Hf & Hg & Hh & B).
  rewrite bytes_to_uint32_unbe by assumption.
  rewrite (go_slice_from _ 4) by (unfold len; cbn [length]; lia).
  change (dropN 4 (a :: b :: c :: d :: e :: f :: g :: h :: debug)) with (e :: f :: g :: h :: debug).
  rewrite (go_slice_from _ 8) by (unfold len; cbn [length]; lia).
  change (dropN 8 (a :: b :: c :: d :: e :: f :: g :: h :: debug)) with debug.
  cbn [bind]. rewrite bytes_to_uint32_unbe by assumption.
  cbn [bind deser_expect settings_valid view_body]. rewrite mask31_low31.
  destruct debug; reflexivity.
Qed.

Lemma deser_pp fl p : bytes_ok p = true ->
  deser_expect fl (parse_payload 5 fl p) (deserialize (BPushPromise false false 0 []) fl p (len p)).
Proof.
  intros B. unfold deserialize. rewrite (cut_if_padded fl p).
  change (parse_payload 5 fl p) with
    (match unpad fl p with
     | Some (pad, a :: b :: c :: d :: frag) =>
         let x := unbe [a; b; c; d] in Some (PushPromise pad (top_bit x) (low31 x) frag)
     | _ => None
     end).
  destruct (unpad fl p) as [[pad c]|] eqn:U; cbn [bind]; [|eexists; reflexivity].
  destruct (with_pad_unpad fl p pad c B U) as (_ & _ & Bc).
  destruct c as [|a [|b [|c' [|d frag]]]]; len_tests; try (eexists; reflexivity).
  apply bytes_ok_4 in Bc. destruct Bc as (Ha & Hb & Hc & Hd & Bf).
  rewrite bytes_to_uint32_unbe by assumption.
  rewrite (go_slice_from _ 4) by (unfold len; cbn [length]; lia).
  change (dropN 4 (a :: b :: c' :: d :: frag)) with frag.
  flags_of fl. rewrite F4.
  cbn [bind deser_expect settings_valid view_body app]. rewrite mask31_low31. reflexivity.
Qed.

Lemma deser_settings fl p : bytes_ok p = true ->
  deser_expect fl (parse_payload 4 fl p) (deserialize (BSettings settings_reset) fl p (len p)).
Proof.
  intros B. unfold deserialize.
  change (parse_payload 4 fl p) with
    (if flag fl ACK && negb (len p =? 0) then None
     else match parse_settings p with Some items => Some (Settings items) | None => None end).
  flags_of fl. rewrite F1.
  destruct (parse_settings p) as [items|] eqn:S.
  - rewrite (parse_settings_len p items S). cbn [N.eqb negb].
    change (st_ack (st_set_ack settings_reset (flag fl 0))) with (flag fl 0).
    replace (0 <? len p) with (negb (len p =? 0))
      by (destruct (len p =? 0) eqn:Z; [apply N.eqb_eq in Z; rewrite Z; reflexivity|apply N.eqb_neq in Z; symmetry; apply N.ltb_lt; lia]).
    destruct (flag fl 0 && negb (len p =? 0)); [eexists; reflexivity|].
    rewrite (settings_read_spec p B items _ S).
    cbn [deser_expect settings_valid view_body].
    destruct (forallb setting_valid items) eqn:V; cbn [bind]; [reflexivity|].
    eexists. split; [reflexivity|].
    clear -V. induction items as [|kv items IH]; [discriminate|]. cbn [forallb first_invalid] in *.
    destruct (setting_valid kv); [apply IH; exact V|]. destruct (fst kv =? 4); auto.
  - pose proof (parse_settings_none p S) as Z.
    assert (negb (len p mod 6 =? 0) = true) as -> by (apply negb_true_iff, N.eqb_neq; exact Z).
    destruct (flag fl 0 && negb (len p =? 0)); eexists; reflexivity.
Qed.

Lemma deserialize_spec ty fl p bd :
  ty <= 9 -> bytes_ok p = true -> acquire_frame (Z.of_N ty) = Ok bd ->
  deser_expect fl (parse_payload ty fl p) (deserialize bd fl p (len p)).
Proof.
  intros L B A.
  assert (ty = 0 \/ ty = 1 \/ ty = 2 \/ ty = 3 \/ ty = 4 \/ ty = 5 \/ ty = 6 \/ ty = 7 \/ ty = 8 \/ ty = 9) as C by lia.
  destruct C as [->|[->|[->|[->|[->|[->|[->|[->|[->| ->]]]]]]]]]; vm_compute in A; injection A as <-.
  - apply deser_data; assumption.
  - apply deser_headers; assumption.
  - apply deser_priority; assumption.
  - apply deser_rst; assumption.
  - apply deser_settings; assumption.
  - apply deser_pp; assumption.
  - apply deser_ping; assumption.
  - apply deser_goaway; assumption.
  - apply deser_wu; assumption.
  - apply deser_cont; assumption.
Qed.

(* readFrom / ReadFrameFromWithSize against the RFC reader *)
Lemma parse_values_spec l2 l1 l0 ty fl s3 s2 s1 s0 :
  l2 < 256 -> l1 < 256 -> l0 < 256 -> s3 < 256 -> s2 < 256 -> s1 < 256 -> s0 < 256 ->
  parse_values [l2; l1; l0; ty; fl; s3; s2; s1; s0] =
  Ok (unbe [l2; l1; l0], signed 8 ty, fl, low31 (unbe [s3; s2; s1; s0])).
Proof.
  intros. unfold parse_values.
  change (go_slice [l2; l1; l0; ty; fl; s3; s2; s1; s0] 0 3) with (Ok [l2; l1; l0]).
  cbn [bind]. rewrite bytes_to_uint24_unbe by assumption.
  change (go_index [l2; l1; l0; ty; fl; s3; s2; s1; s0] 3) with (Ok ty).
  change (go_index [l2; l1; l0; ty; fl; s3; s2; s1; s0] 4) with (Ok fl).
  change (go_slice [l2; l1; l0; ty; fl; s3; s2; s1; s0] 5 (len [l2; l1; l0; ty; fl; s3; s2; s1; s0])) with (Ok [s3; s2; s1; s0]).
  cbn [bind]. rewrite bytes_to_uint32_unbe by assumption. cbn [bind]. rewrite mask31_low31. reflexivity.
Qed.

Lemma kind_unknown ty : ty < 256 ->
  ((signed 8 ty <? Z.of_N c_FrameData) || (Z.of_N c_FrameContinuation <? signed 8 ty))%Z = (9 <? ty).
Proof.
  intros H. unfold signed. change (2 ^ 8) with 256. change (2 ^ (8 - 1)) with 128.
  rewrite N.mod_small by assumption. change (Z.of_N c_FrameData) with 0%Z. change (Z.of_N c_FrameContinuation) with 9%Z.
  destruct (ty <? 128) eqn:A; [apply N.ltb_lt in A|apply N.ltb_ge in A];
  destruct (9 <? ty) eqn:C; [apply N.ltb_lt in C|apply N.ltb_ge in C|apply N.ltb_lt in C|apply N.ltb_ge in C]; lia.
Qed.

Lemma signed8_small ty : ty <= 9 -> signed 8 ty = Z.of_N ty.
Proof.
  intros H. unfold signed. change (2 ^ 8) with 256. change (2 ^ (8 - 1)) with 128.
  rewrite N.mod_small by lia. assert (ty <? 128 = true) as -> by (apply N.ltb_lt; lia). reflexivity.
Qed.

Lemma acquire_frame_total ty : ty <= 9 -> exists bd, acquire_frame (Z.of_N ty) = Ok bd.
Proof.
  intros L.
  assert (ty = 0 \/ ty = 1 \/ ty = 2 \/ ty = 3 \/ ty = 4 \/ ty = 5 \/ ty = 6 \/ ty = 7 \/ ty = 8 \/ ty = 9) as C by lia.
  destruct C as [->|[->|[->|[->|[->|[->|[->|[->|[->| ->]]]]]]]]]; eexists; vm_compute; reflexivity.
Qed.


Lemma check_len_eff n max : n < 2 ^ 24 -> check_len n max = (effective_limit max <? n).
Proof.
  intros H. unfold check_len, effective_limit. destruct (max =? 0); cbn [negb andb]; [|reflexivity].
  symmetry. apply N.ltb_ge. change (2 ^ 24) with 16777216 in *. lia.
Qed.

(* what the RFC reader's outcome demands of one ReadFrameFromWithSize call *)
Definition read_expect (max : N) (o : outcome) (r : read_out) : Prop :=
  match o with
  | Short => exists e, ro_res r = Err e
  | TooLarge => ro_res r = Err E_too_large /\ ro_used r = 9 /\ ro_alloc r = 0
  | UnknownType k => ro_res r = Err E_unknown_type /\ ro_used r = k /\ ro_alloc r = 0
  | Malformed k => (exists e, ro_res r = Err e) /\ ro_used r = k
  | Frame f k =>
      ro_used r = k /\
      if settings_valid (f_body f) then ro_res r = Ok (view max f)
      else exists e, ro_res r = Err e /\ (e = E_settings_proto \/ e = E_settings_flow)
  end.

Theorem read_refines_spec max b :
  bytes_ok b = true ->
  read_expect max (spec_read (effective_limit max) b) (read_frame_with_size max b).
Proof.
  intros B.
  destruct b as [|l2 [|l1 [|l0 [|ty [|fl [|s3 [|s2 [|s1 [|s0 rest]]]]]]]]];
    try (eexists; reflexivity).
  apply bytes_ok_4 in B. destruct B as (Hl2 & Hl1 & Hl0 & Hty & B).
  apply bytes_ok_1 in B. destruct B as (Hfl & B).
  apply bytes_ok_4 in B. destruct B as (Hs3 & Hs2 & Hs1 & Hs0 & B).
  unfold spec_read, parse_header, read_frame_with_size, finish_read, read_from, read_from_gen.
  rewrite (len_lt_false (l2 :: l1 :: l0 :: ty :: fl :: s3 :: s2 :: s1 :: s0 :: rest) c_DefaultFrameSize)
    by (cbn [length]; change (N.to_nat c_DefaultFrameSize) with 9%nat; lia).
  change (takeN c_DefaultFrameSize (l2 :: l1 :: l0 :: ty :: fl :: s3 :: s2 :: s1 :: s0 :: rest)) with [l2; l1; l0; ty; fl; s3; s2; s1; s0].
  change (dropN c_DefaultFrameSize (l2 :: l1 :: l0 :: ty :: fl :: s3 :: s2 :: s1 :: s0 :: rest)) with rest.
  rewrite parse_values_spec by assumption.
  set (n := unbe [l2; l1; l0]). set (x := unbe [s3; s2; s1; s0]).
  assert (Hn : n < 2 ^ 24) by (apply unbe3_lt; assumption).
  change (fh_maxLen (set_maxlen acquire_header max)) with max.
  change (fh_payload (set_maxlen acquire_header max)) with (@nil N).
  change (fh_body (set_maxlen acquire_header max)) with (@None body).
  cbv iota beta.
  rewrite (check_len_eff n max Hn).
  destruct (effective_limit max <? n) eqn:TL.
  { cbn. auto. }
  rewrite (kind_unknown ty Hty).
  destruct (9 <? ty) eqn:UK.
  { destruct (len rest <? n) eqn:SH.
    - eexists. reflexivity.
    - apply N.ltb_ge in SH. cbn [read_expect ro_res ro_used ro_alloc rf_err rf_used rf_alloc].
      split; [reflexivity|]. split; [|reflexivity]. rewrite N.min_l by assumption. reflexivity. }
  apply N.ltb_ge in UK. rewrite (signed8_small ty UK).
  destruct (acquire_frame_total ty UK) as [bd A]. rewrite A.
  destruct (0 <? n) eqn:Z.
  - destruct (len rest <? n) eqn:SH.
    { eexists. reflexivity. }
    apply N.ltb_ge in SH.
    change (fh_payload (set_payload _ (takeN n rest))) with (takeN n rest).
    pose proof (bytes_ok_takeN n rest B) as Bp.
    pose proof (deserialize_spec ty fl (takeN n rest) bd UK Bp A) as D.
    rewrite len_takeN in D by assumption.
    destruct (parse_payload ty fl (takeN n rest)) as [body|] eqn:P; cbn [deser_expect] in D.
    + destruct (payload_bytes_parse ty fl _ body Bp P) as (E & T & _).
      cbn [read_expect f_body]. destruct (settings_valid body).
      * rewrite D. cbn [rf_err ro_res ro_used rf_used]. split; [reflexivity|]. f_equal.
        unfold view, payload_len. cbn [f_body f_flags f_stream]. rewrite E, T, len_takeN by assumption. reflexivity.
      * destruct D as (e & -> & He). cbn [rf_err ro_res ro_used rf_used]. split; [reflexivity|]. eauto.
    + destruct D as (e & ->). cbn. split; [eauto|reflexivity].
  - apply N.ltb_ge in Z. assert (n = 0) as N0 by lia.
    assert (len rest <? n = false) as -> by (apply N.ltb_ge; lia).
    change (fh_payload (put_body _ (Some bd))) with (@nil N).
    rewrite N0. change (takeN 0 rest) with (@nil N).
    pose proof (deserialize_spec ty fl [] bd UK eq_refl A) as D. change (len []) with 0 in D.
    destruct (parse_payload ty fl []) as [body|] eqn:P; cbn [deser_expect] in D.
    + destruct (payload_bytes_parse ty fl [] body eq_refl P) as (E & T & _).
      cbn [read_expect f_body]. destruct (settings_valid body).
      * rewrite D. cbn [rf_err ro_res ro_used rf_used]. split; [reflexivity|]. f_equal.
        unfold view, payload_len. cbn [f_body f_flags f_stream]. rewrite E, T. reflexivity.
      * destruct D as (e & -> & He). cbn [rf_err ro_res ro_used rf_used]. split; [reflexivity|]. eauto.
    + destruct D as (e & ->). cbn. split; [eauto|reflexivity].
Qed.
