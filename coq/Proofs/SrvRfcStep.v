(* Proofs/SrvRfcStep.v - C08: the shape of the step lemma. What has to be shown about one
   item of the schedule (step_goal), the same thing stated on an explicit description of
   what the model did (G for an input, Gloc for the other items, live_tuple), and how the
   stream loop's half of a lockstep pair starts. *)
From H2V Require Import Base.Bytes Base.MachineInt Base.Result Gen.GenConsts Impl.ServerConn.
From H2V Require Import Proofs.SrvBase Proofs.SrvRfcDefs Proofs.SrvRfcSpec Proofs.SrvRfcModel Proofs.SrvRfcSim.
From Coq Require Import ZArith Lia ZifyN ZifyNat ZifyBool.
Local Open Scope N_scope.

Section Step.
Variable hstate : Type.
Variable dec_field : hstate -> N -> bytes -> dec_res hstate.
Variable enc_field : hstate -> bytes -> bytes -> bool -> bytes * hstate.
Variable enc_set_max : hstate -> N -> hstate.
Variable cfg : config.
Notation sconn := (sconn hstate).
Notation step := (step dec_field enc_field enc_set_max cfg).
Notation feed := (feed hstate dec_field enc_field enc_set_max cfg).
Notation spec_feed := (spec_feed hstate dec_field enc_field enc_set_max cfg).
Notation item_ok := (item_ok hstate dec_field enc_field enc_set_max cfg).
Notation view := (view hstate).
Notation tbl := (tbl hstate).
Notation new_out := (new_out hstate).
Notation Post := (Post hstate).
Notation Sim := (Sim hstate).
Notation Aux := (Aux hstate).
Notation AuxT := (AuxT hstate).
Notation AuxH := (AuxH hstate).
Implicit Types c : sconn.

(* the ghost phase of each stream id follows the frames *)
Definition ph_next (ph : N -> RS.phase) (it : item) : N -> RS.phase :=
  match it with
  | IIn (RFrame f) => fun id => if id =? sf_sid f then RS.request_step (ph id) (abs_frame f) else ph id
  | _ => ph
  end.

Definition step_goal c (s : RS.state) (ph : N -> RS.phase) (it : item) : Prop :=
  let c' := feed c it in
  (sc_sl_done c = false ->
   match it with IIn i => item_ok c it s = true \/ known_deviation hstate c s i = true | _ => True end) /\
  Post c' (spec_feed c it s) (ph_next ph it) /\
  (forall sid rq, In (ODispatch sid rq) (new_out c c') -> ph_next ph it sid = RS.PDone) /\
  (exists d, sc_out c' = d ++ sc_out c).

(* what makes Sim again, before the closed streams the ring dropped are forgotten *)
Definition live_tuple c' (s2 : RS.state) (ph' : N -> RS.phase) : Prop :=
  Aux c' /\ (forall id, N.odd id = true -> rel1 (view c' id) (RS.st_of s2 id)) /\ R_block hstate c' s2 /\
  RS.goaway s2 = sc_closing c' /\ RS.highest s2 = sc_highestID c' /\
  (sc_expectCont c' <> 0 -> tbl c' (sc_expectCont c') = None -> sc_discardID c' = sc_expectCont c' \/ RS.dead s2 = true) /\
  (forall st, In st (sc_strms c') -> ph' (st_id st) = phase_of st) /\
  (sc_closing c' = false -> forall id, N.odd id = true -> sc_highestID c' < id -> ph' id = RS.PStart).

(* d: what the step added to the outputs, newest first; only the "noisy" ones count *)
Definition after_outs (s1 : RS.state) (d : list outev) : RS.state :=
  fold_left RS.spec_sent (flat_map sent_of (rev (filter noisy d))) s1.

(* for a frame: the reaction read off the outputs d of the step, and the specification state after it *)
Definition react (s : RS.state) (fr : sframe) (d : list outev) : RS.reaction :=
  resolve s (RS.Frame (abs_frame fr)) (classify (sf_sid fr) (rev (filter noisy d))).
Definition spec_after (s : RS.state) (fr : sframe) (d : list outev) : RS.state :=
  after_outs (RS.spec_next s (RS.Frame (abs_frame fr)) (react s fr d)) d.

Definition G c (s : RS.state) (ph : N -> RS.phase) (i : rl_input) c' : Prop :=
  exists d, sc_out c' = d ++ sc_out c /\
  let ai := abs_input i in
  let r := resolve s ai (classify (input_sid i) (rev (filter noisy d))) in
  (RS.allowed s ai r = true \/ known_deviation hstate c s i = true) /\
  (if sc_sl_done c' then RS.dead (after_outs (RS.spec_next s ai r) d) = true
   else live_tuple c' (after_outs (RS.spec_next s ai r) d) (ph_next ph (IIn i))) /\
  (forall sid rq, In (ODispatch sid rq) d -> ph_next ph (IIn i) sid = RS.PDone).

Lemma wf_after_outs s1 d : wf s1 -> wf (after_outs s1 d).
Proof. apply wf_fold_sent. Qed.

Lemma G_goal c s ph i : wf s -> G c s ph i (feed c (IIn i)) -> step_goal c s ph (IIn i).
Proof.
  intros W (d & Hd & Ha & Hp & Hdisp). unfold step_goal. cbv zeta.
  pose proof (new_out_ext hstate _ _ _ Hd) as NO.
  assert (RE : reaction_of hstate c i (feed c (IIn i)) = classify (input_sid i) (rev (filter noisy d))).
  { unfold reaction_of. rewrite NO, classify_filter, filter_rev. reflexivity. }
  assert (SF : spec_feed c (IIn i) s =
               sync_forget hstate (feed c (IIn i))
                 (after_outs (RS.spec_next s (abs_input i) (resolve s (abs_input i) (classify (input_sid i) (rev (filter noisy d))))) d)).
  { unfold spec_feed, after_outs. cbv zeta. rewrite NO, RE, sents_filter, filter_rev. reflexivity. }
  split; [|split].
  - intros _. unfold item_ok. rewrite RE. exact Ha.
  - rewrite SF. set (s1 := RS.spec_next s _ _) in *.
    assert (W2 : wf (after_outs s1 d)) by (apply wf_after_outs, wf_spec_next, W).
    destruct (sync_forget_props hstate (feed c (IIn i)) _ W2) as (W' & _ & _ & _ & D' & _).
    split; [exact W'|]. destruct (sc_sl_done (feed c (IIn i))).
    + rewrite D'. exact Hp.
    + destruct Hp as (A & B & C & D & E & F & P1 & P2). apply Sim_intro; assumption.
  - split; [|exists d; exact Hd]. intros sid rq Hin. apply (Hdisp sid rq). rewrite NO in Hin. apply in_rev in Hin. exact Hin.
Qed.

(* the same for items that are not inputs *)

Definition Gloc c (s : RS.state) (ph : N -> RS.phase) c' : Prop :=
  exists d, sc_out c' = d ++ sc_out c /\
  (if sc_sl_done c' then RS.dead (after_outs s d) = true else live_tuple c' (after_outs s d) ph) /\
  (forall sid rq, ~ In (ODispatch sid rq) d).

Lemma Gloc_goal c s ph it : wf s -> (forall i, it <> IIn i) -> Gloc c s ph (feed c it) -> step_goal c s ph it.
Proof.
  intros W Hit (d & Hd & Hp & Hdisp). unfold step_goal. cbv zeta.
  pose proof (new_out_ext hstate _ _ _ Hd) as NO.
  assert (PH : ph_next ph it = ph) by (destruct it as [i| |]; [exfalso; eapply Hit; reflexivity | reflexivity | reflexivity]).
  assert (SF : spec_feed c it s = sync_forget hstate (feed c it) (after_outs s d)).
  { unfold spec_feed, after_outs. cbv zeta. rewrite NO, sents_filter, filter_rev.
    destruct it as [i| |]; [exfalso; eapply Hit; reflexivity | reflexivity | reflexivity]. }
  split; [|split].
  - intros _. destruct it as [i| |]; [exfalso; eapply Hit; reflexivity | exact I | exact I].
  - rewrite SF, PH.
    assert (W2 : wf (after_outs s d)) by (apply wf_after_outs, W).
    destruct (sync_forget_props hstate (feed c it) _ W2) as (W' & _ & _ & _ & D' & _).
    split; [exact W'|]. destruct (sc_sl_done (feed c it)).
    + rewrite D'. exact Hp.
    + destruct Hp as (A & B & C & D & E & F & P1 & P2). apply Sim_intro; assumption.
  - split; [|exists d; exact Hd]. intros sid rq Hin. exfalso. apply (Hdisp sid rq). rewrite NO in Hin. apply in_rev in Hin. exact Hin.
Qed.

Lemma upd_readerQ_nil c : sc_readerQ c = [] -> upd_readerQ c [] = c.
Proof. destruct c; cbn. intros ->. reflexivity. Qed.

(* the read loop has just ended: the stream loop finds the reader closed *)
Lemma sl_after_exit c0 : sc_sl_done c0 = false -> sc_rl_done c0 = true -> sc_readerQ c0 = [] ->
  step c0 EvSL = note (upd_done c0 true true) (OExit 1 1).
Proof. intros A B C. rewrite step_EvSL, A, C, B. reflexivity. Qed.

(* nothing was forwarded *)
Lemma sl_after_stay c0 : sc_sl_done c0 = false -> sc_rl_done c0 = false -> sc_readerQ c0 = [] -> step c0 EvSL = c0.
Proof. intros A B C. rewrite step_EvSL, A, C, B. reflexivity. Qed.

(* the frame was forwarded: the stream loop takes it *)
Lemma sl_after_forward c1 fr : sc_sl_done c1 = false -> sc_readerQ c1 = [] ->
  step (forward c1 fr) EvSL = fst (sl_frame dec_field enc_set_max cfg c1 fr).
Proof.
  intros A C. unfold forward. rewrite A, step_EvSL. sc_cbn. rewrite A, C. cbn [app].
  change (upd_readerQ (upd_readerQ c1 [fr]) []) with (upd_readerQ c1 []). rewrite (upd_readerQ_nil c1 C). reflexivity.
Qed.

End Step.
