(* Proofs/CliFlowCWin.v - C07, "and finishes": how far the client's send windows can be below the server's ledger.
   Sim (Proofs/CliFlowSafe.v) says they are never above. The only thing that takes them below is a critical section
   of sendPending whose bytes are debited and then not written (the request was taken back, or the write failed): it
   debits the connection window and the stream's window by the same amount. So the deficit of a pending body's window
   is never more than the deficit of the connection window (the d of Sim): when the connection window is exactly the
   ledger's, so is every pending body's. *)
From H2V Require Import Base.Bytes Base.MachineInt Base.Result Gen.GenConsts Impl.ServerConn Impl.ClientConn
     Proofs.CliBase Proofs.CliDefs Spec.FlowLedger Proofs.SrvFlowLedger Proofs.CliFlowMoves Proofs.CliFlowOut Proofs.CliFlowSettings Proofs.CliFlowSafe.
From Coq Require Import ZArith Lia ZifyN ZifyNat ZifyBool List Bool.
Import ListNotations.
Local Open Scope N_scope.

Section WinRun.
Variable hstate : Type.
Variable dec_field : hstate -> N -> bytes -> dec_res hstate.
Variable enc_field : hstate -> bytes -> bytes -> bool -> bytes * hstate.
Variable enc_set_max : hstate -> N -> hstate.
Variable cfg : cl_config.
Variable h0 : hstate.

(* C07: the client's send windows against the server's ledger after any events. They are never above the ledger's;
   a pending body's window is below its ledger window by at most what the connection window is below the ledger's *)
Theorem windows_vs_ledger first evs : cl_settings_deserialize false first <> None ->
  GOK ledger0 (g_ledger hstate dec_field enc_field enc_set_max cfg h0 first evs) ->
  let c := cl_run dec_field enc_field enc_set_max cfg h0 first evs in
  let L := lrun ledger0 (g_ledger hstate dec_field enc_field enc_set_max cfg h0 first evs) in
  (0 <= cc_connWindow c <= l_conn L)%Z /\
  forall pb, In pb (cc_pending c) ->
    exists w, l_strm L (pb_id pb) = Some w /\ (pb_window pb <= w)%Z /\ (w - pb_window pb <= l_conn L - cc_connWindow c)%Z.
Proof.
  intros NN G. cbv zeta. destruct (run_Sim hstate dec_field enc_field enc_set_max cfg h0 first evs NN G) as [_ [d S]].
  destruct S as [_ _ (s3 & s3d & s3e) _ _ _ s7 _]. split; [flia|]. intros pb HP.
  destruct (s7 pb HP) as (w & W1 & W2 & _). exists w. split; [exact W1|]. flia.
Qed.

End WinRun.
