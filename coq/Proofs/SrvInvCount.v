(* Proofs/SrvInvCount.v - C13 (a) on traces: at every point, (requests dispatched) - (handlers returned) is the number
   of handlers running, hence at most MaxConcurrentStreams. *)
From H2V Require Import Base.Bytes Base.MachineInt Base.Result Gen.GenConsts Impl.ServerConn Proofs.SrvBase
  Proofs.SrvInvMoves Proofs.SrvInvDecomp Proofs.SrvInvSteps Proofs.SrvInvSlots.
From Coq Require Import ZArith Lia ZifyN ZifyNat ZifyBool Permutation.
Local Open Scope N_scope.

Definition is_dispatch (o : outev) : bool := match o with ODispatch _ _ => true | _ => false end.
Definition count_disp (l : list outev) : Z := Z.of_nat (length (filter is_dispatch l)).

Lemma count_disp_app l l' : count_disp (l ++ l') = (count_disp l + count_disp l')%Z.
Proof. unfold count_disp. rewrite filter_app, app_length. lia. Qed.
Lemma count_disp_rev l : count_disp (rev l) = count_disp l.
Proof.
  induction l as [|o l IH]; [reflexivity|]. cbn [rev]. rewrite count_disp_app, IH.
  unfold count_disp. cbn [filter]. destruct (is_dispatch o); cbn [length]; lia.
Qed.
Lemma count_disp_none (P : outev -> Prop) l :
  (forall o, P o -> is_dispatch o = false) -> Forall P l -> count_disp l = 0%Z.
Proof.
  intro HP. induction 1 as [|o l H _ IH]; [reflexivity|]. unfold count_disp in *. cbn [filter].
  rewrite (HP o H). exact IH.
Qed.
Lemma count_disp_frames l : Forall is_frame l -> count_disp l = 0%Z.
Proof. apply count_disp_none. intros [] H; try reflexivity; contradiction. Qed.

Lemma count_running_app l l' : count_running (l ++ l') = (count_running l + count_running l')%Z.
Proof. unfold count_running. rewrite filter_app, app_length. lia. Qed.
Lemma count_running_perm l l' : Permutation l l' -> count_running l = count_running l'.
Proof.
  induction 1 as [|x l l' _ IH|x y l|l l' l'' _ IH1 _ IH2]; rewrite ?count_running_cons; lia.
Qed.
Lemma count_running_sloc l l' : Forall2 sloc l l' -> count_running l' = count_running l.
Proof.
  induction 1 as [|a b l l' S _ IH]; [reflexivity|]. rewrite !count_running_cons, IH.
  destruct S as (_ & _ & Sr & _). rewrite Sr. reflexivity.
Qed.
Lemma count_running_del l id old : strms_search l id = Some old ->
  count_running (strms_del l id) = (count_running l - (if st_handlerRunning old then 1 else 0))%Z.
Proof. intro H. rewrite (count_running_perm _ _ (del_perm _ _ _ H)), count_running_cons. lia. Qed.
Lemma count_running_put l x old : strms_search l (st_id x) = Some old ->
  count_running (strms_put l x) =
  (count_running l - (if st_handlerRunning old then 1 else 0) + (if st_handlerRunning x then 1 else 0))%Z.
Proof.
  induction l as [|y t IH]; cbn [strms_search strms_put]; [discriminate|].
  destruct (st_id y =? st_id x); intro H.
  - inversion H; subst. rewrite !count_running_cons. lia.
  - rewrite !count_running_cons, (IH H). lia.
Qed.

Section Count.
Variable hstate : Type.
Variable dec_field : hstate -> N -> bytes -> dec_res hstate.
Variable enc_field : hstate -> bytes -> bytes -> bool -> bytes * hstate.
Variable enc_set_max : hstate -> N -> hstate.
Variable cfg : config.
Variable h0 : hstate.
Notation Q := QT.
Notation sconn := (sconn hstate).
Notation mv := (mv hstate dec_field cfg Q).
Notation mvs := (mvs hstate dec_field cfg Q).
Notation SI := (SI cfg Q).
Notation step := (step dec_field enc_field enc_set_max cfg).
Notation run := (run dec_field enc_field enc_set_max cfg h0).
Implicit Types c : sconn.

(* does this event take a handler back? (an EvDone for a stream with a running handler, while the loop runs) *)
Definition handler_returns (c : sconn) (e : event) : bool :=
  match e with
  | EvDone sid _ =>
    negb (sc_sl_done c) &&
    (match take_stream (sc_gone c) sid with Some _ => true | None => false end ||
     match strms_search (sc_strms c) sid with Some s => st_handlerRunning s | None => false end)
  | _ => false
  end.

Fixpoint returns_from (c : sconn) (evs : list event) : Z :=
  match evs with
  | [] => 0
  | e :: t => ((if handler_returns c e then 1 else 0) + returns_from (step c e) t)%Z
  end.
Definition returns (evs : list event) : Z := returns_from (init_conn cfg h0) evs.

(* dispatched - running *)
Definition bal (c : sconn) : Z := (count_disp (sc_out c) - running c)%Z.

Lemma mv_bal o a b : mv o a b -> SI a -> bal b = (bal a + Z.of_nat (length (olist o)))%Z.
Proof.
  intros M HS. unfold bal, running. destruct M; cbn [olist length].
  - destruct H0 as (SC & (l & E & F) & _). destruct SC as (S1 & S2 & _).
    rewrite E, count_disp_app, (count_disp_frames _ F), S1, S2. lia.
  - rewrite sc_out_write_goaway, H, sc_strms_write_goaway, sc_gone_write_goaway. destruct (sc_wl_dead c); [lia|]. unfold count_disp. cbn [filter is_dispatch]. lia.
  - rewrite mark_closed_eq. sc_cbn. lia.
  - sc_cbn. lia.
  - sc_cbn. rewrite (count_running_sloc _ _ H0). lia.
  - (* dispatch *)
    unfold put, note. sc_cbn.
    assert (Ro : st_handlerRunning old = false).
    { destruct (st_handlerRunning old) eqn:R; [|reflexivity]. pose proof (si_run _ _ _ _ HS) as F. rewrite Forall_forall in F.
      destruct (F old (proj1 (strms_search_In _ _ _ H0)) R) as [_ R2]. congruence. }
    rewrite (count_running_put _ _ _ H0), Ro, H3. unfold count_disp. cbn [filter is_dispatch length]. lia.
  - (* create *)
    sc_cbn. rewrite count_running_app, count_running_cons, H5. change (count_running []) with 0%Z. lia.
  - (* close *)
    rename H0 into SS. destruct H1 as (Si & So & Sr & Sp).
    rewrite sc_strms_close_stream, sc_gone_close_stream, sc_out_close_stream, (count_running_del _ _ _ SS), <- Sr.
    destruct (st_handlerRunning x); cbn [length]; [lia|]. unfold count_disp. cbn [filter is_dispatch]. lia.
  - (* done_gone *)
    destruct (take_stream_Some _ _ _ _ H0) as (_ & _ & Len & _).
    rewrite release_stream_eq. sc_cbn. rewrite Len. unfold count_disp. cbn [filter is_dispatch]. lia.
  - (* returned *)
    destruct H0 as (SC & (l & E & F) & _). destruct SC as (S1 & S2 & _).
    rewrite sc_strms_put, sc_out_put, sc_gone_put, E, count_disp_app, (count_disp_frames _ F), S1, S2.
    rewrite (count_running_put _ _ _ H1), H4, H5. lia.
  - unfold brk, note. sc_cbn. unfold count_disp. cbn [filter is_dispatch]. lia.
  - (* fatal *)
    unfold brk, note. sc_cbn. rewrite (count_running_sloc _ _ H0), count_running_app.
    assert (count_running extra = 0%Z).
    { destruct H1 as [->|(s & -> & _ & R & _)]; [reflexivity|]. rewrite count_running_cons, R. reflexivity. }
    unfold count_disp. cbn [filter is_dispatch]. lia.
  - unfold note. sc_cbn. unfold count_disp. cbn [filter is_dispatch]. lia.
  - destruct H0 as [SC EOut]. destruct SC as (S1 & S2 & _). rewrite EOut, S1, S2. lia.
Qed.

Lemma mvs_bal l a b : mvs l a b -> SI a -> bal b = (bal a + Z.of_nat (length l))%Z.
Proof.
  induction 1 as [c|o l a b c M MS IH]; intro HS; [cbn; lia|].
  rewrite (IH (SI_mv M HS)), (mv_bal _ _ _ M HS), app_length. lia.
Qed.

Lemma omv_bal pc a b : omv hstate pc a b -> bal b = bal a.
Proof.
  intro M. destruct (omv_out _ _ _ _ M) as (l & E & F). destruct (omv_keeps _ _ _ _ M) as (E1 & E2 & _).
  assert (Z : count_disp l = 0%Z).
  { eapply count_disp_none; [|exact F]. intros [] H; try reflexivity; contradiction. }
  unfold bal, running. rewrite E, E1, E2, count_disp_app, Z. lia.
Qed.
Lemma omvs_bal pc a b : omvs hstate pc a b -> bal b = bal a.
Proof. induction 1 as [c|a b c M MS IH]; [reflexivity|]. rewrite IH. eapply omv_bal; eassumption. Qed.

Lemma step_bal c e : SI c -> bal (step c e) = (bal c + (if handler_returns c e then 1 else 0))%Z.
Proof.
  intro HS.
  assert (SH := step_shape hstate dec_field enc_field enc_set_max cfg Q (QT_closed _ dec_field cfg) c e (SI_ids_ok _ _ _ _ HS)).
  assert (GEN : (exists c0, omvs hstate (parser_code e) c c0 /\ mvs [] c0 (step c e)) -> bal (step c e) = bal c).
  { intros (c0 & O & M). rewrite (mvs_bal _ _ _ M (SI_omvs O HS)), (omvs_bal _ _ _ O). cbn. lia. }
  destruct e as [i| |sid r|t| | | |]; try (cbn [handler_returns]; rewrite (GEN SH); lia).
  cbn [handler_returns]. destruct SH as [(E & NOOP)|(Hd & b & M1 & M)].
  - rewrite E. destruct NOOP as [Hd|[TS NR]]; [rewrite Hd; cbn; lia|].
    rewrite TS. destruct (strms_search (sc_strms c) sid) as [s|] eqn:SS; [rewrite (NR s eq_refl)|];
      rewrite ?andb_false_r; cbn [orb]; rewrite ?andb_false_r; lia.
  - rewrite (mvs_bal _ _ _ M (SI_mv M1 HS)), (mv_bal _ _ _ M1 HS), Hd. cbn [negb andb olist length].
    assert (R : (match take_stream (sc_gone c) sid with Some _ => true | None => false end ||
                 match strms_search (sc_strms c) sid with Some s => st_handlerRunning s | None => false end)%bool = true).
    { remember (Some sid) as o eqn:EO. destruct M1; try discriminate EO; inversion EO; subst.
      - rewrite H0. reflexivity.
      - rewrite H1, H2, H4. reflexivity. }
    rewrite R. lia.
Qed.

Lemma bal_from evs : forall c, SI c ->
  bal (run_from dec_field enc_field enc_set_max cfg c evs) = (bal c + returns_from c evs)%Z.
Proof.
  induction evs as [|e t IH]; intros c HS; cbn [returns_from]; [rewrite run_from_nil; lia|].
  rewrite run_from_cons, (IH _ (SI_step_T _ _ _ _ _ c e HS)), (step_bal c e HS). lia.
Qed.

(* the handlers running are exactly the requests dispatched minus the handlers that came back *)
Theorem running_is_dispatched_minus_returned evs :
  running (run evs) = (count_disp (trace (run evs)) - returns evs)%Z.
Proof.
  pose proof (bal_from evs (init_conn cfg h0) (SI_init _ cfg Q h0)) as B.
  rewrite <- run_eq in B. unfold bal in B. fold (returns evs) in B.
  assert (E : count_disp (trace (run evs)) = count_disp (sc_out (run evs))) by (unfold trace; apply count_disp_rev).
  rewrite E. cbn in B. lia.
Qed.

(* C13 (a) over traces: at the end of every event list (so at every prefix), dispatched - returned <= the limit *)
Theorem dispatched_minus_returned_bounded evs :
  (0 <= count_disp (trace (run evs)) - returns evs <= Z.max 0 (cf_maxStreams cfg))%Z.
Proof.
  rewrite <- running_is_dispatched_minus_returned.
  destruct (SI_slots _ cfg _ Q (SI_run_T _ dec_field enc_field enc_set_max cfg h0 evs)). lia.
Qed.

End Count.
