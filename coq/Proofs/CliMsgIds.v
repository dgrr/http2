(* Proofs/CliMsgIds.v - C02 (a): stream ids; and the frame conditions of a feed move without the invariant.

   IdInv c        the HEADERS frames written so far carry the stream ids 1, 3, 5, ... in this order, nextID is the next
                  one while the write loop lives, and none is above 2^31-1.
   feedmove_fm    a frame going through dispatch changes nothing but the decoder registers and the Ctx that takes it
                  (and what finish / the loop's exit do): no HEADERS, no DATA, no result is written. *)
From H2V Require Import Base.Bytes Base.MachineInt Gen.GenConsts Impl.ServerConn Impl.ClientConn
  Spec.Http2Messages Spec.Http2Responses Proofs.CliBase Proofs.SrvIsoRef Proofs.CliMsgRef Proofs.CliMsgAuto Proofs.CliMsgMoves
  Proofs.CliMsgDisp Proofs.CliMsgStep Proofs.CliMsgInv Proofs.CliMsgFeed.
From Coq Require Import ZArith Lia ZifyN ZifyNat ZifyBool List.
Import ListNotations.
Local Open Scope N_scope.

Section Ids.
Context {hstate : Type}.
Variable dec_field : hstate -> N -> bytes -> dec_res hstate.
Variable enc_field : hstate -> bytes -> bytes -> bool -> bytes * hstate.
Variable enc_set_max : hstate -> N -> hstate.
Variable cfg : cl_config.
Implicit Types c : cconn hstate.

Notation step := (cl_step dec_field enc_field enc_set_max cfg).
Notation mvs := (mvs dec_field enc_field enc_set_max).
Notation mv1 := (mv1 enc_field enc_set_max).
Notation feedmove := (feedmove dec_field).

(* what readStream and dispatch can answer, whatever the state *)
Definition herr_ok c : Prop := forall e, cc_hdrErr c = Some e -> e = CEMalformed.

Lemma rhf_shape cb id frag eh res : herr_ok cb ->
  match cl_read_header_fragment dec_field cb id frag eh res with
  | (c1, res', ended, err) =>
    nonregs c1 = nonregs cb /\ herr_ok c1 /\ (forall e, err = CRSConn e -> e = CEConn) /\ (forall e, err = CRSStream e -> err_special e = false)
  end.
Proof.
  intro HB. pose proof (rhf_result dec_field cb id frag eh res HB) as RR.
  destruct (ref_loop dec_field _ _ _ _ _) as [fs d' n' carry| | |].
  - destruct (hf_fold (cc_hdrRegularSeen cb, cc_hdrStatus cb, cc_hdrErr cb, res) fs) as [[[rs' st'] he'] res'] eqn:HF.
    specialize (RR rs' st' he' res' eq_refl). cbv zeta in RR. rewrite RR.
    assert (HE1 : forall e, he' = Some e -> e = CEMalformed).
    { pose proof (hf_fold_herr fs (cc_hdrRegularSeen cb) (cc_hdrStatus cb) (cc_hdrErr cb) res HB) as H. rewrite HF in H. exact H. }
    destruct (negb eh); [destruct (cl_maxHeaderPrev <? len carry)|destruct he' as [he|]];
      (split; [reflexivity|]); (split; [exact HE1|]); (split; [intros e H; inversion H; reflexivity|]); intros e H; inversion H; subst.
    rewrite (HE1 _ eq_refl). reflexivity.
  - destruct RR as (c1 & res' & e & RS & FT & EC & NR1 & HE1). rewrite RS. repeat split; try assumption. intros e0 H. subst e. destruct FT.
  - destruct RR as (c1 & res' & e & RS & FT & EC & NR1 & HE1). rewrite RS. repeat split; try assumption. intros e0 H. subst e. destruct FT.
  - destruct RR as (c1 & res' & e & RS & FT & EC & NR1 & HE1). rewrite RS. repeat split; try assumption. intros e0 H. subst e. destruct FT.
Qed.

Lemma read_stream_shape c fr res : herr_ok c ->
  match cl_read_stream dec_field c fr res with
  | (c1, res', ended, err) =>
    (forall tg, fm tg c c1) /\ herr_ok c1 /\ (forall e, err = CRSConn e -> e = CEConn) /\ (forall e, err = CRSStream e -> err_special e = false)
  end.
Proof.
  intro HE.
  assert (TRIV : forall e, (forall e0, e = CRSStream e0 -> err_special e0 = false) -> (forall e0, e = CRSConn e0 -> e0 = CEConn) ->
                 match (c, res, false, e) with (c1, res', ended, err) =>
                   (forall tg, fm tg c c1) /\ herr_ok c1 /\ (forall e, err = CRSConn e -> e = CEConn) /\ (forall e, err = CRSStream e -> err_special e = false) end).
  { intros e A B. split; [intro; apply fm_refl|]. split; [exact HE|]. split; assumption. }
  destruct (sf_kind fr) eqn:K.
  { destruct (read_stream_data dec_field c fr res K) as (dw & RS & QW & CW & RW). rewrite RS.
    split; [intro tg; apply fm_qm, QW|]. split; [intros e H; apply HE; rewrite <- (qm_herr _ _ _ QW); exact H|].
    split; discriminate. }
  all: unfold cl_read_stream; rewrite K; try (apply TRIV; discriminate).
  - set (cb := ccu_hdrEndStream (ccu_hdrErr (ccu_hdrStatus (ccu_hdrRegularSeen (ccu_hdrFields (ccu_hdrPrev c []) 0) false) 0%Z) None) (flag_has (sf_flags fr) FL_ES)).
    assert (HB : herr_ok cb) by (unfold herr_ok; discriminate).
    pose proof (rhf_shape cb (sf_sid fr) (sf_payload fr) (flag_has (sf_flags fr) FL_EH) res HB) as R.
    destruct (cl_read_header_fragment dec_field cb (sf_sid fr) (sf_payload fr) (flag_has (sf_flags fr) FL_EH) res) as [[[c1 res'] ended] err].
    destruct R as (A & B & C & D). split; [intro tg; apply fm_same; rewrite A; reflexivity|]. repeat split; assumption.
  - apply TRIV; [|discriminate]. intros e0 H. inversion H. reflexivity.
  - pose proof (rhf_shape c (sf_sid fr) (sf_payload fr) (flag_has (sf_flags fr) FL_EH) res HE) as R.
    destruct (cl_read_header_fragment dec_field c (sf_sid fr) (sf_payload fr) (flag_has (sf_flags fr) FL_EH) res) as [[[c1 res'] ended] err].
    destruct R as (A & B & C & D). split; [intro tg; apply fm_same; exact A|]. repeat split; assumption.
Qed.

Lemma disp_feed_shape c fr ok :
  match disp_feed dec_field c fr ok, cl_read_stream dec_field c fr (match ok with Some x => Some (ct_resp x) | None => None end) with
  | (c2, ok2, ended, err2), (c1, res', ended', err) =>
    ended = ended' /\ c2 = match ok2 with Some x2 => cl_ctx_put c1 x2 | None => c1 end /\
    match ok, ok2 with Some x, Some x2 => ct_tag x2 = ct_tag x | None, None => True | _, _ => False end /\
    (err2 = err \/ (err = CRSNone /\ err2 = CRSStream CEMalformed))
  end.
Proof.
  unfold disp_feed.
  destruct (cl_read_stream dec_field c fr (match ok with Some x => Some (ct_resp x) | None => None end)) as [[[c1 res'] ended] err].
  destruct ok as [x|], res' as [r|], err; cbn [ct_gotStatus ctu_resp ctu_gotStatus];
    repeat match goal with |- context [if ?b then _ else _] => destruct b end; cbn; auto 10.
Qed.

(* a frame through dispatch, in two stages: readStream gives c1, dispatch writes the Ctx it holds back and runs its tail *)
Lemma feedmove_cases c fr c3 : herr_ok c -> feedmove fr c c3 ->
  exists ok c1 res' ended err ok2 err2,
    cl_read_stream dec_field c fr (match ok with Some x => Some (ct_resp x) | None => None end) = (c1, res', ended, err) /\
    disp_feed dec_field c fr ok = (match ok2 with Some x2 => cl_ctx_put c1 x2 | None => c1 end, ok2, ended, err2) /\
    c3 = rl_after (disp_tail (match ok2 with Some x2 => cl_ctx_put c1 x2 | None => c1 end) (sf_sid fr) ok2 ended err2) /\
    (forall tg, fm tg c c1) /\ herr_ok c1 /\ (err2 = err \/ (err = CRSNone /\ err2 = CRSStream CEMalformed)) /\
    (forall e, err2 = CRSConn e -> err_special e = false) /\ (forall e, err2 = CRSStream e -> err_special e = false) /\
    match ok, ok2 with
    | Some x, Some x2 =>
      cl_ctx_get c (ct_tag x) = Some x /\ ct_sid x = sf_sid fr /\ ct_tag x2 = ct_tag x /\
      exists x1, cl_ctx_get c1 (ct_tag x) = Some x1 /\ ctx_q x x1 /\ cl_ctx_get (cl_ctx_put c1 x2) (ct_tag x2) = Some x2
    | None, None => True
    | _, _ => False
    end.
Proof.
  intros HE (L & S0 & FS & ok & OK & ->). exists ok.
  pose proof (disp_feed_shape c fr ok) as DS. pose proof (read_stream_shape c fr (match ok with Some x => Some (ct_resp x) | None => None end) HE) as RS.
  destruct (disp_feed dec_field c fr ok) as [[[c2 ok2] ended] err2].
  destruct (cl_read_stream dec_field c fr (match ok with Some x => Some (ct_resp x) | None => None end)) as [[[c1 res'] ended'] err].
  destruct DS as (-> & -> & LK & ER). destruct RS as (F1 & H1 & EC & ES).
  exists c1, res', ended', err, ok2, err2. repeat (split; [first [reflexivity | assumption]|]). split; [|split].
  - intros e H. destruct ER as [->|[_ ->]]; [rewrite (EC e H); reflexivity | discriminate].
  - intros e H. destruct ER as [->|[_ ->]]; [exact (ES e H) | inversion H; reflexivity].
  - destruct ok as [x|], ok2 as [x2|]; try contradiction; [|exact Logic.I]. destruct OK as (F & G & SX).
    split; [exact G|]. split; [exact SX|]. split; [exact LK|].
    pose proof (fm_ctx _ _ _ (F1 None) (ct_tag x) ltac:(discriminate)) as CX. rewrite G in CX.
    destruct (cl_ctx_get c1 (ct_tag x)) as [x1|] eqn:G1; [|contradiction]. exists x1. split; [reflexivity|]. split; [exact CX|].
    rewrite cl_ctx_get_put, N.eqb_refl, LK, G1. reflexivity.
Qed.

(* a frame through dispatch: frame conditions *)
Lemma feedmove_fm c fr c3 : herr_ok c -> feedmove fr c c3 ->
  exists tg, fm tg c c3 /\ herr_ok c3 /\ (forall t, tg = Some t -> exists x, cl_ctx_get c t = Some x /\ ct_sid x <> 0).
Proof.
  intros HE F. pose proof F as (_ & S0 & _).
  destruct (feedmove_cases c fr c3 HE F) as (ok & c1 & res' & ended & err & ok2 & err2 & _ & _ & -> & F1 & H1 & _ & HC & HS & CS).
  destruct ok as [x|], ok2 as [x2|]; try contradiction.
  - destruct CS as (G & SX & LK & x1 & G1 & _ & G2). exists (Some (ct_tag x)).
    destruct (tail_some dec_field (cl_ctx_put c1 x2) (sf_sid fr) x2 ended err2 G2 HC HS) as (FM & RG & _).
    split; [|split].
    + eapply fm_trans; [apply F1|]. eapply fm_trans; [|rewrite <- LK; exact FM].
      assert (T1 : ct_tag x1 = ct_tag x) by (destruct (cl_ctxs_get_In _ _ _ G1); assumption).
      rewrite <- T1. apply (fm_put dec_field); [rewrite T1; exact G1 | congruence].
    + intros e H. apply H1. unfold regs in RG. inversion RG. congruence.
    + intros t E. inversion E; subst t. exists x. split; [exact G | congruence].
  - exists None. pose proof (tail_none c1 (sf_sid fr) ended err2 HC) as [QT _]. split; [|split].
    + eapply fm_trans; [apply F1|]. apply fm_qm. exact QT.
    + intros e H. apply H1. rewrite <- (qm_herr _ _ _ QT). exact H.
    + discriminate.
Qed.

(* the part of the invariant that needs no hypothesis on the server *)
Lemma Pre_qm P c c' : Pre c -> qm P c c' -> Pre c'.
Proof.
  intros [[N1 N2] LE OQ HE] Q. constructor.
  - destruct (qm_inq _ _ _ Q) as [Q1 Q2]. split; [exact (Q2 N1)|]. intros t H. destruct (N2 t (Q1 t H)) as (x & G & S).
    destruct (ctxs_q_get_rev _ _ _ _ (qm_ctx _ _ _ Q) G) as (x' & G' & QX). destruct (ctx_q_view _ _ QX) as (V1 & _). exists x'. split; [exact G' | congruence].
  - intros e H. destruct (err_special e) eqn:S; [|reflexivity]. rewrite <- S. exact (LE e (qm_le _ _ _ Q e H S)).
  - exact (qm_outq _ _ _ Q OQ).
  - intros e H. apply HE. rewrite <- (qm_herr _ _ _ Q). exact H.
Qed.

Lemma Pre_fm tg c c' : Pre c -> fm tg c c' -> herr_ok c' -> (forall t, tg = Some t -> exists x, cl_ctx_get c t = Some x /\ ct_sid x <> 0) -> Pre c'.
Proof.
  intros [[N1 N2] LE OQ HE] F HE' TG. constructor.
  - destruct (fm_inq _ _ _ F) as [Q1 Q2]. split; [exact (Q2 N1)|]. intros t H. destruct (N2 t (Q1 t H)) as (x & G & S).
    assert (NT : tg <> Some t) by (intro E; destruct (TG t E) as (x0 & G0 & S0); congruence).
    pose proof (fm_ctx _ _ _ F t NT) as CX. rewrite G in CX. destruct (cl_ctx_get c' t) as [x'|]; [|contradiction].
    destruct (ctx_q_view _ _ CX) as (V1 & _). exists x'. split; [reflexivity | congruence].
  - intros e H. destruct (err_special e) eqn:S; [|reflexivity]. rewrite <- S. exact (LE e (fm_le _ _ _ F e H S)).
  - exact (fm_outq _ _ _ F OQ).
  - exact HE'.
Qed.

Lemma reg_state_facts c tag x : cl_ctx_get c tag = Some x -> cc_nextID c <= cl_maxStreamID ->
  let R := open_pending (fst (reg_state enc_field c tag x)) (cc_nextID c) tag (ct_req x) in
  cc_nextID R = cc_nextID c + 2 /\ cc_out R = cc_out c /\ cl_wl_live R = cl_wl_live c /\ cc_inQ R = cc_inQ c /\
  cc_lastErr R = cc_lastErr c /\ cc_outQ R = cc_outQ c /\ cc_hdrErr R = cc_hdrErr c /\
  (forall t, cl_ctx_get R t = if t =? tag then Some (ctu_sid (ctu_conn x true) (cc_nextID c)) else cl_ctx_get c t).
Proof.
  intros G LE R. pose proof (reg_ctx_get enc_field c tag x G) as GET. fold R in GET.
  destruct (reg_open_eq enc_field c tag x) as (e' & p & ER). fold R in ER. rewrite (u32_next_id _ LE) in ER. clearbody R. subst R.
  repeat split; try reflexivity. exact GET.
Qed.

Lemma Pre_reg c tag x : Pre c -> cl_ctx_get c tag = Some x -> ~ In tag (cc_inQ c) -> cc_nextID c <= cl_maxStreamID ->
  Pre (open_pending (fst (reg_state enc_field c tag x)) (cc_nextID c) tag (ct_req x)).
Proof.
  intros [[N1 N2] LE OQ HE] G NI LM. destruct (reg_state_facts c tag x G LM) as (E1 & E2 & E3 & E4 & E5 & E6 & E7 & E8).
  constructor.
  - rewrite E4. split; [exact N1|]. intros t H. destruct (N2 t H) as (y & Gy & Sy). exists y. rewrite E8.
    replace (t =? tag) with false by (assert (t <> tag) by (intro; subst; contradiction); lia). split; assumption.
  - rewrite E5. exact LE.
  - rewrite E6. exact OQ.
  - rewrite E7. exact HE.
Qed.

Lemma Pre_mv1 c c' : Pre c -> mv1 c c' -> Pre c'.
Proof.
  intros P M. destruct M as [c c' Q|c tag rq armed G|c tag x G S0 NI|c|c tag x G S0 NI LE L|c tag x c' G S0 NI LE Q L F|c tag x e G E].
  - exact (Pre_qm _ _ _ P Q).
  - destruct P as [[N1 N2] LE OQ HE]. constructor; try assumption. split; [exact N1|]. intros t H. destruct (N2 t H) as (y & Gy & Sy).
    exists y. split; [|exact Sy]. unfold cl_ctx_get in *. cbn. rewrite cl_ctxs_get_app, Gy. reflexivity.
  - destruct P as [[N1 N2] LE OQ HE]. constructor; try assumption. cbn. split; [apply NoDup_snoc; assumption|].
    intros t H. apply in_app_or in H. destruct H as [H|[<-|[]]]; [exact (N2 t H) | exists x; split; assumption].
  - destruct P as [N12 LE OQ HE]. constructor; assumption.
  - pose proof (Pre_reg c tag x P G NI LE) as PR. unfold reg_state in *.
    destruct (cl_request_block enc_field (cc_enc (ccu_nextID c (u32 (cc_nextID c + 2)))) (ct_req x)) as [blk e']. cbn [fst] in *.
    eapply Pre_qm; [exact PR | apply (qm_note q0); reflexivity].
  - exact (Pre_qm _ _ _ (Pre_reg c tag x P G NI LE) Q).
  - cbv zeta. eapply Pre_qm; [|apply (qm_note (fun _ => true)); reflexivity].
    eapply Pre_qm; [exact P|]. apply (qm_ctx_put q0 _ x).
    + cbn. destruct (cl_ctxs_get_In _ _ _ G) as [_ T]. rewrite T. exact G.
    + repeat split; auto. cbn. discriminate.
Qed.


Definition hdr_ids (tr : list coutev) : list N :=
  flat_map (fun o => match o with COHeaders sid _ _ => [sid] | _ => [] end) tr.

Lemma hdr_ids_app a b : hdr_ids (a ++ b) = hdr_ids a ++ hdr_ids b.
Proof. apply flat_map_app. Qed.

Lemma hdr_ids_q0 (P : coutev -> bool) l : (forall o, P o = true -> q1 o = true) -> forallb P l = true -> hdr_ids (rev l) = [].
Proof.
  intros HP F. rewrite forallb_forall in F. apply flat_map_nil. intros o H. apply in_rev in H.
  pose proof (HP o (F o H)) as Q. destruct o; try reflexivity. discriminate.
Qed.

Definition odds (k : nat) : list N := map (fun i => 2 * N.of_nat i + 1) (seq 0 k).
Lemma odds_S k : odds (S k) = odds k ++ [2 * N.of_nat k + 1].
Proof. unfold odds. rewrite seq_S, map_app. reflexivity. Qed.

Definition IdInv c : Prop :=
  exists k, hdr_ids (rev (cc_out c)) = odds k /\ (cl_wl_live c = true -> cc_nextID c = 2 * N.of_nat k + 1) /\
            (2 * N.of_nat k <= cl_maxStreamID + 1).

(* a move that writes no HEADERS, keeps nextID and revives nothing *)
Lemma IdInv_keep c c' (P : coutev -> bool) : (forall o, P o = true -> q1 o = true) ->
  (exists new, cc_out c' = new ++ cc_out c /\ forallb P new = true) -> cc_nextID c' = cc_nextID c ->
  (cl_wl_live c' = true -> cl_wl_live c = true) -> IdInv c -> IdInv c'.
Proof.
  intros HP (new & E & F) NX WL (k & A & B & C). exists k. split; [|split; [|exact C]].
  - rewrite E, rev_app_distr, hdr_ids_app, A, (hdr_ids_q0 P new HP F), app_nil_r. reflexivity.
  - intro L. rewrite NX. exact (B (WL L)).
Qed.

Lemma IdInv_qm P c c' : (forall o, P o = true -> q1 o = true) -> qm P c c' -> IdInv c -> IdInv c'.
Proof. intros HP Q. apply (IdInv_keep c c' P HP); [exact (qm_out _ _ _ Q) | exact (qm_next _ _ _ Q) | exact (qm_wl _ _ _ Q)]. Qed.

Lemma IdInv_mv1 c c' : IdInv c -> mv1 c c' -> IdInv c'.
Proof.
  intros I M. destruct M as [c c' Q|c tag rq armed G|c tag x G S0 NI|c|c tag x G S0 NI LE L|c tag x c' G S0 NI LE Q L F|c tag x e G E].
  - exact (IdInv_qm q1 _ _ (fun o H => H) Q I).
  - destruct I as (k & A & B & C). exists k. repeat split; assumption.
  - destruct I as (k & A & B & C). exists k. repeat split; assumption.
  - destruct I as (k & A & B & C). exists k. repeat split; assumption.
  - destruct (reg_state_facts c tag x G LE) as (E1 & E2 & E3 & _). unfold reg_state in *.
    destruct (cl_request_block enc_field (cc_enc (ccu_nextID c (u32 (cc_nextID c + 2)))) (ct_req x)) as [blk e']. cbn [fst] in *.
    destruct I as (k & A & B & C). specialize (B L). exists (S k). split; [|split].
    + cbn [cl_note cc_out ccu_out rev]. rewrite E2, hdr_ids_app, A, odds_S. cbn. rewrite B. reflexivity.
    + intros _. cbn [cl_note cc_nextID ccu_out]. rewrite E1, B. lia.
    + unfold cl_maxStreamID in *. lia.
  - destruct (reg_state_facts c tag x G LE) as (E1 & E2 & E3 & _).
    destruct I as (k & A & B & C). exists k. split; [|split; [|exact C]].
    + destruct (qm_out _ _ _ Q) as (new & EO & FO). rewrite EO, rev_app_distr, hdr_ids_app, E2, A, (hdr_ids_q0 q1 new (fun o H => H) FO), app_nil_r. reflexivity.
    + intro L'. rewrite L in L'. discriminate.
  - destruct I as (k & A & B & C). exists k. split; [|split; [|exact C]].
    + cbn. rewrite hdr_ids_app, A. cbn. rewrite app_nil_r. reflexivity.
    + exact B.
Qed.

Lemma PreId_mvs tk c c' : mvs tk c c' -> Pre c -> IdInv c -> Pre c' /\ IdInv c'.
Proof.
  intro M. induction M as [c|tk c c1 c2 M1 M IH|fr c c1 c2 F M IH]; intros P I.
  - split; assumption.
  - apply IH; [exact (Pre_mv1 _ _ P M1) | exact (IdInv_mv1 _ _ I M1)].
  - destruct (feedmove_fm c fr c1 (p_herr _ P) F) as (tg & FM & HE' & TG). apply IH.
    + exact (Pre_fm tg _ _ P FM HE' TG).
    + apply (IdInv_keep c c1 q2 q2_q1); [exact (fm_out _ _ _ FM) | exact (fm_next _ _ _ FM) | exact (fm_wl _ _ _ FM) | exact I].
Qed.

Lemma Pre_init h0 first : Pre (cl_init enc_set_max h0 first) /\ IdInv (cl_init enc_set_max h0 first).
Proof.
  unfold cl_init. destruct (cl_settings_deserialize false first) as [st|]; (split; [|exists 0%nat; cbn; repeat split; unfold cl_maxStreamID; lia]);
    constructor; cbn; try discriminate; try reflexivity; try (split; [constructor | intros t []]).
  intros e H. inversion H. reflexivity.
Qed.

Variable h0 : hstate.
Variable first : bytes.
Notation run := (cl_run dec_field enc_field enc_set_max cfg h0 first).

Theorem PreId_run evs : Pre (run evs) /\ IdInv (run evs).
Proof.
  apply (cl_run_ind _ dec_field enc_field enc_set_max cfg h0 first (fun c => Pre c /\ IdInv c)).
  - apply Pre_init.
  - intros c e [P I]. exact (PreId_mvs _ _ _ (step_mvs dec_field enc_field enc_set_max cfg c e P) P I).
Qed.

(* C02 (a): the HEADERS frames of a run carry the stream ids 1, 3, 5, ..., each at most 2^31-1 *)
Theorem stream_ids evs :
  exists k, hdr_ids (cl_trace (run evs)) = odds k /\ (2 * N.of_nat k <= cl_maxStreamID + 1) /\
            (cl_wl_live (run evs) = true -> cc_nextID (run evs) = 2 * N.of_nat k + 1).
Proof. destruct (PreId_run evs) as [_ (k & A & B & C)]. exists k. unfold cl_trace. repeat split; assumption. Qed.

(* ErrNoMoreStreamIDs is dead code: CanOpenStream has refused first (ErrNotAvailableStreams, retryable) *)
Lemma write_request_no_ids c tag : snd (cl_write_request enc_field enc_set_max c tag) <> CWRErr CENoIDs.
Proof using enc_field enc_set_max.
  unfold cl_write_request. destruct (cl_can_open_stream c) eqn:CO; cbn [negb]; [|discriminate].
  destruct (cl_ctx_get c tag) as [x|]; [|discriminate]. destruct (ct_lckStuck x); [discriminate|]. destruct (ct_done x); [discriminate|].
  set (c1 := if negb (cc_encTableSize c =? cc_encTableSeen c) then _ else c).
  assert (NX : cc_nextID c1 = cc_nextID c) by (subst c1; destruct (negb (cc_encTableSize c =? cc_encTableSeen c)); reflexivity).
  unfold cl_can_open_stream in CO. apply andb_true_iff in CO. destruct CO as [CO _]. apply andb_true_iff in CO. destruct CO as [_ CO].
  replace (cl_maxStreamID <? cc_nextID c1) with false by (clear - CO NX; lia).
  destruct (cl_request_block enc_field _ (ct_req x)) as [blk e'].
  match goal with |- context [if ?b then (cl_take_req_count _ _, CWRErr CENoStreams) else _] => destruct b end; [discriminate|].
  match goal with |- context [if cl_can_write ?a then _ else _] => destruct (cl_can_write a) end.
  - destruct (match cq_body (ct_req x) with CStream _ _ => true | CBuf b => negb (cl_is_nil b) end); [|discriminate].
    match goal with |- context [cl_send_pending ?f ?a ?i] => destruct (cl_send_pending f a i) as [c8 []] end; discriminate.
  - match goal with |- context [cl_delete_pending 1 [] ?a ?i] => destruct (cl_delete_pending 1 [] a i) as [c8 []] end; discriminate.
Qed.

End Ids.
