(* Proofs/SrvFlowEs.v - C06 framing: at most one END_STREAM per stream in the server's output, and no HEADERS or
   DATA on the stream after it. *)
From H2V Require Import Base.Bytes Base.MachineInt Base.Result Gen.GenConsts Impl.ServerConn Proofs.SrvBase
  Spec.FlowLedger Proofs.SrvFlowLedger Proofs.SrvFlowDefs Proofs.SrvFlowSend Proofs.SrvFlowEff Proofs.SrvFlowSafe
  Proofs.SrvFlowSafeB Proofs.SrvFlowSafeC Proofs.SrvFlowCDecomp.
From Coq Require Import ZArith Lia ZifyN ZifyNat ZifyBool List.
Import ListNotations.
Local Open Scope N_scope.
Set Default Proof Using "Type".

(* the stream a response frame (HEADERS or DATA) is on, and whether it carries END_STREAM *)
Definition frame_sid (o : outev) : option N :=
  match strip o with OHeaders s _ _ | OData s _ _ => Some s | _ => None end.
Definition is_es (o : outev) : bool :=
  match strip o with OHeaders _ es _ | OData _ es _ => es | _ => false end.

(* `out` is newest first, as in sc_out *)
Definition ended (out : list outev) (sid : N) : Prop :=
  exists o, In o out /\ frame_sid o = Some sid /\ is_es o = true.

Fixpoint es_ok (out : list outev) : Prop :=
  match out with
  | [] => True
  | o :: t => es_ok t /\ forall sid, frame_sid o = Some sid -> ~ ended t sid
  end.

Definition noframe_out (o : outev) : Prop := frame_sid o = None.

Lemma quiet_noframe o : quiet_out o -> noframe_out o.
Proof. unfold quiet_out, noframe_out, frame_sid. destruct (strip o); auto; contradiction. Qed.
Lemma winupd_noframe o : winupd_out o -> noframe_out o.
Proof. unfold winupd_out, noframe_out, frame_sid. destruct (strip o); auto; contradiction. Qed.

Lemma ended_app a b sid : ended (a ++ b) sid <-> ended a sid \/ ended b sid.
Proof.
  unfold ended. split.
  - intros (o & Hin & H). apply in_app_or in Hin. destruct Hin; [left | right]; eauto.
  - intros [(o & Hin & H)|(o & Hin & H)]; exists o; (split; [apply in_or_app; auto | assumption]).
Qed.

Lemma ended_noframe new sid : Forall noframe_out new -> ~ ended new sid.
Proof.
  intros F (o & Hin & H & _). rewrite Forall_forall in F. specialize (F o Hin). unfold noframe_out in F. congruence.
Qed.

Lemma ended_ext_noframe new out sid : Forall noframe_out new -> (ended (new ++ out) sid <-> ended out sid).
Proof.
  intro F. rewrite ended_app. split; [intros [H|H]; [exfalso; eapply ended_noframe; eassumption | assumption] | auto].
Qed.

Lemma es_ok_ext_noframe new out : Forall noframe_out new -> es_ok out -> es_ok (new ++ out).
Proof.
  induction 1 as [|o l Ho _ IH]; intro H; [assumption|]. cbn [app es_ok]. split; [auto|].
  intros sid Hs. unfold noframe_out in Ho. congruence.
Qed.

(* the shape of the final theorem: of two response frames on one stream, the earlier one has no END_STREAM *)
Lemma es_ok_split out : es_ok out -> forall a o2 b o1 d sid, out = a ++ o2 :: b ++ o1 :: d ->
  frame_sid o1 = Some sid -> frame_sid o2 = Some sid -> is_es o1 = false.
Proof.
  intros H a. revert out H. induction a as [|x a IH]; intros out H o2 b o1 d sid E H1 H2; subst out.
  - cbn [app es_ok] in H. destruct H as [_ H]. destruct (is_es o1) eqn:Es; [|reflexivity].
    exfalso. apply (H sid H2). exists o1. split; [apply in_or_app; right; left; reflexivity | auto].
  - cbn [app es_ok] in H. destruct H as [H _]. eapply IH; eauto.
Qed.

(* the trace after some frames have been queued on stream sid; fin: END_STREAM may have been among them *)
Definition EsStep (sid : N) (out out' : list outev) (fin : bool) : Prop :=
  es_ok out' /\ (forall sid', sid' <> sid -> (ended out' sid' <-> ended out sid')) /\ (fin = false -> ~ ended out' sid).

Lemma EsStep_refl sid out fin : es_ok out -> ~ ended out sid -> EsStep sid out out fin.
Proof. intros H N. split; [assumption|]. split; [tauto | auto]. Qed.

Lemma EsStep_trans sid a b c fin : EsStep sid a b false -> EsStep sid b c fin -> EsStep sid a c fin.
Proof.
  intros (A1 & A2 & A3) (B1 & B2 & B3). split; [assumption|]. split; [|assumption].
  intros sid' NE. rewrite (B2 _ NE). apply A2. assumption.
Qed.

Lemma EsStep_fin sid a b fin : EsStep sid a b fin -> EsStep sid a b true.
Proof. intros (A1 & A2 & _). split; [assumption|]. split; [assumption | discriminate]. Qed.

Lemma EsStep_noframe sid out new fin : Forall noframe_out new -> es_ok out -> ~ ended out sid ->
  EsStep sid out (new ++ out) fin.
Proof.
  intros F H N. split; [apply es_ok_ext_noframe; assumption|].
  split; [intros; apply ended_ext_noframe; assumption|]. intros _. rewrite ended_ext_noframe; assumption.
Qed.

(* one frame on sid: queued as it is, queued late, or dropped *)
Lemma EsStep_frame sid out o pre : frame_sid o = Some sid ->
  (pre = [] \/ pre = [o] \/ pre = [OLate o]) -> es_ok out -> ~ ended out sid ->
  EsStep sid out (pre ++ out) (is_es o).
Proof.
  intros Hs Hpre H N. destruct Hpre as [->|Hpre]; [apply EsStep_refl; assumption|].
  assert (exists o', pre = [o'] /\ frame_sid o' = Some sid /\ is_es o' = is_es o) as (o' & -> & Hs' & He').
  { destruct Hpre as [->| ->]; eexists; split; try reflexivity; auto. }
  cbn [app]. split; [cbn [es_ok]; split; [assumption|]; intros sid0 E; rewrite Hs' in E; inversion E; subst; assumption|].
  split.
  - intros sid' NE. change (o' :: out) with ([o'] ++ out). rewrite ended_app. split; [|auto].
    intros [(x & [<-|[]] & Hx & _)|Hx]; [congruence | assumption].
  - intros Ef. change (o' :: out) with ([o'] ++ out). rewrite ended_app.
    intros [(x & [<-|[]] & _ & Hx)|Hx]; [congruence | contradiction].
Qed.

Section Es.
Variable hstate : Type.
Variable dec_field : hstate -> N -> bytes -> dec_res hstate.
Variable enc_field : hstate -> bytes -> bytes -> bool -> bytes * hstate.
Variable enc_set_max : hstate -> N -> hstate.
Variable cfg : config.
Notation sconn := (sconn hstate).
Implicit Types c : sconn.

Lemma emit_EsStep c sid o : frame_sid o = Some sid -> es_ok (sc_out c) -> ~ ended (sc_out c) sid ->
  EsStep sid (sc_out c) (sc_out (emit c o)) (is_es o).
Proof.
  intros Hs H N. destruct (emit_cases _ c o) as (pre & -> & Hpre). apply EsStep_frame; assumption.
Qed.

Lemma SDL_es sid c n r k : SDL sid c n r k -> es_ok (sc_out c) -> ~ ended (sc_out c) sid ->
  EsStep sid (sc_out c) (sc_out (fst (fst (fst r)))) (snd (fst r)).
Proof.
  induction 1; intros HO N; cbn [fst snd].
  - apply EsStep_refl; assumption.
  - apply EsStep_refl; assumption.
  - unfold write_reset. destruct (emit_cases _ c (ORst sid c_InternalError)) as (pre & -> & Hpre).
    apply EsStep_noframe; try assumption. destruct Hpre as [->|[->| ->]]; repeat constructor.
  - destruct (sn_pendingEnd n1); [|apply EsStep_refl; assumption].
    apply (emit_EsStep c sid (OData sid true [])); auto.
  - apply EsStep_refl; assumption.
  - unfold sd_c2. sc_cbn. apply EsStep_fin with (fin := is_es (OData sid (sd_es c n1) (sd_chunk c n1))).
    apply emit_EsStep; auto.
  - assert (E1 : EsStep sid (sc_out c) (sc_out (sd_c2 c sid n1)) false).
    { unfold sd_c2. sc_cbn. replace false with (is_es (OData sid (sd_es c n1) (sd_chunk c n1))) by (cbn; assumption).
      apply emit_EsStep; auto. }
    eapply EsStep_trans; [exact E1|]. apply IHSDL; [apply E1 | apply E1; reflexivity].
Qed.

(* X: ids whose table entry may be that of a stream that has ended (it is about to be closed) *)
Definition EsX (X : N -> Prop) c : Prop :=
  es_ok (sc_out c) /\
  (forall s, In s (sc_strms c) -> ~ X (st_id s) -> ~ ended (sc_out c) (st_id s)) /\
  (forall sid, sc_highestID c < sid -> ~ ended (sc_out c) sid).
Notation Es := (EsX (fun _ => False)).

Lemma EsX_weaken (X Y : N -> Prop) c : (forall i, X i -> Y i) -> EsX X c -> EsX Y c.
Proof. intros H (A & B & C). split; [assumption|]. split; [|assumption]. intros s Hs NY. apply B; auto. Qed.

Lemma EsX_ext_ids X c c' : (forall s, In s (sc_strms c') -> In (st_id s) (map st_id (sc_strms c))) ->
  sc_highestID c <= sc_highestID c' -> out_ext noframe_out c c' -> EsX X c -> EsX X c'.
Proof.
  intros HS HH (new & E & F) (A & B & C). unfold EsX. rewrite E. split; [apply es_ok_ext_noframe; assumption|]. split.
  - intros s Hs NX. rewrite ended_ext_noframe by assumption. apply HS in Hs. apply in_map_iff in Hs.
    destruct Hs as (s0 & E0 & Hs0). rewrite <- E0. apply B; [assumption | rewrite E0; assumption].
  - intros sid H. rewrite ended_ext_noframe by assumption. apply C. flia.
Qed.

Lemma EsX_ext X c c' : (forall s, In s (sc_strms c') -> In s (sc_strms c)) -> sc_highestID c <= sc_highestID c' ->
  out_ext noframe_out c c' -> EsX X c -> EsX X c'.
Proof. intros HS. apply EsX_ext_ids. intros s Hs. apply in_map, HS, Hs. Qed.

Lemma out_quiet_noframe c c' : out_ext quiet_out c c' -> out_ext noframe_out c c'.
Proof. apply out_ext_weaken. apply quiet_noframe. Qed.

Lemma not_ended_ext c c' sid : out_ext noframe_out c c' -> ~ ended (sc_out c) sid -> ~ ended (sc_out c') sid.
Proof. intros (new & E & F) H. rewrite E, ended_ext_noframe; assumption. Qed.

Lemma EsX_Quiet X c c' : Quiet c c' -> EsX X c -> EsX X c'.
Proof.
  intros Q. apply EsX_ext; [rewrite (q_strms _ _ _ Q); auto | apply Q | apply out_quiet_noframe, Q].
Qed.
Lemma EsX_Closes X c c' : Closes c c' -> EsX X c -> EsX X c'.
Proof.
  intros Q. apply EsX_ext; [apply Dels_In, Q | rewrite (cl_highestID _ _ _ Q); flia | apply out_quiet_noframe, Q].
Qed.
Lemma EsX_Recv X c c' : Recv c c' -> EsX X c -> EsX X c'.
Proof.
  intros Q. apply EsX_ext; [rewrite (rv_strms _ _ _ Q); auto | rewrite (rv_highestID _ _ _ Q); flia|].
  eapply out_ext_weaken; [apply winupd_noframe | apply Q].
Qed.

Lemma EsX_put X c x : EsX X c -> ~ ended (sc_out c) (st_id x) -> EsX X (put c x).
Proof.
  intros (A & B & C) N. split; [assumption|]. split; [|assumption]. unfold put. sc_cbn.
  intros s Hs NX. apply strms_put_In in Hs. destruct Hs as [->|Hs]; auto.
Qed.

Lemma EsX_close X c s : NoDup (map st_id (sc_strms c)) -> EsX X c -> (forall i, X i -> i = st_id s) ->
  Es (close_stream c s).
Proof.
  intros ND E HX.
  assert (E' : EsX X (close_stream c s)) by (eapply EsX_Closes; [apply Closes_close_stream | exact E]).
  destruct E' as (A & B & C). split; [assumption|]. split; [|assumption].
  intros s0 Hs _. apply B; [assumption|]. rewrite sc_strms_close_stream in Hs.
  intro Hx. apply HX in Hx. eapply strms_del_not_In; eassumption.
Qed.

Lemma send_data_es X c s : EsX X c -> ~ ended (sc_out c) (st_id s) -> st_id s <= sc_highestID c ->
  let r := send_data c s in
  EsX (fun i => X i \/ i = st_id s) (fst (fst r)) /\ (snd r = false -> ~ ended (sc_out (fst (fst r))) (st_id s)).
Proof.
  intros (A & B & C) N Hh. cbv zeta. unfold send_data.
  destruct (send_data_loop_SDL _ (st_id s) (send_data_fuel (get_snd s)) c (get_snd s)) as [k H].
  pose proof (SDL_Frame _ _ _ _ _ _ H) as (F & E1 & E2 & E3 & E4).
  pose proof (SDL_es _ _ _ _ _ H A N) as (A' & B' & C').
  destruct (send_data_loop (send_data_fuel (get_snd s)) c (st_id s) (get_snd s)) as [[[c1 n1] done] wr].
  cbn [fst snd] in *. split; [|assumption]. split; [assumption|]. split.
  - rewrite E1. intros s0 Hs NX. rewrite B' by tauto. apply B; tauto.
  - rewrite E4. intros sid Hs. rewrite B' by flia. auto.
Qed.

Lemma EsX_step X c c' sid fin : EsX X c -> EsStep sid (sc_out c) (sc_out c') fin ->
  sc_strms c' = sc_strms c -> sc_highestID c' = sc_highestID c -> sid <= sc_highestID c ->
  EsX (fun i => X i \/ i = sid) c' /\ (fin = false -> EsX X c').
Proof.
  intros (A & B & C) (A' & B' & C') E1 E4 Hh. split.
  - split; [assumption|]. split.
    + rewrite E1. intros s0 Hs NX. rewrite B' by tauto. apply B; tauto.
    + rewrite E4. intros sid0 Hs. rewrite B' by flia. auto.
  - intro Ef. split; [assumption|]. split.
    + rewrite E1. intros s0 Hs NX. destruct (N.eq_dec (st_id s0) sid) as [->|NE]; [auto|]. rewrite B' by assumption. auto.
    + rewrite E4. intros sid0 Hs. rewrite B' by flia. auto.
Qed.

Lemma finish_request_es X c s r : EsX X c -> ~ ended (sc_out c) (st_id s) -> st_id s <= sc_highestID c ->
  let res := finish_request enc_field c s r in
  EsX (fun i => X i \/ i = st_id s) (fst (fst res)) /\ (snd res = false -> ~ ended (sc_out (fst (fst res))) (st_id s)).
Proof.
  intros E N Hh. cbv zeta. unfold finish_request.
  destruct (response_block enc_field (sc_enc c) r) as [blk e'].
  set (hb := match rs_body r with BBuffered [] => false | _ => true end).
  set (c1 := emit (upd_enc c e') (OHeaders (st_id s) (negb hb) blk)).
  assert (S1 : EsStep (st_id s) (sc_out c) (sc_out c1) (negb hb)).
  { subst c1. apply (emit_EsStep (upd_enc c e') (st_id s) (OHeaders (st_id s) (negb hb) blk)); [reflexivity | apply E | exact N]. }
  destruct (EsX_step X c c1 (st_id s) (negb hb) E S1) as [E1 E1']; try assumption;
    try (subst c1; rewrite ?sc_strms_emit, ?sc_highestID_emit; reflexivity).
  destruct (negb hb) eqn:HB.
  - cbn [fst snd]. split; [exact E1 | discriminate].
  - specialize (E1' eq_refl).
    match goal with |- context [send_data c1 ?x] => set (s1 := x) end.
    assert (I1 : st_id s1 = st_id s) by reflexivity.
    change (st_id s) with (st_id s1). apply (send_data_es X c1 s1 E1').
    + change (st_id s1) with (st_id s). apply S1. reflexivity.
    + change (st_id s1) with (st_id s). subst c1. rewrite sc_highestID_emit. exact Hh.
Qed.

(* flushStreams: streams that have been finished stay in the table until the end of the pass *)
Lemma flush_loop_es ids : forall c done L, SimX hstate None c L -> NoDup ids -> (forall i, In i ids -> ~ In i done) ->
  EsX (fun i => In i done) c ->
  EsX (fun i => In i (snd (flush_loop c ids done))) (fst (flush_loop c ids done)).
Proof.
  induction ids as [|id t IH]; intros c done L S ND Hd E; cbn [flush_loop]; [exact E|].
  inversion ND as [|? ? NIt NDt]; subst.
  assert (Hd' : forall i, In i t -> ~ In i done) by (intros; apply Hd; right; assumption).
  destruct (strms_search (sc_strms c) id) as [s|] eqn:F; [|eapply IH; eassumption].
  destruct (st_responded s && negb (st_handlerRunning s) && has_more_to_send s); [|eapply IH; eassumption].
  apply strms_search_In in F. destruct F as [Hin Hid].
  assert (Hh : held L s) by (apply (sim_strm _ _ _ _ S); [assumption | discriminate]).
  assert (Hle : st_id s <= sc_lastID c) by (apply (sim_le _ _ _ _ S); assumption).
  assert (Hhi : st_id s <= sc_highestID c) by (pose proof (sim_hi _ _ _ _ S); flia).
  assert (N : ~ ended (sc_out c) (st_id s)).
  { apply (proj1 (proj2 E)); [assumption|]. rewrite Hid. apply Hd. left. reflexivity. }
  destruct (send_data_led _ None c s L S (or_introl eq_refl) Hh Hle) as (L1 & Led & S1 & H1 & I1 & Lid).
  pose proof (send_data_es _ c s E N Hhi) as [E1 N1].
  destruct (send_data c s) as [[c1 s1] fin]. cbn [fst snd] in *.
  assert (S2 : SimX hstate None (put c1 s1) L1).
  { eapply SimX_put; [exact S1 | right; congruence | exact H1 | rewrite I1, Lid; exact Hle]. }
  eapply IH; [exact S2 | assumption | |].
  - intros i Hi. destruct fin; [|auto]. intro Hx. apply in_app_or in Hx. destruct Hx as [Hx|[<-|[]]]; [eapply Hd'; eassumption | contradiction].
  - destruct fin.
    + (* finished: id joins the list *)
      assert (E2 : EsX (fun i => In i (done ++ [id])) c1).
      { eapply EsX_weaken; [|exact E1]. intros i [Hi| ->]; apply in_or_app; [left; assumption | right; left; congruence]. }
      destruct E2 as (A & B & C). split; [assumption|]. split; [|assumption]. unfold put. sc_cbn.
      intros s0 Hs NX. apply strms_put_In in Hs. destruct Hs as [->|Hs]; [|auto].
      exfalso. apply NX. apply in_or_app. right. left. congruence.
    + (* not finished: nothing ended on it *)
      specialize (N1 eq_refl).
      assert (E2 : EsX (fun i => In i done) c1).
      { destruct E1 as (A & B & C). split; [assumption|]. split; [|assumption].
        intros s0 Hs NX. destruct (N.eq_dec (st_id s0) (st_id s)) as [->|NE]; [assumption|]. apply B; [assumption | tauto]. }
      apply EsX_put; [exact E2|]. rewrite I1. exact N1.
Qed.

Lemma flush_streams_es c L : SimX hstate None c L -> Es c -> Es (flush_streams c).
Proof.
  intros S E. unfold flush_streams.
  pose proof (flush_loop_es (map st_id (sc_strms c)) c [] L S (sim_nodup _ _ _ _ S)) as E1.
  destruct (flush_loop_led _ (map st_id (sc_strms c)) c [] L S) as (L' & _ & S').
  destruct (flush_loop c (map st_id (sc_strms c)) []) as [c1 done]. cbn [fst snd] in *.
  assert (E2 : EsX (fun i => In i done) c1).
  { apply E1; [intros i _ []|]. eapply EsX_weaken; [|exact E]. intros i []. }
  pose proof (EsX_Closes _ _ _ (close_all_Closes _ done c1) E2) as (A & B & C).
  split; [assumption|]. split; [|assumption]. intros s Hs _. apply B; [assumption|].
  apply (close_all_notin _ done c1 (sim_nodup _ _ _ _ S') s Hs).
Qed.

Lemma after_frame_es ex c s fr wc L X :
  SimX hstate ex c L -> (ex = None \/ ex = Some (st_id s)) -> held L s -> st_id s <= sc_lastID c ->
  EsX X c -> (forall i, X i -> i = st_id s) -> ~ ended (sc_out c) (st_id s) ->
  Es (fst (after_frame cfg c s fr wc)).
Proof.
  intros S Hex Hh Hid E HX N. destruct (after_frame_cases _ cfg c s fr wc) as (c2 & s2 & M & EQ).
  destruct (handle_state_eff fr s) as ((I1 & W1 & _) & _).
  set (s1 := handle_state fr s) in *.
  assert (H1 : held L s1) by (eapply held_same_win; eassumption).
  assert (Hhi : st_id s <= sc_highestID c) by (pose proof (sim_hi _ _ _ _ S); flia).
  assert (M' : exists L2,
             SimX hstate (Some (st_id s)) c2 L2 /\ held L2 s2 /\ st_id s2 = st_id s /\ sc_lastID c2 = sc_lastID c /\
             EsX (fun i => X i \/ i = st_id s) c2 /\
             (sstate_eqb (st_state s2) SClosed = false -> ~ ended (sc_out c2) (st_id s))).
  { destruct M as [s0 _ _|s0 _ _|c1 s3 fin _ _ SD|_ _].
    - exists L. split; [eapply SimX_Quiet; [apply Quiet_write_reset | eapply SimX_some; eassumption]|].
      split; [eapply held_same_win; [| |exact H1]; reflexivity|]. split; [exact I1|]. split; [apply sc_lastID_write_reset|].
      split; [eapply EsX_weaken; [|eapply EsX_Quiet; [apply Quiet_write_reset | exact E]]; auto|].
      intros _. cbn [s0 st_id set_flags]. rewrite I1.
      eapply not_ended_ext; [apply out_quiet_noframe, (q_out _ _ _ (Quiet_write_reset _ c (st_id s) c_ProtocolError)) | exact N].
    - exists L. split; [eapply SimX_Quiet; [apply (Quiet_note _ c (ODispatch _ _) I) | eapply SimX_some; eassumption]|].
      split; [eapply held_same_win; [| |exact H1]; reflexivity|]. split; [exact I1|]. split; [reflexivity|].
      split; [eapply EsX_weaken; [|eapply EsX_Quiet; [apply (Quiet_note _ c (ODispatch _ _) I) | exact E]]; auto|].
      intros _. eapply not_ended_ext; [apply out_quiet_noframe, (q_out _ _ _ (Quiet_note _ c (ODispatch _ _) I)) | exact N].
    - destruct (send_data_led _ ex c s1 L S) as (L1 & Led & S1 & Hh1 & Id1 & Lid); rewrite ?I1; try assumption.
      pose proof (send_data_es X c s1 E) as R. rewrite I1 in R. destruct (R N Hhi) as [E1 N1]. clear R.
      rewrite SD in *. cbn [fst snd] in *. rewrite I1 in *.
      exists L1. split; [exact S1|].
      split; [destruct fin; [eapply held_same_win; [| |exact Hh1]; reflexivity | exact Hh1]|].
      split; [destruct fin; exact Id1|]. split; [exact Lid|]. split; [exact E1|].
      destruct fin; [cbn; discriminate | intros _; apply N1; reflexivity].
    - exists L. split; [eapply SimX_some; eassumption|].
      split; [exact H1|]. split; [exact I1|]. split; [reflexivity|].
      split; [eapply EsX_weaken; [|exact E]; auto|]. intros _. exact N. }
  destruct M' as (L2 & S2 & H2 & I2 & Lid & E2 & N2).
  assert (S3 : SimX hstate None (put c2 s2) L2).
  { eapply SimX_put; [exact S2 | right; congruence | exact H2 | rewrite I2, Lid; exact Hid]. }
  assert (G : Es (put_close c2 s2)).
  { unfold put_close. destruct (sstate_eqb (st_state s2) SClosed).
    - apply (EsX_close (fun i => X i \/ i = st_id s)); [apply (sim_nodup _ _ _ _ S3)| |].
      + destruct E2 as (A & B & C). split; [exact A|]. split; [|exact C]. unfold put. sc_cbn.
        intros s0 Hs NX. apply strms_put_In in Hs. destruct Hs as [->|Hs]; [exfalso; apply NX; right; exact I2 | auto].
      + intros i [Hi| ->]; [rewrite I2; auto | congruence].
    - specialize (N2 eq_refl).
      assert (E3 : EsX X c2).
      { destruct E2 as (A & B & C). split; [exact A|]. split; [|exact C].
        intros s0 Hs NX. destruct (N.eq_dec (st_id s0) (st_id s)) as [->|NE]; [exact N2 | apply B; tauto]. }
      assert (E4 : EsX X (put c2 s2)) by (apply EsX_put; [exact E3 | rewrite I2; exact N2]).
      destruct E4 as (A & B & C). split; [exact A|]. split; [|exact C].
      intros s0 Hs _. destruct (N.eq_dec (st_id s0) (st_id s)) as [->|NE]; [exact N2|].
      apply B; [exact Hs|]. intro Hx. apply HX in Hx. contradiction. }
  destruct EQ as [-> | ->]; [exact G | eapply EsX_Quiet; [apply Quiet_brk | exact G]].
Qed.

Definition EInv c : Prop := (sc_sl_done c = true /\ es_ok (sc_out c)) \/ Es c.

Lemma es_ok_quiet c c' : out_ext quiet_out c c' -> es_ok (sc_out c) -> es_ok (sc_out c').
Proof. intros O H. destruct (out_quiet_noframe _ _ O) as (new & -> & F). apply es_ok_ext_noframe; assumption. Qed.

Lemma EInv_es_ok c : EInv c -> es_ok (sc_out c).
Proof. intros [[_ H]|H]; [exact H | apply H]. Qed.

Lemma Origin_es c fr c1 s L : SimX hstate None c L -> Origin c fr c1 s -> Es c ->
  Es c1 /\ ~ ended (sc_out c1) (st_id s).
Proof.
  intros S O E. destruct O as [s LE F | KH FD HI LA].
  - split; [exact E|]. apply strms_search_In in F. apply (proj1 (proj2 E)); [apply F | auto].
  - destruct E as (A & B & C).
    assert (N : ~ ended (sc_out c) (sf_sid fr)) by (apply C; exact HI).
    split; [|exact N]. split; [exact A|]. sc_cbn. split.
    + intros s0 Hs _. apply in_app_or in Hs. destruct Hs as [Hs|[<-|[]]]; [apply B; auto | exact N].
    + intros sid H. apply C. flia.
Qed.

Lemma sl_frame_es c fr L : SimX hstate None c L -> Es c -> EInv (fst (sl_frame dec_field enc_set_max cfg c fr)).
Proof.
  intros S E.
  destruct (sl_frame_SLF _ dec_field enc_set_max cfg c fr)
    as [c' Q D P3 | c' F O SD | Z K HW c0 newInit delta Fa | Z K W | NZ K | c1 s p NZ Or KH Hp | c1 s c2 cX sX NZ Or CL HF].
  - right. eapply EsX_Quiet; eassumption.
  - left. split; [exact SD | eapply es_ok_quiet; [exact O | apply E]].
  - right. pose proof (settings_Sim _ enc_set_max c fr L S) as S2. cbv zeta in S2. fold c0 newInit delta in S2.
    eapply flush_streams_es; [exact S2|].
    eapply EsX_ext_ids; [| | |exact E].
    + rewrite sc_strms_emit. sc_cbn. intros s Hs. apply in_map_iff in Hs. destruct Hs as (s0 & <- & Hs0).
      cbn [bump st_id set_window]. apply in_map. exact Hs0.
    + rewrite sc_highestID_emit. sc_cbn. unfold c0. destruct (settings_c0_fields _ enc_set_max c fr) as (_ & _ & _ & _ & -> & _). flia.
    + eapply out_ext_trans; [|apply out_ext_emit; exact eq_refl]. apply out_ext_same. sc_cbn. unfold c0.
      apply (settings_c0_fields _ enc_set_max c fr).
  - right. eapply flush_streams_es; [apply (winupd_Sim _ c (sf_inc fr) L S)|].
    eapply EsX_ext; [| | |exact E]; [auto | sc_cbn; flia | apply out_ext_same; reflexivity].
  - right. eapply EsX_Recv; [apply Recv_credit | exact E].
  - right. destruct (Origin_es c fr c1 s L S Or E) as [E1 _].
    apply EsX_put; [eapply EsX_Quiet; [apply Quiet_write_goaway | exact E1]|].
    eapply not_ended_ext; [apply out_quiet_noframe, (q_out _ _ _ (Quiet_write_goaway _ c1 (st_id p) c_ProtocolError))|].
    cbn [st_id set_state]. apply (proj1 (proj2 E1)); [exact Hp | auto].
  - destruct (Origin_es c fr c1 s L S Or E) as [E1 N1].
    destruct (after_pre_Sim _ dec_field cfg c fr c1 s c2 cX sX L S NZ Or CL HF) as (SX & HX & LeX & IX & _).
    destruct (HFok_eff _ dec_field cfg c2 s fr cX sX HF) as (c3 & s3 & R & Q & _).
    assert (EX : Es cX).
    { eapply EsX_Quiet; [exact Q|]. eapply EsX_Recv; [exact R|]. eapply EsX_Closes; [exact CL | exact E1]. }
    assert (NX : ~ ended (sc_out cX) (st_id sX)).
    { rewrite IX. eapply not_ended_ext; [apply out_quiet_noframe, Q|].
      eapply not_ended_ext; [eapply out_ext_weaken; [apply winupd_noframe | apply R]|].
      eapply not_ended_ext; [apply out_quiet_noframe, CL | exact N1]. }
    pose proof (after_frame_es None cX sX fr (sc_closing c) _ (fun _ => False) SX (or_introl eq_refl) HX LeX EX) as G.
    right. apply G; [intros i [] | exact NX].
Qed.

Lemma sl_done_es c sid r L : SimX hstate None c L -> Es c -> Es (fst (sl_done enc_field cfg c sid r)).
Proof.
  intros S E. unfold sl_done.
  destruct (take_stream (sc_gone c) sid) as [[s rest]|].
  - cbn [fst cont].
    pose proof (Quiet_release_gone _ c rest (set_flags s (st_responded s) false true)) as Q.
    eapply EsX_Quiet; eassumption.
  - destruct (strms_search (sc_strms c) sid) as [s|] eqn:F; [|exact E].
    destruct (negb (st_handlerRunning s)); [exact E|].
    apply strms_search_In in F. destruct F as [Hin Hid].
    set (s1 := set_flags s (st_responded s) false (st_abandoned s)).
    assert (H1 : held L s1).
    { eapply held_same_win; [| |apply (sim_strm _ _ _ _ S s Hin); discriminate]; reflexivity. }
    assert (Le1 : st_id s1 <= sc_lastID c) by apply (sim_le _ _ _ _ S s Hin).
    assert (Hhi : st_id s1 <= sc_highestID c) by (pose proof (sim_hi _ _ _ _ S); flia).
    assert (N : ~ ended (sc_out c) (st_id s1)) by (apply (proj1 (proj2 E) s); [exact Hin | auto]).
    destruct (finish_request_led _ enc_field None c s1 r L S (or_introl eq_refl) H1 Le1) as (L1 & Led & S1 & Hh & I1 & Lid).
    destruct (finish_request_es (fun _ => False) c s1 r E N Hhi) as [E1 N1].
    destruct (finish_request enc_field c s1 r) as [[c1 s2] fin]. cbn [fst snd] in *.
    assert (G : Es (if fin then close_stream (put c1 (set_state s2 SClosed)) (set_state s2 SClosed) else put c1 s2)).
    { destruct fin.
      - assert (S2 : SimX hstate None (put c1 (set_state s2 SClosed)) L1).
        { eapply SimX_put; [exact S1 | right; cbn [st_id set_state]; rewrite I1; reflexivity | eapply held_same_win; [| |exact Hh]; reflexivity|].
          cbn [st_id set_state]. rewrite I1, Lid. exact Le1. }
        apply (EsX_close (fun i => False \/ i = st_id s1)); [apply (sim_nodup _ _ _ _ S2)| |].
        + destruct E1 as (A & B & C). split; [exact A|]. split; [|exact C]. unfold put. sc_cbn.
          intros s0 Hs NX. apply strms_put_In in Hs. destruct Hs as [->|Hs]; [exfalso; apply NX; right; exact I1 | auto].
        + intros i [[]| ->]. cbn [st_id set_state]. congruence.
      - specialize (N1 eq_refl).
        destruct E1 as (A & B & C). split; [exact A|]. split; [|exact C]. unfold put. sc_cbn.
        intros s0 Hs _. apply strms_put_In in Hs. destruct Hs as [->|Hs]; [rewrite I1; exact N1|].
        destruct (N.eq_dec (st_id s0) (st_id s1)) as [->|NE]; [exact N1 | apply B; tauto]. }
    match goal with |- context [if ?b then brk ?x else cont ?x] => destruct b end; cbn [fst cont]; [|exact G].
    eapply EsX_Quiet; [apply Quiet_brk | exact G].
Qed.

Variable h0 : hstate.
Notation step := (step dec_field enc_field enc_set_max cfg).
Notation Inv := (Inv hstate).

Lemma EInv_quiet c c' : out_ext quiet_out c c' -> sc_strms c' = sc_strms c -> sc_highestID c <= sc_highestID c' ->
  (sc_sl_done c = true -> sc_sl_done c' = true) -> EInv c -> EInv c'.
Proof.
  intros O E1 E2 SD [[H1 H2]|H].
  - left. split; [auto | eapply es_ok_quiet; eassumption].
  - right. eapply EsX_ext; [rewrite E1; intros s Hs; exact Hs | exact E2 | apply out_quiet_noframe, O | exact H].
Qed.

Lemma step_es c e L : Inv c L -> EInv c -> EInv (step c e).
Proof.
  intros H E. destruct e as [i| |sid r|t| | | |].
  - rewrite step_EvRL. destruct (sc_rl_done c); [exact E|].
    destruct (rl_step_eff _ cfg c i) as [[r1 r2 r3 r4 r5 r6 r7 r8 r9 r10] _].
    eapply EInv_quiet; try eassumption; [rewrite r6; flia | congruence].
  - rewrite step_EvSL. destruct (sc_sl_done c) eqn:SD; [exact E|].
    destruct H as [H|S]; [congruence|]. destruct E as [[E _]|E]; [congruence|].
    destruct (sc_readerQ c) as [|fr q].
    + destruct (sc_rl_done c); [|right; exact E]. left. split; [reflexivity|].
      cbn [sc_out note upd_out]. change (?o :: ?l) with ([o] ++ l). apply es_ok_ext_noframe; [repeat constructor | apply E].
    + apply (sl_frame_es (upd_readerQ c q) fr L); [eapply SimX_same; [..|exact S]; reflexivity|].
      eapply EsX_ext; [| | |exact E]; [auto | sc_cbn; flia | apply out_ext_same; reflexivity].
  - rewrite step_EvDone. destruct (sc_sl_done c) eqn:SD; [exact E|].
    destruct H as [H|S]; [congruence|]. destruct E as [[E _]|E]; [congruence|].
    right. eapply sl_done_es; eassumption.
  - rewrite step_EvClock. destruct (sc_now c <? t)%Z; [|exact E].
    eapply EInv_quiet; [apply out_ext_same; reflexivity | reflexivity | sc_cbn; flia | auto | exact E].
  - rewrite step_EvTimer. destruct (sc_sl_done c) eqn:SD; [exact E|].
    destruct E as [[E _]|E]; [congruence|]. right. unfold sl_timer.
    destruct (cf_maxRequestTime cfg <=? 0)%Z; cbn [fst cont]; [exact E|].
    eapply EsX_Closes; [apply close_heads_Closes | exact E].
  - rewrite step_EvIdle.
    pose proof (Quiet_idle _ c) as Q.
    eapply EInv_quiet; [apply Q | apply Q | apply Q | | exact E].
    intro SD. destruct (q_sl_done _ _ _ Q) as [X|X]; congruence.
  - rewrite step_EvCloser. destruct (sc_closer c && negb (sc_sl_done c)); [|exact E].
    left. split; [reflexivity|]. eapply es_ok_quiet; [apply (q_out _ _ _ (Quiet_brk _ c)) | apply EInv_es_ok, E].
  - rewrite step_EvWriteFail.
    eapply EInv_quiet; [apply out_ext_same; reflexivity | reflexivity | sc_cbn; flia | auto | exact E].
Qed.

Lemma es_from evs : forall c L, Inv c L -> EInv c -> EInv (run_from dec_field enc_field enc_set_max cfg c evs).
Proof.
  induction evs as [|e evs IH]; intros c L H E; [exact E|]. rewrite run_from_cons.
  destruct (StepOK_tl _ dec_field enc_field enc_set_max cfg c e L H) as (_ & H' & _).
  eapply IH; [exact H' | eapply step_es; eassumption].
Qed.

(* C06 framing: of two response frames (HEADERS or DATA) on one stream, the earlier one has no END_STREAM.
   So there is at most one END_STREAM per stream and nothing follows it. *)
Theorem end_stream_once evs pre o1 mid o2 post sid :
  trace (run dec_field enc_field enc_set_max cfg h0 evs) = pre ++ o1 :: mid ++ o2 :: post ->
  frame_sid o1 = Some sid -> frame_sid o2 = Some sid -> is_es o1 = false.
Proof.
  intros T H1 H2.
  assert (E : EInv (run dec_field enc_field enc_set_max cfg h0 evs)).
  { rewrite run_eq. eapply es_from; [apply Inv_init|]. right. split; [exact I|]. split; [intros ? []|].
    intros sid0 _ (o & [] & _). }
  apply EInv_es_ok in E. unfold trace in T.
  assert (R : sc_out (run dec_field enc_field enc_set_max cfg h0 evs) = rev post ++ o2 :: rev mid ++ o1 :: rev pre).
  { rewrite <- (rev_involutive (sc_out _)), T. rewrite rev_app_distr. cbn [rev]. rewrite rev_app_distr. cbn [rev].
    rewrite <- !app_assoc. cbn [app]. reflexivity. }
  eapply es_ok_split; [exact E | exact R | exact H1 | exact H2].
Qed.

End Es.
