(* The RFC 7540 frame writer and parser of Spec/Rfc7540Frames.v are inverse of each other
   on well-formed frames. *)
From Coq Require Import List NArith ZArith Bool Lia.
From Coq Require Import ZifyN ZifyNat ZifyBool.
From H2V Require Import Base.Bytes Base.MachineInt Base.Result Spec.Rfc7540Frames Impl.Pools Impl.Frames
  Proofs.HpackBytes Proofs.FramesBits.
Import ListNotations.
Local Open Scope N_scope.
Ltac Zify.zify_post_hook ::= Z.div_mod_to_equations.

Lemma len_nil : len [] = 0.
Proof. reflexivity. Qed.

Lemma dropN_all (a : bytes) : dropN (len a) a = [].
Proof. apply HpackBytes.dropN_all. Qed.

Lemma parse_header_write n ty fl r sid p :
  n < 2 ^ 24 -> sid < 2 ^ 31 ->
  parse_header (header_bytes n ty fl r sid ++ p) = Some (n, ty, fl, r, sid, p).
Proof.
  intros Hn Hs. unfold header_bytes. rewrite be3_eq, be4_eq. cbn [app]. unfold parse_header.
  assert (E3 : unbe [n / 65536 mod 256; n / 256 mod 256; n mod 256] = n).
  { rewrite <- be3_eq. apply unbe_be3. assumption. }
  set (w := word31 r sid) in *.
  assert (E4 : unbe [w / 16777216 mod 256; w / 65536 mod 256; w / 256 mod 256; w mod 256] = w).
  { rewrite <- be4_eq. apply unbe_be4. apply word31_lt. assumption. }
  rewrite E3, E4. unfold w. rewrite top_bit_word31, low31_word31 by assumption. reflexivity.
Qed.

Lemma unpad_with_pad fl pad c :
  wf_pad fl pad -> unpad fl (with_pad pad c) = Some (pad, c).
Proof.
  unfold wf_pad, unpad, with_pad. destruct pad as [p|].
  - intros [F [_ L]]. rewrite F.
    assert (len p <=? len (c ++ p) = true) as ->. { apply N.leb_le. rewrite len_app. lia. }
    replace (len (c ++ p) - len p) with (len c) by (rewrite len_app; lia).
    rewrite dropN_len_app, takeN_len_app. reflexivity.
  - intros ->. reflexivity.
Qed.

Lemma parse_prio_bytes p :
  wf_prio p ->
  forall frag, exists a b c d,
    prio_bytes p ++ frag = a :: b :: c :: d :: p_weight p :: frag /\ parse_prio a b c d (p_weight p) = p.
Proof.
  intros [Hd Hw] frag. unfold prio_bytes. rewrite be4_eq. cbn [app].
  do 4 eexists. split; [reflexivity|].
  unfold parse_prio. rewrite <- be4_eq, unbe_be4 by (apply word31_lt; assumption).
  rewrite top_bit_word31, low31_word31 by assumption. destruct p; reflexivity.
Qed.

Lemma parse_settings_write items :
  Forall wf_setting items -> parse_settings (flat_map setting_bytes items) = Some items.
Proof.
  induction 1 as [|[k v] items [Hk Hv] _ IH]; [reflexivity|].
  cbn [flat_map]. unfold setting_bytes at 1. cbn [fst snd] in *. rewrite be2_eq, be4_eq. cbn [app parse_settings].
  rewrite IH. rewrite <- be2_eq, <- be4_eq, unbe_be2, unbe_be4 by assumption. reflexivity.
Qed.

Lemma word31_4 r v p :
  v < 2 ^ 31 -> exists a b c d, be 4 (word31 r v) ++ p = a :: b :: c :: d :: p /\
    top_bit (unbe [a; b; c; d]) = r /\ low31 (unbe [a; b; c; d]) = v.
Proof.
  intros H. rewrite be4_eq. cbn [app]. do 4 eexists. split; [reflexivity|].
  rewrite <- be4_eq, unbe_be4 by (apply word31_lt; assumption).
  split; [apply top_bit_word31|apply low31_word31]; assumption.
Qed.

Lemma be4_4 x p : x < 2 ^ 32 -> exists a b c d, be 4 x ++ p = a :: b :: c :: d :: p /\ unbe [a; b; c; d] = x.
Proof.
  intros H. rewrite be4_eq. cbn [app]. do 4 eexists. split; [reflexivity|].
  rewrite <- be4_eq. apply unbe_be4. assumption.
Qed.

Lemma parse_payload_write fl b :
  wf_body fl b -> parse_payload (type_code b) fl (payload_bytes b) = Some b.
Proof.
  destruct b as [pad d|pad prio frag|p|code|items|pad r promised frag|d|r last code debug|r incr|frag];
    cbn [type_code payload_bytes wf_body]; unfold parse_payload.
  - intros [P _]. rewrite (unpad_with_pad fl pad d P). reflexivity.
  - intros [P [_ Q]]. rewrite (unpad_with_pad fl pad _ P). destruct prio as [p|].
    + destruct Q as [F W]. rewrite F.
      destruct (parse_prio_bytes p W frag) as (a & b & c & d & E & PP). rewrite E, PP. reflexivity.
    + rewrite Q. reflexivity.
  - intros W. destruct (parse_prio_bytes p W []) as (a & b & c & d & E & PP).
    rewrite app_nil_r in E. rewrite E, PP. reflexivity.
  - intros H. destruct (be4_4 code [] H) as (a & b & c & d & E & U). rewrite app_nil_r in E. rewrite E, U. reflexivity.
  - intros [W A]. rewrite (parse_settings_write items W).
    destruct (flag fl ACK) eqn:F; [rewrite (A eq_refl); reflexivity|reflexivity].
  - intros [P [H _]]. rewrite (unpad_with_pad fl pad _ P).
    destruct (word31_4 r promised frag H) as (a & b & c & d & E & T & L). rewrite E, T, L. reflexivity.
  - intros [_ L]. rewrite L. reflexivity.
  - intros [Hl [Hc _]].
    destruct (word31_4 r last (be 4 code ++ debug) Hl) as (a & b & c & d & E & T & L).
    destruct (be4_4 code debug Hc) as (e & f & g & h & E2 & U).
    rewrite E, E2, T, L, U. reflexivity.
  - intros H. destruct (word31_4 r incr [] H) as (a & b & c & d & E & T & L). rewrite app_nil_r in E.
    rewrite E, T, L. reflexivity.
  - reflexivity.
Qed.

Theorem spec_parse_write f rest :
  wf f -> spec_parse (spec_write f ++ rest) = Some (f, rest).
Proof.
  intros (Hfl & Hs & Hn & Hb). unfold spec_parse, spec_write. rewrite <- app_assoc.
  rewrite parse_header_write by assumption.
  unfold payload_len in *.
  assert (len (payload_bytes (f_body f)) <=? len (payload_bytes (f_body f) ++ rest) = true) as ->.
  { apply N.leb_le. rewrite len_app. lia. }
  rewrite takeN_len_app, dropN_len_app, parse_payload_write by assumption.
  destruct f; reflexivity.
Qed.

(* the RFC reader on a written frame *)
Theorem spec_read_write limit f rest :
  wf f -> payload_len f <= limit -> spec_read limit (spec_write f ++ rest) = Frame f (9 + payload_len f).
Proof.
  intros W L. pose proof W as (Hfl & Hs & Hn & Hb). unfold spec_read, spec_write. rewrite <- app_assoc.
  rewrite parse_header_write by assumption.
  assert (limit <? payload_len f = false) as -> by (apply N.ltb_ge; assumption).
  unfold payload_len in *.
  assert (len (payload_bytes (f_body f) ++ rest) <? len (payload_bytes (f_body f)) = false) as ->.
  { apply N.ltb_ge. rewrite len_app. lia. }
  assert (9 <? type_code (f_body f) = false) as -> by (destruct (f_body f); reflexivity).
  rewrite takeN_len_app, parse_payload_write by assumption.
  destruct f; reflexivity.
Qed.

(* the other direction: what the parser accepts is what the writer writes *)
Lemma bytes_ok_4 a b c d r : bytes_ok (a :: b :: c :: d :: r) = true ->
  a < 256 /\ b < 256 /\ c < 256 /\ d < 256 /\ bytes_ok r = true.
Proof.
  rewrite !bytes_ok_cons. intros H. repeat (apply andb_prop in H; destruct H as [?%N.ltb_lt H]). auto.
Qed.
Lemma bytes_ok_1 a r : bytes_ok (a :: r) = true -> a < 256 /\ bytes_ok r = true.
Proof. rewrite bytes_ok_cons. intros H. apply andb_prop in H. destruct H as [?%N.ltb_lt H]. auto. Qed.

Lemma with_pad_unpad fl p pad c :
  bytes_ok p = true -> unpad fl p = Some (pad, c) ->
  with_pad pad c = p /\ wf_pad fl pad /\ bytes_ok c = true.
Proof.
  unfold unpad. intros B. destruct (flag fl PADDED) eqn:F.
  - destruct p as [|pl q]; [discriminate|]. destruct (pl <=? len q) eqn:L; [|discriminate].
    apply N.leb_le in L. intros [= <- <-]. apply bytes_ok_1 in B. destruct B as [Hpl Bq].
    unfold with_pad. rewrite takeN_dropN, len_dropN.
    replace (len q - (len q - pl)) with pl by lia.
    split; [reflexivity|]. split.
    + unfold wf_pad. split; [assumption|]. split; [apply bytes_ok_dropN; assumption|]. rewrite len_dropN. lia.
    + apply bytes_ok_takeN. assumption.
  - intros [= <- <-]. split; [reflexivity|]. split; [exact F|assumption].
Qed.

Lemma prio_bytes_parse a b c d w :
  a < 256 -> b < 256 -> c < 256 -> d < 256 -> w < 256 ->
  prio_bytes (parse_prio a b c d w) = [a; b; c; d; w] /\ wf_prio (parse_prio a b c d w).
Proof.
  intros. unfold prio_bytes, parse_prio, wf_prio. cbn [p_excl p_dep p_weight].
  rewrite word31_top_low by (apply unbe4_lt; assumption). rewrite be4_unbe by assumption.
  split; [reflexivity|]. split; [apply low31_lt|assumption].
Qed.

Lemma list6_ind (P : bytes -> Prop) :
  P [] -> (forall a, P [a]) -> (forall a b, P [a; b]) -> (forall a b c, P [a; b; c]) ->
  (forall a b c d, P [a; b; c; d]) -> (forall a b c d e, P [a; b; c; d; e]) ->
  (forall a b c d e f rest, P rest -> P (a :: b :: c :: d :: e :: f :: rest)) ->
  forall l, P l.
Proof.
  intros H0 H1 H2 H3 H4 H5 H6. fix IH 1.
  intros [|a [|b [|c [|d [|e [|f rest]]]]]];
    [apply H0|apply H1|apply H2|apply H3|apply H4|apply H5|apply H6; apply IH].
Qed.

Lemma settings_bytes_parse p : bytes_ok p = true ->
  forall items, parse_settings p = Some items ->
  flat_map setting_bytes items = p /\ Forall wf_setting items.
Proof.
  induction p as [| | | | | |a b c d e f rest IH] using list6_ind; intros B items; cbn [parse_settings]; try discriminate.
  - intros [= <-]. split; [reflexivity|constructor].
  - destruct (parse_settings rest) as [its|] eqn:E; [|discriminate]. intros [= <-].
    rewrite !bytes_ok_cons in B.
    repeat (apply andb_prop in B; destruct B as [?%N.ltb_lt B]).
    destruct (IH B its eq_refl) as [W F]. split.
    + cbn [flat_map]. unfold setting_bytes at 1. cbn [fst snd].
      rewrite be2_unbe, be4_unbe by assumption. cbn [app]. rewrite W. reflexivity.
    + constructor; [|assumption]. split; cbn [fst snd]; [apply unbe2_lt|apply unbe4_lt]; assumption.
Qed.

Lemma parse_payload_unknown ty fl p : 9 < ty -> parse_payload ty fl p = None.
Proof.
  intros H. destruct ty as [|q]; [lia|]. unfold parse_payload.
  repeat (destruct q as [q|q|]; try reflexivity; try lia).
Qed.

Lemma payload_bytes_parse ty fl p b :
  bytes_ok p = true -> parse_payload ty fl p = Some b ->
  payload_bytes b = p /\ type_code b = ty /\ wf_body fl b.
Proof.
  intros B. destruct (N.le_gt_cases ty 9) as [Lty|Gty]; [|rewrite parse_payload_unknown by assumption; discriminate].
  assert (ty = 0 \/ ty = 7 \/ ty = 3 \/ ty = 5 \/ ty = 9 \/ ty = 1 \/ ty = 6 \/ ty = 2 \/ ty = 4 \/ ty = 8) as C by lia.
  unfold parse_payload.
  destruct C as [->|[->|[->|[->|[->|[->|[->|[->|[->| ->]]]]]]]]].
  - (* 0 DATA *)
    destruct (unpad fl p) as [[pad d]|] eqn:U; [|discriminate]. intros [= <-].
    destruct (with_pad_unpad fl p pad d B U) as (E & W & Bd). cbn. auto.
  - (* 7 GOAWAY *)
    destruct p as [|a [|b0 [|c [|d [|e [|f [|g [|h debug]]]]]]]]; try discriminate. intros [= <-].
    apply bytes_ok_4 in B. destruct B as (Ha & Hb & Hc & Hd & B).
    apply bytes_ok_4 in B. destruct B as (He & Hf & Hg & Hh & B).
    cbn [payload_bytes type_code wf_body].
    rewrite word31_top_low by (apply unbe4_lt; assumption). rewrite !be4_unbe by assumption.
    split; [reflexivity|]. split; [reflexivity|]. split; [apply low31_lt|]. split; [apply unbe4_lt; assumption|assumption].
  - (* 3 RST_STREAM *)
    destruct p as [|a [|b0 [|c [|d [|]]]]]; try discriminate. intros [= <-].
    apply bytes_ok_4 in B. destruct B as (Ha & Hb & Hc & Hd & B).
    cbn [payload_bytes type_code wf_body]. rewrite be4_unbe by assumption.
    split; [reflexivity|]. split; [reflexivity|]. apply unbe4_lt; assumption.
  - (* 5 PUSH_PROMISE *)
    destruct (unpad fl p) as [[pad [|a [|b0 [|c [|d frag]]]]]|] eqn:U; try discriminate. intros [= <-].
    destruct (with_pad_unpad fl p pad _ B U) as (E & W & Bc).
    apply bytes_ok_4 in Bc. destruct Bc as (Ha & Hb & Hc & Hd & Bf).
    cbn [payload_bytes type_code wf_body].
    rewrite word31_top_low by (apply unbe4_lt; assumption). rewrite be4_unbe by assumption.
    split; [exact E|]. split; [reflexivity|]. split; [assumption|]. split; [apply low31_lt|assumption].
  - (* 9 CONTINUATION *)
    intros [= <-]. cbn. auto.
  - (* 1 HEADERS *)
    destruct (unpad fl p) as [[pad c]|] eqn:U; [|discriminate].
    destruct (with_pad_unpad fl p pad c B U) as (E & W & Bc).
    destruct (flag fl PRIORITY_FLAG) eqn:F.
    + destruct c as [|a [|b0 [|c' [|d [|w frag]]]]]; try discriminate. intros [= <-].
      apply bytes_ok_4 in Bc. destruct Bc as (Ha & Hb & Hc & Hd & Bf).
      apply bytes_ok_1 in Bf. destruct Bf as [Hw Bf].
      destruct (prio_bytes_parse a b0 c' d w Ha Hb Hc Hd Hw) as [PB PW].
      cbn [payload_bytes type_code wf_body]. rewrite PB. cbn [app].
      split; [exact E|]. split; [reflexivity|]. split; [assumption|]. split; [assumption|]. split; assumption.
    + intros [= <-]. cbn [payload_bytes type_code wf_body app].
      split; [exact E|]. split; [reflexivity|]. split; [assumption|]. split; assumption.
  - (* 6 PING *)
    destruct (len p =? 8) eqn:L; [|discriminate]. intros [= <-]. apply N.eqb_eq in L. cbn. auto.
  - (* 2 PRIORITY *)
    destruct p as [|a [|b0 [|c [|d [|w [|]]]]]]; try discriminate. intros [= <-].
    apply bytes_ok_4 in B. destruct B as (Ha & Hb & Hc & Hd & B).
    apply bytes_ok_1 in B. destruct B as [Hw _].
    destruct (prio_bytes_parse a b0 c d w Ha Hb Hc Hd Hw) as [PB PW].
    cbn [payload_bytes type_code wf_body]. rewrite PB. auto.
  - (* 4 SETTINGS *)
    destruct (flag fl ACK && negb (len p =? 0)) eqn:A; [discriminate|].
    destruct (parse_settings p) as [items|] eqn:S; [|discriminate]. intros [= <-].
    destruct (settings_bytes_parse p B items S) as [E W].
    cbn [payload_bytes type_code wf_body]. split; [exact E|]. split; [reflexivity|]. split; [assumption|].
    intros F. rewrite F in A. cbn in A. apply negb_false_iff, N.eqb_eq in A.
    destruct p; [cbn in S; injection S as <-; reflexivity|]. rewrite len_cons in A. lia.
  - (* 8 WINDOW_UPDATE *)
    destruct p as [|a [|b0 [|c [|d [|]]]]]; try discriminate. intros [= <-].
    apply bytes_ok_4 in B. destruct B as (Ha & Hb & Hc & Hd & B).
    cbn [payload_bytes type_code wf_body].
    rewrite word31_top_low by (apply unbe4_lt; assumption). rewrite be4_unbe by assumption.
    split; [reflexivity|]. split; [reflexivity|]. apply low31_lt.
Qed.

Theorem spec_write_parse b f rest :
  bytes_ok b = true -> spec_parse b = Some (f, rest) -> b = spec_write f ++ rest /\ wf f.
Proof.
  intros B. unfold spec_parse.
  destruct b as [|l2 [|l1 [|l0 [|ty [|fl [|s3 [|s2 [|s1 [|s0 rest0]]]]]]]]]; try discriminate.
  unfold parse_header.
  apply bytes_ok_4 in B. destruct B as (Hl2 & Hl1 & Hl0 & Hty & B).
  apply bytes_ok_1 in B. destruct B as (Hfl & B).
  apply bytes_ok_4 in B. destruct B as (Hs3 & Hs2 & Hs1 & Hs0 & B).
  set (n := unbe [l2; l1; l0]). set (x := unbe [s3; s2; s1; s0]).
  destruct (n <=? len rest0) eqn:L; [|discriminate]. apply N.leb_le in L.
  destruct (parse_payload ty fl (takeN n rest0)) as [body|] eqn:P; [|discriminate].
  intros [= <- <-].
  destruct (payload_bytes_parse ty fl _ body (bytes_ok_takeN n rest0 B) P) as (E & T & W).
  assert (Hn : n < 2 ^ 24) by (apply unbe3_lt; assumption).
  assert (Hx : x < 2 ^ 32) by (apply unbe4_lt; assumption).
  split.
  - unfold spec_write, payload_len, header_bytes. cbn [f_body f_flags f_rsv f_stream].
    rewrite E, T, len_takeN by assumption. rewrite word31_top_low by assumption.
    unfold n, x. rewrite be3_unbe, be4_unbe by assumption. cbn [app].
    repeat f_equal. symmetry. apply takeN_dropN.
  - unfold wf, payload_len. cbn [f_body f_flags f_rsv f_stream].
    split; [assumption|]. split; [apply low31_lt|]. split; [|assumption].
    rewrite E, len_takeN by assumption. assumption.
Qed.

(* a written frame consists of octets *)
Lemma bytes_ok_repeat0 n : bytes_ok (repeat 0 n) = true.
Proof. induction n; [reflexivity|]. cbn [repeat]. rewrite bytes_ok_cons, IHn. reflexivity. Qed.

Lemma with_pad_bytes_ok fl pad c : wf_pad fl pad -> bytes_ok c = true -> bytes_ok (with_pad pad c) = true.
Proof.
  unfold wf_pad, with_pad. destruct pad as [p|]; [|auto]. intros (_ & Bp & L) Bc.
  rewrite bytes_ok_cons, bytes_ok_app, Bp, Bc. apply N.ltb_lt in L. rewrite L. reflexivity.
Qed.

Lemma prio_bytes_ok p : wf_prio p -> bytes_ok (prio_bytes p) = true.
Proof.
  intros [_ W]. unfold prio_bytes. rewrite bytes_ok_app, be_bytes_ok, bytes_ok_cons. apply N.ltb_lt in W. rewrite W. reflexivity.
Qed.

Lemma payload_bytes_ok fl b : wf_body fl b -> bytes_ok (payload_bytes b) = true.
Proof.
  destruct b as [pad d|pad prio frag|p|code|items|pad r promised frag|d|r last code debug|r incr|frag];
    cbn [payload_bytes wf_body].
  - intros [P B]. eapply with_pad_bytes_ok; eassumption.
  - intros (P & B & Q). eapply with_pad_bytes_ok; [eassumption|]. rewrite bytes_ok_app, B.
    destruct prio as [p|]; [|reflexivity]. destruct Q as [_ W]. rewrite (prio_bytes_ok p W). reflexivity.
  - apply prio_bytes_ok.
  - intros _. apply be_bytes_ok.
  - intros [_ _]. induction items as [|kv items IH]; [reflexivity|]. cbn [flat_map].
    rewrite bytes_ok_app, IH. unfold setting_bytes. rewrite bytes_ok_app, !be_bytes_ok. reflexivity.
  - intros (P & _ & B). eapply with_pad_bytes_ok; [eassumption|]. rewrite bytes_ok_app, be_bytes_ok, B. reflexivity.
  - intros [B _]. exact B.
  - intros (_ & _ & B). rewrite !bytes_ok_app, !be_bytes_ok, B. reflexivity.
  - intros _. apply be_bytes_ok.
  - auto.
Qed.

Lemma type_code_le9 b : type_code b <= 9.
Proof. destruct b; cbn; lia. Qed.

Lemma spec_write_bytes_ok f : wf f -> bytes_ok (spec_write f) = true.
Proof.
  intros (Hfl & _ & _ & W). unfold spec_write, header_bytes.
  rewrite !bytes_ok_app, !be_bytes_ok, (payload_bytes_ok _ _ W), !bytes_ok_cons.
  pose proof (type_code_le9 (f_body f)).
  assert (type_code (f_body f) <? 256 = true) as -> by (apply N.ltb_lt; lia).
  apply N.ltb_lt in Hfl. rewrite Hfl. reflexivity.
Qed.

Lemma spec_write_len f : len (spec_write f) = 9 + payload_len f.
Proof.
  unfold spec_write, header_bytes, payload_len. rewrite !len_app.
  assert (forall n x, len (be n x) = N.of_nat n) as LB by (intros; unfold len; rewrite be_length; reflexivity).
  rewrite !LB. change (len [type_code (f_body f); f_flags f]) with 2. lia.
Qed.
