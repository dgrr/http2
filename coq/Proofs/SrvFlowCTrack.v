(* Proofs/SrvFlowCTrack.v - C06 completion: one buffered response followed through the run. Part 1: what is tracked,
   and one call of sendData on the tracked stream. *)
From H2V Require Import Base.Bytes Base.MachineInt Base.Result Gen.GenConsts Impl.ServerConn Proofs.SrvBase
  Spec.FlowLedger Proofs.SrvFlowLedger Proofs.SrvFlowDefs Proofs.SrvFlowSend Proofs.SrvFlowEff Proofs.SrvFlowSafe
  Proofs.SrvFlowSafeB Proofs.SrvFlowSafeC Proofs.SrvFlowEs Proofs.SrvFlowRecv Proofs.SrvFlowStall Proofs.SrvFlowFuel
  Proofs.SrvFlowDone Proofs.SrvFlowCDecomp Proofs.SrvFlowCMono Proofs.SrvFlowCView Proofs.SrvFlowCEarly.
From Coq Require Import ZArith Lia ZifyN ZifyNat ZifyBool List.
Import ListNotations.
Local Open Scope N_scope.
Set Default Proof Using "Type".

Definition isnil (b : bytes) : bool := match b with [] => true | _ => false end.
Definition small (f : bool * bytes) : Prop := 0 < len (snd f) <= 16384.

Lemma isnil_false b : b <> [] -> isnil b = false.
Proof. destruct b; [congruence | reflexivity]. Qed.

Lemma frames_out_app sid a b : frames_out sid (a ++ b) = frames_out sid a ++ frames_out sid b.
Proof. apply map_app. Qed.

Lemma rf_frames_out sid l : rf sid (frames_out sid l) = frames_out sid l.
Proof.
  induction l as [|f l IH]; [reflexivity|]. cbn [frames_out map rf filter]. unfold on_sid at 1. cbn [frame_sid strip].
  rewrite N.eqb_refl. f_equal. exact IH.
Qed.

Lemma rf_rev sid l : rf sid (rev l) = rev (rf sid l).
Proof.
  induction l as [|o l IH]; [reflexivity|]. cbn [rev]. rewrite rf_app, IH. cbn [rf filter].
  destruct (on_sid sid o); [reflexivity | rewrite app_nil_r; reflexivity].
Qed.

Lemma es_shape_len frames : es_shape frames true -> (1 <= length frames)%nat.
Proof.
  unfold es_shape. intro H. destruct frames as [|f t]; [cbn in H; discriminate | cbn [length]; lia].
Qed.

Lemma dropN_nonnil q (b : bytes) : q <= len b -> q <> len b -> dropN q b <> [].
Proof.
  intros H1 H2 X. assert (L : len (dropN q b) = 0) by (rewrite X; reflexivity). rewrite len_dropN in L. lia.
Qed.

Section Track.
Variable hstate : Type.
Variable dec_field : hstate -> N -> bytes -> dec_res hstate.
Variable enc_field : hstate -> bytes -> bytes -> bool -> bytes * hstate.
Variable enc_set_max : hstate -> N -> hstate.
Variable cfg : config.
Notation sconn := (sconn hstate).
Implicit Types c : sconn.
Notation AbortS := (AbortS hstate).
Notation Keeps := (Keeps hstate).
Notation FrameO := (FrameO hstate).

(* the frames of the response queued so far: HEADERS, then DATA frames carrying `frames` *)
Definition Queued (sid : N) (es : bool) (frames : list (bool * bytes)) c : Prop :=
  exists blk, rf sid (sc_out c) = rev (frames_out sid frames) ++ [OHeaders sid es blk].

(* all of the body has been queued, END_STREAM on the last frame *)
Definition Sent (sid : N) (B : bytes) c : Prop :=
  exists frames, Queued sid (isnil B) frames c /\ concat (map snd frames) = B /\
                 es_shape frames (negb (isnil B)) /\ Forall small frames.

(* the stream is in the table with the rest of the body *)
Definition Live (sid : N) (B : bytes) c : Prop :=
  exists s frames, strms_search (sc_strms c) sid = Some s /\ phase s = true /\ st_bodyStream s = None /\
    st_pendingEnd s = true /\ st_pending s <> [] /\ Queued sid false frames c /\
    concat (map snd frames) ++ st_pending s = B /\ es_shape frames false /\ Forall small frames.

Definition Complete (sid : N) (B : bytes) c : Prop :=
  strms_search (sc_strms c) sid = None /\ sid <= sc_highestID c /\ Sent sid B c.

Definition Track (sid : N) (B : bytes) c : Prop := AbortS sid c \/ Live sid B c \/ Complete sid B c.

Lemma AbortS_FrameO sid c c' : FrameO c c' -> AbortS sid c -> AbortS sid c'.
Proof.
  intros [f1 f2 f3 f4 f5] [H|[H|[H|H]]].
  - left. destruct f2 as [E|E]; congruence.
  - right; left. congruence.
  - right; right; left. auto.
  - right; right; right. eapply reset_seen_ext; eassumption.
Qed.

Lemma Queued_Keeps sid es frames c c' : Keeps sid c c' -> Queued sid es frames c -> Queued sid es frames c'.
Proof. intros K (blk & E). exists blk. rewrite (k_rf _ _ _ _ K). exact E. Qed.
Lemma Sent_Keeps sid B c c' : Keeps sid c c' -> Sent sid B c -> Sent sid B c'.
Proof. intros K (frames & Q & R). exists frames. split; [eapply Queued_Keeps; eassumption | exact R]. Qed.
Lemma Live_Keeps sid B c c' : Keeps sid c c' -> Live sid B c -> Live sid B c'.
Proof.
  intros K (s & frames & F & R). exists s, frames. rewrite (k_search _ _ _ _ K). split; [exact F|].
  destruct R as (R1 & R2 & R3 & R4 & Q & R5). repeat (split; [assumption|]). split; [eapply Queued_Keeps; eassumption | exact R5].
Qed.
Lemma Complete_Keeps sid B c c' : Keeps sid c c' -> Complete sid B c -> Complete sid B c'.
Proof.
  intros K (F & H & S). split; [rewrite (k_search _ _ _ _ K); exact F|]. split; [pose proof (k_hi _ _ _ _ K); flia|].
  eapply Sent_Keeps; eassumption.
Qed.
Lemma Track_Keeps sid B c c' : Keeps sid c c' -> FrameO c c' -> Track sid B c -> Track sid B c'.
Proof.
  intros K F [H|[H|H]]; [left; eapply AbortS_FrameO; eassumption | right; left; eapply Live_Keeps; eassumption|].
  right; right. eapply Complete_Keeps; eassumption.
Qed.

(* one call of sendData on the tracked stream (a working copy s with the fields of the table entry) *)
Lemma send_live c s sid B frames :
  st_id s = sid -> st_bodyStream s = None -> st_pendingEnd s = true -> st_pending s <> [] ->
  sc_wl_dead c = false -> sc_sl_done c = false ->
  Queued sid false frames c -> concat (map snd frames) ++ st_pending s = B -> es_shape frames false -> Forall small frames ->
  let c1 := fst (fst (send_data c s)) in let s1 := snd (fst (send_data c s)) in let fin := snd (send_data c s) in
  exists frames',
    Queued sid false frames' c1 /\ Forall small frames' /\
    st_id s1 = sid /\ st_state s1 = st_state s /\ st_responded s1 = st_responded s /\ st_handlerRunning s1 = st_handlerRunning s /\
    st_bodyStream s1 = None /\ st_pendingEnd s1 = true /\
    sc_strms c1 = sc_strms c /\ sc_sl_done c1 = false /\ sc_wl_dead c1 = false /\ sc_closing c1 = sc_closing c /\
    (if fin then concat (map snd frames') = B /\ es_shape frames' true /\ st_pending s1 = []
     else st_pending s1 <> [] /\ concat (map snd frames') ++ st_pending s1 = B /\ es_shape frames' false).
Proof.
  intros Id BS PE PN WD SD (blk & Q) CB ES FS. cbv zeta.
  destruct (send_data_buffered _ c s BS PE WD SD) as (frames2 & E & CC & PD & FA & ES2 & FN & _).
  destruct (send_data_buffered_stream _ c s BS PE WD SD) as (I2 & St2 & _ & R2 & Ru2 & BS2 & PE2 & T2 & SD2 & WD2 & CL2 & _).
  cbv zeta in *.
  set (q := Z.to_N (Z.max 0 (Z.min (Z.of_N (len (st_pending s))) (Z.min (st_window s) (sc_clientWindow c))))) in *.
  destruct (send_data c s) as [[c1 s1] fin]. cbn [fst snd] in *.
  replace (match st_pending s with [] => true | _ => false end) with false in ES2 by (destruct (st_pending s); [congruence | reflexivity]).
  rewrite Bool.andb_true_r in ES2.
  exists (frames ++ frames2).
  split.
  { exists blk. rewrite E, rf_app, Q, Id, rf_rev, rf_frames_out, frames_out_app, rev_app_distr, <- app_assoc. reflexivity. }
  split; [apply Forall_app; split; [exact FS | exact FA]|].
  split; [congruence|]. split; [exact St2|]. split; [exact R2|]. split; [exact Ru2|]. split; [exact BS2|]. split; [exact PE2|].
  split; [exact T2|]. split; [exact SD2|]. split; [exact WD2|]. split; [exact CL2|].
  assert (QL : q <= len (st_pending s)) by (unfold q; clear; lia).
  rewrite map_app, concat_app, CC.
  destruct fin.
  - symmetry in FN. apply N.eqb_eq in FN. rewrite FN in *.
    assert (LL : (length (st_pending s) <= N.to_nat (len (st_pending s)))%nat) by (unfold len; clear; lia).
    unfold takeN, dropN in *. rewrite firstn_all2 by exact LL. rewrite skipn_all2 in PD by exact LL.
    split; [exact CB|]. split; [apply es_shape_app; assumption | exact PD].
  - symmetry in FN. apply N.eqb_neq in FN. rewrite PD.
    split; [apply dropN_nonnil; assumption|]. split; [rewrite <- app_assoc, takeN_dropN; exact CB | apply es_shape_app; assumption].
Qed.

End Track.
