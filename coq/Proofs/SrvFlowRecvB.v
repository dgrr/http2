(* Proofs/SrvFlowRecvB.v - C14 (server), the peer's view: its connection send window, as it computes it from the
   WINDOW_UPDATEs the server queued and the DATA it sent, is the server's receive window minus the DATA still
   waiting in sc.reader; every DATA frame accepted into a request body is answered by a stream WINDOW_UPDATE. *)
From H2V Require Import Base.Bytes Base.MachineInt Base.Result Gen.GenConsts Impl.ServerConn Proofs.SrvBase
  Spec.FlowLedger Proofs.SrvFlowLedger Proofs.SrvFlowDefs Proofs.SrvFlowSend Proofs.SrvFlowEff Proofs.SrvFlowRecv.
From Coq Require Import ZArith Lia ZifyN ZifyNat ZifyBool List.
Import ListNotations.
Local Open Scope N_scope.
Set Default Proof Using "Type".

(* DATA bytes (payload + padding) forwarded by the read loop and not yet seen by the stream loop *)
Fixpoint qdata (q : list sframe) : Z := match q with [] => 0 | fr :: t => dlen fr + qdata t end.

Lemma qdata_app a b : qdata (a ++ b) = (qdata a + qdata b)%Z.
Proof. induction a as [|x a IH]; cbn [app qdata]; lia. Qed.
Lemma qdata_nonneg q : (0 <= qdata q)%Z.
Proof. induction q as [|x q IH]; cbn [qdata]; [lia|]. pose proof (dlen_nonneg x). lia. Qed.

Lemma peer_conn_window_rdata w fr l : peer_conn_window w (rdata_of fr ++ l) = peer_conn_window (w - dlen fr) l.
Proof. unfold rdata_of, dlen. destruct (sf_kind fr); cbn [app peer_conn_window]; f_equal; lia. Qed.

Section PeerView.
Variable hstate : Type.
Variable dec_field : hstate -> N -> bytes -> dec_res hstate.
Variable enc_field : hstate -> bytes -> bytes -> bool -> bytes * hstate.
Variable enc_set_max : hstate -> N -> hstate.
Variable cfg : config.
Variable h0 : hstate.
Notation sconn := (sconn hstate).
Implicit Types c : sconn.
Notation CStep := (CStep hstate cfg).
Notation NoCredit := (NoCredit hstate).
Notation step := (step dec_field enc_field enc_set_max cfg).
Notation run := (run dec_field enc_field enc_set_max cfg h0).
Notation run_from := (run_from dec_field enc_field enc_set_max cfg).
Notation rtl_step := (rtl_step hstate dec_field enc_field enc_set_max cfg).
Notation rtimeline_from := (rtimeline_from hstate dec_field enc_field enc_set_max cfg).
Notation AInv := (AInv hstate cfg).

(* w: the peer's connection send window *)
Definition PInv c (w : Z) : Prop :=
  (w <= sc_currentWindow c - qdata (sc_readerQ c))%Z /\
  (sc_closing c = false -> sc_sl_done c = false -> sc_wl_dead c = false ->
   w = (sc_currentWindow c - qdata (sc_readerQ c))%Z).

(* a step that leaves the queue alone and debits nothing *)
Lemma PInv_cstep0 c c' w new : CStep c c' 0 -> sc_out c' = new ++ sc_out c -> PInv c w ->
  PInv c' (w + conn_credit (rcredits (rev new))).
Proof.
  intros [c0 c1 c2 c3 c4 c5 (new' & E' & _ & I & Q)] E [P1 P2].
  assert (new' = new) by (rewrite E' in E; apply app_inv_tail in E; exact E). subst new'.
  unfold PInv. rewrite c1. split.
  - clear - I P1. lia.
  - intros F1 F2 F3.
    assert (G1 : sc_closing c = false) by (destruct (sc_closing c); [rewrite c5 in F1 by reflexivity; discriminate | reflexivity]).
    assert (G2 : sc_sl_done c = false) by (destruct c4 as [X|X]; congruence).
    assert (G3 : sc_wl_dead c = false) by congruence.
    specialize (P2 G1 G2 G3). specialize (Q G3). clear - P2 Q. lia.
Qed.

Lemma closing_false_mono c c' : (sc_closing c = true -> sc_closing c' = true) -> sc_closing c' = false -> sc_closing c = false.
Proof. intros H F. destruct (sc_closing c); [rewrite H in F by reflexivity; discriminate | reflexivity]. Qed.

Lemma new_out_rcredits c c' new : sc_out c' = new ++ sc_out c -> rcredits (new_out hstate c c') = rcredits (rev new).
Proof. intro E. rewrite (new_out_ext _ _ _ _ E). reflexivity. Qed.

Lemma step_PInv c e w : cfg_ok cfg -> AInv c -> PInv c w -> PInv (step c e) (peer_conn_window w (rtl_step c e)).
Proof.
  intros Cfg A P. unfold SrvFlowDefs.rtl_step.
  (* steps that debit nothing and leave the queue alone *)
  assert (Z0 : forall c', CStep c c' 0 -> rl_takes hstate c e = None -> step c e = c' ->
               PInv c' (peer_conn_window w (match rl_takes hstate c e with Some fr => rdata_of fr | None => [] end ++
                                            rcredits (new_out hstate c c')))).
  { intros c' CS RT _. rewrite RT. cbn [app].
    destruct (cs_acc _ _ _ _ _ CS) as (new & E & _).
    rewrite (new_out_rcredits _ _ _ E), (peer_conn_window_credits _ (rcredits_only _)).
    eapply PInv_cstep0; eassumption. }
  destruct e as [i| |sid r|t| | | |].
  - (* the read loop *)
    rewrite step_EvRL. destruct (sc_rl_done c) eqn:RD.
    { cbn [rl_takes]. rewrite RD. replace (match i with RFrame _ => None | _ => None end) with (@None sframe) by (destruct i; reflexivity).
      cbn [app]. rewrite (new_out_same _ _ _ eq_refl). exact P. }
    destruct (rl_step_eff _ cfg c i) as [[r1 r2 r3 r4 r5 r6 r7 r8 r9 (new & E & F)] Q].
    assert (RC : rcredits (new_out hstate c (rl_step cfg c i)) = []).
    { rewrite (new_out_rcredits _ _ _ E). apply rcredits_nowu. apply Forall_forall. intros o Ho.
      rewrite Forall_forall in F. apply quiet_nowu, F, in_rev, Ho. }
    rewrite RC, app_nil_r. destruct P as [P1 P2].
    destruct Q as [[Q D]|(fr & -> & Q & _ & SD & _)].
    + (* not forwarded *)
      destruct i as [fr| | |]; cbn [rl_takes]; rewrite ?RD; cbn [peer_conn_window];
        try (unfold PInv; rewrite Q, r4; split; [exact P1|]; intros F1 F2 F3; apply P2;
             [eapply closing_false_mono; eassumption | congruence | congruence]).
      rewrite <- (app_nil_r (rdata_of fr)), peer_conn_window_rdata. cbn [peer_conn_window].
      unfold PInv. rewrite Q, r4. pose proof (dlen_nonneg fr) as DN. split; [clear - P1 DN; lia|].
      intros F1 F2 F3.
      assert (DZ : dlen fr = 0%Z).
      { unfold dlen. destruct (sf_kind fr) eqn:K; try reflexivity. destruct (D fr eq_refl K); congruence. }
      rewrite DZ. rewrite P2; [lia | eapply closing_false_mono; eassumption | congruence | congruence].
    + (* forwarded: the frame joins the queue *)
      cbn [rl_takes]. rewrite RD. rewrite <- (app_nil_r (rdata_of fr)), peer_conn_window_rdata. cbn [peer_conn_window].
      unfold PInv. rewrite Q, r4, qdata_app. cbn [qdata]. split; [clear - P1; lia|].
      intros F1 F2 F3. rewrite P2; [lia | eapply closing_false_mono; eassumption | congruence | congruence].
  - (* the stream loop *)
    rewrite step_EvSL. cbn [rl_takes app]. destruct (sc_sl_done c) eqn:SD.
    { rewrite (new_out_same _ _ _ eq_refl). exact P. }
    destruct (sc_readerQ c) as [|fr q] eqn:EQ.
    + destruct (sc_rl_done c) eqn:RLD.
      * assert (CS : CStep c (note (upd_done c true true) (OExit 1 1)) 0).
        { apply CStep_NoCredit. split; [|eapply out_ext_cons; [reflexivity | exact I]].
          eapply Frame_trans; [|apply Frame_note]. constructor; sc_cbn; first [reflexivity | flia | (symmetry; exact RLD) | (right; reflexivity) | (intro; assumption)]. }
        specialize (Z0 _ CS eq_refl). cbn [rl_takes app] in Z0. apply Z0.
        rewrite step_EvSL, SD, EQ, RLD. reflexivity.
      * rewrite (new_out_same _ _ _ eq_refl). exact P.
    + destruct A as (A1 & A2 & A3 & A4). rewrite EQ in A2, A3. inversion A2; subst. inversion A3; subst.
      destruct (sl_frame_cstep _ dec_field enc_set_max cfg (upd_readerQ c q) fr Cfg) as (d & CS & Hd); try assumption.
      set (c' := fst (sl_frame dec_field enc_set_max cfg (upd_readerQ c q) fr)) in *.
      destruct CS as [c0 c1 c2 c3 c4 c5 (new & E & _ & I & Q)]. sc_cbn_in c1. sc_cbn_in c2. sc_cbn_in c3.
      sc_cbn_in c4. sc_cbn_in c5. sc_cbn_in E. sc_cbn_in I. sc_cbn_in Q.
      rewrite (new_out_rcredits _ _ _ E), (peer_conn_window_credits _ (rcredits_only _)).
      destruct P as [P1 P2]. rewrite EQ in P1, P2. cbn [qdata] in P1, P2.
      pose proof (dlen_nonneg fr) as DN.
      unfold PInv. rewrite c1. split.
      * destruct Hd as [->|[-> _]]; clear - P1 I DN; lia.
      * intros F1 F2 F3.
        assert (G1 : sc_closing c = false) by (eapply closing_false_mono; eassumption).
        assert (G2 : sc_sl_done c = false) by exact SD.
        assert (G3 : sc_wl_dead c = false) by congruence.
        specialize (P2 G1 G2 G3). specialize (Q G3).
        destruct Hd as [->|[_ [X|X]]]; [clear - P2 Q; lia | congruence | congruence].
  - rewrite step_EvDone. destruct (sc_sl_done c) eqn:SD.
    { cbn [rl_takes app]. rewrite (new_out_same _ _ _ eq_refl). exact P. }
    apply (Z0 _ (CStep_NoCredit _ _ _ _ (sl_done_NoCredit _ enc_field cfg c sid r)) eq_refl).
    rewrite step_EvDone, SD. reflexivity.
  - rewrite step_EvClock. cbn [rl_takes app]. destruct (sc_now c <? t)%Z;
      [rewrite (new_out_same _ c (upd_now c t) eq_refl) | rewrite (new_out_same _ c c eq_refl)]; cbn [peer_conn_window];
      [destruct P as [P1 P2]; split; [exact P1 | exact P2] | exact P].
  - rewrite step_EvTimer. destruct (sc_sl_done c) eqn:SD.
    { cbn [rl_takes app]. rewrite (new_out_same _ _ _ eq_refl). exact P. }
    apply (Z0 _ (CStep_NoCredit _ _ _ _ (sl_timer_NoCredit _ cfg c)) eq_refl).
    rewrite step_EvTimer, SD. reflexivity.
  - rewrite step_EvIdle.
    pose proof (Quiet_idle _ c) as Q.
    apply (Z0 _ (CStep_NoCredit _ _ _ _ (NoCredit_Quiet _ _ _ Q)) eq_refl). apply step_EvIdle.
  - rewrite step_EvCloser. destruct (sc_closer c && negb (sc_sl_done c)) eqn:CL.
    + apply (Z0 _ (CStep_NoCredit _ _ _ _ (NoCredit_Quiet _ _ _ (Quiet_brk _ c))) eq_refl).
      rewrite step_EvCloser, CL. reflexivity.
    + cbn [rl_takes app]. rewrite (new_out_same _ _ _ eq_refl). exact P.
  - rewrite step_EvWriteFail. cbn [rl_takes app]. rewrite (new_out_same _ c (upd_wl_dead c true) eq_refl). cbn [peer_conn_window].
    destruct P as [P1 P2]. split; [exact P1|]. sc_cbn. intros _ _ X. discriminate.
Qed.

Lemma PInv_from evs : cfg_ok cfg -> Forall wire_ev evs -> forall c w, AInv c -> PInv c w ->
  PInv (run_from c evs) (peer_conn_window w (rtimeline_from c evs)).
Proof.
  intros Cfg. induction evs as [|e evs IH]; intros W c w A P; [exact P|].
  inversion W; subst. rewrite run_from_cons. cbn [SrvFlowDefs.rtimeline_from]. rewrite peer_conn_window_app.
  apply IH; [assumption | apply step_AInv; assumption | apply step_PInv; assumption].
Qed.

(* C14 (c), (e). The peer starts with the connection window the handshake gives it: the server's
   SETTINGS do not change it (65535) and server.go's Handshake sends WINDOW_UPDATE(0, maxWindow - 65535) before
   the first frame is read, which is outside the model: w0 = cf_maxWindow. *)
Theorem peer_connection_window evs : cfg_ok cfg -> Forall wire_ev evs ->
  let c := run evs in
  let w := peer_conn_window (cf_maxWindow cfg) (rtimeline hstate dec_field enc_field enc_set_max cfg h0 evs) in
  (w <= sc_currentWindow c - qdata (sc_readerQ c))%Z /\
  (w <= cf_maxWindow cfg <= 2147483647)%Z /\
  (sc_closing c = false -> sc_sl_done c = false -> sc_wl_dead c = false ->
   w = (sc_currentWindow c - qdata (sc_readerQ c))%Z /\
   (sc_readerQ c = [] -> (cf_maxWindow cfg / 2 <= w)%Z)).
Proof.
  intros Cfg W. cbv zeta. pose proof (AInv_run _ dec_field enc_field enc_set_max cfg h0 evs Cfg W) as A.
  assert (P0 : PInv (init_conn cfg h0) (cf_maxWindow cfg)).
  { split; cbn; [lia | intros; lia]. }
  pose proof (PInv_from evs Cfg W _ _ (AInv_init _ cfg h0 Cfg) P0) as [P1 P2].
  rewrite <- run_eq in P1, P2. fold (rtimeline hstate dec_field enc_field enc_set_max cfg h0 evs) in P1, P2.
  destruct A as ((B1 & B2) & _). pose proof (qdata_nonneg (sc_readerQ (run evs))) as QN.
  split; [exact P1|]. split; [destruct Cfg; unfold MAXWIN in *; clear - P1 B2 QN H0; lia|].
  intros F1 F2 F3. specialize (P2 F1 F2 F3). split; [exact P2|]. intro E. rewrite E in P2. cbn [qdata] in P2.
  clear - P2 B1. lia.
Qed.

(* (d): stream credit *)

Lemma In_new_out c c' new o : sc_out c' = new ++ sc_out c -> In o new -> In o (new_out hstate c c').
Proof. intros E H. rewrite (new_out_ext _ _ _ _ E). apply in_rev. rewrite rev_involutive. exact H. Qed.

(* a DATA frame without END_STREAM that is accepted into the request body of a stream in the table is answered,
   in the same step, by WINDOW_UPDATE(stream, length of the frame on the wire, padding included) *)
Theorem data_stream_credit c fr q s :
  sc_sl_done c = false -> sc_wl_dead c = false -> sc_readerQ c = fr :: q ->
  sf_kind fr = KData -> sf_sid fr <> 0 -> sf_sid fr <= sc_lastID c ->
  strms_search (sc_strms c) (sf_sid fr) = Some s -> data_accepts s = true ->
  ((0 <? cf_maxBody cfg) && (cf_maxBody cfg <? st_recvBody s + Z.of_N (len (sf_payload fr))))%Z = false ->
  flag_has (sf_flags fr) FL_ES = false -> 0 < sf_len fr ->
  In (OWinUpd (sf_sid fr) (Z.of_N (sf_len fr))) (new_out hstate c (step c EvSL)).
Proof.
  intros SD WD EQ K NZ LE F DA MB ES LEN.
  rewrite step_EvSL, SD, EQ.
  set (c0 := upd_readerQ c q).
  assert (Z0 : (sf_sid fr =? 0) = false) by flia.
  assert (DC : fkind_eqb (sf_kind fr) KCont && negb (sc_discardID c0 =? 0) && (sf_sid fr =? sc_discardID c0) = false)
    by (rewrite K; reflexivity).
  rewrite (sl_frame_stream _ dec_field enc_set_max cfg c0 fr Z0 DC).
  assert (PRE : sl_pre dec_field cfg c0 fr = inr (c0, s)).
  { unfold sl_pre. cbv zeta. subst c0. sc_cbn. assert (X : (sf_sid fr <=? sc_lastID c) = true) by flia. rewrite X, F. reflexivity. }
  rewrite PRE. unfold sl_tail. rewrite K. cbn [fkind_eqb].
  pose proof (handle_frame_data _ dec_field cfg c0 s fr K) as HD. cbv zeta in HD. rewrite DA, MB in HD. rewrite HD.
  set (s1 := set_recv s _ _). set (n := Z.of_N (sf_len fr)).
  set (c3 := consume_recv_window cfg c0 s1 fr n).
  destruct (after_frame_NoCredit _ cfg c3 s1 fr (sc_closing c0)) as [_ (new2 & E2 & _)].
  assert (E3 : exists new1, sc_out c3 = new1 ++ OWinUpd (sf_sid fr) n :: sc_out c).
  { subst c3. unfold consume_recv_window. assert (X : (n <=? 0)%Z = false) by (subst n; flia). rewrite X, ES.
    assert (I1 : st_id s1 = sf_sid fr) by (apply strms_search_In in F; apply F).
    rewrite I1.
    assert (O1 : sc_out (write_window_update c0 (sf_sid fr) n) = OWinUpd (sf_sid fr) n :: sc_out c).
    { unfold write_window_update. rewrite sc_out_emit. subst c0. sc_cbn. rewrite WD, SD. reflexivity. }
    destruct (rv_out _ _ _ (Recv_credit _ cfg (write_window_update c0 (sf_sid fr) n) n)) as (new1 & E1 & _).
    exists new1. rewrite E1, O1. reflexivity. }
  destruct E3 as (new1 & E3).
  apply (In_new_out c _ (new2 ++ new1 ++ [OWinUpd (sf_sid fr) n])).
  - cbn [fst snd]. change (sc_closing c) with (sc_closing c0). rewrite E2, E3. rewrite <- !app_assoc. reflexivity.
  - apply in_or_app. right. apply in_or_app. right. left. reflexivity.
Qed.

End PeerView.
