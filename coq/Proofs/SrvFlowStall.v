(* Proofs/SrvFlowStall.v - C06 progress, the no-stall invariant: whenever the stream loop is waiting for its next
   event, a stream whose response still has bytes to send is blocked by a window: its own or the connection's. *)
From H2V Require Import Base.Bytes Base.MachineInt Base.Result Gen.GenConsts Impl.ServerConn Proofs.SrvBase
  Spec.FlowLedger Proofs.SrvFlowLedger Proofs.SrvFlowDefs Proofs.SrvFlowSend Proofs.SrvFlowEff Proofs.SrvFlowSafe
  Proofs.SrvFlowSafeB Proofs.SrvFlowSafeC Proofs.SrvFlowFuel Proofs.SrvFlowCDecomp.
From Coq Require Import ZArith Lia ZifyN ZifyNat ZifyBool List.
Import ListNotations.
Local Open Scope N_scope.
Set Default Proof Using "Type".

(* the stream has been answered, its handler is done, and bytes remain: the condition under which the loop sends *)
Definition wants (s : stream) : bool := st_responded s && negb (st_handlerRunning s) && has_more_to_send s.

Lemma del_put_In l y x : In x (strms_del (strms_put l y) (st_id y)) -> In x l.
Proof.
  induction l as [|a t IH]; cbn [strms_put strms_del]; [intros []|].
  destruct (st_id a =? st_id y) eqn:E; cbn [strms_del].
  - rewrite N.eqb_refl. intro H. right. exact H.
  - rewrite E. cbn [In]. intros [H|H]; auto.
Qed.

Section Stall.
Variable hstate : Type.
Variable dec_field : hstate -> N -> bytes -> dec_res hstate.
Variable enc_field : hstate -> bytes -> bytes -> bool -> bytes * hstate.
Variable enc_set_max : hstate -> N -> hstate.
Variable cfg : config.
Notation sconn := (sconn hstate).
Implicit Types c : sconn.
Notation Sim := (SimX hstate None).

Definition stalled c (s : stream) : Prop := wants s = true -> (Z.min (st_window s) (sc_clientWindow c) <= 0)%Z.
Definition NS c : Prop := forall s, In s (sc_strms c) -> stalled c s.

Lemma stalled_mono c c' s : (sc_clientWindow c' <= sc_clientWindow c)%Z -> stalled c s -> stalled c' s.
Proof. intros H S W. specialize (S W). flia. Qed.

Lemma NS_mono c c' : (forall s, In s (sc_strms c') -> In s (sc_strms c)) -> (sc_clientWindow c' <= sc_clientWindow c)%Z ->
  NS c -> NS c'.
Proof. intros HS HC H s Hs. eapply stalled_mono; [exact HC | apply H, HS, Hs]. Qed.

Lemma NS_Quiet c c' : Quiet c c' -> NS c -> NS c'.
Proof. intros Q. apply NS_mono; [rewrite (q_strms _ _ _ Q); auto | rewrite (q_clientWindow _ _ _ Q); flia]. Qed.
Lemma NS_Closes c c' : Closes c c' -> NS c -> NS c'.
Proof. intros Q. apply NS_mono; [apply Dels_In, Q | rewrite (cl_clientWindow _ _ _ Q); flia]. Qed.
Lemma NS_Recv c c' : Recv c c' -> NS c -> NS c'.
Proof. intros Q. apply NS_mono; [rewrite (rv_strms _ _ _ Q); auto | rewrite (rv_clientWindow _ _ _ Q); flia]. Qed.

(* sendData stops only for a good reason *)
Lemma send_data_ns c s :
  let r := send_data c s in
  (snd r = true \/ (Z.min (st_window (snd (fst r))) (sc_clientWindow (fst (fst r))) <= 0)%Z) /\
  (sc_clientWindow (fst (fst r)) <= sc_clientWindow c)%Z /\ sc_strms (fst (fst r)) = sc_strms c.
Proof.
  cbv zeta. unfold send_data.
  pose proof (send_data_SDL _ (st_id s) c (get_snd s)) as H.
  pose proof (SDL_stalls _ _ _ _ _ H) as [A B].
  pose proof (SDL_Frame _ _ _ _ _ _ H) as (_ & E1 & _).
  destruct (send_data_loop (send_data_fuel (get_snd s)) c (st_id s) (get_snd s)) as [[[c1 n1] done] wr].
  cbn [fst snd] in *. split; [|split; assumption].
  destruct A as [->|A]; [left; reflexivity|]. destruct done; [left; reflexivity|]. right.
  unfold sd_avail in A. rewrite zmin_min in A. destruct wr; cbn [st_window set_weReset set_snd sn_window]; exact A.
Qed.

Lemma finish_request_ns c s r :
  let res := finish_request enc_field c s r in
  (snd res = true \/ (Z.min (st_window (snd (fst res))) (sc_clientWindow (fst (fst res))) <= 0)%Z) /\
  (sc_clientWindow (fst (fst res)) <= sc_clientWindow c)%Z /\ sc_strms (fst (fst res)) = sc_strms c.
Proof.
  cbv zeta. unfold finish_request. destruct (response_block enc_field (sc_enc c) r) as [blk e'].
  match goal with |- context [if ?b then _ else _] => destruct b end.
  - cbn [fst snd]. split; [left; reflexivity|]. rewrite sc_clientWindow_emit, sc_strms_emit. sc_cbn. split; [flia | reflexivity].
  - match goal with |- context [send_data ?c1 ?s1] => destruct (send_data_ns c1 s1) as (A & B & C) end.
    rewrite sc_clientWindow_emit in B. rewrite sc_strms_emit in C. sc_cbn_in B. sc_cbn_in C. auto.
Qed.

(* flushStreams: T = ids still to visit, D = ids finished in this pass *)
Definition FL (T D : list N) c : Prop :=
  forall s, In s (sc_strms c) -> ~ In (st_id s) T -> In (st_id s) D \/ stalled c s.

Lemma flush_loop_ns ids : forall c done L, Sim c L -> FL ids done c ->
  FL [] (snd (flush_loop c ids done)) (fst (flush_loop c ids done)).
Proof.
  induction ids as [|id t IH]; intros c done L S H; cbn [flush_loop]; [exact H|].
  destruct (strms_search (sc_strms c) id) as [s0|] eqn:F.
  - apply strms_search_In in F. destruct F as [Hin Hid].
    destruct (st_responded s0 && negb (st_handlerRunning s0) && has_more_to_send s0) eqn:W.
    + assert (Hh : held L s0) by (apply (sim_strm _ _ _ _ S); [assumption | discriminate]).
      assert (Hle : st_id s0 <= sc_lastID c) by (apply (sim_le _ _ _ _ S); assumption).
      destruct (send_data_led _ None c s0 L S (or_introl eq_refl) Hh Hle) as (L1 & Led & S1 & H1 & I1 & Lid).
      destruct (send_data_ns c s0) as (A & B & C).
      destruct (send_data c s0) as [[c1 s1] fin]. cbn [fst snd] in *.
      assert (S2 : Sim (put c1 s1) L1).
      { eapply SimX_put; [exact S1 | right; congruence | exact H1 | rewrite I1, Lid; exact Hle]. }
      eapply IH; [exact S2|].
      intros s Hs NT. unfold put in Hs. sc_cbn_in Hs.
      apply strms_put_In_strong in Hs; [|rewrite C; apply (sim_nodup _ _ _ _ S)].
      destruct Hs as [->|[Hs NE]].
      * destruct A as [->|A]; [left; apply in_or_app; right; left; congruence|].
        right. intros _. unfold put. sc_cbn. exact A.
      * rewrite C in Hs. destruct (H s Hs) as [HD|HS].
        -- intros [E|E]; [congruence | contradiction].
        -- left. destruct fin; [apply in_or_app; left|]; exact HD.
        -- right. eapply stalled_mono; [|exact HS]. unfold put. sc_cbn. exact B.
    + eapply IH; [exact S|]. intros s Hs NT. destruct (N.eq_dec (st_id s) id) as [E|E].
      * assert (s = s0) by (eapply (NoDup_map_inj _ _ st_id); [apply (sim_nodup _ _ _ _ S) | exact Hs | exact Hin | congruence]). subst s0.
        right. intro W'. unfold wants in W'. congruence.
      * apply H; [exact Hs|]. intros [X|X]; [congruence | contradiction].
  - eapply IH; [exact S|]. intros s Hs NT. apply H; [exact Hs|].
    intros [X|X]; [|contradiction]. eapply strms_search_None; eauto.
Qed.

Lemma flush_streams_ns c L : Sim c L -> NS (flush_streams c).
Proof.
  intro S. unfold flush_streams.
  assert (H0 : FL (map st_id (sc_strms c)) [] c).
  { intros s Hs NT. exfalso. apply NT. apply in_map. exact Hs. }
  pose proof (flush_loop_ns _ c [] L S H0) as H1.
  destruct (flush_loop_led _ (map st_id (sc_strms c)) c [] L S) as (L' & _ & S').
  destruct (flush_loop c (map st_id (sc_strms c)) []) as [c1 done]. cbn [fst snd] in *.
  pose proof (close_all_Closes _ done c1) as CL.
  intros s Hs.
  pose proof (Dels_In _ _ (cl_strms _ _ _ CL) _ Hs) as Hs1.
  destruct (H1 s Hs1 (fun X => X)) as [HD|HS]; [|eapply stalled_mono; [|exact HS]; rewrite (cl_clientWindow _ _ _ CL); flia].
  exfalso. (* a finished stream is closed at the end of the pass *)
  exact (close_all_notin _ done c1 (sim_nodup _ _ _ _ S') s Hs HD).
Qed.

(* afterFrame re-establishes the invariant for the stream it worked on *)
Lemma after_frame_ns c s fr wc : NS c ->
  sc_sl_done (fst (after_frame cfg c s fr wc)) = true \/ NS (fst (after_frame cfg c s fr wc)).
Proof.
  intro H. destruct (after_frame_cases _ cfg c s fr wc) as (c2 & s2 & M & E).
  assert (M' : (sc_clientWindow c2 <= sc_clientWindow c)%Z /\ sc_strms c2 = sc_strms c /\
               (sstate_eqb (st_state s2) SClosed = true \/ stalled c2 s2)).
  { destruct M as [s0 _ _|s0 _ _|c1 s3 fin _ W SD|_ W].
    - rewrite sc_clientWindow_write_reset, sc_strms_write_reset. split; [flia|]. split; [reflexivity|]. left. reflexivity.
    - unfold note. sc_cbn. split; [flia|]. split; [reflexivity|]. right. intro W. unfold wants in W. cbn in W. discriminate.
    - destruct (send_data_ns c (handle_state fr s)) as (A & B & C). rewrite SD in A, B, C. cbn [fst snd] in *.
      split; [exact B|]. split; [exact C|]. destruct fin; [left; reflexivity|].
      right. intros _. destruct A as [A|A]; [discriminate | exact A].
    - split; [flia|]. split; [reflexivity|]. right. intro W'. unfold wants in W'. congruence. }
  destruct M' as (B & C & D).
  assert (G : NS (put_close c2 s2)).
  { unfold put_close. destruct (sstate_eqb (st_state s2) SClosed) eqn:CLS.
    - intros x Hx. rewrite sc_strms_close_stream in Hx. unfold put in Hx. sc_cbn_in Hx. apply del_put_In in Hx.
      rewrite C in Hx. eapply stalled_mono; [|apply H, Hx]. rewrite sc_clientWindow_close_stream. unfold put. sc_cbn. exact B.
    - destruct D as [D|D]; [discriminate|]. intros x Hx. unfold put in Hx. sc_cbn_in Hx.
      apply strms_put_In in Hx. destruct Hx as [->|Hx]; [exact D|]. rewrite C in Hx.
      eapply stalled_mono; [|apply H, Hx]. unfold put. sc_cbn. exact B. }
  destruct E as [-> | ->]; [right; exact G | left; reflexivity].
Qed.

Lemma sl_done_ns c sid r : NS c ->
  sc_sl_done (fst (sl_done enc_field cfg c sid r)) = true \/ NS (fst (sl_done enc_field cfg c sid r)).
Proof.
  intro H. unfold sl_done. destruct (take_stream (sc_gone c) sid) as [[s rest]|].
  - right. cbn [fst cont]. eapply NS_Quiet; [|exact H].
    apply Quiet_release_gone.
  - destruct (strms_search (sc_strms c) sid) as [s|]; [|right; exact H].
    destruct (negb (st_handlerRunning s)); [right; exact H|].
    destruct (finish_request_ns c (set_flags s (st_responded s) false (st_abandoned s)) r) as (A & B & C).
    destruct (finish_request enc_field c _ r) as [[c1 s2] fin]. cbn [fst snd] in *.
    match goal with |- context [if ?b then brk ?x else cont ?x] => assert (G : NS x) end.
    { destruct fin.
      - intros x Hx. rewrite sc_strms_close_stream in Hx. unfold put in Hx. sc_cbn_in Hx.
        pose proof (del_put_In _ (set_state s2 SClosed) _ Hx) as Hx'.
        rewrite C in Hx'. eapply stalled_mono; [|apply H, Hx'].
        rewrite sc_clientWindow_close_stream. unfold put. sc_cbn. exact B.
      - destruct A as [A|A]; [discriminate|]. intros x Hx. unfold put in Hx. sc_cbn_in Hx.
        apply strms_put_In in Hx. destruct Hx as [->|Hx]; [intros _; unfold put; sc_cbn; exact A|]. rewrite C in Hx.
        eapply stalled_mono; [|apply H, Hx]. unfold put. sc_cbn. exact B. }
    match goal with |- context [if ?b then brk ?x else cont ?x] => destruct b end; cbn [fst cont]; [left; reflexivity | right; exact G].
Qed.

Lemma wants_same a b : same_win a b -> st_responded b = st_responded a -> st_handlerRunning b = st_handlerRunning a ->
  wants b = wants a.
Proof. intros SW E1 E2. unfold wants. rewrite E1, E2, (same_win_has_more _ _ SW). reflexivity. Qed.

Lemma sl_frame_ns c fr L : Sim c L -> NS c ->
  sc_sl_done (fst (sl_frame dec_field enc_set_max cfg c fr)) = true \/ NS (fst (sl_frame dec_field enc_set_max cfg c fr)).
Proof.
  intros S H.
  destruct (sl_frame_SLF _ dec_field enc_set_max cfg c fr)
    as [c' Q D P3 | c' F O SD | Z K HW c0 newInit delta Fa | Z K W | NZ K | c1 s p NZ Or KH Hp | c1 s c2 cX sX NZ Or CL HF].
  - right. eapply NS_Quiet; eassumption.
  - left. exact SD.
  - right. pose proof (settings_Sim _ enc_set_max c fr L S) as S2. cbv zeta in S2. eapply flush_streams_ns. exact S2.
  - right. eapply flush_streams_ns. apply (winupd_Sim _ c (sf_inc fr) L S).
  - right. eapply NS_Recv; [apply Recv_credit | exact H].
  - (* the previous stream's header block is not finished *)
    right.
    assert (H1 : NS c1).
    { destruct Or as [s LE F | KH' FD HI LA]; [exact H|]. intros x Hx. sc_cbn_in Hx. apply in_app_or in Hx.
      destruct Hx as [Hx|[<-|[]]]; [apply H, Hx | intro W; discriminate]. }
    intros x Hx. unfold put in Hx. sc_cbn_in Hx. rewrite sc_strms_write_goaway in Hx. apply strms_put_In in Hx.
    assert (CW : sc_clientWindow (put (write_goaway c1 (st_id p) c_ProtocolError) (set_state p SClosed)) = sc_clientWindow c1).
    { unfold put. sc_cbn. apply sc_clientWindow_write_goaway. }
    destruct Hx as [->|Hx].
    + intro W. unfold stalled in H1. rewrite CW. apply (H1 p Hp). exact W.
    + intro W. rewrite CW. apply (H1 x Hx W).
  - (* the frame is handled on its stream *)
    assert (H1 : NS c1).
    { destruct Or as [s LE F | KH' FD HI LA]; [exact H|]. intros x Hx. sc_cbn_in Hx. apply in_app_or in Hx.
      destruct Hx as [Hx|[<-|[]]]; [apply H, Hx | intro W; discriminate]. }
    destruct (HFok_eff _ dec_field cfg c2 s fr cX sX HF) as (c3 & s3 & R & Q & _).
    apply after_frame_ns. eapply NS_Quiet; [exact Q|]. eapply NS_Recv; [exact R|]. eapply NS_Closes; eassumption.
Qed.

Variable h0 : hstate.
Notation step := (step dec_field enc_field enc_set_max cfg).
Notation Inv := (Inv hstate).

Definition NInv c : Prop := sc_sl_done c = true \/ NS c.

Lemma NInv_same c c' : sc_strms c' = sc_strms c -> sc_clientWindow c' = sc_clientWindow c ->
  (sc_sl_done c = true -> sc_sl_done c' = true) -> NInv c -> NInv c'.
Proof.
  intros E1 E2 E3 [H|H]; [left; auto | right]. eapply NS_mono; [rewrite E1; intros x Hx; exact Hx | rewrite E2; flia | exact H].
Qed.

Lemma step_ns c e L : Inv c L -> NInv c -> NInv (step c e).
Proof.
  intros I H. destruct e as [i| |sid r|t| | | |].
  - rewrite step_EvRL. destruct (sc_rl_done c); [exact H|].
    destruct (rl_step_eff _ cfg c i) as [[r1 r2 r3 r4 r5 r6 r7 r8 r9 r10] _].
    eapply NInv_same; [exact r1 | exact r3 | congruence | exact H].
  - rewrite step_EvSL. destruct (sc_sl_done c) eqn:SD; [exact H|].
    destruct I as [I|S]; [congruence|]. destruct H as [H|H]; [congruence|].
    destruct (sc_readerQ c) as [|fr q].
    + destruct (sc_rl_done c); [left; reflexivity | right; exact H].
    + apply (sl_frame_ns (upd_readerQ c q) fr L); [eapply SimX_same; [..|exact S]; reflexivity | exact H].
  - rewrite step_EvDone. destruct (sc_sl_done c) eqn:SD; [exact H|].
    destruct H as [H|H]; [congruence|]. apply sl_done_ns. exact H.
  - rewrite step_EvClock. destruct (sc_now c <? t)%Z; [|exact H]. eapply NInv_same; [..|exact H]; auto.
  - rewrite step_EvTimer. destruct (sc_sl_done c) eqn:SD; [exact H|].
    destruct H as [H|H]; [congruence|]. right. unfold sl_timer.
    destruct (cf_maxRequestTime cfg <=? 0)%Z; cbn [fst cont]; [exact H|].
    eapply NS_Closes; [apply close_heads_Closes | exact H].
  - rewrite step_EvIdle.
    pose proof (Quiet_idle _ c) as Q.
    eapply NInv_same; [apply Q | apply Q | | exact H]. intro SD. destruct (q_sl_done _ _ _ Q) as [X|X]; congruence.
  - rewrite step_EvCloser. destruct (sc_closer c && negb (sc_sl_done c)); [left; reflexivity | exact H].
  - rewrite step_EvWriteFail. eapply NInv_same; [..|exact H]; auto.
Qed.

Lemma ns_from evs : forall c L, Inv c L -> NInv c -> NInv (run_from dec_field enc_field enc_set_max cfg c evs).
Proof.
  induction evs as [|e evs IH]; intros c L I H; [exact H|]. rewrite run_from_cons.
  destruct (StepOK_tl _ dec_field enc_field enc_set_max cfg c e L I) as (_ & I' & _).
  eapply IH; [exact I' | eapply step_ns; eassumption].
Qed.

(* C06 progress, the no-stall invariant: after any events, while the stream loop runs, every stream of the table
   whose response has been handed over (responded, handler finished) and still has bytes to send is blocked by a
   window that is not positive: its own or the connection's. *)
Theorem no_stall evs s :
  let c := run dec_field enc_field enc_set_max cfg h0 evs in
  sc_sl_done c = false -> In s (sc_strms c) ->
  st_responded s && negb (st_handlerRunning s) && has_more_to_send s = true ->
  (zmin (st_window s) (sc_clientWindow c) <= 0)%Z.
Proof.
  cbv zeta. intros SD Hs W. rewrite zmin_min.
  assert (N : NInv (run dec_field enc_field enc_set_max cfg h0 evs)).
  { rewrite run_eq. eapply ns_from; [apply Inv_init|]. right. intros x []. }
  destruct N as [N|N]; [congruence|]. exact (N s Hs W).
Qed.

End Stall.
