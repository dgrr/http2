(* Proofs/CliFlowOut.v - what the moves of Proofs/CliFlowMoves.v add to the trace; invariants by closure under
   the moves; the run as a ledger history (C07) for any HPACK coder. *)
From H2V Require Import Base.Bytes Base.MachineInt Base.Result Gen.GenConsts Impl.ServerConn Impl.ClientConn
     Proofs.CliBase Proofs.CliDefs Spec.FlowLedger Proofs.SrvFlowLedger Proofs.CliFlowMoves.
From Coq Require Import ZArith Lia ZifyN ZifyNat ZifyBool List Bool.
Import ListNotations.
Local Open Scope N_scope.
Set Default Proof Using "Type".

Lemma pend_del_ids_incl l id x : In x (map pb_id (cl_pend_del l id)) -> In x (map pb_id l).
Proof.
  induction l as [|q t IH]; cbn [cl_pend_del map]; [auto|].
  destruct (pb_id q =? id); cbn [map]; [intro; right; assumption|]. intros [->|H]; [left; reflexivity | right; auto].
Qed.

Lemma pend_del_NoDup l id : NoDup (map pb_id l) -> NoDup (map pb_id (cl_pend_del l id)).
Proof.
  induction l as [|q t IH]; cbn [cl_pend_del map]; [auto|]. intro H. inversion H; subst.
  destruct (pb_id q =? id); [assumption|]. cbn [map]. constructor; [|auto].
  intro X. apply pend_del_ids_incl in X. contradiction.
Qed.

Lemma pend_del_not_In l id p : NoDup (map pb_id l) -> In p (cl_pend_del l id) -> pb_id p <> id.
Proof.
  induction l as [|q t IH]; cbn [cl_pend_del map]; [intros _ []|]. intro H. inversion H; subst.
  destruct (pb_id q =? id) eqn:E.
  - apply N.eqb_eq in E. subst id. intros HI X. apply H2. rewrite <- X. apply in_map. exact HI.
  - intros [->|HI]; [apply N.eqb_neq; exact E | auto].
Qed.

Lemma pend_put_In l x p : NoDup (map pb_id l) -> In p (cl_pend_put l x) -> p = x \/ (In p l /\ pb_id p <> pb_id x).
Proof.
  induction l as [|q t IH]; cbn [cl_pend_put map]; [intros _ []|]. intro H. inversion H; subst.
  destruct (pb_id q =? pb_id x) eqn:E.
  - apply N.eqb_eq in E. intros [->|HI]; [left; reflexivity|]. right. split; [right; assumption|].
    intro X. apply H2. rewrite E, <- X. apply in_map. exact HI.
  - intros [->|HI]; [right; split; [left; reflexivity | apply N.eqb_neq; exact E]|].
    destruct (IH H3 HI) as [->|[A B]]; [left; reflexivity | right; split; [right; assumption | assumption]].
Qed.

Lemma pend_get_put_same l x : cl_pend_get l (pb_id x) <> None -> cl_pend_get (cl_pend_put l x) (pb_id x) = Some x.
Proof. intro H. rewrite cl_pend_get_put, N.eqb_refl. destruct (cl_pend_get l (pb_id x)); [reflexivity | contradiction]. Qed.

Lemma pend_get_put_other l x id : id <> pb_id x -> cl_pend_get (cl_pend_put l x) id = cl_pend_get l id.
Proof. intro H. rewrite cl_pend_get_put. apply N.eqb_neq in H. rewrite H. reflexivity. Qed.

Lemma pend_get_del_same l id : NoDup (map pb_id l) -> cl_pend_get (cl_pend_del l id) id = None.
Proof.
  intro ND. destruct (cl_pend_get (cl_pend_del l id) id) as [p|] eqn:G; [|reflexivity].
  apply cl_pend_get_In in G. destruct G as [HI E]. exfalso. exact (pend_del_not_In l id p ND HI E).
Qed.

Lemma pend_get_del_other l id x : x <> id -> cl_pend_get (cl_pend_del l id) x = cl_pend_get l x.
Proof.
  intro NE. induction l as [|q t IH]; cbn [cl_pend_get cl_pend_del]; [reflexivity|].
  destruct (pb_id q =? id) eqn:E.
  - apply N.eqb_eq in E. destruct (pb_id q =? x) eqn:E2; [apply N.eqb_eq in E2; congruence | reflexivity].
  - cbn [cl_pend_get]. destruct (pb_id q =? x); [reflexivity | exact IH].
Qed.

Lemma pend_del_absent l id : (forall p, In p l -> pb_id p <> id) -> cl_pend_del l id = l.
Proof.
  induction l as [|q t IH]; cbn [cl_pend_del]; [reflexivity|]. intro H.
  destruct (pb_id q =? id) eqn:E; [apply N.eqb_eq in E; exfalso; exact (H q (or_introl eq_refl) E)|].
  rewrite IH; [reflexivity|]. intros p HI. apply H. right. exact HI.
Qed.

Lemma pend_del_app_last l pb : (forall p, In p l -> pb_id p <> pb_id pb) -> cl_pend_del (l ++ [pb]) (pb_id pb) = l.
Proof.
  induction l as [|q t IH]; cbn [cl_pend_del app]; intro H.
  - rewrite N.eqb_refl. reflexivity.
  - destruct (pb_id q =? pb_id pb) eqn:E; [apply N.eqb_eq in E; exfalso; exact (H q (or_introl eq_refl) E)|].
    rewrite IH; [reflexivity|]. intros p HI. apply H. right. exact HI.
Qed.

Section Out.
Variable hstate : Type.
Variable dec_field : hstate -> N -> bytes -> dec_res hstate.
Variable enc_field : hstate -> bytes -> bytes -> bool -> bytes * hstate.
Variable enc_set_max : hstate -> N -> hstate.
Variable cfg : cl_config.
Variable h0 : hstate.
Variable first : bytes.
Notation cconn := (cconn hstate).
Notation move := (move hstate).
Notation apply := (apply hstate enc_field enc_set_max).
Notation valid := (valid hstate).
Notation mvs := (mvs enc_field enc_set_max).
Notation step := (cl_step dec_field enc_field enc_set_max cfg).
Notation run := (cl_run dec_field enc_field enc_set_max cfg h0 first).
Notation init := (cl_init enc_set_max h0 first).

Lemma mvs_inv (I : cconn -> Prop) :
  (forall m c, valid m c -> I c -> I (apply m c)) -> forall c ms c', mvs c ms c' -> I c -> I c'.
Proof. intros H c ms c' M. induction M; auto. Qed.

Lemma step_inv (I : cconn -> Prop) :
  (forall m c, valid m c -> I c -> I (apply m c)) -> forall c e, I c -> I (step c e).
Proof.
  intros H c e HI. destruct (step_D hstate dec_field enc_field enc_set_max cfg c e) as (ms & M & _ & _).
  exact (mvs_inv I H _ _ _ M HI).
Qed.

Definition run_from (c : cconn) (evs : list cevent) : cconn := fold_left step evs c.

Lemma run_from_app c a b : run_from c (a ++ b) = run_from (run_from c a) b.
Proof. apply fold_left_app. Qed.

Lemma run_inv (I : cconn -> Prop) :
  I init -> (forall m c, valid m c -> I c -> I (apply m c)) -> forall evs, I (run evs).
Proof.
  intros H0 H evs. unfold cl_run. generalize init H0. induction evs as [|e t IH]; intros c HI; cbn [fold_left]; [exact HI|].
  apply IH. apply step_inv; assumption.
Qed.

Lemma run_from_inv (I : cconn -> Prop) :
  (forall m c, valid m c -> I c -> I (apply m c)) -> forall evs c, I c -> I (run_from c evs).
Proof.
  intros H evs. induction evs as [|e t IH]; intros c HI; cbn [run_from fold_left]; [exact HI|].
  apply IH. apply step_inv; assumption.
Qed.

(* what a move adds to the trace, oldest first *)
Definition items (m : move) (c : cconn) : list coutev :=
  match m with
  | MNote o => if quietb o then [o] else []
  | MWlWrite => match cc_outQ c with o :: _ => [o] | [] => [] end
  | MWlReset id => [CORst id c_InternalError]
  | MSend id wr =>
    match cl_pend_get (cc_pending c) id with
    | Some pb => if wr then cl_write_data (cc_maxFrame c) id (cs_chunk c pb) (cs_end c pb) else []
    | None => []
    end
  | MHeaders blk opb => [COHeaders (cc_nextID c) (match opb with Some _ => false | None => true end) blk]
  | _ => []
  end.

Lemma out_apply m (c : cconn) : cc_out (apply m c) = rev (items m c) ++ cc_out c.
Proof.
  destruct m; cbn [apply items]; try reflexivity.
  - destruct (quietb o); reflexivity.
  - unfold cl_take_req_count. destruct (cl_req_find _ _); reflexivity.
  - destruct (pushb o); [|reflexivity]. unfold cl_write_out. destruct (cc_closed c); reflexivity.
  - destruct (cc_outQ c); reflexivity.
  - rewrite recv_data_eq. reflexivity.
  - destruct (cl_settings_deserialize false payload); [apply cc_out_cl_handle_settings | reflexivity].
  - apply cc_out_cl_add_window.
  - destruct (cl_pend_get _ _) as [pb|]; [|reflexivity]. destruct (cl_refill pb); reflexivity.
  - destruct (cl_pend_get _ _) as [pb|]; [|reflexivity]. destruct wr; [|unfold cs_conn; destruct (cs_end c pb); reflexivity].
    rewrite cc_out_cl_notes. unfold cs_conn. destruct (cs_end c pb); reflexivity.
  - (* MSendBack *)
    destruct (cl_pend_get _ _) as [pb|]; [|reflexivity]. sb_cases c pb; reflexivity.
  - destruct (negb _); reflexivity.
  - destruct opb; reflexivity.
Qed.

Lemma can_write_notes (c : cconn) l : cl_can_write (cl_notes c l) = cl_can_write c.
Proof. unfold cl_can_write. rewrite cc_writeFail_cl_notes, cc_netClosed_cl_notes. reflexivity. Qed.

(* the moves that touch the send windows, c.pending or c.nextID *)
Definition flow_move (m : move) : bool :=
  match m with
  | MSettings _ | MAddWindow _ _ | MPendDel _ | MPendAddDel _ | MRefill _ | MSend _ _ | MSendBack _ | MNextID | MHeaders _ _ => true
  | _ => false
  end.

Lemma apply_quiet m (c : cconn) : flow_move m = false ->
  cc_pending (apply m c) = cc_pending c /\ cc_connWindow (apply m c) = cc_connWindow c /\
  cc_streamWindow (apply m c) = cc_streamWindow c /\ cc_nextID (apply m c) = cc_nextID c.
Proof.
  intro F. destruct m; try discriminate F; cbn [apply]; try (repeat split; fail).
  - destruct (quietb o); repeat split.
  - unfold cl_take_req_count. destruct (cl_req_find _ _); repeat split.
  - destruct (pushb o); [|repeat split]. unfold cl_write_out. destruct (cc_closed c); repeat split.
  - destruct (cc_outQ c); repeat split.
  - rewrite recv_data_eq. repeat split.
  - destruct (negb _); repeat split.
Qed.

(* no move revives the write loop *)
Lemma apply_live m (c : cconn) : cl_wl_live (apply m c) = true -> cl_wl_live c = true.
Proof.
  unfold cl_wl_live.
  assert (SAME : cc_wl_done (apply m c) = cc_wl_done c -> cc_wl_stuck (apply m c) = cc_wl_stuck c ->
                 negb (cc_wl_done (apply m c)) && negb (cc_wl_stuck (apply m c)) = true -> negb (cc_wl_done c) && negb (cc_wl_stuck c) = true).
  { intros -> ->. auto. }
  destruct m; try (apply SAME; reflexivity).
  - apply SAME; cbn [apply]; destruct (quietb o); reflexivity.
  - cbn [apply]. cc_cbn. discriminate.
  - cbn [apply]. cc_cbn. rewrite andb_false_r. discriminate.
  - apply SAME; cbn [apply]; unfold cl_take_req_count; destruct (cl_req_find _ _); reflexivity.
  - apply SAME; cbn [apply]; (destruct (pushb o); [|reflexivity]); unfold cl_write_out; destruct (cc_closed c); reflexivity.
  - apply SAME; cbn [apply]; destruct (cc_outQ c); reflexivity.
  - apply SAME; cbn [apply]; rewrite recv_data_eq; reflexivity.
  - apply SAME; cbn [apply]; (destruct (cl_settings_deserialize false payload) as [st|]; [|reflexivity]);
      [apply cc_wl_done_cl_handle_settings | apply cc_wl_stuck_cl_handle_settings].
  - apply SAME; cbn [apply]; [apply cc_wl_done_cl_add_window | apply cc_wl_stuck_cl_add_window].
  - apply SAME; cbn [apply]; (destruct (cl_pend_get _ _) as [pb|]; [|reflexivity]); destruct (cl_refill pb); reflexivity.
  - apply SAME; cbn [apply]; (destruct (cl_pend_get _ _) as [pb|]; [|reflexivity]);
      (destruct wr; [rewrite ?cc_wl_done_cl_notes, ?cc_wl_stuck_cl_notes|]);
      unfold cs_conn; destruct (cs_end c pb); reflexivity.
  - apply SAME; cbn [apply]; (destruct (cl_pend_get _ _) as [pb|]; [|reflexivity]); sb_cases c pb; reflexivity.
  - apply SAME; cbn [apply]; destruct (negb (cc_encTableSize c =? cc_encTableSeen c)); reflexivity.
  - apply SAME; cbn [apply]; destruct opb; reflexivity.
Qed.

Fixpoint mitems (c : cconn) (ms : list move) : list coutev :=
  match ms with
  | [] => []
  | m :: t => items m c ++ mitems (apply m c) t
  end.

Lemma mvs_out c ms c' : mvs c ms c' -> cc_out c' = rev (mitems c ms) ++ cc_out c.
Proof.
  induction 1; cbn [mitems]; [reflexivity|]. rewrite IHmvs, out_apply, rev_app_distr, <- app_assoc. reflexivity.
Qed.

(* what a step added to the trace, oldest first (cli_new of Proofs/CliDefs.v, for any coder) *)
Definition g_new (c c' : cconn) : list coutev :=
  rev (firstn (length (cc_out c') - length (cc_out c)) (cc_out c')).

Lemma g_new_ext (c c' : cconn) new : cc_out c' = rev new ++ cc_out c -> g_new c c' = new.
Proof.
  intro H. unfold g_new. rewrite H, app_length.
  rewrite Nat.add_sub. rewrite <- (Nat.add_0_r (length (rev new))).
  rewrite firstn_app_2. cbn [firstn]. rewrite app_nil_r. apply rev_involutive.
Qed.

Lemma mvs_new c ms c' : mvs c ms c' -> g_new c c' = mitems c ms.
Proof. intro M. apply g_new_ext. apply mvs_out. exact M. Qed.

End Out.
