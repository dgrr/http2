(* Proofs/SrvInvOwn.v - ownership of stream objects (and their request contexts) over the whole history of a
   connection: the log interleaves the events with the outputs each step adds; for every stream id the log drives
   an automaton Owned -> Lent -> Returned -> InPool that never reaches Bad. *)
From H2V Require Import Base.Bytes Base.MachineInt Base.Result Gen.GenConsts Impl.ServerConn Proofs.SrvBase
  Proofs.SrvInvMoves Proofs.SrvInvDecomp Proofs.SrvInvSteps Proofs.SrvInvSlots Proofs.SrvInvOut.
From Coq Require Import ZArith Lia ZifyN ZifyNat ZifyBool Permutation.
Local Open Scope N_scope.

Inductive item : Type := IEv (e : event) | IOut (o : outev).

(* who holds the stream object / request context of one stream id *)
Inductive own : Type :=
| Owned       (* the stream loop (or nobody yet): not handed to a handler so far *)
| Lent        (* a handler is running with it *)
| Returned    (* the handler has returned; the stream loop owns it again *)
| InPool      (* released: back in the pools *)
| Bad.        (* a second dispatch, a release under a running handler, a second release, use after release *)

Definition own_step (sid : N) (st : own) (i : item) : own :=
  match i with
  | IOut (ODispatch s _) => if s =? sid then match st with Owned => Lent | _ => Bad end else st
  | IEv (EvDone s _) => if s =? sid then match st with Lent => Returned | x => x end else st
  | IOut (ORelease s _) => if s =? sid then match st with Owned | Returned => InPool | _ => Bad end else st
  | _ => st
  end.
Definition own_run (sid : N) (l : list item) (st : own) : own := fold_left (own_step sid) l st.

Lemma own_run_app sid l1 l2 st : own_run sid (l1 ++ l2) st = own_run sid l2 (own_run sid l1 st).
Proof. apply fold_left_app. Qed.

Lemma own_run_cons sid i l st : own_run sid (i :: l) st = own_run sid l (own_step sid st i).
Proof. reflexivity. Qed.

Lemma own_bad_step sid i : own_step sid Bad i = Bad.
Proof. destruct i as [[]|[]]; cbn; try reflexivity; destruct (_ =? _); reflexivity. Qed.
Lemma own_bad sid l : own_run sid l Bad = Bad.
Proof. induction l as [|i l IH]; [reflexivity|]. cbn [own_run fold_left]. rewrite own_bad_step. exact IH. Qed.

(* outputs the automaton does not look at *)
Definition quiet (o : outev) : Prop := match o with ODispatch _ _ | ORelease _ _ => False | _ => True end.
Lemma own_quiet sid l st : Forall quiet l -> own_run sid (map IOut l) st = st.
Proof.
  induction 1 as [|o l Ho _ IH]; [reflexivity|]. cbn [map own_run fold_left].
  replace (own_step sid st (IOut o)) with st by (destruct o; cbn in *; tauto). exact IH.
Qed.
Lemma frame_quiet o : is_frame o -> quiet o.
Proof. destruct o; cbn; tauto. Qed.
Section Own.
Variable hstate : Type.
Variable dec_field : hstate -> N -> bytes -> dec_res hstate.
Variable enc_field : hstate -> bytes -> bytes -> bool -> bytes * hstate.
Variable enc_set_max : hstate -> N -> hstate.
Variable cfg : config.
Notation Q := QT.
Notation sconn := (sconn hstate).
Notation mv := (mv hstate dec_field cfg Q).
Notation mvs := (mvs hstate dec_field cfg Q).
Notation SI := (SI cfg Q).
Notation step := (step dec_field enc_field enc_set_max cfg).
Implicit Types c : sconn.

(* what a step added to the output, oldest first *)
Definition delta (c c' : sconn) : list outev :=
  rev (firstn (length (sc_out c') - length (sc_out c)) (sc_out c')).

Fixpoint log_from (c : sconn) (evs : list event) : list item :=
  match evs with
  | [] => []
  | e :: t => IEv e :: map IOut (delta c (step c e)) ++ log_from (step c e) t
  end.
Definition log (h0 : hstate) (evs : list event) : list item := log_from (init_conn cfg h0) evs.

Lemma delta_ext c c' l : sc_out c' = l ++ sc_out c -> delta c c' = rev l.
Proof.
  intro E. unfold delta. rewrite E, app_length. replace (length l + length (sc_out c) - length (sc_out c))%nat with (length l) by lia.
  rewrite firstn_app, Nat.sub_diag, firstn_all. cbn [firstn]. rewrite app_nil_r. reflexivity.
Qed.

Definition live (c : sconn) : list stream := sc_strms c ++ sc_gone c.

Definition J (sid : N) (c : sconn) (st : own) : Prop :=
  match st with
  | Owned => forall s, In s (live c) -> st_id s = sid -> st_handlerRunning s = false
  | Lent => sid <= sc_highestID c /\ exists s, In s (live c) /\ st_id s = sid /\ st_handlerRunning s = true
  | Returned => sid <= sc_highestID c /\
                forall s, In s (live c) -> st_id s = sid -> st_handlerRunning s = false /\ st_responded s = true
  | InPool => sid <= sc_highestID c /\ forall s, In s (live c) -> st_id s <> sid
  | Bad => False
  end.

Definition K (sid : N) (c : sconn) (st : own) : Prop := st <> Bad /\ (sc_sl_done c = false -> J sid c st).

(* J only looks at the live streams with that id *)
Lemma J_other sid a b st :
  (forall s, st_id s = sid -> (In s (live a) <-> In s (live b))) -> sc_highestID a <= sc_highestID b ->
  J sid a st -> J sid b st.
Proof.
  intros HI HH. destruct st; cbn [J]; try tauto.
  - intros H s I E. apply (H s); [apply HI|]; assumption.
  - intros [B (s & I & E & R)]. split; [lia|]. exists s. split; [apply HI|]; auto.
  - intros [B H]. split; [lia|]. intros s I E. apply (H s); [apply HI|]; assumption.
  - intros [B H]. split; [lia|]. intros s I E. apply (H s); [apply HI|]; assumption.
Qed.

(* streams related on id, running flag, and responded (which may only be set) *)
Definition krel (s s' : stream) : Prop :=
  st_id s' = st_id s /\ st_handlerRunning s' = st_handlerRunning s /\ (st_responded s = true -> st_responded s' = true).

Lemma J_sim sid a b st :
  (forall s', In s' (live b) -> exists s, In s (live a) /\ krel s s') ->
  (forall s, In s (live a) -> exists s', In s' (live b) /\ krel s s') ->
  sc_highestID a <= sc_highestID b -> J sid a st -> J sid b st.
Proof.
  intros BA AB HH. destruct st; cbn [J]; try tauto.
  - intros H s' I E. destruct (BA s' I) as (s & Is & K1 & K2 & K3). rewrite K2. apply (H s); congruence.
  - intros [B (s & I & E & R)]. split; [lia|]. destruct (AB s I) as (s' & Is & K1 & K2 & K3).
    exists s'. repeat split; congruence.
  - intros [B H]. split; [lia|]. intros s' I E. destruct (BA s' I) as (s & Is & K1 & K2 & K3).
    destruct (H s Is) as [H1 H2]; [congruence|]. split; [congruence | auto].
  - intros [B H]. split; [lia|]. intros s' I E. destruct (BA s' I) as (s & Is & K1 & K2 & K3).
    apply (H s Is). congruence.
Qed.

Lemma sloc_krel s s' : sloc s s' -> krel s s'.
Proof. intros (A & _ & B & C). repeat split; assumption. Qed.

Lemma Forall2_sim (R : stream -> stream -> Prop) l l' : Forall2 R l l' ->
  (forall s', In s' l' -> exists s, In s l /\ R s s') /\ (forall s, In s l -> exists s', In s' l' /\ R s s').
Proof.
  induction 1 as [|x y l l' Rxy _ [IH1 IH2]]; split; intros z [].
  - subst. exists x. split; [left; reflexivity | assumption].
  - destruct (IH1 z H) as (s & I & Rs). exists s. split; [right|]; assumption.
  - subst. exists y. split; [left; reflexivity | assumption].
  - destruct (IH2 z H) as (s & I & Rs). exists s. split; [right|]; assumption.
Qed.

Lemma krel_refl s : krel s s.
Proof. repeat split; auto. Qed.

(* uniqueness of ids among the live streams *)
Lemma live_uniq c s s' : SI c -> sc_sl_done c = false -> In s (live c) -> In s' (live c) -> st_id s = st_id s' -> s = s'.
Proof. intros H Hd I I' E. destruct (si_ids _ _ _ _ H Hd) as [ND _]. eapply NoDup_map_inj; eassumption. Qed.

Lemma live_le c s : SI c -> sc_sl_done c = false -> In s (live c) -> st_id s <= sc_highestID c.
Proof.
  intros H Hd I. destruct (si_ids _ _ _ _ H Hd) as [_ LE]. pose proof (si_hi _ _ _ _ H). specialize (LE s I). lia.
Qed.

Lemma K_quiet sid a b st l :
  sc_out b = l ++ sc_out a -> Forall quiet l ->
  (sc_sl_done b = false -> sc_sl_done a = false) ->
  (sc_sl_done b = false -> J sid a st -> J sid b st) ->
  K sid a st -> exists l, sc_out b = l ++ sc_out a /\ K sid b (own_run sid (map IOut (rev l)) st).
Proof.
  intros E F HD HJ [NB HK]. exists l. split; [assumption|]. rewrite own_quiet by (apply Forall_rev; assumption).
  split; [assumption|]. intro Hd. apply HJ; [assumption|]. apply HK, HD. assumption.
Qed.

Lemma K_same_live sid a b st l :
  sc_out b = l ++ sc_out a -> Forall quiet l -> live b = live a -> sc_highestID a <= sc_highestID b ->
  (sc_sl_done b = false -> sc_sl_done a = false) ->
  K sid a st -> exists l, sc_out b = l ++ sc_out a /\ K sid b (own_run sid (map IOut (rev l)) st).
Proof.
  intros E F EL HH HD. eapply K_quiet; try eassumption. intros _. apply J_other; [|assumption].
  intros s _. rewrite EL. tauto.
Qed.

Lemma mv_K sid a b st : mv None a b -> SI a -> K sid a st ->
  exists l, sc_out b = l ++ sc_out a /\ K sid b (own_run sid (map IOut (rev l)) st).
Proof.
  intros M HS HK. remember None as o eqn:EO. destruct M; try discriminate EO.
  - (* lite *)
    pose proof H0 as L. destruct H0 as (_ & (l & E & F) & _).
    eapply (K_same_live sid c c' st l); try eassumption.
    + eapply Forall_impl; [|exact F]. apply frame_quiet.
    + unfold live. rewrite (lite_strms _ _ _ _ L), (lite_gone _ _ _ _ L). reflexivity.
    + rewrite (lite_highestID _ _ _ _ L). apply N.le_refl.
    + rewrite (lite_sl_done _ _ _ _ L). auto.
  - (* goaway *)
    assert (E : exists l, sc_out (write_goaway c sid0 code) = l ++ sc_out c /\ Forall quiet l).
    { rewrite sc_out_write_goaway, H. destruct (sc_wl_dead c); [exists [] | eexists [_]]; split; try reflexivity; repeat constructor. }
    destruct E as (l & E & F). eapply (K_same_live sid _ _ st l); try eassumption.
    + unfold live. rewrite sc_strms_write_goaway, sc_gone_write_goaway. reflexivity.
    + rewrite sc_highestID_write_goaway. apply N.le_refl.
    + rewrite sc_sl_done_write_goaway. auto.
  - (* mark *)
    rewrite mark_closed_eq.
    eapply (K_same_live sid _ _ st []); try eassumption; [reflexivity | constructor | reflexivity | apply N.le_refl | auto].
  - (* highest *)
    eapply (K_same_live sid _ _ st []); try eassumption; [reflexivity | constructor | reflexivity | sc_cbn; lia | auto].
  - (* strms *)
    eapply (K_quiet sid _ _ st []); try eassumption; [reflexivity | constructor | auto|].
    intros _. destruct (Forall2_sim _ _ _ H0) as [S1 S2].
    apply J_sim; [| |sc_cbn; lia]; unfold live; sc_cbn.
    + intros s' I. apply in_app_or in I. destruct I as [I|I].
      * destruct (S1 s' I) as (s & Is & R). exists s. split; [apply in_or_app; left; assumption | apply sloc_krel; assumption].
      * exists s'. split; [apply in_or_app; right; assumption | apply krel_refl].
    + intros s I. apply in_app_or in I. destruct I as [I|I].
      * destruct (S2 s I) as (s' & Is & R). exists s'. split; [apply in_or_app; left; assumption | apply sloc_krel; assumption].
      * exists s. split; [apply in_or_app; right; assumption | apply krel_refl].
  - (* dispatch *)
    rename H0 into SS. destruct (strms_search_In _ _ _ SS) as [Iold Eid].
    set (b := put (note c (ODispatch (st_id x) (st_req x))) x).
    exists [ODispatch (st_id x) (st_req x)]. split; [reflexivity|]. cbn [rev app map own_run fold_left own_step].
    destruct HK as [NB HJ]. specialize (HJ H).
    assert (Ix : In x (sc_strms b)).
    { unfold b. rewrite sc_strms_put. eapply strms_search_In. eapply search_put_same. exact SS. }
    assert (Nrun : st_handlerRunning old = false).
    { destruct (st_handlerRunning old) eqn:R; [|reflexivity]. pose proof (si_run _ _ _ _ HS) as F. rewrite Forall_forall in F.
      destruct (F old Iold R) as [_ R2]. congruence. }
    destruct (st_id x =? sid) eqn:Es.
    + assert (Esid : st_id x = sid) by (apply N.eqb_eq; exact Es).
      destruct st; cbn [J] in HJ.
      * split; [discriminate|]. intros _. cbn [J]. split.
        -- rewrite <- Esid, <- Eid. apply (live_le c old HS H). apply in_or_app. left. assumption.
        -- exists x. repeat split; [apply in_or_app; left; assumption | assumption | assumption].
      * exfalso. destruct HJ as [_ (s & I & E & R)].
        assert (s = old) by (apply (live_uniq c s old HS H I); [apply in_or_app; left; assumption | congruence]). congruence.
      * exfalso. destruct HJ as [_ HJ]. destruct (HJ old) as [_ R]; [apply in_or_app; left; assumption | congruence | congruence].
      * exfalso. destruct HJ as [_ HJ]. apply (HJ old); [apply in_or_app; left; assumption | congruence].
      * contradiction.
    + split; [assumption|]. intros _. eapply J_other; [| |exact HJ]; [|apply N.le_refl].
      intros s E. unfold live, b, put, note. sc_cbn. rewrite !in_app_iff.
      assert (st_id s <> st_id x) by (apply N.eqb_neq in Es; congruence).
      split; intros [I|I]; auto; left.
      * apply put_In_other; assumption.
      * destruct (strms_put_In _ _ _ I) as [->|]; [congruence | assumption].
  - (* create *)
    eapply (K_quiet sid _ _ st []); try eassumption; [reflexivity | constructor | auto|].
    intros _ HJ. unfold live in *. 
    assert (LEA : forall y, In y (sc_strms c ++ sc_gone c) -> st_id y <= sc_highestID c) by (intros y I; apply (live_le c y HS H I)).
    destruct (N.eq_dec sid sid0) as [->|Ne].
    + assert (st = Owned) as ->.
      { destruct st; cbn [J] in HJ; try reflexivity; try contradiction; destruct HJ; lia. }
      cbn [J]. unfold live. sc_cbn. intros y I E. rewrite <- app_assoc in I. apply in_app_or in I. cbn [app] in I.
      destruct I as [I|[<-|I]]; [|assumption|].
      * specialize (LEA y (in_or_app _ _ _ (or_introl I))). lia.
      * specialize (LEA y (in_or_app _ _ _ (or_intror I))). lia.
    + eapply J_other; [| |exact HJ]; [|sc_cbn; lia]. intros y E. unfold live. sc_cbn. rewrite !in_app_iff. cbn [In].
      split; [tauto|]. intros [[I|[<-|[]]]|I]; auto. congruence.
  - (* close *)
    rename H0 into SS. rename H1 into SL. destruct (strms_search_In _ _ _ SS) as [Iold Eid].
    destruct SL as (Si & So & Sr & Sp). pose proof (del_perm _ _ _ SS) as PM.
    destruct HK as [NB HJ]. specialize (HJ H).
    pose proof (sc_out_close_stream _ c x) as EO2.
    assert (HB : sc_highestID (close_stream c x) = sc_highestID c) by apply sc_highestID_close_stream.
    assert (LV : live (close_stream c x) =
                 strms_del (sc_strms c) (st_id x) ++
                 (if st_handlerRunning x then set_flags (closed_body x) (st_responded x) true true :: sc_gone c else sc_gone c)).
    { unfold live. rewrite sc_strms_close_stream, sc_gone_close_stream. reflexivity. }
    destruct (st_handlerRunning x) eqn:Rx.
    + (* abandoned: moves to sc_gone *)
      exists []. split; [assumption|]. cbn. split; [assumption|]. intros _.
      set (x' := set_flags (closed_body x) (st_responded x) true true) in *.
      assert (KR : krel old x').
      { unfold x', closed_body. repeat split; cbn [set_flags set_snd st_id st_handlerRunning st_responded]; [assumption | congruence | assumption]. }
      apply (J_sim sid c); [| |lia|assumption]; rewrite LV; unfold live.
      * intros s' I. apply in_app_or in I. destruct I as [I|[<-|I]].
        -- exists s'. split; [apply in_or_app; left; eapply strms_del_In; eassumption | apply krel_refl].
        -- exists old. split; [apply in_or_app; left; assumption | assumption].
        -- exists s'. split; [apply in_or_app; right; assumption | apply krel_refl].
      * intros s I. apply in_app_or in I. destruct I as [I|I].
        -- apply (Permutation_in _ PM) in I. destruct I as [<-|I].
           ++ exists x'. split; [apply in_or_app; right; left; reflexivity | assumption].
           ++ exists s. split; [apply in_or_app; left; assumption | apply krel_refl].
        -- exists s. split; [apply in_or_app; right; right; assumption | apply krel_refl].
    + (* released *)
      exists [ORelease (st_id x) true]. split; [assumption|]. cbn [rev app map own_run fold_left own_step].
      assert (ND : NoDup (st_id old :: map st_id (strms_del (sc_strms c) (st_id x) ++ sc_gone c))).
      { destruct (si_ids _ _ _ _ HS H) as [ND _]. eapply Permutation_NoDup; [|exact ND].
        rewrite !map_app. change (st_id old :: map st_id (strms_del (sc_strms c) (st_id x)) ++ map st_id (sc_gone c))
          with (map st_id (old :: strms_del (sc_strms c) (st_id x)) ++ map st_id (sc_gone c)).
        apply Permutation_app_tail, Permutation_map, PM. }
      inversion ND as [|? ? NI ND']; subst.
      destruct (st_id x =? sid) eqn:Es.
      * assert (Esid : st_id x = sid) by (apply N.eqb_eq; exact Es).
        assert (POOL : J sid (close_stream c x) InPool).
        { cbn [J]. split; [rewrite HB, <- Esid, Si; apply (live_le c old HS H); apply in_or_app; left; assumption|].
          rewrite LV. intros s I E. apply NI. assert (EE : st_id old = st_id s) by congruence. rewrite EE. apply in_map. exact I. }
        assert (Nrun : st_handlerRunning old = false) by congruence.
        destruct st; cbn [J] in HJ.
        -- split; [discriminate | auto].
        -- exfalso. destruct HJ as [_ (s & I & E & R)].
           assert (s = old) by (apply (live_uniq c s old HS H I); [apply in_or_app; left; assumption | congruence]). congruence.
        -- split; [discriminate | auto].
        -- exfalso. destruct HJ as [_ HJ]. apply (HJ old); [apply in_or_app; left; assumption | congruence].
        -- contradiction.
      * split; [assumption|]. intros _. eapply J_other; [| |exact HJ]; [|lia].
        intros s E. rewrite LV. unfold live. rewrite !in_app_iff.
        assert (st_id s <> st_id x) by (apply N.eqb_neq in Es; congruence).
        split; intros [I|I]; auto; left; [apply del_In_other; assumption | eapply strms_del_In; eassumption].
  - (* break *)
    exists [OExit 1 0]. split; [reflexivity|]. cbn. destruct HK. split; [assumption | discriminate].
  - (* fatal *)
    exists [OExit 1 0]. split; [reflexivity|]. cbn. destruct HK. split; [assumption | discriminate].
  - (* panic *)
    apply (K_same_live sid c (note c (OPanic 1 0)) st [OPanic 1 0]).
    + reflexivity.
    + constructor; [exact I | constructor].
    + reflexivity.
    + rewrite sc_highestID_note. lia.
    + auto.
    + exact HK.
  - (* post *)
    destruct H0 as [SC EOut]. unfold same_core in SC. decompose [and] SC.
    exists []. split; [assumption|]. cbn. destruct HK as [NB _]. split; [assumption|]. intro Hd. congruence.
Qed.

(* the return of a handler: the event, then the move *)
Lemma mv_K_done sid sid0 r a b st : mv (Some sid0) a b -> SI a -> K sid a st ->
  exists l, sc_out b = l ++ sc_out a /\ K sid b (own_run sid (IEv (EvDone sid0 r) :: map IOut (rev l)) st).
Proof.
  intros M HS HK. pose proof (SI_mv M HS) as HSb.
  remember (Some sid0) as o eqn:EO. destruct M; try discriminate EO; inversion EO; subst sid0; clear EO.
  - (* the stream had been abandoned *)
    rename H0 into TS. destruct (take_stream_Some _ _ _ _ TS) as (Ei & Is & Len & Sub & Sup).
    pose proof (take_perm _ _ _ _ TS) as PM. destruct HK as [NB HJ]. specialize (HJ H).
    set (b := release_stream (upd_gone c rest) (set_flags s (st_responded s) false true)).
    exists [ORelease (st_id (set_flags s (st_responded s) false true)) true].
    split; [unfold b; rewrite sc_out_release_stream; reflexivity|].
    cbn [rev app map own_run fold_left own_step set_flags st_id]. rewrite Ei.
    assert (LV : live b = sc_strms c ++ rest) by (unfold live, b; rewrite release_stream_eq; reflexivity).
    assert (HB : sc_highestID b = sc_highestID c) by (unfold b; rewrite release_stream_eq; reflexivity).
    assert (Rs : st_handlerRunning s = true).
    { pose proof (si_gone _ _ _ _ HS) as F. rewrite Forall_forall in F. apply (F s Is). }
    assert (Il : In s (live c)) by (apply in_or_app; right; assumption).
    destruct (sid1 =? sid) eqn:Es.
    + assert (Esid : sid1 = sid) by (apply N.eqb_eq; exact Es). rewrite Esid in Ei.
      assert (POOL : J sid b InPool).
      { cbn [J]. split; [rewrite HB, <- Ei; apply (live_le c s HS H Il)|].
        rewrite LV. intros y I E.
        destruct (si_ids _ _ _ _ HS H) as [ND _].
        assert (P2 : Permutation (map st_id (sc_strms c ++ sc_gone c)) (st_id s :: map st_id (sc_strms c ++ rest))).
        { rewrite !map_app. eapply perm_trans; [apply Permutation_app_head, Permutation_map, PM|]. cbn [map].
          symmetry. apply Permutation_middle. }
        pose proof (Permutation_NoDup P2 ND) as ND2. inversion ND2 as [|? ? NI _]; subst.
        apply NI. assert (EE : st_id s = st_id y) by congruence. rewrite EE. apply in_map. assumption. }
      destruct st; cbn [J] in HJ.
      * exfalso. rewrite (HJ s Il Ei) in Rs. discriminate.
      * split; [discriminate | auto].
      * exfalso. destruct HJ as [_ HJ]. destruct (HJ s Il Ei). congruence.
      * exfalso. destruct HJ as [_ HJ]. apply (HJ s Il Ei).
      * contradiction.
    + split; [assumption|]. intros _. eapply J_other; [| |exact HJ]; [|lia].
      intros y E. rewrite LV. unfold live. rewrite !in_app_iff.
      split.
      * intros [I|I]; [left; assumption|]. right. destruct (Sup y I) as [->|]; [lia | assumption].
      * intros [I|I]; [left; assumption | right; auto].
  - (* the stream is in the table *)
    rename H1 into SS. rename H0 into L. rename H4 into Rold. rename H5 into Rx. rename H6 into Resp. destruct (strms_search_In _ _ _ SS) as [Iold Eid].
    destruct HK as [NB HJ]. specialize (HJ H).
    destruct L as (SC & (l & E & F) & _). unfold same_core in SC. decompose [and] SC. clear SC.
    exists l. split; [rewrite sc_out_put; assumption|].
    cbn [own_run fold_left]. fold (own_run sid (map IOut (rev l)) (own_step sid st (IEv (EvDone (st_id x) r)))).
    rewrite own_quiet by (apply Forall_rev; eapply Forall_impl; [|exact F]; apply frame_quiet).
    assert (LV : live (put c1 x) = strms_put (sc_strms c) x ++ sc_gone c) by (unfold live, put; sc_cbn; congruence).
    assert (HB : sc_highestID (put c1 x) = sc_highestID c) by (unfold put; sc_cbn; assumption).
    assert (Hdb : sc_sl_done (put c1 x) = false) by (unfold put; sc_cbn; congruence).
    assert (Ix : In x (live (put c1 x))).
    { rewrite LV. apply in_or_app. left. eapply strms_search_In. eapply search_put_same. exact SS. }
    assert (Il : In old (live c)) by (apply in_or_app; left; assumption).
    cbn [own_step].
    destruct (st_id x =? sid) eqn:Es.
    + assert (Esid : st_id x = sid) by (apply N.eqb_eq; exact Es).
      destruct st; cbn [J] in HJ.
      * exfalso. rewrite (HJ old Il) in Rold; [discriminate | congruence].
      * split; [discriminate|]. intros _. cbn [J]. split; [rewrite HB; tauto|].
        intros y I E'. assert (y = x) as -> by (apply (live_uniq _ y x HSb Hdb I Ix); congruence).
        split; [assumption|]. apply Resp. pose proof (si_run _ _ _ _ HS) as FR. rewrite Forall_forall in FR.
        apply (FR old Iold Rold).
      * exfalso. destruct HJ as [_ HJ]. destruct (HJ old Il); [congruence | congruence].
      * exfalso. destruct HJ as [_ HJ]. apply (HJ old Il). congruence.
      * contradiction.
    + split; [assumption|]. intros _. eapply J_other; [| |exact HJ]; [|rewrite HB; apply N.le_refl].
      intros y E'. rewrite LV. unfold live. rewrite !in_app_iff.
      assert (st_id y <> st_id x) by (apply N.eqb_neq in Es; congruence).
      split; intros [I|I]; auto; left.
      * apply put_In_other; assumption.
      * destruct (strms_put_In _ _ _ I) as [->|]; [congruence | assumption].
Qed.

Lemma omv_K sid pc a b st : omv hstate pc a b -> K sid a st ->
  exists l, sc_out b = l ++ sc_out a /\ K sid b (own_run sid (map IOut (rev l)) st).
Proof.
  intros M HK. destruct (omv_out _ _ _ _ M) as (l & E & F).
  destruct (omv_keeps _ _ _ _ M) as (E1 & E2 & _ & _ & _ & E6 & _ & E7).
  apply (K_same_live sid a b st l); try assumption.
  - eapply Forall_impl; [|exact F]. intros [] Ho; cbn in *; tauto.
  - unfold live. congruence.
  - rewrite E6. apply N.le_refl.
Qed.

Lemma K_chain sid (a b c : sconn) st l1 l2 :
  sc_out b = l1 ++ sc_out a -> sc_out c = l2 ++ sc_out b ->
  sc_out c = (l2 ++ l1) ++ sc_out a /\
  own_run sid (map IOut (rev (l2 ++ l1))) st = own_run sid (map IOut (rev l2)) (own_run sid (map IOut (rev l1)) st).
Proof.
  intros E1 E2. split; [rewrite E2, E1, app_assoc; reflexivity|].
  rewrite rev_app_distr, map_app, own_run_app. reflexivity.
Qed.

Lemma mvs_K sid ls a b : mvs ls a b -> ls = [] -> forall st, SI a -> K sid a st ->
  exists l, sc_out b = l ++ sc_out a /\ K sid b (own_run sid (map IOut (rev l)) st).
Proof.
  induction 1 as [c|o ls a b c M MS IH]; intros EL st HS HK.
  - exists []. split; [reflexivity | exact HK].
  - destruct o; [discriminate|]. cbn [olist app] in EL.
    destruct (mv_K sid a b st M HS HK) as (l1 & E1 & K1).
    destruct (IH EL _ (SI_mv M HS) K1) as (l2 & E2 & K2).
    destruct (K_chain sid a b c st l1 l2 E1 E2) as [E R]. exists (l2 ++ l1). split; [exact E|]. rewrite R. exact K2.
Qed.

Lemma omvs_K sid pc a b : omvs hstate pc a b -> forall st, K sid a st ->
  exists l, sc_out b = l ++ sc_out a /\ K sid b (own_run sid (map IOut (rev l)) st).
Proof.
  induction 1 as [c|a b c M MS IH]; intros st HK.
  - exists []. split; [reflexivity | exact HK].
  - destruct (omv_K sid pc a b st M HK) as (l1 & E1 & K1).
    destruct (IH _ K1) as (l2 & E2 & K2).
    destruct (K_chain sid a b c st l1 l2 E1 E2) as [E R]. exists (l2 ++ l1). split; [exact E|]. rewrite R. exact K2.
Qed.

Lemma K_step sid c e st : SI c -> K sid c st ->
  K sid (step c e) (own_run sid (IEv e :: map IOut (delta c (step c e))) st).
Proof.
  intros HS HK.
  assert (SH := step_shape hstate dec_field enc_field enc_set_max cfg Q
           (QT_closed _ dec_field cfg) c e (SI_ids_ok _ _ _ _ HS)).
  assert (GEN : (forall sid0 r, e <> EvDone sid0 r) ->
                (exists c0, omvs hstate (parser_code e) c c0 /\ mvs [] c0 (step c e)) ->
                K sid (step c e) (own_run sid (IEv e :: map IOut (delta c (step c e))) st)).
  { intros NE (c0 & O & M).
    destruct (omvs_K sid _ _ _ O st HK) as (l1 & E1 & K1).
    destruct (mvs_K sid _ _ _ M eq_refl _ (SI_omvs O HS) K1) as (l2 & E2 & K2).
    destruct (K_chain sid _ _ _ st l1 l2 E1 E2) as [E R].
    rewrite (delta_ext _ _ _ E). cbn [own_run fold_left].
    replace (own_step sid st (IEv e)) with st.
    - fold (own_run sid (map IOut (rev (l2 ++ l1))) st). rewrite R. exact K2.
    - destruct e; try reflexivity. exfalso. eapply NE. reflexivity. }
  destruct e as [i| |sid0 r|t| | | |]; try (apply GEN; [intros; discriminate | exact SH]).
  destruct SH as [(E & NOOP)|(Hd & b & M1 & M)].
  - (* nothing happens *)
    rewrite E. unfold delta. rewrite Nat.sub_diag. cbn [firstn rev map own_run fold_left own_step].
    destruct (sid0 =? sid) eqn:Es; [|exact HK]. apply N.eqb_eq in Es. subst sid0.
    destruct HK as [NB HJ]. destruct NOOP as [Hd|[TS NR]].
    + destruct st; (split; [try discriminate; try assumption | intro; congruence]).
    + destruct (sc_sl_done c) eqn:Hd; [destruct st; (split; [try discriminate; try assumption | intro; congruence])|].
      specialize (HJ eq_refl). destruct st; try (split; [assumption | intros _; assumption]).
      exfalso. cbn [J] in HJ. destruct HJ as [_ (s & I & Ei & R)]. apply in_app_or in I. destruct I as [I|I].
      * pose proof (NoDup_search _ s (proj1 (SI_ids_ok _ _ _ _ HS Hd)) I) as SS. rewrite Ei in SS.
        rewrite (NR s SS) in R. discriminate.
      * apply (take_stream_None _ _ TS s I Ei).
  - destruct (mv_K_done sid sid0 r c b st M1 HS HK) as (l1 & E1 & K1).
    destruct (mvs_K sid _ _ _ M eq_refl _ (SI_mv M1 HS) K1) as (l2 & E2 & K2).
    assert (E : sc_out (step c (EvDone sid0 r)) = (l2 ++ l1) ++ sc_out c) by (rewrite E2, E1, app_assoc; reflexivity).
    rewrite (delta_ext _ _ _ E), rev_app_distr, map_app.
    change (IEv (EvDone sid0 r) :: map IOut (rev l1) ++ map IOut (rev l2))
      with ((IEv (EvDone sid0 r) :: map IOut (rev l1)) ++ map IOut (rev l2)).
    rewrite own_run_app. exact K2.
Qed.

Theorem own_safe_from sid evs : forall c st, SI c -> K sid c st -> own_run sid (log_from c evs) st <> Bad.
Proof.
  induction evs as [|e t IH]; intros c st HS HK; cbn [log_from].
  - cbn. apply HK.
  - change (IEv e :: map IOut (delta c (step c e)) ++ log_from (step c e) t)
      with ((IEv e :: map IOut (delta c (step c e))) ++ log_from (step c e) t).
    rewrite own_run_app. apply IH; [apply SI_step_T; assumption | apply K_step; assumption].
Qed.

(* C17 (b)(c) / C19 (a): for every event list and every stream id the ownership automaton never goes wrong *)
Theorem own_safe h0 evs sid : own_run sid (log h0 evs) Owned <> Bad.
Proof.
  apply own_safe_from.
  - apply SI_init.
  - split; [discriminate|]. intros _ s []. 
Qed.

End Own.

(* the same, spelled out on the log *)
Lemma own_lent_or_bad sid l st : (st = Lent \/ st = Bad) -> (forall r, ~ In (IEv (EvDone sid r)) l) ->
  own_run sid l st = Lent \/ own_run sid l st = Bad.
Proof.
  revert st. induction l as [|i l IH]; intros st Hst NE; [assumption|]. cbn [own_run fold_left]. apply IH.
  - destruct i as [e|o]; [destruct e; try assumption|destruct o; try assumption]; cbn [own_step].
    + destruct (sid0 =? sid) eqn:E; [|assumption]. exfalso. apply (NE r). left. apply N.eqb_eq in E. subst. reflexivity.
    + destruct (sid0 =? sid); [|assumption]. destruct Hst as [-> | ->]; auto.
    + destruct (sid0 =? sid); [|assumption]. destruct Hst as [-> | ->]; auto.
  - intros r I. apply (NE r). right. assumption.
Qed.

Lemma own_pool_or_bad sid l st : (st = InPool \/ st = Bad) -> own_run sid l st = InPool \/ own_run sid l st = Bad.
Proof.
  revert st. induction l as [|i l IH]; intros st Hst; [assumption|]. cbn [own_run fold_left]. apply IH.
  destruct i as [e|o]; [destruct e; try assumption|destruct o; try assumption]; cbn [own_step];
    (destruct (_ =? sid); [|assumption]); destruct Hst as [-> | ->]; auto.
Qed.

Section OwnLog.
Variable hstate : Type.
Variable dec_field : hstate -> N -> bytes -> dec_res hstate.
Variable enc_field : hstate -> bytes -> bytes -> bool -> bytes * hstate.
Variable enc_set_max : hstate -> N -> hstate.
Variable cfg : config.
Variable h0 : hstate.
Notation log := (log hstate dec_field enc_field enc_set_max cfg h0).

(* a request context is not released while its handler runs *)
Theorem no_release_while_lent evs sid rq w l1 l2 l3 :
  log evs = l1 ++ IOut (ODispatch sid rq) :: l2 ++ IOut (ORelease sid w) :: l3 ->
  exists r, In (IEv (EvDone sid r)) l2.
Proof.
  intro E. pose proof (own_safe hstate dec_field enc_field enc_set_max cfg h0 evs sid) as S. rewrite E in S.
  destruct (existsb (fun i => match i with IEv (EvDone s _) => s =? sid | _ => false end) l2) eqn:EX.
  - apply existsb_exists in EX. destruct EX as (i & I & Hi). destruct i as [[]|]; try discriminate.
    apply N.eqb_eq in Hi. subst. eauto.
  - exfalso. apply S.
    rewrite own_run_app, own_run_cons, own_run_app, own_run_cons.
    assert (A : own_step sid (own_run sid l1 Owned) (IOut (ODispatch sid rq)) = Lent \/
                own_step sid (own_run sid l1 Owned) (IOut (ODispatch sid rq)) = Bad).
    { cbn [own_step]. rewrite N.eqb_refl. destruct (own_run sid l1 Owned); auto. }
    assert (B := own_lent_or_bad sid l2 _ A).
    destruct B as [B|B].
    + intros r I. assert (X : existsb (fun i => match i with IEv (EvDone s _) => s =? sid | _ => false end) l2 = true).
      { apply existsb_exists. exists (IEv (EvDone sid r)). split; [assumption | apply N.eqb_refl]. }
      congruence.
    + rewrite B. cbn [own_step]. rewrite N.eqb_refl. apply own_bad.
    + rewrite B. cbn [own_step]. rewrite N.eqb_refl. apply own_bad.
Qed.

(* a stream object goes back to its pool at most once *)
Theorem release_once evs sid w w' l1 l2 l3 :
  log evs = l1 ++ IOut (ORelease sid w) :: l2 ++ IOut (ORelease sid w') :: l3 -> False.
Proof.
  intro E. pose proof (own_safe hstate dec_field enc_field enc_set_max cfg h0 evs sid) as S. rewrite E in S.
  apply S.
  rewrite own_run_app, own_run_cons, own_run_app, own_run_cons.
  assert (A : own_step sid (own_run sid l1 Owned) (IOut (ORelease sid w)) = InPool \/
              own_step sid (own_run sid l1 Owned) (IOut (ORelease sid w)) = Bad).
  { cbn [own_step]. rewrite N.eqb_refl. destruct (own_run sid l1 Owned); auto. }
  destruct (own_pool_or_bad sid l2 _ A) as [B|B]; rewrite B; cbn [own_step]; rewrite N.eqb_refl; apply own_bad.
Qed.

(* and is not used after that *)
Theorem no_dispatch_after_release evs sid w rq l1 l2 l3 :
  log evs = l1 ++ IOut (ORelease sid w) :: l2 ++ IOut (ODispatch sid rq) :: l3 -> False.
Proof.
  intro E. pose proof (own_safe hstate dec_field enc_field enc_set_max cfg h0 evs sid) as S. rewrite E in S.
  apply S.
  rewrite own_run_app, own_run_cons, own_run_app, own_run_cons.
  assert (A : own_step sid (own_run sid l1 Owned) (IOut (ORelease sid w)) = InPool \/
              own_step sid (own_run sid l1 Owned) (IOut (ORelease sid w)) = Bad).
  { cbn [own_step]. rewrite N.eqb_refl. destruct (own_run sid l1 Owned); auto. }
  destruct (own_pool_or_bad sid l2 _ A) as [B|B]; rewrite B; cbn [own_step]; rewrite N.eqb_refl; apply own_bad.
Qed.

(* one handler per stream id, ever *)
Theorem dispatch_once evs sid rq rq' l1 l2 l3 :
  log evs = l1 ++ IOut (ODispatch sid rq) :: l2 ++ IOut (ODispatch sid rq') :: l3 -> False.
Proof.
  intro E. pose proof (own_safe hstate dec_field enc_field enc_set_max cfg h0 evs sid) as S. rewrite E in S.
  apply S.
  rewrite own_run_app, own_run_cons, own_run_app, own_run_cons.
  assert (A : own_step sid (own_run sid l1 Owned) (IOut (ODispatch sid rq)) <> Owned).
  { cbn [own_step]. rewrite N.eqb_refl. destruct (own_run sid l1 Owned); discriminate. }
  assert (B : own_run sid l2 (own_step sid (own_run sid l1 Owned) (IOut (ODispatch sid rq))) <> Owned).
  { revert A. generalize (own_step sid (own_run sid l1 Owned) (IOut (ODispatch sid rq))). clear.
    induction l2 as [|i l IH]; intros st A; [assumption|]. cbn [own_run fold_left]. apply IH.
    destruct i as [e|o]; [destruct e; try assumption|destruct o; try assumption]; cbn [own_step];
      (destruct (_ =? sid); [|assumption]); destruct st; try discriminate; congruence. }
  set (st2 := own_run sid l2 (own_step sid (own_run sid l1 Owned) (IOut (ODispatch sid rq)))) in *. clearbody st2.
  cbn [own_step]. rewrite N.eqb_refl.
  destruct st2; try contradiction; apply own_bad.
Qed.

End OwnLog.
