(* Proofs/CliResInv.v - C12/C11: how one Ctx evolves under the connection's goroutines (`cev`), the effect
   relation `eff` on connection states (what a piece of the model may do to the Ctx table, the queue `in`, the request
   table and the trace), and the effect of every function of Impl/ClientConn.v below the event handlers.
   Everything is generic in the HPACK coder. *)
From H2V Require Import Base.Bytes Base.MachineInt Gen.GenConsts Impl.ServerConn Impl.ClientConn Proofs.CliBase Proofs.CliFlowOut Proofs.CliMsgMoves Proofs.CliMsgDisp.
From Coq Require Import ZArith Lia ZifyN ZifyNat ZifyBool List Bool.
Import ListNotations.
Local Open Scope N_scope.

(* the last stage of dispatch, for the files that import this one only *)
Notation disp_tail := CliMsgDisp.disp_tail (only parsing).

(* the caller has its answer, or it is waiting for him in Err *)
Definition answered (x : cctx) : bool :=
  ct_returned x || match ct_err x with Some _ => true | None => false end.

(* trace items every part of the model may emit; the others have one emitter each:
   COHeaders writeRequest, COResult/COPoolPut the caller's receive, COPanic the read loop's recover,
   COSelfDeadlock/COBlocked a goroutine that parks on a Ctx.lck for ever *)
Definition benign (o : coutev) : bool :=
  match o with
  | COHeaders _ _ _ | COResult _ _ _ _ | COPoolPut _ | COSelfDeadlock _ _ | COBlocked _ _ | COPanic _ => false
  | _ => true
  end.

(* the pending bodies l' come from those of l: same stream and Ctx each, and no id twice if none was *)
Definition pend_sub (l' l : list cpending) : Prop :=
  (forall pb', In pb' l' -> exists pb, In pb l /\ pb_id pb' = pb_id pb /\ pb_tag pb' = pb_tag pb) /\
  (NoDup (map pb_id l) -> NoDup (map pb_id l')).

Lemma pending_same (l l' : list cpending) : l' = l -> pend_sub l' l.
Proof. intros ->. split; [intros pb H; exists pb; auto | auto]. Qed.

Lemma pending_del (l : list cpending) id : pend_sub (cl_pend_del l id) l.
Proof. split; [intros pb H; exists pb; split; [eapply cl_pend_del_In; eassumption | auto] | apply pend_del_NoDup]. Qed.

Lemma pending_put (l : list cpending) x x0 : In x0 l -> pb_id x = pb_id x0 -> pb_tag x = pb_tag x0 -> pend_sub (cl_pend_put l x) l.
Proof.
  intros I A B. split.
  - intros pb H. destruct (cl_pend_put_In _ _ _ H) as [->|H']; [exists x0 | exists pb]; auto.
  - rewrite cl_pend_put_ids. auto.
Qed.

Lemma pending_map (l : list cpending) f : (forall pb, pb_id (f pb) = pb_id pb /\ pb_tag (f pb) = pb_tag pb) -> pend_sub (map f l) l.
Proof.
  intros Hf. split.
  - intros pb H. apply in_map_iff in H. destruct H as (q & <- & I). exists q. destruct (Hf q). auto.
  - rewrite map_map. replace (map (fun x => pb_id (f x)) l) with (map pb_id l); [auto|]. apply map_ext. intro a. symmetry. apply Hf.
Qed.

(* what is left of the pending bodies when the one of stream id has been taken off holds no body of the Ctx tag, if the
   bodies of that Ctx are on stream id *)
Lemma pend_del_no_tag (l : list cpending) id tag : NoDup (map pb_id l) -> (forall pb, In pb l -> pb_tag pb = tag -> pb_id pb = id) ->
  forall pb, In pb (cl_pend_del l id) -> pb_tag pb <> tag.
Proof. intros ND H pb J E. apply (pend_del_not_In l id pb ND J). apply H; [eapply cl_pend_del_In; eassumption | exact E]. Qed.

Lemma pend_sub_trans a b c : pend_sub a b -> pend_sub b c -> pend_sub a c.
Proof.
  intros [A1 A2] [B1 B2]. split; [|auto]. intros pb H. destruct (A1 _ H) as (p1 & I1 & E1 & F1). destruct (B1 _ I1) as (p0 & I0 & E0 & F0).
  exists p0. repeat split; congruence.
Qed.

(* hdrErr only ever holds the error of a malformed response header *)
Definition herr_ok (h : option cerr) : Prop := forall e, h = Some e -> e = CEMalformed.

(* Parameters of the whole analysis (instantiated per theorem):
   Eok sid e : the connection may put e into the empty Err of a Ctx whose stream is sid;
   Vok x x'  : what else it may do to a Ctx (its response, gotStatus);
   Wok c c'  : what it may do to the header-block registers of the connection. *)
Class cparams : Type := mkCParams {
  Eok : N -> cerr -> Prop;
  Vok : cctx -> cctx -> Prop;
  Wok : forall hstate : Type, cconn hstate -> cconn hstate -> Prop;
  V_refl : forall x, Vok x x;
  V_trans : forall x y z, Vok x y -> Vok y z -> Vok x z;
  V_frame : forall x x', ct_resp x' = ct_resp x -> ct_gotStatus x' = ct_gotStatus x -> Vok x x';
  W_refl : forall h (c : cconn h), Wok h c c;
  W_trans : forall h (a b c : cconn h), Wok h a b -> Wok h b c -> Wok h a c;
  W_frame : forall h (c c' : cconn h), cc_hdrStream c' = cc_hdrStream c -> cc_hdrStatus c' = cc_hdrStatus c ->
            cc_hdrErr c' = cc_hdrErr c -> cc_hdrEndStream c' = cc_hdrEndStream c -> Wok h c c'
}.
(* every error that is neither retryable nor nil may be put anywhere (asked by the lemmas about the loops) *)
Class cplain (CP : cparams) : Prop :=
  Enr : forall sid e, cl_retryable e = false -> e <> CENil -> Eok sid e.

Section WithE.
Context {CP : cparams} {NR : cplain CP}.
#[local] Hint Resolve V_refl W_refl V_frame W_frame : core.
Definition Eall (e : cerr) : Prop := forall sid, Eok sid e.
Lemma Eall_nr e : cl_retryable e = false -> e <> CENil -> Eall e.
Proof. intros A B sid. apply Enr; assumption. Qed.

(* one Ctx under the connection's goroutines (everything but its caller's own steps and writeRequest's
   taking it on): only Err (once, while the caller has not taken it back), finished, the response and
   the body-closed mark can change *)
Record cev (x x' : cctx) : Prop := mkCev {
  cev_tag : ct_tag x' = ct_tag x;
  cev_req : ct_req x' = ct_req x;
  cev_sid : ct_sid x' = ct_sid x;
  cev_conn : ct_conn x' = ct_conn x;
  cev_done : ct_done x' = ct_done x;
  cev_resolved : ct_resolved x' = ct_resolved x;
  cev_armed : ct_armed x' = ct_armed x;
  cev_fired : ct_fired x' = ct_fired x;
  cev_cancelled : ct_cancelled x' = ct_cancelled x;
  cev_writing : ct_writing x' = ct_writing x;
  cev_returned : ct_returned x' = ct_returned x;
  cev_pooled : ct_pooled x' = ct_pooled x;
  cev_lckStuck : ct_lckStuck x' = ct_lckStuck x;
  cev_err : ct_err x' = ct_err x \/
            (ct_err x = None /\ ct_resolved x = false /\ exists e, ct_err x' = Some e /\ Eok (ct_sid x) e);
  cev_finished : ct_finished x = true -> ct_finished x' = true;
  cev_v : Vok x x'
}.

Lemma cev_refl x : cev x x.
Proof. constructor; auto. Qed.

Lemma cev_trans x y z : cev x y -> cev y z -> cev x z.
Proof.
  intros [] []. constructor; try congruence; auto; [|eapply V_trans; eassumption].
  destruct cev_err0 as [A|(A & R & e & B & C)], cev_err1 as [F|(F & R' & e' & B' & C')].
  - left. congruence.
  - right. split; [congruence|]. split; [congruence|]. exists e'. split; [assumption|]. rewrite <- cev_sid0. assumption.
  - right. split; [assumption|]. split; [assumption|]. exists e. split; [congruence | assumption].
  - congruence.
Qed.

Lemma cev_answered x x' : cev x x' -> answered x = true -> answered x' = true.
Proof.
  intros [] H. unfold answered in *. rewrite cev_returned0. destruct (ct_returned x); [reflexivity|].
  cbn [orb] in *. destruct cev_err0 as [A|(A & _)]; [rewrite A; assumption|]. rewrite A in H. discriminate.
Qed.

(* the atomic updates *)
Lemma cev_resolve x e : Eok (ct_sid x) e -> cev x (cl_ctx_resolve x e).
Proof.
  intro He. rewrite cl_ctx_resolve_eq. destruct (ct_resolved x) eqn:R; cbn [negb andb]; [apply cev_refl|].
  destruct (ct_err x) eqn:A; [apply cev_refl|]. constructor; cbn; auto.
  right. split; [exact A|]. split; [exact R|]. exists e. auto.
Qed.
Lemma cev_finished_true x : cev x (ctu_finished x true).
Proof. constructor; cbn; auto. Qed.
Lemma cev_bodyClosed x b : cev x (ctu_bodyClosed x b).
Proof. constructor; cbn; auto. Qed.
Lemma cev_resp x r : Vok x (ctu_resp x r) -> cev x (ctu_resp x r).
Proof. intro. constructor; cbn; auto. Qed.
Lemma cev_gotStatus x b : Vok x (ctu_gotStatus x b) -> cev x (ctu_gotStatus x b).
Proof. intro. constructor; cbn; auto. Qed.
Lemma cev_finish_resolve x e : Eok (ct_sid x) e -> cev x (cl_ctx_resolve (ctu_finished x true) e).
Proof. intro He. eapply cev_trans; [apply cev_finished_true | apply cev_resolve; exact He]. Qed.

Lemma answered_resolve x e : ct_resolved x = false -> answered (cl_ctx_resolve x e) = true.
Proof.
  intro R. rewrite cl_ctx_resolve_eq, R. cbn [negb andb]. unfold answered.
  destruct (ct_err x) eqn:A; cbn; [rewrite A|]; apply orb_true_r.
Qed.

Section Eff.
Context {hstate : Type}.
Implicit Types c : cconn hstate.

(* the tags the connection still has to answer: queued in `in`, or on the request table *)
Definition held c (t : N) : Prop := In t (cc_inQ c) \/ In t (map snd (cc_reqQueued c)).

(* c' comes after c: same Ctx objects, each evolved by cev; the queue and the request table have only lost entries;
   the trace has grown by items of P *)
Record eff (P : coutev -> Prop) (c c' : cconn hstate) : Prop := mkEff {
  e_tags : map ct_tag (cc_ctxs c') = map ct_tag (cc_ctxs c);
  e_ctx : forall t x, cl_ctx_get c t = Some x -> exists x', cl_ctx_get c' t = Some x' /\ cev x x';
  e_inQ : exists p, cc_inQ c' = filter p (cc_inQ c);
  e_rq : exists p, cc_reqQueued c' = filter p (cc_reqQueued c);
  e_nextID : cc_nextID c' = cc_nextID c;
  e_goAway : cc_goAway c = true -> cc_goAway c' = true;
  e_closed : cc_closed c = true -> cc_closed c' = true;
  e_wl_done : cc_wl_done c = true -> cc_wl_done c' = true;
  e_rl_done : cc_rl_done c = true -> cc_rl_done c' = true;
  e_wl_new : cc_wl_done c = false -> cc_wl_done c' = true ->
             cc_closed c' = true /\ cc_reqQueued c' = [] /\ cc_inQ c' = [];
  e_rl_new : cc_rl_done c = false -> cc_rl_done c' = true -> cc_closed c' = true;
  e_rl_stuck : cc_rl_stuck c' = cc_rl_stuck c;
  e_wl_stuck : cc_wl_stuck c' = cc_wl_stuck c;
  e_out : exists l, cc_out c' = l ++ cc_out c /\ Forall P l;
  e_outQ : Forall (fun o => benign o = true) (cc_outQ c) -> Forall (fun o => benign o = true) (cc_outQ c');
  e_pending : pend_sub (cc_pending c') (cc_pending c);
  e_w : Wok hstate c c';
  e_hdrErr : herr_ok (cc_hdrErr c) -> herr_ok (cc_hdrErr c');
  e_lastErr : cc_lastErr c <> Some CENil -> cc_lastErr c' <> Some CENil;
  (* markFinished only after the connection has let go of the request *)
  e_fin : forall t x x', cl_ctx_get c t = Some x -> cl_ctx_get c' t = Some x' -> ct_finished x = false -> ct_finished x' = true ->
          ~ held c' t /\ forall pb, In pb (cc_pending c') -> pb_tag pb <> t
}.

Lemma filter_nil_eq {A} (p : A -> bool) : filter p [] = [].
Proof. reflexivity. Qed.

Lemma filter_filter {A} (p q : A -> bool) l : filter q (filter p l) = filter (fun a => p a && q a) l.
Proof.
  induction l as [|a l IH]; cbn [filter]; [reflexivity|].
  destruct (p a); cbn [filter andb]; [destruct (q a); rewrite IH; reflexivity | assumption].
Qed.

Lemma filter_true {A} (l : list A) : l = filter (fun _ => true) l.
Proof. induction l as [|a l IH]; cbn [filter]; congruence. Qed.
Lemma filter_false {A} (l : list A) : [] = filter (fun _ => false) l.
Proof. induction l as [|a l IH]; cbn [filter]; congruence. Qed.

Lemma eff_refl P c : eff P c c.
Proof.
  constructor; auto; try congruence.
  - intros t x H. exists x. split; [assumption | apply cev_refl].
  - exists (fun _ => true). apply filter_true.
  - exists (fun _ => true). apply filter_true.
  - exists []. split; [reflexivity | constructor].
  - apply pending_same. reflexivity.
Qed.

Lemma eff_trans P a b c : eff P a b -> eff P b c -> eff P a c.
Proof.
  intros [] []. constructor; try congruence; auto.
  - intros t x H. destruct (e_ctx0 _ _ H) as (y & Hy & C1). destruct (e_ctx1 _ _ Hy) as (z & Hz & C2).
    exists z. split; [assumption | eapply cev_trans; eassumption].
  - destruct e_inQ0 as [p Hp], e_inQ1 as [q Hq]. exists (fun a => p a && q a). rewrite Hq, Hp. apply filter_filter.
  - destruct e_rq0 as [p Hp], e_rq1 as [q Hq]. exists (fun a => p a && q a). rewrite Hq, Hp. apply filter_filter.
  - intros A C. destruct (cc_wl_done b) eqn:B.
    + destruct (e_wl_new0 A eq_refl) as (X & Y & Z). split; [auto|]. destruct e_inQ1 as [q Hq], e_rq1 as [r Hr].
      rewrite Hr, Y, Hq, Z. auto.
    + auto.
  - intros A C. destruct (cc_rl_done b) eqn:B; auto.
  - destruct e_out0 as (l1 & H1 & F1), e_out1 as (l2 & H2 & F2). exists (l2 ++ l1). rewrite H2, H1, app_assoc.
    split; [reflexivity | apply Forall_app; auto].
  - eapply pend_sub_trans; eassumption.
  - eapply W_trans; eassumption.
  - intros t x z Gx Gz Fx Fz. destruct (e_ctx0 _ _ Gx) as (y & Gy & _). destruct (ct_finished y) eqn:Fy.
    + destruct (e_fin0 _ _ _ Gx Gy Fx Fy) as [NH NP]. split.
      * intro H. apply NH. destruct H as [H|H]; [left|right].
        -- destruct e_inQ1 as [p Hp]. rewrite Hp in H. apply filter_In in H. apply H.
        -- destruct e_rq1 as [p Hp]. rewrite Hp in H. apply in_map_iff in H. destruct H as (en & <- & H). apply filter_In in H. apply in_map, H.
      * intros pb Hpb. destruct (proj1 e_pending1 _ Hpb) as (pb1 & I1 & _ & B1). rewrite B1. apply NP, I1.
    + apply (e_fin1 _ _ _ Gy Gz Fy Fz).
Qed.

Lemma eff_weaken (P Q : coutev -> Prop) c c' : (forall o, P o -> Q o) -> eff P c c' -> eff Q c c'.
Proof.
  intros H []. constructor; auto. destruct e_out0 as (l & E & F). exists l. split; [assumption|].
  eapply Forall_impl; eassumption.
Qed.

(* the Ctx table untouched: the other clauses as they stand *)
Lemma eff_ctxs P c c' l :
  cc_ctxs c' = cc_ctxs c ->
  (exists p, cc_inQ c' = filter p (cc_inQ c)) -> (exists p, cc_reqQueued c' = filter p (cc_reqQueued c)) ->
  cc_nextID c' = cc_nextID c -> (cc_goAway c = true -> cc_goAway c' = true) -> (cc_closed c = true -> cc_closed c' = true) ->
  cc_wl_done c' = cc_wl_done c \/ (cc_wl_done c' = true /\ cc_closed c' = true /\ cc_reqQueued c' = [] /\ cc_inQ c' = []) ->
  cc_rl_done c' = cc_rl_done c \/ (cc_rl_done c' = true /\ cc_closed c' = true) ->
  cc_rl_stuck c' = cc_rl_stuck c -> cc_wl_stuck c' = cc_wl_stuck c ->
  cc_out c' = l ++ cc_out c -> Forall P l ->
  (Forall (fun o => benign o = true) (cc_outQ c) -> Forall (fun o => benign o = true) (cc_outQ c')) ->
  pend_sub (cc_pending c') (cc_pending c) -> Wok hstate c c' ->
  (herr_ok (cc_hdrErr c) -> herr_ok (cc_hdrErr c')) -> (cc_lastErr c <> Some CENil -> cc_lastErr c' <> Some CENil) ->
  eff P c c'.
Proof.
  intros C I R N0 G Cl WD RD. intros. constructor; auto.
  - rewrite C. reflexivity.
  - intros t x Gx. exists x. unfold cl_ctx_get in *. rewrite C. split; [exact Gx | apply cev_refl].
  - destruct WD as [->|(W & _)]; auto.
  - destruct RD as [->|(D & _)]; auto.
  - destruct WD as [W|(_ & W)]; [congruence | auto].
  - destruct RD as [D|(_ & D)]; [congruence | auto].
  - exists l. auto.
  - intros t x x' Gx Gx' F F'. unfold cl_ctx_get in *. rewrite C in Gx'. congruence.
Qed.

(* the fields that a frame step leaves as they are *)
Definition eregs c :=
  (cc_nextID c, (cc_wl_done c, cc_rl_done c, cc_rl_stuck c, cc_wl_stuck c),
   (cc_hdrStream c, cc_hdrStatus c, cc_hdrErr c, cc_hdrEndStream c), cc_lastErr c).
Definition etabs c := (cc_ctxs c, cc_inQ c, cc_reqQueued c, cc_goAway c, cc_closed c, eregs c).

(* the general frame: tables may shrink, goAway / closed may be set *)
Lemma eff_frame' P c c' l :
  cc_ctxs c' = cc_ctxs c -> (exists p, cc_inQ c' = filter p (cc_inQ c)) ->
  (exists p, cc_reqQueued c' = filter p (cc_reqQueued c)) ->
  (cc_goAway c = true -> cc_goAway c' = true) -> (cc_closed c = true -> cc_closed c' = true) -> eregs c' = eregs c ->
  (Forall (fun o => benign o = true) (cc_outQ c) -> Forall (fun o => benign o = true) (cc_outQ c')) ->
  pend_sub (cc_pending c') (cc_pending c) ->
  cc_out c' = l ++ cc_out c -> Forall P l -> eff P c c'.
Proof.
  intros C I R G Cl E. inversion E as [[N0 D1 D2 K1 K2 W1 W2 W3 W4 L0]]. intros.
  apply (eff_ctxs P c c' l); auto; try congruence. rewrite W3. auto.
Qed.

Lemma same_filter {A} (l' l : list A) : l' = l -> exists p, l' = filter p l.
Proof. intros ->. exists (fun _ => true). apply filter_true. Qed.

(* c' differs from c in none of the fields eff looks at, except that the trace may have grown, frames may have been
   queued, and pending bodies may have changed or gone *)
Lemma eff_frame P c c' l :
  etabs c' = etabs c ->
  (Forall (fun o => benign o = true) (cc_outQ c) -> Forall (fun o => benign o = true) (cc_outQ c')) ->
  pend_sub (cc_pending c') (cc_pending c) ->
  cc_out c' = l ++ cc_out c -> Forall P l -> eff P c c'.
Proof.
  intro E. pose proof (f_equal snd E) as Rg. cbn [etabs snd] in Rg. inversion E.
  apply eff_frame'; [assumption | apply same_filter; assumption | apply same_filter; assumption | congruence | congruence | exact Rg].
Qed.

(* the lookup the other way round *)
Lemma eff_ctx_back P c c' t x' : eff P c c' -> cl_ctx_get c' t = Some x' -> exists x, cl_ctx_get c t = Some x /\ cev x x'.
Proof.
  intros E H. destruct (cl_ctx_get c t) as [x|] eqn:G.
  - destruct (e_ctx _ _ _ E _ _ G) as (x'' & H' & C). exists x. split; [reflexivity|]. congruence.
  - exfalso. unfold cl_ctx_get in *. apply cl_ctxs_get_None_tags in G. rewrite <- (e_tags _ _ _ E) in G.
    apply cl_ctxs_get_None_tags in G. congruence.
Qed.

Lemma eff_ctx_none P c c' t : eff P c c' -> cl_ctx_get c t = None -> cl_ctx_get c' t = None.
Proof.
  intros E G. unfold cl_ctx_get in *. apply cl_ctxs_get_None_tags. rewrite (e_tags _ _ _ E). apply cl_ctxs_get_None_tags, G.
Qed.

(* lookup-based: where no tag occurs twice in the table the same as the reading by In *)
Definition nostuck c : Prop :=
  (forall t x, cl_ctx_get c t = Some x -> ct_lckStuck x = false) /\ cc_rl_stuck c = false /\ cc_wl_stuck c = false.

Lemma eff_nostuck P c c' : eff P c c' -> nostuck c -> nostuck c'.
Proof.
  intros E (A & B & C). split; [|split].
  - intros t x' H. destruct (eff_ctx_back _ _ _ _ _ E H) as (x & G & V). rewrite (cev_lckStuck _ _ V). eauto.
  - rewrite (e_rl_stuck _ _ _ E). assumption.
  - rewrite (e_wl_stuck _ _ _ E). assumption.
Qed.

(* whoever lets go of a request answers it *)
Definition obl c c' : Prop :=
  forall t, held c t -> ~ held c' t -> exists x', cl_ctx_get c' t = Some x' /\ answered x' = true.

Definition effo (P : coutev -> Prop) c c' : Prop := eff P c c' /\ obl c c'.

Lemma held_filter P c c' t : eff P c c' -> held c' t -> held c t.
Proof.
  intros E [H|H]; [left|right].
  - destruct (e_inQ _ _ _ E) as [p Hp]. rewrite Hp in H. apply filter_In in H. tauto.
  - destruct (e_rq _ _ _ E) as [p Hp]. rewrite Hp in H. apply in_map_iff in H. destruct H as (e & <- & H).
    apply filter_In in H. apply in_map. tauto.
Qed.

Lemma effo_refl P c : effo P c c.
Proof. split; [apply eff_refl|]. intros t H N. contradiction. Qed.

Lemma held_dec c t : held c t \/ ~ held c t.
Proof.
  unfold held. destruct (in_dec N.eq_dec t (cc_inQ c)); [auto|].
  destruct (in_dec N.eq_dec t (map snd (cc_reqQueued c))); tauto.
Qed.

Lemma effo_trans P a b c : effo P a b -> effo P b c -> effo P a c.
Proof.
  intros [E1 O1] [E2 O2]. split; [eapply eff_trans; eassumption|].
  intros t H N. destruct (held_dec b t) as [B|B]; [auto|].
  destruct (O1 t H B) as (y & G & A). destruct (e_ctx _ _ _ E2 _ _ G) as (z & G' & V).
  exists z. split; [assumption | eapply cev_answered; eassumption].
Qed.

Lemma effo_weaken (P Q : coutev -> Prop) c c' : (forall o, P o -> Q o) -> effo P c c' -> effo Q c c'.
Proof. intros H [E O]. split; [eapply eff_weaken; eassumption | assumption]. Qed.

(* nothing let go *)
Lemma effo_keep P c c' : eff P c c' -> cc_inQ c' = cc_inQ c -> cc_reqQueued c' = cc_reqQueued c -> effo P c c'.
Proof. intros E A B. split; [assumption|]. intros t H N. exfalso. apply N. unfold held in *. rewrite A, B. assumption. Qed.

Lemma effo_eff P c c' : effo P c c' -> eff P c c'.
Proof. intros [E _]. exact E. Qed.

(* a frame step *)
Lemma effo_frame P c c' l :
  etabs c' = etabs c ->
  (Forall (fun o => benign o = true) (cc_outQ c) -> Forall (fun o => benign o = true) (cc_outQ c')) ->
  pend_sub (cc_pending c') (cc_pending c) ->
  cc_out c' = l ++ cc_out c -> Forall P l -> effo P c c'.
Proof. intros E. intros. apply effo_keep; [apply (eff_frame P c c' l); assumption | inversion E; congruence | inversion E; congruence]. Qed.

Lemma effo_same P c c' : etabs c' = etabs c -> cc_outQ c' = cc_outQ c -> cc_pending c' = cc_pending c -> cc_out c' = cc_out c -> effo P c c'.
Proof. intros E Q Pd O. apply (effo_frame P c c' []); [exact E | rewrite Q; auto | apply pending_same, Pd | exact O | constructor]. Qed.

End Eff.

Section EffHelpers.
Context {hstate : Type}.
Implicit Types c : cconn hstate.
Variable P : coutev -> Prop.
Hypothesis Pben : forall o, benign o = true -> P o.

Lemma effo_note c o : P o -> effo P c (cl_note c o).
Proof. intro H. apply (effo_frame P c _ [o]); try reflexivity; auto. apply pending_same. reflexivity. Qed.

Lemma effo_notes c l : Forall P l -> effo P c (cl_notes c l).
Proof.
  intro H. rewrite cl_notes_eq. apply (effo_frame P c _ (rev l)); try reflexivity; auto.
  - apply pending_same. reflexivity.
  - apply Forall_rev. assumption.
Qed.

Lemma effo_ctx_put_gen c x x' : cl_ctx_get c (ct_tag x') = Some x -> cev x x' ->
  (ct_finished x = false -> ct_finished x' = true ->
   ~ held c (ct_tag x') /\ forall pb, In pb (cc_pending c) -> pb_tag pb <> ct_tag x') -> effo P c (cl_ctx_put c x').
Proof.
  intros G V HF. apply effo_keep; [|reflexivity|reflexivity].
  constructor; try reflexivity; auto; try congruence; try (apply same_filter; reflexivity);
    try (unfold cl_ctx_put; cc_cbn; intros; congruence).
  - apply tags_cl_ctx_put.
  - intros t y H. rewrite cl_ctx_get_put. destruct (t =? ct_tag x') eqn:E.
    + apply N.eqb_eq in E. subst t. rewrite H. exists x'. split; [reflexivity|]. congruence.
    + exists y. split; [assumption | apply cev_refl].
  - exists []. split; [reflexivity | constructor].
  - apply pending_same. reflexivity.
  - intros t y y' Gy Gy' Fy Fy'. rewrite cl_ctx_get_put in Gy'. destruct (t =? ct_tag x') eqn:E.
    + apply N.eqb_eq in E. subst t. rewrite Gy in Gy'. inversion Gy'; subst y'. rewrite G in Gy. inversion Gy; subst y. apply HF; assumption.
    + rewrite Gy in Gy'. inversion Gy'; subst y'. congruence.
Qed.

Lemma effo_ctx_put c x x' : cl_ctx_get c (ct_tag x') = Some x -> cev x x' -> ct_finished x' = ct_finished x -> effo P c (cl_ctx_put c x').
Proof. intros G V F. apply effo_ctx_put_gen with x; auto. intros A B. congruence. Qed.

(* an update that does not finish the request *)
Lemma effo_ctx_upd' c tag f : (forall x, cl_ctx_get c tag = Some x -> cev x (f x) /\ ct_finished (f x) = ct_finished x) ->
  effo P c (cl_ctx_upd c tag f).
Proof.
  intro Hf. unfold cl_ctx_upd. destruct (cl_ctx_get c tag) as [x|] eqn:G; [|apply effo_refl]. destruct (Hf x eq_refl) as [V F].
  apply effo_ctx_put with x; [|exact V | exact F]. rewrite (cev_tag _ _ V).
  destruct (cl_ctxs_get_In _ _ _ G) as [_ ->]. assumption.
Qed.

(* markFinished (+ resolve): the request must have left the queue and the table *)
Lemma effo_ctx_upd_fin c tag f : (forall x, cl_ctx_get c tag = Some x -> cev x (f x)) -> ~ held c tag ->
  (forall pb, In pb (cc_pending c) -> pb_tag pb <> tag) -> effo P c (cl_ctx_upd c tag f).
Proof.
  intros Hf NH NP. unfold cl_ctx_upd. destruct (cl_ctx_get c tag) as [x|] eqn:G; [|apply effo_refl]. pose proof (Hf x eq_refl) as V.
  destruct (cl_ctxs_get_In _ _ _ G) as [_ T].
  apply effo_ctx_put_gen with x; [rewrite (cev_tag _ _ V), T; exact G | exact V|]. intros _ _. rewrite (cev_tag _ _ V), T. split; [exact NH | exact NP].
Qed.

Lemma effo_ctx_upd c tag f : (forall x, cev x (f x)) -> (forall x, ct_finished (f x) = ct_finished x) -> effo P c (cl_ctx_upd c tag f).
Proof. intros Hf Hg. apply effo_ctx_upd'. intros x _. auto. Qed.

Lemma finished_resolve x e : ct_finished (cl_ctx_resolve x e) = ct_finished x.
Proof. rewrite cl_ctx_resolve_eq. destruct (_ && _); reflexivity. Qed.

Lemma effo_resolve c tag e : Eall e -> effo P c (cl_resolve c tag e).
Proof. intro He. apply effo_ctx_upd; [intro x; apply cev_resolve, He | intro x; apply finished_resolve]. Qed.

Lemma effo_resolve_all c tags e : Eall e -> effo P c (cl_resolve_all c tags e).
Proof.
  intro He. revert c. induction tags as [|t r IH]; intro c; cbn [cl_resolve_all]; [apply effo_refl|].
  eapply effo_trans; [apply effo_resolve, He | apply IH].
Qed.

Lemma effo_set_last_err c e : e <> CENil -> effo P c (cl_set_last_err c e).
Proof.
  intro Ne. unfold cl_set_last_err. destruct (cc_lastErr c) eqn:L; [apply effo_refl|]. apply effo_keep; [|reflexivity|reflexivity].
  apply (eff_ctxs P c _ []); try reflexivity; auto; try (apply same_filter; reflexivity).
  - apply pending_same. reflexivity.
  - intros _ H. inversion H. congruence.
Qed.

Lemma eff_take_req_count c id : eff P c (cl_take_req_count c id).
Proof.
  unfold cl_take_req_count. destruct (cl_req_find (cc_reqQueued c) id); [|apply eff_refl].
  apply (eff_frame' P c _ []); try reflexivity; auto; [apply same_filter; reflexivity | eexists; reflexivity | apply pending_same; reflexivity].
Qed.

Lemma effo_write_out c o : benign o = true -> effo P c (cl_write_out c o).
Proof.
  intro B. unfold cl_write_out. destruct (cc_closed c); [apply effo_refl|].
  apply (effo_frame P c _ []); try reflexivity; auto; [|apply pending_same; reflexivity].
  intro H. apply Forall_app. split; [exact H | repeat constructor; exact B].
Qed.

Lemma effo_cancel_stream c id code : effo P c (cl_cancel_stream c id code).
Proof. apply effo_write_out. reflexivity. Qed.
Lemma effo_update_window c sid n : effo P c (cl_update_window c sid n).
Proof. apply effo_write_out. reflexivity. Qed.
Lemma eff_update_window c sid n : eff P c (cl_update_window c sid n).
Proof. apply effo_eff, effo_update_window. Qed.

Lemma effo_conn_close c : effo P c (cl_conn_close c).
Proof.
  unfold cl_conn_close, cl_close_begin, cl_close_net. destruct (cc_closed c); [apply effo_refl|].
  set (c1 := ccu_closed c true). set (c2 := if cl_can_write c1 then _ else c1).
  apply (effo_trans _ _ c1); [|apply (effo_trans _ _ c2); [|apply effo_same; reflexivity]].
  - apply effo_keep; [|reflexivity|reflexivity].
    apply (eff_frame' P c _ []); try reflexivity; auto; try (apply same_filter; reflexivity). apply pending_same. reflexivity.
  - unfold c2. destruct (cl_can_write c1); [apply effo_note, Pben; reflexivity | apply effo_refl].
Qed.

Lemma effo_close_body c pb : effo P c (cl_close_body c pb).
Proof.
  unfold cl_close_body. destruct (pb_stream pb); [|apply effo_refl].
  eapply effo_trans; [apply effo_ctx_upd; [intro; apply cev_bodyClosed | reflexivity] | apply effo_note, Pben; reflexivity].
Qed.

(* a goroutine that holds no Ctx.lck takes one: never the outcome "parked" while no lck is stuck *)
Lemma acquire_for_nostuck c tag id : nostuck c ->
  cl_acquire_for [] c tag id = CLOk \/ cl_acquire_for [] c tag id = CLRefused.
Proof.
  intros (A & _ & _). unfold cl_acquire_for. destruct (cl_ctx_get c tag) as [x|] eqn:G; [|auto].
  cbn [existsb]. rewrite (A _ _ G). destruct (ct_done x || negb (ct_conn x) || negb (ct_sid x =? id)); auto.
Qed.

Lemma nostuck_ccu_pending c l : nostuck c -> nostuck (ccu_pending c l).
Proof. intros H. exact H. Qed.

Lemma effo_delete_pending who c id : nostuck c ->
  effo P c (fst (cl_delete_pending who [] c id)) /\ snd (cl_delete_pending who [] c id) = false.
Proof.
  intro NS. unfold cl_delete_pending. destruct (cl_pend_get (cc_pending c) id) as [pb|] eqn:G; [|split; [apply effo_refl | reflexivity]].
  assert (E1 : effo P c (ccu_pending c (cl_pend_del (cc_pending c) id))).
  { apply (effo_frame P c _ []); try reflexivity; auto. apply pending_del. }
  destruct (pb_stream pb) eqn:S; [|split; [exact E1 | reflexivity]].
  destruct (acquire_for_nostuck (ccu_pending c (cl_pend_del (cc_pending c) id)) (pb_tag pb) id NS) as [-> | ->]; cbn [fst snd].
  - split; [|reflexivity]. eapply effo_trans; [exact E1 | apply effo_close_body].
  - split; [exact E1 | reflexivity].
Qed.

Lemma cc_pending_cl_delete_pending' who hl c id :
  cc_pending (fst (cl_delete_pending who hl c id)) = cl_pend_del (cc_pending c) id.
Proof.
  unfold cl_delete_pending. destruct (cl_pend_get (cc_pending c) id) as [pb|] eqn:G; [|cbn [fst]; symmetry; apply pend_del_absent, cl_pend_get_None, G].
  destruct (pb_stream pb); [|reflexivity]. destruct (cl_acquire_for hl _ (pb_tag pb) id); cbn [fst];
    rewrite ?cc_pending_cl_close_body, ?cc_pending_cl_go_stuck; reflexivity.
Qed.

Lemma effo_apply_initial_window c size : effo P c (cl_apply_initial_window c size).
Proof.
  apply (effo_frame P c _ []); try reflexivity; auto.
  apply pending_map. intro pb. split; reflexivity.
Qed.

Lemma effo_add_window c sid inc : effo P c (cl_add_window c sid inc).
Proof.
  unfold cl_add_window. set (c1 := if sid =? 0 then _ else _). apply (effo_trans _ _ c1); [|apply effo_same; reflexivity].
  unfold c1. destruct (sid =? 0); [apply effo_same; reflexivity|].
  destruct (cl_pend_get (cc_pending c) sid) as [pb|] eqn:G; [|apply effo_refl].
  apply (effo_frame P c _ []); try reflexivity; auto. cbn [cc_pending ccu_pending].
  destruct (cl_pend_get_In _ _ _ G). apply pending_put with pb; auto.
Qed.

Lemma effo_handle_settings c st : effo P c (cl_handle_settings c st).
Proof.
  unfold cl_handle_settings. eapply effo_trans; [|apply effo_write_out; reflexivity].
  set (c1 := ccu_maxFrame _ _). apply (effo_trans _ _ c1); [apply effo_same; reflexivity|].
  set (c2 := if cl_settings_has st c_HeaderTableSize then _ else c1).
  apply (effo_trans _ _ c2); [unfold c2; destruct (cl_settings_has st c_HeaderTableSize); [apply effo_same; reflexivity | apply effo_refl]|].
  destruct (cs_hasWin st); [apply effo_apply_initial_window | apply effo_refl].
Qed.

Lemma eff_finish_drop c id : eff P c (finish_drop c id).
Proof.
  unfold finish_drop. eapply eff_trans; [apply eff_take_req_count|].
  destruct (cl_pend_get _ id) as [pb|]; [|apply eff_refl].
  eapply eff_trans; [|apply effo_eff, effo_close_body]. apply (eff_frame P _ _ []); try reflexivity; auto. apply pending_del.
Qed.

Lemma eff_finish c tag id e : (forall x, cl_ctx_get c tag = Some x -> Eok (ct_sid x) e) ->
  ~ In tag (cc_inQ c) -> (forall i, In (i, tag) (cc_reqQueued c) -> i = id) ->
  NoDup (map pb_id (cc_pending c)) -> (forall pb, In pb (cc_pending c) -> pb_tag pb = tag -> pb_id pb = id) ->
  eff P c (cl_finish c tag id e).
Proof.
  intros He NQ NR' PND PT. rewrite cl_finish_eq. pose proof (eff_finish_drop c id) as E2.
  eapply eff_trans; [exact E2|]. apply effo_eff, effo_ctx_upd_fin.
  - intros x2 G2. apply cev_finish_resolve.
    destruct (eff_ctx_back _ _ _ _ _ E2 G2) as (x & G & V). rewrite (cev_sid _ _ V). apply He, G.
  - intros [H|H]; [rewrite finish_drop_inQ in H; contradiction|]. rewrite finish_drop_rq in H. apply in_map_iff in H.
    destruct H as ([i u] & Hu & H). cbn in Hu. subst u.
    apply filter_In in H. destruct H as [H F]. cbn in F. rewrite (NR' i H), N.eqb_refl in F. discriminate.
  - assert (P1 : cc_pending (cl_take_req_count c id) = cc_pending c) by apply cc_pending_cl_take_req_count.
    unfold finish_drop. destruct (cl_pend_get (cc_pending (cl_take_req_count c id)) id) as [pb0|] eqn:PG.
    + intros pb J. rewrite cc_pending_cl_close_body in J. cbn [cc_pending ccu_pending] in J. rewrite P1 in J.
      apply (pend_del_no_tag (cc_pending c) id tag PND PT pb J).
    + intros pb J E'. rewrite P1 in J, PG. apply (cl_pend_get_None _ _ PG pb J). apply PT; assumption.
Qed.

(* resolving answers *)
Lemma answered_resolve' x e : ct_resolved x = ct_returned x -> answered (cl_ctx_resolve x e) = true.
Proof.
  intro R. destruct (ct_resolved x) eqn:F; [|apply answered_resolve, F].
  rewrite cl_ctx_resolve_eq, F. cbn [negb andb]. unfold answered. rewrite <- R. reflexivity.
Qed.

Lemma upd_resolve_answered c tag g e x :
  cl_ctx_get c tag = Some x -> (forall y, ct_tag (g y) = ct_tag y) -> ct_resolved (g x) = ct_returned (g x) ->
  exists x', cl_ctx_get (cl_ctx_upd c tag (fun y => cl_ctx_resolve (g y) e)) tag = Some x' /\ answered x' = true.
Proof.
  intros G Hg R. rewrite cl_ctx_get_upd, N.eqb_refl, G.
  - eexists. split; [reflexivity | apply answered_resolve', R].
  - intro y. rewrite ct_tag_cl_ctx_resolve. apply Hg.
Qed.

Lemma upd_resolve_get c tag g e x :
  cl_ctx_get c tag = Some x -> (forall y, ct_tag (g y) = ct_tag y) ->
  cl_ctx_get (cl_ctx_upd c tag (fun y => cl_ctx_resolve (g y) e)) tag = Some (cl_ctx_resolve (g x) e).
Proof.
  intros G Hg. rewrite cl_ctx_get_upd, N.eqb_refl, G; [reflexivity|]. intro y. rewrite ct_tag_cl_ctx_resolve. apply Hg.
Qed.

Lemma resolve_all_answered c tags e t x : Eall e ->
  (forall t x, cl_ctx_get c t = Some x -> ct_resolved x = ct_returned x) -> In t tags -> cl_ctx_get c t = Some x ->
  exists x', cl_ctx_get (cl_resolve_all c tags e) t = Some x' /\ answered x' = true.
Proof.
  intro He. revert c x. induction tags as [|u r IH]; intros c x R I G; [destruct I|]. cbn [cl_resolve_all].
  assert (R' : forall t x, cl_ctx_get (cl_resolve c u e) t = Some x -> ct_resolved x = ct_returned x).
  { intros t' x' G'. destruct (eff_ctx_back _ _ _ _ _ (effo_eff _ _ _ (effo_resolve c u e He)) G') as (y & Gy & V).
    rewrite (cev_resolved _ _ V), (cev_returned _ _ V). eauto. }
  destruct I as [->|I].
  - assert (A : exists y, cl_ctx_get (cl_resolve c t e) t = Some y /\ answered y = true).
    { rewrite cl_ctx_get_resolve, N.eqb_refl, G. eexists. split; [reflexivity | apply answered_resolve'; eauto]. }
    destruct A as (y & Gy & Ay). destruct (e_ctx _ _ _ (effo_eff _ _ _ (effo_resolve_all (cl_resolve c t e) r e He)) _ _ Gy) as (z & Gz & V).
    exists z. split; [assumption | eapply cev_answered; eassumption].
  - destruct (e_ctx _ _ _ (effo_eff _ _ _ (effo_resolve c u e He)) _ _ G) as (y & Gy & V). eapply IH; eassumption.
Qed.

End EffHelpers.

Section Struct.
Context {hstate : Type}.
Implicit Types c : cconn hstate.

Record st_ok c : Prop := mkStOk {
  s_tags : NoDup (map ct_tag (cc_ctxs c));
  s_nostuck : nostuck c;
  s_inQ_nodup : NoDup (cc_inQ c);
  s_inQ : forall t, In t (cc_inQ c) -> exists x, cl_ctx_get c t = Some x /\ ct_sid x = 0 /\ ct_conn x = false;
  s_rq_ids : NoDup (map fst (cc_reqQueued c));
  s_rq_tags : NoDup (map snd (cc_reqQueued c));
  s_rq : forall id t, In (id, t) (cc_reqQueued c) ->
         exists x, cl_ctx_get c t = Some x /\ ct_sid x = id /\ ct_conn x = true /\ id <> 0 /\ id < cc_nextID c;
  s_ret : forall t x, cl_ctx_get c t = Some x ->
          ct_resolved x = ct_returned x /\ (ct_returned x = true -> ct_err x = None /\ ct_done x = true);
  s_sid : forall t x, cl_ctx_get c t = Some x -> ct_sid x < cc_nextID c /\ (ct_conn x = false -> ct_sid x = 0);
  s_sid_unique : forall t t' x x', cl_ctx_get c t = Some x -> cl_ctx_get c t' = Some x' ->
                 ct_sid x = ct_sid x' -> ct_sid x <> 0 -> t = t';
  s_next : 0 < cc_nextID c;
  s_wl_done : cc_wl_done c = true -> cc_closed c = true /\ cc_reqQueued c = [];
  s_rl_done : cc_rl_done c = true -> cc_closed c = true;
  s_outQ : Forall (fun o => benign o = true) (cc_outQ c);
  s_hdrErr : herr_ok (cc_hdrErr c);
  s_lastErr : cc_lastErr c <> Some CENil;
  s_pending : forall pb, In pb (cc_pending c) ->
              pb_id pb < cc_nextID c /\ forall t, In (pb_id pb, t) (cc_reqQueued c) -> t = pb_tag pb;
  (* a pending body belongs to the Ctx that has its stream *)
  s_pb : forall pb, In pb (cc_pending c) -> pb_id pb <> 0 /\ exists x, cl_ctx_get c (pb_tag pb) = Some x /\ ct_sid x = pb_id pb;
  s_pnd : NoDup (map pb_id (cc_pending c))
}.

Lemma NoDup_map_filter {A B} (f : A -> B) p l : NoDup (map f l) -> NoDup (map f (filter p l)).
Proof.
  induction l as [|a l IH]; cbn [map filter]; [auto|]. intro H. inversion H as [|? ? NI ND]; subst.
  destruct (p a); cbn [map]; [|auto]. constructor; [|auto]. intro I. apply NI.
  apply in_map_iff in I. destruct I as (b & E & I). apply filter_In in I. rewrite <- E. apply in_map. tauto.
Qed.

Lemma st_ok_eff P c c' : st_ok c -> eff P c c' -> st_ok c'.
Proof.
  intros S E. destruct (e_inQ _ _ _ E) as [p Hp]. destruct (e_rq _ _ _ E) as [q Hq]. constructor.
  - rewrite (e_tags _ _ _ E). apply S.
  - eapply eff_nostuck; [eassumption | apply S].
  - rewrite Hp. apply NoDup_filter, S.
  - intros t H. rewrite Hp in H. apply filter_In in H. destruct (s_inQ _ S t (proj1 H)) as (x & G & A & B).
    destruct (e_ctx _ _ _ E _ _ G) as (x' & G' & V). exists x'. rewrite (cev_sid _ _ V), (cev_conn _ _ V). auto.
  - rewrite Hq. apply NoDup_map_filter, S.
  - rewrite Hq. apply NoDup_map_filter, S.
  - intros id t H. rewrite Hq in H. apply filter_In in H. destruct (s_rq _ S id t (proj1 H)) as (x & G & A & B & C & D).
    destruct (e_ctx _ _ _ E _ _ G) as (x' & G' & V). exists x'.
    rewrite (cev_sid _ _ V), (cev_conn _ _ V), (e_nextID _ _ _ E). auto.
  - intros t x' G'. destruct (eff_ctx_back _ _ _ _ _ E G') as (x & G & V). destruct (s_ret _ S _ _ G) as [A B].
    rewrite (cev_resolved _ _ V), (cev_returned _ _ V), (cev_done _ _ V). split; [assumption|]. intro R.
    destruct (B R) as [B1 B2]. split; [|assumption].
    destruct (cev_err _ _ V) as [F|(_ & F & _)]; [congruence|]. rewrite A, R in F. discriminate.
  - intros t x' G'. destruct (eff_ctx_back _ _ _ _ _ E G') as (x & G & V). destruct (s_sid _ S _ _ G) as [A B].
    rewrite (cev_sid _ _ V), (cev_conn _ _ V), (e_nextID _ _ _ E). auto.
  - intros t t' x1 x1' G1 G1'. destruct (eff_ctx_back _ _ _ _ _ E G1) as (x & G & V). destruct (eff_ctx_back _ _ _ _ _ E G1') as (x' & G' & V').
    rewrite (cev_sid _ _ V), (cev_sid _ _ V'). apply (s_sid_unique _ S _ _ _ _ G G').
  - rewrite (e_nextID _ _ _ E). apply S.
  - intro W. destruct (cc_wl_done c) eqn:W0.
    + destruct (s_wl_done _ S W0) as [A B]. split; [apply (e_closed _ _ _ E A)|]. rewrite Hq, B. reflexivity.
    + destruct (e_wl_new _ _ _ E W0 W) as (A & B & _). auto.
  - intro W. destruct (cc_rl_done c) eqn:W0.
    + apply (e_closed _ _ _ E), (s_rl_done _ S W0).
    + apply (e_rl_new _ _ _ E W0 W).
  - apply (e_outQ _ _ _ E), S.
  - apply (e_hdrErr _ _ _ E), S.
  - apply (e_lastErr _ _ _ E), S.
  - intros pb' H. destruct (proj1 (e_pending _ _ _ E) _ H) as (pb & I & A & B). destruct (s_pending _ S _ I) as [C D].
    rewrite A, B, (e_nextID _ _ _ E). split; [assumption|]. intros t J. apply D. rewrite Hq in J. apply filter_In in J. tauto.
  - intros pb' H. destruct (proj1 (e_pending _ _ _ E) _ H) as (pb & I & A & B). destruct (s_pb _ S _ I) as (C & x & G & D).
    rewrite A, B. split; [assumption|]. destruct (e_ctx _ _ _ E _ _ G) as (x' & G' & V). exists x'. rewrite (cev_sid _ _ V). auto.
  - apply (proj2 (e_pending _ _ _ E)), S.
Qed.

Record an_ok c : Prop := mkAnOk {
  a_dropped : forall t x, cl_ctx_get c t = Some x -> ~ held c t -> answered x = true;
  a_done : forall t x, cl_ctx_get c t = Some x -> ct_done x = true -> answered x = true;
  a_fired : forall t x, cl_ctx_get c t = Some x -> ct_fired x = true -> answered x = true;
  a_wl : cc_wl_done c = true ->
         forall t x, In t (cc_inQ c) -> cl_ctx_get c t = Some x -> ct_writing x = true \/ answered x = true;
  (* a Ctx marked finished has left the queue and the table: the caller may put it back in the pool *)
  a_fin : forall t x, cl_ctx_get c t = Some x -> ct_finished x = true ->
          ~ held c t /\ forall pb, In pb (cc_pending c) -> pb_tag pb <> t
}.

Lemma an_ok_effo P c c' : an_ok c -> effo P c c' -> an_ok c'.
Proof.
  intros A [E O]. constructor.
  - intros t x' G' N. destruct (held_dec c t) as [H|H].
    + destruct (O t H N) as (y & Gy & Ay). congruence.
    + destruct (eff_ctx_back _ _ _ _ _ E G') as (x & G & V). eapply cev_answered; [eassumption|]. eapply a_dropped; eassumption.
  - intros t x' G' D. destruct (eff_ctx_back _ _ _ _ _ E G') as (x & G & V). eapply cev_answered; [eassumption|].
    eapply a_done; [eassumption..|]. rewrite <- (cev_done _ _ V). assumption.
  - intros t x' G' D. destruct (eff_ctx_back _ _ _ _ _ E G') as (x & G & V). eapply cev_answered; [eassumption|].
    eapply a_fired; [eassumption..|]. rewrite <- (cev_fired _ _ V). assumption.
  - intros W t x' I G'. destruct (eff_ctx_back _ _ _ _ _ E G') as (x & G & V). destruct (cc_wl_done c) eqn:W0.
    + destruct (e_inQ _ _ _ E) as [p Hp]. rewrite Hp in I. apply filter_In in I.
      destruct (a_wl _ A W0 t x (proj1 I) G) as [B|B]; [left; rewrite (cev_writing _ _ V); assumption|].
      right. eapply cev_answered; eassumption.
    + destruct (e_wl_new _ _ _ E W0 W) as (_ & _ & Q). rewrite Q in I. destruct I.
  - intros t x' G' F'. destruct (eff_ctx_back _ _ _ _ _ E G') as (x & G & V). destruct (ct_finished x) eqn:F.
    + destruct (a_fin _ A _ _ G F) as [NH NP]. split.
      * intro H. apply NH. apply (held_filter _ _ _ _ E H).
      * intros pb Hpb. destruct (proj1 (e_pending _ _ _ E) _ Hpb) as (pb0 & I0 & _ & B0). rewrite B0. apply NP, I0.
    + apply (e_fin _ _ _ E _ _ _ G G' F F').
Qed.

End Struct.


Section EffoWL.
Context {hstate : Type}.
Implicit Types c : cconn hstate.
Variable cfg : cl_config.
Variable P : coutev -> Prop.
Hypothesis Pben : forall o, benign o = true -> P o.

(* stream id is taken off the table, then its Ctx is resolved *)
Lemma obl_take_resolve c c2 id tag g e :
  st_ok c -> eff P c c2 -> cc_inQ c2 = cc_inQ c ->
  cc_reqQueued c2 = filter (fun en => negb (fst en =? id)) (cc_reqQueued c) ->
  (forall t, In (id, t) (cc_reqQueued c) -> t = tag) ->
  (forall y, ct_tag (g y) = ct_tag y) -> (forall y, ct_resolved (g y) = ct_resolved y /\ ct_returned (g y) = ct_returned y) ->
  obl c (cl_ctx_upd c2 tag (fun y => cl_ctx_resolve (g y) e)).
Proof.
  intros S E HI HR Hid Hg Hr t H N.
  assert (K : forall i, In (i, t) (cc_reqQueued c) -> i = id).
  { intros i I. destruct (i =? id) eqn:F; [lia|]. exfalso. apply N. right. rewrite cc_reqQueued_cl_ctx_upd, HR.
    apply in_map_iff. exists (i, t). split; [reflexivity|]. apply filter_In. split; [assumption|]. cbn [fst]. rewrite F. reflexivity. }
  destruct H as [H|H]; [exfalso; apply N; left; rewrite cc_inQ_cl_ctx_upd, HI; assumption|].
  apply in_map_iff in H. destruct H as ([i u] & Hu & I). cbn [snd] in Hu. subst u.
  pose proof (K i I). subst i. pose proof (Hid _ I). subst t.
  destruct (s_rq _ S _ _ I) as (x & G & _). destruct (e_ctx _ _ _ E _ _ G) as (x2 & G2 & V).
  apply upd_resolve_answered with x2; [assumption | assumption|].
  destruct (Hr x2) as [-> ->]. apply (s_ret _ (st_ok_eff _ _ _ S E) _ _ G2).
Qed.

Lemma cc_reqQueued_cl_finish c tag id e :
  cc_reqQueued (cl_finish c tag id e) = filter (fun en => negb (fst en =? id)) (cc_reqQueued c).
Proof. rewrite cl_finish_eq, cc_reqQueued_cl_ctx_upd. apply finish_drop_rq. Qed.

Lemma effo_finish c tag id e : (forall x, cl_ctx_get c tag = Some x -> Eok (ct_sid x) e) -> st_ok c ->
  (forall t, In (id, t) (cc_reqQueued c) -> t = tag) ->
  ~ In tag (cc_inQ c) -> (forall i, In (i, tag) (cc_reqQueued c) -> i = id) ->
  (forall x, cl_ctx_get c tag = Some x -> ct_sid x = id) -> effo P c (cl_finish c tag id e).
Proof.
  intros He S Hid NQ NR' HSid.
  assert (PT : forall pb, In pb (cc_pending c) -> pb_tag pb = tag -> pb_id pb = id).
  { intros pb J E'. destruct (s_pb _ S _ J) as (_ & y & Gy & Sy). rewrite E' in Gy. rewrite <- Sy. apply HSid, Gy. }
  split; [apply eff_finish; try exact Pben; try assumption; apply (s_pnd _ S)|]. rewrite cl_finish_eq.
  apply (obl_take_resolve c (finish_drop c id) id tag (fun y => ctu_finished y true) e S (eff_finish_drop P Pben c id)); auto.
  - apply finish_drop_inQ.
  - apply finish_drop_rq.
Qed.

Lemma data_frames_benign k sid step body endb : Forall (fun o => benign o = true) (cl_data_frames k sid step body endb).
Proof.
  revert body. induction k as [|k IH]; intro body; cbn [cl_data_frames]; [repeat constructor|].
  destruct (len body <=? step); repeat constructor. apply IH.
Qed.
Lemma write_data_benign mf sid body endb : Forall (fun o => benign o = true) (cl_write_data mf sid body endb).
Proof.
  unfold cl_write_data. destruct body; [destruct endb; repeat constructor | apply data_frames_benign].
Qed.

Lemma nostuck_frame c c' : cc_ctxs c' = cc_ctxs c -> cc_rl_stuck c' = cc_rl_stuck c -> cc_wl_stuck c' = cc_wl_stuck c ->
  nostuck c -> nostuck c'.
Proof. intros A B C (X & Y & Z). unfold nostuck, cl_ctx_get. rewrite A, B, C. auto. Qed.

(* a refill changes neither the stream nor the Ctx of a pending body *)
Lemma refill_id_tag pb pb' : cl_refill pb = Some pb' -> pb_id pb' = pb_id pb /\ pb_tag pb' = pb_tag pb.
Proof.
  unfold cl_refill. destruct (pb_stream pb) as [[|[ch er] rest]|]; cbv zeta beta iota; [| |intros [= <-]; auto].
  - cbn [cl_is_nil]. intros [= <-]. destruct (_ && _)%Z; auto.
  - destruct er; [destruct (cl_is_nil ch); [discriminate|] | | discriminate]; intros [= <-];
      destruct (_ && _)%Z; try destruct (cl_is_nil ch); auto.
Qed.

Lemma effo_send_pending fuel c id : st_ok c ->
  effo P c (fst (cl_send_pending fuel c id)) /\ snd (cl_send_pending fuel c id) <> CSPStuck.
Proof.
  revert c. induction fuel as [|fuel IH]; intros c S; cbn [cl_send_pending]; [split; [apply effo_refl | discriminate]|].
  destruct (cl_pend_get (cc_pending c) id) as [pb|] eqn:G; [|split; [apply effo_refl | discriminate]].
  destruct (cl_pend_get_In _ _ _ G) as [Ipb Hid].
  destruct (cl_is_nil (pb_body pb) && match pb_stream pb with Some _ => true | None => false end && negb (pb_drained pb)).
  - destruct (cl_refill pb) as [pb'|] eqn:R.
    + (* refilled *)
      set (c1 := ccu_pending c (cl_pend_put (cc_pending c) pb')).
      assert (E1 : effo P c c1).
      { apply (effo_frame P c c1 []); try reflexivity; auto. cbn [cc_pending c1 ccu_pending].
        destruct (refill_id_tag pb pb' R). apply pending_put with pb; assumption. }
      destruct (IH c1 (st_ok_eff _ _ _ S (proj1 E1))) as [E2 NS]. split; [eapply effo_trans; eassumption | assumption].
    + (* the reader failed *)
      destruct (effo_delete_pending P Pben 1 c id (s_nostuck _ S)) as [E1 F1].
      destruct (cl_delete_pending 1 [] c id) as [c1 stuck] eqn:D. cbn [fst snd] in E1, F1. subst stuck.
      assert (IQ1 : cc_inQ c1 = cc_inQ c) by (replace c1 with (fst (cl_delete_pending 1 [] c id)) by (rewrite D; reflexivity); apply cc_inQ_cl_delete_pending).
      assert (RQ1 : cc_reqQueued c1 = cc_reqQueued c) by (replace c1 with (fst (cl_delete_pending 1 [] c id)) by (rewrite D; reflexivity); apply cc_reqQueued_cl_delete_pending).
      assert (PD1 : cc_pending c1 = cl_pend_del (cc_pending c) id) by (replace c1 with (fst (cl_delete_pending 1 [] c id)) by (rewrite D; reflexivity); apply cc_pending_cl_delete_pending').
      (* only whoever takes the request off the table ends it *)
      destruct (cl_req_find (cc_reqQueued c1) id) as [tg|]; [|cbn [fst snd]; split; [exact E1 | discriminate]].
      set (c2 := cl_take_req_count c1 id).
      set (c3 := cl_ctx_upd c2 (pb_tag pb) (fun x => cl_ctx_resolve (ctu_finished x true) CEBody)).
      assert (E3 : effo P c c3).
      { split.
        - eapply eff_trans; [apply E1|]. eapply eff_trans; [apply eff_take_req_count|].
          apply effo_eff, effo_ctx_upd_fin; [intros; apply cev_finish_resolve, Enr; [reflexivity | discriminate]| |].
          2:{ (* no other pending body belongs to this Ctx *)
              unfold c2. rewrite cc_pending_cl_take_req_count, PD1.
              apply (pend_del_no_tag (cc_pending c) id (pb_tag pb) (s_pnd _ S)). intros pb2 J2 E2.
              destruct (s_pb _ S _ J2) as (_ & y2 & Gy2 & Sy2). destruct (s_pb _ S _ Ipb) as (_ & y1 & Gy1 & Sy1). rewrite E2 in Gy2. congruence. }
          (* the Ctx of this body has stream id, which has just left the table *)
          destruct (s_pb _ S _ Ipb) as (NZ & xp & Gp & SP0). rewrite Hid in NZ, SP0.
          assert (SP : forall y, cl_ctx_get c (pb_tag pb) = Some y -> ct_sid y = id) by (intros y Gy; congruence).
          intros [H|H].
          + unfold c2 in H. rewrite cc_inQ_cl_take_req_count, IQ1 in H. destruct (s_inQ _ S _ H) as (y & Gy & Zy & _).
            rewrite (SP _ Gy) in Zy. contradiction.
          + unfold c2 in H. rewrite cc_reqQueued_cl_take_req_count, RQ1 in H. apply in_map_iff in H.
            destruct H as ([i u] & Hu & H). cbn in Hu. subst u. apply filter_In in H. destruct H as [H F]. cbn in F.
            destruct (s_rq _ S _ _ H) as (y & Gy & Sy & _). rewrite (SP _ Gy) in Sy. subst i. rewrite N.eqb_refl in F. discriminate.
        - apply (obl_take_resolve c c2 id (pb_tag pb) (fun y => ctu_finished y true) CEBody S); auto.
          + eapply eff_trans; [apply E1 | apply eff_take_req_count].
          + unfold c2. rewrite cc_inQ_cl_take_req_count. exact IQ1.
          + unfold c2. rewrite cc_reqQueued_cl_take_req_count, RQ1. reflexivity.
          + intros t I. apply (proj2 (s_pending _ S _ Ipb)). rewrite Hid. assumption. }
      destruct (cl_can_write c3); cbn [fst snd]; (split; [|discriminate]); [|exact E3].
      eapply effo_trans; [exact E3 | apply effo_note, Pben; reflexivity].
  - (* a chunk goes out *)
    set (n := if (_ <? 0)%Z then 0%Z else _).
    set (pb' := pbu_body _ _). set (endb := negb (cl_has_more pb')).
    set (c1 := ccu_connWindow c _). set (c2 := ccu_pending c1 _).
    assert (E2 : effo P c c2).
    { apply (effo_frame P c c2 []); try reflexivity; auto. cbn [cc_pending c2 c1 ccu_pending ccu_connWindow].
      destruct endb; [apply pending_del | apply pending_put with pb; auto]. }
    pose proof (st_ok_eff _ _ _ S (proj1 E2)) as S2.
    destruct ((n =? 0)%Z && negb endb); [split; [exact E2 | discriminate]|].
    destruct (acquire_for_nostuck c2 (pb_tag pb) id (s_nostuck _ S2)) as [-> | ->].
    + destruct (cl_can_write c2); [|split; [exact E2 | discriminate]].
      set (c3 := cl_notes c2 _).
      assert (E3 : effo P c2 c3).
      { apply effo_notes. eapply Forall_impl; [|apply write_data_benign]. exact Pben. }
      destruct endb.
      * split; [|discriminate]. eapply effo_trans; [exact E2|]. eapply effo_trans; [exact E3 | apply effo_close_body; try exact Pben].
      * destruct (IH c3 (st_ok_eff _ _ _ S2 (proj1 E3))) as [E4 NS]. split; [|assumption].
        eapply effo_trans; [exact E2|]. eapply effo_trans; eassumption.
    + (* the chunk is dropped: its debit of the connection window is given back first (a frame step) *)
      set (c2' := if (0 <? n)%Z then cl_add_window c2 0 n else c2).
      assert (E2' : effo P c2 c2') by (unfold c2'; destruct (0 <? n)%Z; [apply effo_add_window | apply effo_refl]).
      pose proof (st_ok_eff _ _ _ S2 (proj1 E2')) as S2'.
      destruct (effo_delete_pending P Pben 1 c2' id (s_nostuck _ S2')) as [E3 F3].
      destruct (cl_delete_pending 1 [] c2' id) as [c3 stuck]. cbn [fst snd] in *. subst stuck. split; [|discriminate].
      eapply effo_trans; [exact E2|]. eapply effo_trans; eassumption.
Qed.

Lemma effo_flush_pending c ids : st_ok c ->
  effo P c (fst (cl_flush_pending c ids)) /\ snd (cl_flush_pending c ids) <> CSPStuck.
Proof.
  revert c. induction ids as [|id t IH]; intros c S; cbn [cl_flush_pending]; [split; [apply effo_refl | discriminate]|].
  destruct (effo_send_pending (cl_send_fuel c id) c id S) as [E1 N1].
  destruct (cl_send_pending (cl_send_fuel c id) c id) as [c1 r]. cbn [fst snd] in *.
  destruct r; [|split; [assumption | discriminate] | contradiction].
  destruct (IH c1 (st_ok_eff _ _ _ S (proj1 E1))) as [E2 N2]. split; [eapply effo_trans; eassumption | assumption].
Qed.

(* the loop returns *)
Lemma eff_set_wl_done c : cc_closed c = true -> cc_reqQueued c = [] -> cc_inQ c = [] -> eff P c (ccu_wl_done c true).
Proof.
  intros A B C. apply (eff_ctxs P c _ []); try reflexivity; auto; try (apply same_filter; reflexivity).
  apply pending_same. reflexivity.
Qed.

Lemma effo_wl_exit c le why : Eall (match le with Some e => e | None => CEConn end) ->
  (match le with Some e => e | None => CEConn end) <> CENil -> st_ok c -> effo P c (cl_wl_exit c le why).
Proof.
  intros He Hne S. unfold cl_wl_exit.
  set (e := match le with Some e => e | None => CEConn end).
  set (c1 := cl_conn_close (cl_set_last_err c e)).
  set (c2' := cl_resolve_all c1 (map snd (cc_reqQueued c1)) e). set (c2 := ccu_reqQueued c2' []).
  set (c3' := cl_resolve_all c2 (cc_inQ c2) e). set (c3 := ccu_outQ (ccu_inQ c3' []) []).
  assert (E1 : effo P c c1). { eapply effo_trans; [apply effo_set_last_err; first [exact Pben | exact Hne] | apply effo_conn_close; try exact Pben]. }
  assert (E2' : effo P c1 c2') by (apply effo_resolve_all; exact He).
  assert (E2 : eff P c2' c2).
  { apply (eff_frame' P c2' c2 []); try reflexivity; auto.
    - apply same_filter. reflexivity.
    - exists (fun _ => false). apply filter_false.
    - apply pending_same. reflexivity. }
  assert (E3' : effo P c2 c3') by (apply effo_resolve_all; exact He).
  assert (E3 : eff P c3' c3).
  { apply (eff_frame' P c3' c3 []); try reflexivity; auto.
    - exists (fun _ => false). apply filter_false.
    - apply same_filter. reflexivity.
    - intros _. constructor.
    - apply pending_same. reflexivity. }
  assert (C3 : cc_closed c3 = true).
  { cbn [c3 cc_closed ccu_outQ ccu_inQ]. unfold c3'. rewrite cc_closed_cl_resolve_all. cbn [c2 cc_closed ccu_reqQueued].
    unfold c2'. rewrite cc_closed_cl_resolve_all. apply cc_closed_cl_conn_close. }
  assert (R3 : cc_reqQueued c3 = []).
  { cbn [c3 cc_reqQueued ccu_outQ ccu_inQ]. unfold c3'. rewrite cc_reqQueued_cl_resolve_all. reflexivity. }
  assert (E4 : eff P c3 (cl_note (ccu_wl_done c3 true) (COExit 1 why))).
  { eapply eff_trans; [apply eff_set_wl_done; auto | apply effo_eff, effo_note, Pben; reflexivity]. }
  assert (Eall : eff P c (cl_note (ccu_wl_done c3 true) (COExit 1 why))).
  { eapply eff_trans; [apply E1|]. eapply eff_trans; [apply E2'|]. eapply eff_trans; [apply E2|].
    eapply eff_trans; [apply E3'|]. eapply eff_trans; [apply E3 | apply E4]. }
  split; [exact Eall|].
  (* everything that was held is answered *)
  pose proof (st_ok_eff _ _ _ S (proj1 E1)) as S1.
  assert (Q1 : cc_reqQueued c1 = cc_reqQueued c) by (unfold c1; rewrite cc_reqQueued_cl_conn_close; apply cc_reqQueued_cl_set_last_err).
  assert (I1 : cc_inQ c1 = cc_inQ c) by (unfold c1; rewrite cc_inQ_cl_conn_close; apply cc_inQ_cl_set_last_err).
  intros t H _. destruct H as [H|H].
  - (* queued *)
    assert (I2 : cc_inQ c2 = cc_inQ c). { cbn [c2 cc_inQ ccu_reqQueued]. unfold c2'. rewrite cc_inQ_cl_resolve_all. exact I1. }
    pose proof (st_ok_eff _ _ _ S1 (eff_trans _ _ _ _ (proj1 E2') E2)) as S2.
    destruct (s_inQ _ S _ H) as (x & G & _).
    destruct (e_ctx _ _ _ (eff_trans _ _ _ _ (proj1 E1) (eff_trans _ _ _ _ (proj1 E2') E2)) _ _ G) as (x2 & G2 & _).
    destruct (resolve_all_answered P c2 (cc_inQ c2) e t x2 He) as (x3 & G3 & A3); [intros ? ? HH; apply (s_ret _ S2 _ _ HH) | rewrite I2; exact H | exact G2|].
    destruct (e_ctx _ _ _ (eff_trans _ _ _ _ E3 E4) _ _ G3) as (x4 & G4 & V). exists x4. split; [exact G4 | eapply cev_answered; eassumption].
  - (* on the table *)
    apply in_map_iff in H. destruct H as ([i u] & Hu & I). cbn [snd] in Hu. subst u.
    destruct (s_rq _ S _ _ I) as (x & G & _). destruct (e_ctx _ _ _ (proj1 E1) _ _ G) as (x1 & G1 & _).
    destruct (resolve_all_answered P c1 (map snd (cc_reqQueued c1)) e t x1 He) as (x2 & G2 & A2);
      [intros ? ? HH; apply (s_ret _ S1 _ _ HH) | rewrite Q1; apply in_map_iff; exists (i, t); auto | exact G1|].
    destruct (e_ctx _ _ _ (eff_trans _ _ _ _ E2 (eff_trans _ _ _ _ (proj1 E3') (eff_trans _ _ _ _ E3 E4))) _ _ G2) as (x4 & G4 & V).
    exists x4. split; [exact G4 | eapply cev_answered; eassumption].
Qed.

Lemma effo_wl_after c : st_ok c -> effo P c (cl_wl_after cfg c).
Proof. intro S. unfold cl_wl_after. destruct (negb (ccf_disableAcks cfg) && (3 <=? cc_unacks c)%Z); [apply effo_wl_exit; [apply Eall_nr; [reflexivity | discriminate] | discriminate | exact S] | apply effo_refl]. Qed.

Lemma effo_wl_out c : st_ok c -> effo P c (cl_wl_out cfg c).
Proof.
  intro S. unfold cl_wl_out. destruct (cc_outQ c) as [|o q] eqn:Q; [apply effo_refl|].
  assert (E1 : effo P c (ccu_outQ c q)).
  { apply (effo_frame P c _ []); try reflexivity; auto.
    - cbn [cc_outQ ccu_outQ]. rewrite Q. intro H. inversion H. assumption.
    - apply pending_same. reflexivity. }
  pose proof (st_ok_eff _ _ _ S (proj1 E1)) as S1.
  assert (Bo : benign o = true). { pose proof (s_outQ _ S) as H. rewrite Q in H. inversion H. assumption. }
  destruct (cl_can_write (ccu_outQ c q)).
  - eapply effo_trans; [exact E1|]. assert (E2 : effo P (ccu_outQ c q) (cl_note (ccu_outQ c q) o)) by (apply effo_note, Pben, Bo).
    eapply effo_trans; [exact E2 | apply effo_wl_after, (st_ok_eff _ _ _ S1 (proj1 E2))].
  - eapply effo_trans; [exact E1 | apply effo_wl_exit; [apply Eall_nr; [reflexivity | discriminate] | discriminate | exact S1]].
Qed.

Lemma effo_wl_win c order : st_ok c -> effo P c (cl_wl_win cfg c order).
Proof.
  intro S. unfold cl_wl_win. destruct (cc_winCh c); [|apply effo_refl]. cbn [negb].
  set (c1 := ccu_winCh c false).
  assert (E1 : effo P c c1). { apply effo_same; reflexivity. }
  pose proof (st_ok_eff _ _ _ S (proj1 E1)) as S1.
  destruct (effo_flush_pending c1 (cl_pending_order c1 order) S1) as [E2 N2].
  destruct (cl_flush_pending c1 (cl_pending_order c1 order)) as [c2 r]. cbn [fst snd] in *.
  pose proof (st_ok_eff _ _ _ S1 (proj1 E2)) as S2.
  destruct r; [| | contradiction].
  - eapply effo_trans; [exact E1|]. eapply effo_trans; [exact E2 | apply effo_wl_after, S2].
  - eapply effo_trans; [exact E1|]. eapply effo_trans; [exact E2 | apply effo_wl_exit; [apply Eall_nr; [reflexivity | discriminate] | discriminate | exact S2]].
Qed.

Lemma effo_wl_ping c : st_ok c -> effo P c (cl_wl_ping cfg c).
Proof.
  intro S. unfold cl_wl_ping. destruct (cl_can_write c); [|apply effo_wl_exit; [apply Eall_nr; [reflexivity | discriminate] | discriminate | exact S]].
  set (c1 := ccu_unacks _ _).
  assert (E1 : effo P c c1). { apply (effo_frame P c _ [COPing]); try reflexivity; auto; try (apply pending_same; reflexivity).
    all: repeat constructor; apply Pben; reflexivity. }
  eapply effo_trans; [exact E1 | apply effo_wl_after, (st_ok_eff _ _ _ S (proj1 E1))].
Qed.

Lemma effo_wl_done c : st_ok c -> effo P c (cl_wl_done c).
Proof. intro S. unfold cl_wl_done. destruct (cc_closed c); [apply effo_wl_exit; [apply Eall_nr; [reflexivity | discriminate] | discriminate | exact S] | apply effo_refl]. Qed.

End EffoWL.

Section EffoRL.
Context {hstate : Type}.
Implicit Types c : cconn hstate.
Variable dec_field : hstate -> N -> bytes -> dec_res hstate.
Variable P : coutev -> Prop.
Hypothesis Pben : forall o, benign o = true -> P o.

Lemma eff_set_rl_done c : cc_closed c = true -> eff P c (ccu_rl_done c true).
Proof.
  intros A. apply (eff_ctxs P c _ []); try reflexivity; auto; try (apply same_filter; reflexivity).
  apply pending_same. reflexivity.
Qed.

Lemma effo_rl_exit c why : effo P c (cl_rl_exit c why).
Proof.
  unfold cl_rl_exit. eapply effo_trans; [apply effo_conn_close, Pben|].
  apply effo_keep; [|reflexivity|reflexivity].
  eapply eff_trans; [apply eff_set_rl_done, cc_closed_cl_conn_close | apply effo_eff, effo_note, Pben; reflexivity].
Qed.

Lemma effo_rl_fail c : effo P c (cl_rl_fail c).
Proof. unfold cl_rl_fail. apply (effo_trans _ _ (cl_set_last_err c CEConn)); [apply effo_set_last_err; first [exact Pben | discriminate] | apply effo_rl_exit]. Qed.

Lemma effo_rl_panic c : P (COPanic 0) -> st_ok c -> effo P c (cl_rl_panic c).
Proof.
  intros Pp S. unfold cl_rl_panic. assert (He : Eall CEConn) by (apply Eall_nr; [reflexivity | discriminate]).
  set (c1 := cl_set_last_err (cl_note c (COPanic 0)) CEConn).
  set (c2' := cl_resolve_all c1 (map snd (cc_reqQueued c1)) CEConn). set (c2 := ccu_reqQueued c2' []).
  assert (E1 : effo P c c1). { eapply effo_trans; [apply effo_note, Pp | apply effo_set_last_err; first [exact Pben | discriminate]]. }
  assert (E2' : effo P c1 c2') by (apply effo_resolve_all; exact He).
  assert (E2 : eff P c2' c2).
  { apply (eff_frame' P c2' c2 []); try reflexivity; auto.
    - apply same_filter. reflexivity.
    - exists (fun _ => false). apply filter_false.
    - apply pending_same. reflexivity. }
  assert (E3 : effo P c2 (cl_rl_exit c2 5)) by apply effo_rl_exit.
  split; [eapply eff_trans; [apply E1|]; eapply eff_trans; [apply E2'|]; eapply eff_trans; [apply E2 | apply E3]|].
  pose proof (st_ok_eff _ _ _ S (proj1 E1)) as S1.
  assert (Q1 : cc_reqQueued c1 = cc_reqQueued c) by (unfold c1; rewrite cc_reqQueued_cl_set_last_err; reflexivity).
  intros t H N. destruct H as [H|H].
  - exfalso. apply N. left. unfold cl_rl_exit. cbn [cl_note cc_inQ ccu_out ccu_rl_done]. rewrite cc_inQ_cl_conn_close.
    cbn [c2 cc_inQ ccu_reqQueued]. unfold c2'. rewrite cc_inQ_cl_resolve_all. unfold c1. rewrite cc_inQ_cl_set_last_err. exact H.
  - apply in_map_iff in H. destruct H as ([i u] & Hu & I). cbn [snd] in Hu. subst u.
    destruct (s_rq _ S _ _ I) as (x & G & _). destruct (e_ctx _ _ _ (proj1 E1) _ _ G) as (x1 & G1 & _).
    destruct (resolve_all_answered P c1 (map snd (cc_reqQueued c1)) CEConn t x1 He) as (x2 & G2 & A2);
      [intros ? ? HH; apply (s_ret _ S1 _ _ HH) | rewrite Q1; apply in_map_iff; exists (i, t); auto | exact G1|].
    destruct (e_ctx _ _ _ (eff_trans _ _ _ _ E2 (proj1 E3)) _ _ G2) as (x4 & G4 & V).
    exists x4. split; [exact G4 | eapply cev_answered; eassumption].
Qed.

(* readStream and below: only the header-block registers, the decoder, the receive window and queued WINDOW_UPDATEs *)
Lemma hdr_loop_no_panic fuel eh d fields rseen status herr res b :
  (forall d n b, dec_field d n b <> DPanic hstate) ->
  snd (cl_hdr_loop dec_field fuel eh d fields rseen status herr res b) <> CRSPanic.
Proof.
  intro Hd. revert d fields rseen status herr res b. induction fuel as [|fuel IH]; intros; cbn [cl_hdr_loop]; [discriminate|].
  destruct b as [|b0 b']; [discriminate|]. destruct (dec_field d fields (b0 :: b')) as [kk vv rest d'|d'|d'|d'|] eqn:D; try discriminate.
  - destruct res as [r|]; [destruct herr; [apply IH|] | apply IH].
    destruct (cl_read_header_field rseen status r kk vv) as [[[rs st] r'] e']. apply IH.
  - destruct eh; discriminate.
  - exfalso. eapply Hd. eassumption.
Qed.

Definition rs_conn {A B C} (r : cconn hstate * A * B * C) : cconn hstate := fst (fst (fst r)).

(* from here on the header-block registers, the response and gotStatus change: the analysis that cares about them
   looks at dispatch itself (Proofs/CliResNil.v) *)
Hypothesis W_any : forall c c' : cconn hstate, Wok hstate c c'.

Lemma effo_frame_rl c c' l :
  cc_ctxs c' = cc_ctxs c -> cc_inQ c' = cc_inQ c -> cc_reqQueued c' = cc_reqQueued c -> cc_nextID c' = cc_nextID c ->
  cc_goAway c' = cc_goAway c -> cc_closed c' = cc_closed c -> cc_wl_done c' = cc_wl_done c -> cc_rl_done c' = cc_rl_done c ->
  cc_rl_stuck c' = cc_rl_stuck c -> cc_wl_stuck c' = cc_wl_stuck c ->
  (Forall (fun o => benign o = true) (cc_outQ c) -> Forall (fun o => benign o = true) (cc_outQ c')) ->
  pend_sub (cc_pending c') (cc_pending c) ->
  cc_out c' = l ++ cc_out c -> Forall P l -> (herr_ok (cc_hdrErr c) -> herr_ok (cc_hdrErr c')) ->
  cc_lastErr c' = cc_lastErr c -> effo P c c'.
Proof.
  intros H1 H2 H3 H4 H5 H6 H7 H8 H9 H10 H11 H12 H13 H14 H15 H16. apply effo_keep; [|assumption|assumption].
  constructor; try congruence; auto.
  - intros t x H. exists x. unfold cl_ctx_get in *. rewrite H1. split; [assumption | apply cev_refl].
  - exists (fun _ => true). rewrite H2. apply filter_true.
  - exists (fun _ => true). rewrite H3. apply filter_true.
  - exists l. auto.
  - intros t x x' G G' F F'. unfold cl_ctx_get in *. rewrite H1, G in G'. inversion G'; subst. congruence.
Qed.

Lemma effo_read_header_fragment c id frag eh res :
  effo P c (rs_conn (cl_read_header_fragment dec_field c id frag eh res)).
Proof.
  unfold cl_read_header_fragment.
  pose proof (hdr_loop_herr dec_field (S (length (cc_hdrPrev c ++ frag))) eh (cc_dec c) (cc_hdrFields c) (cc_hdrRegularSeen c) (cc_hdrStatus c)
                (cc_hdrErr c) res (cc_hdrPrev c ++ frag)) as Hh.
  destruct (cl_hdr_loop dec_field _ eh (cc_dec c) (cc_hdrFields c) (cc_hdrRegularSeen c) (cc_hdrStatus c) (cc_hdrErr c) res _)
    as [[[[[[[d' fields] rseen] status] herr] res'] prev] e]. cbn [fst snd] in Hh.
  destruct e; [destruct eh; cbn [negb]; [destruct herr | destruct (cl_maxHeaderPrev <? len prev)] | | |]; unfold rs_conn; cbn [fst];
    (apply (effo_frame_rl c _ []); try reflexivity; auto; try (apply pending_same; reflexivity)).
Qed.

Lemma read_header_fragment_no_panic c id frag eh res :
  (forall d n b, dec_field d n b <> DPanic hstate) -> snd (cl_read_header_fragment dec_field c id frag eh res) <> CRSPanic.
Proof.
  intro Hd. unfold cl_read_header_fragment.
  pose proof (hdr_loop_no_panic (S (length (cc_hdrPrev c ++ frag))) eh (cc_dec c) (cc_hdrFields c) (cc_hdrRegularSeen c)
                (cc_hdrStatus c) (cc_hdrErr c) res (cc_hdrPrev c ++ frag) Hd) as H.
  destruct (cl_hdr_loop dec_field _ eh (cc_dec c) (cc_hdrFields c) (cc_hdrRegularSeen c) (cc_hdrStatus c) (cc_hdrErr c) res _)
    as [[[[[[[d' fields] rseen] status] herr] res'] prev] e]. cbn [snd] in H.
  destruct e; [destruct eh; cbn [negb]; [destruct herr | destruct (cl_maxHeaderPrev <? len prev)] | | |]; cbn [snd]; congruence.
Qed.

Lemma effo_read_stream c fr res : effo P c (rs_conn (cl_read_stream dec_field c fr res)).
Proof.
  unfold cl_read_stream. destruct (sf_kind fr); try apply effo_refl.
  - (* DATA *)
    unfold rs_conn. cbn [fst].
    set (cur := cl_i32 _). set (c1 := ccu_currentWindow c cur).
    assert (E1 : effo P c c1). { apply effo_same; reflexivity. }
    set (c2 := match res with Some _ => _ | None => c1 end).
    assert (E2 : effo P c1 c2).
    { unfold c2. destruct res; [|apply effo_refl]. destruct (negb (sf_len fr =? 0) && negb (flag_has (sf_flags fr) FL_ES)); [apply effo_update_window | apply effo_refl]. }
    eapply effo_trans; [exact E1|]. eapply effo_trans; [exact E2|].
    destruct (cur <? cl_maxWindow / 2)%Z; [|apply effo_refl].
    eapply effo_trans; [|apply effo_update_window].
    apply effo_same; reflexivity.
  - (* HEADERS *)
    eapply effo_trans; [|apply effo_read_header_fragment].
    apply (effo_frame_rl c _ []); try reflexivity; auto; try (apply pending_same; reflexivity).
    intros _ e He. discriminate.
  - apply effo_read_header_fragment.
Qed.

Lemma read_stream_no_panic c fr res :
  (forall d n b, dec_field d n b <> DPanic hstate) -> snd (cl_read_stream dec_field c fr res) <> CRSPanic.
Proof.
  intro Hd. unfold cl_read_stream. destruct (sf_kind fr); try discriminate; apply read_header_fragment_no_panic, Hd.
Qed.

Lemma ctxs_read_header_fragment c id frag eh res :
  cc_ctxs (rs_conn (cl_read_header_fragment dec_field c id frag eh res)) = cc_ctxs c.
Proof.
  unfold cl_read_header_fragment.
  destruct (cl_hdr_loop dec_field _ eh (cc_dec c) (cc_hdrFields c) (cc_hdrRegularSeen c) (cc_hdrStatus c) (cc_hdrErr c) res _)
    as [[[[[[[d' fields] rseen] status] herr] res'] prev] e].
  destruct e; [destruct eh; cbn [negb]; [destruct herr | destruct (cl_maxHeaderPrev <? len prev)] | | |]; reflexivity.
Qed.

Lemma ctxs_read_stream c fr res : cc_ctxs (rs_conn (cl_read_stream dec_field c fr res)) = cc_ctxs c.
Proof.
  unfold cl_read_stream. destruct (sf_kind fr); try reflexivity.
  - unfold rs_conn. cbn [fst]. destruct (_ <? _)%Z; [rewrite cc_ctxs_cl_update_window; cbn [cc_ctxs ccu_currentWindow]|];
      (destruct res; [destruct (negb _ && negb _); [rewrite cc_ctxs_cl_update_window|]|]; reflexivity).
  - rewrite ctxs_read_header_fragment. reflexivity.
  - apply ctxs_read_header_fragment.
Qed.

(* the errors readStream hands to dispatch are never retryable, never nil *)
Definition err_plain (e : cerr) : Prop := cl_retryable e = false /\ e <> CENil.
Definition rs_plain (r : cl_rserr) : Prop := forall e, r = CRSStream e \/ r = CRSConn e -> err_plain e.

Lemma rs_plain_none : rs_plain CRSNone. Proof. intros e [H|H]; discriminate. Qed.
Lemma rs_plain_panic : rs_plain CRSPanic. Proof. intros e [H|H]; discriminate. Qed.
Lemma rs_plain_conn e : err_plain e -> rs_plain (CRSConn e). Proof. intros He e0 [H|H]; inversion H; subst; exact He. Qed.
Lemma rs_plain_stream e : err_plain e -> rs_plain (CRSStream e). Proof. intros He e0 [H|H]; inversion H; subst; exact He. Qed.
Lemma err_plain_conn : err_plain CEConn. Proof. split; [reflexivity | discriminate]. Qed.
Lemma err_plain_malformed : err_plain CEMalformed. Proof. split; [reflexivity | discriminate]. Qed.
Lemma err_plain_reset code : err_plain (CEReset code). Proof. split; [reflexivity | discriminate]. Qed.
Ltac plain := first [apply rs_plain_none | apply rs_plain_panic | apply rs_plain_conn, err_plain_conn
                    | apply rs_plain_stream, err_plain_malformed | apply rs_plain_stream, err_plain_reset].

Lemma read_header_fragment_errs c id frag eh res : herr_ok (cc_hdrErr c) ->
  rs_plain (snd (cl_read_header_fragment dec_field c id frag eh res)).
Proof.
  intro Hc. unfold cl_read_header_fragment.
  pose proof (hdr_loop_herr dec_field (S (length (cc_hdrPrev c ++ frag))) eh (cc_dec c) (cc_hdrFields c) (cc_hdrRegularSeen c) (cc_hdrStatus c)
                (cc_hdrErr c) res (cc_hdrPrev c ++ frag) Hc) as Hh.
  assert (HL : forall fuel eh d fields rseen status herr res b,
             rs_plain (snd (cl_hdr_loop dec_field fuel eh d fields rseen status herr res b))).
  { clear. induction fuel as [|fuel IH]; intros; cbn [cl_hdr_loop]; [plain|].
    destruct b as [|b0 b']; [plain|].
    destruct (dec_field d fields (b0 :: b')) as [kk vv rest d'|d'|d'|d'|]; cbn [snd]; try plain.
    - destruct res as [r|]; [destruct herr; [apply IH|] | apply IH].
      destruct (cl_read_header_field rseen status r kk vv) as [[[rs st] r'] e']. apply IH.
    - destruct eh; cbn [snd]; plain. }
  pose proof (HL (S (length (cc_hdrPrev c ++ frag))) eh (cc_dec c) (cc_hdrFields c) (cc_hdrRegularSeen c) (cc_hdrStatus c)
                (cc_hdrErr c) res (cc_hdrPrev c ++ frag)) as He.
  destruct (cl_hdr_loop dec_field _ eh (cc_dec c) (cc_hdrFields c) (cc_hdrRegularSeen c) (cc_hdrStatus c) (cc_hdrErr c) res _)
    as [[[[[[[d' fields] rseen] status] herr] res'] prev] e]. cbn [fst snd] in Hh, He.
  destruct e; [destruct eh; cbn [negb]; [destruct herr as [he|] | destruct (cl_maxHeaderPrev <? len prev)] | | |]; cbn [snd];
    try exact He; try plain.
  rewrite (Hh _ eq_refl). plain.
Qed.

Lemma read_stream_errs c fr res : herr_ok (cc_hdrErr c) -> rs_plain (snd (cl_read_stream dec_field c fr res)).
Proof.
  intro Hc. unfold cl_read_stream. destruct (sf_kind fr); cbn [snd]; try plain.
  - apply read_header_fragment_errs. intros e H. discriminate.
  - apply read_header_fragment_errs, Hc.
Qed.

Lemma rq_unique c id tag : st_ok c -> cl_req_find (cc_reqQueued c) id = Some tag ->
  forall t, In (id, t) (cc_reqQueued c) -> t = tag.
Proof. intros S F t I. pose proof (cl_req_find_NoDup _ _ _ (s_rq_ids _ S) I). congruence. Qed.

End EffoRL.

Section Disp.
Context {hstate : Type}.
Implicit Types c : cconn hstate.
Variable dec_field : hstate -> N -> bytes -> dec_res hstate.

(* dispatch, cut into its stages *)
Definition disp_pre c (id : N) : (cconn hstate * option cctx) + cconn hstate :=
  match cl_req_find (cc_reqQueued c) id with
  | None => inl (c, None)
  | Some tag =>
    match cl_acquire_for [] c tag id with
    | CLOk => inl (c, cl_ctx_get c tag)
    | CLRefused => inl (cl_take_req_count c id, None)
    | CLBlocked | CLSelf => inr (cl_go_stuck 0 [] c false tag)
    end
  end.
Definition disp_ok1 (ok : option cctx) (res' : option cresponse) : option cctx :=
  match ok, res' with Some x, Some r => Some (ctu_resp x r) | _, _ => ok end.
Definition disp_chk c1 (fr : sframe) (ok1 : option cctx) (err : cl_rserr) : option cctx * cl_rserr :=
  match ok1, err with
  | Some x, CRSNone =>
    if (cc_hdrStream c1 =? 0) && (fkind_eqb (sf_kind fr) KHeaders || fkind_eqb (sf_kind fr) KCont) then
      if (cc_hdrStatus c1 =? 0)%Z then
        if negb (ct_gotStatus x) || negb (cc_hdrEndStream c1) then (ok1, CRSStream CEMalformed) else (ok1, CRSNone)
      else if ct_gotStatus x then (ok1, CRSStream CEMalformed)
      else
        let final := (200 <=? cc_hdrStatus c1)%Z in
        (Some (ctu_gotStatus x final), if negb final && cc_hdrEndStream c1 then CRSStream CEMalformed else CRSNone)
    else (ok1, err)
  | _, _ => (ok1, err)
  end.
Definition disp_err3 (fr : sframe) (ok2 : option cctx) (err2 : cl_rserr) : cl_rserr :=
  match ok2, err2 with
  | Some x, CRSNone => if fkind_eqb (sf_kind fr) KData && negb (ct_gotStatus x) then CRSStream CEMalformed else err2
  | _, _ => err2
  end.
(* this dispatch ends its request with a nil error: the stream is on the table and its Ctx could be taken, the frame
   completes the response (END_STREAM), and the checks of dispatch pass *)
Definition nil_at c (fr : sframe) : Prop :=
  match disp_pre c (sf_sid fr) with
  | inr _ => False
  | inl (c0, ok) =>
    let '(c1, res', ended, err) := cl_read_stream dec_field c0 fr (match ok with Some x => Some (ct_resp x) | None => None end) in
    let '(ok2, err2) := disp_chk c1 fr (disp_ok1 ok res') err in
    ok2 <> None /\ ended = true /\ disp_err3 fr ok2 err2 = CRSNone
  end.

Lemma cl_dispatch_eq c fr :
  cl_dispatch dec_field c fr =
  match disp_pre c (sf_sid fr) with
  | inr c' => (c', CDStuck)
  | inl (c0, ok) =>
    let '(c1, res', ended, err) := cl_read_stream dec_field c0 fr (match ok with Some x => Some (ct_resp x) | None => None end) in
    let '(ok2, err2) := disp_chk c1 fr (disp_ok1 ok res') err in
    let c2 := match ok2 with Some x => cl_ctx_put c1 x | None => c1 end in
    disp_tail c2 (sf_sid fr) ok2 ended (disp_err3 fr ok2 err2)
  end.
Proof. reflexivity. Qed.

Variable P : coutev -> Prop.
Hypothesis Pben : forall o, benign o = true -> P o.
Hypothesis W_any : forall c c' : cconn hstate, Wok hstate c c'.
Hypothesis V_any : forall x x', Vok x x'.

Lemma rq_unique_eff' c c' id tag : eff P c c' ->
  (forall t, In (id, t) (cc_reqQueued c) -> t = tag) -> forall t, In (id, t) (cc_reqQueued c') -> t = tag.
Proof. intros E H t I. apply H. destruct (e_rq _ _ _ E) as [p Hp]. rewrite Hp in I. apply filter_In in I. apply I. Qed.

Lemma disp_pre_spec c id : st_ok c -> an_ok c ->
  exists c0 ok, disp_pre c id = inl (c0, ok) /\ effo P c c0 /\
    (forall x, ok = Some x -> cl_ctx_get c0 (ct_tag x) = Some x /\ ct_sid x = id /\ id <> 0 /\ forall t, In (id, t) (cc_reqQueued c0) -> t = ct_tag x).
Proof.
  intros S A. unfold disp_pre. destruct (cl_req_find (cc_reqQueued c) id) as [tag|] eqn:F.
  - pose proof (rq_unique c id tag S F) as U. pose proof (cl_req_find_In _ _ _ F) as I.
    destruct (s_rq _ S _ _ I) as (x & G & Hs & Hc & NZ0 & _).
    destruct (acquire_for_nostuck c tag id (s_nostuck _ S)) as [Q|Q]; rewrite Q.
    + exists c, (cl_ctx_get c tag). split; [reflexivity|]. split; [apply effo_refl|]. intros y Hy. rewrite G in Hy. inversion Hy; subst y.
      destruct (cl_ctxs_get_In _ _ _ G) as [_ T]. rewrite T. auto.
    + exists (cl_take_req_count c id), None. split; [reflexivity|]. split; [|discriminate].
      split; [apply eff_take_req_count|]. intros t H N.
      assert (Ht : t = tag).
      { destruct H as [H|H]; [exfalso; apply N; left; rewrite cc_inQ_cl_take_req_count; exact H|].
        apply in_map_iff in H. destruct H as ([i u] & Hu & J). cbn [snd] in Hu. subst u.
        destruct (i =? id) eqn:Ei; [replace i with id in J by lia; auto|].
        exfalso. apply N. right. rewrite cc_reqQueued_cl_take_req_count. apply in_map_iff. exists (i, t). split; [reflexivity|].
        apply filter_In. cbn [fst]. rewrite Ei. auto. }
      subst t. exists x. unfold cl_ctx_get. rewrite cc_ctxs_cl_take_req_count. split; [exact G|].
      apply (a_done _ A _ _ G). unfold cl_acquire_for in Q. rewrite G in Q. cbn [existsb] in Q.
      rewrite (proj1 (s_nostuck _ S) _ _ G), Hs, Hc, N.eqb_refl in Q. cbn [negb orb] in Q.
      destruct (ct_done x); [reflexivity | discriminate].
  - exists c, None. split; [reflexivity|]. split; [apply effo_refl | discriminate].
Qed.

Lemma disp_chk_cev c1 fr ok res' err ok2 err2 : disp_chk c1 fr (disp_ok1 ok res') err = (ok2, err2) ->
  (forall x2, ok2 = Some x2 -> exists x, ok = Some x /\ cev x x2) /\ (err2 = CRSPanic -> err = CRSPanic).
Proof.
  unfold disp_chk, disp_ok1. intro H. destruct ok as [x|]; [|destruct err; inversion H; subst; (split; [discriminate | auto])].
  assert (V1 : cev x match res' with Some r => ctu_resp x r | None => x end) by (destruct res'; [apply cev_resp, V_any | apply cev_refl]).
  set (x1 := match res' with Some r => ctu_resp x r | None => x end) in *.
  replace (match res' with Some r => Some (ctu_resp x r) | None => Some x end) with (Some x1) in H by (unfold x1; destruct res'; reflexivity).
  destruct err;
    [repeat match type of H with context [if ?b then _ else _] => destruct b end | ..]; inversion H; subst;
    (split; [intros x2 E; inversion E; subst; exists x; split; [reflexivity|]; first [assumption | eapply cev_trans; [exact V1 | apply cev_gotStatus, V_any]] | congruence]).
Qed.

Lemma disp_chk_finished c1 fr ok res' err ok2 err2 : disp_chk c1 fr (disp_ok1 ok res') err = (ok2, err2) ->
  forall x2, ok2 = Some x2 -> exists x, ok = Some x /\ ct_finished x2 = ct_finished x.
Proof.
  unfold disp_chk, disp_ok1. intro H. destruct ok as [x|]; [|destruct err; inversion H; subst; discriminate].
  intros x2 E. exists x. split; [reflexivity|]. subst ok2.
  destruct res'; destruct err;
    repeat match type of H with context [if ?b then _ else _] => destruct b end; inversion H; subst; reflexivity.
Qed.

Lemma disp_chk_plain c1 fr ok1 err : rs_plain err -> rs_plain (snd (disp_chk c1 fr ok1 err)).
Proof.
  intro H. unfold disp_chk. destruct ok1 as [x|]; [|exact H]. destruct err; try exact H.
  repeat match goal with |- context [if ?b then _ else _] => destruct b end; cbn [snd];
    first [exact H | apply rs_plain_stream; split; [reflexivity | discriminate]].
Qed.

Lemma disp_err3_plain fr ok2 err2 : rs_plain err2 -> rs_plain (disp_err3 fr ok2 err2).
Proof.
  intro H. unfold disp_err3. destruct ok2; [|exact H]. destruct err2; try exact H.
  destruct (_ && _); [apply rs_plain_stream; split; [reflexivity | discriminate] | exact H].
Qed.

Lemma disp_err3_panic fr ok2 err2 : disp_err3 fr ok2 err2 = CRSPanic -> err2 = CRSPanic.
Proof. unfold disp_err3. destruct ok2; [|auto]. destruct err2; auto. destruct (_ && _); [discriminate | auto]. Qed.

Lemma disp_tail_spec c2 id ok2 ended err3 : st_ok c2 -> rs_plain err3 ->
  (ok2 <> None -> ended = true -> err3 = CRSNone -> Eok id CENil) ->
  (forall x2, ok2 = Some x2 -> cl_ctx_get c2 (ct_tag x2) = Some x2 /\ ct_sid x2 = id /\ id <> 0) ->
  (forall x2, ok2 = Some x2 -> forall t, In (id, t) (cc_reqQueued c2) -> t = ct_tag x2) ->
  effo P c2 (fst (disp_tail c2 id ok2 ended err3)) /\ snd (disp_tail c2 id ok2 ended err3) <> CDStuck /\
  (snd (disp_tail c2 id ok2 ended err3) = CDPanic -> err3 = CRSPanic).
Proof.
  intros S PL Hnil HX U. unfold disp_tail.
  assert (HE : forall e, err3 = CRSStream e \/ err3 = CRSConn e -> Eall e).
  { intros e H. destruct (PL e H). apply Eall_nr; assumption. }
  (* the Ctx dispatch holds is the one on the table under id: it is in no queue and has no other stream *)
  assert (NH : forall x2, ok2 = Some x2 -> ~ In (ct_tag x2) (cc_inQ c2) /\ forall i, In (i, ct_tag x2) (cc_reqQueued c2) -> i = id).
  { intros x2 E2. destruct (HX _ E2) as (G2 & Sx & NZ). split.
    - intro J. destruct (s_inQ _ S _ J) as (y & Gy & Zy & _). rewrite G2 in Gy. inversion Gy; subst y. congruence.
    - intros i J. destruct (s_rq _ S _ _ J) as (y & Gy & Sy & _). rewrite G2 in Gy. inversion Gy; subst y. congruence. }
  assert (HSid : forall x2, ok2 = Some x2 -> forall x, cl_ctx_get c2 (ct_tag x2) = Some x -> ct_sid x = id).
  { intros x2 E2 x G. destruct (HX _ E2) as (G2 & Sx & _). rewrite G2 in G. inversion G; subst x. exact Sx. }
  destruct err3 as [|e|e|]; cbn [fst snd].
  - split; [|split; [destruct (cl_gone_away _); discriminate | destruct (cl_gone_away _); discriminate]].
    destruct ok2 as [x2|]; [|apply effo_refl]. destruct ended; [|apply effo_refl]. destruct (NH _ eq_refl). apply effo_finish; auto; try (apply (HSid _ eq_refl)).
    intros x G. destruct (HX _ eq_refl) as (G2 & Sx & _). rewrite G2 in G. inversion G; subst x. rewrite Sx. apply Hnil; [discriminate | reflexivity | reflexivity].
  - split; [|split; [destruct (cl_gone_away _); discriminate | destruct (cl_gone_away _); discriminate]].
    destruct ok2 as [x2|]; [|apply effo_refl]. destruct (NH _ eq_refl). apply effo_finish; auto; try (apply (HSid _ eq_refl)). intros x _. apply HE. auto.
  - split; [|split; discriminate].
    assert (E : effo P c2 (cl_set_last_err c2 e)) by (apply effo_set_last_err; first [exact Pben | destruct (PL e (or_intror eq_refl)); assumption]).
    destruct ok2 as [x2|]; [|exact E]. eapply effo_trans; [exact E|]. destruct (NH _ eq_refl) as [N1 N2].
    apply effo_finish; [assumption | intros x _; apply HE; auto | apply (st_ok_eff _ _ _ S (proj1 E)) | | | |].
    + intros t I. apply (U _ eq_refl). rewrite cc_reqQueued_cl_set_last_err in I. exact I.
    + rewrite cc_inQ_cl_set_last_err. exact N1.
    + rewrite cc_reqQueued_cl_set_last_err. exact N2.
    + intros x G. apply (HSid _ eq_refl x). unfold cl_ctx_get in *. rewrite cc_ctxs_cl_set_last_err in G. exact G.
  - split; [apply effo_refl | split; [discriminate | reflexivity]].
Qed.

Lemma effo_dispatch c fr : st_ok c -> an_ok c -> (nil_at c fr -> Eok (sf_sid fr) CENil) ->
  effo P c (fst (cl_dispatch dec_field c fr)) /\ snd (cl_dispatch dec_field c fr) <> CDStuck /\
  (snd (cl_dispatch dec_field c fr) = CDPanic -> ~ (forall d n b, dec_field d n b <> DPanic hstate)).
Proof.
  intros S A Hnil. unfold nil_at in Hnil. rewrite cl_dispatch_eq. destruct (disp_pre_spec c (sf_sid fr) S A) as (c0 & ok & PRE & E0 & Hok).
  rewrite PRE in *.
  pose proof (st_ok_eff _ _ _ S (proj1 E0)) as S0.
  set (res0 := match ok with Some x => Some (ct_resp x) | None => None end) in *.
  assert (E1 : effo P c0 (rs_conn (cl_read_stream dec_field c0 fr res0))) by (apply effo_read_stream; assumption).
  assert (NP : (forall d n b, dec_field d n b <> DPanic hstate) -> snd (cl_read_stream dec_field c0 fr res0) <> CRSPanic)
    by (apply read_stream_no_panic).
  assert (C1 : cc_ctxs (rs_conn (cl_read_stream dec_field c0 fr res0)) = cc_ctxs c0) by (apply ctxs_read_stream).
  assert (PL1 : rs_plain (snd (cl_read_stream dec_field c0 fr res0))) by (apply read_stream_errs, (s_hdrErr _ S0)).
  destruct (cl_read_stream dec_field c0 fr res0) as [[[c1 res'] ended] err]. unfold rs_conn in E1, C1. cbn [fst snd] in E1, NP, C1, PL1.
  pose proof (st_ok_eff _ _ _ S0 (proj1 E1)) as S1.
  pose proof (disp_chk_plain c1 fr (disp_ok1 ok res') err PL1) as PL2.
  destruct (disp_chk c1 fr (disp_ok1 ok res') err) as [ok2 err2] eqn:K. destruct (disp_chk_cev _ _ _ _ _ _ _ K) as [H2 HP]. cbn [snd] in PL2.
  cbv zeta. set (c2 := match ok2 with Some x => cl_ctx_put c1 x | None => c1 end).
  assert (E2 : effo P c1 c2).
  { unfold c2. destruct ok2 as [x2|]; [|apply effo_refl]. destruct (H2 _ eq_refl) as (x & -> & V).
    destruct (disp_chk_finished _ _ _ _ _ _ _ K _ eq_refl) as (x0 & E0' & Fx). inversion E0'; subst x0.
    destruct (Hok _ eq_refl) as [G0 _]. apply effo_ctx_put with x; [|exact V | exact Fx].
    rewrite (cev_tag _ _ V). unfold cl_ctx_get in *. rewrite C1. exact G0. }
  pose proof (st_ok_eff _ _ _ S1 (proj1 E2)) as S2.
  assert (U2 : forall x2, ok2 = Some x2 -> forall t, In (sf_sid fr, t) (cc_reqQueued c2) -> t = ct_tag x2).
  { intros x2 -> t I. destruct (H2 _ eq_refl) as (x & -> & V). destruct (Hok _ eq_refl) as (_ & _ & _ & U). rewrite (cev_tag _ _ V).
    apply (rq_unique_eff' c0 c2 (sf_sid fr) (ct_tag x) (eff_trans _ _ _ _ (proj1 E1) (proj1 E2)) U t I). }
  assert (HX : forall x2, ok2 = Some x2 -> cl_ctx_get c2 (ct_tag x2) = Some x2 /\ ct_sid x2 = sf_sid fr /\ sf_sid fr <> 0).
  { intros x2 ->. destruct (H2 _ eq_refl) as (x & -> & V). destruct (Hok _ eq_refl) as (G0 & Sx & NZ & _). split; [|split; [|exact NZ]].
    - unfold c2. rewrite cl_ctx_get_put, N.eqb_refl. rewrite (cev_tag _ _ V). unfold cl_ctx_get in *. rewrite C1, G0. reflexivity.
    - rewrite (cev_sid _ _ V). exact Sx. }
  assert (HN : ok2 <> None -> ended = true -> disp_err3 fr ok2 err2 = CRSNone -> Eok (sf_sid fr) CENil).
  { intros A1 A2 A3. apply Hnil. auto. }
  destruct (disp_tail_spec c2 (sf_sid fr) ok2 ended (disp_err3 fr ok2 err2) S2 (disp_err3_plain fr ok2 err2 PL2) HN HX U2) as (E3 & N3 & P3).
  split; [|split; [exact N3|]].
  - eapply effo_trans; [exact E0|]. eapply effo_trans; [exact E1|]. eapply effo_trans; [exact E2 | exact E3].
  - intros Q Hd. apply (NP Hd). apply HP. apply (disp_err3_panic fr ok2). apply P3. exact Q.
Qed.
End Disp.

Section EffoRL2.
Context {hstate : Type}.
Implicit Types c : cconn hstate.
Variable dec_field : hstate -> N -> bytes -> dec_res hstate.
Variable P : coutev -> Prop.
Hypothesis Pben : forall o, benign o = true -> P o.

Lemma goaway_fail_spec l : forall c, st_ok c ->
  (forall id t x, In (id, t) l -> cl_ctx_get c t = Some x -> ct_sid x = id /\ Eok id CEGoAway) ->
  (forall id t, In (id, t) l -> ~ held c t) ->
  snd (cl_goaway_fail c l) = false /\ effo P c (fst (cl_goaway_fail c l)) /\
  cc_inQ (fst (cl_goaway_fail c l)) = cc_inQ c /\ cc_reqQueued (fst (cl_goaway_fail c l)) = cc_reqQueued c /\
  (forall id t x, In (id, t) l -> cl_ctx_get c t = Some x ->
     exists x', cl_ctx_get (fst (cl_goaway_fail c l)) t = Some x' /\ answered x' = true /\ ct_finished x' = true).
Proof.
  induction l as [|[id tag] l IH]; intros c S HL HNH; cbn [cl_goaway_fail].
  - split; [reflexivity|]. split; [apply effo_refl|]. split; [reflexivity|]. split; [reflexivity|]. intros ? ? ? [].
  - set (c1 := ccu_open c (cc_open c - 1)%Z).
    assert (E1 : effo P c c1). { apply effo_same; reflexivity. }
    pose proof (st_ok_eff _ _ _ S (proj1 E1)) as S1.
    destruct (effo_delete_pending P Pben 0 c1 id (s_nostuck _ S1)) as [E2 F2].
    pose proof (cc_inQ_cl_delete_pending _ c1 0 [] id) as I2. pose proof (cc_reqQueued_cl_delete_pending _ c1 0 [] id) as Q2.
    pose proof (cc_pending_cl_delete_pending' 0 [] c1 id) as P2.
    destruct (cl_delete_pending 0 [] c1 id) as [c2 stuck]. cbn [fst snd] in *. subst stuck.
    pose proof (st_ok_eff _ _ _ S1 (proj1 E2)) as S2.
    set (c3 := cl_ctx_upd c2 tag (fun x => cl_ctx_resolve (ctu_finished x true) CEGoAway)).
    assert (E02 : eff P c c2) by (eapply eff_trans; [apply E1 | apply E2]).
    assert (E3 : effo P c2 c3).
    { apply effo_ctx_upd_fin.
      - intros x2 G2. apply cev_finish_resolve. destruct (eff_ctx_back _ _ _ _ _ E02 G2) as (x0 & G0 & V0).
        destruct (HL id tag x0 (or_introl eq_refl) G0) as [Hs He]. rewrite (cev_sid _ _ V0), Hs. exact He.
      - intro H. apply (HNH id tag (or_introl eq_refl)). apply (held_filter _ _ _ _ E02 H).
      - rewrite P2. cbn [c1 cc_pending ccu_open]. apply (pend_del_no_tag (cc_pending c) id tag (s_pnd _ S)). intros pb J E'.
        destruct (s_pb _ S _ J) as (_ & y & Gy & Sy). rewrite E' in Gy. destruct (HL id tag y (or_introl eq_refl) Gy) as [Hs _]. congruence. }
    pose proof (st_ok_eff _ _ _ S2 (proj1 E3)) as S3.
    assert (E03 : eff P c c3) by (eapply eff_trans; [apply E02 | apply E3]).
    assert (HL3 : forall i t x, In (i, t) l -> cl_ctx_get c3 t = Some x -> ct_sid x = i /\ Eok i CEGoAway).
    { intros i t x3 J G3. destruct (eff_ctx_back _ _ _ _ _ E03 G3) as (x0 & G0 & V0).
      destruct (HL i t x0 (or_intror J) G0) as [Hs He]. rewrite (cev_sid _ _ V0). auto. }
    assert (HNH3 : forall i t, In (i, t) l -> ~ held c3 t).
    { intros i t J H. apply (HNH i t (or_intror J)). apply (held_filter _ _ _ _ E03 H). }
    destruct (IH c3 S3 HL3 HNH3) as (F & E4 & I4 & Q4 & A4).
    split; [exact F|]. split; [eapply effo_trans; [exact E1|]; eapply effo_trans; [exact E2|]; eapply effo_trans; [exact E3 | exact E4]|].
    split; [rewrite I4; unfold c3; rewrite cc_inQ_cl_ctx_upd, I2; reflexivity|].
    split; [rewrite Q4; unfold c3; rewrite cc_reqQueued_cl_ctx_upd, Q2; reflexivity|].
    intros i t x [J|J] G.
    + inversion J; subst i t. destruct (e_ctx _ _ _ (eff_trans _ _ _ _ (proj1 E1) (proj1 E2)) _ _ G) as (x2 & G2 & _).
      pose proof (upd_resolve_get c2 tag (fun y => ctu_finished y true) CEGoAway x2 G2 (fun _ => eq_refl)) as G3.
      destruct (e_ctx _ _ _ (proj1 E4) _ _ G3) as (x4 & G4 & V). exists x4. split; [exact G4|]. split.
      * eapply cev_answered; [exact V|]. apply answered_resolve'. cbn. apply (s_ret _ S2 _ _ G2).
      * apply (cev_finished _ _ V). rewrite finished_resolve. reflexivity.
    + destruct (e_ctx _ _ _ E03 _ _ G) as (x3 & G3 & _). eapply A4; eassumption.
Qed.

Lemma effo_goaway c last : (forall id, last < id -> Eok id CEGoAway) -> st_ok c ->
  effo P c (fst (cl_goaway c last)) /\ snd (cl_goaway c last) = false /\
  cc_reqQueued (fst (cl_goaway c last)) = filter (fun e => negb (last <? fst e)) (cc_reqQueued c) /\
  cc_goAway (fst (cl_goaway c last)) = true /\ cc_closeRef (fst (cl_goaway c last)) = last /\
  (forall id t, In (id, t) (cc_reqQueued c) -> last < id ->
     exists x', cl_ctx_get (fst (cl_goaway c last)) t = Some x' /\ answered x' = true /\ ct_finished x' = true).
Proof.
  intros Hga S. unfold cl_goaway.
  set (c1 := ccu_closeRef _ last).
  set (above := filter (fun e => last <? fst e) (cc_reqQueued c1)).
  set (c2 := ccu_reqQueued c1 _).
  assert (E2 : eff P c c2).
  { apply (eff_frame' P c c2 []); try reflexivity; auto.
    - apply same_filter. reflexivity.
    - eexists. reflexivity.
    - apply pending_same. reflexivity. }
  pose proof (st_ok_eff _ _ _ S E2) as S2.
  assert (HL : forall id t x, In (id, t) above -> cl_ctx_get c2 t = Some x -> ct_sid x = id /\ Eok id CEGoAway).
  { intros id t x2 J G2. apply filter_In in J. cbn [fst] in J. destruct J as [J L].
    destruct (s_rq _ S _ _ J) as (x & G & Hs & _). destruct (e_ctx _ _ _ E2 _ _ G) as (x2' & G2' & V2). rewrite G2 in G2'. inversion G2'; subst x2'.
    rewrite (cev_sid _ _ V2). split; [exact Hs | apply Hga; clear - L; lia]. }
  assert (HNH : forall id t, In (id, t) above -> ~ held c2 t).
  { intros id t J [H|H].
    - apply filter_In in J. destruct J as [J _]. destruct (s_rq _ S _ _ J) as (x & G & Sx & _ & NZ & _).
      cbn [c2 cc_inQ ccu_reqQueued c1 ccu_closeRef ccu_stateClosed ccu_goAway] in H. destruct (s_inQ _ S _ H) as (y & Gy & Zy & _). congruence.
    - apply filter_In in J. cbn [fst] in J. destruct J as [J L]. cbn [c2 cc_reqQueued ccu_reqQueued] in H. apply in_map_iff in H.
      destruct H as ([i u] & Hu & H). cbn in Hu. subst u. apply filter_In in H. cbn [fst] in H. destruct H as [H L'].
      assert (i = id).
      { destruct (s_rq _ S _ _ H) as (y & Gy & Sy & _). destruct (s_rq _ S _ _ J) as (y' & Gy' & Sy' & _). congruence. }
      subst i. rewrite L in L'. discriminate. }
  destruct (goaway_fail_spec above c2 S2 HL HNH) as (F & E3 & I3 & Q3 & A3).
  assert (AB : forall id t, In (id, t) (cc_reqQueued c) -> last < id ->
               exists x', cl_ctx_get (fst (cl_goaway_fail c2 above)) t = Some x' /\ answered x' = true /\ ct_finished x' = true).
  { intros id t J L. destruct (s_rq _ S _ _ J) as (x & G & _). destruct (e_ctx _ _ _ E2 _ _ G) as (x2 & G2 & _).
    apply (A3 id t x2); [|exact G2]. apply filter_In. cbn [fst]. split; [exact J | clear - L; lia]. }
  split; [|split; [exact F|split; [exact Q3|split; [apply (e_goAway _ _ _ (proj1 E3)); reflexivity|split; [|exact AB]]]]].
  2:{ assert (CR : forall l c0, cc_closeRef (fst (cl_goaway_fail c0 l)) = cc_closeRef c0).
      { clear. induction l as [|[id tag] l IH]; intro c0; cbn [cl_goaway_fail]; [reflexivity|].
        pose proof (cc_closeRef_cl_delete_pending _ (ccu_open c0 (cc_open c0 - 1)%Z) 0 [] id) as D.
        destruct (cl_delete_pending 0 [] (ccu_open c0 (cc_open c0 - 1)%Z) id) as [c2 stuck]. cbn [fst] in D.
        destruct stuck; [exact D|]. rewrite IH, cc_closeRef_cl_ctx_upd. exact D. }
      rewrite CR. reflexivity. }
  split; [eapply eff_trans; [exact E2 | apply E3]|].
  intros t H N. destruct H as [H|H]; [exfalso; apply N; left; rewrite I3; exact H|].
  apply in_map_iff in H. destruct H as ([i u] & Hu & J). cbn [snd] in Hu. subst u.
  destruct (last <? i) eqn:L.
  - destruct (AB i t J) as (x' & G' & A' & _); [clear - L; lia|]. exists x'. auto.
  - exfalso. apply N. right. rewrite Q3. cbn [c2 cc_reqQueued ccu_reqQueued]. apply in_map_iff. exists (i, t). split; [reflexivity|].
    apply filter_In. cbn [fst]. rewrite L. split; [exact J | reflexivity].
Qed.

(* the recover of readLoop shows in the trace only if the decoder can panic *)
Hypothesis Ppanic : ~ (forall d n b, dec_field d n b <> DPanic hstate) -> P (COPanic 0).
Hypothesis W_any : forall c c' : cconn hstate, Wok hstate c c'.
Hypothesis V_any : forall x x', Vok x x'.

Lemma effo_rl_frame c fr : st_ok c -> an_ok c ->
  (forall c1, (sf_kind fr <> KWinUpd -> c1 = c) -> nil_at dec_field c1 fr -> Eok (sf_sid fr) CENil) ->
  effo P c (cl_rl_frame dec_field c fr).
Proof.
  intros S A Hnil. unfold cl_rl_frame.
  assert (EX : forall why, effo P c (cl_rl_exit (cl_set_last_err c CEConn) why)).
  { intro why. apply (effo_trans _ _ (cl_set_last_err c CEConn)); [apply effo_set_last_err; first [exact Pben | discriminate] | apply effo_rl_exit; try exact Pben]. }
  destruct (fkind_eqb (sf_kind fr) KPush); [apply EX|].
  destruct (negb (cc_hdrStream c =? 0) && _); [apply EX|].
  destruct ((cc_hdrStream c =? 0) && _); [apply EX|].
  set (c1 := if fkind_eqb (sf_kind fr) KWinUpd then _ else c).
  assert (E1 : effo P c c1) by (unfold c1; destruct (fkind_eqb (sf_kind fr) KWinUpd); [apply effo_add_window | apply effo_refl]).
  assert (Hn1 : nil_at dec_field c1 fr -> Eok (sf_sid fr) CENil).
  { apply Hnil. intro NK. unfold c1. destruct (sf_kind fr); try reflexivity. contradiction. }
  pose proof (st_ok_eff _ _ _ S (proj1 E1)) as S1. pose proof (an_ok_effo _ _ _ A E1) as A1.
  assert (D : effo P c1 (fst (cl_dispatch dec_field c1 fr)) /\ snd (cl_dispatch dec_field c1 fr) <> CDStuck /\
              (snd (cl_dispatch dec_field c1 fr) = CDPanic -> ~ (forall d n b, dec_field d n b <> DPanic hstate)))
    by (apply effo_dispatch; assumption).
  destruct D as (E2 & NS & NP).
  destruct (cl_dispatch dec_field c1 fr) as [c2 r]. cbn [fst snd] in *.
  pose proof (st_ok_eff _ _ _ S1 (proj1 E2)) as S2.
  destruct r.
  - eapply effo_trans; eassumption.
  - eapply effo_trans; [exact E1|]. eapply effo_trans; [exact E2 | apply effo_rl_exit; try exact Pben].
  - contradiction.
  - eapply effo_trans; [exact E1|]. eapply effo_trans; [exact E2|]. apply effo_rl_panic; [exact Pben | | exact S2].
    apply Ppanic, NP, eq_refl.
Qed.

Lemma effo_rl_step c i : st_ok c -> an_ok c ->
  (forall fr, i = RFrame fr -> sf_kind fr = KGoAway -> sf_sid fr = 0 -> cc_netClosed c = false ->
     forall id, sf_dep fr < id -> Eok id CEGoAway) ->
  (forall fr, i = RFrame fr -> cc_netClosed c = false ->
     forall c1, (sf_kind fr <> KWinUpd -> sf_kind fr <> KGoAway -> c1 = c) -> nil_at dec_field c1 fr -> Eok (sf_sid fr) CENil) ->
  effo P c (cl_rl_step dec_field c i).
Proof.
  intros S A Hga Hnil. unfold cl_rl_step. destruct (cc_netClosed c) eqn:NC; [apply effo_rl_fail; try exact Pben|].
  destruct i as [fr| | |]; try apply effo_rl_fail; try exact Pben; [|apply effo_refl].
  destruct (sf_sid fr =? 0) eqn:Z; [|apply effo_rl_frame; try assumption; intros c1 H1; apply (Hnil fr eq_refl eq_refl c1); intros K1 _; apply H1, K1].
  destruct (sf_kind fr) eqn:K; try apply effo_refl.
  - (* SETTINGS *)
    destruct (cl_settings_deserialize _ _); [|apply effo_rl_fail; try exact Pben].
    destruct (flag_has (sf_flags fr) FL_ES); [apply effo_refl | apply effo_handle_settings; try exact Pben].
  - (* PING *)
    destruct (flag_has (sf_flags fr) FL_ES); [|apply effo_write_out; reflexivity].
    apply effo_same; reflexivity.
  - (* GOAWAY *)
    destruct (effo_goaway c (sf_dep fr) (Hga fr eq_refl K (proj1 (N.eqb_eq _ _) Z) eq_refl) S) as (E1 & F1 & _). destruct (cl_goaway c (sf_dep fr)) as [c1 stuck]. cbn [fst snd] in *. subst stuck.
    eapply effo_trans; [exact E1|]. apply effo_rl_frame; [apply (st_ok_eff _ _ _ S (proj1 E1)) | apply (an_ok_effo _ _ _ A E1)|].
    intros c2 _. apply (Hnil fr eq_refl eq_refl c2). intros _ NG. contradiction.
  - apply effo_add_window.
Qed.

End EffoRL2.

End WithE.

(* the instance that allows everything: for the structural invariants, which do not care *)
Definition cp_any : cparams.
Proof.
  refine {| Eok := fun _ _ => True; Vok := fun _ _ => True; Wok := fun _ _ _ => True |}; auto.
Defined.
#[export] Instance cplain_any : cplain cp_any.
Proof. intros sid e _ _. exact I. Qed.
