(* Proofs/CliFlowMoves.v - the client model of Impl/ClientConn.v decomposed, once, into a small alphabet of
   "moves" (C07, client halves of C14 and C18).

   A move is either a plain field update (ctxs, a flag, a queue) or one of the model's own flow-control
   functions taken whole (cl_add_window, cl_handle_settings, the DATA arm of readStream, one sendLck critical
   section of sendPending with the DATA run it decides (MSend), or with the chunk handed back to the connection window
   because the request was taken back (MSendBack), the HEADERS write of writeRequest, the RST_STREAM the write
   loop writes itself when a body's reader fails, MWlReset). `apply` interprets a
   move on a state, `valid` are the premises the model guarantees where it makes the move, `mvs c ms c'` says
   that c' is c after the moves ms, each valid where it is made. Every function of the model is shown to be
   such a sequence (`D P g c c'`: the moves all satisfy P, and the send-window grants among them are g); the
   step function is (step_D). An invariant that is closed under the moves is proved move by move; what a proof
   needs of sendPending and writeRequest beyond their moves it reads off their case views (sp_view, wr_view).

   Conventions: `hstate` is an implicit argument of every ClientConn definition that takes a connection. *)
From H2V Require Import Base.Bytes Base.MachineInt Base.Result Gen.GenConsts Impl.ServerConn Impl.ClientConn
     Proofs.CliBase Proofs.CliDefs Spec.FlowLedger.
From Coq Require Import ZArith Lia ZifyN ZifyNat ZifyBool List Bool.
Import ListNotations.
Local Open Scope N_scope.
Set Default Proof Using "Type".

(* lia, without letting it capture the HPACK coder or the configuration (section variables) *)
Ltac flia :=
  repeat match goal with
         | H : ?h -> N -> bytes -> dec_res ?h |- _ => clear H
         | H : ?h -> bytes -> bytes -> bool -> bytes * ?h |- _ => clear H
         | H : ?h -> N -> ?h |- _ => clear H
         | H : cl_config |- _ => clear H
         end; lia.

Lemma cl_i32_id z : (-2147483648 <= z <= 2147483647)%Z -> cl_i32 z = z.
Proof.
  intro H. unfold cl_i32, signed, of_signed.
  change (2 ^ 32)%N with 4294967296%N. change (2 ^ (32 - 1))%N with 2147483648%N.
  change (Z.of_N 4294967296) with 4294967296%Z.
  assert (M : (0 <= z mod 4294967296 < 4294967296)%Z) by (apply Z.mod_pos_bound; lia).
  rewrite N.mod_small by lia.
  destruct (Z.to_N (z mod 4294967296) <? 2147483648)%N eqn:E.
  - apply N.ltb_lt in E. rewrite Z2N.id by lia.
    destruct (Z_lt_le_dec z 0).
    + exfalso. assert (z mod 4294967296 = z + 4294967296)%Z.
      { symmetry. apply Z.mod_unique with (q := (-1)%Z); lia. } lia.
    + apply Z.mod_small. lia.
  - apply N.ltb_ge in E. rewrite Z2N.id by lia.
    destruct (Z_lt_le_dec z 0).
    + assert (z mod 4294967296 = z + 4294967296)%Z.
      { symmetry. apply Z.mod_unique with (q := (-1)%Z); lia. } lia.
    + exfalso. rewrite Z.mod_small in E by lia. lia.
Qed.
Lemma cl_i32_range z : (-2147483648 <= cl_i32 z <= 2147483647)%Z.
Proof.
  unfold cl_i32, signed, of_signed.
  change (2 ^ 32)%N with 4294967296%N. change (2 ^ (32 - 1))%N with 2147483648%N.
  change (Z.of_N 4294967296) with 4294967296%Z.
  assert (M : (0 <= z mod 4294967296 < 4294967296)%Z) by (apply Z.mod_pos_bound; lia).
  rewrite N.mod_small by lia.
  destruct (Z.to_N (z mod 4294967296) <? 2147483648)%N eqn:E.
  - apply N.ltb_lt in E. lia.
  - apply N.ltb_ge in E. lia.
Qed.

(* the items a goroutine notes itself (never a frame taken from c.out, never HEADERS or DATA) *)
Definition quietb (o : coutev) : bool :=
  match o with
  | COResult _ _ _ _ | COPoolPut _ | COBodyClosed _ | COSelfDeadlock _ _ | COBlocked _ _ | COExit _ _ | COPanic _
  | COGoAway _ _ | COPing => true
  | _ => false
  end.
(* the frames writeOut queues one at a time (WINDOW_UPDATE and the SETTINGS ACK are queued by moves of their own) *)
Definition pushb (o : coutev) : bool := match o with CORst _ _ | COPingAck _ => true | _ => false end.

(* `len(pb.body) == 0 && pb.stream != nil && !pb.drained` *)
Definition refill_cond (pb : cpending) : bool :=
  cl_is_nil (pb_body pb) && match pb_stream pb with Some _ => true | None => false end && negb (pb_drained pb).

(* the SETTINGS_INITIAL_WINDOW_SIZE values of a SETTINGS payload, in order, as ledger events *)
Definition inits_of (d : bytes) : list levent :=
  flat_map (fun kv => if fst kv =? c_MaxWindowSize then [LInit (Z.of_N (snd kv))] else []) (settings_pairs d).

Section Moves.
Variable hstate : Type.
Variable enc_field : hstate -> bytes -> bytes -> bool -> bytes * hstate.
Variable enc_set_max : hstate -> N -> hstate.
Notation cconn := (cconn hstate).

(* one sendLck critical section of sendPending on the pending body pb of stream id *)
Definition cs_n (c : cconn) (pb : cpending) : Z :=
  let n0 := cl_zmin (cl_zmin (Z.of_N (len (pb_body pb))) (pb_window pb)) (cc_connWindow c) in
  if (n0 <? 0)%Z then 0%Z else n0.
Definition cs_chunk (c : cconn) (pb : cpending) : bytes := takeN (Z.to_N (cs_n c pb)) (pb_body pb).
Definition cs_pb (c : cconn) (pb : cpending) : cpending :=
  pbu_body (pbu_window pb (cl_i32 (pb_window pb - cs_n c pb))) (dropN (Z.to_N (cs_n c pb)) (pb_body pb)).
Definition cs_end (c : cconn) (pb : cpending) : bool := negb (cl_has_more (cs_pb c pb)).
Definition cs_conn (c : cconn) (pb : cpending) (id : N) : cconn :=
  let c1 := ccu_connWindow c (cl_i32 (cc_connWindow c - cs_n c pb)) in
  ccu_pending c1 (if cs_end c pb then cl_pend_del (cc_pending c1) id else cl_pend_put (cc_pending c1) (cs_pb c pb)).

(* the critical section of a request that has been taken back: the chunk goes back to the connection window
   (addWindow(0, n)) and deletePending takes what is left of the body off c.pending *)
Definition send_back (c : cconn) (pb : cpending) (id : N) : cconn :=
  let c2 := cs_conn c pb id in
  let c2' := if (0 <? cs_n c pb)%Z then cl_add_window c2 0 (cs_n c pb) else c2 in
  match cl_pend_get (cc_pending c2') id with
  | Some _ => ccu_pending c2' (cl_pend_del (cc_pending c2') id)
  | None => c2'
  end.

(* the connection's part of the DATA arm of readStream; has_res: somebody is waiting for the response *)
Definition recv_data (c : cconn) (fr : sframe) (has_res : bool) : cconn :=
  let cur := cl_i32 (cc_currentWindow c - Z.of_N (sf_len fr)) in
  let c1 := ccu_currentWindow c cur in
  let ended := flag_has (sf_flags fr) FL_ES in
  let c2 := if has_res then
              if negb (sf_len fr =? 0) && negb ended then cl_update_window c1 (sf_sid fr) (Z.of_N (sf_len fr)) else c1
            else c1 in
  if (cur <? cl_maxWindow / 2)%Z
  then cl_update_window (ccu_currentWindow c2 cl_maxWindow) 0 (cl_maxWindow - cur)
  else c2.

Inductive move : Type :=
| MCtxs (l : list cctx)
| MNote (o : coutev)
| MClosed | MClosing (b : bool) | MNetClosed | MWriteFail
| MWlDone | MRlDone | MRlStuck | MWlStuck
| MLastErr (e : option cerr) | MUnacks (z : Z)
| MGoAway (last : N)
| MReqTake (id : N) | MReqAdd (tag : N) | MReqKeep (last : N) | MOpenDec | MReqClear
| MInQPush (tag : N) | MInQPop | MQClear
| MOutQPush (o : coutev) | MWlWrite | MWlReset (id : N) | MOutQDrop
| MWinCh
| MRlPriv (hs : N) (hp : bytes) (hf : N) (he hr : bool) (hst : Z) (herr : option cerr) (d : hstate)
| MRecvData (fr : sframe) (has_res : bool)
| MSettings (payload : bytes)
| MAddWindow (sid : N) (inc : Z)
| MPendDel (id : N)
| MPendAddDel (pb : cpending)
| MRefill (id : N)
| MSend (id : N) (wr : bool)
| MSendBack (id : N)
| MEncSync
| MEnc (rq : crequest)
| MNextID
| MHeaders (blk : bytes) (opb : option cpending).

Definition apply (m : move) (c : cconn) : cconn :=
  match m with
  | MCtxs l => ccu_ctxs c l
  | MNote o => if quietb o then cl_note c o else c
  | MClosed => ccu_closed c true
  | MClosing b => ccu_closing c b
  | MNetClosed => ccu_netClosed c true
  | MWriteFail => ccu_writeFail c true
  | MWlDone => ccu_wl_done c true
  | MRlDone => ccu_rl_done c true
  | MRlStuck => ccu_rl_stuck c true
  | MWlStuck => ccu_wl_stuck c true
  | MLastErr e => ccu_lastErr c e
  | MUnacks z => ccu_unacks c z
  | MGoAway last => ccu_closeRef (ccu_stateClosed (ccu_goAway c true) true) last
  | MReqTake id => cl_take_req_count c id
  | MReqAdd tag => ccu_open (ccu_reqQueued c (cc_reqQueued c ++ [(cc_nextID c, tag)])) (cc_open c + 1)%Z
  | MReqKeep last => ccu_reqQueued c (filter (fun e => negb (last <? fst e)) (cc_reqQueued c))
  | MOpenDec => ccu_open c (cc_open c - 1)%Z
  | MReqClear => ccu_reqQueued c []
  | MInQPush tag => ccu_inQ c (cc_inQ c ++ [tag])
  | MInQPop => ccu_inQ c (tl (cc_inQ c))
  | MQClear => ccu_outQ (ccu_inQ c []) []
  | MOutQPush o => if pushb o then cl_write_out c o else c
  | MWlWrite => match cc_outQ c with [] => c | o :: q => cl_note (ccu_outQ c q) o end
  | MWlReset id => cl_note c (CORst id c_InternalError)
  | MOutQDrop => ccu_outQ c (tl (cc_outQ c))
  | MWinCh => ccu_winCh c false
  | MRlPriv hs hp hf he hr hst herr d =>
    ccu_dec (ccu_hdrErr (ccu_hdrStatus (ccu_hdrRegularSeen (ccu_hdrEndStream (ccu_hdrFields (ccu_hdrPrev (ccu_hdrStream c hs) hp) hf) he) hr) hst) herr) d
  | MRecvData fr has_res => recv_data c fr has_res
  | MSettings payload =>
    match cl_settings_deserialize false payload with Some st => cl_handle_settings c st | None => c end
  | MAddWindow sid inc => cl_add_window c sid inc
  | MPendDel id => ccu_pending c (cl_pend_del (cc_pending c) id)
  | MPendAddDel pb => ccu_pending c (cl_pend_del (cc_pending c ++ [pb]) (pb_id pb))
  | MRefill id =>
    match cl_pend_get (cc_pending c) id with
    | Some pb => match cl_refill pb with
                 | Some pb' => ccu_pending c (cl_pend_put (cc_pending c) pb')
                 | None => c
                 end
    | None => c
    end
  | MSend id wr =>
    match cl_pend_get (cc_pending c) id with
    | Some pb =>
      let c2 := cs_conn c pb id in
      if wr then cl_notes c2 (cl_write_data (cc_maxFrame c2) id (cs_chunk c pb) (cs_end c pb)) else c2
    | None => c
    end
  | MSendBack id =>
    (* the critical section, then addWindow(0, n): nothing of the chunk goes out; and deletePending takes the body,
       if it is still there, off c.pending *)
    match cl_pend_get (cc_pending c) id with
    | Some pb => send_back c pb id
    | None => c
    end
  | MEncSync =>
    if negb (cc_encTableSize c =? cc_encTableSeen c)
    then ccu_enc (ccu_encTableSeen c (cc_encTableSize c)) (enc_set_max (cc_enc c) (cc_encTableSize c))
    else c
  | MEnc rq => ccu_enc c (snd (cl_request_block enc_field (cc_enc c) rq))
  | MNextID => ccu_nextID c (u32 (cc_nextID c + 2))
  | MHeaders blk opb =>
    let c1 := ccu_nextID c (u32 (cc_nextID c + 2)) in
    let c2 := match opb with Some pb => ccu_pending c1 (cc_pending c1 ++ [pb]) | None => c1 end in
    cl_note c2 (COHeaders (cc_nextID c) (match opb with Some _ => false | None => true end) blk)
  end.

(* what the model guarantees where it makes the move *)
Definition valid (m : move) (c : cconn) : Prop :=
  match m with
  | MReqAdd _ => cl_can_open_stream c = true /\ cc_nextID c <= cl_maxStreamID
  | MNextID => cc_nextID c <= cl_maxStreamID
  | MHeaders blk opb =>
    cl_can_write c = true /\ cc_nextID c <= cl_maxStreamID /\ cc_goAway c = false /\
    (cc_open c <= Z.of_N (cc_maxStreams c))%Z /\
    (exists tag, In (cc_nextID c, tag) (cc_reqQueued c)) /\
    (forall pb, opb = Some pb -> pb_id pb = cc_nextID c /\ pb_window pb = cc_streamWindow c) /\
    cc_encTableSeen c = cc_encTableSize c
  | MPendAddDel pb => pb_id pb = cc_nextID c /\ cc_nextID c <= cl_maxStreamID
  | MRefill id =>
    exists pb pb', cl_pend_get (cc_pending c) id = Some pb /\ refill_cond pb = true /\ cl_refill pb = Some pb'
  | MSend id wr =>
    exists pb, cl_pend_get (cc_pending c) id = Some pb /\ refill_cond pb = false /\
               (wr = true -> cl_can_write c = true /\ ((cs_n c pb =? 0)%Z && negb (cs_end c pb)) = false)
  | MSendBack id => exists pb, cl_pend_get (cc_pending c) id = Some pb /\ refill_cond pb = false
  | MWlWrite => cl_can_write c = true /\ cc_outQ c <> []
  | MWlReset _ => cl_can_write c = true
  | MOutQDrop => cl_can_write c = false
  | MEnc _ => cc_encTableSeen c = cc_encTableSize c
  | MQClear => cc_closed c = true
  | MReqKeep _ | MOpenDec => cc_goAway c = true
  | _ => True
  end.

Inductive mvs : cconn -> list move -> cconn -> Prop :=
| mvs_nil c : mvs c [] c
| mvs_cons c m ms c' : valid m c -> mvs (apply m c) ms c' -> mvs c (m :: ms) c'.

Lemma mvs_app a la b lb c : mvs a la b -> mvs b lb c -> mvs a (la ++ lb) c.
Proof. induction 1; cbn [app]; [auto|]. intro. constructor; auto. Qed.

Lemma mvs_one m c : valid m c -> mvs c [m] (apply m c).
Proof. intro. constructor; [assumption|constructor]. Qed.

(* the send-window grants a move stands for, as the server's ledger counts them *)
Definition grants_of (m : move) : list levent :=
  match m with
  | MAddWindow sid inc => [LGrant sid inc]
  | MSettings payload =>
    match cl_settings_deserialize false payload with Some _ => inits_of payload | None => [] end
  | _ => []
  end.

(* the DATA frames a move debits from the receive window *)
Definition rdatas_of (m : move) : list sframe := match m with MRecvData fr _ => [fr] | _ => [] end.

(* DD P g r c c': c' is c after moves that all satisfy P, whose send-window grants are g and whose debited DATA
   frames are r; D: no DATA frame is debited *)
Definition DD (P : move -> Prop) (g : list levent) (r : list sframe) (c c' : cconn) : Prop :=
  exists ms, mvs c ms c' /\ Forall P ms /\ flat_map grants_of ms = g /\ flat_map rdatas_of ms = r.
Definition D (P : move -> Prop) (g : list levent) (c c' : cconn) : Prop := DD P g [] c c'.

Lemma DD_refl P c : DD P [] [] c c.
Proof. exists []. repeat split; constructor. Qed.

Lemma DD_trans P g1 g2 r1 r2 a b c : DD P g1 r1 a b -> DD P g2 r2 b c -> DD P (g1 ++ g2) (r1 ++ r2) a c.
Proof.
  intros (m1 & A1 & F1 & G1 & R1) (m2 & A2 & F2 & G2 & R2). exists (m1 ++ m2). split; [eapply mvs_app; eassumption|].
  split; [apply Forall_app; auto|]. rewrite !flat_map_app. split; congruence.
Qed.

Lemma DD_one (P : move -> Prop) m c : valid m c -> P m -> DD P (grants_of m) (rdatas_of m) c (apply m c).
Proof.
  intros V H. exists [m]. split; [apply mvs_one; assumption|]. split; [repeat constructor; assumption|].
  cbn [flat_map]. rewrite !app_nil_r. split; reflexivity.
Qed.

Lemma DD_weaken (P Q : move -> Prop) g r c c' : (forall m, P m -> Q m) -> DD P g r c c' -> DD Q g r c c'.
Proof.
  intros I (ms & A & F & G). exists ms. split; [assumption|]. split; [|assumption].
  eapply Forall_impl; eassumption.
Qed.

Lemma DD_eq P g r c c' c'' : c' = c'' -> DD P g r c c' -> DD P g r c c''.
Proof. intros ->. auto. Qed.

Lemma D_refl P c : D P [] c c.
Proof. apply DD_refl. Qed.

Lemma D_trans P g1 g2 a b c : D P g1 a b -> D P g2 b c -> D P (g1 ++ g2) a c.
Proof. intros X Y. exact (DD_trans P g1 g2 [] [] a b c X Y). Qed.

Lemma D_trans0 P g a b c : D P [] a b -> D P g b c -> D P g a c.
Proof. intros. change g with ([] ++ g). eapply D_trans; eassumption. Qed.

Lemma D_one (P : move -> Prop) m c : valid m c -> P m -> rdatas_of m = [] -> D P (grants_of m) c (apply m c).
Proof. intros V H R. unfold D. rewrite <- R. apply DD_one; assumption. Qed.

Lemma D_weaken (P Q : move -> Prop) g c c' : (forall m, P m -> Q m) -> D P g c c' -> D Q g c c'.
Proof. apply DD_weaken. Qed.

Lemma D_eq P g c c' c'' : c' = c'' -> D P g c c' -> D P g c c''.
Proof. intros ->. auto. Qed.

End Moves.

Arguments MCtxs {hstate}. Arguments MNote {hstate}. Arguments MClosed {hstate}. Arguments MClosing {hstate}.
Arguments MNetClosed {hstate}. Arguments MWriteFail {hstate}. Arguments MWlDone {hstate}. Arguments MRlDone {hstate}.
Arguments MRlStuck {hstate}. Arguments MWlStuck {hstate}. Arguments MLastErr {hstate}. Arguments MUnacks {hstate}.
Arguments MGoAway {hstate}. Arguments MReqTake {hstate}. Arguments MReqAdd {hstate}. Arguments MReqKeep {hstate}.
Arguments MOpenDec {hstate}. Arguments MReqClear {hstate}. Arguments MInQPush {hstate}. Arguments MInQPop {hstate}.
Arguments MQClear {hstate}. Arguments MOutQPush {hstate}. Arguments MWlWrite {hstate}. Arguments MWlReset {hstate}. Arguments MOutQDrop {hstate}.
Arguments MWinCh {hstate}. Arguments MRlPriv {hstate}. Arguments MRecvData {hstate}. Arguments MSettings {hstate}.
Arguments MAddWindow {hstate}. Arguments MPendDel {hstate}. Arguments MPendAddDel {hstate}. Arguments MRefill {hstate}.
Arguments MSend {hstate}. Arguments MSendBack {hstate}. Arguments MEncSync {hstate}. Arguments MEnc {hstate}. Arguments MNextID {hstate}. Arguments MHeaders {hstate}.
Arguments cs_n {hstate}. Arguments cs_chunk {hstate}. Arguments cs_pb {hstate}. Arguments cs_end {hstate}. Arguments cs_conn {hstate}. Arguments send_back {hstate}.
Arguments recv_data {hstate}. Arguments grants_of {hstate}.
Arguments mvs {hstate}. Arguments D {hstate}. Arguments DD {hstate}. Arguments rdatas_of {hstate}.

(* readStream's DATA arm touches the receive window and c.out's queue only *)
Lemma recv_data_eq {hstate} (c : cconn hstate) fr hr :
  recv_data c fr hr = ccu_outQ (ccu_currentWindow c (cc_currentWindow (recv_data c fr hr))) (cc_outQ (recv_data c fr hr)).
Proof.
  unfold recv_data, cl_update_window, cl_write_out.
  repeat match goal with |- context [if ?b then _ else _] => destruct b end; destruct c; reflexivity.
Qed.

(* the eight shapes of send_back c pb id, for the frame lemmas about MSendBack *)
Ltac sb_cases c pb :=
  unfold send_back, cl_add_window, cl_signal_window, cs_conn; cbn [N.eqb];
  destruct (0 <? cs_n c pb)%Z; destruct (cs_end c pb); cc_cbn;
  match goal with |- context [match cl_pend_get ?l ?i with _ => _ end] => destruct (cl_pend_get l i) end.

Definition is_rl (e : cevent) : Prop := match e with CEvRL _ => True | _ => False end.
Definition is_wl (e : cevent) : Prop :=
  match e with CEvWLIn | CEvWLOut | CEvWLWin _ | CEvWLPing | CEvWLDone => True | _ => False end.

(* the two select cases of the write loop that send request bodies *)
Definition is_wlf (e : cevent) : Prop := match e with CEvWLIn | CEvWLWin _ => True | _ => False end.

(* moves any goroutine makes *)
Definition anym {hstate} (m : move hstate) : Prop :=
  match m with
  | MCtxs _ | MNote _ | MClosed | MClosing _ | MNetClosed | MWriteFail | MLastErr _ | MUnacks _ | MReqTake _ | MReqClear
  | MInQPush _ | MOutQPush _ | MPendDel _ | MRlStuck | MWlStuck => True
  | _ => False
  end.

(* the moves of the step for event e *)
Definition ev_ok {hstate} (e : cevent) (m : move hstate) : Prop :=
  match m with
  | MAddWindow sid inc =>
    exists fr, e = CEvRL (RFrame fr) /\ sf_kind fr = KWinUpd /\ sid = sf_sid fr /\ inc = Z.of_N (sf_inc fr)
  | MSettings p =>
    exists fr, e = CEvRL (RFrame fr) /\ sf_kind fr = KSettings /\ sf_sid fr = 0 /\
               flag_has (sf_flags fr) FL_ES = false /\ p = sf_payload fr
  | MRecvData fr _ => e = CEvRL (RFrame fr) /\ sf_kind fr = KData /\ sf_sid fr <> 0
  | MRlPriv _ _ _ _ _ _ _ _ | MGoAway _ | MRlDone | MReqKeep _ | MOpenDec => is_rl e
  | MWlDone | MQClear | MWlWrite | MOutQDrop => is_wl e
  | MRefill _ | MSend _ _ | MSendBack _ | MWlReset _ => is_wlf e
  | MWinCh => match e with CEvWLWin _ => True | _ => False end
  | MReqAdd _ | MInQPop | MPendAddDel _ | MEncSync | MEnc _ | MNextID | MHeaders _ _ => e = CEvWLIn
  | _ => True
  end.

Lemma anym_ev_ok {hstate} e (m : move hstate) : anym m -> ev_ok e m.
Proof. destruct m; cbn; tauto. Qed.

Section Decomp.
Variable hstate : Type.
Variable dec_field : hstate -> N -> bytes -> dec_res hstate.
Variable enc_field : hstate -> bytes -> bytes -> bool -> bytes * hstate.
Variable enc_set_max : hstate -> N -> hstate.
Variable cfg : cl_config.
Notation cconn := (cconn hstate).
Notation move := (move hstate).
Notation apply := (apply hstate enc_field enc_set_max).
Notation valid := (valid hstate).
Notation D := (D enc_field enc_set_max).
Notation DD := (DD enc_field enc_set_max).
Notation step := (cl_step dec_field enc_field enc_set_max cfg).

Lemma D_step (P : move -> Prop) g r m (c c' : cconn) :
  valid m c -> P m -> DD P g r (apply m c) c' -> DD P (grants_of m ++ g) (rdatas_of m ++ r) c c'.
Proof. intros V H X. eapply DD_trans; [apply DD_one; assumption | exact X]. Qed.

Lemma DD_any (P : move -> Prop) g r (c c' : cconn) : (forall m, anym m -> P m) -> DD anym g r c c' -> DD P g r c c'.
Proof. intros. eapply DD_weaken; eassumption. Qed.

Lemma D_any (P : move -> Prop) g (c c' : cconn) : (forall m, anym m -> P m) -> D anym g c c' -> D P g c c'.
Proof. intros. eapply D_weaken; eassumption. Qed.

(* one more move, which any goroutine may make and which needs no premise *)
Tactic Notation "dmove" uconstr(m) := apply (D_step _ _ _ m); [exact I | exact I | ].

Lemma ctx_upd_D (c : cconn) tag f : D anym [] c (cl_ctx_upd c tag f).
Proof.
  unfold cl_ctx_upd. destruct (cl_ctx_get c tag) as [x|]; [|apply D_refl].
  dmove (MCtxs (cl_ctxs_put (cc_ctxs c) (f x))). apply D_refl.
Qed.

Lemma ctx_put_D (c : cconn) x : D anym [] c (cl_ctx_put c x).
Proof. dmove (MCtxs (cl_ctxs_put (cc_ctxs c) x)). apply D_refl. Qed.

Lemma resolve_D (c : cconn) tag e : D anym [] c (cl_resolve c tag e).
Proof. apply ctx_upd_D. Qed.

Lemma resolve_all_D tags : forall (c : cconn) e, D anym [] c (cl_resolve_all c tags e).
Proof.
  induction tags as [|t r IH]; intros c e; cbn [cl_resolve_all]; [apply D_refl|].
  eapply D_trans0; [apply resolve_D | apply IH].
Qed.

Lemma set_last_err_D (c : cconn) e : D anym [] c (cl_set_last_err c e).
Proof.
  unfold cl_set_last_err. destruct (cc_lastErr c); [apply D_refl|].
  dmove (MLastErr (Some e)). apply D_refl.
Qed.

Lemma take_req_D (c : cconn) id : D anym [] c (cl_take_req_count c id).
Proof. dmove (MReqTake id). apply D_refl. Qed.

Lemma cancel_stream_D (c : cconn) id code : D anym [] c (cl_cancel_stream c id code).
Proof. dmove (MOutQPush (CORst id code)). apply D_refl. Qed.

Lemma close_net_D (c : cconn) : D anym [] c (cl_close_net c).
Proof.
  unfold cl_close_net. destruct (cl_can_write c).
  - dmove (MNote (COGoAway 0 c_NoError)). dmove MNetClosed. apply D_refl.
  - dmove MNetClosed. apply D_refl.
Qed.

Lemma conn_close_D (c : cconn) : D anym [] c (cl_conn_close c).
Proof.
  unfold cl_conn_close, cl_close_begin. destruct (cc_closed c); [apply D_refl|].
  dmove MClosed. apply close_net_D.
Qed.

Lemma go_stuck_fold_D held : forall (c : cconn),
  D anym [] c (fold_left (fun c t => cl_ctx_upd c t (fun x => ctu_lckStuck x true)) held c).
Proof.
  induction held as [|t r IH]; intro c; cbn [fold_left]; [apply D_refl|].
  eapply D_trans0; [apply ctx_upd_D | apply IH].
Qed.

Lemma go_stuck_D who held (c : cconn) self tag : D anym [] c (cl_go_stuck who held c self tag).
Proof.
  unfold cl_go_stuck. eapply D_trans0; [apply go_stuck_fold_D|].
  set (c1 := fold_left _ held c). destruct self.
  - dmove (MNote (COSelfDeadlock who tag)).
    destruct (who =? 0); [dmove MRlStuck; apply D_refl|]. destruct (who =? 1); [dmove MWlStuck; apply D_refl|apply D_refl].
  - dmove (MNote (COBlocked who tag)).
    destruct (who =? 0); [dmove MRlStuck; apply D_refl|]. destruct (who =? 1); [dmove MWlStuck; apply D_refl|apply D_refl].
Qed.

Lemma close_body_D (c : cconn) pb : D anym [] c (cl_close_body c pb).
Proof.
  unfold cl_close_body. destruct (pb_stream pb); [|apply D_refl].
  eapply D_trans0; [apply ctx_upd_D|]. dmove (MNote (COBodyClosed (pb_tag pb))). apply D_refl.
Qed.

(* deletePending once the body is off c.pending *)
Lemma delete_pending_tail who held (c : cconn) id :
  D anym [] (match cl_pend_get (cc_pending c) id with Some _ => ccu_pending c (cl_pend_del (cc_pending c) id) | None => c end)
    (fst (cl_delete_pending who held c id)).
Proof.
  unfold cl_delete_pending. destruct (cl_pend_get (cc_pending c) id) as [pb|]; [|apply D_refl].
  destruct (pb_stream pb) eqn:S; [|apply D_refl].
  destruct (cl_acquire_for held _ (pb_tag pb) id); cbn [fst].
  - apply close_body_D.
  - apply D_refl.
  - apply go_stuck_D.
  - apply go_stuck_D.
Qed.

Lemma delete_pending_D who held (c : cconn) id : D anym [] c (fst (cl_delete_pending who held c id)).
Proof.
  eapply D_trans0; [|apply delete_pending_tail].
  destruct (cl_pend_get (cc_pending c) id); [dmove (MPendDel id)|]; apply D_refl.
Qed.

Lemma send_pending_S fuel (c : cconn) id :
  cl_send_pending (S fuel) c id =
  match cl_pend_get (cc_pending c) id with
  | None => (c, CSPOk)
  | Some pb =>
    if refill_cond pb then
      match cl_refill pb with
      | None =>
        let '(c1, stuck) := cl_delete_pending 1 [] c id in
        if stuck then (c1, CSPStuck)
        else
          match cl_req_find (cc_reqQueued c1) id with
          | None => (c1, CSPOk)
          | Some _ =>
            let c2 := cl_take_req_count c1 id in
            let c3 := cl_ctx_upd c2 (pb_tag pb) (fun x => cl_ctx_resolve (ctu_finished x true) CEBody) in
            if cl_can_write c3 then (cl_note c3 (CORst id c_InternalError), CSPOk) else (c3, CSPWriteErr)
          end
      | Some pb' => cl_send_pending fuel (ccu_pending c (cl_pend_put (cc_pending c) pb')) id
      end
    else
      let c2 := cs_conn c pb id in
      if (cs_n c pb =? 0)%Z && negb (cs_end c pb) then (c2, CSPOk)
      else
        match cl_acquire_for [] c2 (pb_tag pb) id with
        | CLRefused =>
          let c2' := if (0 <? cs_n c pb)%Z then cl_add_window c2 0 (cs_n c pb) else c2 in
          let '(c3, stuck) := cl_delete_pending 1 [] c2' id in
          (c3, if stuck then CSPStuck else CSPOk)
        | CLBlocked | CLSelf => (cl_go_stuck 1 [] c2 false (pb_tag pb), CSPStuck)
        | CLOk =>
          if cl_can_write c2 then
            let c3 := cl_notes c2 (cl_write_data (cc_maxFrame c2) id (cs_chunk c pb) (cs_end c pb)) in
            if cs_end c pb then (cl_close_body c3 (cs_pb c pb), CSPOk) else cl_send_pending fuel c3 id
          else (c2, CSPWriteErr)
        end
  end.
Proof. reflexivity. Qed.

Lemma delete_pending_D' who held (c c1 : cconn) id stuck :
  cl_delete_pending who held c id = (c1, stuck) -> D anym [] c c1.
Proof. intro E. pose proof (delete_pending_D who held c id) as H. rewrite E in H. exact H. Qed.

Lemma valid_refill (c : cconn) id pb pb' :
  cl_pend_get (cc_pending c) id = Some pb -> refill_cond pb = true -> cl_refill pb = Some pb' -> valid (MRefill id) c.
Proof. intros G RC RF. exists pb, pb'. auto. Qed.

Lemma valid_send_false (c : cconn) id pb : cl_pend_get (cc_pending c) id = Some pb -> refill_cond pb = false -> valid (MSend id false) c.
Proof. intros G RC. exists pb. split; [exact G|]. split; [exact RC | discriminate]. Qed.

Lemma valid_send_back (c : cconn) id pb : cl_pend_get (cc_pending c) id = Some pb -> refill_cond pb = false -> valid (MSendBack id) c.
Proof. intros G RC. exists pb. auto. Qed.

(* the state after a critical section whose chunk is written *)
Definition cs_sent (c : cconn) (pb : cpending) (id : N) : cconn :=
  cl_notes (cs_conn c pb id) (cl_write_data (cc_maxFrame c) id (cs_chunk c pb) (cs_end c pb)).

Lemma apply_send (c : cconn) id pb wr : cl_pend_get (cc_pending c) id = Some pb ->
  apply (MSend id wr) c = if wr then cs_sent c pb id else cs_conn c pb id.
Proof. intro G. cbn [apply]. rewrite G. unfold cs_sent, cs_conn. destruct (cs_end c pb); reflexivity. Qed.

Lemma apply_refill (c : cconn) id pb pb' : cl_pend_get (cc_pending c) id = Some pb -> cl_refill pb = Some pb' ->
  apply (MRefill id) c = ccu_pending c (cl_pend_put (cc_pending c) pb').
Proof. intros G RF. cbn [apply]. rewrite G, RF. reflexivity. Qed.

(* the state deletePending finds when the request has been taken back: the chunk is back in the connection window *)
Definition sb_pre (c : cconn) (pb : cpending) (id : N) : cconn :=
  if (0 <? cs_n c pb)%Z then cl_add_window (cs_conn c pb id) 0 (cs_n c pb) else cs_conn c pb id.

Lemma apply_send_back (c : cconn) id pb : cl_pend_get (cc_pending c) id = Some pb ->
  apply (MSendBack id) c =
  match cl_pend_get (cc_pending (sb_pre c pb id)) id with
  | Some _ => ccu_pending (sb_pre c pb id) (cl_pend_del (cc_pending (sb_pre c pb id)) id)
  | None => sb_pre c pb id
  end.
Proof. intro G. cbn [apply]. rewrite G. reflexivity. Qed.

(* the body's reader failed and deletePending has run *)
Definition read_failed (c1 : cconn) (stuck : bool) (id tag : N) : cconn * cl_spres :=
  if stuck then (c1, CSPStuck)
  else match cl_req_find (cc_reqQueued c1) id with
       | None => (c1, CSPOk)
       | Some _ =>
         let c3 := cl_ctx_upd (cl_take_req_count c1 id) tag (fun x => cl_ctx_resolve (ctu_finished x true) CEBody) in
         if cl_can_write c3 then (cl_note c3 (CORst id c_InternalError), CSPOk) else (c3, CSPWriteErr)
       end.

(* sendPending with fuel left: its result, or the state it goes on from *)
Inductive sp_view (fuel : nat) (c : cconn) (id : N) : cconn * cl_spres -> Prop :=
| spv_none : cl_pend_get (cc_pending c) id = None -> sp_view fuel c id (c, CSPOk)
| spv_refill pb pb' : cl_pend_get (cc_pending c) id = Some pb -> refill_cond pb = true -> cl_refill pb = Some pb' ->
    sp_view fuel c id (cl_send_pending fuel (ccu_pending c (cl_pend_put (cc_pending c) pb')) id)
| spv_failed pb c1 stuck : cl_pend_get (cc_pending c) id = Some pb -> refill_cond pb = true -> cl_refill pb = None ->
    cl_delete_pending 1 [] c id = (c1, stuck) -> sp_view fuel c id (read_failed c1 stuck id (pb_tag pb))
| spv_wait pb : cl_pend_get (cc_pending c) id = Some pb -> refill_cond pb = false -> cs_n c pb = 0%Z -> cs_end c pb = false ->
    sp_view fuel c id (cs_conn c pb id, CSPOk)
| spv_write_err pb : cl_pend_get (cc_pending c) id = Some pb -> refill_cond pb = false ->
    cl_acquire_for [] (cs_conn c pb id) (pb_tag pb) id = CLOk -> cl_can_write c = false ->
    sp_view fuel c id (cs_conn c pb id, CSPWriteErr)
| spv_last pb : cl_pend_get (cc_pending c) id = Some pb -> refill_cond pb = false ->
    cl_acquire_for [] (cs_conn c pb id) (pb_tag pb) id = CLOk -> valid (MSend id true) c -> cs_end c pb = true ->
    sp_view fuel c id (cl_close_body (cs_sent c pb id) (cs_pb c pb), CSPOk)
| spv_more pb : cl_pend_get (cc_pending c) id = Some pb -> refill_cond pb = false ->
    cl_acquire_for [] (cs_conn c pb id) (pb_tag pb) id = CLOk -> valid (MSend id true) c -> cs_end c pb = false ->
    sp_view fuel c id (cl_send_pending fuel (cs_sent c pb id) id)
| spv_back pb c3 stuck : cl_pend_get (cc_pending c) id = Some pb -> refill_cond pb = false ->
    cl_acquire_for [] (cs_conn c pb id) (pb_tag pb) id = CLRefused ->
    cl_delete_pending 1 [] (sb_pre c pb id) id = (c3, stuck) -> sp_view fuel c id (c3, if stuck then CSPStuck else CSPOk)
| spv_stuck pb : cl_pend_get (cc_pending c) id = Some pb -> refill_cond pb = false ->
    sp_view fuel c id (cl_go_stuck 1 [] (cs_conn c pb id) false (pb_tag pb), CSPStuck).

Lemma send_pending_view fuel (c : cconn) id : sp_view fuel c id (cl_send_pending (S fuel) c id).
Proof.
  rewrite send_pending_S. destruct (cl_pend_get (cc_pending c) id) as [pb|] eqn:G; [|apply spv_none; exact G].
  destruct (refill_cond pb) eqn:RC.
  - destruct (cl_refill pb) as [pb'|] eqn:RF; [exact (spv_refill fuel c id pb pb' G RC RF)|].
    destruct (cl_delete_pending 1 [] c id) as [c1 stuck] eqn:DP. exact (spv_failed fuel c id pb c1 stuck G RC RF DP).
  - cbv zeta. destruct ((cs_n c pb =? 0)%Z && negb (cs_end c pb)) eqn:Z0.
    + apply andb_prop in Z0. destruct Z0 as [Z0 EE]. apply Z.eqb_eq in Z0. apply negb_true_iff in EE.
      apply (spv_wait fuel c id pb); assumption.
    + destruct (cl_acquire_for [] (cs_conn c pb id) (pb_tag pb) id) eqn:ACQ.
      * change (cl_can_write (cs_conn c pb id)) with (cl_can_write c). change (cc_maxFrame (cs_conn c pb id)) with (cc_maxFrame c).
        destruct (cl_can_write c) eqn:CW; [|apply (spv_write_err fuel c id pb); assumption].
        assert (V : valid (MSend id true) c) by (exists pb; auto).
        fold (cs_sent c pb id). destruct (cs_end c pb) eqn:EE; [apply (spv_last fuel c id pb) | apply (spv_more fuel c id pb)]; assumption.
      * destruct (cl_delete_pending 1 [] _ id) as [c3 stuck] eqn:DP. exact (spv_back fuel c id pb c3 stuck G RC ACQ DP).
      * apply (spv_stuck fuel c id pb); assumption.
      * apply (spv_stuck fuel c id pb); assumption.
Qed.

(* the moves of sendPending(id) *)
Definition sp_move (id : N) (m : move) : Prop :=
  anym m \/ match m with MRefill i | MSend i _ | MSendBack i | MWlReset i => i = id | _ => False end.

Lemma read_failed_D (P : move -> Prop) (c c1 : cconn) stuck id tag :
  (forall m, anym m -> P m) -> P (MWlReset id) -> D anym [] c c1 -> D P [] c (fst (read_failed c1 stuck id tag)).
Proof.
  intros Aa PW DP. apply (D_any _ _ _ _ Aa) in DP. unfold read_failed.
  destruct stuck; [exact DP|]. destruct (cl_req_find (cc_reqQueued c1) id); [|exact DP]. cbv zeta.
  eapply D_trans0; [exact DP|]. eapply D_trans0; [apply (D_any _ _ _ _ Aa), take_req_D|]. eapply D_trans0; [apply (D_any _ _ _ _ Aa), ctx_upd_D|].
  destruct (cl_can_write _) eqn:CW; cbn [fst]; [|apply D_refl].
  (* the write loop writes the RST_STREAM itself *)
  apply (D_step _ _ _ (MWlReset id)); [exact CW | exact PW | apply D_refl].
Qed.

Lemma send_pending_DP (P : move -> Prop) id : (forall m, sp_move id m -> P m) ->
  forall fuel (c : cconn), D P [] c (fst (cl_send_pending fuel c id)).
Proof.
  intros A. assert (Aa : forall m, anym m -> P m) by (intros m H; apply A; left; exact H).
  induction fuel as [|fuel IH]; intro c; [apply D_refl|].
  destruct (send_pending_view fuel c id) as [G|pb pb' G RC RF|pb c1 stuck G RC RF DP|pb G RC N0 EE|pb G RC ACQ CW|pb G RC ACQ V EE|pb G RC ACQ V EE|pb c3 stuck G RC ACQ DP|pb G RC];
    cbn [fst].
  - apply D_refl.
  - apply (D_step _ _ _ (MRefill id)); [eapply valid_refill; eassumption | apply A; right; reflexivity |].
    rewrite (apply_refill c id pb pb' G RF). apply IH.
  - apply read_failed_D; [exact Aa | apply A; right; reflexivity | eapply delete_pending_D'; exact DP].
  - apply (D_step _ _ _ (MSend id false)); [eapply valid_send_false; eassumption | apply A; right; reflexivity |].
    rewrite (apply_send c id pb false G). apply D_refl.
  - apply (D_step _ _ _ (MSend id false)); [eapply valid_send_false; eassumption | apply A; right; reflexivity |].
    rewrite (apply_send c id pb false G). apply D_refl.
  - apply (D_step _ _ _ (MSend id true)); [exact V | apply A; right; reflexivity |].
    rewrite (apply_send c id pb true G). apply (D_any _ _ _ _ Aa), close_body_D.
  - apply (D_step _ _ _ (MSend id true)); [exact V | apply A; right; reflexivity |]. rewrite (apply_send c id pb true G). apply IH.
  - (* the request has been taken back: the chunk goes back to the connection window *)
    apply (D_step _ _ _ (MSendBack id)); [eapply valid_send_back; eassumption | apply A; right; reflexivity |].
    rewrite (apply_send_back c id pb G). pose proof (delete_pending_tail 1 [] (sb_pre c pb id) id) as DT. rewrite DP in DT.
    apply (D_any _ _ _ _ Aa). exact DT.
  - apply (D_step _ _ _ (MSend id false)); [eapply valid_send_false; eassumption | apply A; right; reflexivity |].
    rewrite (apply_send c id pb false G). apply (D_any _ _ _ _ Aa), go_stuck_D.
Qed.

Lemma sp_move_ev_ok e id (m : move) : is_wlf e -> sp_move id m -> ev_ok e m.
Proof. intros W [H|H]; [apply anym_ev_ok; exact H|]. destruct m; try contradiction; exact W. Qed.

Lemma send_pending_D e fuel : is_wlf e -> forall (c : cconn) id, D (ev_ok e) [] c (fst (cl_send_pending fuel c id)).
Proof. intros W c id. apply (send_pending_DP _ id); intros m H. exact (sp_move_ev_ok e id m W H). Qed.

Lemma flush_pending_D e ids : is_wlf e -> forall (c : cconn), D (ev_ok e) [] c (fst (cl_flush_pending c ids)).
Proof.
  intro W. induction ids as [|id t IH]; intro c; cbn [cl_flush_pending]; [apply D_refl|].
  pose proof (send_pending_D e (cl_send_fuel c id) W c id) as H.
  destruct (cl_send_pending (cl_send_fuel c id) c id) as [c1 r]. cbn [fst] in H.
  destruct r; [eapply D_trans0; [exact H | apply IH] | exact H | exact H].
Qed.

Definition new_pending (c : cconn) (tag : N) (rq : crequest) : option cpending :=
  match cq_body rq with
  | CStream reads size => Some (mkCPB (cc_nextID c) tag [] (cc_streamWindow c) (Some reads) size 0 (size =? 0)%Z)
  | CBuf b => if cl_is_nil b then None else Some (mkCPB (cc_nextID c) tag b (cc_streamWindow c) None (-1) 0 false)
  end.

Lemma can_open_goaway (c : cconn) : cl_can_open_stream c = true -> cc_goAway c = false.
Proof. unfold cl_can_open_stream. destruct (cc_goAway c); [discriminate | reflexivity]. Qed.

Lemma pend_get_app_last l pb : cl_pend_get (l ++ [pb]) (pb_id pb) <> None.
Proof.
  induction l as [|p t IH]; cbn [app cl_pend_get].
  - rewrite N.eqb_refl. discriminate.
  - destruct (pb_id p =? pb_id pb); [discriminate | exact IH].
Qed.

(* writeRequest up to the write of HEADERS: the encoder, the Ctx, the request table (c.nextID is still the stream's id) *)
Definition wr_open (c1 : cconn) (x : cctx) (tag : N) : cconn :=
  apply (MReqAdd tag) (apply (MCtxs (cl_ctxs_put (cc_ctxs c1) (ctu_sid (ctu_conn x true) (cc_nextID c1)))) (apply (MEnc (ct_req x)) c1)).

Lemma wr_open_fields (c1 : cconn) x tag :
  cc_nextID (wr_open c1 x tag) = cc_nextID c1 /\ cc_pending (wr_open c1 x tag) = cc_pending c1 /\ cc_out (wr_open c1 x tag) = cc_out c1 /\
  cc_ctxs (wr_open c1 x tag) = cl_ctxs_put (cc_ctxs c1) (ctu_sid (ctu_conn x true) (cc_nextID c1)) /\
  cc_connWindow (wr_open c1 x tag) = cc_connWindow c1 /\ cc_streamWindow (wr_open c1 x tag) = cc_streamWindow c1.
Proof. repeat split. Qed.

(* the state whose HEADERS write fails: the id is used up, the body is on c.pending *)
Definition wr_unsent (c5 : cconn) (opb : option cpending) : cconn :=
  let c5n := apply MNextID c5 in
  match opb with Some pb => ccu_pending c5n (cc_pending c5n ++ [pb]) | None => c5n end.

Definition wr_res (p : cconn * cl_spres) : cconn * cl_wrres :=
  match p with
  | (c8, CSPOk) => (c8, CWRNil)
  | (c8, CSPWriteErr) => (c8, CWRErr CEWrite)
  | (c8, CSPStuck) => (c8, CWRStuck)
  end.

Lemma fst_wr_res p : fst (wr_res p) = fst p.
Proof. destruct p as [c8 []]; reflexivity. Qed.

(* writeRequest from a state c1 in which the encoder's table size is in force *)
Inductive wr_go (c1 : cconn) (x : cctx) (tag : N) : cconn * cl_wrres -> Prop :=
| wrg_noids : cl_maxStreamID < cc_nextID c1 -> wr_go c1 x tag (c1, CWRErr CENoIDs)
| wrg_sent blk opb : cc_nextID c1 <= cl_maxStreamID -> opb = new_pending c1 tag (ct_req x) ->
    valid (MHeaders blk opb) (wr_open c1 x tag) ->
    wr_go c1 x tag
      (match opb with
       | None => (apply (MHeaders blk opb) (wr_open c1 x tag), CWRNil)
       | Some _ => wr_res (cl_send_pending (cl_send_fuel (apply (MHeaders blk opb) (wr_open c1 x tag)) (cc_nextID c1))
                                           (apply (MHeaders blk opb) (wr_open c1 x tag)) (cc_nextID c1))
       end)
| wrg_failed opb c8 stuck : cc_nextID c1 <= cl_maxStreamID -> opb = new_pending c1 tag (ct_req x) -> cl_can_write c1 = false ->
    cl_delete_pending 1 [] (cl_take_req_count (cl_set_last_err (wr_unsent (wr_open c1 x tag) opb) CEWrite) (cc_nextID c1)) (cc_nextID c1) = (c8, stuck) ->
    wr_go c1 x tag (c8, if stuck then CWRStuck else CWRErr CEWrite).

Inductive wr_view (c : cconn) (tag : N) : cconn * cl_wrres -> Prop :=
| wrv_full : cl_can_open_stream c = false -> wr_view c tag (c, CWRErr CENoStreams)
| wrv_none : cl_ctx_get c tag = None -> wr_view c tag (c, CWRNil)
| wrv_locked x : cl_ctx_get c tag = Some x -> ct_lckStuck x = true -> wr_view c tag (cl_go_stuck 1 [] c false tag, CWRStuck)
| wrv_done x : cl_ctx_get c tag = Some x -> ct_done x = true -> wr_view c tag (c, CWRNil)
| wrv_go x r : cl_can_open_stream c = true -> cl_ctx_get c tag = Some x -> ct_lckStuck x = false -> ct_done x = false ->
    cl_can_open_stream (apply MEncSync c) = true -> cc_encTableSeen (apply MEncSync c) = cc_encTableSize (apply MEncSync c) ->
    wr_go (apply MEncSync c) x tag r -> wr_view c tag r.

Lemma new_pending_facts (c : cconn) tag rq pb : new_pending c tag rq = Some pb ->
  pb_id pb = cc_nextID c /\ pb_tag pb = tag /\ pb_window pb = cc_streamWindow c.
Proof.
  unfold new_pending. destruct (cq_body rq) as [b|reads size]; [destruct (cl_is_nil b); [discriminate|]|];
    intro H; inversion H; repeat split.
Qed.

Lemma write_request_view (c : cconn) tag : wr_view c tag (cl_write_request enc_field enc_set_max c tag).
Proof.
  unfold cl_write_request.
  destruct (cl_can_open_stream c) eqn:CO; cbn [negb]; [|apply wrv_full; exact CO].
  destruct (cl_ctx_get c tag) as [x|] eqn:GX; [|apply wrv_none; exact GX].
  destruct (ct_lckStuck x) eqn:LS; [apply (wrv_locked c tag x); assumption|].
  destruct (ct_done x) eqn:DN; [apply (wrv_done c tag x); assumption|].
  change (if negb (cc_encTableSize c =? cc_encTableSeen c) then _ else c) with (apply MEncSync c).
  assert (F1 : cl_can_open_stream (apply MEncSync c) = true) by (cbn [apply]; destruct (negb _); exact CO).
  assert (SYN : cc_encTableSeen (apply MEncSync c) = cc_encTableSize (apply MEncSync c)).
  { cbn [apply]. destruct (cc_encTableSize c =? cc_encTableSeen c) eqn:E; cbn [negb]; [apply N.eqb_eq in E; symmetry; exact E | reflexivity]. }
  apply (wrv_go c tag x _ CO GX LS DN F1 SYN). set (c1 := apply MEncSync c) in *. clearbody c1.
  destruct (cl_maxStreamID <? cc_nextID c1) eqn:IDS; [apply wrg_noids, N.ltb_lt, IDS|]. apply N.ltb_ge in IDS.
  pose proof (can_open_goaway _ F1) as GA.
  assert (VH : forall blk opb, cl_can_write c1 = true -> opb = new_pending c1 tag (ct_req x) -> valid (MHeaders blk opb) (wr_open c1 x tag)).
  { intros blk opb CWE EO. split; [exact CWE|]. split; [exact IDS|]. split; [exact GA|]. split.
    { unfold wr_open. cbn [apply]. cc_cbn. unfold cl_can_open_stream in F1. apply andb_prop in F1. destruct F1 as [_ F1]. apply Z.ltb_lt in F1. flia. }
    split; [exists tag; unfold wr_open; cbn [apply]; cc_cbn; apply in_or_app; right; left; reflexivity|].
    split; [|exact SYN]. intros pb E. rewrite EO in E. destruct (new_pending_facts _ _ _ _ E) as (A & _ & B). split; assumption. }
  set (p := cl_request_block enc_field (cc_enc (ccu_nextID c1 (u32 (cc_nextID c1 + 2)))) (ct_req x)).
  rewrite (surjective_pairing p). subst p. cbv beta iota. unfold cl_ctx_put. cc_cbn. rewrite GA.
  pose proof (fun CWE => wrg_sent c1 x tag (fst (cl_request_block enc_field (cc_enc c1) (ct_req x))) _ IDS eq_refl (VH _ _ CWE eq_refl)) as SENT.
  pose proof (fun c8 st => wrg_failed c1 x tag _ c8 st IDS eq_refl) as FAILED.
  unfold new_pending in SENT, FAILED.
  destruct (cq_body (ct_req x)) as [b|reads size]; [destruct b as [|b0 bt]|]; cbn [cl_is_nil negb] in *;
    (unfold cl_can_write at 1; cc_cbn; fold (cl_can_write c1); destruct (cl_can_write c1) eqn:CWE;
     [exact (SENT eq_refl) | destruct (cl_delete_pending 1 [] _ _) as [c8 st]; destruct st; exact (FAILED c8 _ eq_refl eq_refl)]).
Qed.

(* the write of HEADERS failed: the body that had just been put on c.pending is taken off again *)
Lemma wr_failed_D (P : move -> Prop) (c5 : cconn) opb :
  (forall m, anym m -> P m) -> P MNextID -> (forall pb, P (MPendAddDel pb)) ->
  cc_nextID c5 <= cl_maxStreamID -> (forall pb, opb = Some pb -> pb_id pb = cc_nextID c5) -> forall id, cc_nextID c5 = id ->
  D P [] c5 (fst (cl_delete_pending 1 [] (cl_take_req_count (cl_set_last_err (wr_unsent c5 opb) CEWrite) id) id)).
Proof.
  intros A PN PA IDS PI id <-. unfold wr_unsent. destruct opb as [pb|].
  - specialize (PI pb eq_refl).
    eapply D_trans0; [|apply (D_any _ _ _ _ A), delete_pending_tail].
    apply (D_step _ _ _ (MPendAddDel pb)); [split; [exact PI | exact IDS] | apply PA |].
    apply (D_step _ _ _ MNextID); [exact IDS | exact PN |].
    apply (D_any _ _ _ _ A).
    eapply D_trans0; [apply (set_last_err_D _ CEWrite)|]. eapply D_eq; [|apply (take_req_D _ (cc_nextID c5))].
    (* the body is found on c.pending and taken off: the same state *)
    unfold cl_take_req_count, cl_req_del, cl_set_last_err. cbn [apply]. cc_cbn.
    destruct (cc_lastErr c5); cc_cbn; destruct (cl_req_find (cc_reqQueued c5) (cc_nextID c5)); cc_cbn;
      (destruct (cl_pend_get (cc_pending c5 ++ [pb]) (cc_nextID c5)) eqn:G;
        [rewrite PI; reflexivity | exfalso; rewrite <- PI in G; exact (pend_get_app_last _ _ G)]).
  - apply (D_step _ _ _ MNextID); [exact IDS | exact PN |]. apply (D_any _ _ _ _ A).
    eapply D_trans0; [apply set_last_err_D|]. eapply D_trans0; [apply take_req_D | apply delete_pending_D].
Qed.

Lemma wr_open_D (P : move -> Prop) (c1 : cconn) x tag :
  (forall m, anym m -> P m) -> P (MEnc (ct_req x)) -> P (MReqAdd tag) ->
  cl_can_open_stream c1 = true -> cc_encTableSeen c1 = cc_encTableSize c1 -> cc_nextID c1 <= cl_maxStreamID ->
  D P [] c1 (wr_open c1 x tag).
Proof.
  intros A PE PR F1 SYN IDS. unfold wr_open.
  apply (D_step _ _ _ (MEnc (ct_req x))); [exact SYN | exact PE |].
  apply (D_step _ _ _ (MCtxs (cl_ctxs_put (cc_ctxs c1) (ctu_sid (ctu_conn x true) (cc_nextID c1))))); [exact I | apply A; exact I |].
  apply (D_step _ _ _ (MReqAdd tag)); [split; assumption | exact PR | apply D_refl].
Qed.

Lemma write_request_D e (c : cconn) tag : e = CEvWLIn ->
  D (ev_ok e) [] c (fst (cl_write_request enc_field enc_set_max c tag)).
Proof.
  intro W. assert (WL : is_wlf e) by (rewrite W; exact I).
  destruct (write_request_view c tag) as [CO|GX|x GX LS|x GX DN|x r CO GX LS DN F1 SYN GO]; cbn [fst]; try apply D_refl.
  - apply (D_any _ _ _ _ (anym_ev_ok e)), go_stuck_D.
  - apply (D_step _ _ _ MEncSync); [exact I | exact W |].
    destruct GO as [IDS|blk opb IDS EO V|opb c8 stuck IDS EO CW DP]; cbn [fst]; [apply D_refl| |].
    + eapply D_trans0; [apply wr_open_D; try assumption; apply anym_ev_ok|].
      apply (D_step _ _ _ (MHeaders blk opb)); [exact V | exact W |].
      destruct opb; [rewrite fst_wr_res; apply send_pending_D; exact WL | apply D_refl].
    + eapply D_trans0; [apply wr_open_D; try assumption; apply anym_ev_ok|].
      assert (PI : forall pb, opb = Some pb -> pb_id pb = cc_nextID (wr_open (apply MEncSync c) x tag))
        by (intros pb E; rewrite EO in E; apply (new_pending_facts _ _ _ _ E)).
      pose proof (wr_failed_D (ev_ok e) (wr_open (apply MEncSync c) x tag) opb (anym_ev_ok e) W (fun _ => W) IDS PI (cc_nextID (apply MEncSync c)) eq_refl) as H.
      rewrite DP in H. exact H.
Qed.

Lemma wl_exit_D e (c : cconn) lastErr why : is_wl e -> D (ev_ok e) [] c (cl_wl_exit c lastErr why).
Proof.
  intro W. unfold cl_wl_exit.
  set (le := match lastErr with Some e0 => e0 | None => CEConn end).
  eapply D_trans0; [apply (D_any _ _ _ _ (anym_ev_ok e)), (set_last_err_D c le)|].
  eapply D_trans0; [apply (D_any _ _ _ _ (anym_ev_ok e)), (conn_close_D (cl_set_last_err c le))|].
  pose proof (cc_closed_cl_conn_close _ (cl_set_last_err c le)) as CL.
  set (c1 := cl_conn_close (cl_set_last_err c le)) in *.
  eapply D_trans0; [apply (D_any _ _ _ _ (anym_ev_ok e)), (resolve_all_D (map snd (cc_reqQueued c1)) c1 le)|].
  apply (D_step _ _ _ MReqClear); [exact I | exact I |]. cbn [apply].
  set (c2 := ccu_reqQueued (cl_resolve_all c1 (map snd (cc_reqQueued c1)) le) []).
  assert (CL2 : cc_closed c2 = true) by (subst c2; cc_cbn; rewrite cc_closed_cl_resolve_all; exact CL).
  eapply D_trans0; [apply (D_any _ _ _ _ (anym_ev_ok e)), (resolve_all_D (cc_inQ c2) c2 le)|].
  apply (D_step _ _ _ MQClear); [cbn [valid]; rewrite cc_closed_cl_resolve_all; exact CL2 | exact W |]. cbn [apply].
  apply (D_step _ _ _ MWlDone); [exact I | exact W |]. cbn [apply].
  apply (D_step _ _ _ (MNote (COExit 1 why))); [exact I | exact I |]. apply D_refl.
Qed.

Lemma wl_after_D e (c : cconn) : is_wl e -> D (ev_ok e) [] c (cl_wl_after cfg c).
Proof. intro W. unfold cl_wl_after. destruct (_ && _); [apply wl_exit_D; exact W | apply D_refl]. Qed.

Lemma wl_in_D e (c : cconn) : e = CEvWLIn -> D (ev_ok e) [] c (cl_wl_in enc_field enc_set_max cfg c).
Proof.
  intro WI. assert (W : is_wl e) by (rewrite WI; exact I). unfold cl_wl_in. destruct (cc_inQ c) as [|tag q] eqn:Q; [apply D_refl|].
  apply (D_step _ _ _ MInQPop); [exact I | exact WI |]. cbn [apply]. rewrite Q. cbn [tl].
  pose proof (write_request_D e (ccu_inQ c q) tag WI) as H.
  destruct (cl_write_request enc_field enc_set_max (ccu_inQ c q) tag) as [c1 r]. cbn [fst] in H.
  eapply D_trans0; [exact H|]. destruct r as [|er|].
  - apply wl_after_D; exact W.
  - eapply D_trans0; [apply (D_any _ _ _ _ (anym_ev_ok e)), resolve_D|].
    destruct er; try (apply wl_exit_D; exact W). apply D_refl.
  - apply D_refl.
Qed.

Lemma wl_out_D e (c : cconn) : is_wl e -> D (ev_ok e) [] c (cl_wl_out cfg c).
Proof.
  intro W. unfold cl_wl_out. destruct (cc_outQ c) as [|o q] eqn:Q; [apply D_refl|].
  destruct (cl_can_write (ccu_outQ c q)) eqn:CW.
  - apply (D_step _ _ _ MWlWrite); [split; [exact CW | rewrite Q; discriminate] | exact W |].
    cbn [apply]. rewrite Q. apply wl_after_D; exact W.
  - apply (D_step _ _ _ MOutQDrop); [exact CW | exact W |]. cbn [apply]. rewrite Q. cbn [tl].
    apply wl_exit_D; exact W.
Qed.

Lemma wl_win_D (c : cconn) order : D (ev_ok (CEvWLWin order)) [] c (cl_wl_win cfg c order).
Proof.
  unfold cl_wl_win. destruct (cc_winCh c); cbn [negb]; [|apply D_refl].
  apply (D_step _ _ _ MWinCh); [exact I | exact I |]. cbn [apply].
  pose proof (flush_pending_D (CEvWLWin order) (cl_pending_order (ccu_winCh c false) order) I (ccu_winCh c false)) as H.
  destruct (cl_flush_pending _ _) as [c2 r]. cbn [fst] in H. eapply D_trans0; [exact H|].
  destruct r; [apply wl_after_D | apply wl_exit_D | apply D_refl]; exact I.
Qed.

Lemma wl_ping_D e (c : cconn) : is_wl e -> D (ev_ok e) [] c (cl_wl_ping cfg c).
Proof.
  intro W. unfold cl_wl_ping. destruct (cl_can_write c); [|apply wl_exit_D; exact W].
  apply (D_step _ _ _ (MNote COPing)); [exact I | exact I |]. cbn [apply quietb].
  apply (D_step _ _ _ (MUnacks (cc_unacks c + 1)%Z)); [exact I | exact I |]. cbn [apply].
  apply wl_after_D; exact W.
Qed.

Lemma wl_done_D e (c : cconn) : is_wl e -> D (ev_ok e) [] c (cl_wl_done c).
Proof. intro W. unfold cl_wl_done. destruct (cc_closed c); [apply wl_exit_D; exact W | apply D_refl]. Qed.

Lemma submit_D (c : cconn) tag rq q : D anym [] c (cl_submit cfg c tag rq q).
Proof.
  unfold cl_submit. destruct (cl_ctx_get c tag); [apply D_refl|].
  dmove (MCtxs (cc_ctxs c ++ [cl_new_ctx tag rq (ccf_armTimers cfg)])). cbn [apply].
  destruct (_ && _); [apply resolve_D|].
  dmove (MInQPush tag). apply ctx_upd_D.
Qed.

Lemma submit_check_D (c : cconn) tag : D anym [] c (cl_submit_check c tag).
Proof.
  unfold cl_submit_check. destruct (cl_ctx_get c tag) as [x|]; [|apply D_refl].
  destruct (ct_writing x); cbn [negb]; [|apply D_refl].
  destruct (cc_closed c); cbn [negb]; [|apply ctx_put_D].
  destruct (ct_lckStuck _); [eapply D_trans0; [apply ctx_put_D | apply go_stuck_D]|].
  destruct (ct_sid _ =? 0); apply ctx_put_D.
Qed.

Lemma receive_D (c : cconn) tag : D anym [] c (cl_receive c tag).
Proof.
  unfold cl_receive. destruct (cl_ctx_get c tag) as [x|]; [|apply D_refl].
  destruct (ct_returned x); [apply D_refl|]. destruct (ct_err x) as [e0|]; [|apply D_refl].
  cbv zeta. destruct (ct_lckStuck _); [eapply D_trans0; [apply ctx_put_D | apply go_stuck_D]|].
  match goal with |- context [ctu_pooled _ ?r] => destruct r end.
  - eapply D_trans0; [apply ctx_put_D|].
    match goal with |- context [COResult ?t ?r ?e1 ?rs] => dmove (MNote (COResult t r e1 rs)) end. cbn [apply quietb].
    dmove (MNote (COPoolPut tag)). apply D_refl.
  - eapply D_trans0; [apply ctx_put_D|].
    match goal with |- context [COResult ?t ?r ?e1 ?rs] => dmove (MNote (COResult t r e1 rs)) end. apply D_refl.
Qed.

Lemma timeout_fire_D (c : cconn) tag : D anym [] c (cl_timeout_fire c tag).
Proof.
  unfold cl_timeout_fire. destruct (cl_ctx_get c tag) as [x|]; [|apply D_refl].
  destruct (_ && _); [apply ctx_put_D | apply D_refl].
Qed.

Lemma timeout_cancel_D (c : cconn) tag : D anym [] c (cl_timeout_cancel c tag).
Proof.
  unfold cl_timeout_cancel. destruct (cl_ctx_get c tag) as [x|]; [|apply D_refl].
  destruct (_ && _); [|apply D_refl]. cbv zeta.
  eapply D_trans0; [apply ctx_put_D|].
  destruct (_ || _); [apply D_refl|].
  match goal with |- context [cl_delete_pending ?w ?h ?cc ?i] =>
    pose proof (delete_pending_D w h cc i) as H; destruct (cl_delete_pending w h cc i) as [c2 st] end.
  cbn [fst] in H. eapply D_trans0; [exact H|]. destruct st; [apply D_refl|].
  eapply D_trans0; [apply take_req_D | apply cancel_stream_D].
Qed.

Lemma close_call_D (c : cconn) : D anym [] c (cl_close_call c).
Proof.
  unfold cl_close_call, cl_close_begin. destruct (cc_closed c); [apply D_refl|].
  dmove MClosed. dmove (MClosing true). apply D_refl.
Qed.

Lemma close_finish_D (c : cconn) : D anym [] c (cl_close_finish c).
Proof.
  unfold cl_close_finish. destruct (cc_closing c); [|apply D_refl].
  eapply D_trans0; [apply close_net_D|]. dmove (MClosing false). apply D_refl.
Qed.

Lemma fkind_eqb_eq a b : fkind_eqb a b = true <-> a = b.
Proof. destruct a, b; cbn; split; intro H; try reflexivity; try discriminate. Qed.

Lemma rl_exit_DP (P : move -> Prop) (c : cconn) why : (forall m, anym m -> P m) -> P MRlDone -> D P [] c (cl_rl_exit c why).
Proof.
  intros A R. unfold cl_rl_exit.
  eapply D_trans0; [apply (D_any _ _ _ _ A), conn_close_D|].
  apply (D_step _ _ _ MRlDone); [exact I | exact R |]. cbn [apply].
  apply (D_step _ _ _ (MNote (COExit 0 why))); [exact I | apply A; exact I |]. apply D_refl.
Qed.

Lemma rl_fail_DP (P : move -> Prop) (c : cconn) : (forall m, anym m -> P m) -> P MRlDone -> D P [] c (cl_rl_fail c).
Proof.
  intros A R. unfold cl_rl_fail. eapply D_trans0; [apply (D_any _ _ _ _ A), set_last_err_D | apply rl_exit_DP; assumption].
Qed.

Lemma rl_exit_D e (c : cconn) why : is_rl e -> D (ev_ok e) [] c (cl_rl_exit c why).
Proof. intro R. apply (rl_exit_DP (ev_ok e)); [apply anym_ev_ok | exact R]. Qed.

Lemma rl_fail_D e (c : cconn) : is_rl e -> D (ev_ok e) [] c (cl_rl_fail c).
Proof. intro R. apply (rl_fail_DP (ev_ok e)); [apply anym_ev_ok | exact R]. Qed.

Lemma rl_panic_D e (c : cconn) : is_rl e -> D (ev_ok e) [] c (cl_rl_panic c).
Proof.
  intro R. unfold cl_rl_panic.
  apply (D_step _ _ _ (MNote (COPanic 0))); [exact I | exact I |]. cbn [apply quietb].
  eapply D_trans0; [apply (D_any _ _ _ _ (anym_ev_ok e)), (set_last_err_D (cl_note c (COPanic 0)) CEConn)|].
  set (c1 := cl_set_last_err _ _).
  eapply D_trans0; [apply (D_any _ _ _ _ (anym_ev_ok e)), (resolve_all_D (map snd (cc_reqQueued c1)) c1 CEConn)|].
  apply (D_step _ _ _ MReqClear); [exact I | exact I |]. cbn [apply].
  apply rl_exit_D; exact R.
Qed.

Lemma finish_D (c : cconn) tag id e : D anym [] c (cl_finish c tag id e).
Proof.
  unfold cl_finish. eapply D_trans0; [apply take_req_D|].
  set (c1 := cl_take_req_count c id).
  destruct (cl_pend_get (cc_pending c1) id) as [pb|].
  - dmove (MPendDel id). cbn [apply]. eapply D_trans0; [apply close_body_D | apply ctx_upd_D].
  - apply ctx_upd_D.
Qed.

Lemma goaway_fail_D e l : is_rl e -> forall (c : cconn), cc_goAway c = true -> D (ev_ok e) [] c (fst (cl_goaway_fail c l)).
Proof.
  intro R. induction l as [|[id tag] t IH]; intros c GA; cbn [cl_goaway_fail]; [apply D_refl|].
  apply (D_step _ _ _ MOpenDec); [exact GA | exact R |]. cbn [apply].
  match goal with |- context [cl_delete_pending ?w ?h ?cc ?i] =>
    pose proof (delete_pending_D w h cc i) as H; pose proof (cc_goAway_cl_delete_pending _ cc w h i) as G;
    destruct (cl_delete_pending w h cc i) as [c2 st] end.
  cbn [fst] in H, G. cc_cbn_in G. eapply D_trans0; [apply (D_any _ _ _ _ (anym_ev_ok e)), H|].
  destruct st; [apply D_refl|].
  eapply D_trans0; [apply (D_any _ _ _ _ (anym_ev_ok e)), ctx_upd_D | apply IH].
  rewrite cc_goAway_cl_ctx_upd, G. exact GA.
Qed.

Lemma goaway_D e (c : cconn) last : is_rl e -> D (ev_ok e) [] c (fst (cl_goaway c last)).
Proof.
  intro R. unfold cl_goaway.
  apply (D_step _ _ _ (MGoAway last)); [exact I | exact R |]. cbn [apply].
  apply (D_step _ _ _ (MReqKeep last)); [reflexivity | exact R |]. cbn [apply].
  apply goaway_fail_D; [exact R | reflexivity].
Qed.

Lemma read_header_fragment_D e (c : cconn) id fragment eh res : is_rl e ->
  D (ev_ok e) [] c (fst (fst (fst (cl_read_header_fragment dec_field c id fragment eh res)))).
Proof.
  intro R. unfold cl_read_header_fragment.
  destruct (cl_hdr_loop _ _ _ _ _ _ _ _ _ _) as [[[[[[[d' fields] rseen] status] herr] res'] prev] er].
  destruct er.
  - destruct eh; cbn [negb].
    + destruct herr; cbn [fst].
      * apply (D_step _ _ _ (MRlPriv 0 [] fields (cc_hdrEndStream c) rseen status (Some c0) d')); [exact I | exact R |]. apply D_refl.
      * apply (D_step _ _ _ (MRlPriv 0 [] fields (cc_hdrEndStream c) rseen status None d')); [exact I | exact R |]. apply D_refl.
    + destruct (cl_maxHeaderPrev <? len prev); cbn [fst].
      * apply (D_step _ _ _ (MRlPriv 0 prev fields (cc_hdrEndStream c) rseen status herr d')); [exact I | exact R |]. apply D_refl.
      * apply (D_step _ _ _ (MRlPriv id prev fields (cc_hdrEndStream c) rseen status herr d')); [exact I | exact R |]. apply D_refl.
  - cbn [fst]. apply (D_step _ _ _ (MRlPriv 0 prev fields (cc_hdrEndStream c) rseen status herr d')); [exact I | exact R |]. apply D_refl.
  - cbn [fst]. apply (D_step _ _ _ (MRlPriv 0 prev fields (cc_hdrEndStream c) rseen status herr d')); [exact I | exact R |]. apply D_refl.
  - cbn [fst]. apply (D_step _ _ _ (MRlPriv (cc_hdrStream c) prev fields (cc_hdrEndStream c) rseen status herr d')); [exact I | exact R |]. apply D_refl.
Qed.

(* the DATA frame readStream debits *)
Definition datar (fr : sframe) : list sframe := match sf_kind fr with KData => [fr] | _ => [] end.

Lemma DD_trans0l (P : move -> Prop) g r (a b c : cconn) : D P [] a b -> DD P g r b c -> DD P g r a c.
Proof. intros X Y. exact (DD_trans hstate enc_field enc_set_max P [] g [] r a b c X Y). Qed.

Lemma DD_trans0r (P : move -> Prop) g r (a b c : cconn) : DD P g r a b -> D P [] b c -> DD P g r a c.
Proof. intros X Y. pose proof (DD_trans hstate enc_field enc_set_max P g [] r [] a b c X Y) as H. rewrite !app_nil_r in H. exact H. Qed.

Lemma read_stream_D (c : cconn) fr res : (sf_kind fr = KData -> sf_sid fr <> 0) ->
  DD (ev_ok (CEvRL (RFrame fr))) [] (datar fr) c (fst (fst (fst (cl_read_stream dec_field c fr res)))).
Proof.
  intro NZ. unfold cl_read_stream, datar. destruct (sf_kind fr) eqn:K; try apply D_refl.
  - (* DATA *)
    cbn [fst].
    eapply DD_eq; [|apply (DD_one hstate enc_field enc_set_max _ (MRecvData fr (match res with Some _ => true | None => false end)));
                    [exact I | split; [reflexivity | split; [exact K | apply NZ; reflexivity]]]].
    cbn [apply]. unfold recv_data. destruct res; reflexivity.
  - (* HEADERS *)
    apply (D_step _ _ _ (MRlPriv (cc_hdrStream c) [] 0 (flag_has (sf_flags fr) FL_ES) false 0%Z None (cc_dec c))); [exact I | exact I |].
    apply read_header_fragment_D. exact I.
  - apply read_header_fragment_D. exact I.
Qed.

Ltac danym :=
  first [ apply D_refl
        | eapply D_trans0; [| first [apply finish_D | apply ctx_put_D | apply set_last_err_D | apply take_req_D]]; danym ].

Lemma dispatch_D (c : cconn) fr : (sf_kind fr = KData -> sf_sid fr <> 0) ->
  DD (ev_ok (CEvRL (RFrame fr))) [] (match snd (cl_dispatch dec_field c fr) with CDStuck => [] | _ => datar fr end)
     c (fst (cl_dispatch dec_field c fr)).
Proof.
  intro NZ. unfold cl_dispatch. cbv zeta.
  set (pre := match cl_req_find (cc_reqQueued c) (sf_sid fr) with None => _ | Some _ => _ end).
  assert (P : match pre with
              | inr c' => D anym [] c c'
              | inl (c0, _) => D anym [] c c0
              end).
  { subst pre. destruct (cl_req_find (cc_reqQueued c) (sf_sid fr)) as [tag|]; [|apply D_refl].
    destruct (cl_acquire_for [] c tag (sf_sid fr)); [apply D_refl | apply take_req_D | apply go_stuck_D | apply go_stuck_D]. }
  destruct pre as [[c0 ok]|c']; [|cbn [fst snd]; apply (D_any _ _ _ _ (anym_ev_ok _)); exact P].
  apply (DD_trans0l _ _ _ _ c0); [apply (D_any _ _ _ _ (anym_ev_ok _)); exact P|]. clear P.
  pose proof (read_stream_D c0 fr (match ok with Some x => Some (ct_resp x) | None => None end) NZ) as RS.
  destruct (cl_read_stream dec_field c0 fr _) as [[[c1 res'] ended] err]. cbn [fst] in RS.
  match goal with |- context [let '(a, b) := ?p in _] => destruct p as [ok2 err2] end.
  destruct ok2 as [x2|]; destruct err2; cbn [fst snd];
    repeat match goal with |- context [if ?b then _ else _] => destruct b end; cbn [fst snd];
    (apply (DD_trans0r _ _ _ _ c1); [exact RS|]); apply (D_any _ _ _ _ (anym_ev_ok _)); danym.
Qed.

(* the read loop takes the frame of this step in: it is running, the frame is well formed and in sequence
   (rl_takes of Proofs/CliDefs.v, for any coder) *)
Definition g_rl_takes (c : cconn) (fr : sframe) : bool :=
  cl_rl_live c && negb (cc_netClosed c)
  && ((sf_sid fr =? 0)
      || (if cc_hdrStream c =? 0 then negb (fkind_eqb (sf_kind fr) KCont)
          else fkind_eqb (sf_kind fr) KCont && (sf_sid fr =? cc_hdrStream c))).

(* the send-window grants the step takes in, as the server's ledger counts them *)
Definition g_ledger_in (c : cconn) (e : cevent) : list levent :=
  match e with
  | CEvRL (RFrame fr) =>
    if g_rl_takes c fr then
      match sf_kind fr with
      | KWinUpd => [LGrant (sf_sid fr) (Z.of_N (sf_inc fr))]
      | KSettings =>
        if (sf_sid fr =? 0) && negb (flag_has (sf_flags fr) FL_ES)
        then match cl_settings_deserialize false (sf_payload fr) with Some _ => inits_of (sf_payload fr) | None => [] end
        else []
      | _ => []
      end
    else []
  | _ => []
  end.

(* the grants of the frame if the body of readLoop gets as far as dispatch *)
Definition frame_grants (fr : sframe) : list levent :=
  match sf_kind fr with KWinUpd => [LGrant (sf_sid fr) (Z.of_N (sf_inc fr))] | _ => [] end.

(* the DATA frame the step debits from the receive window: a frame taken in, unless dispatch parks the read
   loop for ever on the Ctx lock before readStream *)
Definition g_rdata_in (c : cconn) (e : cevent) : list sframe :=
  match e with
  | CEvRL (RFrame fr) =>
    if g_rl_takes c fr && fkind_eqb (sf_kind fr) KData && negb (sf_sid fr =? 0)
    then match snd (cl_dispatch dec_field c fr) with CDStuck => [] | _ => [fr] end
    else []
  | _ => []
  end.

Definition in_seq (c : cconn) (fr : sframe) : bool :=
  if cc_hdrStream c =? 0 then negb (fkind_eqb (sf_kind fr) KCont)
  else fkind_eqb (sf_kind fr) KCont && (sf_sid fr =? cc_hdrStream c).

Lemma rl_frame_D (c : cconn) fr : (sf_kind fr = KData -> sf_sid fr <> 0) ->
  DD (ev_ok (CEvRL (RFrame fr)))
    (if in_seq c fr then frame_grants fr else [])
    (if in_seq c fr && fkind_eqb (sf_kind fr) KData
     then match snd (cl_dispatch dec_field c fr) with CDStuck => [] | _ => [fr] end else [])
    c (cl_rl_frame dec_field c fr).
Proof.
  intro NZ. unfold cl_rl_frame, in_seq.
  assert (EXIT : forall g, g = [] -> DD (ev_ok (CEvRL (RFrame fr))) g [] c (cl_rl_exit (cl_set_last_err c CEConn) 1)).
  { intros g ->. eapply D_trans0; [apply (D_any _ _ _ _ (anym_ev_ok _)), set_last_err_D | apply rl_exit_D; exact I]. }
  destruct (fkind_eqb (sf_kind fr) KPush) eqn:KP.
  { apply fkind_eqb_eq in KP. unfold frame_grants. rewrite KP. cbn [fkind_eqb negb andb]. rewrite !andb_false_r.
    apply EXIT. destruct (cc_hdrStream c =? 0); reflexivity. }
  destruct (cc_hdrStream c =? 0) eqn:HS; cbn [negb andb].
  - destruct (fkind_eqb (sf_kind fr) KCont) eqn:KC; cbn [negb andb]; [apply EXIT; reflexivity|].
    (* in sequence *)
    assert (T : D (ev_ok (CEvRL (RFrame fr))) (frame_grants fr) c
                  (if fkind_eqb (sf_kind fr) KWinUpd then cl_add_window c (sf_sid fr) (Z.of_N (sf_inc fr)) else c)).
    { unfold frame_grants. destruct (fkind_eqb (sf_kind fr) KWinUpd) eqn:KW.
      - apply fkind_eqb_eq in KW. rewrite KW.
        apply (D_one _ _ _ _ (MAddWindow (sf_sid fr) (Z.of_N (sf_inc fr)))); [exact I| |reflexivity].
        exists fr. repeat split; assumption.
      - destruct (sf_kind fr); try discriminate; apply D_refl. }
    assert (R : (if fkind_eqb (sf_kind fr) KData then match snd (cl_dispatch dec_field c fr) with CDStuck => [] | _ => [fr] end else []) =
                match snd (cl_dispatch dec_field (if fkind_eqb (sf_kind fr) KWinUpd then cl_add_window c (sf_sid fr) (Z.of_N (sf_inc fr)) else c) fr)
                with CDStuck => [] | _ => datar fr end).
    { unfold datar. destruct (sf_kind fr); cbn [fkind_eqb]; try reflexivity;
        match goal with |- _ = match ?x with _ => _ end => destruct x; reflexivity end. }
    rewrite R. clear R.
    set (c1 := if fkind_eqb (sf_kind fr) KWinUpd then _ else c) in *.
    pose proof (dispatch_D c1 fr NZ) as DD0. destruct (cl_dispatch dec_field c1 fr) as [c2 r]. cbn [fst snd] in DD0 |- *.
    assert (X : DD (ev_ok (CEvRL (RFrame fr))) (frame_grants fr) (match r with CDStuck => [] | _ => datar fr end) c c2).
    { pose proof (DD_trans hstate enc_field enc_set_max _ _ _ _ _ _ _ _ T DD0) as H. rewrite app_nil_r in H. exact H. }
    destruct r; [exact X | | exact X |].
    + apply (DD_trans0r _ _ _ _ c2); [exact X | apply rl_exit_D; exact I].
    + apply (DD_trans0r _ _ _ _ c2); [exact X | apply rl_panic_D; exact I].
  - destruct (fkind_eqb (sf_kind fr) KCont) eqn:KC; cbn [negb orb andb]; [|apply EXIT; reflexivity].
    destruct (sf_sid fr =? cc_hdrStream c) eqn:SS; cbn [negb andb]; [|apply EXIT; reflexivity].
    (* a CONTINUATION frame of the block that is open *)
    apply fkind_eqb_eq in KC. unfold frame_grants. rewrite KC. cbn [fkind_eqb].
    pose proof (dispatch_D c fr NZ) as DD0. unfold datar in DD0. rewrite KC in DD0.
    destruct (cl_dispatch dec_field c fr) as [c2 r]. cbn [fst snd] in DD0.
    assert (X : D (ev_ok (CEvRL (RFrame fr))) [] c c2) by (destruct r; exact DD0).
    destruct r; [exact X | | exact X |].
    + eapply D_trans0; [exact X | apply rl_exit_D; exact I].
    + eapply D_trans0; [exact X | apply rl_panic_D; exact I].
Qed.

Lemma rl_step_D (c : cconn) i : cl_rl_live c = true ->
  DD (ev_ok (CEvRL i)) (g_ledger_in c (CEvRL i)) (g_rdata_in c (CEvRL i)) c (cl_rl_step dec_field c i).
Proof.
  intro LV. unfold cl_rl_step, g_ledger_in, g_rdata_in, g_rl_takes. rewrite LV. cbn [andb].
  destruct (cc_netClosed c) eqn:NC; cbn [negb andb].
  { destruct i; try (apply rl_fail_D; exact I). }
  destruct i as [fr| | |]; try (apply rl_fail_D; exact I); [|apply D_refl].
  destruct (sf_sid fr =? 0) eqn:S0; cbn [orb andb negb]; rewrite ?andb_false_r.
  - apply N.eqb_eq in S0. destruct (sf_kind fr) eqn:K; try apply D_refl.
    + (* SETTINGS *)
      destruct (flag_has (sf_flags fr) FL_ES) eqn:ACK; cbn [negb].
      * destruct (cl_settings_deserialize true (sf_payload fr)); [apply D_refl | apply rl_fail_D; exact I].
      * destruct (cl_settings_deserialize false (sf_payload fr)) as [st|] eqn:DS; [|apply rl_fail_D; exact I].
        assert (G : grants_of (MSettings (sf_payload fr) : move) = inits_of (sf_payload fr)) by (cbn [grants_of]; rewrite DS; reflexivity).
        rewrite <- G. eapply D_eq; [|apply D_one; [exact I| |reflexivity]].
        -- cbn [apply]. rewrite DS. reflexivity.
        -- exists fr. repeat split; assumption.
    + (* PING *)
      destruct (flag_has (sf_flags fr) FL_ES).
      * apply (D_step _ _ _ (MUnacks (cc_unacks c - 1)%Z)); [exact I | exact I |]. apply D_refl.
      * apply (D_step _ _ _ (MOutQPush (COPingAck (sf_payload fr)))); [exact I | exact I |]. apply D_refl.
    + (* GOAWAY *)
      pose proof (goaway_D (CEvRL (RFrame fr)) c (sf_dep fr) I) as GD.
      destruct (cl_goaway c (sf_dep fr)) as [c1 st]. cbn [fst] in GD. destruct st; [exact GD|].
      eapply D_trans0; [exact GD|].
      assert (NZ : sf_kind fr = KData -> sf_sid fr <> 0) by (rewrite K; discriminate).
      pose proof (rl_frame_D c1 fr NZ) as RF. unfold frame_grants in RF. rewrite K in RF. cbn [fkind_eqb] in RF.
      rewrite andb_false_r in RF. destruct (in_seq c1 fr); exact RF.
    + (* WINDOW_UPDATE for the connection *)
      rewrite S0.
      apply (D_one _ _ _ _ (MAddWindow 0 (Z.of_N (sf_inc fr)))); [exact I| |reflexivity].
      exists fr. repeat split; [exact K | symmetry; exact S0].
  - assert (NZ : sf_kind fr = KData -> sf_sid fr <> 0) by (intros _; apply N.eqb_neq; exact S0).
    pose proof (rl_frame_D c fr NZ) as RF. unfold frame_grants, in_seq in RF.
    destruct (if cc_hdrStream c =? 0 then _ else _).
    + cbn [andb] in RF |- *. destruct (sf_kind fr) eqn:K; cbn [fkind_eqb] in RF |- *; exact RF.
    + exact RF.
Qed.

Theorem step_D (c : cconn) e : DD (ev_ok e) (g_ledger_in c e) (g_rdata_in c e) c (step c e).
Proof.
  destruct e as [tag rq q|tag| | |order| | |i|tag|tag|tag| | |]; cbn [cl_step g_ledger_in g_rdata_in].
  - apply (D_any _ _ _ _ (anym_ev_ok _)), submit_D.
  - apply (D_any _ _ _ _ (anym_ev_ok _)), submit_check_D.
  - destruct (cl_wl_live c); [apply wl_in_D; reflexivity | apply D_refl].
  - destruct (cl_wl_live c); [apply wl_out_D; exact I | apply D_refl].
  - destruct (cl_wl_live c); [apply wl_win_D | apply D_refl].
  - destruct (cl_wl_live c); [apply wl_ping_D; exact I | apply D_refl].
  - destruct (cl_wl_live c); [apply wl_done_D; exact I | apply D_refl].
  - destruct (cl_rl_live c) eqn:LV.
    + apply rl_step_D; exact LV.
    + assert (G : g_ledger_in c (CEvRL i) = [] /\ g_rdata_in c (CEvRL i) = []).
      { unfold g_ledger_in, g_rdata_in, g_rl_takes. rewrite LV. destruct i; split; reflexivity. }
      destruct G as [G1 G2]. unfold g_ledger_in, g_rdata_in in G1, G2. rewrite G1, G2. apply D_refl.
  - apply (D_any _ _ _ _ (anym_ev_ok _)), timeout_fire_D.
  - apply (D_any _ _ _ _ (anym_ev_ok _)), timeout_cancel_D.
  - apply (D_any _ _ _ _ (anym_ev_ok _)), receive_D.
  - apply (D_any _ _ _ _ (anym_ev_ok _)), close_call_D.
  - apply (D_any _ _ _ _ (anym_ev_ok _)), close_finish_D.
  - apply (D_step _ _ _ MWriteFail); [exact I | exact I |]. apply D_refl.
Qed.

End Decomp.
