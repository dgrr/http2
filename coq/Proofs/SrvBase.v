(* Proofs/SrvBase.v - shared base for every proof about Impl/ServerConn.v.

   Conventions introduced here (they hold in every file that imports SrvBase):
   - `hstate` is an IMPLICIT argument of every ServerConn definition that takes a connection
     (`sc_strms c`, `upd_out c o`, `emit c o`, `step dec_field enc_field enc_set_max cfg c e`, `run dec enc sm cfg h0 evs`, ...).
     `dec_res hstate` and its constructors keep `hstate` explicit (as in Impl/ServerInst.v).
   - projection lemmas are named  <field>_<function>, e.g. `sc_strms_upd_out`, `sc_open_emit`, `sc_lastID_close_stream`.
   - `sc_cbn` / `sc_cbn_in H`: reduce projections of `upd_*` by computation. The small helpers are chains of setters
     (`emit_eq`, `write_goaway_eq`, `close_stream_eq`, and Section HelperEqs at the end): after rewriting with one of
     them `sc_cbn` reads off any field.
   - `sc_unf`: unfold the small helpers (emit, note, write_*, mark_closed, release_stream, close_stream, put, ...),
     split their `if`s and close the goal by reflexivity: for frame ("does not change") goals.
   - `run_ind` / `run_ind_reach`: invariants over all event lists.  `run_app`, `run_snoc`, `run_nil`.
   Generated part (between the GENERATED markers): rebuilt in place by tools/gen_srvbase.sh from the field / upd_* lists in
   tools/gen_srvbase.py. When Impl/ServerConn.v gets a new field: add it there (and to the Arguments / sc_cbn lists
   below) and run the script. *)
From H2V Require Import Base.Bytes Base.MachineInt Base.Result Gen.GenConsts Impl.ServerConn.
From Coq Require Import ZArith Lia ZifyN ZifyNat ZifyBool.
Local Open Scope N_scope.

Arguments mkConn {hstate}.
Arguments sc_strms {hstate}. Arguments sc_gone {hstate}. Arguments sc_open {hstate}. Arguments sc_initWin {hstate}.
Arguments sc_ring {hstate}. Arguments sc_oldest {hstate}. Arguments sc_lastID {hstate}. Arguments sc_highestID {hstate}. Arguments sc_clientWindow {hstate}.
Arguments sc_currentWindow {hstate}. Arguments sc_enc {hstate}. Arguments sc_dec {hstate}. Arguments sc_closing {hstate}.
Arguments sc_closeRef {hstate}. Arguments sc_expectCont {hstate}. Arguments sc_readerQ {hstate}. Arguments sc_rl_done {hstate}.
Arguments sc_sl_done {hstate}. Arguments sc_closer {hstate}. Arguments sc_wl_dead {hstate}. Arguments sc_now {hstate}.
Arguments sc_discardID {hstate}. Arguments sc_discardPrev {hstate}. Arguments sc_discardFields {hstate}. Arguments sc_out {hstate}.
Arguments upd_out {hstate}. Arguments upd_strms {hstate}. Arguments upd_gone {hstate}. Arguments upd_open {hstate}.
Arguments upd_initWin {hstate}. Arguments upd_ring {hstate}. Arguments upd_lastID {hstate}. Arguments upd_highestID {hstate}. Arguments upd_clientWindow {hstate}.
Arguments upd_currentWindow {hstate}. Arguments upd_enc {hstate}. Arguments upd_dec {hstate}. Arguments upd_closing {hstate}.
Arguments upd_expectCont {hstate}. Arguments upd_readerQ {hstate}. Arguments upd_done {hstate}. Arguments upd_closer {hstate}.
Arguments upd_wl_dead {hstate}. Arguments upd_now {hstate}. Arguments upd_discard {hstate}.
Arguments init_conn {hstate}. Arguments emit {hstate}. Arguments note {hstate}. Arguments put {hstate}.
Arguments in_ring {hstate}. Arguments ring_find {hstate}. Arguments mark_closed {hstate}. Arguments release_stream {hstate}.
Arguments close_stream {hstate}. Arguments can_close_after_goaway {hstate}. Arguments write_reset {hstate}.
Arguments reset_stream {hstate}. Arguments write_goaway {hstate}. Arguments write_error {hstate}.
Arguments write_window_update {hstate}. Arguments credit_conn_window {hstate}. Arguments consume_recv_window {hstate}.
Arguments header_loop {hstate}. Arguments discard_loop {hstate}. Arguments discard_fragment {hstate}.
Arguments discard_header_block {hstate}. Arguments handle_header_frame {hstate}. Arguments handle_frame {hstate}.
Arguments send_data_loop {hstate}. Arguments send_data {hstate}. Arguments enc_fields {hstate}. Arguments response_block {hstate}.
Arguments finish_request {hstate}. Arguments flush_loop {hstate}. Arguments close_all {hstate}. Arguments flush_streams {hstate}.
Arguments brk {hstate}. Arguments cont {hstate}. Arguments implicit_close {hstate}. Arguments after_frame {hstate}.
Arguments discard_or_break {hstate}. Arguments sl_frame {hstate}. Arguments sl_done {hstate}. Arguments close_heads {hstate}.
Arguments sl_timer {hstate}. Arguments rl_exit {hstate}. Arguments forward {hstate}. Arguments rl_step {hstate}.
Arguments lift {hstate}. Arguments step {hstate}. Arguments run {hstate}. Arguments trace {hstate}.

Ltac sc_cbn :=
  cbn [sc_strms sc_gone sc_open sc_initWin sc_ring sc_oldest sc_lastID sc_highestID sc_clientWindow sc_currentWindow sc_enc sc_dec
       sc_closing sc_closeRef sc_expectCont sc_readerQ sc_rl_done sc_sl_done sc_closer sc_wl_dead sc_now sc_discardID
       sc_discardPrev sc_discardFields sc_out
       upd_out upd_strms upd_gone upd_open upd_initWin upd_ring upd_lastID upd_highestID upd_clientWindow upd_currentWindow upd_enc
       upd_dec upd_closing upd_expectCont upd_readerQ upd_done upd_closer upd_wl_dead upd_now upd_discard fst snd].
Ltac sc_cbn_in H :=
  cbn [sc_strms sc_gone sc_open sc_initWin sc_ring sc_oldest sc_lastID sc_highestID sc_clientWindow sc_currentWindow sc_enc sc_dec
       sc_closing sc_closeRef sc_expectCont sc_readerQ sc_rl_done sc_sl_done sc_closer sc_wl_dead sc_now sc_discardID
       sc_discardPrev sc_discardFields sc_out
       upd_out upd_strms upd_gone upd_open upd_initWin upd_ring upd_lastID upd_highestID upd_clientWindow upd_currentWindow upd_enc
       upd_dec upd_closing upd_expectCont upd_readerQ upd_done upd_closer upd_wl_dead upd_now upd_discard fst snd] in H.

(* split every `if`/`match` scrutinee that blocks the goal, one at a time *)
Ltac sc_split_ifs :=
  repeat match goal with
         | |- context [if ?b then _ else _] => destruct b eqn:?
         | |- context [match ?e with EGoAway _ => _ | EReset _ => _ | EPanic => _ end] => destruct e
         | |- context [match ?s with Some _ => _ | None => _ end] => destruct s
         end.
Ltac sc_unf :=
  unfold write_error, consume_recv_window, credit_conn_window, write_window_update, close_stream, release_stream,
         mark_closed, write_goaway, write_reset, forward, rl_exit, brk, put, note, emit;
  sc_split_ifs; sc_cbn; first [reflexivity | congruence].

Section Proj.
Variable hstate : Type.
(* BEGIN GENERATED (tools/gen_srvbase.sh) *)
Lemma sc_strms_upd_out (c : sconn hstate) o : sc_strms (upd_out c o) = sc_strms c. Proof. reflexivity. Qed.
Lemma sc_gone_upd_out (c : sconn hstate) o : sc_gone (upd_out c o) = sc_gone c. Proof. reflexivity. Qed.
Lemma sc_open_upd_out (c : sconn hstate) o : sc_open (upd_out c o) = sc_open c. Proof. reflexivity. Qed.
Lemma sc_initWin_upd_out (c : sconn hstate) o : sc_initWin (upd_out c o) = sc_initWin c. Proof. reflexivity. Qed.
Lemma sc_ring_upd_out (c : sconn hstate) o : sc_ring (upd_out c o) = sc_ring c. Proof. reflexivity. Qed.
Lemma sc_oldest_upd_out (c : sconn hstate) o : sc_oldest (upd_out c o) = sc_oldest c. Proof. reflexivity. Qed.
Lemma sc_lastID_upd_out (c : sconn hstate) o : sc_lastID (upd_out c o) = sc_lastID c. Proof. reflexivity. Qed.
Lemma sc_highestID_upd_out (c : sconn hstate) o : sc_highestID (upd_out c o) = sc_highestID c. Proof. reflexivity. Qed.
Lemma sc_clientWindow_upd_out (c : sconn hstate) o : sc_clientWindow (upd_out c o) = sc_clientWindow c. Proof. reflexivity. Qed.
Lemma sc_currentWindow_upd_out (c : sconn hstate) o : sc_currentWindow (upd_out c o) = sc_currentWindow c. Proof. reflexivity. Qed.
Lemma sc_enc_upd_out (c : sconn hstate) o : sc_enc (upd_out c o) = sc_enc c. Proof. reflexivity. Qed.
Lemma sc_dec_upd_out (c : sconn hstate) o : sc_dec (upd_out c o) = sc_dec c. Proof. reflexivity. Qed.
Lemma sc_closing_upd_out (c : sconn hstate) o : sc_closing (upd_out c o) = sc_closing c. Proof. reflexivity. Qed.
Lemma sc_closeRef_upd_out (c : sconn hstate) o : sc_closeRef (upd_out c o) = sc_closeRef c. Proof. reflexivity. Qed.
Lemma sc_expectCont_upd_out (c : sconn hstate) o : sc_expectCont (upd_out c o) = sc_expectCont c. Proof. reflexivity. Qed.
Lemma sc_readerQ_upd_out (c : sconn hstate) o : sc_readerQ (upd_out c o) = sc_readerQ c. Proof. reflexivity. Qed.
Lemma sc_rl_done_upd_out (c : sconn hstate) o : sc_rl_done (upd_out c o) = sc_rl_done c. Proof. reflexivity. Qed.
Lemma sc_sl_done_upd_out (c : sconn hstate) o : sc_sl_done (upd_out c o) = sc_sl_done c. Proof. reflexivity. Qed.
Lemma sc_closer_upd_out (c : sconn hstate) o : sc_closer (upd_out c o) = sc_closer c. Proof. reflexivity. Qed.
Lemma sc_wl_dead_upd_out (c : sconn hstate) o : sc_wl_dead (upd_out c o) = sc_wl_dead c. Proof. reflexivity. Qed.
Lemma sc_now_upd_out (c : sconn hstate) o : sc_now (upd_out c o) = sc_now c. Proof. reflexivity. Qed.
Lemma sc_discardID_upd_out (c : sconn hstate) o : sc_discardID (upd_out c o) = sc_discardID c. Proof. reflexivity. Qed.
Lemma sc_discardPrev_upd_out (c : sconn hstate) o : sc_discardPrev (upd_out c o) = sc_discardPrev c. Proof. reflexivity. Qed.
Lemma sc_discardFields_upd_out (c : sconn hstate) o : sc_discardFields (upd_out c o) = sc_discardFields c. Proof. reflexivity. Qed.
Lemma sc_out_upd_out (c : sconn hstate) o : sc_out (upd_out c o) = o. Proof. reflexivity. Qed.
Lemma sc_strms_upd_strms (c : sconn hstate) l : sc_strms (upd_strms c l) = l. Proof. reflexivity. Qed.
Lemma sc_gone_upd_strms (c : sconn hstate) l : sc_gone (upd_strms c l) = sc_gone c. Proof. reflexivity. Qed.
Lemma sc_open_upd_strms (c : sconn hstate) l : sc_open (upd_strms c l) = sc_open c. Proof. reflexivity. Qed.
Lemma sc_initWin_upd_strms (c : sconn hstate) l : sc_initWin (upd_strms c l) = sc_initWin c. Proof. reflexivity. Qed.
Lemma sc_ring_upd_strms (c : sconn hstate) l : sc_ring (upd_strms c l) = sc_ring c. Proof. reflexivity. Qed.
Lemma sc_oldest_upd_strms (c : sconn hstate) l : sc_oldest (upd_strms c l) = sc_oldest c. Proof. reflexivity. Qed.
Lemma sc_lastID_upd_strms (c : sconn hstate) l : sc_lastID (upd_strms c l) = sc_lastID c. Proof. reflexivity. Qed.
Lemma sc_highestID_upd_strms (c : sconn hstate) l : sc_highestID (upd_strms c l) = sc_highestID c. Proof. reflexivity. Qed.
Lemma sc_clientWindow_upd_strms (c : sconn hstate) l : sc_clientWindow (upd_strms c l) = sc_clientWindow c. Proof. reflexivity. Qed.
Lemma sc_currentWindow_upd_strms (c : sconn hstate) l : sc_currentWindow (upd_strms c l) = sc_currentWindow c. Proof. reflexivity. Qed.
Lemma sc_enc_upd_strms (c : sconn hstate) l : sc_enc (upd_strms c l) = sc_enc c. Proof. reflexivity. Qed.
Lemma sc_dec_upd_strms (c : sconn hstate) l : sc_dec (upd_strms c l) = sc_dec c. Proof. reflexivity. Qed.
Lemma sc_closing_upd_strms (c : sconn hstate) l : sc_closing (upd_strms c l) = sc_closing c. Proof. reflexivity. Qed.
Lemma sc_closeRef_upd_strms (c : sconn hstate) l : sc_closeRef (upd_strms c l) = sc_closeRef c. Proof. reflexivity. Qed.
Lemma sc_expectCont_upd_strms (c : sconn hstate) l : sc_expectCont (upd_strms c l) = sc_expectCont c. Proof. reflexivity. Qed.
Lemma sc_readerQ_upd_strms (c : sconn hstate) l : sc_readerQ (upd_strms c l) = sc_readerQ c. Proof. reflexivity. Qed.
Lemma sc_rl_done_upd_strms (c : sconn hstate) l : sc_rl_done (upd_strms c l) = sc_rl_done c. Proof. reflexivity. Qed.
Lemma sc_sl_done_upd_strms (c : sconn hstate) l : sc_sl_done (upd_strms c l) = sc_sl_done c. Proof. reflexivity. Qed.
Lemma sc_closer_upd_strms (c : sconn hstate) l : sc_closer (upd_strms c l) = sc_closer c. Proof. reflexivity. Qed.
Lemma sc_wl_dead_upd_strms (c : sconn hstate) l : sc_wl_dead (upd_strms c l) = sc_wl_dead c. Proof. reflexivity. Qed.
Lemma sc_now_upd_strms (c : sconn hstate) l : sc_now (upd_strms c l) = sc_now c. Proof. reflexivity. Qed.
Lemma sc_discardID_upd_strms (c : sconn hstate) l : sc_discardID (upd_strms c l) = sc_discardID c. Proof. reflexivity. Qed.
Lemma sc_discardPrev_upd_strms (c : sconn hstate) l : sc_discardPrev (upd_strms c l) = sc_discardPrev c. Proof. reflexivity. Qed.
Lemma sc_discardFields_upd_strms (c : sconn hstate) l : sc_discardFields (upd_strms c l) = sc_discardFields c. Proof. reflexivity. Qed.
Lemma sc_out_upd_strms (c : sconn hstate) l : sc_out (upd_strms c l) = sc_out c. Proof. reflexivity. Qed.
Lemma sc_strms_upd_gone (c : sconn hstate) l : sc_strms (upd_gone c l) = sc_strms c. Proof. reflexivity. Qed.
Lemma sc_gone_upd_gone (c : sconn hstate) l : sc_gone (upd_gone c l) = l. Proof. reflexivity. Qed.
Lemma sc_open_upd_gone (c : sconn hstate) l : sc_open (upd_gone c l) = sc_open c. Proof. reflexivity. Qed.
Lemma sc_initWin_upd_gone (c : sconn hstate) l : sc_initWin (upd_gone c l) = sc_initWin c. Proof. reflexivity. Qed.
Lemma sc_ring_upd_gone (c : sconn hstate) l : sc_ring (upd_gone c l) = sc_ring c. Proof. reflexivity. Qed.
Lemma sc_oldest_upd_gone (c : sconn hstate) l : sc_oldest (upd_gone c l) = sc_oldest c. Proof. reflexivity. Qed.
Lemma sc_lastID_upd_gone (c : sconn hstate) l : sc_lastID (upd_gone c l) = sc_lastID c. Proof. reflexivity. Qed.
Lemma sc_highestID_upd_gone (c : sconn hstate) l : sc_highestID (upd_gone c l) = sc_highestID c. Proof. reflexivity. Qed.
Lemma sc_clientWindow_upd_gone (c : sconn hstate) l : sc_clientWindow (upd_gone c l) = sc_clientWindow c. Proof. reflexivity. Qed.
Lemma sc_currentWindow_upd_gone (c : sconn hstate) l : sc_currentWindow (upd_gone c l) = sc_currentWindow c. Proof. reflexivity. Qed.
Lemma sc_enc_upd_gone (c : sconn hstate) l : sc_enc (upd_gone c l) = sc_enc c. Proof. reflexivity. Qed.
Lemma sc_dec_upd_gone (c : sconn hstate) l : sc_dec (upd_gone c l) = sc_dec c. Proof. reflexivity. Qed.
Lemma sc_closing_upd_gone (c : sconn hstate) l : sc_closing (upd_gone c l) = sc_closing c. Proof. reflexivity. Qed.
Lemma sc_closeRef_upd_gone (c : sconn hstate) l : sc_closeRef (upd_gone c l) = sc_closeRef c. Proof. reflexivity. Qed.
Lemma sc_expectCont_upd_gone (c : sconn hstate) l : sc_expectCont (upd_gone c l) = sc_expectCont c. Proof. reflexivity. Qed.
Lemma sc_readerQ_upd_gone (c : sconn hstate) l : sc_readerQ (upd_gone c l) = sc_readerQ c. Proof. reflexivity. Qed.
Lemma sc_rl_done_upd_gone (c : sconn hstate) l : sc_rl_done (upd_gone c l) = sc_rl_done c. Proof. reflexivity. Qed.
Lemma sc_sl_done_upd_gone (c : sconn hstate) l : sc_sl_done (upd_gone c l) = sc_sl_done c. Proof. reflexivity. Qed.
Lemma sc_closer_upd_gone (c : sconn hstate) l : sc_closer (upd_gone c l) = sc_closer c. Proof. reflexivity. Qed.
Lemma sc_wl_dead_upd_gone (c : sconn hstate) l : sc_wl_dead (upd_gone c l) = sc_wl_dead c. Proof. reflexivity. Qed.
Lemma sc_now_upd_gone (c : sconn hstate) l : sc_now (upd_gone c l) = sc_now c. Proof. reflexivity. Qed.
Lemma sc_discardID_upd_gone (c : sconn hstate) l : sc_discardID (upd_gone c l) = sc_discardID c. Proof. reflexivity. Qed.
Lemma sc_discardPrev_upd_gone (c : sconn hstate) l : sc_discardPrev (upd_gone c l) = sc_discardPrev c. Proof. reflexivity. Qed.
Lemma sc_discardFields_upd_gone (c : sconn hstate) l : sc_discardFields (upd_gone c l) = sc_discardFields c. Proof. reflexivity. Qed.
Lemma sc_out_upd_gone (c : sconn hstate) l : sc_out (upd_gone c l) = sc_out c. Proof. reflexivity. Qed.
Lemma sc_strms_upd_open (c : sconn hstate) n : sc_strms (upd_open c n) = sc_strms c. Proof. reflexivity. Qed.
Lemma sc_gone_upd_open (c : sconn hstate) n : sc_gone (upd_open c n) = sc_gone c. Proof. reflexivity. Qed.
Lemma sc_open_upd_open (c : sconn hstate) n : sc_open (upd_open c n) = n. Proof. reflexivity. Qed.
Lemma sc_initWin_upd_open (c : sconn hstate) n : sc_initWin (upd_open c n) = sc_initWin c. Proof. reflexivity. Qed.
Lemma sc_ring_upd_open (c : sconn hstate) n : sc_ring (upd_open c n) = sc_ring c. Proof. reflexivity. Qed.
Lemma sc_oldest_upd_open (c : sconn hstate) n : sc_oldest (upd_open c n) = sc_oldest c. Proof. reflexivity. Qed.
Lemma sc_lastID_upd_open (c : sconn hstate) n : sc_lastID (upd_open c n) = sc_lastID c. Proof. reflexivity. Qed.
Lemma sc_highestID_upd_open (c : sconn hstate) n : sc_highestID (upd_open c n) = sc_highestID c. Proof. reflexivity. Qed.
Lemma sc_clientWindow_upd_open (c : sconn hstate) n : sc_clientWindow (upd_open c n) = sc_clientWindow c. Proof. reflexivity. Qed.
Lemma sc_currentWindow_upd_open (c : sconn hstate) n : sc_currentWindow (upd_open c n) = sc_currentWindow c. Proof. reflexivity. Qed.
Lemma sc_enc_upd_open (c : sconn hstate) n : sc_enc (upd_open c n) = sc_enc c. Proof. reflexivity. Qed.
Lemma sc_dec_upd_open (c : sconn hstate) n : sc_dec (upd_open c n) = sc_dec c. Proof. reflexivity. Qed.
Lemma sc_closing_upd_open (c : sconn hstate) n : sc_closing (upd_open c n) = sc_closing c. Proof. reflexivity. Qed.
Lemma sc_closeRef_upd_open (c : sconn hstate) n : sc_closeRef (upd_open c n) = sc_closeRef c. Proof. reflexivity. Qed.
Lemma sc_expectCont_upd_open (c : sconn hstate) n : sc_expectCont (upd_open c n) = sc_expectCont c. Proof. reflexivity. Qed.
Lemma sc_readerQ_upd_open (c : sconn hstate) n : sc_readerQ (upd_open c n) = sc_readerQ c. Proof. reflexivity. Qed.
Lemma sc_rl_done_upd_open (c : sconn hstate) n : sc_rl_done (upd_open c n) = sc_rl_done c. Proof. reflexivity. Qed.
Lemma sc_sl_done_upd_open (c : sconn hstate) n : sc_sl_done (upd_open c n) = sc_sl_done c. Proof. reflexivity. Qed.
Lemma sc_closer_upd_open (c : sconn hstate) n : sc_closer (upd_open c n) = sc_closer c. Proof. reflexivity. Qed.
Lemma sc_wl_dead_upd_open (c : sconn hstate) n : sc_wl_dead (upd_open c n) = sc_wl_dead c. Proof. reflexivity. Qed.
Lemma sc_now_upd_open (c : sconn hstate) n : sc_now (upd_open c n) = sc_now c. Proof. reflexivity. Qed.
Lemma sc_discardID_upd_open (c : sconn hstate) n : sc_discardID (upd_open c n) = sc_discardID c. Proof. reflexivity. Qed.
Lemma sc_discardPrev_upd_open (c : sconn hstate) n : sc_discardPrev (upd_open c n) = sc_discardPrev c. Proof. reflexivity. Qed.
Lemma sc_discardFields_upd_open (c : sconn hstate) n : sc_discardFields (upd_open c n) = sc_discardFields c. Proof. reflexivity. Qed.
Lemma sc_out_upd_open (c : sconn hstate) n : sc_out (upd_open c n) = sc_out c. Proof. reflexivity. Qed.
Lemma sc_strms_upd_initWin (c : sconn hstate) n : sc_strms (upd_initWin c n) = sc_strms c. Proof. reflexivity. Qed.
Lemma sc_gone_upd_initWin (c : sconn hstate) n : sc_gone (upd_initWin c n) = sc_gone c. Proof. reflexivity. Qed.
Lemma sc_open_upd_initWin (c : sconn hstate) n : sc_open (upd_initWin c n) = sc_open c. Proof. reflexivity. Qed.
Lemma sc_initWin_upd_initWin (c : sconn hstate) n : sc_initWin (upd_initWin c n) = n. Proof. reflexivity. Qed.
Lemma sc_ring_upd_initWin (c : sconn hstate) n : sc_ring (upd_initWin c n) = sc_ring c. Proof. reflexivity. Qed.
Lemma sc_oldest_upd_initWin (c : sconn hstate) n : sc_oldest (upd_initWin c n) = sc_oldest c. Proof. reflexivity. Qed.
Lemma sc_lastID_upd_initWin (c : sconn hstate) n : sc_lastID (upd_initWin c n) = sc_lastID c. Proof. reflexivity. Qed.
Lemma sc_highestID_upd_initWin (c : sconn hstate) n : sc_highestID (upd_initWin c n) = sc_highestID c. Proof. reflexivity. Qed.
Lemma sc_clientWindow_upd_initWin (c : sconn hstate) n : sc_clientWindow (upd_initWin c n) = sc_clientWindow c. Proof. reflexivity. Qed.
Lemma sc_currentWindow_upd_initWin (c : sconn hstate) n : sc_currentWindow (upd_initWin c n) = sc_currentWindow c. Proof. reflexivity. Qed.
Lemma sc_enc_upd_initWin (c : sconn hstate) n : sc_enc (upd_initWin c n) = sc_enc c. Proof. reflexivity. Qed.
Lemma sc_dec_upd_initWin (c : sconn hstate) n : sc_dec (upd_initWin c n) = sc_dec c. Proof. reflexivity. Qed.
Lemma sc_closing_upd_initWin (c : sconn hstate) n : sc_closing (upd_initWin c n) = sc_closing c. Proof. reflexivity. Qed.
Lemma sc_closeRef_upd_initWin (c : sconn hstate) n : sc_closeRef (upd_initWin c n) = sc_closeRef c. Proof. reflexivity. Qed.
Lemma sc_expectCont_upd_initWin (c : sconn hstate) n : sc_expectCont (upd_initWin c n) = sc_expectCont c. Proof. reflexivity. Qed.
Lemma sc_readerQ_upd_initWin (c : sconn hstate) n : sc_readerQ (upd_initWin c n) = sc_readerQ c. Proof. reflexivity. Qed.
Lemma sc_rl_done_upd_initWin (c : sconn hstate) n : sc_rl_done (upd_initWin c n) = sc_rl_done c. Proof. reflexivity. Qed.
Lemma sc_sl_done_upd_initWin (c : sconn hstate) n : sc_sl_done (upd_initWin c n) = sc_sl_done c. Proof. reflexivity. Qed.
Lemma sc_closer_upd_initWin (c : sconn hstate) n : sc_closer (upd_initWin c n) = sc_closer c. Proof. reflexivity. Qed.
Lemma sc_wl_dead_upd_initWin (c : sconn hstate) n : sc_wl_dead (upd_initWin c n) = sc_wl_dead c. Proof. reflexivity. Qed.
Lemma sc_now_upd_initWin (c : sconn hstate) n : sc_now (upd_initWin c n) = sc_now c. Proof. reflexivity. Qed.
Lemma sc_discardID_upd_initWin (c : sconn hstate) n : sc_discardID (upd_initWin c n) = sc_discardID c. Proof. reflexivity. Qed.
Lemma sc_discardPrev_upd_initWin (c : sconn hstate) n : sc_discardPrev (upd_initWin c n) = sc_discardPrev c. Proof. reflexivity. Qed.
Lemma sc_discardFields_upd_initWin (c : sconn hstate) n : sc_discardFields (upd_initWin c n) = sc_discardFields c. Proof. reflexivity. Qed.
Lemma sc_out_upd_initWin (c : sconn hstate) n : sc_out (upd_initWin c n) = sc_out c. Proof. reflexivity. Qed.
Lemma sc_strms_upd_ring (c : sconn hstate) r o : sc_strms (upd_ring c r o) = sc_strms c. Proof. reflexivity. Qed.
Lemma sc_gone_upd_ring (c : sconn hstate) r o : sc_gone (upd_ring c r o) = sc_gone c. Proof. reflexivity. Qed.
Lemma sc_open_upd_ring (c : sconn hstate) r o : sc_open (upd_ring c r o) = sc_open c. Proof. reflexivity. Qed.
Lemma sc_initWin_upd_ring (c : sconn hstate) r o : sc_initWin (upd_ring c r o) = sc_initWin c. Proof. reflexivity. Qed.
Lemma sc_ring_upd_ring (c : sconn hstate) r o : sc_ring (upd_ring c r o) = r. Proof. reflexivity. Qed.
Lemma sc_oldest_upd_ring (c : sconn hstate) r o : sc_oldest (upd_ring c r o) = o. Proof. reflexivity. Qed.
Lemma sc_lastID_upd_ring (c : sconn hstate) r o : sc_lastID (upd_ring c r o) = sc_lastID c. Proof. reflexivity. Qed.
Lemma sc_highestID_upd_ring (c : sconn hstate) r o : sc_highestID (upd_ring c r o) = sc_highestID c. Proof. reflexivity. Qed.
Lemma sc_clientWindow_upd_ring (c : sconn hstate) r o : sc_clientWindow (upd_ring c r o) = sc_clientWindow c. Proof. reflexivity. Qed.
Lemma sc_currentWindow_upd_ring (c : sconn hstate) r o : sc_currentWindow (upd_ring c r o) = sc_currentWindow c. Proof. reflexivity. Qed.
Lemma sc_enc_upd_ring (c : sconn hstate) r o : sc_enc (upd_ring c r o) = sc_enc c. Proof. reflexivity. Qed.
Lemma sc_dec_upd_ring (c : sconn hstate) r o : sc_dec (upd_ring c r o) = sc_dec c. Proof. reflexivity. Qed.
Lemma sc_closing_upd_ring (c : sconn hstate) r o : sc_closing (upd_ring c r o) = sc_closing c. Proof. reflexivity. Qed.
Lemma sc_closeRef_upd_ring (c : sconn hstate) r o : sc_closeRef (upd_ring c r o) = sc_closeRef c. Proof. reflexivity. Qed.
Lemma sc_expectCont_upd_ring (c : sconn hstate) r o : sc_expectCont (upd_ring c r o) = sc_expectCont c. Proof. reflexivity. Qed.
Lemma sc_readerQ_upd_ring (c : sconn hstate) r o : sc_readerQ (upd_ring c r o) = sc_readerQ c. Proof. reflexivity. Qed.
Lemma sc_rl_done_upd_ring (c : sconn hstate) r o : sc_rl_done (upd_ring c r o) = sc_rl_done c. Proof. reflexivity. Qed.
Lemma sc_sl_done_upd_ring (c : sconn hstate) r o : sc_sl_done (upd_ring c r o) = sc_sl_done c. Proof. reflexivity. Qed.
Lemma sc_closer_upd_ring (c : sconn hstate) r o : sc_closer (upd_ring c r o) = sc_closer c. Proof. reflexivity. Qed.
Lemma sc_wl_dead_upd_ring (c : sconn hstate) r o : sc_wl_dead (upd_ring c r o) = sc_wl_dead c. Proof. reflexivity. Qed.
Lemma sc_now_upd_ring (c : sconn hstate) r o : sc_now (upd_ring c r o) = sc_now c. Proof. reflexivity. Qed.
Lemma sc_discardID_upd_ring (c : sconn hstate) r o : sc_discardID (upd_ring c r o) = sc_discardID c. Proof. reflexivity. Qed.
Lemma sc_discardPrev_upd_ring (c : sconn hstate) r o : sc_discardPrev (upd_ring c r o) = sc_discardPrev c. Proof. reflexivity. Qed.
Lemma sc_discardFields_upd_ring (c : sconn hstate) r o : sc_discardFields (upd_ring c r o) = sc_discardFields c. Proof. reflexivity. Qed.
Lemma sc_out_upd_ring (c : sconn hstate) r o : sc_out (upd_ring c r o) = sc_out c. Proof. reflexivity. Qed.
Lemma sc_strms_upd_lastID (c : sconn hstate) n : sc_strms (upd_lastID c n) = sc_strms c. Proof. reflexivity. Qed.
Lemma sc_gone_upd_lastID (c : sconn hstate) n : sc_gone (upd_lastID c n) = sc_gone c. Proof. reflexivity. Qed.
Lemma sc_open_upd_lastID (c : sconn hstate) n : sc_open (upd_lastID c n) = sc_open c. Proof. reflexivity. Qed.
Lemma sc_initWin_upd_lastID (c : sconn hstate) n : sc_initWin (upd_lastID c n) = sc_initWin c. Proof. reflexivity. Qed.
Lemma sc_ring_upd_lastID (c : sconn hstate) n : sc_ring (upd_lastID c n) = sc_ring c. Proof. reflexivity. Qed.
Lemma sc_oldest_upd_lastID (c : sconn hstate) n : sc_oldest (upd_lastID c n) = sc_oldest c. Proof. reflexivity. Qed.
Lemma sc_lastID_upd_lastID (c : sconn hstate) n : sc_lastID (upd_lastID c n) = n. Proof. reflexivity. Qed.
Lemma sc_highestID_upd_lastID (c : sconn hstate) n : sc_highestID (upd_lastID c n) = sc_highestID c. Proof. reflexivity. Qed.
Lemma sc_clientWindow_upd_lastID (c : sconn hstate) n : sc_clientWindow (upd_lastID c n) = sc_clientWindow c. Proof. reflexivity. Qed.
Lemma sc_currentWindow_upd_lastID (c : sconn hstate) n : sc_currentWindow (upd_lastID c n) = sc_currentWindow c. Proof. reflexivity. Qed.
Lemma sc_enc_upd_lastID (c : sconn hstate) n : sc_enc (upd_lastID c n) = sc_enc c. Proof. reflexivity. Qed.
Lemma sc_dec_upd_lastID (c : sconn hstate) n : sc_dec (upd_lastID c n) = sc_dec c. Proof. reflexivity. Qed.
Lemma sc_closing_upd_lastID (c : sconn hstate) n : sc_closing (upd_lastID c n) = sc_closing c. Proof. reflexivity. Qed.
Lemma sc_closeRef_upd_lastID (c : sconn hstate) n : sc_closeRef (upd_lastID c n) = sc_closeRef c. Proof. reflexivity. Qed.
Lemma sc_expectCont_upd_lastID (c : sconn hstate) n : sc_expectCont (upd_lastID c n) = sc_expectCont c. Proof. reflexivity. Qed.
Lemma sc_readerQ_upd_lastID (c : sconn hstate) n : sc_readerQ (upd_lastID c n) = sc_readerQ c. Proof. reflexivity. Qed.
Lemma sc_rl_done_upd_lastID (c : sconn hstate) n : sc_rl_done (upd_lastID c n) = sc_rl_done c. Proof. reflexivity. Qed.
Lemma sc_sl_done_upd_lastID (c : sconn hstate) n : sc_sl_done (upd_lastID c n) = sc_sl_done c. Proof. reflexivity. Qed.
Lemma sc_closer_upd_lastID (c : sconn hstate) n : sc_closer (upd_lastID c n) = sc_closer c. Proof. reflexivity. Qed.
Lemma sc_wl_dead_upd_lastID (c : sconn hstate) n : sc_wl_dead (upd_lastID c n) = sc_wl_dead c. Proof. reflexivity. Qed.
Lemma sc_now_upd_lastID (c : sconn hstate) n : sc_now (upd_lastID c n) = sc_now c. Proof. reflexivity. Qed.
Lemma sc_discardID_upd_lastID (c : sconn hstate) n : sc_discardID (upd_lastID c n) = sc_discardID c. Proof. reflexivity. Qed.
Lemma sc_discardPrev_upd_lastID (c : sconn hstate) n : sc_discardPrev (upd_lastID c n) = sc_discardPrev c. Proof. reflexivity. Qed.
Lemma sc_discardFields_upd_lastID (c : sconn hstate) n : sc_discardFields (upd_lastID c n) = sc_discardFields c. Proof. reflexivity. Qed.
Lemma sc_out_upd_lastID (c : sconn hstate) n : sc_out (upd_lastID c n) = sc_out c. Proof. reflexivity. Qed.
Lemma sc_strms_upd_highestID (c : sconn hstate) n : sc_strms (upd_highestID c n) = sc_strms c. Proof. reflexivity. Qed.
Lemma sc_gone_upd_highestID (c : sconn hstate) n : sc_gone (upd_highestID c n) = sc_gone c. Proof. reflexivity. Qed.
Lemma sc_open_upd_highestID (c : sconn hstate) n : sc_open (upd_highestID c n) = sc_open c. Proof. reflexivity. Qed.
Lemma sc_initWin_upd_highestID (c : sconn hstate) n : sc_initWin (upd_highestID c n) = sc_initWin c. Proof. reflexivity. Qed.
Lemma sc_ring_upd_highestID (c : sconn hstate) n : sc_ring (upd_highestID c n) = sc_ring c. Proof. reflexivity. Qed.
Lemma sc_oldest_upd_highestID (c : sconn hstate) n : sc_oldest (upd_highestID c n) = sc_oldest c. Proof. reflexivity. Qed.
Lemma sc_lastID_upd_highestID (c : sconn hstate) n : sc_lastID (upd_highestID c n) = sc_lastID c. Proof. reflexivity. Qed.
Lemma sc_highestID_upd_highestID (c : sconn hstate) n : sc_highestID (upd_highestID c n) = n. Proof. reflexivity. Qed.
Lemma sc_clientWindow_upd_highestID (c : sconn hstate) n : sc_clientWindow (upd_highestID c n) = sc_clientWindow c. Proof. reflexivity. Qed.
Lemma sc_currentWindow_upd_highestID (c : sconn hstate) n : sc_currentWindow (upd_highestID c n) = sc_currentWindow c. Proof. reflexivity. Qed.
Lemma sc_enc_upd_highestID (c : sconn hstate) n : sc_enc (upd_highestID c n) = sc_enc c. Proof. reflexivity. Qed.
Lemma sc_dec_upd_highestID (c : sconn hstate) n : sc_dec (upd_highestID c n) = sc_dec c. Proof. reflexivity. Qed.
Lemma sc_closing_upd_highestID (c : sconn hstate) n : sc_closing (upd_highestID c n) = sc_closing c. Proof. reflexivity. Qed.
Lemma sc_closeRef_upd_highestID (c : sconn hstate) n : sc_closeRef (upd_highestID c n) = sc_closeRef c. Proof. reflexivity. Qed.
Lemma sc_expectCont_upd_highestID (c : sconn hstate) n : sc_expectCont (upd_highestID c n) = sc_expectCont c. Proof. reflexivity. Qed.
Lemma sc_readerQ_upd_highestID (c : sconn hstate) n : sc_readerQ (upd_highestID c n) = sc_readerQ c. Proof. reflexivity. Qed.
Lemma sc_rl_done_upd_highestID (c : sconn hstate) n : sc_rl_done (upd_highestID c n) = sc_rl_done c. Proof. reflexivity. Qed.
Lemma sc_sl_done_upd_highestID (c : sconn hstate) n : sc_sl_done (upd_highestID c n) = sc_sl_done c. Proof. reflexivity. Qed.
Lemma sc_closer_upd_highestID (c : sconn hstate) n : sc_closer (upd_highestID c n) = sc_closer c. Proof. reflexivity. Qed.
Lemma sc_wl_dead_upd_highestID (c : sconn hstate) n : sc_wl_dead (upd_highestID c n) = sc_wl_dead c. Proof. reflexivity. Qed.
Lemma sc_now_upd_highestID (c : sconn hstate) n : sc_now (upd_highestID c n) = sc_now c. Proof. reflexivity. Qed.
Lemma sc_discardID_upd_highestID (c : sconn hstate) n : sc_discardID (upd_highestID c n) = sc_discardID c. Proof. reflexivity. Qed.
Lemma sc_discardPrev_upd_highestID (c : sconn hstate) n : sc_discardPrev (upd_highestID c n) = sc_discardPrev c. Proof. reflexivity. Qed.
Lemma sc_discardFields_upd_highestID (c : sconn hstate) n : sc_discardFields (upd_highestID c n) = sc_discardFields c. Proof. reflexivity. Qed.
Lemma sc_out_upd_highestID (c : sconn hstate) n : sc_out (upd_highestID c n) = sc_out c. Proof. reflexivity. Qed.
Lemma sc_strms_upd_clientWindow (c : sconn hstate) n : sc_strms (upd_clientWindow c n) = sc_strms c. Proof. reflexivity. Qed.
Lemma sc_gone_upd_clientWindow (c : sconn hstate) n : sc_gone (upd_clientWindow c n) = sc_gone c. Proof. reflexivity. Qed.
Lemma sc_open_upd_clientWindow (c : sconn hstate) n : sc_open (upd_clientWindow c n) = sc_open c. Proof. reflexivity. Qed.
Lemma sc_initWin_upd_clientWindow (c : sconn hstate) n : sc_initWin (upd_clientWindow c n) = sc_initWin c. Proof. reflexivity. Qed.
Lemma sc_ring_upd_clientWindow (c : sconn hstate) n : sc_ring (upd_clientWindow c n) = sc_ring c. Proof. reflexivity. Qed.
Lemma sc_oldest_upd_clientWindow (c : sconn hstate) n : sc_oldest (upd_clientWindow c n) = sc_oldest c. Proof. reflexivity. Qed.
Lemma sc_lastID_upd_clientWindow (c : sconn hstate) n : sc_lastID (upd_clientWindow c n) = sc_lastID c. Proof. reflexivity. Qed.
Lemma sc_highestID_upd_clientWindow (c : sconn hstate) n : sc_highestID (upd_clientWindow c n) = sc_highestID c. Proof. reflexivity. Qed.
Lemma sc_clientWindow_upd_clientWindow (c : sconn hstate) n : sc_clientWindow (upd_clientWindow c n) = n. Proof. reflexivity. Qed.
Lemma sc_currentWindow_upd_clientWindow (c : sconn hstate) n : sc_currentWindow (upd_clientWindow c n) = sc_currentWindow c. Proof. reflexivity. Qed.
Lemma sc_enc_upd_clientWindow (c : sconn hstate) n : sc_enc (upd_clientWindow c n) = sc_enc c. Proof. reflexivity. Qed.
Lemma sc_dec_upd_clientWindow (c : sconn hstate) n : sc_dec (upd_clientWindow c n) = sc_dec c. Proof. reflexivity. Qed.
Lemma sc_closing_upd_clientWindow (c : sconn hstate) n : sc_closing (upd_clientWindow c n) = sc_closing c. Proof. reflexivity. Qed.
Lemma sc_closeRef_upd_clientWindow (c : sconn hstate) n : sc_closeRef (upd_clientWindow c n) = sc_closeRef c. Proof. reflexivity. Qed.
Lemma sc_expectCont_upd_clientWindow (c : sconn hstate) n : sc_expectCont (upd_clientWindow c n) = sc_expectCont c. Proof. reflexivity. Qed.
Lemma sc_readerQ_upd_clientWindow (c : sconn hstate) n : sc_readerQ (upd_clientWindow c n) = sc_readerQ c. Proof. reflexivity. Qed.
Lemma sc_rl_done_upd_clientWindow (c : sconn hstate) n : sc_rl_done (upd_clientWindow c n) = sc_rl_done c. Proof. reflexivity. Qed.
Lemma sc_sl_done_upd_clientWindow (c : sconn hstate) n : sc_sl_done (upd_clientWindow c n) = sc_sl_done c. Proof. reflexivity. Qed.
Lemma sc_closer_upd_clientWindow (c : sconn hstate) n : sc_closer (upd_clientWindow c n) = sc_closer c. Proof. reflexivity. Qed.
Lemma sc_wl_dead_upd_clientWindow (c : sconn hstate) n : sc_wl_dead (upd_clientWindow c n) = sc_wl_dead c. Proof. reflexivity. Qed.
Lemma sc_now_upd_clientWindow (c : sconn hstate) n : sc_now (upd_clientWindow c n) = sc_now c. Proof. reflexivity. Qed.
Lemma sc_discardID_upd_clientWindow (c : sconn hstate) n : sc_discardID (upd_clientWindow c n) = sc_discardID c. Proof. reflexivity. Qed.
Lemma sc_discardPrev_upd_clientWindow (c : sconn hstate) n : sc_discardPrev (upd_clientWindow c n) = sc_discardPrev c. Proof. reflexivity. Qed.
Lemma sc_discardFields_upd_clientWindow (c : sconn hstate) n : sc_discardFields (upd_clientWindow c n) = sc_discardFields c. Proof. reflexivity. Qed.
Lemma sc_out_upd_clientWindow (c : sconn hstate) n : sc_out (upd_clientWindow c n) = sc_out c. Proof. reflexivity. Qed.
Lemma sc_strms_upd_currentWindow (c : sconn hstate) n : sc_strms (upd_currentWindow c n) = sc_strms c. Proof. reflexivity. Qed.
Lemma sc_gone_upd_currentWindow (c : sconn hstate) n : sc_gone (upd_currentWindow c n) = sc_gone c. Proof. reflexivity. Qed.
Lemma sc_open_upd_currentWindow (c : sconn hstate) n : sc_open (upd_currentWindow c n) = sc_open c. Proof. reflexivity. Qed.
Lemma sc_initWin_upd_currentWindow (c : sconn hstate) n : sc_initWin (upd_currentWindow c n) = sc_initWin c. Proof. reflexivity. Qed.
Lemma sc_ring_upd_currentWindow (c : sconn hstate) n : sc_ring (upd_currentWindow c n) = sc_ring c. Proof. reflexivity. Qed.
Lemma sc_oldest_upd_currentWindow (c : sconn hstate) n : sc_oldest (upd_currentWindow c n) = sc_oldest c. Proof. reflexivity. Qed.
Lemma sc_lastID_upd_currentWindow (c : sconn hstate) n : sc_lastID (upd_currentWindow c n) = sc_lastID c. Proof. reflexivity. Qed.
Lemma sc_highestID_upd_currentWindow (c : sconn hstate) n : sc_highestID (upd_currentWindow c n) = sc_highestID c. Proof. reflexivity. Qed.
Lemma sc_clientWindow_upd_currentWindow (c : sconn hstate) n : sc_clientWindow (upd_currentWindow c n) = sc_clientWindow c. Proof. reflexivity. Qed.
Lemma sc_currentWindow_upd_currentWindow (c : sconn hstate) n : sc_currentWindow (upd_currentWindow c n) = n. Proof. reflexivity. Qed.
Lemma sc_enc_upd_currentWindow (c : sconn hstate) n : sc_enc (upd_currentWindow c n) = sc_enc c. Proof. reflexivity. Qed.
Lemma sc_dec_upd_currentWindow (c : sconn hstate) n : sc_dec (upd_currentWindow c n) = sc_dec c. Proof. reflexivity. Qed.
Lemma sc_closing_upd_currentWindow (c : sconn hstate) n : sc_closing (upd_currentWindow c n) = sc_closing c. Proof. reflexivity. Qed.
Lemma sc_closeRef_upd_currentWindow (c : sconn hstate) n : sc_closeRef (upd_currentWindow c n) = sc_closeRef c. Proof. reflexivity. Qed.
Lemma sc_expectCont_upd_currentWindow (c : sconn hstate) n : sc_expectCont (upd_currentWindow c n) = sc_expectCont c. Proof. reflexivity. Qed.
Lemma sc_readerQ_upd_currentWindow (c : sconn hstate) n : sc_readerQ (upd_currentWindow c n) = sc_readerQ c. Proof. reflexivity. Qed.
Lemma sc_rl_done_upd_currentWindow (c : sconn hstate) n : sc_rl_done (upd_currentWindow c n) = sc_rl_done c. Proof. reflexivity. Qed.
Lemma sc_sl_done_upd_currentWindow (c : sconn hstate) n : sc_sl_done (upd_currentWindow c n) = sc_sl_done c. Proof. reflexivity. Qed.
Lemma sc_closer_upd_currentWindow (c : sconn hstate) n : sc_closer (upd_currentWindow c n) = sc_closer c. Proof. reflexivity. Qed.
Lemma sc_wl_dead_upd_currentWindow (c : sconn hstate) n : sc_wl_dead (upd_currentWindow c n) = sc_wl_dead c. Proof. reflexivity. Qed.
Lemma sc_now_upd_currentWindow (c : sconn hstate) n : sc_now (upd_currentWindow c n) = sc_now c. Proof. reflexivity. Qed.
Lemma sc_discardID_upd_currentWindow (c : sconn hstate) n : sc_discardID (upd_currentWindow c n) = sc_discardID c. Proof. reflexivity. Qed.
Lemma sc_discardPrev_upd_currentWindow (c : sconn hstate) n : sc_discardPrev (upd_currentWindow c n) = sc_discardPrev c. Proof. reflexivity. Qed.
Lemma sc_discardFields_upd_currentWindow (c : sconn hstate) n : sc_discardFields (upd_currentWindow c n) = sc_discardFields c. Proof. reflexivity. Qed.
Lemma sc_out_upd_currentWindow (c : sconn hstate) n : sc_out (upd_currentWindow c n) = sc_out c. Proof. reflexivity. Qed.
Lemma sc_strms_upd_enc (c : sconn hstate) h : sc_strms (upd_enc c h) = sc_strms c. Proof. reflexivity. Qed.
Lemma sc_gone_upd_enc (c : sconn hstate) h : sc_gone (upd_enc c h) = sc_gone c. Proof. reflexivity. Qed.
Lemma sc_open_upd_enc (c : sconn hstate) h : sc_open (upd_enc c h) = sc_open c. Proof. reflexivity. Qed.
Lemma sc_initWin_upd_enc (c : sconn hstate) h : sc_initWin (upd_enc c h) = sc_initWin c. Proof. reflexivity. Qed.
Lemma sc_ring_upd_enc (c : sconn hstate) h : sc_ring (upd_enc c h) = sc_ring c. Proof. reflexivity. Qed.
Lemma sc_oldest_upd_enc (c : sconn hstate) h : sc_oldest (upd_enc c h) = sc_oldest c. Proof. reflexivity. Qed.
Lemma sc_lastID_upd_enc (c : sconn hstate) h : sc_lastID (upd_enc c h) = sc_lastID c. Proof. reflexivity. Qed.
Lemma sc_highestID_upd_enc (c : sconn hstate) h : sc_highestID (upd_enc c h) = sc_highestID c. Proof. reflexivity. Qed.
Lemma sc_clientWindow_upd_enc (c : sconn hstate) h : sc_clientWindow (upd_enc c h) = sc_clientWindow c. Proof. reflexivity. Qed.
Lemma sc_currentWindow_upd_enc (c : sconn hstate) h : sc_currentWindow (upd_enc c h) = sc_currentWindow c. Proof. reflexivity. Qed.
Lemma sc_enc_upd_enc (c : sconn hstate) h : sc_enc (upd_enc c h) = h. Proof. reflexivity. Qed.
Lemma sc_dec_upd_enc (c : sconn hstate) h : sc_dec (upd_enc c h) = sc_dec c. Proof. reflexivity. Qed.
Lemma sc_closing_upd_enc (c : sconn hstate) h : sc_closing (upd_enc c h) = sc_closing c. Proof. reflexivity. Qed.
Lemma sc_closeRef_upd_enc (c : sconn hstate) h : sc_closeRef (upd_enc c h) = sc_closeRef c. Proof. reflexivity. Qed.
Lemma sc_expectCont_upd_enc (c : sconn hstate) h : sc_expectCont (upd_enc c h) = sc_expectCont c. Proof. reflexivity. Qed.
Lemma sc_readerQ_upd_enc (c : sconn hstate) h : sc_readerQ (upd_enc c h) = sc_readerQ c. Proof. reflexivity. Qed.
Lemma sc_rl_done_upd_enc (c : sconn hstate) h : sc_rl_done (upd_enc c h) = sc_rl_done c. Proof. reflexivity. Qed.
Lemma sc_sl_done_upd_enc (c : sconn hstate) h : sc_sl_done (upd_enc c h) = sc_sl_done c. Proof. reflexivity. Qed.
Lemma sc_closer_upd_enc (c : sconn hstate) h : sc_closer (upd_enc c h) = sc_closer c. Proof. reflexivity. Qed.
Lemma sc_wl_dead_upd_enc (c : sconn hstate) h : sc_wl_dead (upd_enc c h) = sc_wl_dead c. Proof. reflexivity. Qed.
Lemma sc_now_upd_enc (c : sconn hstate) h : sc_now (upd_enc c h) = sc_now c. Proof. reflexivity. Qed.
Lemma sc_discardID_upd_enc (c : sconn hstate) h : sc_discardID (upd_enc c h) = sc_discardID c. Proof. reflexivity. Qed.
Lemma sc_discardPrev_upd_enc (c : sconn hstate) h : sc_discardPrev (upd_enc c h) = sc_discardPrev c. Proof. reflexivity. Qed.
Lemma sc_discardFields_upd_enc (c : sconn hstate) h : sc_discardFields (upd_enc c h) = sc_discardFields c. Proof. reflexivity. Qed.
Lemma sc_out_upd_enc (c : sconn hstate) h : sc_out (upd_enc c h) = sc_out c. Proof. reflexivity. Qed.
Lemma sc_strms_upd_dec (c : sconn hstate) h : sc_strms (upd_dec c h) = sc_strms c. Proof. reflexivity. Qed.
Lemma sc_gone_upd_dec (c : sconn hstate) h : sc_gone (upd_dec c h) = sc_gone c. Proof. reflexivity. Qed.
Lemma sc_open_upd_dec (c : sconn hstate) h : sc_open (upd_dec c h) = sc_open c. Proof. reflexivity. Qed.
Lemma sc_initWin_upd_dec (c : sconn hstate) h : sc_initWin (upd_dec c h) = sc_initWin c. Proof. reflexivity. Qed.
Lemma sc_ring_upd_dec (c : sconn hstate) h : sc_ring (upd_dec c h) = sc_ring c. Proof. reflexivity. Qed.
Lemma sc_oldest_upd_dec (c : sconn hstate) h : sc_oldest (upd_dec c h) = sc_oldest c. Proof. reflexivity. Qed.
Lemma sc_lastID_upd_dec (c : sconn hstate) h : sc_lastID (upd_dec c h) = sc_lastID c. Proof. reflexivity. Qed.
Lemma sc_highestID_upd_dec (c : sconn hstate) h : sc_highestID (upd_dec c h) = sc_highestID c. Proof. reflexivity. Qed.
Lemma sc_clientWindow_upd_dec (c : sconn hstate) h : sc_clientWindow (upd_dec c h) = sc_clientWindow c. Proof. reflexivity. Qed.
Lemma sc_currentWindow_upd_dec (c : sconn hstate) h : sc_currentWindow (upd_dec c h) = sc_currentWindow c. Proof. reflexivity. Qed.
Lemma sc_enc_upd_dec (c : sconn hstate) h : sc_enc (upd_dec c h) = sc_enc c. Proof. reflexivity. Qed.
Lemma sc_dec_upd_dec (c : sconn hstate) h : sc_dec (upd_dec c h) = h. Proof. reflexivity. Qed.
Lemma sc_closing_upd_dec (c : sconn hstate) h : sc_closing (upd_dec c h) = sc_closing c. Proof. reflexivity. Qed.
Lemma sc_closeRef_upd_dec (c : sconn hstate) h : sc_closeRef (upd_dec c h) = sc_closeRef c. Proof. reflexivity. Qed.
Lemma sc_expectCont_upd_dec (c : sconn hstate) h : sc_expectCont (upd_dec c h) = sc_expectCont c. Proof. reflexivity. Qed.
Lemma sc_readerQ_upd_dec (c : sconn hstate) h : sc_readerQ (upd_dec c h) = sc_readerQ c. Proof. reflexivity. Qed.
Lemma sc_rl_done_upd_dec (c : sconn hstate) h : sc_rl_done (upd_dec c h) = sc_rl_done c. Proof. reflexivity. Qed.
Lemma sc_sl_done_upd_dec (c : sconn hstate) h : sc_sl_done (upd_dec c h) = sc_sl_done c. Proof. reflexivity. Qed.
Lemma sc_closer_upd_dec (c : sconn hstate) h : sc_closer (upd_dec c h) = sc_closer c. Proof. reflexivity. Qed.
Lemma sc_wl_dead_upd_dec (c : sconn hstate) h : sc_wl_dead (upd_dec c h) = sc_wl_dead c. Proof. reflexivity. Qed.
Lemma sc_now_upd_dec (c : sconn hstate) h : sc_now (upd_dec c h) = sc_now c. Proof. reflexivity. Qed.
Lemma sc_discardID_upd_dec (c : sconn hstate) h : sc_discardID (upd_dec c h) = sc_discardID c. Proof. reflexivity. Qed.
Lemma sc_discardPrev_upd_dec (c : sconn hstate) h : sc_discardPrev (upd_dec c h) = sc_discardPrev c. Proof. reflexivity. Qed.
Lemma sc_discardFields_upd_dec (c : sconn hstate) h : sc_discardFields (upd_dec c h) = sc_discardFields c. Proof. reflexivity. Qed.
Lemma sc_out_upd_dec (c : sconn hstate) h : sc_out (upd_dec c h) = sc_out c. Proof. reflexivity. Qed.
Lemma sc_strms_upd_closing (c : sconn hstate) b r : sc_strms (upd_closing c b r) = sc_strms c. Proof. reflexivity. Qed.
Lemma sc_gone_upd_closing (c : sconn hstate) b r : sc_gone (upd_closing c b r) = sc_gone c. Proof. reflexivity. Qed.
Lemma sc_open_upd_closing (c : sconn hstate) b r : sc_open (upd_closing c b r) = sc_open c. Proof. reflexivity. Qed.
Lemma sc_initWin_upd_closing (c : sconn hstate) b r : sc_initWin (upd_closing c b r) = sc_initWin c. Proof. reflexivity. Qed.
Lemma sc_ring_upd_closing (c : sconn hstate) b r : sc_ring (upd_closing c b r) = sc_ring c. Proof. reflexivity. Qed.
Lemma sc_oldest_upd_closing (c : sconn hstate) b r : sc_oldest (upd_closing c b r) = sc_oldest c. Proof. reflexivity. Qed.
Lemma sc_lastID_upd_closing (c : sconn hstate) b r : sc_lastID (upd_closing c b r) = sc_lastID c. Proof. reflexivity. Qed.
Lemma sc_highestID_upd_closing (c : sconn hstate) b r : sc_highestID (upd_closing c b r) = sc_highestID c. Proof. reflexivity. Qed.
Lemma sc_clientWindow_upd_closing (c : sconn hstate) b r : sc_clientWindow (upd_closing c b r) = sc_clientWindow c. Proof. reflexivity. Qed.
Lemma sc_currentWindow_upd_closing (c : sconn hstate) b r : sc_currentWindow (upd_closing c b r) = sc_currentWindow c. Proof. reflexivity. Qed.
Lemma sc_enc_upd_closing (c : sconn hstate) b r : sc_enc (upd_closing c b r) = sc_enc c. Proof. reflexivity. Qed.
Lemma sc_dec_upd_closing (c : sconn hstate) b r : sc_dec (upd_closing c b r) = sc_dec c. Proof. reflexivity. Qed.
Lemma sc_closing_upd_closing (c : sconn hstate) b r : sc_closing (upd_closing c b r) = b. Proof. reflexivity. Qed.
Lemma sc_closeRef_upd_closing (c : sconn hstate) b r : sc_closeRef (upd_closing c b r) = r. Proof. reflexivity. Qed.
Lemma sc_expectCont_upd_closing (c : sconn hstate) b r : sc_expectCont (upd_closing c b r) = sc_expectCont c. Proof. reflexivity. Qed.
Lemma sc_readerQ_upd_closing (c : sconn hstate) b r : sc_readerQ (upd_closing c b r) = sc_readerQ c. Proof. reflexivity. Qed.
Lemma sc_rl_done_upd_closing (c : sconn hstate) b r : sc_rl_done (upd_closing c b r) = sc_rl_done c. Proof. reflexivity. Qed.
Lemma sc_sl_done_upd_closing (c : sconn hstate) b r : sc_sl_done (upd_closing c b r) = sc_sl_done c. Proof. reflexivity. Qed.
Lemma sc_closer_upd_closing (c : sconn hstate) b r : sc_closer (upd_closing c b r) = sc_closer c. Proof. reflexivity. Qed.
Lemma sc_wl_dead_upd_closing (c : sconn hstate) b r : sc_wl_dead (upd_closing c b r) = sc_wl_dead c. Proof. reflexivity. Qed.
Lemma sc_now_upd_closing (c : sconn hstate) b r : sc_now (upd_closing c b r) = sc_now c. Proof. reflexivity. Qed.
Lemma sc_discardID_upd_closing (c : sconn hstate) b r : sc_discardID (upd_closing c b r) = sc_discardID c. Proof. reflexivity. Qed.
Lemma sc_discardPrev_upd_closing (c : sconn hstate) b r : sc_discardPrev (upd_closing c b r) = sc_discardPrev c. Proof. reflexivity. Qed.
Lemma sc_discardFields_upd_closing (c : sconn hstate) b r : sc_discardFields (upd_closing c b r) = sc_discardFields c. Proof. reflexivity. Qed.
Lemma sc_out_upd_closing (c : sconn hstate) b r : sc_out (upd_closing c b r) = sc_out c. Proof. reflexivity. Qed.
Lemma sc_strms_upd_expectCont (c : sconn hstate) n : sc_strms (upd_expectCont c n) = sc_strms c. Proof. reflexivity. Qed.
Lemma sc_gone_upd_expectCont (c : sconn hstate) n : sc_gone (upd_expectCont c n) = sc_gone c. Proof. reflexivity. Qed.
Lemma sc_open_upd_expectCont (c : sconn hstate) n : sc_open (upd_expectCont c n) = sc_open c. Proof. reflexivity. Qed.
Lemma sc_initWin_upd_expectCont (c : sconn hstate) n : sc_initWin (upd_expectCont c n) = sc_initWin c. Proof. reflexivity. Qed.
Lemma sc_ring_upd_expectCont (c : sconn hstate) n : sc_ring (upd_expectCont c n) = sc_ring c. Proof. reflexivity. Qed.
Lemma sc_oldest_upd_expectCont (c : sconn hstate) n : sc_oldest (upd_expectCont c n) = sc_oldest c. Proof. reflexivity. Qed.
Lemma sc_lastID_upd_expectCont (c : sconn hstate) n : sc_lastID (upd_expectCont c n) = sc_lastID c. Proof. reflexivity. Qed.
Lemma sc_highestID_upd_expectCont (c : sconn hstate) n : sc_highestID (upd_expectCont c n) = sc_highestID c. Proof. reflexivity. Qed.
Lemma sc_clientWindow_upd_expectCont (c : sconn hstate) n : sc_clientWindow (upd_expectCont c n) = sc_clientWindow c. Proof. reflexivity. Qed.
Lemma sc_currentWindow_upd_expectCont (c : sconn hstate) n : sc_currentWindow (upd_expectCont c n) = sc_currentWindow c. Proof. reflexivity. Qed.
Lemma sc_enc_upd_expectCont (c : sconn hstate) n : sc_enc (upd_expectCont c n) = sc_enc c. Proof. reflexivity. Qed.
Lemma sc_dec_upd_expectCont (c : sconn hstate) n : sc_dec (upd_expectCont c n) = sc_dec c. Proof. reflexivity. Qed.
Lemma sc_closing_upd_expectCont (c : sconn hstate) n : sc_closing (upd_expectCont c n) = sc_closing c. Proof. reflexivity. Qed.
Lemma sc_closeRef_upd_expectCont (c : sconn hstate) n : sc_closeRef (upd_expectCont c n) = sc_closeRef c. Proof. reflexivity. Qed.
Lemma sc_expectCont_upd_expectCont (c : sconn hstate) n : sc_expectCont (upd_expectCont c n) = n. Proof. reflexivity. Qed.
Lemma sc_readerQ_upd_expectCont (c : sconn hstate) n : sc_readerQ (upd_expectCont c n) = sc_readerQ c. Proof. reflexivity. Qed.
Lemma sc_rl_done_upd_expectCont (c : sconn hstate) n : sc_rl_done (upd_expectCont c n) = sc_rl_done c. Proof. reflexivity. Qed.
Lemma sc_sl_done_upd_expectCont (c : sconn hstate) n : sc_sl_done (upd_expectCont c n) = sc_sl_done c. Proof. reflexivity. Qed.
Lemma sc_closer_upd_expectCont (c : sconn hstate) n : sc_closer (upd_expectCont c n) = sc_closer c. Proof. reflexivity. Qed.
Lemma sc_wl_dead_upd_expectCont (c : sconn hstate) n : sc_wl_dead (upd_expectCont c n) = sc_wl_dead c. Proof. reflexivity. Qed.
Lemma sc_now_upd_expectCont (c : sconn hstate) n : sc_now (upd_expectCont c n) = sc_now c. Proof. reflexivity. Qed.
Lemma sc_discardID_upd_expectCont (c : sconn hstate) n : sc_discardID (upd_expectCont c n) = sc_discardID c. Proof. reflexivity. Qed.
Lemma sc_discardPrev_upd_expectCont (c : sconn hstate) n : sc_discardPrev (upd_expectCont c n) = sc_discardPrev c. Proof. reflexivity. Qed.
Lemma sc_discardFields_upd_expectCont (c : sconn hstate) n : sc_discardFields (upd_expectCont c n) = sc_discardFields c. Proof. reflexivity. Qed.
Lemma sc_out_upd_expectCont (c : sconn hstate) n : sc_out (upd_expectCont c n) = sc_out c. Proof. reflexivity. Qed.
Lemma sc_strms_upd_readerQ (c : sconn hstate) q : sc_strms (upd_readerQ c q) = sc_strms c. Proof. reflexivity. Qed.
Lemma sc_gone_upd_readerQ (c : sconn hstate) q : sc_gone (upd_readerQ c q) = sc_gone c. Proof. reflexivity. Qed.
Lemma sc_open_upd_readerQ (c : sconn hstate) q : sc_open (upd_readerQ c q) = sc_open c. Proof. reflexivity. Qed.
Lemma sc_initWin_upd_readerQ (c : sconn hstate) q : sc_initWin (upd_readerQ c q) = sc_initWin c. Proof. reflexivity. Qed.
Lemma sc_ring_upd_readerQ (c : sconn hstate) q : sc_ring (upd_readerQ c q) = sc_ring c. Proof. reflexivity. Qed.
Lemma sc_oldest_upd_readerQ (c : sconn hstate) q : sc_oldest (upd_readerQ c q) = sc_oldest c. Proof. reflexivity. Qed.
Lemma sc_lastID_upd_readerQ (c : sconn hstate) q : sc_lastID (upd_readerQ c q) = sc_lastID c. Proof. reflexivity. Qed.
Lemma sc_highestID_upd_readerQ (c : sconn hstate) q : sc_highestID (upd_readerQ c q) = sc_highestID c. Proof. reflexivity. Qed.
Lemma sc_clientWindow_upd_readerQ (c : sconn hstate) q : sc_clientWindow (upd_readerQ c q) = sc_clientWindow c. Proof. reflexivity. Qed.
Lemma sc_currentWindow_upd_readerQ (c : sconn hstate) q : sc_currentWindow (upd_readerQ c q) = sc_currentWindow c. Proof. reflexivity. Qed.
Lemma sc_enc_upd_readerQ (c : sconn hstate) q : sc_enc (upd_readerQ c q) = sc_enc c. Proof. reflexivity. Qed.
Lemma sc_dec_upd_readerQ (c : sconn hstate) q : sc_dec (upd_readerQ c q) = sc_dec c. Proof. reflexivity. Qed.
Lemma sc_closing_upd_readerQ (c : sconn hstate) q : sc_closing (upd_readerQ c q) = sc_closing c. Proof. reflexivity. Qed.
Lemma sc_closeRef_upd_readerQ (c : sconn hstate) q : sc_closeRef (upd_readerQ c q) = sc_closeRef c. Proof. reflexivity. Qed.
Lemma sc_expectCont_upd_readerQ (c : sconn hstate) q : sc_expectCont (upd_readerQ c q) = sc_expectCont c. Proof. reflexivity. Qed.
Lemma sc_readerQ_upd_readerQ (c : sconn hstate) q : sc_readerQ (upd_readerQ c q) = q. Proof. reflexivity. Qed.
Lemma sc_rl_done_upd_readerQ (c : sconn hstate) q : sc_rl_done (upd_readerQ c q) = sc_rl_done c. Proof. reflexivity. Qed.
Lemma sc_sl_done_upd_readerQ (c : sconn hstate) q : sc_sl_done (upd_readerQ c q) = sc_sl_done c. Proof. reflexivity. Qed.
Lemma sc_closer_upd_readerQ (c : sconn hstate) q : sc_closer (upd_readerQ c q) = sc_closer c. Proof. reflexivity. Qed.
Lemma sc_wl_dead_upd_readerQ (c : sconn hstate) q : sc_wl_dead (upd_readerQ c q) = sc_wl_dead c. Proof. reflexivity. Qed.
Lemma sc_now_upd_readerQ (c : sconn hstate) q : sc_now (upd_readerQ c q) = sc_now c. Proof. reflexivity. Qed.
Lemma sc_discardID_upd_readerQ (c : sconn hstate) q : sc_discardID (upd_readerQ c q) = sc_discardID c. Proof. reflexivity. Qed.
Lemma sc_discardPrev_upd_readerQ (c : sconn hstate) q : sc_discardPrev (upd_readerQ c q) = sc_discardPrev c. Proof. reflexivity. Qed.
Lemma sc_discardFields_upd_readerQ (c : sconn hstate) q : sc_discardFields (upd_readerQ c q) = sc_discardFields c. Proof. reflexivity. Qed.
Lemma sc_out_upd_readerQ (c : sconn hstate) q : sc_out (upd_readerQ c q) = sc_out c. Proof. reflexivity. Qed.
Lemma sc_strms_upd_done (c : sconn hstate) rl sl : sc_strms (upd_done c rl sl) = sc_strms c. Proof. reflexivity. Qed.
Lemma sc_gone_upd_done (c : sconn hstate) rl sl : sc_gone (upd_done c rl sl) = sc_gone c. Proof. reflexivity. Qed.
Lemma sc_open_upd_done (c : sconn hstate) rl sl : sc_open (upd_done c rl sl) = sc_open c. Proof. reflexivity. Qed.
Lemma sc_initWin_upd_done (c : sconn hstate) rl sl : sc_initWin (upd_done c rl sl) = sc_initWin c. Proof. reflexivity. Qed.
Lemma sc_ring_upd_done (c : sconn hstate) rl sl : sc_ring (upd_done c rl sl) = sc_ring c. Proof. reflexivity. Qed.
Lemma sc_oldest_upd_done (c : sconn hstate) rl sl : sc_oldest (upd_done c rl sl) = sc_oldest c. Proof. reflexivity. Qed.
Lemma sc_lastID_upd_done (c : sconn hstate) rl sl : sc_lastID (upd_done c rl sl) = sc_lastID c. Proof. reflexivity. Qed.
Lemma sc_highestID_upd_done (c : sconn hstate) rl sl : sc_highestID (upd_done c rl sl) = sc_highestID c. Proof. reflexivity. Qed.
Lemma sc_clientWindow_upd_done (c : sconn hstate) rl sl : sc_clientWindow (upd_done c rl sl) = sc_clientWindow c. Proof. reflexivity. Qed.
Lemma sc_currentWindow_upd_done (c : sconn hstate) rl sl : sc_currentWindow (upd_done c rl sl) = sc_currentWindow c. Proof. reflexivity. Qed.
Lemma sc_enc_upd_done (c : sconn hstate) rl sl : sc_enc (upd_done c rl sl) = sc_enc c. Proof. reflexivity. Qed.
Lemma sc_dec_upd_done (c : sconn hstate) rl sl : sc_dec (upd_done c rl sl) = sc_dec c. Proof. reflexivity. Qed.
Lemma sc_closing_upd_done (c : sconn hstate) rl sl : sc_closing (upd_done c rl sl) = sc_closing c. Proof. reflexivity. Qed.
Lemma sc_closeRef_upd_done (c : sconn hstate) rl sl : sc_closeRef (upd_done c rl sl) = sc_closeRef c. Proof. reflexivity. Qed.
Lemma sc_expectCont_upd_done (c : sconn hstate) rl sl : sc_expectCont (upd_done c rl sl) = sc_expectCont c. Proof. reflexivity. Qed.
Lemma sc_readerQ_upd_done (c : sconn hstate) rl sl : sc_readerQ (upd_done c rl sl) = sc_readerQ c. Proof. reflexivity. Qed.
Lemma sc_rl_done_upd_done (c : sconn hstate) rl sl : sc_rl_done (upd_done c rl sl) = rl. Proof. reflexivity. Qed.
Lemma sc_sl_done_upd_done (c : sconn hstate) rl sl : sc_sl_done (upd_done c rl sl) = sl. Proof. reflexivity. Qed.
Lemma sc_closer_upd_done (c : sconn hstate) rl sl : sc_closer (upd_done c rl sl) = sc_closer c. Proof. reflexivity. Qed.
Lemma sc_wl_dead_upd_done (c : sconn hstate) rl sl : sc_wl_dead (upd_done c rl sl) = sc_wl_dead c. Proof. reflexivity. Qed.
Lemma sc_now_upd_done (c : sconn hstate) rl sl : sc_now (upd_done c rl sl) = sc_now c. Proof. reflexivity. Qed.
Lemma sc_discardID_upd_done (c : sconn hstate) rl sl : sc_discardID (upd_done c rl sl) = sc_discardID c. Proof. reflexivity. Qed.
Lemma sc_discardPrev_upd_done (c : sconn hstate) rl sl : sc_discardPrev (upd_done c rl sl) = sc_discardPrev c. Proof. reflexivity. Qed.
Lemma sc_discardFields_upd_done (c : sconn hstate) rl sl : sc_discardFields (upd_done c rl sl) = sc_discardFields c. Proof. reflexivity. Qed.
Lemma sc_out_upd_done (c : sconn hstate) rl sl : sc_out (upd_done c rl sl) = sc_out c. Proof. reflexivity. Qed.
Lemma sc_strms_upd_closer (c : sconn hstate) b : sc_strms (upd_closer c b) = sc_strms c. Proof. reflexivity. Qed.
Lemma sc_gone_upd_closer (c : sconn hstate) b : sc_gone (upd_closer c b) = sc_gone c. Proof. reflexivity. Qed.
Lemma sc_open_upd_closer (c : sconn hstate) b : sc_open (upd_closer c b) = sc_open c. Proof. reflexivity. Qed.
Lemma sc_initWin_upd_closer (c : sconn hstate) b : sc_initWin (upd_closer c b) = sc_initWin c. Proof. reflexivity. Qed.
Lemma sc_ring_upd_closer (c : sconn hstate) b : sc_ring (upd_closer c b) = sc_ring c. Proof. reflexivity. Qed.
Lemma sc_oldest_upd_closer (c : sconn hstate) b : sc_oldest (upd_closer c b) = sc_oldest c. Proof. reflexivity. Qed.
Lemma sc_lastID_upd_closer (c : sconn hstate) b : sc_lastID (upd_closer c b) = sc_lastID c. Proof. reflexivity. Qed.
Lemma sc_highestID_upd_closer (c : sconn hstate) b : sc_highestID (upd_closer c b) = sc_highestID c. Proof. reflexivity. Qed.
Lemma sc_clientWindow_upd_closer (c : sconn hstate) b : sc_clientWindow (upd_closer c b) = sc_clientWindow c. Proof. reflexivity. Qed.
Lemma sc_currentWindow_upd_closer (c : sconn hstate) b : sc_currentWindow (upd_closer c b) = sc_currentWindow c. Proof. reflexivity. Qed.
Lemma sc_enc_upd_closer (c : sconn hstate) b : sc_enc (upd_closer c b) = sc_enc c. Proof. reflexivity. Qed.
Lemma sc_dec_upd_closer (c : sconn hstate) b : sc_dec (upd_closer c b) = sc_dec c. Proof. reflexivity. Qed.
Lemma sc_closing_upd_closer (c : sconn hstate) b : sc_closing (upd_closer c b) = sc_closing c. Proof. reflexivity. Qed.
Lemma sc_closeRef_upd_closer (c : sconn hstate) b : sc_closeRef (upd_closer c b) = sc_closeRef c. Proof. reflexivity. Qed.
Lemma sc_expectCont_upd_closer (c : sconn hstate) b : sc_expectCont (upd_closer c b) = sc_expectCont c. Proof. reflexivity. Qed.
Lemma sc_readerQ_upd_closer (c : sconn hstate) b : sc_readerQ (upd_closer c b) = sc_readerQ c. Proof. reflexivity. Qed.
Lemma sc_rl_done_upd_closer (c : sconn hstate) b : sc_rl_done (upd_closer c b) = sc_rl_done c. Proof. reflexivity. Qed.
Lemma sc_sl_done_upd_closer (c : sconn hstate) b : sc_sl_done (upd_closer c b) = sc_sl_done c. Proof. reflexivity. Qed.
Lemma sc_closer_upd_closer (c : sconn hstate) b : sc_closer (upd_closer c b) = b. Proof. reflexivity. Qed.
Lemma sc_wl_dead_upd_closer (c : sconn hstate) b : sc_wl_dead (upd_closer c b) = sc_wl_dead c. Proof. reflexivity. Qed.
Lemma sc_now_upd_closer (c : sconn hstate) b : sc_now (upd_closer c b) = sc_now c. Proof. reflexivity. Qed.
Lemma sc_discardID_upd_closer (c : sconn hstate) b : sc_discardID (upd_closer c b) = sc_discardID c. Proof. reflexivity. Qed.
Lemma sc_discardPrev_upd_closer (c : sconn hstate) b : sc_discardPrev (upd_closer c b) = sc_discardPrev c. Proof. reflexivity. Qed.
Lemma sc_discardFields_upd_closer (c : sconn hstate) b : sc_discardFields (upd_closer c b) = sc_discardFields c. Proof. reflexivity. Qed.
Lemma sc_out_upd_closer (c : sconn hstate) b : sc_out (upd_closer c b) = sc_out c. Proof. reflexivity. Qed.
Lemma sc_strms_upd_wl_dead (c : sconn hstate) b : sc_strms (upd_wl_dead c b) = sc_strms c. Proof. reflexivity. Qed.
Lemma sc_gone_upd_wl_dead (c : sconn hstate) b : sc_gone (upd_wl_dead c b) = sc_gone c. Proof. reflexivity. Qed.
Lemma sc_open_upd_wl_dead (c : sconn hstate) b : sc_open (upd_wl_dead c b) = sc_open c. Proof. reflexivity. Qed.
Lemma sc_initWin_upd_wl_dead (c : sconn hstate) b : sc_initWin (upd_wl_dead c b) = sc_initWin c. Proof. reflexivity. Qed.
Lemma sc_ring_upd_wl_dead (c : sconn hstate) b : sc_ring (upd_wl_dead c b) = sc_ring c. Proof. reflexivity. Qed.
Lemma sc_oldest_upd_wl_dead (c : sconn hstate) b : sc_oldest (upd_wl_dead c b) = sc_oldest c. Proof. reflexivity. Qed.
Lemma sc_lastID_upd_wl_dead (c : sconn hstate) b : sc_lastID (upd_wl_dead c b) = sc_lastID c. Proof. reflexivity. Qed.
Lemma sc_highestID_upd_wl_dead (c : sconn hstate) b : sc_highestID (upd_wl_dead c b) = sc_highestID c. Proof. reflexivity. Qed.
Lemma sc_clientWindow_upd_wl_dead (c : sconn hstate) b : sc_clientWindow (upd_wl_dead c b) = sc_clientWindow c. Proof. reflexivity. Qed.
Lemma sc_currentWindow_upd_wl_dead (c : sconn hstate) b : sc_currentWindow (upd_wl_dead c b) = sc_currentWindow c. Proof. reflexivity. Qed.
Lemma sc_enc_upd_wl_dead (c : sconn hstate) b : sc_enc (upd_wl_dead c b) = sc_enc c. Proof. reflexivity. Qed.
Lemma sc_dec_upd_wl_dead (c : sconn hstate) b : sc_dec (upd_wl_dead c b) = sc_dec c. Proof. reflexivity. Qed.
Lemma sc_closing_upd_wl_dead (c : sconn hstate) b : sc_closing (upd_wl_dead c b) = sc_closing c. Proof. reflexivity. Qed.
Lemma sc_closeRef_upd_wl_dead (c : sconn hstate) b : sc_closeRef (upd_wl_dead c b) = sc_closeRef c. Proof. reflexivity. Qed.
Lemma sc_expectCont_upd_wl_dead (c : sconn hstate) b : sc_expectCont (upd_wl_dead c b) = sc_expectCont c. Proof. reflexivity. Qed.
Lemma sc_readerQ_upd_wl_dead (c : sconn hstate) b : sc_readerQ (upd_wl_dead c b) = sc_readerQ c. Proof. reflexivity. Qed.
Lemma sc_rl_done_upd_wl_dead (c : sconn hstate) b : sc_rl_done (upd_wl_dead c b) = sc_rl_done c. Proof. reflexivity. Qed.
Lemma sc_sl_done_upd_wl_dead (c : sconn hstate) b : sc_sl_done (upd_wl_dead c b) = sc_sl_done c. Proof. reflexivity. Qed.
Lemma sc_closer_upd_wl_dead (c : sconn hstate) b : sc_closer (upd_wl_dead c b) = sc_closer c. Proof. reflexivity. Qed.
Lemma sc_wl_dead_upd_wl_dead (c : sconn hstate) b : sc_wl_dead (upd_wl_dead c b) = b. Proof. reflexivity. Qed.
Lemma sc_now_upd_wl_dead (c : sconn hstate) b : sc_now (upd_wl_dead c b) = sc_now c. Proof. reflexivity. Qed.
Lemma sc_discardID_upd_wl_dead (c : sconn hstate) b : sc_discardID (upd_wl_dead c b) = sc_discardID c. Proof. reflexivity. Qed.
Lemma sc_discardPrev_upd_wl_dead (c : sconn hstate) b : sc_discardPrev (upd_wl_dead c b) = sc_discardPrev c. Proof. reflexivity. Qed.
Lemma sc_discardFields_upd_wl_dead (c : sconn hstate) b : sc_discardFields (upd_wl_dead c b) = sc_discardFields c. Proof. reflexivity. Qed.
Lemma sc_out_upd_wl_dead (c : sconn hstate) b : sc_out (upd_wl_dead c b) = sc_out c. Proof. reflexivity. Qed.
Lemma sc_strms_upd_now (c : sconn hstate) t : sc_strms (upd_now c t) = sc_strms c. Proof. reflexivity. Qed.
Lemma sc_gone_upd_now (c : sconn hstate) t : sc_gone (upd_now c t) = sc_gone c. Proof. reflexivity. Qed.
Lemma sc_open_upd_now (c : sconn hstate) t : sc_open (upd_now c t) = sc_open c. Proof. reflexivity. Qed.
Lemma sc_initWin_upd_now (c : sconn hstate) t : sc_initWin (upd_now c t) = sc_initWin c. Proof. reflexivity. Qed.
Lemma sc_ring_upd_now (c : sconn hstate) t : sc_ring (upd_now c t) = sc_ring c. Proof. reflexivity. Qed.
Lemma sc_oldest_upd_now (c : sconn hstate) t : sc_oldest (upd_now c t) = sc_oldest c. Proof. reflexivity. Qed.
Lemma sc_lastID_upd_now (c : sconn hstate) t : sc_lastID (upd_now c t) = sc_lastID c. Proof. reflexivity. Qed.
Lemma sc_highestID_upd_now (c : sconn hstate) t : sc_highestID (upd_now c t) = sc_highestID c. Proof. reflexivity. Qed.
Lemma sc_clientWindow_upd_now (c : sconn hstate) t : sc_clientWindow (upd_now c t) = sc_clientWindow c. Proof. reflexivity. Qed.
Lemma sc_currentWindow_upd_now (c : sconn hstate) t : sc_currentWindow (upd_now c t) = sc_currentWindow c. Proof. reflexivity. Qed.
Lemma sc_enc_upd_now (c : sconn hstate) t : sc_enc (upd_now c t) = sc_enc c. Proof. reflexivity. Qed.
Lemma sc_dec_upd_now (c : sconn hstate) t : sc_dec (upd_now c t) = sc_dec c. Proof. reflexivity. Qed.
Lemma sc_closing_upd_now (c : sconn hstate) t : sc_closing (upd_now c t) = sc_closing c. Proof. reflexivity. Qed.
Lemma sc_closeRef_upd_now (c : sconn hstate) t : sc_closeRef (upd_now c t) = sc_closeRef c. Proof. reflexivity. Qed.
Lemma sc_expectCont_upd_now (c : sconn hstate) t : sc_expectCont (upd_now c t) = sc_expectCont c. Proof. reflexivity. Qed.
Lemma sc_readerQ_upd_now (c : sconn hstate) t : sc_readerQ (upd_now c t) = sc_readerQ c. Proof. reflexivity. Qed.
Lemma sc_rl_done_upd_now (c : sconn hstate) t : sc_rl_done (upd_now c t) = sc_rl_done c. Proof. reflexivity. Qed.
Lemma sc_sl_done_upd_now (c : sconn hstate) t : sc_sl_done (upd_now c t) = sc_sl_done c. Proof. reflexivity. Qed.
Lemma sc_closer_upd_now (c : sconn hstate) t : sc_closer (upd_now c t) = sc_closer c. Proof. reflexivity. Qed.
Lemma sc_wl_dead_upd_now (c : sconn hstate) t : sc_wl_dead (upd_now c t) = sc_wl_dead c. Proof. reflexivity. Qed.
Lemma sc_now_upd_now (c : sconn hstate) t : sc_now (upd_now c t) = t. Proof. reflexivity. Qed.
Lemma sc_discardID_upd_now (c : sconn hstate) t : sc_discardID (upd_now c t) = sc_discardID c. Proof. reflexivity. Qed.
Lemma sc_discardPrev_upd_now (c : sconn hstate) t : sc_discardPrev (upd_now c t) = sc_discardPrev c. Proof. reflexivity. Qed.
Lemma sc_discardFields_upd_now (c : sconn hstate) t : sc_discardFields (upd_now c t) = sc_discardFields c. Proof. reflexivity. Qed.
Lemma sc_out_upd_now (c : sconn hstate) t : sc_out (upd_now c t) = sc_out c. Proof. reflexivity. Qed.
Lemma sc_strms_upd_discard (c : sconn hstate) id prev n : sc_strms (upd_discard c id prev n) = sc_strms c. Proof. reflexivity. Qed.
Lemma sc_gone_upd_discard (c : sconn hstate) id prev n : sc_gone (upd_discard c id prev n) = sc_gone c. Proof. reflexivity. Qed.
Lemma sc_open_upd_discard (c : sconn hstate) id prev n : sc_open (upd_discard c id prev n) = sc_open c. Proof. reflexivity. Qed.
Lemma sc_initWin_upd_discard (c : sconn hstate) id prev n : sc_initWin (upd_discard c id prev n) = sc_initWin c. Proof. reflexivity. Qed.
Lemma sc_ring_upd_discard (c : sconn hstate) id prev n : sc_ring (upd_discard c id prev n) = sc_ring c. Proof. reflexivity. Qed.
Lemma sc_oldest_upd_discard (c : sconn hstate) id prev n : sc_oldest (upd_discard c id prev n) = sc_oldest c. Proof. reflexivity. Qed.
Lemma sc_lastID_upd_discard (c : sconn hstate) id prev n : sc_lastID (upd_discard c id prev n) = sc_lastID c. Proof. reflexivity. Qed.
Lemma sc_highestID_upd_discard (c : sconn hstate) id prev n : sc_highestID (upd_discard c id prev n) = sc_highestID c. Proof. reflexivity. Qed.
Lemma sc_clientWindow_upd_discard (c : sconn hstate) id prev n : sc_clientWindow (upd_discard c id prev n) = sc_clientWindow c. Proof. reflexivity. Qed.
Lemma sc_currentWindow_upd_discard (c : sconn hstate) id prev n : sc_currentWindow (upd_discard c id prev n) = sc_currentWindow c. Proof. reflexivity. Qed.
Lemma sc_enc_upd_discard (c : sconn hstate) id prev n : sc_enc (upd_discard c id prev n) = sc_enc c. Proof. reflexivity. Qed.
Lemma sc_dec_upd_discard (c : sconn hstate) id prev n : sc_dec (upd_discard c id prev n) = sc_dec c. Proof. reflexivity. Qed.
Lemma sc_closing_upd_discard (c : sconn hstate) id prev n : sc_closing (upd_discard c id prev n) = sc_closing c. Proof. reflexivity. Qed.
Lemma sc_closeRef_upd_discard (c : sconn hstate) id prev n : sc_closeRef (upd_discard c id prev n) = sc_closeRef c. Proof. reflexivity. Qed.
Lemma sc_expectCont_upd_discard (c : sconn hstate) id prev n : sc_expectCont (upd_discard c id prev n) = sc_expectCont c. Proof. reflexivity. Qed.
Lemma sc_readerQ_upd_discard (c : sconn hstate) id prev n : sc_readerQ (upd_discard c id prev n) = sc_readerQ c. Proof. reflexivity. Qed.
Lemma sc_rl_done_upd_discard (c : sconn hstate) id prev n : sc_rl_done (upd_discard c id prev n) = sc_rl_done c. Proof. reflexivity. Qed.
Lemma sc_sl_done_upd_discard (c : sconn hstate) id prev n : sc_sl_done (upd_discard c id prev n) = sc_sl_done c. Proof. reflexivity. Qed.
Lemma sc_closer_upd_discard (c : sconn hstate) id prev n : sc_closer (upd_discard c id prev n) = sc_closer c. Proof. reflexivity. Qed.
Lemma sc_wl_dead_upd_discard (c : sconn hstate) id prev n : sc_wl_dead (upd_discard c id prev n) = sc_wl_dead c. Proof. reflexivity. Qed.
Lemma sc_now_upd_discard (c : sconn hstate) id prev n : sc_now (upd_discard c id prev n) = sc_now c. Proof. reflexivity. Qed.
Lemma sc_discardID_upd_discard (c : sconn hstate) id prev n : sc_discardID (upd_discard c id prev n) = id. Proof. reflexivity. Qed.
Lemma sc_discardPrev_upd_discard (c : sconn hstate) id prev n : sc_discardPrev (upd_discard c id prev n) = prev. Proof. reflexivity. Qed.
Lemma sc_discardFields_upd_discard (c : sconn hstate) id prev n : sc_discardFields (upd_discard c id prev n) = n. Proof. reflexivity. Qed.
Lemma sc_out_upd_discard (c : sconn hstate) id prev n : sc_out (upd_discard c id prev n) = sc_out c. Proof. reflexivity. Qed.
Lemma sc_strms_emit (c : sconn hstate) o : sc_strms (emit c o) = sc_strms c. Proof. sc_unf. Qed.
Lemma sc_gone_emit (c : sconn hstate) o : sc_gone (emit c o) = sc_gone c. Proof. sc_unf. Qed.
Lemma sc_open_emit (c : sconn hstate) o : sc_open (emit c o) = sc_open c. Proof. sc_unf. Qed.
Lemma sc_initWin_emit (c : sconn hstate) o : sc_initWin (emit c o) = sc_initWin c. Proof. sc_unf. Qed.
Lemma sc_ring_emit (c : sconn hstate) o : sc_ring (emit c o) = sc_ring c. Proof. sc_unf. Qed.
Lemma sc_oldest_emit (c : sconn hstate) o : sc_oldest (emit c o) = sc_oldest c. Proof. sc_unf. Qed.
Lemma sc_lastID_emit (c : sconn hstate) o : sc_lastID (emit c o) = sc_lastID c. Proof. sc_unf. Qed.
Lemma sc_highestID_emit (c : sconn hstate) o : sc_highestID (emit c o) = sc_highestID c. Proof. sc_unf. Qed.
Lemma sc_clientWindow_emit (c : sconn hstate) o : sc_clientWindow (emit c o) = sc_clientWindow c. Proof. sc_unf. Qed.
Lemma sc_currentWindow_emit (c : sconn hstate) o : sc_currentWindow (emit c o) = sc_currentWindow c. Proof. sc_unf. Qed.
Lemma sc_enc_emit (c : sconn hstate) o : sc_enc (emit c o) = sc_enc c. Proof. sc_unf. Qed.
Lemma sc_dec_emit (c : sconn hstate) o : sc_dec (emit c o) = sc_dec c. Proof. sc_unf. Qed.
Lemma sc_closing_emit (c : sconn hstate) o : sc_closing (emit c o) = sc_closing c. Proof. sc_unf. Qed.
Lemma sc_closeRef_emit (c : sconn hstate) o : sc_closeRef (emit c o) = sc_closeRef c. Proof. sc_unf. Qed.
Lemma sc_expectCont_emit (c : sconn hstate) o : sc_expectCont (emit c o) = sc_expectCont c. Proof. sc_unf. Qed.
Lemma sc_readerQ_emit (c : sconn hstate) o : sc_readerQ (emit c o) = sc_readerQ c. Proof. sc_unf. Qed.
Lemma sc_rl_done_emit (c : sconn hstate) o : sc_rl_done (emit c o) = sc_rl_done c. Proof. sc_unf. Qed.
Lemma sc_sl_done_emit (c : sconn hstate) o : sc_sl_done (emit c o) = sc_sl_done c. Proof. sc_unf. Qed.
Lemma sc_closer_emit (c : sconn hstate) o : sc_closer (emit c o) = sc_closer c. Proof. sc_unf. Qed.
Lemma sc_wl_dead_emit (c : sconn hstate) o : sc_wl_dead (emit c o) = sc_wl_dead c. Proof. sc_unf. Qed.
Lemma sc_now_emit (c : sconn hstate) o : sc_now (emit c o) = sc_now c. Proof. sc_unf. Qed.
Lemma sc_discardID_emit (c : sconn hstate) o : sc_discardID (emit c o) = sc_discardID c. Proof. sc_unf. Qed.
Lemma sc_discardPrev_emit (c : sconn hstate) o : sc_discardPrev (emit c o) = sc_discardPrev c. Proof. sc_unf. Qed.
Lemma sc_discardFields_emit (c : sconn hstate) o : sc_discardFields (emit c o) = sc_discardFields c. Proof. sc_unf. Qed.
Lemma sc_strms_note (c : sconn hstate) o : sc_strms (note c o) = sc_strms c. Proof. sc_unf. Qed.
Lemma sc_gone_note (c : sconn hstate) o : sc_gone (note c o) = sc_gone c. Proof. sc_unf. Qed.
Lemma sc_open_note (c : sconn hstate) o : sc_open (note c o) = sc_open c. Proof. sc_unf. Qed.
Lemma sc_initWin_note (c : sconn hstate) o : sc_initWin (note c o) = sc_initWin c. Proof. sc_unf. Qed.
Lemma sc_ring_note (c : sconn hstate) o : sc_ring (note c o) = sc_ring c. Proof. sc_unf. Qed.
Lemma sc_oldest_note (c : sconn hstate) o : sc_oldest (note c o) = sc_oldest c. Proof. sc_unf. Qed.
Lemma sc_lastID_note (c : sconn hstate) o : sc_lastID (note c o) = sc_lastID c. Proof. sc_unf. Qed.
Lemma sc_highestID_note (c : sconn hstate) o : sc_highestID (note c o) = sc_highestID c. Proof. sc_unf. Qed.
Lemma sc_clientWindow_note (c : sconn hstate) o : sc_clientWindow (note c o) = sc_clientWindow c. Proof. sc_unf. Qed.
Lemma sc_currentWindow_note (c : sconn hstate) o : sc_currentWindow (note c o) = sc_currentWindow c. Proof. sc_unf. Qed.
Lemma sc_enc_note (c : sconn hstate) o : sc_enc (note c o) = sc_enc c. Proof. sc_unf. Qed.
Lemma sc_dec_note (c : sconn hstate) o : sc_dec (note c o) = sc_dec c. Proof. sc_unf. Qed.
Lemma sc_closing_note (c : sconn hstate) o : sc_closing (note c o) = sc_closing c. Proof. sc_unf. Qed.
Lemma sc_closeRef_note (c : sconn hstate) o : sc_closeRef (note c o) = sc_closeRef c. Proof. sc_unf. Qed.
Lemma sc_expectCont_note (c : sconn hstate) o : sc_expectCont (note c o) = sc_expectCont c. Proof. sc_unf. Qed.
Lemma sc_readerQ_note (c : sconn hstate) o : sc_readerQ (note c o) = sc_readerQ c. Proof. sc_unf. Qed.
Lemma sc_rl_done_note (c : sconn hstate) o : sc_rl_done (note c o) = sc_rl_done c. Proof. sc_unf. Qed.
Lemma sc_sl_done_note (c : sconn hstate) o : sc_sl_done (note c o) = sc_sl_done c. Proof. sc_unf. Qed.
Lemma sc_closer_note (c : sconn hstate) o : sc_closer (note c o) = sc_closer c. Proof. sc_unf. Qed.
Lemma sc_wl_dead_note (c : sconn hstate) o : sc_wl_dead (note c o) = sc_wl_dead c. Proof. sc_unf. Qed.
Lemma sc_now_note (c : sconn hstate) o : sc_now (note c o) = sc_now c. Proof. sc_unf. Qed.
Lemma sc_discardID_note (c : sconn hstate) o : sc_discardID (note c o) = sc_discardID c. Proof. sc_unf. Qed.
Lemma sc_discardPrev_note (c : sconn hstate) o : sc_discardPrev (note c o) = sc_discardPrev c. Proof. sc_unf. Qed.
Lemma sc_discardFields_note (c : sconn hstate) o : sc_discardFields (note c o) = sc_discardFields c. Proof. sc_unf. Qed.
Lemma sc_strms_write_reset (c : sconn hstate) sid code : sc_strms (write_reset c sid code) = sc_strms c. Proof. sc_unf. Qed.
Lemma sc_gone_write_reset (c : sconn hstate) sid code : sc_gone (write_reset c sid code) = sc_gone c. Proof. sc_unf. Qed.
Lemma sc_open_write_reset (c : sconn hstate) sid code : sc_open (write_reset c sid code) = sc_open c. Proof. sc_unf. Qed.
Lemma sc_initWin_write_reset (c : sconn hstate) sid code : sc_initWin (write_reset c sid code) = sc_initWin c. Proof. sc_unf. Qed.
Lemma sc_ring_write_reset (c : sconn hstate) sid code : sc_ring (write_reset c sid code) = sc_ring c. Proof. sc_unf. Qed.
Lemma sc_oldest_write_reset (c : sconn hstate) sid code : sc_oldest (write_reset c sid code) = sc_oldest c. Proof. sc_unf. Qed.
Lemma sc_lastID_write_reset (c : sconn hstate) sid code : sc_lastID (write_reset c sid code) = sc_lastID c. Proof. sc_unf. Qed.
Lemma sc_highestID_write_reset (c : sconn hstate) sid code : sc_highestID (write_reset c sid code) = sc_highestID c. Proof. sc_unf. Qed.
Lemma sc_clientWindow_write_reset (c : sconn hstate) sid code : sc_clientWindow (write_reset c sid code) = sc_clientWindow c. Proof. sc_unf. Qed.
Lemma sc_currentWindow_write_reset (c : sconn hstate) sid code : sc_currentWindow (write_reset c sid code) = sc_currentWindow c. Proof. sc_unf. Qed.
Lemma sc_enc_write_reset (c : sconn hstate) sid code : sc_enc (write_reset c sid code) = sc_enc c. Proof. sc_unf. Qed.
Lemma sc_dec_write_reset (c : sconn hstate) sid code : sc_dec (write_reset c sid code) = sc_dec c. Proof. sc_unf. Qed.
Lemma sc_closing_write_reset (c : sconn hstate) sid code : sc_closing (write_reset c sid code) = sc_closing c. Proof. sc_unf. Qed.
Lemma sc_closeRef_write_reset (c : sconn hstate) sid code : sc_closeRef (write_reset c sid code) = sc_closeRef c. Proof. sc_unf. Qed.
Lemma sc_expectCont_write_reset (c : sconn hstate) sid code : sc_expectCont (write_reset c sid code) = sc_expectCont c. Proof. sc_unf. Qed.
Lemma sc_readerQ_write_reset (c : sconn hstate) sid code : sc_readerQ (write_reset c sid code) = sc_readerQ c. Proof. sc_unf. Qed.
Lemma sc_rl_done_write_reset (c : sconn hstate) sid code : sc_rl_done (write_reset c sid code) = sc_rl_done c. Proof. sc_unf. Qed.
Lemma sc_sl_done_write_reset (c : sconn hstate) sid code : sc_sl_done (write_reset c sid code) = sc_sl_done c. Proof. sc_unf. Qed.
Lemma sc_closer_write_reset (c : sconn hstate) sid code : sc_closer (write_reset c sid code) = sc_closer c. Proof. sc_unf. Qed.
Lemma sc_wl_dead_write_reset (c : sconn hstate) sid code : sc_wl_dead (write_reset c sid code) = sc_wl_dead c. Proof. sc_unf. Qed.
Lemma sc_now_write_reset (c : sconn hstate) sid code : sc_now (write_reset c sid code) = sc_now c. Proof. sc_unf. Qed.
Lemma sc_discardID_write_reset (c : sconn hstate) sid code : sc_discardID (write_reset c sid code) = sc_discardID c. Proof. sc_unf. Qed.
Lemma sc_discardPrev_write_reset (c : sconn hstate) sid code : sc_discardPrev (write_reset c sid code) = sc_discardPrev c. Proof. sc_unf. Qed.
Lemma sc_discardFields_write_reset (c : sconn hstate) sid code : sc_discardFields (write_reset c sid code) = sc_discardFields c. Proof. sc_unf. Qed.
Lemma sc_strms_write_window_update (c : sconn hstate) sid inc : sc_strms (write_window_update c sid inc) = sc_strms c. Proof. sc_unf. Qed.
Lemma sc_gone_write_window_update (c : sconn hstate) sid inc : sc_gone (write_window_update c sid inc) = sc_gone c. Proof. sc_unf. Qed.
Lemma sc_open_write_window_update (c : sconn hstate) sid inc : sc_open (write_window_update c sid inc) = sc_open c. Proof. sc_unf. Qed.
Lemma sc_initWin_write_window_update (c : sconn hstate) sid inc : sc_initWin (write_window_update c sid inc) = sc_initWin c. Proof. sc_unf. Qed.
Lemma sc_ring_write_window_update (c : sconn hstate) sid inc : sc_ring (write_window_update c sid inc) = sc_ring c. Proof. sc_unf. Qed.
Lemma sc_oldest_write_window_update (c : sconn hstate) sid inc : sc_oldest (write_window_update c sid inc) = sc_oldest c. Proof. sc_unf. Qed.
Lemma sc_lastID_write_window_update (c : sconn hstate) sid inc : sc_lastID (write_window_update c sid inc) = sc_lastID c. Proof. sc_unf. Qed.
Lemma sc_highestID_write_window_update (c : sconn hstate) sid inc : sc_highestID (write_window_update c sid inc) = sc_highestID c. Proof. sc_unf. Qed.
Lemma sc_clientWindow_write_window_update (c : sconn hstate) sid inc : sc_clientWindow (write_window_update c sid inc) = sc_clientWindow c. Proof. sc_unf. Qed.
Lemma sc_currentWindow_write_window_update (c : sconn hstate) sid inc : sc_currentWindow (write_window_update c sid inc) = sc_currentWindow c. Proof. sc_unf. Qed.
Lemma sc_enc_write_window_update (c : sconn hstate) sid inc : sc_enc (write_window_update c sid inc) = sc_enc c. Proof. sc_unf. Qed.
Lemma sc_dec_write_window_update (c : sconn hstate) sid inc : sc_dec (write_window_update c sid inc) = sc_dec c. Proof. sc_unf. Qed.
Lemma sc_closing_write_window_update (c : sconn hstate) sid inc : sc_closing (write_window_update c sid inc) = sc_closing c. Proof. sc_unf. Qed.
Lemma sc_closeRef_write_window_update (c : sconn hstate) sid inc : sc_closeRef (write_window_update c sid inc) = sc_closeRef c. Proof. sc_unf. Qed.
Lemma sc_expectCont_write_window_update (c : sconn hstate) sid inc : sc_expectCont (write_window_update c sid inc) = sc_expectCont c. Proof. sc_unf. Qed.
Lemma sc_readerQ_write_window_update (c : sconn hstate) sid inc : sc_readerQ (write_window_update c sid inc) = sc_readerQ c. Proof. sc_unf. Qed.
Lemma sc_rl_done_write_window_update (c : sconn hstate) sid inc : sc_rl_done (write_window_update c sid inc) = sc_rl_done c. Proof. sc_unf. Qed.
Lemma sc_sl_done_write_window_update (c : sconn hstate) sid inc : sc_sl_done (write_window_update c sid inc) = sc_sl_done c. Proof. sc_unf. Qed.
Lemma sc_closer_write_window_update (c : sconn hstate) sid inc : sc_closer (write_window_update c sid inc) = sc_closer c. Proof. sc_unf. Qed.
Lemma sc_wl_dead_write_window_update (c : sconn hstate) sid inc : sc_wl_dead (write_window_update c sid inc) = sc_wl_dead c. Proof. sc_unf. Qed.
Lemma sc_now_write_window_update (c : sconn hstate) sid inc : sc_now (write_window_update c sid inc) = sc_now c. Proof. sc_unf. Qed.
Lemma sc_discardID_write_window_update (c : sconn hstate) sid inc : sc_discardID (write_window_update c sid inc) = sc_discardID c. Proof. sc_unf. Qed.
Lemma sc_discardPrev_write_window_update (c : sconn hstate) sid inc : sc_discardPrev (write_window_update c sid inc) = sc_discardPrev c. Proof. sc_unf. Qed.
Lemma sc_discardFields_write_window_update (c : sconn hstate) sid inc : sc_discardFields (write_window_update c sid inc) = sc_discardFields c. Proof. sc_unf. Qed.
Lemma sc_strms_write_goaway (c : sconn hstate) sid code : sc_strms (write_goaway c sid code) = sc_strms c. Proof. sc_unf. Qed.
Lemma sc_gone_write_goaway (c : sconn hstate) sid code : sc_gone (write_goaway c sid code) = sc_gone c. Proof. sc_unf. Qed.
Lemma sc_open_write_goaway (c : sconn hstate) sid code : sc_open (write_goaway c sid code) = sc_open c. Proof. sc_unf. Qed.
Lemma sc_initWin_write_goaway (c : sconn hstate) sid code : sc_initWin (write_goaway c sid code) = sc_initWin c. Proof. sc_unf. Qed.
Lemma sc_ring_write_goaway (c : sconn hstate) sid code : sc_ring (write_goaway c sid code) = sc_ring c. Proof. sc_unf. Qed.
Lemma sc_oldest_write_goaway (c : sconn hstate) sid code : sc_oldest (write_goaway c sid code) = sc_oldest c. Proof. sc_unf. Qed.
Lemma sc_lastID_write_goaway (c : sconn hstate) sid code : sc_lastID (write_goaway c sid code) = sc_lastID c. Proof. sc_unf. Qed.
Lemma sc_highestID_write_goaway (c : sconn hstate) sid code : sc_highestID (write_goaway c sid code) = sc_highestID c. Proof. sc_unf. Qed.
Lemma sc_clientWindow_write_goaway (c : sconn hstate) sid code : sc_clientWindow (write_goaway c sid code) = sc_clientWindow c. Proof. sc_unf. Qed.
Lemma sc_currentWindow_write_goaway (c : sconn hstate) sid code : sc_currentWindow (write_goaway c sid code) = sc_currentWindow c. Proof. sc_unf. Qed.
Lemma sc_enc_write_goaway (c : sconn hstate) sid code : sc_enc (write_goaway c sid code) = sc_enc c. Proof. sc_unf. Qed.
Lemma sc_dec_write_goaway (c : sconn hstate) sid code : sc_dec (write_goaway c sid code) = sc_dec c. Proof. sc_unf. Qed.
Lemma sc_expectCont_write_goaway (c : sconn hstate) sid code : sc_expectCont (write_goaway c sid code) = sc_expectCont c. Proof. sc_unf. Qed.
Lemma sc_readerQ_write_goaway (c : sconn hstate) sid code : sc_readerQ (write_goaway c sid code) = sc_readerQ c. Proof. sc_unf. Qed.
Lemma sc_rl_done_write_goaway (c : sconn hstate) sid code : sc_rl_done (write_goaway c sid code) = sc_rl_done c. Proof. sc_unf. Qed.
Lemma sc_sl_done_write_goaway (c : sconn hstate) sid code : sc_sl_done (write_goaway c sid code) = sc_sl_done c. Proof. sc_unf. Qed.
Lemma sc_closer_write_goaway (c : sconn hstate) sid code : sc_closer (write_goaway c sid code) = sc_closer c. Proof. sc_unf. Qed.
Lemma sc_wl_dead_write_goaway (c : sconn hstate) sid code : sc_wl_dead (write_goaway c sid code) = sc_wl_dead c. Proof. sc_unf. Qed.
Lemma sc_now_write_goaway (c : sconn hstate) sid code : sc_now (write_goaway c sid code) = sc_now c. Proof. sc_unf. Qed.
Lemma sc_discardID_write_goaway (c : sconn hstate) sid code : sc_discardID (write_goaway c sid code) = sc_discardID c. Proof. sc_unf. Qed.
Lemma sc_discardPrev_write_goaway (c : sconn hstate) sid code : sc_discardPrev (write_goaway c sid code) = sc_discardPrev c. Proof. sc_unf. Qed.
Lemma sc_discardFields_write_goaway (c : sconn hstate) sid code : sc_discardFields (write_goaway c sid code) = sc_discardFields c. Proof. sc_unf. Qed.
Lemma sc_strms_write_error (c : sconn hstate) s e : sc_strms (fst (write_error c s e)) = sc_strms c. Proof. sc_unf. Qed.
Lemma sc_gone_write_error (c : sconn hstate) s e : sc_gone (fst (write_error c s e)) = sc_gone c. Proof. sc_unf. Qed.
Lemma sc_open_write_error (c : sconn hstate) s e : sc_open (fst (write_error c s e)) = sc_open c. Proof. sc_unf. Qed.
Lemma sc_initWin_write_error (c : sconn hstate) s e : sc_initWin (fst (write_error c s e)) = sc_initWin c. Proof. sc_unf. Qed.
Lemma sc_ring_write_error (c : sconn hstate) s e : sc_ring (fst (write_error c s e)) = sc_ring c. Proof. sc_unf. Qed.
Lemma sc_oldest_write_error (c : sconn hstate) s e : sc_oldest (fst (write_error c s e)) = sc_oldest c. Proof. sc_unf. Qed.
Lemma sc_lastID_write_error (c : sconn hstate) s e : sc_lastID (fst (write_error c s e)) = sc_lastID c. Proof. sc_unf. Qed.
Lemma sc_highestID_write_error (c : sconn hstate) s e : sc_highestID (fst (write_error c s e)) = sc_highestID c. Proof. sc_unf. Qed.
Lemma sc_clientWindow_write_error (c : sconn hstate) s e : sc_clientWindow (fst (write_error c s e)) = sc_clientWindow c. Proof. sc_unf. Qed.
Lemma sc_currentWindow_write_error (c : sconn hstate) s e : sc_currentWindow (fst (write_error c s e)) = sc_currentWindow c. Proof. sc_unf. Qed.
Lemma sc_enc_write_error (c : sconn hstate) s e : sc_enc (fst (write_error c s e)) = sc_enc c. Proof. sc_unf. Qed.
Lemma sc_dec_write_error (c : sconn hstate) s e : sc_dec (fst (write_error c s e)) = sc_dec c. Proof. sc_unf. Qed.
Lemma sc_expectCont_write_error (c : sconn hstate) s e : sc_expectCont (fst (write_error c s e)) = sc_expectCont c. Proof. sc_unf. Qed.
Lemma sc_readerQ_write_error (c : sconn hstate) s e : sc_readerQ (fst (write_error c s e)) = sc_readerQ c. Proof. sc_unf. Qed.
Lemma sc_rl_done_write_error (c : sconn hstate) s e : sc_rl_done (fst (write_error c s e)) = sc_rl_done c. Proof. sc_unf. Qed.
Lemma sc_sl_done_write_error (c : sconn hstate) s e : sc_sl_done (fst (write_error c s e)) = sc_sl_done c. Proof. sc_unf. Qed.
Lemma sc_closer_write_error (c : sconn hstate) s e : sc_closer (fst (write_error c s e)) = sc_closer c. Proof. sc_unf. Qed.
Lemma sc_wl_dead_write_error (c : sconn hstate) s e : sc_wl_dead (fst (write_error c s e)) = sc_wl_dead c. Proof. sc_unf. Qed.
Lemma sc_now_write_error (c : sconn hstate) s e : sc_now (fst (write_error c s e)) = sc_now c. Proof. sc_unf. Qed.
Lemma sc_discardID_write_error (c : sconn hstate) s e : sc_discardID (fst (write_error c s e)) = sc_discardID c. Proof. sc_unf. Qed.
Lemma sc_discardPrev_write_error (c : sconn hstate) s e : sc_discardPrev (fst (write_error c s e)) = sc_discardPrev c. Proof. sc_unf. Qed.
Lemma sc_discardFields_write_error (c : sconn hstate) s e : sc_discardFields (fst (write_error c s e)) = sc_discardFields c. Proof. sc_unf. Qed.
Lemma sc_strms_mark_closed (c : sconn hstate) id w : sc_strms (mark_closed c id w) = sc_strms c. Proof. sc_unf. Qed.
Lemma sc_gone_mark_closed (c : sconn hstate) id w : sc_gone (mark_closed c id w) = sc_gone c. Proof. sc_unf. Qed.
Lemma sc_open_mark_closed (c : sconn hstate) id w : sc_open (mark_closed c id w) = sc_open c. Proof. sc_unf. Qed.
Lemma sc_initWin_mark_closed (c : sconn hstate) id w : sc_initWin (mark_closed c id w) = sc_initWin c. Proof. sc_unf. Qed.
Lemma sc_lastID_mark_closed (c : sconn hstate) id w : sc_lastID (mark_closed c id w) = sc_lastID c. Proof. sc_unf. Qed.
Lemma sc_highestID_mark_closed (c : sconn hstate) id w : sc_highestID (mark_closed c id w) = sc_highestID c. Proof. sc_unf. Qed.
Lemma sc_clientWindow_mark_closed (c : sconn hstate) id w : sc_clientWindow (mark_closed c id w) = sc_clientWindow c. Proof. sc_unf. Qed.
Lemma sc_currentWindow_mark_closed (c : sconn hstate) id w : sc_currentWindow (mark_closed c id w) = sc_currentWindow c. Proof. sc_unf. Qed.
Lemma sc_enc_mark_closed (c : sconn hstate) id w : sc_enc (mark_closed c id w) = sc_enc c. Proof. sc_unf. Qed.
Lemma sc_dec_mark_closed (c : sconn hstate) id w : sc_dec (mark_closed c id w) = sc_dec c. Proof. sc_unf. Qed.
Lemma sc_closing_mark_closed (c : sconn hstate) id w : sc_closing (mark_closed c id w) = sc_closing c. Proof. sc_unf. Qed.
Lemma sc_closeRef_mark_closed (c : sconn hstate) id w : sc_closeRef (mark_closed c id w) = sc_closeRef c. Proof. sc_unf. Qed.
Lemma sc_expectCont_mark_closed (c : sconn hstate) id w : sc_expectCont (mark_closed c id w) = sc_expectCont c. Proof. sc_unf. Qed.
Lemma sc_readerQ_mark_closed (c : sconn hstate) id w : sc_readerQ (mark_closed c id w) = sc_readerQ c. Proof. sc_unf. Qed.
Lemma sc_rl_done_mark_closed (c : sconn hstate) id w : sc_rl_done (mark_closed c id w) = sc_rl_done c. Proof. sc_unf. Qed.
Lemma sc_sl_done_mark_closed (c : sconn hstate) id w : sc_sl_done (mark_closed c id w) = sc_sl_done c. Proof. sc_unf. Qed.
Lemma sc_closer_mark_closed (c : sconn hstate) id w : sc_closer (mark_closed c id w) = sc_closer c. Proof. sc_unf. Qed.
Lemma sc_wl_dead_mark_closed (c : sconn hstate) id w : sc_wl_dead (mark_closed c id w) = sc_wl_dead c. Proof. sc_unf. Qed.
Lemma sc_now_mark_closed (c : sconn hstate) id w : sc_now (mark_closed c id w) = sc_now c. Proof. sc_unf. Qed.
Lemma sc_discardID_mark_closed (c : sconn hstate) id w : sc_discardID (mark_closed c id w) = sc_discardID c. Proof. sc_unf. Qed.
Lemma sc_discardPrev_mark_closed (c : sconn hstate) id w : sc_discardPrev (mark_closed c id w) = sc_discardPrev c. Proof. sc_unf. Qed.
Lemma sc_discardFields_mark_closed (c : sconn hstate) id w : sc_discardFields (mark_closed c id w) = sc_discardFields c. Proof. sc_unf. Qed.
Lemma sc_out_mark_closed (c : sconn hstate) id w : sc_out (mark_closed c id w) = sc_out c. Proof. sc_unf. Qed.
Lemma sc_strms_release_stream (c : sconn hstate) s : sc_strms (release_stream c s) = sc_strms c. Proof. sc_unf. Qed.
Lemma sc_gone_release_stream (c : sconn hstate) s : sc_gone (release_stream c s) = sc_gone c. Proof. sc_unf. Qed.
Lemma sc_initWin_release_stream (c : sconn hstate) s : sc_initWin (release_stream c s) = sc_initWin c. Proof. sc_unf. Qed.
Lemma sc_ring_release_stream (c : sconn hstate) s : sc_ring (release_stream c s) = sc_ring c. Proof. sc_unf. Qed.
Lemma sc_oldest_release_stream (c : sconn hstate) s : sc_oldest (release_stream c s) = sc_oldest c. Proof. sc_unf. Qed.
Lemma sc_lastID_release_stream (c : sconn hstate) s : sc_lastID (release_stream c s) = sc_lastID c. Proof. sc_unf. Qed.
Lemma sc_highestID_release_stream (c : sconn hstate) s : sc_highestID (release_stream c s) = sc_highestID c. Proof. sc_unf. Qed.
Lemma sc_clientWindow_release_stream (c : sconn hstate) s : sc_clientWindow (release_stream c s) = sc_clientWindow c. Proof. sc_unf. Qed.
Lemma sc_currentWindow_release_stream (c : sconn hstate) s : sc_currentWindow (release_stream c s) = sc_currentWindow c. Proof. sc_unf. Qed.
Lemma sc_enc_release_stream (c : sconn hstate) s : sc_enc (release_stream c s) = sc_enc c. Proof. sc_unf. Qed.
Lemma sc_dec_release_stream (c : sconn hstate) s : sc_dec (release_stream c s) = sc_dec c. Proof. sc_unf. Qed.
Lemma sc_closing_release_stream (c : sconn hstate) s : sc_closing (release_stream c s) = sc_closing c. Proof. sc_unf. Qed.
Lemma sc_closeRef_release_stream (c : sconn hstate) s : sc_closeRef (release_stream c s) = sc_closeRef c. Proof. sc_unf. Qed.
Lemma sc_expectCont_release_stream (c : sconn hstate) s : sc_expectCont (release_stream c s) = sc_expectCont c. Proof. sc_unf. Qed.
Lemma sc_readerQ_release_stream (c : sconn hstate) s : sc_readerQ (release_stream c s) = sc_readerQ c. Proof. sc_unf. Qed.
Lemma sc_rl_done_release_stream (c : sconn hstate) s : sc_rl_done (release_stream c s) = sc_rl_done c. Proof. sc_unf. Qed.
Lemma sc_sl_done_release_stream (c : sconn hstate) s : sc_sl_done (release_stream c s) = sc_sl_done c. Proof. sc_unf. Qed.
Lemma sc_closer_release_stream (c : sconn hstate) s : sc_closer (release_stream c s) = sc_closer c. Proof. sc_unf. Qed.
Lemma sc_wl_dead_release_stream (c : sconn hstate) s : sc_wl_dead (release_stream c s) = sc_wl_dead c. Proof. sc_unf. Qed.
Lemma sc_now_release_stream (c : sconn hstate) s : sc_now (release_stream c s) = sc_now c. Proof. sc_unf. Qed.
Lemma sc_discardID_release_stream (c : sconn hstate) s : sc_discardID (release_stream c s) = sc_discardID c. Proof. sc_unf. Qed.
Lemma sc_discardPrev_release_stream (c : sconn hstate) s : sc_discardPrev (release_stream c s) = sc_discardPrev c. Proof. sc_unf. Qed.
Lemma sc_discardFields_release_stream (c : sconn hstate) s : sc_discardFields (release_stream c s) = sc_discardFields c. Proof. sc_unf. Qed.
Lemma sc_initWin_close_stream (c : sconn hstate) s : sc_initWin (close_stream c s) = sc_initWin c. Proof. sc_unf. Qed.
Lemma sc_lastID_close_stream (c : sconn hstate) s : sc_lastID (close_stream c s) = sc_lastID c. Proof. sc_unf. Qed.
Lemma sc_highestID_close_stream (c : sconn hstate) s : sc_highestID (close_stream c s) = sc_highestID c. Proof. sc_unf. Qed.
Lemma sc_clientWindow_close_stream (c : sconn hstate) s : sc_clientWindow (close_stream c s) = sc_clientWindow c. Proof. sc_unf. Qed.
Lemma sc_currentWindow_close_stream (c : sconn hstate) s : sc_currentWindow (close_stream c s) = sc_currentWindow c. Proof. sc_unf. Qed.
Lemma sc_enc_close_stream (c : sconn hstate) s : sc_enc (close_stream c s) = sc_enc c. Proof. sc_unf. Qed.
Lemma sc_dec_close_stream (c : sconn hstate) s : sc_dec (close_stream c s) = sc_dec c. Proof. sc_unf. Qed.
Lemma sc_closing_close_stream (c : sconn hstate) s : sc_closing (close_stream c s) = sc_closing c. Proof. sc_unf. Qed.
Lemma sc_closeRef_close_stream (c : sconn hstate) s : sc_closeRef (close_stream c s) = sc_closeRef c. Proof. sc_unf. Qed.
Lemma sc_expectCont_close_stream (c : sconn hstate) s : sc_expectCont (close_stream c s) = sc_expectCont c. Proof. sc_unf. Qed.
Lemma sc_readerQ_close_stream (c : sconn hstate) s : sc_readerQ (close_stream c s) = sc_readerQ c. Proof. sc_unf. Qed.
Lemma sc_rl_done_close_stream (c : sconn hstate) s : sc_rl_done (close_stream c s) = sc_rl_done c. Proof. sc_unf. Qed.
Lemma sc_sl_done_close_stream (c : sconn hstate) s : sc_sl_done (close_stream c s) = sc_sl_done c. Proof. sc_unf. Qed.
Lemma sc_closer_close_stream (c : sconn hstate) s : sc_closer (close_stream c s) = sc_closer c. Proof. sc_unf. Qed.
Lemma sc_wl_dead_close_stream (c : sconn hstate) s : sc_wl_dead (close_stream c s) = sc_wl_dead c. Proof. sc_unf. Qed.
Lemma sc_now_close_stream (c : sconn hstate) s : sc_now (close_stream c s) = sc_now c. Proof. sc_unf. Qed.
Lemma sc_gone_put (c : sconn hstate) x : sc_gone (put c x) = sc_gone c. Proof. sc_unf. Qed.
Lemma sc_open_put (c : sconn hstate) x : sc_open (put c x) = sc_open c. Proof. sc_unf. Qed.
Lemma sc_initWin_put (c : sconn hstate) x : sc_initWin (put c x) = sc_initWin c. Proof. sc_unf. Qed.
Lemma sc_ring_put (c : sconn hstate) x : sc_ring (put c x) = sc_ring c. Proof. sc_unf. Qed.
Lemma sc_oldest_put (c : sconn hstate) x : sc_oldest (put c x) = sc_oldest c. Proof. sc_unf. Qed.
Lemma sc_lastID_put (c : sconn hstate) x : sc_lastID (put c x) = sc_lastID c. Proof. sc_unf. Qed.
Lemma sc_highestID_put (c : sconn hstate) x : sc_highestID (put c x) = sc_highestID c. Proof. sc_unf. Qed.
Lemma sc_clientWindow_put (c : sconn hstate) x : sc_clientWindow (put c x) = sc_clientWindow c. Proof. sc_unf. Qed.
Lemma sc_currentWindow_put (c : sconn hstate) x : sc_currentWindow (put c x) = sc_currentWindow c. Proof. sc_unf. Qed.
Lemma sc_enc_put (c : sconn hstate) x : sc_enc (put c x) = sc_enc c. Proof. sc_unf. Qed.
Lemma sc_dec_put (c : sconn hstate) x : sc_dec (put c x) = sc_dec c. Proof. sc_unf. Qed.
Lemma sc_closing_put (c : sconn hstate) x : sc_closing (put c x) = sc_closing c. Proof. sc_unf. Qed.
Lemma sc_closeRef_put (c : sconn hstate) x : sc_closeRef (put c x) = sc_closeRef c. Proof. sc_unf. Qed.
Lemma sc_expectCont_put (c : sconn hstate) x : sc_expectCont (put c x) = sc_expectCont c. Proof. sc_unf. Qed.
Lemma sc_readerQ_put (c : sconn hstate) x : sc_readerQ (put c x) = sc_readerQ c. Proof. sc_unf. Qed.
Lemma sc_rl_done_put (c : sconn hstate) x : sc_rl_done (put c x) = sc_rl_done c. Proof. sc_unf. Qed.
Lemma sc_sl_done_put (c : sconn hstate) x : sc_sl_done (put c x) = sc_sl_done c. Proof. sc_unf. Qed.
Lemma sc_closer_put (c : sconn hstate) x : sc_closer (put c x) = sc_closer c. Proof. sc_unf. Qed.
Lemma sc_wl_dead_put (c : sconn hstate) x : sc_wl_dead (put c x) = sc_wl_dead c. Proof. sc_unf. Qed.
Lemma sc_now_put (c : sconn hstate) x : sc_now (put c x) = sc_now c. Proof. sc_unf. Qed.
Lemma sc_discardID_put (c : sconn hstate) x : sc_discardID (put c x) = sc_discardID c. Proof. sc_unf. Qed.
Lemma sc_discardPrev_put (c : sconn hstate) x : sc_discardPrev (put c x) = sc_discardPrev c. Proof. sc_unf. Qed.
Lemma sc_discardFields_put (c : sconn hstate) x : sc_discardFields (put c x) = sc_discardFields c. Proof. sc_unf. Qed.
Lemma sc_out_put (c : sconn hstate) x : sc_out (put c x) = sc_out c. Proof. sc_unf. Qed.
Lemma sc_strms_credit_conn_window (c : sconn hstate) cfg n : sc_strms (credit_conn_window cfg c n) = sc_strms c. Proof. sc_unf. Qed.
Lemma sc_gone_credit_conn_window (c : sconn hstate) cfg n : sc_gone (credit_conn_window cfg c n) = sc_gone c. Proof. sc_unf. Qed.
Lemma sc_open_credit_conn_window (c : sconn hstate) cfg n : sc_open (credit_conn_window cfg c n) = sc_open c. Proof. sc_unf. Qed.
Lemma sc_initWin_credit_conn_window (c : sconn hstate) cfg n : sc_initWin (credit_conn_window cfg c n) = sc_initWin c. Proof. sc_unf. Qed.
Lemma sc_ring_credit_conn_window (c : sconn hstate) cfg n : sc_ring (credit_conn_window cfg c n) = sc_ring c. Proof. sc_unf. Qed.
Lemma sc_oldest_credit_conn_window (c : sconn hstate) cfg n : sc_oldest (credit_conn_window cfg c n) = sc_oldest c. Proof. sc_unf. Qed.
Lemma sc_lastID_credit_conn_window (c : sconn hstate) cfg n : sc_lastID (credit_conn_window cfg c n) = sc_lastID c. Proof. sc_unf. Qed.
Lemma sc_highestID_credit_conn_window (c : sconn hstate) cfg n : sc_highestID (credit_conn_window cfg c n) = sc_highestID c. Proof. sc_unf. Qed.
Lemma sc_clientWindow_credit_conn_window (c : sconn hstate) cfg n : sc_clientWindow (credit_conn_window cfg c n) = sc_clientWindow c. Proof. sc_unf. Qed.
Lemma sc_enc_credit_conn_window (c : sconn hstate) cfg n : sc_enc (credit_conn_window cfg c n) = sc_enc c. Proof. sc_unf. Qed.
Lemma sc_dec_credit_conn_window (c : sconn hstate) cfg n : sc_dec (credit_conn_window cfg c n) = sc_dec c. Proof. sc_unf. Qed.
Lemma sc_closing_credit_conn_window (c : sconn hstate) cfg n : sc_closing (credit_conn_window cfg c n) = sc_closing c. Proof. sc_unf. Qed.
Lemma sc_closeRef_credit_conn_window (c : sconn hstate) cfg n : sc_closeRef (credit_conn_window cfg c n) = sc_closeRef c. Proof. sc_unf. Qed.
Lemma sc_expectCont_credit_conn_window (c : sconn hstate) cfg n : sc_expectCont (credit_conn_window cfg c n) = sc_expectCont c. Proof. sc_unf. Qed.
Lemma sc_readerQ_credit_conn_window (c : sconn hstate) cfg n : sc_readerQ (credit_conn_window cfg c n) = sc_readerQ c. Proof. sc_unf. Qed.
Lemma sc_rl_done_credit_conn_window (c : sconn hstate) cfg n : sc_rl_done (credit_conn_window cfg c n) = sc_rl_done c. Proof. sc_unf. Qed.
Lemma sc_sl_done_credit_conn_window (c : sconn hstate) cfg n : sc_sl_done (credit_conn_window cfg c n) = sc_sl_done c. Proof. sc_unf. Qed.
Lemma sc_closer_credit_conn_window (c : sconn hstate) cfg n : sc_closer (credit_conn_window cfg c n) = sc_closer c. Proof. sc_unf. Qed.
Lemma sc_wl_dead_credit_conn_window (c : sconn hstate) cfg n : sc_wl_dead (credit_conn_window cfg c n) = sc_wl_dead c. Proof. sc_unf. Qed.
Lemma sc_now_credit_conn_window (c : sconn hstate) cfg n : sc_now (credit_conn_window cfg c n) = sc_now c. Proof. sc_unf. Qed.
Lemma sc_discardID_credit_conn_window (c : sconn hstate) cfg n : sc_discardID (credit_conn_window cfg c n) = sc_discardID c. Proof. sc_unf. Qed.
Lemma sc_discardPrev_credit_conn_window (c : sconn hstate) cfg n : sc_discardPrev (credit_conn_window cfg c n) = sc_discardPrev c. Proof. sc_unf. Qed.
Lemma sc_discardFields_credit_conn_window (c : sconn hstate) cfg n : sc_discardFields (credit_conn_window cfg c n) = sc_discardFields c. Proof. sc_unf. Qed.
Lemma sc_strms_consume_recv_window (c : sconn hstate) cfg s fr n : sc_strms (consume_recv_window cfg c s fr n) = sc_strms c. Proof. sc_unf. Qed.
Lemma sc_gone_consume_recv_window (c : sconn hstate) cfg s fr n : sc_gone (consume_recv_window cfg c s fr n) = sc_gone c. Proof. sc_unf. Qed.
Lemma sc_open_consume_recv_window (c : sconn hstate) cfg s fr n : sc_open (consume_recv_window cfg c s fr n) = sc_open c. Proof. sc_unf. Qed.
Lemma sc_initWin_consume_recv_window (c : sconn hstate) cfg s fr n : sc_initWin (consume_recv_window cfg c s fr n) = sc_initWin c. Proof. sc_unf. Qed.
Lemma sc_ring_consume_recv_window (c : sconn hstate) cfg s fr n : sc_ring (consume_recv_window cfg c s fr n) = sc_ring c. Proof. sc_unf. Qed.
Lemma sc_oldest_consume_recv_window (c : sconn hstate) cfg s fr n : sc_oldest (consume_recv_window cfg c s fr n) = sc_oldest c. Proof. sc_unf. Qed.
Lemma sc_lastID_consume_recv_window (c : sconn hstate) cfg s fr n : sc_lastID (consume_recv_window cfg c s fr n) = sc_lastID c. Proof. sc_unf. Qed.
Lemma sc_highestID_consume_recv_window (c : sconn hstate) cfg s fr n : sc_highestID (consume_recv_window cfg c s fr n) = sc_highestID c. Proof. sc_unf. Qed.
Lemma sc_clientWindow_consume_recv_window (c : sconn hstate) cfg s fr n : sc_clientWindow (consume_recv_window cfg c s fr n) = sc_clientWindow c. Proof. sc_unf. Qed.
Lemma sc_enc_consume_recv_window (c : sconn hstate) cfg s fr n : sc_enc (consume_recv_window cfg c s fr n) = sc_enc c. Proof. sc_unf. Qed.
Lemma sc_dec_consume_recv_window (c : sconn hstate) cfg s fr n : sc_dec (consume_recv_window cfg c s fr n) = sc_dec c. Proof. sc_unf. Qed.
Lemma sc_closing_consume_recv_window (c : sconn hstate) cfg s fr n : sc_closing (consume_recv_window cfg c s fr n) = sc_closing c. Proof. sc_unf. Qed.
Lemma sc_closeRef_consume_recv_window (c : sconn hstate) cfg s fr n : sc_closeRef (consume_recv_window cfg c s fr n) = sc_closeRef c. Proof. sc_unf. Qed.
Lemma sc_expectCont_consume_recv_window (c : sconn hstate) cfg s fr n : sc_expectCont (consume_recv_window cfg c s fr n) = sc_expectCont c. Proof. sc_unf. Qed.
Lemma sc_readerQ_consume_recv_window (c : sconn hstate) cfg s fr n : sc_readerQ (consume_recv_window cfg c s fr n) = sc_readerQ c. Proof. sc_unf. Qed.
Lemma sc_rl_done_consume_recv_window (c : sconn hstate) cfg s fr n : sc_rl_done (consume_recv_window cfg c s fr n) = sc_rl_done c. Proof. sc_unf. Qed.
Lemma sc_sl_done_consume_recv_window (c : sconn hstate) cfg s fr n : sc_sl_done (consume_recv_window cfg c s fr n) = sc_sl_done c. Proof. sc_unf. Qed.
Lemma sc_closer_consume_recv_window (c : sconn hstate) cfg s fr n : sc_closer (consume_recv_window cfg c s fr n) = sc_closer c. Proof. sc_unf. Qed.
Lemma sc_wl_dead_consume_recv_window (c : sconn hstate) cfg s fr n : sc_wl_dead (consume_recv_window cfg c s fr n) = sc_wl_dead c. Proof. sc_unf. Qed.
Lemma sc_now_consume_recv_window (c : sconn hstate) cfg s fr n : sc_now (consume_recv_window cfg c s fr n) = sc_now c. Proof. sc_unf. Qed.
Lemma sc_discardID_consume_recv_window (c : sconn hstate) cfg s fr n : sc_discardID (consume_recv_window cfg c s fr n) = sc_discardID c. Proof. sc_unf. Qed.
Lemma sc_discardPrev_consume_recv_window (c : sconn hstate) cfg s fr n : sc_discardPrev (consume_recv_window cfg c s fr n) = sc_discardPrev c. Proof. sc_unf. Qed.
Lemma sc_discardFields_consume_recv_window (c : sconn hstate) cfg s fr n : sc_discardFields (consume_recv_window cfg c s fr n) = sc_discardFields c. Proof. sc_unf. Qed.
Lemma sc_strms_rl_exit (c : sconn hstate) why : sc_strms (rl_exit c why) = sc_strms c. Proof. sc_unf. Qed.
Lemma sc_gone_rl_exit (c : sconn hstate) why : sc_gone (rl_exit c why) = sc_gone c. Proof. sc_unf. Qed.
Lemma sc_open_rl_exit (c : sconn hstate) why : sc_open (rl_exit c why) = sc_open c. Proof. sc_unf. Qed.
Lemma sc_initWin_rl_exit (c : sconn hstate) why : sc_initWin (rl_exit c why) = sc_initWin c. Proof. sc_unf. Qed.
Lemma sc_ring_rl_exit (c : sconn hstate) why : sc_ring (rl_exit c why) = sc_ring c. Proof. sc_unf. Qed.
Lemma sc_oldest_rl_exit (c : sconn hstate) why : sc_oldest (rl_exit c why) = sc_oldest c. Proof. sc_unf. Qed.
Lemma sc_lastID_rl_exit (c : sconn hstate) why : sc_lastID (rl_exit c why) = sc_lastID c. Proof. sc_unf. Qed.
Lemma sc_highestID_rl_exit (c : sconn hstate) why : sc_highestID (rl_exit c why) = sc_highestID c. Proof. sc_unf. Qed.
Lemma sc_clientWindow_rl_exit (c : sconn hstate) why : sc_clientWindow (rl_exit c why) = sc_clientWindow c. Proof. sc_unf. Qed.
Lemma sc_currentWindow_rl_exit (c : sconn hstate) why : sc_currentWindow (rl_exit c why) = sc_currentWindow c. Proof. sc_unf. Qed.
Lemma sc_enc_rl_exit (c : sconn hstate) why : sc_enc (rl_exit c why) = sc_enc c. Proof. sc_unf. Qed.
Lemma sc_dec_rl_exit (c : sconn hstate) why : sc_dec (rl_exit c why) = sc_dec c. Proof. sc_unf. Qed.
Lemma sc_closing_rl_exit (c : sconn hstate) why : sc_closing (rl_exit c why) = sc_closing c. Proof. sc_unf. Qed.
Lemma sc_closeRef_rl_exit (c : sconn hstate) why : sc_closeRef (rl_exit c why) = sc_closeRef c. Proof. sc_unf. Qed.
Lemma sc_expectCont_rl_exit (c : sconn hstate) why : sc_expectCont (rl_exit c why) = sc_expectCont c. Proof. sc_unf. Qed.
Lemma sc_readerQ_rl_exit (c : sconn hstate) why : sc_readerQ (rl_exit c why) = sc_readerQ c. Proof. sc_unf. Qed.
Lemma sc_sl_done_rl_exit (c : sconn hstate) why : sc_sl_done (rl_exit c why) = sc_sl_done c. Proof. sc_unf. Qed.
Lemma sc_closer_rl_exit (c : sconn hstate) why : sc_closer (rl_exit c why) = sc_closer c. Proof. sc_unf. Qed.
Lemma sc_wl_dead_rl_exit (c : sconn hstate) why : sc_wl_dead (rl_exit c why) = sc_wl_dead c. Proof. sc_unf. Qed.
Lemma sc_now_rl_exit (c : sconn hstate) why : sc_now (rl_exit c why) = sc_now c. Proof. sc_unf. Qed.
Lemma sc_discardID_rl_exit (c : sconn hstate) why : sc_discardID (rl_exit c why) = sc_discardID c. Proof. sc_unf. Qed.
Lemma sc_discardPrev_rl_exit (c : sconn hstate) why : sc_discardPrev (rl_exit c why) = sc_discardPrev c. Proof. sc_unf. Qed.
Lemma sc_discardFields_rl_exit (c : sconn hstate) why : sc_discardFields (rl_exit c why) = sc_discardFields c. Proof. sc_unf. Qed.
Lemma sc_strms_forward (c : sconn hstate) fr : sc_strms (forward c fr) = sc_strms c. Proof. sc_unf. Qed.
Lemma sc_gone_forward (c : sconn hstate) fr : sc_gone (forward c fr) = sc_gone c. Proof. sc_unf. Qed.
Lemma sc_open_forward (c : sconn hstate) fr : sc_open (forward c fr) = sc_open c. Proof. sc_unf. Qed.
Lemma sc_initWin_forward (c : sconn hstate) fr : sc_initWin (forward c fr) = sc_initWin c. Proof. sc_unf. Qed.
Lemma sc_ring_forward (c : sconn hstate) fr : sc_ring (forward c fr) = sc_ring c. Proof. sc_unf. Qed.
Lemma sc_oldest_forward (c : sconn hstate) fr : sc_oldest (forward c fr) = sc_oldest c. Proof. sc_unf. Qed.
Lemma sc_lastID_forward (c : sconn hstate) fr : sc_lastID (forward c fr) = sc_lastID c. Proof. sc_unf. Qed.
Lemma sc_highestID_forward (c : sconn hstate) fr : sc_highestID (forward c fr) = sc_highestID c. Proof. sc_unf. Qed.
Lemma sc_clientWindow_forward (c : sconn hstate) fr : sc_clientWindow (forward c fr) = sc_clientWindow c. Proof. sc_unf. Qed.
Lemma sc_currentWindow_forward (c : sconn hstate) fr : sc_currentWindow (forward c fr) = sc_currentWindow c. Proof. sc_unf. Qed.
Lemma sc_enc_forward (c : sconn hstate) fr : sc_enc (forward c fr) = sc_enc c. Proof. sc_unf. Qed.
Lemma sc_dec_forward (c : sconn hstate) fr : sc_dec (forward c fr) = sc_dec c. Proof. sc_unf. Qed.
Lemma sc_closing_forward (c : sconn hstate) fr : sc_closing (forward c fr) = sc_closing c. Proof. sc_unf. Qed.
Lemma sc_closeRef_forward (c : sconn hstate) fr : sc_closeRef (forward c fr) = sc_closeRef c. Proof. sc_unf. Qed.
Lemma sc_expectCont_forward (c : sconn hstate) fr : sc_expectCont (forward c fr) = sc_expectCont c. Proof. sc_unf. Qed.
Lemma sc_sl_done_forward (c : sconn hstate) fr : sc_sl_done (forward c fr) = sc_sl_done c. Proof. sc_unf. Qed.
Lemma sc_closer_forward (c : sconn hstate) fr : sc_closer (forward c fr) = sc_closer c. Proof. sc_unf. Qed.
Lemma sc_wl_dead_forward (c : sconn hstate) fr : sc_wl_dead (forward c fr) = sc_wl_dead c. Proof. sc_unf. Qed.
Lemma sc_now_forward (c : sconn hstate) fr : sc_now (forward c fr) = sc_now c. Proof. sc_unf. Qed.
Lemma sc_discardID_forward (c : sconn hstate) fr : sc_discardID (forward c fr) = sc_discardID c. Proof. sc_unf. Qed.
Lemma sc_discardPrev_forward (c : sconn hstate) fr : sc_discardPrev (forward c fr) = sc_discardPrev c. Proof. sc_unf. Qed.
Lemma sc_discardFields_forward (c : sconn hstate) fr : sc_discardFields (forward c fr) = sc_discardFields c. Proof. sc_unf. Qed.
Lemma sc_strms_brk (c : sconn hstate)  : sc_strms (fst (brk c)) = sc_strms c. Proof. sc_unf. Qed.
Lemma sc_gone_brk (c : sconn hstate)  : sc_gone (fst (brk c)) = sc_gone c. Proof. sc_unf. Qed.
Lemma sc_open_brk (c : sconn hstate)  : sc_open (fst (brk c)) = sc_open c. Proof. sc_unf. Qed.
Lemma sc_initWin_brk (c : sconn hstate)  : sc_initWin (fst (brk c)) = sc_initWin c. Proof. sc_unf. Qed.
Lemma sc_ring_brk (c : sconn hstate)  : sc_ring (fst (brk c)) = sc_ring c. Proof. sc_unf. Qed.
Lemma sc_oldest_brk (c : sconn hstate)  : sc_oldest (fst (brk c)) = sc_oldest c. Proof. sc_unf. Qed.
Lemma sc_lastID_brk (c : sconn hstate)  : sc_lastID (fst (brk c)) = sc_lastID c. Proof. sc_unf. Qed.
Lemma sc_highestID_brk (c : sconn hstate)  : sc_highestID (fst (brk c)) = sc_highestID c. Proof. sc_unf. Qed.
Lemma sc_clientWindow_brk (c : sconn hstate)  : sc_clientWindow (fst (brk c)) = sc_clientWindow c. Proof. sc_unf. Qed.
Lemma sc_currentWindow_brk (c : sconn hstate)  : sc_currentWindow (fst (brk c)) = sc_currentWindow c. Proof. sc_unf. Qed.
Lemma sc_enc_brk (c : sconn hstate)  : sc_enc (fst (brk c)) = sc_enc c. Proof. sc_unf. Qed.
Lemma sc_dec_brk (c : sconn hstate)  : sc_dec (fst (brk c)) = sc_dec c. Proof. sc_unf. Qed.
Lemma sc_closing_brk (c : sconn hstate)  : sc_closing (fst (brk c)) = sc_closing c. Proof. sc_unf. Qed.
Lemma sc_closeRef_brk (c : sconn hstate)  : sc_closeRef (fst (brk c)) = sc_closeRef c. Proof. sc_unf. Qed.
Lemma sc_expectCont_brk (c : sconn hstate)  : sc_expectCont (fst (brk c)) = sc_expectCont c. Proof. sc_unf. Qed.
Lemma sc_readerQ_brk (c : sconn hstate)  : sc_readerQ (fst (brk c)) = sc_readerQ c. Proof. sc_unf. Qed.
Lemma sc_rl_done_brk (c : sconn hstate)  : sc_rl_done (fst (brk c)) = sc_rl_done c. Proof. sc_unf. Qed.
Lemma sc_closer_brk (c : sconn hstate)  : sc_closer (fst (brk c)) = sc_closer c. Proof. sc_unf. Qed.
Lemma sc_wl_dead_brk (c : sconn hstate)  : sc_wl_dead (fst (brk c)) = sc_wl_dead c. Proof. sc_unf. Qed.
Lemma sc_now_brk (c : sconn hstate)  : sc_now (fst (brk c)) = sc_now c. Proof. sc_unf. Qed.
Lemma sc_discardID_brk (c : sconn hstate)  : sc_discardID (fst (brk c)) = sc_discardID c. Proof. sc_unf. Qed.
Lemma sc_discardPrev_brk (c : sconn hstate)  : sc_discardPrev (fst (brk c)) = sc_discardPrev c. Proof. sc_unf. Qed.
Lemma sc_discardFields_brk (c : sconn hstate)  : sc_discardFields (fst (brk c)) = sc_discardFields c. Proof. sc_unf. Qed.
End Proj.

(* END GENERATED *)

Section Strms.

Lemma strms_search_In l id s : strms_search l id = Some s -> In s l /\ st_id s = id.
Proof.
  induction l as [|x t IH]; cbn [strms_search]; [discriminate|].
  destruct (st_id x =? id) eqn:E; intro H.
  - inversion H; subst. split; [left; reflexivity | lia].
  - destruct (IH H); split; [right|]; assumption.
Qed.

Lemma strms_search_None l id : strms_search l id = None -> forall s, In s l -> st_id s <> id.
Proof.
  induction l as [|x t IH]; cbn [strms_search]; intros H s []; subst.
  - destruct (st_id s =? id) eqn:E; [discriminate | lia].
  - destruct (st_id x =? id); [discriminate | auto].
Qed.

Lemma strms_search_app_None l l' id : strms_search l id = None -> strms_search (l ++ l') id = strms_search l' id.
Proof.
  induction l as [|x t IH]; cbn [strms_search app]; [reflexivity|].
  destruct (st_id x =? id); [discriminate | assumption].
Qed.

Lemma strms_put_length l x : length (strms_put l x) = length l.
Proof. induction l as [|s t IH]; cbn [strms_put length]; [reflexivity|]. destruct (st_id s =? st_id x); cbn [length]; congruence. Qed.

Lemma strms_put_ids l x : map st_id (strms_put l x) = map st_id l.
Proof.
  induction l as [|s t IH]; cbn [strms_put map]; [reflexivity|].
  destruct (st_id s =? st_id x) eqn:E; cbn [map]; [f_equal; lia | congruence].
Qed.

(* what is in the table after a write-back: the old streams, except that one with x's id may have become x *)
Lemma strms_put_In l x s : In s (strms_put l x) -> s = x \/ In s l.
Proof.
  induction l as [|y t IH]; cbn [strms_put]; [intros []|].
  destruct (st_id y =? st_id x); cbn [In]; intros [H|H]; auto.
  destruct (IH H); auto.
Qed.

Lemma strms_put_Forall (P : stream -> Prop) l x : Forall P l -> P x -> Forall P (strms_put l x).
Proof.
  intros Hl Hx. apply Forall_forall. intros s Hs. destruct (strms_put_In _ _ _ Hs); [subst; assumption|].
  rewrite Forall_forall in Hl. auto.
Qed.

Lemma strms_del_In l id s : In s (strms_del l id) -> In s l.
Proof.
  induction l as [|y t IH]; cbn [strms_del]; [intros []|].
  destruct (st_id y =? id); cbn [In]; intros H; [right; assumption|]. destruct H; auto.
Qed.

Lemma strms_del_Forall (P : stream -> Prop) l id : Forall P l -> Forall P (strms_del l id).
Proof. intros Hl. apply Forall_forall. intros s Hs. rewrite Forall_forall in Hl. eauto using strms_del_In. Qed.

Lemma strms_del_length l id : (length (strms_del l id) <= length l)%nat.
Proof. induction l as [|y t IH]; cbn [strms_del length]; [lia|]. destruct (st_id y =? id); cbn [length]; lia. Qed.

Lemma strms_del_length_found l id s : strms_search l id = Some s -> S (length (strms_del l id)) = length l.
Proof.
  induction l as [|y t IH]; cbn [strms_del strms_search length]; [discriminate|].
  destruct (st_id y =? id); cbn [length]; [reflexivity|]. intro H. rewrite (IH H). reflexivity.
Qed.

Lemma strms_del_notfound l id : strms_search l id = None -> strms_del l id = l.
Proof.
  induction l as [|y t IH]; cbn [strms_del strms_search]; [reflexivity|].
  destruct (st_id y =? id); [discriminate|]. intro H. rewrite (IH H). reflexivity.
Qed.

Lemma take_stream_Some l id s rest : take_stream l id = Some (s, rest) ->
  st_id s = id /\ In s l /\ length l = S (length rest) /\ (forall x, In x rest -> In x l) /\
  (forall x, In x l -> x = s \/ In x rest).
Proof.
  revert s rest. induction l as [|y t IH]; cbn [take_stream]; [discriminate|]. intros s rest.
  destruct (st_id y =? id) eqn:E.
  - intro H; inversion H; subst. cbn [In length]. repeat split; auto; try lia. intros x [|]; auto.
  - destruct (take_stream t id) as [[x t']|] eqn:T; [|discriminate]. intro H; inversion H; subst.
    destruct (IH _ _ eq_refl) as (A & B & C & D & F). cbn [In length]. repeat split; auto; try lia.
    + intros z [|]; auto.
    + intros z [|Hz]; auto. destruct (F z Hz); auto.
Qed.

Lemma take_stream_None l id : take_stream l id = None -> forall s, In s l -> st_id s <> id.
Proof.
  induction l as [|y t IH]; cbn [take_stream]; intros H s []; subst.
  - destruct (st_id s =? id) eqn:E; [discriminate | lia].
  - destruct (st_id y =? id); [discriminate|]. destruct (take_stream t id) as [[]|]; [discriminate | auto].
Qed.

Lemma fkind_eqb_eq a b : fkind_eqb a b = true <-> a = b.
Proof. destruct a, b; cbn; split; congruence. Qed.
Lemma search_put_same l x old :
  strms_search l (st_id x) = Some old -> strms_search (strms_put l x) (st_id x) = Some x.
Proof.
  induction l as [|y t IH]; cbn [strms_search strms_put]; [discriminate|].
  destruct (st_id y =? st_id x) eqn:E; intro H; cbn [strms_search].
  - rewrite N.eqb_refl. reflexivity.
  - rewrite E. auto.
Qed.
Lemma search_put_other l x id : id <> st_id x -> strms_search (strms_put l x) id = strms_search l id.
Proof.
  intro Hn. induction l as [|y t IH]; cbn [strms_search strms_put]; [reflexivity|].
  destruct (st_id y =? st_id x) eqn:E; cbn [strms_search].
  - replace (st_id x =? id) with false by lia. replace (st_id y =? id) with false by lia. reflexivity.
  - rewrite IH. reflexivity.
Qed.
Lemma put_none l x : strms_search l (st_id x) = None -> strms_put l x = l.
Proof.
  induction l as [|y t IH]; cbn [strms_search strms_put]; [reflexivity|].
  destruct (st_id y =? st_id x); [discriminate|]. intro H. rewrite (IH H). reflexivity.
Qed.
Lemma search_del_other l id id' : id <> id' -> strms_search (strms_del l id') id = strms_search l id.
Proof.
  intro Hn. induction l as [|y t IH]; cbn [strms_search strms_del]; [reflexivity|].
  destruct (st_id y =? id') eqn:E.
  - replace (st_id y =? id) with false by lia. reflexivity.
  - cbn [strms_search]. rewrite IH. reflexivity.
Qed.
Lemma search_app_last l s : strms_search l (st_id s) = None -> strms_search (l ++ [s]) (st_id s) = Some s.
Proof.
  intro H. rewrite strms_search_app_None by assumption. cbn [strms_search]. rewrite N.eqb_refl. reflexivity.
Qed.
Lemma NoDup_app_one (A : Type) (l : list A) (x : A) : NoDup l -> ~ In x l -> NoDup (l ++ [x]).
Proof.
  intros ND NI. induction l as [|a t IH]; cbn [app]; [constructor; [intros []|constructor]|].
  inversion ND as [|a' t' Ha NDt]; subst. constructor.
  - intro I. apply in_app_or in I. destruct I as [I|[I|[]]]; [auto|]. subst. apply NI. left. reflexivity.
  - apply IH; [assumption|]. intro I. apply NI. right. assumption.
Qed.
Lemma NoDup_search l p : NoDup (map st_id l) -> In p l -> strms_search l (st_id p) = Some p.
Proof.
  induction l as [|y t IH]; cbn [map strms_search]; intros ND []; inversion ND as [|a b Hn ND']; subst.
  - rewrite N.eqb_refl. reflexivity.
  - destruct (st_id y =? st_id p) eqn:E; [|auto].
    exfalso. apply Hn. replace (st_id y) with (st_id p) by lia. apply in_map. assumption.
Qed.
Lemma get_previous_headers_In l p : get_previous_headers l = Some p -> In p l.
Proof.
  unfold get_previous_headers.
  destruct (filter _ (rev l)) as [|a [|b r]] eqn:F; try discriminate. intro H; inversion H; subst.
  assert (I : In p (filter (fun s => fkind_eqb (st_orig s) KHeaders) (rev l))) by (rewrite F; right; left; reflexivity).
  apply filter_In in I. destruct I as [I _]. apply in_rev. assumption.
Qed.
Lemma strms_del_ids_incl l id x : In x (map st_id (strms_del l id)) -> In x (map st_id l).
Proof.
  induction l as [|y t IH]; cbn [strms_del map]; [intros []|].
  destruct (st_id y =? id); cbn [map In]; intros H; [right; assumption|]. destruct H; auto.
Qed.
Lemma strms_del_NoDup l id : NoDup (map st_id l) -> NoDup (map st_id (strms_del l id)).
Proof.
  induction l as [|y t IH]; cbn [strms_del map]; intro H; [constructor|].
  inversion H; subst. destruct (st_id y =? id); [assumption|]. cbn [map]. constructor; [|auto].
  intro Hin. apply strms_del_ids_incl in Hin. contradiction.
Qed.
Lemma strms_del_not_In l id s : NoDup (map st_id l) -> In s (strms_del l id) -> st_id s <> id.
Proof.
  induction l as [|y t IH]; cbn [strms_del map]; intros H Hin; [destruct Hin|].
  inversion H; subst. destruct (st_id y =? id) eqn:E.
  - intro Hs. apply H2. replace (st_id y) with (st_id s) by lia. apply in_map. assumption.
  - destruct Hin as [->|Hin]; [lia | auto].
Qed.
Lemma strms_put_In_strong l x s : NoDup (map st_id l) -> In s (strms_put l x) ->
  s = x \/ (In s l /\ st_id s <> st_id x).
Proof.
  induction l as [|y t IH]; cbn [strms_put map]; intros ND Hin; [destruct Hin|].
  inversion ND; subst. destruct (st_id y =? st_id x) eqn:E; cbn [In] in Hin.
  - destruct Hin as [<-|Hin]; [left; reflexivity|]. right. split; [right; assumption|].
    intro F. apply H1. replace (st_id y) with (st_id s) by lia. apply in_map. assumption.
  - destruct Hin as [<-|Hin]; [right; split; [left; reflexivity | lia]|].
    destruct (IH H2 Hin) as [->|[A B]]; [left; reflexivity | right; split; [right; assumption | assumption]].
Qed.
Lemma NoDup_map_inj (A B : Type) (f : A -> B) l x y : NoDup (map f l) -> In x l -> In y l -> f x = f y -> x = y.
Proof.
  induction l as [|a l IH]; cbn [map]; intros ND [] [] E; inversion ND as [|? ? Hn ND']; subst; auto.
  - exfalso. apply Hn. rewrite E. apply in_map. assumption.
  - exfalso. apply Hn. rewrite <- E. apply in_map. assumption.
Qed.
Lemma put_In_other l x s : In s l -> st_id s <> st_id x -> In s (strms_put l x).
Proof.
  induction l as [|y t IH]; cbn [strms_put]; [intros []|]. intros [->|I] Hn.
  - replace (st_id s =? st_id x) with false by lia. left. reflexivity.
  - destruct (st_id y =? st_id x); right; auto.
Qed.
Lemma del_In_other l id s : In s l -> st_id s <> id -> In s (strms_del l id).
Proof.
  induction l as [|y t IH]; cbn [strms_del]; [intros []|]. intros [->|I] Hn.
  - replace (st_id s =? id) with false by lia. left. reflexivity.
  - destruct (st_id y =? id); [assumption | right; auto].
Qed.
Lemma set_nth_N_In l i x e : In e (set_nth_N l i x) -> e = x \/ In e l.
Proof.
  revert i. induction l as [|h t IH]; intros i; cbn [set_nth_N]; [destruct i; intros []|].
  destruct i; cbn [In]; intros [H|H]; auto. destruct (IH _ H); auto.
Qed.

Lemma search_del_same l id : NoDup (map st_id l) -> strms_search (strms_del l id) id = None.
Proof.
  induction l as [|y t IH]; cbn [strms_del map]; intro ND; [reflexivity|]. inversion ND; subst.
  destruct (st_id y =? id) eqn:E.
  - destruct (strms_search t id) as [z|] eqn:F; [|reflexivity].
    exfalso. apply strms_search_In in F. destruct F as [Hin Hid]. apply H1. replace (st_id y) with (st_id z) by lia.
    apply in_map. exact Hin.
  - cbn [strms_search]. rewrite E. apply IH. assumption.
Qed.

Lemma strms_search_del_put l x : NoDup (map st_id l) -> strms_search (strms_del (strms_put l x) (st_id x)) (st_id x) = None.
Proof. intro ND. apply search_del_same. rewrite strms_put_ids. exact ND. Qed.

Lemma search_notin l id : ~ In id (map st_id l) -> strms_search l id = None.
Proof.
  induction l as [|h t IH]; cbn [strms_search map In]; [reflexivity|]. intro H.
  destruct (st_id h =? id) eqn:E; [exfalso; apply H; left; lia | apply IH; tauto].
Qed.

Lemma strms_del_put l x : strms_del (strms_put l x) (st_id x) = strms_del l (st_id x).
Proof.
  induction l as [|y t IH]; cbn [strms_put strms_del]; [reflexivity|].
  destruct (st_id y =? st_id x) eqn:E; cbn [strms_del]; [rewrite N.eqb_refl | rewrite E, IH]; reflexivity.
Qed.

Lemma filter_rev {A} (f : A -> bool) l : filter f (rev l) = rev (filter f l).
Proof.
  induction l as [|a t IH]; [reflexivity|]. cbn [rev filter]. rewrite filter_app, IH. cbn [filter].
  destruct (f a); cbn [rev]; [reflexivity | rewrite app_nil_r; reflexivity].
Qed.

End Strms.

(* the small helpers: what they DO change *)
Section Helpers.
Variable hstate : Type.
Implicit Types c : sconn hstate.

Lemma sc_out_emit c o :
  sc_out (emit c o) = if sc_wl_dead c then sc_out c else if sc_sl_done c then OLate o :: sc_out c else o :: sc_out c.
Proof. unfold emit. destruct (sc_wl_dead c); [reflexivity|]. destruct (sc_sl_done c); reflexivity. Qed.

(* emit changes sc_out only *)
Lemma emit_eq c o : emit c o = upd_out c (sc_out (emit c o)).
Proof. unfold emit. destruct c; cbn. destruct sc_wl_dead; [reflexivity|]. destruct sc_sl_done; reflexivity. Qed.

Lemma emit_In c o x : In x (sc_out (emit c o)) -> In x (sc_out c) \/ x = o \/ x = OLate o.
Proof.
  rewrite sc_out_emit. destruct (sc_wl_dead c); [auto|]. destruct (sc_sl_done c); cbn [In]; intros [H|H]; auto.
Qed.

Lemma emit_incl c o x : In x (sc_out c) -> In x (sc_out (emit c o)).
Proof. rewrite sc_out_emit. destruct (sc_wl_dead c); [auto|]. destruct (sc_sl_done c); cbn [In]; auto. Qed.

(* while the stream loop runs nothing is OLate *)
Lemma sc_out_emit_live c o : sc_sl_done c = false -> sc_out (emit c o) = sc_out c \/ sc_out (emit c o) = o :: sc_out c.
Proof. intro H. rewrite sc_out_emit, H. destruct (sc_wl_dead c); auto. Qed.

Lemma sc_out_note c o : sc_out (note c o) = o :: sc_out c.
Proof. reflexivity. Qed.

Lemma sc_out_write_reset c sid code : sc_out (write_reset c sid code) = sc_out (emit c (ORst sid code)).
Proof. reflexivity. Qed.

Lemma write_goaway_eq c sid code :
  write_goaway c sid code =
  emit (upd_closing c true (if sid =? 0 then sc_closeRef c else sc_lastID c)) (OGoAway (sc_lastID c) code).
Proof. reflexivity. Qed.

Lemma sc_closing_write_goaway c sid code : sc_closing (write_goaway c sid code) = true.
Proof. rewrite write_goaway_eq. unfold emit. sc_split_ifs; reflexivity. Qed.

Lemma sc_out_write_goaway c sid code :
  sc_out (write_goaway c sid code) =
  if sc_wl_dead c then sc_out c
  else if sc_sl_done c then OLate (OGoAway (sc_lastID c) code) :: sc_out c else OGoAway (sc_lastID c) code :: sc_out c.
Proof. rewrite write_goaway_eq, sc_out_emit. reflexivity. Qed.

(* writeError: a GOAWAY unless it is a stream error on a known stream (RST_STREAM) or a panic (nothing) *)
Lemma write_error_fst c s e :
  fst (write_error c s e) =
  match e, s with
  | EGoAway code, None => write_goaway c 0 code
  | EGoAway code, Some st => write_goaway c (st_id st) code
  | EReset code, None => write_goaway c 0 code
  | EReset code, Some st => write_reset c (st_id st) code
  | EPanic, _ => c
  end.
Proof. destruct e, s; reflexivity. Qed.

Lemma write_error_snd c s e :
  snd (write_error c s e) =
  match e, s with
  | EGoAway _, Some st => Some (set_state st SClosed)
  | EReset _, Some st => Some (set_state (set_weReset st) SClosed)
  | EPanic, _ => s
  | _, None => None
  end.
Proof. destruct e, s; reflexivity. Qed.

(* closing is only ever set *)
Lemma sc_closing_write_error c s e : sc_closing c = true -> sc_closing (fst (write_error c s e)) = true.
Proof.
  intro H. rewrite write_error_fst. destruct e, s; auto using sc_closing_write_goaway.
  unfold write_reset, emit. sc_split_ifs; assumption.
Qed.

Lemma mark_closed_ring_length c id w :
  (length (sc_ring c) <= N.to_nat closedStrmsCap -> length (sc_ring (mark_closed c id w)) <= N.to_nat closedStrmsCap)%nat.
Proof.
  assert (L : forall l i x, length (set_nth_N l i x) = length l).
  { induction l as [|h t IH]; intros [|i] x; cbn [set_nth_N length]; auto. }
  intro H. unfold mark_closed. destruct (in_ring c id); [assumption|].
  destruct (N.of_nat (length (sc_ring c)) <? closedStrmsCap) eqn:E; cbn [sc_ring upd_ring].
  - rewrite app_length. cbn [length]. lia.
  - rewrite L. assumption.
Qed.

Lemma sc_open_release_stream c s :
  sc_open (release_stream c s) = if fkind_eqb (st_orig s) KHeaders then (sc_open c - 1)%Z else sc_open c.
Proof. unfold release_stream, note. destruct (fkind_eqb (st_orig s) KHeaders); reflexivity. Qed.

Lemma sc_out_release_stream c s : sc_out (release_stream c s) = ORelease (st_id s) true :: sc_out c.
Proof. unfold release_stream, note. destruct (fkind_eqb (st_orig s) KHeaders); reflexivity. Qed.

Lemma sc_strms_put c x : sc_strms (put c x) = strms_put (sc_strms c) x.
Proof. reflexivity. Qed.

(* closeStream, field by field. The stream handed in is `s`; what goes to sc_gone / the pool is `s` with its
   body stream closed (and the abandoned flag set). *)
Definition closed_body (s : stream) : stream :=
  set_snd s (mkSnd (st_window s) (st_pending s) (st_pendingEnd s) None (st_bodySize s) (st_bodyRead s)).

(* the reset-in-mid-header-block adjustment of closeStream: only the discard registers change *)
Definition close_discard c (s : stream) : sconn hstate :=
  if st_weReset s && negb (st_headersFinished s) && negb (sc_discardID c =? st_id s)
  then upd_discard c (st_id s) (st_prev s) (st_blockFields s) else c.

Lemma close_stream_eq c s :
  close_stream c s =
  let c2 := close_discard (upd_strms (mark_closed c (st_id s) (st_weReset s)) (strms_del (sc_strms c) (st_id s))) s in
  if st_handlerRunning s
  then upd_gone c2 (set_flags (closed_body s) (st_responded s) true true :: sc_gone c)
  else release_stream c2 (closed_body s).
Proof.
  unfold close_stream, closed_body, close_discard.
  replace (sc_strms (mark_closed c (st_id s) (st_weReset s))) with (sc_strms c) by (symmetry; sc_unf).
  cbv zeta.
  match goal with |- context [upd_gone ?X (?h :: sc_gone ?X)] =>
    replace (sc_gone X) with (sc_gone c) by (symmetry; unfold mark_closed; sc_split_ifs; reflexivity) end.
  reflexivity.
Qed.

Ltac close_tac := rewrite close_stream_eq; cbv zeta; unfold close_discard, release_stream, note, mark_closed, closed_body;
  cbn [set_snd st_orig st_id st_handlerRunning];
  sc_split_ifs; sc_cbn; first [reflexivity | congruence].

Lemma sc_strms_close_stream c s : sc_strms (close_stream c s) = strms_del (sc_strms c) (st_id s).
Proof. close_tac. Qed.

Lemma sc_gone_close_stream c s :
  sc_gone (close_stream c s) =
  if st_handlerRunning s then set_flags (closed_body s) (st_responded s) true true :: sc_gone c else sc_gone c.
Proof. close_tac. Qed.

Lemma sc_open_close_stream c s :
  sc_open (close_stream c s) =
  if st_handlerRunning s then sc_open c
  else if fkind_eqb (st_orig s) KHeaders then (sc_open c - 1)%Z else sc_open c.
Proof. close_tac. Qed.

Lemma sc_out_close_stream c s :
  sc_out (close_stream c s) = if st_handlerRunning s then sc_out c else ORelease (st_id s) true :: sc_out c.
Proof. close_tac. Qed.

Lemma sc_ring_close_stream c s : sc_ring (close_stream c s) = sc_ring (mark_closed c (st_id s) (st_weReset s)).
Proof. close_tac. Qed.

(* what the read loop does with a frame once the CONTINUATION bookkeeping is done (the inner part of rl_step) *)
Definition rl_dispatch c1 (fr : sframe) : sconn hstate :=
  if negb (sf_sid fr =? 0) then
    match check_frame_with_stream fr with
    | Some e => rl_exit (fst (write_error c1 None e)) 1
    | None => forward c1 fr
    end
  else
    match sf_kind fr with
    | KSettings => if negb (flag_has (sf_flags fr) FL_ES) then forward c1 fr else c1
    | KWinUpd => if sf_inc fr =? 0 then rl_exit (write_goaway c1 0 c_ProtocolError) 1 else forward c1 fr
    | KPing => if negb (flag_has (sf_flags fr) FL_ES) then emit c1 (OPingAck (sf_payload fr)) else c1
    | KGoAway => rl_exit c1 (if sf_code fr =? c_NoError then 0 else 4)
    | _ => rl_exit (write_goaway c1 0 c_ProtocolError) 1
    end.

Lemma rl_step_dispatch cfg c fr :
  rl_step cfg c (RFrame fr) =
  match (if negb (sc_expectCont c =? 0) then
           if negb (fkind_eqb (sf_kind fr) KCont) || negb (sf_sid fr =? sc_expectCont c) then
             inl (rl_exit (write_goaway c 0 c_ProtocolError) 1)
           else if flag_has (sf_flags fr) FL_EH then inr (upd_expectCont c 0) else inr c
         else if fkind_eqb (sf_kind fr) KCont then inl (rl_exit (write_goaway c 0 c_ProtocolError) 1)
         else if fkind_eqb (sf_kind fr) KHeaders && negb (flag_has (sf_flags fr) FL_EH) then inr (upd_expectCont c (sf_sid fr))
         else inr c) with
  | inl c' => c'
  | inr c1 => rl_dispatch c1 fr
  end.
Proof. reflexivity. Qed.

Lemma sc_rl_done_rl_exit c why : sc_rl_done (rl_exit c why) = true.
Proof. reflexivity. Qed.
Lemma sc_out_rl_exit c why : sc_out (rl_exit c why) = OExit 0 why :: sc_out c.
Proof. reflexivity. Qed.
Lemma sc_sl_done_brk c : sc_sl_done (fst (brk c)) = true.
Proof. reflexivity. Qed.
Lemma sc_out_brk c : sc_out (fst (brk c)) = OExit 1 0 :: sc_out c.
Proof. reflexivity. Qed.
Lemma snd_brk c : snd (brk c) = true. Proof. reflexivity. Qed.
Lemma snd_cont c : snd (cont c) = false. Proof. reflexivity. Qed.
Lemma fst_cont c : fst (cont c) = c. Proof. reflexivity. Qed.

End Helpers.
Arguments rl_dispatch {hstate}.

(* everything header_field does, by outcome; `over`: the header list is above the configured limit *)
Lemma header_field_spec cfg h k v :
  let size := (hd_headerListSize h + Z.of_N (len k) + Z.of_N (len v) + 32)%Z in
  let over := ((0 <? cf_maxHeaderList cfg) && (cf_maxHeaderList cfg <? size))%Z%bool in
  match header_field cfg h k v with
  | inl (EGoAway code) => over = true /\ code = c_EnhanceYourCalm
  | inl (EReset code) =>
    over = false /\ (code = c_ProtocolError \/ (code = c_EnhanceYourCalm /\ bytes_eqb k S_content_length = true))
  | inl EPanic => False
  | inr h' => over = false /\ hd_prev h' = hd_prev h /\ hd_blockFields h' = hd_blockFields h + 1 /\
              hd_headersFinished h' = hd_headersFinished h /\ hd_headerListSize h' = size
  end.
Proof.
  unfold header_field. cbv zeta. destruct (_ && _)%bool; [split; reflexivity|].
  destruct (has_upper_case k); [auto|]. destruct (is_pseudo k).
  - destruct (hd_regularSeen _); [auto|].
    destruct (bytes_eqb k S_method); [destruct (hd_pMethod _); cbn; auto 6|].
    destruct (bytes_eqb k S_path); [destruct (hd_pPath _); cbn; auto 6|].
    destruct (bytes_eqb k S_scheme); [destruct (hd_pScheme _); cbn; auto 6|].
    destruct (bytes_eqb k S_authority); [destruct (hd_pAuth _); cbn; auto 6 | auto].
  - destruct (is_connection_specific k); [auto|]. destruct (_ && _)%bool; [auto|].
    destruct (bytes_eqb k S_content_length); [|cbn; auto 6].
    destruct (parse_uint v); [|auto]. destruct (_ && _)%bool; [auto|]. destruct (_ && _)%bool; cbn; auto 6.
Qed.

Section Run.
Variable hstate : Type.
Variable dec_field : hstate -> N -> bytes -> dec_res hstate.
Variable enc_field : hstate -> bytes -> bytes -> bool -> bytes * hstate.
Variable enc_set_max : hstate -> N -> hstate.
Variable cfg : config.
Variable h0 : hstate.

Notation step := (step dec_field enc_field enc_set_max cfg).
Notation run := (run dec_field enc_field enc_set_max cfg h0).
Notation sconn := (sconn hstate).

(* the state reached from any state (run = run_from init) *)
Definition run_from (c : sconn) (evs : list event) : sconn := fold_left step evs c.

Lemma run_eq evs : run evs = run_from (init_conn cfg h0) evs.
Proof. reflexivity. Qed.
Lemma run_nil : run [] = init_conn cfg h0.
Proof. reflexivity. Qed.
Lemma run_from_app c evs1 evs2 : run_from c (evs1 ++ evs2) = run_from (run_from c evs1) evs2.
Proof. apply fold_left_app. Qed.
Lemma run_app evs1 evs2 : run (evs1 ++ evs2) = run_from (run evs1) evs2.
Proof. apply fold_left_app. Qed.
Lemma run_snoc evs e : run (evs ++ [e]) = step (run evs) e.
Proof. rewrite run_app. reflexivity. Qed.
Lemma run_from_cons c e evs : run_from c (e :: evs) = run_from (step c e) evs.
Proof. reflexivity. Qed.
Lemma run_from_nil c : run_from c [] = c.
Proof. reflexivity. Qed.

Inductive reachable : sconn -> Prop :=
| reach_init : reachable (init_conn cfg h0)
| reach_step c e : reachable c -> reachable (step c e).

Lemma run_from_reachable c evs : reachable c -> reachable (run_from c evs).
Proof. revert c. induction evs as [|e evs IH]; intros c H; [assumption|]. rewrite run_from_cons. apply IH. constructor. assumption. Qed.
Lemma run_reachable evs : reachable (run evs).
Proof. rewrite run_eq. apply run_from_reachable. constructor. Qed.
Lemma reachable_run c : reachable c -> exists evs, c = run evs.
Proof.
  induction 1 as [|c e _ [evs ->]]; [exists []; reflexivity|]. exists (evs ++ [e]). symmetry. apply run_snoc.
Qed.

(* invariants over all event lists *)
Lemma run_from_ind (P : sconn -> Prop) :
  (forall c e, P c -> P (step c e)) -> forall evs c, P c -> P (run_from c evs).
Proof. intros Hs evs. induction evs as [|e evs IH]; intros c H; [assumption|]. rewrite run_from_cons. apply IH, Hs, H. Qed.

Lemma run_ind (P : sconn -> Prop) :
  P (init_conn cfg h0) -> (forall c e, P c -> P (step c e)) -> forall evs, P (run evs).
Proof. intros Hi Hs evs. rewrite run_eq. apply run_from_ind; assumption. Qed.

(* the same with reachability of c available in the step case (so that earlier invariants can be used) *)
Lemma run_ind_reach (P : sconn -> Prop) :
  P (init_conn cfg h0) -> (forall c e, reachable c -> P c -> P (step c e)) -> forall evs, P (run evs).
Proof.
  intros Hi Hs evs.
  assert (H : reachable (run evs) /\ P (run evs)); [|apply H].
  apply (run_ind (fun c => reachable c /\ P c)).
  - split; [constructor | assumption].
  - intros c e [R H]. split; [constructor; assumption | auto].
Qed.

Lemma reachable_ind_inv (P : sconn -> Prop) :
  P (init_conn cfg h0) -> (forall c e, reachable c -> P c -> P (step c e)) -> forall c, reachable c -> P c.
Proof. intros Hi Hs c R. induction R; auto. Qed.

(* a property of pairs (state, next state): holds along every run *)
Lemma run_from_rel (R : sconn -> sconn -> Prop) :
  (forall c, R c c) -> (forall a b c, R a b -> R b c -> R a c) -> (forall c e, R c (step c e)) ->
  forall evs c, R c (run_from c evs).
Proof.
  intros Hr Ht Hs evs. induction evs as [|e evs IH]; intros c; [apply Hr|].
  rewrite run_from_cons. eapply Ht; [apply Hs | apply IH].
Qed.

(* step, event by event (all by computation) *)
Lemma step_EvRL c i : step c (EvRL i) = if sc_rl_done c then c else rl_step cfg c i.
Proof. reflexivity. Qed.
Lemma step_EvSL c : step c EvSL =
  if sc_sl_done c then c
  else match sc_readerQ c with
       | [] => if sc_rl_done c then note (upd_done c true true) (OExit 1 1) else c
       | fr :: q => fst (sl_frame dec_field enc_set_max cfg (upd_readerQ c q) fr)
       end.
Proof. reflexivity. Qed.
Lemma step_EvDone c sid r : step c (EvDone sid r) = if sc_sl_done c then c else fst (sl_done enc_field cfg c sid r).
Proof. reflexivity. Qed.
Lemma step_EvClock c t : step c (EvClock t) = if (sc_now c <? t)%Z then upd_now c t else c.
Proof. reflexivity. Qed.
Lemma step_EvTimer c : step c EvTimer = if sc_sl_done c then c else fst (sl_timer cfg c).
Proof. reflexivity. Qed.
Lemma step_EvIdle c : step c EvIdle = upd_closer (write_goaway c 0 c_NoError) true.
Proof. reflexivity. Qed.
Lemma step_EvCloser c : step c EvCloser = if sc_closer c && negb (sc_sl_done c) then fst (brk c) else c.
Proof. reflexivity. Qed.
Lemma step_EvWriteFail c : step c EvWriteFail = upd_wl_dead c true.
Proof. reflexivity. Qed.

Lemma trace_In (c : sconn) o : In o (trace c) <-> In o (sc_out c).
Proof. unfold trace. symmetry. apply in_rev. Qed.

End Run.

Arguments run_from {hstate}.
Arguments reachable {hstate}.
Arguments closed_body s : simpl never.

(* the helpers as setters: after rewriting with one of these, sc_cbn computes any projection *)
Section HelperEqs.
Variable hstate : Type.
Implicit Types c : sconn hstate.

Lemma write_goaway_upd c sid code :
  write_goaway c sid code =
  upd_out (upd_closing c true (if sid =? 0 then sc_closeRef c else sc_lastID c)) (sc_out (write_goaway c sid code)).
Proof. rewrite write_goaway_eq at 1. rewrite emit_eq. reflexivity. Qed.

Lemma mark_closed_eq c id w :
  mark_closed c id w = upd_ring c (sc_ring (mark_closed c id w)) (sc_oldest (mark_closed c id w)).
Proof. unfold mark_closed. destruct (in_ring c id); [|destruct (_ <? _)]; destruct c; reflexivity. Qed.

Lemma release_stream_eq c s :
  release_stream c s = upd_out (upd_open c (sc_open (release_stream c s))) (ORelease (st_id s) true :: sc_out c).
Proof. unfold release_stream, note. destruct (fkind_eqb (st_orig s) KHeaders); destruct c; reflexivity. Qed.

Lemma credit_conn_window_eq cfg c n :
  credit_conn_window cfg c n =
  upd_out (upd_currentWindow c (sc_currentWindow (credit_conn_window cfg c n))) (sc_out (credit_conn_window cfg c n)).
Proof.
  unfold credit_conn_window, write_window_update. destruct (n <=? 0)%Z; [destruct c; reflexivity|]. cbv zeta.
  destruct (_ <? _)%Z; [rewrite emit_eq|]; destruct c; reflexivity.
Qed.

Lemma consume_recv_window_eq cfg c s fr n :
  consume_recv_window cfg c s fr n =
  upd_out (upd_currentWindow c (sc_currentWindow (consume_recv_window cfg c s fr n)))
          (sc_out (consume_recv_window cfg c s fr n)).
Proof.
  unfold consume_recv_window. destruct (n <=? 0)%Z; [destruct c; reflexivity|]. cbv zeta.
  rewrite credit_conn_window_eq. destruct (flag_has (sf_flags fr) FL_ES); [reflexivity|].
  unfold write_window_update. rewrite emit_eq. reflexivity.
Qed.
End HelperEqs.
