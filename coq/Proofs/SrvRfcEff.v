(* Proofs/SrvRfcEff.v - C08: what the helpers of the stream loop do to the components the
   abstraction relation looks at, and which errors they can return. *)
From H2V Require Import Base.Bytes Base.MachineInt Base.Result Gen.GenConsts Impl.ServerConn.
From H2V Require Import Proofs.SrvBase Proofs.SrvRfcDefs Proofs.SrvRfcModel.
From Coq Require Import ZArith Lia ZifyN ZifyNat ZifyBool.
Local Open Scope N_scope.

(* the errors a header block can end in *)
Definition hdr_err (e : h2err) : Prop :=
  match e with
  | EGoAway code => code = c_ProtocolError \/ code = c_EnhanceYourCalm \/ code = c_CompressionError \/ code = c_InternalError
  | EReset code => code = c_ProtocolError \/ code = c_EnhanceYourCalm
  | EPanic => True
  end.

(* discarding: a connection error or nothing *)
Definition disc_err (e : h2err) : Prop :=
  match e with
  | EGoAway code => code = c_EnhanceYourCalm \/ code = c_CompressionError \/ code = c_InternalError
  | EReset _ => False
  | EPanic => True
  end.

Lemma disc_hdr_err e : disc_err e -> hdr_err e.
Proof. destruct e; cbn; tauto. Qed.

(* everything about a stream but its header-decoding part *)
Definition same_ctl (a b : stream) : Prop :=
  st_id b = st_id a /\ st_state b = st_state a /\ st_weReset b = st_weReset a /\ st_responded b = st_responded a /\
  st_handlerRunning b = st_handlerRunning a /\ st_pending b = st_pending a /\ st_pendingEnd b = st_pendingEnd a /\
  st_bodyStream b = st_bodyStream a /\ st_orig b = st_orig a.

Lemma same_ctl_refl a : same_ctl a a. Proof. repeat split. Qed.
Lemma same_ctl_trans a b c : same_ctl a b -> same_ctl b c -> same_ctl a c.
Proof.
  unfold same_ctl. intros (A1 & A2 & A3 & A4 & A5 & A6 & A7 & A8 & A9) (B1 & B2 & B3 & B4 & B5 & B6 & B7 & B8 & B9).
  repeat split; etransitivity; eassumption.
Qed.
Lemma same_ctl_set_hdr s h : same_ctl s (set_hdr s h). Proof. repeat split. Qed.
Lemma same_ctl_set_recv s r q : same_ctl s (set_recv s r q). Proof. repeat split. Qed.
Lemma same_ctl_set_window s w : same_ctl s (set_window s w). Proof. repeat split. Qed.
Lemma same_ctl_set_headers_finished s b : same_ctl s (set_headers_finished s b). Proof. repeat split. Qed.
Lemma same_ctl_has_more a b : same_ctl a b -> has_more_to_send b = has_more_to_send a.
Proof.
  unfold same_ctl, has_more_to_send. intros (A1 & A2 & A3 & A4 & A5 & A6 & A7 & A8 & A9). rewrite A6, A8. reflexivity.
Qed.

Section Eff.
Variable hstate : Type.
Variable dec_field : hstate -> N -> bytes -> dec_res hstate.
Variable cfg : config.
Notation sconn := (sconn hstate).
Implicit Types c : sconn.

(* only the decoder and the discard registers change *)
Definition dd c c' : Prop := exists d id prev n, c' = upd_discard (upd_dec c d) id prev n.

Lemma dd_refl c : dd c c.
Proof. exists (sc_dec c), (sc_discardID c), (sc_discardPrev c), (sc_discardFields c). destruct c; reflexivity. Qed.
Lemma dd_trans a b c : dd a b -> dd b c -> dd a c.
Proof. intros (d1 & i1 & p1 & n1 & ->) (d2 & i2 & p2 & n2 & ->). exists d2, i2, p2, n2. reflexivity. Qed.
Lemma dd_upd_dec c d : dd c (upd_dec c d).
Proof. exists d, (sc_discardID c), (sc_discardPrev c), (sc_discardFields c). destruct c; reflexivity. Qed.
Lemma dd_upd_discard c i p n : dd c (upd_discard c i p n).
Proof. exists (sc_dec c), i, p, n. destruct c; reflexivity. Qed.

Lemma discard_loop_err fuel : forall eh d fields b d' f' carry e,
  discard_loop dec_field fuel eh d fields b = (d', f', carry, Some e) -> disc_err e.
Proof.
  induction fuel as [|fuel IH]; intros eh d fields b d' f' carry e; cbn [discard_loop].
  - intro H. inversion H; subst. cbn. tauto.
  - destruct b as [|b0 b']; [discriminate|].
    destruct (dec_field d fields (b0 :: b')) as [k v rest st|st|st|st|].
    + apply IH.
    + discriminate.
    + destruct (negb eh); [discriminate|]. intro H. inversion H; subst. cbn. tauto.
    + intro H. inversion H; subst. cbn. tauto.
    + intro H. inversion H; subst. exact I.
Qed.

Lemma discard_fragment_spec c id frag eh :
  dd c (fst (discard_fragment dec_field cfg c id frag eh)) /\
  match snd (discard_fragment dec_field cfg c id frag eh) with
  | Some e => disc_err e
  | None => sc_discardID (fst (discard_fragment dec_field cfg c id frag eh)) = if eh then 0 else id
  end.
Proof.
  unfold discard_fragment.
  destruct (discard_loop dec_field _ eh (sc_dec c) (sc_discardFields c) _) as [[[d' fields] carry] e] eqn:DL.
  destruct e as [e|].
  - cbn [fst snd]. split; [eapply dd_trans; [apply dd_upd_dec | apply dd_upd_discard]|].
    eapply discard_loop_err; eassumption.
  - destruct eh; cbn [fst snd].
    + split; [eapply dd_trans; [apply dd_upd_dec | apply dd_upd_discard] | reflexivity].
    + destruct (_ && _)%bool; cbn [fst snd].
      * split; [eapply dd_trans; [apply dd_upd_dec | apply dd_upd_discard] | cbn; tauto].
      * split; [eapply dd_trans; [apply dd_upd_dec | apply dd_upd_discard] | reflexivity].
Qed.

Lemma discard_header_block_spec c fr :
  dd c (fst (discard_header_block dec_field cfg c fr)) /\
  match snd (discard_header_block dec_field cfg c fr) with
  | Some e => disc_err e
  | None => sc_discardID (fst (discard_header_block dec_field cfg c fr)) = if flag_has (sf_flags fr) FL_EH then 0 else sf_sid fr
  end.
Proof.
  unfold discard_header_block.
  match goal with |- context [discard_fragment _ _ ?c0 ?i ?f ?e] => destruct (discard_fragment_spec c0 i f e) as [D E] end.
  split; [|exact E].
  destruct (fkind_eqb (sf_kind fr) KCont); [exact D | eapply dd_trans; [apply dd_upd_discard | exact D]].
Qed.

Lemma header_field_spec h k v :
  match header_field cfg h k v with
  | inl e => hdr_err e
  | inr h' => hd_headersFinished h' = hd_headersFinished h /\ hd_prev h' = hd_prev h
  end.
Proof.
  pose proof (SrvBase.header_field_spec cfg h k v) as S. cbv zeta in S.
  destruct (header_field cfg h k v) as [[code|code|]|h']; cbn; intuition.
Qed.

Lemma header_loop_spec fuel : forall eh d h b d' h' e rest,
  header_loop dec_field fuel cfg eh d h b = (d', h', e, rest) ->
  hd_headersFinished h' = hd_headersFinished h /\ (eh = true -> hd_prev h' = hd_prev h) /\
  match e with Some e => hdr_err e | None => True end.
Proof.
  induction fuel as [|fuel IH]; intros eh d h b d' h' e rest; cbn [header_loop].
  - intro H. inversion H; subst. cbn. tauto.
  - destruct b as [|b0 b']; [intro H; inversion H; subst; tauto|].
    destruct (dec_field d (hd_blockFields h) (b0 :: b')) as [k v rest' st|st|st|st|].
    + pose proof (header_field_spec h k v) as HF. destruct (header_field cfg h k v) as [e0|h0].
      * intro H. inversion H; subst. tauto.
      * intro H. destruct (IH _ _ _ _ _ _ _ _ H) as (A & B & C). destruct HF as [F1 F2].
        split; [congruence|]. split; [intro E; rewrite (B E); exact F2 | exact C].
    + intro H. inversion H; subst. tauto.
    + destruct eh; cbn [negb]; intro H; inversion H; subst; cbn; [tauto|].
      split; [reflexivity|]. split; [discriminate | exact I].
    + intro H. inversion H; subst. cbn. tauto.
    + intro H. inversion H; subst. cbn. tauto.
Qed.

(* handleHeaderFrame: the connection changes by dd only; the stream keeps everything but
   its header part; what is known about headersFinished and the discard register *)
Lemma handle_header_frame_spec c s fr c1 s1 e :
  handle_header_frame dec_field cfg c s fr = (c1, s1, e) ->
  dd c c1 /\ same_ctl s s1 /\
  match e with
  | None => st_headersFinished s1 = false /\ sc_discardID c1 = sc_discardID c /\
            (flag_has (sf_flags fr) FL_EH = true -> st_prev s1 = [])
  | Some (EReset code) => st_headersFinished s1 = false /\ (code = c_ProtocolError \/ code = c_EnhanceYourCalm) /\
            sc_discardID c1 = (if flag_has (sf_flags fr) FL_EH then 0 else st_id s)
  | Some e => hdr_err e
  end.
Proof.
  unfold handle_header_frame.
  destruct (st_headersFinished s && _)%bool.
  { intro H. inversion H; subst. split; [apply dd_refl|]. split; [apply same_ctl_refl|]. cbn. tauto. }
  destruct (fkind_eqb (sf_kind fr) KHeaders && _)%bool.
  { intro H. inversion H; subst. split; [apply dd_refl|]. split; [apply same_ctl_set_headers_finished|]. cbn. tauto. }
  destruct (header_loop dec_field _ cfg _ (sc_dec c) _ _) as [[[d' h2] e0] rest] eqn:HL.
  destruct (header_loop_spec _ _ _ _ _ _ _ _ _ HL) as (F & P & E). cbn [hd_headersFinished hd_prev] in F, P.
  destruct e0 as [[code|code|]|].
  - intro H. inversion H; subst. split; [apply dd_upd_dec|]. split; [apply same_ctl_set_hdr | exact E].
  - match goal with |- context [discard_fragment _ _ ?c0 ?i ?f ?eh] =>
      destruct (discard_fragment_spec c0 i f eh) as [D X]; destruct (discard_fragment dec_field cfg c0 i f eh) as [c3 [de|]] end;
    cbn [fst snd] in *; intro H; inversion H; subst.
    + split; [eapply dd_trans; [apply dd_upd_dec|]; eapply dd_trans; [apply dd_upd_discard | exact D]|].
      split; [apply same_ctl_set_hdr|]. destruct de; try exact (disc_hdr_err _ X). contradiction.
    + split; [eapply dd_trans; [apply dd_upd_dec|]; eapply dd_trans; [apply dd_upd_discard | exact D]|].
      split; [apply same_ctl_set_hdr|]. split; [exact F|]. split; [exact E | exact X].
  - intro H. inversion H; subst. split; [apply dd_upd_dec|]. split; [apply same_ctl_set_hdr | exact I].
  - destruct (_ && _)%bool; intro H; inversion H; subst.
    + split; [apply dd_upd_dec|]. split; [apply same_ctl_set_hdr|]. cbn. tauto.
    + split; [apply dd_upd_dec|]. split; [apply same_ctl_set_hdr|]. split; [exact F|]. split; [reflexivity | exact P].
Qed.

End Eff.
