(* Theorems about the connection pool model (Impl/ClientPool.v): over ALL event lists. *)
From Coq Require Import List NArith Bool Lia.
From H2V Require Import Impl.ClientPool.
Import ListNotations.
Local Open Scope N_scope.


Lemma pl_mem_In l id : pl_mem l id = true <-> In id l.
Proof.
  induction l as [|x r IH]; cbn [pl_mem In]; [split; [discriminate|tauto]|].
  destruct (N.eqb_spec x id) as [E|E]; [subst; tauto|]. rewrite IH. split; [tauto|]. intros [H|H]; [congruence|exact H].
Qed.

Lemma pl_remove_In l id x : In x (pl_remove l id) -> In x l.
Proof.
  induction l as [|y r IH]; cbn [pl_remove]; [tauto|].
  destruct (N.eqb y id); cbn [In]; tauto.
Qed.

Lemma pl_remove_NoDup l id : NoDup l -> NoDup (pl_remove l id).
Proof.
  induction l as [|y r IH]; cbn [pl_remove]; intro H; [exact H|].
  inversion H as [|? ? Hn Hr]; subst. destruct (N.eqb y id); [exact Hr|].
  constructor; [intro Hi; apply Hn; eapply pl_remove_In; exact Hi | apply IH; exact Hr].
Qed.

Lemma pl_remove_not_In l id : NoDup l -> ~ In id (pl_remove l id).
Proof.
  induction l as [|y r IH]; cbn [pl_remove]; intro H; [tauto|].
  inversion H as [|? ? Hn Hr]; subst. destruct (N.eqb_spec y id) as [E|E]; [subst; exact Hn|].
  cbn [In]. intros [Hi|Hi]; [congruence | exact (IH Hr Hi)].
Qed.

Lemma pl_remove_length l id : (length (pl_remove l id) <= length l)%nat.
Proof. induction l as [|y r IH]; cbn [pl_remove length]; [lia|]. destruct (N.eqb y id); cbn [length]; lia. Qed.

Lemma pl_find_set_same st id f : (forall c, plc_id (f c) = plc_id c) ->
  pl_find (pl_set st id f) id = option_map f (pl_find st id).
Proof.
  intro Hf. induction st as [|c r IH]; cbn [pl_set pl_find option_map]; [reflexivity|].
  destruct (N.eqb_spec (plc_id c) id) as [E|E]; cbn [pl_find].
  - rewrite Hf. rewrite E, N.eqb_refl. reflexivity.
  - destruct (N.eqb_spec (plc_id c) id); [contradiction|]. exact IH.
Qed.

Lemma pl_find_set_other st id f x : (forall c, plc_id (f c) = plc_id c) -> x <> id ->
  pl_find (pl_set st id f) x = pl_find st x.
Proof.
  intros Hf Hx. induction st as [|c r IH]; cbn [pl_set pl_find]; [reflexivity|].
  destruct (N.eqb_spec (plc_id c) id) as [E|E]; cbn [pl_find].
  - rewrite Hf. destruct (N.eqb_spec (plc_id c) x); [congruence|reflexivity].
  - destruct (N.eqb (plc_id c) x); [reflexivity|exact IH].
Qed.

Lemma pl_set_ids st id f : (forall c, plc_id (f c) = plc_id c) -> map plc_id (pl_set st id f) = map plc_id st.
Proof.
  intro Hf. induction st as [|c r IH]; cbn [pl_set map]; [reflexivity|].
  destruct (N.eqb (plc_id c) id); cbn [map]; [rewrite Hf; reflexivity | rewrite IH; reflexivity].
Qed.

Lemma pl_find_Some st id c : pl_find st id = Some c -> In c st /\ plc_id c = id.
Proof.
  induction st as [|x r IH]; cbn [pl_find In]; [discriminate|].
  destruct (N.eqb_spec (plc_id x) id) as [E|E]; [intros [= <-]; auto|]. intro H. destruct (IH H); auto.
Qed.
Lemma pl_find_Some_In st id c : pl_find st id = Some c -> In id (map plc_id st).
Proof. intro H. destruct (pl_find_Some _ _ _ H) as [Hi <-]. apply in_map, Hi. Qed.

Lemma pl_find_In_Some st id : In id (map plc_id st) -> exists c, pl_find st id = Some c.
Proof.
  induction st as [|x r IH]; cbn [pl_find map In]; [tauto|].
  destruct (N.eqb_spec (plc_id x) id) as [E|E]; [eauto|]. intros [H|H]; [contradiction|exact (IH H)].
Qed.

Lemma mark_closed_id c : plc_id (pl_mark_closed c) = plc_id c. Proof. reflexivity. Qed.
Lemma mark_can_id b c : plc_id (pl_mark_can b c) = plc_id c. Proof. reflexivity. Qed.


Definition usable (p : pool) (id : N) : bool := negb (pl_is_closed p id) && pl_can_open p id.

Lemma pl_walk_stat_only p p' l : pl_stat p = pl_stat p' -> pl_walk p l = pl_walk p' l.
Proof.
  intro H. induction l as [|id r IH]; cbn [pl_walk]; [reflexivity|].
  unfold pl_is_closed, pl_can_open. rewrite H, IH. reflexivity.
Qed.

(* the full characterisation of the loop *)
Definition open_only (p : pool) (l : list N) : list N := filter (fun x => negb (pl_is_closed p x)) l.
Lemma pl_walk_spec p l : forall l' f, pl_walk p l = (l', f) ->
  match f with
  | Some id =>
      exists pre post, l = pre ++ id :: post /\ usable p id = true /\ (forall x, In x pre -> usable p x = false) /\
                       l' = open_only p pre ++ id :: post
  | None => (forall x, In x l -> usable p x = false) /\ l' = open_only p l
  end.
Proof.
  unfold open_only.
  induction l as [|id r IH]; cbn [pl_walk]; intros l' f H.
  - inversion H; subst. split; [intros x []|reflexivity].
  - destruct (pl_is_closed p id) eqn:Hc.
    + specialize (IH _ _ H). destruct f as [x|].
      * destruct IH as (pre & post & E & U & P & L). exists (id :: pre), post. repeat split.
        -- rewrite E; reflexivity.
        -- exact U.
        -- intros y [Hy|Hy]; [subst; unfold usable; rewrite Hc; reflexivity | exact (P y Hy)].
        -- cbn [filter]. rewrite Hc. cbn [negb]. exact L.
      * destruct IH as (P & L). split.
        -- intros y [Hy|Hy]; [subst; unfold usable; rewrite Hc; reflexivity | exact (P y Hy)].
        -- cbn [filter]. rewrite Hc. cbn [negb]. exact L.
    + destruct (pl_can_open p id) eqn:Ho.
      * inversion H; subst. exists [], r. repeat split; [unfold usable; rewrite Hc, Ho; reflexivity | intros x []].
      * destruct (pl_walk p r) as [r' f'] eqn:W. inversion H; subst. specialize (IH _ _ eq_refl). destruct f as [x|].
        -- destruct IH as (pre & post & E & U & P & L). exists (id :: pre), post. repeat split.
           ++ rewrite E; reflexivity.
           ++ exact U.
           ++ intros y [Hy|Hy]; [subst; unfold usable; rewrite Hc, Ho; reflexivity | exact (P y Hy)].
           ++ cbn [filter]. rewrite Hc. cbn [negb app]. rewrite L. reflexivity.
        -- destruct IH as (P & L). split.
           ++ intros y [Hy|Hy]; [subst; unfold usable; rewrite Hc, Ho; reflexivity | exact (P y Hy)].
           ++ cbn [filter]. rewrite Hc. cbn [negb]. rewrite L. reflexivity.
Qed.

Lemma filter_sub {A} (g : A -> bool) l x : In x (filter g l) -> In x l.
Proof. intro H. apply filter_In in H. tauto. Qed.

Lemma filter_NoDup' {A} (g : A -> bool) l : NoDup l -> NoDup (filter g l).
Proof. apply NoDup_filter. Qed.

Lemma pl_walk_sub p l l' f x : pl_walk p l = (l', f) -> In x l' -> In x l.
Proof.
  intros W Hx. pose proof (pl_walk_spec p l l' f W) as S. destruct f as [id|].
  - destruct S as (pre & post & E & _ & _ & L). subst l l'. apply in_app_or in Hx. apply in_or_app.
    destruct Hx as [Hx|Hx]; [left; eapply filter_sub; exact Hx | right; exact Hx].
  - destruct S as (_ & L). subst l'. eapply filter_sub; exact Hx.
Qed.

Lemma NoDup_app_filter_l {A} (g : A -> bool) pre post : NoDup (pre ++ post) -> NoDup (filter g pre ++ post).
Proof.
  induction pre as [|a pre IH]; cbn [app filter]; intro H; [exact H|].
  inversion H as [|? ? Hn Hr]; subst. destruct (g a); [|exact (IH Hr)].
  cbn [app]. constructor; [|exact (IH Hr)]. intro Hi. apply Hn. apply in_app_or in Hi. apply in_or_app.
  destruct Hi as [Hi|Hi]; [left; eapply filter_sub; exact Hi | right; exact Hi].
Qed.

Lemma pl_walk_NoDup p l l' f : pl_walk p l = (l', f) -> NoDup l -> NoDup l'.
Proof.
  intros W H. pose proof (pl_walk_spec p l l' f W) as S. destruct f as [id|].
  - destruct S as (pre & post & E & _ & _ & L). subst l l'. apply NoDup_app_filter_l. exact H.
  - destruct S as (_ & L). subst l'. apply NoDup_filter. exact H.
Qed.

Lemma pl_walk_length p l l' f : pl_walk p l = (l', f) -> (length l' <= length l)%nat.
Proof.
  revert l' f. induction l as [|id r IH]; cbn [pl_walk]; intros l' f H.
  - inversion H; subst; cbn; lia.
  - destruct (pl_is_closed p id).
    + specialize (IH _ _ H). cbn [length]. lia.
    + destruct (pl_can_open p id).
      * inversion H; subst. lia.
      * destruct (pl_walk p r) as [r' f'] eqn:W. inversion H; subst. specialize (IH _ _ eq_refl). cbn [length]. lia.
Qed.

Lemma walk_loses_closed p l l' f id : pl_walk p l = (l', f) -> In id l -> In id l' \/ pl_is_closed p id = true.
Proof.
  revert l' f. induction l as [|x r IH]; cbn [pl_walk In]; intros l' f W H; [destruct H|].
  destruct (pl_is_closed p x) eqn:C.
  - destruct H as [E|H]; [subst; right; exact C | exact (IH _ _ W H)].
  - destruct (pl_can_open p x).
    + inversion W; subst. left. exact H.
    + destruct (pl_walk p r) as [r' f'] eqn:W'. inversion W; subst. destruct H as [E|H]; [left; left; exact E|].
      destruct (IH _ _ eq_refl H) as [A|A]; [left; right; exact A | right; exact A].
Qed.



Record Inv (p : pool) : Prop := {
  inv_nodup : NoDup (pl_conns p);
  inv_known : forall id, In id (pl_conns p) -> In id (map plc_id (pl_stat p));
  inv_fresh : forall id, In id (map plc_id (pl_stat p)) -> id < pl_next p;
  inv_ids : NoDup (map plc_id (pl_stat p));
  inv_closed_empty : pl_closed p = true -> pl_conns p = [];
  inv_closing : forall id, In id (pl_closing p) -> In id (map plc_id (pl_stat p)) /\ pl_is_closed p id = true;
}.

Lemma Inv_init : Inv pl_init.
Proof. constructor; cbn; try constructor; try tauto; try discriminate. Qed.

Lemma Inv_create_conn p d q c o : Inv p -> pl_closed p = false -> pl_create_conn p d = (q, c, o) -> Inv q.
Proof.
  intros I Hc H. destruct I as [I1 I2 I3 I4 I5 I6]. destruct d; cbn [pl_create_conn] in H; inversion H; subst; clear H.
  - constructor; cbn [pl_closed pl_conns pl_stat pl_closing pl_next map plc_id].
    + constructor; [|exact I1]. intro Hi. apply I2, I3 in Hi. lia.
    + intros id [E|Hi]; [left; exact E | right; exact (I2 id Hi)].
    + intros id [E|Hi]; [subst; lia | specialize (I3 id Hi); lia].
    + constructor; [|exact I4]. intro Hi. apply I3 in Hi. lia.
    + rewrite Hc. discriminate.
    + intros id Hi. destruct (I6 id Hi) as [K C]. split; [right; exact K|].
      unfold pl_is_closed in *. cbn [pl_stat pl_find plc_id].
      destruct (N.eqb_spec (pl_next p) id) as [E|E]; [|exact C]. subst id. apply I3 in K. lia.
  - constructor; assumption.
  - constructor; cbn [pl_closed pl_conns pl_stat pl_closing pl_next]; try assumption.
    intros id Hi. specialize (I3 id Hi). lia.
Qed.

Lemma Inv_upd_conns p l : Inv p -> NoDup l -> (forall x, In x l -> In x (pl_conns p)) -> Inv (pl_upd_conns p l).
Proof.
  intros [I1 I2 I3 I4 I5 I6] N S. constructor; cbn [pl_upd_conns pl_closed pl_conns pl_stat pl_closing pl_next]; try assumption.
  - intros id Hi. exact (I2 id (S id Hi)).
  - intro Hc. specialize (I5 Hc). destruct l as [|x r]; [reflexivity|]. specialize (S x (or_introl eq_refl)). rewrite I5 in S. destruct S.
Qed.

Lemma is_closed_set_closed p id x :
  pl_is_closed p x = true -> pl_is_closed (pl_upd_stat p (pl_set (pl_stat p) id pl_mark_closed)) x = true.
Proof.
  unfold pl_is_closed. cbn [pl_upd_stat pl_stat]. destruct (N.eq_dec x id) as [E|E].
  - subst. rewrite pl_find_set_same by exact mark_closed_id. destruct (pl_find (pl_stat p) id); cbn; [reflexivity|reflexivity].
  - rewrite pl_find_set_other by (try exact mark_closed_id; exact E). tauto.
Qed.

Lemma Inv_upd_stat_closed p id : Inv p -> Inv (pl_upd_stat p (pl_set (pl_stat p) id pl_mark_closed)).
Proof.
  intros [I1 I2 I3 I4 I5 I6]. constructor; cbn [pl_upd_stat pl_closed pl_conns pl_stat pl_closing pl_next]; try assumption;
    try (rewrite pl_set_ids by exact mark_closed_id; assumption).
  intros x Hx. destruct (I6 x Hx) as [K C]. split; [rewrite pl_set_ids by exact mark_closed_id; exact K|].
  apply (is_closed_set_closed p id x C).
Qed.

Lemma is_closed_set_can p id b x :
  pl_is_closed (pl_upd_stat p (pl_set (pl_stat p) id (pl_mark_can b))) x = pl_is_closed p x.
Proof.
  unfold pl_is_closed. cbn [pl_upd_stat pl_stat]. destruct (N.eq_dec x id) as [E|E].
  - subst. rewrite pl_find_set_same by apply mark_can_id. destruct (pl_find (pl_stat p) id); reflexivity.
  - rewrite pl_find_set_other by (try apply mark_can_id; exact E). reflexivity.
Qed.

Lemma Inv_upd_stat_can p id b : Inv p -> Inv (pl_upd_stat p (pl_set (pl_stat p) id (pl_mark_can b))).
Proof.
  intros [I1 I2 I3 I4 I5 I6]. constructor; cbn [pl_upd_stat pl_closed pl_conns pl_stat pl_closing pl_next]; try assumption;
    try (rewrite pl_set_ids by apply mark_can_id; assumption).
  intros x Hx. destruct (I6 x Hx) as [K C]. split; [rewrite pl_set_ids by apply mark_can_id; exact K|].
  rewrite (is_closed_set_can p id b x). exact C.
Qed.

Lemma Inv_upd_closing p l : Inv p -> (forall x, In x l -> In x (map plc_id (pl_stat p)) /\ pl_is_closed p x = true) -> Inv (pl_upd_closing p l).
Proof. intros [I1 I2 I3 I4 I5 I6] H. constructor; cbn [pl_upd_closing pl_closed pl_conns pl_stat pl_closing pl_next]; assumption. Qed.

Lemma close_all_fields p l q o : pl_close_all p l = (q, o) ->
  pl_closed q = pl_closed p /\ pl_conns q = pl_conns p /\ pl_closing q = pl_closing p /\ pl_next q = pl_next p /\
  map plc_id (pl_stat q) = map plc_id (pl_stat p) /\ (forall x, pl_is_closed p x = true -> pl_is_closed q x = true) /\
  (forall x, In x l -> pl_is_closed q x = true).
Proof.
  revert p q o. induction l as [|id r IH]; cbn [pl_close_all]; intros p q o H.
  - inversion H; subst. repeat split; try tauto. intros x [].
  - destruct (pl_is_closed p id) eqn:Hc.
    + destruct (IH _ _ _ H) as (A & B & C & D & E & F & G). repeat split; try assumption.
      intros x [Hx|Hx]; [subst; apply F; exact Hc | exact (G x Hx)].
    + destruct (pl_close_all (pl_upd_stat p (pl_set (pl_stat p) id pl_mark_closed)) r) as [p1 o1] eqn:R. inversion H; subst.
      destruct (IH _ _ _ R) as (A & B & C & D & E & F & G). cbn [pl_upd_stat pl_closed pl_conns pl_stat pl_closing pl_next] in *.
      repeat split; try assumption.
      * rewrite E. apply pl_set_ids. exact mark_closed_id.
      * intros x Hx. apply F. apply is_closed_set_closed. exact Hx.
      * intros x [Hx|Hx]; [|exact (G x Hx)]. subst x. apply F.
        unfold pl_is_closed in *. cbn [pl_upd_stat pl_stat]. rewrite pl_find_set_same by exact mark_closed_id.
        destruct (pl_find (pl_stat p) id); reflexivity.
Qed.

Lemma Inv_client_close p q o : Inv p -> pl_client_close p = (q, o) -> Inv q.
Proof.
  intros I H. unfold pl_client_close in H. destruct (pl_closed p) eqn:Hc; [inversion H; subst; exact I|].
  destruct (close_all_fields _ _ _ _ H) as (A & B & C & D & E & F & G).
  cbn [pl_closed pl_conns pl_stat pl_closing pl_next] in *. destruct I as [I1 I2 I3 I4 I5 I6].
  constructor.
  - rewrite B. constructor.
  - rewrite B. intros id [].
  - rewrite E, D. exact I3.
  - rewrite E. exact I4.
  - intros _. exact B.
  - rewrite C, E. intros id Hi. destruct (I6 id Hi) as [K Cl]. split; [exact K|]. apply F. exact Cl.
Qed.

(* Conn.Close, first half, by what pickConn would read of the connection *)
Lemma close_begin_eq p id : pl_close_begin p id =
  if pl_is_closed p id then (p, [])
  else (pl_upd_closing (pl_upd_stat p (pl_set (pl_stat p) id pl_mark_closed)) (id :: pl_closing p), [POShut id]).
Proof. unfold pl_close_begin, pl_is_closed. destruct (pl_find (pl_stat p) id) as [c|]; [destruct (plc_closed c)|]; reflexivity. Qed.

(* The shape of a step: every event is a sequence of a few moves, each with what makes it legal.
   The list loses only connections that read as closed; a dial happens on an open client; a
   connection enters pl_closing when it is closed; Client.Close is taken whole. *)
Inductive move : pool -> pool -> Prop :=
| mv_conns p l : NoDup l -> (forall x, In x l -> In x (pl_conns p)) ->
    (forall x, In x (pl_conns p) -> In x l \/ pl_is_closed p x = true) -> move p (pl_upd_conns p l)
| mv_create p d q c o : pl_closed p = false -> pl_create_conn p d = (q, c, o) -> move p q
| mv_set_closed p id : move p (pl_upd_stat p (pl_set (pl_stat p) id pl_mark_closed))
| mv_set_can p id b : move p (pl_upd_stat p (pl_set (pl_stat p) id (pl_mark_can b)))
| mv_closing p l : (forall x, In x l -> In x (map plc_id (pl_stat p)) /\ pl_is_closed p x = true) ->
    move p (pl_upd_closing p l)
| mv_client_close p q o : pl_closed p = false -> pl_client_close p = (q, o) -> move p q.
Inductive moves : pool -> pool -> Prop :=
| mvs_nil p : moves p p
| mvs_cons p q r : move p q -> moves q r -> moves p r.

Lemma Inv_move p q : Inv p -> move p q -> Inv q.
Proof.
  intros I M. destruct M; eauto using Inv_upd_conns, Inv_create_conn, Inv_upd_stat_closed, Inv_upd_stat_can,
    Inv_upd_closing, Inv_client_close.
Qed.

(* what every move keeps (inside Inv), every sequence of moves keeps *)
Lemma moves_ind' (P : pool -> Prop) : (forall p q, Inv p -> P p -> move p q -> P q) ->
  forall p q, moves p q -> Inv p -> P p -> P q.
Proof. intros HP p q M. induction M as [|p q r M _ IH]; intros I0 H0; eauto using Inv_move. Qed.

Lemma on_dropped_moves p id d q o : Inv p -> pl_is_closed p id = true -> pl_on_dropped p id d = (q, o) -> moves p q.
Proof.
  intros I C H. unfold pl_on_dropped in H. destruct (pl_closed p) eqn:Hc; [inversion H; subst; constructor|].
  destruct (pl_mem (pl_conns p) id); [|inversion H; subst; constructor].
  destruct (pl_create_conn (pl_upd_conns p (pl_remove (pl_conns p) id)) d) as [[p1 c] o1] eqn:E. inversion H; subst.
  eapply mvs_cons; [|eapply mvs_cons; [exact (mv_create (pl_upd_conns p _) _ _ _ _ Hc E) | constructor]].
  apply mv_conns; [apply pl_remove_NoDup; exact (inv_nodup p I) | intros x; apply pl_remove_In|].
  intros x Hx. destruct (N.eq_dec x id) as [X|X]; [subst; auto|]. left.
  clear -Hx X. induction (pl_conns p) as [|y r IH]; cbn [pl_remove In] in *; [tauto|]. destruct Hx as [E|Hx].
  - subst y. destruct (N.eqb_spec x id); [contradiction|]. left. reflexivity.
  - destruct (N.eqb y id); [exact Hx | right; exact (IH Hx)].
Qed.

Lemma step_moves p e : Inv p -> moves p (pl_state_of (pl_step p e)).
Proof.
  intro I. unfold pl_state_of. destruct e as [d|id b|id|id d|]; cbn [pl_step].
  - unfold pl_pick_conn. destruct (pl_closed p) eqn:Hc; [constructor|].
    destruct (pl_walk p (pl_conns p)) as [l f] eqn:W.
    assert (M : move p (pl_upd_conns p l)).
    { apply mv_conns; [eapply pl_walk_NoDup; [exact W | exact (inv_nodup p I)] | intros x Hx; eapply pl_walk_sub; eassumption|].
      intros x Hx. eapply walk_loses_closed; eassumption. }
    destruct f as [x|]; [exact (mvs_cons _ _ _ M (mvs_nil _))|].
    destruct (pl_create_conn (pl_upd_conns p l) d) as [[p2 c] o2] eqn:C. cbn [fst].
    exact (mvs_cons _ _ _ M (mvs_cons _ _ _ (mv_create (pl_upd_conns p l) _ _ _ _ Hc C) (mvs_nil _))).
  - exact (mvs_cons _ _ _ (mv_set_can p id b) (mvs_nil _)).
  - rewrite close_begin_eq. destruct (pl_is_closed p id) eqn:C; [constructor|]. cbn [fst].
    eapply mvs_cons; [apply mv_set_closed | eapply mvs_cons; [|constructor]]. apply mv_closing.
    cbn [pl_upd_stat pl_stat]. rewrite pl_set_ids by exact mark_closed_id. intros x [E|Hx].
    + subst x. unfold pl_is_closed in *. cbn [pl_upd_stat pl_stat]. rewrite pl_find_set_same by exact mark_closed_id.
      destruct (pl_find (pl_stat p) id) eqn:F; [|discriminate]. split; [eapply pl_find_Some_In; exact F | reflexivity].
    + destruct (inv_closing p I x Hx) as [K Cx]. split; [exact K | apply is_closed_set_closed; exact Cx].
  - unfold pl_close_end. destruct (pl_mem (pl_closing p) id) eqn:M; [|constructor].
    apply pl_mem_In in M. destruct (inv_closing p I id M) as [_ C].
    destruct (pl_on_dropped (pl_upd_closing p (pl_remove (pl_closing p) id)) id d) as [q o] eqn:H. cbn [fst].
    assert (M1 : move p (pl_upd_closing p (pl_remove (pl_closing p) id))).
    { apply mv_closing. intros x Hx. apply (inv_closing p I). eapply pl_remove_In; exact Hx. }
    exact (mvs_cons _ _ _ M1 (on_dropped_moves _ _ _ _ _ (Inv_move _ _ I M1) C H)).
  - destruct (pl_client_close p) as [q o] eqn:H. cbn [fst]. destruct (pl_closed p) eqn:Hc.
    + unfold pl_client_close in H. rewrite Hc in H. inversion H; subst. constructor.
    + exact (mvs_cons _ _ _ (mv_client_close _ _ _ Hc H) (mvs_nil _)).
Qed.

Lemma Inv_step p e : Inv p -> Inv (pl_state_of (pl_step p e)).
Proof. intro I. exact (moves_ind' Inv (fun _ _ I _ M => Inv_move _ _ I M) _ _ (step_moves p e I) I I). Qed.

(* what every move keeps, every step keeps *)
Lemma step_ind (P : pool -> Prop) : (forall p q, Inv p -> P p -> move p q -> P q) ->
  forall p e, Inv p -> P p -> P (pl_state_of (pl_step p e)).
Proof. intros HP p e I. exact (moves_ind' P HP _ _ (step_moves p e I) I). Qed.

(* what every step keeps (inside Inv), every run keeps *)
Lemma run_from_ind (P : pool -> Prop) : (forall p e, Inv p -> P p -> P (pl_state_of (pl_step p e))) ->
  forall p evs, Inv p -> P p -> P (pl_run_from p evs).
Proof.
  intros HP p evs. revert p. induction evs as [|e r IH]; intros p I H; [exact H|]. cbn [pl_run_from fold_left].
  apply IH; [apply Inv_step; exact I | apply HP; assumption].
Qed.
Lemma Inv_run_from p evs : Inv p -> Inv (pl_run_from p evs).
Proof. intro I. apply (run_from_ind Inv); auto using Inv_step. Qed.

Theorem Inv_run evs : Inv (pl_run evs).
Proof. apply Inv_run_from. exact Inv_init. Qed.



Definition pick_post (p : pool) (d : pl_dial) (q : pool) (r : pl_res) (o : list pl_out) : Prop :=
  match r with
  | PRErrClosed => pl_closed p = true /\ q = p /\ o = []
  | PRConn id =>
      pl_closed p = false /\ pl_closed q = false /\
      ((o = [] /\ exists pre post, pl_conns p = pre ++ id :: post /\ usable p id = true /\
                   (forall x, In x pre -> usable p x = false) /\ pl_conns q = open_only p pre ++ id :: post)
       \/ (o = [PODial PDialOk (Some id)] /\ d = PDialOk /\ id = pl_next p /\ ~ In id (pl_conns p) /\
           (forall x, In x (pl_conns p) -> usable p x = false) /\
           pl_conns q = id :: open_only p (pl_conns p) /\ usable q id = true))
  | PRErrDial =>
      pl_closed p = false /\ d <> PDialOk /\ (forall x, In x (pl_conns p) -> usable p x = false) /\
      pl_conns q = open_only p (pl_conns p) /\
      o = match d with PDialHsFail => [PODial d (Some (pl_next p)); POShut (pl_next p)] | _ => [PODial d None] end
  | PRNone => False
  end.

Lemma pick_spec p d q r o : Inv p -> pl_pick_conn p d = (q, r, o) -> pick_post p d q r o.
Proof.
  intros I H. unfold pl_pick_conn in H. destruct (pl_closed p) eqn:Hc.
  { inversion H; subst. cbn. auto. }
  destruct (pl_walk p (pl_conns p)) as [l f] eqn:W. pose proof (pl_walk_spec _ _ _ _ W) as S.
  destruct f as [id|].
  - inversion H; subst. destruct S as (pre & post & E & U & P & L). cbn [pick_post]. split; [exact Hc|]. split; [exact Hc|].
    left. split; [reflexivity|]. exists pre, post. cbn [pl_upd_conns pl_conns]. auto.
  - destruct S as (P & L). destruct d; cbn [pl_create_conn] in H; inversion H; subst; clear H; cbn [pick_post pl_upd_conns pl_conns pl_closed pl_next].
    + split; [exact Hc|]. split; [exact Hc|]. right. repeat split; try reflexivity; try exact P.
      * intro Hi. apply (inv_known p I), (inv_fresh p I) in Hi. lia.
      * unfold usable, pl_is_closed, pl_can_open. cbn [pl_stat pl_find plc_id]. rewrite N.eqb_refl. reflexivity.
    + repeat split; try reflexivity; try exact P; try exact Hc. discriminate.
    + repeat split; try reflexivity; try exact P; try exact Hc. discriminate.
Qed.

Lemma pick_never_none p d q o : pl_pick_conn p d <> (q, PRNone, o).
Proof.
  unfold pl_pick_conn. destruct (pl_closed p); [congruence|]. destruct (pl_walk p (pl_conns p)) as [l [id|]]; [congruence|].
  destruct d; cbn [pl_create_conn]; congruence.
Qed.

(* every reachable state: what pickConn gives a caller *)
Theorem pick_conn_run evs d q r o : pl_pick_conn (pl_run evs) d = (q, r, o) -> pick_post (pl_run evs) d q r o.
Proof. apply pick_spec. apply Inv_run. Qed.

(* the connection a caller gets is open and has room, or has just been dialed *)
Corollary pick_conn_has_room evs d q id o : pl_pick_conn (pl_run evs) d = (q, PRConn id, o) ->
  (In id (pl_conns (pl_run evs)) /\ pl_is_closed (pl_run evs) id = false /\ pl_can_open (pl_run evs) id = true /\ o = [])
  \/ (~ In id (pl_conns (pl_run evs)) /\ o = [PODial PDialOk (Some id)] /\ pl_is_closed q id = false /\ pl_can_open q id = true).
Proof.
  intro H. apply pick_conn_run in H. cbn [pick_post] in H. destruct H as (_ & _ & [(E & pre & post & L & U & _)|(E & _ & _ & N & _ & _ & U)]).
  - left. unfold usable in U. apply andb_prop in U. destruct U as [U1 U2]. apply negb_true_iff in U1.
    repeat split; try assumption. rewrite L. apply in_or_app. right. left. reflexivity.
  - right. unfold usable in U. apply andb_prop in U. destruct U as [U1 U2]. apply negb_true_iff in U1. auto.
Qed.


Definition is_dial (o : pl_out) : bool := match o with PODial _ _ => true | POShut _ => false end.
Definition dials (o : list pl_out) : nat := length (filter is_dial o).

Lemma create_conn_dials p d q c o : pl_create_conn p d = (q, c, o) -> dials o = 1%nat /\ pl_closed q = pl_closed p.
Proof. destruct d; cbn [pl_create_conn]; intro H; inversion H; subst; split; reflexivity. Qed.

Lemma close_all_dials p l q o : pl_close_all p l = (q, o) -> dials o = 0%nat.
Proof.
  revert p q o. induction l as [|id r IH]; cbn [pl_close_all]; intros p q o H; [inversion H; reflexivity|].
  destruct (pl_is_closed p id); [exact (IH _ _ _ H)|].
  destruct (pl_close_all (pl_upd_stat p (pl_set (pl_stat p) id pl_mark_closed)) r) as [p1 o1] eqn:R. inversion H; subst.
  unfold dials. cbn [filter is_dial]. exact (IH _ _ _ R).
Qed.

Lemma on_dropped_dials p id d q o : pl_on_dropped p id d = (q, o) ->
  pl_closed q = pl_closed p /\ (dials o <= 1)%nat /\ (pl_closed p = true -> o = [] /\ q = p).
Proof.
  unfold pl_on_dropped. destruct (pl_closed p) eqn:Hc.
  { intro H; inversion H; subst. rewrite Hc. cbn. auto. }
  destruct (pl_mem (pl_conns p) id).
  2:{ intro H; inversion H; subst. rewrite Hc. cbn. repeat split; auto; discriminate. }
  destruct (pl_create_conn (pl_upd_conns p (pl_remove (pl_conns p) id)) d) as [[p1 c] o1] eqn:C. intro H. inversion H; subst.
  destruct (create_conn_dials _ _ _ _ _ C) as [D E]. cbn [pl_upd_conns pl_closed] in E. rewrite E, D.
  split; [exact Hc|]. split; [lia|]. discriminate.
Qed.

(* one step: at most one dial; a closed client stays closed, holds nothing and dials nothing *)
Lemma step_dials p e : Inv p ->
  let '(q, r, o) := pl_step p e in
  (dials o <= 1)%nat /\ (pl_closed p = true -> pl_closed q = true /\ pl_conns q = [] /\ dials o = 0%nat).
Proof.
  intro I. destruct e as [d|id b|id|id d|]; cbn [pl_step].
  - destruct (pl_pick_conn p d) as [[q r] o] eqn:H. pose proof (pick_spec _ _ _ _ _ I H) as S. destruct r; cbn [pick_post] in S.
    + destruct S as (Hc & _ & [(E & _)|(E & _)]); subst o; cbn; split; try lia; intro X; congruence.
    + destruct S as (Hc & E1 & E2). subst. cbn. split; [lia|]. intros _. repeat split; auto. exact (inv_closed_empty p I Hc).
    + destruct S as (Hc & _ & _ & _ & E). subst o. split; [destruct d; cbn; lia|]. intro X; congruence.
    + destruct S.
  - cbn. split; [lia|]. intro Hc. repeat split; auto. exact (inv_closed_empty p I Hc).
  - rewrite close_begin_eq. destruct (pl_is_closed p id); cbn; (split; [lia|]); intro Hc;
      repeat split; auto; exact (inv_closed_empty p I Hc).
  - destruct (pl_close_end p id d) as [q o] eqn:H. unfold pl_close_end in H. destruct (pl_mem (pl_closing p) id).
    + destruct (on_dropped_dials _ _ _ _ _ H) as (A & B & C). cbn [pl_upd_closing pl_closed] in *. split; [exact B|].
      intro Hc. destruct (C Hc) as [E1 E2]. rewrite E1, E2. cbn [pl_upd_closing pl_closed pl_conns]. repeat split; auto. exact (inv_closed_empty p I Hc).
    + inversion H; subst. cbn. split; [lia|]. intro Hc. repeat split; auto. match goal with I0 : Inv ?x |- _ => exact (inv_closed_empty x I0 Hc) end.
  - destruct (pl_client_close p) as [q o] eqn:H. unfold pl_client_close in H. destruct (pl_closed p) eqn:Hc.
    + inversion H; subst. cbn. split; [lia|]. intros _. repeat split; auto. exact (inv_closed_empty q I Hc).
    + rewrite (close_all_dials _ _ _ _ H). split; [lia|]. discriminate.
Qed.

Lemma outs_after_close p evs : Inv p -> pl_closed p = true ->
  dials (pl_outs_from p evs) = 0%nat /\ pl_closed (pl_run_from p evs) = true /\ pl_conns (pl_run_from p evs) = [].
Proof.
  revert p. induction evs as [|e r IH]; intros p I Hc.
  - cbn. repeat split; auto. exact (inv_closed_empty p I Hc).
  - cbn [pl_outs_from pl_run_from fold_left]. pose proof (step_dials p e I) as S. pose proof (Inv_step p e I) as I'.
    unfold pl_state_of in *. destruct (pl_step p e) as [[q r0] o]. cbn [fst] in *. destruct S as (_ & S). destruct (S Hc) as (A & B & C).
    destruct (IH q I' A) as (D & E & F). repeat split; auto. unfold dials in *. rewrite filter_app, app_length. lia.
Qed.

(* once Client.Close has run the client never dials again and holds no connection, whatever happens next *)
Theorem closed_client_stays_closed evs1 evs2 : pl_closed (pl_run evs1) = true ->
  dials (pl_outs_from (pl_run evs1) evs2) = 0%nat /\ pl_closed (pl_run_from (pl_run evs1) evs2) = true /\
  pl_conns (pl_run_from (pl_run evs1) evs2) = [].
Proof. apply outs_after_close. apply Inv_run. Qed.

(* every dial of a run is made by a pickConn that found nothing usable or replaces a dropped connection *)
Definition may_dial (e : pl_event) : bool := match e with PEvPick _ | PEvCloseEnd _ _ => true | _ => false end.

Lemma step_dials_cause p e : let '(q, r, o) := pl_step p e in may_dial e = false -> dials o = 0%nat.
Proof.
  destruct e as [d|id b|id|id d|]; cbn [pl_step may_dial].
  - destruct (pl_pick_conn p d) as [[q r] o]. discriminate.
  - reflexivity.
  - rewrite close_begin_eq. destruct (pl_is_closed p id); reflexivity.
  - destruct (pl_close_end p id d) as [q o]. discriminate.
  - destruct (pl_client_close p) as [q o] eqn:H. intros _. unfold pl_client_close in H. destruct (pl_closed p); [inversion H; reflexivity|].
    exact (close_all_dials _ _ _ _ H).
Qed.

Lemma dial_budget_from p evs : Inv p -> (dials (pl_outs_from p evs) <= length (filter may_dial evs))%nat.
Proof.
  revert p. induction evs as [|e r IH]; intros p I; [cbn; lia|].
  cbn [pl_outs_from filter]. pose proof (step_dials p e I) as S. pose proof (step_dials_cause p e) as S2. pose proof (Inv_step p e I) as I'.
  unfold pl_state_of in I'. destruct (pl_step p e) as [[q r0] o]. cbn [fst] in I'. destruct S as (S & _). specialize (IH q I').
  unfold dials in *. rewrite filter_app, app_length. destruct (may_dial e); cbn [length]; [lia|]. rewrite (S2 eq_refl). lia.
Qed.

Theorem dial_budget evs : (dials (pl_outs_from pl_init evs) <= length (filter may_dial evs))%nat.
Proof. apply dial_budget_from. exact Inv_init. Qed.


Theorem client_close_spec evs q o : pl_client_close (pl_run evs) = (q, o) -> pl_closed (pl_run evs) = false ->
  pl_closed q = true /\ pl_conns q = [] /\ dials o = 0%nat /\
  (forall id, In id (pl_conns (pl_run evs)) -> pl_is_closed q id = true).
Proof.
  intros H Hc. unfold pl_client_close in H. rewrite Hc in H.
  destruct (close_all_fields _ _ _ _ H) as (A & B & _ & _ & _ & _ & G). cbn [pl_closed pl_conns] in *.
  repeat split; auto. exact (close_all_dials _ _ _ _ H).
Qed.


Theorem dropped_replaced evs id d q o : let p := pl_run evs in
  pl_on_dropped p id d = (q, o) -> pl_closed p = false -> In id (pl_conns p) ->
  ~ In id (pl_conns q) /\ dials o = 1%nat /\
  (forall x, In x (pl_conns q) -> x = pl_next p \/ In x (pl_conns p)).
Proof.
  intros p H Hc Hi. pose proof (Inv_run evs) as I. fold p in I. unfold pl_on_dropped in H. rewrite Hc in H.
  rewrite (proj2 (pl_mem_In (pl_conns p) id) Hi) in H.
  pose proof (pl_remove_not_In (pl_conns p) id (inv_nodup p I)) as NI.
  assert (F : ~ In (pl_next p) (pl_conns p)).
  { intro X. apply (inv_known p I), (inv_fresh p I) in X. lia. }
  destruct d; cbn [pl_create_conn pl_upd_conns pl_conns pl_next] in H; inversion H; subst q o; cbn [pl_conns]; repeat split; try reflexivity.
  - intros [E|X]; [|exact (NI X)]. apply F. rewrite E. exact Hi.
  - intros x [E|X]; [left; symmetry; exact E | right; eapply pl_remove_In; exact X].
  - exact NI.
  - intros x X. right. eapply pl_remove_In; exact X.
  - exact NI.
  - intros x X. right. eapply pl_remove_In; exact X.
Qed.


Definition ex_evs : list pl_event :=
  [PEvPick PDialOk; PEvSetCan 0 false; PEvPick PDialOk; PEvCloseBegin 1; PEvPick PDialHsFail; PEvCloseEnd 1 PDialOk; PEvSetCan 0 true].

Example ex_state : pl_conns (pl_run ex_evs) = [0] /\ pl_next (pl_run ex_evs) = 3 /\ pl_closed (pl_run ex_evs) = false.
Proof. vm_compute. auto. Qed.

Example ex_pick : exists q, pl_pick_conn (pl_run ex_evs) PDialErr = (q, PRConn 0, []).
Proof. eexists. vm_compute. reflexivity. Qed.

Example ex_outs : pl_outs_from pl_init ex_evs =
  [PODial PDialOk (Some 0); PODial PDialOk (Some 1); POShut 1; PODial PDialHsFail (Some 2); POShut 2].
Proof. vm_compute. reflexivity. Qed.

Example ex_closed : pl_closed (pl_run (ex_evs ++ [PEvClientClose])) = true.
Proof. vm_compute. reflexivity. Qed.
