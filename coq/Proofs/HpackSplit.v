(* C03 (c): HEADERS + CONTINUATION. Cutting a header block anywhere, into any number of
   fragments, changes nothing: same fields, same final HPACK state, same error. *)
From Coq Require Import List NArith ZArith Bool Lia.
From H2V Require Import Base.Bytes Base.MachineInt Base.Result Gen.GenConsts Gen.GenStatic
     Impl.Huffman Impl.Hpack Spec.Rfc7541Huffman Spec.Rfc7541
     Proofs.HpackDefs Proofs.HpackBytes Proofs.HpackStatic Proofs.HpackInt Proofs.HpackStr
     Proofs.HpackTable Proofs.HpackNext Proofs.HpackStruct Proofs.HpackField Proofs.HpackBlock
     Proofs.HpackTotal.
Import ListNotations.
Local Open Scope N_scope.
Local Opaque huffman_root.

Arguments N.land : simpl never.
Arguments N.pow : simpl never.

(* invariants of one call *)
Lemma scanN_ns_le lim al : forall b ns e, scanN lim al b = (ns, e) -> forall n, In n ns -> n <= lim.
Proof.
  induction b as [b IH] using bytes_len_ind. intros ns e.
  destruct b as [|c r]; [rewrite scanN_nil; intros H; injection H as <- _; contradiction|].
  rewrite scanN_cons. destruct (is_upd c); [|intros H; injection H as <- _; contradiction].
  destruct (read_int 5 (c :: r)) as [[b1 n0]|e0|w] eqn:E; try (intros H; injection H as <- _; contradiction).
  destruct (negb al); [intros H; injection H as <- _; contradiction|].
  destruct (N.ltb_spec lim n0) as [Hlt|Hge]; [intros H; injection H as <- _; contradiction|].
  apply read_int_ok_length in E. specialize (IH b1 E).
  destruct (scanN lim al b1) as [ns1 e1]. intros H. injection H as <- _.
  intros n [<-|Hin]; [|eapply IH; [reflexivity | exact Hin]].
  unfold u32, wrap. pose proof (N.mod_le n0 (2 ^ 32) ltac:(discriminate)). lia.
Qed.

Lemma table_ok_apply_upd : forall ns hp, table_ok hp -> (forall n, In n ns -> n <= h_max_settings hp) ->
  table_ok (apply_upd hp ns).
Proof.
  induction ns as [|m ns IH]; intros hp Hok Hall; [exact Hok|].
  rewrite apply_upd_cons. apply IH.
  - apply table_ok_upd; [exact Hok | apply Hall; left; reflexivity].
  - intros n Hin. rewrite upd_settings. apply Hall. right. exact Hin.
Qed.

Lemma one_core_ok_inv hp c r f rest st :
  bytes_ok (c :: r) = true -> is_upd c = false -> table_ok hp ->
  one_core hp (c :: r) = Ok (f, rest, st) ->
  bytes_ok rest = true /\ (st = true -> field_ok f = true) /\
  fsize f + 2 * len rest <= N.max (h_max_settings hp) 64 + 2 * len (c :: r).
Proof.
  intros Hok Hu Htab Hc. pose proof (one_core_spec hp c r true Hok Hu Htab) as HS. cbv zeta in HS.
  destruct (spec_dec_repr (c :: r)) as [[rp rest']|].
  2:{ destruct HS as [e HS]. rewrite Hc in HS. discriminate. }
  destruct (spec_step (abs hp) true rp) as [[[fld|] t']|]; [| contradiction |].
  2:{ destruct HS as [e HS]. rewrite Hc in HS. discriminate. }
  destruct HS as [f' [st' [Hc' [Q1 [Q2 [Q3 [Q4 [Q5 [Q6 Q7]]]]]]]]]. rewrite Hc in Hc'.
  injection Hc' as <- <- <-. split; [exact Q6|]. split; [|exact Q7].
  intros ->. unfold field_ok. rewrite Q4, Q5, (Q3 eq_refl). reflexivity.
Qed.

Theorem next_field_inv hp hf bs k b : bytes_ok b = true -> table_ok hp -> small hp b ->
  let o := next_field hp hf bs k b in
  table_ok (nf_hp o) /\ h_max_settings (nf_hp o) = h_max_settings hp /\
  (forall rest d, nf_res o = Ok (rest, d) -> bytes_ok rest = true).
Proof.
  intros Hok Htab Hsm. cbv zeta.
  assert (Hup : forall ns e, scanN (h_max_settings hp) (allowed_of bs k) b = (ns, e) ->
                table_ok (apply_upd hp ns) /\ h_max_settings (apply_upd hp ns) = h_max_settings hp).
  { intros ns e Es. split; [|apply apply_upd_settings]. apply table_ok_apply_upd; [exact Htab | exact (scanN_ns_le _ _ _ _ _ Es)]. }
  destruct (next_field_view hp hf bs k b)
    as [ns Es|ns e Es|ns pre c r f rest st Es Hu Hb _ Ec|ns pre c r e o Es _ _ _ Hr Hh|ns c r w o Es _ Hr Hh];
    try (destruct (Hup _ _ Es) as [Htab' Hset]); cbn [nf_hp nf_res].
  - split; [exact Htab'|]. split; [exact Hset|]. intros rest d H. injection H as <- _. reflexivity.
  - split; [exact Htab'|]. split; [exact Hset|]. discriminate.
  - assert (Hok' : bytes_ok (c :: r) = true) by (rewrite Hb in Hok; apply bytes_ok_app_iff in Hok; tauto).
    assert (Hlen : len (c :: r) <= len b) by (rewrite Hb, len_app; lia).
    destruct (one_core_ok_inv _ _ _ _ _ _ Hok' Hu Htab' Ec) as [I1 [I2 I3]].
    split; [|split; [destruct st; [rewrite add_dynamic_settings|]; exact Hset|]].
    + destruct st; [|exact Htab'].
      apply table_ok_add; [exact Htab' | apply I2; reflexivity|].
      pose proof (table_ok_fsum _ Htab') as [F1 F2]. destruct Htab' as [_ [_ [T3 _]]].
      unfold small in Hsm. rewrite Hset in *. lia.
    + intros rest' d H. injection H as <- _. exact I1.
  - rewrite Hr, Hh. split; [exact Htab'|]. split; [exact Hset|]. discriminate.
  - rewrite Hr, Hh. split; [exact Htab'|]. split; [exact Hset|]. discriminate.
Qed.

(* one call on a longer input *)
Definition nf_equiv (o o' : nf_out) : Prop :=
  nf_res o = nf_res o' /\ nf_hp o = nf_hp o' /\ (forall rest, nf_res o = Ok (rest, true) -> nf_hf o = nf_hf o').

Lemma one_field_equiv hp hf hf' c r : is_upd c = false ->
  nf_equiv (one_field hp hf (c :: r)) (one_field hp hf' (c :: r)).
Proof.
  intros Hu. pose proof (one_field_core hp hf c r Hu) as C. pose proof (one_field_core hp hf' c r Hu) as C'.
  unfold nf_of_core in C, C'. unfold nf_equiv.
  destruct (one_core hp (c :: r)) as [[[f rest] st']|e|w].
  - rewrite C, C'. auto.
  - destruct C as [-> ->], C' as [-> ->]. split; [reflexivity|]. split; [reflexivity|]. discriminate.
  - destruct C as [-> ->], C' as [-> ->]. split; [reflexivity|]. split; [reflexivity|]. discriminate.
Qed.

(* a field was decoded: the same field is decoded from the longer input *)
Lemma next_field_ext_ok hp hf bs k b rest z :
  nf_res (next_field hp hf bs k b) = Ok (rest, true) ->
  next_field hp hf bs k (b ++ z) =
  mkNF (nf_hp (next_field hp hf bs k b)) (nf_hf (next_field hp hf bs k b)) (Ok (rest ++ z, true)).
Proof.
  pose proof (scanN_ext (h_max_settings hp) (allowed_of bs k) z b) as X.
  destruct (next_field_view hp hf bs k b)
    as [ns Es|ns e Es|ns pre c r f rest' st Es Hu _ _ Hc|ns pre c r e o _ _ _ _ Hr _|ns c r w o _ _ Hr _];
    cbn [nf_res nf_hp nf_hf]; try rewrite Hr; try discriminate.
  intros H. injection H as <-. rewrite Es in X. rewrite next_field_scanN, X. unfold nf_of_scan. cbn [fst snd].
  destruct (one_core_ok _ _ _ _ _ Hc) as [_ [_ [_ Hy]]]. specialize (Hy z).
  change ((c :: r) ++ z) with (c :: (r ++ z)) in *.
  pose proof (one_field_core (apply_upd hp ns) (hf_after hf (b ++ z)) c (r ++ z) Hu) as C.
  unfold nf_of_core in C. rewrite Hy in C. exact C.
Qed.

(* an error other than "the input ends too early" stays *)
Lemma next_field_ext_err hp hf bs k b e z :
  nf_res (next_field hp hf bs k b) = Err e -> e <> E_unexpected_size ->
  nf_res (next_field hp hf bs k (b ++ z)) = Err e.
Proof.
  pose proof (scanN_ext (h_max_settings hp) (allowed_of bs k) z b) as X.
  destruct (next_field_view hp hf bs k b)
    as [ns Es|ns e0 Es|ns pre c r f rest st Es Hu _ _ Hc|ns pre c r e1 o Es Hu _ Hc Hr _|ns c r w o _ _ Hr _];
    cbn [nf_res]; try rewrite Hr; try discriminate; intros H Hne; injection H as ->; rewrite Es in X; rewrite next_field_scanN.
  - replace (e =? E_unexpected_size) with false in X by (symmetry; apply N.eqb_neq; exact Hne).
    rewrite X. reflexivity.
  - rewrite X. unfold nf_of_scan. cbn [fst snd].
    pose proof (one_core_err _ _ _ Hc Hne z) as Hy. change ((c :: r) ++ z) with (c :: (r ++ z)) in *.
    pose proof (one_field_core (apply_upd hp ns) (hf_after hf (b ++ z)) c (r ++ z) Hu) as C'.
    unfold nf_of_core in C'. rewrite Hy in C'. destruct C' as [C' _]. exact C'.
Qed.

(* the input held only size updates: they are applied, the call goes on with what follows *)
Lemma next_field_ext_end hp hf bs k b rest z : b <> [] ->
  nf_res (next_field hp hf bs k b) = Ok (rest, false) ->
  next_field hp hf bs k (b ++ z) = next_field (nf_hp (next_field hp hf bs k b)) (set_sens hf false) bs k z.
Proof.
  intros Hne. pose proof (scanN_ext (h_max_settings hp) (allowed_of bs k) z b) as X.
  destruct (next_field_view hp hf bs k b)
    as [ns Es|ns e Es|ns pre c r f rest' st _ _ _ _ _|ns pre c r e o _ _ _ _ Hr _|ns c r w o _ _ Hr _];
    cbn [nf_res nf_hp]; try rewrite Hr; try discriminate. intros _.
  rewrite Es in X. rewrite !next_field_scanN, X, apply_upd_settings.
  destruct (scanN (h_max_settings hp) (allowed_of bs k) z) as [ns' e'].
  unfold nf_of_scan. cbn [fst snd]. rewrite apply_upd_app.
  destruct b as [|c r]; [congruence|]. cbn [app hf_after].
  destruct e'; destruct z; reflexivity.
Qed.

(* the input ended too early: the size updates read so far have been applied; reading them
   again, from the state they produced, leads to the same state *)
Lemma next_field_ext_us hp hf hf' bs k b z : fsum (h_dynamic hp) < 2 ^ 32 ->
  nf_res (next_field hp hf bs k b) = Err E_unexpected_size ->
  nf_equiv (next_field hp hf bs k (b ++ z)) (next_field (nf_hp (next_field hp hf bs k b)) hf' bs k (b ++ z)).
Proof.
  intros Hsum H. pose proof (scanN_ext (h_max_settings hp) (allowed_of bs k) z b) as X.
  assert (Hhp : exists ns ns' e', nf_hp (next_field hp hf bs k b) = apply_upd hp ns /\
            scanN (h_max_settings hp) (allowed_of bs k) (b ++ z) = (ns ++ ns', e')).
  { revert H. destruct (next_field_view hp hf bs k b)
      as [ns Es|ns e Es|ns pre c r f rest st _ _ _ _ _|ns pre c r e o Es _ _ _ Hr Hh|ns c r w o _ _ Hr _];
      cbn [nf_res nf_hp]; try rewrite Hr; try discriminate; intros H; rewrite Es in X.
    - injection H as ->. change (E_unexpected_size =? E_unexpected_size) with true in X. cbv iota in X.
      destruct X as [ns' [e' X]]. exists ns, ns', e'. split; [reflexivity | exact X].
    - exists ns, [], (SField ((c :: r) ++ z)). rewrite app_nil_r. split; [exact Hh | exact X]. }
  destruct Hhp as [ns [ns' [e' [Hhp Hs']]]]. rewrite Hhp.
  rewrite !next_field_scanN. rewrite apply_upd_settings, Hs'.
  unfold nf_of_scan. cbn [fst snd].
  assert (Hst : apply_upd (apply_upd hp ns) (ns ++ ns') = apply_upd hp (ns ++ ns'))
    by (rewrite !apply_upd_app, apply_upd_idem by exact Hsum; reflexivity).
  rewrite Hst. destruct e' as [|e'|w'|b''].
  - split; [reflexivity|]. split; [reflexivity|]. discriminate.
  - split; [reflexivity|]. split; [reflexivity|]. discriminate.
  - split; [reflexivity|]. split; [reflexivity|]. discriminate.
  - destruct (scanN_field _ _ _ _ _ Hs') as [[c [r [-> Hu]]] _]. apply one_field_equiv. exact Hu.
Qed.

(* the loop with END_HEADERS *)
Definition body_true (k : N) (o : nf_out) : result (list field * hpack_state * strm_state) :=
  match nf_res o with
  | Panic w => Panic w
  | Ok (_, false) => Ok ([], nf_hp o, mkS [] k)
  | Err e => Err E_compression
  | Ok (rest, true) =>
      match frameN (nf_hp o) (nf_hf o) true (k + 1) rest with
      | Ok (fs, hp', st) => Ok (nf_hf o :: fs, hp', st)
      | Err e => Err e
      | Panic w => Panic w
      end
  end.

Lemma frameN_true_cons hp hf k c r : frameN hp hf true k (c :: r) = body_true k (next_field hp hf true k (c :: r)).
Proof.
  rewrite frameN_cons. cbv zeta. unfold body_true.
  destruct (nf_res (next_field hp hf true k (c :: r))) as [[rest [|]]|e|w]; try reflexivity.
  cbn [negb]. rewrite andb_false_r. reflexivity.
Qed.

Lemma body_true_equiv k o o' : nf_equiv o o' -> body_true k o = body_true k o'.
Proof.
  intros [E1 [E2 E3]]. unfold body_true. rewrite <- E1, <- E2.
  destruct (nf_res o) as [[rest [|]]|e|w]; try reflexivity.
  rewrite <- (E3 rest eq_refl). reflexivity.
Qed.

Lemma next_field_hf_equiv hp hf hf' bs k b : nf_equiv (next_field hp hf bs k b) (next_field hp hf' bs k b).
Proof. apply next_field_ignores_hf. Qed.

(* whatever the HeaderField holds, and also for the empty input *)
Lemma body_true_frameN hp hf hf' k z : body_true k (next_field hp hf true k z) = frameN hp hf' true k z.
Proof.
  destruct z as [|c r].
  - unfold next_field. rewrite nfl_nil. reflexivity.
  - rewrite frameN_true_cons. apply body_true_equiv. apply next_field_hf_equiv.
Qed.

Lemma frameN_true_hf hp hf hf' k b : frameN hp hf true k b = frameN hp hf' true k b.
Proof.
  destruct b as [|c r]; [reflexivity|]. rewrite !frameN_true_cons. apply body_true_equiv, next_field_hf_equiv.
Qed.

Definition prepend (fs1 : list field) (r : result (list field * hpack_state * strm_state))
  : result (list field * hpack_state * strm_state) :=
  match r with
  | Ok (fs, hp', st) => Ok (fs1 ++ fs, hp', st)
  | Err e => Err e
  | Panic w => Panic w
  end.

Lemma small_shorter hp hp' b b' : h_max_settings hp' = h_max_settings hp -> len b' <= len b ->
  small hp b -> small hp' b'.
Proof. unfold small. intros -> H. lia. Qed.

(* a frame without END_HEADERS, then the rest of the block: same as the whole block at once *)
Theorem frame_split (z : bytes) : forall (b : bytes) hp hf k,
  bytes_ok (b ++ z) = true -> table_ok hp -> small hp (b ++ z) ->
  match frameN hp hf false k b with
  | Ok (fs1, hp1, st1) =>
      frameN hp hf true k (b ++ z) =
        prepend fs1 (frameN hp1 empty_field true (s_block_fields st1) (s_prev st1 ++ z)) /\
      table_ok hp1 /\ h_max_settings hp1 = h_max_settings hp /\ (exists pre, b = pre ++ s_prev st1)
  | Err e => frameN hp hf true k (b ++ z) = Err E_compression /\ e = E_compression
  | Panic _ => True
  end.
Proof.
  induction b as [b IH] using bytes_len_ind. intros hp hf k Hok Htab Hsm.
  destruct b as [|c r].
  - rewrite frameN_nil. cbn [app s_block_fields s_prev].
    split; [|split; [exact Htab|split; [reflexivity | exists []; reflexivity]]].
    rewrite (frameN_true_hf hp hf empty_field). destruct (frameN hp empty_field true k z) as [[[fs hp'] st]|e|w]; reflexivity.
  - assert (Hokb : bytes_ok (c :: r) = true) by (apply bytes_ok_app_iff in Hok; tauto).
    assert (Hokz : bytes_ok z = true) by (apply bytes_ok_app_iff in Hok; tauto).
    assert (Hsmb : small hp (c :: r)) by (eapply small_shorter; [reflexivity | | exact Hsm]; rewrite len_app; lia).
    pose proof (next_field_inv hp hf true k (c :: r) Hokb Htab Hsmb) as Inv. cbv zeta in Inv.
    destruct Inv as [Itab [Iset Irest]].
    rewrite frameN_cons. cbv zeta. change ((c :: r) ++ z) with (c :: (r ++ z)). rewrite frameN_true_cons.
    change (c :: (r ++ z)) with ((c :: r) ++ z).
    set (o := next_field hp hf true k (c :: r)) in *.
    destruct (nf_res o) as [[rest [|]]|e|w] eqn:Eo.
    + (* a field *)
      unfold o in Eo. rewrite (next_field_ext_ok _ _ _ _ _ _ z Eo). fold o.
      unfold body_true. cbn [nf_res nf_hp nf_hf].
      destruct (next_field_ok _ _ _ _ _ _ _ Eo) as [pre [Hpre [Hpne _]]].
      assert (Hlen : (length rest < length (c :: r))%nat).
      { rewrite Hpre, app_length. specialize (Hpne ltac:(discriminate)). destruct pre; [congruence | cbn [length]; lia]. }
      assert (Hlr : len (rest ++ z) <= len ((c :: r) ++ z)) by (rewrite !len_app; unfold len; lia).
      specialize (IH rest Hlen (nf_hp o) (nf_hf o) (k + 1)
                     ltac:(apply bytes_ok_app_iff; split; [eapply Irest; reflexivity | exact Hokz])
                     Itab ltac:(eapply small_shorter; [exact Iset | exact Hlr | exact Hsm])).
      destruct (frameN (nf_hp o) (nf_hf o) false (k + 1) rest) as [[[fs1 hp1] st1]|e|w].
      * destruct IH as [I1 [I2 [I3 [pre' I4]]]]. rewrite I1.
        split; [|split; [exact I2|split; [rewrite I3; exact Iset|]]].
        -- destruct (frameN hp1 empty_field true (s_block_fields st1) (s_prev st1 ++ z)) as [[[fs hp'] st]|e|w]; reflexivity.
        -- exists (pre ++ pre'). rewrite <- app_assoc, <- I4. exact Hpre.
      * destruct IH as [I1 I2]. rewrite I1. split; [reflexivity | exact I2].
      * exact I.
    + (* the fragment ended after size updates *)
      unfold o in Eo. rewrite (next_field_ext_end hp hf true k (c :: r) rest z ltac:(discriminate) Eo). fold o.
      cbn [s_block_fields s_prev app].
      rewrite (body_true_frameN (nf_hp o) (set_sens hf false) empty_field k z).
      split; [|split; [exact Itab|split; [exact Iset | exists (c :: r); rewrite app_nil_r; reflexivity]]].
      destruct (frameN (nf_hp o) empty_field true k z) as [[[fs hp'] st]|e|w]; reflexivity.
    + replace (0 <? len (c :: r)) with true by (symmetry; apply N.ltb_lt; rewrite len_cons; lia).
      cbn [negb]. rewrite !andb_true_r.
      destruct (N.eqb_spec e E_unexpected_size) as [->|Hne].
      * (* the fragment ended inside a representation *)
        cbn [s_block_fields s_prev].
        change ((c :: r) ++ z) with (c :: (r ++ z)). rewrite frameN_true_cons.
        change (c :: (r ++ z)) with ((c :: r) ++ z).
        pose proof (table_ok_fsum hp Htab) as [F1 F2].
        unfold o in Eo.
        rewrite (body_true_equiv k _ _ (next_field_ext_us hp hf empty_field true k (c :: r) z ltac:(lia) Eo)). fold o.
        split; [|split; [exact Itab|split; [exact Iset | exists []; reflexivity]]].
        destruct (body_true k (next_field (nf_hp o) empty_field true k ((c :: r) ++ z))) as [[[fs hp'] st]|e|w]; reflexivity.
      * unfold o in Eo. unfold body_true. rewrite (next_field_ext_err _ _ _ _ _ _ z Eo Hne). split; reflexivity.
    + exact I.
Qed.

(* the whole block at once, from a stream that has decoded k fields *)
Definition cat_run (hp : hpack_state) (k : N) (b : bytes) : result (list field * hpack_state) :=
  match frameN hp empty_field true k b with
  | Ok (fs, hp', _) => Ok (fs, hp')
  | Err e => Err e
  | Panic w => Panic w
  end.

Lemma frameN_true_prev : forall b hp hf k fs hp' st', frameN hp hf true k b = Ok (fs, hp', st') -> s_prev st' = [].
Proof.
  induction b as [b IH] using bytes_len_ind. intros hp hf k fs hp' st'.
  destruct b as [|c r]; [rewrite frameN_nil; intros H; injection H as _ _ <-; reflexivity|].
  rewrite frameN_true_cons. unfold body_true.
  destruct (nf_res (next_field hp hf true k (c :: r))) as [[rest [|]]|e|w] eqn:E; try discriminate.
  - apply next_field_progress in E; [|discriminate]. destruct E as [E _].
    destruct (frameN _ _ true (k + 1) rest) as [[[fs1 hp1] st1]|e|w] eqn:E1; try discriminate.
    intros H. injection H as _ _ <-. eapply IH; [exact E | exact E1].
  - intros H. injection H as _ _ <-. reflexivity.
Qed.

Lemma frameN_true_err : forall b hp hf k e, frameN hp hf true k b = Err e -> e = E_compression.
Proof.
  induction b as [b IH] using bytes_len_ind. intros hp hf k e.
  destruct b as [|c r]; [rewrite frameN_nil; discriminate|].
  rewrite frameN_true_cons. unfold body_true.
  destruct (nf_res (next_field hp hf true k (c :: r))) as [[rest [|]]|e0|w] eqn:E; try discriminate.
  - apply next_field_progress in E; [|discriminate]. destruct E as [E _].
    destruct (frameN _ _ true (k + 1) rest) as [[[fs1 hp1] st1]|e1|w] eqn:E1; try discriminate.
    intros H. injection H as <-. eapply IH; [exact E | exact E1].
  - intros H. injection H as <-. reflexivity.
Qed.

Lemma frames_final hp p k x :
  frames_from hp (mkS p k) [(x, true, true)] = cat_run hp k (p ++ x).
Proof.
  cbn [frames_from]. rewrite handle_header_frame_frameN. cbn [s_block_fields s_prev]. unfold cat_run.
  destruct (frameN hp empty_field true k (p ++ x)) as [[[fs hp'] st']|e|w] eqn:E; try reflexivity.
  rewrite (frameN_true_prev _ _ _ _ _ _ _ E). cbn [len length N.of_nat N.eqb negb andb frames_from].
  rewrite app_nil_r. reflexivity.
Qed.

Theorem split_gen : forall frags x hp p k,
  bytes_ok (p ++ concat (x :: frags)) = true -> table_ok hp -> small hp (p ++ concat (x :: frags)) ->
  frames_from hp (mkS p k) (frames_of false (x :: frags)) = cat_run hp k (p ++ concat (x :: frags)).
Proof.
  induction frags as [|y frags IH]; intros x hp p k Hok Htab Hsm.
  - cbn [frames_of negb concat]. rewrite app_nil_r. apply frames_final.
  - change (frames_of false (x :: y :: frags)) with ((x, false, negb false) :: frames_of false (y :: frags)).
    cbn [negb frames_from]. rewrite handle_header_frame_frameN. cbn [s_block_fields s_prev andb].
    change (concat (x :: y :: frags)) with (x ++ concat (y :: frags)) in *.
    rewrite app_assoc in Hok, Hsm |- *.
    set (z := concat (y :: frags)) in *.
    pose proof (frame_split z (p ++ x) hp empty_field k Hok Htab Hsm) as FS.
    pose proof (frameN_no_panic (p ++ x) hp empty_field false k) as NP.
    unfold cat_run at 1.
    destruct (frameN hp empty_field false k (p ++ x)) as [[[fs1 hp1] [p1 k1]]|e|w]; [| |discriminate].
    + cbn [s_block_fields s_prev] in FS. destruct FS as [F1 [F2 [F3 [pre F4]]]]. rewrite F1.
      assert (Hok1 : bytes_ok (p1 ++ z) = true).
      { apply bytes_ok_app_iff in Hok. destruct Hok as [Hpx Hz]. rewrite F4 in Hpx. apply bytes_ok_app_iff in Hpx.
        apply bytes_ok_app_iff. tauto. }
      assert (Hsm1 : small hp1 (p1 ++ z)).
      { eapply small_shorter; [exact F3 | | exact Hsm]. rewrite F4, !len_app. lia. }
      rewrite (IH y hp1 p1 k1 Hok1 F2 Hsm1). unfold cat_run. fold z.
      destruct (frameN hp1 empty_field true k1 (p1 ++ z)) as [[[fs hp'] st]|e|w]; reflexivity.
    + destruct FS as [F1 F2]. rewrite F1, F2. reflexivity.
Qed.

Lemma block_decode_cat_run hp b : block_decode hp b = cat_run hp 0 b.
Proof.
  rewrite block_decode_frameN. unfold cat_run.
  destruct (frameN hp empty_field true 0 b) as [[[fs hp'] st']|e|w] eqn:E; try reflexivity.
  rewrite (frameN_true_prev _ _ _ _ _ _ _ E), app_nil_r. reflexivity.
Qed.

(* the first frame is a HEADERS frame: on a new stream that makes no difference *)
Lemma frames_first hp x eh l :
  frames_from hp (mkS [] 0) ((x, eh, false) :: l) = frames_from hp (mkS [] 0) ((x, eh, true) :: l).
Proof. reflexivity. Qed.

Theorem split_invariance : forall st frags, frags <> [] -> forallb bytes_ok frags = true -> table_ok st ->
  block_small st (concat frags) ->
  block_decode_frames st (frames_of true frags) = block_decode st (concat frags).
Proof.
  intros st frags Hne Hok Htab Hsm. destruct frags as [|x frags]; [congruence|].
  assert (Hokc : bytes_ok (concat (x :: frags)) = true).
  { clear -Hok. induction (x :: frags) as [|a l IH]; [reflexivity|].
    cbn [forallb] in Hok. apply andb_prop in Hok. cbn [concat]. apply bytes_ok_app_iff. split; [tauto | apply IH; tauto]. }
  rewrite block_decode_cat_run. unfold block_decode_frames.
  pose proof (split_gen frags x st [] 0 Hokc Htab Hsm) as SG. cbn [app] in SG. refine (eq_trans _ SG).
  destruct frags as [|y frags]; cbn [frames_of negb]; apply frames_first.
Qed.
