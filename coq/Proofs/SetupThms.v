(* Theorems about the server's configuration glue and handshake (Impl/ServerSetup.v): for EVERY user configuration. *)
From Coq Require Import List NArith ZArith Bool Lia.
From H2V Require Import Base.Bytes Base.MachineInt Base.Result Gen.GenConsts Gen.GenSetup Impl.Frames Impl.ServerConn Impl.ServerSetup.
Import ListNotations.
Local Open Scope Z_scope.

Definition two32 : Z := 4294967296.

Lemma to_u32_small z : 0 <= z < two32 -> Z.of_N (to_u32 z) = z.
Proof. intro H. unfold to_u32. rewrite Z.mod_small by exact H. apply Z2N.id. lia. Qed.

Lemma configure_streams ac u :
  fst (srv_configure ac u) = if ac || (su_maxStreams u <=? 0) then c_srvDefaultMaxStreams else su_maxStreams u.
Proof. unfold srv_configure, srv_defaults. destruct ac; cbn [orb fst]; [reflexivity|]. destruct (su_maxStreams u <=? 0); reflexivity. Qed.

Lemma configure_header_list ac u :
  snd (srv_configure ac u) = if ac || (su_maxHeaderList u =? 0) then c_srvDefaultMaxHeaderListSize else su_maxHeaderList u.
Proof. unfold srv_configure, srv_defaults. destruct ac; cbn [orb snd]; [reflexivity|]. destruct (su_maxHeaderList u =? 0); reflexivity. Qed.

Lemma own_settings_streams ac u : st_maxStreams (srv_own_settings ac u) = to_u32 (fst (srv_configure ac u)).
Proof. unfold srv_own_settings. destruct (srv_configure ac u) as [ms hl]. cbn [fst]. destruct (0 <? hl); reflexivity. Qed.

Lemma own_settings_window ac u : st_windowSize (srv_own_settings ac u) = to_u32 srv_max_window.
Proof. unfold srv_own_settings. destruct (srv_configure ac u) as [ms hl]. destruct (0 <? hl); reflexivity. Qed.

Lemma own_settings_header ac u :
  st_headerSize (srv_own_settings ac u) = if 0 <? snd (srv_configure ac u) then to_u32 (snd (srv_configure ac u)) else 0%N.
Proof. unfold srv_own_settings. destruct (srv_configure ac u) as [ms hl]. cbn [snd]. destruct (0 <? hl); reflexivity. Qed.

Lemma own_settings_rest ac u : let st := srv_own_settings ac u in
  st_ack st = false /\ st_tableSize st = c_defaultHeaderTableSize /\ st_enablePush st = false /\ st_frameSize st = c_defaultDataFrameSize.
Proof. cbv zeta. unfold srv_own_settings. destruct (srv_configure ac u) as [ms hl]. destruct (0 <? hl); cbn; auto. Qed.

(* ---- the stream limit: what a user gets, and that it is never zero for want of configuration ---- *)
Theorem setup_streams ac u : su_maxStreams u < two32 ->
  cf_maxStreams (srv_serve_config ac u) = (if ac || (su_maxStreams u <=? 0) then c_srvDefaultMaxStreams else su_maxStreams u) /\
  1 <= cf_maxStreams (srv_serve_config ac u).
Proof.
  intro B. unfold srv_serve_config. pose proof (own_settings_streams ac u) as S. pose proof (configure_streams ac u) as C.
  destruct (srv_configure ac u) as [ms hl] eqn:E. cbn [cf_maxStreams fst] in *. rewrite S, C.
  destruct (ac || (su_maxStreams u <=? 0)) eqn:D.
  - split; [reflexivity|]. vm_compute. discriminate.
  - apply orb_false_iff in D. destruct D as [_ D]. apply Z.leb_gt in D. rewrite to_u32_small by (unfold two32 in *; lia). lia.
Qed.

(* without the bound the Go conversion uint32(int) bites: 2^32 streams configured, none allowed *)
Example setup_streams_wraps : cf_maxStreams (srv_serve_config false (mkSrvUser two32 0 0 0)) = 0.
Proof. vm_compute. reflexivity. Qed.

(* ---- the header list limit: zero means the default (the CONTINUATION flood guard is on unless switched off) ---- *)
Theorem setup_header_list ac u :
  cf_maxHeaderList (srv_serve_config ac u) =
    (if ac || (su_maxHeaderList u =? 0) then c_srvDefaultMaxHeaderListSize else su_maxHeaderList u) /\
  (0 <= su_maxHeaderList u \/ ac = true -> 0 < cf_maxHeaderList (srv_serve_config ac u)).
Proof.
  unfold srv_serve_config. pose proof (configure_header_list ac u) as C.
  destruct (srv_configure ac u) as [ms hl] eqn:E. cbn [cf_maxHeaderList snd] in *. rewrite C. split; [reflexivity|].
  intro H. destruct ac; cbn [orb]; [vm_compute; reflexivity|]. destruct H as [H|H]; [|discriminate].
  destruct (su_maxHeaderList u =? 0) eqn:Z; [vm_compute; reflexivity|]. apply Z.eqb_neq in Z. lia.
Qed.

Theorem setup_body ac u : cf_maxBody (srv_serve_config ac u) = (if 0 <? su_maxBody u then su_maxBody u else c_fasthttpDefaultMaxBody) /\
  0 < cf_maxBody (srv_serve_config ac u).
Proof.
  unfold srv_serve_config. destruct (srv_configure ac u) as [ms hl]. cbn [cf_maxBody]. unfold srv_max_body. split; [reflexivity|].
  destruct (0 <? su_maxBody u) eqn:D; [apply Z.ltb_lt in D; exact D | vm_compute; reflexivity].
Qed.

(* ---- advertised = enforced: every value of the handshake's SETTINGS frame is the one the connection enforces ---- *)
Theorem setup_announced_is_enforced ac u : su_maxStreams u < two32 -> su_maxHeaderList u < two32 ->
  let cfg := srv_serve_config ac u in
  srv_announced ac u =
    [(c_EnablePush, 0%N); (c_MaxConcurrentStreams, Z.to_N (cf_maxStreams cfg)); (c_MaxWindowSize, Z.to_N (cf_maxWindow cfg))]
    ++ (if 0 <? cf_maxHeaderList cfg then [(c_MaxHeaderListSize, Z.to_N (cf_maxHeaderList cfg))] else []).
Proof.
  intros B1 B2. cbv zeta. unfold srv_announced, srv_serve_config.
  pose proof (own_settings_streams ac u) as S. pose proof (own_settings_window ac u) as W. pose proof (own_settings_header ac u) as Hd.
  pose proof (configure_header_list ac u) as C.
  destruct (srv_configure ac u) as [ms hl] eqn:E. cbn [cf_maxStreams cf_maxWindow cf_maxHeaderList fst snd] in *.
  rewrite N2Z.id. rewrite W. f_equal. rewrite Hd.
  destruct (0 <? hl) eqn:P; [|reflexivity]. apply Z.ltb_lt in P.
  assert (hl < two32).
  { rewrite C. destruct (ac || (su_maxHeaderList u =? 0)); [vm_compute; reflexivity | exact B2]. }
  assert (Q : Z.of_N (to_u32 hl) = hl) by (apply to_u32_small; lia).
  assert (NZ : (to_u32 hl =? 0)%N = false). { apply N.eqb_neq. intro X. rewrite X in Q. cbn in Q. lia. }
  rewrite NZ. cbn [negb]. rewrite <- Q at 2. rewrite N2Z.id. reflexivity.
Qed.

Definition entries (l : list (N * N)) : bytes := flat_map (fun kv => setting_entry (fst kv) (snd kv)) l.

Lemma encode_own ac u : settings_encode (srv_own_settings ac u) = entries (srv_announced ac u).
Proof.
  unfold settings_encode, srv_announced, entries. destruct (own_settings_rest ac u) as (_ & T & P & F).
  rewrite T, P, F, (own_settings_window ac u). rewrite N.eqb_refl.
  replace (to_u32 srv_max_window =? c_defaultWindowSize)%N with false by (vm_compute; reflexivity).
  replace (c_defaultDataFrameSize =? 0)%N with false by (vm_compute; reflexivity).
  rewrite N.eqb_refl. cbn [negb andb].
  destruct (st_headerSize (srv_own_settings ac u) =? 0)%N; cbn [negb flat_map app fst snd]; rewrite ?app_nil_r, <- ?app_assoc; reflexivity.
Qed.

Theorem setup_handshake_bytes ac u : (len (entries (srv_announced ac u)) < 2 ^ 24)%N ->
  srv_handshake_bytes ac u =
    Ok (uint24_to_bytes (len (entries (srv_announced ac u))) ++ [4%N; 0%N; 0%N; 0%N; 0%N; 0%N] ++ entries (srv_announced ac u)
        ++ [0%N; 0%N; 4%N; 8%N; 0%N; 0%N; 0%N; 0%N; 0%N] ++ [0%N; 64%N; 0%N; 0%N]).
Proof.
  intro L. unfold srv_handshake_bytes, write_to, build. cbn [set_body set_stream set_flags fh_body acquire_header].
  destruct (own_settings_rest ac u) as (A & _). cbn [serialize]. cbn [fh_flags set_flags].
  rewrite A. cbn [with_flag]. rewrite (encode_own ac u).
  set (E := entries (srv_announced ac u)) in *.
  cbn -[E uint24_to_bytes len N.pow]. unfold parse_header_bytes. cbn -[E uint24_to_bytes len N.pow].
  f_equal. rewrite <- !app_assoc. cbn -[E uint24_to_bytes len N.pow].
  replace (u32 (len E)) with (len E); [reflexivity|]. unfold u32. symmetry. apply N.mod_small. cbn in L |- *. lia.
Qed.

(* the announced list has three or four entries: the bound above always holds *)
Lemma announced_len ac u : (len (entries (srv_announced ac u)) < 2 ^ 24)%N.
Proof.
  unfold srv_announced, entries. destruct (negb (st_headerSize (srv_own_settings ac u) =? 0)%N); cbn; lia.
Qed.

(* the WINDOW_UPDATE of the handshake: never 0, never above 2^31-1 *)
Theorem setup_window_update : 0 < srv_max_window <= 2147483647 /\ forall ac u, cf_maxWindow (srv_serve_config ac u) = srv_max_window.
Proof. split; [vm_compute; split; [reflexivity|discriminate]|]. intros ac u. unfold srv_serve_config. destruct (srv_configure ac u); reflexivity. Qed.

Example ex_and_config : srv_serve_config true (mkSrvUser 0 0 0 0) =
  {| cf_maxStreams := 1024; cf_maxHeaderList := 1048576; cf_maxBody := 4194304; cf_maxRequestTime := 0; cf_maxWindow := 4194304 |}.
Proof. vm_compute. reflexivity. Qed.

Example ex_announced : srv_announced false (mkSrvUser 0 400 0 0) = [(2%N, 0%N); (3%N, 1024%N); (4%N, 4194304%N); (6%N, 400%N)].
Proof. vm_compute. reflexivity. Qed.
