(* Reading a frame and writing the returned *FrameHeader back out (what a forwarder such as
   examples/proxy does): for every frame type but SETTINGS the frame that goes out reads
   back to the same accessor values. *)
From Coq Require Import List NArith ZArith Bool Lia.
From Coq Require Import ZifyN ZifyNat ZifyBool.
From H2V Require Import Base.Bytes Base.MachineInt Base.Result Gen.GenConsts Spec.Rfc7540Frames
  Impl.Pools Impl.Frames Impl.FrameView Proofs.HpackBytes Proofs.FramesBits Proofs.FramesSpec Proofs.FramesRead
  Proofs.FramesC16 Proofs.FramesWrite.
Import ListNotations.
Local Open Scope N_scope.
Ltac Zify.zify_post_hook ::= Z.div_mod_to_equations.

Definition not_settings (b : payload) : Prop := match b with Settings _ => False | _ => True end.

Lemma view_kind fl b : Z.of_N (type_code b) = body_type (view_body fl b).
Proof. destruct b as [| ? [?|] ?| | | | | | | |]; reflexivity. Qed.

Lemma view_body_ok fl b : wf_body fl b -> not_settings b -> body_ok (view_body fl b).
Proof.
  assert (forall x, x < 2 ^ 31 -> x < 2 ^ 32) as Up.
  { intros x. change (2 ^ 31) with 2147483648. change (2 ^ 32) with 4294967296. lia. }
  destruct b as [pad d|pad [p|] frag|p|code|items|pad r promised frag|d|r last code debug|r incr|frag];
    cbn [wf_body view_body body_ok not_settings].
  - tauto.
  - intros (_ & B & _ & D & W) _. auto.
  - intros (_ & B & _) _. split; [reflexivity|]. split; [reflexivity|assumption].
  - intros [D W] _. auto.
  - auto.
  - contradiction.
  - intros (_ & P & B) _. auto.
  - auto.
  - auto.
  - auto.
  - auto.
Qed.

(* the bits a body's accessors are read from survive the flag rewriting of Serialize *)
Lemma view_of_view fl b padn : wf_body fl b -> not_settings b ->
  view_body (flags_of fl (view_body fl b)) (payload_of (view_body fl b) padn) = view_body fl b.
Proof.
  intros W NS.
  destruct b as [pad d|pad [p|] frag|p|code|items|pad r promised frag|d|r last code debug|r incr|frag];
    cbn [view_body flags_of payload_of pad_of wf_body not_settings] in *;
    unfold END_STREAM, END_HEADERS, ACK, PADDED, PRIORITY_FLAG in *.
  - autorewrite with setbit. reflexivity.
  - destruct W as (_ & _ & _ & D & _). cbn [p_dep p_weight]. rewrite (N.mod_small _ _ D). autorewrite with setbit. reflexivity.
  - autorewrite with setbit. reflexivity.
  - reflexivity.
  - reflexivity.
  - contradiction.
  - destruct W as (_ & P & _). rewrite (N.mod_small _ _ P). autorewrite with setbit. reflexivity.
  - autorewrite with setbit. reflexivity.
  - reflexivity.
  - unfold of_signed.
    assert (Z.to_N (Z.of_N incr mod Z.of_N (2 ^ 32)) = incr) as ->.
    { change (Z.of_N (2 ^ 32)) with 4294967296%Z. change (2 ^ 31) with 2147483648 in W. lia. }
    unfold low31. rewrite (N.mod_small _ _ W). reflexivity.
  - autorewrite with setbit. reflexivity.
Qed.

Lemma len_be n x : len (be n x) = N.of_nat n.
Proof. unfold len. rewrite be_length. reflexivity. Qed.

Lemma len_with_pad pad c : len c <= len (with_pad pad c).
Proof. destruct pad as [p|]; cbn [with_pad]; [rewrite len_cons, len_app|]; lia. Qed.

Lemma len_prio p : len (prio_bytes p) = 5.
Proof. unfold prio_bytes. rewrite len_app, len_be. reflexivity. Qed.

Lemma forwarded_len fl b padn : not_settings b ->
  len (payload_bytes (payload_of (view_body fl b) padn)) <= len (payload_bytes b).
Proof.
  intros NS.
  destruct b as [pad d|pad [p|] frag|p|code|items|pad r promised frag|d|r last code debug|r incr|frag];
    cbn [view_body payload_of pad_of payload_bytes with_pad not_settings] in *.
  - apply len_with_pad.
  - eapply N.le_trans; [|apply len_with_pad]. rewrite !len_app, !len_prio. lia.
  - eapply N.le_trans; [|apply len_with_pad]. cbn [app]. lia.
  - rewrite !len_prio. lia.
  - rewrite !len_be. lia.
  - contradiction.
  - eapply N.le_trans; [|apply len_with_pad]. rewrite !len_app, !len_be. lia.
  - lia.
  - rewrite !len_app, !len_be. lia.
  - rewrite !len_be. lia.
  - lia.
Qed.

(* read, then write the returned *FrameHeader: the frame on the wire is well-formed and
   reads back to the same accessor values (padding is not reproduced, reserved and E bits
   are gone, undefined flag bits are kept) *)
Theorem forward_preserves_view f rest max :
  wf f -> not_settings (f_body f) -> payload_len f <= effective_limit max -> bytes_ok rest = true ->
  exists fr out f' g,
    ro_res (read_frame_with_size max (spec_write f ++ rest)) = Ok fr /\
    write_to fr 9 = Ok (out, f') /\ spec_parse out = Some (g, []) /\ wf g /\
    f_stream g = f_stream f /\ f_rsv g = false /\
    view_body (f_flags g) (f_body g) = view_body (f_flags f) (f_body f).
Proof.
  intros W NS L B. pose proof W as (Hfl & Hs & Hn & Hb).
  assert (settings_valid (f_body f) = true) as V by (destruct (f_body f); try reflexivity; contradiction).
  destruct (read_written_frame f rest max W V L B) as [R _].
  set (bd := view_body (f_flags f) (f_body f)).
  assert (Hs32 : f_stream f < 2 ^ 32).
  { change (2 ^ 31) with 2147483648 in Hs. change (2 ^ 32) with 4294967296. lia. }
  assert (Hl : payload_len (frame_of (f_flags f) (f_stream f) bd 9) < 2 ^ 24).
  { unfold payload_len, frame_of. cbn [f_body]. unfold payload_len in Hn.
    eapply N.le_lt_trans; [apply forwarded_len; assumption|exact Hn]. }
  destruct (write_to_spec (view max f) bd 9 eq_refl (view_kind _ _) Hfl Hs32
              (view_body_ok _ _ Hb NS) (N.le_refl 9) eq_refl Hl) as (Wg & f' & bd' & E & _).
  cbn [view fh_flags fh_stream] in *.
  exists (view max f), (spec_write (frame_of (f_flags f) (f_stream f) bd 9)), f', (frame_of (f_flags f) (f_stream f) bd 9).
  split; [exact R|]. split; [exact E|]. split.
  { rewrite <- (app_nil_r (spec_write _)). apply spec_parse_write. exact Wg. }
  split; [exact Wg|]. unfold frame_of. cbn [f_stream f_rsv f_flags f_body].
  split; [unfold low31; apply N.mod_small; exact Hs|]. split.
  { unfold top_bit. apply N.leb_gt. exact Hs. }
  apply view_of_view; assumption.
Qed.

(* SETTINGS: the Settings value is the state after the frame, so the frame that goes
   out is not the frame that came in; what it does carry is the state *)
Definition st_inv (st : settings_v) : Prop := body_ok (BSettings st) /\ st_frameSize st <> 0.

Lemma view_setting_inv st kv : wf_setting kv -> setting_valid kv = true -> st_inv st -> st_inv (view_setting st kv).
Proof.
  destruct kv as [k v]. unfold wf_setting, setting_valid, view_setting, st_inv. cbn [fst snd body_ok].
  intros [_ Hv] V ((H1 & H3 & H4 & H5 & H6) & NZ).
  destruct k as [|[[[q|q|]|[q|q|]|]|[[q|q|]|[q|q|]|]|]]; cbn; repeat split; try assumption.
  apply andb_prop in V. destruct V as [V _]. apply N.leb_le in V. change (2 ^ 14) with 16384 in V. lia.
Qed.

Lemma fold_view_inv items : Forall wf_setting items -> forallb setting_valid items = true ->
  forall st, st_inv st -> st_inv (fold_left view_setting items st).
Proof.
  induction 1 as [|kv items W _ IH]; intros V st I; [exact I|].
  cbn [forallb] in V. apply andb_prop in V. destruct V as [V1 V2].
  cbn [fold_left]. apply IH; [exact V2|]. apply view_setting_inv; assumption.
Qed.

Lemma reset_inv a : st_inv (st_set_ack settings_reset a).
Proof. unfold st_inv. cbn. repeat split; try reflexivity. discriminate. Qed.

Lemma fold_ack items : forall s, st_ack (fold_left view_setting items s) = st_ack s.
Proof.
  induction items as [|[k v] items IH]; intros s; [reflexivity|].
  cbn [fold_left]. rewrite IH. unfold view_setting. cbn [fst snd].
  destruct k as [|[[[q|q|]|[q|q|]|]|[[q|q|]|[q|q|]|]|]]; reflexivity.
Qed.

Theorem forward_settings_meaning items fl sid rest max :
  let f := mkFrame fl false sid (Settings items) in
  wf f -> settings_valid (f_body f) = true -> flag fl ACK = false ->
  payload_len f <= effective_limit max -> bytes_ok rest = true ->
  exists fr st out f' items',
    ro_res (read_frame_with_size max (spec_write f ++ rest)) = Ok fr /\
    fh_body fr = Some (BSettings st) /\
    write_to fr 9 = Ok (out, f') /\
    spec_parse out = Some (mkFrame (flags_of fl (BSettings st)) false sid (Settings items'), []) /\
    apply_settings initial_params items' = params_of st.
Proof.
  intros f W V A L B. pose proof W as (Hfl & Hs & Hn & Hb).
  destruct (read_written_frame f rest max W V L B) as [R _].
  set (f0 := mkFrame fl false sid (Settings items)) in *. unfold f in *. clear f.
  cbn [f_body f_flags f_stream wf_body f0] in Hfl, Hs, Hb, V. destruct Hb as [Wi _].
  set (st := fold_left view_setting items (st_set_ack settings_reset (flag fl ACK))).
  destruct (fold_view_inv items Wi V _ (reset_inv (flag fl ACK))) as [Ok' NZ]. fold st in Ok', NZ.
  assert (st_ack st = false) as Ack by (unfold st; rewrite fold_ack, A; reflexivity).
  assert (Hs32 : sid < 2 ^ 32).
  { change (2 ^ 31) with 2147483648 in Hs. change (2 ^ 32) with 4294967296. lia. }
  assert (Hl : payload_len (frame_of fl sid (BSettings st) 9) < 2 ^ 24).
  { unfold payload_len, frame_of. cbn [f_body payload_of payload_bytes]. rewrite Ack.
    unfold sent_settings.
    repeat match goal with |- context [if ?c then _ else _] => destruct c end;
      cbn [app flat_map]; unfold setting_bytes; rewrite ?len_app, ?len_be; cbn; reflexivity. }
  destruct (write_to_spec (view max f0) (BSettings st) 9 eq_refl eq_refl Hfl Hs32 Ok' (N.le_refl 9) eq_refl Hl)
    as (Wg & f' & bd' & E & _).
  cbn [view fh_flags fh_stream] in *. change (f_flags f0) with fl in *. change (f_stream f0) with sid in *.
  exists (view max f0), st, (spec_write (frame_of fl sid (BSettings st) 9)), f', (sent_settings st).
  split; [exact R|]. split; [reflexivity|]. split; [exact E|]. split.
  - rewrite <- (app_nil_r (spec_write _)). rewrite (spec_parse_write _ [] Wg). f_equal. f_equal.
    unfold frame_of. cbn [payload_of]. rewrite Ack.
    unfold top_bit, low31. rewrite (N.mod_small _ _ Hs).
    assert (2 ^ 31 <=? sid = false) as -> by (apply N.leb_gt; exact Hs). reflexivity.
  - apply settings_meaning. exact NZ.
Qed.

(* Faithful forwarding of every frame - the frame written reads back to the same accessor
   values as the frame read - is FALSE of SETTINGS: the Settings value re-encodes the whole
   state (RFC defaults included) and forgets which parameters the frame carried. *)
Definition forward_faithful_statement : Prop :=
  forall f rest max,
    wf f -> settings_valid (f_body f) = true -> payload_len f <= effective_limit max -> bytes_ok rest = true ->
    exists fr out f' g,
      ro_res (read_frame_with_size max (spec_write f ++ rest)) = Ok fr /\
      write_to fr 9 = Ok (out, f') /\ spec_parse out = Some (g, []) /\
      view_body (f_flags g) (f_body g) = view_body (f_flags f) (f_body f).

(* witness: SETTINGS [ENABLE_PUSH=1] comes back out as [MAX_CONCURRENT_STREAMS=100] *)
Definition ex_push_on : frame := mkFrame 0 false 0 (Settings [(2, 1)]).

Theorem forward_faithful_refuted : ~ forward_faithful_statement.
Proof.
  intros H.
  assert (wf ex_push_on) as W.
  { unfold wf. split; [reflexivity|]. split; [reflexivity|]. split; [reflexivity|].
    cbn [wf_body f_body ex_push_on f_flags]. split; [repeat constructor|intros X; discriminate X]. }
  destruct (H ex_push_on [] 16384 W eq_refl) as (fr & out & f' & g & R & Wt & P & V);
    [vm_compute; discriminate|reflexivity|].
  vm_compute in R. injection R as <-.
  vm_compute in Wt. injection Wt as <- _.
  vm_compute in P. injection P as <-.
  vm_compute in V. discriminate V.
Qed.

Example ex_forward_settings_bytes :
  match ro_res (read_frame_with_size 16384 (spec_write ex_push_on)) with
  | Ok fr => match write_to fr 9 with
             | Ok (out, _) => spec_write ex_push_on = [0; 0; 6; 4; 0; 0; 0; 0; 0; 0; 2; 0; 0; 0; 1] /\
                              out = [0; 0; 6; 4; 0; 0; 0; 0; 0; 0; 3; 0; 0; 0; 100]
             | _ => False
             end
  | _ => False
  end.
Proof. vm_compute. split; reflexivity. Qed.
