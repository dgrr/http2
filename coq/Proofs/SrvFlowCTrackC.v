(* Proofs/SrvFlowCTrackC.v - C06 completion: the tracked response through every step of the model. *)
From H2V Require Import Base.Bytes Base.MachineInt Base.Result Gen.GenConsts Impl.ServerConn Proofs.SrvBase
  Spec.FlowLedger Proofs.SrvFlowLedger Proofs.SrvFlowDefs Proofs.SrvFlowSend Proofs.SrvFlowEff Proofs.SrvFlowSafe
  Proofs.SrvFlowSafeB Proofs.SrvFlowSafeC Proofs.SrvFlowEs Proofs.SrvFlowRecv Proofs.SrvFlowStall Proofs.SrvFlowFuel
  Proofs.SrvFlowDone Proofs.SrvFlowCDecomp Proofs.SrvFlowCMono Proofs.SrvFlowCView Proofs.SrvFlowCEarly Proofs.SrvFlowCTrack
  Proofs.SrvFlowCTrackB.
From Coq Require Import ZArith Lia ZifyN ZifyNat ZifyBool List.
Import ListNotations.
Local Open Scope N_scope.
Set Default Proof Using "Type".

Section TrackC.
Variable hstate : Type.
Variable dec_field : hstate -> N -> bytes -> dec_res hstate.
Variable enc_field : hstate -> bytes -> bytes -> bool -> bytes * hstate.
Variable enc_set_max : hstate -> N -> hstate.
Variable cfg : config.
Notation sconn := (sconn hstate).
Implicit Types c : sconn.
Notation Sim := (SimX hstate None).
Notation AbortS := (AbortS hstate).
Notation Keeps := (Keeps hstate).
Notation FrameO := (FrameO hstate).
Notation Live := (Live hstate).
Notation Complete := (Complete hstate).
Notation Sent := (Sent hstate).
Notation Queued := (Queued hstate).
Notation Track := (Track hstate).
Notation NE := (NE hstate).

Lemma Sim_IdsHi c L : Sim c L -> IdsHi c.
Proof. intros S s Hs. pose proof (sim_le _ _ _ _ S s Hs). pose proof (sim_hi _ _ _ _ S). flia. Qed.

(* handleFrame went through on the stream, or the peer has been told why not *)
Lemma HFok_cases c2 s fr cX sX : HFok dec_field cfg c2 s fr cX sX -> (Recv c2 cX /\ same_send s sX) \/ AbortS (st_id s) cX.
Proof.
  unfold HFok. intro HF.
  pose proof (handle_frame_Recv _ dec_field cfg c2 s fr) as R.
  pose proof (handle_frame_eff _ dec_field cfg c2 s fr) as (SS & _ & _).
  destruct (handle_frame dec_field cfg c2 s fr) as [[c3 s3] e]. cbn [fst snd] in *.
  assert (I3 : st_id s3 = st_id s) by apply SS.
  destruct e as [[code|code|]|].
  - destruct HF as (_ & -> & _). right. right; right; left. apply sc_closing_write_goaway.
  - destruct HF as (-> & _). right. rewrite I3.
    destruct (write_reset_seen _ c3 (st_id s) code) as [H|H]; [right; left; rewrite sc_wl_dead_write_reset; exact H | right; right; right; exact H].
  - contradiction.
  - destruct HF as (-> & ->). left. split; assumption.
Qed.

Lemma Keeps_Origin sid c fr c1 s : Origin c fr c1 s -> sf_sid fr <> sid -> Keeps sid c c1.
Proof.
  intros O NE. destruct O as [s LE F | KH FD HI LA]; [apply Keeps_refl|].
  constructor; sc_cbn; [apply search_app_other; unfold new_strm; cbn; congruence | reflexivity | flia].
Qed.

Lemma Track_ClosesR sid B c1 c2 : ClosesR hstate c1 c2 -> Track sid B c1 -> Track sid B c2.
Proof.
  intros [CL _ Why] H. destruct (Why sid) as [E|Ab]; [|left; exact Ab].
  eapply Track_Keeps; [|apply FrameO_Closes, CL | exact H]. constructor; [exact E| |rewrite (cl_highestID _ _ _ CL); flia].
  destruct (out_quiet_noframe _ _ _ (cl_out _ _ _ CL)) as (new & En & Fn). rewrite En, rf_app, (rf_noframe _ _ Fn). reflexivity.
Qed.

Lemma Track_settings sid B c fr ni delta : Track sid B c ->
  Track sid B (emit (upd_strms (upd_initWin (settings_c0 enc_set_max c fr) ni) (map (bump delta) (sc_strms c))) OSettingsAck).
Proof.
  intro H. set (cS := emit _ _).
  destruct (settings_c0_fields _ enc_set_max c fr) as (E1 & E2 & E3 & E4 & E5 & E6).
  assert (RFS : rf sid (sc_out cS) = rf sid (sc_out c)).
  { unfold cS. rewrite rf_emit_noframe by reflexivity. sc_cbn. rewrite E6. reflexivity. }
  assert (HS : sc_highestID cS = sc_highestID c) by (unfold cS; rewrite sc_highestID_emit; sc_cbn; exact E5).
  assert (SS : strms_search (sc_strms cS) sid = match strms_search (sc_strms c) sid with Some s => Some (bump delta s) | None => None end).
  { unfold cS. rewrite sc_strms_emit. sc_cbn. apply search_map_bump. }
  assert (FO : FrameO c cS).
  { unfold cS. eapply (FrameO_Frame _ _ _ any_out).
    - eapply Frame_trans; [|apply Frame_emit]. eapply Frame_trans; [|apply Frame_upd_strms].
      eapply Frame_trans; [|apply Frame_upd_initWin]. unfold settings_c0. destruct (sf_set_hastable fr); [apply Frame_upd_enc | apply Frame_refl].
    - eapply out_ext_trans; [|apply (out_ext_emit _ any_out); exact I]. apply out_ext_same. sc_cbn. exact E6. }
  destruct H as [H|[H|H]].
  - left. eapply AbortS_FrameO; eassumption.
  - right; left. destruct H as (s & frames & F & PT & BS & PE & PN & (blk & Q) & R). exists (bump delta s), frames.
    rewrite SS, F. split; [reflexivity|]. split; [exact PT|]. split; [exact BS|]. split; [exact PE|]. split; [exact PN|].
    split; [exists blk; rewrite RFS; exact Q | exact R].
  - right; right. destruct H as (F & Hh & (frames & (blk & Q) & R)). split; [rewrite SS, F; reflexivity|]. split; [rewrite HS; exact Hh|].
    exists frames. split; [exists blk; rewrite RFS; exact Q | exact R].
Qed.

Lemma sl_frame_Track sid B c fr L : Sim c L -> NE c -> Track sid B c -> (sf_sid fr = sid -> sf_kind fr <> KRst) ->
  Track sid B (fst (sl_frame dec_field enc_set_max cfg c fr)).
Proof.
  intros S HN H NR.
  destruct (sl_frame_SLX _ dec_field enc_set_max cfg c fr)
    as [c' Q R G0 G1 HH D | c' F O SD | Z K HW c0 newInit delta Fa | Z K W | NZ K | c1 s p NZ Or KH Hp | c1 s c2 cX sX NZ Or CL HF].
  - eapply Track_Keeps; [apply Keeps_Quiet, Q | apply FrameO_Quiet, Q | exact H].
  - left. left. exact SD.
  - pose proof (settings_Sim _ enc_set_max c fr L S) as S2. cbv zeta in S2. fold c0 newInit delta in S2.
    apply flush_streams_Track; [apply (sim_nodup _ _ _ _ S2) | eapply Sim_IdsHi; exact S2 | apply Track_settings, H].
  - pose proof (winupd_Sim _ c (sf_inc fr) L S) as S2.
    apply flush_streams_Track; [apply (sim_nodup _ _ _ _ S2) | eapply Sim_IdsHi; exact S2|].
    eapply Track_Keeps; [| |exact H].
    + constructor; sc_cbn; try reflexivity; try flia.
    + apply FrameO_same; [apply Frame_upd_clientWindow | reflexivity].
  - eapply Track_Keeps; [apply Keeps_Recv, Recv_credit | apply FrameO_Recv, Recv_credit | exact H].
  - left. right; right; left. unfold put. sc_cbn. apply sc_closing_write_goaway.
  - (* the frame is handled on its stream *)
    pose proof (cr_closes _ _ _ CL) as CL'.
    destruct (after_pre_Sim _ dec_field cfg c fr c1 s c2 cX sX L S NZ Or CL' HF) as (SX & _ & LeX & IdX & _).
    assert (Ids : st_id s = sf_sid fr) by (eapply Origin_id; exact Or).
    assert (FO1 : FrameO c c1) by (eapply FrameO_Frame; apply (Origin_Frame _ _ _ _ _ Or)).
    destruct (HFok_eff _ dec_field cfg c2 s fr cX sX HF) as (c3 & s3 & Rc & Qc & _).
    assert (FOX : FrameO c2 cX) by (eapply FrameO_trans; [apply FrameO_Recv, Rc | apply FrameO_Quiet, Qc]).
    assert (FA : forall c0, FrameO c0 (fst (after_frame cfg c0 sX fr (sc_closing c)))) by (intro; apply FrameO_NoCredit, after_frame_NoCredit).
    destruct (N.eq_dec (sf_sid fr) sid) as [E|NEq].
    + (* the tracked stream *)
      specialize (NR E).
      destruct H as [H|[H|H]].
      * left. eapply AbortS_FrameO; [|exact H].
        eapply FrameO_trans; [exact FO1|]. eapply FrameO_trans; [apply FrameO_Closes, CL'|]. eapply FrameO_trans; [exact FOX | apply FA].
      * destruct H as (s0 & frames & F & PT & BS & PE & PN & Q & CB & ES & FS).
        pose proof (strms_search_In _ _ _ F) as [Hin0 _].
        assert (c1 = c /\ s = s0) as [-> ->].
        { destruct Or as [s LE F' | KH FD HI LA]; [split; [reflexivity | congruence]|]. exfalso.
          destruct (sf_sid fr <=? sc_lastID c) eqn:LE; [congruence|]. pose proof (sim_le _ _ _ _ S s0 Hin0).
          pose proof (strms_search_In _ _ _ F) as [_ X]. flia. }
        (* closing streams below *)
        destruct (cr_why _ _ _ CL sid) as [E2|Ab].
        2:{ left. eapply AbortS_FrameO; [|exact Ab]. eapply FrameO_trans; [exact FOX | apply FA]. }
        assert (Q2 : Queued sid false frames c2).
        { destruct Q as (blk & Q). exists blk. destruct (out_quiet_noframe _ _ _ (cl_out _ _ _ CL')) as (new & En & Fn).
          rewrite En, rf_app, (rf_noframe _ _ Fn). exact Q. }
        destruct (HFok_cases _ _ _ _ _ HF) as [[RX SS]|Ab].
        2:{ left. rewrite <- E, <- Ids. eapply AbortS_FrameO; [apply FA | exact Ab]. }
        destruct (proj1 HN s0 Hin0) as [_ PC].
        destruct (sc_closing c) eqn:CLO.
        { left. eapply AbortS_FrameO; [|right; right; left; exact CLO].
          eapply FrameO_trans; [apply FrameO_Closes, CL'|]. eapply FrameO_trans; [exact FOX | apply FA]. }
        assert (St : st_state s0 <> SClosed) by (intro X; specialize (PC X); discriminate).
        eapply (after_frame_own _ cfg cX s0 sX fr false sid B frames); try eassumption.
        -- apply (sim_nodup _ _ _ _ SX).
        -- rewrite <- E, <- Ids, <- IdX. pose proof (sim_hi _ _ _ _ SX). flia.
        -- rewrite (rv_strms _ _ _ RX), E2. exact F.
        -- eapply Queued_Keeps; [apply Keeps_Recv, RX | exact Q2].
      * exfalso. destruct H as (F & Hh & _). destruct Or as [s LE F' | KH FD HI LA]; [congruence | flia].
    + (* another stream *)
      assert (NEs : st_id sX <> sid) by congruence.
      eapply Track_Keeps; [apply Keeps_after_frame; exact NEs | apply FA|].
      eapply Track_Keeps; [eapply Keeps_trans; [apply Keeps_Recv, Rc | apply Keeps_Quiet, Qc] | exact FOX|].
      eapply Track_ClosesR; [exact CL|].
      eapply Track_Keeps; [eapply Keeps_Origin; eassumption | exact FO1 | exact H].
Qed.

(* a handler returns: of another stream, or to no effect *)
Lemma sl_done_Keeps sid c sid' r :
  (forall s, strms_search (sc_strms c) sid' = Some s -> st_handlerRunning s = true -> sid' <> sid) ->
  Keeps sid c (fst (sl_done enc_field cfg c sid' r)).
Proof.
  intro HN. unfold sl_done.
  destruct (take_stream (sc_gone c) sid') as [[s rest]|].
  - cbn [fst cont]. apply Keeps_Quiet. apply Quiet_release_gone.
  - destruct (strms_search (sc_strms c) sid') as [s|] eqn:F; [|apply Keeps_refl].
    destruct (negb (st_handlerRunning s)) eqn:RU; [apply Keeps_refl|].
    pose proof (strms_search_In _ _ _ F) as [Hin Hid].
    assert (NEq : sid' <> sid) by (apply (HN s eq_refl); destruct (st_handlerRunning s); [reflexivity | discriminate]).
    set (s1 := set_flags s (st_responded s) false (st_abandoned s)).
    destruct (finish_request_stream _ enc_field c s1 r) as (A1 & _ & _ & _ & A5 & A6 & A7). cbv zeta in *.
    destruct (finish_request enc_field c s1 r) as [[c1 s2] fin]. cbn [fst snd] in *.
    assert (I1 : st_id s1 = sid') by exact Hid.
    assert (K1 : Keeps sid c c1) by (eapply Keeps_ext; [exact A5 | rewrite A6; flia | exact A7 | congruence]).
    match goal with |- context [if ?b then brk ?x else cont ?x] => assert (G : Keeps sid c x) end.
    { eapply Keeps_trans; [exact K1|]. destruct fin.
      - eapply Keeps_trans; [apply Keeps_put | apply Keeps_close]; cbn [st_id set_state]; congruence.
      - apply Keeps_put. congruence. }
    match goal with |- context [if ?b then brk ?x else cont ?x] => destruct b end; cbn [fst cont]; [|exact G].
    eapply Keeps_trans; [exact G | apply Keeps_brk].
Qed.

Lemma sl_done_Track sid B c sid' r : Track sid B c -> Track sid B (fst (sl_done enc_field cfg c sid' r)).
Proof.
  intro H. pose proof (FrameO_NoCredit _ _ _ (sl_done_NoCredit _ enc_field cfg c sid' r)) as FO.
  destruct H as [H|H]; [left; eapply AbortS_FrameO; eassumption|].
  eapply Track_Keeps; [|exact FO | right; exact H]. apply sl_done_Keeps.
  intros s F RU ->. destruct H as [(s0 & frames & F0 & PT & _)|(F0 & _)]; [|congruence].
  assert (s0 = s) by congruence. subst s0. unfold phase in PT. rewrite RU, Bool.andb_false_r in PT. discriminate.
Qed.

(* the handler of the tracked stream returns a buffered body *)
Lemma sl_done_start sid B c r L : Sim c L -> NE c -> rs_body r = BBuffered B ->
  take_stream (sc_gone c) sid = None ->
  (exists s, strms_search (sc_strms c) sid = Some s /\ st_handlerRunning s = true) ->
  Track sid B (fst (sl_done enc_field cfg c sid r)).
Proof.
  intros S HN RB TG (s & F & RU).
  pose proof (FrameO_NoCredit _ _ _ (sl_done_NoCredit _ enc_field cfg c sid r)) as FO.
  destruct (alive_or_abort _ sid c) as [Ab|[WD SD]]; [left; eapply AbortS_FrameO; eassumption|].
  pose proof (strms_search_In _ _ _ F) as [Hin Hid].
  destruct (proj1 HN s Hin) as [[Pa Pb] Pc].
  assert (RS : st_responded s = true) by (apply Pa, RU).
  assert (PF : phase s = false) by (unfold phase; rewrite RU, Bool.andb_false_r; reflexivity).
  destruct (Pb PF) as [BS RF]. rewrite Hid in RF.
  assert (Hhi : sid <= sc_highestID c) by (rewrite <- Hid; eapply Sim_IdsHi; eassumption).
  unfold sl_done. rewrite TG, F, RU. cbn [negb].
  set (s1 := set_flags s (st_responded s) false (st_abandoned s)).
  unfold finish_request. rewrite RB. destruct (response_block enc_field (sc_enc c) r) as [blk e'].
  set (hb := match B with [] => false | _ => true end).
  set (c1 := emit (upd_enc c e') (OHeaders (st_id s1) (negb hb) blk)).
  assert (O1 : sc_out c1 = OHeaders sid (negb hb) blk :: sc_out c).
  { subst c1. rewrite sc_out_emit. sc_cbn. rewrite WD, SD. subst s1. cbn [st_id set_flags]. rewrite Hid. reflexivity. }
  assert (RF1 : rf sid (sc_out c1) = [OHeaders sid (negb hb) blk]).
  { rewrite O1. cbn [rf filter]. unfold on_sid at 1. cbn [frame_sid strip]. rewrite N.eqb_refl. fold (rf sid (sc_out c)). rewrite RF. reflexivity. }
  assert (T1 : sc_strms c1 = sc_strms c) by (subst c1; rewrite sc_strms_emit; reflexivity).
  assert (H1 : sc_highestID c1 = sc_highestID c) by (subst c1; rewrite sc_highestID_emit; reflexivity).
  assert (WD1 : sc_wl_dead c1 = false) by (subst c1; rewrite sc_wl_dead_emit; exact WD).
  assert (SD1 : sc_sl_done c1 = false) by (subst c1; rewrite sc_sl_done_emit; exact SD).
  destruct B as [|b0 B'].
  - (* no body: HEADERS with END_STREAM *)
    subst hb. cbn [negb fst snd].
    set (s3 := set_state s1 SClosed). set (c3 := close_stream (put c1 s3) s3).
    assert (G : Complete sid [] c3).
    { split; [|split].
      - subst c3. rewrite sc_strms_close_stream. unfold put. sc_cbn. rewrite T1.
        replace sid with (st_id s3) by exact Hid. apply strms_search_del_put, (sim_nodup _ _ _ _ S).
      - subst c3. rewrite sc_highestID_close_stream. unfold put. sc_cbn. rewrite H1. exact Hhi.
      - exists []. split; [|split; [reflexivity | split; [reflexivity | constructor]]].
        exists blk. subst c3. destruct (out_quiet_noframe _ _ _ (close_stream_out _ (put c1 s3) s3)) as (new & E & Fn).
        rewrite E, rf_app, (rf_noframe _ _ Fn). exact RF1. }
    match goal with |- context [if ?b then brk c3 else cont c3] => destruct b end; cbn [fst cont]; [left; left; reflexivity | right; right; exact G].
  - (* a body *)
    subst hb. cbn [negb].
    set (B := b0 :: B') in *.
    match goal with |- context [send_data c1 ?x] => set (s2 := x) end.
    assert (Q1 : Queued sid false [] c1) by (exists blk; exact RF1).
    destruct (send_live _ c1 s2 sid B [] Hid BS eq_refl ltac:(discriminate) WD1 SD1 Q1 eq_refl eq_refl ltac:(constructor))
      as (frames' & Q' & FS' & I2 & St2 & R2 & Ru2 & BS2 & PE2 & T2 & SD2 & WD2 & CL2 & X).
    destruct (send_data_stream _ c1 s2) as (_ & _ & _ & _ & _ & A6 & _).
    cbv zeta in *. destruct (send_data c1 s2) as [[c2 s4] fin]. cbn [fst snd] in *.
    destruct fin.
    + destruct X as (CB' & ES' & P2).
      set (s3 := set_state s4 SClosed). set (c3 := close_stream (put c2 s3) s3).
      assert (G : Complete sid B c3).
      { split; [|split].
        - subst c3. rewrite sc_strms_close_stream. unfold put. sc_cbn. rewrite T2, T1.
          replace sid with (st_id s3) by exact I2. apply strms_search_del_put, (sim_nodup _ _ _ _ S).
        - subst c3. rewrite sc_highestID_close_stream. unfold put. sc_cbn. rewrite A6, H1. exact Hhi.
        - exists frames'. split; [|split; [exact CB' | split; [exact ES' | exact FS']]].
          destruct Q' as (blk' & Q'). exists blk'. subst c3.
          destruct (out_quiet_noframe _ _ _ (close_stream_out _ (put c2 s3) s3)) as (new & E & Fn).
          rewrite E, rf_app, (rf_noframe _ _ Fn). exact Q'. }
      match goal with |- context [if ?b then brk c3 else cont c3] => destruct b end; cbn [fst cont]; [left; left; reflexivity | right; right; exact G].
    + destruct X as (PN' & CB' & ES').
      assert (G : Live sid B (put c2 s4)).
      { exists s4, frames'. split; [unfold put; sc_cbn; rewrite T2, T1, <- I2; eapply search_put_same; rewrite I2; exact F|].
        split; [unfold phase; rewrite R2, Ru2; subst s2 s1; cbn [st_responded st_handlerRunning set_snd set_flags]; rewrite RS; reflexivity|].
        repeat (split; [assumption|]). assumption. }
      match goal with |- context [if ?b then brk ?x else cont ?x] => destruct b end; cbn [fst cont]; [left; left; reflexivity | right; left; exact G].
Qed.

End TrackC.
