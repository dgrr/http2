(* Concrete, non-trivial inputs that meet the hypotheses of each C05 / C16 theorem
   (so that none of them holds vacuously). The one statement that is false of the current code is
   refuted in FramesForward.v (forward_faithful_refuted). *)
From Coq Require Import List NArith ZArith Bool Lia.
From H2V Require Import Base.Bytes Base.MachineInt Base.Result Gen.GenConsts Spec.Rfc7540Frames
  Impl.Pools Impl.Frames Impl.FrameView Proofs.HpackBytes Proofs.FramesBits Proofs.FramesSpec Proofs.FramesRead
  Proofs.FramesC16 Proofs.FramesWrite Proofs.FramesForward Proofs.FramesPooled.
Import ListNotations.
Local Open Scope N_scope.

Ltac conc := repeat split; vm_compute; try reflexivity; try discriminate; repeat constructor.

(* a HEADERS frame with END_STREAM|END_HEADERS|PADDED|PRIORITY and an undefined flag bit,
   reserved bit set, 3 octets of non-zero padding, exclusive dependency on stream 3 *)
Definition ex_headers : frame :=
  mkFrame (64 + 32 + 8 + 4 + 1) true 5
          (Headers (Some [7; 7; 7]) (Some (mkPrio true 3 200)) [130; 134; 132]).

Example ex_headers_wf : wf ex_headers.
Proof. conc. Qed.

Example ex_spec_roundtrip :
  spec_parse (spec_write ex_headers ++ [9; 9]) = Some (ex_headers, [9; 9]).
Proof. apply spec_parse_write. exact ex_headers_wf. Qed.

(* C05 read *)
Example ex_read_written :
  let r := read_frame_with_size 16384 (spec_write ex_headers ++ [0; 0; 4; 8]) in
  ro_res r = Ok (view 16384 ex_headers) /\ ro_used r = 9 + payload_len ex_headers.
Proof. apply read_written_frame; [exact ex_headers_wf|reflexivity|vm_compute; discriminate|reflexivity]. Qed.

(* what that is, computed: reserved bit gone, E bit gone, padding stripped *)
Example ex_read_written_value :
  ro_res (read_frame_with_size 16384 (spec_write ex_headers ++ [0; 0; 4; 8])) =
  Ok (mkFH 12 1%Z 109 5 16384 [3; 128; 0; 0; 3; 200; 130; 134; 132; 7; 7; 7]
           (Some (BHeaders false 3 200 true true true [130; 134; 132]))).
Proof. vm_compute. reflexivity. Qed.

Definition ex_settings : frame := mkFrame 0 false 0 (Settings [(3, 250); (4, 1048576); (99, 1)]).
Example ex_settings_wf : wf ex_settings.
Proof.
  unfold wf. split; [reflexivity|]. split; [reflexivity|]. split; [reflexivity|].
  cbn [wf_body f_body ex_settings f_flags]. split; [repeat constructor|intros H; discriminate H].
Qed.

Example ex_read_settings :
  ro_res (read_frame_with_size 0 (spec_write ex_settings)) = Ok (view 0 ex_settings).
Proof.
  rewrite <- (app_nil_r (spec_write ex_settings)).
  apply read_written_frame; [exact ex_settings_wf|reflexivity|vm_compute; discriminate|reflexivity].
Qed.

Definition ex_bad_settings : frame := mkFrame 0 false 0 (Settings [(5, 100)]).   (* MAX_FRAME_SIZE below 2^14 *)
Example ex_read_bad_settings :
  exists e, ro_res (read_frame_with_size 16384 (spec_write ex_bad_settings ++ [])) = Err e /\
            (e = E_settings_proto \/ e = E_settings_flow).
Proof.
  apply read_written_bad_settings; [|reflexivity|vm_compute; discriminate|reflexivity].
  unfold wf. split; [reflexivity|]. split; [reflexivity|]. split; [reflexivity|].
  cbn [wf_body f_body ex_bad_settings f_flags]. split; [repeat constructor|intros H; discriminate H].
Qed.

(* C05 write *)
Definition ex_body : body := BHeaders true (2 ^ 31 + 3) 200 true false true [130; 134; 132].

Example ex_write :
  exists out f',
    write_to (build 64 (2 ^ 31 + 5) ex_body) 10 = Ok (out, f') /\
    spec_parse out = Some (frame_of 64 (2 ^ 31 + 5) ex_body 10, []).
Proof.
  destruct (write_frame_parses_on acquire_header 64 (2 ^ 31 + 5) ex_body 10) as (f' & E & P & _); try (vm_compute; reflexivity).
  - conc.
  - vm_compute. discriminate.
  - eauto.
Qed.

Example ex_write_value :
  match write_to (build 64 (2 ^ 31 + 5) ex_body) 10 with
  | Ok (out, _) => out = [0; 0; 19; 1; 64 + 32 + 8 + 1; 128; 0; 0; 5;
                          10; 0; 0; 0; 3; 200; 130; 134; 132; 0; 0; 0; 0; 0; 0; 0; 0; 0; 0]
  | _ => False
  end.
Proof. vm_compute. reflexivity. Qed.

Example ex_write_twice :
  exists out1 f1 out2 f2,
    write_to (build 0 1 (BData true true [1; 2; 3])) 9 = Ok (out1, f1) /\ write_to f1 200 = Ok (out2, f2) /\
    out1 = spec_write (frame_of 0 1 (BData true true [1; 2; 3]) 9) /\
    out2 = spec_write (frame_of 9 1 (BData true true [1; 2; 3]) 200).
Proof.
  destruct (write_twice_on acquire_header 0 1 (BData true true [1; 2; 3]) 9 200) as (f1 & f2 & E1 & E2);
    [vm_compute; try reflexivity; discriminate ..|].
  eexists; exists f1; eexists; exists f2. split; [exact E1|]. split; [exact E2|]. split; reflexivity.
Qed.

Definition ex_st : settings_v := mkSt false [] 0 false 0 0 16384 0 false 0.
Example ex_settings_meaning :
  apply_settings initial_params (sent_settings ex_st) = params_of ex_st /\
  sent_settings ex_st = [(1, 0); (2, 0); (3, 0); (4, 0)].
Proof. split; [apply settings_meaning; vm_compute; discriminate|reflexivity]. Qed.

(* C16 *)
Definition ex_soup : bytes := [0; 0; 5; 131; 255; 255; 255; 255; 255; 1; 2].

Example ex_total : forall w, ro_res (read_frame_with_size 16384 ex_soup) <> Panic w.
Proof. apply read_total. reflexivity. Qed.

(* type byte 0x83 is a negative FrameType: unknown, and its 5 announced bytes are not there *)
Example ex_soup_value :
  read_frame_with_size 16384 ex_soup =
  mkRO (Err E_unknown_type) 11 0 [Acq PFrameHeader 0; Rel PFrameHeader 0].
Proof. vm_compute. reflexivity. Qed.

Definition ex_ping_ack : bytes := [0; 0; 8; 6; 1; 0; 0; 0; 0; 1; 2; 3; 4; 5; 6; 7; 8; 0; 0; 0].

Example ex_sound :
  exists f fr, ro_res (read_frame_with_size 16384 ex_ping_ack) = Ok fr /\
    spec_parse (takeN 17 ex_ping_ack) = Some (f, []) /\ fr = view 16384 f /\
    ro_used (read_frame_with_size 16384 ex_ping_ack) = 17.
Proof.
  destruct (read_sound 16384 ex_ping_ack (mkFH 8 6%Z 1 0 16384 [1; 2; 3; 4; 5; 6; 7; 8] (Some (BPing true [1; 2; 3; 4; 5; 6; 7; 8]))))
    as (f & P & _ & _ & V & U & _); [reflexivity|vm_compute; reflexivity|].
  exists f. eexists. split; [vm_compute; reflexivity|]. split; [exact P|]. split; [exact V|]. reflexivity.
Qed.

Example ex_unknown :
  let o := read_frame_with_size 16384 [0; 0; 2; 200; 9; 0; 0; 0; 1; 50; 51; 0; 0; 0; 0] in
  ro_res o = Err E_unknown_type /\ ro_used o = 9 + 2 /\ ro_alloc o = 0.
Proof.
  eapply read_unknown_type; [reflexivity|reflexivity|reflexivity|vm_compute; discriminate|vm_compute; discriminate].
Qed.

Example ex_too_large :
  let o := read_frame_with_size 16384 [0; 64; 1; 0; 0; 0; 0; 0; 1; 50; 51] in
  ro_res o = Err E_too_large /\ ro_used o = 9 /\ ro_alloc o = 0.
Proof. eapply read_too_large; [reflexivity|reflexivity|reflexivity]. Qed.

Example ex_alloc : ro_alloc (read_frame_with_size 16384 [0; 64; 0; 0; 0; 0; 0; 0; 1; 50; 51]) = 16384.
Proof. vm_compute. reflexivity. Qed.

(* PING with 7 octets; padding as long as what remains; SETTINGS ACK with a payload *)
Example ex_structure_ping :
  exists e, ro_res (read_frame_with_size 16384 [0; 0; 7; 6; 0; 0; 0; 0; 0; 1; 2; 3; 4; 5; 6; 7]) = Err e.
Proof.
  eapply structure_rejected; [reflexivity|reflexivity|vm_compute; discriminate|].
  unfold impossible. do 3 right. left. split; [reflexivity|vm_compute; discriminate].
Qed.

Example ex_structure_pad :
  exists e, ro_res (read_frame_with_size 16384 [0; 0; 3; 0; 8; 0; 0; 0; 1; 3; 65; 66]) = Err e.
Proof.
  eapply structure_rejected; [reflexivity|reflexivity|vm_compute; discriminate|].
  unfold impossible. do 6 right. left. split; [auto|]. split; [reflexivity|]. vm_compute. reflexivity.
Qed.

Example ex_structure_settings_ack :
  exists e, ro_res (read_frame_with_size 16384 [0; 0; 6; 4; 1; 0; 0; 0; 0; 0; 3; 0; 0; 0; 100]) = Err e.
Proof.
  eapply structure_rejected; [reflexivity|reflexivity|vm_compute; discriminate|].
  unfold impossible. do 2 right. left. split; [reflexivity|]. right. split; [reflexivity|vm_compute; discriminate].
Qed.

Example ex_truncation :
  forall k, k < 9 + 12 ->
  exists e, ro_res (read_frame_with_size 16384 (takeN k (spec_write ex_headers))) = Err e.
Proof. intros k H. eapply truncation; [reflexivity|reflexivity|exact H]. Qed.

(* a frame cut inside its payload: the body is acquired, then both objects go back once *)
Example ex_pool_truncated :
  ro_events (read_frame_with_size 16384 (takeN 15 (spec_write ex_headers))) =
    [Acq PFrameHeader 0; Acq PFrame 1; Rel PFrame 1; Rel PFrameHeader 0] /\
  linear (ro_events (read_frame_with_size 16384 (takeN 15 (spec_write ex_headers))))
         (handed (read_frame_with_size 16384 (takeN 15 (spec_write ex_headers)))) = true.
Proof. split; [vm_compute; reflexivity|]. apply read_pool_safe. reflexivity. Qed.

(* the automaton does reject the log the code produced before the double-release fix *)
Example ex_pool_automaton :
  linear [Acq PFrameHeader 0; Acq PFrame 1; Rel PFrame 1; Rel PFrame 1; Rel PFrameHeader 0] [] = false /\
  linear [Acq PFrameHeader 0; Acq PFrame 1; Rel PFrame 1; Rel PFrameHeader 0] [(PFrameHeader, 0)] = false /\
  linear [Acq PFrameHeader 0; Acq PFrame 1] [] = false.
Proof. repeat split. Qed.

(* forwarding: the padded, prioritised HEADERS frame above goes back out unpadded, E and R
   bits cleared, undefined flag bit 0x40 kept, and reads back to the same values *)
Example ex_forward :
  exists fr out f' g,
    ro_res (read_frame_with_size 16384 (spec_write ex_headers ++ [1; 2])) = Ok fr /\
    write_to fr 9 = Ok (out, f') /\ spec_parse out = Some (g, []) /\ wf g /\
    f_stream g = 5 /\ f_rsv g = false /\
    view_body (f_flags g) (f_body g) = BHeaders false 3 200 true true true [130; 134; 132].
Proof. apply (forward_preserves_view ex_headers [1; 2] 16384 ex_headers_wf I); [vm_compute; discriminate|reflexivity]. Qed.

Example ex_forward_bytes :
  match ro_res (read_frame_with_size 16384 (spec_write ex_headers)) with
  | Ok fr => match write_to fr 9 with
             | Ok (out, _) => out = [0; 0; 8; 1; 64 + 32 + 4 + 1; 0; 0; 0; 5; 0; 0; 0; 3; 200; 130; 134; 132]
             | _ => False
             end
  | _ => False
  end.
Proof. vm_compute. reflexivity. Qed.

Example ex_forward_settings :
  exists fr st out f' items',
    ro_res (read_frame_with_size 16384 (spec_write ex_settings ++ [])) = Ok fr /\
    fh_body fr = Some (BSettings st) /\ write_to fr 9 = Ok (out, f') /\
    spec_parse out = Some (mkFrame (flags_of 0 (BSettings st)) false 0 (Settings items'), []) /\
    apply_settings initial_params items' = params_of st.
Proof.
  apply (forward_settings_meaning [(3, 250); (4, 1048576); (99, 1)] 0 0 [] 16384 ex_settings_wf);
    [reflexivity|reflexivity|vm_compute; discriminate|reflexivity].
Qed.

Example ex_stream :
  read_many 16384 2 (spec_write ex_settings ++ spec_write ex_headers ++ [0; 0]) =
  [Ok (view 16384 ex_settings); Ok (view 16384 ex_headers)].
Proof.
  assert (E := read_stream 16384 [ex_settings; ex_headers] [0; 0]).
  cbn [flat_map length map app] in E. rewrite app_nil_r, <- app_assoc in E. apply E; [|reflexivity].
  repeat constructor; try exact ex_settings_wf; try exact ex_headers_wf; try reflexivity; vm_compute; discriminate.
Qed.

(* pooled objects. A header that still holds a SETTINGS payload, limit 0, a Ping body: *)
Definition ex_dirty : fhdr := mkFH 6 4%Z 0 7 0 [0; 4; 0; 16; 0; 0] (Some (BPing true zeros8)).

(* a SETTINGS ack written on it is the 9-byte ack *)
Example ex_write_dirty_ack :
  exists f', write_to (build_on ex_dirty 0 0 (BSettings (st_set_ack settings_reset true))) 9 =
             Ok ([0; 0; 0; 4; 1; 0; 0; 0; 0], f').
Proof.
  destruct (write_frame_parses_on ex_dirty 0 0 (BSettings (st_set_ack settings_reset true)) 9) as (f' & E & _);
    try (vm_compute; reflexivity); try (vm_compute; discriminate).
  - conc.
  - exists f'. exact E.
Qed.

(* pools holding that header (limit 0 = unlimited) and a used HEADERS body: ReadFrameFrom still
   applies the default limit, and a HEADERS frame read next does not see the old block *)
Definition ex_pools : pools :=
  mkPools (Some ex_dirty)
          (fun k => if (k =? 1)%Z then Some (BHeaders true 9 9 true true true [7; 7; 7]) else None).

Example ex_pools_ok : pools_ok ex_pools.
Proof.
  intros k b. unfold ex_pools. cbn [p_frame]. destruct (k =? 1)%Z eqn:E; [|discriminate].
  intros [= <-]. apply Z.eqb_eq in E. subst k. split; [reflexivity|exact I].
Qed.

Example ex_pool_limit :
  ro_res (read_frame_pooled ex_pools None [0; 64; 1; 0; 0; 0; 0; 0; 1; 50; 51]) = Err E_too_large.
Proof. rewrite (read_pool_independent _ _ _ ex_pools_ok). reflexivity. Qed.

Example ex_pool_headers :
  ro_res (read_frame_pooled ex_pools (Some 100) [0; 0; 2; 1; 4; 0; 0; 0; 1; 130; 134]) =
  Ok (mkFH 2 1%Z 4 1 100 [130; 134] (Some (BHeaders false 0 0 false true false [130; 134]))).
Proof. rewrite (read_pool_independent _ _ _ ex_pools_ok). vm_compute. reflexivity. Qed.
