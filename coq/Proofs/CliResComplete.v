(* Proofs/CliResComplete.v - C11 (b), second half: a request on the table completes when the server delivers. *)
From H2V Require Import Base.Bytes Base.MachineInt Gen.GenConsts Impl.ServerConn Impl.ClientConn Proofs.CliBase Proofs.CliMsgMoves
     Proofs.CliResInv Proofs.CliResStep Proofs.CliResMoves Proofs.CliResThms.
From Coq Require Import ZArith Lia ZifyN ZifyNat ZifyBool List Bool.
Import ListNotations.
Local Open Scope N_scope.

(* HEADERS(END_HEADERS | END_STREAM) on stream id carrying the one byte 0x88: ":status 200" from the static table *)
Definition hdr200 (id : N) : sframe := mkSFrame KHeaders 5 id 1 [136] 0 0 0 false 0 false 0.

(* the instance under which the connection resolves nothing and leaves the response and gotStatus alone: for pieces of
   the model that only move table entries and close bodies *)
Definition cp_strict : cparams.
Proof.
  refine {| Eok := fun _ _ => False; Vok := fun x x' => ct_resp x' = ct_resp x /\ ct_gotStatus x' = ct_gotStatus x; Wok := fun _ _ _ => True |}; auto.
  - intros x y z [A B] [C D]. split; congruence.
Defined.

Section Complete.
Context {hstate : Type}.
Variable dec_field : hstate -> N -> bytes -> dec_res hstate.
Variable enc_field : hstate -> bytes -> bytes -> bool -> bytes * hstate.
Variable enc_set_max : hstate -> N -> hstate.
Variable cfg : cl_config.
Variable h0 : hstate.
Variable first : bytes.
Implicit Types c : cconn hstate.
Notation step := (cl_step dec_field enc_field enc_set_max cfg).
Notation run := (cl_run dec_field enc_field enc_set_max cfg h0 first).
Notation reach := (cl_reachable dec_field enc_field enc_set_max cfg h0 first).

(* the decoder reads 0x88 as the field (":status", "200") whatever its state *)
Hypothesis Hdec : forall d n, exists d', dec_field d n [136] = DField hstate S_status [50; 48; 48] [] d'.

(* the header-block registers after that frame *)
Definition regs200 c (d' : hstate) : cconn hstate :=
  ccu_hdrPrev (ccu_hdrStream (ccu_hdrErr (ccu_hdrStatus (ccu_hdrRegularSeen (ccu_hdrFields (ccu_hdrPrev (ccu_dec
    (ccu_hdrEndStream (ccu_hdrErr (ccu_hdrStatus (ccu_hdrRegularSeen (ccu_hdrFields (ccu_hdrPrev c []) 0) false) 0) None) true)
    d') []) (0 + 1)) false) 200) None) 0) [].

Lemma read_stream_200 c id r d' : dec_field (cc_dec c) 0 [136] = DField hstate S_status [50; 48; 48] [] d' ->
  cl_read_stream dec_field c (hdr200 id) (Some r) = (regs200 c d', Some (cl_resp_set_status r 200), true, CRSNone).
Proof.
  intro Hd. unfold cl_read_stream, hdr200. cbn [sf_kind sf_flags sf_payload sf_sid].
  unfold cl_read_header_fragment. cbn [cc_hdrPrev ccu_hdrEndStream ccu_hdrErr ccu_hdrStatus ccu_hdrRegularSeen ccu_hdrFields ccu_hdrPrev app length
                                       cc_dec cc_hdrFields cc_hdrRegularSeen cc_hdrStatus cc_hdrErr].
  cbn [cl_hdr_loop]. rewrite Hd. reflexivity.
Qed.

(* the lookup of dispatch succeeds: the stream is on the table and its Ctx can be taken *)
Lemma disp_pre_ok c id tag x : cl_req_find (cc_reqQueued c) id = Some tag -> cl_ctx_get c tag = Some x ->
  ct_lckStuck x = false -> ct_done x = false -> ct_conn x = true -> ct_sid x = id -> disp_pre c id = inl (c, Some x).
Proof.
  intros F G LK Dn Cx Sx. unfold disp_pre, cl_acquire_for. rewrite F, G. cbn [existsb]. rewrite LK, Dn, Cx, Sx, N.eqb_refl. reflexivity.
Qed.

Lemma disp_chk_200 c d' id x : ct_gotStatus x = false ->
  disp_chk (regs200 c d') (hdr200 id) (Some x) CRSNone = (Some (ctu_gotStatus x true), CRSNone).
Proof. intro GS. unfold disp_chk. rewrite GS. reflexivity. Qed.

Lemma dispatch_200 c id tag x d' : cl_req_find (cc_reqQueued c) id = Some tag -> cl_ctx_get c tag = Some x ->
  ct_lckStuck x = false -> ct_done x = false -> ct_conn x = true -> ct_sid x = id -> ct_gotStatus x = false ->
  dec_field (cc_dec c) 0 [136] = DField hstate S_status [50; 48; 48] [] d' ->
  let x2 := ctu_gotStatus (ctu_resp x (cl_resp_set_status (ct_resp x) 200)) true in
  let cf := cl_finish (cl_ctx_put (regs200 c d') x2) (ct_tag x) id CENil in
  cl_dispatch dec_field c (hdr200 id) = (cf, if cl_gone_away cf then CDStop else CDCont).
Proof.
  intros F G LK Dn Cx Sx GS Hd. rewrite cl_dispatch_eq. change (sf_sid (hdr200 id)) with id.
  rewrite (disp_pre_ok c id tag x F G LK Dn Cx Sx). cbv iota beta.
  rewrite (read_stream_200 c id (ct_resp x) d' Hd). cbv iota beta. cbn [disp_ok1].
  rewrite (disp_chk_200 c d' id (ctu_resp x (cl_resp_set_status (ct_resp x) 200)) GS). reflexivity.
Qed.


(* finish(r, stream, nil) on a Ctx that nothing has answered yet *)
Lemma finish_nil_spec c2 xo x2 tag id : cl_ctx_get c2 tag = Some xo -> ct_tag x2 = tag ->
  ct_err x2 = None -> ct_resolved x2 = false ->
  let cf := cl_finish (cl_ctx_put c2 x2) tag id CENil in
  exists x1, cl_ctx_get cf tag = Some x1 /\ ct_err x1 = Some CENil /\ ct_finished x1 = true /\
             ct_gotStatus x1 = ct_gotStatus x2 /\ ct_resp x1 = ct_resp x2 /\ ct_returned x1 = ct_returned x2 /\
             ct_lckStuck x1 = ct_lckStuck x2 /\
             cc_reqQueued cf = filter (fun en => negb (fst en =? id)) (cc_reqQueued c2).
Proof.
  intros G T2 En Rs. cbv zeta. set (c3 := cl_ctx_put c2 x2).
  assert (G3 : cl_ctx_get c3 tag = Some x2).
  { unfold c3. rewrite <- T2. apply (get_put_same c2 xo x2). rewrite T2. exact G. }
  rewrite cl_finish_eq. set (c4 := finish_drop c3 id).
  pose proof (eff_finish_drop (CP:=cp_strict) (fun _ => True) (fun _ _ => Logic.I) c3 id) as E34. fold c4 in E34.
  destruct (e_ctx _ _ _ E34 _ _ G3) as (x4 & G4 & V4).
  assert (Q4 : cc_reqQueued c4 = filter (fun en => negb (fst en =? id)) (cc_reqQueued c2)) by exact (finish_drop_rq c3 id).
  exists (cl_ctx_resolve (ctu_finished x4 true) CENil).
  split; [apply (upd_resolve_get c4 tag (fun y => ctu_finished y true) CENil x4 G4); reflexivity|].
  destruct (cev_err _ _ V4) as [Es|(_ & _ & e0 & _ & F0)]; [|destruct F0]. destruct (cev_v _ _ V4) as [Vr Vg].
  rewrite cl_ctx_resolve_eq. cbn [ct_resolved ct_err ctu_finished]. rewrite (cev_resolved _ _ V4), Rs, Es, En. cbn.
  rewrite Vg, Vr, (cev_returned _ _ V4), (cev_lckStuck _ _ V4), cc_reqQueued_cl_ctx_upd. repeat split; auto.
Qed.

(* C11 (b), second half / C12: a request that sits on the request table, not yet answered, completes with its full
   response when the server delivers it - here the smallest complete response, HEADERS(:status 200, END_STREAM) - whatever
   else the connection is doing (GOAWAY received or not): nil, status 200, off the table, and the caller's receive
   returns it *)
Theorem completes c id tag x : reach c -> cl_rl_live c = true -> cc_netClosed c = false -> cc_hdrStream c = 0 ->
  In (id, tag) (cc_reqQueued c) -> cl_ctx_get c tag = Some x -> ct_done x = false -> ct_err x = None -> ct_gotStatus x = false ->
  let c1 := step c (CEvRL (RFrame (hdr200 id))) in
  exists x1, cl_ctx_get c1 tag = Some x1 /\ ct_err x1 = Some CENil /\ ct_finished x1 = true /\ ct_gotStatus x1 = true /\
             cr_status (ct_resp x1) = 200%Z /\ ~ In (id, tag) (cc_reqQueued c1) /\
             exists l, cc_out (step c1 (CEvReceive tag)) = l ++ cc_out c1 /\ In (COResult tag false CENil (ct_resp x1)) l.
Proof.
  intros R RL NC HS I G Dn En GS. destruct (inv_reachable dec_field enc_field enc_set_max cfg h0 first c R) as [St A].
  destruct (s_rq _ St _ _ I) as (x0 & G0 & Sx & Cx & NZ & _). rewrite G in G0. inversion G0; subst x0. clear G0.
  pose proof (proj1 (s_nostuck _ St) _ _ G) as LK. destruct (s_ret _ St _ _ G) as [RR RB].
  assert (RF : ct_returned x = false). { destruct (ct_returned x) eqn:Rx; [|reflexivity]. destruct (RB eq_refl). congruence. }
  assert (F : cl_req_find (cc_reqQueued c) id = Some tag) by (apply cl_req_find_NoDup; [apply St | exact I]).
  destruct (cl_ctxs_get_In _ _ _ G) as [_ T]. destruct (Hdec (cc_dec c) 0) as [d' Hd].
  pose proof (dispatch_200 c id tag x d' F G LK Dn Cx Sx GS Hd) as D. cbv zeta in D. rewrite T in D.
  set (x2 := ctu_gotStatus (ctu_resp x (cl_resp_set_status (ct_resp x) 200)) true) in *.
  set (c2 := regs200 c d') in *.
  assert (G2 : cl_ctx_get c2 tag = Some x) by exact G.
  destruct (finish_nil_spec c2 x x2 tag id G2 T En) as (x1 & Gf & X1 & X2 & X3 & X4 & X5 & X6 & Qf); [cbn; rewrite RR; exact RF|].
  set (cf := cl_finish (cl_ctx_put c2 x2) tag id CENil) in *.
  (* the step *)
  assert (ST : step c (CEvRL (RFrame (hdr200 id))) = if cl_gone_away cf then cl_rl_exit cf 2 else cf).
  { cbn [cl_step]. rewrite RL. unfold cl_rl_step. rewrite NC. change (sf_sid (hdr200 id)) with id.
    replace (id =? 0) with false by (clear - NZ; lia).
    unfold cl_rl_frame. change (sf_kind (hdr200 id)) with KHeaders. change (sf_sid (hdr200 id)) with id. cbn [fkind_eqb]. rewrite HS.
    cbn [N.eqb negb andb]. rewrite D. destruct (cl_gone_away cf); reflexivity. }
  cbv zeta. rewrite ST. clear ST D.
  set (cF := if cl_gone_away cf then cl_rl_exit cf 2 else cf).
  assert (GF : cl_ctx_get cF tag = Some x1 /\ cc_reqQueued cF = cc_reqQueued cf).
  { unfold cF. destruct (cl_gone_away cf); [|auto]. unfold cl_rl_exit, cl_ctx_get. cbn [cl_note cc_ctxs cc_reqQueued ccu_out ccu_rl_done].
    rewrite cc_ctxs_cl_conn_close, cc_reqQueued_cl_conn_close. auto. }
  destruct GF as [GF QF].
  exists x1. split; [exact GF|]. split; [exact X1|]. split; [exact X2|]. split; [rewrite X3; reflexivity|]. split; [rewrite X4; reflexivity|]. split.
  { rewrite QF, Qf. intro J. apply filter_In in J. destruct J as [_ J]. cbn in J. rewrite N.eqb_refl in J. discriminate. }
  assert (RV : cl_ctx_get cF tag = Some x1 -> ct_returned x1 = false -> ct_err x1 = Some CENil -> ct_lckStuck x1 = false ->
               exists l, cc_out (cl_receive cF tag) = l ++ cc_out cF /\ In (COResult tag false CENil (ct_resp x1)) l).
  { clear. intros G R E L. unfold cl_receive. rewrite G, R, E. cbv zeta. cbn [ct_lckStuck ctu_armed ctu_err]. rewrite L.
    match goal with |- context [if ?b then _ else _] => destruct b end.
    - exists [COPoolPut tag; COResult tag false CENil (ct_resp x1)]. split; [reflexivity | right; left; reflexivity].
    - exists [COResult tag false CENil (ct_resp x1)]. split; [reflexivity | left; reflexivity]. }
  cbn [cl_step]. apply RV; auto; [rewrite X5; exact RF | rewrite X6; exact LK].
Qed.

End Complete.
