(* Proofs/CliFlowRecv.v - C14, client role: the read loop hands flow-control credit back.
   Every WINDOW_UPDATE the client queues or writes has an increment in 1 .. 2^31-1; the connection receive window
   stays between half of maxWindow (1 << 20) and maxWindow; every DATA frame readStream sees is debited with its
   whole length on the wire; the server's view of its connection send window never exceeds what the client
   accounts for. *)
From H2V Require Import Base.Bytes Base.MachineInt Base.Result Gen.GenConsts Impl.ServerConn Impl.ClientConn
     Proofs.CliBase Proofs.CliDefs Spec.FlowLedger Proofs.SrvFlowLedger Proofs.CliFlowMoves Proofs.CliFlowOut Proofs.CliFlowSafe Proofs.CliFlowEs.
From Coq Require Import ZArith Lia ZifyN ZifyNat ZifyBool List Bool.
Import ListNotations.
Local Open Scope N_scope.
Set Default Proof Using "Type".

(* the frame header's length field has 24 bits *)
Definition WLIMIT : N := 16777216.
Definition wire_ev (e : cevent) : Prop := match e with CEvRL (RFrame fr) => sf_len fr < WLIMIT | _ => True end.

(* RFC 7540 6.9.1 *)
Definition wu_ok (o : coutev) : Prop := match o with COWinUpd _ inc => (0 < inc <= 2147483647)%Z | _ => True end.

Lemma frames_wu_ok sid l : Forall wu_ok (frames_of sid l).
Proof. unfold frames_of. induction l; cbn [map]; constructor; [exact I | assumption]. Qed.

Section Recv.
Variable hstate : Type.
Variable dec_field : hstate -> N -> bytes -> dec_res hstate.
Variable enc_field : hstate -> bytes -> bytes -> bool -> bytes * hstate.
Variable enc_set_max : hstate -> N -> hstate.
Variable cfg : cl_config.
Variable h0 : hstate.
Variable first : bytes.
Notation cconn := (cconn hstate).
Notation move := (move hstate).
Notation apply := (apply hstate enc_field enc_set_max).
Notation valid := (valid hstate).
Notation items := (items hstate).
Notation mvs := (mvs enc_field enc_set_max).
Notation mitems := (mitems hstate enc_field enc_set_max).
Notation step := (cl_step dec_field enc_field enc_set_max cfg).
Notation run := (cl_run dec_field enc_field enc_set_max cfg h0 first).
Notation init := (cl_init enc_set_max h0 first).

Definition mv_wire (m : move) : Prop := match m with MRecvData fr _ => sf_len fr < WLIMIT | _ => True end.

Lemma ev_ok_wire e (m : move) : wire_ev e -> ev_ok e m -> mv_wire m.
Proof. intros W E. destruct m; cbn [mv_wire]; try exact I. cbn in E. destruct E as (-> & _). exact W. Qed.

Record AInv (c : cconn) : Prop := mkAInv {
  a_cw : (cl_maxWindow / 2 <= cc_currentWindow c <= cl_maxWindow)%Z;
  a_out : Forall wu_ok (cc_out c);
  a_q : Forall wu_ok (cc_outQ c)
}.

Lemma AInv_same (c c' : cconn) :
  cc_currentWindow c' = cc_currentWindow c -> cc_out c' = cc_out c -> cc_outQ c' = cc_outQ c -> AInv c -> AInv c'.
Proof. intros A B C [a1 a2 a3]. constructor; rewrite ?A, ?B, ?C; assumption. Qed.

Lemma items_wu_ok m (c : cconn) : valid m c -> Forall wu_ok (cc_outQ c) -> Forall wu_ok (items m c).
Proof.
  intros V Q. destruct m; cbn [items]; try constructor.
  - destruct (quietb o) eqn:E; [|constructor]. constructor; [destruct o; try discriminate; exact I | constructor].
  - destruct (cc_outQ c) as [|o q]; [constructor|]. inversion Q; subst. constructor; [assumption | constructor].
  - (* MWlReset *) exact I.
  - constructor.
  - destruct (cl_pend_get _ _) as [pb|]; [|constructor]. destruct wr; [|constructor].
    destruct (write_data_shape (cc_maxFrame c) id (cs_chunk c pb) (cs_end c pb)) as (l & A & _). rewrite A. apply frames_wu_ok.
  - exact I.
  - constructor.
Qed.

Lemma write_out_AInv (c : cconn) o : wu_ok o -> AInv c -> AInv (cl_write_out c o).
Proof.
  intros W [a1 a2 a3]. unfold cl_write_out. destruct (cc_closed c); constructor; cc_cbn; auto.
  apply Forall_app. split; [exact a3 | constructor; [exact W | constructor]].
Qed.

Lemma recv_data_AInv (c : cconn) fr hr : sf_len fr < WLIMIT -> AInv c -> AInv (recv_data c fr hr).
Proof.
  intros W A. unfold recv_data, cl_update_window.
  assert (R : (524288 <= cc_currentWindow c <= 1048576)%Z) by (destruct A as [a1 _ _]; exact a1).
  unfold WLIMIT in W.
  assert (IC : cl_i32 (cc_currentWindow c - Z.of_N (sf_len fr)) = (cc_currentWindow c - Z.of_N (sf_len fr))%Z) by (apply cl_i32_id; flia).
  rewrite IC. set (cur := (cc_currentWindow c - Z.of_N (sf_len fr))%Z) in *.
  change (cl_maxWindow / 2)%Z with 524288%Z. unfold cl_maxWindow.
  (* the state after the debit and the stream credit satisfies everything but the lower bound *)
  set (c2 := if hr then if negb (sf_len fr =? 0) && negb (flag_has (sf_flags fr) FL_ES)
                        then cl_write_out (ccu_currentWindow c cur) (COWinUpd (sf_sid fr) (Z.of_N (sf_len fr)))
                        else ccu_currentWindow c cur
             else ccu_currentWindow c cur).
  assert (A2 : cc_currentWindow c2 = cur /\ Forall wu_ok (cc_out c2) /\ Forall wu_ok (cc_outQ c2)).
  { destruct A as [a1 a2 a3]. subst c2. destruct hr; [|repeat split; assumption].
    destruct (negb (sf_len fr =? 0) && negb (flag_has (sf_flags fr) FL_ES)) eqn:CR; [|repeat split; assumption].
    apply andb_prop in CR. destruct CR as [CR _]. apply negb_true_iff, N.eqb_neq in CR.
    unfold cl_write_out. destruct (cc_closed _); cc_cbn; repeat split; auto.
    apply Forall_app. split; [exact a3|]. constructor; [cbn [wu_ok]; flia | constructor]. }
  destruct A2 as (C2 & O2 & Q2). clearbody c2.
  destruct (cur <? 524288)%Z eqn:LOW; [apply Z.ltb_lt in LOW | apply Z.ltb_ge in LOW].
  - apply write_out_AInv; [cbn [wu_ok]; flia|]. constructor; cc_cbn; auto. change (1048576 / 2)%Z with 524288%Z. unfold cl_maxWindow. flia.
  - constructor; auto. rewrite C2. change (cl_maxWindow / 2)%Z with 524288%Z. unfold cl_maxWindow. subst cur. flia.
Qed.

Lemma mv_AInv m (c : cconn) : valid m c -> mv_wire m -> AInv c -> AInv (apply m c).
Proof.
  intros V W A.
  assert (OUT : Forall wu_ok (cc_out (apply m c))).
  { rewrite (out_apply hstate enc_field enc_set_max). apply Forall_app. split; [|apply (a_out _ A)].
    apply Forall_rev. apply items_wu_ok; [exact V | apply (a_q _ A)]. }
  destruct m; try (apply (AInv_same c); try reflexivity; exact A);
    try (destruct A as [a1 a2 a3]; constructor; [exact a1 | exact OUT | exact a3]; fail).
  - (* MNote *) destruct A as [a1 a2 a3]. constructor; [|exact OUT|]; cbn [apply]; destruct (quietb o); assumption.
  - (* MReqTake *) cbn [apply]. unfold cl_take_req_count. destruct (cl_req_find _ _); [|exact A]. apply (AInv_same c); try reflexivity; exact A.
  - (* MQClear *) destruct A as [a1 a2 a3]. constructor; [exact a1 | exact a2 | constructor].
  - (* MOutQPush *)
    cbn [apply]. destruct (pushb o) eqn:Q; [|exact A]. unfold cl_write_out. destruct (cc_closed c); [exact A|].
    destruct A as [a1 a2 a3]. constructor; cc_cbn; auto. apply Forall_app. split; [exact a3|].
    constructor; [destruct o; try discriminate; exact I | constructor].
  - (* MWlWrite *)
    destruct A as [a1 a2 a3]. constructor; [|exact OUT|]; cbn [apply]; destruct (cc_outQ c) as [|o q] eqn:Q; cc_cbn; rewrite ?Q; auto.
    inversion a3; assumption.
  - (* MOutQDrop *)
    destruct A as [a1 a2 a3]. constructor; cbn [apply]; cc_cbn; auto. destruct (cc_outQ c); [constructor | inversion a3; assumption].
  - (* MRecvData *) apply recv_data_AInv; assumption.
  - (* MSettings *)
    cbn [apply] in *. destruct (cl_settings_deserialize false payload) as [st|]; [|exact A].
    destruct A as [a1 a2 a3]. constructor; [|exact OUT|];
      unfold cl_handle_settings, cl_apply_initial_window, cl_signal_window, cl_write_out; cc_cbn;
      destruct (cl_settings_has st c_HeaderTableSize), (cs_hasWin st); cc_cbn;
      match goal with |- context [if ?b then _ else _] => destruct b end; cc_cbn; auto;
      apply Forall_app; split; auto; repeat constructor.
  - (* MAddWindow *)
    cbn [apply]. unfold cl_add_window, cl_signal_window. destruct (sid =? 0); [apply (AInv_same c); try reflexivity; exact A|].
    destruct (cl_pend_get _ _); apply (AInv_same c); try reflexivity; exact A.
  - (* MRefill *)
    cbn [apply]. destruct (cl_pend_get _ _) as [pb|]; [|exact A]. destruct (cl_refill pb); [|exact A]. apply (AInv_same c); try reflexivity; exact A.
  - (* MSend *)
    destruct A as [a1 a2 a3]. constructor; [|exact OUT|]; cbn [apply]; destruct (cl_pend_get _ _) as [pb|]; auto.
    + destruct wr; [rewrite cc_currentWindow_cl_notes|]; unfold cs_conn; destruct (cs_end c pb); exact a1.
    + destruct wr; [rewrite cc_outQ_cl_notes|]; unfold cs_conn; destruct (cs_end c pb); exact a3.
  - (* MSendBack *)
    cbn [apply]. destruct (cl_pend_get _ _) as [pb|]; [|exact A]. sb_cases c pb; apply (AInv_same c); try reflexivity; exact A.
  - (* MEncSync *) cbn [apply]. destruct (negb _); [|exact A]. apply (AInv_same c); try reflexivity; exact A.
  - (* MHeaders *)
    destruct A as [a1 a2 a3]. constructor; [|exact OUT|]; cbn [apply]; destruct opb; assumption.
Qed.

Lemma run_inv_ev (I : cconn -> Prop) (Pm : move -> Prop) (Pe : cevent -> Prop) :
  (forall e m, Pe e -> ev_ok e m -> Pm m) -> I init ->
  (forall m c, valid m c -> Pm m -> I c -> I (apply m c)) -> forall evs, Forall Pe evs -> I (run evs).
Proof.
  intros PM H0 H evs F. unfold cl_run. generalize init H0. induction F as [|e t He Ht IH]; intros c HI; cbn [fold_left]; [exact HI|].
  apply IH. destruct (step_D hstate dec_field enc_field enc_set_max cfg c e) as (ms & M & FO & _).
  clear IH Ht. revert HI. induction M as [c|c m ms c' V M IHM]; intro HI; [exact HI|]. inversion FO; subst.
  apply IHM; [assumption|]. apply H; [exact V | eapply PM; eassumption | exact HI].
Qed.

Lemma AInv_init : AInv init.
Proof.
  unfold cl_init. destruct (cl_settings_deserialize false first); constructor; cc_cbn; try constructor;
    change (cl_maxWindow / 2)%Z with 524288%Z; unfold cl_maxWindow; clear; lia.
Qed.

Lemma AInv_run evs : Forall wire_ev evs -> AInv (run evs).
Proof. apply (run_inv_ev AInv mv_wire wire_ev); [intros e m; apply ev_ok_wire | exact AInv_init | exact mv_AInv]. Qed.

(* C14 (client): every WINDOW_UPDATE the client writes, for the connection or a stream, has an increment in 1 .. 2^31-1 *)
Theorem window_update_increments evs sid inc : Forall wire_ev evs ->
  In (COWinUpd sid inc) (cl_trace (run evs)) \/ In (COWinUpd sid inc) (cc_outQ (run evs)) -> (0 < inc <= 2147483647)%Z.
Proof.
  intros W H. destruct (AInv_run evs W) as [_ a2 a3]. rewrite Forall_forall in a2, a3.
  destruct H as [H|H]; [apply in_rev in H; exact (a2 _ H) | exact (a3 _ H)].
Qed.

(* the connection receive window stays between half of maxWindow and maxWindow *)
Theorem receive_window_bounds evs : Forall wire_ev evs ->
  (cl_maxWindow / 2 <= cc_currentWindow (run evs) <= cl_maxWindow)%Z.
Proof. intro W. apply (a_cw _ (AInv_run evs W)). Qed.

Definition rcredit_of (o : coutev) : list revent := match o with COWinUpd sid inc => [RCredit sid inc] | _ => [] end.
Definition rcredits (l : list coutev) : list revent := flat_map rcredit_of l.
Definition rdata_ev (fr : sframe) : revent := RData (sf_sid fr) (Z.of_N (sf_len fr)).

(* the DATA frame the server has sent and the read loop takes in *)
Definition p_rdata (c : cconn) (e : cevent) : list sframe :=
  match e with
  | CEvRL (RFrame fr) => if g_rl_takes hstate c fr && fkind_eqb (sf_kind fr) KData && negb (sf_sid fr =? 0) then [fr] else []
  | _ => []
  end.

(* C14, the server's history of its own send windows: DATA counts when the read loop takes it in, credit when the
   WINDOW_UPDATE is written *)
Definition rtl_step (c : cconn) (e : cevent) : list revent :=
  map rdata_ev (p_rdata c e) ++ rcredits (g_new hstate c (step c e)).
Fixpoint rtimeline_from (c : cconn) (evs : list cevent) : list revent :=
  match evs with
  | [] => []
  | e :: t => rtl_step c e ++ rtimeline_from (step c e) t
  end.
Definition rtimeline (evs : list cevent) : list revent := rtimeline_from init evs.

(* connection credit still waiting in c.out *)
Fixpoint qconn (q : list coutev) : Z :=
  match q with
  | [] => 0
  | COWinUpd sid inc :: t => (if sid =? 0 then inc else 0) + qconn t
  | _ :: t => qconn t
  end.

Lemma qconn_app a b : qconn (a ++ b) = (qconn a + qconn b)%Z.
Proof. induction a as [|o t IH]; cbn [app qconn]; [reflexivity|]. destruct o; try exact IH. rewrite IH. clear. lia. Qed.

Lemma qconn_nonneg q : Forall wu_ok q -> (0 <= qconn q)%Z.
Proof.
  induction 1 as [|o t Ho Ht IH]; cbn [qconn]; [clear; lia|]. destruct o; try exact IH. cbn [wu_ok] in Ho.
  destruct (sid =? 0); clear - Ho IH; lia.
Qed.

(* the connection is in working order: Close has not begun, writes reach the socket, the read loop is not parked *)
Definition healthy (c : cconn) : Prop := cc_closed c = false /\ cl_can_write c = true /\ cc_rl_stuck c = false.

Record PInv (c : cconn) (w : Z) : Prop := mkPInv {
  p_le : (w + qconn (cc_outQ c) <= cc_currentWindow c)%Z;
  p_eq : healthy c -> (w + qconn (cc_outQ c))%Z = cc_currentWindow c
}.

Lemma PInv_same (c c' : cconn) w :
  cc_currentWindow c' = cc_currentWindow c -> cc_outQ c' = cc_outQ c -> (healthy c' -> healthy c) -> PInv c w -> PInv c' w.
Proof. intros A B H [p1 p2]. constructor; rewrite ?A, ?B; auto. Qed.

(* the server's history a move stands for *)
Definition rl_of (m : move) (c : cconn) : list revent := map rdata_ev (rdatas_of m) ++ rcredits (items m c).

Definition mv_rok (m : move) : Prop := match m with MRecvData fr _ => sf_len fr < WLIMIT /\ sf_sid fr <> 0 | _ => True end.

Lemma ev_ok_rok e (m : move) : wire_ev e -> ev_ok e m -> mv_rok m.
Proof. intros W E. destruct m; cbn [mv_rok]; try exact I. cbn in E. destruct E as (-> & _ & NZ). split; [exact W | exact NZ]. Qed.

Lemma rcredits_frames sid l : rcredits (frames_of sid l) = [].
Proof. unfold frames_of, rcredits. induction l as [|x t IH]; cbn [map flat_map rcredit_of app]; [reflexivity | exact IH]. Qed.

Lemma healthy_fields (c c' : cconn) :
  cc_closed c' = cc_closed c -> cl_can_write c' = cl_can_write c -> cc_rl_stuck c' = cc_rl_stuck c -> healthy c' -> healthy c.
Proof. unfold healthy. intros -> -> ->. auto. Qed.

Lemma recv_data_PInv (c : cconn) fr hr w : sf_len fr < WLIMIT -> sf_sid fr <> 0 -> AInv c -> PInv c w ->
  PInv (recv_data c fr hr) (w - Z.of_N (sf_len fr))%Z.
Proof.
  intros W NZ A [p1 p2]. unfold recv_data, cl_update_window.
  assert (R : (524288 <= cc_currentWindow c <= 1048576)%Z) by (destruct A as [a1 _ _]; exact a1).
  pose proof (qconn_nonneg _ (a_q _ A)) as QN.
  unfold WLIMIT in W.
  assert (IC : cl_i32 (cc_currentWindow c - Z.of_N (sf_len fr)) = (cc_currentWindow c - Z.of_N (sf_len fr))%Z) by (apply cl_i32_id; flia).
  rewrite IC. set (cur := (cc_currentWindow c - Z.of_N (sf_len fr))%Z) in *.
  change (cl_maxWindow / 2)%Z with 524288%Z. unfold cl_maxWindow.
  set (c2 := if hr then if negb (sf_len fr =? 0) && negb (flag_has (sf_flags fr) FL_ES)
                        then cl_write_out (ccu_currentWindow c cur) (COWinUpd (sf_sid fr) (Z.of_N (sf_len fr)))
                        else ccu_currentWindow c cur
             else ccu_currentWindow c cur).
  assert (A2 : cc_currentWindow c2 = cur /\ qconn (cc_outQ c2) = qconn (cc_outQ c) /\ cc_closed c2 = cc_closed c /\
               cl_can_write c2 = cl_can_write c /\ cc_rl_stuck c2 = cc_rl_stuck c).
  { subst c2. destruct hr; [|repeat split].
    destruct (negb (sf_len fr =? 0) && negb (flag_has (sf_flags fr) FL_ES)); [|repeat split].
    unfold cl_write_out. destruct (cc_closed _) eqn:CL; cc_cbn; repeat split; auto.
    rewrite qconn_app. cbn [qconn]. apply N.eqb_neq in NZ. rewrite NZ. clear; lia. }
  destruct A2 as (C2 & Q2 & CL2 & CW2 & ST2). clearbody c2.
  destruct (cur <? 524288)%Z eqn:LOW; [apply Z.ltb_lt in LOW | apply Z.ltb_ge in LOW].
  - unfold cl_write_out. cc_cbn. destruct (cc_closed c2) eqn:CL.
    + constructor; cc_cbn; [rewrite Q2; subst cur; flia|]. intros (X & _). cc_cbn_in X. congruence.
    + constructor; cc_cbn; rewrite qconn_app, Q2; cbn [qconn N.eqb]; [subst cur; flia|].
      intros (X & Y & Zz). cc_cbn_in X. unfold cl_can_write in Y. cc_cbn_in Y. fold (cl_can_write c2) in Y. cc_cbn_in Zz.
      assert (HC : healthy c) by (unfold healthy; rewrite <- CL2, <- CW2, <- ST2; auto).
      specialize (p2 HC). subst cur. flia.
  - constructor; rewrite C2, Q2; [subst cur; flia|]. intro HC.
    assert (HC0 : healthy c) by (unfold healthy in *; rewrite <- CL2, <- CW2, <- ST2; exact HC).
    specialize (p2 HC0). subst cur. flia.
Qed.

Lemma mv_PInv m (c : cconn) w : valid m c -> mv_rok m -> AInv c -> PInv c w ->
  PInv (apply m c) (peer_conn_window w (rl_of m c)).
Proof.
  intros V RO A P. pose proof (qconn_nonneg _ (a_q _ A)) as QN. unfold rl_of.
  destruct m; cbn [rdatas_of items map app rcredits flat_map rcredit_of peer_conn_window];
    try (apply (PInv_same c); try reflexivity; [apply healthy_fields; reflexivity | exact P]; fail).
  - (* MNote *)
    cbn [apply]. destruct (quietb o) eqn:Q; cbn [flat_map app peer_conn_window]; [|exact P].
    destruct o; try discriminate; cbn [rcredit_of app peer_conn_window];
      (apply (PInv_same c); try reflexivity; [apply healthy_fields; reflexivity | exact P]).
  - (* MClosed *) apply (PInv_same c); try reflexivity; [|exact P]. intros (X & _). discriminate.
  - (* MNetClosed *) apply (PInv_same c); try reflexivity; [|exact P]. intros (_ & X & _). unfold cl_can_write in X. cbn [apply] in X. cc_cbn_in X. rewrite andb_false_r in X. discriminate.
  - (* MWriteFail *) apply (PInv_same c); try reflexivity; [|exact P]. intros (_ & X & _). unfold cl_can_write in X. cbn [apply] in X. cc_cbn_in X. discriminate.
  - (* MRlStuck *) apply (PInv_same c); try reflexivity; [|exact P]. intros (_ & _ & X). discriminate.
  - (* MReqTake *)
    cbn [apply]. unfold cl_take_req_count. destruct (cl_req_find _ _); [|exact P].
    apply (PInv_same c); try reflexivity; [apply healthy_fields; reflexivity | exact P].
  - (* MQClear *)
    cbn [valid] in V. destruct P as [p1 p2]. constructor; cbn [apply]; cc_cbn; cbn [qconn]; [flia|].
    intros (X & _). cc_cbn_in X. congruence.
  - (* MOutQPush *)
    cbn [apply]. destruct (pushb o) eqn:Q; [|exact P]. unfold cl_write_out. destruct (cc_closed c) eqn:CL; [exact P|].
    destruct P as [p1 p2].
    assert (Q0 : qconn (cc_outQ c ++ [o]) = qconn (cc_outQ c)).
    { rewrite qconn_app. destruct o; try discriminate; cbn [qconn]; clear; lia. }
    constructor; cc_cbn; rewrite Q0; [exact p1|]. intro H. apply p2. revert H. apply healthy_fields; reflexivity.
  - (* MWlWrite *)
    destruct V as [CW NE]. destruct P as [p1 p2]. cbn [apply]. destruct (cc_outQ c) as [|o q] eqn:Q; [congruence|].
    cbn [flat_map app]. rewrite app_nil_r.
    assert (H : healthy (cl_note (ccu_outQ c q) o) -> healthy c) by (apply healthy_fields; reflexivity).
    cbn [qconn] in p1, p2.
    destruct o; cbn [rcredit_of peer_conn_window]; try (constructor; cc_cbn; auto; fail).
    destruct (sid =? 0); constructor; cc_cbn; try flia; intro HC; specialize (p2 (H HC)); flia.
  - (* MOutQDrop *)
    cbn [valid] in V. destruct P as [p1 p2]. constructor; cbn [apply]; cc_cbn.
    + destruct (cc_outQ c) as [|o q] eqn:Q; cbn [tl]; [exact p1|]. cbn [qconn] in p1.
      pose proof (a_q _ A) as AQ. rewrite Q in AQ. inversion AQ as [|? ? HO HT]; subst.
      destruct o; try exact p1. cbn [wu_ok] in HO. destruct (sid =? 0); flia.
    + intros (_ & X & _). unfold cl_can_write in *. cc_cbn_in X. congruence.
  - (* MRecvData *)
    destruct RO as [W NZ]. cbn [app peer_conn_window rdata_ev flat_map map].
    apply recv_data_PInv; assumption.
  - (* MSettings *)
    cbn [apply]. destruct (cl_settings_deserialize false payload) as [st|]; [|exact P]. destruct P as [p1 p2].
    unfold cl_handle_settings, cl_apply_initial_window, cl_signal_window, cl_write_out. cc_cbn.
    destruct (cl_settings_has st c_HeaderTableSize), (cs_hasWin st); cc_cbn;
      destruct (cc_closed c) eqn:CL; constructor; cc_cbn; rewrite ?qconn_app; cbn [qconn]; rewrite ?Z.add_0_r; auto;
      intros (X & Y & Zz); cc_cbn_in X; try congruence; apply p2; unfold healthy, cl_can_write in *; cc_cbn_in Y; cc_cbn_in Zz; auto.
  - (* MAddWindow *)
    cbn [apply]. unfold cl_add_window, cl_signal_window. destruct (sid =? 0); [apply (PInv_same c); try reflexivity; [apply healthy_fields; reflexivity | exact P]|].
    destruct (cl_pend_get _ _); apply (PInv_same c); try reflexivity; try exact P; apply healthy_fields; reflexivity.
  - (* MRefill *)
    cbn [apply]. destruct (cl_pend_get _ _) as [pb|]; [|exact P]. destruct (cl_refill pb); [|exact P].
    apply (PInv_same c); try reflexivity; [apply healthy_fields; reflexivity | exact P].
  - (* MSend *)
    cbn [apply]. destruct (cl_pend_get _ _) as [pb|]; cbn [flat_map peer_conn_window]; [|exact P].
    assert (X : PInv (cs_conn c pb id) w).
    { apply (PInv_same c); unfold cs_conn; destruct (cs_end c pb); try reflexivity; try exact P; apply healthy_fields; reflexivity. }
    destruct wr; [|exact X].
    destruct (write_data_shape (cc_maxFrame c) id (cs_chunk c pb) (cs_end c pb)) as (l & E & _).
    fold (rcredits (cl_write_data (cc_maxFrame c) id (cs_chunk c pb) (cs_end c pb))). rewrite E, rcredits_frames. cbn [peer_conn_window].
    set (l2 := cl_write_data _ _ _ _). apply (PInv_same (cs_conn c pb id)); try exact X.
    + apply cc_currentWindow_cl_notes.
    + apply cc_outQ_cl_notes.
    + apply healthy_fields; [apply cc_closed_cl_notes | apply (can_write_notes hstate) | apply cc_rl_stuck_cl_notes].
  - (* MSendBack *)
    cbn [apply]. destruct (cl_pend_get _ _) as [pb|]; [|exact P].
    sb_cases c pb; apply (PInv_same c); try reflexivity; try exact P; apply healthy_fields; reflexivity.
  - (* MEncSync *)
    cbn [apply]. destruct (negb _); [|exact P]. apply (PInv_same c); try reflexivity; [apply healthy_fields; reflexivity | exact P].
  - (* MHeaders *)
    cbn [apply]. destruct opb; apply (PInv_same c); try reflexivity; try exact P; apply healthy_fields; reflexivity.
Qed.

Fixpoint mrl (c : cconn) (ms : list move) : list revent :=
  match ms with
  | [] => []
  | m :: t => rl_of m c ++ mrl (apply m c) t
  end.

Lemma mvs_PInv (c : cconn) ms c' : mvs c ms c' -> Forall mv_rok ms -> Forall mv_wire ms ->
  forall w, AInv c -> PInv c w -> AInv c' /\ PInv c' (peer_conn_window w (mrl c ms)).
Proof.
  induction 1 as [c|c m ms c' V M IH]; intros R W w A P; cbn [mrl]; [split; assumption|].
  inversion R; subst. inversion W; subst. rewrite peer_conn_window_app.
  apply IH; try assumption; [apply mv_AInv | apply mv_PInv]; assumption.
Qed.

Lemma rcredits_app a b : rcredits (a ++ b) = rcredits a ++ rcredits b.
Proof. apply flat_map_app. Qed.

Lemma items_rl_nocredit e m (c : cconn) : is_rl e -> ev_ok e m -> rcredits (items m c) = [].
Proof.
  intros R E. destruct e; try contradiction. destruct m; cbn [items]; try reflexivity; try (cbn in E; first [contradiction | discriminate]).
  destruct (quietb o) eqn:Q; [|reflexivity]. destruct o; try discriminate; reflexivity.
Qed.

Lemma rdatas_not_rl e (m : move) : ~ is_rl e -> ev_ok e m -> rdatas_of m = [].
Proof. intros R E. destruct m; try reflexivity. cbn in E. destruct E as (-> & _). exfalso. apply R. exact I. Qed.

Lemma mrl_split e ms : Forall (ev_ok e) ms -> forall (c : cconn),
  mrl c ms = map rdata_ev (flat_map rdatas_of ms) ++ rcredits (mitems c ms).
Proof.
  intro F. pose proof (is_rl_dec e) as RL.
  induction F as [|m t Hm Ht IH]; intro c; cbn [mrl flat_map CliFlowOut.mitems]; [reflexivity|].
  rewrite IH, rcredits_app, map_app. unfold rl_of. destruct RL as [R|R].
  - rewrite (items_rl_nocredit e m c R Hm). cbn [app]. rewrite app_nil_r, app_assoc. reflexivity.
  - rewrite (rdatas_not_rl e m R Hm). cbn [map app]. assert (E : flat_map rdatas_of t = []).
    { clear IH. induction Ht as [|m' t' Hm' Ht' IH']; [reflexivity|]. cbn [flat_map]. rewrite (rdatas_not_rl e m' R Hm'), IH'. reflexivity. }
    rewrite E. reflexivity.
Qed.

(* dispatch parks the read loop: from then on it is stuck *)
Lemma dispatch_stuck (c : cconn) fr : snd (cl_dispatch dec_field c fr) = CDStuck ->
  cc_rl_stuck (fst (cl_dispatch dec_field c fr)) = true.
Proof.
  unfold cl_dispatch. cbv zeta.
  assert (TAIL : forall (c0 : cconn) (ok : option cctx) (X : cconn * cl_dres),
            X = (let '(c1, res', ended, err) := cl_read_stream dec_field c0 fr (match ok with Some x => Some (ct_resp x) | None => None end) in
                 let ok1 := match ok, res' with Some x, Some r => Some (ctu_resp x r) | _, _ => ok end in
                 let '(ok2, err2) :=
                   match ok1, err with
                   | Some x, CRSNone =>
                     if (cc_hdrStream c1 =? 0) && (fkind_eqb (sf_kind fr) KHeaders || fkind_eqb (sf_kind fr) KCont) then
                       if (cc_hdrStatus c1 =? 0)%Z then
                         if negb (ct_gotStatus x) || negb (cc_hdrEndStream c1) then (ok1, CRSStream CEMalformed) else (ok1, CRSNone)
                       else if ct_gotStatus x then (ok1, CRSStream CEMalformed)
                       else
                         let final := (200 <=? cc_hdrStatus c1)%Z in
                         (Some (ctu_gotStatus x final), if negb final && cc_hdrEndStream c1 then CRSStream CEMalformed else CRSNone)
                     else (ok1, err)
                   | _, _ => (ok1, err)
                   end in
                 let err2 :=
                   match ok2, err2 with
                   | Some x, CRSNone => if fkind_eqb (sf_kind fr) KData && negb (ct_gotStatus x) then CRSStream CEMalformed else err2
                   | _, _ => err2
                   end in
                 let c2 := match ok2 with Some x => cl_ctx_put c1 x | None => c1 end in
                 match err2 with
                 | CRSPanic => (c2, CDPanic)
                 | CRSConn e =>
                   let c3 := cl_set_last_err c2 e in
                   (match ok2 with Some x => cl_finish c3 (ct_tag x) (sf_sid fr) e | None => c3 end, CDStop)
                 | CRSStream e =>
                   let c3 := match ok2 with Some x => cl_finish c2 (ct_tag x) (sf_sid fr) e | None => c2 end in
                   (c3, if cl_gone_away c3 then CDStop else CDCont)
                 | CRSNone =>
                   let c3 := match ok2 with
                             | Some x => if ended then cl_finish c2 (ct_tag x) (sf_sid fr) CENil else c2
                             | None => c2
                             end in
                   (c3, if cl_gone_away c3 then CDStop else CDCont)
                 end) -> snd X <> CDStuck).
  { intros c0 ok X ->. destruct (cl_read_stream _ _ _ _) as [[[c1 res'] ended] err]. cbv zeta.
    match goal with |- context [let '(a, b) := ?p in _] => destruct p as [ok2 err2] end.
    destruct ok2, err2; cbn [fst snd]; repeat match goal with |- context [if ?b then _ else _] => destruct b end; cbn [snd]; discriminate. }
  destruct (cl_req_find (cc_reqQueued c) (sf_sid fr)) as [tag|].
  - destruct (cl_acquire_for [] c tag (sf_sid fr)).
    + intro H. exfalso. exact (TAIL c (cl_ctx_get c tag) _ eq_refl H).
    + intro H. exfalso. exact (TAIL (cl_take_req_count c (sf_sid fr)) None _ eq_refl H).
    + intros _. reflexivity.
    + intros _. reflexivity.
  - intro H. exfalso. exact (TAIL c None _ eq_refl H).
Qed.

Lemma step_data_stuck (c : cconn) fr :
  g_rl_takes hstate c fr = true -> sf_kind fr = KData -> sf_sid fr <> 0 -> snd (cl_dispatch dec_field c fr) = CDStuck ->
  cc_rl_stuck (step c (CEvRL (RFrame fr))) = true.
Proof.
  intros T K NZ ST. unfold g_rl_takes in T. apply andb_prop in T. destruct T as [T T3]. apply andb_prop in T. destruct T as [T1 T2].
  apply N.eqb_neq in NZ. rewrite NZ, K in T3. cbn [orb fkind_eqb negb andb] in T3.
  destruct (cc_hdrStream c =? 0) eqn:HS; [|discriminate].
  cbn [cl_step]. rewrite T1. unfold cl_rl_step. apply negb_true_iff in T2. rewrite T2, NZ.
  unfold cl_rl_frame. rewrite K, HS. cbn [fkind_eqb negb andb orb].
  pose proof (dispatch_stuck c fr ST) as DS. destruct (cl_dispatch dec_field c fr) as [c2 r]. cbn [fst snd] in *. subst r. exact DS.
Qed.

Lemma step_PInv (c : cconn) e w : wire_ev e -> AInv c -> PInv c w ->
  AInv (step c e) /\ PInv (step c e) (peer_conn_window w (rtl_step c e)).
Proof.
  intros W A P. destruct (step_D hstate dec_field enc_field enc_set_max cfg c e) as (ms & M & F & _ & RD).
  assert (RO : Forall mv_rok ms) by (eapply Forall_impl; [|exact F]; intro m; apply ev_ok_rok; exact W).
  assert (WI : Forall mv_wire ms) by (eapply Forall_impl; [|exact F]; intro m; apply ev_ok_wire; exact W).
  destruct (mvs_PInv c ms _ M RO WI w A P) as [A' P']. split; [exact A'|].
  rewrite (mrl_split e ms F c), RD in P'. unfold rtl_step. rewrite (mvs_new _ _ _ _ _ _ M).
  (* the frames debited are the frames taken in, unless dispatch parked the read loop *)
  destruct e as [| | | | | | |i| | | | | |]; try exact P'. destruct i as [fr| | |]; try exact P'.
  cbn [g_rdata_in p_rdata] in *.
  destruct (g_rl_takes hstate c fr && fkind_eqb (sf_kind fr) KData && negb (sf_sid fr =? 0)) eqn:T; [|exact P'].
  destruct (snd (cl_dispatch dec_field c fr)) eqn:ST; try exact P'.
  apply andb_prop in T. destruct T as [T T3]. apply andb_prop in T. destruct T as [T1 T2].
  apply fkind_eqb_eq in T2. apply negb_true_iff, N.eqb_neq in T3.
  pose proof (step_data_stuck c fr T1 T2 T3 ST) as STK.
  cbn [map app] in P' |- *. cbn [peer_conn_window rdata_ev].
  replace (w - Z.of_N (sf_len fr))%Z with (w + - Z.of_N (sf_len fr))%Z by (clear; lia). rewrite peer_conn_window_shift.
  destruct P' as [p1 p2]. constructor; [flia|]. intros (_ & _ & X). congruence.
Qed.

Lemma PInv_from evs : Forall wire_ev evs -> forall (c : cconn) w, AInv c -> PInv c w ->
  AInv (fold_left step evs c) /\ PInv (fold_left step evs c) (peer_conn_window w (rtimeline_from c evs)).
Proof.
  induction 1 as [|e t He Ht IH]; intros c w A P; cbn [fold_left rtimeline_from]; [split; assumption|].
  rewrite peer_conn_window_app. destruct (step_PInv c e w He A P) as [A' P']. apply IH; assumption.
Qed.

Lemma PInv_init : PInv init cl_maxWindow.
Proof.
  unfold cl_init. destruct (cl_settings_deserialize false first); constructor; cc_cbn; cbn [qconn]; intros; clear; lia.
Qed.

(* C14 (client): the server's view of its connection send window, w = maxWindow + increments written - DATA sent.
   Together with the credit still waiting in c.out it never exceeds what the client accounts for (so never maxWindow,
   1 << 20); while the connection is in working order it is exactly the receive window minus that waiting credit:
   once the write loop has written what is queued the server can send at least maxWindow/2 more bytes *)
Theorem peer_connection_window evs : Forall wire_ev evs ->
  let c := run evs in
  let w := peer_conn_window cl_maxWindow (rtimeline evs) in
  (w + qconn (cc_outQ c) <= cc_currentWindow c)%Z /\ (0 <= qconn (cc_outQ c))%Z /\
  (w <= cl_maxWindow <= 2147483647)%Z /\
  (healthy c -> (w + qconn (cc_outQ c))%Z = cc_currentWindow c /\ (cc_outQ c = [] -> (cl_maxWindow / 2 <= w)%Z)).
Proof.
  intros W. cbv zeta. destruct (PInv_from evs W init cl_maxWindow AInv_init PInv_init) as [A [p1 p2]].
  fold (run evs) in *. fold (rtimeline evs) in *.
  pose proof (qconn_nonneg _ (a_q _ A)) as QN. pose proof (a_cw _ A) as CW.
  split; [exact p1|]. split; [exact QN|]. split; [unfold cl_maxWindow in *; flia|].
  intro H. split; [apply p2; exact H|]. intro E. specialize (p2 H). rewrite E in p2. cbn [qconn] in p2. flia.
Qed.

Lemma rl_step_nocredit (c : cconn) e : is_rl e -> rcredits (g_new hstate c (step c e)) = [].
Proof.
  intro R. destruct (step_D hstate dec_field enc_field enc_set_max cfg c e) as (ms & M & F & _).
  rewrite (mvs_new _ _ _ _ _ _ M). clear M. revert c. induction F as [|m t Hm Ht IH]; intro c; cbn [CliFlowOut.mitems]; [reflexivity|].
  rewrite rcredits_app, (items_rl_nocredit e m c R Hm), IH. reflexivity.
Qed.

(* every DATA frame the read loop takes in on a stream is debited with its whole length on the wire, padding
   included, whoever it is for: receive window minus the connection credit waiting in c.out goes down by sf_len *)
Theorem data_accounting (c : cconn) fr : AInv c -> sf_len fr < WLIMIT ->
  g_rl_takes hstate c fr = true -> sf_kind fr = KData -> sf_sid fr <> 0 ->
  let c' := step c (CEvRL (RFrame fr)) in
  healthy c' ->
  (cc_currentWindow c' - qconn (cc_outQ c'))%Z = (cc_currentWindow c - qconn (cc_outQ c) - Z.of_N (sf_len fr))%Z /\
  (cl_maxWindow / 2 <= cc_currentWindow c' <= cl_maxWindow)%Z.
Proof.
  intros A W T K NZ c' H.
  assert (P : PInv c (cc_currentWindow c - qconn (cc_outQ c))%Z) by (constructor; intros; clear; lia).
  destruct (step_PInv c (CEvRL (RFrame fr)) _ W A P) as [A' [p1 p2]]. fold c' in A', p1, p2.
  specialize (p2 H). unfold rtl_step in p2. rewrite (rl_step_nocredit c (CEvRL (RFrame fr)) I), app_nil_r in p2.
  cbn [p_rdata] in p2. rewrite T, K in p2. apply N.eqb_neq in NZ. rewrite NZ in p2. cbn [fkind_eqb negb andb map peer_conn_window rdata_ev] in p2.
  split; [flia | apply (a_cw _ A')].
Qed.

(* stream credit: when somebody is waiting for the response, readStream answers a DATA frame that does not end the
   stream with WINDOW_UPDATE(stream, its whole length on the wire) *)
Theorem recv_data_stream_credit (c : cconn) fr : cc_closed c = false -> sf_len fr <> 0 -> flag_has (sf_flags fr) FL_ES = false ->
  exists q, cc_outQ (recv_data c fr true) = cc_outQ c ++ COWinUpd (sf_sid fr) (Z.of_N (sf_len fr)) :: q.
Proof.
  intros CL NZ ES. unfold recv_data, cl_update_window, cl_write_out. cc_cbn.
  apply N.eqb_neq in NZ. rewrite NZ, ES. cbn [negb andb]. cc_cbn. rewrite CL. cc_cbn.
  destruct (_ <? _)%Z; cc_cbn; rewrite ?CL; cc_cbn; [eexists; rewrite <- app_assoc; reflexivity | exists []; reflexivity].
Qed.

End Recv.
