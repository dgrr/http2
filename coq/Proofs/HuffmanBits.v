(* Bit-string lemmas shared by the Huffman proofs (C15): bits_of / testbit algebra,
   pack / bytes_bits inverses (one check over the 256 octets), boolean prefix test. *)
From Coq Require Import List NArith Bool Lia.
From H2V Require Import Base.Bytes Base.MachineInt Spec.XNetTables Spec.Rfc7541Huffman.
Import ListNotations.
Local Open Scope N_scope.

Definition bits8 (i : N) : list bool := bits_of 8 i.
Definition bytes_bits (b : bytes) : list bool := flat_map bits8 b.
Definition ones (n : nat) : list bool := repeat true n.

Lemma firstn_app_len {A} (a b : list A) k : length a = k -> firstn k (a ++ b) = a.
Proof.
  intros <-. rewrite firstn_app, Nat.sub_diag, firstn_all. simpl. apply app_nil_r.
Qed.

Lemma skipn_app_len {A} (a b : list A) k : length a = k -> skipn k (a ++ b) = b.
Proof.
  intros <-. rewrite skipn_app, Nat.sub_diag, skipn_all. reflexivity.
Qed.

Lemma nth_error_seq : forall len s n, (n < len)%nat -> nth_error (seq s len) n = Some (s + n)%nat.
Proof.
  induction len as [|len IH]; intros s n Hn; [lia|].
  destruct n as [|n]; simpl.
  - f_equal; lia.
  - rewrite IH by lia. f_equal; lia.
Qed.

Lemma forallb_ext {A} (f g : A -> bool) l : (forall x, In x l -> f x = g x) -> forallb f l = forallb g l.
Proof. intro H. induction l as [|x l IH]; [reflexivity|]. cbn [forallb]. rewrite H, IH by (cbn [In] in *; auto). reflexivity. Qed.

Lemma existsb_ext {A} (f g : A -> bool) l : (forall x, In x l -> f x = g x) -> existsb f l = existsb g l.
Proof. intro H. induction l as [|x l IH]; [reflexivity|]. cbn [existsb]. rewrite H, IH by (cbn [In] in *; auto). reflexivity. Qed.

Lemma bits_of_S n c : bits_of (S n) c = N.testbit c (N.of_nat n) :: bits_of n c.
Proof.
  unfold bits_of. rewrite seq_S, rev_app_distr. reflexivity.
Qed.

Lemma bits_of_0 c : bits_of 0 c = [].
Proof. reflexivity. Qed.

Lemma bits_of_length n c : length (bits_of n c) = n.
Proof. unfold bits_of. now rewrite map_length, rev_length, seq_length. Qed.

Lemma bits_of_ext n c c' :
  (forall i, (i < n)%nat -> N.testbit c (N.of_nat i) = N.testbit c' (N.of_nat i)) ->
  bits_of n c = bits_of n c'.
Proof.
  induction n as [|n IH]; intros H; [reflexivity|].
  rewrite !bits_of_S. f_equal; [apply H; lia | apply IH; intros; apply H; lia].
Qed.

Lemma bits_of_app n m c :
  bits_of (n + m) c = bits_of n (N.shiftr c (N.of_nat m)) ++ bits_of m c.
Proof.
  induction n as [|n IH]; [reflexivity|].
  change (S n + m)%nat with (S (n + m)). rewrite !bits_of_S, IH. simpl. f_equal.
  rewrite N.shiftr_spec'. f_equal. lia.
Qed.

Lemma firstn_bits_of k n c : (k <= n)%nat ->
  firstn k (bits_of n c) = bits_of k (N.shiftr c (N.of_nat (n - k))).
Proof.
  intros H. replace n with (k + (n - k))%nat at 1 by lia.
  rewrite bits_of_app. apply firstn_app_len, bits_of_length.
Qed.

Lemma skipn_bits_of k n c : (k <= n)%nat ->
  skipn k (bits_of n c) = bits_of (n - k) c.
Proof.
  intros H. replace n with (k + (n - k))%nat at 1 by lia.
  rewrite bits_of_app. apply skipn_app_len, bits_of_length.
Qed.

Lemma bits_of_mod n w c : (N.of_nat n <= w) -> bits_of n (c mod 2 ^ w) = bits_of n c.
Proof.
  intros H. apply bits_of_ext. intros i Hi. apply N.mod_pow2_bits_low. lia.
Qed.

Lemma testbit_small c n m : c < 2 ^ n -> n <= m -> N.testbit c m = false.
Proof.
  intros Hc Hm. rewrite <- (N.mod_small c (2 ^ n)) by assumption.
  now apply N.mod_pow2_bits_high.
Qed.

(* code = code << n | c, in a w-bit register: the low k+n bits are (low k bits of code) ++ c *)
Lemma bits_of_lor_shift k n w a c :
  N.of_nat (k + n) <= w -> c < 2 ^ N.of_nat n ->
  bits_of (k + n) (N.lor (wrap w (N.shiftl a (N.of_nat n))) c) = bits_of k a ++ bits_of n c.
Proof.
  intros Hw Hc. rewrite bits_of_app. f_equal.
  - apply bits_of_ext. intros i Hi.
    rewrite N.shiftr_spec', N.lor_spec.
    rewrite (testbit_small c (N.of_nat n)) by (assumption || lia).
    rewrite orb_false_r. unfold wrap. rewrite N.mod_pow2_bits_low by lia.
    rewrite N.shiftl_spec_high' by lia. f_equal. lia.
  - apply bits_of_ext. intros i Hi.
    rewrite N.lor_spec. unfold wrap. rewrite N.mod_pow2_bits_low by lia.
    rewrite N.shiftl_spec_low by lia. reflexivity.
Qed.

Lemma bits_of_ones n n' : (n <= n')%nat -> bits_of n (2 ^ N.of_nat n' - 1) = ones n.
Proof.
  intros H. replace (2 ^ N.of_nat n' - 1) with (N.ones (N.of_nat n'))
    by (rewrite N.ones_equiv; lia).
  induction n as [|n IH]; [reflexivity|].
  rewrite bits_of_S, IH by lia. unfold ones. simpl. f_equal.
  apply N.ones_spec_low. lia.
Qed.

Lemma bits_of_shiftl_low m m' a : (m <= m')%nat ->
  bits_of m (N.shiftl a (N.of_nat m')) = repeat false m.
Proof.
  intros H. induction m as [|m IH]; [reflexivity|].
  rewrite bits_of_S, IH by lia. simpl. f_equal. apply N.shiftl_spec_low. lia.
Qed.

(* acc & (2^n - 1) == 2^n - 1  iff the n low bits are all ones *)
Lemma low_bits_all_ones n acc :
  (N.land acc (2 ^ N.of_nat n - 1) =? 2 ^ N.of_nat n - 1) = forallb (fun b : bool => b) (bits_of n acc).
Proof.
  replace (2 ^ N.of_nat n - 1) with (N.ones (N.of_nat n)) by (rewrite N.ones_equiv; lia).
  rewrite N.land_ones.
  destruct (forallb (fun b : bool => b) (bits_of n acc)) eqn:E.
  - apply N.eqb_eq. apply N.bits_inj. intros i.
    destruct (N.lt_ge_cases i (N.of_nat n)) as [Hi|Hi].
    + rewrite N.mod_pow2_bits_low, N.ones_spec_low by lia.
      rewrite forallb_forall in E. apply E.
      unfold bits_of. apply in_map_iff. exists (N.to_nat i). split.
      * f_equal. lia.
      * rewrite <- in_rev. apply in_seq. lia.
    + rewrite N.mod_pow2_bits_high, N.ones_spec_high by lia. reflexivity.
  - apply N.eqb_neq. intros Heq.
    assert (forallb (fun b : bool => b) (bits_of n acc) = true) as Habs; [|congruence].
    apply forallb_forall. intros b Hb. unfold bits_of in Hb.
    apply in_map_iff in Hb. destruct Hb as [i [<- Hi]].
    rewrite <- in_rev in Hi. apply in_seq in Hi.
    rewrite <- (N.mod_pow2_bits_low acc (N.of_nat n)) by lia.
    rewrite Heq. apply N.ones_spec_low. lia.
Qed.

Lemma bits8_unfold x :
  bits8 x = [N.testbit x 7; N.testbit x 6; N.testbit x 5; N.testbit x 4;
             N.testbit x 3; N.testbit x 2; N.testbit x 1; N.testbit x 0].
Proof. reflexivity. Qed.

Lemma bits8_length x : length (bits8 x) = 8%nat.
Proof. apply bits_of_length. Qed.

Lemma bytes_bits_length b : length (bytes_bits b) = (8 * length b)%nat.
Proof.
  induction b as [|x b IH]; [reflexivity|].
  change (bytes_bits (x :: b)) with (bits8 x ++ bytes_bits b).
  rewrite app_length, IH, bits8_length. simpl length. lia.
Qed.

Lemma bytes_bits_app a b : bytes_bits (a ++ b) = bytes_bits a ++ bytes_bits b.
Proof. unfold bytes_bits. apply flat_map_app. Qed.

Lemma byte_of_bits8_check :
  forallb (fun i => byte_of_bits (bits8 (N.of_nat i)) =? N.of_nat i) (seq 0 256) = true.
Proof. vm_compute. reflexivity. Qed.

Lemma byte_of_bits8 x : x < 256 -> byte_of_bits (bits8 x) = x.
Proof.
  intros H. pose proof byte_of_bits8_check as C. rewrite forallb_forall in C.
  specialize (C (N.to_nat x)). rewrite N2Nat.id in C. apply N.eqb_eq, C, in_seq. lia.
Qed.

Lemma bits8_byte_of_bits b0 b1 b2 b3 b4 b5 b6 b7 :
  bits8 (byte_of_bits [b0; b1; b2; b3; b4; b5; b6; b7]) = [b0; b1; b2; b3; b4; b5; b6; b7].
Proof. destruct b0, b1, b2, b3, b4, b5, b6, b7; reflexivity. Qed.

Lemma bits8_u8 x : bits8 (u8 x) = bits8 x.
Proof. unfold bits8, u8, wrap. apply bits_of_mod. simpl. lia. Qed.

Lemma pack_fuel : forall f1 f2 X, (length X <= f1)%nat -> (length X <= f2)%nat -> pack f1 X = pack f2 X.
Proof.
  induction f1 as [|f1 IH]; intros f2 X H1 H2.
  - destruct X; [|simpl in H1; lia]. destruct f2; reflexivity.
  - destruct f2 as [|f2].
    + destruct X; [reflexivity | simpl in H2; lia].
    + destruct X as [|b0 [|b1 [|b2 [|b3 [|b4 [|b5 [|b6 [|b7 X]]]]]]]]; try reflexivity.
      simpl. f_equal. simpl in H1, H2. apply IH; lia.
Qed.

Definition packl (X : list bool) : bytes := pack (length X) X.

Lemma pack_S f b0 b1 b2 b3 b4 b5 b6 b7 Y :
  pack (S f) (b0 :: b1 :: b2 :: b3 :: b4 :: b5 :: b6 :: b7 :: Y) =
  byte_of_bits [b0; b1; b2; b3; b4; b5; b6; b7] :: pack f Y.
Proof. reflexivity. Qed.

Lemma packl_cons8 b0 b1 b2 b3 b4 b5 b6 b7 Y :
  packl (b0 :: b1 :: b2 :: b3 :: b4 :: b5 :: b6 :: b7 :: Y) =
  byte_of_bits [b0; b1; b2; b3; b4; b5; b6; b7] :: packl Y.
Proof.
  unfold packl. simpl length. rewrite pack_S. f_equal. apply pack_fuel; lia.
Qed.

Lemma packl_bits8 x Y : x < 256 -> packl (bits8 x ++ Y) = x :: packl Y.
Proof.
  intros H. rewrite <- (byte_of_bits8 x H) at 2. rewrite bits8_unfold.
  cbn [app]. apply packl_cons8.
Qed.

Lemma packl_short X : (length X < 8)%nat -> packl X = [].
Proof.
  intros H. unfold packl.
  destruct X as [|b0 [|b1 [|b2 [|b3 [|b4 [|b5 [|b6 [|b7 X]]]]]]]]; try reflexivity.
  simpl in H. lia.
Qed.

Lemma packl_bytes_bits b : bytes_ok b = true -> packl (bytes_bits b) = b.
Proof.
  induction b as [|x b IH]; intros H; [reflexivity|].
  simpl in H. apply andb_prop in H. destruct H as [Hx Hb].
  change (bytes_bits (x :: b)) with (bits8 x ++ bytes_bits b). rewrite packl_bits8.
  - f_equal. now apply IH.
  - apply N.ltb_lt, Hx.
Qed.

Lemma bytes_bits_packl : forall k X, length X = (8 * k)%nat -> bytes_bits (packl X) = X.
Proof.
  induction k as [|k IH]; intros X H.
  - destruct X; [reflexivity | simpl in H; lia].
  - destruct X as [|b0 [|b1 [|b2 [|b3 [|b4 [|b5 [|b6 [|b7 X]]]]]]]]; simpl in H; try lia.
    rewrite packl_cons8.
    match goal with |- bytes_bits (?h :: ?t) = _ => change (bytes_bits (h :: t)) with (bits8 h ++ bytes_bits t) end.
    rewrite bits8_byte_of_bits. cbn [app]. do 8 f_equal. apply IH. lia.
Qed.

Lemma packl_bytes_ok : forall k X, length X = (8 * k)%nat -> bytes_ok (packl X) = true.
Proof.
  induction k as [|k IH]; intros X H.
  - destruct X; [reflexivity | simpl in H; lia].
  - destruct X as [|b0 [|b1 [|b2 [|b3 [|b4 [|b5 [|b6 [|b7 X]]]]]]]]; simpl in H; try lia.
    rewrite packl_cons8. simpl. rewrite IH by lia. rewrite andb_true_r.
    destruct b0, b1, b2, b3, b4, b5, b6, b7; reflexivity.
Qed.

Fixpoint prefixb (a b : list bool) : bool :=
  match a, b with
  | [], _ => true
  | x :: a', y :: b' => Bool.eqb x y && prefixb a' b'
  | _ :: _, [] => false
  end.

Lemma prefixb_spec : forall a b, prefixb a b = true <-> is_prefix a b.
Proof.
  induction a as [|x a IH]; intros b; simpl.
  - split; [intros _; exists b; reflexivity | reflexivity].
  - destruct b as [|y b].
    + split; [discriminate | intros [r Hr]; discriminate].
    + rewrite andb_true_iff, IH, eqb_true_iff. split.
      * intros [-> [r ->]]. exists r. reflexivity.
      * intros [r Hr]. simpl in Hr. injection Hr as -> ->. split; [reflexivity | exists r; reflexivity].
Qed.

Lemma is_prefix_refl a : is_prefix a a.
Proof. exists []. now rewrite app_nil_r. Qed.

Lemma is_prefix_app a r : is_prefix a (a ++ r).
Proof. exists r. reflexivity. Qed.

Lemma is_prefix_trans a b c : is_prefix a b -> is_prefix b c -> is_prefix a c.
Proof. intros [r ->] [r' ->]. exists (r ++ r'). now rewrite app_assoc. Qed.

Lemma is_prefix_length a b : is_prefix a b -> (length a <= length b)%nat.
Proof. intros [r ->]. rewrite app_length. lia. Qed.

(* two prefixes of the same string are comparable *)
Lemma is_prefix_comparable : forall a b c, is_prefix a c -> is_prefix b c -> (length a <= length b)%nat -> is_prefix a b.
Proof.
  induction a as [|x a IH]; intros b c Ha Hb Hl.
  - exists b. reflexivity.
  - destruct b as [|y b]; [simpl in Hl; lia|].
    destruct Ha as [ra Ha], Hb as [rb Hb]. subst c. simpl in Hb. injection Hb as Hxy Hrest.
    subst y. destruct (IH b (a ++ ra)) as [r Hr].
    + apply is_prefix_app.
    + exists rb. exact Hrest.
    + simpl in Hl. lia.
    + exists r. simpl. now rewrite Hr.
Qed.

Lemma is_prefix_app_inv a b r : is_prefix (a ++ b) (a ++ r) -> is_prefix b r.
Proof.
  intros [q Hq]. rewrite <- app_assoc in Hq. apply app_inv_head in Hq. exists q. exact Hq.
Qed.

Lemma is_prefix_ones_inv a n : is_prefix a (ones n) -> a = ones (length a).
Proof.
  intros [r Hr]. revert a r Hr. unfold ones. induction n as [|n IH]; intros a r Hr.
  - destruct a; [reflexivity | discriminate].
  - destruct a as [|x a]; [reflexivity|]. simpl in Hr. injection Hr as <- Hr.
    simpl. f_equal. eapply IH. exact Hr.
Qed.

Lemma ones_app n m : ones (n + m) = ones n ++ ones m.
Proof. unfold ones. apply repeat_app. Qed.

Lemma ones_length n : length (ones n) = n.
Proof. apply repeat_length. Qed.

Lemma forallb_ones n : forallb (fun b : bool => b) (ones n) = true.
Proof. induction n; simpl; auto. Qed.

Lemma forallb_id_ones l : forallb (fun b : bool => b) l = true -> l = ones (length l).
Proof.
  induction l as [|x l IH]; intros H; [reflexivity|].
  simpl in H. apply andb_prop in H. destruct H as [-> H]. unfold ones. simpl. f_equal. now apply IH.
Qed.
