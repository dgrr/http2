(* Proofs/CliMsgInv.v - C02 (c) / C20 (client): the reference receiver (ghost) and the invariant that ties the
   client connection to it.

   gst / gstep      the reference receiver of a connection: the reference HPACK decoder (ref_loop of
                    Proofs/SrvIsoRef.v over dec_field) threaded over EVERY header-block fragment the read loop takes
                    in, in arrival order, whoever the block was for; complete header blocks (field lists of the
                    fragments concatenated) and DATA frames are logged per stream as items (Spec/Http2Responses.v).
   Inv g c          the model state c agrees with the ghost g: decoder state and carry, and for every request on
                    the table the Response under construction is what the automaton of Proofs/CliMsgAuto.v makes
                    of the items of ITS stream. *)
From H2V Require Import Base.Bytes Base.MachineInt Gen.GenConsts Impl.ServerConn Impl.ClientConn
  Spec.Http2Messages Spec.Http2Responses Proofs.CliBase Proofs.SrvIsoRef Proofs.CliMsgRef Proofs.CliMsgAuto Proofs.CliMsgMoves Proofs.CliMsgDisp Proofs.CliMsgStep.
From Coq Require Import ZArith Lia ZifyN ZifyNat ZifyBool List.
Import ListNotations.
Local Open Scope N_scope.

Section Ghost.
Context {hstate : Type}.
Variable dec_field : hstate -> N -> bytes -> dec_res hstate.
Implicit Types c : cconn hstate.

Record gst : Type := mkG {
  g_d : hstate;                                   (* the reference decoder *)
  g_n : N;                                        (* fields of the open block decoded so far *)
  g_carry : bytes;                                (* the bytes of a field cut by the last frame boundary *)
  g_open : option (N * bool * list field);        (* the open block: stream, END_STREAM of its HEADERS, fields so far *)
  g_items : list (N * ritem)                      (* what has been received, oldest first *)
}.

Definition ginit (h0 : hstate) : gst := mkG h0 0 [] None [].

(* one fragment: b = carry ++ fragment *)
Definition gfrag (g : gst) (sid : N) (es0 : bool) (fs0 : list field) (n : N) (b : bytes) (eh : bool) : gst :=
  match ref_loop dec_field (S (length b)) eh (g_d g) n b with
  | ROk fs d' n' carry =>
    if eh then mkG d' n' [] None (g_items g ++ [(sid, RBlock (fs0 ++ fs) es0)])
    else if cl_maxHeaderPrev <? len carry then g
    else mkG d' n' carry (Some (sid, es0, fs0 ++ fs)) (g_items g)
  | _ => g              (* the bytes do not decode: the connection ends here *)
  end.

Definition gstep (g : gst) (fr : sframe) : gst :=
  match sf_kind fr with
  | KHeaders => gfrag g (sf_sid fr) (flag_has (sf_flags fr) FL_ES) [] 0 (sf_payload fr) (flag_has (sf_flags fr) FL_EH)
  | KCont =>
    match g_open g with
    | Some (sid, es0, fs0) => gfrag g sid es0 fs0 (g_n g) (g_carry g ++ sf_payload fr) (flag_has (sf_flags fr) FL_EH)
    | None => g
    end
  | KData => mkG (g_d g) (g_n g) (g_carry g) (g_open g)
                 (g_items g ++ [(sf_sid fr, RData (sf_payload fr) (flag_has (sf_flags fr) FL_ES))])
  | _ => g
  end.

Definition own (id : N) (items : list (N * ritem)) : list ritem :=
  map snd (filter (fun p => fst p =? id) items).

Lemma own_app id l1 l2 : own id (l1 ++ l2) = own id l1 ++ own id l2.
Proof. unfold own. rewrite filter_app, map_app. reflexivity. Qed.

Definition TabRel (g : gst) (c : cconn hstate) (id : N) (x : cctx) : Prop :=
  exists r0 got,
    run_items rinit (own id (g_items g)) = ICont (r0, got) /\ ct_gotStatus x = got /\
    match g_open g with
    | Some (s, es, fs) =>
      if s =? id
      then hf_fold (false, 0%Z, None, Some r0) fs = (cc_hdrRegularSeen c, cc_hdrStatus c, cc_hdrErr c, Some (ct_resp x))
      else ct_resp x = r0
    | None => ct_resp x = r0
    end.

(* the decoder and the open header block of the read loop are those of the ghost *)
Definition dec_clause (g' : gst) (c' : cconn hstate) : Prop :=
  g_d g' = cc_dec c' /\
  match g_open g' with
  | None => cc_hdrStream c' = 0
  | Some (s, es, fs) => cc_hdrStream c' = s /\ s <> 0 /\ cc_hdrEndStream c' = es /\ g_n g' = cc_hdrFields c' /\ g_carry g' = cc_hdrPrev c'
  end.

Record Inv (g : gst) (c : cconn hstate) : Prop := mkInv {
  i_dec : cl_rl_live c = true -> dec_clause g c;
  i_herr : forall e, cc_hdrErr c = Some e -> e = CEMalformed;
  i_tab : forall id tag, In (id, tag) (cc_reqQueued c) ->
          exists x, cl_ctx_get c tag = Some x /\ ct_sid x = id /\ id <> 0 /\ id < cc_nextID c /\ ct_err x <> Some CENil /\ TabRel g c id x;
  i_nodup : NoDup (map fst (cc_reqQueued c));
  i_fresh : forall tag x, cl_ctx_get c tag = Some x -> ct_sid x = 0 ->
            ct_resp x = cl_empty_resp /\ ct_gotStatus x = false /\ ct_err x <> Some CENil;
  i_nil : forall tag x, cl_ctx_get c tag = Some x -> ct_err x = Some CENil ->
          ct_sid x <> 0 /\ run_items rinit (own (ct_sid x) (g_items g)) = IDone (ct_resp x);
  i_res : forall tag r resp, In (COResult tag r CENil resp) (cc_out c) ->
          exists x, cl_ctx_get c tag = Some x /\ ct_sid x <> 0 /\ run_items rinit (own (ct_sid x) (g_items g)) = IDone resp;
  i_inq : NoDup (cc_inQ c) /\ forall t, In t (cc_inQ c) -> exists x, cl_ctx_get c t = Some x /\ ct_sid x = 0;
  i_le : forall e, cc_lastErr c = Some e -> err_special e = false;
  i_outq : forallb q2 (cc_outQ c) = true;
  i_next : 1 <= cc_nextID c
}.

(* the server never sends on a stream the client has not opened (RFC 7540 5.1.1: such a frame is a connection
   error; a conforming server does not do it): every item received so far is on a stream below nextID *)
Definition Idle (g : gst) (c : cconn hstate) : Prop :=
  (forall s i, In (s, i) (g_items g) -> s < cc_nextID c) /\
  match g_open g with Some (s, _, _) => s < cc_nextID c | None => True end.

(* quiet moves keep the invariant, with the same ghost *)
Lemma ctxs_q_get (c c' : cconn hstate) tag x' : ctxs_q c c' -> cl_ctx_get c' tag = Some x' -> exists x, cl_ctx_get c tag = Some x /\ ctx_q x x'.
Proof. intros Q G. specialize (Q tag). rewrite G in Q. destruct (cl_ctx_get c tag) as [x|]; [eauto | contradiction]. Qed.
Lemma ctxs_q_get_rev (c c' : cconn hstate) tag x : ctxs_q c c' -> cl_ctx_get c tag = Some x -> exists x', cl_ctx_get c' tag = Some x' /\ ctx_q x x'.
Proof. intros Q G. specialize (Q tag). rewrite G in Q. destruct (cl_ctx_get c' tag) as [x'|]; [eauto | contradiction]. Qed.

Lemma ctx_q_view x x' : ctx_q x x' -> ct_sid x' = ct_sid x /\ ct_resp x' = ct_resp x /\ ct_gotStatus x' = ct_gotStatus x /\ ct_req x' = ct_req x.
Proof. intros (_ & V & _). unfold cvw in V. inversion V. auto. Qed.
Lemma ctx_q_nil x x' : ctx_q x x' -> ct_err x' = Some CENil -> ct_err x = Some CENil.
Proof. intros (_ & _ & E) H. apply E; [exact H | reflexivity]. Qed.

Lemma Inv_qm0 g (c c' : cconn hstate) : Inv g c -> qm q0 c c' -> Inv g c'.
Proof.
  intros I Q. destruct Q. constructor.
  - intro L. destruct (i_dec _ _ I (qm_rl L)) as [A B]. split; [congruence|].
    destruct (g_open g) as [[[s es] fs]|]; [|congruence]. destruct B as (B1 & B2 & B3 & B4 & B5). repeat split; congruence.
  - intros e H. rewrite qm_herr in H. exact (i_herr _ _ I e H).
  - intros id tag H. destruct qm_rq as [R1 _]. destruct (i_tab _ _ I id tag (R1 _ H)) as (x & G & S & N0 & LT & NE & T).
    destruct (ctxs_q_get_rev _ _ _ _ qm_ctx G) as (x' & G' & QX). destruct (ctx_q_view _ _ QX) as (V1 & V2 & V3 & V4).
    exists x'. repeat split; try congruence.
    + intro E. apply NE. exact (ctx_q_nil _ _ QX E).
    + destruct T as (r0 & got & T1 & T2 & T3). exists r0, got. repeat split; [exact T1 | congruence|].
      destruct (g_open g) as [[[s es] fs]|]; [|congruence]. destruct (s =? id); [|congruence].
      rewrite qm_hr, qm_hst, qm_herr, V2. exact T3.
  - destruct qm_rq as [_ R2]. exact (R2 (i_nodup _ _ I)).
  - intros tag x' G S. destruct (ctxs_q_get _ _ _ _ qm_ctx G) as (x & G0 & QX). destruct (ctx_q_view _ _ QX) as (V1 & V2 & V3 & V4).
    destruct (i_fresh _ _ I tag x G0 ltac:(congruence)) as (A & B & C). repeat split; try congruence.
    intro E. apply C. exact (ctx_q_nil _ _ QX E).
  - intros tag x' G E. destruct (ctxs_q_get _ _ _ _ qm_ctx G) as (x & G0 & QX). destruct (ctx_q_view _ _ QX) as (V1 & V2 & V3 & V4).
    destruct (i_nil _ _ I tag x G0 (ctx_q_nil _ _ QX E)) as [A B]. rewrite V1, V2. split; assumption.
  - intros tag r resp H. destruct qm_out as (new & E & F). rewrite E in H. apply in_app_or in H. destruct H as [H|H].
    + exfalso. rewrite forallb_forall in F. specialize (F _ H). discriminate.
    + destruct (i_res _ _ I tag r resp H) as (x & G & S & R). destruct (ctxs_q_get_rev _ _ _ _ qm_ctx G) as (x' & G' & QX).
      destruct (ctx_q_view _ _ QX) as (V1 & V2 & V3 & V4). exists x'. rewrite V1. repeat split; assumption.
  - destruct qm_inq as [Q1 Q2]. destruct (i_inq _ _ I) as [N1 N2]. split; [exact (Q2 N1)|].
    intros t H. destruct (N2 t (Q1 t H)) as (x & G & S). destruct (ctxs_q_get_rev _ _ _ _ qm_ctx G) as (x' & G' & QX).
    destruct (ctx_q_view _ _ QX) as (V1 & _). exists x'. split; [exact G' | congruence].
  - intros e H. destruct (err_special e) eqn:S; [|reflexivity]. rewrite <- S. exact (i_le _ _ I e (qm_le e H S)).
  - exact (qm_outq (i_outq _ _ I)).
  - rewrite qm_next. exact (i_next _ _ I).
Qed.

Lemma Inv_qm g (c c' : cconn hstate) : Inv g c -> qm q1 c c' -> Inv g c'.
Proof. intros I Q. apply (Inv_qm0 g c); [exact I | apply qm_weaken0, Q]. Qed.

Lemma Idle_qm P g (c c' : cconn hstate) : Idle g c -> qm P c c' -> Idle g c'.
Proof. intros [A B] Q. destruct Q. unfold Idle. rewrite qm_next. split; assumption. Qed.


Variable enc_field : hstate -> bytes -> bytes -> bool -> bytes * hstate.
Variable enc_set_max : hstate -> N -> hstate.

Lemma own_nil id (items : list (N * ritem)) : (forall s i, In (s, i) items -> s < id) -> own id items = [].
Proof.
  unfold own. induction items as [|[s it] l IH]; intro H; [reflexivity|]. cbn [filter fst].
  assert (s < id) by (apply (H s it); left; reflexivity). replace (s =? id) with false by lia. apply IH.
  intros s' i' H'. apply (H s' i'). right. exact H'.
Qed.

Lemma Inv_Pre g c : Inv g c -> Pre c.
Proof. intro I. constructor; [exact (i_inq _ _ I) | exact (i_le _ _ I) | exact (i_outq _ _ I) | exact (i_herr _ _ I)]. Qed.

(* the encoder is not the invariant's business *)
Lemma Inv_encsize g c v1 v2 : Inv g c -> Inv g (ccu_enc (ccu_encTableSeen c v1) v2).
Proof. intros []. constructor; assumption. Qed.

Lemma Inv_addctx g c tag rq armed : Inv g c -> cl_ctx_get c tag = None -> Inv g (ccu_ctxs c (cc_ctxs c ++ [cl_new_ctx tag rq armed])).
Proof.
  intros I G0. set (c1 := ccu_ctxs c (cc_ctxs c ++ [cl_new_ctx tag rq armed])).
  pose proof (ctx_get_addctx c tag rq armed G0) as GET. fold c1 in GET.
  assert (KEEP : forall t x, cl_ctx_get c t = Some x -> cl_ctx_get c1 t = Some x).
  { intros t x H. rewrite GET. destruct (t =? tag) eqn:E; [apply N.eqb_eq in E; congruence | exact H]. }
  assert (BACK : forall t x, cl_ctx_get c1 t = Some x -> cl_ctx_get c t = Some x \/ (t = tag /\ x = cl_new_ctx tag rq armed)).
  { intros t x H. rewrite GET in H. destruct (t =? tag) eqn:E; [right; split; [apply N.eqb_eq, E | congruence] | left; exact H]. }
  destruct I. constructor; try assumption.
  - intros id t H. destruct (i_tab0 id t H) as (x & G & R). exists x. split; [apply KEEP, G | exact R].
  - intros t x G S. destruct (BACK _ _ G) as [G'|[-> ->]]; [exact (i_fresh0 t x G' S)|]. repeat split. discriminate.
  - intros t x G E. destruct (BACK _ _ G) as [G'|[-> ->]]; [exact (i_nil0 t x G' E) | discriminate].
  - intros t r resp H. destruct (i_res0 t r resp H) as (x & G & R). exists x. split; [apply KEEP, G | exact R].
  - destruct i_inq0 as [N1 N2]. split; [exact N1|]. intros t H. destruct (N2 t H) as (x & G & R). exists x. split; [apply KEEP, G | exact R].
Qed.

Lemma Inv_inq g c tag x : Inv g c -> cl_ctx_get c tag = Some x -> ct_sid x = 0 -> ~ In tag (cc_inQ c) -> Inv g (ccu_inQ c (cc_inQ c ++ [tag])).
Proof.
  intros I G S NI. destruct I. constructor; try assumption. destruct i_inq0 as [N1 N2]. cbn. split.
  - apply NoDup_snoc; assumption.
  - intros t H. apply in_app_or in H. destruct H as [H|[<-|[]]]; [exact (N2 t H)|]. exists x. split; assumption.
Qed.

(* writeRequest's registration: the request is on the table under a fresh stream id, its Response empty *)
Lemma reg_Inv g c tag x :
  Inv g c -> Idle g c -> cl_ctx_get c tag = Some x -> ct_sid x = 0 -> ~ In tag (cc_inQ c) -> cc_nextID c <= cl_maxStreamID ->
  let R := open_pending (fst (reg_state enc_field c tag x)) (cc_nextID c) tag (ct_req x) in
  Inv g R /\ Idle g R /\ cc_nextID R = cc_nextID c + 2 /\ cc_out R = cc_out c /\ cl_wl_live R = cl_wl_live c.
Proof.
  intros I [ID1 ID2] G S0 NI LE R. pose proof (reg_ctx_get enc_field c tag x G) as GET. fold R in GET.
  destruct (reg_open_eq enc_field c tag x) as (e' & p & ER). fold R in ER. rewrite (u32_next_id _ LE) in ER. clearbody R. subst R.
  set (x' := ctu_sid (ctu_conn x true) (cc_nextID c)) in *.
  split; [|split; [|repeat split; reflexivity]].
  - destruct I. constructor.
    + exact i_dec0.
    + exact i_herr0.
    + intros i t H. cc_cbn_in H. apply in_app_or in H. destruct H as [H|[H|[]]].
      * destruct (i_tab0 i t H) as (y & Gy & Sy & N0 & LT & NE & TR).
        assert (NT : t <> tag) by (intro; subst t; rewrite G in Gy; inversion Gy; subst y; congruence).
        exists y. rewrite GET, (proj2 (N.eqb_neq t tag) NT). cc_cbn. repeat split; try assumption. lia.
      * inversion H; subst i t. exists x'. rewrite GET, N.eqb_refl. destruct (i_fresh0 tag x G S0) as (F1 & F2 & F3).
        cc_cbn. repeat split; try assumption; [lia | lia|].
        exists cl_empty_resp, false.
        rewrite (own_nil (cc_nextID c) (g_items g) ID1). repeat split; [exact F2|].
        destruct (g_open g) as [[[s es] fs]|]; [|exact F1]. rewrite (proj2 (N.eqb_neq s (cc_nextID c))) by lia. exact F1.
    + cc_cbn. rewrite map_app. cbn [map fst]. apply NoDup_snoc; [exact i_nodup0|].
      intro H. apply in_map_iff in H. destruct H as ([i t] & Ei & Hi). cbn [fst] in Ei. subst i.
      destruct (i_tab0 _ t Hi) as (y & _ & _ & _ & LT & _). lia.
    + intros t y Gy Sy. rewrite GET in Gy. destruct (t =? tag); [inversion Gy; subst y; cbn in Sy|exact (i_fresh0 t y Gy Sy)].
      exfalso. lia.
    + intros t y Gy Ey. rewrite GET in Gy. destruct (t =? tag) eqn:Et; [|exact (i_nil0 t y Gy Ey)].
      inversion Gy; subst y. cbn in Ey. destruct (i_fresh0 tag x G S0) as (_ & _ & F3). contradiction.
    + intros t r resp H. destruct (i_res0 t r resp H) as (y & Gy & Sy & Ry).
      assert (NT : t <> tag) by (intro; subst t; rewrite G in Gy; inversion Gy; subst y; congruence).
      exists y. rewrite GET, (proj2 (N.eqb_neq t tag) NT). repeat split; assumption.
    + destruct i_inq0 as [N1 N2]. split; [exact N1|]. intros t H. destruct (N2 t H) as (y & Gy & Sy).
      assert (NT : t <> tag) by (intro; subst t; contradiction).
      exists y. rewrite GET, (proj2 (N.eqb_neq t tag) NT). split; assumption.
    + exact i_le0.
    + exact i_outq0.
    + cc_cbn. lia.
  - unfold Idle. cc_cbn. split; [intros s i H; specialize (ID1 s i H); lia|].
    destruct (g_open g) as [[[s es] fs]|]; [lia | trivial].
Qed.

End Ghost.
