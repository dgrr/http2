(* Proofs/SrvFlowSend.v - sendData as a relation: one constructor per way an iteration of the loop can go.
   Everything else about sending (ledger safety, END_STREAM framing, no-stall, completion) is an induction on it.
   At the end: afterFrame split into the pair it writes back, the write-back, and the break. *)
From H2V Require Import Base.Bytes Base.MachineInt Base.Result Gen.GenConsts Impl.ServerConn Proofs.SrvBase.
From Coq Require Import ZArith Lia ZifyN ZifyNat ZifyBool List.
Import ListNotations.
Local Open Scope N_scope.
Set Default Proof Using "Type".

Lemma zmin_min a b : zmin a b = Z.min a b.
Proof. unfold zmin. destruct (a <? b)%Z eqn:E; lia. Qed.

Lemma len_nil_iff (b : bytes) : len b = 0 <-> b = [].
Proof. unfold len. destruct b; cbn [length]; split; intro H; try reflexivity; try discriminate; lia. Qed.

Lemma len_takeN k (b : bytes) : len (takeN k b) = N.min k (len b).
Proof. unfold len, takeN. rewrite firstn_length. lia. Qed.

Lemma len_dropN k (b : bytes) : len (dropN k b) = len b - k.
Proof. unfold len, dropN. rewrite skipn_length. lia. Qed.

Lemma takeN_dropN k (b : bytes) : takeN k b ++ dropN k b = b.
Proof. apply firstn_skipn. Qed.

Lemma len_app (a b : bytes) : len (a ++ b) = len a + len b.
Proof. unfold len. rewrite app_length. lia. Qed.

Lemma takeN_nil k : takeN k [] = [].
Proof. apply firstn_nil. Qed.
Lemma dropN_nil k : dropN k [] = [].
Proof. apply skipn_nil. Qed.

Lemma takeN_ge k (b : bytes) : len b <= k -> takeN k b = b.
Proof. intro H. apply firstn_all2. unfold len in H. lia. Qed.
Lemma dropN_ge k (b : bytes) : len b <= k -> dropN k b = [].
Proof. intro H. apply skipn_all2. unfold len in H. lia. Qed.

Lemma dropN_add j k (b : bytes) : dropN (j + k) b = dropN k (dropN j b).
Proof.
  unfold dropN. rewrite N2Nat.inj_add. generalize (N.to_nat j) as i. intro i. revert b.
  induction i as [|i IH]; intros [|x b]; cbn [Nat.add skipn]; rewrite ?skipn_nil; [reflexivity ..|]. apply IH.
Qed.

Lemma takeN_add j k (b : bytes) : takeN (j + k) b = takeN j b ++ takeN k (dropN j b).
Proof.
  unfold takeN, dropN. rewrite N2Nat.inj_add. generalize (N.to_nat j) as i. intro i. revert b.
  induction i as [|i IH]; intros [|x b]; cbn [Nat.add firstn skipn app]; rewrite ?firstn_nil; [reflexivity ..|].
  rewrite IH. reflexivity.
Qed.

Section Send.
Variable hstate : Type.
Notation sconn := (sconn hstate).
Implicit Types c : sconn.

Definition sd_avail c (n : sendst) : Z := zmin (sn_window n) (sc_clientWindow c).
Definition sd_step c (n : sendst) : Z :=
  zmin (zmin (Z.of_N maxDataFrameSize) (sd_avail c n)) (Z.of_N (len (sn_pending n))).
Definition sd_chunk c (n : sendst) : bytes := takeN (Z.to_N (sd_step c n)) (sn_pending n).
Definition sd_rest c (n : sendst) : bytes := dropN (Z.to_N (sd_step c n)) (sn_pending n).
Definition sd_es c (n : sendst) : bool := sn_pendingEnd n && match sd_rest c n with [] => true | _ => false end.
Definition sd_c2 c (sid : N) (n : sendst) : sconn :=
  upd_clientWindow (emit c (OData sid (sd_es c n) (sd_chunk c n))) (sc_clientWindow c - sd_step c n).
Definition sd_n' c (n : sendst) : sendst :=
  mkSnd (sn_window n - sd_step c n) (sd_rest c n) (sn_pendingEnd n) (sn_bodyStream n) (sn_bodySize n) (sn_bodyRead n).

Definition sd_go (fuel : nat) c (sid : N) (n : sendst) : sconn * sendst * bool * bool :=
  if (sd_avail c n <=? 0)%Z then (c, n, false, false)
  else if sd_es c n then (sd_c2 c sid n, sd_n' c n, true, false)
  else send_data_loop fuel (sd_c2 c sid n) sid (sd_n' c n).

Definition sd_closed (n : sendst) : sendst :=
  mkSnd (sn_window n) (sn_pending n) (sn_pendingEnd n) None (sn_bodySize n) (sn_bodyRead n).

Lemma send_data_loop_S fuel c sid n :
  send_data_loop (S fuel) c sid n =
  match sn_pending n with
  | [] =>
    match sn_bodyStream n with
    | None => (c, n, true, false)
    | Some _ =>
      match refill_pending n with
      | None => (write_reset c sid c_InternalError, sd_closed n, true, true)
      | Some n1 =>
        match sn_pending n1 with
        | [] => (if sn_pendingEnd n1 then emit c (OData sid true []) else c, n1, true, false)
        | _ => sd_go fuel c sid n1
        end
      end
    end
  | _ => sd_go fuel c sid n
  end.
Proof.
  assert (E : forall o, sc_clientWindow (emit c o) = sc_clientWindow c) by (intro; sc_unf).
  cbn [send_data_loop]. unfold sd_go, sd_c2, sd_n', sd_es, sd_rest, sd_chunk, sd_step, sd_avail, sd_closed.
  destruct (sn_pending n); [|rewrite ?E; reflexivity].
  destruct (sn_bodyStream n); [|reflexivity]. destruct (refill_pending n) as [n1|]; [|reflexivity].
  destruct (sn_pending n1); [reflexivity|]. rewrite ?E. reflexivity.
Qed.

(* the state the sending iteration starts from: n itself, or n after a scripted read *)
Inductive sd_src (n : sendst) : sendst -> Prop :=
| src_same : sn_pending n <> [] -> sd_src n n
| src_refill n1 : sn_pending n = [] -> sn_bodyStream n <> None -> refill_pending n = Some n1 -> sn_pending n1 <> [] ->
    sd_src n n1.

Lemma refill_window n n1 : refill_pending n = Some n1 -> sn_window n1 = sn_window n.
Proof.
  unfold refill_pending. destruct (sn_bodyStream n) as [reads|]; [|intro H; inversion H; reflexivity].
  destruct reads as [|[ch e] t].
  - intro H; inversion H; reflexivity.
  - destruct e; [destruct ch| |]; intro H; inversion H; reflexivity.
Qed.

Lemma sd_src_window n n1 : sd_src n n1 -> sn_window n1 = sn_window n.
Proof. destruct 1; [reflexivity | eauto using refill_window]. Qed.

Lemma sd_src_pending n n1 : sd_src n n1 -> sn_pending n1 <> [].
Proof. destruct 1; assumption. Qed.

(* SDL sid c n r k: r is a possible result of sendData from (c, n); k = the fuel ran out (never with send_data's own
   fuel: send_data_SDL in Proofs/SrvFlowFuel.v) *)
Inductive SDL (sid : N) : sconn -> sendst -> sconn * sendst * bool * bool -> bool -> Prop :=
| SDL_fuel c n : SDL sid c n (c, n, false, false) true
| SDL_none c n : sn_pending n = [] -> sn_bodyStream n = None -> SDL sid c n (c, n, true, false) false
| SDL_fail c n : sn_pending n = [] -> sn_bodyStream n <> None -> refill_pending n = None ->
    SDL sid c n (write_reset c sid c_InternalError, sd_closed n, true, true) false
| SDL_eof c n n1 : sn_pending n = [] -> sn_bodyStream n <> None -> refill_pending n = Some n1 -> sn_pending n1 = [] ->
    SDL sid c n (if sn_pendingEnd n1 then emit c (OData sid true []) else c, n1, true, false) false
| SDL_blocked c n n1 : sd_src n n1 -> (sd_avail c n1 <= 0)%Z -> SDL sid c n (c, n1, false, false) false
| SDL_last c n n1 : sd_src n n1 -> (0 < sd_avail c n1)%Z -> sd_es c n1 = true ->
    SDL sid c n (sd_c2 c sid n1, sd_n' c n1, true, false) false
| SDL_more c n n1 r k : sd_src n n1 -> (0 < sd_avail c n1)%Z -> sd_es c n1 = false ->
    SDL sid (sd_c2 c sid n1) (sd_n' c n1) r k -> SDL sid c n r k.

Lemma sd_go_SDL sid fuel c n n1 :
  (forall c n, exists k, SDL sid c n (send_data_loop fuel c sid n) k) ->
  sd_src n n1 -> exists k, SDL sid c n (sd_go fuel c sid n1) k.
Proof.
  intros IH Hs. unfold sd_go. destruct (sd_avail c n1 <=? 0)%Z eqn:A.
  - exists false. apply SDL_blocked; [assumption | lia].
  - destruct (sd_es c n1) eqn:E.
    + exists false. apply SDL_last; [assumption | lia | assumption].
    + destruct (IH (sd_c2 c sid n1) (sd_n' c n1)) as [k H]. exists k. eapply SDL_more; eauto. lia.
Qed.

Lemma send_data_loop_SDL sid fuel : forall c n, exists k, SDL sid c n (send_data_loop fuel c sid n) k.
Proof.
  induction fuel as [|fuel IH]; intros c n.
  - exists true. constructor.
  - rewrite send_data_loop_S. destruct (sn_pending n) eqn:P.
    + destruct (sn_bodyStream n) eqn:B; [|exists false; constructor; assumption].
      destruct (refill_pending n) as [n1|] eqn:R.
      * destruct (sn_pending n1) eqn:P1.
        -- exists false. apply SDL_eof; try assumption. congruence.
        -- apply sd_go_SDL; [assumption|]. apply src_refill; try assumption; congruence.
      * exists false. apply SDL_fail; try assumption. congruence.
    + apply sd_go_SDL; [assumption|]. apply src_same. congruence.
Qed.

Lemma sd_step_bounds c n : sn_pending n <> [] -> (0 < sd_avail c n)%Z ->
  (0 < sd_step c n)%Z /\ (sd_step c n <= 16384)%Z /\ (sd_step c n <= sn_window n)%Z /\
  (sd_step c n <= sc_clientWindow c)%Z /\ (sd_step c n <= Z.of_N (len (sn_pending n)))%Z.
Proof.
  intros P A. unfold sd_step, sd_avail in *. rewrite !zmin_min in *. unfold maxDataFrameSize.
  assert (len (sn_pending n) <> 0) by (rewrite len_nil_iff; assumption). lia.
Qed.

Lemma sd_chunk_len c n : sn_pending n <> [] -> (0 < sd_avail c n)%Z -> Z.of_N (len (sd_chunk c n)) = sd_step c n.
Proof.
  intros P A. destruct (sd_step_bounds c n P A) as (B1 & _ & _ & _ & B5).
  unfold sd_chunk. rewrite len_takeN. lia.
Qed.

Lemma sd_chunk_rest c n : sd_chunk c n ++ sd_rest c n = sn_pending n.
Proof. apply takeN_dropN. Qed.

(* what sendData changes in the connection: the trace and the client window *)
Lemma SDL_nf sid c n r k : SDL sid c n r k ->
  fst (fst (fst r)) = upd_clientWindow (upd_out c (sc_out (fst (fst (fst r))))) (sc_clientWindow (fst (fst (fst r)))).
Proof.
  assert (E : forall (c : sconn), c = upd_clientWindow (upd_out c (sc_out c)) (sc_clientWindow c)) by (intros []; reflexivity).
  assert (F : forall (c : sconn) o, emit c o = upd_clientWindow (upd_out c (sc_out (emit c o))) (sc_clientWindow (emit c o))).
  { intros c0 o. unfold emit. destruct (sc_wl_dead c0); [apply E|]. destruct (sc_sl_done c0); destruct c0; reflexivity. }
  induction 1; cbn [fst].
  - apply E.
  - apply E.
  - unfold write_reset. apply F.
  - destruct (sn_pendingEnd n1); [apply F | apply E].
  - apply E.
  - unfold sd_c2. rewrite (F c) at 1. destruct c; reflexivity.
  - rewrite IHSDL at 1. unfold sd_c2. rewrite (F c) at 1. destruct c; reflexivity.
Qed.

(* what it adds to the trace while the stream loop runs: DATA frames, or one RST_STREAM when the body stream fails *)
Lemma SDL_out (P : outev -> Prop) sid c n r k : SDL sid c n r k -> sc_sl_done c = false ->
  (forall e b, P (OData sid e b)) -> (forall code, P (ORst sid code)) ->
  exists l, sc_out (fst (fst (fst r))) = l ++ sc_out c /\ Forall P l.
Proof.
  intros H Hd PD PR.
  assert (E : forall (c : sconn) o, sc_sl_done c = false -> P o -> exists l, sc_out (emit c o) = l ++ sc_out c /\ Forall P l).
  { intros c0 o H0 Po. destruct (sc_out_emit_live _ c0 o H0) as [-> | ->]; [exists [] | exists [o]]; repeat constructor; exact Po. }
  assert (E2 : forall (c : sconn) n, sc_sl_done c = false ->
            exists l, sc_out (sd_c2 c sid n) = l ++ sc_out c /\ Forall P l) by (intros; apply E; auto).
  induction H; cbn [fst].
  - exists []. repeat constructor.
  - exists []. repeat constructor.
  - apply E; auto.
  - destruct (sn_pendingEnd n1); [apply E; auto | exists []; repeat constructor].
  - exists []. repeat constructor.
  - apply E2, Hd.
  - destruct (E2 c n1 Hd) as (l1 & E1 & F1).
    destruct IHSDL as (l2 & El & F2); [unfold sd_c2; sc_cbn; rewrite sc_sl_done_emit; exact Hd|].
    exists (l2 ++ l1). split; [rewrite El, E1, app_assoc; reflexivity | apply Forall_app; split; assumption].
Qed.

(* the same two facts about send_data itself *)
Lemma send_data_conn c s :
  fst (fst (send_data c s)) =
  upd_clientWindow (upd_out c (sc_out (fst (fst (send_data c s))))) (sc_clientWindow (fst (fst (send_data c s)))).
Proof.
  unfold send_data. destruct (send_data_loop_SDL (st_id s) (send_data_fuel (get_snd s)) c (get_snd s)) as [k H].
  apply SDL_nf in H. destruct (send_data_loop _ c (st_id s) (get_snd s)) as [[[c1 n1] dn] wr]. exact H.
Qed.

Lemma send_data_out (P : outev -> Prop) c s : sc_sl_done c = false ->
  (forall e b, P (OData (st_id s) e b)) -> (forall code, P (ORst (st_id s) code)) ->
  exists l, sc_out (fst (fst (send_data c s))) = l ++ sc_out c /\ Forall P l.
Proof.
  intros Hd PD PR. unfold send_data.
  destruct (send_data_loop_SDL (st_id s) (send_data_fuel (get_snd s)) c (get_snd s)) as [k H].
  apply (SDL_out P) in H; try assumption. destruct (send_data_loop _ c (st_id s) (get_snd s)) as [[[c1 n1] dn] wr]. exact H.
Qed.

(* first half: the connection and the stream that are written back (s1 = handle_state fr s) *)
Inductive AFmid c (s1 : stream) : sconn -> stream -> Prop :=
| AF_reset : let s2 := set_flags s1 true (st_handlerRunning s1) (st_abandoned s1) in
    sstate_eqb (st_state s1) SHalfClosed && st_headersFinished s1 && negb (st_responded s1) = true ->
    st_hasCL s2 && negb (st_recvBody s2 =? st_contentLength s2)%Z = true ->
    AFmid c s1 (write_reset c (st_id s2) c_ProtocolError) (set_state (set_weReset s2) SClosed)
| AF_dispatch : let s2 := set_flags s1 true (st_handlerRunning s1) (st_abandoned s1) in
    sstate_eqb (st_state s1) SHalfClosed && st_headersFinished s1 && negb (st_responded s1) = true ->
    st_hasCL s2 && negb (st_recvBody s2 =? st_contentLength s2)%Z = false ->
    AFmid c s1 (note c (ODispatch (st_id s2) (st_req s2))) (set_flags s2 true true (st_abandoned s2))
| AF_send c1 s2 fin :
    sstate_eqb (st_state s1) SHalfClosed && st_headersFinished s1 && negb (st_responded s1) = false ->
    st_responded s1 && negb (st_handlerRunning s1) && has_more_to_send s1 = true ->
    send_data c s1 = (c1, s2, fin) -> AFmid c s1 c1 (if fin then set_state s2 SClosed else s2)
| AF_none :
    sstate_eqb (st_state s1) SHalfClosed && st_headersFinished s1 && negb (st_responded s1) = false ->
    st_responded s1 && negb (st_handlerRunning s1) && has_more_to_send s1 = false -> AFmid c s1 c s1.

(* second half: write-back, close when the stream is closed, then break or not *)
Definition put_close c (s : stream) : sconn :=
  if sstate_eqb (st_state s) SClosed then close_stream (put c s) s else put c s.

Lemma brk_cont_cases (b : bool) c : fst (if b then brk c else cont c) = c \/ fst (if b then brk c else cont c) = fst (brk c).
Proof. destruct b; [right | left]; reflexivity. Qed.

Ltac tail_cases := match goal with |- fst (if ?b then brk ?x else cont ?x) = _ \/ _ => exact (brk_cont_cases b x) end.

Lemma after_frame_cases cfg c s fr wc : exists c2 s2, AFmid c (handle_state fr s) c2 s2 /\
  (fst (after_frame cfg c s fr wc) = put_close c2 s2 \/ fst (after_frame cfg c s fr wc) = fst (brk (put_close c2 s2))).
Proof.
  unfold after_frame. cbv zeta. set (s1 := handle_state fr s).
  destruct (sstate_eqb (st_state s1) SHalfClosed && st_headersFinished s1 && negb (st_responded s1)) eqn:C1.
  - match goal with |- context [if ?b then (write_reset _ _ _, _) else _] => destruct b eqn:C2 end; cbv beta iota.
    + eexists _, _. split; [apply AF_reset; assumption | tail_cases].
    + eexists _, _. split; [apply AF_dispatch; assumption | tail_cases].
  - destruct (st_responded s1 && negb (st_handlerRunning s1) && has_more_to_send s1) eqn:C2.
    + destruct (send_data c s1) as [[c1 s2] fin] eqn:SD. cbv beta iota.
      eexists _, _. split; [eapply AF_send; eassumption | tail_cases].
    + cbv beta iota. eexists _, _. split; [apply AF_none; assumption | tail_cases].
Qed.

End Send.

Arguments sd_avail {hstate}. Arguments sd_step {hstate}. Arguments sd_chunk {hstate}. Arguments sd_rest {hstate}.
Arguments sd_es {hstate}. Arguments sd_c2 {hstate}. Arguments sd_n' {hstate}. Arguments sd_go {hstate}.
Arguments SDL {hstate}. Arguments AFmid {hstate}. Arguments put_close {hstate}.
