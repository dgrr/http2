(* Proofs/CliMsgDec.v - C02 (c), the key lemma, with NO hypothesis on the server: while the read loop runs, its HPACK
   decoder state is the reference decoder folded over ALL the header-block fragments it has taken in, in arrival order,
   whether or not a request was (still) waiting on their stream; and the carry of a field cut by a frame boundary is where
   the next CONTINUATION looks for it. The client analogue of C09 (a). *)
From H2V Require Import Base.Bytes Base.MachineInt Gen.GenConsts Impl.ServerConn Impl.ClientConn
  Spec.Http2Messages Spec.Http2Responses Proofs.CliBase Proofs.SrvIsoRef Proofs.CliMsgRef Proofs.CliMsgAuto Proofs.CliMsgMoves
  Proofs.CliMsgDisp Proofs.CliMsgStep Proofs.CliMsgInv Proofs.CliMsgFeed Proofs.CliMsgRun Proofs.CliMsgIds.
From Coq Require Import ZArith Lia ZifyN ZifyNat ZifyBool List.
Import ListNotations.
Local Open Scope N_scope.

Section Dec.
Context {hstate : Type}.
Variable dec_field : hstate -> N -> bytes -> dec_res hstate.
Variable enc_field : hstate -> bytes -> bytes -> bool -> bytes * hstate.
Variable enc_set_max : hstate -> N -> hstate.
Variable cfg : cl_config.
Implicit Types c : cconn hstate.
Implicit Types g : @gst hstate.

Notation step := (cl_step dec_field enc_field enc_set_max cfg).
Notation mvs := (mvs dec_field enc_field enc_set_max).
Notation mv1 := (mv1 enc_field enc_set_max).
Notation feedmove := (feedmove dec_field).
Notation gstep := (gstep dec_field).

Definition DInv g c : Prop := (cl_rl_live c = true -> dec_clause g c) /\ herr_ok c.

Lemma DInv_regs g c c' : regs c' = regs c -> (cl_rl_live c' = true -> cl_rl_live c = true) -> DInv g c -> DInv g c'.
Proof.
  intros R L [A B]. split.
  - intro L'. exact (dec_clause_regs g c c' R (A (L L'))).
  - intros e H. apply B. unfold regs in R. inversion R. congruence.
Qed.

Lemma regs_reg c tag x :
  regs (open_pending (fst (reg_state enc_field c tag x)) (cc_nextID c) tag (ct_req x)) = regs c /\
  cl_rl_live (open_pending (fst (reg_state enc_field c tag x)) (cc_nextID c) tag (ct_req x)) = cl_rl_live c.
Proof.
  destruct (reg_open_eq enc_field c tag x) as (e' & p & ->). split; reflexivity.
Qed.

Lemma DInv_mv1 g c c' : DInv g c -> mv1 c c' -> DInv g c'.
Proof.
  intros D M. destruct M as [c c' Q|c tag rq armed G|c tag x G S0 NI|c|c tag x G S0 NI LE L|c tag x c' G S0 NI LE Q L F|c tag x e G E].
  - exact (DInv_regs g c c' (regs_qm _ _ _ Q) (qm_rl _ _ _ Q) D).
  - apply (DInv_regs g c); [reflexivity | auto | exact D].
  - apply (DInv_regs g c); [reflexivity | auto | exact D].
  - apply (DInv_regs g c); [reflexivity | auto | exact D].
  - destruct (regs_reg c tag x) as [R1 R2]. unfold reg_state in *.
    destruct (cl_request_block enc_field (cc_enc (ccu_nextID c (u32 (cc_nextID c + 2)))) (ct_req x)) as [blk e']. cbn [fst] in *.
    apply (DInv_regs g c); [exact R1 | intro H; rewrite <- R2; exact H | exact D].
  - destruct (regs_reg c tag x) as [R1 R2].
    apply (DInv_regs g _ c' (regs_qm _ _ _ Q) (qm_rl _ _ _ Q)). apply (DInv_regs g c); [exact R1 | intro H; rewrite <- R2; exact H | exact D].
  - apply (DInv_regs g c); [reflexivity | auto | exact D].
Qed.

(* readHeaderFragment keeps the decoder in step with the reference, or fails the connection *)
Lemma rhf_dec g cb id es0 fs0 frag eh res :
  (forall e, cc_hdrErr cb = Some e -> e = CEMalformed) -> g_d g = cc_dec cb -> id <> 0 -> cc_hdrEndStream cb = es0 ->
  match cl_read_header_fragment dec_field cb id frag eh res with
  | (c1, res', ended, err) => fatal err \/ dec_clause (gfrag dec_field g id es0 fs0 (cc_hdrFields cb) (cc_hdrPrev cb ++ frag) eh) c1
  end.
Proof.
  intros HB GD S0 ES. pose proof (rhf_result dec_field cb id frag eh res HB) as RR. unfold gfrag. rewrite GD.
  destruct (ref_loop dec_field _ eh (cc_dec cb) (cc_hdrFields cb) (cc_hdrPrev cb ++ frag)) as [fs d' n' carry| | |];
    [|destruct RR as (c1 & res' & e & RS & FT & _); rewrite RS; left; exact FT ..].
  destruct (hf_fold (cc_hdrRegularSeen cb, cc_hdrStatus cb, cc_hdrErr cb, res) fs) as [[[rs' st'] he'] res'] eqn:HF.
  specialize (RR rs' st' he' res' eq_refl). cbv zeta in RR. rewrite RR. destruct eh; cbn [negb].
  - destruct he'; right; split; reflexivity.
  - destruct (cl_maxHeaderPrev <? len carry); [left; exact Logic.I|]. right. split; [reflexivity|]. cbn. repeat split; assumption.
Qed.

Lemma read_stream_dec g c fr res :
  dec_clause g c -> herr_ok c -> frame_in_seq c fr = true -> sf_sid fr <> 0 ->
  match cl_read_stream dec_field c fr res with
  | (c1, res', ended, err) => fatal err \/ dec_clause (gstep g fr) c1
  end.
Proof.
  intros [GD GO] HE FS S0. unfold frame_in_seq in FS. unfold CliMsgInv.gstep.
  destruct (sf_kind fr) eqn:K; cbn [fkind_eqb negb andb] in FS;
    try (unfold cl_read_stream; rewrite K; right; split; assumption).
  - (* DATA *)
    destruct (read_stream_data dec_field c fr res K) as (dw & RS & QW & _). rewrite RS. cbv beta iota. right.
    apply (dec_clause_regs _ c dw (regs_qm _ _ _ QW)). split; [exact GD | exact GO].
  - (* HEADERS: the registers are reset first *)
    unfold cl_read_stream. rewrite K.
    set (cb := ccu_hdrEndStream (ccu_hdrErr (ccu_hdrStatus (ccu_hdrRegularSeen (ccu_hdrFields (ccu_hdrPrev c []) 0) false) 0%Z) None) (flag_has (sf_flags fr) FL_ES)).
    exact (rhf_dec g cb (sf_sid fr) _ [] _ _ res ltac:(discriminate) GD S0 eq_refl).
  - (* CONTINUATION *)
    assert (HS : sf_sid fr = cc_hdrStream c) by (destruct (cc_hdrStream c =? 0); [discriminate | lia]).
    destruct (g_open g) as [[[s es] fs0]|] eqn:GOE; [|destruct (cc_hdrStream c =? 0) eqn:Z; [discriminate | lia]].
    destruct GO as (A & B & C & D & E). unfold cl_read_stream. rewrite K, D, E. replace s with (sf_sid fr) by congruence.
    exact (rhf_dec g c (sf_sid fr) es fs0 _ _ res HE GD S0 C).
Qed.


Lemma DInv_feed g c fr c3 : DInv g c -> feedmove fr c c3 -> DInv (gstep g fr) c3.
Proof.
  intros [DC HE] F. split; [|destruct (feedmove_fm dec_field c fr c3 HE F) as (tg & _ & HE3 & _); exact HE3].
  pose proof F as (L & S0 & FS & _). specialize (DC L).
  destruct (feedmove_cases dec_field c fr c3 HE F) as (ok & c1 & res' & ended & err & ok2 & err2 & RSE & _ & -> & _ & _ & ER & HC & HS & CS).
  pose proof (read_stream_dec g c fr (match ok with Some x => Some (ct_resp x) | None => None end) DC HE FS S0) as RD. rewrite RSE in RD.
  assert (FT : fatal err -> fatal err2) by (intro H; destruct ER as [->|[-> _]]; [exact H | destruct H]).
  intro L3. destruct ok as [x|], ok2 as [x2|]; try contradiction.
  - destruct CS as (_ & _ & _ & x1 & _ & _ & G2).
    destruct (tail_some dec_field (cl_ctx_put c1 x2) (sf_sid fr) x2 ended err2 G2 HC HS) as (_ & RG & CASES).
    destruct RD as [FE|DC1].
    + exfalso. destruct CASES as [(E & _)|(_ & x3 & _ & _ & _ & _ & DEAD & _)].
      * specialize (FT FE). rewrite E in FT. destruct FT.
      * rewrite (DEAD (FT FE)) in L3. discriminate.
    + apply (dec_clause_regs _ c1); [rewrite RG; apply regs_put | exact DC1].
  - destruct (tail_none c1 (sf_sid fr) ended err2 HC) as [QT DEAD].
    destruct RD as [FE|DC1].
    + exfalso. rewrite (DEAD (FT FE)) in L3. discriminate.
    + apply (dec_clause_regs _ c1); [exact (regs_qm _ _ _ QT) | exact DC1].
Qed.

Lemma DInv_mvs g c c' tk : mvs tk c c' -> DInv g c -> DInv (gopt dec_field g tk) c'.
Proof.
  intro M. revert g. induction M as [c|tk c c1 c2 M1 M IH|fr c c1 c2 F M IH]; intros g D.
  - exact D.
  - apply IH. exact (DInv_mv1 g c c1 D M1).
  - exact (IH _ (DInv_feed g c fr c1 D F)).
Qed.

Lemma DInv_init h0 first : DInv (ginit h0) (cl_init enc_set_max h0 first).
Proof.
  unfold cl_init. destruct (cl_settings_deserialize false first); (split; [intros _; split; reflexivity | unfold herr_ok; cbn; discriminate]).
Qed.

Variable h0 : hstate.
Variable first : bytes.
Notation run := (cl_run dec_field enc_field enc_set_max cfg h0 first).
Notation ghost := (cl_ghost dec_field enc_field enc_set_max cfg h0 first).

Lemma PreD_run_from evs : forall g c, Pre c -> IdInv c -> DInv g c ->
  DInv (fold_left gstep (takens_from dec_field enc_field enc_set_max cfg c evs) g) (fold_left step evs c).
Proof.
  induction evs as [|e t IH]; intros g c P I D; [exact D|].
  cbn [takens_from fold_left]. rewrite fold_gopt.
  pose proof (step_mvs dec_field enc_field enc_set_max cfg c e P) as M.
  assert (PI : Pre (step c e) /\ IdInv (step c e)) by (eapply (PreId_mvs dec_field enc_field enc_set_max); [exact M | exact P | exact I]).
  destruct PI as [P1 I1]. apply IH; [exact P1 | exact I1 | exact (DInv_mvs g c _ _ M D)].
Qed.

(* the read loop's HPACK decoder is the reference decoder over ALL fragments - for EVERY event list *)
Theorem decoder_is_reference evs :
  cl_rl_live (run evs) = true ->
  cc_dec (run evs) = g_d (ghost evs) /\
  match g_open (ghost evs) with
  | None => cc_hdrStream (run evs) = 0
  | Some (s, es, fs) => cc_hdrStream (run evs) = s /\ cc_hdrFields (run evs) = g_n (ghost evs) /\ cc_hdrPrev (run evs) = g_carry (ghost evs)
  end.
Proof.
  intro L.
  assert (D : DInv (ghost evs) (run evs)).
  { unfold cl_ghost, cl_takens, cl_run. apply PreD_run_from; [eapply (Pre_init dec_field enc_field) | eapply (Pre_init dec_field enc_field) | apply DInv_init]. }
  destruct D as [D _]. destruct (D L) as [A B]. split; [symmetry; exact A|].
  destruct (g_open (ghost evs)) as [[[s es] fs]|]; [|exact B]. destruct B as (B1 & _ & _ & B4 & B5). repeat split; congruence.
Qed.

End Dec.
