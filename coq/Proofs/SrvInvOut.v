(* Proofs/SrvInvOut.v - what each move adds to the output, and the invariants about the trace that follow:
   dispatched ids <= sc_lastID, every GOAWAY carries sc_lastID and sets sc_closing (after which sc_lastID is
   frozen), panics come from the HPACK decoder only, dispatched requests satisfy the per-stream predicate. *)
From H2V Require Import Base.Bytes Base.MachineInt Base.Result Gen.GenConsts Impl.ServerConn Proofs.SrvBase
  Proofs.SrvInvMoves Proofs.SrvInvDecomp Proofs.SrvInvSteps Proofs.SrvInvSlots.
From Coq Require Import ZArith Lia ZifyN ZifyNat ZifyBool Permutation.
Local Open Scope N_scope.
Set Default Proof Using "Type".

Section Out.
Variable hstate : Type.
Variable dec_field : hstate -> N -> bytes -> dec_res hstate.
Variable enc_field : hstate -> bytes -> bytes -> bool -> bytes * hstate.
Variable enc_set_max : hstate -> N -> hstate.
Variable cfg : config.
Variable Q : stream -> Prop.
Notation sconn := (sconn hstate).
Notation mv := (mv hstate dec_field cfg Q).
Notation gmv := (gmv hstate dec_field cfg Q).
Notation gmvs := (gmvs hstate dec_field cfg Q).
Notation SI := (SI cfg Q).
Implicit Types c : sconn.

Definition has_panic : Prop := exists d n b, dec_field d n b = DPanic hstate.

(* the codes a GOAWAY may carry, by origin *)
Definition gcode (pc : option N) (code : N) : Prop := In code sl_codes \/ pc = Some code.

(* one new output item of a move from a to b *)
Definition new_ok (G : N -> Prop) (a b : sconn) (x : outev) : Prop :=
  is_frame x \/ (exists o, x = OLate o /\ is_frame o) \/
  (exists code, (x = OGoAway (sc_lastID a) code \/ x = OLate (OGoAway (sc_lastID a) code)) /\ sc_closing b = true /\
                sc_lastID b = sc_lastID a /\ G code) \/
  (exists s, x = ODispatch (st_id s) (st_req s) /\ In (st_id s) (map st_id (sc_strms a)) /\ sc_sl_done a = false /\
             dispatchable s /\ (Forall Q (sc_strms a) -> Q s)) \/
  (exists sid w, x = ORelease sid w /\ sc_sl_done a = false) \/ (exists who why, x = OExit who why) \/
  (exists who why, x = OPanic who why /\ has_panic).

Definition delta_ok (G : N -> Prop) (a b : sconn) : Prop :=
  (exists l, sc_out b = l ++ sc_out a /\ Forall (new_ok G a b) l) /\
  sc_lastID a <= sc_lastID b /\
  (sc_closing a = true -> sc_closing b = true /\ sc_lastID b = sc_lastID a).

Lemma delta_same G a b : sc_out b = sc_out a -> sc_lastID b = sc_lastID a -> sc_closing b = sc_closing a -> delta_ok G a b.
Proof.
  intros E1 E2 E3. split; [exists []; split; [assumption | constructor]|]. rewrite E2, E3. split; [apply N.le_refl | auto].
Qed.

Lemma delta_one G a b x : sc_out b = x :: sc_out a -> new_ok G a b x ->
  sc_lastID b = sc_lastID a -> sc_closing b = sc_closing a -> delta_ok G a b.
Proof.
  intros E1 N1 E2 E3. split; [exists [x]; split; [assumption | constructor; [assumption | constructor]]|].
  rewrite E2, E3. split; [apply N.le_refl | auto].
Qed.

Lemma delta_goaway (G : N -> Prop) c sid code : G code -> delta_ok G c (write_goaway c sid code).
Proof.
  intro Hg. split; [|rewrite sc_lastID_write_goaway, sc_closing_write_goaway; split; [apply N.le_refl | auto]].
  rewrite sc_out_write_goaway.
  assert (NG : forall x, x = OGoAway (sc_lastID c) code \/ x = OLate (OGoAway (sc_lastID c) code) ->
               new_ok G c (write_goaway c sid code) x).
  { intros x Hx. right. right. left. exists code. rewrite sc_closing_write_goaway, sc_lastID_write_goaway. auto. }
  destruct (sc_wl_dead c); [exists []; split; [reflexivity | constructor]|].
  destruct (sc_sl_done c); eexists [_]; (split; [reflexivity | constructor; [apply NG; auto | constructor]]).
Qed.

Lemma mv_delta o a b : mv o a b -> SI a -> delta_ok (fun code => In code sl_codes) a b.
Proof.
  intros M HS. destruct M.
  - (* lite *)
    destruct H0 as (SC & (l & E & F) & _). unfold same_core in SC. destruct SC as (_ & _ & _ & _ & S5 & _ & S7 & _).
    split; [|split; [rewrite S5; apply N.le_refl | intros; split; congruence]].
    exists l. split; [assumption|]. eapply Forall_impl; [|exact F]. intros x Hx. left. assumption.
  - apply delta_goaway. assumption.
  - apply delta_same; [apply sc_out_mark_closed | apply sc_lastID_mark_closed | apply sc_closing_mark_closed].
  - apply delta_same; reflexivity.
  - apply delta_same; reflexivity.
  - (* dispatch *)
    eapply delta_one; [reflexivity | | reflexivity | reflexivity].
    right. right. right. left. exists x. split; [reflexivity|]. split; [|split; [assumption|split; [assumption|]]].
    + apply strms_search_In in H0. destruct H0 as [I E]. rewrite <- E. apply in_map. assumption.
    + intro F. apply H5. rewrite Forall_forall in F. apply F. apply strms_search_In in H0. tauto.
  - (* create *)
    split; [exists []; split; [reflexivity | constructor]|]. sc_cbn. split; [|congruence].
    exact (N.le_trans _ _ _ (si_hi _ _ _ _ HS) (N.lt_le_incl _ _ H2)).
  - (* close *)
    pose proof (sc_out_close_stream _ c x) as E. destruct (st_handlerRunning x).
    + apply delta_same; [assumption | apply sc_lastID_close_stream | apply sc_closing_close_stream].
    + eapply delta_one; [exact E | | apply sc_lastID_close_stream | apply sc_closing_close_stream].
      right. right. right. right. left. eauto.
  - eapply delta_one; [exact (sc_out_release_stream _ (upd_gone c rest) _) | | apply (sc_lastID_release_stream _ (upd_gone c rest)) | apply (sc_closing_release_stream _ (upd_gone c rest))].
    right. right. right. right. left. eauto.
  - (* returned: the frames of the response *)
    destruct H0 as (SC & (l & E & F) & _). unfold same_core in SC. destruct SC as (_ & _ & _ & _ & S5 & _ & S7 & _).
    split; [|unfold put; sc_cbn; split; [rewrite S5; apply N.le_refl | intros; split; congruence]].
    exists l. rewrite sc_out_put. split; [assumption|]. eapply Forall_impl; [|exact F]. intros y Hy. left. assumption.
  - eapply delta_one; [reflexivity | | reflexivity | reflexivity]. right. right. right. right. right. left. eauto.
  - eapply delta_one; [reflexivity | | reflexivity | reflexivity]. right. right. right. right. right. left. eauto.
  - eapply delta_one; [reflexivity | | reflexivity | reflexivity]. right. right. right. right. right. right.
    exists 1, 0. split; [reflexivity | assumption].
  - destruct H0 as [SC EO]. unfold same_core in SC. destruct SC as (_ & _ & _ & _ & S5 & _ & S7 & _). apply delta_same; assumption.
Qed.

Lemma delta_weaken (G G' : N -> Prop) a b : (forall code, G code -> G' code) -> delta_ok G a b -> delta_ok G' a b.
Proof.
  intros HG [(l & E & F) R]. split; [|exact R]. exists l. split; [assumption|].
  eapply Forall_impl; [|exact F]. intros x Hx. unfold new_ok in *.
  destruct Hx as [H|[H|[(code & H1 & H2 & H3 & H4)|H]]]; auto. right. right. left. exists code. auto.
Qed.

Lemma omv_delta pc a b : omv hstate pc a b -> delta_ok (gcode pc) a b.
Proof.
  intros M. destruct M.
  - apply delta_same; reflexivity.
  - eapply delta_one; [reflexivity | | reflexivity | reflexivity]. right. right. right. right. right. left. eauto.
  - apply delta_goaway. destruct H0 as [-> | ->]; [left; in_codes | right; reflexivity].
  - eapply delta_one; [reflexivity | | reflexivity | reflexivity]. right. right. right. right. right. left. eauto.
  - apply delta_same; reflexivity.
  - apply delta_same; reflexivity.
  - (* emit *)
    split; [|rewrite sc_lastID_emit, sc_closing_emit; split; [apply N.le_refl | auto]]. rewrite sc_out_emit.
    destruct (sc_wl_dead c); [exists []; split; [reflexivity | constructor]|].
    destruct (sc_sl_done c); eexists [_]; (split; [reflexivity | constructor; [|constructor]]).
    + right. left. eauto.
    + left. assumption.
  - (* idle *)
    assert (D : delta_ok (gcode pc) c (write_goaway c 0 c_NoError)) by (apply delta_goaway; right; assumption).
    destruct D as [(l & E & F) R]. split; [|exact R]. exists l. split; [exact E | exact F].
  - apply delta_same; reflexivity.
  - apply delta_same; reflexivity.
Qed.

Lemma gmv_delta pc a b : gmv pc a b -> SI a -> delta_ok (gcode pc) a b.
Proof.
  intros M HS. destruct M.
  - eapply delta_weaken; [|eapply mv_delta; eassumption]. intros code Hc. left. assumption.
  - apply omv_delta. assumption.
Qed.

(* reading new_ok for an item of a given shape *)
Ltac new_ok_cases F :=
  unfold new_ok in F;
  destruct F as [F|[(?o & F & ?Fo)|[(?code' & [F|F] & ?Cb & ?Lb & ?Gc)|[(?s & F & ?Is & ?Hd & ?Ds & ?Qs)|[(?y & ?w & F & ?Hd)|[(?y & ?w & F)|(?y & ?w & F & ?Hp)]]]]]];
  try discriminate F; try (cbn in F; contradiction).

Lemma new_ok_dispatch G a b sid rq : new_ok G a b (ODispatch sid rq) ->
  exists s, sid = st_id s /\ rq = st_req s /\ In (st_id s) (map st_id (sc_strms a)) /\ sc_sl_done a = false /\
            dispatchable s /\ (Forall Q (sc_strms a) -> Q s).
Proof. intro F. new_ok_cases F. inversion F; subst. exists s. auto 10. Qed.

Lemma new_ok_goaway G a b last code x : x = OGoAway last code \/ x = OLate (OGoAway last code) -> new_ok G a b x ->
  last = sc_lastID a /\ sc_closing b = true /\ sc_lastID b = sc_lastID a /\ G code.
Proof.
  intros [-> | ->] F; new_ok_cases F.
  - inversion F; subst. auto.
  - inversion F; subst. cbn in Fo. contradiction.
  - inversion F; subst. auto.
Qed.

Lemma new_ok_panic G a b who why : new_ok G a b (OPanic who why) -> has_panic.
Proof. intro F. new_ok_cases F. assumption. Qed.

Lemma new_ok_late G a b o : new_ok G a b (OLate o) -> is_frame o \/ exists last code, o = OGoAway last code.
Proof. intro F. new_ok_cases F; inversion F; subst; eauto. Qed.

Lemma new_ok_release G a b sid w : new_ok G a b (ORelease sid w) -> sc_sl_done a = false.
Proof. intro F. new_ok_cases F. assumption. Qed.

(* what is known of a dispatched request *)
Definition disp_ok (rq : request) : Prop := exists s, Q s /\ dispatchable s /\ rq = st_req s.

Record OI (c : sconn) : Prop := mkOI {
  oi_disp : forall sid rq, In (ODispatch sid rq) (sc_out c) -> sid <= sc_lastID c /\ disp_ok rq;
  oi_goaway : forall last code, In (OGoAway last code) (sc_out c) \/ In (OLate (OGoAway last code)) (sc_out c) ->
              last = sc_lastID c /\ sc_closing c = true;
  oi_panic : forall who why, In (OPanic who why) (sc_out c) -> has_panic;
  oi_late : forall o, In (OLate o) (sc_out c) -> is_frame o \/ exists last code, o = OGoAway last code
}.

Lemma OI_init h0 : OI (init_conn cfg h0).
Proof. clear enc_field enc_set_max. constructor; cbn; intros; tauto. Qed.

Lemma OI_gmv pc a b : gmv pc a b -> SI a -> OI a -> OI b.
Proof.
  intros M HS HO. destruct (gmv_delta pc a b M HS) as [(l & E & F) (LE & CL)].
  rewrite Forall_forall in F. destruct HO. constructor; rewrite E.
  - intros sid rq I. apply in_app_or in I. destruct I as [I|I].
    + destruct (new_ok_dispatch _ _ _ _ _ (F _ I)) as (s & -> & -> & Is & Hd & Ds & Qs). split.
      * apply in_map_iff in Is. destruct Is as (y & Ey & Iy). rewrite <- Ey.
        destruct (si_ids _ _ _ _ HS Hd) as [_ LEa]. exact (N.le_trans _ _ _ (LEa y (in_or_app _ _ _ (or_introl Iy))) LE).
      * exists s. split; [apply Qs, (si_Q _ _ _ _ HS Hd) | split; [assumption | reflexivity]].
    + destruct (oi_disp0 _ _ I) as [D1 D2]. split; [exact (N.le_trans _ _ _ D1 LE) | assumption].
  - intros last code I.
    assert (I' : (exists x, (x = OGoAway last code \/ x = OLate (OGoAway last code)) /\ In x l) \/
                 (In (OGoAway last code) (sc_out a) \/ In (OLate (OGoAway last code)) (sc_out a))).
    { destruct I as [I|I]; apply in_app_or in I; destruct I; eauto. }
    destruct I' as [(x & Hx & Ix)|I'].
    + destruct (new_ok_goaway _ _ _ _ _ _ Hx (F _ Ix)) as (-> & Cb & Lb & _). auto.
    + destruct (oi_goaway0 _ _ I') as [-> Ca]. destruct (CL Ca). split; congruence.
  - intros who why I. apply in_app_or in I. destruct I as [I|I]; [eapply new_ok_panic; eauto | eauto].
  - intros o I. apply in_app_or in I. destruct I as [I|I]; [eapply new_ok_late; eauto | eauto].
Qed.

Hypothesis HQc : Qclosed hstate dec_field cfg Q.

Notation step := (step dec_field enc_field enc_set_max cfg).
Notation run := (run dec_field enc_field enc_set_max cfg).

Definition SIO (c : sconn) : Prop := SI c /\ OI c.

Theorem SIO_step c e : SIO c -> SIO (step c e).
Proof using HQc.
  apply (inv_step hstate dec_field enc_field enc_set_max cfg Q HQc SIO).
  - intros c0 [H _]. eapply SI_ids_ok; eassumption.
  - intros pc a b M [H1 H2]. split; [eapply SI_gmv; eassumption | eapply OI_gmv; eassumption].
Qed.

Theorem SIO_run h0 evs : SIO (run h0 evs).
Proof using HQc.
  apply (run_ind _ dec_field enc_field enc_set_max cfg h0 SIO).
  - split; [apply SI_init | apply OI_init].
  - intros c e. apply SIO_step.
Qed.

(* C10 (i), on the state: whatever GOAWAY was sent carries a last-stream-id >= every dispatched id *)
Theorem goaway_covers_dispatch h0 evs last code sid rq :
  let c := run h0 evs in
  In (OGoAway last code) (sc_out c) \/ In (OLate (OGoAway last code)) (sc_out c) ->
  In (ODispatch sid rq) (sc_out c) -> sid <= last.
Proof using HQc.
  intros c HG HD. destruct (SIO_run h0 evs) as [_ HO]. fold c in HO.
  destruct (oi_goaway _ HO _ _ HG) as [-> _]. destruct (oi_disp _ HO _ _ HD). assumption.
Qed.

(* the effect of a whole step on the output *)
Theorem step_delta c e : SIO c -> SIO (step c e) /\
  exists l, sc_out (step c e) = l ++ sc_out c.
Proof using HQc.
  intro H. split; [apply SIO_step; assumption|].
  assert (G : gmvs (parser_code e) c (step c e)).
  { apply (gmvs_step hstate dec_field enc_field enc_set_max cfg Q HQc). destruct H as [H _]. eapply SI_ids_ok; eassumption. }
  revert H. induction G as [c0|a b c0 M G IH]; intro H; [exists []; reflexivity|].
  destruct H as [H1 H2]. destruct (gmv_delta _ _ _ M H1) as [(l & E & _) _].
  destruct IH as (l' & E'); [split; [eapply SI_gmv; eassumption | eapply OI_gmv; eassumption]|].
  exists (l' ++ l). rewrite E', E, app_assoc. reflexivity.
Qed.

End Out.
Arguments gmv_delta {hstate dec_field cfg Q pc a b}. Arguments OI_gmv {hstate dec_field cfg Q pc a b}.
