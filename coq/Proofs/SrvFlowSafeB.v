(* Proofs/SrvFlowSafeB.v - C06 safety, part 2: sendData, finishRequest, flushStreams, afterFrame against the ledger. *)
From H2V Require Import Base.Bytes Base.MachineInt Base.Result Gen.GenConsts Impl.ServerConn Proofs.SrvBase
  Spec.FlowLedger Proofs.SrvFlowLedger Proofs.SrvFlowDefs Proofs.SrvFlowSend Proofs.SrvFlowEff Proofs.SrvFlowSafe.
From Coq Require Import ZArith Lia ZifyN ZifyNat ZifyBool List.
Import ListNotations.
Local Open Scope N_scope.
Set Default Proof Using "Type".

Section Safe2.
Variable hstate : Type.
Variable dec_field : hstate -> N -> bytes -> dec_res hstate.
Variable enc_field : hstate -> bytes -> bytes -> bool -> bytes * hstate.
Variable enc_set_max : hstate -> N -> hstate.
Variable cfg : config.
Notation sconn := (sconn hstate).
Implicit Types c : sconn.
Notation Sim := (SimX hstate None).

Lemma SDL_Frame sid c n r k : SDL sid c n r k ->
  Frame c (fst (fst (fst r))) /\ sc_strms (fst (fst (fst r))) = sc_strms c /\
  sc_initWin (fst (fst (fst r))) = sc_initWin c /\ sc_lastID (fst (fst (fst r))) = sc_lastID c /\
  sc_highestID (fst (fst (fst r))) = sc_highestID c.
Proof.
  intro H. pose proof (SDL_nf _ _ _ _ _ _ H) as NF. rewrite NF.
  split; [eapply Frame_trans; [apply Frame_upd_out | apply Frame_upd_clientWindow]|]. repeat split.
Qed.

Lemma held_same_win L a b : st_id b = st_id a -> st_window b = st_window a -> held L a -> held L b.
Proof. intros E1 E2 (w & Hw & Hle). exists w. rewrite E1, E2. auto. Qed.

(* sendData on a stream of the table (or the one being worked on) *)
Lemma send_data_led ex c s L :
  SimX hstate ex c L -> (ex = None \/ ex = Some (st_id s)) -> held L s -> st_id s <= sc_lastID c ->
  let r := send_data c s in
  exists L', LedOn hstate (eq (st_id s)) c L (fst (fst r)) L' /\ SimX hstate (Some (st_id s)) (fst (fst r)) L' /\
             held L' (snd (fst r)) /\ st_id (snd (fst r)) = st_id s /\ sc_lastID (fst (fst r)) = sc_lastID c.
Proof.
  intros S Hex (w & Hw & Hle) Hid. cbv zeta. unfold send_data.
  destruct (send_data_loop_SDL _ (st_id s) (send_data_fuel (get_snd s)) c (get_snd s)) as [k H].
  pose proof (SDL_Frame _ _ _ _ _ H) as (F & E1 & E2 & E3 & E4).
  destruct (SDL_led _ _ _ _ _ _ H L w (sim_conn _ _ _ _ S) Hw Hle) as (L' & Led & C' & w' & Hw' & Hle').
  destruct (send_data_loop (send_data_fuel (get_snd s)) c (st_id s) (get_snd s)) as [[[c1 n1] done] wr].
  cbn [fst snd] in *.
  exists L'. split; [exact Led|]. split.
  - destruct S as [i_init i_conn i_strm i_nodup i_le i_hi i_fresh]. constructor.
    + rewrite E2, (LedOn_init _ _ _ _ _ _ Led). assumption.
    + assumption.
    + rewrite E1. intros s0 Hs Hne.
      assert (Hne' : st_id s0 <> st_id s) by congruence.
      destruct (i_strm s0 Hs) as (w0 & Hw0 & Hle0).
      { destruct Hex as [->| ->]; [discriminate | congruence]. }
      exists w0. rewrite (LedOn_other _ _ _ _ _ _ (st_id s0) Led) by congruence. auto.
    + rewrite E1. assumption.
    + rewrite E1, E3. assumption.
    + rewrite E3, E4. assumption.
    + rewrite E4, (LedOn_init _ _ _ _ _ _ Led). intros sid w0 Hs Hw0.
      rewrite (LedOn_other _ _ _ _ _ _ sid Led) in Hw0; [eauto|]. intro. subst. flia.
  - split; [|split; [|assumption]].
    + exists w'. destruct wr, done; cbn [st_id st_window set_weReset set_snd sn_window]; auto.
    + destruct wr; reflexivity.
Qed.

Lemma SimX_same ex c c' L : sc_strms c' = sc_strms c -> sc_initWin c' = sc_initWin c ->
  sc_clientWindow c' = sc_clientWindow c -> sc_lastID c' = sc_lastID c -> sc_highestID c' = sc_highestID c ->
  SimX hstate ex c L -> SimX hstate ex c' L.
Proof.
  intros E1 E2 E3 E4 E5 [i_init i_conn i_strm i_nodup i_le i_hi i_fresh]. constructor.
  - rewrite E2. assumption.
  - rewrite E3. assumption.
  - rewrite E1. assumption.
  - rewrite E1. assumption.
  - rewrite E1, E4. assumption.
  - rewrite E4, E5. assumption.
  - rewrite E5. assumption.
Qed.

Lemma SimX_weaken ex c L : (ex = None \/ True) -> SimX hstate None c L -> SimX hstate ex c L.
Proof. intros _. apply Sim_SimX. Qed.

Lemma SimX_some ex sid c L : (ex = None \/ ex = Some sid) -> SimX hstate ex c L -> SimX hstate (Some sid) c L.
Proof. intros [->| ->] S; [apply Sim_SimX|]; assumption. Qed.

Lemma finish_request_led ex c s r L :
  SimX hstate ex c L -> (ex = None \/ ex = Some (st_id s)) -> held L s -> st_id s <= sc_lastID c ->
  let res := finish_request enc_field c s r in
  exists L', LedOn hstate (eq (st_id s)) c L (fst (fst res)) L' /\ SimX hstate (Some (st_id s)) (fst (fst res)) L' /\
             held L' (snd (fst res)) /\ st_id (snd (fst res)) = st_id s /\ sc_lastID (fst (fst res)) = sc_lastID c.
Proof.
  intros S Hex Hh Hid. cbv zeta. unfold finish_request.
  destruct (response_block enc_field (sc_enc c) r) as [blk e'].
  set (hb := match rs_body r with BBuffered [] => false | _ => true end).
  set (c1 := emit (upd_enc c e') (OHeaders (st_id s) (negb hb) blk)).
  assert (S1 : SimX hstate ex c1 L).
  { eapply SimX_same; [..|exact S]; subst c1; rewrite ?sc_strms_emit, ?sc_initWin_emit, ?sc_clientWindow_emit,
      ?sc_lastID_emit, ?sc_highestID_emit; reflexivity. }
  assert (Led1 : LedOn hstate (eq (st_id s)) c L c1 L).
  { apply LedOn_nodata. subst c1. apply (out_ext_trans _ _ c (upd_enc c e')); [apply out_ext_same; reflexivity|].
    apply out_ext_emit; exact I. }
  assert (Lid : sc_lastID c1 = sc_lastID c) by (subst c1; rewrite sc_lastID_emit; reflexivity).
  destruct (negb hb) eqn:HB.
  - cbn [fst snd]. exists L. split; [exact Led1|]. split; [eapply SimX_some; eassumption|]. auto.
  - match goal with |- context [send_data c1 ?x] => set (s1 := x) end.
    assert (I1 : st_id s1 = st_id s) by reflexivity.
    assert (H1 : held L s1).
    { eapply held_same_win; [exact I1 | | exact Hh]. subst s1. cbn [set_snd st_window sn_window]. destruct (rs_body r); reflexivity. }
    destruct (send_data_led ex c1 s1 L S1) as (L' & Led & S' & H' & I' & Lid'); rewrite ?I1, ?Lid; try assumption.
    rewrite I1 in *. exists L'. split; [eapply LedOn_trans; eassumption|]. split; [assumption|]. split; [assumption|].
    split; [assumption|]. rewrite Lid'. assumption.
Qed.

(* what a piece of a step has to deliver: a ledger reached by valid DATA, and the invariant again *)
Definition GoodStep c (L : ledger) c' : Prop :=
  exists L', LedOn hstate (fun _ => True) c L c' L' /\ (sc_sl_done c' = true \/ Sim c' L').

Lemma flush_loop_led ids : forall c done L, Sim c L ->
  exists L', LedOn hstate (fun _ => True) c L (fst (flush_loop c ids done)) L' /\ Sim (fst (flush_loop c ids done)) L'.
Proof.
  induction ids as [|id t IH]; intros c done L S; cbn [flush_loop].
  - exists L. split; [apply LedOn_refl | assumption].
  - destruct (strms_search (sc_strms c) id) as [s|] eqn:F; [|apply IH; assumption].
    destruct (st_responded s && negb (st_handlerRunning s) && has_more_to_send s); [|apply IH; assumption].
    apply strms_search_In in F. destruct F as [Hin Hid].
    assert (Hh : held L s) by (apply (sim_strm _ _ _ _ S); [assumption | discriminate]).
    assert (Hle : st_id s <= sc_lastID c) by (apply (sim_le _ _ _ _ S); assumption).
    destruct (send_data_led None c s L S (or_introl eq_refl) Hh Hle) as (L1 & Led & S1 & H1 & I1 & Lid).
    destruct (send_data c s) as [[c1 s1] fin]. cbn [fst snd] in *.
    assert (S2 : Sim (put c1 s1) L1).
    { eapply SimX_put; [exact S1 | right; congruence | exact H1 | rewrite I1, Lid; exact Hle]. }
    destruct (IH (put c1 s1) (if fin then done ++ [id] else done) L1 S2) as (L' & Led' & S').
    exists L'. split; [|exact S'].
    eapply LedOn_trans; [eapply LedOn_weaken; [|exact Led]; auto|].
    eapply LedOn_trans; [|exact Led']. apply LedOn_quiet. apply out_ext_same. reflexivity.
Qed.

Lemma Sim_Closes c c' L : Closes c c' -> Sim c L -> Sim c' L.
Proof.
  intros [F E1 E0 E2 E3 O D] [i_init i_conn i_strm i_nodup i_le i_hi i_fresh].
  assert (ND : forall l l', Dels l l' -> NoDup (map st_id l) -> NoDup (map st_id l')).
  { induction 1; [auto|]. intro. apply IHDels. apply strms_del_NoDup. assumption. }
  constructor.
  - rewrite E0. assumption.
  - rewrite E1. assumption.
  - intros s Hs Hne. apply i_strm; [eapply Dels_In; eassumption | assumption].
  - eapply ND; eassumption.
  - rewrite E2. intros s Hs. apply i_le. eapply Dels_In; eassumption.
  - rewrite E2, E3. assumption.
  - rewrite E3. assumption.
Qed.
Lemma flush_streams_led c L : Sim c L ->
  exists L', LedOn hstate (fun _ => True) c L (flush_streams c) L' /\ Sim (flush_streams c) L'.
Proof.
  intro S. unfold flush_streams.
  destruct (flush_loop_led (map st_id (sc_strms c)) c [] L S) as (L' & Led & S').
  destruct (flush_loop c (map st_id (sc_strms c)) []) as [c1 done]. cbn [fst] in *.
  exists L'. split.
  - eapply LedOn_trans; [exact Led|]. apply LedOn_quiet. apply (close_all_Closes _ done c1).
  - eapply Sim_Closes; [apply close_all_Closes | exact S'].
Qed.

Lemma GoodStep_brk_cont c L c' (b : bool) L' :
  LedOn hstate (fun _ => True) c L c' L' -> Sim c' L' -> GoodStep c L (fst (if b then brk c' else cont c')).
Proof.
  intros Led S. destruct b; cbn [fst cont].
  - exists L'. split; [|left; reflexivity].
    eapply LedOn_trans; [exact Led|]. apply LedOn_quiet. apply (q_out _ _ _ (Quiet_brk _ c')).
  - exists L'. split; [exact Led | right; exact S].
Qed.

(* afterFrame, given the stream it works on *)
Lemma after_frame_led ex c s fr wc L :
  SimX hstate ex c L -> (ex = None \/ ex = Some (st_id s)) -> held L s -> st_id s <= sc_lastID c ->
  GoodStep c L (fst (after_frame cfg c s fr wc)).
Proof.
  intros S Hex Hh Hid. destruct (after_frame_cases _ cfg c s fr wc) as (c2 & s2 & M & E).
  destruct (handle_state_eff fr s) as ((I1 & W1 & _) & _).
  set (s1 := handle_state fr s) in *.
  assert (H1 : held L s1) by (eapply held_same_win; eassumption).
  (* the middle part: a ledger for the connection and the stream that are written back *)
  assert (M' : exists L2, LedOn hstate (fun _ => True) c L c2 L2 /\ SimX hstate (Some (st_id s)) c2 L2 /\ held L2 s2 /\
                          st_id s2 = st_id s /\ sc_lastID c2 = sc_lastID c).
  { destruct M as [s0 _ _|s0 _ _|c1 s3 fin _ _ SD|_ _].
    - exists L. split; [apply LedOn_quiet, (q_out _ _ _ (Quiet_write_reset _ c _ _))|].
      split; [eapply SimX_Quiet; [apply Quiet_write_reset | eapply SimX_some; eassumption]|].
      split; [eapply held_same_win; [| |exact H1]; reflexivity|]. split; [exact I1 | apply sc_lastID_write_reset].
    - exists L. split; [apply LedOn_quiet, (q_out _ _ _ (Quiet_note _ c (ODispatch _ _) I))|].
      split; [eapply SimX_Quiet; [apply (Quiet_note _ c (ODispatch _ _) I) | eapply SimX_some; eassumption]|].
      split; [eapply held_same_win; [| |exact H1]; reflexivity|]. split; [exact I1 | reflexivity].
    - destruct (send_data_led ex c s1 L S) as (L1 & Led & S1 & Hh1 & Id1 & Lid); rewrite ?I1; try assumption.
      rewrite SD in *. cbn [fst snd] in *. rewrite I1 in *.
      exists L1. split; [eapply LedOn_weaken; [|exact Led]; auto|].
      split; [exact S1|]. split; [|split; [|exact Lid]].
      + destruct fin; [eapply held_same_win; [| |exact Hh1]; reflexivity | exact Hh1].
      + destruct fin; [exact Id1 | exact Id1].
    - exists L. split; [apply LedOn_refl|]. split; [eapply SimX_some; eassumption|]. auto. }
  destruct M' as (L2 & Led & S2 & H2 & I2 & Lid).
  assert (S3 : Sim (put c2 s2) L2).
  { eapply SimX_put; [exact S2 | right; congruence | exact H2 | rewrite I2, Lid; exact Hid]. }
  assert (G3 : LedOn hstate (fun _ => True) c L (put_close c2 s2) L2 /\ Sim (put_close c2 s2) L2).
  { unfold put_close. destruct (sstate_eqb (st_state s2) SClosed).
    - split.
      + eapply LedOn_trans; [exact Led|]. apply LedOn_quiet.
        apply (out_ext_trans _ _ c2 (put c2 s2)); [apply out_ext_same; reflexivity | apply close_stream_out].
      + eapply SimX_close; [exact S3 | left; reflexivity].
    - split; [|exact S3]. eapply LedOn_trans; [exact Led|]. apply LedOn_quiet. apply out_ext_same. reflexivity. }
  destruct G3 as [Led3 S3'].
  destruct E as [-> | ->]; [apply (GoodStep_brk_cont c L _ false L2) | apply (GoodStep_brk_cont c L _ true L2)]; assumption.
Qed.
End Safe2.
