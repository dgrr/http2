(* Proofs/SrvFlowEff.v - what each function of the stream loop, and at the end the read loop's step, does to the parts
   of the state flow control looks at: the stream table, the three windows, the initial window, the ids, the queue,
   the trace. *)
From H2V Require Import Base.Bytes Base.MachineInt Base.Result Gen.GenConsts Impl.ServerConn Proofs.SrvBase
  Proofs.SrvFlowDefs.
From Coq Require Import ZArith Lia ZifyN ZifyNat ZifyBool List.
Import ListNotations.
Local Open Scope N_scope.
Set Default Proof Using "Type".

(* outputs that carry no flow-control meaning *)
Definition quiet_out (o : outev) : Prop :=
  match strip o with OData _ _ _ | OHeaders _ _ _ | OWinUpd _ _ => False | _ => True end.

(* what does not change in a stream while frames are handled on it (everything but the header-decoding part,
   the request, and the window) *)
Definition same_send (a b : stream) : Prop :=
  st_id b = st_id a /\ st_state b = st_state a /\ st_orig b = st_orig a /\ st_started b = st_started a /\
  st_pending b = st_pending a /\ st_pendingEnd b = st_pendingEnd a /\ st_bodyStream b = st_bodyStream a /\
  st_bodySize b = st_bodySize a /\ st_bodyRead b = st_bodyRead a /\ st_responded b = st_responded a /\
  st_handlerRunning b = st_handlerRunning a /\ st_abandoned b = st_abandoned a /\ st_weReset b = st_weReset a.

Lemma same_send_refl a : same_send a a.
Proof. repeat split. Qed.
Lemma same_send_trans a b c : same_send a b -> same_send b c -> same_send a c.
Proof. unfold same_send. intros H1 H2. decompose [and] H1. decompose [and] H2. repeat split; congruence. Qed.
Lemma same_send_has_more a b : same_send a b -> has_more_to_send b = has_more_to_send a.
Proof.
  unfold same_send, has_more_to_send. intros (_ & _ & _ & _ & H1 & _ & H2 & _). rewrite H1, H2. reflexivity.
Qed.

Section Eff.
Variable hstate : Type.
Variable dec_field : hstate -> N -> bytes -> dec_res hstate.
Variable enc_field : hstate -> bytes -> bytes -> bool -> bytes * hstate.
Variable enc_set_max : hstate -> N -> hstate.
Variable cfg : config.
Notation sconn := (sconn hstate).
Implicit Types c : sconn.

Definition out_ext (P : outev -> Prop) c c' : Prop := exists new, sc_out c' = new ++ sc_out c /\ Forall P new.

Lemma out_ext_same P c c' : sc_out c' = sc_out c -> out_ext P c c'.
Proof. intro H. exists []. split; [assumption | constructor]. Qed.
Lemma out_ext_refl P c : out_ext P c c.
Proof. apply out_ext_same. reflexivity. Qed.
Lemma out_ext_trans P a b c : out_ext P a b -> out_ext P b c -> out_ext P a c.
Proof.
  intros (l1 & E1 & F1) (l2 & E2 & F2). exists (l2 ++ l1). split; [rewrite E2, E1, app_assoc; reflexivity|].
  apply Forall_app. split; assumption.
Qed.
Lemma out_ext_weaken (P Q : outev -> Prop) c c' : (forall o, P o -> Q o) -> out_ext P c c' -> out_ext Q c c'.
Proof. intros H (l & E & F). exists l. split; [assumption|]. eapply Forall_impl; eassumption. Qed.
Lemma out_ext_emit (P : outev -> Prop) c o : P o -> P (OLate o) -> out_ext P c (emit c o).
Proof.
  intros H1 H2. unfold out_ext. rewrite sc_out_emit. destruct (sc_wl_dead c); [apply out_ext_refl|].
  destruct (sc_sl_done c); [exists [OLate o] | exists [o]]; (split; [reflexivity | repeat constructor; assumption]).
Qed.
Lemma out_ext_note (P : outev -> Prop) c o : P o -> out_ext P c (note c o).
Proof. intro H. exists [o]. split; [reflexivity | repeat constructor; assumption]. Qed.
Lemma out_ext_cons (P : outev -> Prop) c c' o : sc_out c' = o :: sc_out c -> P o -> out_ext P c c'.
Proof. intros E H. exists [o]. split; [assumption | repeat constructor; assumption]. Qed.

Record Quiet c c' : Prop := mkQuiet {
  q_strms : sc_strms c' = sc_strms c;
  q_initWin : sc_initWin c' = sc_initWin c;
  q_clientWindow : sc_clientWindow c' = sc_clientWindow c;
  q_currentWindow : sc_currentWindow c' = sc_currentWindow c;
  q_lastID : sc_lastID c' = sc_lastID c;
  q_highestID : sc_highestID c <= sc_highestID c';
  q_readerQ : sc_readerQ c' = sc_readerQ c;
  q_rl_done : sc_rl_done c' = sc_rl_done c;
  q_wl_dead : sc_wl_dead c' = sc_wl_dead c;
  q_sl_done : sc_sl_done c' = sc_sl_done c \/ sc_sl_done c' = true;
  q_closing : sc_closing c = true -> sc_closing c' = true;
  q_out : out_ext quiet_out c c'
}.

Ltac quiet_upd :=
  constructor; sc_cbn;
  first [reflexivity | flia | (left; reflexivity) | (intro; assumption) | (apply out_ext_same; reflexivity) | assumption].

Lemma Quiet_refl c : Quiet c c.
Proof. quiet_upd. Qed.

Lemma Quiet_trans a b c : Quiet a b -> Quiet b c -> Quiet a c.
Proof.
  intros [a1 a2 a3 a4 a5 a6 a7 a8 a9 a10 a11 a12] [b1 b2 b3 b4 b5 b6 b7 b8 b9 b10 b11 b12].
  constructor.
  - rewrite b1; exact a1.
  - rewrite b2; exact a2.
  - rewrite b3; exact a3.
  - rewrite b4; exact a4.
  - rewrite b5; exact a5.
  - eapply N.le_trans; eassumption.
  - rewrite b7; exact a7.
  - rewrite b8; exact a8.
  - rewrite b9; exact a9.
  - destruct b10 as [E|E]; [rewrite E; exact a10 | right; exact E].
  - auto.
  - eapply out_ext_trans; eassumption.
Qed.

Lemma Quiet_upd_dec c d : Quiet c (upd_dec c d).
Proof. quiet_upd. Qed.
Lemma Quiet_upd_enc c d : Quiet c (upd_enc c d).
Proof. quiet_upd. Qed.
Lemma Quiet_upd_discard c a b n : Quiet c (upd_discard c a b n).
Proof. quiet_upd. Qed.
Lemma Quiet_upd_highestID c n : sc_highestID c <= n -> Quiet c (upd_highestID c n).
Proof. intro H. quiet_upd. Qed.
Lemma Quiet_upd_closing c r : Quiet c (upd_closing c true r).
Proof. quiet_upd. Qed.
Lemma Quiet_upd_ring c r o : Quiet c (upd_ring c r o).
Proof. quiet_upd. Qed.
Lemma Quiet_upd_out c o : out_ext quiet_out c (upd_out c o) -> Quiet c (upd_out c o).
Proof. intro H. quiet_upd. Qed.

Lemma Quiet_emit c o : quiet_out o -> Quiet c (emit c o).
Proof.
  intro H. rewrite emit_eq. apply Quiet_upd_out. rewrite <- emit_eq. apply out_ext_emit; assumption.
Qed.
Lemma Quiet_note c o : quiet_out o -> Quiet c (note c o).
Proof. intro H. unfold note. apply Quiet_upd_out. eapply out_ext_cons; [reflexivity | assumption]. Qed.
Lemma Quiet_write_reset c sid code : Quiet c (write_reset c sid code).
Proof. apply Quiet_emit. exact I. Qed.
Lemma Quiet_write_goaway c sid code : Quiet c (write_goaway c sid code).
Proof. rewrite write_goaway_eq. eapply Quiet_trans; [apply Quiet_upd_closing | apply Quiet_emit; exact I]. Qed.
Lemma Quiet_mark_closed c id w : Quiet c (mark_closed c id w).
Proof. unfold mark_closed. sc_split_ifs; auto using Quiet_refl, Quiet_upd_ring. Qed.
Lemma Quiet_brk c : Quiet c (fst (brk c)).
Proof.
  unfold brk, note. cbn [fst]. constructor; sc_cbn;
    first [reflexivity | flia | (right; reflexivity) | (intro; assumption) | (eapply out_ext_cons; [reflexivity | exact I])].
Qed.
Lemma Quiet_write_error c s e : Quiet c (fst (write_error c s e)).
Proof.
  rewrite write_error_fst. destruct e, s; auto using Quiet_write_goaway, Quiet_write_reset, Quiet_refl.
Qed.

Lemma Quiet_upd_open c n : Quiet c (upd_open c n). Proof. quiet_upd. Qed.
Lemma Quiet_upd_gone c l : Quiet c (upd_gone c l). Proof. quiet_upd. Qed.
Lemma Quiet_upd_closer c b : Quiet c (upd_closer c b). Proof. quiet_upd. Qed.

Lemma Quiet_release_stream c s : Quiet c (release_stream c s).
Proof.
  unfold release_stream. eapply Quiet_trans; [|apply Quiet_note; exact I].
  destruct (fkind_eqb (st_orig s) KHeaders); [apply Quiet_upd_open | apply Quiet_refl].
Qed.

(* the handler of an abandoned stream has returned (sl_done) *)
Lemma Quiet_release_gone c rest s : Quiet c (release_stream (upd_gone c rest) s).
Proof. eapply Quiet_trans; [apply Quiet_upd_gone | apply Quiet_release_stream]. Qed.

(* closeIdleConn (EvIdle) *)
Lemma Quiet_idle c : Quiet c (upd_closer (write_goaway c 0 c_NoError) true).
Proof. eapply Quiet_trans; [apply Quiet_write_goaway | apply Quiet_upd_closer]. Qed.

(* header decoding touches the decoder and the discard state only *)

Definition DD c c' : Prop := exists d id prev n, c' = upd_discard (upd_dec c d) id prev n.

Lemma DD_refl c : DD c c.
Proof. exists (sc_dec c), (sc_discardID c), (sc_discardPrev c), (sc_discardFields c). destruct c; reflexivity. Qed.
Lemma DD_trans a b c : DD a b -> DD b c -> DD a c.
Proof. intros (d1 & i1 & p1 & n1 & ->) (d2 & i2 & p2 & n2 & ->). exists d2, i2, p2, n2. reflexivity. Qed.
Lemma DD_upd_dec c d : DD c (upd_dec c d).
Proof. exists d, (sc_discardID c), (sc_discardPrev c), (sc_discardFields c). destruct c; reflexivity. Qed.
Lemma DD_upd_discard c a b n : DD c (upd_discard c a b n).
Proof. exists (sc_dec c), a, b, n. destruct c; reflexivity. Qed.
Lemma DD_Quiet c c' : DD c c' -> Quiet c c'.
Proof. intros (d & i & p & n & ->). eapply Quiet_trans; [apply Quiet_upd_dec | apply Quiet_upd_discard]. Qed.
Lemma DD_out c c' : DD c c' -> sc_out c' = sc_out c.
Proof. intros (d & i & p & n & ->). reflexivity. Qed.

Lemma discard_fragment_DD c id frag eh : DD c (fst (discard_fragment dec_field cfg c id frag eh)).
Proof.
  unfold discard_fragment.
  destruct (discard_loop dec_field (S (length (sc_discardPrev c ++ frag))) eh (sc_dec c) (sc_discardFields c) (sc_discardPrev c ++ frag))
    as [[[d' fields] carry] e].
  destruct e; cbn [fst].
  - eapply DD_trans; [apply DD_upd_dec | apply DD_upd_discard].
  - destruct eh; cbn [fst]; [eapply DD_trans; [apply DD_upd_dec | apply DD_upd_discard]|].
    match goal with |- context [if ?b then _ else _] => destruct b end; cbn [fst];
      (eapply DD_trans; [apply DD_upd_dec | apply DD_upd_discard]).
Qed.

Lemma discard_header_block_DD c fr : DD c (fst (discard_header_block dec_field cfg c fr)).
Proof.
  unfold discard_header_block. destruct (fkind_eqb (sf_kind fr) KCont); [apply discard_fragment_DD|].
  eapply DD_trans; [apply DD_upd_discard | apply discard_fragment_DD].
Qed.

Lemma discard_or_break_Quiet c r : Quiet c (fst r) -> Quiet c (fst (discard_or_break r)).
Proof.
  destruct r as [c1 [e|]]; cbn [fst discard_or_break]; intro H; [|assumption].
  destruct e; (eapply Quiet_trans; [eassumption|]).
  - eapply Quiet_trans; [apply Quiet_write_error | apply Quiet_brk].
  - eapply Quiet_trans; [apply Quiet_write_error | apply Quiet_brk].
  - eapply Quiet_trans; [apply (Quiet_note _ (OPanic 1 0) I) | apply Quiet_brk].
Qed.

(* handleHeaderFrame: connection and stream *)
Lemma handle_header_frame_eff c s fr :
  DD c (fst (fst (handle_header_frame dec_field cfg c s fr))) /\
  same_send s (snd (fst (handle_header_frame dec_field cfg c s fr))) /\
  st_window (snd (fst (handle_header_frame dec_field cfg c s fr))) = st_window s.
Proof.
  unfold handle_header_frame.
  destruct (st_headersFinished s && (negb (fkind_eqb (sf_kind fr) KHeaders) || negb (flag_has (sf_flags fr) FL_ES)));
    [cbn [fst snd]; auto using DD_refl, same_send_refl|].
  destruct (fkind_eqb (sf_kind fr) KHeaders && (sf_dep fr =? st_id s));
    [cbn [fst snd]; split; [apply DD_refl | split; [repeat split | reflexivity]]|].
  match goal with |- context [header_loop ?x1 ?x2 ?x3 ?x4 ?x5 ?x6 ?x7] => destruct (header_loop x1 x2 x3 x4 x5 x6 x7) as [[[d' h2] e] rest] end.
  destruct e as [[code|code|]|]; cbn [fst snd].
  - split; [apply DD_upd_dec | split; [repeat split | reflexivity]].
  - match goal with |- context [discard_fragment ?x1 ?x2 ?x3 ?x4 ?x5 ?x6] =>
      pose proof (discard_fragment_DD x3 x4 x5 x6) as D; destruct (discard_fragment x1 x2 x3 x4 x5 x6) as [c3 [de|]] end;
    cbn [fst snd] in *; (split; [|split; [repeat split | reflexivity]]);
    (eapply DD_trans; [apply DD_upd_dec|]; eapply DD_trans; [apply DD_upd_discard | exact D]).
  - split; [apply DD_upd_dec | split; [repeat split | reflexivity]].
  - match goal with |- context [if ?b then _ else _] => destruct b end; cbn [fst snd];
      (split; [apply DD_upd_dec | split; [repeat split | reflexivity]]).
Qed.

(* the frame: what no function of the stream loop touches except where stated *)

Record Frame c c' : Prop := mkFrame {
  f_currentWindow : sc_currentWindow c' = sc_currentWindow c;
  f_lastID : sc_lastID c <= sc_lastID c';
  f_highestID : sc_highestID c <= sc_highestID c';
  f_readerQ : sc_readerQ c' = sc_readerQ c;
  f_rl_done : sc_rl_done c' = sc_rl_done c;
  f_wl_dead : sc_wl_dead c' = sc_wl_dead c;
  f_sl_done : sc_sl_done c' = sc_sl_done c \/ sc_sl_done c' = true;
  f_closing : sc_closing c = true -> sc_closing c' = true
}.

Ltac frame_upd :=
  constructor; sc_cbn; first [reflexivity | flia | (left; reflexivity) | (intro; assumption) | assumption].

Lemma Frame_refl c : Frame c c.
Proof. frame_upd. Qed.
Lemma Frame_trans a b c : Frame a b -> Frame b c -> Frame a c.
Proof.
  intros [a2 a3 a4 a5 a6 a7 a8 a9] [b2 b3 b4 b5 b6 b7 b8 b9]. constructor.
  - rewrite b2; exact a2.
  - eapply N.le_trans; eassumption.
  - eapply N.le_trans; eassumption.
  - rewrite b5; exact a5.
  - rewrite b6; exact a6.
  - rewrite b7; exact a7.
  - destruct b8 as [E|E]; [rewrite E; exact a8 | right; exact E].
  - auto.
Qed.
Lemma Quiet_Frame c c' : Quiet c c' -> Frame c c'.
Proof. intros []. constructor; try assumption. rewrite q_lastID0. apply N.le_refl. Qed.
Lemma Frame_Quiet c c' : Frame c c' -> sc_strms c' = sc_strms c -> sc_initWin c' = sc_initWin c ->
  sc_clientWindow c' = sc_clientWindow c -> sc_lastID c' = sc_lastID c -> out_ext quiet_out c c' -> Quiet c c'.
Proof. intros [] ? ? ? ? ?. constructor; assumption. Qed.
Lemma Frame_upd_initWin c n : Frame c (upd_initWin c n). Proof. frame_upd. Qed.

Lemma Frame_upd_strms c l : Frame c (upd_strms c l). Proof. frame_upd. Qed.
Lemma Frame_upd_clientWindow c w : Frame c (upd_clientWindow c w). Proof. frame_upd. Qed.
Lemma Frame_upd_out c o : Frame c (upd_out c o). Proof. frame_upd. Qed.
Lemma Frame_upd_gone c l : Frame c (upd_gone c l). Proof. frame_upd. Qed.
Lemma Frame_upd_open c n : Frame c (upd_open c n). Proof. frame_upd. Qed.
Lemma Frame_upd_enc c h : Frame c (upd_enc c h). Proof. frame_upd. Qed.
Lemma Frame_upd_discard c a b n : Frame c (upd_discard c a b n). Proof. frame_upd. Qed.
Lemma Frame_upd_lastID c n : sc_lastID c <= n -> Frame c (upd_lastID c n). Proof. intro. frame_upd. Qed.
Lemma Frame_upd_highestID c n : sc_highestID c <= n -> Frame c (upd_highestID c n). Proof. intro. frame_upd. Qed.
Lemma Frame_put c x : Frame c (put c x). Proof. apply Frame_upd_strms. Qed.
Lemma Frame_emit c o : Frame c (emit c o). Proof. rewrite emit_eq. apply Frame_upd_out. Qed.
Lemma Frame_note c o : Frame c (note c o). Proof. apply Frame_upd_out. Qed.

Lemma Frame_release_stream c s : Frame c (release_stream c s).
Proof.
  unfold release_stream. destruct (fkind_eqb (st_orig s) KHeaders).
  - eapply Frame_trans; [apply Frame_upd_open | apply Frame_note].
  - apply Frame_note.
Qed.

Lemma Frame_close_stream c s : Frame c (close_stream c s).
Proof.
  rewrite close_stream_eq. cbv zeta.
  set (c2 := upd_strms (mark_closed c (st_id s) (st_weReset s)) (strms_del (sc_strms c) (st_id s))).
  assert (F2 : Frame c c2).
  { eapply Frame_trans; [apply Quiet_Frame, Quiet_mark_closed | apply Frame_upd_strms]. }
  assert (F3 : Frame c (@close_discard hstate c2 s)).
  { unfold close_discard. match goal with |- context [if ?b then _ else _] => destruct b end;
      [eapply Frame_trans; [exact F2 | apply Frame_upd_discard] | exact F2]. }
  destruct (st_handlerRunning s).
  - eapply Frame_trans; [exact F3 | apply Frame_upd_gone].
  - eapply Frame_trans; [exact F3 | apply Frame_release_stream].
Qed.

(* closeStream: the table loses the stream, the client window stays, the trace gets at most a release note *)
Lemma close_stream_out c s : out_ext quiet_out c (close_stream c s).
Proof.
  destruct (st_handlerRunning s) eqn:E.
  - apply out_ext_same. rewrite sc_out_close_stream, E. reflexivity.
  - eapply out_ext_cons; [rewrite sc_out_close_stream, E; reflexivity | exact I].
Qed.

Lemma same_send_set_headers_finished s b : same_send s (set_headers_finished s b).
Proof. repeat split. Qed.

Lemma handle_frame_eff c s fr :
  let r := handle_frame dec_field cfg c s fr in
  same_send s (snd (fst r)) /\
  (st_window (snd (fst r)) = st_window s \/
   (sf_kind fr = KWinUpd /\ st_window (snd (fst r)) = (st_window s + Z.of_N (sf_inc fr))%Z)) /\
  (sf_kind fr <> KData -> DD c (fst (fst r))).
Proof.
  cbv zeta. unfold handle_frame.
  destruct (verify_state s fr); [cbn [fst snd]; auto using same_send_refl, DD_refl|].
  destruct (sf_kind fr) eqn:K; cbn [fst snd];
    try solve [ repeat match goal with |- context [if ?b then _ else _] => destruct b end;
                cbn [fst snd]; (split; [repeat split | split; [auto | intros; try apply DD_refl; congruence]]) ].
  - (* HEADERS *)
    destruct ((3 <=? sstate_rank (st_state s)) && negb (continuing_headers s fr));
      [cbn [fst snd]; auto using same_send_refl, DD_refl|].
    pose proof (handle_header_frame_eff c s fr) as (D & S & W).
    destruct (handle_header_frame dec_field cfg c s fr) as [[c1 s1] e]. cbn [fst snd] in *.
    destruct e; [cbn [fst snd]; auto|].
    destruct (flag_has (sf_flags fr) FL_EH); [|cbn [fst snd]; auto].
    destruct (negb match st_prev s1 with [] => true | _ => false end);
      [cbn [fst snd]; split; [eapply same_send_trans; [exact S | apply same_send_set_headers_finished] | auto]|].
    destruct (validate_request_pseudo_headers _); cbn [fst snd];
      (split; [eapply same_send_trans; [exact S | apply same_send_set_headers_finished] | auto]).
  - (* CONTINUATION *)
    destruct ((3 <=? sstate_rank (st_state s)) && negb (continuing_headers s fr));
      [cbn [fst snd]; auto using same_send_refl, DD_refl|].
    pose proof (handle_header_frame_eff c s fr) as (D & S & W).
    destruct (handle_header_frame dec_field cfg c s fr) as [[c1 s1] e]. cbn [fst snd] in *.
    destruct e; [cbn [fst snd]; auto|].
    destruct (flag_has (sf_flags fr) FL_EH); [|cbn [fst snd]; auto].
    destruct (negb match st_prev s1 with [] => true | _ => false end);
      [cbn [fst snd]; split; [eapply same_send_trans; [exact S | apply same_send_set_headers_finished] | auto]|].
    destruct (validate_request_pseudo_headers _); cbn [fst snd];
      (split; [eapply same_send_trans; [exact S | apply same_send_set_headers_finished] | auto]).
Qed.

(* DATA: refused with a GOAWAY, or counted against the connection window *)
Definition data_accepts (s : stream) : bool :=
  st_headersFinished s && (sstate_eqb (st_state s) SOpen || sstate_eqb (st_state s) SReserved).

Lemma handle_frame_data c s fr : sf_kind fr = KData ->
  let recv := (st_recvBody s + Z.of_N (len (sf_payload fr)))%Z in
  if data_accepts s then
    handle_frame dec_field cfg c s fr =
    if ((0 <? cf_maxBody cfg) && (cf_maxBody cfg <? recv))%Z
    then (credit_conn_window cfg c (Z.of_N (sf_len fr)), set_recv s recv (st_req s), Some (EReset c_EnhanceYourCalm))
    else (consume_recv_window cfg c (set_recv s recv (rq_append_body (st_req s) (sf_payload fr))) fr (Z.of_N (sf_len fr)),
          set_recv s recv (rq_append_body (st_req s) (sf_payload fr)), None)
  else exists code, code <> c_NoError /\ handle_frame dec_field cfg c s fr = (c, s, Some (EGoAway code)).
Proof.
  intro K. cbv zeta. unfold handle_frame, verify_state, data_accepts, continuing_headers. rewrite K.
  cbn [fkind_eqb orb andb].
  destruct (st_state s) eqn:St; cbn [sstate_eqb sstate_rank N.eqb Pos.eqb orb andb N.leb N.compare Pos.compare Pos.compare_cont].
  - rewrite Bool.andb_false_r. exists c_ProtocolError. split; [discriminate | reflexivity].
  - destruct (st_headersFinished s); cbn [negb andb]; [reflexivity|].
    exists c_ProtocolError. split; [discriminate | reflexivity].
  - destruct (st_headersFinished s); cbn [negb andb]; [reflexivity|].
    exists c_ProtocolError. split; [discriminate | reflexivity].
  - rewrite Bool.andb_false_r. exists c_StreamClosedError. split; [discriminate | reflexivity].
  - rewrite Bool.andb_false_r. destruct (st_headersFinished s); cbn [negb].
    + exists c_StreamClosedError. split; [discriminate | reflexivity].
    + exists c_ProtocolError. split; [discriminate | reflexivity].
Qed.

(* what never changes when only the state (and the reset mark, the flags) of a stream is set *)
Definition same_win (a b : stream) : Prop :=
  st_id b = st_id a /\ st_window b = st_window a /\ st_orig b = st_orig a /\
  st_pending b = st_pending a /\ st_pendingEnd b = st_pendingEnd a /\ st_bodyStream b = st_bodyStream a /\
  st_bodySize b = st_bodySize a /\ st_bodyRead b = st_bodyRead a.

Lemma same_win_refl a : same_win a a.
Proof. repeat split. Qed.
Lemma same_win_trans a b d : same_win a b -> same_win b d -> same_win a d.
Proof.
  intros (a1 & a2 & a3 & a4 & a5 & a6 & a7 & a8) (b1 & b2 & b3 & b4 & b5 & b6 & b7 & b8).
  repeat split; etransitivity; eassumption.
Qed.
Lemma same_win_set_state a st : same_win a (set_state a st). Proof. repeat split. Qed.
Lemma same_win_set_weReset a : same_win a (set_weReset a). Proof. repeat split. Qed.
Lemma same_win_set_flags a x y z : same_win a (set_flags a x y z). Proof. repeat split. Qed.
Lemma same_win_has_more a b : same_win a b -> has_more_to_send b = has_more_to_send a.
Proof. intros (_ & _ & _ & H1 & _ & H2 & _). unfold has_more_to_send. rewrite H1, H2. reflexivity. Qed.

Lemma handle_state_eff fr s :
  same_win s (handle_state fr s) /\ st_responded (handle_state fr s) = st_responded s /\
  st_handlerRunning (handle_state fr s) = st_handlerRunning s /\ st_weReset (handle_state fr s) = st_weReset s.
Proof.
  unfold handle_state.
  repeat match goal with
         | |- context [if ?b then _ else _] => destruct b
         | |- context [match st_state ?x with _ => _ end] => destruct (st_state x)
         end; cbn; repeat split.
Qed.

(* the table after some streams have been deleted *)
Inductive Dels : list stream -> list stream -> Prop :=
| Dels_refl l : Dels l l
| Dels_step l id l' : Dels (strms_del l id) l' -> Dels l l'.

Lemma Dels_trans a b d : Dels a b -> Dels b d -> Dels a d.
Proof. induction 1; [auto|]. intro H2. econstructor. eauto. Qed.
Lemma Dels_In a b : Dels a b -> forall s, In s b -> In s a.
Proof. induction 1; [auto|]. intros s Hs. eapply strms_del_In. eauto. Qed.

(* streams are closed: the table shrinks, nothing else that matters moves *)
Record Closes c c' : Prop := mkCloses {
  cl_frame : Frame c c';
  cl_clientWindow : sc_clientWindow c' = sc_clientWindow c;
  cl_initWin : sc_initWin c' = sc_initWin c;
  cl_lastID : sc_lastID c' = sc_lastID c;
  cl_highestID : sc_highestID c' = sc_highestID c;
  cl_out : out_ext quiet_out c c';
  cl_strms : Dels (sc_strms c) (sc_strms c')
}.

Lemma Closes_refl c : Closes c c.
Proof. constructor; auto using Frame_refl, out_ext_refl, Dels_refl. Qed.
Lemma Closes_trans a b c : Closes a b -> Closes b c -> Closes a c.
Proof.
  intros [a1 a2 a2' a3 a4 a5 a6] [b1 b2 b2' b3 b4 b5 b6]. constructor.
  - eapply Frame_trans; eassumption.
  - rewrite b2; exact a2.
  - rewrite b2'; exact a2'.
  - rewrite b3; exact a3.
  - rewrite b4; exact a4.
  - eapply out_ext_trans; eassumption.
  - eapply Dels_trans; eassumption.
Qed.
Lemma Quiet_Closes c c' : Quiet c c' -> sc_highestID c' = sc_highestID c -> Closes c c'.
Proof.
  intros Q H. pose proof (Quiet_Frame _ _ Q). destruct Q. constructor; auto. rewrite q_strms0. constructor.
Qed.
Lemma Closes_close_stream c s : Closes c (close_stream c s).
Proof.
  constructor.
  - apply Frame_close_stream.
  - apply sc_clientWindow_close_stream.
  - apply sc_initWin_close_stream.
  - apply sc_lastID_close_stream.
  - apply sc_highestID_close_stream.
  - apply close_stream_out.
  - rewrite sc_strms_close_stream. econstructor. constructor.
Qed.
Lemma Closes_write_reset c sid code : Closes c (write_reset c sid code).
Proof. apply Quiet_Closes; [apply Quiet_write_reset | apply sc_highestID_write_reset]. Qed.

Lemma close_heads_Closes n : forall c, Closes c (close_heads n c).
Proof.
  induction n as [|n IH]; intro c; cbn [close_heads]; [apply Closes_refl|].
  destruct (sc_strms c) as [|s t]; [apply Closes_refl|].
  eapply Closes_trans; [apply Closes_write_reset|]. eapply Closes_trans; [apply Closes_close_stream | apply IH].
Qed.

Lemma close_all_Closes ids : forall c, Closes c (close_all c ids).
Proof.
  induction ids as [|id t IH]; intro c; cbn [close_all]; [apply Closes_refl|].
  destruct (strms_search (sc_strms c) id); [|apply IH].
  eapply Closes_trans; [apply Closes_close_stream | apply IH].
Qed.

(* SETTINGS_INITIAL_WINDOW_SIZE over the table *)

Definition bumpall (delta : Z) : list stream -> list stream -> list stream * bool :=
  fix bumpall (pre : list stream) (l : list stream) : list stream * bool :=
    match l with
    | [] => (pre, false)
    | s :: t =>
      let s' := set_window s (st_window s + delta) in
      if (MAXWIN <? st_window s')%Z then (pre ++ s' :: t, true) else bumpall (pre ++ [s']) t
    end.

Definition bump (delta : Z) (s : stream) : stream := set_window s (st_window s + delta).

Lemma bumpall_false delta l : forall pre l', bumpall delta pre l = (l', false) ->
  l' = pre ++ map (bump delta) l /\ Forall (fun s => (st_window s + delta <= MAXWIN)%Z) l.
Proof.
  induction l as [|s t IH]; intros pre l'; cbn [bumpall map].
  - intro H; inversion H. rewrite app_nil_r. auto.
  - cbn [set_window st_window]. destruct (MAXWIN <? st_window s + delta)%Z eqn:E; [discriminate|].
    intro H. destruct (IH _ _ H) as [-> F]. rewrite <- app_assoc. split; [reflexivity|]. constructor; [flia | assumption].
Qed.

Definition settings_c0 c (fr : sframe) : sconn :=
  if sf_set_hastable fr then upd_enc c (enc_set_max (sc_enc c) (sf_set_table fr)) else c.

Lemma sl_frame_settings c fr : (sf_sid fr =? 0) = true -> sf_kind fr = KSettings ->
  sl_frame dec_field enc_set_max cfg c fr =
  let c0 := settings_c0 c fr in
  if sf_set_haswin fr then
    let newInit := signed 32 (sf_set_win fr) in
    let delta := (newInit - sc_initWin c0)%Z in
    let c1 := upd_initWin c0 newInit in
    let '(l', over) := bumpall delta [] (sc_strms c1) in
    let c2 := upd_strms c1 l' in
    if over then brk (write_goaway c2 0 c_FlowControlError)
    else cont (flush_streams (emit c2 OSettingsAck))
  else cont (emit c0 OSettingsAck).
Proof. intros H K. unfold sl_frame. rewrite H, K. reflexivity. Qed.

(* receiving DATA: the receive window and WINDOW_UPDATEs only *)

Definition winupd_out (o : outev) : Prop := match strip o with OWinUpd _ _ => True | _ => False end.

Record Recv c c' : Prop := mkRecv {
  rv_strms : sc_strms c' = sc_strms c;
  rv_initWin : sc_initWin c' = sc_initWin c;
  rv_clientWindow : sc_clientWindow c' = sc_clientWindow c;
  rv_lastID : sc_lastID c' = sc_lastID c;
  rv_highestID : sc_highestID c' = sc_highestID c;
  rv_readerQ : sc_readerQ c' = sc_readerQ c;
  rv_rl_done : sc_rl_done c' = sc_rl_done c;
  rv_sl_done : sc_sl_done c' = sc_sl_done c;
  rv_wl_dead : sc_wl_dead c' = sc_wl_dead c;
  rv_closing : sc_closing c' = sc_closing c;
  rv_out : out_ext winupd_out c c'
}.

Lemma Recv_refl c : Recv c c.
Proof. constructor; auto using out_ext_refl. Qed.
Lemma Recv_DD c c' : DD c c' -> Recv c c'.
Proof. intros (d & i & p & n & ->). constructor; try reflexivity. apply out_ext_same. reflexivity. Qed.
Lemma Recv_upd_currentWindow c w : Recv c (upd_currentWindow c w).
Proof. constructor; try reflexivity. apply out_ext_same. reflexivity. Qed.
Lemma Recv_write_window_update c sid inc : Recv c (write_window_update c sid inc).
Proof.
  unfold write_window_update. constructor;
    rewrite ?sc_strms_emit, ?sc_initWin_emit, ?sc_clientWindow_emit, ?sc_lastID_emit, ?sc_highestID_emit,
      ?sc_readerQ_emit, ?sc_rl_done_emit, ?sc_sl_done_emit, ?sc_wl_dead_emit, ?sc_closing_emit; try reflexivity.
  apply out_ext_emit; exact I.
Qed.
Lemma Recv_trans a b c : Recv a b -> Recv b c -> Recv a c.
Proof.
  intros [a1 a2 a3 a4 a5 a6 a7 a8 a9 a10 a11] [b1 b2 b3 b4 b5 b6 b7 b8 b9 b10 b11]. constructor.
  - rewrite b1; exact a1.
  - rewrite b2; exact a2.
  - rewrite b3; exact a3.
  - rewrite b4; exact a4.
  - rewrite b5; exact a5.
  - rewrite b6; exact a6.
  - rewrite b7; exact a7.
  - rewrite b8; exact a8.
  - rewrite b9; exact a9.
  - rewrite b10; exact a10.
  - eapply out_ext_trans; eassumption.
Qed.
Lemma Recv_credit c n : Recv c (credit_conn_window cfg c n).
Proof.
  unfold credit_conn_window. destruct (n <=? 0)%Z; [apply Recv_refl|].
  match goal with |- context [if ?b then _ else _] => destruct b end.
  - eapply Recv_trans; [apply Recv_upd_currentWindow | apply Recv_write_window_update].
  - apply Recv_upd_currentWindow.
Qed.
Lemma Recv_consume c s fr n : Recv c (consume_recv_window cfg c s fr n).
Proof.
  unfold consume_recv_window. destruct (n <=? 0)%Z; [apply Recv_refl|].
  destruct (flag_has (sf_flags fr) FL_ES); [apply Recv_credit|].
  eapply Recv_trans; [apply Recv_write_window_update | apply Recv_credit].
Qed.

Lemma handle_frame_Recv c s fr : Recv c (fst (fst (handle_frame dec_field cfg c s fr))).
Proof.
  destruct (fkind_eqb (sf_kind fr) KData) eqn:K.
  - assert (K' : sf_kind fr = KData) by (destruct (sf_kind fr); try discriminate; reflexivity).
    pose proof (handle_frame_data c s fr K') as D. cbv zeta in D. destruct (data_accepts s).
    + rewrite D. match goal with |- context [if ?b then _ else _] => destruct b end; cbn [fst];
        [apply Recv_credit | apply Recv_consume].
    + destruct D as (code & _ & ->). apply Recv_refl.
  - apply Recv_DD. apply (handle_frame_eff c s fr). intro K'. rewrite K' in K. discriminate.
Qed.

Definition new_strm c (fr : sframe) : stream :=
  set_orig_started (new_stream (sf_sid fr) (sc_initWin c)) (sf_kind fr) (sc_now c).

(* where the stream a frame is handled on comes from: the table, or it is opened by this HEADERS frame *)
Inductive Origin c (fr : sframe) : sconn -> stream -> Prop :=
| Or_found s : sf_sid fr <= sc_lastID c -> strms_search (sc_strms c) (sf_sid fr) = Some s -> Origin c fr c s
| Or_created : sf_kind fr = KHeaders ->
    (if sf_sid fr <=? sc_lastID c then strms_search (sc_strms c) (sf_sid fr) else None) = None ->
    sc_highestID c < sf_sid fr -> sc_lastID c <= sf_sid fr ->
    Origin c fr (upd_open (upd_strms (upd_lastID (upd_highestID c (sf_sid fr)) (sf_sid fr)) (sc_strms c ++ [new_strm c fr]))
                          (sc_open c + 1)) (new_strm c fr).

(* handleFrame went through, or failed with a stream error: the connection and the stream afterFrame gets *)
Definition HFok c2 (s : stream) (fr : sframe) cX (sX : stream) : Prop :=
  let '(c3, s3, e) := handle_frame dec_field cfg c2 s fr in
  match e with
  | None => cX = c3 /\ sX = s3
  | Some (EReset code) => cX = write_reset c3 (st_id s3) code /\ sX = set_state (set_state (set_weReset s3) SClosed) SClosed
  | Some (EGoAway code) => code = c_NoError /\ cX = write_goaway c3 (st_id s3) code /\ sX = set_state (set_state s3 SClosed) SClosed
  | Some EPanic => False
  end.

(* the leaves of sl_frame, as far as flow control is concerned (sl_frame_SLF is in Proofs/SrvFlowCDecomp.v) *)
Inductive SLF c (fr : sframe) : sconn -> Prop :=
| SLF_quiet c' : Quiet c c' ->
    (sf_kind fr = KData -> sf_sid fr <> 0 -> sc_closing c' = true \/ sc_sl_done c' = true) ->
    (sf_sid fr = 0 -> sf_kind fr = KSettings -> sf_set_haswin fr = false) -> SLF c fr c'
| SLF_dead c' : Frame c c' -> out_ext quiet_out c c' -> sc_sl_done c' = true -> SLF c fr c'
| SLF_settings : sf_sid fr = 0 -> sf_kind fr = KSettings -> sf_set_haswin fr = true ->
    let c0 := settings_c0 c fr in
    let newInit := signed 32 (sf_set_win fr) in
    let delta := (newInit - sc_initWin c)%Z in
    Forall (fun s => (st_window s + delta <= MAXWIN)%Z) (sc_strms c) ->
    SLF c fr (flush_streams (emit (upd_strms (upd_initWin c0 newInit) (map (bump delta) (sc_strms c))) OSettingsAck))
| SLF_winupd : sf_sid fr = 0 -> sf_kind fr = KWinUpd -> (sc_clientWindow c + Z.of_N (sf_inc fr) <= MAXWIN)%Z ->
    SLF c fr (flush_streams (upd_clientWindow c (sc_clientWindow c + Z.of_N (sf_inc fr))))
| SLF_credit : sf_sid fr <> 0 -> sf_kind fr = KData ->
    SLF c fr (credit_conn_window cfg c (Z.of_N (sf_len fr)))
| SLF_prev c1 s p : sf_sid fr <> 0 -> Origin c fr c1 s -> sf_kind fr = KHeaders -> In p (sc_strms c1) ->
    SLF c fr (put (write_goaway c1 (st_id p) c_ProtocolError) (set_state p SClosed))
| SLF_after c1 s c2 cX sX : sf_sid fr <> 0 -> Origin c fr c1 s -> Closes c1 c2 -> HFok c2 s fr cX sX ->
    SLF c fr (fst (after_frame cfg cX sX fr (sc_closing c))).

(* what HFok says about the connection and the stream afterFrame gets *)
Lemma HFok_eff c2 s fr cX sX : HFok c2 s fr cX sX ->
  exists c3 s3, Recv c2 c3 /\ Quiet c3 cX /\ sc_highestID cX = sc_highestID c3 /\ same_send s s3 /\
    (st_window s3 = st_window s \/ (sf_kind fr = KWinUpd /\ st_window s3 = (st_window s + Z.of_N (sf_inc fr))%Z)) /\
    same_win s3 sX /\ st_responded sX = st_responded s3 /\ st_handlerRunning sX = st_handlerRunning s3.
Proof.
  unfold HFok. intro HF.
  pose proof (handle_frame_Recv c2 s fr) as R.
  pose proof (handle_frame_eff c2 s fr) as (SS & WW & _).
  destruct (handle_frame dec_field cfg c2 s fr) as [[c3 s3] e]. cbn [fst snd] in R, SS, WW.
  exists c3, s3. split; [exact R|].
  destruct e as [[code|code|]|].
  - destruct HF as (_ & -> & ->). split; [apply Quiet_write_goaway|]. split; [apply sc_highestID_write_goaway|].
    split; [exact SS|]. split; [exact WW|]. repeat split.
  - destruct HF as (-> & ->). split; [apply Quiet_write_reset|]. split; [apply sc_highestID_write_reset|].
    split; [exact SS|]. split; [exact WW|]. repeat split.
  - contradiction.
  - destruct HF as (-> & ->). split; [apply Quiet_refl|]. split; [reflexivity|].
    split; [exact SS|]. split; [exact WW|]. repeat split.
Qed.

Lemma Origin_Frame c fr c1 s : Origin c fr c1 s -> Frame c c1 /\ out_ext quiet_out c c1.
Proof.
  destruct 1; [split; [apply Frame_refl | apply out_ext_refl]|]. split; [frame_upd | apply out_ext_same; reflexivity].
Qed.

(* a connection error (or a decoder panic) out of handleFrame leaves everything but the decoder alone *)
Lemma handle_frame_fatal c s fr c3 s3 e : handle_frame dec_field cfg c s fr = (c3, s3, Some e) ->
  match e with EReset _ => False | _ => True end -> DD c c3.
Proof.
  intros HF He. destruct (fkind_eqb (sf_kind fr) KData) eqn:K.
  - assert (K' : sf_kind fr = KData) by (destruct (sf_kind fr); try discriminate; reflexivity).
    pose proof (handle_frame_data c s fr K') as D. cbv zeta in D. destruct (data_accepts s).
    + rewrite D in HF. destruct (_ && _)%bool in HF; inversion HF; subst; contradiction.
    + destruct D as (code & _ & D). rewrite D in HF. inversion HF; subst. apply DD_refl.
  - pose proof (handle_frame_eff c s fr) as (_ & _ & D). rewrite HF in D. cbn [fst] in D. apply D.
    intro K'. rewrite K' in K. discriminate.
Qed.

Definition sl_tail (fr : sframe) (wasClosing : bool) c1 (s : stream) : sconn * bool :=
      (* HEADERS prelude *)
      let pre2 : (sconn * bool) + sconn :=
        if fkind_eqb (sf_kind fr) KHeaders then
          match get_previous_headers (sc_strms c1) with
          | Some p =>
            if negb (st_headersFinished p) then
              let '(c2, p') := write_error c1 (Some p) (EGoAway c_ProtocolError) in
              inl (cont (match p' with Some p' => put c2 p' | None => c2 end))
            else inr (implicit_close (S (length (sc_strms c1))) c1 (st_id s))
          | None => inr (implicit_close (S (length (sc_strms c1))) c1 (st_id s))
          end
        else inr c1 in
      match pre2 with
      | inl r => r
      | inr c2 =>
        let '(c3, s3, e) := handle_frame dec_field cfg c2 s fr in
        match e with
        | Some e =>
          let '(c4, s4) := write_error c3 (Some s3) e in
          let s5 := match s4 with Some x => set_state x SClosed | None => set_state s3 SClosed end in
          match e with
          | EGoAway code => if negb (code =? c_NoError) then brk (put c4 s5) else after_frame cfg c4 s5 fr wasClosing
          | EReset _ => after_frame cfg c4 s5 fr wasClosing
          | EPanic => brk (note c3 (OPanic 1 0))
          end
        | None => after_frame cfg c3 s3 fr wasClosing
        end
      end.

Definition sl_pre c (fr : sframe) : (sconn * bool) + (sconn * stream) :=
    let wasClosing := sc_closing c in
    let found := if sf_sid fr <=? sc_lastID c then strms_search (sc_strms c) (sf_sid fr) else None in
      match found with
      | Some s => inr (c, s)
      | None =>
        if fkind_eqb (sf_kind fr) KRst then
          if (sc_lastID c <? sf_sid fr) && (sc_highestID c <? sf_sid fr)
          then inl (cont (write_goaway c (sf_sid fr) c_ProtocolError)) else inl (cont c)
        else if in_ring c (sf_sid fr) then
          let weReset := match ring_find c (sf_sid fr) with Some b => b | None => false end in
          match sf_kind fr with
          | KPriority | KWinUpd | KRst => inl (cont c)
          | KData =>
            if weReset then inl (cont (credit_conn_window cfg c (Z.of_N (sf_len fr))))
            else inl (cont (write_goaway c (sf_sid fr) c_StreamClosedError))
          | KHeaders =>
            if weReset then inl (discard_or_break (discard_header_block dec_field cfg c fr))
            else inl (cont (write_goaway c (sf_sid fr) c_StreamClosedError))
          | _ => inl (cont (write_goaway c (sf_sid fr) c_StreamClosedError))
          end
        else if fkind_eqb (sf_kind fr) KPriority then
          if sf_dep fr =? sf_sid fr then inl (cont (write_reset c (sf_sid fr) c_ProtocolError)) else inl (cont c)
        else if fkind_eqb (sf_kind fr) KHeaders && (sf_sid fr <=? sc_highestID c) then
          inl (cont (write_goaway c (sf_sid fr) c_ProtocolError))
        else
        let c := if fkind_eqb (sf_kind fr) KHeaders then upd_highestID c (sf_sid fr) else c in
        if fkind_eqb (sf_kind fr) KHeaders && ((cf_maxStreams cfg <=? sc_open c)%Z || wasClosing) then
          let c1 := mark_closed (write_reset c (sf_sid fr) c_RefusedStreamError) (sf_sid fr) true in
          inl (discard_or_break (discard_header_block dec_field cfg c1 fr))
        else if sf_sid fr <? sc_lastID c then inl (cont (write_goaway c (sf_sid fr) c_ProtocolError))
        else
          if fkind_eqb (sf_kind fr) KHeaders && sc_closing c then
            let c1 := mark_closed (write_reset c (sf_sid fr) c_RefusedStreamError) (sf_sid fr) true in
            inl (discard_or_break (discard_header_block dec_field cfg c1 fr))
          else
            let c1 := if fkind_eqb (sf_kind fr) KHeaders then upd_lastID c (sf_sid fr) else c in
            let s := set_orig_started (new_stream (sf_sid fr) (sc_initWin c1)) (sf_kind fr) (sc_now c1) in
            let c2 := upd_strms c1 (sc_strms c1 ++ [s]) in
            let c3 := if fkind_eqb (sf_kind fr) KHeaders then upd_open c2 (sc_open c2 + 1) else c2 in
            inr (c3, s)
      end.

Lemma sl_frame_stream c fr : (sf_sid fr =? 0) = false ->
  fkind_eqb (sf_kind fr) KCont && negb (sc_discardID c =? 0) && (sf_sid fr =? sc_discardID c) = false ->
  sl_frame dec_field enc_set_max cfg c fr =
  match sl_pre c fr with inl r => r | inr (c1, s) => sl_tail fr (sc_closing c) c1 s end.
Proof. intros H1 H2. unfold sl_frame. rewrite H1, H2. reflexivity. Qed.

End Eff.

Arguments out_ext {hstate}. Arguments Quiet {hstate}. Arguments Frame {hstate}. Arguments DD {hstate}.
Arguments Closes {hstate}. Arguments settings_c0 {hstate}.
Arguments Origin {hstate}. Arguments SLF {hstate}. Arguments HFok {hstate}. Arguments new_strm {hstate}.
Arguments sl_tail {hstate}. Arguments sl_pre {hstate}.

(* what close_all was asked to close is gone from the table *)
Lemma close_all_notin hstate ids : forall c : sconn hstate, NoDup (map st_id (sc_strms c)) ->
  forall s, In s (sc_strms (close_all c ids)) -> ~ In (st_id s) ids.
Proof.
  induction ids as [|id t IH]; intros c ND s Hs; [intros []|]. cbn [close_all] in Hs.
  destruct (strms_search (sc_strms c) id) as [s0|] eqn:F.
  - apply strms_search_In in F. destruct F as [_ Hid].
    assert (ND' : NoDup (map st_id (sc_strms (close_stream c (set_state s0 SClosed))))).
    { rewrite sc_strms_close_stream. apply strms_del_NoDup. assumption. }
    intros [Eq|Hin]; [|eapply IH; eassumption].
    pose proof (Dels_In _ _ (cl_strms _ _ _ (close_all_Closes _ t _)) _ Hs) as Hs'.
    rewrite sc_strms_close_stream in Hs'. cbn [st_id set_state] in Hs'.
    eapply strms_del_not_In; [exact ND | exact Hs' | congruence].
  - intros [Eq|Hin]; [|eapply IH; eassumption].
    pose proof (Dels_In _ _ (cl_strms _ _ _ (close_all_Closes _ t _)) _ Hs) as Hs'.
    eapply strms_search_None; eauto.
Qed.

Section RL.
Variable hstate : Type.
Variable cfg : config.
Notation sconn := (sconn hstate).
Implicit Types c : sconn.

(* what the read loop never touches *)
Record RLsame c c' : Prop := mkRLsame {
  rs_strms : sc_strms c' = sc_strms c;
  rs_initWin : sc_initWin c' = sc_initWin c;
  rs_clientWindow : sc_clientWindow c' = sc_clientWindow c;
  rs_currentWindow : sc_currentWindow c' = sc_currentWindow c;
  rs_lastID : sc_lastID c' = sc_lastID c;
  rs_highestID : sc_highestID c' = sc_highestID c;
  rs_sl_done : sc_sl_done c' = sc_sl_done c;
  rs_wl_dead : sc_wl_dead c' = sc_wl_dead c;
  rs_closing : sc_closing c = true -> sc_closing c' = true;
  rs_out : out_ext quiet_out c c'
}.

Definition fwd_ok (fr : sframe) : Prop := sf_sid fr = 0 -> sf_kind fr = KSettings \/ sf_kind fr = KWinUpd.

Ltac rs_upd :=
  constructor; sc_cbn;
  first [reflexivity | (intro; assumption) | (apply out_ext_same; reflexivity) | assumption].

Lemma RLsame_refl c : RLsame c c. Proof. rs_upd. Qed.
Lemma RLsame_trans a b c : RLsame a b -> RLsame b c -> RLsame a c.
Proof.
  intros [a1 a2 a3 a4 a5 a6 a7 a8 a9 a10] [b1 b2 b3 b4 b5 b6 b7 b8 b9 b10]. constructor.
  - rewrite b1; exact a1.
  - rewrite b2; exact a2.
  - rewrite b3; exact a3.
  - rewrite b4; exact a4.
  - rewrite b5; exact a5.
  - rewrite b6; exact a6.
  - rewrite b7; exact a7.
  - rewrite b8; exact a8.
  - auto.
  - eapply out_ext_trans; eassumption.
Qed.
Lemma RLsame_Quiet c c' : Quiet c c' -> sc_highestID c' = sc_highestID c -> sc_sl_done c' = sc_sl_done c -> RLsame c c'.
Proof. intros [] H1 H2. constructor; assumption. Qed.
Lemma RLsame_write_goaway c sid code : RLsame c (write_goaway c sid code).
Proof. apply RLsame_Quiet; [apply Quiet_write_goaway | apply sc_highestID_write_goaway | apply sc_sl_done_write_goaway]. Qed.
Lemma RLsame_emit c o : quiet_out o -> RLsame c (emit c o).
Proof. intro H. apply RLsame_Quiet; [apply Quiet_emit; assumption | apply sc_highestID_emit | apply sc_sl_done_emit]. Qed.
Lemma RLsame_rl_exit c why : RLsame c (rl_exit c why).
Proof. unfold rl_exit, note. constructor; sc_cbn; first [reflexivity | (intro; assumption) | idtac]. eapply out_ext_cons; [reflexivity | exact I]. Qed.
Lemma RLsame_upd_expectCont c n : RLsame c (upd_expectCont c n). Proof. rs_upd. Qed.
Lemma RLsame_upd_readerQ c q : RLsame c (upd_readerQ c q). Proof. rs_upd. Qed.
Lemma RLsame_write_error c e : RLsame c (fst (write_error c None e)).
Proof. destruct e; cbn [write_error fst]; auto using RLsame_write_goaway, RLsame_refl. Qed.

Lemma rl_step_eff c i :
  RLsame c (rl_step cfg c i) /\
  ((sc_readerQ (rl_step cfg c i) = sc_readerQ c /\
    (forall fr, i = RFrame fr -> sf_kind fr = KData ->
       sc_closing (rl_step cfg c i) = true \/ sc_sl_done (rl_step cfg c i) = true)) \/
   (exists fr, i = RFrame fr /\ sc_readerQ (rl_step cfg c i) = sc_readerQ c ++ [fr] /\ fwd_ok fr /\
               sc_sl_done c = false /\ sc_rl_done (rl_step cfg c i) = sc_rl_done c)).
Proof.
  assert (CG : forall c0 sid code why, sc_closing (rl_exit (write_goaway c0 sid code) why) = true).
  { intros. unfold rl_exit, note. sc_cbn. apply sc_closing_write_goaway. }
  assert (EX : forall c0 c1 why, RLsame c0 c1 -> RLsame c0 (rl_exit c1 why)).
  { intros. eapply RLsame_trans; [eassumption | apply RLsame_rl_exit]. }
  assert (FW : forall c1 fr, RLsame c c1 -> sc_readerQ c1 = sc_readerQ c -> sc_rl_done c1 = sc_rl_done c ->
             (sf_sid fr = 0 -> sf_kind fr = KSettings \/ sf_kind fr = KWinUpd) ->
             RLsame c (forward c1 fr) /\
             ((sc_readerQ (forward c1 fr) = sc_readerQ c /\
               (forall fr0, RFrame fr = RFrame fr0 -> sf_kind fr0 = KData ->
                  sc_closing (forward c1 fr) = true \/ sc_sl_done (forward c1 fr) = true)) \/
              (exists fr0, RFrame fr = RFrame fr0 /\ sc_readerQ (forward c1 fr) = sc_readerQ c ++ [fr0] /\ fwd_ok fr0 /\
                           sc_sl_done c = false /\ sc_rl_done (forward c1 fr) = sc_rl_done c))).
  { intros c1 fr R Q RD OK. unfold forward. destruct (sc_sl_done c1) eqn:SD.
    - split; [apply EX; assumption|]. left. split; [unfold rl_exit, note; sc_cbn; assumption|].
      intros _ _ _. right. unfold rl_exit, note. sc_cbn. assumption.
    - split; [eapply RLsame_trans; [eassumption | apply RLsame_upd_readerQ]|]. right. exists fr.
      split; [reflexivity|]. sc_cbn. rewrite Q. split; [reflexivity|]. split; [exact OK|].
      split; [rewrite <- (rs_sl_done _ _ R); assumption | assumption]. }
  destruct i as [fr| |code|]; cbn [rl_step].
  - (* a frame *)
    match goal with |- context [match ?R with inl c' => c' | inr c1 => _ end] => set (r := R) end.
    assert (HR : match r with
                 | inl c' => RLsame c c' /\ sc_readerQ c' = sc_readerQ c /\ sc_closing c' = true
                 | inr c1 => RLsame c c1 /\ sc_readerQ c1 = sc_readerQ c /\ sc_rl_done c1 = sc_rl_done c
                 end).
    { subst r. repeat match goal with |- context [if ?b then _ else _] => destruct b end. all: try
        first [ split; [apply EX, RLsame_write_goaway | split; [unfold rl_exit, note; sc_cbn; apply sc_readerQ_write_goaway | apply CG]]
              | split; [apply RLsame_upd_expectCont | split; reflexivity]
              | split; [apply RLsame_refl | split; reflexivity] ]. }
    destruct r as [c'|c1].
    + destruct HR as (R & Q & CL). split; [assumption|]. left. split; [assumption|]. auto.
    + destruct HR as (R & Q & RD).
      destruct (negb (sf_sid fr =? 0)) eqn:NZ.
      * destruct (check_frame_with_stream fr) as [e|] eqn:CK.
        -- split; [apply EX; eapply RLsame_trans; [eassumption | apply RLsame_write_error]|].
           left. split; [unfold rl_exit, note; sc_cbn; rewrite sc_readerQ_write_error; assumption|].
           intros _ _ _. left. unfold rl_exit, note. sc_cbn.
           unfold check_frame_with_stream in CK.
           destruct (N.land (sf_sid fr) 1 =? 0); [inversion CK; apply sc_closing_write_goaway|].
           destruct (sf_kind fr); inversion CK; apply sc_closing_write_goaway.
        -- apply FW; try assumption. intro. flia.
      * destruct (sf_kind fr) eqn:K;
          try (split; [apply EX; eapply RLsame_trans; [eassumption | apply RLsame_write_goaway]|];
               left; split; [unfold rl_exit, note; sc_cbn; rewrite sc_readerQ_write_goaway; assumption|];
               intros _ _ _; left; apply CG).
        -- (* SETTINGS *)
           destruct (negb (flag_has (sf_flags fr) FL_ES)).
           ++ apply FW; try assumption. intro. rewrite K. auto.
           ++ split; [assumption|]. left. split; [assumption|]. intros fr0 E K0. inversion E; subst. congruence.
        -- (* PING *)
           destruct (negb (flag_has (sf_flags fr) FL_ES)).
           ++ split; [eapply RLsame_trans; [eassumption | apply RLsame_emit; exact I]|]. left.
              split; [rewrite sc_readerQ_emit; assumption|]. intros fr0 E K0. inversion E; subst. congruence.
           ++ split; [assumption|]. left. split; [assumption|]. intros fr0 E K0. inversion E; subst. congruence.
        -- (* GOAWAY *)
           split; [apply EX; assumption|]. left. split; [unfold rl_exit, note; sc_cbn; assumption|].
           intros fr0 E K0. inversion E; subst. congruence.
        -- (* WINDOW_UPDATE *)
           destruct (sf_inc fr =? 0).
           ++ split; [apply EX; eapply RLsame_trans; [eassumption | apply RLsame_write_goaway]|].
              left; split; [unfold rl_exit, note; sc_cbn; rewrite sc_readerQ_write_goaway; assumption|].
              intros _ _ _; left; apply CG.
           ++ apply FW; try assumption. intro. rewrite K. auto.
  - destruct (negb (sc_expectCont c =? 0)).
    + split; [apply EX, RLsame_write_goaway|]. left.
      split; [unfold rl_exit, note; sc_cbn; apply sc_readerQ_write_goaway | discriminate].
    + split; [apply RLsame_refl|]. left. split; [reflexivity | discriminate].
  - destruct code as [code|].
    + split; [apply EX, RLsame_write_goaway|]. left.
      split; [unfold rl_exit, note; sc_cbn; apply sc_readerQ_write_goaway | discriminate].
    + split; [apply EX, RLsame_refl|]. left. split; [reflexivity | discriminate].
  - split; [apply EX, RLsame_refl|]. left. split; [reflexivity | discriminate].
Qed.
End RL.

Arguments RLsame {hstate}.
Arguments Recv {hstate}.
