(* Proofs/SrvRfcSpec.v - C08: lemmas about Spec/Rfc7540Streams.v alone: how st_of moves
   under set_st / upd_st / spec_sent / forget / spec_next, and the well-formedness invariant. *)
From H2V Require Import Base.Bytes Gen.GenConsts.
From H2V Require Spec.Rfc7540Streams.
From Coq Require Import ZArith Lia ZifyN ZifyNat ZifyBool.
Local Open Scope N_scope.
Module RS := H2V.Spec.Rfc7540Streams.
Import RS.

(* every stream the table knows about is not idle and not above the highest id *)
Definition wf (s : state) : Prop :=
  forall id x, lookup (known s) id = Some x -> x <> Idle /\ id <= highest s.

Lemma wf_init : wf init.
Proof. intros id x H. discriminate H. Qed.

Lemma st_of_closed_le s id w : wf s -> st_of s id = Closed w -> id <= highest s.
Proof.
  intros W H. unfold st_of in H. destruct (N.even id); [discriminate|].
  destruct (lookup (known s) id) as [x|] eqn:E.
  - apply (W id x E).
  - destruct (id <=? highest s) eqn:L; [lia | discriminate].
Qed.

Lemma st_of_notidle_le s id : wf s -> st_of s id <> Idle -> id <= highest s.
Proof.
  intros W H. unfold st_of in H. destruct (N.even id); [congruence|].
  destruct (lookup (known s) id) as [x|] eqn:E.
  - apply (W id x E).
  - destruct (id <=? highest s) eqn:L; [lia | congruence].
Qed.

Lemma st_of_idle_gt s id : wf s -> N.odd id = true -> st_of s id = Idle -> highest s < id.
Proof.
  intros W O H. unfold st_of in H. rewrite <- N.negb_odd, O in H. cbn [negb] in H.
  destruct (lookup (known s) id) as [x|] eqn:E.
  - subst x. destruct (W id Idle E) as [C _]. congruence.
  - destruct (id <=? highest s) eqn:L; [discriminate | lia].
Qed.

Lemma st_of_even s id : N.even id = true -> st_of s id = Idle.
Proof. intro E. unfold st_of. rewrite E. reflexivity. Qed.

Lemma st_of_set_st_same s j x : N.odd j = true -> st_of (set_st s j x) j = x.
Proof. intro O. unfold st_of, set_st. rewrite <- N.negb_odd, O. cbn. rewrite N.eqb_refl. reflexivity. Qed.

(* raising the highest id closes the idle odd ids it skips; nothing else moves *)
Lemma st_of_set_st_other s j x id : wf s -> id <> j ->
  st_of (set_st s j x) id =
  match st_of s id with
  | Idle => if N.odd id && (id <=? j) then Closed Implicit else Idle
  | y => y
  end.
Proof.
  intros W Hne. unfold st_of at 1, set_st. cbn [known highest lookup].
  destruct (j =? id) eqn:E; [lia|]. unfold st_of.
  rewrite <- N.negb_odd. destruct (N.odd id); cbn [negb andb]; [|reflexivity].
  destruct (lookup (known s) id) as [y|] eqn:L.
  - destruct (W id y L) as [NI _]. destruct y; congruence.
  - destruct (id <=? highest s) eqn:A.
    + replace (id <=? N.max (highest s) j) with true by lia. reflexivity.
    + destruct (id <=? j) eqn:B.
      * replace (id <=? N.max (highest s) j) with true by lia. reflexivity.
      * replace (id <=? N.max (highest s) j) with false by lia. reflexivity.
Qed.

Lemma st_of_set_st_le s j x id : wf s -> j <= highest s -> id <> j -> st_of (set_st s j x) id = st_of s id.
Proof.
  intros W Hle Hne. rewrite st_of_set_st_other by assumption.
  destruct (st_of s id) eqn:E; try reflexivity.
  destruct (N.odd id) eqn:O; cbn [andb]; [|reflexivity].
  pose proof (st_of_idle_gt s id W O E). replace (id <=? j) with false by lia. reflexivity.
Qed.

Lemma wf_set_st s j x : wf s -> x <> Idle -> wf (set_st s j x).
Proof.
  intros W Hx id y H. unfold set_st in *. cbn [known highest lookup] in *.
  destruct (j =? id) eqn:E.
  - inversion H; subst y. split; [assumption | lia].
  - destruct (W id y H). split; [assumption | lia].
Qed.

Lemma highest_set_st s j x : highest (set_st s j x) = N.max (highest s) j.
Proof. reflexivity. Qed.
Lemma block_set_st s j x : block (set_st s j x) = block s. Proof. reflexivity. Qed.
Lemma goaway_set_st s j x : goaway (set_st s j x) = goaway s. Proof. reflexivity. Qed.
Lemma dead_set_st s j x : dead (set_st s j x) = dead s. Proof. reflexivity. Qed.

(* components that only matter through st_of *)
Definition same_streams (a b : state) : Prop := highest b = highest a /\ known b = known a.

Lemma st_of_same a b id : same_streams a b -> st_of b id = st_of a id.
Proof. intros [H K]. unfold st_of. rewrite H, K. reflexivity. Qed.

Lemma wf_same a b : same_streams a b -> wf a -> wf b.
Proof. intros [H K] W id x L. rewrite K in L. rewrite H. exact (W id x L). Qed.

Lemma same_with_block s b : same_streams s (with_block s b). Proof. split; reflexivity. Qed.
Lemma same_die s : same_streams s (die s). Proof. split; reflexivity. Qed.

Lemma st_of_upd_st_same s j x : N.odd j = true -> st_of (upd_st s j x) j = x.
Proof.
  intro O. unfold upd_st. destruct (st_of s j) eqn:E; try (apply st_of_set_st_same; exact O).
  destruct x; try (apply st_of_set_st_same; exact O). exact E.
Qed.

Lemma upd_st_cases s j x : upd_st s j x = set_st s j x \/ (upd_st s j x = s /\ st_of s j = Idle /\ x = Idle).
Proof.
  unfold upd_st. destruct (st_of s j) eqn:E; auto. destruct x; auto.
Qed.

Lemma wf_upd_st s j x : wf s -> (x = Idle -> st_of s j = Idle) -> wf (upd_st s j x).
Proof.
  intros W H. unfold upd_st. destruct (st_of s j) eqn:E.
  - destruct x; try (apply wf_set_st; [assumption | congruence]). assumption.
  - apply wf_set_st; [assumption|]. intro X. specialize (H X). congruence.
  - apply wf_set_st; [assumption|]. intro X. specialize (H X). congruence.
  - apply wf_set_st; [assumption|]. intro X. specialize (H X). congruence.
  - apply wf_set_st; [assumption|]. intro X. specialize (H X). congruence.
Qed.

Definition sent_sid (o : sent) : option N :=
  match o with SentEndStream i | SentRst i => Some i | _ => None end.

(* what a send does to the state of its own stream *)
Definition sent_st (x : sstate) (o : sent) : sstate :=
  match o, x with
  | SentEndStream _, Open => HalfClosedLocal
  | SentEndStream _, HalfClosedRemote => Closed PeerEnd
  | SentRst _, (Open | HalfClosedLocal | HalfClosedRemote) => Closed WeRst
  | _, _ => x
  end.

Lemma st_of_spec_sent s o id : wf s ->
  st_of (spec_sent s o) id = if match sent_sid o with Some j => j =? id | None => false end then sent_st (st_of s id) o else st_of s id.
Proof.
  intros W. destruct (N.odd id) eqn:O.
  2:{ assert (Ev : N.even id = true) by (rewrite <- N.negb_odd, O; reflexivity).
      rewrite (st_of_even s id Ev), (st_of_even (spec_sent s o) id Ev).
      destruct o as [j|j| |]; cbn; try reflexivity; destruct (_ =? _); reflexivity. }
  destruct o as [j|j| |]; cbn [sent_sid spec_sent].
  - destruct (j =? id) eqn:E.
    + apply N.eqb_eq in E. subst j. destruct (st_of s id) eqn:X; cbn [sent_st]; rewrite ?st_of_set_st_same; auto.
    + assert (id <> j) by lia.
      destruct (st_of s j) eqn:X; try reflexivity;
        (rewrite st_of_set_st_le; [reflexivity | assumption | | assumption]);
        apply st_of_notidle_le; try assumption; congruence.
  - destruct (j =? id) eqn:E.
    + apply N.eqb_eq in E. subst j. destruct (st_of s id) eqn:X; cbn [sent_st]; rewrite ?st_of_set_st_same; auto.
    + assert (id <> j) by lia.
      destruct (st_of s j) eqn:X; try reflexivity;
        (rewrite st_of_set_st_le; [reflexivity | assumption | | assumption]);
        apply st_of_notidle_le; try assumption; congruence.
  - reflexivity.
  - reflexivity.
Qed.

Lemma wf_spec_sent s o : wf s -> wf (spec_sent s o).
Proof.
  intros W. destruct o as [j|j| |]; cbn [spec_sent].
  - destruct (st_of s j); try assumption; apply wf_set_st; try assumption; congruence.
  - destruct (st_of s j); try assumption; apply wf_set_st; try assumption; congruence.
  - intros id x L. exact (W id x L).
  - intros id x L. exact (W id x L).
Qed.

Lemma highest_spec_sent s o : wf s -> highest (spec_sent s o) = highest s.
Proof.
  intros W. destruct o as [j|j| |]; cbn [spec_sent]; try reflexivity.
  - destruct (st_of s j) eqn:X; try reflexivity; rewrite highest_set_st;
      assert (j <= highest s) by (apply st_of_notidle_le; [assumption | congruence]); lia.
  - destruct (st_of s j) eqn:X; try reflexivity; rewrite highest_set_st;
      assert (j <= highest s) by (apply st_of_notidle_le; [assumption | congruence]); lia.
Qed.

Lemma block_spec_sent s o : block (spec_sent s o) = block s.
Proof. destruct o as [j|j| |]; cbn [spec_sent]; try reflexivity; destruct (st_of s j); reflexivity. Qed.

Lemma goaway_spec_sent s o :
  goaway (spec_sent s o) = match o with SentGoAway | Closed_connection => true | _ => goaway s end.
Proof. destruct o as [j|j| |]; cbn [spec_sent]; try reflexivity; destruct (st_of s j); reflexivity. Qed.

Lemma dead_spec_sent s o :
  dead (spec_sent s o) = match o with Closed_connection => true | _ => dead s end.
Proof. destruct o as [j|j| |]; cbn [spec_sent]; try reflexivity; destruct (st_of s j); reflexivity. Qed.

Lemma wf_fold_sent l : forall s, wf s -> wf (fold_left spec_sent l s).
Proof. induction l as [|o l IH]; intros s W; cbn [fold_left]; [assumption|]. apply IH, wf_spec_sent, W. Qed.

Lemma highest_fold_sent l : forall s, wf s -> highest (fold_left spec_sent l s) = highest s.
Proof.
  induction l as [|o l IH]; intros s W; cbn [fold_left]; [reflexivity|].
  rewrite IH by (apply wf_spec_sent, W). apply highest_spec_sent, W.
Qed.

Lemma block_fold_sent l : forall s, block (fold_left spec_sent l s) = block s.
Proof. induction l as [|o l IH]; intros s; cbn [fold_left]; [reflexivity|]. rewrite IH. apply block_spec_sent. Qed.

Lemma st_of_fold_sent_untouched l id : forall s, wf s ->
  (forall o, In o l -> sent_sid o <> Some id) ->
  st_of (fold_left spec_sent l s) id = st_of s id.
Proof.
  induction l as [|o l IH]; intros s W H; cbn [fold_left]; [reflexivity|].
  rewrite IH; [| apply wf_spec_sent, W | intros o' Ho'; apply H; right; exact Ho'].
  rewrite st_of_spec_sent by assumption.
  specialize (H o (or_introl eq_refl)). destruct (sent_sid o) as [j|]; [|reflexivity].
  destruct (j =? id) eqn:E; [|reflexivity]. apply N.eqb_eq in E. congruence.
Qed.

Definition has_close (l : list sent) : bool := existsb (fun o => match o with Closed_connection => true | _ => false end) l.
Definition has_goaway (l : list sent) : bool :=
  existsb (fun o => match o with SentGoAway | Closed_connection => true | _ => false end) l.

Lemma dead_fold_sent l : forall s, dead (fold_left spec_sent l s) = dead s || has_close l.
Proof.
  induction l as [|o l IH]; intros s; cbn [fold_left has_close existsb]; [rewrite orb_false_r; reflexivity|].
  rewrite IH, dead_spec_sent. fold (has_close l). destruct o; cbn; try reflexivity; rewrite ?orb_true_r; try reflexivity;
  try (destruct (dead s); reflexivity).
Qed.

Lemma goaway_fold_sent l : forall s, goaway (fold_left spec_sent l s) = goaway s || has_goaway l.
Proof.
  induction l as [|o l IH]; intros s; cbn [fold_left has_goaway existsb]; [rewrite orb_false_r; reflexivity|].
  rewrite IH, goaway_spec_sent. fold (has_goaway l). destruct o; cbn; try reflexivity; rewrite ?orb_true_r; try reflexivity;
  try (destruct (goaway s); reflexivity).
Qed.

Lemma st_of_forget s j id : wf s ->
  st_of (forget s j) id = if j =? id then match st_of s id with Closed _ => Closed Implicit | x => x end else st_of s id.
Proof.
  intros W. unfold forget. destruct (j =? id) eqn:E.
  - apply N.eqb_eq in E. subst j. destruct (st_of s id) eqn:X; try exact X. apply st_of_set_st_same.
    destruct (N.odd id) eqn:O; [reflexivity|]. rewrite st_of_even in X; [discriminate|]. rewrite <- N.negb_odd, O. reflexivity.
  - destruct (st_of s j) eqn:X; try reflexivity.
    apply st_of_set_st_le; [assumption | | lia]. eapply st_of_closed_le; eassumption.
Qed.

Lemma wf_forget s j : wf s -> wf (forget s j).
Proof. intros W. unfold forget. destruct (st_of s j); try assumption. apply wf_set_st; [assumption | congruence]. Qed.

Lemma highest_forget s j : wf s -> highest (forget s j) = highest s.
Proof.
  intros W. unfold forget. destruct (st_of s j) eqn:X; try reflexivity.
  rewrite highest_set_st. pose proof (st_of_closed_le s j w W X). lia.
Qed.

Lemma block_forget s j : block (forget s j) = block s.
Proof. unfold forget. destruct (st_of s j); reflexivity. Qed.
Lemma goaway_forget s j : goaway (forget s j) = goaway s.
Proof. unfold forget. destruct (st_of s j); reflexivity. Qed.
Lemma dead_forget s j : dead (forget s j) = dead s.
Proof. unfold forget. destruct (st_of s j); reflexivity. Qed.

(* forgetting a set of ids chosen by a predicate on ids *)
Section Forget.
Variable keep : N -> bool.
Definition fstep (s : state) (id : N) : state := if keep id then s else forget s id.

Lemma fold_fstep_props l : forall s, wf s ->
  wf (fold_left fstep l s) /\ highest (fold_left fstep l s) = highest s /\ block (fold_left fstep l s) = block s /\
  goaway (fold_left fstep l s) = goaway s /\ dead (fold_left fstep l s) = dead s /\
  forall id, st_of (fold_left fstep l s) id =
    if negb (keep id) && existsb (N.eqb id) l then match st_of s id with Closed _ => Closed Implicit | x => x end
    else st_of s id.
Proof.
  induction l as [|j l IH]; intros s W; cbn [fold_left].
  - split; [assumption|]. do 4 (split; [reflexivity|]). intro id. cbn [existsb]. rewrite andb_false_r. reflexivity.
  - assert (W1 : wf (fstep s j)) by (unfold fstep; destruct (keep j); [assumption | apply wf_forget, W]).
    destruct (IH (fstep s j) W1) as (A & B & C & D & E & F).
    split; [exact A|]. split; [rewrite B; unfold fstep; destruct (keep j); [reflexivity | apply highest_forget, W]|].
    split; [rewrite C; unfold fstep; destruct (keep j); [reflexivity | apply block_forget]|].
    split; [rewrite D; unfold fstep; destruct (keep j); [reflexivity | apply goaway_forget]|].
    split; [rewrite E; unfold fstep; destruct (keep j); [reflexivity | apply dead_forget]|].
    intro id. rewrite F. cbn [existsb].
    assert (Hst : st_of (fstep s j) id = if negb (keep id) && (id =? j) then match st_of s id with Closed _ => Closed Implicit | x => x end else st_of s id).
    { unfold fstep. destruct (id =? j) eqn:Eq.
      - apply N.eqb_eq in Eq. subst j. destruct (keep id); cbn [negb andb]; [reflexivity|].
        rewrite st_of_forget by assumption. rewrite N.eqb_refl. reflexivity.
      - rewrite andb_false_r. destruct (keep j); [reflexivity|]. rewrite st_of_forget by assumption.
        replace (j =? id) with false by lia. reflexivity. }
    rewrite Hst. destruct (keep id); cbn [negb andb]; [reflexivity|].
    destruct (id =? j); cbn [orb]; [|reflexivity].
    destruct (existsb (N.eqb id) l); [|reflexivity]. destruct (st_of s id); reflexivity.
Qed.
End Forget.

Lemma lookup_in_known s id x : lookup (known s) id = Some x -> existsb (N.eqb id) (map fst (known s)) = true.
Proof.
  induction (known s) as [|[i y] l IH]; cbn [lookup map existsb fst]; [discriminate|].
  destruct (i =? id) eqn:E.
  - intros _. replace (id =? i) with true by lia. reflexivity.
  - intro H. rewrite (IH H). apply orb_true_r.
Qed.

(* closed in a way that is remembered => the id is in the known list *)
Lemma closed_known s id w : st_of s id = Closed w -> w <> Implicit -> existsb (N.eqb id) (map fst (known s)) = true.
Proof.
  unfold st_of. destruct (N.even id); [discriminate|]. destruct (lookup (known s) id) eqn:L.
  - intros _ _. eapply lookup_in_known; eassumption.
  - destruct (id <=? highest s); [|discriminate].
    intros H. inversion H. congruence.
Qed.

Definition next_st (x : sstate) (f : frame) (r : reaction) : sstate :=
  match r with Process => receive x f | StreamErr _ => reset x f | _ => x end.

Definition conn_err (r : reaction) : bool := match r with ConnErr _ | ConnClose => true | _ => false end.

Lemma receive_idle x f : receive x f = Idle -> x = Idle.
Proof. unfold receive. destruct x, (f_kind f); try destruct (f_es f); congruence. Qed.
Lemma reset_idle x f : reset x f = Idle -> x = Idle.
Proof. unfold reset. destruct x, (f_kind f); congruence. Qed.
Lemma next_st_idle x f r : next_st x f r = Idle -> x = Idle.
Proof. destruct r; cbn; auto; [apply receive_idle | apply reset_idle]. Qed.

(* the part of spec_next before the stream's own state is touched *)
Definition pre_next (s : state) (f : frame) : state :=
  if in_sequence s f then with_block s (if f_eh f then None else Some (f_sid f)) else s.

Lemma same_pre_next s f : same_streams s (pre_next s f).
Proof. unfold pre_next. destruct (in_sequence s f); [apply same_with_block | split; reflexivity]. Qed.

Lemma spec_next_frame s f r :
  spec_next s (Frame f) r =
  if conn_err r then die (pre_next s f)
  else if (f_sid f =? 0) || match r with Ignore => true | _ => false end then pre_next s f
  else upd_st (pre_next s f) (f_sid f) (next_st (st_of s (f_sid f)) f r).
Proof.
  unfold spec_next, pre_next. destruct r; cbn [conn_err next_st]; try reflexivity.
  - destruct (f_sid f =? 0); reflexivity.
  - rewrite orb_true_r. reflexivity.
  - destruct (f_sid f =? 0); reflexivity.
Qed.

Lemma block_upd_st s j x : block (upd_st s j x) = block s.
Proof. destruct (upd_st_cases s j x) as [->|[-> _]]; reflexivity. Qed.
Lemma goaway_upd_st s j x : goaway (upd_st s j x) = goaway s.
Proof. destruct (upd_st_cases s j x) as [->|[-> _]]; reflexivity. Qed.
Lemma dead_upd_st s j x : dead (upd_st s j x) = dead s.
Proof. destruct (upd_st_cases s j x) as [->|[-> _]]; reflexivity. Qed.

Lemma block_pre_next s f :
  block (pre_next s f) = if in_sequence s f then (if f_eh f then None else Some (f_sid f)) else block s.
Proof. unfold pre_next. destruct (in_sequence s f); reflexivity. Qed.
Lemma goaway_pre_next s f : goaway (pre_next s f) = goaway s.
Proof. unfold pre_next. destruct (in_sequence s f); reflexivity. Qed.
Lemma dead_pre_next s f : dead (pre_next s f) = dead s.
Proof. unfold pre_next. destruct (in_sequence s f); reflexivity. Qed.

Lemma block_spec_next s f r :
  block (spec_next s (Frame f) r) = if in_sequence s f then (if f_eh f then None else Some (f_sid f)) else block s.
Proof.
  rewrite spec_next_frame. destruct (conn_err r); [cbn [die block]; apply block_pre_next|].
  destruct (_ || _); [apply block_pre_next | rewrite block_upd_st; apply block_pre_next].
Qed.

Lemma goaway_spec_next s f r : goaway (spec_next s (Frame f) r) = goaway s || conn_err r.
Proof.
  rewrite spec_next_frame. destruct (conn_err r); [cbn; rewrite orb_true_r; reflexivity|]. rewrite orb_false_r.
  destruct (_ || _); [apply goaway_pre_next | rewrite goaway_upd_st; apply goaway_pre_next].
Qed.

Lemma dead_spec_next s f r : dead (spec_next s (Frame f) r) = dead s || conn_err r.
Proof.
  rewrite spec_next_frame. destruct (conn_err r); [cbn; rewrite orb_true_r; reflexivity|]. rewrite orb_false_r.
  destruct (_ || _); [apply dead_pre_next | rewrite dead_upd_st; apply dead_pre_next].
Qed.

Lemma wf_spec_next s i r : wf s -> wf (spec_next s i r).
Proof.
  intro W. destruct i as [f| |code|].
  - rewrite spec_next_frame. pose proof (same_pre_next s f) as Sm. pose proof (wf_same _ _ Sm W) as W1.
    destruct (conn_err r); [eapply wf_same; [apply same_die | exact W1]|].
    destruct (_ || _); [exact W1|]. apply wf_upd_st; [exact W1|].
    intro E. apply next_st_idle in E. rewrite (st_of_same _ _ _ Sm). exact E.
  - cbn. destruct r; try exact W; (eapply wf_same; [apply same_die | exact W]).
  - cbn. destruct r; try exact W; (eapply wf_same; [apply same_die | exact W]).
  - cbn. destruct r; try exact W; (eapply wf_same; [apply same_die | exact W]).
Qed.

(* the stream a frame is on *)
Lemma st_of_spec_next_same s f r : N.odd (f_sid f) = true ->
  st_of (spec_next s (Frame f) r) (f_sid f) = next_st (st_of s (f_sid f)) f (if conn_err r then Ignore else r).
Proof.
  intro O. assert (Hz : f_sid f <> 0) by (intro Z; rewrite Z in O; discriminate). rewrite spec_next_frame. pose proof (same_pre_next s f) as Sm.
  destruct (conn_err r) eqn:CE.
  - cbn [next_st]. rewrite (st_of_same _ _ _ (same_die _)). apply st_of_same, Sm.
  - replace (f_sid f =? 0) with false by lia. cbn [orb].
    destruct r; cbn [next_st]; try discriminate; try (apply st_of_upd_st_same; exact O). apply st_of_same, Sm.
Qed.

(* every other stream: an idle odd id below a newly used one is closed implicitly *)
Lemma st_of_spec_next_other s f r id : wf s -> id <> f_sid f ->
  st_of (spec_next s (Frame f) r) id =
  match st_of s id with
  | Idle => if N.odd id && (id <=? highest (spec_next s (Frame f) r)) then Closed Implicit else Idle
  | y => y
  end.
Proof.
  intros W Hne. rewrite spec_next_frame. pose proof (same_pre_next s f) as Sm. pose proof (wf_same _ _ Sm W) as W1.
  assert (Stay : forall s', same_streams s s' ->
            st_of s' id = match st_of s id with
                          | Idle => if N.odd id && (id <=? highest s') then Closed Implicit else Idle
                          | y => y end).
  { intros s' Sm'. rewrite (st_of_same _ _ _ Sm'). destruct (st_of s id) eqn:X; try reflexivity.
    destruct (N.odd id) eqn:O; cbn [andb]; [|reflexivity].
    pose proof (st_of_idle_gt s id W O X). destruct Sm' as [Hh _]. rewrite Hh.
    replace (id <=? highest s) with false by lia. reflexivity. }
  destruct (conn_err r).
  { apply Stay. destruct Sm as [A B]. split; cbn; assumption. }
  destruct (_ || _); [apply Stay, Sm|].
  destruct (upd_st_cases (pre_next s f) (f_sid f) (next_st (st_of s (f_sid f)) f r)) as [->|[-> _]]; [|apply Stay, Sm].
  rewrite st_of_set_st_other by assumption. rewrite (st_of_same _ _ _ Sm), highest_set_st.
  destruct (st_of s id) eqn:X; try reflexivity.
  destruct (N.odd id) eqn:O; cbn [andb]; [|reflexivity].
  pose proof (st_of_idle_gt s id W O X). destruct Sm as [Hh _]. rewrite Hh.
  destruct (id <=? f_sid f) eqn:L.
  - replace (id <=? N.max (highest s) (f_sid f)) with true by lia. reflexivity.
  - replace (id <=? N.max (highest s) (f_sid f)) with false by lia. reflexivity.
Qed.

Lemma highest_spec_next s f r :
  highest (spec_next s (Frame f) r) =
  if negb (conn_err r) && negb (f_sid f =? 0) && match r with Ignore => false | _ => true end
     && match st_of s (f_sid f), next_st (st_of s (f_sid f)) f r with Idle, Idle => false | _, _ => true end
  then N.max (highest s) (f_sid f) else highest s.
Proof.
  rewrite spec_next_frame. pose proof (same_pre_next s f) as Sm. destruct Sm as [Hh Hk].
  destruct r; cbn [conn_err negb andb next_st]; try (cbn; exact Hh);
    destruct (f_sid f =? 0); cbn [orb negb andb]; try exact Hh.
  - unfold upd_st. rewrite (st_of_same s (pre_next s f) _ (conj Hh Hk)).
    destruct (st_of s (f_sid f)), (receive _ f); cbn; rewrite ?Hh; reflexivity.
  - unfold upd_st. rewrite (st_of_same s (pre_next s f) _ (conj Hh Hk)).
    destruct (st_of s (f_sid f)), (reset _ f); cbn; rewrite ?Hh; reflexivity.
Qed.

Lemma spec_next_other_input s i r : (forall f, i <> Frame f) ->
  spec_next s i r = if conn_err r then die s else s.
Proof. intro H. destruct i as [f| |code|]; [exfalso; eapply H; reflexivity | | |]; destruct r; reflexivity. Qed.

Definition on_id (id : N) (o : sent) : bool := match sent_sid o with Some j => j =? id | None => false end.

Lemma st_of_fold_sent l : forall s id, wf s ->
  st_of (fold_left spec_sent l s) id = fold_left sent_st (filter (on_id id) l) (st_of s id).
Proof.
  induction l as [|o l IH]; intros s id W; cbn [fold_left filter]; [reflexivity|].
  rewrite IH by (apply wf_spec_sent, W). rewrite st_of_spec_sent by exact W. unfold on_id at 2.
  destruct (match sent_sid o with Some j => j =? id | None => false end); reflexivity.
Qed.
