(* C04, part 4: search (hpack.go) returns an index of the encoder's own table, read as the
   RFC 7541 2.3.3 index space, whose entry has the field's name (and value on a full match).

   The dynamic table is kept oldest first, so position k is index 62 + len - k - 1, computed in
   uint64: the statement needs len(hp.dynamic) to be a Go slice length (below 2^63); see
   [search_sound_needs_bound] for what happens otherwise. *)
From Coq Require Import List NArith ZArith Bool Lia.
From H2V Require Import Base.Bytes Base.MachineInt Base.Result Gen.GenConsts Gen.GenStatic
     Impl.Huffman Impl.Hpack Spec.Rfc7541Huffman Spec.Rfc7541
     Proofs.HpackDefs Proofs.HpackBytes Proofs.HpackStatic.
Import ListNotations.
Local Open Scope N_scope.

Lemma nth_error_rev {A} (l : list A) k : (k < length l)%nat ->
  nth_error (rev l) (length l - S k) = nth_error l k.
Proof.
  revert k. induction l as [|a l IH]; intros k H; [simpl in H; lia|].
  cbn [rev length]. destruct k as [|k].
  - rewrite nth_error_app2 by (rewrite rev_length; lia).
    rewrite rev_length. replace (S (length l) - 1 - length l)%nat with 0%nat by lia. reflexivity.
  - cbn [nth_error]. simpl in H.
    rewrite nth_error_app1 by (rewrite rev_length; lia).
    replace (S (length l) - S (S k))%nat with (length l - S k)%nat by lia.
    apply IH. lia.
Qed.

(* position k of the whole table, and its index *)
Definition dyn_hit (all : list field) (hf : field) (n : N) : Prop :=
  exists k f2, nth_error all k = Some f2 /\ f_key f2 = f_key hf /\ f_value f2 = f_value hf /\
               n = u64 (c_maxIndex + N.of_nat (length all) - N.of_nat k - 1).

Lemma search_dynamic_spec hf dlen : forall dyn pre n fm,
  search_dynamic dyn (N.of_nat (length pre)) dlen hf = (n, fm) ->
  dlen = N.of_nat (length (pre ++ dyn)) ->
  (n = 0 /\ fm = false) \/ (fm = true /\ dyn_hit (pre ++ dyn) hf n).
Proof.
  induction dyn as [|f2 dyn IH]; intros pre n fm H Hlen.
  - cbn in H. injection H as <- <-. left. split; reflexivity.
  - cbn [search_dynamic] in H.
    destruct (bytes_eqb (f_key hf) (f_key f2) && bytes_eqb (f_value hf) (f_value f2)) eqn:E.
    + injection H as <- <-. right. split; [reflexivity|].
      apply andb_prop in E. destruct E as [E1 E2].
      apply bytes_eqb_eq in E1. apply bytes_eqb_eq in E2.
      exists (length pre), f2. repeat split.
      * rewrite nth_error_app2 by lia. rewrite Nat.sub_diag. reflexivity.
      * symmetry. exact E1.
      * symmetry. exact E2.
      * rewrite Hlen. reflexivity.
    + replace (N.of_nat (length pre) + 1) with (N.of_nat (length (pre ++ [f2]))) in H
        by (rewrite app_length; simpl; lia).
      replace (pre ++ f2 :: dyn) with ((pre ++ [f2]) ++ dyn) in * by (rewrite <- app_assoc; reflexivity).
      apply IH; assumption.
Qed.

(* n is 0, or an index whose entry has the name (and the value when fm) *)
Definition stat_hit (hf : field) (n : N) (fm : bool) : Prop :=
  n = 0 \/ exists f2, 1 <= n /\ nth_error static_fields (N.to_nat (n - 1)) = Some f2 /\
                      f_key f2 = f_key hf /\ (fm = true -> f_value f2 = f_value hf).

Lemma search_static_spec hf : forall tbl pre n0 fm0 n fm,
  static_fields = pre ++ tbl -> stat_hit hf n0 fm0 ->
  search_static tbl (N.of_nat (length pre)) hf n0 fm0 = (n, fm) -> stat_hit hf n fm.
Proof.
  induction tbl as [|f2 tbl IH]; intros pre n0 fm0 n fm Hall H0 H.
  - cbn in H. injection H as <- <-. exact H0.
  - cbn [search_static] in H.
    assert (nth_error static_fields (length pre) = Some f2) as Hnth.
    { rewrite Hall, nth_error_app2 by lia. rewrite Nat.sub_diag. reflexivity. }
    assert (N.of_nat (length pre) + 1 = N.of_nat (length (pre ++ [f2]))) as Hi
      by (rewrite app_length; simpl; lia).
    assert (static_fields = (pre ++ [f2]) ++ tbl) as Hall' by (rewrite <- app_assoc; exact Hall).
    destruct (bytes_eqb (f_key hf) (f_key f2)) eqn:E1.
    + apply bytes_eqb_eq in E1.
      destruct (bytes_eqb (f_value hf) (f_value f2)) eqn:E2.
      * apply bytes_eqb_eq in E2. injection H as <- <-. right. exists f2.
        replace (N.to_nat (N.of_nat (length pre) + 1 - 1)) with (length pre) by lia.
        repeat split; [lia | exact Hnth | symmetry; exact E1 | intros _; symmetry; exact E2].
      * rewrite Hi in H. apply (IH _ _ _ _ _ Hall') in H; [exact H|].
        destruct (n0 =? 0) eqn:En.
        -- right. exists f2. rewrite <- Hi.
           replace (N.to_nat (N.of_nat (length pre) + 1 - 1)) with (length pre) by lia.
           repeat split; [lia | exact Hnth | symmetry; exact E1 | discriminate].
        -- apply N.eqb_neq in En. destruct H0 as [H0|[g [G1 [G2 [G3 G4]]]]]; [contradiction|].
           right. exists g. repeat split; [exact G1 | exact G2 | exact G3 | discriminate].
    + rewrite Hi in H. apply (IH _ _ _ _ _ Hall') in H; [exact H | exact H0].
Qed.

(* what an index returned by search is, in terms of the encoder's own table *)
Definition search_hit (st : hpack_state) (hf : field) (n : N) (fm : bool) : Prop :=
  (fm = true /\ c_maxIndex <= n /\ dyn_hit (h_dynamic st) hf n) \/
  (n <= static_len /\ stat_hit hf n fm).

Lemma dyn_hit_range all hf n : N.of_nat (length all) < 2 ^ 63 -> dyn_hit all hf n ->
  c_maxIndex <= n < c_maxIndex + N.of_nat (length all).
Proof.
  intros Hlen [k [f2 [Hnth [_ [_ ->]]]]].
  assert (k < length all)%nat as Hk by (apply nth_error_Some; rewrite Hnth; discriminate).
  unfold c_maxIndex in *. rewrite u64_small; [lia|].
  change (2 ^ 63) with 9223372036854775808 in Hlen. change (2 ^ 64) with 18446744073709551616. lia.
Qed.

Lemma stat_hit_range hf n fm : stat_hit hf n fm -> n <= static_len.
Proof.
  intros [->|[f2 [H1 [Hnth _]]]]; [rewrite static_len_61; lia|].
  assert (N.to_nat (n - 1) < length static_fields)%nat as Hk by (apply nth_error_Some; rewrite Hnth; discriminate).
  rewrite static_fields_length in Hk. rewrite static_len_61. lia.
Qed.

Lemma search_static_spec0 hf n fm :
  search_static static_fields 0 hf 0 false = (n, fm) -> stat_hit hf n fm.
Proof.
  intros H.
  exact (search_static_spec hf static_fields [] 0 false n fm eq_refl (or_introl eq_refl) H).
Qed.

Lemma search_dynamic_spec0 hf dyn n fm :
  search_dynamic dyn 0 (N.of_nat (length dyn)) hf = (n, fm) ->
  (n = 0 /\ fm = false) \/ (fm = true /\ dyn_hit dyn hf n).
Proof.
  intros H.
  exact (search_dynamic_spec hf (N.of_nat (length dyn)) dyn [] n fm H eq_refl).
Qed.

Lemma search_unfold st hf : search st hf =
  let '(n, fullMatch) := search_dynamic (h_dynamic st) 0 (N.of_nat (length (h_dynamic st))) hf in
  if n =? 0 then search_static static_fields 0 hf 0 fullMatch else (n, fullMatch).
Proof. reflexivity. Qed.

Theorem search_spec st hf n fm : N.of_nat (length (h_dynamic st)) < 2 ^ 63 ->
  search st hf = (n, fm) -> search_hit st hf n fm.
Proof.
  intros Hlen H. rewrite search_unfold in H.
  destruct (search_dynamic (h_dynamic st) 0 (N.of_nat (length (h_dynamic st))) hf) as [n1 fm1] eqn:E.
  apply search_dynamic_spec0 in E.
  destruct E as [[-> ->]|[-> Hd]].
  - rewrite N.eqb_refl in H.
    apply search_static_spec0 in H.
    right. split; [eapply stat_hit_range; exact H | exact H].
  - pose proof (dyn_hit_range _ _ _ Hlen Hd) as R.
    replace (n1 =? 0) with false in H by (symmetry; apply N.eqb_neq; unfold c_maxIndex in R; lia).
    injection H as <- <-. left. split; [reflexivity|]. split; [apply R | exact Hd].
Qed.

(* a name-only match is always a static index *)
Corollary search_name_only_static st hf n : N.of_nat (length (h_dynamic st)) < 2 ^ 63 ->
  search st hf = (n, false) -> n <= static_len.
Proof.
  intros Hlen H. destruct (search_spec st hf n false Hlen H) as [[F _]|[R _]]; [discriminate | exact R].
Qed.

(* ... in the index space of the specification *)
Lemma lookup_dyn_hit st hf n : N.of_nat (length (h_dynamic st)) < 2 ^ 63 ->
  dyn_hit (h_dynamic st) hf n -> lookup (abs st) n = Some (f_key hf, f_value hf).
Proof.
  intros Hlen Hd. pose proof (dyn_hit_range _ _ _ Hlen Hd) as R.
  destruct Hd as [k [f2 [Hnth [K [V ->]]]]].
  assert (k < length (h_dynamic st))%nat as Hk by (apply nth_error_Some; rewrite Hnth; discriminate).
  set (L := length (h_dynamic st)) in *.
  assert (u64 (c_maxIndex + N.of_nat L - N.of_nat k - 1) = c_maxIndex + N.of_nat L - N.of_nat k - 1) as Eu.
  { apply u64_small. unfold c_maxIndex.
    change (2 ^ 63) with 9223372036854775808 in Hlen. change (2 ^ 64) with 18446744073709551616. lia. }
  rewrite Eu in *. unfold c_maxIndex in *.
  unfold lookup. rewrite static_len_61. cbn [abs dt_entries].
  rewrite rev_length, map_length. fold L.
  replace (62 + N.of_nat L - N.of_nat k - 1 =? 0) with false by (symmetry; apply N.eqb_neq; lia).
  replace (62 + N.of_nat L - N.of_nat k - 1 <=? 61) with false by (symmetry; apply N.leb_gt; lia).
  replace (62 + N.of_nat L - N.of_nat k - 1 <=? 61 + N.of_nat L) with true by (symmetry; apply N.leb_le; lia).
  unfold idx.
  replace (N.to_nat (62 + N.of_nat L - N.of_nat k - 1 - 61 - 1)) with (length (map (fun f => (f_key f, f_value f)) (h_dynamic st)) - S k)%nat
    by (rewrite map_length; fold L; lia).
  rewrite nth_error_rev by (rewrite map_length; exact Hk).
  rewrite (map_nth_error _ _ _ Hnth). rewrite K, V. reflexivity.
Qed.

Lemma lookup_stat_hit t hf n fm : 0 < n -> stat_hit hf n fm ->
  exists v, lookup t n = Some (f_key hf, v) /\ (fm = true -> v = f_value hf).
Proof.
  intros Hpos [->|[f2 [H1 [Hnth [K V]]]]]; [lia|].
  assert (N.to_nat (n - 1) < length static_fields)%nat as Hk by (apply nth_error_Some; rewrite Hnth; discriminate).
  rewrite static_fields_length in Hk.
  exists (f_value f2). split; [|exact V].
  unfold lookup. rewrite static_len_61.
  replace (n =? 0) with false by (symmetry; apply N.eqb_neq; lia).
  replace (n <=? 61) with true by (symmetry; apply N.leb_le; lia).
  unfold idx. rewrite <- static_fields_map.
  rewrite (map_nth_error _ _ _ Hnth). unfold entry_of. rewrite K. reflexivity.
Qed.

Theorem search_lookup st hf n fm : N.of_nat (length (h_dynamic st)) < 2 ^ 63 ->
  search st hf = (n, fm) -> 0 < n ->
  exists v, lookup (abs st) n = Some (f_key hf, v) /\ (fm = true -> v = f_value hf).
Proof.
  intros Hlen H Hpos. destruct (search_spec st hf n fm Hlen H) as [[-> [_ Hd]]|[_ Hs]].
  - exists (f_value hf). split; [apply lookup_dyn_hit; assumption | reflexivity].
  - apply lookup_stat_hit; assumption.
Qed.

(* C04_search_sound (with the bound on the slice length) *)
Theorem search_sound : forall st hf i full, N.of_nat (length (h_dynamic st)) < 2 ^ 63 ->
  search st hf = (i, full) -> 0 < i ->
  exists n v, lookup (abs st) i = Some (n, v) /\ n = f_key hf /\ (full = true -> v = f_value hf).
Proof.
  intros st hf i full Hlen H Hpos.
  destruct (search_lookup st hf i full Hlen H Hpos) as [v [L V]].
  exists (f_key hf), v. split; [exact L|]. split; [reflexivity | exact V].
Qed.

(* Why the bound is there:
   [search] computes the index in uint64. A Coq list can be longer than any Go slice: with
   2^64 - 60 entries the newest-first index of the oldest one, 62 + (2^64 - 60) - 0 - 1, wraps
   around to 1, which is ":authority" of the static table. The statement without the bound on
   len(hp.dynamic) is therefore false of the model (and vacuous for the Go code, whose slices are
   shorter than 2^63). *)

Definition xy : field := mkF [120] [121] false.

Lemma search_wraps k : N.of_nat (S k) = 2 ^ 64 - 60 ->
  search (mkH false false (repeat xy (S k)) 0 0 false 0) xy = (1, true).
Proof.
  intros Hk. rewrite search_unfold. cbn [h_dynamic]. rewrite repeat_length.
  cbn [repeat search_dynamic].
  change (bytes_eqb (f_key xy) (f_key xy) && bytes_eqb (f_value xy) (f_value xy)) with true.
  cbv iota. rewrite Hk.
  change (u64 (c_maxIndex + (2 ^ 64 - 60) - 0 - 1)) with 1. reflexivity.
Qed.

Theorem search_sound_needs_bound :
  ~ (forall st hf i full, search st hf = (i, full) -> 0 < i ->
       exists n v, lookup (abs st) i = Some (n, v) /\ n = f_key hf /\ (full = true -> v = f_value hf)).
Proof.
  intros H.
  assert (exists k, N.of_nat (S k) = 2 ^ 64 - 60) as [k Hk].
  { exists (N.to_nat (2 ^ 64 - 61)). rewrite Nat2N.inj_succ, N2Nat.id. reflexivity. }
  destruct (H _ xy 1 true (search_wraps k Hk) eq_refl) as [n [v [L [E _]]]].
  unfold lookup in L. rewrite static_len_61 in L. cbn [N.eqb N.leb N.compare Pos.compare Pos.compare_cont] in L.
  change (idx rfc_static_table (1 - 1)) with (Some ([58; 97; 117; 116; 104; 111; 114; 105; 116; 121], @nil N)) in L.
  injection L as <- _. discriminate E.
Qed.
