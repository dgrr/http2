(* Proofs/SrvRfcExamples.v - C08: concrete lockstep runs of the instantiated server model
   (Impl/ServerInst.v) against Spec/Rfc7540Streams.v, by computation. *)
From H2V Require Import Base.Bytes Base.MachineInt Base.Result Gen.GenConsts Impl.Hpack Impl.ServerConn Impl.ServerInst.
From H2V Require Import Proofs.SrvBase Proofs.SrvRfcDefs Proofs.SrvRfcLegal.
From Coq Require Import ZArith.
Local Open Scope N_scope.

Notation srv_feed := (feed hpack_state srv_dec_field srv_enc_field set_max_table_size).
Notation srv_item_ok := (item_ok hpack_state srv_dec_field srv_enc_field set_max_table_size).
Notation srv_run_items := (run_items hpack_state srv_dec_field srv_enc_field set_max_table_size).
Notation srv_check_from := (check_from hpack_state srv_dec_field srv_enc_field set_max_table_size).

Definition ex_cfg : config := mkCfg 100 0 0 0 65535.
Definition ex_init : sconn hpack_state := init_conn ex_cfg srv_init_hpack.

(* frames as the harness builds them (ocaml/drv_server.ml frame_of_tokens) *)
Definition fr (k : fkind) (fl sid : N) (pl : bytes) (dep code inc : N) : sframe :=
  mkSFrame k fl sid (len pl) pl dep code inc false 0 false 0.
Definition GET : bytes := [0x82; 0x84; 0x87].            (* :method GET, :path /, :scheme https *)
Definition TRAILER : bytes := [0; 1; 97; 1; 98].         (* a: b, literal without indexing *)
Definition F (f : sframe) : item := IIn (RFrame f).
Definition resp : response := mkResp 200 [] (BBuffered [1; 2; 3]).

(* a request in four frames with trailers, its response, a second request reset by the peer,
   PRIORITY and WINDOW_UPDATE frames on open, closed and idle streams, PING and SETTINGS in between *)
Definition ex_run : list item :=
  [ F (fr KPriority 0 1 [] 0 0 0);
    F (fr KHeaders 0 1 [0x82] 0 0 0); F (fr KCont 4 1 [0x84; 0x87] 0 0 0);
    F (fr KPing 0 0 [1;2;3;4;5;6;7;8] 0 0 0);
    F (fr KData 0 1 [104; 105] 0 0 0);
    F (fr KWinUpd 0 1 [] 0 0 100);
    F (fr KHeaders 5 1 TRAILER 0 0 0);
    F (fr KHeaders 4 3 GET 0 0 0);
    IDone 1 resp;
    F (mkSFrame KSettings 0 0 0 [] 0 0 0 false 0 false 0);
    F (fr KWinUpd 0 1 [] 0 0 10);
    F (fr KRst 0 3 [] 0 8 0);
    F (fr KPriority 0 3 [] 0 0 0);
    F (fr KPriority 0 9 [] 0 0 0);
    F (fr KHeaders 5 5 GET 0 0 0);
    IDone 5 resp ].

Definition ex_ids : list N := [1; 3; 5; 7; 9; 11].

(* every reaction allowed, relation R kept (on ex_ids): the executable check says 0 *)
Example ex_run_checks : srv_check_from ex_cfg ex_ids 0 ex_init RS.init ex_run = 0%nat.
Proof. vm_compute. reflexivity. Qed.

Example ex_run_dispatches_1 :
  exists rq, In (ODispatch 1 rq) (trace (fst (srv_run_items ex_cfg ex_init RS.init ex_run))) /\ rq_body rq = [104; 105].
Proof.
  eexists. split; [vm_compute; repeat match goal with |- _ \/ _ => first [left; reflexivity | right] end | reflexivity].
Qed.

Example ex_run_frames_on_1_complete :
  RS.complete_request (frames_on 1 ex_run) = true.
Proof. vm_compute. reflexivity. Qed.

(* the fifth item (DATA on stream 1) may take effect in the state reached, and does *)
Example ex_run_item4_legal :
  let pre := firstn 4 ex_run in
  let c := fst (srv_run_items ex_cfg ex_init RS.init pre) in
  let s := snd (srv_run_items ex_cfg ex_init RS.init pre) in
  let i := RFrame (fr KData 0 1 [104; 105] 0 0 0) in
  nth_error ex_run 4 = Some (IIn i) /\ RS.may_process s (abs_input i) = true /\
  resolve s (abs_input i) (reaction_of hpack_state c i (srv_feed ex_cfg c (IIn i))) = RS.Process.
Proof. vm_compute. repeat split. Qed.

(* two responses wait for send window (initial window 2); the SETTINGS frame that raises it makes
   flushStreams send the rest of both and close both streams in one step *)
Definition ex_flush : list item :=
  [ F (mkSFrame KSettings 0 0 0 [] 0 0 0 false 0 true 2);
    F (fr KHeaders 5 1 GET 0 0 0); F (fr KHeaders 5 3 GET 0 0 0); IDone 1 resp; IDone 3 resp;
    F (mkSFrame KSettings 0 0 0 [] 0 0 0 false 0 true 10) ].
Example ex_flush_checks : srv_check_from ex_cfg ex_ids 0 ex_init RS.init ex_flush = 0%nat.
Proof. vm_compute. reflexivity. Qed.
Example ex_flush_last_step :
  let c := fst (srv_run_items ex_cfg ex_init RS.init (firstn 5 ex_flush)) in
  new_out hpack_state c (srv_feed ex_cfg c (F (mkSFrame KSettings 0 0 0 [] 0 0 0 false 0 true 10))) =
  [OSettingsAck; OData 1 true [3]; OData 3 true [3]; ORelease 1 true; ORelease 3 true].
Proof. vm_compute. reflexivity. Qed.

(* the request timer resets an overdue stream whose handler runs (1) and one whose header block is still
   arriving (3); the rest of the block is discarded, WINDOW_UPDATE on the reset stream ignored *)
Definition ex_tcfg : config := mkCfg 100 0 0 5 65535.
Definition ex_timer : list item :=
  [ F (fr KHeaders 5 1 GET 0 0 0); F (fr KHeaders 0 3 [0x82] 0 0 0); ILocal (LClock 100); ILocal LTimer;
    F (fr KCont 4 3 [0x84; 0x87] 0 0 0); F (fr KWinUpd 0 1 [] 0 0 10); IDone 1 resp ].
Example ex_timer_checks : srv_check_from ex_tcfg ex_ids 0 (init_conn ex_tcfg srv_init_hpack) RS.init ex_timer = 0%nat.
Proof. vm_compute. reflexivity. Qed.
Example ex_timer_resets :
  filter (fun o => match o with ORst _ _ => true | _ => false end)
         (trace (fst (srv_run_items ex_tcfg (init_conn ex_tcfg srv_init_hpack) RS.init ex_timer))) = [ORst 1 8; ORst 3 8].
Proof. vm_compute. reflexivity. Qed.

(* the peer cancels a response that waits for send window (2 of 3 bytes sent): not a deviation (D7 is about a
   stream that could send), the RST_STREAM is processed, nothing is sent *)
Definition ex_cancel_pre : list item :=
  [ F (mkSFrame KSettings 0 0 0 [] 0 0 0 false 0 true 2); F (fr KHeaders 5 1 GET 0 0 0); IDone 1 resp ].
Definition ex_cancel : item := F (fr KRst 0 1 [] 0 8 0).
Example ex_cancel_ok :
  let '(c, s) := srv_run_items ex_cfg ex_init RS.init ex_cancel_pre in
  known_deviation hpack_state c s (RFrame (fr KRst 0 1 [] 0 8 0)) = false /\ srv_item_ok ex_cfg c ex_cancel s = true /\
  new_out hpack_state c (srv_feed ex_cfg c ex_cancel) = [ORelease 1 true].
Proof. vm_compute. repeat split. Qed.

(* a legal frame sequence on three streams (requests with and without body, a cancellation, PRIORITY on an idle
   stream, WINDOW_UPDATE after the response) and its handler completions: no error of any kind in the trace *)
Definition ex_legal : list item :=
  [ F (fr KHeaders 4 1 GET 0 0 0); F (fr KData 1 1 [104; 105] 0 0 0); F (fr KPriority 0 5 [] 0 0 0);
    IDone 1 resp; F (fr KWinUpd 0 1 [] 0 0 10); F (fr KPing 0 0 [1;2;3;4;5;6;7;8] 0 0 0);
    F (fr KHeaders 5 3 GET 0 0 0); F (fr KRst 0 3 [] 0 8 0); IDone 3 resp;
    F (fr KHeaders 1 5 [0x82] 0 0 0); F (fr KCont 4 5 [0x84; 0x87] 0 0 0); IDone 5 resp ].
Example ex_legal_served :
  only_frames_and_completions ex_legal = true /\
  RS.legal (map abs_frame (flat_map frame_of_item ex_legal)) = true /\
  forallb no_error_at_all (trace (fst (srv_run_items ex_cfg ex_init RS.init ex_legal))) = true.
Proof. vm_compute. repeat split. Qed.

(* the known deviations are real *)

(* D1: PRIORITY on an even stream id: GOAWAY(PROTOCOL_ERROR); RFC 6.3: allowed on an idle stream *)
Definition ex_D1 : item := F (fr KPriority 0 2 [] 0 0 0).
Example ex_D1_not_allowed : srv_item_ok ex_cfg ex_init ex_D1 RS.init = false.
Proof. vm_compute. reflexivity. Qed.
Example ex_D1_trace : trace (srv_feed ex_cfg ex_init ex_D1) = [OGoAway 0 c_ProtocolError; OExit 0 1; OExit 1 1].
Proof. vm_compute. reflexivity. Qed.
Example ex_D1_is_known : known_deviation hpack_state ex_init RS.init (RFrame (fr KPriority 0 2 [] 0 0 0)) = true.
Proof. vm_compute. reflexivity. Qed.

(* D3: WINDOW_UPDATE after the peer's own RST_STREAM: ignored; RFC 5.1: STREAM_CLOSED *)
Definition ex_D3_pre : list item := [F (fr KHeaders 4 1 GET 0 0 0); F (fr KRst 0 1 [] 0 8 0)].
Definition ex_D3 : item := F (fr KWinUpd 0 1 [] 0 0 10).
Example ex_D3_not_allowed :
  let '(c, s) := srv_run_items ex_cfg ex_init RS.init ex_D3_pre in srv_item_ok ex_cfg c ex_D3 s = false.
Proof. vm_compute. reflexivity. Qed.
Example ex_D3_nothing_sent :
  let '(c, s) := srv_run_items ex_cfg ex_init RS.init ex_D3_pre in sc_out (srv_feed ex_cfg c ex_D3) = sc_out c.
Proof. vm_compute. reflexivity. Qed.
Example ex_D3_is_known :
  let '(c, s) := srv_run_items ex_cfg ex_init RS.init ex_D3_pre in known_deviation hpack_state c s (RFrame (fr KWinUpd 0 1 [] 0 0 10)) = true.
Proof. vm_compute. reflexivity. Qed.

(* D6: SETTINGS carrying the id of a closed stream: GOAWAY(STREAM_CLOSED); RFC 6.5: PROTOCOL_ERROR *)
Definition ex_D6 : item := F (mkSFrame KSettings 0 1 0 [] 0 0 0 false 0 false 0).
Example ex_D6_not_allowed :
  let '(c, s) := srv_run_items ex_cfg ex_init RS.init ex_D3_pre in srv_item_ok ex_cfg c ex_D6 s = false.
Proof. vm_compute. reflexivity. Qed.
Example ex_D6_goaway_code :
  let '(c, s) := srv_run_items ex_cfg ex_init RS.init ex_D3_pre in
  reaction_of hpack_state c (RFrame (mkSFrame KSettings 0 1 0 [] 0 0 0 false 0 false 0)) (srv_feed ex_cfg c ex_D6) = RS.ConnErr c_StreamClosedError.
Proof. vm_compute. reflexivity. Qed.
