(* C15: HuffmanDecode accepts exactly the RFC 7541 encodings and inverts them.

   Structure:
   1. [parses V out res]: the greedy bit-level parse of the bit string V (a relation, so no
      fuel), ending with the RFC 7541 5.2 padding check [finish].
   2. parses <-> spec_encode, using prefix-freeness of the code (HuffmanTable).
   3. Simulation: the byte/table driven Go decoder, run on b, computes a parse of
      bytes_bits b.  The per-entry table invariant [entry_ok] is checked by evaluation in HuffmanTable. *)
From Coq Require Import List NArith Bool Lia.
From H2V Require Import Base.Bytes Base.MachineInt Base.Result Gen.GenHuffman
  Spec.XNetTables Spec.Rfc7541Huffman Impl.Huffman Proofs.HuffmanBits Proofs.HuffmanTable
  Proofs.HuffmanEncode Proofs.HpackBytes.
Import ListNotations.
Local Open Scope N_scope.

Definition finish (V : list bool) (out : bytes) : option bytes :=
  if (length V <=? 7)%nat && forallb (fun b : bool => b) V then Some (rev out) else None.

Inductive parses : list bool -> bytes -> option bytes -> Prop :=
| parses_step a rest out res :
    a < 256 -> parses rest (a :: out) res -> parses (code_bits a ++ rest) out res
| parses_done V out :
    (forall a, a < 256 -> ~ is_prefix (code_bits a) V) -> parses V out (finish V out).

Definition same_ok (r : result bytes) (o : option bytes) : Prop :=
  match r, o with
  | Ok s, Some s' => s = s'
  | Err _, None => True
  | _, _ => False
  end.

Lemma ones_prefix_30 r : (r <= 30)%nat -> is_prefix (ones r) (ones 30).
Proof.
  intros H. exists (ones (30 - r)). rewrite <- ones_app. f_equal. lia.
Qed.

Lemma parses_complete : forall s r out res,
  bytes_ok s = true -> (r <= 7)%nat ->
  parses (code_string s ++ ones r) out res -> res = Some (rev out ++ s).
Proof.
  induction s as [|b s IH]; intros r out res Hok Hr HP.
  - change (code_string []) with (@nil bool) in HP. cbn [app] in HP.
    inversion HP as [a rest out' res' Ha HP' EV | V out' Hno]; subst.
    + exfalso. apply (code_not_prefix_eos a Ha).
      apply is_prefix_trans with (ones r); [|apply ones_prefix_30; lia].
      exists rest. symmetry. exact EV.
    + unfold finish. rewrite ones_length, forallb_ones.
      replace (r <=? 7)%nat with true by (symmetry; apply Nat.leb_le; lia).
      simpl. now rewrite app_nil_r.
  - cbn [bytes_ok forallb] in Hok. apply andb_prop in Hok. destruct Hok as [Hb Hs].
    apply N.ltb_lt in Hb. fold (bytes_ok s) in Hs.
    rewrite code_string_cons, <- app_assoc in HP.
    inversion HP as [a rest out' res' Ha HP' EV | V out' Hno]; subst.
    + assert (a = b) as ->.
      { destruct (Nat.le_ge_cases (length (code_bits a)) (length (code_bits b))) as [L|L].
        - apply code_prefix_eq; try assumption.
          eapply is_prefix_comparable; [| |exact L].
          + exists rest. symmetry. exact EV.
          + apply is_prefix_app.
        - symmetry. apply code_prefix_eq; try assumption.
          eapply is_prefix_comparable; [| |exact L].
          + apply is_prefix_app.
          + exists rest. symmetry. exact EV. }
      apply app_inv_head in EV. subst rest.
      rewrite (IH r (b :: out) res Hs Hr HP'). simpl. now rewrite <- app_assoc.
    + exfalso. apply (Hno b Hb). apply is_prefix_app.
Qed.

Lemma parses_sound : forall V out res, parses V out res -> forall s, res = Some s ->
  exists t r, s = rev out ++ t /\ bytes_ok t = true /\ V = code_string t ++ ones r /\ (r <= 7)%nat.
Proof.
  induction 1 as [a rest out res Ha HP IH | V out Hno]; intros s Hs.
  - destruct (IH s Hs) as [t [r [E1 [E2 [E3 E4]]]]].
    exists (a :: t), r. split; [|split; [|split]].
    + rewrite E1. simpl. now rewrite <- app_assoc.
    + simpl. rewrite E2. replace (byte_ok a) with true; [reflexivity|].
      symmetry. apply N.ltb_lt. exact Ha.
    + rewrite code_string_cons, <- app_assoc, E3. reflexivity.
    + exact E4.
  - unfold finish in Hs.
    destruct (length V <=? 7)%nat eqn:L; [|discriminate].
    destruct (forallb (fun b : bool => b) V) eqn:F; [|discriminate].
    simpl in Hs. injection Hs as <-.
    exists [], (length V). split; [now rewrite app_nil_r|]. split; [reflexivity|].
    split; [now apply forallb_id_ones | now apply Nat.leb_le].
Qed.

Lemma code_string_length_ge t : bytes_ok t = true -> (5 * length t <= length (code_string t))%nat.
Proof.
  induction t as [|a t IH]; intros H; [simpl; lia|].
  cbn [bytes_ok forallb] in H. apply andb_prop in H. destruct H as [Ha Ht].
  apply N.ltb_lt in Ha. fold (bytes_ok t) in Ht.
  rewrite code_string_cons, app_length. pose proof (code_bits_len_bounds a Ha).
  specialize (IH Ht). simpl length. lia.
Qed.

(* the table is a large constant: never let simpl/cbn unfold it *)
Local Opaque huffman_root.

(* the not yet consumed bits held in accBits *)
Definition pend (s : dstate) : list bool := bits_of (N.to_nat (d_bits s)) (d_acc s).

Lemma push_byte_bits acc bits b : b < 256 -> bits + 8 <= 32 ->
  bits_of (N.to_nat (bits + 8)) (N.lor (u32 (N.shiftl acc 8)) b) =
  bits_of (N.to_nat bits) acc ++ bits8 b.
Proof.
  intros Hb Hbits. replace (N.to_nat (bits + 8)) with (N.to_nat bits + 8)%nat by lia.
  apply (bits_of_lor_shift (N.to_nat bits) 8 32 acc b); [lia | exact Hb].
Qed.

Lemma top8_bits acc bits : 8 <= bits ->
  bits8 (u8 (N.shiftr acc (bits - 8))) = firstn 8 (bits_of (N.to_nat bits) acc).
Proof.
  intros H. rewrite bits8_u8, firstn_bits_of by lia. unfold bits8. do 2 f_equal. lia.
Qed.

Lemma drop_bits acc bits l : l <= bits ->
  bits_of (N.to_nat (bits - l)) acc = skipn (N.to_nat l) (bits_of (N.to_nat bits) acc).
Proof. intros H. rewrite skipn_bits_of by lia. f_equal. lia. Qed.

Lemma tail_idx_bits acc bits : bits < 8 ->
  bits8 (u8 (N.shiftl acc (8 - bits))) =
  bits_of (N.to_nat bits) acc ++ repeat false (N.to_nat (8 - bits)).
Proof.
  intros H. rewrite bits8_u8. unfold bits8.
  replace 8%nat with (N.to_nat bits + N.to_nat (8 - bits))%nat at 1 by lia.
  rewrite bits_of_app, N2Nat.id, N.shiftr_shiftl_l, N.sub_diag, N.shiftl_0_r by lia.
  f_equal.
  pose proof (bits_of_shiftl_low (N.to_nat (8 - bits)) (N.to_nat (8 - bits)) acc (le_n _)) as L.
  rewrite N2Nat.id in L. exact L.
Qed.

Lemma finish_match s p :
  d_left s = 8 * N.of_nat (length p) + d_bits s -> d_bits s < 8 ->
  same_ok (dec_finish s) (finish (bytes_bits p ++ pend s) (d_out s)).
Proof.
  intros HL HB. unfold dec_finish, finish.
  rewrite app_length, bytes_bits_length. unfold pend at 1. rewrite bits_of_length.
  destruct (7 <? d_left s) eqn:C.
  - apply N.ltb_lt in C.
    replace (8 * length p + N.to_nat (d_bits s) <=? 7)%nat with false
      by (symmetry; apply Nat.leb_gt; lia).
    exact I.
  - apply N.ltb_ge in C. assert (length p = 0%nat) as Lp by lia.
    destruct p; [|discriminate].
    replace (8 * length (@nil N) + N.to_nat (d_bits s) <=? 7)%nat with true
      by (symmetry; apply Nat.leb_le; simpl; lia).
    change (bytes_bits [] ++ pend s) with (pend s). cbv zeta. cbn [andb].
    assert (u32 (2 ^ d_bits s - 1) = 2 ^ d_bits s - 1) as ->.
    { unfold u32, wrap. apply N.mod_small.
      assert (2 ^ d_bits s <= 2 ^ 8) by (apply N.pow_le_mono_r; lia).
      change (2 ^ 8) with 256 in *. change (2 ^ 32) with 4294967296. lia. }
    pose proof (low_bits_all_ones (N.to_nat (d_bits s)) (d_acc s)) as L.
    rewrite N2Nat.id in L. rewrite L. unfold pend.
    destruct (forallb (fun b : bool => b) (bits_of (N.to_nat (d_bits s)) (d_acc s))); simpl; auto.
Qed.

Definition Inv (s : dstate) (p : list N) : Prop :=
  (exists f, node_okb f p (d_node s) = true) /\
  d_left s = 8 * N.of_nat (length p) + d_bits s /\ d_bits s < 16.

Lemma node_ok_extends f p node : node_okb f p node = true -> extends (bytes_bits p).
Proof.
  intros H. destruct (node_ok_inv _ _ _ H) as [f' [sub [_ [_ [He _]]]]]. exact He.
Qed.

Lemma path_len_bound f p node : node_okb f p node = true -> (length p <= 3)%nat.
Proof.
  intros H. destruct (node_ok_extends _ _ _ H) as [a [Ha [_ Hl]]].
  rewrite bytes_bits_length in Hl. pose proof (code_bits_len_bounds a Ha). lia.
Qed.

Lemma lookup f p node i : node_okb f p node = true -> i < 256 ->
  exists f' e, step_node node i = Ok e /\ entry_ok f' p i e.
Proof.
  intros H Hi. destruct (node_ok_inv _ _ _ H) as [f' [sub [_ [-> [_ Hall]]]]].
  destruct (Hall i Hi) as [e [He1 He2]]. exists f', e. simpl. rewrite He1. auto.
Qed.

(* N1: below a proper prefix of a code word no code word has ended *)
Lemma no_code_below q V : extends q -> is_prefix V q ->
  forall a, a < 256 -> ~ is_prefix (code_bits a) V.
Proof.
  intros [c [Hc [Hq Hl]]] HV a Ha HP.
  assert (a = c) as ->.
  { apply code_prefix_eq; try assumption.
    eapply is_prefix_trans; [exact HP|]. eapply is_prefix_trans; [exact HV|exact Hq]. }
  apply is_prefix_length in HP, HV. lia.
Qed.

(* N2: nor along EOS *)
Lemma no_code_eos Y : forall a, a < 256 -> ~ is_prefix (code_bits a) (ones 30 ++ Y).
Proof.
  intros a Ha HP. apply (code_not_prefix_eos a Ha).
  eapply is_prefix_comparable; [exact HP | apply is_prefix_app |].
  rewrite ones_length. pose proof (code_bits_len_bounds a Ha). lia.
Qed.

Lemma parses_eos Y out : parses (ones 30 ++ Y) out None.
Proof.
  replace (@None bytes) with (finish (ones 30 ++ Y) out).
  - apply parses_done, no_code_eos.
  - unfold finish. rewrite app_length, ones_length.
    replace (30 + length Y <=? 7)%nat with false by (symmetry; apply Nat.leb_gt; lia).
    reflexivity.
Qed.

Lemma split_at_leaf (pb P B X c : list bool) l :
  c = pb ++ firstn l B -> firstn l B = firstn l P ->
  pb ++ P ++ X = c ++ skipn l P ++ X.
Proof.
  intros -> E. rewrite E, <- app_assoc. f_equal. rewrite app_assoc. f_equal.
  symmetry. apply firstn_skipn.
Qed.

Lemma dec_inner_S f root s : dec_inner (S f) root s =
    if 8 <=? d_bits s then
      let i := u8 (N.shiftr (d_acc s) (d_bits s - 8)) in
      match step_node (d_node s) i with
      | Panic w => Panic w
      | Err e => Err e
      | Ok None => Err E_huff_index
      | Ok (Some (HSub sub)) =>
          dec_inner f root (mkD (d_acc s) (u8 (d_bits s - 8)) (d_left s) (HSub sub) (d_out s))
      | Ok (Some (HLeaf sym cl)) =>
          let bits' := subw 8 (d_bits s) cl in
          dec_inner f root (mkD (d_acc s) bits' bits' root (sym :: d_out s))
      end
    else Ok s.
Proof. reflexivity. Qed.

Lemma dec_tail_S f root s : dec_tail (S f) root s =
    if 0 <? d_bits s then
      let i := u8 (N.shiftl (d_acc s) (8 - d_bits s)) in
      match step_node (d_node s) i with
      | Panic w => Panic w
      | Err e => Err e
      | Ok None => Err E_huff_index
      | Ok (Some (HSub sub)) => Ok (mkD (d_acc s) (d_bits s) (d_left s) (HSub sub) (d_out s))
      | Ok (Some (HLeaf sym cl)) =>
          if d_bits s <? cl then Ok (mkD (d_acc s) (d_bits s) (d_left s) (HLeaf sym cl) (d_out s))
          else
            let bits' := subw 8 (d_bits s) cl in
            dec_tail f root (mkD (d_acc s) bits' bits' root (sym :: d_out s))
      end
    else Ok s.
Proof. reflexivity. Qed.

Lemma dec_bytes_cons root b rest s : dec_bytes root (b :: rest) s =
    match dec_inner 40 root
            (mkD (N.lor (u32 (N.shiftl (d_acc s) 8)) b) (u8 (d_bits s + 8)) (u8 (d_left s + 8))
                 (d_node s) (d_out s)) with
    | Ok s2 => dec_bytes root rest s2
    | Err e => Err e
    | Panic w => Panic w
    end.
Proof. reflexivity. Qed.

Lemma root_inv acc bits out : bits < 16 -> Inv (mkD acc bits bits huffman_root out) [].
Proof.
  intros H. split; [exists 5%nat; exact root_ok_check|]. split; [simpl; lia | exact H].
Qed.

(* the  for bits >= 8  loop *)
Lemma dec_inner_sim : forall n s p, Inv s p -> d_bits s < 8 + N.of_nat n ->
  match dec_inner (S n) huffman_root s with
  | Ok s2 => exists p2, Inv s2 p2 /\ d_bits s2 < 8 /\
       forall X res, parses (bytes_bits p2 ++ pend s2 ++ X) (d_out s2) res ->
                     parses (bytes_bits p ++ pend s ++ X) (d_out s) res
  | Err _ => forall X, parses (bytes_bits p ++ pend s ++ X) (d_out s) None
  | Panic _ => False
  end.
Proof.
  induction n as [|n IH]; intros s p HI Hb; rewrite dec_inner_S;
    destruct (8 <=? d_bits s) eqn:C;
    try (apply N.leb_gt in C; exists p; split; [exact HI|]; split; [exact C|];
         intros X res HP; exact HP).
  - apply N.leb_le in C. lia.
  - apply N.leb_le in C. destruct HI as [[f Hf] [HL HB]]. cbv zeta.
    set (i := u8 (N.shiftr (d_acc s) (d_bits s - 8))).
    assert (bits8 i = firstn 8 (pend s)) as Hi8 by (apply top8_bits; exact C).
    destruct (lookup f p (d_node s) i Hf (u8_lt _)) as [f' [e [E1 E2]]]. rewrite E1.
    destruct e as [[sym l | sub'] | ]; cbn [entry_ok] in E2.
    + (* leaf: a symbol is complete *)
      destruct E2 as [Hsym [Hl Hcode]].
      rewrite subw8_small by lia.
      set (s' := mkD (d_acc s) (d_bits s - l) (d_bits s - l) huffman_root (sym :: d_out s)).
      assert (forall X, bytes_bits p ++ pend s ++ X = code_bits sym ++ (bytes_bits [] ++ pend s' ++ X)) as EQ.
      { intros X. change (bytes_bits [] ++ pend s' ++ X) with (pend s' ++ X).
        unfold pend at 2. cbn [d_bits d_acc s']. rewrite drop_bits by lia.
        apply split_at_leaf with (B := bits8 i); [exact Hcode|].
        rewrite Hi8, firstn_firstn. f_equal. lia. }
      assert (Inv s' []) as HI' by (apply root_inv; simpl; lia).
      assert (d_bits s' < 8 + N.of_nat n) as Hb' by (unfold s'; cbn [d_bits]; lia).
      specialize (IH s' [] HI' Hb').
      destruct (dec_inner (S n) huffman_root s') as [s2|e|w].
      * destruct IH as [p2 [I2 [B2 HP]]]. exists p2. split; [exact I2|]. split; [exact B2|].
        intros X res HP2. rewrite EQ. apply parses_step; [exact Hsym|]. apply HP, HP2.
      * intros X. rewrite EQ. apply parses_step; [exact Hsym|]. apply IH.
      * exact IH.
    + (* sub-table: descend *)
      rewrite u8_small by lia.
      set (s' := mkD (d_acc s) (d_bits s - 8) (d_left s) (HSub sub') (d_out s)).
      assert (forall X, bytes_bits (p ++ [i]) ++ pend s' ++ X = bytes_bits p ++ pend s ++ X) as EQ.
      { intros X. rewrite bytes_bits_app, <- app_assoc. f_equal.
        change (bytes_bits [i]) with (bits8 i ++ []). rewrite app_nil_r, Hi8.
        unfold pend at 2. cbn [d_bits d_acc s']. rewrite drop_bits by lia.
        change (N.to_nat 8) with 8%nat. rewrite app_assoc. f_equal. apply firstn_skipn. }
      assert (Inv s' (p ++ [i])) as HI'.
      { split; [exists f'; exact E2|]. cbn [d_left d_bits s']. rewrite app_length. simpl length. lia. }
      assert (d_bits s' < 8 + N.of_nat n) as Hb' by (unfold s'; cbn [d_bits]; lia).
      specialize (IH s' (p ++ [i]) HI' Hb').
      destruct (dec_inner (S n) huffman_root s') as [s2|e|w].
      * destruct IH as [p2 [I2 [B2 HP]]]. exists p2. split; [exact I2|]. split; [exact B2|].
        intros X res HP2. rewrite <- EQ. apply HP, HP2.
      * intros X. rewrite <- EQ. apply IH.
      * exact IH.
    + (* nil entry: only on the EOS path *)
      intros X.
      rewrite <- (firstn_skipn 8 (pend s)), <- Hi8, <- (firstn_skipn 6 (bits8 i)).
      rewrite <- !app_assoc. rewrite app_assoc, E2. apply parses_eos.
Qed.

(* the  for bits > 0  loop followed by the two final checks *)
Definition tail_result (s : dstate) (fuel : nat) : result bytes :=
  match dec_tail fuel huffman_root s with
  | Ok s2 => dec_finish s2
  | Err e => Err e
  | Panic w => Panic w
  end.

Lemma firstn_app_short {A} (P Z : list A) l : (l <= length P)%nat -> firstn l (P ++ Z) = firstn l P.
Proof.
  intros H. rewrite firstn_app. replace (l - length P)%nat with 0%nat by lia.
  simpl. apply app_nil_r.
Qed.

Lemma firstn_app_long {A} (P Z : list A) l : (length P <= l)%nat ->
  firstn l (P ++ Z) = P ++ firstn (l - length P) Z.
Proof. intros H. rewrite firstn_app, firstn_all2 by lia. reflexivity. Qed.

Lemma dec_tail_sim : forall n s p, Inv s p -> d_bits s < 8 -> d_bits s <= N.of_nat n ->
  exists res, parses (bytes_bits p ++ pend s) (d_out s) res /\ same_ok (tail_result s (S n)) res.
Proof.
  induction n as [|n IH]; intros s p HI Hb Hn; unfold tail_result; rewrite dec_tail_S;
    destruct (0 <? d_bits s) eqn:C;
    try (apply N.ltb_ge in C; destruct HI as [[f Hf] [HL HB]];
         exists (finish (bytes_bits p ++ pend s) (d_out s)); split;
         [ apply parses_done, (no_code_below (bytes_bits p)); [exact (node_ok_extends _ _ _ Hf)|];
           unfold pend; replace (d_bits s) with 0 by lia; rewrite app_nil_r; apply is_prefix_refl
         | apply finish_match; assumption ]).
  - apply N.ltb_lt in C. lia.
  - apply N.ltb_lt in C. destruct HI as [[f Hf] [HL HB]]. cbv zeta.
    set (i := u8 (N.shiftl (d_acc s) (8 - d_bits s))).
    assert (bits8 i = pend s ++ repeat false (N.to_nat (8 - d_bits s))) as Hi8
      by (apply tail_idx_bits; exact Hb).
    assert (length (pend s) = N.to_nat (d_bits s)) as LP by apply bits_of_length.
    destruct (lookup f p (d_node s) i Hf (u8_lt _)) as [f' [e [E1 E2]]]. rewrite E1.
    destruct e as [[sym l | sub'] | ]; cbn [entry_ok] in E2.
    + destruct E2 as [Hsym [Hl Hcode]].
      destruct (d_bits s <? l) eqn:CL.
      * (* the next symbol needs more bits than are left: stop *)
        apply N.ltb_lt in CL.
        exists (finish (bytes_bits p ++ pend s) (d_out s)). split.
        -- apply parses_done, (no_code_below (bytes_bits p ++ pend s)); [|apply is_prefix_refl].
           exists sym. split; [exact Hsym|].
           rewrite Hcode, Hi8, firstn_app_long by lia. split.
           ++ rewrite app_assoc. apply is_prefix_app.
           ++ rewrite !app_length, firstn_length, repeat_length. lia.
        -- apply (finish_match (mkD (d_acc s) (d_bits s) (d_left s) (HLeaf sym l) (d_out s)) p);
             assumption.
      * (* a symbol completes inside the last partial byte *)
        apply N.ltb_ge in CL. rewrite subw8_small by lia.
        set (s' := mkD (d_acc s) (d_bits s - l) (d_bits s - l) huffman_root (sym :: d_out s)).
        assert (bytes_bits p ++ pend s = code_bits sym ++ (bytes_bits [] ++ pend s')) as EQ.
        { change (bytes_bits [] ++ pend s') with (pend s').
          unfold pend at 2. cbn [d_bits d_acc s']. rewrite drop_bits by lia.
          rewrite <- (app_nil_r (pend s)), <- (app_nil_r (skipn _ _)).
          apply split_at_leaf with (B := bits8 i); [exact Hcode|].
          rewrite Hi8. apply firstn_app_short. unfold pend in *. rewrite bits_of_length. lia. }
        assert (Inv s' []) as HI' by (apply root_inv; simpl; lia).
        assert (d_bits s' < 8) as Hb' by (unfold s'; cbn [d_bits]; lia).
        assert (d_bits s' <= N.of_nat n) as Hn' by (unfold s'; cbn [d_bits]; lia).
        destruct (IH s' [] HI' Hb' Hn') as [res [HP HS]].
        exists res. split; [|exact HS].
        rewrite EQ. apply parses_step; [exact Hsym|]. exact HP.
    + (* inside a longer code: stop *)
      exists (finish (bytes_bits p ++ pend s) (d_out s)). split.
      * apply parses_done, (no_code_below (bytes_bits (p ++ [i]))).
        -- exact (node_ok_extends _ _ _ E2).
        -- rewrite bytes_bits_app. change (bytes_bits [i]) with (bits8 i ++ []).
           rewrite app_nil_r, Hi8, app_assoc. apply is_prefix_app.
      * apply (finish_match (mkD (d_acc s) (d_bits s) (d_left s) (HSub sub') (d_out s)) p);
          assumption.
    + (* nil entry: EOS *)
      exists None. split; [|exact I].
      assert (6 <= N.to_nat (d_bits s))%nat as L6.
      { destruct (Nat.le_gt_cases 6 (N.to_nat (d_bits s))) as [L|L]; [exact L|exfalso].
        assert (forallb (fun b : bool => b) (bytes_bits p ++ firstn 6 (bits8 i)) = true) as F
          by (rewrite E2; apply forallb_ones).
        rewrite forallb_app, Hi8, firstn_app_long, forallb_app in F by lia.
        rewrite !andb_true_iff in F. destruct F as [_ [_ F]].
        rewrite LP in F.
        destruct (6 - N.to_nat (d_bits s))%nat as [|k] eqn:K1; [lia|].
        destruct (N.to_nat (8 - d_bits s)) as [|m] eqn:K2; [lia|].
        simpl in F. discriminate. }
      rewrite <- (firstn_skipn 6 (pend s)).
      replace (firstn 6 (pend s)) with (firstn 6 (bits8 i))
        by (rewrite Hi8; apply firstn_app_short; lia).
      rewrite app_assoc, E2. apply parses_eos.
Qed.

Definition decode_from (src : bytes) (s : dstate) : result bytes :=
  match dec_bytes huffman_root src s with
  | Ok s1 => tail_result s1 16
  | Err e => Err e
  | Panic w => Panic w
  end.

Lemma dec_bytes_sim : forall src s p, bytes_ok src = true -> Inv s p -> d_bits s < 8 ->
  exists res, parses (bytes_bits p ++ pend s ++ bytes_bits src) (d_out s) res /\
              same_ok (decode_from src s) res.
Proof.
  induction src as [|b rest IH]; intros s p Hok HI Hb; unfold decode_from.
  - cbn [dec_bytes]. change (bytes_bits []) with (@nil bool). rewrite app_nil_r.
    apply (dec_tail_sim 15 s p HI Hb). simpl. lia.
  - cbn [bytes_ok forallb] in Hok. apply andb_prop in Hok. destruct Hok as [Hb256 Hrest].
    apply N.ltb_lt in Hb256. fold (bytes_ok rest) in Hrest.
    rewrite dec_bytes_cons. destruct HI as [[f Hf] [HL HB]].
    pose proof (path_len_bound _ _ _ Hf) as Lp.
    rewrite (u8_small (d_bits s + 8)), (u8_small (d_left s + 8)) by lia.
    set (s1 := mkD (N.lor (u32 (N.shiftl (d_acc s) 8)) b) (d_bits s + 8) (d_left s + 8)
                   (d_node s) (d_out s)).
    assert (pend s1 = pend s ++ bits8 b) as EP
      by (unfold pend, s1; cbn [d_bits d_acc]; apply push_byte_bits; lia).
    assert (Inv s1 p) as HI1.
    { split; [exists f; exact Hf|]. unfold s1; cbn [d_left d_bits]. lia. }
    assert (d_bits s1 < 8 + N.of_nat 39) as Hb1 by (unfold s1; cbn [d_bits]; simpl; lia).
    pose proof (dec_inner_sim 39 s1 p HI1 Hb1) as SIM.
    change (bytes_bits (b :: rest)) with (bits8 b ++ bytes_bits rest).
    change 40%nat with (S 39).
    destruct (dec_inner (S 39) huffman_root s1) as [s2|e|w].
    + destruct SIM as [p2 [I2 [B2 HP]]].
      destruct (IH s2 p2 Hrest I2 B2) as [res [HP2 HS]].
      exists res. split; [|exact HS].
      apply HP in HP2. rewrite EP, <- app_assoc in HP2. exact HP2.
    + exists None. split; [|exact I].
      specialize (SIM (bytes_bits rest)). rewrite EP, <- app_assoc in SIM. exact SIM.
    + contradiction.
Qed.

(* huffman_decode is decode_from the initial state. (Stated through an explicit middle term:
   asking the kernel to convert the two named functions directly makes it unfold the table.) *)
Lemma huffman_decode_with_unfold root src : huffman_decode_with root src =
  match dec_bytes root src (mkD 0 0 0 root []) with
  | Ok s1 => match dec_tail 16 root s1 with
             | Ok s2 => dec_finish s2 | Err e => Err e | Panic w => Panic w end
  | Err e => Err e
  | Panic w => Panic w
  end.
Proof. reflexivity. Qed.

Lemma decode_from_explicit b s : decode_from b s =
  match dec_bytes huffman_root b s with
  | Ok s1 => match dec_tail 16 huffman_root s1 with
             | Ok s2 => dec_finish s2 | Err e => Err e | Panic w => Panic w end
  | Err e => Err e
  | Panic w => Panic w
  end.
Proof. reflexivity. Qed.

Lemma huffman_decode_from b : huffman_decode b = decode_from b (mkD 0 0 0 huffman_root []).
Proof. unfold huffman_decode. rewrite huffman_decode_with_unfold, decode_from_explicit. reflexivity. Qed.

(* the Go decoder computes the greedy parse of its input bits *)
Theorem decode_sim b : bytes_ok b = true ->
  exists res, parses (bytes_bits b) [] res /\ same_ok (huffman_decode b) res.
Proof.
  intros Hb.
  destruct (dec_bytes_sim b (mkD 0 0 0 huffman_root []) [] Hb) as [res [HP HS]].
  - apply root_inv. lia.
  - cbn [d_bits]. lia.
  - exists res. split.
    + unfold pend in HP. cbn [d_bits d_acc d_out] in HP.
      change (bits_of (N.to_nat 0) 0) with (@nil bool) in HP.
      change (bytes_bits []) with (@nil bool) in HP. cbn [app] in HP. exact HP.
    + rewrite huffman_decode_from. exact HS.
Qed.

(* the C15 decoder theorems *)
Lemma pad_len_unique n r : (r < 8)%nat -> ((n + r) mod 8 = 0)%nat -> r = pad_len n.
Proof.
  intros Hr Hm. destruct (pad_len_props n) as [P1 P2].
  apply Nat.mod_divides in Hm; [|lia]. apply Nat.mod_divides in P2; [|lia].
  destruct Hm as [c Hc], P2 as [c' Hc']. lia.
Qed.

Lemma spec_encode_packl s :
  spec_encode s = packl (code_string s ++ ones (pad_len (length (code_string s)))).
Proof. reflexivity. Qed.

Lemma spec_encode_bits s :
  bytes_bits (spec_encode s) = code_string s ++ ones (pad_len (length (code_string s))).
Proof.
  rewrite spec_encode_packl.
  destruct (pad_len_props (length (code_string s))) as [_ P2].
  apply Nat.mod_divides in P2; [|lia]. destruct P2 as [c Hc].
  apply bytes_bits_packl with (k := c). rewrite app_length, ones_length. exact Hc.
Qed.

Lemma spec_encode_ok s : bytes_ok (spec_encode s) = true.
Proof.
  rewrite spec_encode_packl.
  destruct (pad_len_props (length (code_string s))) as [_ P2].
  apply Nat.mod_divides in P2; [|lia]. destruct P2 as [c Hc].
  apply packl_bytes_ok with (k := c). rewrite app_length, ones_length. exact Hc.
Qed.

Lemma decode_ok_parses b s : bytes_ok b = true -> huffman_decode b = Ok s ->
  exists r, bytes_ok s = true /\ bytes_bits b = code_string s ++ ones r /\ (r <= 7)%nat.
Proof.
  intros Hb Hd. destruct (decode_sim b Hb) as [res [HP HS]]. rewrite Hd in HS.
  destruct res as [s'|]; [|contradiction]. simpl in HS. subst s'.
  destruct (parses_sound _ _ _ HP s eq_refl) as [t [r [E1 [E2 [E3 E4]]]]].
  simpl in E1. subst t. exists r. auto.
Qed.

Theorem decode_spec_encode s : bytes_ok s = true -> huffman_decode (spec_encode s) = Ok s.
Proof.
  intros Hs. destruct (decode_sim (spec_encode s) (spec_encode_ok s)) as [res [HP HS]].
  rewrite spec_encode_bits in HP.
  destruct (pad_len_props (length (code_string s))) as [P1 _].
  apply parses_complete in HP; [|exact Hs|lia]. subst res. simpl in HS.
  destruct (huffman_decode (spec_encode s)); simpl in HS; try contradiction. now subst.
Qed.

(* a byte string whose bits are the code string of s and at most 7 ones is the encoding of s *)
Lemma valid_of_bits b s r : bytes_ok b = true -> bytes_ok s = true ->
  bytes_bits b = code_string s ++ ones r -> (r <= 7)%nat -> spec_valid b s.
Proof.
  intros Hb Hs HV Hr. split; [exact Hs|].
  rewrite spec_encode_packl. rewrite <- (pad_len_unique (length (code_string s)) r).
  - rewrite <- HV. apply packl_bytes_bits. exact Hb.
  - lia.
  - replace (length (code_string s) + r)%nat with (length (bytes_bits b))
      by (rewrite HV, app_length, ones_length; reflexivity).
    rewrite bytes_bits_length, Nat.mul_comm. apply Nat.mod_mul. lia.
Qed.

Theorem decode_exact : forall b s, bytes_ok b = true ->
  (huffman_decode b = Ok s <-> spec_valid b s).
Proof.
  intros b s Hb. split.
  - intros Hd. destruct (decode_ok_parses b s Hb Hd) as [r [Hs [HV Hr]]]. exact (valid_of_bits b s r Hb Hs HV Hr).
  - intros [Hs <-]. apply decode_spec_encode. exact Hs.
Qed.

Theorem roundtrip : forall s, bytes_ok s = true -> huffman_decode (huffman_encode s) = Ok s.
Proof.
  intros s Hs. rewrite encode_is_spec by exact Hs. apply decode_spec_encode. exact Hs.
Qed.

Theorem decode_total : forall b, bytes_ok b = true -> is_panic (huffman_decode b) = false.
Proof.
  intros b Hb. destruct (decode_sim b Hb) as [res [_ HS]].
  destruct (huffman_decode b); try reflexivity. destruct res; contradiction.
Qed.

Theorem decode_output_bound : forall b s, bytes_ok b = true -> huffman_decode b = Ok s ->
  (5 * length s <= 8 * length b)%nat.
Proof.
  intros b s Hb Hd. destruct (decode_ok_parses b s Hb Hd) as [r [Hs [HV Hr]]].
  rewrite <- bytes_bits_length, HV, app_length.
  pose proof (code_string_length_ge s Hs). lia.
Qed.
