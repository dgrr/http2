(* Proofs/SrvIsoSteps.v - every function of the stream loop that is not header decoding, as a sequence
   of the moves of Proofs/SrvIsoMoves.v.  Results used later:
     hmvs_sl_done, hmvs_sl_timer          (events between the frames of a header block)
     hmvs_after_frame, hmvs_implicit_close, hmvs_flush_streams (parts of sl_frame)
     hmvs_sl_frame_other                   (sl_frame on anything but HEADERS / CONTINUATION) *)
From H2V Require Import Base.Bytes Base.MachineInt Base.Result Gen.GenConsts Impl.ServerConn Proofs.SrvBase
  Proofs.SrvInvDecomp Proofs.SrvFlowSend Proofs.SrvIsoMoves.
From Coq Require Import ZArith Lia ZifyN ZifyNat ZifyBool.
Local Open Scope N_scope.

Section Steps.
Variable hstate : Type.
Variable dec_field : hstate -> N -> bytes -> dec_res hstate.
Variable enc_field : hstate -> bytes -> bytes -> bool -> bytes * hstate.
Variable enc_set_max : hstate -> N -> hstate.
Variable cfg : config.
(* the stream the step is about *)
Variable own : N.
Notation sconn := (sconn hstate).
Implicit Types c : sconn.
Local Notation tr := (tr own).
Local Notation hmv := (hmv own).
Local Notation hmvs := (hmvs own).

Lemma hsame_upd_out c new : hsame c (upd_out c (new ++ sc_out c)).
Proof. unfold hsame. repeat (split; [reflexivity|]). apply base_upd_out. Qed.
Lemma hsame_emit c o : hsame c (emit c o).
Proof.
  rewrite emit_eq, sc_out_emit. destruct (sc_wl_dead c); [exact (hsame_upd_out c [])|].
  destruct (sc_sl_done c); [exact (hsame_upd_out c [OLate o]) | exact (hsame_upd_out c [o])].
Qed.
Lemma hsame_note c o : hsame c (note c o). Proof. exact (hsame_upd_out c [o]). Qed.
Lemma hsame_write_reset c sid code : hsame c (write_reset c sid code). Proof. apply hsame_emit. Qed.
Lemma hsame_write_window_update c sid inc : hsame c (write_window_update c sid inc). Proof. apply hsame_emit. Qed.

(* an update of a field that neither hsame nor base looks at *)
Lemma hsame_quiet c c' : sc_dec c' = sc_dec c -> sc_discardID c' = sc_discardID c -> sc_discardPrev c' = sc_discardPrev c ->
  sc_discardFields c' = sc_discardFields c -> sc_strms c' = sc_strms c -> sc_ring c' = sc_ring c ->
  sc_lastID c' = sc_lastID c -> sc_highestID c' = sc_highestID c -> sc_sl_done c' = sc_sl_done c ->
  sc_closing c' = sc_closing c -> sc_closeRef c' = sc_closeRef c -> sc_out c' = sc_out c -> sc_wl_dead c' = sc_wl_dead c ->
  sc_rl_done c' = sc_rl_done c -> sc_readerQ c' = sc_readerQ c -> sc_expectCont c' = sc_expectCont c -> sc_now c' = sc_now c ->
  sc_closer c' = sc_closer c -> hsame c c'.
Proof. intros. unfold hsame. repeat (split; [assumption|]). apply base_same_out; assumption. Qed.

Lemma hsame_upd_clientWindow c w : hsame c (upd_clientWindow c w). Proof. apply hsame_quiet; reflexivity. Qed.
Lemma hsame_upd_currentWindow c w : hsame c (upd_currentWindow c w). Proof. apply hsame_quiet; reflexivity. Qed.
Lemma hsame_upd_enc c e : hsame c (upd_enc c e). Proof. apply hsame_quiet; reflexivity. Qed.
Lemma hsame_upd_open c n : hsame c (upd_open c n). Proof. apply hsame_quiet; reflexivity. Qed.
Lemma hsame_upd_initWin c n : hsame c (upd_initWin c n). Proof. apply hsame_quiet; reflexivity. Qed.
Lemma hsame_upd_gone c l : hsame c (upd_gone c l). Proof. apply hsame_quiet; reflexivity. Qed.

Lemma hsame_release_stream c s : hsame c (release_stream c s).
Proof.
  unfold release_stream. destruct (fkind_eqb _ _).
  - eapply hsame_trans; [apply hsame_upd_open | apply hsame_note].
  - apply hsame_note.
Qed.

Lemma hsame_credit_conn_window c n : hsame c (credit_conn_window cfg c n).
Proof.
  unfold credit_conn_window. destruct (_ <=? 0)%Z; [apply hsame_refl|]. destruct (_ <? _)%Z.
  - eapply hsame_trans; [apply hsame_upd_currentWindow | apply hsame_write_window_update].
  - apply hsame_upd_currentWindow.
Qed.

Lemma hsame_consume_recv_window c s fr n : hsame c (consume_recv_window cfg c s fr n).
Proof.
  unfold consume_recv_window. destruct (_ <=? 0)%Z; [apply hsame_refl|]. destruct (flag_has _ _).
  - apply hsame_credit_conn_window.
  - eapply hsame_trans; [apply hsame_write_window_update | apply hsame_credit_conn_window].
Qed.

(* send_data_loop only emits frames and takes from the connection's send window *)
Lemma send_data_loop_rel (R : sconn -> sconn -> Prop) :
  (forall c, R c c) -> (forall a b c, R a b -> R b c -> R a c) ->
  (forall c o, R c (emit c o)) -> (forall c w, R c (upd_clientWindow c w)) ->
  forall fuel c sid n, R c (fst (fst (fst (send_data_loop fuel c sid n)))).
Proof.
  intros Rr Rt Re Rw. induction fuel as [|fuel IH]; intros c sid n; [apply Rr|]. rewrite send_data_loop_S.
  assert (GO : forall n0, R c (fst (fst (fst (sd_go fuel c sid n0))))).
  { intro n0. unfold sd_go. destruct (_ <=? 0)%Z; [apply Rr|].
    assert (L1 : R c (sd_c2 c sid n0)) by (eapply Rt; [apply Re | apply Rw]).
    destruct (sd_es c n0); [exact L1 | eapply Rt; [exact L1 | apply IH]]. }
  destruct (sn_pending n); [|apply GO]. destruct (sn_bodyStream n); [|apply Rr].
  destruct (refill_pending n) as [n1|]; [|apply Re]. destruct (sn_pending n1); [|apply GO].
  cbn [fst]. destruct (sn_pendingEnd n1); [apply Re | apply Rr].
Qed.

Lemma hsame_send_data_loop fuel c sid n : hsame c (fst (fst (fst (send_data_loop fuel c sid n)))).
Proof. apply send_data_loop_rel; [apply hsame_refl | apply hsame_trans | apply hsame_emit | apply hsame_upd_clientWindow]. Qed.

Lemma hsame_send_data c s : hsame c (fst (fst (send_data c s))).
Proof.
  unfold send_data.
  pose proof (hsame_send_data_loop (send_data_fuel (get_snd s)) c (st_id s) (get_snd s)) as L.
  destruct (send_data_loop _ c (st_id s) (get_snd s)) as [[[c1 n1] dn] wr]. exact L.
Qed.

Lemma tr_send_data k c s : tr k s (snd (fst (send_data c s))).
Proof.
  unfold send_data. destruct (send_data_loop _ c (st_id s) (get_snd s)) as [[[c1 n1] dn] wr]. cbn [fst snd].
  destruct wr; [eapply tr_trans; [apply tr_set_snd | apply tr_set_weReset] | apply tr_set_snd].
Qed.

Lemma hsame_finish_request c s r : hsame c (fst (fst (finish_request enc_field c s r))).
Proof.
  unfold finish_request. destruct (response_block enc_field (sc_enc c) r) as [blk e'].
  match goal with |- context [emit (upd_enc c e') ?o] => set (oo := o) end.
  assert (L1 : hsame c (emit (upd_enc c e') oo)) by (eapply hsame_trans; [apply hsame_upd_enc | apply hsame_emit]).
  destruct (negb _); [exact L1|].
  eapply hsame_trans; [exact L1 | apply hsame_send_data].
Qed.

Lemma tr_finish_request k c s r : tr k s (snd (fst (finish_request enc_field c s r))).
Proof.
  unfold finish_request. destruct (response_block enc_field (sc_enc c) r) as [blk e'].
  destruct (negb _); [apply tr_refl|]. cbn [fst snd].
  eapply tr_trans; [|apply tr_send_data]. apply tr_set_snd.
Qed.

(* s is a working copy of the table stream with its id *)
Definition wk (k : bool) c (s : stream) : Prop := exists s0, strms_search (sc_strms c) (st_id s) = Some s0 /\ tr k s0 s.

Lemma wk_found k c id s : strms_search (sc_strms c) id = Some s -> wk k c s.
Proof. intro H. exists s. destruct (strms_search_In _ _ _ H) as [_ E]. rewrite E. split; [assumption | apply tr_refl]. Qed.
Lemma wk_hsame k c c' s : hsame c c' -> wk k c s -> wk k c' s.
Proof. intros (_ & _ & _ & _ & E & _) (s0 & H & T). exists s0. rewrite E. auto. Qed.
Lemma wk_tr k c s x : wk k c s -> tr k s x -> wk k c x.
Proof. intros (s0 & H & T) T2. exists s0. rewrite (tr_id _ _ _ _ T2). split; [assumption | eapply tr_trans; eassumption]. Qed.

Lemma hmvs_put k c x : wk k c x -> hmvs k c (put c x).
Proof. intros (s0 & H & T). apply hmvs_one. eapply hmv_put; eassumption. Qed.

Lemma wk_put k c x : wk k c x -> strms_search (sc_strms (put c x)) (st_id x) = Some x.
Proof. intros (s0 & H & _). rewrite sc_strms_put. eapply search_put_same. exact H. Qed.

Lemma hmvs_put_close k c x : wk k c x -> close_ok k x -> hmvs k c (close_stream (put c x) x).
Proof.
  intros W OK. eapply hmvs_trans; [apply hmvs_put; exact W|].
  apply hmvs_one. eapply hm_close; [eapply wk_put; exact W | apply tr_refl | exact OK].
Qed.

Lemma hmvs_put_maybe_close k c x : wk k c x -> (st_state x = SClosed -> close_ok k x) ->
  hmvs k c (if sstate_eqb (st_state x) SClosed then close_stream (put c x) x else put c x).
Proof.
  intros W OK. destruct (sstate_eqb (st_state x) SClosed) eqn:E; [|apply hmvs_put; exact W].
  apply hmvs_put_close; [exact W|]. apply OK. destruct (st_state x); try discriminate. reflexivity.
Qed.

Lemma hmvs_brk_if k (b : bool) c : (b = true -> sc_closing c = true) -> hmvs k c (fst (if b then brk c else cont c)).
Proof. intro H. destruct b; [apply hmvs_one, hm_brk; auto | constructor]. Qed.

(* what flush_loop knows about the streams it is going to close (only needed for strict sequences) *)
Definition answered (k : bool) c (ids : list N) : Prop :=
  k = true -> NoDup (map st_id (sc_strms c)) /\
              (forall s, In s (sc_strms c) -> In (st_id s) ids -> st_responded s = true).

Lemma hmvs_close_all k ids : forall c, answered k c ids -> hmvs k c (close_all c ids).
Proof.
  induction ids as [|id t IH]; intros c R; cbn [close_all]; [constructor|].
  destruct (strms_search (sc_strms c) id) as [s|] eqn:E.
  - destruct (strms_search_In _ _ _ E) as [Is Ei].
    eapply hmvs_trans.
    + apply hmvs_one. apply hm_close with (s := s) (x := set_state s SClosed).
      * cbn [set_state st_id]. rewrite Ei. exact E.
      * apply tr_set_state_closed. intros K _. right. apply (R K); [assumption | left; auto].
      * intros K _. right. cbn [set_state st_responded]. apply (R K); [assumption | left; auto].
    + apply IH. intro K. destruct (R K) as [ND Rs]. rewrite sc_strms_close_stream. split; [apply strms_del_NoDup; exact ND|].
      intros y Iy Ht. apply Rs; [eapply strms_del_In; eassumption | right; assumption].
  - apply IH. intro K. destruct (R K) as [ND Rs]. split; [exact ND|]. intros y Iy Ht. apply Rs; [assumption | right; assumption].
Qed.

Lemma hmvs_flush_loop k ids : forall c done, answered k c done ->
  hmvs k c (fst (flush_loop c ids done)) /\ answered k (fst (flush_loop c ids done)) (snd (flush_loop c ids done)).
Proof.
  induction ids as [|id t IH]; intros c done R; cbn [flush_loop]; [split; [constructor | exact R]|].
  destruct (strms_search (sc_strms c) id) as [s|] eqn:E; [|apply IH; exact R].
  destruct (st_responded s && negb (st_handlerRunning s) && has_more_to_send s)%bool eqn:Cnd; [|apply IH; exact R].
  apply andb_prop in Cnd. destruct Cnd as [Cnd _]. apply andb_prop in Cnd. destruct Cnd as [Rs _].
  pose proof (hsame_send_data c s) as L. pose proof (tr_send_data k c s) as T.
  destruct (send_data c s) as [[c1 s1] fin]. cbn [fst snd] in *.
  destruct (strms_search_In _ _ _ E) as [Is Ei].
  assert (W1 : wk k c1 s1). { eapply wk_hsame; [exact L|]. eapply wk_tr; [eapply wk_found; exact E | exact T]. }
  assert (R1 : st_responded s1 = true) by (eapply tr_responded; eassumption).
  destruct (IH (put c1 s1) (if fin then done ++ [id] else done)) as [M Rn].
  - intro K. destruct (R K) as [ND Rd]. destruct L as (_ & _ & _ & _ & ES & _).
    rewrite sc_strms_put, strms_put_ids, ES. split; [exact ND|].
    intros y Iy Hd. destruct (strms_put_In _ _ _ Iy) as [->|Iy']; [exact R1|].
    assert (Hd' : In (st_id y) done \/ st_id y = id).
    { destruct fin; [|left; exact Hd]. apply in_app_or in Hd. destruct Hd as [Hd|[Hd|[]]]; [left | right]; auto. }
    destruct Hd' as [Hd'|Ey]; [apply Rd; assumption|].
    pose proof (NoDup_search _ _ ND Iy') as Sy. rewrite Ey, E in Sy. inversion Sy; subst. exact Rs.
  - split; [|exact Rn]. eapply hmvs_trans; [apply hmvs_same; exact L|].
    eapply hmvs_trans; [apply hmvs_put; exact W1 | exact M].
Qed.

Lemma hmvs_flush_streams k c : (k = true -> NoDup (map st_id (sc_strms c))) -> hmvs k c (flush_streams c).
Proof.
  intro ND. unfold flush_streams.
  destruct (hmvs_flush_loop k (map st_id (sc_strms c)) c []) as [M R].
  - intro K. split; [auto | intros s _ []].
  - destruct (flush_loop c (map st_id (sc_strms c)) []) as [c1 done]. cbn [fst snd] in *.
    eapply hmvs_trans; [exact M | apply hmvs_close_all; exact R].
Qed.

Lemma hsame_strms c c' : hsame c c' -> sc_strms c' = sc_strms c. Proof. unfold hsame. tauto. Qed.
Lemma hsame_closing c c' : hsame c c' -> sc_closing c' = sc_closing c. Proof. unfold hsame. tauto. Qed.
Lemma hsame_sl_done c c' : hsame c c' -> sc_sl_done c' = sc_sl_done c. Proof. unfold hsame. tauto. Qed.
Lemma hsame_lastID c c' : hsame c c' -> sc_lastID c' = sc_lastID c. Proof. unfold hsame. tauto. Qed.

(* putting a working copy over the table entry commutes with everything that leaves the table alone *)
Lemma strms_put_put l s x : st_id x = st_id s -> strms_put (strms_put l s) x = strms_put l x.
Proof.
  intro E. induction l as [|y t IH]; cbn [strms_put]; [reflexivity|].
  destruct (st_id y =? st_id s) eqn:Es; cbn [strms_put].
  - replace (st_id s =? st_id x) with true by lia. replace (st_id y =? st_id x) with true by lia. reflexivity.
  - replace (st_id y =? st_id x) with false by lia. rewrite IH. reflexivity.
Qed.
Lemma put_put c s x : st_id x = st_id s -> put (put c s) x = put c x.
Proof. intro E. unfold put. sc_cbn. rewrite strms_put_put by exact E. reflexivity. Qed.

Lemma hsame_put_lift c c2 s : hsame c c2 -> hsame (put c s) (put c2 s).
Proof.
  unfold hsame, base, put, oext. sc_cbn. intros (A1 & A2 & A3 & A4 & A5 & A6 & A7 & A8 & A9 & A10 & A11 & A12 & A13).
  rewrite A5. repeat (split; [assumption || reflexivity|]). assumption.
Qed.

Definition inT c (s : stream) : Prop := exists s0, strms_search (sc_strms c) (st_id s) = Some s0.
Lemma inT_hsame c c' s : hsame c c' -> inT c s -> inT c' s.
Proof. intros H [s0 E]. exists s0. rewrite (hsame_strms _ _ H). exact E. Qed.
Lemma wk_put_self k c s : inT c s -> wk k (put c s) s.
Proof. intros [s0 E]. exists s. split; [rewrite sc_strms_put; eapply search_put_same; exact E | apply tr_refl]. Qed.
Lemma wk_inT k c s : wk k c s -> inT c s.
Proof. intros (s0 & E & _). exists s0. exact E. Qed.

(* from "s has been written back" to "x (an evolution of s) has been written back (and closed)", the
   connection having gone from c to c2 meanwhile without touching the table *)
Lemma hmvs_reput k c c2 s x : inT c s -> hsame c c2 -> tr k s x -> hmvs k (put c s) (put c2 x).
Proof.
  intros I H T. eapply hmvs_trans; [apply hmvs_same, hsame_put_lift; exact H|].
  rewrite <- (put_put c2 s x) by (eapply tr_id; exact T).
  apply hmvs_put. eapply wk_tr; [apply wk_put_self; eapply inT_hsame; eassumption | exact T].
Qed.

Lemma hmvs_reput_maybe_close k c c2 s x : inT c s -> hsame c c2 -> tr k s x -> (st_state x = SClosed -> close_ok k x) ->
  hmvs k (put c s) (if sstate_eqb (st_state x) SClosed then close_stream (put c2 x) x else put c2 x).
Proof.
  intros I H T OK.
  assert (W : wk k (put c2 s) x) by (eapply wk_tr; [apply wk_put_self; eapply inT_hsame; eassumption | exact T]).
  eapply hmvs_trans; [apply hmvs_same, hsame_put_lift; exact H|].
  rewrite <- (put_put c2 s x) by (eapply tr_id; exact T).
  apply hmvs_put_maybe_close; assumption.
Qed.

Lemma sc_closing_put_maybe_close c x :
  sc_closing (if sstate_eqb (st_state x) SClosed then close_stream (put c x) x else put c x) = sc_closing c.
Proof. destruct (sstate_eqb _ _); [rewrite sc_closing_close_stream|]; reflexivity. Qed.

(* what becomes of the stream (its request is dispatched, more of its response goes out, nothing), then the working
   copy goes back to the table or the stream is closed *)
Definition af_sel (c : sconn) (s1 : stream) : sconn * stream :=
  if sstate_eqb (st_state s1) SHalfClosed && st_headersFinished s1 && negb (st_responded s1) then
    let s2 := set_flags s1 true (st_handlerRunning s1) (st_abandoned s1) in
    if st_hasCL s2 && negb (st_recvBody s2 =? st_contentLength s2)%Z then
      (write_reset c (st_id s2) c_ProtocolError, set_state (set_weReset s2) SClosed)
    else (note c (ODispatch (st_id s2) (st_req s2)), set_flags s2 true true (st_abandoned s2))
  else if st_responded s1 && negb (st_handlerRunning s1) && has_more_to_send s1 then
    let '(c1, s2, fin) := send_data c s1 in (c1, if fin then set_state s2 SClosed else s2)
  else (c, s1).
Definition write_back (c2 : sconn) (s2 : stream) (wc : bool) : sconn * bool :=
  let c3 := if sstate_eqb (st_state s2) SClosed then close_stream (put c2 s2) s2 else put c2 s2 in
  if wc && can_close_after_goaway c3 then brk c3 else cont c3.
Lemma after_frame_eq c s fr wc :
  after_frame cfg c s fr wc = let '(c2, s2) := af_sel c (handle_state fr s) in write_back c2 s2 wc.
Proof. reflexivity. Qed.

Lemma hmvs_write_back k c c2 s x wc : inT c s -> hsame c c2 -> tr k s x -> (st_state x = SClosed -> close_ok k x) ->
  (wc = true -> sc_closing c = true) -> hmvs k (put c s) (fst (write_back c2 x wc)).
Proof.
  intros I H T OKx WC. unfold write_back. cbv zeta. eapply hmvs_trans; [apply hmvs_reput_maybe_close; eassumption|].
  apply hmvs_brk_if. intro B. apply andb_prop in B. destruct B as [B _].
  rewrite sc_closing_put_maybe_close, (hsame_closing _ _ H). auto.
Qed.

Lemma hmvs_after_frame k c s fr wc : inT c s -> (wc = true -> sc_closing c = true) ->
  (st_state (handle_state fr s) = SClosed -> close_ok k s) ->
  hmvs k (put c s) (fst (after_frame cfg c s fr wc)).
Proof.
  intros I WC OK. rewrite after_frame_eq.
  pose proof (tr_handle_state own k fr s OK) as T1. set (s1 := handle_state fr s) in *.
  assert (OK1 : st_state s1 = SClosed -> close_ok k s1).
  { intros E K Hf. rewrite (tr_hf _ _ _ _ T1) in Hf. destruct (OK E K Hf) as [W|R]; [left | right].
    - destruct T1 as (_ & _ & _ & _ & _ & _ & T6 & _). auto.
    - eapply tr_responded; eassumption. }
  clearbody s1.
  assert (SEL : hsame c (fst (af_sel c s1)) /\ tr k s (snd (af_sel c s1)) /\
                (st_state (snd (af_sel c s1)) = SClosed -> close_ok k (snd (af_sel c s1)))).
  { unfold af_sel.
    destruct (sstate_eqb (st_state s1) SHalfClosed && st_headersFinished s1 && negb (st_responded s1))%bool eqn:Cnd.
    - apply andb_prop in Cnd. destruct Cnd as [Cnd Hr]. apply andb_prop in Cnd. destruct Cnd as [Hs Hf].
      assert (Hst : st_state s1 = SHalfClosed) by (destruct (st_state s1); try discriminate; reflexivity).
      destruct (st_hasCL _ && negb _)%bool; cbn [fst snd].
      + split; [apply hsame_write_reset|]. split; [|intros _ _ _; left; reflexivity].
        eapply tr_trans; [exact T1|]. eapply tr_trans; [apply tr_respond; [exact Hf | rewrite Hst; cbn; lia]|].
        apply tr_reset_closed.
      + split; [apply hsame_note|]. split; [|cbn [set_flags st_state]; rewrite Hst; discriminate].
        eapply tr_trans; [exact T1|]. eapply tr_trans; [apply tr_respond; [exact Hf | rewrite Hst; cbn; lia]|].
        apply tr_respond; cbn [set_flags st_headersFinished st_state]; [exact Hf | rewrite Hst; cbn; lia].
    - destruct (st_responded s1 && negb (st_handlerRunning s1) && has_more_to_send s1)%bool eqn:Snd;
        [|split; [apply hsame_refl | split; [exact T1 | exact OK1]]].
      apply andb_prop in Snd. destruct Snd as [Snd _]. apply andb_prop in Snd. destruct Snd as [Rs _].
      pose proof (hsame_send_data c s1) as L. pose proof (tr_send_data k c s1) as T.
      destruct (send_data c s1) as [[c1 s2] fin]. cbn [fst snd] in *.
      assert (R2 : st_responded s2 = true) by (eapply tr_responded; eassumption).
      split; [exact L|]. split.
      + eapply tr_trans; [exact T1|].
        destruct fin; [eapply tr_trans; [exact T | apply tr_set_state_closed; intros _ _; right; exact R2] | exact T].
      + intros _ _ _. right. destruct fin; [cbn [set_state st_responded]|]; exact R2. }
  destruct (af_sel c s1) as [c2 x]. destruct SEL as (H & T & OKx). apply (hmvs_write_back k c c2 s x wc); assumption.
Qed.

Definition ftail_rest (c3 : sconn) (s3 : stream) (e : option h2err) (fr : sframe) (wasClosing : bool) : sconn * bool :=
  match e with
  | Some e =>
    let '(c4, s4) := write_error c3 (Some s3) e in
    let s5 := match s4 with Some x => set_state x SClosed | None => set_state s3 SClosed end in
    match e with
    | EGoAway code => if negb (code =? c_NoError) then brk (put c4 s5) else after_frame cfg c4 s5 fr wasClosing
    | EReset _ => after_frame cfg c4 s5 fr wasClosing
    | EPanic => brk (note c3 (OPanic 1 0))
    end
  | None => after_frame cfg c3 s3 fr wasClosing
  end.

Lemma write_goaway_upd_strms c l sid code : write_goaway (upd_strms c l) sid code = upd_strms (write_goaway c sid code) l.
Proof. unfold write_goaway, emit. sc_cbn. destruct (sc_wl_dead c); [reflexivity|]. destruct (sc_sl_done c); reflexivity. Qed.
Lemma write_goaway_put c s sid code : write_goaway (put c s) sid code = put (write_goaway c sid code) s.
Proof. unfold put. rewrite write_goaway_upd_strms, sc_strms_write_goaway. reflexivity. Qed.
Lemma note_upd_strms c l o : note (upd_strms c l) o = upd_strms (note c o) l.
Proof. reflexivity. Qed.

(* a GOAWAY and the end of the loop, from a state that may differ in the table: the table is not read any more *)
Lemma hm_goaway_brk k a c l sid code : sc_dec c = sc_dec a -> base a c ->
  hmv k a (fst (brk (upd_strms (write_goaway c sid code) l))).
Proof.
  intros D B.
  assert (G : sc_wl_dead a = false -> (gcount (sc_out a) < gcount (sc_out (fst (brk (upd_strms (write_goaway c sid code) l)))))%nat).
  { intro W. destruct B as (O & Wc & _). apply oext_gcount in O. rewrite <- Wc in W.
    pose proof (gcount_write_goaway _ c sid code W) as G. unfold brk, note. sc_cbn. rewrite gcount_cons. lia. }
  apply hm_fatal; [| |reflexivity| |exact G].
  - unfold brk, note. sc_cbn. rewrite sc_dec_write_goaway. exact D.
  - eapply base_trans; [exact B|]. eapply base_trans; [apply base_write_goaway|].
    eapply base_trans; [|apply base_brk]. apply base_same_out; reflexivity.
  - right. split; [|exact G]. unfold brk, note. sc_cbn. apply sc_closing_write_goaway.
Qed.

Lemma hmvs_ftail_rest k c3 s3 e fr wc : inT c3 s3 -> (wc = true -> sc_closing c3 = true) ->
  (e = None -> st_state (handle_state fr s3) = SClosed -> close_ok k s3) ->
  (forall code, e = Some (EGoAway code) -> (code =? c_NoError) = false) ->
  hmvs k (put c3 s3) (fst (ftail_rest c3 s3 e fr wc)).
Proof.
  intros I WC OK NE. unfold ftail_rest. destruct e as [[code|code|]|].
  - (* a connection error: GOAWAY, the loop ends; the table is not read any more *)
    cbn [write_error]. rewrite (NE code eq_refl). cbn [negb].
    apply hmvs_one, hm_goaway_brk; [reflexivity | apply base_same_out; reflexivity].
  - cbn [write_error].
    eapply hmvs_trans; [|apply hmvs_after_frame].
    + apply hmvs_reput; [exact I | apply hsame_write_reset|].
      eapply tr_trans; [apply tr_reset_closed|]. apply tr_set_state_closed. intros _ _. left. reflexivity.
    + exact (inT_hsame _ _ _ (hsame_write_reset _ _ _) I).
    + rewrite (hsame_closing _ _ (hsame_write_reset c3 _ _)). exact WC.
    + intros _ _ _. left. reflexivity.
  - cbn [write_error].
    (* the table write-back is lost in the panic: the loop has ended, nothing reads the table any more *)
    apply hmvs_one. apply hm_fatal.
    + reflexivity.
    + unfold base, oext, brk, note, put. sc_cbn. repeat split; try reflexivity. exists [OExit 1 0; OPanic 1 0]. reflexivity.
    + reflexivity.
    + left. split; reflexivity.
    + intros _. unfold brk, note, put. sc_cbn. rewrite !gcount_cons. cbn [conn_err_out]. lia.
  - apply hmvs_after_frame; [exact I | exact WC | apply OK; reflexivity].
Qed.

(* implicit close (RFC 5.1.1), the request timer *)
Lemma head_search (n : stream) t : strms_search (n :: t) (st_id n) = Some n.
Proof. cbn [strms_search]. rewrite N.eqb_refl. reflexivity. Qed.

Lemma hmvs_implicit_close k fuel : forall c sid,
  hmvs k c (implicit_close fuel c sid) /\ (forall id, sid <= id -> strms_search (sc_strms (implicit_close fuel c sid)) id = strms_search (sc_strms c) id) /\ sc_closing (implicit_close fuel c sid) = sc_closing c.
Proof.
  induction fuel as [|fuel IH]; intros c sid; cbn [implicit_close]; [split; [apply hms_nil | split; reflexivity]|].
  destruct (sc_strms c) as [|n t] eqn:E; [split; [apply hms_nil | split; [intros; rewrite ?E; reflexivity | reflexivity]]|].
  destruct ((st_id n <? sid) && sstate_eqb (st_state n) SIdle && fkind_eqb (st_orig n) KHeaders)%bool eqn:Cnd;
    [|split; [apply hms_nil | split; [intros; rewrite ?E; reflexivity | reflexivity]]].
  apply andb_prop in Cnd. destruct Cnd as [Cnd _]. apply andb_prop in Cnd. destruct Cnd as [Lt _].
  set (x := set_state (set_weReset n) SClosed).
  destruct (IH (write_reset (close_stream c x) (st_id n) c_StreamCanceled) sid) as (M & S & C).
  split; [|split].
  - eapply hmvs_trans; [|eapply hmvs_trans; [apply hmvs_same, hsame_write_reset | exact M]].
    apply hmvs_one. apply hm_close with (s := n).
    + rewrite E. exact (head_search n t).
    + apply tr_reset_closed.
    + intros _ _. left. reflexivity.
  - intros id Hid. rewrite S by exact Hid. rewrite sc_strms_write_reset, sc_strms_close_stream, E.
    apply search_del_other. cbn [x set_state set_weReset st_id]. lia.
  - rewrite C, sc_closing_write_reset. apply sc_closing_close_stream.
Qed.

Lemma hmvs_close_heads k n : forall c, hmvs k c (close_heads n c).
Proof.
  induction n as [|n IH]; intro c; cbn [close_heads]; [constructor|].
  destruct (sc_strms c) as [|s t] eqn:E; [constructor|].
  eapply hmvs_trans; [apply hmvs_same, (hsame_write_reset c (st_id s) c_StreamCanceled)|].
  eapply hmvs_trans; [|apply IH].
  apply hmvs_one. apply hm_close with (s := s).
  - rewrite sc_strms_write_reset, E. exact (head_search s t).
  - apply tr_reset_closed.
  - intros _ _. left. reflexivity.
Qed.

Theorem hmvs_sl_timer k c : hmvs k c (fst (sl_timer cfg c)).
Proof. unfold sl_timer. destruct (_ <=? 0)%Z; cbn [fst cont]; [constructor | apply hmvs_close_heads]. Qed.

Theorem hmvs_sl_done k c sid r :
  (k = true -> forall s, strms_search (sc_strms c) sid = Some s -> st_handlerRunning s = true -> st_responded s = true) ->
  hmvs k c (fst (sl_done enc_field cfg c sid r)).
Proof.
  intro PRE. unfold sl_done.
  destruct (take_stream (sc_gone c) sid) as [[s rest]|].
  { cbn [cont fst]. apply hmvs_same. eapply hsame_trans; [apply hsame_upd_gone | apply hsame_release_stream]. }
  destruct (strms_search (sc_strms c) sid) as [s|] eqn:E; [|constructor].
  destruct (st_handlerRunning s) eqn:Run; cbn [negb]; [|constructor].
  set (s1 := set_flags s (st_responded s) false (st_abandoned s)).
  pose proof (hsame_finish_request c s1 r) as L. pose proof (tr_finish_request k c s1 r) as T.
  destruct (finish_request enc_field c s1 r) as [[c1 s2] fin]. cbn [fst snd] in *.
  assert (T2 : tr k s s2) by (eapply tr_trans; [apply tr_done_flags | exact T]).
  assert (W : wk k c s) by (eapply wk_found; exact E).
  assert (M : hmvs k c (if fin then close_stream (put c1 (set_state s2 SClosed)) (set_state s2 SClosed) else put c1 s2)).
  { eapply hmvs_trans; [apply hmvs_same; exact L|]. destruct fin.
    - assert (OKc : close_ok k s2).
      { intros K _. right. eapply tr_responded; [exact T2|]. apply (PRE K s); auto. }
      apply hmvs_put_close.
      + eapply wk_hsame; [exact L|]. eapply wk_tr; [exact W|]. eapply tr_trans; [exact T2 | apply tr_set_state_closed; exact OKc].
      + intros K Hf. destruct (OKc K Hf) as [Wr|Rs]; [left | right]; assumption.
    - apply hmvs_put. eapply wk_hsame; [exact L|]. eapply wk_tr; eassumption. }
  set (c2 := if fin then _ else _) in *. clearbody c2.
  eapply hmvs_trans; [exact M|]. apply hmvs_brk_if. intro B. apply andb_prop in B. tauto.
Qed.

(* handle_frame on anything but HEADERS / CONTINUATION *)
Definition is_hdr_kind (k : fkind) : bool := fkind_eqb k KHeaders || fkind_eqb k KCont.

(* handle_frame on HEADERS / CONTINUATION, once verify_state has let the frame through *)
Definition hframe_hdr (c : sconn) (s : stream) (fr : sframe) : sconn * stream * option h2err :=
  if (3 <=? sstate_rank (st_state s)) && negb (continuing_headers s fr) then (c, s, Some (EGoAway c_ProtocolError))
  else
    let '(c1, s1, e) := handle_header_frame dec_field cfg c s fr in
    match e with
    | Some e => (c1, s1, Some e)
    | None =>
      if flag_has (sf_flags fr) FL_EH then
        let fin := match st_prev s1 with [] => true | _ => false end in
        let s2 := set_headers_finished s1 fin in
        if negb fin then (c1, s2, Some (EGoAway c_ProtocolError))
        else match validate_request_pseudo_headers s2 with Some e => (c1, s2, Some e) | None => (c1, s2, None) end
      else (c1, s1, None)
    end.

Lemma handle_frame_hdr c s fr : is_hdr_kind (sf_kind fr) = true ->
  handle_frame dec_field cfg c s fr = match verify_state s fr with Some e => (c, s, Some e) | None => hframe_hdr c s fr end.
Proof. unfold handle_frame, is_hdr_kind. destruct (sf_kind fr); try discriminate; reflexivity. Qed.

Lemma handle_frame_other k c s fr : is_hdr_kind (sf_kind fr) = false -> (sf_kind fr = KData -> st_id s = own) ->
  hsame c (fst (fst (handle_frame dec_field cfg c s fr))) /\ tr k s (snd (fst (handle_frame dec_field cfg c s fr))) /\ (forall code, snd (handle_frame dec_field cfg c s fr) = Some (EGoAway code) -> (code =? c_NoError) = false) /\ snd (handle_frame dec_field cfg c s fr) <> Some EPanic.
Proof.
  intros NK EO. unfold handle_frame.
  destruct (verify_state s fr) as [e|] eqn:V.
  { cbn [fst snd]. split; [apply hsame_refl|]. split; [apply tr_refl|]. split.
    - intros code Ec. inversion Ec; subst. unfold verify_state in V.
      destruct (st_state s); try discriminate;
      repeat match type of V with context [if ?b then _ else _] => destruct b end; inversion V; reflexivity.
    - intro Ec. inversion Ec; subst. unfold verify_state in V.
      destruct (st_state s); try discriminate;
      repeat match type of V with context [if ?b then _ else _] => destruct b end; inversion V. }
  destruct (sf_kind fr); try discriminate NK;
  repeat match goal with |- context [if ?b then _ else _] => destruct b end; cbn [fst snd];
  (split; [first [apply hsame_refl | apply hsame_credit_conn_window | apply hsame_consume_recv_window]|]);
  (split; [first [apply tr_refl | apply tr_set_recv; apply EO; reflexivity | apply tr_set_window]|]);
  (split; [intros code Ec; inversion Ec; reflexivity | intro Ec; discriminate Ec]).
Qed.

(* the frame once its stream is known: prelude, handle_frame, what follows *)
Definition ftail (c2 : sconn) (s : stream) (fr : sframe) (wasClosing : bool) : sconn * bool :=
  let '(c3, s3, e) := handle_frame dec_field cfg c2 s fr in ftail_rest c3 s3 e fr wasClosing.

Definition fwork (c1 : sconn) (s : stream) (fr : sframe) (wasClosing : bool) : sconn * bool :=
  let pre2 : (sconn * bool) + sconn :=
    if fkind_eqb (sf_kind fr) KHeaders then
      match get_previous_headers (sc_strms c1) with
      | Some p =>
        if negb (st_headersFinished p) then
          let '(c2, p') := write_error c1 (Some p) (EGoAway c_ProtocolError) in
          inl (cont (match p' with Some p' => put c2 p' | None => c2 end))
        else inr (implicit_close (S (length (sc_strms c1))) c1 (st_id s))
      | None => inr (implicit_close (S (length (sc_strms c1))) c1 (st_id s))
      end
    else inr c1 in
  match pre2 with
  | inl r => r
  | inr c2 => ftail c2 s fr wasClosing
  end.

Lemma hmvs_ftail_other k c s fr wc : is_hdr_kind (sf_kind fr) = false -> (sf_kind fr = KData -> st_id s = own) -> wk k c s -> (wc = true -> sc_closing c = true) ->
  (k = true -> st_headersFinished s = true) ->
  hmvs k c (fst (ftail c s fr wc)).
Proof.
  intros NK EO W WC HF. unfold ftail.
  destruct (handle_frame_other k c s fr NK EO) as (L & T & NE & NP).
  destruct (handle_frame dec_field cfg c s fr) as [[c3 s3] e]. cbn [fst snd] in *.
  assert (W3 : wk k c3 s3) by (eapply wk_hsame; [exact L|]; eapply wk_tr; eassumption).
  eapply hmvs_trans; [apply hmvs_same; exact L|].
  eapply hmvs_trans; [apply hmvs_put; exact W3|].
  apply hmvs_ftail_rest.
  - eapply wk_inT. exact W3.
  - rewrite (hsame_closing _ _ L). exact WC.
  - intros _ _ K Hf. rewrite (tr_hf _ _ _ _ T), (HF K) in Hf. discriminate.
  - intros code Ec. apply NE. exact Ec.
Qed.

(* sl_frame on anything but a header-block fragment *)
Definition is_hdr_frame (fr : sframe) : bool := negb (sf_sid fr =? 0) && is_hdr_kind (sf_kind fr).

Lemma bumpall_tr k (delta : Z) : forall l pre,
  let r := (fix bumpall (pre : list stream) (l : list stream) {struct l} : list stream * bool :=
          match l with
          | [] => (pre, false)
          | s :: t =>
            let s' := set_window s (st_window s + delta) in
            if (MAXWIN <? st_window s')%Z then (pre ++ s' :: t, true) else bumpall (pre ++ [s']) t
          end) pre l in
  exists l', fst r = pre ++ l' /\ Forall2 (tr k) l l'.
Proof.
  induction l as [|s t IH]; intros pre.
  - exists []. rewrite app_nil_r. split; [reflexivity | constructor].
  - cbv zeta. cbv zeta in IH.
    destruct (MAXWIN <? st_window (set_window s (st_window s + delta)))%Z eqn:OV.
    + exists (set_window s (st_window s + delta) :: t). cbn [fst]. split; [reflexivity|].
      constructor; [apply tr_set_window | apply Forall2_tr_refl].
    + destruct (IH (pre ++ [set_window s (st_window s + delta)])) as (l' & E & F2).
      exists (set_window s (st_window s + delta) :: l'). split.
      * etransitivity; [exact E|]. rewrite <- app_assoc. reflexivity.
      * constructor; [apply tr_set_window | assumption].
Qed.

(* what the strict version needs to know: no header block is open *)
Definition no_open_block (k : bool) c : Prop :=
  k = true -> NoDup (map st_id (sc_strms c)) /\ (forall s, In s (sc_strms c) -> st_headersFinished s = true).

Lemma hmvs_goaway_cont k c sid code : hmvs k c (fst (cont (write_goaway c sid code))).
Proof. cbn [cont fst]. apply hmvs_one, hm_goaway. Qed.

Theorem hmvs_sl_frame_other k c fr : is_hdr_frame fr = false -> (sf_kind fr = KData -> sf_sid fr = own) -> no_open_block k c ->
  hmvs k c (fst (sl_frame dec_field enc_set_max cfg c fr)).
Proof.
  intros NH EO PRE. unfold sl_frame. unfold is_hdr_frame in NH.
  destruct (sf_sid fr =? 0) eqn:Z0.
  { (* connection-level frames *)
    destruct (sf_kind fr); try (cbn [cont fst]; constructor).
    - (* SETTINGS *)
      set (c0 := if sf_set_hastable fr then upd_enc c (enc_set_max (sc_enc c) (sf_set_table fr)) else c).
      assert (L0 : hsame c c0) by (subst c0; destruct (sf_set_hastable fr); [apply hsame_upd_enc | apply hsame_refl]).
      eapply hmvs_trans; [apply hmvs_same; exact L0|].
      destruct (sf_set_haswin fr).
      + cbv zeta.
        match goal with |- context [let '(aa, bb) := ?B in _] =>
          assert (BS : exists l', fst B = [] ++ l' /\ Forall2 (tr k) (sc_strms (upd_initWin c0 (signed 32 (sf_set_win fr)))) l')
            by (apply (bumpall_tr k (signed 32 (sf_set_win fr) - sc_initWin c0)));
          destruct B as [lB over] end.
        destruct BS as (lq & E & F2). cbn [fst app] in E. subst lB.
        set (c1 := upd_initWin c0 (signed 32 (sf_set_win fr))) in *.
        eapply hmvs_trans; [apply hmvs_same, (hsame_upd_initWin c0 (signed 32 (sf_set_win fr)))|]. fold c1.
        eapply hmvs_trans; [apply hmvs_one, (hm_map _ own k c1 lq); exact F2|].
        destruct over.
        * eapply hmvs_trans; [apply hmvs_one; apply hm_goaway with (sid := 0) (code := c_FlowControlError)|].
          apply hmvs_one, hm_brk. apply sc_closing_write_goaway.
        * cbn [cont fst].
          eapply hmvs_trans; [apply hmvs_same, (hsame_emit (upd_strms c1 lq) OSettingsAck)|].
          apply hmvs_flush_streams. intro K. destruct (PRE K) as [ND _].
          rewrite sc_strms_emit. sc_cbn. rewrite (Forall2_tr_ids _ _ _ _ F2). unfold c1. sc_cbn.
          rewrite (hsame_strms _ _ L0). exact ND.
      + cbn [cont fst]. apply hmvs_same, hsame_emit.
    - (* WINDOW_UPDATE *)
      eapply hmvs_trans; [apply hmvs_same, (hsame_upd_clientWindow c (sc_clientWindow c + Z.of_N (sf_inc fr)))|].
      destruct (_ <? _)%Z.
      + eapply hmvs_trans; [apply hmvs_one; apply hm_goaway with (sid := 0) (code := c_FlowControlError)|].
        apply hmvs_one, hm_brk. apply sc_closing_write_goaway.
      + cbn [cont fst]. apply hmvs_flush_streams. intro K. destruct (PRE K) as [ND _]. exact ND. }
  cbn [negb andb] in NH.
  assert (KH : fkind_eqb (sf_kind fr) KHeaders = false) by (unfold is_hdr_kind in NH; apply orb_false_elim in NH; tauto).
  assert (KC : fkind_eqb (sf_kind fr) KCont = false) by (unfold is_hdr_kind in NH; apply orb_false_elim in NH; tauto).
  rewrite KC. cbn [andb]. cbv zeta.
  change (match ?pre with inl r => r | inr (c1, s) => _ end) with
    (match pre with inl r => r | inr (c1, s) => fwork c1 s fr (sc_closing c) end).
  assert (FW : forall c1 s, fwork c1 s fr (sc_closing c) = ftail c1 s fr (sc_closing c)).
  { intros c1 s. unfold fwork. rewrite KH. reflexivity. }
  destruct (if sf_sid fr <=? sc_lastID c then strms_search (sc_strms c) (sf_sid fr) else None) as [s|] eqn:Found.
  { (* a stream of the table *)
    rewrite FW. assert (SS : strms_search (sc_strms c) (sf_sid fr) = Some s) by (destruct (_ <=? _); [exact Found | discriminate]).
    apply hmvs_ftail_other; [exact NH | intro KD; destruct (strms_search_In _ _ _ SS) as [_ Ei]; rewrite Ei; auto | eapply wk_found; exact SS | auto|].
    intro K. destruct (PRE K) as [_ HF]. apply HF. apply strms_search_In in SS. tauto. }
  destruct (fkind_eqb (sf_kind fr) KRst).
  { destruct (_ && _)%bool; [apply hmvs_goaway_cont | constructor]. }
  destruct (in_ring c (sf_sid fr)).
  { destruct (sf_kind fr); try discriminate KH; try discriminate KC; try apply hmvs_goaway_cont; try (cbn [cont fst]; constructor).
    destruct (match ring_find c (sf_sid fr) with Some b => b | None => false end); [|apply hmvs_goaway_cont].
    cbn [cont fst]. apply hmvs_same, hsame_credit_conn_window. }
  destruct (fkind_eqb (sf_kind fr) KPriority) eqn:KP.
  { destruct (sf_dep fr =? sf_sid fr); cbn [cont fst]; [apply hmvs_same, hsame_write_reset | constructor]. }
  rewrite !KH. cbn [andb].
  destruct (sf_sid fr <? sc_lastID c); [apply hmvs_goaway_cont|].
  (* any other frame on an unknown stream: the stream is made, the frame is refused, the loop ends *)
  set (s := set_orig_started (new_stream (sf_sid fr) (sc_initWin c)) (sf_kind fr) (sc_now c)).
  rewrite FW. unfold ftail, handle_frame.
  assert (V : verify_state s fr = Some (EGoAway c_ProtocolError)).
  { unfold verify_state. cbn [s set_orig_started new_stream st_state]. rewrite KH, KP. reflexivity. }
  rewrite V. unfold ftail_rest. cbn [write_error].
  replace (negb (c_ProtocolError =? c_NoError)) with true by reflexivity.
  apply hmvs_one, hm_goaway_brk; [reflexivity | apply base_same_out; reflexivity].
Qed.

End Steps.

Arguments wk {hstate}. Arguments inT {hstate}. Arguments answered {hstate}. Arguments no_open_block {hstate}.
Arguments ftail_rest {hstate}. Arguments ftail {hstate}. Arguments fwork {hstate}. Arguments hframe_hdr {hstate}. Arguments af_sel {hstate}. Arguments write_back {hstate}.
