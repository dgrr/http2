(* Proofs/CliResStep.v - C12/C11: the event handlers (callers, timers, Close, writeRequest) and the invariant
   `inv` = st_ok /\ an_ok over all event lists. *)
From H2V Require Import Base.Bytes Base.MachineInt Gen.GenConsts Impl.ServerConn Impl.ClientConn Proofs.CliBase Proofs.CliMsgMoves Proofs.CliResInv.
From Coq Require Import ZArith Lia ZifyN ZifyNat ZifyBool List Bool.
Import ListNotations.
Local Open Scope N_scope.

Section Put.
Context {hstate : Type} {CP : cparams} {NR : cplain CP}.
Implicit Types c : cconn hstate.

Lemma get_put_same c x x' : cl_ctx_get c (ct_tag x') = Some x -> cl_ctx_get (cl_ctx_put c x') (ct_tag x') = Some x'.
Proof. intro G. rewrite cl_ctx_get_put, N.eqb_refl, G. reflexivity. Qed.
Lemma get_put_other c x' t : t <> ct_tag x' -> cl_ctx_get (cl_ctx_put c x') t = cl_ctx_get c t.
Proof. intro G. rewrite cl_ctx_get_put. replace (t =? ct_tag x') with false by lia. reflexivity. Qed.

(* a caller's (or a timer's) step on its own Ctx: what it has to respect *)
Lemma st_ok_put c x x' : st_ok c -> cl_ctx_get c (ct_tag x') = Some x ->
  ct_sid x' = ct_sid x -> ct_conn x' = ct_conn x -> ct_lckStuck x' = false -> ct_resolved x' = ct_returned x' ->
  (ct_returned x' = true -> ct_err x' = None /\ ct_done x' = true) ->
  st_ok (cl_ctx_put c x').
Proof.
  intros S G Hs Hc Hl Hr Hret.
  assert (L : forall t y', cl_ctx_get (cl_ctx_put c x') t = Some y' ->
              (t = ct_tag x' /\ y' = x') \/ (t <> ct_tag x' /\ cl_ctx_get c t = Some y')).
  { intros t y' H. rewrite cl_ctx_get_put in H. destruct (t =? ct_tag x') eqn:E.
    - left. apply N.eqb_eq in E. subst t. rewrite G in H. inversion H. auto.
    - right. split; [apply N.eqb_neq, E | exact H]. }
  assert (L2 : forall t y, cl_ctx_get c t = Some y -> exists y', cl_ctx_get (cl_ctx_put c x') t = Some y' /\
                ct_sid y' = ct_sid y /\ ct_conn y' = ct_conn y).
  { intros t y H. rewrite cl_ctx_get_put. destruct (t =? ct_tag x') eqn:E.
    - replace t with (ct_tag x') in * by lia. rewrite H. exists x'. rewrite G in H. inversion H; subst y. auto.
    - exists y. auto. }
  constructor; try apply S.
  - rewrite tags_cl_ctx_put. apply S.
  - split; [|apply S]. intros t y' H. destruct (L _ _ H) as [[_ ->]|[_ H']]; [exact Hl | apply (proj1 (s_nostuck _ S) _ _ H')].
  - intros t I. destruct (s_inQ _ S t I) as (y & Gy & A & B). destruct (L2 _ _ Gy) as (y' & Gy' & A' & B'). exists y'. rewrite A', B'. auto.
  - intros id t I. destruct (s_rq _ S id t I) as (y & Gy & A & B & C). destruct (L2 _ _ Gy) as (y' & Gy' & A' & B'). exists y'. rewrite A', B'. auto.
  - intros t y' H. destruct (L _ _ H) as [[_ ->]|[_ H']]; [auto | apply (s_ret _ S _ _ H')].
  - intros t y' H. destruct (L _ _ H) as [[_ ->]|[_ H']]; [rewrite Hs, Hc; apply (s_sid _ S _ _ G) | apply (s_sid _ S _ _ H')].
  - intros t t' y1 y1' H1 H1'.
    assert (B : forall t y', cl_ctx_get (cl_ctx_put c x') t = Some y' -> exists y, cl_ctx_get c t = Some y /\ ct_sid y' = ct_sid y).
    { intros u y' H. destruct (L _ _ H) as [[-> ->]|[_ H']]; [exists x; auto | exists y'; auto]. }
    destruct (B _ _ H1) as (y & Gy & ->). destruct (B _ _ H1') as (y' & Gy' & ->). apply (s_sid_unique _ S _ _ _ _ Gy Gy').
  - intros pb Hpb. destruct (s_pb _ S _ Hpb) as (A & y & Gy & B). split; [exact A|].
    destruct (L2 _ _ Gy) as (y' & Gy' & A' & _). exists y'. rewrite A'. auto.
Qed.

Lemma an_ok_put c x x' : an_ok c -> cl_ctx_get c (ct_tag x') = Some x ->
  (answered x = true -> answered x' = true) -> (ct_done x' = true -> answered x' = true) ->
  (ct_fired x' = true -> answered x' = true) ->
  (cc_wl_done c = true -> In (ct_tag x') (cc_inQ c) -> ct_writing x' = true \/ answered x' = true) ->
  ct_finished x' = ct_finished x ->
  an_ok (cl_ctx_put c x').
Proof.
  intros A G Ha Hd Hf Hw Hfin.
  assert (L : forall t y', cl_ctx_get (cl_ctx_put c x') t = Some y' ->
              (t = ct_tag x' /\ y' = x') \/ (t <> ct_tag x' /\ cl_ctx_get c t = Some y')).
  { intros t y' H. rewrite cl_ctx_get_put in H. destruct (t =? ct_tag x') eqn:E.
    - left. apply N.eqb_eq in E. subst t. rewrite G in H. inversion H. auto.
    - right. split; [apply N.eqb_neq, E | exact H]. }
  constructor.
  - intros t y' H N. destruct (L _ _ H) as [[-> ->]|[_ H']]; [apply Ha, (a_dropped _ A _ _ G N) | apply (a_dropped _ A _ _ H' N)].
  - intros t y' H D. destruct (L _ _ H) as [[-> ->]|[_ H']]; [auto | apply (a_done _ A _ _ H' D)].
  - intros t y' H D. destruct (L _ _ H) as [[-> ->]|[_ H']]; [auto | apply (a_fired _ A _ _ H' D)].
  - intros W t y' I H. destruct (L _ _ H) as [[-> ->]|[_ H']]; [auto | apply (a_wl _ A W _ _ I H')].
  - intros t y' H F. destruct (L _ _ H) as [[-> ->]|[_ H']]; [rewrite Hfin in F; apply (a_fin _ A _ _ G F) | apply (a_fin _ A _ _ H' F)].
Qed.

End Put.

Section Events.
Context {hstate : Type} {CP : cparams} {NR : cplain CP}.
Implicit Types c : cconn hstate.
Variable cfg : cl_config.

Definition inv c : Prop := st_ok c /\ an_ok c.

Lemma inv_effo P c c' : inv c -> effo P c c' -> inv c'.
Proof. intros [S A] E. split; [eapply st_ok_eff; [exact S | apply E] | eapply an_ok_effo; eassumption]. Qed.

Definition any_item (o : coutev) : Prop := True.

Lemma inv_submit_check c tag : inv c -> inv (cl_submit_check c tag).
Proof.
  intros [S A]. unfold cl_submit_check. destruct (cl_ctx_get c tag) as [x|] eqn:G; [|split; assumption].
  destruct (ct_writing x) eqn:W; [|split; assumption]. cbn [negb].
  destruct (cl_ctxs_get_In _ _ _ G) as [_ T]. set (x1 := ctu_writing x false).
  assert (G1 : cl_ctx_get c (ct_tag x1) = Some x) by (cbn; rewrite T; exact G).
  pose proof (s_ret _ S _ _ G) as [R1 R2]. pose proof (proj1 (s_nostuck _ S) _ _ G) as LK.
  assert (K1 : cc_closed c = false \/ ct_sid x <> 0 -> inv (cl_ctx_put c x1)).
  { intro K. split.
    - apply st_ok_put with x; auto.
    - apply an_ok_put with x; auto.
      + intro D. apply (a_done _ A _ _ G D).
      + intro D. apply (a_fired _ A _ _ G D).
      + intros WD I. exfalso. destruct K as [K|K]; [destruct (s_wl_done _ S WD); congruence|].
        cbn in I. rewrite T in I. destruct (s_inQ _ S _ I) as (y & Gy & Hy & _). congruence. }
  destruct (cc_closed c) eqn:CL; cbn [negb]; [|apply K1; auto].
  cbn [ct_lckStuck x1 ctu_writing]. rewrite LK. cbn [ct_sid x1 ctu_writing].
  destruct (ct_sid x =? 0) eqn:Z; [|apply K1; right; lia].
  set (x2 := cl_ctx_resolve (ctu_done x1 true) (cl_close_err c)).
  pose proof (cev_resolve (CP:=cp_any) (ctu_done x1 true) (cl_close_err c) Logic.I) as V. fold x2 in V.
  assert (G2 : cl_ctx_get c (ct_tag x2) = Some x) by (rewrite (cev_tag _ _ V); exact G1).
  assert (A2 : answered x2 = true) by (apply answered_resolve'; cbn; exact R1).
  split.
  - apply st_ok_put with x; auto.
    + rewrite (cev_sid _ _ V). reflexivity.
    + rewrite (cev_conn _ _ V). reflexivity.
    + rewrite (cev_lckStuck _ _ V). exact LK.
    + rewrite (cev_resolved _ _ V), (cev_returned _ _ V). exact R1.
    + rewrite (cev_returned _ _ V), (cev_done _ _ V). cbn. intro R. split; [|reflexivity].
      destruct (cev_err _ _ V) as [F|(_ & F & _)]; [rewrite F; cbn; apply (R2 R) | cbn in F; congruence].
  - apply an_ok_put with x; auto. unfold x2. rewrite finished_resolve. reflexivity.
Qed.

Lemma inv_timeout_fire c tag : inv c -> inv (cl_timeout_fire c tag).
Proof.
  intros [S A]. unfold cl_timeout_fire. destruct (cl_ctx_get c tag) as [x|] eqn:G; [|split; assumption].
  destruct (ct_armed x && negb (ct_fired x)); [|split; assumption].
  destruct (cl_ctxs_get_In _ _ _ G) as [_ T]. pose proof (s_ret _ S _ _ G) as [R1 R2]. pose proof (proj1 (s_nostuck _ S) _ _ G) as LK.
  set (x2 := cl_ctx_resolve (ctu_fired x true) CETimeout).
  pose proof (cev_resolve (CP:=cp_any) (ctu_fired x true) CETimeout Logic.I) as V. fold x2 in V.
  assert (G2 : cl_ctx_get c (ct_tag x2) = Some x) by (rewrite (cev_tag _ _ V); cbn; rewrite T; exact G).
  assert (A2 : answered x2 = true) by (apply answered_resolve'; cbn; exact R1).
  split.
  - apply st_ok_put with x; auto.
    + rewrite (cev_sid _ _ V). reflexivity.
    + rewrite (cev_conn _ _ V). reflexivity.
    + rewrite (cev_lckStuck _ _ V). exact LK.
    + rewrite (cev_resolved _ _ V), (cev_returned _ _ V). exact R1.
    + rewrite (cev_returned _ _ V), (cev_done _ _ V). cbn. intro R. split; [|apply (R2 R)].
      destruct (cev_err _ _ V) as [F|(_ & F & _)]; [rewrite F; cbn; apply (R2 R) | cbn in F; congruence].
  - apply an_ok_put with x; auto. unfold x2. rewrite finished_resolve. reflexivity.
Qed.

Lemma inv_timeout_cancel c tag : inv c -> inv (cl_timeout_cancel c tag).
Proof.
  intros [S A]. unfold cl_timeout_cancel. destruct (cl_ctx_get c tag) as [x|] eqn:G; [|split; assumption].
  destruct (ct_fired x) eqn:F; [|split; assumption]. destruct (ct_cancelled x); [split; assumption|]. cbn [negb andb].
  destruct (cl_ctxs_get_In _ _ _ G) as [_ T]. pose proof (s_ret _ S _ _ G) as [R1 R2]. pose proof (proj1 (s_nostuck _ S) _ _ G) as LK.
  set (x1 := ctu_cancelled x true). set (c1 := cl_ctx_put c x1).
  assert (G1 : cl_ctx_get c (ct_tag x1) = Some x) by (cbn; rewrite T; exact G).
  assert (I1 : inv c1).
  { split; [apply st_ok_put with x; auto | apply an_ok_put with x; auto].
    - intro D. apply (a_done _ A _ _ G D).
    - intro D. apply (a_fired _ A _ _ G D).
    - intros WD I. cbn in I. rewrite T in I. apply (a_wl _ A WD _ _ I G). }
  destruct (negb (ct_conn x) || (ct_sid x =? 0)) eqn:K; [exact I1|].
  destruct I1 as [S1 A1].
  destruct (effo_delete_pending any_item (fun _ _ => I) 3 c1 (ct_sid x) (s_nostuck _ S1)) as [E2 F2].
  pose proof (cc_inQ_cl_delete_pending _ c1 3 [] (ct_sid x)) as I2. pose proof (cc_reqQueued_cl_delete_pending _ c1 3 [] (ct_sid x)) as Q2.
  destruct (cl_delete_pending 3 [] c1 (ct_sid x)) as [c2 stuck]. cbn [fst snd] in *. subst stuck.
  pose proof (inv_effo _ _ _ (conj S1 A1) E2) as [S2 A2].
  apply (inv_effo any_item c2); [split; assumption|].
  eapply effo_trans; [|apply effo_cancel_stream].
  split; [apply eff_take_req_count|].
  (* the entry taken off the table is this Ctx's, and its timer has answered it *)
  intros t H N.
  assert (G1' : cl_ctx_get c1 tag = Some x1) by (unfold c1; rewrite <- T; apply (get_put_same c x x1 G1)).
  destruct (e_ctx _ _ _ (proj1 E2) _ _ G1') as (x2 & G2 & V2).
  assert (Ht : t = tag).
  { destruct H as [H|H]; [exfalso; apply N; left; rewrite cc_inQ_cl_take_req_count; exact H|].
    apply in_map_iff in H. destruct H as ([i u] & Hu & J). cbn [snd] in Hu. subst u.
    destruct (i =? ct_sid x) eqn:Ei.
    - replace i with (ct_sid x) in J by lia. destruct (s_rq _ S2 _ _ J) as (y & Gy & Hy & _).
      apply (s_sid_unique _ S2 _ _ _ _ Gy G2); [rewrite (cev_sid _ _ V2); cbn; exact Hy | rewrite Hy; lia].
    - exfalso. apply N. right. rewrite cc_reqQueued_cl_take_req_count. apply in_map_iff. exists (i, t). split; [reflexivity|].
      apply filter_In. cbn [fst]. rewrite Ei. auto. }
  subst t. exists x2. unfold cl_ctx_get. rewrite cc_ctxs_cl_take_req_count. split; [exact G2|].
  apply (a_fired _ A2 _ _ G2). rewrite (cev_fired _ _ V2). cbn. exact F.
Qed.

Lemma inv_receive c tag : inv c -> inv (cl_receive c tag).
Proof.
  intros [S A]. unfold cl_receive. destruct (cl_ctx_get c tag) as [x|] eqn:G; [|split; assumption].
  destruct (ct_returned x) eqn:R; [split; assumption|]. destruct (ct_err x) as [e|] eqn:E; [|split; assumption].
  destruct (cl_ctxs_get_In _ _ _ G) as [_ T]. pose proof (proj1 (s_nostuck _ S) _ _ G) as LK.
  cbv zeta. cbn [ct_lckStuck ctu_armed ctu_err]. rewrite LK.
  set (x2 := ctu_pooled _ _).
  assert (G2 : cl_ctx_get c (ct_tag x2) = Some x) by (cbn; rewrite T; exact G).
  assert (I2 : inv (cl_ctx_put c x2)).
  { split; [apply st_ok_put with x; auto | apply an_ok_put with x; auto]. }
  set (c2 := cl_note (cl_ctx_put c x2) _).
  assert (I3 : inv c2) by (apply (inv_effo any_item _ _ I2), effo_note; exact I).
  destruct (_ && ct_finished _); [|exact I3]. apply (inv_effo any_item _ _ I3), effo_note. exact I.
Qed.

Lemma effo_close_call (P : coutev -> Prop) c : effo P c (cl_close_call c).
Proof.
  unfold cl_close_call, cl_close_begin. destruct (cc_closed c) eqn:CL; [apply effo_refl|].
  apply effo_keep; [|reflexivity|reflexivity]. apply (eff_frame' P c _ []); try reflexivity; auto;
    try (apply same_filter; reflexivity); try (apply pending_same; reflexivity).
Qed.

Lemma effo_close_finish (P : coutev -> Prop) c : (forall o, benign o = true -> P o) -> effo P c (cl_close_finish c).
Proof.
  intro Pben. unfold cl_close_finish. destruct (cc_closing c); [|apply effo_refl]. unfold cl_close_net.
  destruct (cl_can_write c).
  - apply (effo_frame P c _ [COGoAway 0 c_NoError]); try reflexivity; auto; try (apply pending_same; reflexivity);
      try (repeat constructor; apply Pben; reflexivity).
  - apply effo_same; reflexivity.
Qed.

Lemma effo_write_fail (P : coutev -> Prop) c : effo P c (ccu_writeFail c true).
Proof. apply effo_same; reflexivity. Qed.

End Events.

Section Admit.
Context {hstate : Type} {CP : cparams} {NR : cplain CP}.
Implicit Types c : cconn hstate.

(* roundTripOnce hands a new Ctx to the connection *)
Lemma inv_add c c' y : inv c -> cl_ctx_get c (ct_tag y) = None ->
  (forall t, cl_ctx_get c' t = if t =? ct_tag y then Some y else cl_ctx_get c t) ->
  map ct_tag (cc_ctxs c') = map ct_tag (cc_ctxs c) ++ [ct_tag y] ->
  (cc_inQ c' = cc_inQ c /\ answered y = true \/ cc_inQ c' = cc_inQ c ++ [ct_tag y] /\ ct_writing y = true) ->
  cc_reqQueued c' = cc_reqQueued c -> cc_nextID c' = cc_nextID c -> cc_wl_done c' = cc_wl_done c ->
  cc_rl_done c' = cc_rl_done c -> cc_closed c' = cc_closed c -> cc_rl_stuck c' = cc_rl_stuck c ->
  cc_wl_stuck c' = cc_wl_stuck c -> cc_outQ c' = cc_outQ c -> cc_pending c' = cc_pending c ->
  cc_hdrErr c' = cc_hdrErr c -> cc_lastErr c' = cc_lastErr c ->
  ct_sid y = 0 -> ct_conn y = false -> ct_lckStuck y = false -> ct_resolved y = false -> ct_returned y = false ->
  ct_done y = false -> ct_fired y = false -> ct_finished y = false -> inv c'.
Proof.
  intros [S A] GN L TG IQ RQ NX WD RD CL RS WS OQ PD HE HL Hs Hc Hl Hr Hret Hd Hf Hfin.
  assert (NT : ~ In (ct_tag y) (map ct_tag (cc_ctxs c))) by (apply cl_ctxs_get_None_tags; exact GN).
  assert (OLD : forall t x, cl_ctx_get c t = Some x -> cl_ctx_get c' t = Some x).
  { intros t x G. rewrite L. destruct (t =? ct_tag y) eqn:E; [|exact G]. apply N.eqb_eq in E. subst t. congruence. }
  assert (NEW : forall t x, cl_ctx_get c' t = Some x -> (t = ct_tag y /\ x = y) \/ (t <> ct_tag y /\ cl_ctx_get c t = Some x)).
  { intros t x G. rewrite L in G. destruct (t =? ct_tag y) eqn:E;
      [left; split; [apply N.eqb_eq, E | inversion G; reflexivity] | right; split; [apply N.eqb_neq, E | exact G]]. }
  assert (NQ : ~ In (ct_tag y) (cc_inQ c)). { intro I. destruct (s_inQ _ S _ I) as (x & G & _). congruence. }
  split.
  - constructor.
    + rewrite TG. apply NoDup_snoc; [apply S | exact NT].
    + split; [|rewrite RS, WS; apply S]. intros t x G. destruct (NEW _ _ G) as [[_ ->]|[_ G']]; [exact Hl | apply (proj1 (s_nostuck _ S) _ _ G')].
    + destruct IQ as [[Q _]|[Q _]]; rewrite Q; [apply S|]. apply NoDup_snoc; [apply S | exact NQ].
    + intros t I. assert (J : In t (cc_inQ c) \/ t = ct_tag y).
      { destruct IQ as [[Q _]|[Q _]]; rewrite Q in I; [auto|]. apply in_app_iff in I. cbn [In] in I. destruct I as [I|[I|[]]]; auto. }
      destruct J as [J | ->]; [destruct (s_inQ _ S _ J) as (x & G & R); exists x; split; [apply OLD, G | exact R]|].
      exists y. rewrite L, N.eqb_refl. auto.
    + rewrite RQ. apply S.
    + rewrite RQ. apply S.
    + intros id t I. rewrite RQ in I. destruct (s_rq _ S _ _ I) as (x & G & R). exists x. rewrite NX. split; [apply OLD, G | exact R].
    + intros t x G. destruct (NEW _ _ G) as [[_ ->]|[_ G']]; [rewrite Hr, Hret; split; [reflexivity | discriminate] | apply (s_ret _ S _ _ G')].
    + intros t x G. rewrite NX. destruct (NEW _ _ G) as [[_ ->]|[_ G']]; [rewrite Hs; split; [apply S | auto] | apply (s_sid _ S _ _ G')].
    + intros t t' x x' G G' E Z. destruct (NEW _ _ G) as [[_ ->]|[_ G1]]; [congruence|].
      destruct (NEW _ _ G') as [[_ ->]|[_ G1']]; [congruence | apply (s_sid_unique _ S _ _ _ _ G1 G1' E Z)].
    + rewrite NX. apply S.
    + rewrite WD, CL, RQ. apply S.
    + rewrite RD, CL. apply S.
    + rewrite OQ. apply S.
    + rewrite HE. apply S.
    + rewrite HL. apply S.
    + rewrite PD, NX, RQ. apply S.
    + rewrite PD. intros pb Hpb. destruct (s_pb _ S _ Hpb) as (A1 & x & Gx & Sx). split; [exact A1|]. exists x. split; [apply OLD, Gx | exact Sx].
    + rewrite PD. apply S.
  - assert (HB : forall t, held c t -> held c' t).
    { intros t [H|H]; [left | right; rewrite RQ; exact H]. destruct IQ as [[Q _]|[Q _]]; rewrite Q; [exact H | apply in_app_iff; auto]. }
    constructor.
    + intros t x G N. destruct (NEW _ _ G) as [[-> ->]|[_ G']].
      * destruct IQ as [[_ Q]|[Q _]]; [exact Q|]. exfalso. apply N. left. rewrite Q. apply in_app_iff. right. left. reflexivity.
      * apply (a_dropped _ A _ _ G'). intro H. apply N, HB, H.
    + intros t x G D. destruct (NEW _ _ G) as [[_ ->]|[_ G']]; [congruence | apply (a_done _ A _ _ G' D)].
    + intros t x G D. destruct (NEW _ _ G) as [[_ ->]|[_ G']]; [congruence | apply (a_fired _ A _ _ G' D)].
    + rewrite WD. intros W t x I G. destruct (NEW _ _ G) as [[-> ->]|[NE G']].
      * destruct IQ as [[_ Q]|[_ Q]]; auto.
      * apply (a_wl _ A W t x); [|exact G']. destruct IQ as [[Q _]|[Q _]]; rewrite Q in I; [exact I|].
        apply in_app_iff in I. cbn [In] in I. destruct I as [I|[I|[]]]; [exact I | congruence].
    + intros t x G F. destruct (NEW _ _ G) as [[_ ->]|[NE G']]; [congruence|]. destruct (a_fin _ A _ _ G' F) as [NH NP]. split.
      * intro H. apply NH. destruct H as [H|H]; [left | right; rewrite RQ in H; exact H].
        destruct IQ as [[Q _]|[Q _]]; rewrite Q in H; [exact H|]. apply in_app_iff in H. cbn [In] in H. destruct H as [H|[H|[]]]; [exact H | congruence].
      * rewrite PD. exact NP.
Qed.

End Admit.

Section Submit.
Context {hstate : Type} {CP : cparams} {NR : cplain CP}.
Implicit Types c : cconn hstate.
Variable cfg : cl_config.

Lemma inv_submit c tag rq q : inv c -> inv (cl_submit cfg c tag rq q).
Proof.
  intro I. unfold cl_submit. destruct (cl_ctx_get c tag) eqn:GN; [exact I|].
  set (new := cl_new_ctx tag rq (ccf_armTimers cfg)). set (c1 := ccu_ctxs c (cc_ctxs c ++ [new])).
  pose proof (ctx_get_addctx c tag rq (ccf_armTimers cfg) GN) as G1. fold new c1 in G1.
  destruct (cc_closed c1 && negb q).
  - (* case <-c.done *)
    set (y := cl_ctx_resolve new (cl_close_err c1)).
    assert (Ty : ct_tag y = tag) by (unfold y; rewrite ct_tag_cl_ctx_resolve; reflexivity).
    pose proof (cev_resolve (CP:=cp_any) new (cl_close_err c1) Logic.I) as V. fold y in V.
    apply (inv_add c (cl_resolve c1 tag (cl_close_err c1)) y I); try (rewrite Ty; exact GN).
    + intro t. rewrite cl_ctx_get_resolve, G1, Ty. destruct (t =? tag); reflexivity.
    + rewrite tags_cl_resolve. unfold c1. cbn [cc_ctxs ccu_ctxs]. rewrite map_app, Ty. reflexivity.
    + left. split; [rewrite cc_inQ_cl_resolve; reflexivity | apply answered_resolve; reflexivity].
    + rewrite cc_reqQueued_cl_resolve; reflexivity.
    + rewrite cc_nextID_cl_resolve; reflexivity.
    + rewrite cc_wl_done_cl_resolve; reflexivity.
    + rewrite cc_rl_done_cl_resolve; reflexivity.
    + rewrite cc_closed_cl_resolve; reflexivity.
    + rewrite cc_rl_stuck_cl_resolve; reflexivity.
    + rewrite cc_wl_stuck_cl_resolve; reflexivity.
    + rewrite cc_outQ_cl_resolve; reflexivity.
    + rewrite cc_pending_cl_resolve; reflexivity.
    + rewrite cc_hdrErr_cl_resolve; reflexivity.
    + rewrite cc_lastErr_cl_resolve; reflexivity.
    + rewrite (cev_sid _ _ V). reflexivity.
    + rewrite (cev_conn _ _ V). reflexivity.
    + rewrite (cev_lckStuck _ _ V). reflexivity.
    + rewrite (cev_resolved _ _ V). reflexivity.
    + rewrite (cev_returned _ _ V). reflexivity.
    + rewrite (cev_done _ _ V). reflexivity.
    + rewrite (cev_fired _ _ V). reflexivity.
    + unfold y. rewrite finished_resolve. reflexivity.
  - (* case c.in <- r *)
    set (y := ctu_writing new true).
    apply (inv_add c (cl_ctx_upd (ccu_inQ c1 (cc_inQ c1 ++ [tag])) tag (fun x => ctu_writing x true)) y I); try reflexivity; try exact GN.
    + intro t. rewrite cl_ctx_get_upd by reflexivity. unfold cl_ctx_get at 1 2. cbn [cc_ctxs ccu_inQ]. fold (cl_ctx_get c1 t).
      rewrite G1. cbn [ct_tag y ctu_writing new cl_new_ctx]. destruct (t =? tag); reflexivity.
    + rewrite tags_cl_ctx_upd. cbn [cc_ctxs ccu_inQ c1 ccu_ctxs]. rewrite map_app. reflexivity.
    + right. split; [rewrite cc_inQ_cl_ctx_upd; reflexivity | reflexivity].
    + rewrite cc_reqQueued_cl_ctx_upd; reflexivity.
    + rewrite cc_nextID_cl_ctx_upd; reflexivity.
    + rewrite cc_wl_done_cl_ctx_upd; reflexivity.
    + rewrite cc_rl_done_cl_ctx_upd; reflexivity.
    + rewrite cc_closed_cl_ctx_upd; reflexivity.
    + rewrite cc_rl_stuck_cl_ctx_upd; reflexivity.
    + rewrite cc_wl_stuck_cl_ctx_upd; reflexivity.
    + rewrite cc_outQ_cl_ctx_upd; reflexivity.
    + rewrite cc_pending_cl_ctx_upd; reflexivity.
    + rewrite cc_hdrErr_cl_ctx_upd; reflexivity.
    + rewrite cc_lastErr_cl_ctx_upd; reflexivity.
Qed.

End Submit.

Section WLIn.
Context {hstate : Type} {CP : cparams} {NR : cplain CP}.
Implicit Types c : cconn hstate.

(* writeRequest takes a Ctx off the queue and gives it a stream: conn.Store, streamID, queueReq *)
Lemma inv_admit c c' x tag q l : inv c -> cc_inQ c = tag :: q -> cl_ctx_get c tag = Some x -> cc_wl_done c = false ->
  let x' := ctu_sid (ctu_conn x true) (cc_nextID c) in
  (forall t, cl_ctx_get c' t = if t =? tag then Some x' else cl_ctx_get c t) ->
  map ct_tag (cc_ctxs c') = map ct_tag (cc_ctxs c) -> cc_inQ c' = q ->
  cc_reqQueued c' = cc_reqQueued c ++ [(cc_nextID c, tag)] -> cc_nextID c' = cc_nextID c + 2 ->
  cc_wl_done c' = cc_wl_done c -> cc_rl_done c' = cc_rl_done c -> cc_closed c' = cc_closed c ->
  cc_rl_stuck c' = cc_rl_stuck c -> cc_wl_stuck c' = cc_wl_stuck c -> cc_outQ c' = cc_outQ c ->
  cc_hdrErr c' = cc_hdrErr c -> cc_lastErr c' = cc_lastErr c ->
  cc_pending c' = cc_pending c ++ l -> (forall pb, In pb l -> pb_id pb = cc_nextID c /\ pb_tag pb = tag) -> (length l <= 1)%nat ->
  inv c'.
Proof.
  intros [St A] IQ G WD x' L TG IQ' RQ NX WD' RD CL RS WS OQ HE HLe PD PL LL.
  assert (PNDl : NoDup (map pb_id (cc_pending c'))).
  { rewrite PD, map_app. destruct l as [|p [|p2 l2]]; [rewrite app_nil_r; apply St | | exfalso; clear - LL; cbn in LL; lia].
    apply NoDup_snoc; [apply St|]. intro J. apply in_map_iff in J. destruct J as (pb & E & J). destruct (s_pending _ St _ J) as [Lt _].
    destruct (PL p (or_introl eq_refl)) as [Hp _]. cbn [map] in E. rewrite Hp in E. rewrite E in Lt. clear - Lt. lia. }
  destruct (cl_ctxs_get_In _ _ _ G) as [_ Tx].
  assert (ND : ~ In tag q /\ NoDup q). { pose proof (s_inQ_nodup _ St) as H. rewrite IQ in H. inversion H. auto. }
  destruct (s_inQ _ St tag) as (x0 & G0 & Sx & Cx); [rewrite IQ; left; reflexivity|]. rewrite G in G0. inversion G0; subst x0. clear G0.
  assert (OLD : forall t y, t <> tag -> cl_ctx_get c t = Some y -> cl_ctx_get c' t = Some y).
  { intros t y NE Gy. rewrite L. apply N.eqb_neq in NE. rewrite NE. exact Gy. }
  assert (NEW : forall t y, cl_ctx_get c' t = Some y -> (t = tag /\ y = x') \/ (t <> tag /\ cl_ctx_get c t = Some y)).
  { intros t y Gy. rewrite L in Gy. destruct (t =? tag) eqn:E;
      [left; split; [apply N.eqb_eq, E | inversion Gy; reflexivity] | right; split; [apply N.eqb_neq, E | exact Gy]]. }
  assert (TR : forall id, ~ In (id, tag) (cc_reqQueued c)).
  { intros id J. destruct (s_rq _ St _ _ J) as (y & Gy & Hy & _ & Z & _). rewrite G in Gy. inversion Gy; subst y. congruence. }
  assert (Gx' : cl_ctx_get c' tag = Some x') by (rewrite L, N.eqb_refl; reflexivity).
  split.
  - constructor.
    + rewrite TG. apply St.
    + split; [|rewrite RS, WS; apply St]. intros t y Gy. destruct (NEW _ _ Gy) as [[_ ->]|[_ Gy']];
        [cbn; apply (proj1 (s_nostuck _ St) _ _ G) | apply (proj1 (s_nostuck _ St) _ _ Gy')].
    + rewrite IQ'. apply ND.
    + intros t J. rewrite IQ' in J. assert (NE : t <> tag) by (intro; subst t; apply (proj1 ND), J).
      destruct (s_inQ _ St t) as (y & Gy & R); [rewrite IQ; right; exact J|]. exists y. split; [apply OLD; assumption | exact R].
    + rewrite RQ, map_app. cbn [map fst]. apply NoDup_snoc; [apply St|]. intro J. apply in_map_iff in J.
      destruct J as ([i u] & Hi & J). cbn [fst] in Hi. subst i. destruct (s_rq _ St _ _ J) as (_ & _ & _ & _ & _ & Lt). clear - Lt. lia.
    + rewrite RQ, map_app. cbn [map snd]. apply NoDup_snoc; [apply St|]. intro J. apply in_map_iff in J.
      destruct J as ([i u] & Hu & J). cbn [snd] in Hu. subst u. apply (TR _ J).
    + intros id t J. rewrite RQ in J. apply in_app_iff in J. destruct J as [J|[J|[]]].
      * destruct (s_rq _ St _ _ J) as (y & Gy & R1 & R2 & R3 & R4). exists y. rewrite NX.
        split; [apply OLD; [intro; subst t; apply (TR _ J) | exact Gy] | repeat split; auto; clear - R4; lia].
      * inversion J; subst id t. exists x'. rewrite NX. pose proof (s_next _ St) as H0. cbn. repeat split; auto; clear - H0; lia.
    + intros t y Gy. destruct (NEW _ _ Gy) as [[_ ->]|[_ Gy']]; [cbn; apply (s_ret _ St _ _ G) | apply (s_ret _ St _ _ Gy')].
    + intros t y Gy. rewrite NX. destruct (NEW _ _ Gy) as [[_ ->]|[_ Gy']].
      * cbn. split; [clear; lia | discriminate].
      * destruct (s_sid _ St _ _ Gy') as [Lt ?]. split; [clear - Lt; lia | assumption].
    + intros t t' y y' Gy Gy' E Z.
      assert (K : forall u z, u <> tag -> cl_ctx_get c u = Some z -> ct_sid z <> cc_nextID c).
      { intros u z _ Gz. destruct (s_sid _ St _ _ Gz) as [Lt _]. clear - Lt. lia. }
      destruct (NEW _ _ Gy) as [[-> ->]|[NE Gy1]]; destruct (NEW _ _ Gy') as [[-> ->]|[NE' Gy1']]; try reflexivity.
      * exfalso. cbn in E. apply (K _ _ NE' Gy1'). congruence.
      * exfalso. cbn in E. apply (K _ _ NE Gy1). congruence.
      * apply (s_sid_unique _ St _ _ _ _ Gy1 Gy1' E Z).
    + rewrite NX. pose proof (s_next _ St) as H0. clear - H0. lia.
    + rewrite WD', WD. discriminate.
    + rewrite RD, CL. apply St.
    + rewrite OQ. apply St.
    + rewrite HE. apply St.
    + rewrite HLe. apply St.
    + intros pb J. rewrite PD in J. rewrite NX, RQ. apply in_app_iff in J. destruct J as [J|J].
      * destruct (s_pending _ St _ J) as [Lt U]. split; [clear - Lt; lia|]. intros t K. apply in_app_iff in K. destruct K as [K|[K|[]]]; [apply U, K|].
        inversion K as [[E1 E2]]. clear - Lt E1. lia.
      * destruct (PL _ J) as [Hi Ht]. rewrite Hi, Ht. split; [clear; lia|]. intros t K. apply in_app_iff in K. destruct K as [K|[K|[]]].
        -- destruct (s_rq _ St _ _ K) as (_ & _ & _ & _ & _ & Lt). clear - Lt. lia.
        -- inversion K. reflexivity.
    + intros pb J. rewrite PD in J. apply in_app_iff in J. destruct J as [J|J].
      * destruct (s_pb _ St _ J) as (A1 & y & Gy & Sy). split; [exact A1|].
        destruct (N.eq_dec (pb_tag pb) tag) as [E|NE].
        -- exfalso. rewrite E, G in Gy. inversion Gy; subst y. congruence.
        -- exists y. split; [apply OLD; assumption | exact Sy].
      * destruct (PL _ J) as [Hi Ht]. rewrite Hi, Ht. pose proof (s_next _ St) as H0. split; [clear - H0; lia|]. exists x'. split; [exact Gx' | reflexivity].
    + exact PNDl.
  - assert (HB : forall t, t <> tag -> held c t -> held c' t).
    { intros t NE [H|H]; [left | right; rewrite RQ, map_app; apply in_app_iff; left; exact H].
      rewrite IQ' . rewrite IQ in H. destruct H as [H|H]; [congruence | exact H]. }
    assert (AN : answered x' = answered x) by reflexivity.
    constructor.
    + intros t y Gy N. destruct (NEW _ _ Gy) as [[-> ->]|[NE Gy']].
      * exfalso. apply N. right. rewrite RQ, map_app. apply in_app_iff. right. left. reflexivity.
      * apply (a_dropped _ A _ _ Gy'). intro H. apply N, HB; assumption.
    + intros t y Gy D. destruct (NEW _ _ Gy) as [[_ ->]|[_ Gy']]; [rewrite AN; apply (a_done _ A _ _ G D) | apply (a_done _ A _ _ Gy' D)].
    + intros t y Gy D. destruct (NEW _ _ Gy) as [[_ ->]|[_ Gy']]; [rewrite AN; apply (a_fired _ A _ _ G D) | apply (a_fired _ A _ _ Gy' D)].
    + rewrite WD', WD. discriminate.
    + intros t y Gy F. destruct (NEW _ _ Gy) as [[-> ->]|[NE Gy']].
      * exfalso. apply (proj1 (a_fin _ A _ _ G F)). left. rewrite IQ. left. reflexivity.
      * destruct (a_fin _ A _ _ Gy' F) as [NH NP]. split.
        -- intro H. apply NH. destruct H as [H|H].
           ++ left. rewrite IQ. right. rewrite IQ' in H. exact H.
           ++ right. rewrite RQ, map_app in H. apply in_app_iff in H. destruct H as [H|[H|[]]]; [exact H | cbn in H; congruence].
        -- intros pb J. rewrite PD in J. apply in_app_iff in J. destruct J as [J|J]; [apply NP, J|]. destruct (PL _ J) as [_ Ht]. congruence.
Qed.

End WLIn.

Section WLIn2.
Context {hstate : Type} {CP : cparams} {NR : cplain CP}.
Implicit Types c : cconn hstate.
Variable enc_field : hstate -> bytes -> bytes -> bool -> bytes * hstate.
Variable enc_set_max : hstate -> N -> hstate.
Variable cfg : cl_config.

Lemma eff_dequeue P c tag q : st_ok c -> cc_inQ c = tag :: q -> eff P c (ccu_inQ c q).
Proof.
  intros St IQ. apply (eff_frame' P c _ []); try reflexivity; auto; try (apply same_filter; reflexivity); try (apply pending_same; reflexivity).
  exists (fun t => negb (t =? tag)). cbn [cc_inQ ccu_inQ]. rewrite IQ. cbn [filter]. rewrite N.eqb_refl. cbn [negb].
  pose proof (s_inQ_nodup _ St) as ND. rewrite IQ in ND. inversion ND as [|? ? NI _]; subst. clear - NI.
  induction q as [|a q IH]; cbn [filter]; [reflexivity|]. destruct (a =? tag) eqn:E.
  - exfalso. apply NI. left. apply N.eqb_eq, E.
  - cbn [negb]. f_equal. apply IH. intro H. apply NI. right. exact H.
Qed.

(* the dequeued Ctx is answered on the spot *)
Lemma effo_dequeue_resolve P c tag q e : Eok 0 e -> st_ok c -> cc_inQ c = tag :: q -> effo P c (cl_resolve (ccu_inQ c q) tag e).
Proof.
  intros He St IQ. pose proof (eff_dequeue P c tag q St IQ) as E0. split.
  { eapply eff_trans; [exact E0|]. apply effo_eff, effo_ctx_upd'. intros x0 G0. split; [|apply finished_resolve]. apply cev_resolve.
    destruct (s_inQ _ St tag) as (x & G & Sx & _); [rewrite IQ; left; reflexivity|].
    destruct (e_ctx _ _ _ E0 _ _ G) as (x0' & G0' & V0). rewrite G0 in G0'. inversion G0'; subst x0'.
    rewrite (cev_sid _ _ V0), Sx. exact He. }
  intros t H N.
  assert (Ht : t = tag).
  { destruct H as [H|H].
    - rewrite IQ in H. destruct H as [H|H]; [auto|]. exfalso. apply N. left. rewrite cc_inQ_cl_resolve. exact H.
    - exfalso. apply N. right. rewrite cc_reqQueued_cl_resolve. exact H. }
  subst t. destruct (s_inQ _ St tag) as (x & G & _); [rewrite IQ; left; reflexivity|].
  destruct (e_ctx _ _ _ E0 _ _ G) as (x0 & G0 & _). rewrite cl_ctx_get_resolve, N.eqb_refl, G0. eexists. split; [reflexivity|].
  apply answered_resolve'. apply (s_ret _ (st_ok_eff _ _ _ St E0) _ _ G0).
Qed.

(* it had been taken back by its caller, who answered it *)
Lemma effo_dequeue_done P c tag q x : st_ok c -> an_ok c -> cc_inQ c = tag :: q -> cl_ctx_get c tag = Some x -> ct_done x = true ->
  effo P c (ccu_inQ c q).
Proof.
  intros St A IQ G D. split; [apply (eff_dequeue P c tag q St IQ)|]. intros t H N.
  assert (Ht : t = tag).
  { destruct H as [H|H].
    - rewrite IQ in H. destruct H as [H|H]; [auto|]. exfalso. apply N. left. exact H.
    - exfalso. apply N. right. exact H. }
  subst t. exists x. split; [exact G | apply (a_done _ A _ _ G D)].
Qed.

(* the state right after writeRequest has given the Ctx of tag a stream (conn.Store, streamID, queueReq, pending body):
   nothing written yet *)
Record admitted c c6 (x : cctx) (tag : N) (q : list N) (l : list cpending) : Prop := mkAdmitted {
  ad_inQ : cc_inQ c = tag :: q;
  ad_get : cl_ctx_get c tag = Some x;
  ad_done : ct_done x = false;
  ad_sid0 : ct_sid x = 0;
  ad_goAway : cc_goAway c = false;
  ad_room : cc_nextID c <= cl_maxStreamID;
  ad_ctx : forall t, cl_ctx_get c6 t = if t =? tag then Some (ctu_sid (ctu_conn x true) (cc_nextID c)) else cl_ctx_get c t;
  ad_tags : map ct_tag (cc_ctxs c6) = map ct_tag (cc_ctxs c);
  ad_inQ' : cc_inQ c6 = q;
  ad_rq : cc_reqQueued c6 = cc_reqQueued c ++ [(cc_nextID c, tag)];
  ad_next : cc_nextID c6 = cc_nextID c + 2;
  ad_wl_done : cc_wl_done c6 = cc_wl_done c;
  ad_rl_done : cc_rl_done c6 = cc_rl_done c;
  ad_closed : cc_closed c6 = cc_closed c;
  ad_rl_stuck : cc_rl_stuck c6 = cc_rl_stuck c;
  ad_wl_stuck : cc_wl_stuck c6 = cc_wl_stuck c;
  ad_outQ : cc_outQ c6 = cc_outQ c;
  ad_hdrErr : cc_hdrErr c6 = cc_hdrErr c;
  ad_lastErr : cc_lastErr c6 = cc_lastErr c;
  ad_hdrStream : cc_hdrStream c6 = cc_hdrStream c;
  ad_hdrStatus : cc_hdrStatus c6 = cc_hdrStatus c;
  ad_hdrEndStream : cc_hdrEndStream c6 = cc_hdrEndStream c;
  ad_goAway' : cc_goAway c6 = cc_goAway c;
  ad_closeRef : cc_closeRef c6 = cc_closeRef c;
  ad_out : cc_out c6 = cc_out c;
  ad_pending : cc_pending c6 = cc_pending c ++ l;
  ad_l : forall pb, In pb l -> pb_id pb = cc_nextID c /\ pb_tag pb = tag;
  ad_len : (length l <= 1)%nat
}.

Lemma inv_admitted c c6 x tag q l : inv c -> cc_wl_done c = false -> admitted c c6 x tag q l -> inv c6.
Proof. intros Hi WD []. eapply inv_admit; eassumption. Qed.

(* case <-c.in, taken apart *)
Lemma wl_in_cases (P : coutev -> Prop) c tag q : (forall o, benign o = true -> P o) ->
  (cc_goAway c = false -> forall x, cl_ctx_get c tag = Some x -> ct_done x = false -> forall es blk, P (COHeaders (cc_nextID c) es blk)) ->
  inv c -> cc_inQ c = tag :: q -> cc_wl_done c = false ->
  ((exists x, cl_ctx_get c tag = Some x /\ ct_done x = true) /\ cl_can_open_stream c = true /\
   effo P c (cl_wl_in enc_field enc_set_max cfg c) /\
   eff P (ccu_inQ c q) (cl_wl_in enc_field enc_set_max cfg c)) \/
  (cl_can_open_stream c = false /\ cl_wl_in enc_field enc_set_max cfg c = cl_resolve (ccu_inQ c q) tag CENoStreams) \/
  (exists c6 x l, admitted c c6 x tag q l /\ effo P c6 (cl_wl_in enc_field enc_set_max cfg c)).
Proof.
  intros Pben Phdr [St A] IQ WD. unfold cl_wl_in. rewrite IQ. set (c0 := ccu_inQ c q). unfold cl_write_request.
  destruct (cl_can_open_stream c0) eqn:CO; cbn [negb].
  2:{ right. left. split; [exact CO | reflexivity]. }
  destruct (s_inQ _ St tag) as (x & G & Sx & Cx); [rewrite IQ; left; reflexivity|].
  assert (G0 : cl_ctx_get c0 tag = Some x) by exact G. rewrite G0.
  rewrite (proj1 (s_nostuck _ St) _ _ G).
  destruct (ct_done x) eqn:D.
  { left. split; [exists x; auto|]. pose proof (effo_dequeue_done P c tag q x St A IQ G D) as E0.
    pose proof (effo_wl_after cfg P Pben (ccu_inQ c q) (st_ok_eff _ _ _ St (proj1 E0))) as E1.
    split; [exact CO|]. split; [eapply effo_trans; [exact E0 | exact E1] | exact (proj1 E1)]. }
  right. right.
  unfold cl_can_open_stream in CO. apply andb_true_iff in CO. destruct CO as [CO _]. apply andb_true_iff in CO. destruct CO as [GA NXm].
  assert (GA0 : cc_goAway c = false) by (cbn [cc_goAway c0 ccu_inQ] in GA; destruct (cc_goAway c); [discriminate | reflexivity]).
  assert (NXle : cc_nextID c <= cl_maxStreamID) by (cbn [cc_nextID c0 ccu_inQ] in NXm; clear - NXm; lia).
  cbv zeta. set (c1 := if negb (cc_encTableSize c0 =? cc_encTableSeen c0) then _ else c0).
  assert (NX1 : cc_nextID c1 = cc_nextID c) by (unfold c1; destruct (negb (cc_encTableSize c0 =? cc_encTableSeen c0)); reflexivity).
  rewrite !NX1. replace (cl_maxStreamID <? cc_nextID c) with false by (clear - NXle; lia).
  set (id := cc_nextID c) in *.
  destruct (cl_request_block enc_field (cc_enc (ccu_nextID c1 (u32 (id + 2)))) (ct_req x)) as [blk e'].
  set (x' := ctu_sid (ctu_conn x true) id).
  set (c5 := ccu_open _ _).
  replace (cc_goAway c5) with false by (unfold c5, c1; destruct (negb (cc_encTableSize c0 =? cc_encTableSeen c0)); cbn; symmetry; exact GA0).
  set (hasBody := match cq_body (ct_req x) with CStream _ _ => true | CBuf b => negb (cl_is_nil b) end).
  set (c6 := if hasBody then _ else c5).
  assert (U32 : u32 (id + 2) = id + 2).
  { unfold u32, wrap. apply N.mod_small. unfold cl_maxStreamID in NXle. clear - NXle. unfold id. lia. }
  destruct (cl_ctxs_get_In _ _ _ G) as [_ Tx].
  set (l := if hasBody
            then [match cq_body (ct_req x) with
                  | CStream reads size => mkCPB id tag [] (cc_streamWindow c5) (Some reads) size 0 (size =? 0)%Z
                  | CBuf b => mkCPB id tag b (cc_streamWindow c5) None (-1) 0 false
                  end] else []).
  assert (AD : admitted c c6 x tag q l).
  { constructor; try assumption; unfold l, c6, c5, c1, hasBody; destruct (negb (cc_encTableSize c0 =? cc_encTableSeen c0));
      destruct (match cq_body (ct_req x) with CStream _ _ => true | CBuf b => negb (cl_is_nil b) end);
      cbn [cc_ctxs cc_inQ cc_reqQueued cc_nextID cc_wl_done cc_rl_done cc_closed cc_rl_stuck cc_wl_stuck cc_outQ cc_pending
           cc_hdrErr cc_lastErr cc_hdrStream cc_hdrStatus cc_hdrEndStream cc_goAway cc_closeRef cc_out
           ccu_pending ccu_open ccu_reqQueued ccu_enc ccu_nextID ccu_encTableSeen ccu_inQ c0 cl_ctx_put ccu_ctxs];
      try reflexivity; try (rewrite U32; reflexivity); try (rewrite app_nil_r; reflexivity);
      try (intro t; unfold cl_ctx_get; cbn [cc_ctxs ccu_pending ccu_open ccu_reqQueued ccu_enc ccu_nextID ccu_encTableSeen ccu_inQ cl_ctx_put ccu_ctxs c0];
           rewrite cl_ctxs_get_put; unfold x'; cbn [ct_tag ctu_sid ctu_conn]; rewrite Tx; destruct (t =? tag) eqn:E; [apply N.eqb_eq in E; subst t; unfold cl_ctx_get in G; rewrite G|]; reflexivity);
      try (rewrite cl_ctxs_put_tags; reflexivity);
      try (intros pb [<-|[]]; destruct (cq_body (ct_req x)); split; reflexivity);
      try (intros pb []); try (cbn [length]; clear; lia). }
  exists c6, x, l. split; [exact AD|].
  pose proof (inv_admitted c c6 x tag q l (conj St A) WD AD) as [S6 A6].
  assert (EW : Eall CEWrite) by (apply Eall_nr; [reflexivity | discriminate]).
  destruct (cl_can_write c6) eqn:CW.
  - (* HEADERS written *)
    set (c7 := cl_note c6 _).
    assert (E7 : effo P c6 c7) by (apply effo_note, (Phdr GA0 x G D)).
    pose proof (st_ok_eff _ _ _ S6 (proj1 E7)) as S7.
    destruct hasBody.
    2:{ eapply effo_trans; [exact E7 | apply effo_wl_after; [exact Pben | exact S7]]. }
    destruct (effo_send_pending P Pben (cl_send_fuel c7 id) c7 id S7) as [E8 N8].
    destruct (cl_send_pending (cl_send_fuel c7 id) c7 id) as [c8 r]. cbn [fst snd] in *.
    pose proof (st_ok_eff _ _ _ S7 (proj1 E8)) as S8.
    destruct r; [| | contradiction].
    + eapply effo_trans; [exact E7|]. eapply effo_trans; [exact E8 | apply effo_wl_after; [exact Pben | exact S8]].
    + eapply effo_trans; [exact E7|]. eapply effo_trans; [exact E8|].
      assert (E9 : effo P c8 (cl_resolve c8 tag CEWrite)) by (apply effo_resolve, EW).
      eapply effo_trans; [exact E9 | apply effo_wl_exit; [exact Pben | exact EW | discriminate | apply (st_ok_eff _ _ _ S8 (proj1 E9))]].
  - (* the write failed *)
    set (c7 := cl_take_req_count (cl_set_last_err c6 CEWrite) id).
    assert (E7 : eff P c6 c7) by (apply (eff_trans _ _ (cl_set_last_err c6 CEWrite)); [apply effo_eff, effo_set_last_err; discriminate | apply eff_take_req_count]).
    pose proof (st_ok_eff _ _ _ S6 E7) as S7.
    destruct (effo_delete_pending P Pben 1 c7 id (s_nostuck _ S7)) as [[E8 _] F8].
    pose proof (cc_inQ_cl_delete_pending _ c7 1 [] id) as I8. pose proof (cc_reqQueued_cl_delete_pending _ c7 1 [] id) as Q8.
    destruct (cl_delete_pending 1 [] c7 id) as [c8 stuck]. cbn [fst snd] in *. subst stuck.
    assert (E9 : effo P c6 (cl_resolve c8 tag CEWrite)).
    { split; [eapply eff_trans; [exact E7|]; eapply eff_trans; [exact E8 | apply effo_eff, effo_resolve, EW]|].
      assert (R6 : In (id, tag) (cc_reqQueued c6)) by (rewrite (ad_rq _ _ _ _ _ _ AD); apply in_app_iff; right; left; reflexivity).
      apply (obl_take_resolve P c6 c8 id tag (fun y => y) CEWrite S6 (eff_trans _ _ _ _ E7 E8)); auto.
      + rewrite I8. unfold c7. rewrite cc_inQ_cl_take_req_count, cc_inQ_cl_set_last_err. reflexivity.
      + rewrite Q8. unfold c7. rewrite cc_reqQueued_cl_take_req_count, cc_reqQueued_cl_set_last_err. reflexivity.
      + intros t J. pose proof (cl_req_find_NoDup _ _ _ (s_rq_ids _ S6) J). pose proof (cl_req_find_NoDup _ _ _ (s_rq_ids _ S6) R6). congruence. }
    eapply effo_trans; [exact E9 | apply effo_wl_exit; [exact Pben | exact EW | discriminate | apply (st_ok_eff _ _ _ S6 (proj1 E9))]].
Qed.

End WLIn2.

Section WLIn3.
Context {hstate : Type}.
Implicit Types c : cconn hstate.
Variable enc_field : hstate -> bytes -> bytes -> bool -> bytes * hstate.
Variable enc_set_max : hstate -> N -> hstate.
Variable cfg : cl_config.

Lemma inv_wl_in c : inv c -> cc_wl_done c = false -> inv (cl_wl_in enc_field enc_set_max cfg c).
Proof.
  intros Hi WD. destruct (cc_inQ c) as [|tag q] eqn:IQ; [unfold cl_wl_in; rewrite IQ; exact Hi|].
  destruct (wl_in_cases (CP:=cp_any) enc_field enc_set_max cfg any_item c tag q (fun _ _ => Logic.I) (fun _ _ _ _ _ _ => Logic.I) Hi IQ WD)
    as [[_ [_ [E _]]]|[[_ ->]|(c6 & x & l & AD & E)]].
  - apply (inv_effo _ _ _ Hi E).
  - apply (inv_effo (CP:=cp_any) any_item c _ Hi). apply (effo_dequeue_resolve (CP:=cp_any)); [exact Logic.I | apply Hi | exact IQ].
  - apply (inv_effo _ _ _ (inv_admitted c c6 x tag q l Hi WD AD) E).
Qed.

End WLIn3.

Section InvRun.
Context {hstate : Type}.
Variable dec_field : hstate -> N -> bytes -> dec_res hstate.
Variable enc_field : hstate -> bytes -> bytes -> bool -> bytes * hstate.
Variable enc_set_max : hstate -> N -> hstate.
Variable cfg : cl_config.
Variable h0 : hstate.
Variable first : bytes.
Implicit Types c : cconn hstate.

Notation step := (cl_step dec_field enc_field enc_set_max cfg).
Notation run := (cl_run dec_field enc_field enc_set_max cfg h0 first).

Lemma inv_empty c : cc_ctxs c = [] -> cc_inQ c = [] -> cc_reqQueued c = [] -> cc_pending c = [] -> cc_outQ c = [] ->
  cc_hdrErr c = None -> cc_lastErr c <> Some CENil -> cc_rl_stuck c = false -> cc_wl_stuck c = false -> 0 < cc_nextID c ->
  (cc_wl_done c = true -> cc_closed c = true) -> (cc_rl_done c = true -> cc_closed c = true) -> inv c.
Proof.
  intros H1 H2 H3 H4 H5 HE HL H6 H7 H8 H9 H10.
  assert (G : forall t, cl_ctx_get c t = None) by (intro t; unfold cl_ctx_get; rewrite H1; reflexivity).
  split; constructor; try (intros t x Gx; rewrite G in Gx; discriminate); try (intros t t' x x' Gx; rewrite G in Gx; discriminate).
  - rewrite H1. constructor.
  - split; [intros t x Gx; rewrite G in Gx; discriminate | auto].
  - rewrite H2. constructor.
  - rewrite H2. intros t [].
  - rewrite H3. constructor.
  - rewrite H3. constructor.
  - rewrite H3. intros id t [].
  - exact H8.
  - auto.
  - exact H10.
  - rewrite H5. constructor.
  - rewrite HE. intros e He. discriminate.
  - exact HL.
  - rewrite H4. intros pb [].
  - rewrite H4. intros pb [].
  - rewrite H4. constructor.
Qed.

Lemma inv_init : inv (cl_init enc_set_max h0 first).
Proof.
  unfold cl_init. destruct (cl_settings_deserialize false first); apply inv_empty; try reflexivity; cbn; auto; discriminate.
Qed.

Lemma inv_step c e : inv c -> inv (step c e).
Proof.
  intro Hi. destruct e; cbn [cl_step].
  - apply inv_submit, Hi.
  - apply inv_submit_check, Hi.
  - unfold cl_wl_live. destruct (cc_wl_done c) eqn:W; cbn [negb andb]; [exact Hi|]. destruct (negb (cc_wl_stuck c)); [|exact Hi].
    apply inv_wl_in; assumption.
  - destruct (cl_wl_live c); [|exact Hi]. apply (inv_effo (CP:=cp_any) any_item c _ Hi), effo_wl_out; [exact (fun _ _ => I) | apply Hi].
  - destruct (cl_wl_live c); [|exact Hi]. apply (inv_effo (CP:=cp_any) any_item c _ Hi), effo_wl_win; [exact (fun _ _ => I) | apply Hi].
  - destruct (cl_wl_live c); [|exact Hi]. apply (inv_effo (CP:=cp_any) any_item c _ Hi), effo_wl_ping; [exact (fun _ _ => I) | apply Hi].
  - destruct (cl_wl_live c); [|exact Hi]. apply (inv_effo (CP:=cp_any) any_item c _ Hi), effo_wl_done; [exact (fun _ _ => I) | apply Hi].
  - destruct (cl_rl_live c); [|exact Hi]. apply (inv_effo (CP:=cp_any) any_item c _ Hi), effo_rl_step; try (apply Hi); try (intros; exact I).
  - apply inv_timeout_fire, Hi.
  - apply (inv_timeout_cancel (CP:=cp_any)), Hi.
  - apply (inv_receive (CP:=cp_any)), Hi.
  - apply (inv_effo (CP:=cp_any) any_item c _ Hi), effo_close_call.
  - apply (inv_effo (CP:=cp_any) any_item c _ Hi), effo_close_finish. exact (fun _ _ => I).
  - apply (inv_effo (CP:=cp_any) any_item c _ Hi), effo_write_fail.
Qed.

Theorem inv_run evs : inv (run evs).
Proof. apply cl_run_ind; [apply inv_init | intros; apply inv_step; assumption]. Qed.

Lemma inv_reachable c : cl_reachable dec_field enc_field enc_set_max cfg h0 first c -> inv c.
Proof. intro R. destruct (cl_reachable_run _ _ _ _ _ _ _ _ R) as [evs ->]. apply inv_run. Qed.

End InvRun.
