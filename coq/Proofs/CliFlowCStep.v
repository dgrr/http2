(* Proofs/CliFlowCStep.v - C07, "and finishes": the bookkeeping Bk through writeRequest, the write loop's select
   cases and every step of the model. *)
From H2V Require Import Base.Bytes Base.MachineInt Base.Result Gen.GenConsts Impl.ServerConn Impl.ClientConn
     Proofs.CliBase Proofs.CliDefs Spec.FlowLedger Proofs.CliFlowMoves Proofs.CliFlowOut Proofs.CliFlowSettings Proofs.CliFlowSafe Proofs.CliFlowEs
     Proofs.CliFlowStall Proofs.CliFlowCBody Proofs.CliFlowCInv Proofs.CliFlowCSend.
From Coq Require Import ZArith Lia ZifyN ZifyNat ZifyBool List Bool.
Import ListNotations.
Local Open Scope N_scope.

Lemma no_frames id out : (forall o sid, In o out -> frame_sid o = Some sid -> sid <> id) ->
  dbytes id out = [] /\ esn id out = 0%nat.
Proof.
  induction out as [|o t IH]; intro H; [split; reflexivity|]. cbn [dbytes esn].
  destruct IH as [A B]; [intros o1 sid HI; apply H; right; exact HI|]. rewrite A, B.
  assert (X : forall sid, frame_sid o = Some sid -> sid <> id) by (intros sid; apply H; left; reflexivity).
  destruct o; cbn [o_data o_es app Nat.add]; try (split; reflexivity).
  - specialize (X sid eq_refl). apply N.eqb_neq in X. rewrite X. split; reflexivity.
  - specialize (X sid eq_refl). apply N.eqb_neq in X. rewrite X. split; reflexivity.
Qed.

Section Step.
Variable hstate : Type.
Variable dec_field : hstate -> N -> bytes -> dec_res hstate.
Variable enc_field : hstate -> bytes -> bytes -> bool -> bytes * hstate.
Variable enc_set_max : hstate -> N -> hstate.
Variable cfg : cl_config.
Notation cconn := (cconn hstate).
Notation move := (move hstate).
Notation apply := (apply hstate enc_field enc_set_max).
Notation valid := (valid hstate).
Notation items := (items hstate).
Notation mvs := (mvs enc_field enc_set_max).
Notation D := (D enc_field enc_set_max).
Notation step := (cl_step dec_field enc_field enc_set_max cfg).
Notation Bk := (Bk hstate).
Notation pget := (pget hstate).
Notation untouched := (untouched hstate).
Notation Dstep := (D_step hstate enc_field enc_set_max).
Notation Dany := (D_any hstate enc_field enc_set_max).
Notation Dtrans0 := (D_trans0 hstate enc_field enc_set_max).
Notation Drefl := (D_refl hstate enc_field enc_set_max).
Notation Bk_any := (Bk_any hstate).
Notation Bk_not := (Bk_not hstate).

(* a stream that has not been opened yet *)
Lemma fresh_id (c : cconn) id : ES hstate c -> cc_nextID c <= id ->
  dbytes id (cc_out c) = [] /\ esn id (cc_out c) = 0%nat /\ pget c id = None.
Proof.
  intros E LE. destruct (no_frames id (cc_out c)) as [A B].
  { intros o sid HI F. pose proof (es_ids _ _ E o sid HI F). lia. }
  split; [exact A|]. split; [exact B|]. unfold CliFlowCInv.pget.
  destruct (cl_pend_get (cc_pending c) id) as [pb|] eqn:G; [|reflexivity].
  apply cl_pend_get_In in G. destruct G as [HI EI]. pose proof (es_fresh _ _ E pb HI). lia.
Qed.

(* moves that are neither a critical section nor a HEADERS write *)
Definition plainm (m : move) : Prop := match m with MSend _ _ | MSendBack _ | MHeaders _ _ => False | _ => True end.

Lemma anym_plainm (m : move) : anym m -> plainm m.
Proof. destruct m; cbn; auto. Qed.

Lemma plainm_untouched id (m : move) : plainm m -> untouched id m.
Proof. destruct m; cbn; auto. Qed.

Lemma plain_items id m (c : cconn) : valid m c -> ES hstate c -> plainm m -> dbl id (items m c) = [] /\ esl id (items m c) = 0%nat.
Proof.
  intros V E P. destruct m; cbn [CliFlowOut.items]; try (split; reflexivity); try destruct P.
  - destruct (quietb o) eqn:Q; [|split; reflexivity]. apply dbl_nostream. constructor; [|constructor]. destruct o; try discriminate; exact I.
  - destruct (cc_outQ c) as [|o q] eqn:Q; [split; reflexivity|]. apply dbl_nostream. constructor; [|constructor].
    pose proof (es_q _ _ E) as QQ. rewrite Q in QQ. inversion QQ as [|? ? QO QT]. destruct o; try contradiction; exact I.
Qed.

Lemma mvs_plain_out id (c : cconn) ms c' : mvs c ms c' -> Forall plainm ms -> ES hstate c ->
  dbytes id (cc_out c') = dbytes id (cc_out c) /\ esn id (cc_out c') = esn id (cc_out c).
Proof.
  induction 1 as [c|c m ms c' V M IH]; intros F E; [split; reflexivity|]. inversion F; subst.
  destruct (IH H2 (mv_ES hstate enc_field enc_set_max m c V E)) as [A B]. rewrite A, B.
  destruct (plain_items id m c V E H1) as [I1 I2].
  rewrite (out_apply hstate enc_field enc_set_max), dbytes_app, esn_app, I1, I2, app_nil_r, Nat.add_0_r. split; reflexivity.
Qed.

Lemma D_plain_out (P : move -> Prop) g id (c c' : cconn) : D P g c c' -> (forall m, P m -> plainm m) -> ES hstate c ->
  dbytes id (cc_out c') = dbytes id (cc_out c) /\ esn id (cc_out c') = esn id (cc_out c).
Proof. intros (ms & M & F & _) H E. apply (mvs_plain_out id c ms c' M); [|exact E]. eapply Forall_impl; [|exact F]. exact H. Qed.

(* all streams at once *)
Definition Inv (c0 c : cconn) : Prop := ES hstate c /\ forall B ok id, Bk True B ok id c0 -> Bk True B ok id c.

Lemma Inv_refl (c : cconn) : ES hstate c -> Inv c c.
Proof. intro E. split; auto. Qed.

Lemma Inv_D (P : move -> Prop) g (c0 c c' : cconn) : D P g c c' -> (forall m, P m -> forall id, untouched id m) -> Inv c0 c -> Inv c0 c'.
Proof.
  intros DD H [E K]. split; [eapply D_ES; eassumption|]. intros B ok id K0.
  apply (D_Bk hstate enc_field enc_set_max P g True B ok id c c' DD); [intros m Pm; apply H; exact Pm | exact E | apply K; exact K0].
Qed.

Lemma Inv_mv (c0 : cconn) m (c : cconn) : valid m c -> (forall id, untouched id m) -> Inv c0 c -> Inv c0 (apply m c).
Proof.
  intros V U [E K]. split; [apply mv_ES; assumption|]. intros B ok id K0. apply mv_Bk; auto.
Qed.

Lemma Inv_same (c0 c c' : cconn) : cc_nextID c' = cc_nextID c -> cc_out c' = cc_out c -> cc_outQ c' = cc_outQ c ->
  cc_pending c' = cc_pending c -> Inv c0 c -> Inv c0 c'.
Proof.
  intros A B Q P [E K]. split; [apply (ES_same hstate c); auto; rewrite Q; auto|]. intros B0 ok id K0.
  apply (Bk_frame hstate True True B0 ok id c).
  - rewrite A. apply N.le_refl.
  - rewrite B. reflexivity.
  - rewrite B. reflexivity.
  - unfold CliFlowCInv.pget. rewrite P. intros pb' G. exists pb'. split; [exact G | split; reflexivity].
  - auto.
  - apply K. exact K0.
Qed.

Lemma Bk_open_body (c : cconn) blk pb : ES hstate c -> valid (MHeaders blk (Some pb)) c ->
  Bk True (pb_all pb) (pb_ok pb) (cc_nextID c) (apply (MHeaders blk (Some pb)) c).
Proof.
  intros E (_ & IDS & _ & _ & _ & PB & _). destruct (PB pb eq_refl) as [PI _].
  destruct (fresh_id c (cc_nextID c) E (N.le_refl _)) as (A & B & G).
  cbn [CliFlowMoves.apply]. rewrite (u32_next _ IDS).
  assert (PG : cl_pend_get (cc_pending c ++ [pb]) (cc_nextID c) = Some pb).
  { rewrite <- PI. apply pend_get_app_new. intros p HP. pose proof (es_fresh _ _ E p HP). lia. }
  constructor; cc_cbn; cbn [dbytes esn o_data o_es]; rewrite ?A, ?B; cbn [app Nat.add].
  - lia.
  - exists (pb_all pb). reflexivity.
  - left. rewrite andb_false_r. reflexivity.
  - intros _ p GP. unfold CliFlowCInv.pget in GP. cc_cbn_in GP. rewrite PG in GP. inversion GP. split; reflexivity.
Qed.

Lemma Bk_open_nobody (c : cconn) blk : ES hstate c -> valid (MHeaders blk None) c ->
  Bk True [] true (cc_nextID c) (apply (MHeaders blk None) c).
Proof.
  intros E (_ & IDS & _). destruct (fresh_id c (cc_nextID c) E (N.le_refl _)) as (A & B & G).
  cbn [CliFlowMoves.apply]. rewrite (u32_next _ IDS).
  constructor; cc_cbn; cbn [dbytes esn o_data o_es]; rewrite ?A, ?B; cbn [app Nat.add].
  - lia.
  - exists []. reflexivity.
  - right. rewrite N.eqb_refl. cbn [andb]. repeat split. exact G.
  - intros _ p GP. unfold CliFlowCInv.pget in GP, G. cc_cbn_in GP. congruence.
Qed.

(* an id that was used up without a frame on its stream *)
Lemma Bk_skipped (ex : Prop) B ok (c c' : cconn) : ES hstate c -> cc_nextID c < cc_nextID c' ->
  dbytes (cc_nextID c) (cc_out c') = dbytes (cc_nextID c) (cc_out c) -> esn (cc_nextID c) (cc_out c') = esn (cc_nextID c) (cc_out c) ->
  pget c' (cc_nextID c) = None -> Bk ex B ok (cc_nextID c) c'.
Proof.
  intros E LT DB EN G. destruct (fresh_id c (cc_nextID c) E (N.le_refl _)) as (A & B0 & _).
  constructor; rewrite ?DB, ?EN, ?A, ?B0.
  - exact LT.
  - exists B. reflexivity.
  - left. reflexivity.
  - intros _ p GP. congruence.
Qed.

Lemma cc_pending_cl_delete_pending'0 who hl (c : cconn) id :
  cc_pending (fst (cl_delete_pending who hl c id)) = cl_pend_del (cc_pending c) id.
Proof.
  unfold cl_delete_pending. destruct (cl_pend_get (cc_pending c) id) as [pb|] eqn:G.
  - destruct (pb_stream pb) eqn:S; [|reflexivity].
    destruct (cl_acquire_for hl _ (pb_tag pb) id); cbn [fst]; try reflexivity.
    + apply (SF_close_body hstate).
    + apply (SF_go_stuck hstate who hl).
    + apply (SF_go_stuck hstate who hl).
  - cbn [fst]. symmetry. apply pend_del_absent. apply cl_pend_get_None. exact G.
Qed.

Definition nonext (m : move) : Prop := match m with MNextID | MHeaders _ _ => False | _ => True end.


Lemma wlout_nonext (m : move) : ev_ok CEvWLOut m -> nonext m.
Proof. destruct m; cbn; auto; discriminate. Qed.

Lemma anym_nonext (m : move) : anym m -> nonext m.
Proof. destruct m; cbn; auto. Qed.

Lemma nonext_nextID (m : move) (c : cconn) : nonext m -> cc_nextID (apply m c) = cc_nextID c.
Proof.
  intro A. destruct (flow_move hstate m) eqn:FM; [|apply (apply_quiet hstate enc_field enc_set_max m c FM)].
  destruct m; try discriminate FM; try contradiction; cbn [CliFlowMoves.apply]; try reflexivity.
  - destruct (cl_settings_deserialize false payload) as [st|]; [apply cc_nextID_cl_handle_settings | reflexivity].
  - apply cc_nextID_cl_add_window.
  - destruct (cl_pend_get _ _) as [pb|]; [|reflexivity]. destruct (cl_refill pb); reflexivity.
  - destruct (cl_pend_get _ _) as [pb|]; [|reflexivity]. destruct wr; [rewrite cc_nextID_cl_notes|]; unfold cs_conn; destruct (cs_end c pb); reflexivity.
  - destruct (cl_pend_get _ _) as [pb|]; [|reflexivity]. sb_cases c pb; reflexivity.
Qed.

Lemma D_nonext_nextID (P : move -> Prop) g (c c' : cconn) : D P g c c' -> (forall m, P m -> nonext m) -> cc_nextID c' = cc_nextID c.
Proof.
  intros (ms & M & F & _) H. induction M as [c|c m ms c' V M IH]; [reflexivity|]. inversion F; subst.
  rewrite IH by assumption. apply nonext_nextID. apply H. assumption.
Qed.

Lemma D_anym_nextID g (c c' : cconn) : D anym g c c' -> cc_nextID c' = cc_nextID c.
Proof. intro X. exact (D_nonext_nextID anym g c c' X anym_nonext). Qed.

Lemma new_pending_body (c : cconn) tag rq :
  match new_pending hstate c tag rq with
  | Some pb => (pb_all pb, pb_ok pb) = rq_body rq
  | None => rq_body rq = ([], true)
  end.
Proof.
  unfold new_pending, rq_body, pb_all, pb_ok, pb_fut. destruct (cq_body rq) as [b|reads size].
  - destruct b; cbn [cl_is_nil pb_body pb_stream fst snd]; [reflexivity | rewrite app_nil_r; reflexivity].
  - cbn [pb_body pb_stream pb_drained pb_size pb_read fst snd app].
    destruct (size =? 0)%Z; [reflexivity|]. destruct (rd_fut reads size 0); reflexivity.
Qed.

(* the write of HEADERS failed: the id is used up, the body that had just been put on c.pending is taken off again *)
Lemma wr_failed_facts (c5 : cconn) opb c8 stuck : ES hstate c5 -> cc_nextID c5 <= cl_maxStreamID ->
  (forall pb, opb = Some pb -> pb_id pb = cc_nextID c5) -> forall id, cc_nextID c5 = id ->
  cl_delete_pending 1 [] (cl_take_req_count (cl_set_last_err (wr_unsent hstate enc_field enc_set_max c5 opb) CEWrite) id) id = (c8, stuck) ->
  D plainm [] c5 c8 /\ cc_nextID c8 = cc_nextID c5 + 2 /\ cc_pending c8 = cc_pending c5.
Proof.
  intros E IDS PI id <- DP.
  pose proof (wr_failed_D hstate enc_field enc_set_max plainm c5 opb anym_plainm I (fun _ => I) IDS PI _ eq_refl) as DD. rewrite DP in DD.
  split; [exact DD|]. split.
  - assert (DA : D anym [] (cl_set_last_err (wr_unsent hstate enc_field enc_set_max c5 opb) CEWrite) c8).
    { eapply Dtrans0; [apply take_req_D | eapply delete_pending_D'; exact DP]. }
    rewrite (D_anym_nextID _ _ _ DA), cc_nextID_cl_set_last_err. unfold wr_unsent. destruct opb; cc_cbn; apply u32_next; exact IDS.
  - pose proof (cc_pending_cl_delete_pending'0 1 [] (cl_take_req_count (cl_set_last_err (wr_unsent hstate enc_field enc_set_max c5 opb) CEWrite) (cc_nextID c5)) (cc_nextID c5)) as PD.
    rewrite DP in PD. cbn [fst] in PD.
    rewrite PD, cc_pending_cl_take_req_count, cc_pending_cl_set_last_err. unfold wr_unsent.
    assert (FR : forall p, In p (cc_pending c5) -> pb_id p <> cc_nextID c5) by (intros p HP; pose proof (es_fresh _ _ E p HP); lia).
    destruct opb as [pb|]; cc_cbn; [rewrite <- (PI pb eq_refl) in *; apply pend_del_app_last | apply pend_del_absent]; exact FR.
Qed.

Definition wr_ok (r : cl_wrres) : Prop := match r with CWRNil => True | CWRErr CENoStreams => True | _ => False end.

(* writeRequest: every stream that was open keeps its bookkeeping; the stream it opens gets the body of the request *)
Definition wr_goal (c : cconn) (tag : N) (c1 : cconn) (r : cl_wrres) : Prop :=
  ES hstate c1 /\
  (forall B ok id, Bk True B ok id c -> Bk (wr_ok r) B ok id c1) /\
  (cc_nextID c < cc_nextID c1 -> forall x, cl_ctx_get c tag = Some x ->
     Bk (wr_ok r) (fst (rq_body (ct_req x))) (snd (rq_body (ct_req x))) (cc_nextID c) c1).

Lemma wr_goal_same (c : cconn) tag c1 r : Inv c c1 -> cc_nextID c1 = cc_nextID c -> wr_goal c tag c1 r.
Proof.
  intros [E K] NX. split; [exact E|]. split; [intros; apply Bk_any; apply K; assumption|].
  intro LT. exfalso. clear - LT NX. lia.
Qed.

Lemma open_and_send (c c5 : cconn) tag x blk pb c8 r8 :
  Inv c c5 -> cc_nextID c5 = cc_nextID c -> valid (MHeaders blk (Some pb)) c5 -> cl_ctx_get c tag = Some x ->
  (pb_all pb, pb_ok pb) = rq_body (ct_req x) ->
  cl_send_pending (cl_send_fuel (apply (MHeaders blk (Some pb)) c5) (cc_nextID c5)) (apply (MHeaders blk (Some pb)) c5) (cc_nextID c5) = (c8, r8) ->
  wr_goal c tag c8 (match r8 with CSPOk => CWRNil | CSPWriteErr => CWRErr CEWrite | CSPStuck => CWRStuck end).
Proof.
  intros I5 NX V GX RB SP. pose proof I5 as [E5 K5].
  assert (I7 : Inv c (apply (MHeaders blk (Some pb)) c5)) by (apply Inv_mv; [exact V | intros id; exact I | exact I5]).
  pose proof (Bk_open_body c5 blk pb E5 V) as KN. destruct I7 as [E7 K7].
  set (c7 := apply (MHeaders blk (Some pb)) c5) in *.
  assert (W : forall B ok id, Bk (sp_ok r8) B ok id c8 ->
                Bk (wr_ok (match r8 with CSPOk => CWRNil | CSPWriteErr => CWRErr CEWrite | CSPStuck => CWRStuck end)) B ok id c8).
  { intros B ok id. apply (Bk_weaken hstate). destruct r8; cbn [wr_ok]; intro X; try contradiction; reflexivity. }
  pose proof (send_pending_ES hstate enc_field enc_set_max (cl_send_fuel c7 (cc_nextID c5)) c7 (cc_nextID c5) E7) as E8.
  rewrite SP in E8. cbn [fst] in E8.
  split; [exact E8|]. split.
  - intros B ok id K0. apply W.
    pose proof (send_pending_Bk hstate enc_field enc_set_max (cl_send_fuel c7 (cc_nextID c5)) B ok id c7 (cc_nextID c5) E7 (K7 _ _ _ K0)) as X.
    rewrite SP in X. exact X.
  - intros _ x' GX'. assert (XE : x' = x) by congruence. subst x'. rewrite <- RB. cbn [fst snd]. apply W.
    pose proof (send_pending_Bk hstate enc_field enc_set_max (cl_send_fuel c7 (cc_nextID c5)) (pb_all pb) (pb_ok pb) (cc_nextID c5) c7 (cc_nextID c5) E7 KN) as X.
    rewrite SP, NX in X. exact X.
Qed.

Lemma write_request_Bk (c : cconn) tag c1' r : ES hstate c ->
  cl_write_request enc_field enc_set_max c tag = (c1', r) -> wr_goal c tag c1' r.
Proof.
  intros E WR. pose proof (Inv_refl c E) as I0.
  assert (X : wr_goal c tag (fst (cl_write_request enc_field enc_set_max c tag)) (snd (cl_write_request enc_field enc_set_max c tag)));
    [|rewrite WR in X; exact X]. clear WR.
  destruct (write_request_view hstate enc_field enc_set_max c tag) as [CO|GX|x GX LS|x GX DN|x r' CO GX LS DN F1 SYN GO];
    cbn [fst snd]; try (apply wr_goal_same; [exact I0 | reflexivity]).
  { pose proof (go_stuck_D hstate enc_field enc_set_max 1 [] c false tag) as DD.
    apply wr_goal_same; [|apply (D_anym_nextID _ _ _ DD)].
    apply (Inv_D anym [] c c _ DD); [intros m A id; apply anym_untouched; exact A | exact I0]. }
  assert (Ie : Inv c (apply MEncSync c)) by (apply Inv_mv; [exact I | intro; exact I | exact I0]).
  assert (N1 : cc_nextID (apply MEncSync c) = cc_nextID c) by (cbn [CliFlowMoves.apply]; destruct (negb _); reflexivity).
  set (c1 := apply MEncSync c) in *. clearbody c1.
  destruct GO as [IDS|blk opb IDS EO V|opb c8 stuck IDS EO CW DP]; cbn [fst snd]; [apply wr_goal_same; assumption | |].
  - (* HEADERS is written *)
    assert (I5 : Inv c (wr_open hstate enc_field enc_set_max c1 x tag)).
    { apply (Inv_D plainm [] c c1); [apply wr_open_D; try assumption; [apply anym_plainm | exact I | exact I] | intros m P id; apply plainm_untouched; exact P | exact Ie]. }
    set (c5 := wr_open hstate enc_field enc_set_max c1 x tag) in *.
    pose proof (new_pending_body c1 tag (ct_req x)) as RB. rewrite <- EO in RB.
    destruct opb as [pb|].
    + destruct (cl_send_pending _ _ _) as [c8 r8] eqn:SP.
      pose proof (open_and_send c c5 tag x blk pb c8 r8 I5 N1 V GX RB SP) as X. destruct r8; exact X.
    + pose proof (Inv_mv c (MHeaders blk None) c5 V (fun _ => I) I5) as [E7 K7].
      split; [exact E7|]. split; [intros; apply Bk_any; apply K7; assumption|].
      intros _ x' GX'. assert (XE : x' = x) by congruence. subst x'. rewrite RB. cbn [fst snd]. rewrite <- N1.
      apply Bk_any. apply (Bk_open_nobody c5 blk); [apply I5 | exact V].
  - (* the write of HEADERS failed *)
    assert (I5 : Inv c (wr_open hstate enc_field enc_set_max c1 x tag)).
    { apply (Inv_D plainm [] c c1); [apply wr_open_D; try assumption; [apply anym_plainm | exact I | exact I] | intros m P id; apply plainm_untouched; exact P | exact Ie]. }
    set (c5 := wr_open hstate enc_field enc_set_max c1 x tag) in *.
    assert (PI : forall pb, opb = Some pb -> pb_id pb = cc_nextID c5) by (intros pb EP; rewrite EP in EO; apply (new_pending_facts _ _ _ _ _ (eq_sym EO))).
    destruct (wr_failed_facts c5 opb c8 stuck (proj1 I5) IDS PI (cc_nextID c1) eq_refl DP) as (DD & NX8 & P8).
    pose proof (Inv_D plainm [] c c5 c8 DD (fun m P id => plainm_untouched id m P) I5) as [E8 K8].
    destruct (D_plain_out plainm [] (cc_nextID c5) c5 c8 DD (fun m P => P) (proj1 I5)) as [DB EN].
    split; [exact E8|]. split; [intros; apply Bk_any; apply K8; assumption|].
    assert (N5 : cc_nextID c5 = cc_nextID c1) by reflexivity.
    intros _ x' _. rewrite <- N1, <- N5. apply Bk_skipped; try assumption; [apply I5 | rewrite NX8; clear; lia|].
    unfold CliFlowCInv.pget. rewrite P8. apply (fresh_id c5 (cc_nextID c5) (proj1 I5) (N.le_refl _)).
Qed.

(* writeRequest leaves the other pending bodies alone *)
Lemma write_request_other (c : cconn) tag id : ES hstate c -> RNG hstate c -> id <> cc_nextID c ->
  pget (fst (cl_write_request enc_field enc_set_max c tag)) id = pget c id.
Proof.
  intros E R NE. unfold CliFlowCInv.pget.
  destruct (write_request_view hstate enc_field enc_set_max c tag) as [CO|GX|x GX LS|x GX DN|x r' CO GX LS DN F1 SYN GO];
    cbn [fst]; try reflexivity.
  pose proof (mv_ES hstate enc_field enc_set_max MEncSync c I E) as E1. pose proof (mv_RNG hstate enc_field enc_set_max MEncSync c I E R) as R1.
  assert (F : cc_pending (apply MEncSync c) = cc_pending c /\ cc_nextID (apply MEncSync c) = cc_nextID c)
    by (cbn [CliFlowMoves.apply]; destruct (negb _); split; reflexivity).
  destruct F as [P1 N1]. set (c1 := apply MEncSync c) in *. clearbody c1.
  destruct GO as [IDS|blk opb IDS EO V|opb c8 stuck IDS EO CW DP]; cbn [fst]; [rewrite P1; reflexivity | |].
  - assert (D5 : D plainm [] c1 (wr_open hstate enc_field enc_set_max c1 x tag)) by (apply wr_open_D; try assumption; [apply anym_plainm | exact I | exact I]).
    destruct (wr_open_fields hstate enc_field enc_set_max c1 x tag) as (_ & P5 & _ & _ & CW5 & SW5).
    set (c5 := wr_open hstate enc_field enc_set_max c1 x tag) in *. clearbody c5.
    destruct opb as [pb|]; [|cbn [CliFlowMoves.apply]; cc_cbn; rewrite P5, P1; reflexivity].
    destruct (new_pending_facts _ _ _ _ _ (eq_sym EO)) as (PI & _).
    pose proof (D_ES hstate enc_field enc_set_max _ _ c1 c5 D5 E1) as E5.
    pose proof (mv_ES hstate enc_field enc_set_max _ c5 V E5) as E7.
    assert (R7 : RNG hstate (apply (MHeaders blk (Some pb)) c5)).
    { apply mv_RNG; [exact V | exact E5|]. destruct R1 as [r1 r2 r3 r4]. constructor; rewrite ?CW5, ?SW5, ?P5; assumption. }
    rewrite fst_wr_res. rewrite (sp_other _ _ _ _ _ (send_pending_fueled hstate _ (cc_nextID c1) R7) id) by (rewrite N1; exact NE).
    cbn [CliFlowMoves.apply]. cc_cbn. rewrite pend_get_app_other by (rewrite PI, N1; exact NE). rewrite P5, P1. reflexivity.
  - assert (D5 : D plainm [] c1 (wr_open hstate enc_field enc_set_max c1 x tag)) by (apply wr_open_D; try assumption; [apply anym_plainm | exact I | exact I]).
    pose proof (D_ES hstate enc_field enc_set_max _ _ _ _ D5 E1) as E5.
    assert (PI : forall pb, opb = Some pb -> pb_id pb = cc_nextID (wr_open hstate enc_field enc_set_max c1 x tag))
      by (intros pb EP; rewrite EP in EO; apply (new_pending_facts _ _ _ _ _ (eq_sym EO))).
    destruct (wr_failed_facts _ opb c8 stuck E5 IDS PI (cc_nextID c1) eq_refl DP) as (_ & _ & P8).
    rewrite P8. exact (f_equal (fun l => cl_pend_get l id) P1).
Qed.

(* a stream writeRequest opens without an error: HEADERS had END_STREAM, or sendPending ran on the new body *)
Lemma write_request_new (c : cconn) tag x : ES hstate c -> cl_ctx_get c tag = Some x ->
  snd (cl_write_request enc_field enc_set_max c tag) = CWRNil -> cc_nextID c < cc_nextID (fst (cl_write_request enc_field enc_set_max c tag)) ->
  esn (cc_nextID c) (cc_out (fst (cl_write_request enc_field enc_set_max c tag))) = 1%nat \/
  exists c7 pb, pget c7 (cc_nextID c) = Some pb /\ pb_tag pb = tag /\ ES hstate c7 /\
    cc_ctxs c7 = cl_ctxs_put (cc_ctxs c) (ctu_sid (ctu_conn x true) (cc_nextID c)) /\ esn (cc_nextID c) (cc_out c7) = 0%nat /\
    ct_done x = false /\ ct_lckStuck x = false /\
    fst (cl_write_request enc_field enc_set_max c tag) = fst (cl_send_pending (cl_send_fuel c7 (cc_nextID c)) c7 (cc_nextID c)) /\
    snd (cl_send_pending (cl_send_fuel c7 (cc_nextID c)) c7 (cc_nextID c)) = CSPOk.
Proof.
  intros E GX.
  destruct (write_request_view hstate enc_field enc_set_max c tag) as [CO|GX'|x' GX' LS|x' GX' DN|x' r' CO GX' LS DN F1 SYN GO];
    cbn [fst snd]; try discriminate; try (intros _ LT; exfalso; clear - LT; lia).
  assert (XE : x' = x) by congruence. subst x'. clear GX'.
  pose proof (mv_ES hstate enc_field enc_set_max MEncSync c I E) as E1.
  assert (F : cc_ctxs (apply MEncSync c) = cc_ctxs c /\ cc_nextID (apply MEncSync c) = cc_nextID c)
    by (cbn [CliFlowMoves.apply]; destruct (negb _); split; reflexivity).
  destruct F as [X1 N1]. set (c1 := apply MEncSync c) in *. clearbody c1.
  destruct GO as [IDS|blk opb IDS EO V|opb c8 stuck IDS EO CW DP]; cbn [fst snd]; try discriminate; [|destruct stuck; discriminate].
  assert (D5 : D plainm [] c1 (wr_open hstate enc_field enc_set_max c1 x tag)) by (apply wr_open_D; try assumption; [apply anym_plainm | exact I | exact I]).
  pose proof (D_ES hstate enc_field enc_set_max _ _ _ _ D5 E1) as E5. destruct (wr_open_fields hstate enc_field enc_set_max c1 x tag) as (N5 & _ & _ & X5 & _).
  set (c5 := wr_open hstate enc_field enc_set_max c1 x tag) in *. clearbody c5.
  destruct (fresh_id c5 (cc_nextID c5) E5 (N.le_refl _)) as (_ & B0 & _). rewrite N5 in B0. rewrite N1 in *.
  destruct opb as [pb|]; intros RN _.
  - right. destruct (new_pending_facts _ _ _ _ _ (eq_sym EO)) as (PI & PT & _).
    assert (P7 : cc_pending (apply (MHeaders blk (Some pb)) c5) = cc_pending c5 ++ [pb]) by reflexivity.
    assert (O7 : cc_out (apply (MHeaders blk (Some pb)) c5) = COHeaders (cc_nextID c5) false blk :: cc_out c5) by reflexivity.
    assert (X7 : cc_ctxs (apply (MHeaders blk (Some pb)) c5) = cc_ctxs c5) by reflexivity.
    pose proof (mv_ES hstate enc_field enc_set_max _ c5 V E5) as E7.
    set (c7 := apply (MHeaders blk (Some pb)) c5) in *. clearbody c7. exists c7, pb.
    split. { unfold CliFlowCInv.pget. rewrite P7, <- N1, <- PI. apply pend_get_app_new.
             intros p HP. pose proof (es_fresh _ _ E5 p HP) as LT. rewrite PI, N1. rewrite N5 in LT. clear - LT. lia. }
    split; [exact PT|]. split; [exact E7|]. split; [rewrite X7, X5, X1; reflexivity|].
    split; [rewrite O7; cbn [esn o_es]; rewrite B0, andb_false_r; reflexivity|].
    split; [exact DN|]. split; [exact LS|]. rewrite fst_wr_res. split; [reflexivity|].
    destruct (cl_send_pending _ _ _) as [c8 r8]. destruct r8; [reflexivity | discriminate RN | discriminate RN].
  - left. cbn [CliFlowMoves.apply]. cc_cbn. cbn [esn o_es]. rewrite N5, B0, N.eqb_refl. reflexivity.
Qed.

Lemma write_request_nostreams (c : cconn) tag : snd (cl_write_request enc_field enc_set_max c tag) = CWRErr CENoStreams ->
  cc_nextID (fst (cl_write_request enc_field enc_set_max c tag)) = cc_nextID c.
Proof.
  destruct (write_request_view hstate enc_field enc_set_max c tag) as [CO|GX|x GX LS|x GX DN|x r' CO GX LS DN F1 SYN GO];
    cbn [fst snd]; try discriminate; try reflexivity.
  destruct GO as [IDS|blk opb IDS EO V|opb c8 stuck IDS EO CW DP]; cbn [fst snd]; try discriminate; [|destruct stuck; discriminate].
  destruct opb; [|discriminate]. destruct (cl_send_pending _ _ _) as [c8 r8]. destruct r8; discriminate.
Qed.

Lemma wlout_untouched id (m : move) : ev_ok CEvWLOut m -> untouched id m.
Proof. destruct m; cbn; auto. Qed.

(* what follows writeRequest in case ctx := <-c.in *)
Definition in_tail (c1 : cconn) (tag : N) (r : cl_wrres) : cconn :=
  match r with
  | CWRNil => cl_wl_after cfg c1
  | CWRStuck => c1
  | CWRErr e =>
    let c2 := cl_resolve c1 tag e in
    match e with
    | CENoStreams => c2
    | CENoIDs => cl_wl_exit c2 (Some CENoIDs) 3
    | _ => cl_wl_exit c2 (Some CEWrite) 1
    end
  end.

Lemma in_tail_D (c1 : cconn) tag r : D (ev_ok CEvWLOut) [] c1 (in_tail c1 tag r).
Proof.
  destruct r as [|e|]; cbn [in_tail].
  - apply wl_after_D. exact I.
  - eapply Dtrans0; [apply (Dany _ _ _ _ (anym_ev_ok CEvWLOut)), resolve_D|].
    destruct e; try (apply wl_exit_D; exact I). apply Drefl.
  - apply Drefl.
Qed.

Lemma wl_after_live (c : cconn) : cl_wl_live (cl_wl_after cfg c) = true -> cl_wl_after cfg c = c.
Proof. unfold cl_wl_after. destruct (_ && _); [rewrite wl_exit_dead; discriminate | reflexivity]. Qed.

Lemma in_tail_Bk (c1 : cconn) tag r B ok id : ES hstate c1 -> (r = CWRStuck -> cc_wl_stuck c1 = true) ->
  Bk (wr_ok r) B ok id c1 -> Bk (cl_wl_live (in_tail c1 tag r) = true) B ok id (in_tail c1 tag r).
Proof.
  intros E ST K.
  assert (W : forall ex, Bk ex B ok id c1 -> Bk ex B ok id (in_tail c1 tag r)).
  { intros ex K1. apply (D_Bk hstate enc_field enc_set_max _ _ ex B ok id c1 _ (in_tail_D c1 tag r)); [apply wlout_untouched | exact E | exact K1]. }
  assert (DEAD : wr_ok r -> False -> False) by auto.
  destruct r as [|e|]; cbn [wr_ok] in K.
  - apply Bk_any. apply W. exact K.
  - destruct e; cbn [wr_ok] in K; try (apply Bk_not; [cbn [in_tail]; rewrite wl_exit_dead; discriminate | apply W; exact K]).
    apply Bk_any. apply W. exact K.
  - apply Bk_not; [|apply W; exact K]. cbn [in_tail]. unfold cl_wl_live. rewrite (ST eq_refl), andb_false_r. discriminate.
Qed.

Lemma wl_in_eq (c : cconn) tag q : cc_inQ c = tag :: q ->
  cl_wl_in enc_field enc_set_max cfg c =
  in_tail (fst (cl_write_request enc_field enc_set_max (ccu_inQ c q) tag)) tag (snd (cl_write_request enc_field enc_set_max (ccu_inQ c q) tag)).
Proof.
  intro Q. unfold cl_wl_in. rewrite Q. destruct (cl_write_request enc_field enc_set_max (ccu_inQ c q) tag) as [c1 r]. cbn [fst snd].
  destruct r as [|e|]; cbn [in_tail]; reflexivity.
Qed.

Lemma Bk_eqfields (ex : Prop) B ok id (c c' : cconn) : cc_nextID c' = cc_nextID c -> cc_out c' = cc_out c -> cc_pending c' = cc_pending c ->
  Bk ex B ok id c -> Bk ex B ok id c'.
Proof.
  intros A O P K. apply (Bk_frame hstate ex ex B ok id c).
  - rewrite A. apply N.le_refl.
  - rewrite O. reflexivity.
  - rewrite O. reflexivity.
  - unfold CliFlowCInv.pget. rewrite P. intros pb' G. exists pb'. split; [exact G | split; reflexivity].
  - auto.
  - exact K.
Qed.

(* case ctx := <-c.in *)
Lemma wl_in_Bk (c : cconn) : RNG hstate c -> ES hstate c -> NS hstate c -> cl_wl_live c = true ->
  (forall B ok id, Bk True B ok id c ->
     Bk (cl_wl_live (cl_wl_in enc_field enc_set_max cfg c) = true) B ok id (cl_wl_in enc_field enc_set_max cfg c)) /\
  (forall tag q x, cc_inQ c = tag :: q -> cl_ctx_get c tag = Some x -> cc_nextID c < cc_nextID (cl_wl_in enc_field enc_set_max cfg c) ->
     Bk (cl_wl_live (cl_wl_in enc_field enc_set_max cfg c) = true) (fst (rq_body (ct_req x))) (snd (rq_body (ct_req x))) (cc_nextID c)
        (cl_wl_in enc_field enc_set_max cfg c)).
Proof.
  intros R E N LV. destruct (cc_inQ c) as [|tag q] eqn:Q.
  { unfold cl_wl_in. rewrite Q. split; [intros; apply Bk_any; assumption | intros ? ? ? X; discriminate]. }
  rewrite (wl_in_eq c tag q Q). set (cq := ccu_inQ c q).
  assert (Rq : RNG hstate cq) by (destruct R as [r1 r2 r3 r4]; constructor; assumption).
  assert (Eq : ES hstate cq) by (apply (ES_same hstate c); try reflexivity; auto).
  assert (Nq : NSb hstate cq) by (intros WC p HP; apply (N LV WC p HP)).
  destruct (cl_write_request enc_field enc_set_max cq tag) as [c1 r] eqn:WR. cbn [fst snd].
  pose proof (write_request_NS hstate enc_field enc_set_max cq tag c1 r Rq Eq Nq WR) as X.
  assert (ST : r = CWRStuck -> cc_wl_stuck c1 = true) by (intros ->; exact X).
  destruct (write_request_Bk cq tag c1 r Eq WR) as (E1 & KO & KN).
  split.
  - intros B ok id K. apply in_tail_Bk; [exact E1 | exact ST|]. apply KO.
    apply (Bk_eqfields True B ok id c cq); try reflexivity. exact K.
  - intros tag' q' x EQ GX LT. inversion EQ; subst tag' q'. apply in_tail_Bk; [exact E1 | exact ST|].
    apply (KN); [|exact GX].
    rewrite (D_nonext_nextID _ _ _ _ (in_tail_D c1 tag r) wlout_nonext) in LT. exact LT.
Qed.

(* case <-c.winCh *)
Lemma wl_win_Bk (c : cconn) order B ok id : RNG hstate c -> ES hstate c -> Bk True B ok id c ->
  Bk (cl_wl_live (cl_wl_win cfg c order) = true) B ok id (cl_wl_win cfg c order).
Proof.
  intros R E K. unfold cl_wl_win. destruct (cc_winCh c) eqn:WC; cbn [negb]; [|apply Bk_any; exact K].
  set (c1 := ccu_winCh c false).
  assert (R1 : RNG hstate c1) by (destruct R as [r1 r2 r3 r4]; constructor; assumption).
  assert (E1 : ES hstate c1) by (apply (ES_same hstate c); try reflexivity; auto).
  assert (K1 : Bk True B ok id c1).
  { apply (Bk_eqfields True B ok id c c1); try reflexivity. exact K. }
  pose proof (flush_pending_post hstate (cl_pending_order c1 order) c1 R1) as FP.
  destruct (flush_pending_Bk hstate enc_field enc_set_max B ok id (cl_pending_order c1 order) c1 E1 K1) as [K2 E2].
  destruct (cl_flush_pending c1 (cl_pending_order c1 order)) as [c2 r]. cbn [fst snd] in *. destruct FP as [_ _ _ _ _ f6].
  destruct r.
  - assert (K3 : Bk True B ok id c2) by (apply (Bk_weaken hstate (sp_ok CSPOk) True); [intros _; reflexivity | exact K2]).
    apply Bk_any. apply (D_Bk hstate enc_field enc_set_max _ _ True B ok id c2 _ (wl_after_D hstate enc_field enc_set_max cfg CEvWLOut c2 I)); [apply wlout_untouched | exact E2 | exact K3].
  - apply Bk_not; [rewrite wl_exit_dead; discriminate|].
    apply (D_Bk hstate enc_field enc_set_max _ _ False B ok id c2 _ (wl_exit_D hstate enc_field enc_set_max CEvWLOut c2 (Some CEWrite) 1 I)); [apply wlout_untouched | exact E2|].
    apply (Bk_weaken hstate (sp_ok CSPWriteErr) False); [intros [] | exact K2].
  - apply Bk_not; [unfold cl_wl_live; rewrite f6, andb_false_r; discriminate|].
    apply (Bk_weaken hstate (sp_ok CSPStuck) False); [intros [] | exact K2].
Qed.

Lemma step_Bk (c : cconn) e B ok id : RNG hstate c -> ES hstate c -> NS hstate c ->
  Bk (cl_wl_live c = true) B ok id c -> Bk (cl_wl_live (step c e) = true) B ok id (step c e).
Proof.
  intros R E N K.
  assert (GEN : ~ is_wlf e -> Bk (cl_wl_live (step c e) = true) B ok id (step c e)).
  { intro NW. destruct (step_D hstate dec_field enc_field enc_set_max cfg c e) as (ms & M & F & _).
    apply (Bk_weaken hstate (cl_wl_live c = true)); [apply (mvs_live hstate enc_field enc_set_max _ _ _ M)|].
    apply (mvs_Bk hstate enc_field enc_set_max _ B ok id c ms _ M); [|exact E | exact K].
    eapply Forall_impl; [|exact F].
    intros m EV. destruct m; cbn [CliFlowCInv.untouched]; try exact I; cbn in EV; exfalso; apply NW; exact EV. }
  destruct e; try (apply GEN; intros []; fail).
  - cbn [cl_step]. destruct (cl_wl_live c) eqn:LV; [|apply (Bk_weaken hstate (false = true)); [rewrite LV; auto | exact K]].
    apply (wl_in_Bk c R E N LV). apply (Bk_weaken hstate (true = true)); [auto | exact K].
  - cbn [cl_step]. destruct (cl_wl_live c) eqn:LV; [|apply (Bk_weaken hstate (false = true)); [rewrite LV; auto | exact K]].
    apply wl_win_Bk; [exact R | exact E|]. apply (Bk_weaken hstate (true = true)); [auto | exact K].
Qed.

(* the stream a step opens *)
Lemma step_new (c : cconn) tag q x : RNG hstate c -> ES hstate c -> NS hstate c ->
  cl_wl_live c = true -> cc_inQ c = tag :: q -> cl_ctx_get c tag = Some x -> cc_nextID c < cc_nextID (step c CEvWLIn) ->
  Bk (cl_wl_live (step c CEvWLIn) = true) (fst (rq_body (ct_req x))) (snd (rq_body (ct_req x))) (cc_nextID c) (step c CEvWLIn).
Proof.
  intros R E N LV Q GX LT. cbn [cl_step] in *. rewrite LV in *. apply (proj2 (wl_in_Bk c R E N LV) tag q x Q GX LT).
Qed.

End Step.
