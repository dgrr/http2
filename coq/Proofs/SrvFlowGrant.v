(* Proofs/SrvFlowGrant.v - C06 completion, one grant at a time: a stream WINDOW_UPDATE for a stream whose buffered
   response is blocked makes the stream loop send the next min(left, stream window, connection window) bytes at once;
   when that is all of it, the stream ends with one END_STREAM and leaves the table. *)
From H2V Require Import Base.Bytes Base.MachineInt Base.Result Gen.GenConsts Impl.ServerConn Proofs.SrvBase
  Proofs.SrvFlowDefs Proofs.SrvFlowSend Proofs.SrvFlowEff Proofs.SrvFlowFuel Proofs.SrvFlowDone.
From Coq Require Import ZArith Lia ZifyN ZifyNat ZifyBool List.
Import ListNotations.
Local Open Scope N_scope.
Set Default Proof Using "Type".

Section Grant.
Variable hstate : Type.
Variable dec_field : hstate -> N -> bytes -> dec_res hstate.
Variable enc_set_max : hstate -> N -> hstate.
Variable cfg : config.
Notation sconn := (sconn hstate).
Implicit Types c : sconn.

(* a stream whose request is complete and whose buffered response is (partly) waiting for window *)
Definition blocked_buffered (s : stream) : Prop :=
  st_state s = SHalfClosed /\ st_headersFinished s = true /\ st_responded s = true /\ st_handlerRunning s = false /\
  st_bodyStream s = None /\ st_pendingEnd s = true /\ st_pending s <> [].

Theorem stream_grant_resumes c fr s :
  sc_sl_done c = false -> sc_wl_dead c = false -> NoDup (map st_id (sc_strms c)) ->
  sf_kind fr = KWinUpd -> sf_sid fr <> 0 -> sf_sid fr <= sc_lastID c ->
  strms_search (sc_strms c) (sf_sid fr) = Some s -> blocked_buffered s ->
  sf_inc fr <> 0 -> (st_window s + Z.of_N (sf_inc fr) <= MAXWIN)%Z ->
  let w := (st_window s + Z.of_N (sf_inc fr))%Z in
  let q := Z.to_N (Z.max 0 (Z.min (Z.of_N (len (st_pending s))) (Z.min w (sc_clientWindow c)))) in
  let c' := fst (sl_frame dec_field enc_set_max cfg c fr) in
  exists frames rest,
    sc_out c' = rest ++ rev (frames_out (sf_sid fr) frames) ++ sc_out c /\ Forall quiet_out rest /\
    concat (map snd frames) = takeN q (st_pending s) /\
    Forall (fun f => 0 < len (snd f) <= 16384) frames /\
    sc_clientWindow c' = (sc_clientWindow c - Z.of_N q)%Z /\
    (if q =? len (st_pending s)
     then es_shape frames true /\ strms_search (sc_strms c') (sf_sid fr) = None
     else es_shape frames false /\
          exists s', strms_search (sc_strms c') (sf_sid fr) = Some s' /\ blocked_buffered s' /\
                     st_pending s' = dropN q (st_pending s) /\ st_window s' = (w - Z.of_N q)%Z).
Proof.
  intros SD WD ND K NZ LE F (B1 & B2 & B3 & B4 & B5 & B6 & B7) INC MW. cbv zeta.
  assert (Id : st_id s = sf_sid fr) by (apply strms_search_In in F; apply F).
  assert (Z0 : (sf_sid fr =? 0) = false) by (apply N.eqb_neq; exact NZ).
  assert (DC : fkind_eqb (sf_kind fr) KCont && negb (sc_discardID c =? 0) && (sf_sid fr =? sc_discardID c) = false)
    by (rewrite K; reflexivity).
  rewrite (sl_frame_stream _ dec_field enc_set_max cfg c fr Z0 DC).
  assert (PRE : sl_pre dec_field cfg c fr = inr (c, s)).
  { unfold sl_pre. cbv zeta. assert (X : (sf_sid fr <=? sc_lastID c) = true) by (apply N.leb_le; exact LE). rewrite X, F. reflexivity. }
  rewrite PRE. unfold sl_tail. rewrite K. cbn [fkind_eqb].
  set (w := (st_window s + Z.of_N (sf_inc fr))%Z) in *.
  assert (HF : handle_frame dec_field cfg c s fr = (c, set_window s w, None)).
  { unfold handle_frame, verify_state, continuing_headers. rewrite B1, K. cbn [fkind_eqb andb orb sstate_eqb sstate_rank N.eqb Pos.eqb].
    assert (X1 : (sf_inc fr =? 0) = false) by (apply N.eqb_neq; exact INC). rewrite X1.
    assert (X2 : (MAXWIN <? st_window s + Z.of_N (sf_inc fr))%Z = false) by (apply Z.ltb_ge; exact MW). cbn [set_window st_window]. rewrite X2. reflexivity. }
  rewrite HF. set (s1 := set_window s w).
  assert (HS : handle_state fr s1 = s1).
  { unfold handle_state. rewrite K. cbn [fkind_eqb]. subst s1. cbn [st_state set_window]. rewrite B1. reflexivity. }
  unfold after_frame. cbv zeta. rewrite HS.
  assert (C1 : sstate_eqb (st_state s1) SHalfClosed && st_headersFinished s1 && negb (st_responded s1) = false).
  { subst s1. cbn [st_state st_headersFinished st_responded set_window]. rewrite B1, B2, B3. reflexivity. }
  assert (C2 : st_responded s1 && negb (st_handlerRunning s1) && has_more_to_send s1 = true).
  { subst s1. unfold has_more_to_send. cbn [st_responded st_handlerRunning st_pending st_bodyStream set_window].
    rewrite B3, B4. destruct (st_pending s); [congruence | reflexivity]. }
  rewrite C1, C2.
  assert (BS1 : st_bodyStream s1 = None) by exact B5. assert (PE1 : st_pendingEnd s1 = true) by exact B6.
  destruct (send_data_buffered _ c s1 BS1 PE1 WD SD) as (frames & E & CC & PD & FA & ES & FN & W & CW).
  destruct (send_data_buffered_stream _ c s1 BS1 PE1 WD SD) as (I2 & St2 & HF2 & R2 & Ru2 & BS2 & PE2 & T2 & SD2 & WD2 & CL2 & CR2).
  cbv zeta in *. change (st_pending s1) with (st_pending s) in *. change (st_window s1) with w in *. change (st_id s1) with (st_id s) in *.
  set (q := Z.to_N (Z.max 0 (Z.min (Z.of_N (len (st_pending s))) (Z.min w (sc_clientWindow c))))) in *.
  destruct (send_data c s1) as [[c1 s2] fin]. cbn [fst snd] in *.
  replace (match st_pending s with [] => true | _ => false end) with false in ES by (destruct (st_pending s); [congruence | reflexivity]).
  rewrite Bool.andb_true_r in ES. rewrite Id in *.
  destruct (q =? len (st_pending s)) eqn:QE; subst fin.
  - (* finished *)
    cbn [st_state set_state sstate_eqb sstate_rank N.eqb Pos.eqb].
    set (s3 := set_state s2 SClosed).
    set (c3 := close_stream (put c1 s3) s3).
    assert (O3 : exists rest0, sc_out c3 = rest0 ++ sc_out c1 /\ Forall quiet_out rest0).
    { destruct (close_stream_out _ (put c1 s3) s3) as (r0 & E0 & F0). exists r0. split; [exact E0 | exact F0]. }
    destruct O3 as (rest0 & E3 & F3).
    assert (S3 : strms_search (sc_strms c3) (sf_sid fr) = None).
    { subst c3. rewrite sc_strms_close_stream. unfold put. sc_cbn. rewrite T2.
      replace (sf_sid fr) with (st_id s3) by (subst s3; cbn [st_id set_state]; exact I2).
      apply strms_search_del_put. exact ND. }
    assert (CW3 : sc_clientWindow c3 = (sc_clientWindow c - Z.of_N q)%Z).
    { subst c3. rewrite sc_clientWindow_close_stream. unfold put. sc_cbn. exact CW. }
    match goal with |- context [if ?b then brk c3 else cont c3] => destruct b end; cbn [fst cont brk].
    + exists frames, (OExit 1 0 :: rest0). unfold note. sc_cbn.
      split; [rewrite E3, E; reflexivity|]. split; [constructor; [exact I | exact F3]|].
      split; [exact CC|]. split; [exact FA|]. split; [exact CW3|]. split; [exact ES | exact S3].
    + exists frames, rest0. split; [rewrite E3, E; reflexivity|]. split; [exact F3|].
      split; [exact CC|]. split; [exact FA|]. split; [exact CW3|]. split; [exact ES | exact S3].
  - (* still blocked *)
    assert (NC : sstate_eqb (st_state s2) SClosed = false) by (rewrite St2; subst s1; cbn [st_state set_window]; rewrite B1; reflexivity).
    rewrite NC.
    assert (S3 : strms_search (sc_strms (put c1 s2)) (sf_sid fr) = Some s2).
    { unfold put. sc_cbn. rewrite T2. rewrite <- I2. eapply search_put_same. rewrite I2. exact F. }
    assert (BB : blocked_buffered s2).
    { unfold blocked_buffered. rewrite St2, HF2, R2, Ru2, BS2, PE2, PD. subst s1.
      cbn [st_state st_headersFinished st_responded st_handlerRunning set_window].
      repeat split; try assumption. intro X.
      assert (L : len (dropN q (st_pending s)) = 0) by (rewrite X; reflexivity). rewrite len_dropN in L.
      apply N.eqb_neq in QE. assert (QL : q <= len (st_pending s)) by (unfold q; clear - w; lia). clear - L QE QL. lia. }
    match goal with |- context [if ?b then brk ?x else cont ?x] => destruct b end; cbn [fst cont brk].
    + exists frames, [OExit 1 0]. unfold note, put. sc_cbn.
      split; [rewrite E; reflexivity|]. split; [repeat constructor|].
      split; [exact CC|]. split; [exact FA|]. split; [exact CW|]. split; [exact ES|].
      exists s2. split; [exact S3|]. auto.
    + exists frames, []. unfold put. sc_cbn.
      split; [rewrite E; reflexivity|]. split; [constructor|].
      split; [exact CC|]. split; [exact FA|]. split; [exact CW|]. split; [exact ES|].
      exists s2. split; [exact S3|]. auto.
Qed.
End Grant.
