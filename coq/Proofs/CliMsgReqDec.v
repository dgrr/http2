(* Proofs/CliMsgReqDec.v - C02 (b): an RFC 7541 decoder that reads the header blocks of the HEADERS frames the client
   writes, in order, gets exactly the requests' field lists.

   The client's encoder (Impl/Hpack.v: append_header, set_max_table_size) against the decoder of Spec/Rfc7541.v; the
   encoder side is Proofs/HpackEncBlock.v (Inv, set_max_step, block_step). The decoder's limit (dt_limit: the
   SETTINGS_HEADER_TABLE_SIZE it has announced and the encoder has acknowledged, RFC 7541 4.2) is set with
   spec_set_limit at the points where the encoder is given the new size. *)
From Coq Require Import List NArith ZArith Bool Lia.
From H2V Require Import Base.Bytes Base.MachineInt Gen.GenConsts Gen.GenStatic
     Impl.Huffman Impl.Hpack Spec.Rfc7541Huffman Spec.Rfc7541
     Proofs.HpackDefs Proofs.HpackEncHeader Proofs.HpackEncDefs Proofs.HpackEncBlock
     Impl.ServerConn Impl.ServerInst Impl.ClientConn Impl.ClientInst Proofs.CliBase Proofs.CliDefs
     Proofs.CliMsgMoves Proofs.CliMsgDisp Proofs.CliMsgStep Proofs.CliMsgIds Proofs.CliMsgReq Proofs.CliFlowCThm Proofs.CliResInv Proofs.CliResStep Props.C02_statements.
From H2V Require Import Proofs.CliMsgReqDecSz.
Import ListNotations.
Local Open Scope N_scope.

(* a request block is one encode_block of the encoder model *)
Definition req_extra (l : list (bytes * bytes)) : list (field * bool) :=
  flat_map (fun kv => if cl_is_user_agent (fst kv) then []
                      else if is_connection_specific (cl_to_lower (fst kv)) then []
                      else [(mkF (cl_to_lower (fst kv)) (snd kv) false, false)]) l.
Definition req_flist (rq : crequest) : list (field * bool) :=
  [(mkF S_authority (cq_host rq) false, true); (mkF S_method (cq_method rq) false, true); (mkF S_path (cq_path rq) false, true);
   (mkF S_scheme (cq_scheme rq) false, true); (mkF S_user_agent (cq_ua rq) false, true)] ++ req_extra (cq_fields rq).

Lemma cli_enc_field_ahdr hp k v s : cli_enc_field hp k v s = ahdr hp (mkF k v false) s.
Proof.
  unfold cli_enc_field, srv_enc_field. rewrite append_header_app. cbn [app]. destruct (ahdr hp (mkF k v false) s). reflexivity.
Qed.

Lemma enc_req_fields_afields l : forall e, cl_enc_req_fields cli_enc_field e l = afields e (req_extra l).
Proof.
  induction l as [|[k v] t IH]; intro e; [reflexivity|]. cbn [cl_enc_req_fields req_extra flat_map fst snd].
  destruct (cl_is_user_agent k); [exact (IH e)|]. destruct (is_connection_specific (cl_to_lower k)); [exact (IH e)|].
  cbn [app afields]. rewrite cli_enc_field_ahdr. destruct (ahdr e (mkF (cl_to_lower k) v false) false) as [b1 e1].
  fold (req_extra t). rewrite IH. reflexivity.
Qed.

Lemma request_block_afields e rq : cl_request_block cli_enc_field e rq = afields e (req_flist rq).
Proof.
  unfold cl_request_block, req_flist. cbn [app afields]. rewrite !cli_enc_field_ahdr.
  destruct (ahdr e _ true) as [b1 e1]. rewrite !cli_enc_field_ahdr. destruct (ahdr e1 _ true) as [b2 e2].
  rewrite !cli_enc_field_ahdr. destruct (ahdr e2 _ true) as [b3 e3]. rewrite !cli_enc_field_ahdr. destruct (ahdr e3 _ true) as [b4 e4].
  rewrite !cli_enc_field_ahdr. destruct (ahdr e4 _ true) as [b5 e5]. rewrite enc_req_fields_afields.
  destruct (afields e5 (req_extra (cq_fields rq))) as [b6 e6]. reflexivity.
Qed.

Definition triple (kv : bytes * bytes) : hfield := (fst kv, snd kv, false).

Lemma req_flist_fields rq : map (fun p => triple_of (fst p)) (req_flist rq) = map triple (request_fields rq).
Proof.
  unfold req_flist, request_fields. rewrite !map_app. f_equal. unfold req_extra.
  induction (cq_fields rq) as [|[k v] t IH]; [reflexivity|]. cbn [flat_map fst snd]. rewrite !map_app, IH. f_equal.
  unfold cl_is_user_agent, cl_to_lower, cl_fold_ascii, ascii_lower.
  destruct (bytes_eqb _ S_user_agent); [reflexivity|]. cbn [orb]. destruct (is_connection_specific _); reflexivity.
Qed.

Lemma enc_ok_flist rq : enc_ok rq = true -> forallb enc_field_ok (req_flist rq) = true.
Proof.
  unfold enc_ok. intro H.
  assert (E : forallb enc_field_ok (req_flist rq) = forallb (fun t : hfield => bytes_ok (fst (fst t)) && bytes_ok (snd (fst t)) && (len (fst (fst t)) + len (snd (fst t)) + 32 <? 2 ^ 31)) (map (fun p => triple_of (fst p)) (req_flist rq))).
  { induction (req_flist rq) as [|[f s] l IH]; [reflexivity|]. cbn [forallb map]. rewrite IH. reflexivity. }
  rewrite E, req_flist_fields. clear E. induction (request_fields rq) as [|kv l IH]; [reflexivity|].
  cbn [forallb map] in *. apply andb_prop in H. destruct H as [H1 H2]. rewrite (IH H2), andb_true_r. exact H1.
Qed.

(* what the server's HPACK decoder sees: inl n = it learns that the client has taken its SETTINGS_HEADER_TABLE_SIZE n
   (RFC 7541 4.2: from then on a size update up to n is legal); inr b = the header block b *)
Notation dop := (N + bytes)%type.
Fixpoint dec_ops (d : dtable) (ops : list dop) : option (list (list hfield) * dtable) :=
  match ops with
  | [] => Some ([], d)
  | inl n :: t => dec_ops (spec_set_limit d n) t
  | inr b :: t =>
    match spec_decode_block d b with
    | Some (fs, d') => match dec_ops d' t with Some (l, d'') => Some (fs :: l, d'') | None => None end
    | None => None
    end
  end.

Lemma dec_ops_app a : forall d b,
  dec_ops d (a ++ b) = match dec_ops d a with
                       | Some (la, d') => match dec_ops d' b with Some (lb, d'') => Some (la ++ lb, d'') | None => None end
                       | None => None
                       end.
Proof.
  induction a as [|[n|blk] a IH]; intros d b; cbn [app dec_ops].
  - destruct (dec_ops d b) as [[lb d'']|]; reflexivity.
  - apply IH.
  - destruct (spec_decode_block d blk) as [[fs d']|]; [|reflexivity]. rewrite IH.
    destruct (dec_ops d' a) as [[la d1]|]; [|reflexivity]. destruct (dec_ops d1 b) as [[lb d2]|]; reflexivity.
Qed.

Definition eop_dop (o : eop) : dop := match o with inl n => inl n | inr rb => inr (snd rb) end.

Notation chain := (enc_chain_s cli_enc_field set_max_table_size).

Lemma Inv_sync enc dec pend : Inv enc dec pend -> h_pending enc = false -> dec = abs enc.
Proof. intros (_ & _ & H) E. rewrite E in H. exact (proj1 H). Qed.

Theorem chain_decodes e0 ops e : chain e0 ops e ->
  forall d0 pend0, Inv e0 d0 pend0 -> Forall (fun n => n < 2 ^ 31) (sizes_of ops) ->
  Forall (fun rb => enc_ok (fst rb) = true) (rights_of ops) ->
  exists d pend,
    dec_ops d0 (map eop_dop ops) = Some (map (fun rb => map triple (request_fields (fst rb))) (rights_of ops), d) /\ Inv e d pend.
Proof.
  induction 1 as [|l e n H IH|l e rq blk e' H IH RB]; intros d0 pend0 I0 HS HR.
  - exists d0, pend0. split; [reflexivity | exact I0].
  - rewrite sizes_of_app in HS. apply Forall_app in HS. destruct HS as [HS HN]. inversion HN as [|? ? Hn _]; subst.
    rewrite rights_of_app in HR |- *. cbn [rights_of flat_map app] in HR |- *. rewrite app_nil_r in HR |- *.
    destruct (IH d0 pend0 I0 HS HR) as (d & pend & D & I1).
    destruct (set_max_step e d pend n I1 Hn) as [I2 _].
    exists (spec_set_limit d n), (pend ++ [n]). split; [|exact I2].
    rewrite map_app, dec_ops_app, D. cbn [map eop_dop dec_ops]. rewrite app_nil_r. reflexivity.
  - rewrite sizes_of_app in HS. cbn [sizes_of flat_map app] in HS. rewrite app_nil_r in HS.
    rewrite rights_of_app in HR |- *. cbn [rights_of flat_map app] in HR |- *. apply Forall_app in HR. destruct HR as [HR HQ].
    inversion HQ as [|? ? Hq _]; subst. cbn [fst] in Hq.
    destruct (IH d0 pend0 I0 HS HR) as (d & pend & D & I1).
    destruct (block_step e d pend (req_flist rq) I1 (enc_ok_flist rq Hq)) as [rs enc' E DB _ _ _ _ I2].
    rewrite encode_block_pure, <- request_block_afields, RB in E. inversion E; subst blk enc'.
    change (is_nil (req_flist rq)) with false in DB, I2. cbv iota in DB, I2.
    exists (abs e'), []. split; [|exact I2].
    rewrite map_app, dec_ops_app, D. cbn [map eop_dop dec_ops snd]. rewrite DB, req_flist_fields, map_app. reflexivity.
Qed.

(* the decoder's limit: it never changes inside a block, and a larger one changes nothing else *)
Lemma spec_step_limit t a r f t' : spec_step t a r = Some (f, t') -> dt_limit t' = dt_limit t.
Proof.
  destruct r as [i|m nr hn hv v|n]; cbn [spec_step].
  - destruct (lookup t i) as [[k v]|]; [|discriminate]. intro H. inversion H. reflexivity.
  - destruct (match nr with NameLit n => Some n | NameIdx i => match lookup t i with Some (n, _) => Some n | None => None end end); [|discriminate].
    destruct m; intro H; inversion H; reflexivity.
  - destruct (a && (n <=? dt_limit t)); [|discriminate]. intro H. inversion H. reflexivity.
Qed.

Lemma sem_from_limit rs : forall t a fs t', sem_from t a rs = Some (fs, t') -> dt_limit t' = dt_limit t.
Proof.
  induction rs as [|r rs IH]; intros t a fs t'; cbn [sem_from]; [intro H; inversion H; reflexivity|].
  destruct (spec_step t a r) as [[[f|] t1]|] eqn:S; [| |discriminate].
  - destruct (sem_from t1 false rs) as [[fs1 t2]|] eqn:R; [|discriminate]. intro H. inversion H; subst.
    rewrite (IH _ _ _ _ R). exact (spec_step_limit _ _ _ _ _ S).
  - intro H. rewrite (IH _ _ _ _ H). exact (spec_step_limit _ _ _ _ _ S).
Qed.

Lemma spec_decode_block_limit t b fs t' : spec_decode_block t b = Some (fs, t') -> dt_limit t' = dt_limit t.
Proof. unfold spec_decode_block, spec_sem. destruct (spec_parse_block b); [apply sem_from_limit | discriminate]. Qed.

Lemma spec_step_mono L t a r f t' : dt_limit t <= L -> spec_step t a r = Some (f, t') ->
  spec_step (spec_set_limit t L) a r = Some (f, spec_set_limit t' L).
Proof.
  intro LE. destruct r as [i|m nr hn hv v|n]; cbn [spec_step].
  - change (lookup (spec_set_limit t L) i) with (lookup t i). destruct (lookup t i) as [[k v]|]; [|discriminate]. intro H. inversion H. reflexivity.
  - change (lookup (spec_set_limit t L)) with (lookup t).
    destruct (match nr with NameLit n => Some n | NameIdx i => match lookup t i with Some (n, _) => Some n | None => None end end); [|discriminate].
    destruct m; intro H; inversion H; reflexivity.
  - cbn [spec_set_limit dt_limit]. destruct a; cbn [andb]; [|discriminate]. destruct (n <=? dt_limit t) eqn:E; [|discriminate].
    replace (n <=? L) with true by (symmetry; apply N.leb_le; apply N.leb_le in E; lia). intro H. inversion H. reflexivity.
Qed.

Lemma sem_from_mono L rs : forall t a fs t', dt_limit t <= L -> sem_from t a rs = Some (fs, t') ->
  sem_from (spec_set_limit t L) a rs = Some (fs, spec_set_limit t' L).
Proof.
  induction rs as [|r rs IH]; intros t a fs t' LE; cbn [sem_from]; [intro H; inversion H; reflexivity|].
  destruct (spec_step t a r) as [[[f|] t1]|] eqn:S; [| |discriminate]; rewrite (spec_step_mono L _ _ _ _ _ LE S);
    pose proof (spec_step_limit _ _ _ _ _ S) as EL.
  - destruct (sem_from t1 false rs) as [[fs1 t2]|] eqn:R; [|discriminate]. intro H. inversion H; subst.
    rewrite (IH _ _ _ _ ltac:(rewrite EL; exact LE) R). reflexivity.
  - intro H. exact (IH _ _ _ _ ltac:(rewrite EL; exact LE) H).
Qed.

Lemma spec_decode_block_mono L t b fs t' : dt_limit t <= L -> spec_decode_block t b = Some (fs, t') ->
  spec_decode_block (spec_set_limit t L) b = Some (fs, spec_set_limit t' L).
Proof. unfold spec_decode_block, spec_sem. intro LE. destruct (spec_parse_block b); [apply sem_from_mono, LE | discriminate]. Qed.

Lemma spec_decode_blocks_mono L bs : forall t l t', dt_limit t <= L -> spec_decode_blocks t bs = Some (l, t') ->
  spec_decode_blocks (spec_set_limit t L) bs = Some (l, spec_set_limit t' L).
Proof.
  induction bs as [|b bs IH]; intros t l t' LE; cbn [spec_decode_blocks]; [intro H; inversion H; reflexivity|].
  destruct (spec_decode_block t b) as [[fs t1]|] eqn:D; [|discriminate]. rewrite (spec_decode_block_mono L _ _ _ _ LE D).
  destruct (spec_decode_blocks t1 bs) as [[l1 t2]|] eqn:R; [|discriminate]. intro H. inversion H; subst.
  rewrite (IH _ _ _ ltac:(rewrite (spec_decode_block_limit _ _ _ _ D); exact LE) R). reflexivity.
Qed.

(* when every size the decoder is told is the limit it already has, dec_ops is spec_decode_blocks *)
Lemma dec_ops_fixed L ops : forall d l d', dt_limit d = L -> Forall (eq L) (sizes_of ops) -> dec_ops d ops = Some (l, d') ->
  spec_decode_blocks d (rights_of ops) = Some (l, d').
Proof.
  induction ops as [|[n|b] ops IH]; intros d l d' EL HS.
  - auto.
  - change (rights_of (inl n :: ops)) with (rights_of (A:=N) ops). change (sizes_of (inl n :: ops)) with (n :: sizes_of (B:=bytes) ops) in HS. cbn [dec_ops].
    inversion HS as [|? ? Hn HS']. rewrite <- Hn, <- EL. replace (spec_set_limit d (dt_limit d)) with d by (destruct d; reflexivity). apply IH; [exact EL | exact HS'].
  - change (rights_of (inr b :: ops)) with (b :: rights_of (A:=N) ops). change (sizes_of (inr b :: ops)) with (sizes_of (B:=bytes) ops) in HS. cbn [dec_ops spec_decode_blocks].
    destruct (spec_decode_block d b) as [[fs d1]|] eqn:D; [|discriminate].
    destruct (dec_ops d1 ops) as [[l1 d2]|] eqn:R; [|discriminate]. intro H. inversion H as [[H1 H2]]. rewrite H2 in R.
    rewrite (IH d1 l1 d' ltac:(rewrite (spec_decode_block_limit _ _ _ _ D); exact EL) HS R). reflexivity.
Qed.

(* the start: the encoder after the handshake, the decoder with the limit the client has taken *)
Definition cli_dec0 (first : bytes) : dtable :=
  match cl_settings_deserialize false first with
  | Some st => if cs_table st <=? c_defaultHeaderTableSize
               then spec_set_limit (dtable_init c_defaultHeaderTableSize) (cs_table st)
               else dtable_init c_defaultHeaderTableSize
  | None => dtable_init c_defaultHeaderTableSize
  end.

Lemma Inv_cli_init first : exists pend, Inv (cc_enc (cli_init first)) (cli_dec0 first) pend.
Proof.
  unfold cli_init, cl_init, cli_dec0. destruct (cl_settings_deserialize false first) as [st|]; cbn [cc_enc].
  - destruct (cs_table st <=? c_defaultHeaderTableSize) eqn:E.
    + eexists. refine (proj1 (set_max_step _ _ _ (cs_table st) (Inv_init false false) _)).
      apply N.leb_le in E. unfold c_defaultHeaderTableSize in E. change (2 ^ 31) with 2147483648. lia.
    + exists []. apply Inv_init.
  - exists []. apply Inv_init.
Qed.

Lemma cli_init_size first : cc_encTableSize (cli_init first) <= c_defaultHeaderTableSize /\ dt_limit (cli_dec0 first) = cc_encTableSize (cli_init first).
Proof.
  unfold cli_init, cl_init, cli_dec0. destruct (cl_settings_deserialize false first) as [st|]; cbn [cc_encTableSize].
  - destruct (cs_table st <=? c_defaultHeaderTableSize) eqn:E; [apply N.leb_le in E|]; split; try reflexivity; lia.
  - split; [lia | reflexivity].
Qed.

Definition rop_dop (o : rop) : dop := match o with inl n => inl n | inr r => inr (snd r) end.
Definition re_rq (r : rentry) : crequest := snd (fst r).

(* a SETTINGS frame (not an ACK, on stream 0, well formed) of the event list that carries HEADER_TABLE_SIZE = n *)
Definition table_size_frame (evs : list cevent) (n : N) : Prop :=
  exists fr st, In (CEvRL (RFrame fr)) evs /\ sf_sid fr = 0 /\ sf_kind fr = KSettings /\ flag_has (sf_flags fr) FL_ES = false /\
                cl_settings_deserialize false (sf_payload fr) = Some st /\ cl_settings_has st c_HeaderTableSize = true /\ n = cs_table st.
(* the sizes the client's encoder can be given: the one of the handshake, or one the server sent later *)
Definition announced (first : bytes) (evs : list cevent) (n : N) : Prop :=
  n = cc_encTableSize (cli_init first) \/ table_size_frame evs n.
(* HYPOTHESIS ON THE SERVER: every HEADER_TABLE_SIZE it sends after the handshake is below 2^31 *)
Definition sizes_small (evs : list cevent) : Prop := forall n, table_size_frame evs n -> n < 2 ^ 31.
(* HYPOTHESIS ON THE CALLERS (requests_ok, Props/C02_statements.v): every request submitted is made of bytes, each field
   shorter than 2^31 - 32 *)

Lemma run_sizes cfg first evs (P : N -> Prop) :
  P (cc_encTableSize (cli_init first)) -> (forall n, table_size_frame evs n -> P n) ->
  forall pre post, evs = pre ++ post -> P (cc_encTableSize (cli_run cfg first pre)).
Proof.
  intros P0 PF pre post E. unfold cli_run. apply ets_run; [exact P0|].
  intros fr st I S0 K A D HT. apply PF. exists fr, st. rewrite E. repeat split; try assumption. apply in_or_app. left. exact I.
Qed.

Lemma rop_dop_eop ops : map eop_dop (map rop_eop ops) = map rop_dop ops.
Proof. rewrite map_map. apply map_ext. intros [n|[[[id tag] rq] blk]]; reflexivity. Qed.

Theorem cli_requests_decode cfg first evs :
  sizes_small evs -> requests_ok evs ->
  exists ops : list rop,
    headers_of (cli_tr cfg first evs) = map re_hdr (rights_of ops) /\
    (forall id tag rq blk, In (id, tag, rq, blk) (rights_of ops) ->
       id <> 0 /\ exists x, cst_ctx (cli_run cfg first evs) tag = Some x /\ ct_sid x = id /\ ct_req x = rq) /\
    Forall (announced first evs) (sizes_of ops) /\
    exists d pend,
      dec_ops (cli_dec0 first) (map rop_dop ops) = Some (map (fun r => map triple (request_fields (re_rq r))) (rights_of ops), d) /\
      (cl_wl_live (cli_run cfg first evs) = true ->
       Inv (cc_enc (cli_run cfg first evs)) d pend /\ (h_pending (cc_enc (cli_run cfg first evs)) = false -> in_sync (cc_enc (cli_run cfg first evs)) d = true)).
Proof.
  intros HS HR.
  set (Psz := fun n => announced first evs n /\ n < 2 ^ 31).
  assert (HP : forall pre post, evs = pre ++ post -> Psz (cc_encTableSize (cli_run cfg first pre))).
  { apply run_sizes.
    - split; [left; reflexivity|]. pose proof (proj1 (cli_init_size first)) as B. unfold c_defaultHeaderTableSize in B. change (2 ^ 31) with 2147483648. lia.
    - intros n F. split; [right; exact F | exact (HS n F)]. }
  destruct (request_blocks_sizes cli_dec_field cli_enc_field set_max_table_size cfg cli_init_hpack first Psz evs HP) as (ops & H1 & H2 & H3 & e & H4 & H5).
  exists ops. split; [exact H1|]. split; [exact H2|]. split; [eapply Forall_impl; [|exact H3]; intros n [A _]; exact A|].
  destruct (Inv_cli_init first) as (pend0 & I0).
  destruct (chain_decodes _ _ _ H4 _ _ I0) as (d & pend & D & I1).
  - rewrite sizes_of_rop. eapply Forall_impl; [|exact H3]. intros n [_ B]; exact B.
  - rewrite rights_of_rop. apply Forall_forall. intros rb I. apply in_map_iff in I. destruct I as ([[[id tag] rq] blk] & <- & I). cbn [re_rb fst].
    destruct (H2 id tag rq blk I) as (_ & x & G & _ & R).
    destruct (ctx_submitted _ _ _ _ _ _ _ _ _ _ G) as (pre & rq' & q & post & E & _ & R'). apply (HR tag rq q). rewrite E. apply in_or_app. right. left. congruence.
  - exists d, pend. split.
    + rewrite <- rop_dop_eop, D, rights_of_rop, map_map. do 2 f_equal. apply map_ext. intros [[[id tag] rq] blk]. reflexivity.
    + intro L. unfold cli_run. rewrite <- (H5 L). split; [exact I1|]. intro NP. rewrite (Inv_sync _ _ _ I1 NP). apply in_sync_abs.
Qed.

(* the blocks the decoder is given are the payloads of the HEADERS frames, in order *)
Lemma header_blocks_ops tr (ops : list rop) : headers_of tr = map re_hdr (rights_of ops) -> header_blocks tr = rights_of (map rop_dop ops).
Proof.
  unfold header_blocks. intros ->. rewrite map_map. induction ops as [|[n|[[[id tag] rq] blk]] ops IH]; [reflexivity | exact IH|].
  cbn [map rop_dop rights_of flat_map app re_hdr snd]. f_equal. exact IH.
Qed.

(* the server never changes HEADER_TABLE_SIZE after the handshake *)
Lemma fixed_no_frame evs n : table_size_fixed evs -> ~ table_size_frame evs n.
Proof.
  intros TF (fr & st & I & _ & K & _ & D & HT & _). destruct (proj2 (settings_table_pairs _ _ _ D) HT) as (kv & Ikv & E).
  exact (TF fr I K kv Ikv E).
Qed.

Lemma request_on_ctx cfg first evs tag x :
  cst_ctx (cli_run cfg first evs) tag = Some x -> ct_sid x <> 0 -> request_on (cli_run cfg first evs) (ct_sid x) = Some (ct_req x).
Proof.
  intros G NZ. destruct (inv_run cli_dec_field cli_enc_field set_max_table_size cfg cli_init_hpack first evs) as [St _].
  fold (cli_run cfg first evs) in St. set (c := cli_run cfg first evs) in *. unfold request_on.
  destruct (cl_ctxs_get_In _ _ _ G) as [Ix _].
  destruct (find (fun y => ct_sid y =? ct_sid x) (cc_ctxs c)) as [y|] eqn:F.
  - apply find_some in F. destruct F as [Iy Ey]. apply N.eqb_eq in Ey.
    pose proof (cl_ctxs_get_NoDup _ _ (s_tags _ St) Iy) as Gy.
    pose proof (s_sid_unique _ St (ct_tag y) tag y x Gy G Ey ltac:(rewrite Ey; exact NZ)) as ET.
    rewrite ET in Gy. unfold cst_ctx in G. rewrite G in Gy. inversion Gy. reflexivity.
  - exfalso. pose proof (find_none _ _ F x Ix) as E. cbn beta in E. rewrite N.eqb_refl in E. discriminate.
Qed.

Lemma server_limit_dec0 first : cl_settings_deserialize false first <> None ->
  dt_limit (cli_dec0 first) <= server_table_limit first /\
  spec_set_limit (cli_dec0 first) (server_table_limit first) = spec_set_limit (dtable_init c_defaultHeaderTableSize) (server_table_limit first).
Proof.
  intro NN. unfold cli_dec0, server_table_limit. destruct (cl_settings_deserialize false first) as [st|] eqn:D; [|congruence].
  rewrite <- (proj1 (settings_table_pairs _ _ _ D)). destruct (cs_table st <=? c_defaultHeaderTableSize) eqn:E.
  - split; [cbn; lia | reflexivity].
  - apply N.leb_gt in E. split; [cbn [dtable_init dt_limit]; lia | reflexivity].
Qed.

Theorem cli_requests_intact : c02_requests_intact.
Proof.
  intros cfg first evs NN TF HR c tr.
  destruct (cli_requests_decode cfg first evs) as (ops & H1 & H2 & H3 & d & pend & D & _); [intros n F; destruct (fixed_no_frame _ _ TF F) | exact HR|].
  fold c in H2. change (cli_tr cfg first evs) with tr in H1.
  assert (HS : Forall (eq (dt_limit (cli_dec0 first))) (sizes_of (map rop_dop ops))).
  { replace (sizes_of (map rop_dop ops)) with (sizes_of ops) by (clear; induction ops as [|[n|r] ops IH]; [reflexivity | cbn [map rop_dop sizes_of flat_map app]; f_equal; exact IH | exact IH]).
    eapply Forall_impl; [|exact H3]. intros n [A|A]; [rewrite (proj2 (cli_init_size first)); symmetry; exact A | destruct (fixed_no_frame _ _ TF A)]. }
  pose proof (dec_ops_fixed _ _ _ _ _ eq_refl HS D) as DB. rewrite <- (header_blocks_ops tr ops H1) in DB.
  destruct (server_limit_dec0 first NN) as [LE EQ].
  exists (spec_set_limit d (server_table_limit first)). rewrite <- EQ, (spec_decode_blocks_mono _ _ _ _ _ LE DB). do 2 f_equal.
  unfold header_ids. rewrite H1, !map_map. apply map_ext_in. intros [[[id tag] rq] blk] I. cbn [re_hdr fst re_rq snd].
  destruct (H2 id tag rq blk I) as (NZ & x & G & S & R). pose proof (request_on_ctx cfg first evs tag x G ltac:(rewrite S; exact NZ)) as RO. fold c in RO.
  rewrite <- S, RO, R. reflexivity.
Qed.

(* a sample run: the hypotheses hold, the dynamic table and a size change are in play *)
(* GET https://h/ with user agent "u", "X-A: 1" and "Connection: x" (dropped) *)
Definition ex_rq_xa : crequest :=
  mkCReq [104] [71; 69; 84] [47] [104; 116; 116; 112; 115] [117]
         [([88; 45; 65], [49]); ([67; 111; 110; 110; 101; 99; 116; 105; 111; 110], [120])] (CBuf []).
(* the same request twice, the server lowering HEADER_TABLE_SIZE to 100 in between, then a POST *)
Definition ex_dec_evs : list cevent :=
  [CEvSubmit 0 ex_rq_xa true; CEvWLIn; CEvRL (ex_settings 1 100); CEvSubmit 1 ex_rq_xa true; CEvWLIn;
   CEvSubmit 2 (ex_post (CBuf [1; 2])) true; CEvWLIn].

Example ex_dec_hyps : sizes_small ex_dec_evs /\ requests_ok ex_dec_evs /\ table_size_frame ex_dec_evs 100.
Proof.
  split; [|split].
  - intros n (fr & st & I & _ & _ & _ & D & _ & ->). cbn [ex_dec_evs In] in I.
    repeat (destruct I as [I|I]; [try discriminate|]); [|contradiction]. inversion I; subst fr. vm_compute in D. inversion D. reflexivity.
  - intros tag rq q I. cbn [ex_dec_evs In] in I.
    repeat (destruct I as [I|I]; [try discriminate; inversion I; subst; vm_compute; reflexivity|]). contradiction.
  - eexists _, _. split; [right; right; left; reflexivity|]. repeat split; vm_compute; reflexivity.
Qed.

(* the three blocks: the second starts with the size update 100 (63 69) and refers to the entries the first one
   created (191 = index 63, 190 = index 62), the third still finds :authority and user-agent... in a table of 100 bytes *)
Example ex_dec_run :
  headers_of (cli_tr ex_cfg [] ex_dec_evs) =
    [(1, true, [65; 129; 159; 130; 132; 135; 122; 129; 183; 0; 131; 242; 176; 255; 129; 15]);
     (3, true, [63; 69; 191; 130; 132; 135; 190; 0; 131; 242; 176; 255; 129; 15]);
     (5, false, [191; 131; 132; 135; 186])] /\
  (exists d, dec_ops (cli_dec0 []) (inr (A:=N) [65; 129; 159; 130; 132; 135; 122; 129; 183; 0; 131; 242; 176; 255; 129; 15] :: inl 100 ::
                                 inr [63; 69; 191; 130; 132; 135; 190; 0; 131; 242; 176; 255; 129; 15] :: inr [191; 131; 132; 135; 186] :: nil)
             = Some (map (fun rq => map triple (request_fields rq)) [ex_rq_xa; ex_rq_xa; ex_post (CBuf [1; 2])], d) /\
             in_sync (cc_enc (cli_run ex_cfg [] ex_dec_evs)) d = true /\ dt_max d = 100 /\ length (dt_entries d) = 2%nat) /\
  request_fields ex_rq_xa = [(S_authority, [104]); (S_method, [71; 69; 84]); (S_path, [47]); (S_scheme, [104; 116; 116; 112; 115]);
                             (S_user_agent, [117]); ([120; 45; 97], [49])].
Proof.
  split; [vm_compute; reflexivity|]. split; [|reflexivity]. eexists. split; [vm_compute; reflexivity|]. repeat split; vm_compute; reflexivity.
Qed.

(* OBSERVATION: the table size the server asks for is handed to the write loop before the SETTINGS ACK is queued, and
   writeRequest applies it whenever it runs next: the header block that carries the size update 8192 is on the wire
   BEFORE the ACK (RFC 7541 4.2 has the update follow the acknowledgment). A decoder that only raises its limit when
   the ACK arrives sees an update above its limit. *)
Example ex_size_update_before_ack :
  let evs := [CEvSubmit 0 ex_get true; CEvRL (ex_settings 1 8192); CEvWLIn] in
  (exists b, headers_of (cli_tr ex_cfg [] evs) = [(1, true, 63 :: 225 :: 63 :: b)]) /\
  existsb (fun o => match o with COSettingsAck => true | _ => false end) (cli_tr ex_cfg [] evs) = false /\
  cc_outQ (cli_run ex_cfg [] evs) = [COSettingsAck] /\
  spec_decode_block (dtable_init 4096) (snd (hd (0, true, []) (headers_of (cli_tr ex_cfg [] evs)))) = None.
Proof. cbv zeta. split; [eexists; vm_compute; reflexivity|]. repeat split; vm_compute; reflexivity. Qed.

(* the hypotheses of cli_requests_intact hold of the two requests of ex_two_ok (Props/C02_statements.v) *)
Example ex_intact_hyps : cl_settings_deserialize false [] <> None /\ table_size_fixed ex_two_ok /\ requests_ok ex_two_ok.
Proof.
  split; [vm_compute; discriminate|]. split.
  - intros fr I K. cbv [ex_two_ok ex_headers ex_frame ex_data In] in I.
    repeat (destruct I as [I|I]; [try discriminate; inversion I; subst fr; discriminate K|]). contradiction.
  - intros tag rq q I. cbv [ex_two_ok In] in I.
    repeat (destruct I as [I|I]; [try discriminate; inversion I; subst; vm_compute; reflexivity|]). contradiction.
Qed.
