(* Proofs/TeardownSrvEx.v -- blocking-structure model (Impl/Teardown.v), server: examples and the finding F-S2.
   Statements: Props/Teardown.v; overview: Proofs/TeardownProofs.v. *)
From Coq Require Import Arith Lia Bool List.
Import ListNotations.
From H2V Require Import Impl.Teardown Proofs.TeardownGen Proofs.TeardownSrvInv Proofs.TeardownSrvS1 Proofs.TeardownSrvS2.

Module SrvEx.
Import Srv SrvP SrvP1 SrvP2.

Section P.
Variable cap : nat.
Hypothesis cap_pos : 1 <= cap.
Notation guard := (Srv.guard cap).
Notation reachable := (Srv.reachable cap).

(* a connection with both timers configured, just after Serve has started its goroutines *)
Definition start (idle : bool) (b : nat) : state :=
  mk RRead SSelect WSelect PArmed 0 0 0 false false false false false 0 0 idle 0 0 false false
     false false false false b.
Lemma start_init : forall i b, init (start i b).
Proof. intros; unfold init; cbn; repeat split; auto. Qed.
Lemma start_reach : forall i b, reachable (start i b).
Proof. intros; apply reach_init, start_init. Qed.

Ltac reach_by := apply reach_acts; [apply start_reach | unfold start; solve [guards_tac]].

(* ---- finding (C10 iv): a connection error ends the stream loop; the peer neither reads nor
   sends nor closes; the write loop is in the socket write of the drain; the read loop is in the
   socket read.  Nothing can move except the peer (or the request timer, which nobody listens to
   any more): the drain timeout is not even armed, because Serve is still inside readLoop. ---- *)
Definition silent_trace : list act :=
  [EPeerSend 1; RGetFwd; RFwdSend; STakeRd false false; SBodyWrite; SWr ViaQueue; SBodyBreak;
   SCloseHStop; SStopPing; SCloseWStop; EPeerStall; WStop; WDrainTake].
Definition silent_state : state := Eval vm_compute in run_acts eff silent_trace (start false 0).

Lemma silent_reachable : reachable silent_state.
Proof.
  replace silent_state with (run_acts eff silent_trace (start false 0)) by (vm_compute; reflexivity).
  unfold silent_trace. reach_by.
Qed.

Lemma silent_shape :
  sv silent_state = RRead /\ sl silent_state = SDone /\ wl silent_state = WSock true /\
  stalled silent_state = true /\ gone silent_state = false /\ sclosed silent_state = false.
Proof. cbn; repeat split. Qed.

Lemma silent_only_peer : forall a, guard a silent_state ->
  (exists b, a = EPeerSend b) \/ a = EPeerClose \/ (exists b, a = EReqTimer b).
Proof.
  intros a G. unfold silent_state in G.
  act_cases a; cbn in G; break; try discriminate; try lia; eauto.
Qed.

Theorem silent_peer_never_returns :
  exists r : run guard eff,
    fair_run cap r /\ reachable (st r 0) /\ sl_exited (st r 0) /\
    forall i, sv (st r i) = RRead /\ wl (st r i) = WSock true /\ sv (st r i) <> VEnd.
Proof.
  exists (const_run guard eff silent_state).
  assert (forall G : act -> Prop, (forall a, G a -> is_env a = false \/ a = EDrainTimeout) ->
            fair G (const_run guard eff silent_state)) as K.
  { intros G HG i. exists i; split; auto. right. intros a Ga Gd.
    destruct (silent_only_peer a Gd) as [(b & ->)|[->|(b & ->)]];
      destruct (HG _ Ga); discriminate. }
  split; [|split; [|split]].
  - repeat split; apply K; intros a Ga; act_cases a; cbn in Ga; try contradiction; auto.
  - apply silent_reachable.
  - right; right; right; reflexivity.
  - intros i; cbn; repeat split; discriminate.
Qed.

(* ---- example for S1: the peer floods and vanishes; a handler is still in user code, a frame
   is queued for the socket, the read loop is inside sc.write, the stream loop inside an
   iteration ---- *)
Definition s1_trace : list act :=
  [EPeerSend 2; RGetFwd; RFwdSend; STakeRd true true; SBodyWrite; SWr ViaQueue; EPeerSend 0;
   RGetPing; EPeerClose].
Definition s1_state : state := Eval vm_compute in run_acts eff s1_trace (start true 0).
Lemma s1_example :
  reachable s1_state /\ dead s1_state = true /\ sv s1_state = RWrite false /\ sl s1_state = SBody /\
  wr s1_state = 1 /\ h_run s1_state = 1 /\ ~ quiet s1_state.
Proof.
  split.
  { replace s1_state with (run_acts eff s1_trace (start true 0)) by (vm_compute; reflexivity).
    unfold s1_trace. reach_by. }
  unfold s1_state; cbn; repeat split; auto. intros ((H & _) & _); discriminate.
Qed.

(* ---- example for S2: the idle timer has made the stream loop break; the peer has stopped
   reading and sends a malformed frame; the read loop is inside writeGoAway -> sc.write ---- *)
Definition s2_trace : list act :=
  [EIdleFire; IWr ViaQueue; ICloseCloser; SCloser; EPeerStall; EPeerSend 0; RGetBad].
Definition s2_state : state := Eval vm_compute in run_acts eff s2_trace (start true 0).
Lemma s2_example :
  reachable s2_state /\ sl_exited s2_state /\ sv_leaving cap s2_state /\
  sv s2_state = RWrite true /\ wr s2_state = 1 /\ stalled s2_state = true.
Proof.
  split.
  { replace s2_state with (run_acts eff s2_trace (start true 0)) by (vm_compute; reflexivity).
    unfold s2_trace. reach_by. }
  unfold s2_state, sv_leaving, sl_exited; cbn; repeat split; auto.
Qed.
End P.

(* ---- example for S2 (cap = 1): the idle timer has made the stream loop break; the peer keeps
   sending and has stopped reading; reader is full and the read loop is parked in forward ---- *)
Definition s2b_trace : list act :=
  [EPeerSend 0; RGetFwd; RFwdSend; EPeerSend 0; RGetFwd; EIdleFire; IWr ViaQueue; ICloseCloser;
   SCloser; EPeerStall].
Definition s2b_state : state := Eval vm_compute in run_acts eff s2b_trace (start true 0).
Lemma s2b_example :
  Srv.reachable 1 s2b_state /\ sl_exited s2b_state /\ sv_leaving 1 s2b_state /\
  sv s2b_state = RFwd /\ rd s2b_state = 1 /\ stalled s2b_state = true.
Proof.
  split.
  { replace s2b_state with (run_acts eff s2b_trace (start true 0)) by (vm_compute; reflexivity).
    unfold s2b_trace. apply reach_acts; [apply start_reach | unfold start; solve [guards_tac]]. }
  unfold s2b_state, sv_leaving, sl_exited; cbn; repeat split; auto.
Qed.
End SrvEx.
