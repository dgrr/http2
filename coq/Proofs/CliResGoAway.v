(* Proofs/CliResGoAway.v - C11: what the client does with GOAWAY, and which errors it calls retryable. *)
From H2V Require Import Base.Bytes Base.MachineInt Gen.GenConsts Impl.ServerConn Impl.ClientConn Proofs.CliBase
     Proofs.CliResInv Proofs.CliResStep Proofs.CliResMoves Proofs.CliResThms.
From Coq Require Import ZArith Lia ZifyN ZifyNat ZifyBool List Bool.
Import ListNotations.
Local Open Scope N_scope.

(* the instance that lets the connection put ErrGoAway and nothing else: for cl_goaway on its own *)
Definition cp_ga : cparams.
Proof.
  refine {| Eok := fun _ e => e = CEGoAway; Vok := fun _ _ => True; Wok := fun _ _ _ => True |}; auto.
Defined.

Section GoAway.
Context {hstate : Type}.
Variable dec_field : hstate -> N -> bytes -> dec_res hstate.
Variable enc_field : hstate -> bytes -> bytes -> bool -> bytes * hstate.
Variable enc_set_max : hstate -> N -> hstate.
Variable cfg : cl_config.
Variable h0 : hstate.
Variable first : bytes.
Implicit Types c : cconn hstate.

Notation step := (cl_step dec_field enc_field enc_set_max cfg).
Notation run := (cl_run dec_field enc_field enc_set_max cfg h0 first).
Notation reach := (cl_reachable dec_field enc_field enc_set_max cfg h0 first).

(* (a) after GOAWAY no further stream is opened *)
Theorem goaway_no_headers c e l : reach c -> cc_goAway c = true -> cc_out (step c e) = l ++ cc_out c ->
  Forall (fun o => is_headers o = false) l.
Proof.
  intros R GA Hl. destruct (ss_out _ _ _ _ (sum_any dec_field enc_field enc_set_max cfg c e (inv_reachable _ _ _ _ _ _ c R))) as (l' & Hl' & Fl & _).
  rewrite Hl' in Hl. apply app_inv_tail in Hl. subst l'. eapply Forall_impl; [|exact Fl].
  intros o [B|B]; [destruct o; try discriminate; reflexivity|]. destruct o; try reflexivity.
  destruct B as (_ & _ & GA' & _). congruence.
Qed.

Lemma goaway_stays c e : reach c -> cc_goAway c = true -> cc_goAway (step c e) = true.
Proof. intros R. apply (ss_goAway _ _ _ _ (sum_any dec_field enc_field enc_set_max cfg c e (inv_reachable _ _ _ _ _ _ c R))). Qed.

Theorem goaway_no_headers_ever evs1 evs2 : cc_goAway (run evs1) = true ->
  cc_goAway (run (evs1 ++ evs2)) = true /\
  filter is_headers (cc_out (run (evs1 ++ evs2))) = filter is_headers (cc_out (run evs1)).
Proof.
  intro GA. induction evs2 as [|e evs2 IH] using rev_ind; [rewrite app_nil_r; auto|].
  rewrite app_assoc, cl_run_snoc. destruct IH as [GA2 IH]. set (c := run (evs1 ++ evs2)) in *.
  assert (R : reach c) by apply cl_run_reachable.
  split; [apply goaway_stays; assumption|].
  destruct (ss_out _ _ _ _ (sum_any dec_field enc_field enc_set_max cfg c e (inv_reachable _ _ _ _ _ _ c R))) as (l & Hl & _).
  rewrite Hl, filter_app, <- IH. rewrite (filter_none is_headers l); [reflexivity|].
  pose proof (goaway_no_headers c e l R GA2 Hl) as F. rewrite Forall_forall in F. exact F.
Qed.

(* (b) the step that takes a GOAWAY in *)
Lemma rl_frame_goaway_tables c fr : st_ok c -> sf_kind fr = KGoAway -> sf_sid fr = 0 ->
  cc_reqQueued (cl_rl_frame dec_field c fr) = cc_reqQueued c /\ cc_goAway (cl_rl_frame dec_field c fr) = cc_goAway c /\
  cc_closeRef (cl_rl_frame dec_field c fr) = cc_closeRef c.
Proof.
  intros St K Z. unfold cl_rl_frame. rewrite K. cbn [fkind_eqb].
  assert (EX : forall why, cc_reqQueued (cl_rl_exit (cl_set_last_err c CEConn) why) = cc_reqQueued c /\
                           cc_goAway (cl_rl_exit (cl_set_last_err c CEConn) why) = cc_goAway c /\
                           cc_closeRef (cl_rl_exit (cl_set_last_err c CEConn) why) = cc_closeRef c).
  { intro why. unfold cl_rl_exit. cbn [cl_note cc_reqQueued cc_goAway cc_closeRef ccu_out ccu_rl_done].
    rewrite cc_reqQueued_cl_conn_close, cc_goAway_cl_conn_close, cc_closeRef_cl_conn_close,
            cc_reqQueued_cl_set_last_err, cc_goAway_cl_set_last_err, cc_closeRef_cl_set_last_err. auto. }
  destruct (negb (cc_hdrStream c =? 0) && _); [apply EX|]. rewrite andb_false_r.
  rewrite cl_dispatch_eq. unfold disp_pre. rewrite Z.
  assert (F0 : cl_req_find (cc_reqQueued c) 0 = None).
  { apply cl_req_find_None. intro J. apply in_map_iff in J. destruct J as ([i u] & Hi & J). cbn in Hi. subst i.
    destruct (s_rq _ St _ _ J) as (_ & _ & _ & _ & NZ & _). congruence. }
  rewrite F0. unfold cl_read_stream. rewrite K. cbn [disp_ok1 disp_chk disp_err3 disp_tail].
  destruct (cl_gone_away c); [|auto].
  unfold cl_rl_exit. cbn [cl_note cc_reqQueued cc_goAway cc_closeRef ccu_out ccu_rl_done].
  rewrite cc_reqQueued_cl_conn_close, cc_goAway_cl_conn_close, cc_closeRef_cl_conn_close. auto.
Qed.

Theorem goaway_step c fr : reach c -> cl_rl_live c = true -> cc_netClosed c = false ->
  sf_kind fr = KGoAway -> sf_sid fr = 0 ->
  let c' := step c (CEvRL (RFrame fr)) in
  cc_goAway c' = true /\ cc_closeRef c' = sf_dep fr /\
  cc_reqQueued c' = filter (fun e => negb (sf_dep fr <? fst e)) (cc_reqQueued c) /\
  forall id t, In (id, t) (cc_reqQueued c) -> sf_dep fr < id ->
    exists x x', cl_ctx_get c t = Some x /\ cl_ctx_get c' t = Some x' /\ ct_sid x = id /\
                 ct_finished x' = true /\ answered x' = true /\ (answered x = false -> ct_err x' = Some CEGoAway).
Proof.
  intros R RL NC K Z. destruct (inv_reachable _ _ _ _ _ _ c R) as [St A]. cbn [cl_step]. rewrite RL. unfold cl_rl_step. rewrite NC, Z, K. cbn [N.eqb].
  destruct (effo_goaway (CP:=cp_ga) (fun _ => True) (fun _ _ => I) c (sf_dep fr) (fun _ _ => eq_refl) St) as (E1 & F1 & Q1 & G1 & C1 & A1).
  destruct (cl_goaway c (sf_dep fr)) as [c1 stuck]. cbn [fst snd] in *. subst stuck.
  pose proof (st_ok_eff (CP:=cp_ga) _ _ _ St (proj1 E1)) as S1.
  destruct (rl_frame_goaway_tables c1 fr S1 K Z) as (Q2 & G2 & C2).
  rewrite Q2, G2, C2. repeat split; auto.
  intros id t J L. destruct (s_rq _ St _ _ J) as (x & G & Sx & _). destruct (A1 id t J L) as (x1 & Gx1 & An1 & Fi1).
  assert (E2 : effo (CP:=cp_any) any_item c1 (cl_rl_frame dec_field c1 fr)).
  { apply effo_rl_frame; try (intros; exact I); [exact S1|].
    apply (an_ok_effo (CP:=cp_ga) (fun _ => True) c c1 A E1). }
  destruct (e_ctx _ _ _ (proj1 E2) _ _ Gx1) as (x' & Gx' & V2). exists x, x'. repeat split; auto.
  - apply (cev_finished _ _ V2 Fi1).
  - apply (cev_answered _ _ V2 An1).
  - intro NA. destruct (e_ctx _ _ _ (proj1 E1) _ _ G) as (x1' & Gx1' & V1). rewrite Gx1 in Gx1'. inversion Gx1'; subst x1'.
    unfold answered in NA, An1. apply orb_false_iff in NA. destruct NA as [NR NE].
    rewrite (cev_returned _ _ V1), NR in An1. cbn [orb] in An1.
    assert (E1x : ct_err x1 = Some CEGoAway).
    { destruct (cev_err _ _ V1) as [Es|(_ & _ & e & Es & Ee)]; [|cbn in Ee; subst e; exact Es].
      rewrite Es in An1. destruct (ct_err x); discriminate. }
    destruct (cev_err _ _ V2) as [Es|(Es & _)]; congruence.
Qed.


(* (c) a retryable error only for a request the server cannot have processed *)
Definition hdr_sids (out : list coutev) : list N :=
  flat_map (fun o => match o with COHeaders s _ _ => [s] | _ => [] end) out.

Lemma hdr_sids_app l l' : hdr_sids (l ++ l') = hdr_sids l ++ hdr_sids l'.
Proof. apply flat_map_app. Qed.

Lemma hdr_sids_In sid out : In sid (hdr_sids out) <-> exists es blk, In (COHeaders sid es blk) out.
Proof.
  unfold hdr_sids. rewrite in_flat_map. split.
  - intros (o & Ho & Hs). destruct o; cbn in Hs; try contradiction. destruct Hs as [<-|[]]. eauto.
  - intros (es & blk & H). eexists. split; [exact H | left; reflexivity].
Qed.

(* stream ids on the wire are positive and below nextID *)
Theorem hdr_sids_bound evs sid : In sid (hdr_sids (cc_out (run evs))) -> 0 < sid /\ sid < cc_nextID (run evs).
Proof.
  revert sid. apply (cl_run_ind_reach _ dec_field enc_field enc_set_max cfg h0 first
                       (fun c => forall sid, In sid (hdr_sids (cc_out c)) -> 0 < sid /\ sid < cc_nextID c)).
  - intro sid. unfold cl_init. destruct (cl_settings_deserialize false first); intros [].
  - intros c e R IH sid H. pose proof (inv_reachable _ _ _ _ _ _ c R) as Hi.
    pose proof (sum_any dec_field enc_field enc_set_max cfg c e Hi) as S.
    destruct (ss_out _ _ _ _ S) as (l & Hl & Fl & _ & HN). rewrite Hl, hdr_sids_app in H. apply in_app_iff in H.
    destruct H as [H|H].
    + apply hdr_sids_In in H. destruct H as (es & blk & H). rewrite Forall_forall in Fl.
      destruct (Fl _ H) as [B|(_ & _ & _ & -> & _)]; [discriminate|].
      assert (HX : existsb is_headers l = true) by (apply existsb_exists; eexists; split; [exact H | reflexivity]).
      rewrite (HN HX). pose proof (s_next _ (proj1 Hi)) as Z. clear - Z. lia.
    + destruct (IH _ H) as [A B]. split; [exact A|]. destruct (ss_next _ _ _ _ S) as [-> | ->]; [exact B | clear - B; lia].
Qed.

(* the read loop took in a GOAWAY whose last-stream-id is below id *)
Definition ga_above (evs : list cevent) (id : N) : Prop :=
  exists pre fr post, evs = pre ++ CEvRL (RFrame fr) :: post /\ sf_kind fr = KGoAway /\ sf_sid fr = 0 /\ sf_dep fr < id /\
    cl_rl_live (run pre) = true /\ cc_netClosed (run pre) = false.

Lemma ga_above_snoc evs e id : ga_above evs id -> ga_above (evs ++ [e]) id.
Proof. intros (pre & fr & post & -> & H). exists pre, fr, (post ++ [e]). rewrite <- app_assoc. split; [reflexivity | exact H]. Qed.

(* the instance for one step from c: beside the plain errors, ErrGoAway for the streams a GOAWAY taken in by this very
   step disclaims *)
Definition ga_now c (e : cevent) (sid : N) : Prop :=
  exists fr, e = CEvRL (RFrame fr) /\ sf_kind fr = KGoAway /\ sf_sid fr = 0 /\ sf_dep fr < sid /\
             cl_rl_live c = true /\ cc_netClosed c = false.
Definition cp_step c (e : cevent) : cparams.
Proof.
  refine {| Eok := fun sid er => (cl_retryable er = false /\ er <> CENil) \/ er = CENil \/ (er = CEGoAway /\ ga_now c e sid);
            Vok := fun _ _ => True; Wok := fun _ _ _ => True |}; auto.
Defined.
Instance cplain_step c e : cplain (cp_step c e).
Proof. intros sid er A B. left. auto. Qed.

Lemma sum_step c e : inv c -> step_sum (CP:=cp_step c e) dec_field c e (step c e).
Proof.
  intro Hi. apply step_moves; [exact Hi|]. intros i Ei. repeat split; try (intros; exact I).
  - intros fr Hf RL NC c1 _ _. right. left. reflexivity.
  - intros fr Hf K Z RL NC id L. right. right. split; [reflexivity|]. exists fr. subst i. auto 10.
Qed.

Lemma submit_noop c t rq q x : cl_ctx_get c t = Some x -> step c (CEvSubmit t rq q) = c.
Proof. intro G. cbn [cl_step]. unfold cl_submit. rewrite G. reflexivity. Qed.

Definition unsent c (t : N) (x : cctx) : Prop := ct_sid x = 0 /\ (ct_done x = true \/ ~ In t (cc_inQ c)).

Definition retry_inv (evs : list cevent) : Prop :=
  let c := run evs in
  (forall t x e, cl_ctx_get c t = Some x -> ct_err x = Some e -> cl_retryable e = true ->
     unsent c t x \/ (e = CEGoAway /\ ga_above evs (ct_sid x))) /\
  (forall t r e resp, In (COResult t r e resp) (cc_out c) -> cl_retryable e = true ->
     exists x, cl_ctx_get c t = Some x /\ ct_done x = true /\ (ct_sid x = 0 \/ (e = CEGoAway /\ ga_above evs (ct_sid x)))).

Lemma resolve_err_cases x e : ct_err (cl_ctx_resolve x e) = ct_err x \/ (ct_err x = None /\ ct_err (cl_ctx_resolve x e) = Some e).
Proof. rewrite cl_ctx_resolve_eq. destruct (ct_resolved x); cbn; [auto|]. destruct (ct_err x) eqn:E; cbn; [left; exact E | right; auto]. Qed.
Lemma resolve_sid x e : ct_sid (cl_ctx_resolve x e) = ct_sid x.
Proof. rewrite cl_ctx_resolve_eq. destruct (_ && _); reflexivity. Qed.
Lemma resolve_done x e : ct_done (cl_ctx_resolve x e) = ct_done x.
Proof. rewrite cl_ctx_resolve_eq. destruct (_ && _); reflexivity. Qed.

(* a result is what its Err slot held: what holds of every error in an Err slot - a fact about the error and the stream,
   kept as the run goes on - holds of every result *)
Theorem results_from_errs (Q : cerr -> Prop) (O : list cevent -> N -> cerr -> Prop) :
  (forall evs e sid er, O evs sid er -> O (evs ++ [e]) sid er) ->
  (forall evs t x er, cl_ctx_get (run evs) t = Some x -> ct_err x = Some er -> Q er -> O evs (ct_sid x) er) ->
  forall evs t r er resp, In (COResult t r er resp) (cc_out (run evs)) -> Q er ->
    exists x, cl_ctx_get (run evs) t = Some x /\ ct_done x = true /\ O evs (ct_sid x) er.
Proof.
  intros MONO ERR. induction evs as [|e evs IH] using rev_ind; intros t r er resp H Qe.
  { exfalso. unfold cl_run, cl_init in H. cbn [fold_left] in H. destruct (cl_settings_deserialize false first); destruct H. }
  rewrite cl_run_snoc in *. set (c := run evs) in *.
  assert (R : reach c) by apply cl_run_reachable.
  pose proof (sum_any dec_field enc_field enc_set_max cfg c e (inv_reachable _ _ _ _ _ _ c R)) as S.
  destruct (ss_out _ _ _ _ S) as (l & Hl & Fl & _). rewrite Hl in H. apply in_app_iff in H. destruct H as [H|H].
  - (* this step's receive *)
    rewrite Forall_forall in Fl. destruct (Fl _ H) as [B|(Ee & x & G & Rr & Ex & _)]; [discriminate|].
    destruct (ss_res _ _ _ _ S t r er resp) as (x0 & G0 & G0').
    + rewrite Hl. apply in_app_iff. left. exact H.
    + intro J. pose proof (results_exact dec_field enc_field enc_set_max cfg h0 first evs t) as RE. fold c in RE.
      unfold ret_flag in RE. rewrite G, Rr in RE. unfold res_count in RE. apply length_zero_iff_nil in RE.
      assert (In (COResult t r er resp) (filter (is_res_of t) (cc_out c))) by (apply filter_In; split; [exact J | cbn; apply N.eqb_refl]).
      rewrite RE in H0. destruct H0.
    + rewrite G in G0. inversion G0; subst x0. exists (recv_ctx x). split; [exact G0'|]. split; [reflexivity|].
      apply MONO, (ERR evs t x er G Ex Qe).
  - destruct (IH t r er resp H Qe) as (x & G & Dn & Hs). destruct (ss_old _ _ _ _ S _ _ G) as (x' & G' & M).
    assert (K : ct_done x' = true /\ ct_sid x' = ct_sid x).
    { destruct M as [V|Ee Wr [->|(CL & Z & ->)]|Ee Ar Fi ->|Ee Fi Ca V|Ee Rr En ->|Ee WL (q & IQ) Dn' Z GA V|Ee WL (q & IQ) CO Z ->];
        rewrite ?resolve_done, ?resolve_sid, ?(cev_done _ _ V), ?(cev_sid _ _ V); auto. congruence. }
    destruct K as [K1 K2]. exists x'. split; [exact G'|]. split; [exact K1|]. rewrite K2. apply MONO, Hs.
Qed.

Lemma retry_err_run evs t x e : cl_ctx_get (run evs) t = Some x -> ct_err x = Some e -> cl_retryable e = true ->
  unsent (run evs) t x \/ (e = CEGoAway /\ ga_above evs (ct_sid x)).
Proof.
  revert t x e.
  induction evs as [|e evs IH] using rev_ind.
  { intros t x er G. exfalso. unfold cl_ctx_get, cl_run, cl_init in G. cbn [fold_left] in G.
    destruct (cl_settings_deserialize false first); discriminate. }
  rewrite cl_run_snoc. rename IH into IH1. set (c := run evs) in *.
  assert (R : reach c) by apply cl_run_reachable. pose proof (inv_reachable _ _ _ _ _ _ c R) as Hi. destruct Hi as [St A].
  pose proof (sum_step c e (conj St A)) as S. set (c' := step c e) in *.
  (* what stays unsent *)
  assert (KU : forall t x x', cl_ctx_get c t = Some x -> unsent c t x -> ct_sid x' = ct_sid x -> ct_done x' = ct_done x -> unsent c' t x').
  { intros t x x' G [U1 U2] Hs Hd. split; [congruence|]. destruct U2 as [U2|U2]; [left; congruence|]. right. intro J.
    destruct (ss_inQ _ _ _ _ S _ J) as [J'|(rq & q & ->)]; [contradiction|].
    unfold c' in J. rewrite (submit_noop c t rq q x G) in J. contradiction. }
  intros t x' er G' E' Rt. destruct (cl_ctx_get c t) as [x|] eqn:G.
    2:{ destruct (ss_new _ _ _ _ S _ _ G G') as (rq & q & _ & _ & Z & _ & _ & _ & _ & _ & _ & _ & [(En & _)|(_ & _ & NI & _)]); [congruence|].
        left. split; [exact Z | right; exact NI]. }
    destruct (ss_old _ _ _ _ S _ _ G) as (x'' & G'' & M). rewrite G' in G''. inversion G''; subst x''. clear G''.
    assert (KEEP : forall y, ct_err y = ct_err x -> ct_sid y = ct_sid x -> ct_done y = ct_done x -> cev (CP:=cp_step c e) y x' ->
                   unsent c' t x' \/ (er = CEGoAway /\ ga_above (evs ++ [e]) (ct_sid x'))).
    { intros y Ey Sy Dy V. destruct (cev_err _ _ V) as [Es|(En & _ & e0 & Es & Ee)].
      - rewrite Es, Ey in E'. destruct (IH1 t x er G E' Rt) as [U|[-> GA]].
        + left. apply (KU t x x' G U); [rewrite (cev_sid _ _ V); exact Sy | rewrite (cev_done _ _ V); exact Dy].
        + right. split; [reflexivity|]. rewrite (cev_sid _ _ V), Sy. apply ga_above_snoc, GA.
      - rewrite Es in E'. inversion E'; subst e0. cbn in Ee. destruct Ee as [[F _]|[->|[-> (fr & -> & K & Z & L & RL & NC)]]]; [congruence | discriminate|].
        right. split; [reflexivity|]. rewrite (cev_sid _ _ V). exists evs, fr, []. repeat split; auto. }
    destruct M as [V|Ee Wr [->|(CL & Z & ->)]|Ee Ar Fi ->|Ee Fi Ca V|Ee Rr En ->|Ee WL (q & IQ) Dn Z GA V|Ee WL (q & IQ) CO Z ->].
    - apply (KEEP x); auto.
    - apply (KEEP (ctu_writing x false)); auto. apply cev_refl.
    - left. split; [rewrite resolve_sid; exact Z | left; rewrite resolve_done; reflexivity].
    - destruct (resolve_err_cases (ctu_fired x true) CETimeout) as [Es|[_ Es]]; [|rewrite Es in E'; inversion E'; subst er; discriminate].
      cbn in Es. rewrite Es in E'. destruct (IH1 t x er G E' Rt) as [U|[-> GA]].
      + left. apply (KU t x _ G U); [rewrite resolve_sid; reflexivity | rewrite resolve_done; reflexivity].
      + right. split; [reflexivity|]. rewrite resolve_sid. apply ga_above_snoc, GA.
    - apply (KEEP (ctu_cancelled x true)); auto.
    - discriminate.
    - (* taken on by writeRequest: its Err held nothing retryable *)
      exfalso. assert (NRt : forall e0, ct_err x = Some e0 -> cl_retryable e0 = false).
      { intros e0 E0. destruct (cl_retryable e0) eqn:Rt0; [|reflexivity]. exfalso.
        destruct (IH1 t x e0 G E0 Rt0) as [[_ [U|U]]|[_ (pre & fr & post & _ & _ & _ & L & _)]].
        - congruence.
        - apply U. rewrite IQ. left. reflexivity.
        - rewrite Z in L. clear - L. lia. }
      destruct (cev_err _ _ V) as [Es|(En & _ & e0 & Es & Eo)].
      + cbn in Es. rewrite Es in E'. rewrite (NRt _ E') in Rt. discriminate.
      + rewrite Es in E'. inversion E'; subst e0. cbn in Eo. destruct Eo as [[F _]|[->|[_ (fr & Ef & _)]]]; [congruence | discriminate | subst e; discriminate].
    - left. split; [rewrite resolve_sid; exact Z|]. right. unfold c'. subst e.
      apply (wl_in_dequeues (CP:=cp_any) dec_field enc_field enc_set_max cfg c t q (conj St A) WL IQ).
Qed.

Theorem retry_inv_run evs : retry_inv evs.
Proof.
  split; [apply retry_err_run|].
  apply (results_from_errs (fun e => cl_retryable e = true) (fun evs sid e => sid = 0 \/ (e = CEGoAway /\ ga_above evs sid))).
  - intros evs0 e0 sid er [Z|[E GA]]; [left; exact Z | right; split; [exact E | apply ga_above_snoc, GA]].
  - intros evs0 t x er G E Rt. destruct (retry_err_run evs0 t x er G E Rt) as [[U _]|GA]; [left; exact U | right; exact GA].
Qed.

(* C11 (c): a result that RoundTrip takes as retryable is only ever given for a request whose HEADERS this connection
   never wrote, or (ErrGoAway) whose stream the server disclaimed with a GOAWAY below it *)
Theorem retry_sound evs t r e resp :
  In (COResult t r e resp) (cc_out (run evs)) -> cl_retryable e = true ->
  exists x, cl_ctx_get (run evs) t = Some x /\
    (~ In (ct_sid x) (hdr_sids (cc_out (run evs))) \/ (e = CEGoAway /\ ga_above evs (ct_sid x))).
Proof.
  intros H Rt. destruct (proj2 (retry_inv_run evs) t r e resp H Rt) as (x & G & _ & [Z|GA]).
  - exists x. split; [exact G|]. left. intro J. destruct (hdr_sids_bound evs _ J) as [P _]. rewrite Z in P. clear - P. lia.
  - exists x. auto.
Qed.

(* and the flag RoundTrip looks at is exactly retryable(err) *)
Theorem retry_flag evs t r e resp : In (COResult t r e resp) (cc_out (run evs)) -> r = cl_retryable e.
Proof.
  revert t r e resp. apply (cl_run_ind_reach _ dec_field enc_field enc_set_max cfg h0 first
                              (fun c => forall t r e resp, In (COResult t r e resp) (cc_out c) -> r = cl_retryable e)).
  - intros t r e resp. unfold cl_init. destruct (cl_settings_deserialize false first); intros [].
  - intros c e0 R IH t r e resp H.
    destruct (ss_out _ _ _ _ (sum_any dec_field enc_field enc_set_max cfg c e0 (inv_reachable _ _ _ _ _ _ c R))) as (l & Hl & Fl & _).
    rewrite Hl in H. apply in_app_iff in H. destruct H as [H|H]; [|eapply IH; exact H].
    rewrite Forall_forall in Fl. destruct (Fl _ H) as [B|(_ & x & _ & _ & _ & Hr & _)]; [discriminate | exact Hr].
Qed.

End GoAway.
