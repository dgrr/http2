(* C04, part 1: appendInt (hpack.go) writes the RFC 7541 5.1 integer representation.

   [aint p bits v] is what appendInt leaves in place of the last octet p of dst, as a pure
   function; [append_int_app] says so for every dst, every prefix size and every value (no
   hypothesis: this is also the no-panic and the "dst is only a prefix" argument), and
   [aint_is_spec] identifies it with [spec_enc_int] on the domain of the specification. *)
From Coq Require Import List NArith ZArith Bool Lia.
From Coq Require Import ZifyN ZifyNat ZifyBool.
From H2V Require Import Base.Bytes Base.MachineInt Base.Result Impl.Huffman Impl.Hpack Spec.Rfc7541 Proofs.HpackBytes.
Import ListNotations.
Local Open Scope N_scope.
Ltac Zify.zify_post_hook ::= Z.div_mod_to_equations.

(* bit operations as arithmetic *)
Lemma shiftr_7 x : N.shiftr x 7 = x / 128.
Proof. rewrite N.shiftr_div_pow2. reflexivity. Qed.

(* a multiple of 2^k or-ed with something below 2^k *)
Lemma lor_disjoint_add p b k : p mod 2 ^ k = 0 -> b < 2 ^ k -> N.lor p b = p + b.
Proof.
  intros Hp Hb.
  assert (2 ^ k <> 0) as Hk by (apply N.pow_nonzero; discriminate).
  assert (p = (p / 2 ^ k) * 2 ^ k) as E.
  { rewrite (N.div_mod p (2 ^ k) Hk) at 1. rewrite Hp. lia. }
  rewrite E. apply lor_mul_pow2_add. assumption.
Qed.

Lemma lor_128_low x : x < 128 -> N.lor 128 x = 128 + x.
Proof. intros H. apply (lor_disjoint_add 128 x 7); [reflexivity | exact H]. Qed.

Lemma u8_lt x : u8 x < 256.
Proof. apply HpackBytes.u8_lt. Qed.

(* dst[len(dst)-1] |= v and &= v *)
Lemma or_last_snoc pre x v : or_last (pre ++ [x]) v = Ok (pre ++ [N.lor x v]).
Proof.
  unfold or_last. rewrite rev_app_distr. cbn [rev app].
  rewrite rev_involutive. reflexivity.
Qed.

Lemma and_last_snoc pre x v : and_last (pre ++ [x]) v = Ok (pre ++ [N.land x v]).
Proof.
  unfold and_last. rewrite rev_app_distr. cbn [rev app].
  rewrite rev_involutive. reflexivity.
Qed.

(* the continuation loop as a pure function *)

(* the octets the loop appends *)
Fixpoint cont_bytes (fuel : nat) (index : N) : bytes :=
  if index =? 0 then []
  else match fuel with
       | O => []
       | S f => N.lor 128 (u8 (N.land index 127)) :: cont_bytes f (N.shiftr index 7)
       end.

(* the same with the last octet masked by 127 (index <> 0) *)
Fixpoint cont_masked (fuel : nat) (index : N) : bytes :=
  match fuel with
  | O => []
  | S f =>
      if N.shiftr index 7 =? 0 then [N.land (N.lor 128 (u8 (N.land index 127))) 127]
      else N.lor 128 (u8 (N.land index 127)) :: cont_masked f (N.shiftr index 7)
  end.

Lemma append_int_loop_pure : forall fuel dst index, index < 2 ^ (7 * N.of_nat fuel) ->
  append_int_loop fuel dst index = Ok (dst ++ cont_bytes fuel index).
Proof.
  induction fuel as [|f IH]; intros dst index H.
  - change (2 ^ (7 * N.of_nat 0)) with 1 in H. assert (index = 0) as -> by lia.
    cbn. rewrite app_nil_r. reflexivity.
  - cbn [append_int_loop cont_bytes]. destruct (index =? 0) eqn:E.
    + rewrite app_nil_r. reflexivity.
    + rewrite IH.
      * rewrite <- app_assoc. reflexivity.
      * rewrite shiftr_7.
        replace (7 * N.of_nat (S f)) with (7 + 7 * N.of_nat f) in H by lia.
        rewrite N.pow_add_r in H. change (2 ^ 7) with 128 in H.
        apply N.div_lt_upper_bound; [discriminate | exact H].
Qed.

Lemma cont_split : forall fuel index, index <> 0 -> index < 2 ^ (7 * N.of_nat fuel) ->
  exists pre x, cont_bytes fuel index = pre ++ [x] /\ cont_masked fuel index = pre ++ [N.land x 127].
Proof.
  induction fuel as [|f IH]; intros index Hnz H.
  - change (2 ^ (7 * N.of_nat 0)) with 1 in H. lia.
  - cbn [cont_bytes cont_masked]. apply N.eqb_neq in Hnz. rewrite Hnz.
    destruct (N.shiftr index 7 =? 0) eqn:E.
    + apply N.eqb_eq in E. rewrite E.
      exists [], (N.lor 128 (u8 (N.land index 127))). split; [|reflexivity].
      destruct f; reflexivity.
    + apply N.eqb_neq in E.
      destruct (IH (N.shiftr index 7) E) as [pre [x [E1 E2]]].
      * rewrite shiftr_7.
        replace (7 * N.of_nat (S f)) with (7 + 7 * N.of_nat f) in H by lia.
        rewrite N.pow_add_r in H. change (2 ^ 7) with 128 in H.
        apply N.div_lt_upper_bound; [discriminate | exact H].
      * exists (N.lor 128 (u8 (N.land index 127)) :: pre), x. rewrite E1, E2. split; reflexivity.
Qed.

(* appendInt as a pure function of the last octet *)
Definition aint (p bits v : N) : bytes :=
  let b0 := subw 64 (shlw 64 1 bits) 1 in
  if v <? b0 then [N.lor p (u8 v)]
  else
    let i := subw 64 v b0 in
    N.lor p (u8 b0) :: (if i =? 0 then [0] else cont_masked 11 i).

Lemma subw64_lt a b : subw 64 a b < 2 ^ 64.
Proof. unfold subw. apply N.mod_lt. discriminate. Qed.

Theorem append_int_app dst p bits v : append_int (dst ++ [p]) bits v = Ok (dst ++ aint p bits v).
Proof.
  unfold append_int, aint.
  replace (match dst ++ [p] with [] => [0] | _ :: _ => dst ++ [p] end) with (dst ++ [p])
    by (destruct dst; reflexivity).
  set (b0 := subw 64 (shlw 64 1 bits) 1).
  destruct (v <? b0).
  - apply or_last_snoc.
  - rewrite or_last_snoc. cbn [bind].
    set (i := subw 64 v b0).
    destruct (i =? 0) eqn:E.
    + rewrite <- app_assoc. reflexivity.
    + apply N.eqb_neq in E.
      assert (i < 2 ^ (7 * N.of_nat 11)) as Hi.
      { apply N.lt_trans with (2 ^ 64); [apply subw64_lt|]. apply N.pow_lt_mono_r; lia. }
      rewrite append_int_loop_pure by exact Hi. cbn [bind].
      destruct (cont_split 11 i E Hi) as [pre [x [E1 E2]]].
      rewrite E1, E2.
      replace ((dst ++ [N.lor p (u8 b0)]) ++ pre ++ [x]) with ((dst ++ N.lor p (u8 b0) :: pre) ++ [x])
        by (rewrite <- !app_assoc; reflexivity).
      rewrite and_last_snoc. rewrite <- !app_assoc. reflexivity.
Qed.

Lemma aint_nonempty p bits v : exists x tl, aint p bits v = x :: tl.
Proof.
  unfold aint. destruct (v <? _); eexists; eexists; reflexivity.
Qed.

(* appendInt with an empty dst: dst = append(dst, 0) *)
Lemma append_int_nil bits v : append_int [] bits v = Ok (aint 0 bits v).
Proof. exact (append_int_app [] 0 bits v). Qed.

(* ... and the specification *)
Lemma cont_masked_enc : forall f1 f2 i, 0 < i -> i < 2 ^ (7 * N.of_nat f1) -> i < 2 ^ N.of_nat f2 ->
  cont_masked f1 i = enc_cont f2 i.
Proof.
  induction f1 as [|f1 IH]; intros f2 i Hpos H1 H2.
  - change (2 ^ (7 * N.of_nat 0)) with 1 in H1. lia.
  - destruct f2 as [|f2]; [change (2 ^ N.of_nat 0) with 1 in H2; lia|].
    cbn [cont_masked enc_cont]. rewrite shiftr_7, !land_127.
    assert (i mod 128 < 128) as Hm by (apply N.mod_lt; discriminate).
    rewrite (u8_small (i mod 128)) by lia.
    rewrite lor_128_low by exact Hm.
    destruct (i <? 128) eqn:E.
    + apply N.ltb_lt in E. rewrite N.div_small by exact E. cbn [N.eqb].
      f_equal. rewrite (N.mod_small i 128) by exact E.
      rewrite <- N.add_mod_idemp_l by discriminate. change (128 mod 128) with 0.
      rewrite N.add_0_l. apply N.mod_small. exact E.
    + apply N.ltb_ge in E.
      assert (0 < i / 128) as Hq by (apply N.div_str_pos; lia).
      replace (i / 128 =? 0) with false by (symmetry; apply N.eqb_neq; lia).
      rewrite (N.add_comm 128). f_equal.
      apply IH.
      * exact Hq.
      * replace (7 * N.of_nat (S f1)) with (7 + 7 * N.of_nat f1) in H1 by lia.
        rewrite N.pow_add_r in H1. change (2 ^ 7) with 128 in H1.
        apply N.div_lt_upper_bound; [discriminate | exact H1].
      * rewrite Nat2N.inj_succ, N.pow_succ_r' in H2.
        apply N.div_lt_upper_bound; [discriminate|]. lia.
Qed.

Lemma b0_value bits : bits < 64 -> subw 64 (shlw 64 1 bits) 1 = 2 ^ bits - 1.
Proof.
  intros H. unfold subw, shlw, wrap. rewrite N.shiftl_1_l.
  assert (2 ^ bits < 2 ^ 64) as Hlt by (apply N.pow_lt_mono_r; lia).
  assert (0 < 2 ^ bits) as Hpos by (apply N.neq_0_lt_0, N.pow_nonzero; discriminate).
  rewrite (N.mod_small (2 ^ bits)) by exact Hlt.
  change (1 mod 2 ^ 64) with 1.
  replace (2 ^ bits + 2 ^ 64 - 1) with ((2 ^ bits - 1) + 1 * 2 ^ 64) by lia.
  rewrite N.mod_add by discriminate. apply N.mod_small. lia.
Qed.

Theorem aint_is_spec bits pattern v :
  1 <= bits <= 8 -> pattern < 256 -> pattern mod 2 ^ bits = 0 -> v < 2 ^ 64 ->
  aint pattern bits v = spec_enc_int bits pattern v.
Proof.
  intros Hb Hp Hm Hv. unfold aint, spec_enc_int.
  rewrite b0_value by lia.
  assert (2 ^ bits <= 2 ^ 8) as Hle by (apply N.pow_le_mono_r; lia).
  change (2 ^ 8) with 256 in Hle.
  assert (0 < 2 ^ bits) as Hpos by (apply N.neq_0_lt_0, N.pow_nonzero; discriminate).
  destruct (v <? 2 ^ bits - 1) eqn:E.
  - apply N.ltb_lt in E. rewrite u8_small by lia.
    rewrite (lor_disjoint_add pattern v bits) by (assumption || lia). reflexivity.
  - apply N.ltb_ge in E. rewrite u8_small by lia.
    rewrite (lor_disjoint_add pattern (2 ^ bits - 1) bits) by (assumption || lia).
    f_equal.
    assert (subw 64 v (2 ^ bits - 1) = v - (2 ^ bits - 1)) as ->.
    { unfold subw. rewrite (N.mod_small (2 ^ bits - 1)) by (change (2 ^ 64) with 18446744073709551616; lia).
      replace (v + 2 ^ 64 - (2 ^ bits - 1)) with ((v - (2 ^ bits - 1)) + 1 * 2 ^ 64) by lia.
      rewrite N.mod_add by discriminate. apply N.mod_small. lia. }
    set (i := v - (2 ^ bits - 1)).
    destruct (i =? 0) eqn:Ei.
    + apply N.eqb_eq in Ei. rewrite Ei. reflexivity.
    + apply N.eqb_neq in Ei. apply cont_masked_enc.
      * lia.
      * apply N.lt_trans with (2 ^ 64); [lia|]. apply N.pow_lt_mono_r; lia.
      * rewrite Nat2N.inj_succ, N.pow_succ_r'. pose proof (size_nat_gt i). lia.
Qed.

(* C04_append_int_is_spec *)
Theorem append_int_is_spec : forall bits pattern v,
  1 <= bits <= 8 -> pattern < 256 -> pattern mod 2 ^ bits = 0 -> v < 2 ^ 64 ->
  append_int [pattern] bits v = Ok (spec_enc_int bits pattern v).
Proof.
  intros bits pattern v Hb Hp Hm Hv.
  rewrite <- (aint_is_spec bits pattern v Hb Hp Hm Hv).
  exact (append_int_app [] pattern bits v).
Qed.
