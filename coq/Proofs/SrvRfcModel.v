(* Proofs/SrvRfcModel.v - C08: model-side lemmas: the stream table (more in Proofs/SrvInvDecomp.v)
   and the closed ring as finite maps, the outputs that matter to the specification, and the
   helpers that queue a frame as explicit terms while writes reach the peer (wr). *)
From H2V Require Import Base.Bytes Base.MachineInt Base.Result Gen.GenConsts Impl.ServerConn Proofs.SrvBase Proofs.SrvInvDecomp
  Proofs.SrvRfcDefs.
From Coq Require Import ZArith Lia ZifyN ZifyNat ZifyBool.
Local Open Scope N_scope.

Lemma search_id l id s : strms_search l id = Some s -> st_id s = id.
Proof.
  induction l as [|h t IH]; cbn [strms_search]; [discriminate|].
  destruct (st_id h =? id) eqn:E; [intro H; inversion H; subst; lia | exact IH].
Qed.

Lemma search_in l id : In id (map st_id l) -> exists s, strms_search l id = Some s.
Proof.
  induction l as [|h t IH]; cbn [strms_search map In]; [tauto|]. intros [H|H].
  - subst id. rewrite N.eqb_refl. eauto.
  - destruct (st_id h =? id); eauto.
Qed.

Lemma search_In l id s : strms_search l id = Some s -> In s l.
Proof.
  induction l as [|h t IH]; cbn [strms_search]; [discriminate|].
  destruct (st_id h =? id); [intro H; inversion H; left; reflexivity | right; auto].
Qed.

Lemma search_put_none l x : strms_search l (st_id x) = None -> strms_put l x = l.
Proof. apply put_none. Qed.


Lemma search_app l x id :
  strms_search (l ++ [x]) id = match strms_search l id with Some y => Some y | None => if st_id x =? id then Some x else None end.
Proof.
  induction l as [|h t IH]; cbn [app strms_search]; [reflexivity|].
  destruct (st_id h =? id); [reflexivity | exact IH].
Qed.

Lemma put_In l x st : NoDup (map st_id l) -> In st (strms_put l x) -> st = x \/ (In st l /\ st_id st <> st_id x).
Proof.
  induction l as [|h t IH]; cbn [strms_put map In]; [tauto|]. intros ND H. inversion ND as [|? ? NI ND']; subst.
  destruct (st_id h =? st_id x) eqn:E.
  - destruct H as [H|H]; [left; auto|]. right. split; [right; exact H|].
    intro X. apply NI. apply N.eqb_eq in E. rewrite E, <- X. apply in_map, H.
  - destruct H as [H|H]; [subst st; right; split; [left; reflexivity | lia]|].
    destruct (IH ND' H) as [X|[X Y]]; [left; exact X | right; split; [right; exact X | exact Y]].
Qed.

Lemma del_In l id st : NoDup (map st_id l) -> In st (strms_del l id) -> In st l /\ st_id st <> id.
Proof.
  induction l as [|h t IH]; cbn [strms_del map In]; [tauto|]. intros ND H. inversion ND as [|? ? NI ND']; subst.
  destruct (st_id h =? id) eqn:E.
  - split; [right; exact H|]. intro X. apply NI. apply N.eqb_eq in E. rewrite E, <- X. apply in_map, H.
  - destruct H as [H|H]; [subst st; split; [left; reflexivity | lia]|].
    destruct (IH ND' H) as [X Y]. split; [right; exact X | exact Y].
Qed.

Lemma put_nodup l x : NoDup (map st_id l) -> NoDup (map st_id (strms_put l x)).
Proof. rewrite strms_put_ids. auto. Qed.

Lemma del_snoc l x : strms_search l (st_id x) = None -> strms_del (l ++ [x]) (st_id x) = l.
Proof.
  induction l as [|h t IH]; cbn [app strms_search strms_del]; [rewrite N.eqb_refl; reflexivity|].
  destruct (st_id h =? st_id x); [discriminate|]. intro H. rewrite (IH H). reflexivity.
Qed.

Lemma app_nodup l x : NoDup (map st_id l) -> ~ In (st_id x) (map st_id l) -> NoDup (map st_id (l ++ [x])).
Proof. intros ND NI. rewrite map_app. apply NoDup_app_one; assumption. Qed.

Definition rfind (l : list (N * bool)) (id : N) : option bool :=
  match find (fun e => N.eqb id (fst e)) l with Some e => Some (snd e) | None => None end.

Lemma rfind_cons h t id : rfind (h :: t) id = if id =? fst h then Some (snd h) else rfind t id.
Proof. unfold rfind. cbn [find]. destruct (id =? fst h); reflexivity. Qed.

Lemma rfind_notin l id : ~ In id (map fst l) -> rfind l id = None.
Proof.
  induction l as [|h t IH]; [reflexivity|]. cbn [map In]. intro H. rewrite rfind_cons.
  destruct (id =? fst h) eqn:E; [exfalso; apply H; left; lia | apply IH; tauto].
Qed.

Lemma rfind_in l id : In id (map fst l) -> exists b, rfind l id = Some b.
Proof.
  induction l as [|h t IH]; cbn [map In]; [tauto|]. intros [H|H]; rewrite rfind_cons.
  - subst id. rewrite N.eqb_refl. eauto.
  - destruct (id =? fst h); eauto.
Qed.

Lemma rfind_app l x id : rfind (l ++ [x]) id = match rfind l id with Some b => Some b | None => if id =? fst x then Some (snd x) else None end.
Proof.
  induction l as [|h t IH]; cbn [app]; rewrite ?rfind_cons; [reflexivity|].
  destruct (id =? fst h); [reflexivity | exact IH].
Qed.

Lemma set_nth_fst l k x : (k < length l)%nat -> forall y, In y (map fst (set_nth_N l k x)) -> y = fst x \/ In y (map fst l).
Proof.
  revert k. induction l as [|h t IH]; intros [|k] Hk y; cbn [set_nth_N map In length] in *; try lia.
  - intros [H|H]; [left; symmetry; exact H | right; right; exact H].
  - intros [H|H]; [right; left; exact H|]. destruct (IH k ltac:(lia) y H); tauto.
Qed.

Lemma set_nth_nodup l k x : NoDup (map fst l) -> ~ In (fst x) (map fst l) -> NoDup (map fst (set_nth_N l k x)).
Proof.
  revert k. induction l as [|h t IH]; intros [|k] ND NI; cbn [set_nth_N map In] in *; try assumption.
  - inversion ND; subst. constructor; [tauto | assumption].
  - inversion ND as [|? ? NI' ND']; subst. constructor.
    + intro H. destruct (Nat.lt_ge_cases k (length t)) as [Hk|Hk].
      * destruct (set_nth_fst t k x Hk _ H) as [E|E]; [apply NI; left; exact E | tauto].
      * assert (set_nth_N t k x = t) as Eq.
        { clear -Hk. revert k Hk. induction t as [|a t IH]; intros [|k] Hk; cbn [set_nth_N length] in *; try reflexivity; try lia.
          f_equal. apply IH. lia. }
        rewrite Eq in H. tauto.
    + apply IH; [assumption | tauto].
Qed.

Lemma rfind_set_nth_same l k x : (k < length l)%nat -> ~ In (fst x) (map fst l) -> rfind (set_nth_N l k x) (fst x) = Some (snd x).
Proof.
  revert k. induction l as [|h t IH]; intros [|k] Hk NI; cbn [set_nth_N length map In] in *; try lia; rewrite rfind_cons.
  - rewrite N.eqb_refl. reflexivity.
  - destruct (fst x =? fst h) eqn:E; [exfalso; apply NI; left; lia|]. apply IH; [lia | tauto].
Qed.

Lemma rfind_set_nth_other l k x id : NoDup (map fst l) -> id <> fst x ->
  rfind (set_nth_N l k x) id = rfind l id \/ rfind (set_nth_N l k x) id = None.
Proof.
  revert k. induction l as [|h t IH]; intros [|k] ND Hne; cbn [set_nth_N map] in *; auto; rewrite !rfind_cons.
  - replace (id =? fst x) with false by lia. inversion ND as [|? ? NI ND']; subst.
    destruct (id =? fst h) eqn:E; [|left; reflexivity].
    right. apply rfind_notin. apply N.eqb_eq in E. rewrite E. exact NI.
  - inversion ND as [|? ? NI ND']; subst. destruct (id =? fst h); [left; reflexivity | apply IH; assumption].
Qed.

Definition noisy (o : outev) : bool :=
  match strip_late o with
  | OGoAway _ _ | OExit _ _ | OPanic _ _ | ORst _ _ => true
  | OHeaders _ true _ | OData _ true _ => true
  | _ => false
  end.

Lemma first_some_filter {A} (f : outev -> option A) l :
  (forall o, noisy o = false -> f o = None) -> first_some f l = first_some f (filter noisy l).
Proof.
  intro H. induction l as [|o t IH]; cbn [first_some filter]; [reflexivity|].
  destruct (noisy o) eqn:E; cbn [first_some]; [rewrite IH; reflexivity|]. rewrite (H o E). exact IH.
Qed.

Lemma classify_filter sid l : classify sid l = classify sid (filter noisy l).
Proof.
  unfold classify.
  rewrite (first_some_filter is_goaway l), (first_some_filter (is_rst sid) l).
  - assert (E : existsb is_exit l = existsb is_exit (filter noisy l)).
    { induction l as [|o t IH]; cbn [existsb filter]; [reflexivity|].
      destruct (noisy o) eqn:N; cbn [existsb]; [rewrite IH; reflexivity|].
      rewrite IH. unfold noisy, is_exit in *. destruct (strip_late o); try discriminate; reflexivity. }
    rewrite E. reflexivity.
  - intros o N. unfold noisy, is_rst in *. destruct (strip_late o); try discriminate; reflexivity.
  - intros o N. unfold noisy, is_goaway in *. destruct (strip_late o); try discriminate; reflexivity.
Qed.

Lemma sents_filter l : flat_map sent_of l = flat_map sent_of (filter noisy l).
Proof.
  induction l as [|o t IH]; cbn [flat_map filter]; [reflexivity|].
  destruct (noisy o) eqn:N; cbn [flat_map]; [rewrite IH; reflexivity|].
  rewrite IH. unfold noisy, sent_of in *. destruct (strip_late o) as [? es ?|? es ?| | | | | | | | | |]; try discriminate; try reflexivity;
    destruct es; try discriminate; reflexivity.
Qed.

Lemma fkind_eqb_neq a b : fkind_eqb a b = false <-> a <> b.
Proof. destruct a, b; cbn; split; intro H; try reflexivity; try discriminate; try congruence. Qed.

Lemma sstate_eqb_eq a b : sstate_eqb a b = true <-> a = b.
Proof. destruct a, b; cbn; split; intro H; try reflexivity; try discriminate. Qed.
Lemma sstate_eqb_neq a b : sstate_eqb a b = false <-> a <> b.
Proof. destruct a, b; cbn; split; intro H; try reflexivity; try discriminate; try congruence. Qed.

Section Model.
Variable hstate : Type.
Notation sconn := (sconn hstate).
Implicit Types c : sconn.

Lemma tbl_ext c c' id : sc_strms c' = sc_strms c -> tbl hstate c' id = tbl hstate c id.
Proof. unfold tbl. intros ->. reflexivity. Qed.

Lemma tbl_In c : NoDup (map st_id (sc_strms c)) -> forall st, In st (sc_strms c) -> tbl hstate c (st_id st) = Some st.
Proof. intros ND st. apply NoDup_search, ND. Qed.

Lemma tbl_None_In c id : tbl hstate c id = None -> forall st, In st (sc_strms c) -> st_id st <> id.
Proof. intros T st H <-. destruct (search_in _ _ (in_map st_id _ _ H)) as [x X]. unfold tbl in T. congruence. Qed.

Lemma tbl_put_same c c' x old : sc_strms c' = strms_put (sc_strms c) x -> tbl hstate c (st_id x) = Some old ->
  tbl hstate c' (st_id x) = Some x.
Proof. unfold tbl. intros ->. apply search_put_same. Qed.

Lemma tbl_put_other c c' x : sc_strms c' = strms_put (sc_strms c) x -> forall id, id <> st_id x -> tbl hstate c' id = tbl hstate c id.
Proof. unfold tbl. intros -> id. apply search_put_other. Qed.

Lemma tbl_del_same c c' id : NoDup (map st_id (sc_strms c)) -> sc_strms c' = strms_del (sc_strms c) id -> tbl hstate c' id = None.
Proof. unfold tbl. intros ND ->. apply search_del_same, ND. Qed.

Lemma tbl_del_other c c' id : sc_strms c' = strms_del (sc_strms c) id -> forall i, i <> id -> tbl hstate c' i = tbl hstate c i.
Proof. unfold tbl. intros -> i. apply search_del_other. Qed.

Lemma ring_find_rfind c id : ring_find c id = rfind (sc_ring c) id.
Proof. reflexivity. Qed.

Lemma in_ring_find c id : in_ring c id = match ring_find c id with Some _ => true | None => false end.
Proof.
  unfold in_ring, ring_find. induction (sc_ring c) as [|h t IH]; cbn [existsb find]; [reflexivity|].
  destruct (id =? fst h); [reflexivity | exact IH].
Qed.

Definition ring_ok c : Prop :=
  NoDup (map fst (sc_ring c)) /\ (length (sc_ring c) <= 256)%nat /\ sc_oldest c < 256.

Lemma ring_ok_mark c j w : ring_ok c -> ring_ok (mark_closed c j w).
Proof.
  intros (ND & Len & Old). unfold mark_closed. rewrite in_ring_find, ring_find_rfind.
  destruct (rfind (sc_ring c) j) eqn:F; [repeat split; assumption|].
  assert (NI : ~ In j (map fst (sc_ring c))).
  { intro H. destruct (rfind_in _ _ H) as [b Hb]. congruence. }
  destruct (N.of_nat (length (sc_ring c)) <? closedStrmsCap) eqn:E; unfold ring_ok; sc_cbn.
  - split; [|split].
    + rewrite map_app. cbn [map fst]. apply NoDup_app_one; assumption.
    + rewrite app_length. cbn [length]. unfold closedStrmsCap in E. lia.
    + assumption.
  - split; [|split].
    + apply set_nth_nodup; assumption.
    + assert (L : forall l i x, length (set_nth_N l i x) = length l).
      { induction l as [|h t IH]; intros [|i] x; cbn [set_nth_N length]; auto. }
      rewrite L. assumption.
    + unfold closedStrmsCap. apply N.mod_lt. lia.
Qed.

Lemma ring_find_mark_same c j w : ring_ok c ->
  ring_find (mark_closed c j w) j = Some (match ring_find c j with Some b => b | None => w end).
Proof.
  intros (ND & Len & Old). rewrite !ring_find_rfind. unfold mark_closed. rewrite in_ring_find, ring_find_rfind.
  destruct (rfind (sc_ring c) j) eqn:F; [exact F|].
  assert (NI : ~ In j (map fst (sc_ring c))).
  { intro H. destruct (rfind_in _ _ H) as [b Hb]. congruence. }
  destruct (N.of_nat (length (sc_ring c)) <? closedStrmsCap) eqn:E; sc_cbn.
  - rewrite rfind_app, F. cbn [fst snd]. rewrite N.eqb_refl. reflexivity.
  - apply (rfind_set_nth_same (sc_ring c) (N.to_nat (sc_oldest c)) (j, w)); [|exact NI].
    unfold closedStrmsCap in E. lia.
Qed.

Lemma ring_find_mark_other c j w id : ring_ok c -> id <> j ->
  ring_find (mark_closed c j w) id = ring_find c id \/ ring_find (mark_closed c j w) id = None.
Proof.
  intros (ND & Len & Old) Hne. rewrite !ring_find_rfind. unfold mark_closed. destruct (in_ring c j); [left; reflexivity|].
  destruct (N.of_nat (length (sc_ring c)) <? closedStrmsCap) eqn:E; sc_cbn.
  - left. rewrite rfind_app. cbn [fst snd]. destruct (rfind (sc_ring c) id); [reflexivity|].
    replace (id =? j) with false by lia. reflexivity.
  - apply (rfind_set_nth_other (sc_ring c) (N.to_nat (sc_oldest c)) (j, w)); [exact ND | exact Hne].
Qed.

Lemma in_ring_mark_same c j w : ring_ok c -> in_ring (mark_closed c j w) j = true.
Proof. intro H. rewrite in_ring_find, ring_find_mark_same by assumption. reflexivity. Qed.

Lemma view_eq c c' id :
  sc_strms c' = sc_strms c -> sc_ring c' = sc_ring c -> sc_highestID c' = sc_highestID c -> view hstate c' id = view hstate c id.
Proof. intros A B C. unfold view, tbl, ring_find. rewrite A, B, C. reflexivity. Qed.

(* writes reach the peer: the stream loop runs and the write loop is alive *)
Definition wr c : Prop := sc_sl_done c = false /\ sc_wl_dead c = false.

Lemma emit_wr c o : wr c -> emit c o = note c o.
Proof. intros [A B]. unfold emit. rewrite B, A. reflexivity. Qed.

Lemma write_reset_wr c id code : wr c -> write_reset c id code = note c (ORst id code).
Proof. apply emit_wr. Qed.

Lemma write_goaway_wr c sid code : wr c ->
  write_goaway c sid code = note (upd_closing c true (if sid =? 0 then sc_closeRef c else sc_lastID c)) (OGoAway (sc_lastID c) code).
Proof. intro W. unfold write_goaway. apply emit_wr, W. Qed.

Lemma wr_note c o : wr c -> wr (note c o).
Proof. intros [A B]. split; assumption. Qed.

Lemma wr_emit c o : wr c -> wr (emit c o).
Proof. intros [A B]. rewrite emit_eq. split; assumption. Qed.

Lemma sc_oldest_close_stream c s : sc_oldest (close_stream c s) = sc_oldest (mark_closed c (st_id s) (st_weReset s)).
Proof.
  rewrite close_stream_eq. cbv zeta. unfold close_discard, release_stream, note. 
  repeat match goal with |- context [if ?b then _ else _] => destruct b end; sc_cbn; reflexivity.
Qed.

Lemma sc_discardID_close_stream c s :
  sc_discardID (close_stream c s) =
  if st_weReset s && negb (st_headersFinished s) && negb (sc_discardID c =? st_id s) then st_id s else sc_discardID c.
Proof.
  rewrite close_stream_eq. cbv zeta. unfold close_discard, release_stream, note.
  assert (D : sc_discardID (upd_strms (mark_closed c (st_id s) (st_weReset s)) (strms_del (sc_strms c) (st_id s))) = sc_discardID c).
  { sc_cbn. unfold mark_closed. repeat match goal with |- context [if ?b then _ else _] => destruct b end; reflexivity. }
  rewrite D.
  destruct (st_weReset s && negb (st_headersFinished s) && negb (sc_discardID c =? st_id s))%bool;
    repeat match goal with |- context [if ?b then _ else _] => destruct b end; sc_cbn; try reflexivity; exact D.
Qed.

Lemma new_out_ext c c' d : sc_out c' = d ++ sc_out c -> new_out hstate c c' = rev d.
Proof.
  intro H. unfold new_out. rewrite H, app_length.
  replace (length d + length (sc_out c) - length (sc_out c))%nat with (length d) by lia.
  rewrite firstn_app, Nat.sub_diag, firstn_all. cbn [firstn]. rewrite app_nil_r. reflexivity.
Qed.

End Model.
