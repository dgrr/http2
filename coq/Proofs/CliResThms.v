(* Proofs/CliResThms.v - C12/C11: the theorems over all event lists, generic in the HPACK coder. *)
From H2V Require Import Base.Bytes Base.MachineInt Gen.GenConsts Impl.ServerConn Impl.ClientConn Proofs.CliBase Proofs.CliMsgMoves
     Proofs.CliResInv Proofs.CliResStep Proofs.CliResMoves.
From Coq Require Import ZArith Lia ZifyN ZifyNat ZifyBool List Bool.
Import ListNotations.
Local Open Scope N_scope.

Definition dl_item (o : coutev) : bool := match o with COSelfDeadlock _ _ | COBlocked _ _ => true | _ => false end.
Definition pn_item (o : coutev) : bool := match o with COPanic _ => true | _ => false end.
Definition is_res_of (t : N) (o : coutev) : bool := match o with COResult t' _ _ _ => t' =? t | _ => false end.

Lemma filter_none {A} (f : A -> bool) l : (forall a, In a l -> f a = false) -> filter f l = [].
Proof.
  induction l as [|a l IH]; intro H; [reflexivity|]. cbn [filter]. rewrite (H a (or_introl eq_refl)). apply IH. intros b Hb. apply H. right. exact Hb.
Qed.

Lemma filter_sub_length {A} (f g : A -> bool) l : (forall a, f a = true -> g a = true) ->
  (length (filter f l) <= length (filter g l))%nat.
Proof.
  intro H. induction l as [|a l IH]; [auto|]. cbn [filter]. destruct (f a) eqn:F.
  - rewrite (H a F). cbn [length]. apply le_n_S, IH.
  - destruct (g a); cbn [length]; auto.
Qed.

Section Thms.
Context {hstate : Type}.
Variable dec_field : hstate -> N -> bytes -> dec_res hstate.
Variable enc_field : hstate -> bytes -> bytes -> bool -> bytes * hstate.
Variable enc_set_max : hstate -> N -> hstate.
Variable cfg : cl_config.
Variable h0 : hstate.
Variable first : bytes.
Implicit Types c : cconn hstate.

Notation step := (cl_step dec_field enc_field enc_set_max cfg).
Notation run := (cl_run dec_field enc_field enc_set_max cfg h0 first).
Notation reach := (cl_reachable dec_field enc_field enc_set_max cfg h0 first).
Notation sum := (step_sum (CP:=cp_any) dec_field).
Notation cmv := (cmove (CP:=cp_any)).

Lemma sum_any c e : inv c -> sum c e (step c e).
Proof.
  intro Hi. apply step_moves; [exact Hi|]. intros i _. repeat split; intros; exact I.
Qed.

Lemma cmv_returned c e t x x' : cmv c e t x x' -> ct_returned x = true -> ct_returned x' = true.
Proof.
  intros M R. destruct M as [V|_ _ [->|(_ & _ & ->)]|_ _ _ ->|_ _ _ V|_ R' _ _|_ _ _ _ _ _ V|_ _ _ _ _ ->].
  - rewrite (cev_returned _ _ V). exact R.
  - exact R.
  - rewrite returned_resolve. exact R.
  - rewrite returned_resolve. exact R.
  - rewrite (cev_returned _ _ V). exact R.
  - congruence.
  - rewrite (cev_returned _ _ V). exact R.
  - rewrite returned_resolve. exact R.
Qed.

Lemma cmv_not_recv c e t x x' : cmv c e t x x' -> x' <> recv_ctx x -> ct_returned x' = ct_returned x.
Proof.
  intros M NE. destruct M as [V|_ _ [->|(_ & _ & ->)]|_ _ _ ->|_ _ _ V|_ R' _ E|_ _ _ _ _ _ V|_ _ _ _ _ ->].
  - apply (cev_returned _ _ V).
  - reflexivity.
  - rewrite returned_resolve. reflexivity.
  - rewrite returned_resolve. reflexivity.
  - apply (cev_returned _ _ V).
  - contradiction.
  - apply (cev_returned _ _ V).
  - apply returned_resolve.
Qed.

(* C12 (a): each request gets at most one result *)
Definition res_count c (t : N) : nat := length (filter (is_res_of t) (cc_out c)).
Definition ret_flag c (t : N) : nat :=
  match cl_ctx_get c t with Some x => if ct_returned x then 1%nat else 0%nat | None => 0%nat end.

Lemma cctx_eq_dec (x y : cctx) : {x = y} + {x <> y}.
Proof.
  repeat decide equality; try apply N.eq_dec; try apply Z.eq_dec; try apply bool_dec.
Qed.

Lemma res_count_step c e : inv c -> (forall t, res_count c t = ret_flag c t) -> forall t, res_count (step c e) t = ret_flag (step c e) t.
Proof.
  intros Hi IH t. pose proof (sum_any c e Hi) as S. destruct (ss_out _ _ _ _ S) as (l & Hl & Fl & L1 & _).
  unfold res_count. rewrite Hl, filter_app, app_length. fold (res_count c t). rewrite IH.
  rewrite Forall_forall in Fl.
  (* results for t in what this step added *)
  assert (RI : forall o, In o l -> is_res_of t o = true ->
               exists x, cl_ctx_get c t = Some x /\ ct_returned x = false /\ cl_ctx_get (step c e) t = Some (recv_ctx x)).
  { intros o Ho Hr. destruct o; try discriminate. cbn in Hr. apply N.eqb_eq in Hr. subst tag.
    destruct (Fl _ Ho) as [B|(_ & x & G & R & _)]; [discriminate|].
    destruct (ss_res _ _ _ _ S t retry e0 resp) as (x0 & G0 & G0').
    - rewrite Hl. apply in_app_iff. left. exact Ho.
    - intro J. assert (Z : res_count c t = 0%nat) by (rewrite IH; unfold ret_flag; rewrite G, R; reflexivity).
      unfold res_count in Z. apply length_zero_iff_nil in Z.
      assert (In (COResult t retry e0 resp) (filter (is_res_of t) (cc_out c))) by (apply filter_In; split; [exact J | cbn; apply N.eqb_refl]).
      rewrite Z in H. destruct H.
    - rewrite G in G0. inversion G0; subst x0. exists x. auto. }
  destruct (existsb (is_res_of t) l) eqn:EX.
  - apply existsb_exists in EX. destruct EX as (o & Ho & Hr). destruct (RI o Ho Hr) as (x & G & R & G').
    unfold ret_flag. rewrite G, R, G', recv_returned.
    assert (length (filter (is_res_of t) l) = 1%nat); [|lia].
    assert (1 <= length (filter (is_res_of t) l))%nat.
    { assert (In o (filter (is_res_of t) l)) by (apply filter_In; auto). destruct (filter (is_res_of t) l); [destruct H | cbn; lia]. }
    pose proof (filter_sub_length (is_res_of t) is_result l) as Hs.
    assert (length (filter (is_res_of t) l) <= length (filter is_result l))%nat by (apply Hs; intros a; destruct a; cbn; auto; discriminate).
    clear - H H0 L1. lia.
  - assert (Z : filter (is_res_of t) l = []).
    { apply filter_none. intros a Ha. destruct (is_res_of t a) eqn:F; [|reflexivity].
      assert (existsb (is_res_of t) l = true) by (apply existsb_exists; exists a; auto). congruence. }
    rewrite Z. cbn [length plus]. unfold ret_flag. destruct (cl_ctx_get c t) as [x|] eqn:G.
    + destruct (ss_old _ _ _ _ S _ _ G) as (x' & G' & M). rewrite G'. destruct (ct_returned x) eqn:R.
      * rewrite (cmv_returned _ _ _ _ _ M R). reflexivity.
      * destruct (cctx_eq_dec x' (recv_ctx x)) as [E|NE].
        -- exfalso. subst x'. destruct (ss_recv _ _ _ _ S _ _ G G' R) as (er & _ & J). rewrite Hl in J. apply in_app_iff in J.
           destruct J as [J|J].
           ++ assert (existsb (is_res_of t) l = true) by (apply existsb_exists; eexists; split; [exact J | cbn; apply N.eqb_refl]). congruence.
           ++ assert (Z0 : res_count c t = 0%nat) by (rewrite IH; unfold ret_flag; rewrite G, R; reflexivity).
              unfold res_count in Z0. apply length_zero_iff_nil in Z0.
              assert (In (COResult t (cl_retryable er) er (ct_resp x)) (filter (is_res_of t) (cc_out c))) by (apply filter_In; split; [exact J | cbn; apply N.eqb_refl]).
              rewrite Z0 in H. destruct H.
        -- rewrite (cmv_not_recv _ _ _ _ _ M NE), R. reflexivity.
    + destruct (cl_ctx_get (step c e) t) as [x'|] eqn:G'; [|reflexivity].
      destruct (ss_new _ _ _ _ S _ _ G G') as (rq & q & _ & _ & _ & _ & R & _). rewrite R. reflexivity.
Qed.

Theorem results_exact evs t : res_count (run evs) t = ret_flag (run evs) t.
Proof.
  revert t. apply (cl_run_ind_reach _ dec_field enc_field enc_set_max cfg h0 first (fun c => forall t, res_count c t = ret_flag c t)).
  - intro t. unfold res_count, ret_flag, cl_init. destruct (cl_settings_deserialize false first); reflexivity.
  - intros c e R IH. apply res_count_step; [exact (inv_reachable _ _ _ _ _ _ c R) | exact IH].
Qed.

Theorem results_at_most_once evs t : (res_count (run evs) t <= 1)%nat.
Proof. rewrite results_exact. unfold ret_flag. destruct (cl_ctx_get (run evs) t) as [x|]; [destruct (ct_returned x)|]; auto. Qed.


(* C12 (c): no goroutine parks on a Ctx.lck, the read loop's recover never runs *)
Theorem trace_safe evs o : In o (cc_out (run evs)) -> dl_item o = false /\ (pn_item o = true -> ~ no_panic_dec dec_field).
Proof.
  revert o. apply (cl_run_ind_reach _ dec_field enc_field enc_set_max cfg h0 first
                     (fun c => forall o, In o (cc_out c) -> dl_item o = false /\ (pn_item o = true -> ~ no_panic_dec dec_field))).
  - intros o. unfold cl_init. destruct (cl_settings_deserialize false first); intros [].
  - intros c e R IH o Ho. destruct (ss_out _ _ _ _ (sum_any c e (inv_reachable _ _ _ _ _ _ c R))) as (l & Hl & Fl & _).
    rewrite Hl in Ho. apply in_app_iff in Ho. destruct Ho as [Ho|Ho]; [|apply IH, Ho].
    rewrite Forall_forall in Fl. destruct (Fl _ Ho) as [B|B].
    + destruct o; try discriminate; split; try reflexivity; discriminate.
    + destruct o; try contradiction; split; try reflexivity; try discriminate. intros _. exact B.
Qed.

Theorem never_stuck evs : let c := run evs in
  cc_rl_stuck c = false /\ cc_wl_stuck c = false /\ forall x, In x (cc_ctxs c) -> ct_lckStuck x = false.
Proof.
  cbv zeta. destruct (inv_run dec_field enc_field enc_set_max cfg h0 first evs) as [St _]. destruct (s_nostuck _ St) as (A & B & C).
  repeat split; auto. intros x Hx. apply (A (ct_tag x)). apply cl_ctxs_get_NoDup; [apply St | exact Hx].
Qed.

(* C12 (a): nothing is stranded *)
(* where a request the caller has not got back yet is: queued, on the request table, or answered *)
Theorem request_position evs : let c := run evs in
  NoDup (map ct_tag (cc_ctxs c)) /\ NoDup (cc_inQ c) /\ NoDup (map snd (cc_reqQueued c)) /\ NoDup (map fst (cc_reqQueued c)) /\
  (forall t, In t (cc_inQ c) -> ~ In t (map snd (cc_reqQueued c))) /\
  (forall t, In t (cc_inQ c) \/ In t (map snd (cc_reqQueued c)) -> cl_ctx_get c t <> None) /\
  (forall x, In x (cc_ctxs c) -> ~ In (ct_tag x) (cc_inQ c) -> ~ In (ct_tag x) (map snd (cc_reqQueued c)) -> answered x = true).
Proof.
  cbv zeta. destruct (inv_run dec_field enc_field enc_set_max cfg h0 first evs) as [St A]. set (c := run evs) in *.
  repeat split; try apply St.
  - intros t I J. destruct (s_inQ _ St _ I) as (x & G & Z & _). apply in_map_iff in J. destruct J as ([i u] & Hu & J). cbn in Hu. subst u.
    destruct (s_rq _ St _ _ J) as (y & Gy & Hy & _ & NZ & _). rewrite G in Gy. inversion Gy; subst y. congruence.
  - intros t [I|J].
    + destruct (s_inQ _ St _ I) as (x & G & _). congruence.
    + apply in_map_iff in J. destruct J as ([i u] & Hu & J). cbn in Hu. subst u. destruct (s_rq _ St _ _ J) as (y & Gy & _). congruence.
  - intros x Hx N1 N2. apply (a_dropped _ A (ct_tag x)); [apply cl_ctxs_get_NoDup; [apply St | exact Hx]|]. intros [H|H]; contradiction.
Qed.

(* once the write loop has returned, every request handed to the connection has its answer (delivered, or waiting in Err),
   except those whose caller is still inside Conn.Write: his second select answers (check_answers below) *)
Theorem no_stranding evs : let c := run evs in cc_wl_done c = true ->
  cc_closed c = true /\ cc_reqQueued c = [] /\
  forall x, In x (cc_ctxs c) -> answered x = true \/ (ct_writing x = true /\ In (ct_tag x) (cc_inQ c)).
Proof.
  cbv zeta. destruct (inv_run dec_field enc_field enc_set_max cfg h0 first evs) as [St A]. set (c := run evs) in *. intro W.
  destruct (s_wl_done _ St W) as [CL RQ]. repeat split; auto. intros x Hx.
  assert (G : cl_ctx_get c (ct_tag x) = Some x) by (apply cl_ctxs_get_NoDup; [apply St | exact Hx]).
  destruct (in_dec N.eq_dec (ct_tag x) (cc_inQ c)) as [I|NI].
  - destruct (a_wl _ A W _ _ I G); auto.
  - left. apply (a_dropped _ A _ _ G). intros [H|H]; [contradiction|]. rewrite RQ in H. destruct H.
Qed.

(* the loops go: the read loop's exit closes the connection, and on a closed connection the write loop's `done` case
   is enabled and ends it (that it is eventually taken is a scheduling matter: Teardown LTS) *)
Theorem rl_exit_closes evs : cc_rl_done (run evs) = true -> cc_closed (run evs) = true.
Proof. destruct (inv_run dec_field enc_field enc_set_max cfg h0 first evs) as [St _]. apply St. Qed.

Theorem wl_done_enabled c : cc_closed c = true -> cl_wl_live c = true -> cc_wl_done (step c CEvWLDone) = true.
Proof. intros CL WL. cbn [cl_step]. rewrite WL. unfold cl_wl_done. rewrite CL. reflexivity. Qed.

(* Write's second select: on a closed connection it answers a Ctx that has no stream yet *)
Theorem check_answers c t x : reach c -> cl_ctx_get c t = Some x -> ct_writing x = true -> cc_closed c = true ->
  exists x', cl_ctx_get (step c (CEvSubmitCheck t)) t = Some x' /\ ct_writing x' = false /\
             (ct_sid x = 0 -> answered x' = true) /\ (ct_sid x <> 0 -> x' = ctu_writing x false).
Proof.
  intros R G Wr CL. destruct (inv_reachable _ _ _ _ _ _ c R) as [St A]. cbn [cl_step]. unfold cl_submit_check. rewrite G, Wr, CL. cbn [negb].
  destruct (cl_ctxs_get_In _ _ _ G) as [_ T]. cbn [ct_lckStuck ctu_writing]. rewrite (proj1 (s_nostuck _ St) _ _ G). cbn [ct_sid ctu_writing].
  destruct (ct_sid x =? 0) eqn:Z.
  - eexists. split; [rewrite cl_ctx_get_put, ct_tag_cl_ctx_resolve; cbn [ct_tag ctu_done ctu_writing]; rewrite T, N.eqb_refl, G; reflexivity|].
    split; [rewrite cl_ctx_resolve_eq; destruct (_ && _); reflexivity|]. split; [|intro NZ; apply N.eqb_eq in Z; contradiction].
    intros _. apply answered_resolve'. cbn. apply (s_ret _ St _ _ G).
  - eexists. split; [rewrite cl_ctx_get_put; cbn [ct_tag ctu_writing]; rewrite T, N.eqb_refl, G; reflexivity|].
    split; [reflexivity|]. split; [intro Z0; apply N.eqb_neq in Z; contradiction | reflexivity].
Qed.

(* the functional half of "within its configured timeout": when the timer runs out the request is answered *)
Theorem timeout_answers c t x : reach c -> cl_ctx_get c t = Some x -> ct_armed x = true -> ct_fired x = false ->
  exists x', cl_ctx_get (step c (CEvTimeout t)) t = Some x' /\ answered x' = true /\
             (ct_returned x = false -> ct_err x = None -> ct_err x' = Some CETimeout).
Proof.
  intros R G Ar Fi. destruct (inv_reachable _ _ _ _ _ _ c R) as [St A]. cbn [cl_step]. unfold cl_timeout_fire. rewrite G, Ar, Fi. cbn [negb andb].
  destruct (cl_ctxs_get_In _ _ _ G) as [_ T].
  eexists. split; [rewrite cl_ctx_get_put, ct_tag_cl_ctx_resolve; cbn [ct_tag ctu_fired]; rewrite T, N.eqb_refl, G; reflexivity|].
  split; [apply answered_resolve'; cbn; apply (s_ret _ St _ _ G)|].
  intros Rt Er. rewrite cl_ctx_resolve_eq. cbn. rewrite (proj1 (s_ret _ St _ _ G)), Rt, Er. reflexivity.
Qed.

(* after Close, or after a loop has died, a request handed to Conn.Write is answered by Write itself *)
Theorem write_after_close c t rq q : reach c -> cc_closed c = true -> cl_ctx_get c t = None ->
  exists x, cl_ctx_get (step (step c (CEvSubmit t rq q)) (CEvSubmitCheck t)) t = Some x /\ answered x = true /\ ct_sid x = 0 /\
            ct_returned x = false.
Proof.
  intros R CL GN. pose proof (sum_any c (CEvSubmit t rq q) (inv_reachable _ _ _ _ _ _ c R)) as S1.
  set (c1 := step c (CEvSubmit t rq q)) in *.
  assert (R1 : reach c1) by (constructor; exact R).
  assert (CL1 : cc_closed c1 = true).
  { unfold c1. cbn [cl_step]. unfold cl_submit. rewrite GN. destruct (_ && _); [rewrite cc_closed_cl_resolve | rewrite cc_closed_cl_ctx_upd]; exact CL. }
  assert (G1 : exists x1, cl_ctx_get c1 t = Some x1).
  { unfold c1. cbn [cl_step]. unfold cl_submit. rewrite GN.
    pose proof (ctx_get_addctx c t rq (ccf_armTimers cfg) GN t) as H. rewrite N.eqb_refl in H.
    destruct (_ && _).
    - rewrite cl_ctx_get_resolve, N.eqb_refl, H. eauto.
    - rewrite cl_ctx_get_upd by reflexivity. rewrite N.eqb_refl. unfold cl_ctx_get at 1. cbn [cc_ctxs ccu_inQ].
      unfold cl_ctx_get in H. rewrite H. eauto. }
  destruct G1 as [x1 G1]. destruct (ss_new _ _ _ _ S1 _ _ GN G1) as (rq' & q' & _ & _ & Z1 & _ & Rt1 & _ & _ & _ & _ & _ & [(E1 & W1 & _)|(E1 & _ & _ & W1)]).
  - destruct (check_answers c1 t x1 R1 G1 W1 CL1) as (x' & G' & _ & A' & _). exists x'. split; [exact G'|]. split; [apply A', Z1|].
    pose proof (sum_any c1 (CEvSubmitCheck t) (inv_reachable _ _ _ _ _ _ c1 R1)) as S2. destruct (ss_old _ _ _ _ S2 _ _ G1) as (x'' & G'' & M).
    rewrite G' in G''. inversion G''; subst x''.
    split; [|rewrite (cmv_not_recv _ _ _ _ _ M); [exact Rt1|]; intro Hx; destruct M as [V|_ _ [->|(_ & _ & ->)]|E0 _ _ _|E0 _ _ _|E0 _ _ _|E0 _ _ _ _ _ _|E0 _ _ _ _ _]; try discriminate;
      [pose proof (cev_returned _ _ V) as Q; rewrite Hx, recv_returned, Rt1 in Q; discriminate
      |pose proof (recv_returned x1) as Q; rewrite <- Hx in Q; cbn in Q; congruence
      |pose proof (recv_returned x1) as Q; rewrite <- Hx, returned_resolve in Q; cbn in Q; congruence]].
    destruct M as [V|_ _ [->|(_ & _ & ->)]|E0 _ _ _|E0 _ _ _|E0 _ _ _|E0 _ _ _ _ _ _|E0 _ _ _ _ _]; try discriminate.
    + rewrite (cev_sid _ _ V). exact Z1.
    + exact Z1.
    + rewrite cl_ctx_resolve_eq. destruct (_ && _); exact Z1.
  - exists x1. cbn [cl_step]. unfold cl_submit_check. fold c1. rewrite G1, W1. cbn [negb]. split; [exact G1|].
    split; [unfold answered; rewrite E1; apply orb_true_r | split; [exact Z1 | exact Rt1]].
Qed.

End Thms.

(* C12 (d): a Ctx goes back to the pool only when the connection has let go of it *)
Section Pool.
Context {hstate : Type}.
Variable dec_field : hstate -> N -> bytes -> dec_res hstate.
Variable enc_field : hstate -> bytes -> bytes -> bool -> bytes * hstate.
Variable enc_set_max : hstate -> N -> hstate.
Variable cfg : cl_config.
Variable h0 : hstate.
Variable first : bytes.
Implicit Types c : cconn hstate.
Notation step := (cl_step dec_field enc_field enc_set_max cfg).
Notation run := (cl_run dec_field enc_field enc_set_max cfg h0 first).
Notation reach := (cl_reachable dec_field enc_field enc_set_max cfg h0 first).

(* markFinished comes after the connection has dropped the request: a finished Ctx is neither queued nor on the table *)
Theorem finished_not_held evs t x : cl_ctx_get (run evs) t = Some x -> ct_finished x = true ->
  ~ In t (cc_inQ (run evs)) /\ ~ In t (map snd (cc_reqQueued (run evs))) /\ ~ In t (map pb_tag (cc_pending (run evs))).
Proof.
  intros G F. destruct (inv_run dec_field enc_field enc_set_max cfg h0 first evs) as [_ A].
  destruct (a_fin _ A _ _ G F) as [H HP]. split; [intro J; apply H; left; exact J|]. split; [intro J; apply H; right; exact J|].
  intro J. apply in_map_iff in J. destruct J as (pb & E & J). apply (HP pb J E).
Qed.

(* releaseCtx (the pool item) only in the caller's receive, for a Ctx the connection has marked finished - hence
   (finished_not_held) dropped from `in` and from the request table, before and after the step - and whose cancel timer
   is stopped: not armed, or armed and not yet run out (Stop succeeded). Afterwards the Ctx is taken back (done, resolved:
   every later resolve is a no-op) and its timer disarmed (a CEvTimeout for it is a no-op) *)
Theorem pool_put_safe c e l t : reach c -> cc_out (step c e) = l ++ cc_out c -> In (COPoolPut t) l ->
  e = CEvReceive t /\
  exists x, cl_ctx_get c t = Some x /\ ct_finished x = true /\ (ct_armed x = true -> ct_fired x = false) /\
            ~ In t (cc_inQ c) /\ ~ In t (map snd (cc_reqQueued c)) /\ ~ In t (map pb_tag (cc_pending c)) /\
            cc_inQ (step c e) = cc_inQ c /\ cc_reqQueued (step c e) = cc_reqQueued c /\ cc_pending (step c e) = cc_pending c /\
            cl_ctx_get (step c e) t = Some (recv_ctx x) /\ ct_pooled (recv_ctx x) = true /\
            ct_armed (recv_ctx x) = false /\ ct_done (recv_ctx x) = true /\ ct_resolved (recv_ctx x) = true.
Proof.
  intros R Hl Hin. pose proof (inv_reachable dec_field enc_field enc_set_max cfg h0 first c R) as Hi.
  destruct (ss_out _ _ _ _ (sum_any dec_field enc_field enc_set_max cfg c e Hi)) as (l' & Hl' & Fl & _).
  rewrite Hl' in Hl. apply app_inv_tail in Hl. subst l'. rewrite Forall_forall in Fl.
  destruct (Fl _ Hin) as [B|(-> & x & G & Rt & Er & Fi & Tm)]; [discriminate|]. split; [reflexivity|].
  exists x. destruct (cl_reachable_run _ _ _ _ _ _ _ _ R) as [evs ->].
  destruct (finished_not_held evs t x G Fi) as (N1 & N2 & N3).
  assert (ST : step (run evs) (CEvReceive t) = (if (if ct_armed x then negb (ct_fired x) else true) && ct_finished x
                then cl_note (cl_note (cl_ctx_put (run evs) (recv_ctx x)) (COResult t (cl_retryable match ct_err x with Some e => e | None => CENil end)
                                                                     match ct_err x with Some e => e | None => CENil end (ct_resp x))) (COPoolPut t)
                else cl_note (cl_ctx_put (run evs) (recv_ctx x)) (COResult t (cl_retryable match ct_err x with Some e => e | None => CENil end)
                                                                     match ct_err x with Some e => e | None => CENil end (ct_resp x)))).
  { cbn [cl_step]. unfold cl_receive. rewrite G, Rt. destruct (ct_err x) as [er|] eqn:E; [|congruence].
    destruct (inv_run dec_field enc_field enc_set_max cfg h0 first evs) as [St _].
    cbn [ct_lckStuck ctu_armed ctu_err]. rewrite (proj1 (s_nostuck _ St) _ _ G). reflexivity. }
  destruct (cl_ctxs_get_In _ _ _ G) as [_ T].
  assert (GP : cl_ctx_get (cl_ctx_put (run evs) (recv_ctx x)) t = Some (recv_ctx x)).
  { rewrite cl_ctx_get_put. cbn [ct_tag recv_ctx ctu_pooled ctu_returned ctu_resolved ctu_done ctu_armed ctu_err]. rewrite T, N.eqb_refl, G. reflexivity. }
  assert (PL : ct_pooled (recv_ctx x) = true).
  { cbn. destruct (ct_armed x) eqn:Ar; [rewrite (Tm eq_refl)|]; cbn; exact Fi. }
  repeat split; auto; rewrite ST; destruct (_ && _); try reflexivity; exact GP.
Qed.

End Pool.
