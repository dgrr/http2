(* Proofs/CliFlowCCov.v - C07, "and finishes": who may drop a pending body.
   A step that takes a body off c.pending without END_STREAM having been written for it either takes the request off
   the request table in the same step (finish: the response ended or failed, a reset; GOAWAY; the cancel timer; the
   body's reader failed), or finds the request's Ctx taken back by its caller (done). Function by function. *)
From H2V Require Import Base.Bytes Base.MachineInt Base.Result Gen.GenConsts Impl.ServerConn Impl.ClientConn
     Proofs.CliBase Proofs.CliResInv Proofs.CliResStep Proofs.CliResMoves Proofs.CliResThms
     Proofs.CliDefs Spec.FlowLedger Proofs.CliFlowMoves Proofs.CliFlowOut Proofs.CliFlowSettings Proofs.CliFlowSafe Proofs.CliFlowEs
     Proofs.CliFlowStall Proofs.CliFlowCBody Proofs.CliFlowCInv Proofs.CliFlowCSend Proofs.CliFlowCStep.
From Coq Require Import ZArith Lia ZifyN ZifyNat ZifyBool List Bool.
Import ListNotations.
Local Open Scope N_scope.

Section Cov.
Variable hstate : Type.
Variable dec_field : hstate -> N -> bytes -> dec_res hstate.
Variable enc_field : hstate -> bytes -> bytes -> bool -> bytes * hstate.
Variable enc_set_max : hstate -> N -> hstate.
Variable cfg : cl_config.
Notation cconn := (cconn hstate).
Notation step := (cl_step dec_field enc_field enc_set_max cfg).
Notation pget := (pget hstate).

Definition tbl (c : cconn) : list N := map fst (cc_reqQueued c).

Lemma take_req_notin (c : cconn) id : ~ In id (tbl (cl_take_req_count c id)).
Proof.
  unfold tbl, cl_take_req_count. destruct (cl_req_find (cc_reqQueued c) id) eqn:F.
  - unfold cl_req_del. cbn [cc_reqQueued ccu_reqQueued ccu_open]. intro H. apply in_map_iff in H. destruct H as ([i t] & E & H).
    apply filter_In in H. destruct H as [_ H]. cbn [fst] in *. subst i. rewrite N.eqb_refl in H. discriminate.
  - apply cl_req_find_None. exact F.
Qed.

Lemma take_req_sub (c : cconn) id x : In x (tbl (cl_take_req_count c id)) -> In x (tbl c).
Proof.
  unfold tbl. rewrite cc_reqQueued_cl_take_req_count. intro H. apply in_map_iff in H. destruct H as (e & E & H).
  apply filter_In in H. apply in_map_iff. exists e. split; [exact E | apply H].
Qed.

Lemma finish_notin (c : cconn) tag id e : ~ In id (tbl (cl_finish c tag id e)).
Proof.
  unfold tbl. rewrite cc_reqQueued_cl_finish. intro H. apply in_map_iff in H. destruct H as ([i t] & E & H).
  apply filter_In in H. destruct H as [_ H]. cbn [fst] in *. subst i. rewrite N.eqb_refl in H. discriminate.
Qed.

Lemma pending_finish (c : cconn) tag id e : cc_pending (cl_finish c tag id e) = cl_pend_del (cc_pending c) id.
Proof.
  unfold cl_finish. rewrite cc_pending_cl_ctx_upd.
  destruct (cl_pend_get (cc_pending (cl_take_req_count c id)) id) as [pb|] eqn:G.
  - rewrite cc_pending_cl_close_body. cbn [cc_pending ccu_pending]. rewrite cc_pending_cl_take_req_count. reflexivity.
  - rewrite cc_pending_cl_take_req_count in *. symmetry. apply pend_del_absent. apply cl_pend_get_None. exact G.
Qed.

Lemma pending_read_header_fragment (c : cconn) id frag eh res :
  cc_pending (rs_conn (cl_read_header_fragment dec_field c id frag eh res)) = cc_pending c /\
  cc_reqQueued (rs_conn (cl_read_header_fragment dec_field c id frag eh res)) = cc_reqQueued c.
Proof.
  unfold cl_read_header_fragment, rs_conn.
  destruct (cl_hdr_loop _ _ _ _ _ _ _ _ _ _) as [[[[[[[d' fields] rseen] status] herr] res'] prev] er].
  destruct er; cbn [fst]; repeat match goal with |- context [if ?b then _ else _] => destruct b | |- context [match ?o with Some _ => _ | None => _ end] => destruct o end;
    cbn [fst]; split; reflexivity.
Qed.

Lemma pending_read_stream (c : cconn) fr res :
  cc_pending (rs_conn (cl_read_stream dec_field c fr res)) = cc_pending c /\
  cc_reqQueued (rs_conn (cl_read_stream dec_field c fr res)) = cc_reqQueued c.
Proof.
  unfold cl_read_stream. destruct (sf_kind fr); try (split; reflexivity).
  - unfold rs_conn. cbn [fst]. unfold cl_update_window, cl_write_out.
    repeat match goal with |- context [if ?b then _ else _] => destruct b | |- context [match ?o with Some _ => _ | None => _ end] => destruct o end;
      split; reflexivity.
  - destruct (pending_read_header_fragment
                (ccu_hdrEndStream (ccu_hdrErr (ccu_hdrStatus (ccu_hdrRegularSeen (ccu_hdrFields (ccu_hdrPrev c []) 0) false) 0%Z) None) (flag_has (sf_flags fr) FL_ES))
                (sf_sid fr) (sf_payload fr) (flag_has (sf_flags fr) FL_EH) res) as [A B].
    rewrite A, B. split; reflexivity.
  - apply pending_read_header_fragment.
Qed.

(* dispatch: the only body it may drop is that of the frame's stream, and then the stream is off the table *)
Lemma dispatch_pend (c : cconn) fr :
  (forall x, In x (tbl (fst (cl_dispatch dec_field c fr))) -> In x (tbl c)) /\
  (cc_pending (fst (cl_dispatch dec_field c fr)) = cc_pending c \/
   (cc_pending (fst (cl_dispatch dec_field c fr)) = cl_pend_del (cc_pending c) (sf_sid fr) /\
    ~ In (sf_sid fr) (tbl (fst (cl_dispatch dec_field c fr))))).
Proof.
  rewrite cl_dispatch_eq. unfold disp_pre.
  assert (PRE : forall (c0 : cconn) ok, cc_pending c0 = cc_pending c -> (forall x, In x (tbl c0) -> In x (tbl c)) ->
    (forall x, In x (tbl (fst (let '(c1, res', ended, err) := cl_read_stream dec_field c0 fr (match ok with Some x => Some (ct_resp x) | None => None end) in
       let '(ok2, err2) := disp_chk c1 fr (disp_ok1 ok res') err in
       let c2 := match ok2 with Some x => cl_ctx_put c1 x | None => c1 end in
       disp_tail c2 (sf_sid fr) ok2 ended (disp_err3 fr ok2 err2)))) -> In x (tbl c)) /\
    (cc_pending (fst (let '(c1, res', ended, err) := cl_read_stream dec_field c0 fr (match ok with Some x => Some (ct_resp x) | None => None end) in
       let '(ok2, err2) := disp_chk c1 fr (disp_ok1 ok res') err in
       let c2 := match ok2 with Some x => cl_ctx_put c1 x | None => c1 end in
       disp_tail c2 (sf_sid fr) ok2 ended (disp_err3 fr ok2 err2))) = cc_pending c \/
     (cc_pending (fst (let '(c1, res', ended, err) := cl_read_stream dec_field c0 fr (match ok with Some x => Some (ct_resp x) | None => None end) in
       let '(ok2, err2) := disp_chk c1 fr (disp_ok1 ok res') err in
       let c2 := match ok2 with Some x => cl_ctx_put c1 x | None => c1 end in
       disp_tail c2 (sf_sid fr) ok2 ended (disp_err3 fr ok2 err2))) = cl_pend_del (cc_pending c) (sf_sid fr) /\
      ~ In (sf_sid fr) (tbl (fst (let '(c1, res', ended, err) := cl_read_stream dec_field c0 fr (match ok with Some x => Some (ct_resp x) | None => None end) in
       let '(ok2, err2) := disp_chk c1 fr (disp_ok1 ok res') err in
       let c2 := match ok2 with Some x => cl_ctx_put c1 x | None => c1 end in
       disp_tail c2 (sf_sid fr) ok2 ended (disp_err3 fr ok2 err2))))))).
  { intros c0 ok P0 T0.
    destruct (pending_read_stream c0 fr (match ok with Some x => Some (ct_resp x) | None => None end)) as [P1 T1].
    destruct (cl_read_stream dec_field c0 fr _) as [[[c1 res'] ended] err]. unfold rs_conn in P1, T1. cbn [fst] in P1, T1.
    destruct (disp_chk c1 fr (disp_ok1 ok res') err) as [ok2 err2]. cbv zeta.
    set (c2 := match ok2 with Some x => cl_ctx_put c1 x | None => c1 end).
    assert (P2 : cc_pending c2 = cc_pending c) by (subst c2; destruct ok2; rewrite ?cc_pending_cl_ctx_put; congruence).
    assert (T2 : forall x, In x (tbl c2) -> In x (tbl c)).
    { intros x H. apply T0. unfold tbl in *. subst c2. destruct ok2; rewrite ?cc_reqQueued_cl_ctx_put in H; rewrite <- T1; exact H. }
    assert (FIN : forall (c3 : cconn) tag e, cc_pending c3 = cc_pending c -> (forall x, In x (tbl c3) -> In x (tbl c)) ->
              (forall x, In x (tbl (cl_finish c3 tag (sf_sid fr) e)) -> In x (tbl c)) /\
              (cc_pending (cl_finish c3 tag (sf_sid fr) e) = cc_pending c \/
               (cc_pending (cl_finish c3 tag (sf_sid fr) e) = cl_pend_del (cc_pending c) (sf_sid fr) /\ ~ In (sf_sid fr) (tbl (cl_finish c3 tag (sf_sid fr) e))))).
    { intros c3 tag e P3 T3. split.
      - intros x H. apply T3. unfold tbl in *. rewrite cc_reqQueued_cl_finish in H. apply in_map_iff in H. destruct H as (en & E & H).
        apply filter_In in H. apply in_map_iff. exists en. split; [exact E | apply H].
      - right. split; [rewrite pending_finish, P3; reflexivity | apply finish_notin]. }
    unfold disp_tail. destruct (disp_err3 fr ok2 err2) as [|e|e|]; cbn [fst].
    - destruct ok2 as [x2|]; [destruct ended|]; try (split; [exact T2 | left; exact P2]). apply FIN; assumption.
    - destruct ok2 as [x2|]; [|split; [exact T2 | left; exact P2]]. apply FIN; assumption.
    - destruct ok2 as [x2|].
      + apply FIN; [rewrite cc_pending_cl_set_last_err; exact P2 | intros x H; apply T2; unfold tbl in *; rewrite cc_reqQueued_cl_set_last_err in H; exact H].
      + split; [intros x H; apply T2; unfold tbl in *; rewrite cc_reqQueued_cl_set_last_err in H; exact H | left; rewrite cc_pending_cl_set_last_err; exact P2].
    - split; [exact T2 | left; exact P2]. }
  destruct (cl_req_find (cc_reqQueued c) (sf_sid fr)) as [tag|]; [|exact (PRE c None eq_refl (fun x H => H))].
  destruct (cl_acquire_for [] c tag (sf_sid fr)).
  - exact (PRE c (cl_ctx_get c tag) eq_refl (fun x H => H)).
  - exact (PRE (cl_take_req_count c (sf_sid fr)) None ltac:(apply cc_pending_cl_take_req_count) (take_req_sub c (sf_sid fr))).
  - cbn [fst]. split; [unfold tbl; rewrite cc_reqQueued_cl_go_stuck; auto | left; apply cc_pending_cl_go_stuck].
  - cbn [fst]. split; [unfold tbl; rewrite cc_reqQueued_cl_go_stuck; auto | left; apply cc_pending_cl_go_stuck].
Qed.

Definition pids (c : cconn) : list N := map pb_id (cc_pending c).

(* the table only loses entries, and a body that leaves c.pending leaves the table *)
Definition Cv (c c' : cconn) : Prop :=
  (forall x, In x (tbl c') -> In x (tbl c)) /\ (forall x, In x (pids c') -> In x (pids c)) /\
  (forall id, In id (pids c) -> ~ In id (pids c') -> ~ In id (tbl c')).

Lemma Cv_refl (c : cconn) : Cv c c.
Proof. split; [auto|]. split; [auto|]. intros id H N. contradiction. Qed.

Lemma Cv_trans (a b c : cconn) : Cv a b -> Cv b c -> Cv a c.
Proof.
  intros (A1 & A2 & A3) (B1 & B2 & B3). split; [auto|]. split; [auto|]. intros id H N.
  destruct (in_dec N.eq_dec id (pids b)) as [I|I]; [apply B3; assumption|]. intro X. apply (A3 id H I). apply B1. exact X.
Qed.

Lemma Cv_same (c c' : cconn) : (forall x, In x (tbl c') -> In x (tbl c)) -> pids c' = pids c -> Cv c c'.
Proof. intros T P. split; [exact T|]. split; [rewrite P; auto|]. intros id H N. rewrite P in N. contradiction. Qed.

Lemma Cv_eq (c c' : cconn) : cc_reqQueued c' = cc_reqQueued c -> cc_pending c' = cc_pending c -> Cv c c'.
Proof. intros T P. apply Cv_same; unfold tbl, pids; rewrite ?T, ?P; auto. Qed.

Lemma pend_del_ids_keep l i id : In id (map pb_id l) -> id <> i -> In id (map pb_id (cl_pend_del l i)).
Proof.
  induction l as [|q t IH]; cbn [cl_pend_del map]; [auto|]. intros H NE.
  destruct (pb_id q =? i) eqn:E.
  - apply N.eqb_eq in E. destruct H as [H|H]; [congruence | exact H].
  - cbn [map]. destruct H as [H|H]; [left; exact H | right; apply IH; assumption].
Qed.

(* a body is taken off after its stream has left the table *)
Lemma Cv_del (c c' : cconn) i : (forall x, In x (tbl c') -> In x (tbl c)) -> cc_pending c' = cl_pend_del (cc_pending c) i ->
  ~ In i (tbl c') -> Cv c c'.
Proof.
  intros T P NI. split; [exact T|]. split; [unfold pids; rewrite P; apply pend_del_ids_incl|].
  intros id H N X. destruct (N.eq_dec id i) as [->|NE]; [contradiction|]. apply N. unfold pids. rewrite P. apply pend_del_ids_keep; assumption.
Qed.

Lemma rl_exit_eq (c : cconn) why : cc_reqQueued (cl_rl_exit c why) = cc_reqQueued c /\ cc_pending (cl_rl_exit c why) = cc_pending c.
Proof. unfold cl_rl_exit. cbn [cl_note cc_reqQueued cc_pending ccu_out ccu_rl_done]. rewrite cc_reqQueued_cl_conn_close, cc_pending_cl_conn_close. split; reflexivity. Qed.

Lemma Cv_rl_exit (c : cconn) why : Cv c (cl_rl_exit c why).
Proof. destruct (rl_exit_eq c why). apply Cv_eq; assumption. Qed.

Lemma Cv_rl_fail (c : cconn) : Cv c (cl_rl_fail c).
Proof.
  unfold cl_rl_fail. eapply Cv_trans; [|apply Cv_rl_exit]. apply Cv_eq; [apply cc_reqQueued_cl_set_last_err | apply cc_pending_cl_set_last_err].
Qed.

Lemma Cv_rl_panic (c : cconn) : Cv c (cl_rl_panic c).
Proof.
  unfold cl_rl_panic. eapply Cv_trans; [|apply Cv_rl_exit].
  apply Cv_same.
  - unfold tbl. cbn [cc_reqQueued ccu_reqQueued map]. intros x [].
  - unfold pids. cbn [cc_pending ccu_reqQueued]. rewrite cc_pending_cl_resolve_all, cc_pending_cl_set_last_err. reflexivity.
Qed.

Lemma Cv_dispatch (c : cconn) fr : Cv c (fst (cl_dispatch dec_field c fr)).
Proof.
  destruct (dispatch_pend c fr) as [T [P|[P NI]]]; [apply Cv_same; [exact T | unfold pids; rewrite P; reflexivity]|].
  eapply Cv_del; eassumption.
Qed.

Lemma Cv_add_window (c : cconn) sid inc : Cv c (cl_add_window c sid inc).
Proof.
  apply Cv_same; [unfold tbl; rewrite cc_reqQueued_cl_add_window; auto|]. apply (add_window_ids hstate c sid inc).
Qed.

Lemma Cv_rl_frame (c : cconn) fr : Cv c (cl_rl_frame dec_field c fr).
Proof.
  unfold cl_rl_frame.
  assert (X : Cv c (cl_rl_exit (cl_set_last_err c CEConn) 1)).
  { eapply Cv_trans; [|apply Cv_rl_exit]. apply Cv_eq; [apply cc_reqQueued_cl_set_last_err | apply cc_pending_cl_set_last_err]. }
  destruct (fkind_eqb (sf_kind fr) KPush); [exact X|].
  destruct (_ && _); [exact X|]. destruct (_ && _); [exact X|].
  set (c1 := if fkind_eqb (sf_kind fr) KWinUpd then _ else c).
  assert (C1 : Cv c c1) by (subst c1; destruct (fkind_eqb (sf_kind fr) KWinUpd); [apply Cv_add_window | apply Cv_refl]).
  pose proof (Cv_dispatch c1 fr) as C2. destruct (cl_dispatch dec_field c1 fr) as [c2 r]. cbn [fst] in C2.
  pose proof (Cv_trans _ _ _ C1 C2) as C3.
  destruct r; [exact C3 | eapply Cv_trans; [exact C3 | apply Cv_rl_exit] | exact C3 | eapply Cv_trans; [exact C3 | apply Cv_rl_panic]].
Qed.

(* GOAWAY: the requests above the last stream id leave the table, then their bodies are dropped *)
Lemma goaway_fail_pend l : forall (c : cconn),
  cc_reqQueued (fst (cl_goaway_fail c l)) = cc_reqQueued c /\
  (forall x, In x (pids (fst (cl_goaway_fail c l))) -> In x (pids c)) /\
  (forall id, In id (pids c) -> ~ In id (pids (fst (cl_goaway_fail c l))) -> In id (map fst l)).
Proof.
  induction l as [|[i tag] t IH]; intro c; cbn [cl_goaway_fail].
  - cbn [fst]. split; [reflexivity|]. split; [auto|]. intros id H N. contradiction.
  - pose proof (cc_pending_cl_delete_pending' 0 [] (ccu_open c (cc_open c - 1)%Z) i) as PD.
    pose proof (cc_reqQueued_cl_delete_pending hstate (ccu_open c (cc_open c - 1)%Z) 0 [] i) as RD.
    destruct (cl_delete_pending 0 [] (ccu_open c (cc_open c - 1)%Z) i) as [c2 stuck]. cbn [fst] in PD, RD. cbn [cc_pending cc_reqQueued ccu_open] in PD, RD.
    assert (LOST : forall id, In id (pids c) -> ~ In id (pids c2) -> id = i).
    { intros id H N. destruct (N.eq_dec id i) as [E|NE]; [exact E|]. exfalso. apply N. unfold pids. rewrite PD. apply pend_del_ids_keep; assumption. }
    assert (SUB : forall x, In x (pids c2) -> In x (pids c)) by (unfold pids; rewrite PD; apply pend_del_ids_incl).
    destruct stuck; cbn [fst].
    + split; [exact RD|]. split; [exact SUB|]. intros id H N. left. cbn [fst]. symmetry. apply LOST; assumption.
    + destruct (IH (cl_ctx_upd c2 tag (fun x => cl_ctx_resolve (ctu_finished x true) CEGoAway))) as (A & B & C).
      rewrite cc_reqQueued_cl_ctx_upd in A. unfold pids in B, C. rewrite cc_pending_cl_ctx_upd in B, C. fold (pids c2) in B, C.
      split; [rewrite A; exact RD|]. split; [intros x H; apply SUB, B, H|].
      intros id H N. destruct (in_dec N.eq_dec id (pids c2)) as [I2|I2]; [right; apply C; assumption | left; cbn [fst]; symmetry; apply LOST; assumption].
Qed.

Lemma Cv_goaway (c : cconn) last : Cv c (fst (cl_goaway c last)).
Proof.
  unfold cl_goaway.
  set (c1 := ccu_closeRef (ccu_stateClosed (ccu_goAway c true) true) last).
  set (above := filter (fun e => last <? fst e) (cc_reqQueued c1)).
  set (c2 := ccu_reqQueued c1 (filter (fun e => negb (last <? fst e)) (cc_reqQueued c1))).
  destruct (goaway_fail_pend above c2) as (A & B & C).
  split; [|split].
  - unfold tbl. rewrite A. subst c2 c1. cbn [cc_reqQueued ccu_reqQueued ccu_closeRef ccu_stateClosed ccu_goAway].
    intros x H. apply in_map_iff in H. destruct H as (e & E & H). apply filter_In in H. apply in_map_iff. exists e. split; [exact E | apply H].
  - exact B.
  - intros id H N X. specialize (C id H N). unfold tbl in X. rewrite A in X. subst c2 above c1. cbn [cc_reqQueued ccu_reqQueued ccu_closeRef ccu_stateClosed ccu_goAway] in *.
    apply in_map_iff in C. destruct C as (e1 & E1 & C). apply filter_In in C. destruct C as [_ C].
    apply in_map_iff in X. destruct X as (e2 & E2 & X). apply filter_In in X. destruct X as [_ X].
    rewrite E1 in C. rewrite E2 in X. rewrite C in X. discriminate.
Qed.

Lemma Cv_handle_settings (c : cconn) st : Cv c (cl_handle_settings c st).
Proof.
  apply Cv_same; [unfold tbl; rewrite cc_reqQueued_cl_handle_settings; auto|]. apply (handle_settings_ids hstate c st).
Qed.

Lemma Cv_rl_step (c : cconn) i : Cv c (cl_rl_step dec_field c i).
Proof.
  unfold cl_rl_step. destruct (cc_netClosed c); [apply Cv_rl_fail|].
  destruct i as [fr| | |]; try apply Cv_rl_fail; [|apply Cv_refl].
  destruct (sf_sid fr =? 0); [|apply Cv_rl_frame].
  destruct (sf_kind fr); try apply Cv_refl.
  - destruct (cl_settings_deserialize _ _) as [st|]; [|apply Cv_rl_fail]. destruct (flag_has _ _); [apply Cv_refl | apply Cv_handle_settings].
  - destruct (flag_has _ _); [apply Cv_eq; reflexivity|]. apply Cv_eq; [apply cc_reqQueued_cl_write_out | apply cc_pending_cl_write_out].
  - pose proof (Cv_goaway c (sf_dep fr)) as G. destruct (cl_goaway c (sf_dep fr)) as [c1 st]. cbn [fst] in G.
    destruct st; [exact G|]. eapply Cv_trans; [exact G | apply Cv_rl_frame].
  - apply Cv_add_window.
Qed.

Lemma delete_pending_nostuck who (c : cconn) id : nostuck c -> snd (cl_delete_pending who [] c id) = false.
Proof.
  intro NS. unfold cl_delete_pending. destruct (cl_pend_get (cc_pending c) id) as [pb|]; [|reflexivity].
  destruct (pb_stream pb); [|reflexivity].
  destruct (acquire_for_nostuck (ccu_pending c (cl_pend_del (cc_pending c) id)) (pb_tag pb) id (nostuck_ccu_pending c _ NS)) as [-> | ->]; reflexivity.
Qed.

Lemma nostuck_put (c : cconn) x x' : nostuck c -> cl_ctx_get c (ct_tag x') = Some x -> ct_lckStuck x' = false -> nostuck (cl_ctx_put c x').
Proof.
  intros (A & B & C) G L. split; [|split; assumption]. intros t y H. rewrite cl_ctx_get_put in H.
  destruct (t =? ct_tag x') eqn:E; [|apply (A t y H)]. apply N.eqb_eq in E. subst t. rewrite G in H. inversion H. subst y. exact L.
Qed.

Lemma Cv_timeout_cancel (c : cconn) tag : nostuck c -> Cv c (cl_timeout_cancel c tag).
Proof.
  intro NS. unfold cl_timeout_cancel. destruct (cl_ctx_get c tag) as [x|] eqn:G; [|apply Cv_refl].
  destruct (_ && _); [|apply Cv_refl]. cbv zeta.
  set (c1 := cl_ctx_put c (ctu_cancelled x true)).
  assert (C1 : Cv c c1) by (apply Cv_eq; [apply cc_reqQueued_cl_ctx_put | apply cc_pending_cl_ctx_put]).
  destruct (_ || _); [exact C1|].
  assert (NS1 : nostuck c1).
  { destruct (cl_ctxs_get_In _ _ _ G) as [_ T]. apply (nostuck_put c x); [exact NS | cbn [ct_tag ctu_cancelled]; rewrite T; exact G|].
    cbn [ct_lckStuck ctu_cancelled]. apply (proj1 NS tag x G). }
  pose proof (delete_pending_nostuck 3 c1 (ct_sid x) NS1) as ST.
  pose proof (cc_pending_cl_delete_pending' 3 [] c1 (ct_sid x)) as PD.
  pose proof (cc_reqQueued_cl_delete_pending hstate c1 3 [] (ct_sid x)) as RD.
  destruct (cl_delete_pending 3 [] c1 (ct_sid x)) as [c2 stuck]. cbn [fst snd] in ST, PD, RD. subst stuck.
  eapply Cv_trans; [exact C1|]. unfold cl_cancel_stream.
  apply (Cv_del c1 _ (ct_sid x)).
  - intros y H. unfold tbl in *. rewrite cc_reqQueued_cl_write_out in H. apply take_req_sub in H. unfold tbl in H. rewrite RD in H. exact H.
  - rewrite cc_pending_cl_write_out, cc_pending_cl_take_req_count. exact PD.
  - unfold tbl. rewrite cc_reqQueued_cl_write_out. apply take_req_notin.
Qed.

Lemma Cv_wl_exit (c : cconn) le why : Cv c (cl_wl_exit c le why).
Proof.
  apply Cv_same.
  - unfold cl_wl_exit, tbl. cbn [cl_note cc_reqQueued ccu_out ccu_wl_done ccu_outQ ccu_inQ]. rewrite cc_reqQueued_cl_resolve_all.
    cbn [cc_reqQueued ccu_reqQueued map]. intros x [].
  - unfold cl_wl_exit, pids. cbn [cl_note cc_pending ccu_out ccu_wl_done ccu_outQ ccu_inQ]. rewrite cc_pending_cl_resolve_all.
    cbn [cc_pending ccu_reqQueued]. rewrite cc_pending_cl_resolve_all, cc_pending_cl_conn_close, cc_pending_cl_set_last_err. reflexivity.
Qed.

Lemma Cv_wl_after (c : cconn) : Cv c (cl_wl_after cfg c).
Proof. unfold cl_wl_after. destruct (_ && _); [apply Cv_wl_exit | apply Cv_refl]. Qed.

Lemma Cv_step_other (c : cconn) e : nostuck c -> ~ is_wlf e -> Cv c (step c e).
Proof.
  intros NS NW. destruct e; cbn [cl_step]; try (exfalso; apply NW; exact I).
  - (* Submit *)
    unfold cl_submit. destruct (cl_ctx_get c tag); [apply Cv_refl|]. cbv zeta.
    destruct (_ && _); apply Cv_eq; [rewrite cc_reqQueued_cl_resolve | rewrite cc_pending_cl_resolve | rewrite cc_reqQueued_cl_ctx_upd | rewrite cc_pending_cl_ctx_upd]; reflexivity.
  - (* SubmitCheck *)
    unfold cl_submit_check. destruct (cl_ctx_get c tag) as [x|]; [|apply Cv_refl]. destruct (negb (ct_writing x)); [apply Cv_refl|]. cbv zeta.
    destruct (negb (cc_closed c)); [apply Cv_eq; reflexivity|].
    destruct (ct_lckStuck _); [apply Cv_eq; [rewrite cc_reqQueued_cl_go_stuck | rewrite cc_pending_cl_go_stuck]; reflexivity|].
    destruct (_ =? 0); apply Cv_eq; reflexivity.
  - (* WLOut *)
    destruct (cl_wl_live c); [|apply Cv_refl]. unfold cl_wl_out. destruct (cc_outQ c) as [|o q]; [apply Cv_refl|]. cbv zeta.
    destruct (cl_can_write _).
    + eapply Cv_trans; [|apply Cv_wl_after]. apply Cv_eq; reflexivity.
    + eapply Cv_trans; [|apply Cv_wl_exit]. apply Cv_eq; reflexivity.
  - (* WLPing *)
    destruct (cl_wl_live c); [|apply Cv_refl]. unfold cl_wl_ping. destruct (cl_can_write c); [|apply Cv_wl_exit].
    eapply Cv_trans; [|apply Cv_wl_after]. apply Cv_eq; reflexivity.
  - (* WLDone *)
    destruct (cl_wl_live c); [|apply Cv_refl]. unfold cl_wl_done. destruct (cc_closed c); [apply Cv_wl_exit | apply Cv_refl].
  - (* RL *)
    destruct (cl_rl_live c); [apply Cv_rl_step | apply Cv_refl].
  - (* Timeout *)
    unfold cl_timeout_fire. destruct (cl_ctx_get c tag) as [x|]; [|apply Cv_refl].
    destruct (_ && _); [apply Cv_eq; reflexivity | apply Cv_refl].
  - apply Cv_timeout_cancel. exact NS.
  - (* Receive *)
    unfold cl_receive. destruct (cl_ctx_get c tag) as [x|]; [|apply Cv_refl]. destruct (ct_returned x); [apply Cv_refl|].
    destruct (ct_err x); [|apply Cv_refl]. cbv zeta. destruct (ct_lckStuck _); [apply Cv_eq; [rewrite cc_reqQueued_cl_go_stuck | rewrite cc_pending_cl_go_stuck]; reflexivity|].
    destruct (_ && _); apply Cv_eq; reflexivity.
  - (* Close *)
    unfold cl_close_call, cl_close_begin. destruct (cc_closed c); apply Cv_eq; reflexivity.
  - (* CloseNet *)
    unfold cl_close_finish. destruct (cc_closing c); [|apply Cv_refl]. apply Cv_eq; [apply cc_reqQueued_cl_close_net | apply cc_pending_cl_close_net].
  - apply Cv_eq; reflexivity.
Qed.

(* a body that has left c.pending: END_STREAM was written, or its stream is off the table, or its Ctx was done *)
Definition Cw (c c' : cconn) : Prop :=
  forall id pb, pget c id = Some pb -> pget c' id = None ->
    (esn id (cc_out c) < esn id (cc_out c'))%nat \/ ~ In id (tbl c') \/
    (exists x, cl_ctx_get c (pb_tag pb) = Some x /\ ct_done x = true).

Lemma pget_pids (c : cconn) id pb : pget c id = Some pb -> In id (pids c).
Proof. intro G. apply cl_pend_get_In in G. destruct G as [HI <-]. apply in_map. exact HI. Qed.

Lemma pget_none_pids (c : cconn) id : pget c id = None -> ~ In id (pids c).
Proof. intros G H. apply in_map_iff in H. destruct H as (p & E & HP). exact (cl_pend_get_None _ _ G p HP E). Qed.

Lemma Cv_Cw (c c' : cconn) : Cv c c' -> Cw c c'.
Proof. intros (_ & _ & X) id pb G G'. right. left. apply X; [eapply pget_pids; exact G | apply pget_none_pids; exact G']. Qed.

Lemma esn_app_nf id l out : esn id (l ++ out) = (esn id l + esn id out)%nat.
Proof. induction l as [|o t IH]; cbn [app esn]; [reflexivity|]. rewrite IH. lia. Qed.

(* what lies between two states one of which comes after the other *)
Record Mono (c c' : cconn) : Prop := mkMono {
  mo_esn : forall id, (esn id (cc_out c) <= esn id (cc_out c'))%nat;
  mo_tbl : forall x, In x (tbl c') -> In x (tbl c);
  mo_tag : forall id pb pb', pget c id = Some pb -> pget c' id = Some pb' -> pb_tag pb' = pb_tag pb;
  mo_done : forall t x', cl_ctx_get c' t = Some x' -> ct_done x' = true -> exists x, cl_ctx_get c t = Some x /\ ct_done x = true
}.

Lemma eff_Mono (P : coutev -> Prop) (c c' : cconn) : eff (CP:=cp_any) P c c' -> NoDup (pids c) -> Mono c c'.
Proof.
  intros E ND. constructor.
  - intro id. destruct (e_out _ _ _ E) as (l & -> & _). rewrite esn_app_nf. lia.
  - intros x H. destruct (e_rq _ _ _ E) as [p Hp]. unfold tbl in *. rewrite Hp in H. apply in_map_iff in H. destruct H as (en & EQ & H).
    apply filter_In in H. apply in_map_iff. exists en. split; [exact EQ | apply H].
  - intros id pb pb' G G'. apply cl_pend_get_In in G'. destruct G' as [HI' EI'].
    destruct (proj1 (e_pending _ _ _ E) pb' HI') as (pb0 & HI0 & A & B).
    assert (X : cl_pend_get (cc_pending c) (pb_id pb0) = Some pb0) by (apply pend_get_member; assumption).
    rewrite <- A, EI' in X. unfold CliFlowCInv.pget in G. rewrite G in X. inversion X. subst pb0. exact B.
  - intros t x' G D0. destruct (eff_ctx_back _ _ _ _ _ E G) as (x & Gx & V). exists x. split; [exact Gx|]. rewrite <- (cev_done _ _ V). exact D0.
Qed.

Lemma Mono_trans (a b c : cconn) : Mono a b -> Mono b c -> (forall id, pget c id <> None -> pget b id <> None) -> Mono a c.
Proof.
  intros [a1 a2 a3 a4] [b1 b2 b3 b4] PB. constructor.
  - intro id. specialize (a1 id). specialize (b1 id). lia.
  - auto.
  - intros id pb pb' G G'. destruct (pget b id) as [pb1|] eqn:G1; [|exfalso; apply (PB id); [rewrite G'; discriminate | exact G1]].
    rewrite (b3 id pb1 pb' G1 G'). apply (a3 id pb pb1 G G1).
  - intros t x' G D0. destruct (b4 t x' G D0) as (x1 & G1 & D1). apply (a4 t x1 G1 D1).
Qed.

Lemma Cw_comp (a b c : cconn) : Cw a b -> Cw b c -> Mono a b -> Mono b c -> Cw a c.
Proof.
  intros AB BC [a1 a2 a3 a4] [b1 b2 b3 b4] id pb G G'.
  destruct (pget b id) as [pb1|] eqn:G1.
  - destruct (BC id pb1 G1 G') as [X|[X|(x1 & X1 & X2)]].
    + left. specialize (a1 id). lia.
    + right. left. exact X.
    + right. right. rewrite (a3 id pb pb1 G G1) in X1. apply (a4 _ _ X1 X2).
  - destruct (AB id pb G G1) as [X|[X|X]].
    + left. specialize (b1 id). lia.
    + right. left. intro Y. apply X. apply b2. exact Y.
    + right. right. exact X.
Qed.

Lemma refill_tag pb pb' : cl_refill pb = Some pb' -> pb_tag pb' = pb_tag pb.
Proof.
  unfold cl_refill. destruct (pb_stream pb) as [reads|]; [|intro H; inversion H; reflexivity].
  destruct reads as [|[ch e] t].
  - cbn [cl_is_nil]. intro H. inversion H. destruct (_ && _)%Z; reflexivity.
  - destruct e.
    + destruct (cl_is_nil ch); [discriminate|]. intro H. inversion H. destruct (_ && _)%Z; reflexivity.
    + intro H. inversion H. destruct (cl_is_nil ch); destruct (_ && _)%Z; reflexivity.
    + discriminate.
Qed.

Lemma ctxs_cs_conn (c : cconn) pb id : cc_ctxs (cs_conn c pb id) = cc_ctxs c /\ cc_reqQueued (cs_conn c pb id) = cc_reqQueued c.
Proof. unfold cs_conn. destruct (cs_end c pb); split; reflexivity. Qed.

(* sendPending(id) and the body of stream id *)
Lemma send_pending_cov fuel : forall (c : cconn) id pb, pget c id = Some pb -> NoDup (pids c) ->
  (exists x, cl_ctx_get c (pb_tag pb) = Some x /\ ct_sid x = id /\ ct_conn x = true /\ ct_lckStuck x = false) ->
  snd (cl_send_pending fuel c id) = CSPOk -> pget (fst (cl_send_pending fuel c id)) id = None ->
  (esn id (cc_out c) < esn id (cc_out (fst (cl_send_pending fuel c id))))%nat \/
  ~ In id (tbl (fst (cl_send_pending fuel c id))) \/
  (exists x, cl_ctx_get c (pb_tag pb) = Some x /\ ct_done x = true).
Proof.
  induction fuel as [|fuel IH]; intros c id pb G ND HX; [cbn [cl_send_pending fst]; congruence|].
  unfold CliFlowCInv.pget in G. destruct (cl_pend_get_In _ _ _ G) as [HI EI].
  destruct (send_pending_view hstate fuel c id)
    as [G0|pb0 pb' G0 RC RF|pb0 c1 stuck G0 RC RF DP|pb0 G0 RC N0 EE|pb0 G0 RC ACQ CW|pb0 G0 RC ACQ V EE|pb0 G0 RC ACQ V EE|pb0 c3 stuck G0 RC ACQ DP|pb0 G0 RC];
    cbn [fst snd]; try discriminate; try congruence; rewrite G in G0; inversion G0; subst pb0; clear G0.
  - destruct (refill_same _ _ RF) as [RI _]. pose proof (refill_tag _ _ RF) as RT.
    set (c1 := ccu_pending c (cl_pend_put (cc_pending c) pb')) in *.
    assert (G1 : pget c1 id = Some pb').
    { unfold CliFlowCInv.pget. subst c1. cbn [cc_pending ccu_pending]. rewrite <- EI, <- RI. apply pend_get_put_same. rewrite RI, EI, G. discriminate. }
    assert (ND1 : NoDup (pids c1)) by (unfold pids; subst c1; cbn [cc_pending ccu_pending]; rewrite cl_pend_put_ids; exact ND).
    rewrite <- RT. apply (IH c1 id pb' G1 ND1). rewrite RT. exact HX.
  - unfold read_failed. destruct stuck; cbn [fst snd]; [discriminate|].
    destruct (cl_req_find (cc_reqQueued c1) id) as [tg|] eqn:RQ; cbn [fst snd]; [|intros _ _; right; left; apply cl_req_find_None; exact RQ].
    cbv zeta. destruct (cl_can_write _); cbn [fst snd]; [|discriminate]. intros _ _. right. left.
    unfold tbl. cbn [cl_note cc_reqQueued ccu_out]. rewrite cc_reqQueued_cl_ctx_upd. apply take_req_notin.
  - intros _ G'. destruct (cs_conn_pget hstate c pb id G ND) as (_ & _ & P2). rewrite EE in P2. congruence.
  - (* END_STREAM is written *)
    intros _ _. left. destruct (cs_conn_pget hstate c pb id G ND) as (O2 & _ & _).
    assert (X : esn id (cc_out (cl_close_body (cs_sent hstate c pb id) (cs_pb c pb))) = esn id (cc_out (cs_sent hstate c pb id))).
    { unfold cl_close_body. destruct (pb_stream (cs_pb c pb)); [|reflexivity]. cbn [cl_note cc_out ccu_out esn o_es]. rewrite cc_out_cl_ctx_upd. lia. }
    rewrite X. unfold cs_sent. rewrite (cc_out_cl_notes hstate), O2, esn_app, esl_write_data, N.eqb_refl, EE. cbn [andb]. lia.
  - destruct (cs_conn_pget hstate c pb id G ND) as (O2 & _ & P2). destruct (ctxs_cs_conn c pb id) as [X2 _]. rewrite EE in P2.
    set (c3 := cs_sent hstate c pb id).
    assert (F2 : cc_pending c3 = cc_pending (cs_conn c pb id)) by apply cc_pending_cl_notes.
    assert (G3 : pget c3 id = Some (cs_pb c pb)) by (unfold CliFlowCInv.pget in *; rewrite F2; exact P2).
    assert (ND3 : NoDup (pids c3)).
    { unfold pids. rewrite F2. unfold cs_conn. rewrite EE. cbn [cc_pending ccu_pending ccu_connWindow]. rewrite cl_pend_put_ids. exact ND. }
    assert (C3 : forall t, cl_ctx_get c3 t = cl_ctx_get c t) by (intro t; unfold cl_ctx_get, c3, cs_sent; rewrite cc_ctxs_cl_notes, X2; reflexivity).
    assert (E3 : esn id (cc_out c3) = esn id (cc_out c)).
    { unfold c3, cs_sent. rewrite (cc_out_cl_notes hstate), O2, esn_app, esl_write_data, N.eqb_refl, EE. cbn [andb]. apply Nat.add_0_r. }
    intros R G'. destruct (IH c3 id (cs_pb c pb) G3 ND3) as [Y|[Y|Y]]; try assumption.
    + change (pb_tag (cs_pb c pb)) with (pb_tag pb). rewrite C3. exact HX.
    + left. rewrite E3 in Y. exact Y.
    + right. left. exact Y.
    + right. right. change (pb_tag (cs_pb c pb)) with (pb_tag pb) in Y. rewrite C3 in Y. exact Y.
  - (* the request had been taken back *)
    intros _ _. right. right. destruct HX as (x & GX & SX & CX & LX). exists x. split; [exact GX|].
    destruct (ctxs_cs_conn c pb id) as [X2 _].
    unfold cl_acquire_for in ACQ. assert (GX2 : cl_ctx_get (cs_conn c pb id) (pb_tag pb) = Some x) by (unfold cl_ctx_get; rewrite X2; exact GX).
    rewrite GX2 in ACQ. cbn [existsb] in ACQ. rewrite LX, SX, CX, N.eqb_refl in ACQ. cbn [negb orb] in ACQ.
    destruct (ct_done x); [reflexivity | discriminate].
Qed.

Definition anyP (o : coutev) : Prop := True.
Lemma anyP_ben : forall o, benign o = true -> anyP o.
Proof. intros; exact I. Qed.

Lemma st_ok_HX (c : cconn) id pb : st_ok c -> pget c id = Some pb ->
  exists x, cl_ctx_get c (pb_tag pb) = Some x /\ ct_sid x = id /\ ct_conn x = true /\ ct_lckStuck x = false.
Proof.
  intros S G. apply cl_pend_get_In in G. destruct G as [HI EI]. destruct (s_pb _ S pb HI) as (NZ & x & GX & SX).
  exists x. split; [exact GX|]. split; [congruence|]. split; [|apply (proj1 (s_nostuck _ S) _ _ GX)].
  destruct (ct_conn x) eqn:CN; [reflexivity|]. exfalso. apply NZ. rewrite <- SX. apply (s_sid _ S _ _ GX). exact CN.
Qed.

Lemma flush_cov ids : forall (c : cconn), st_ok c -> RNG hstate c -> snd (cl_flush_pending c ids) = CSPOk ->
  Cw c (fst (cl_flush_pending c ids)).
Proof.
  induction ids as [|id0 t IH]; intros c S R OK; cbn [cl_flush_pending] in *.
  - cbn [fst]. intros id pb G G'. unfold CliFlowCInv.pget in *. congruence.
  - pose proof (send_pending_fueled hstate c id0 R) as SPO.
    destruct (effo_send_pending (CP:=cp_any) anyP anyP_ben (cl_send_fuel c id0) c id0 S) as [E1 _].
    pose proof (fun pb G => send_pending_cov (cl_send_fuel c id0) c id0 pb G (s_pnd _ S) (st_ok_HX c id0 pb S G)) as CV.
    destruct (cl_send_pending (cl_send_fuel c id0) c id0) as [c1 r1]. cbn [fst snd] in *.
    destruct r1; cbn [fst snd] in OK; try discriminate.
    pose proof (st_ok_eff _ _ _ S (proj1 E1)) as S1.
    destruct (effo_flush_pending (CP:=cp_any) anyP anyP_ben c1 t S1) as [E2 _].
    apply (Cw_comp c c1).
    + intros id pb G G'. destruct (N.eq_dec id id0) as [->|NE]; [apply (CV pb G eq_refl G')|].
      exfalso. unfold CliFlowCInv.pget in *. rewrite (sp_other _ _ _ _ _ SPO id NE) in G'. congruence.
    + apply IH; [exact S1 | apply (sp_rng _ _ _ _ _ SPO) | exact OK].
    + apply (eff_Mono anyP); [apply E1 | apply (s_pnd _ S)].
    + apply (eff_Mono anyP); [apply E2 | apply (s_pnd _ S1)].
Qed.

Lemma tbl_wl_exit (c : cconn) le why : tbl (cl_wl_exit c le why) = [].
Proof.
  unfold cl_wl_exit, tbl. cbn [cl_note cc_reqQueued ccu_out ccu_wl_done ccu_outQ ccu_inQ]. rewrite cc_reqQueued_cl_resolve_all. reflexivity.
Qed.

Lemma Cw_empty (c c' : cconn) : tbl c' = [] -> Cw c c'.
Proof. intros T id pb _ _. right. left. rewrite T. intros []. Qed.

Lemma Cw_wl_after (c c2 : cconn) : Cw c c2 -> Cw c (cl_wl_after cfg c2).
Proof. intro X. unfold cl_wl_after. destruct (_ && _); [apply Cw_empty, tbl_wl_exit | exact X]. Qed.

Lemma Cw_wl_win (c : cconn) order : st_ok c -> RNG hstate c -> Cw c (cl_wl_win cfg c order).
Proof.
  intros S R. unfold cl_wl_win. destruct (cc_winCh c); cbn [negb]; [|intros id pb G G'; unfold CliFlowCInv.pget in *; congruence].
  set (c1 := ccu_winCh c false).
  assert (E1 : eff (CP:=cp_any) anyP c c1).
  { apply (eff_frame (CP:=cp_any) anyP c c1 []); try reflexivity; auto. apply pending_same. reflexivity. }
  pose proof (st_ok_eff _ _ _ S E1) as S1.
  assert (R1 : RNG hstate c1) by (destruct R as [r1 r2 r3 r4]; constructor; assumption).
  pose proof (flush_cov (cl_pending_order c1 order) c1 S1 R1) as FC.
  destruct (effo_flush_pending (CP:=cp_any) anyP anyP_ben c1 (cl_pending_order c1 order) S1) as [_ NST].
  destruct (cl_flush_pending c1 (cl_pending_order c1 order)) as [c2 r]. cbn [fst snd] in *.
  destruct r; [|apply Cw_empty, tbl_wl_exit | contradiction].
  apply Cw_wl_after. exact (FC eq_refl).
Qed.

(* case ctx := <-c.in *)
Lemma Cv_in_tail (c1 : cconn) tag r : Cv c1 (in_tail hstate cfg c1 tag r).
Proof.
  destruct r as [|e|]; cbn [in_tail]; [apply Cv_wl_after | | apply Cv_refl].
  assert (X : Cv c1 (cl_resolve c1 tag e)) by (apply Cv_eq; [apply cc_reqQueued_cl_resolve | apply cc_pending_cl_resolve]).
  destruct e; try (eapply Cv_trans; [exact X | apply Cv_wl_exit]). exact X.
Qed.

Lemma Cw_wl_in (c : cconn) : RNG hstate c -> ES hstate c -> Cw c (cl_wl_in enc_field enc_set_max cfg c).
Proof.
  intros R E. destruct (cc_inQ c) as [|tag q] eqn:Q.
  { unfold cl_wl_in. rewrite Q. intros id pb G G'. unfold CliFlowCInv.pget in *. congruence. }
  rewrite (wl_in_eq hstate enc_field enc_set_max cfg c tag q Q). set (cq := ccu_inQ c q).
  assert (Rq : RNG hstate cq) by (destruct R as [r1 r2 r3 r4]; constructor; assumption).
  assert (Eq : ES hstate cq) by (apply (ES_same hstate c); try reflexivity; auto).
  pose proof (fun id => write_request_other hstate enc_field enc_set_max cq tag id Eq Rq) as OTH.
  destruct (cl_write_request enc_field enc_set_max cq tag) as [c1 r]. cbn [fst snd] in *.
  destruct (Cv_in_tail c1 tag r) as (_ & _ & DEL).
  intros id pb G G'. right. left. apply DEL; [|apply pget_none_pids; exact G'].
  apply (pget_pids c1 id pb). rewrite OTH; [exact G|].
  apply cl_pend_get_In in G. destruct G as [HI EI]. pose proof (es_fresh _ _ E pb HI) as LT. change (cc_nextID cq) with (cc_nextID c). lia.
Qed.

(* the stream that case opens: its body is pending, or END_STREAM is out, or the request is off the table again *)
Lemma wl_in_new (c : cconn) tag q x : st_ok c -> RNG hstate c -> ES hstate c -> NS hstate c -> cl_wl_live c = true ->
  cc_inQ c = tag :: q -> cl_ctx_get c tag = Some x ->
  cc_nextID c < cc_nextID (cl_wl_in enc_field enc_set_max cfg c) -> cl_wl_live (cl_wl_in enc_field enc_set_max cfg c) = true ->
  pget (cl_wl_in enc_field enc_set_max cfg c) (cc_nextID c) <> None \/
  (1 <= esn (cc_nextID c) (cc_out (cl_wl_in enc_field enc_set_max cfg c)))%nat \/
  ~ In (cc_nextID c) (tbl (cl_wl_in enc_field enc_set_max cfg c)).
Proof.
  intros S R E NSc LV Q GX. rewrite (wl_in_eq hstate enc_field enc_set_max cfg c tag q Q). set (cq := ccu_inQ c q).
  assert (Rq : RNG hstate cq) by (destruct R as [r1 r2 r3 r4]; constructor; assumption).
  assert (Eq : ES hstate cq) by (apply (ES_same hstate c); try reflexivity; auto).
  assert (Nq : NSb hstate cq) by (intros WC p HP; apply (NSc LV WC p HP)).
  pose proof (write_request_new hstate dec_field enc_field enc_set_max cq tag x Eq GX) as NEW.
  pose proof (write_request_nostreams hstate enc_field enc_set_max cq tag) as NOS.
  destruct (cl_write_request enc_field enc_set_max cq tag) as [c1 r] eqn:WR. cbn [fst snd] in *.
  pose proof (write_request_NS hstate enc_field enc_set_max cq tag c1 r Rq Eq Nq WR) as WP.
  rewrite (D_nonext_nextID hstate enc_field enc_set_max _ _ _ _ (in_tail_D hstate enc_field enc_set_max cfg c1 tag r) (wlout_nonext hstate)).
  intros LT LV'. change (cc_nextID cq) with (cc_nextID c) in *.
  destruct r as [|e|]; cbn [in_tail] in *.
  - rewrite (wl_after_live hstate cfg c1 LV') in *.
    destruct (NEW eq_refl LT) as [ES1|(c7 & pb & G7 & PT & E7 & X7 & ES7 & DN & LS & -> & OK)]; [right; left; rewrite ES1; auto|].
    set (c8 := fst (cl_send_pending (cl_send_fuel c7 (cc_nextID c)) c7 (cc_nextID c))) in *.
    destruct (pget c8 (cc_nextID c)) as [pb8|] eqn:G8; [left; discriminate|]. right.
    destruct (cl_ctxs_get_In _ _ _ GX) as [_ TX].
    assert (GX7 : cl_ctx_get c7 tag = Some (ctu_sid (ctu_conn x true) (cc_nextID c))).
    { unfold cl_ctx_get. rewrite X7. change (cc_ctxs cq) with (cc_ctxs c).
      replace tag with (ct_tag (ctu_sid (ctu_conn x true) (cc_nextID c))) at 1 by exact TX.
      apply cl_ctxs_get_put_same. cbn [ct_tag ctu_sid ctu_conn]. rewrite TX. unfold cl_ctx_get in GX. rewrite GX. discriminate. }
    destruct (send_pending_cov (cl_send_fuel c7 (cc_nextID c)) c7 (cc_nextID c) pb G7 (es_nodup _ _ E7)) as [Y|[Y|(x7 & Y1 & Y2)]].
    + rewrite PT. eexists. split; [exact GX7|]. cbn [ct_sid ct_conn ct_lckStuck ctu_sid ctu_conn]. repeat split. exact LS.
    + exact OK.
    + exact G8.
    + left. fold c8 in Y. rewrite ES7 in Y. lia.
    + right. exact Y.
    + exfalso. rewrite PT, GX7 in Y1. inversion Y1. subst x7. cbn [ct_done ctu_sid ctu_conn] in Y2. congruence.
  - destruct e; try (rewrite wl_exit_dead in LV'; discriminate).
    exfalso. specialize (NOS eq_refl). clear - NOS LT. lia.
  - exfalso. unfold cl_wl_live in LV'. cbn [wr_post] in WP. rewrite WP, andb_false_r in LV'. discriminate.
Qed.

Lemma step_Cw (c : cconn) e : st_ok c -> RNG hstate c -> ES hstate c -> Cw c (step c e).
Proof.
  intros S R E.
  assert (GEN : ~ is_wlf e -> Cw c (step c e)) by (intro NW; apply Cv_Cw, Cv_step_other; [apply (s_nostuck _ S) | exact NW]).
  destruct e; try (apply GEN; intros []; fail); cbn [cl_step].
  - destruct (cl_wl_live c); [apply Cw_wl_in; assumption | intros id pb G G'; unfold CliFlowCInv.pget in *; congruence].
  - destruct (cl_wl_live c); [apply Cw_wl_win; assumption | intros id pb G G'; unfold CliFlowCInv.pget in *; congruence].
Qed.

End Cov.
