(* Proofs/SrvFlowCMono.v - C06 completion: what never goes back in a run: the stream loop and the write loop do not
   come back to life, a closing connection stays closing, the trace only grows. *)
From H2V Require Import Base.Bytes Base.MachineInt Base.Result Gen.GenConsts Impl.ServerConn Proofs.SrvBase
  Spec.FlowLedger Proofs.SrvFlowLedger Proofs.SrvFlowDefs Proofs.SrvFlowSend Proofs.SrvFlowEff Proofs.SrvFlowSafe
  Proofs.SrvFlowSafeB Proofs.SrvFlowSafeC Proofs.SrvFlowRecv Proofs.SrvFlowCDecomp.
From Coq Require Import ZArith Lia ZifyN ZifyNat ZifyBool List.
Import ListNotations.
Local Open Scope N_scope.
Set Default Proof Using "Type".

Section Mono.
Variable hstate : Type.
Variable dec_field : hstate -> N -> bytes -> dec_res hstate.
Variable enc_field : hstate -> bytes -> bytes -> bool -> bytes * hstate.
Variable enc_set_max : hstate -> N -> hstate.
Variable cfg : config.
Notation sconn := (sconn hstate).
Implicit Types c : sconn.

Definition any_out (o : outev) : Prop := True.

(* what a piece of the stream loop does to the flags, and a longer trace *)
Record FrameO c c' : Prop := mkFrameO {
  fo_wl : sc_wl_dead c' = sc_wl_dead c;
  fo_sl : sc_sl_done c' = sc_sl_done c \/ sc_sl_done c' = true;
  fo_closing : sc_closing c = true -> sc_closing c' = true;
  fo_hi : sc_highestID c <= sc_highestID c';
  fo_out : out_ext any_out c c'
}.

Lemma out_any P c c' : out_ext P c c' -> out_ext any_out c c'.
Proof. apply out_ext_weaken. intros; exact I. Qed.
Lemma FrameO_refl c : FrameO c c.
Proof. constructor; auto; [apply N.le_refl | apply out_ext_refl]. Qed.
Lemma FrameO_trans a b c : FrameO a b -> FrameO b c -> FrameO a c.
Proof.
  intros [a1 a2 a3 a4 a5] [b1 b2 b3 b4 b5]. constructor.
  - congruence.
  - destruct b2 as [E|E]; [rewrite E; exact a2 | right; exact E].
  - auto.
  - exact (N.le_trans _ _ _ a4 b4).
  - eapply out_ext_trans; eassumption.
Qed.
Lemma FrameO_Frame c c' P : Frame c c' -> out_ext P c c' -> FrameO c c'.
Proof. intros [] O. constructor; try assumption. eapply out_any, O. Qed.
Lemma FrameO_Quiet c c' : Quiet c c' -> FrameO c c'.
Proof. intro Q. eapply FrameO_Frame; [apply Quiet_Frame, Q | apply Q]. Qed.
Lemma FrameO_NoCredit c c' : NoCredit hstate c c' -> FrameO c c'.
Proof. intros [F O]. eapply FrameO_Frame; eassumption. Qed.
Lemma FrameO_Closes c c' : Closes c c' -> FrameO c c'.
Proof. intro Q. eapply FrameO_Frame; apply Q. Qed.
Lemma FrameO_Recv c c' : Recv c c' -> FrameO c c'.
Proof.
  intros []. constructor; [assumption | left; assumption | congruence | rewrite rv_highestID; flia | eapply out_any; eassumption].
Qed.
Lemma FrameO_same c c' : Frame c c' -> sc_out c' = sc_out c -> FrameO c c'.
Proof. intros F E. eapply (FrameO_Frame _ _ any_out); [exact F | apply out_ext_same, E]. Qed.

Lemma sl_frame_FrameO c fr : FrameO c (fst (sl_frame dec_field enc_set_max cfg c fr)).
Proof.
  destruct (sl_frame_SLX _ dec_field enc_set_max cfg c fr)
    as [c' Q R G0 G1 HH D | c' F O SD | Z K HW c0 newInit delta Fa | Z K W | NZ K | c1 s p NZ Or KH Hp | c1 s c2 cX sX NZ Or CL HF].
  - apply FrameO_Quiet, Q.
  - eapply FrameO_Frame; eassumption.
  - eapply FrameO_trans; [|apply FrameO_NoCredit, flush_streams_NoCredit].
    eapply (FrameO_Frame _ _ any_out).
    + eapply Frame_trans; [|apply Frame_emit]. eapply Frame_trans; [|apply Frame_upd_strms].
      eapply Frame_trans; [|apply Frame_upd_initWin]. unfold c0, settings_c0. destruct (sf_set_hastable fr); [apply Frame_upd_enc | apply Frame_refl].
    + eapply out_ext_trans; [|apply (out_ext_emit _ any_out); exact I]. apply out_ext_same. sc_cbn.
      unfold c0, settings_c0. destruct (sf_set_hastable fr); reflexivity.
  - eapply FrameO_trans; [|apply FrameO_NoCredit, flush_streams_NoCredit].
    apply FrameO_same; [apply Frame_upd_clientWindow | reflexivity].
  - apply FrameO_Recv, Recv_credit.
  - eapply FrameO_trans; [eapply FrameO_Frame; apply (Origin_Frame _ _ _ _ _ Or)|].
    eapply FrameO_trans; [apply FrameO_Quiet, Quiet_write_goaway|]. apply FrameO_same; [apply Frame_put | reflexivity].
  - eapply FrameO_trans; [eapply FrameO_Frame; apply (Origin_Frame _ _ _ _ _ Or)|].
    eapply FrameO_trans; [apply FrameO_Closes, CL|].
    destruct (HFok_eff _ dec_field cfg c2 s fr cX sX HF) as (c3 & s3 & R & Q & _).
    eapply FrameO_trans; [apply FrameO_Recv, R|]. eapply FrameO_trans; [apply FrameO_Quiet, Q|].
    apply FrameO_NoCredit, after_frame_NoCredit.
Qed.

Notation step := (step dec_field enc_field enc_set_max cfg).

(* one step of the model *)
Record Mono c c' : Prop := mkMono {
  m_sl : sc_sl_done c = true -> sc_sl_done c' = true;
  m_wl : sc_wl_dead c = true -> sc_wl_dead c' = true;
  m_closing : sc_closing c = true -> sc_closing c' = true;
  m_hi : sc_sl_done c' = false -> sc_highestID c <= sc_highestID c';
  m_out : exists new, sc_out c' = new ++ sc_out c
}.

Lemma Mono_refl c : Mono c c.
Proof. constructor; auto; [intros; apply N.le_refl | exists []; reflexivity]. Qed.

Lemma Mono_trans a b c : Mono a b -> Mono b c -> (sc_sl_done c = false -> sc_sl_done b = false) -> Mono a c.
Proof.
  intros [a1 a2 a3 a4 (n1 & a5)] [b1 b2 b3 b4 (n2 & b5)] H. constructor; auto.
  - intro X. exact (N.le_trans _ _ _ (a4 (H X)) (b4 X)).
  - exists (n2 ++ n1). rewrite b5, a5, app_assoc. reflexivity.
Qed.

Lemma Mono_FrameO c c' : FrameO c c' -> Mono c c'.
Proof.
  intros [f1 f2 f3 f4 (new & E & _)]. constructor.
  - intro H. destruct f2 as [X|X]; congruence.
  - intro H. rewrite f1. exact H.
  - exact f3.
  - intros _. exact f4.
  - exists new. exact E.
Qed.

Lemma step_Mono c e : Mono c (step c e).
Proof.
  destruct e as [i| |sid r|t| | | |].
  - rewrite step_EvRL. destruct (sc_rl_done c); [apply Mono_refl|].
    destruct (rl_step_eff _ cfg c i) as [[r1 r2 r3 r4 r5 r6 r7 r8 r9 (new & E & _)] _].
    constructor; [congruence | congruence | exact r9 | intros; rewrite r6; flia | exists new; exact E].
  - rewrite step_EvSL. destruct (sc_sl_done c) eqn:SD; [apply Mono_refl|].
    destruct (sc_readerQ c) as [|fr q].
    + destruct (sc_rl_done c); [|apply Mono_refl]. constructor; sc_cbn; auto; [discriminate | eexists [_]; reflexivity].
    + pose proof (sl_frame_FrameO (upd_readerQ c q) fr) as M. apply Mono_FrameO in M.
      destruct M as [a1 a2 a3 a4 a5]. constructor; auto.
  - rewrite step_EvDone. destruct (sc_sl_done c) eqn:SD; [apply Mono_refl|].
    apply Mono_FrameO, FrameO_NoCredit, sl_done_NoCredit.
  - rewrite step_EvClock. destruct (sc_now c <? t)%Z; [|apply Mono_refl].
    constructor; sc_cbn; auto; [intros; flia | exists []; reflexivity].
  - rewrite step_EvTimer. destruct (sc_sl_done c) eqn:SD; [apply Mono_refl|].
    apply Mono_FrameO, FrameO_NoCredit, sl_timer_NoCredit.
  - rewrite step_EvIdle.
    pose proof (Quiet_idle _ c) as Q.
    apply Mono_FrameO, FrameO_Quiet, Q.
  - rewrite step_EvCloser. destruct (sc_closer c && negb (sc_sl_done c)); [|apply Mono_refl].
    apply Mono_FrameO, FrameO_Quiet, Quiet_brk.
  - rewrite step_EvWriteFail. constructor; sc_cbn; auto; [intros; flia | exists []; reflexivity].
Qed.

Lemma run_from_Mono evs : forall c, Mono c (run_from dec_field enc_field enc_set_max cfg c evs).
Proof.
  induction evs as [|e evs IH]; intro c; [apply Mono_refl|]. rewrite run_from_cons.
  eapply Mono_trans; [apply step_Mono | apply IH|].
  intro H. destruct (sc_sl_done (step c e)) eqn:E; [|reflexivity].
  rewrite (m_sl _ _ (IH (step c e)) E) in H. discriminate.
Qed.

End Mono.
