(* Proofs/SrvIsoOwn.v - C01 (a)/(c): what a frame does to its OWN stream's request state, in any clean run:
   - a header-block fragment: the stream's header state is the field-by-field fold over the reference-decoded
     fields, from where it was (own_post in Proofs/SrvIsoHdrStep.v);
   - a DATA frame: the payload is appended to the body (data_step_own, here);
   - anything else: untouched (plain_step_oth in Proofs/SrvIsoRun.v).
   The ghost log of a run and the invariant that ties every table stream to its own frames are in Proofs/SrvIsoLog.v. *)
From H2V Require Import Base.Bytes Base.MachineInt Base.Result Gen.GenConsts Impl.ServerConn Proofs.SrvBase
  Proofs.SrvInvDecomp Proofs.SrvIsoRef Proofs.SrvIsoMoves Proofs.SrvIsoSteps Proofs.SrvIsoHdr Proofs.SrvIsoHdrStep Proofs.SrvIsoRun.
From Coq Require Import ZArith Lia ZifyN ZifyNat ZifyBool.
Local Open Scope N_scope.

Section Own.
Variable hstate : Type.
Variable dec_field : hstate -> N -> bytes -> dec_res hstate.
Variable enc_field : hstate -> bytes -> bytes -> bool -> bytes * hstate.
Variable enc_set_max : hstate -> N -> hstate.
Variable cfg : config.
Notation sconn := (sconn hstate).
Implicit Types c : sconn.

(* the table entry after DATA has been accepted *)
Definition data_applied (s : stream) (fr : sframe) : stream :=
  set_recv s (st_recvBody s + Z.of_N (len (sf_payload fr)))%Z (rq_append_body (st_req s) (sf_payload fr)).

(* every stream is as it was in the table before, up to state / flags / windows *)
Definition all_kept c c' : Prop := oth 0 c c'.

(* DATA: if its stream is in the table afterwards, it was there before and the payload has been appended *)
Theorem data_step_own idp c fr :
  sf_kind fr = KData -> sf_sid fr <> 0 -> HInv idp c -> sc_sl_done c = false ->
  sc_sl_done (fst (sl_frame dec_field enc_set_max cfg c fr)) = false ->
  forall x, In x (sc_strms (fst (sl_frame dec_field enc_set_max cfg c fr))) -> st_id x = sf_sid fr ->
  exists s, strms_search (sc_strms c) (sf_sid fr) = Some s /\ hv x = hv s /\ rqv x = rqv (data_applied s fr).
Proof.
  intros K NZ H Hd Hd' x Ix Ex. pose proof H as [ND FP IDS LAST DISC RING].
  assert (NOX : strms_search (sc_strms c) (sf_sid fr) = None -> forall c1, sc_strms c1 = sc_strms c -> ~ In x (sc_strms c1)).
  { intros NF c1 E I. rewrite E in I. eapply strms_search_None; [exact NF | exact I | exact Ex]. }
  unfold sl_frame in *. replace (sf_sid fr =? 0) with false in * by lia. rewrite K in *. cbn [fkind_eqb andb] in *. cbv zeta in *.
  destruct (if sf_sid fr <=? sc_lastID c then strms_search (sc_strms c) (sf_sid fr) else None) as [s|] eqn:Found.
  - assert (SS : strms_search (sc_strms c) (sf_sid fr) = Some s) by (destruct (_ <=? _); [exact Found | discriminate]).
    destruct (strms_search_In _ _ _ SS) as [Is Es]. exists s. split; [exact SS|].
    (* handle_frame on DATA *)
    change (fst (ftail dec_field cfg c s fr (sc_closing c))) with (fst (ftail dec_field cfg c s fr (sc_closing c))) in *.
    assert (FT : forall c3 s3 e, handle_frame dec_field cfg c s fr = (c3, s3, e) ->
              In x (sc_strms (fst (ftail_rest cfg c3 s3 e fr (sc_closing c)))) ->
              sc_sl_done (fst (ftail_rest cfg c3 s3 e fr (sc_closing c))) = false ->
              hv x = hv s /\ rqv x = rqv (data_applied s fr)).
    { intros c3 s3 e HFr Ix3 Hd3.
      assert (Ps : P idp s) by (rewrite Forall_forall in FP; auto).
      unfold handle_frame in HFr. rewrite K in HFr.
      destruct (verify_state s fr) as [e0|] eqn:V.
      { inversion HFr; subst. exfalso. apply verify_state_err in V. unfold ftail_rest in Hd3. cbn [write_error] in Hd3.
        destruct e0 as [code|code|]; cbn [fatal_err] in V; [rewrite V in Hd3; cbn in Hd3; discriminate | destruct V | cbn in Hd3; discriminate]. }
      destruct (negb (st_headersFinished s)) eqn:HF.
      { inversion HFr; subst. exfalso. unfold ftail_rest in Hd3. cbn in Hd3. discriminate. }
      destruct (3 <=? sstate_rank (st_state s)) eqn:RK.
      { inversion HFr; subst. exfalso. unfold ftail_rest in Hd3. cbn in Hd3. discriminate. }
      cbv zeta in HFr.
      assert (R0 : st_responded s = false).
      { destruct Ps as (_ & P2 & _). destruct (st_responded s); [|reflexivity]. destruct (P2 eq_refl). lia. }
      destruct (_ && _)%bool eqn:LIM.
      - (* over the limit: the stream is reset and closed *)
        inversion HFr; subst. exfalso. unfold ftail_rest in Ix3. cbn [write_error] in Ix3.
        rewrite (after_frame_closed _ cfg _ _ fr (sc_closing c)) in Ix3; [| rewrite K; reflexivity | reflexivity | exact R0].
        cbv zeta in Ix3.
        set (s5 := set_state (set_state (set_weReset (set_recv s _ (st_req s))) SClosed) SClosed) in *.
        set (c4 := write_reset _ _ _) in *.
        assert (I5 : In x (sc_strms (close_stream (put c4 s5) s5))) by (destruct (sc_closing c && can_close_after_goaway (close_stream (put c4 s5) s5))%bool; exact Ix3).
        rewrite sc_strms_close_stream in I5.
        assert (ND5 : NoDup (map st_id (sc_strms (put c4 s5)))).
        { rewrite sc_strms_put, strms_put_ids. unfold c4. rewrite sc_strms_write_reset.
          destruct (hsame_credit_conn_window _ cfg c (Z.of_N (sf_len fr))) as (_ & _ & _ & _ & E & _). rewrite E. exact ND. }
        apply (iso_del_gone _ (st_id s5) ND5). apply (in_map st_id) in I5. rewrite Ex in I5.
        replace (st_id s5) with (sf_sid fr) at 1 by (symmetry; exact Es). exact I5.
      - inversion HFr; subst. fold (data_applied s fr) in *. set (s1 := data_applied s fr) in *.
        set (c3 := consume_recv_window cfg c s1 fr (Z.of_N (sf_len fr))) in *.
        assert (L : hsame c c3) by apply hsame_consume_recv_window.
        assert (IT : inT c3 s1) by (exists s; rewrite (hsame_strms _ _ _ L); cbn [s1 data_applied set_recv st_id]; rewrite Es; exact SS).
        assert (M0 : hmvs 0 false (put c3 s1) (fst (ftail_rest cfg c3 s1 None fr (sc_closing c)))).
        { apply (hmvs_ftail_rest _ dec_field enc_set_max cfg 0); [exact IT | | intros _ _ Kf; discriminate Kf | intros code Ec; discriminate Ec].
          rewrite (hsame_closing _ _ _ L). auto. }
        assert (NDv : NoDup (map st_id (sc_strms (put c3 s1)))) by (rewrite sc_strms_put, strms_put_ids, (hsame_strms _ _ _ L); exact ND).
        assert (SP : strms_search (sc_strms (put c3 s1)) (sf_sid fr) = Some s1).
        { rewrite sc_strms_put. replace (sf_sid fr) with (st_id s1) by exact Es. eapply search_put_same.
          rewrite (hsame_strms _ _ _ L). cbn [s1 data_applied set_recv st_id]. rewrite Es. exact SS. }
        destruct (hmvs_own _ _ _ _ _ _ _ NZ NDv SP M0 Hd3 Ix3 Ex) as [Er Eh]. split; [rewrite Eh; reflexivity | exact Er]. }
    unfold ftail in *. destruct (handle_frame dec_field cfg c s fr) as [[c3 s3] e] eqn:HFr.
    apply (FT c3 s3 e eq_refl Ix Hd').
  - (* the stream is not in the table, and the step does not put it there *)
    exfalso.
    assert (NF : strms_search (sc_strms c) (sf_sid fr) = None).
    { destruct (sf_sid fr <=? sc_lastID c) eqn:Le; [exact Found|].
      destruct (strms_search (sc_strms c) (sf_sid fr)) as [s|] eqn:SS; [|reflexivity].
      destruct (strms_search_In _ _ _ SS) as [Is Es]. destruct (IDS s Is). lia. }
    destruct (in_ring c (sf_sid fr)).
    { destruct (match ring_find c (sf_sid fr) with Some b => b | None => false end); cbn [cont fst] in Ix.
      - apply (NOX NF (credit_conn_window cfg c (Z.of_N (sf_len fr)))); [|exact Ix].
        destruct (hsame_credit_conn_window _ cfg c (Z.of_N (sf_len fr))) as (_ & _ & _ & _ & E & _). exact E.
      - apply (NOX NF (write_goaway c (sf_sid fr) c_StreamClosedError)); [apply sc_strms_write_goaway | exact Ix]. }
    destruct (sf_sid fr <? sc_lastID c).
    { cbn [cont fst] in Ix. apply (NOX NF (write_goaway c (sf_sid fr) c_ProtocolError)); [apply sc_strms_write_goaway | exact Ix]. }
    (* a stream is made for the frame, the frame is refused, the loop ends *)
    set (s := set_orig_started (new_stream (sf_sid fr) (sc_initWin c)) KData (sc_now c)) in *.
    unfold handle_frame in Hd'.
    replace (verify_state s fr) with (Some (EGoAway c_ProtocolError)) in Hd' by (unfold verify_state; cbn [s set_orig_started new_stream st_state]; rewrite K; reflexivity).
    cbn in Hd'. discriminate.
Qed.

(* a DATA frame that does not end the stream loop is for a stream id the connection has seen *)
Lemma data_step_bound idp c fr :
  sf_kind fr = KData -> sf_sid fr <> 0 -> HInv idp c ->
  sc_sl_done (fst (sl_frame dec_field enc_set_max cfg c fr)) = false -> sf_sid fr <= sc_highestID c.
Proof.
  intros K NZ H Hd'. pose proof H as [ND FP IDS LAST DISC RING].
  unfold sl_frame in *. replace (sf_sid fr =? 0) with false in * by lia. rewrite K in *. cbn [fkind_eqb andb] in *. cbv zeta in *.
  destruct (if sf_sid fr <=? sc_lastID c then strms_search (sc_strms c) (sf_sid fr) else None) as [s|] eqn:Found.
  - assert (SS : strms_search (sc_strms c) (sf_sid fr) = Some s) by (destruct (_ <=? _); [exact Found | discriminate]).
    destruct (strms_search_In _ _ _ SS) as [Is Es]. destruct (IDS s Is). lia.
  - destruct (in_ring c (sf_sid fr)) eqn:IR.
    { destruct (in_ring_In _ dec_field enc_set_max _ _ IR) as (e & Ie & Ee). specialize (RING e Ie). lia. }
    destruct (sf_sid fr <? sc_lastID c) eqn:LT; [lia|].
    exfalso. set (s := set_orig_started (new_stream (sf_sid fr) (sc_initWin c)) KData (sc_now c)) in *.
    unfold handle_frame in Hd'.
    replace (verify_state s fr) with (Some (EGoAway c_ProtocolError)) in Hd' by (unfold verify_state; cbn [s set_orig_started new_stream st_state]; rewrite K; reflexivity).
    cbn in Hd'. discriminate.
Qed.

End Own.
