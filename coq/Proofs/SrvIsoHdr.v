(* Proofs/SrvIsoHdr.v - C09 (a): what the stream loop does with ONE header-block fragment (HEADERS or
   CONTINUATION on a stream id <> 0), whatever becomes of the stream: the decoder state afterwards and the
   carry are those of the reference decoder of Proofs/SrvIsoRef.v.

   Layers: discard_fragment / discard_header_block; handle_header_frame; handle_frame on a header frame.
   sl_frame follows in Proofs/SrvIsoHdrStep.v (Theorem sl_frame_hdr). *)
From H2V Require Import Base.Bytes Base.MachineInt Base.Result Gen.GenConsts Impl.ServerConn Proofs.SrvBase
  Proofs.SrvIsoRef Proofs.SrvIsoMoves Proofs.SrvIsoSteps.
From Coq Require Import ZArith Lia ZifyN ZifyNat ZifyBool.
Local Open Scope N_scope.

Section Hdr.
Variable hstate : Type.
Variable dec_field : hstate -> N -> bytes -> dec_res hstate.
Variable enc_field : hstate -> bytes -> bytes -> bool -> bytes * hstate.
Variable enc_set_max : hstate -> N -> hstate.
Variable cfg : config.
Notation sconn := (sconn hstate).
Implicit Types c : sconn.

(* an error that ends the connection *)
Definition fatal_err (e : h2err) : Prop :=
  match e with EGoAway code => (code =? c_NoError) = false | EPanic => True | EReset _ => False end.

(* only the decoder and the discard registers differ *)
Definition dd c c1 : Prop := exists d i p m, c1 = upd_discard (upd_dec c d) i p m.
Lemma dd_refl c : dd c c.
Proof. exists (sc_dec c), (sc_discardID c), (sc_discardPrev c), (sc_discardFields c). destruct c; reflexivity. Qed.
Lemma dd_trans a b c : dd a b -> dd b c -> dd a c.
Proof. intros (d & i & p & m & ->) (d' & i' & p' & m' & ->). exists d', i', p', m'. reflexivity. Qed.
Lemma dd_upd_dec c d : dd c (upd_dec c d).
Proof. exists d, (sc_discardID c), (sc_discardPrev c), (sc_discardFields c). destruct c; reflexivity. Qed.
Lemma dd_upd_discard c i p m : dd c (upd_discard c i p m).
Proof. exists (sc_dec c), i, p, m. destruct c; reflexivity. Qed.

Inductive df_out (c : sconn) (id : N) (frag : bytes) (eh : bool) : sconn -> option h2err -> Prop :=
| df_fatal c1 e : dd c c1 -> fatal_err e -> df_out c id frag eh c1 (Some e)
| df_ok fs d' n' carry' :
    ref_run dec_field eh (sc_dec c) (sc_discardFields c) (sc_discardPrev c ++ frag) fs d' n' carry' ->
    df_out c id frag eh (upd_discard (upd_dec c d') (if eh then 0 else id) carry' n') None.

Lemma discard_loop_err fuel : forall eh d n b d' n' carry e,
  discard_loop dec_field fuel eh d n b = (d', n', carry, Some e) -> fatal_err e.
Proof.
  induction fuel as [|fuel IH]; intros eh d n b d' n' carry e; cbn [discard_loop].
  - intro H; inversion H; subst. reflexivity.
  - destruct b as [|x b]; [discriminate|].
    destruct (dec_field d n (x :: b)) as [k v rest d1|d1|d1|d1|]; try (intro H; inversion H; subst; reflexivity).
    + apply IH.
    + destruct (negb eh); intro H; inversion H; subst; reflexivity.
Qed.

Lemma discard_fragment_spec c id frag eh :
  df_out c id frag eh (fst (discard_fragment dec_field cfg c id frag eh)) (snd (discard_fragment dec_field cfg c id frag eh)).
Proof.
  unfold discard_fragment.
  destruct (discard_loop dec_field (S (length (sc_discardPrev c ++ frag))) eh (sc_dec c) (sc_discardFields c)
              (sc_discardPrev c ++ frag)) as [[[d' n'] carry'] [e|]] eqn:DL; cbn [fst snd].
  - apply df_fatal; [eapply dd_trans; [apply dd_upd_dec | apply dd_upd_discard] | eapply discard_loop_err; exact DL].
  - destruct (discard_loop_ref _ dec_field _ _ _ _ _ _ _ _ DL) as [fs R].
    destruct eh.
    + pose proof (ref_run_eh_carry _ _ _ _ _ _ _ _ _ R) as ->. cbn [fst snd]. apply (df_ok c id frag true fs). exact R.
    + destruct (_ && _)%bool; cbn [fst snd].
      * apply df_fatal; [eapply dd_trans; [apply dd_upd_dec | apply dd_upd_discard] | reflexivity].
      * apply (df_ok c id frag false fs). exact R.
Qed.

Lemma dd_discard_header_block c fr :
  df_out (if fkind_eqb (sf_kind fr) KCont then c else upd_discard c (sc_discardID c) [] 0) (sf_sid fr) (sf_payload fr)
         (flag_has (sf_flags fr) FL_EH)
         (fst (discard_header_block dec_field cfg c fr)) (snd (discard_header_block dec_field cfg c fr)).
Proof. unfold discard_header_block. apply discard_fragment_spec. Qed.

Definition eh_of (fr : sframe) : bool := flag_has (sf_flags fr) FL_EH.
Definition is_cont (fr : sframe) : bool := fkind_eqb (sf_kind fr) KCont.

(* the decoding state the loop starts from *)
Definition hh1 (s : stream) (fr : sframe) : hdr :=
  let h0 := get_hdr s in
  mkHdr false [] (hd_pMethod h0) (hd_pScheme h0) (hd_pPath h0) (hd_pAuth h0)
        (hd_regularSeen h0 || hd_headersFinished h0) (hd_contentLength h0) (hd_hasCL h0) (hd_headerListSize h0)
        (if fkind_eqb (sf_kind fr) KCont then hd_blockFields h0 else 0) (hd_path h0) (hd_req h0).

Definition hn0 (s : stream) (fr : sframe) : N := if is_cont fr then st_blockFields s else 0.
Definition hb0 (s : stream) (fr : sframe) : bytes := st_prev s ++ sf_payload fr.

Lemma hh1_bf s fr : hd_blockFields (hh1 s fr) = hn0 s fr.
Proof. reflexivity. Qed.

(* a second block on a stream must be a trailer: HEADERS with END_STREAM *)
Definition trailer_ok (s : stream) (fr : sframe) : Prop :=
  st_headersFinished s && (negb (fkind_eqb (sf_kind fr) KHeaders) || negb (flag_has (sf_flags fr) FL_ES)) = false.

Inductive hhf_out (c : sconn) (s : stream) (fr : sframe) : sconn -> stream -> option h2err -> Prop :=
| hhf_fatal c1 s1 e : dd c c1 -> st_id s1 = st_id s -> fatal_err e -> hhf_out c s fr c1 s1 (Some e)
| hhf_ok fs hF d' n' carry' :
    trailer_ok s fr ->
    ref_run dec_field (eh_of fr) (sc_dec c) (hn0 s fr) (hb0 s fr) fs d' n' carry' ->
    hfold cfg (hh1 s fr) fs = Some hF ->
    hhf_out c s fr (upd_dec c d') (set_hdr s (hd_set_prev hF carry')) None
| hhf_reset fs k v fs2 hF code d' n' carry' :
    trailer_ok s fr ->
    ref_run dec_field (eh_of fr) (sc_dec c) (hn0 s fr) (hb0 s fr) (fs ++ (k, v) :: fs2) d' n' carry' ->
    hfold cfg (hh1 s fr) fs = Some hF ->
    header_field cfg hF k v = inl (EReset code) ->
    hhf_out c s fr (upd_discard (upd_dec c d') (if eh_of fr then 0 else st_id s) carry' n') (set_hdr s hF)
            (Some (EReset code)).

Lemma header_field_err h k v e : header_field cfg h k v = inl e -> fatal_err e \/ exists code, e = EReset code.
Proof.
  intro H. pose proof (header_field_spec cfg h k v) as S. rewrite H in S. cbv zeta in S.
  destruct e as [code|code|]; [left; destruct S as [_ ->]; reflexivity | right; eexists; reflexivity | destruct S].
Qed.

Lemma header_loop_err fuel : forall eh d h b d' h' e rest,
  header_loop dec_field fuel cfg eh d h b = (d', h', Some e, rest) -> fatal_err e \/ exists code, e = EReset code.
Proof.
  induction fuel as [|fuel IH]; intros eh d h b d' h' e rest; cbn [header_loop].
  - intro H; inversion H; subst. left. reflexivity.
  - destruct b as [|x b]; [discriminate|].
    destruct (dec_field d (hd_blockFields h) (x :: b)) as [k v rest1 d1|d1|d1|d1|];
      try (intro H; inversion H; subst; left; reflexivity).
    + destruct (header_field cfg h k v) as [e1|h1] eqn:HF; [|apply IH].
      intro H; inversion H; subst. eapply header_field_err; exact HF.
    + destruct (negb eh); intro H; inversion H; subst. left. reflexivity.
Qed.

Lemma handle_header_frame_spec c s fr :
  hhf_out c s fr (fst (fst (handle_header_frame dec_field cfg c s fr))) (snd (fst (handle_header_frame dec_field cfg c s fr)))
          (snd (handle_header_frame dec_field cfg c s fr)).
Proof.
  unfold handle_header_frame.
  destruct (st_headersFinished s && _)%bool eqn:TO; [cbn [fst snd]; apply hhf_fatal; [apply dd_refl | reflexivity | reflexivity]|].
  destruct (fkind_eqb (sf_kind fr) KHeaders && _)%bool;
    [cbn [fst snd]; apply hhf_fatal; [apply dd_refl | reflexivity | reflexivity]|].
  cbv zeta. fold (hh1 s fr). change (hd_prev (get_hdr s) ++ sf_payload fr) with (hb0 s fr).
  change (flag_has (sf_flags fr) FL_EH) with (eh_of fr).
  destruct (header_loop dec_field (S (length (hb0 s fr))) cfg (eh_of fr) (sc_dec c) (hh1 s fr) (hb0 s fr))
    as [[[d' h2] e0] rest] eqn:HL.
  pose proof (header_loop_ref _ dec_field cfg _ _ _ _ _ _ _ _ _ HL) as SP. unfold header_loop_spec in SP.
  destruct e0 as [e1|].
  - (* an error *)
    destruct (header_loop_err _ _ _ _ _ _ _ _ _ HL) as [FE|[code ->]].
    + assert (G : hhf_out c s fr (upd_dec c d') (set_hdr s h2) (Some e1))
        by (apply hhf_fatal; [apply dd_upd_dec | reflexivity | exact FE]).
      destruct e1 as [code|code|]; cbn [fst snd]; [exact G | destruct FE | exact G].
    + (* a stream error raised by a field: the rest of the block is decoded and dropped *)
      destruct SP as [(fs & k & v & RP & HF & FE)|[_ []]].
      pose proof (discard_fragment_spec
        (upd_discard (upd_dec c d') (sc_discardID (upd_dec c d')) [] (hd_blockFields h2 + 1)) (st_id s) rest (eh_of fr)) as DF.
      destruct (discard_fragment dec_field cfg _ (st_id s) rest (eh_of fr)) as [c3 [de|]]; cbn [fst snd] in *.
      * inversion DF as [c1' e' D F|]; subst. apply hhf_fatal; [|reflexivity | exact F].
        eapply dd_trans; [|exact D]. eapply dd_trans; [apply dd_upd_dec | apply dd_upd_discard].
      * inversion DF as [|fs2 d2 n2 carry2 R2]; subst. sc_cbn_in R2. cbn [app] in R2.
        rewrite hh1_bf in RP.
        pose proof (ref_pre_run _ dec_field _ _ _ _ _ _ _ _ _ _ _ _ RP R2) as R. rewrite <- app_assoc in R. cbn [app] in R.
        exact (hhf_reset c s fr fs k v fs2 h2 code d2 n2 carry2 TO R HF FE).
  - destruct SP as (fs & hF & carry' & R & HF & -> & _).
    destruct (hfold_frame cfg _ _ _ HF) as (PV & _ & _). cbn [hh1 hd_prev] in PV. rewrite PV. cbn [app].
    rewrite hh1_bf in R.
    destruct ((0 <? cf_maxHeaderList cfg)%Z && _)%bool; cbn [fst snd].
    + apply hhf_fatal; [apply dd_upd_dec | reflexivity | reflexivity].
    + replace (hd_blockFields (hd_set_prev hF carry')) with (hd_blockFields hF) in R by reflexivity.
      eapply hhf_ok; [exact TO | | exact HF]. exact R.
Qed.

(* the frame is acceptable in the stream's state: the stream is not (half-)closed, or the frame continues its block *)
Definition rank_ok (s : stream) (fr : sframe) : Prop :=
  (3 <=? sstate_rank (st_state s)) && negb (continuing_headers s fr) = false /\
  (st_headersFinished s = true -> sf_kind fr = KHeaders).

Inductive hf_out (c : sconn) (s : stream) (fr : sframe) : sconn -> stream -> option h2err -> Prop :=
| hfo_fatal c1 s1 e : dd c c1 -> st_id s1 = st_id s -> fatal_err e -> hf_out c s fr c1 s1 (Some e)
| hfo_more fs hF d' n' carry' :
    rank_ok s fr ->
    eh_of fr = false ->
    ref_run dec_field false (sc_dec c) (hn0 s fr) (hb0 s fr) fs d' n' carry' ->
    hfold cfg (hh1 s fr) fs = Some hF ->
    hf_out c s fr (upd_dec c d') (set_hdr s (hd_set_prev hF carry')) None
| hfo_done fs hF d' n' :
    rank_ok s fr ->
    eh_of fr = true ->
    ref_run dec_field true (sc_dec c) (hn0 s fr) (hb0 s fr) fs d' n' [] ->
    hfold cfg (hh1 s fr) fs = Some hF ->
    hf_out c s fr (upd_dec c d') (set_headers_finished (set_hdr s (hd_set_prev hF [])) true)
           (validate_request_pseudo_headers (set_headers_finished (set_hdr s (hd_set_prev hF [])) true))
| hfo_reset fs k v fs2 hF code d' n' carry' :
    rank_ok s fr ->
    ref_run dec_field (eh_of fr) (sc_dec c) (hn0 s fr) (hb0 s fr) (fs ++ (k, v) :: fs2) d' n' carry' ->
    hfold cfg (hh1 s fr) fs = Some hF ->
    header_field cfg hF k v = inl (EReset code) ->
    hf_out c s fr (upd_discard (upd_dec c d') (if eh_of fr then 0 else st_id s) carry' n') (set_hdr s hF)
           (Some (EReset code)).

Lemma verify_state_err s fr e : verify_state s fr = Some e -> fatal_err e.
Proof.
  unfold verify_state. destruct (st_state s); try discriminate;
  repeat match goal with |- context [if ?b then _ else _] => destruct b end; intro H; inversion H; reflexivity.
Qed.

Lemma handle_frame_hdr_spec c s fr : is_hdr_kind (sf_kind fr) = true ->
  hf_out c s fr (fst (fst (handle_frame dec_field cfg c s fr))) (snd (fst (handle_frame dec_field cfg c s fr)))
         (snd (handle_frame dec_field cfg c s fr)).
Proof.
  intro HK. rewrite (handle_frame_hdr _ dec_field cfg c s fr HK).
  destruct (verify_state s fr) as [e|] eqn:V.
  { cbn [fst snd]. apply hfo_fatal; [apply dd_refl | reflexivity | eapply verify_state_err; exact V]. }
  unfold hframe_hdr.
  destruct (_ && _)%bool eqn:RK; [cbn [fst snd]; apply hfo_fatal; [apply dd_refl | reflexivity | reflexivity]|].
  pose proof (handle_header_frame_spec c s fr) as HS.
  destruct (handle_header_frame dec_field cfg c s fr) as [[c1 s1] e]. cbn [fst snd] in HS.
  inversion HS as [c1' s1' e' D I F|fs hF d' n' carry' TO R HF|fs k v fs2 hF code d' n' carry' TO R HF FE]; subst;
    try (assert (RO : rank_ok s fr);
         [split; [exact RK|]; intro Hf; unfold trailer_ok in TO; rewrite Hf in TO; cbn [andb] in TO;
          apply orb_false_elim in TO; destruct TO as [TO _]; apply negb_false_iff in TO;
          destruct (sf_kind fr); try discriminate TO; reflexivity|]).
  - cbn [fst snd]. apply hfo_fatal; assumption.
  - fold (eh_of fr). destruct (eh_of fr) eqn:EH.
    + pose proof (ref_run_eh_carry _ _ _ _ _ _ _ _ _ R) as ->.
      cbn [set_hdr st_prev hd_set_prev hd_prev negb]. cbv zeta.
      destruct (validate_request_pseudo_headers _) eqn:VR; cbn [fst snd]; rewrite <- VR;
        apply (hfo_done c s fr fs hF d' n' RO EH R HF).
    + cbn [fst snd]. apply (hfo_more c s fr fs hF d' n' carry' RO EH R HF).
  - cbn [fst snd]. apply (hfo_reset c s fr fs k v fs2 hF code d' n' carry' RO R HF FE).
Qed.

End Hdr.

Arguments dd {hstate}. Arguments df_out {hstate}. Arguments hhf_out {hstate}. Arguments hf_out {hstate}.
