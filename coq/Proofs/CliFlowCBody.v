(* Proofs/CliFlowCBody.v - C07, "and finishes": the vocabulary of the whole-run upload theorem.
   What a request body is as the connection will see it (a buffered body, or the chunks the caller's reader
   answers with until EOF / the declared length / a failure, exactly as refillPending consumes them), what is
   left of it in a pending body, and what the trace says has been sent on a stream. *)
From H2V Require Import Base.Bytes Base.MachineInt Base.Result Gen.GenConsts Impl.ServerConn Impl.ClientConn
     Proofs.CliBase Proofs.CliDefs Spec.FlowLedger Proofs.CliFlowMoves Proofs.CliFlowOut Proofs.CliFlowSettings Proofs.CliFlowSafe Proofs.CliFlowEs.
From Coq Require Import ZArith Lia ZifyN ZifyNat ZifyBool List Bool.
Import ListNotations.
Local Open Scope N_scope.
Set Default Proof Using "Type".

(* refillPending, iterated: the bytes the connection gets from the scripted reads from now on, and whether the
   reader ends well (EOF, or the declared length reached) rather than with an error or with (0, nil).
   size: the declared length (< 0: none); read: the bytes read so far *)
Fixpoint rd_fut (reads : list (bytes * rerr)) (size read : Z) : bytes * bool :=
  match reads with
  | [] => ([], true)
  | (ch, e) :: t =>
    match e with
    | REof => (ch, true)
    | RFail => ([], false)
    | RNil =>
      if cl_is_nil ch then ([], false)
      else if ((0 <=? size) && (size <=? read + Z.of_N (len ch)))%Z then (ch, true)
      else (ch ++ fst (rd_fut t size (read + Z.of_N (len ch))%Z), snd (rd_fut t size (read + Z.of_N (len ch))%Z))
    end
  end.

(* what the reader of a pending body still has to deliver *)
Definition pb_fut (pb : cpending) : bytes * bool :=
  match pb_stream pb with
  | None => ([], true)
  | Some reads => if pb_drained pb then ([], true) else rd_fut reads (pb_size pb) (pb_read pb)
  end.

(* everything of the body that has not been handed to writeData yet; does the reader end well *)
Definition pb_all (pb : cpending) : bytes := pb_body pb ++ fst (pb_fut pb).
Definition pb_ok (pb : cpending) : bool := snd (pb_fut pb).

(* the body of a request as the connection will see it: (bytes, the reader ends well) *)
Definition rq_body (rq : crequest) : bytes * bool :=
  match cq_body rq with
  | CBuf b => (b, true)
  | CStream reads size => if (size =? 0)%Z then ([], true) else rd_fut reads size 0
  end.

Lemma refill_all pb pb' : refill_cond pb = true -> cl_refill pb = Some pb' ->
  pb_all pb' = pb_all pb /\ pb_ok pb' = pb_ok pb.
Proof.
  unfold refill_cond, cl_refill, pb_all, pb_ok, pb_fut.
  destruct (pb_stream pb) as [reads|] eqn:S; [|rewrite andb_false_r; discriminate].
  intro RC. apply andb_prop in RC. destruct RC as [RC D0]. apply andb_prop in RC. destruct RC as [B0 _].
  apply negb_true_iff in D0. rewrite D0.
  assert (BN : pb_body pb = []) by (destruct (pb_body pb); [reflexivity | discriminate]). rewrite BN. cbn [app].
  destruct reads as [|[ch e] t].
  - cbn [cl_is_nil rd_fut]. intro H. inversion H. clear H.
    destruct ((0 <=? pb_size _) && _)%Z; cbn [pb_stream pb_drained pb_body pb_size pb_read pbu_drained pbu_stream pbu_read pbu_body fst snd];
      rewrite ?BN; split; reflexivity.
  - destruct e; cbn [rd_fut].
    + (* (chunk, nil) *)
      destruct (cl_is_nil ch) eqn:CN; [discriminate|]. intro H. inversion H. clear H.
      cbn [pb_stream pb_drained pb_body pb_size pb_read pbu_drained pbu_stream pbu_read pbu_body].
      destruct ((0 <=? pb_size pb) && (pb_size pb <=? pb_read pb + Z.of_N (len ch)))%Z eqn:SZ;
        cbn [pb_stream pb_drained pb_body pb_size pb_read pbu_drained pbu_stream pbu_read pbu_body fst snd]; rewrite ?D0.
      * rewrite app_nil_r. split; reflexivity.
      * split; reflexivity.
    + (* (chunk, EOF) *)
      intro H. inversion H. clear H.
      destruct (cl_is_nil ch) eqn:CN;
        destruct ((0 <=? pb_size _) && _)%Z;
        cbn [pb_stream pb_drained pb_body pb_size pb_read pbu_drained pbu_stream pbu_read pbu_body fst snd];
        rewrite ?BN, ?app_nil_r; try (split; reflexivity);
        destruct ch; try discriminate; split; reflexivity.
    + discriminate.
Qed.

(* the reader fails (or answers 0, nil): it does not end well *)
Lemma refill_none pb : refill_cond pb = true -> cl_refill pb = None -> pb_ok pb = false.
Proof.
  unfold refill_cond, cl_refill, pb_ok, pb_fut.
  destruct (pb_stream pb) as [reads|] eqn:S; [|rewrite andb_false_r; discriminate].
  intro RC. apply andb_prop in RC. destruct RC as [_ D0]. apply negb_true_iff in D0. rewrite D0.
  destruct reads as [|[ch e] t]; [discriminate|]. destruct e; cbn [rd_fut].
  - destruct (cl_is_nil ch); [reflexivity | destruct (_ && _)%Z; discriminate].
  - discriminate.
  - reflexivity.
Qed.

Section CS.
Variable hstate : Type.
Notation cconn := (cconn hstate).

(* one critical section of sendPending takes the chunk off the front of what is left *)
Lemma cs_all (c : cconn) pb : cs_chunk c pb ++ pb_all (cs_pb c pb) = pb_all pb /\ pb_ok (cs_pb c pb) = pb_ok pb.
Proof.
  unfold cs_chunk, cs_pb, pb_all, pb_ok, pb_fut. cbn [pb_body pb_stream pb_drained pb_size pb_read pbu_body pbu_window].
  split; [|reflexivity]. rewrite app_assoc, takeN_dropN. reflexivity.
Qed.

(* when the critical section ends the body, nothing is left and the reader has ended well *)
Lemma cs_end_all (c : cconn) pb : cs_end c pb = true -> pb_all (cs_pb c pb) = [] /\ pb_ok (cs_pb c pb) = true.
Proof.
  unfold cs_end, cl_has_more, pb_all, pb_ok, pb_fut. intro E. apply negb_true_iff in E. apply orb_false_iff in E. destruct E as [E1 E2].
  apply negb_false_iff in E1.
  assert (BN : pb_body (cs_pb c pb) = []) by (destruct (pb_body (cs_pb c pb)); [reflexivity | discriminate]).
  rewrite BN. cbn [app]. destruct (pb_stream (cs_pb c pb)); [|split; reflexivity].
  cbn [andb] in E2. apply negb_false_iff in E2. rewrite E2. split; reflexivity.
Qed.

End CS.

Definition o_data (id : N) (o : coutev) : bytes :=
  match o with COData s _ p => if s =? id then p else [] | _ => [] end.
Definition o_es (id : N) (o : coutev) : nat :=
  match o with COData s es _ | COHeaders s es _ => if (s =? id) && es then 1%nat else 0%nat | _ => 0%nat end.

(* on cc_out (newest first): the DATA payload bytes written on stream id, in the order written; the number of
   END_STREAM flags written on it (HEADERS or DATA) *)
Fixpoint dbytes (id : N) (out : list coutev) : bytes :=
  match out with [] => [] | o :: t => dbytes id t ++ o_data id o end.
Fixpoint esn (id : N) (out : list coutev) : nat :=
  match out with [] => 0%nat | o :: t => (esn id t + o_es id o)%nat end.
(* the same on a list of items oldest first *)
Definition dbl (id : N) (l : list coutev) : bytes := concat (map (o_data id) l).
Definition esl (id : N) (l : list coutev) : nat := list_sum (map (o_es id) l).

Lemma dbytes_app id l : forall out, dbytes id (rev l ++ out) = dbytes id out ++ dbl id l.
Proof.
  induction l as [|o t IH]; intro out; cbn [rev app]; [unfold dbl; cbn; rewrite app_nil_r; reflexivity|].
  rewrite <- app_assoc. cbn [app]. rewrite IH. cbn [dbytes]. unfold dbl. cbn [map concat]. rewrite app_assoc. reflexivity.
Qed.

Lemma esn_app id l : forall out, esn id (rev l ++ out) = (esn id out + esl id l)%nat.
Proof.
  induction l as [|o t IH]; intro out; cbn [rev app]; [unfold esl; cbn [map list_sum fold_right]; rewrite Nat.add_0_r; reflexivity|].
  rewrite <- app_assoc. cbn [app]. rewrite IH. cbn [esn]. unfold esl. cbn [map list_sum fold_right]. rewrite Nat.add_assoc. reflexivity.
Qed.

(* in the vocabulary of Proofs/CliDefs.v, on the trace oldest first *)
Lemma data_of_app sid a b : data_of sid (a ++ b) = data_of sid a ++ data_of sid b.
Proof. apply flat_map_app. Qed.
Lemma headers_of_app a b : headers_of (a ++ b) = headers_of a ++ headers_of b.
Proof. apply flat_map_app. Qed.

Lemma dbytes_data_bytes id out : data_bytes id (rev out) = dbytes id out.
Proof.
  unfold data_bytes. induction out as [|o t IH]; [reflexivity|]. cbn [rev dbytes].
  rewrite data_of_app, map_app, concat_app, IH. f_equal.
  destruct o; cbn [data_of flat_map o_data app map concat]; try reflexivity.
  destruct (sid =? id); cbn [app map concat snd]; [rewrite app_nil_r|]; reflexivity.
Qed.

Lemma esn_end_streams id out : end_streams id (rev out) = esn id out.
Proof.
  unfold end_streams. induction out as [|o t IH]; [reflexivity|]. cbn [rev esn].
  rewrite headers_of_app, data_of_app, !filter_app, !app_length. rewrite <- IH.
  destruct o; cbn [headers_of data_of flat_map o_es app filter length fst snd]; try lia.
  - destruct es; cbn [Bool.eqb andb]; destruct (sid =? id); cbn [filter length andb]; lia.
  - destruct (sid =? id); cbn [app filter length andb fst]; [destruct es; cbn [length]|]; lia.
Qed.

(* one run of DATA frames of writeData *)
Lemma dbl_frames id sid l : dbl id (frames_of sid l) = if sid =? id then concat (map snd l) else [].
Proof.
  unfold dbl, frames_of. rewrite map_map. cbn [o_data]. destruct (sid =? id).
  - induction l as [|x t IH]; cbn [map concat]; [reflexivity | rewrite IH; reflexivity].
  - induction l as [|x t IH]; cbn [map concat]; [reflexivity | exact IH].
Qed.

Lemma esl_frames id sid l e : es_shape l e -> esl id (frames_of sid l) = if (sid =? id) && e then 1%nat else 0%nat.
Proof.
  unfold esl, frames_of. induction 1 as [|e p|p l e S IH NE]; cbn [map list_sum fold_right o_es fst snd].
  - rewrite andb_false_r. reflexivity.
  - destruct ((sid =? id) && e); reflexivity.
  - rewrite andb_false_r. cbn [Nat.add]. exact IH.
Qed.

Lemma dbl_write_data id mf sid body endb : dbl id (cl_write_data mf sid body endb) = if sid =? id then body else [].
Proof.
  destruct (write_data_shape mf sid body endb) as (l & A & B & _). rewrite A, dbl_frames, B. reflexivity.
Qed.

Lemma esl_write_data id mf sid body endb :
  esl id (cl_write_data mf sid body endb) = if (sid =? id) && endb then 1%nat else 0%nat.
Proof.
  destruct (write_data_shape mf sid body endb) as (l & A & _ & _ & S & _). rewrite A. apply esl_frames. exact S.
Qed.

(* items that are not HEADERS or DATA *)
Definition nostream (o : coutev) : Prop := match o with COHeaders _ _ _ | COData _ _ _ => False | _ => True end.

Lemma esl_cons id o t : esl id (o :: t) = (o_es id o + esl id t)%nat.
Proof. reflexivity. Qed.
Lemma dbl_cons id o t : dbl id (o :: t) = o_data id o ++ dbl id t.
Proof. reflexivity. Qed.

Lemma dbl_nostream id l : Forall nostream l -> dbl id l = [] /\ esl id l = 0%nat.
Proof.
  induction 1 as [|o t Ho Ht IH]; [split; reflexivity|]. destruct IH as [A B]. rewrite esl_cons, dbl_cons, A, B.
  destruct o; try contradiction; split; reflexivity.
Qed.
