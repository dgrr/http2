(* Proofs/SrvFlowRecv.v - C14 (server): the credit the server hands back for the DATA it receives. *)
From H2V Require Import Base.Bytes Base.MachineInt Base.Result Gen.GenConsts Impl.ServerConn Proofs.SrvBase
  Spec.FlowLedger Proofs.SrvFlowLedger Proofs.SrvFlowDefs Proofs.SrvFlowSend Proofs.SrvFlowEff Proofs.SrvFlowCDecomp.
From Coq Require Import ZArith Lia ZifyN ZifyNat ZifyBool List.
Import ListNotations.
Local Open Scope N_scope.
Set Default Proof Using "Type".

(* outputs other than WINDOW_UPDATE *)
Definition nowu_out (o : outev) : Prop := match strip o with OWinUpd _ _ => False | _ => True end.

Lemma quiet_nowu o : quiet_out o -> nowu_out o.
Proof. unfold quiet_out, nowu_out. destruct (strip o); auto. Qed.

Lemma rcredits_nowu new : Forall nowu_out new -> rcredits new = [].
Proof.
  induction 1 as [|o l Ho _ IH]; [reflexivity|]. rewrite rcredits_cons, IH, app_nil_r.
  unfold rcredit_of. unfold nowu_out in Ho. destruct (strip o); try reflexivity; contradiction.
Qed.

Section NoCredit.
Variable hstate : Type.
Variable enc_field : hstate -> bytes -> bytes -> bool -> bytes * hstate.
Variable cfg : config.
Notation sconn := (sconn hstate).
Implicit Types c : sconn.

(* the send side and the bookkeeping of streams: no credit is given, the receive window does not move *)
Definition NoCredit c c' : Prop := Frame c c' /\ out_ext nowu_out c c'.

Lemma NoCredit_refl c : NoCredit c c.
Proof. split; [apply Frame_refl | apply out_ext_refl]. Qed.
Lemma NoCredit_trans a b c : NoCredit a b -> NoCredit b c -> NoCredit a c.
Proof. intros [A1 A2] [B1 B2]. split; [eapply Frame_trans | eapply out_ext_trans]; eassumption. Qed.
Lemma NoCredit_Quiet c c' : Quiet c c' -> NoCredit c c'.
Proof. intro Q. split; [apply Quiet_Frame, Q | eapply out_ext_weaken; [apply quiet_nowu | apply Q]]. Qed.
Lemma NoCredit_Closes c c' : Closes c c' -> NoCredit c c'.
Proof. intro Q. split; [apply Q | eapply out_ext_weaken; [apply quiet_nowu | apply Q]]. Qed.
Lemma NoCredit_put c x : NoCredit c (put c x).
Proof. split; [apply Frame_put | apply out_ext_same; reflexivity]. Qed.
Lemma NoCredit_emit c o : nowu_out o -> NoCredit c (emit c o).
Proof. intro H. split; [apply Frame_emit | apply out_ext_emit; exact H]. Qed.
Lemma NoCredit_upd_enc c e : NoCredit c (upd_enc c e).
Proof. split; [apply Frame_upd_enc | apply out_ext_same; reflexivity]. Qed.
Lemma NoCredit_upd_clientWindow c w : NoCredit c (upd_clientWindow c w).
Proof. split; [apply Frame_upd_clientWindow | apply out_ext_same; reflexivity]. Qed.

Lemma NoCredit_sd_c2 c sid n : NoCredit c (sd_c2 c sid n).
Proof.
  unfold sd_c2. eapply NoCredit_trans; [apply (NoCredit_emit c (OData sid (sd_es c n) (sd_chunk c n)) I) | apply NoCredit_upd_clientWindow].
Qed.

Lemma SDL_NoCredit sid c n r k : SDL sid c n r k -> NoCredit c (fst (fst (fst r))).
Proof.
  induction 1; cbn [fst]; try apply NoCredit_refl.
  - apply NoCredit_Quiet, Quiet_write_reset.
  - destruct (sn_pendingEnd n1); [apply (NoCredit_emit c (OData sid true []) I) | apply NoCredit_refl].
  - apply NoCredit_sd_c2.
  - eapply NoCredit_trans; [apply NoCredit_sd_c2 | exact IHSDL].
Qed.

Lemma send_data_NoCredit c s : NoCredit c (fst (fst (send_data c s))).
Proof.
  unfold send_data. destruct (send_data_loop_SDL _ (st_id s) (send_data_fuel (get_snd s)) c (get_snd s)) as [k H].
  apply SDL_NoCredit in H. destruct (send_data_loop _ c (st_id s) (get_snd s)) as [[[c1 n1] done] wr]. exact H.
Qed.

Lemma finish_request_NoCredit c s r : NoCredit c (fst (fst (finish_request enc_field c s r))).
Proof.
  unfold finish_request. destruct (response_block enc_field (sc_enc c) r) as [blk e'].
  match goal with |- context [emit ?x ?o] => assert (N1 : NoCredit c (emit x o)) end.
  { eapply NoCredit_trans; [apply NoCredit_upd_enc | apply (NoCredit_emit _ (OHeaders _ _ _) I)]. }
  match goal with |- context [if ?b then _ else _] => destruct b end; cbn [fst]; [exact N1|].
  eapply NoCredit_trans; [exact N1 | apply send_data_NoCredit].
Qed.

Lemma flush_loop_NoCredit ids : forall c done, NoCredit c (fst (flush_loop c ids done)).
Proof.
  induction ids as [|id t IH]; intros c done; cbn [flush_loop]; [apply NoCredit_refl|].
  destruct (strms_search (sc_strms c) id) as [s|]; [|apply IH].
  destruct (st_responded s && negb (st_handlerRunning s) && has_more_to_send s); [|apply IH].
  pose proof (send_data_NoCredit c s) as N1. destruct (send_data c s) as [[c1 s1] fin]. cbn [fst] in N1.
  eapply NoCredit_trans; [exact N1|]. eapply NoCredit_trans; [apply NoCredit_put | apply IH].
Qed.

Lemma flush_streams_NoCredit c : NoCredit c (flush_streams c).
Proof.
  unfold flush_streams. pose proof (flush_loop_NoCredit (map st_id (sc_strms c)) c []) as N1.
  destruct (flush_loop c (map st_id (sc_strms c)) []) as [c1 done]. cbn [fst] in N1.
  eapply NoCredit_trans; [exact N1 | apply NoCredit_Closes, close_all_Closes].
Qed.

Lemma after_frame_NoCredit c s fr wc : NoCredit c (fst (after_frame cfg c s fr wc)).
Proof.
  destruct (after_frame_cases _ cfg c s fr wc) as (c2 & s2 & M & E).
  assert (G : NoCredit c (put_close c2 s2)).
  { apply (NoCredit_trans _ c2).
    - destruct M as [| |c1 s3 fin _ _ SD|]; [apply NoCredit_Quiet, Quiet_write_reset |
        apply NoCredit_Quiet, (Quiet_note _ _ (ODispatch _ _) I) | | apply NoCredit_refl].
      pose proof (send_data_NoCredit c (handle_state fr s)) as N1. rewrite SD in N1. exact N1.
    - unfold put_close. destruct (sstate_eqb (st_state s2) SClosed); [|apply NoCredit_put].
      eapply NoCredit_trans; [apply NoCredit_put | apply NoCredit_Closes, Closes_close_stream]. }
  destruct E as [-> | ->]; [exact G | eapply NoCredit_trans; [exact G | apply NoCredit_Quiet, Quiet_brk]].
Qed.

End NoCredit.

Fixpoint conn_credit (l : list revent) : Z :=
  match l with
  | [] => 0
  | RCredit sid inc :: t => (if N.eqb sid 0 then inc else 0) + conn_credit t
  | RData _ _ :: t => conn_credit t
  end.

Lemma conn_credit_app a b : conn_credit (a ++ b) = (conn_credit a + conn_credit b)%Z.
Proof. induction a as [|[] a IH]; cbn [app conn_credit]; lia. Qed.

Definition only_credits (l : list revent) : Prop := Forall (fun e => match e with RCredit _ _ => True | _ => False end) l.

Lemma rcredits_only l : only_credits (rcredits l).
Proof.
  induction l as [|o l IH]; [constructor|]. rewrite rcredits_cons. apply Forall_app. split; [|exact IH].
  unfold rcredit_of. destruct (strip o); repeat constructor.
Qed.

Lemma peer_conn_window_credits l : only_credits l -> forall w, peer_conn_window w l = (w + conn_credit l)%Z.
Proof.
  induction 1 as [|e l He _ IH]; intro w; cbn [peer_conn_window conn_credit]; [lia|].
  destruct e as [sid inc|]; [|contradiction]. rewrite IH. destruct (N.eqb sid 0); lia.
Qed.

Definition credit_ok_out (o : outev) : Prop := forall sid inc, strip o = OWinUpd sid inc -> credit_ok inc.

Lemma nowu_credit_ok o : nowu_out o -> credit_ok_out o.
Proof. unfold nowu_out, credit_ok_out. intros H sid inc E. rewrite E in H. contradiction. Qed.

(* configuration: serverConn.go sets maxWindow = 1<<22 *)
Definition cfg_ok (cfg : config) : Prop := (0 <= cf_maxWindow cfg <= MAXWIN)%Z.
Definition FRAME_LEN_LIMIT : Z := 16777216.   (* 2^24: the frame length field has 24 bits *)

Section Acc.
Variable hstate : Type.
Variable cfg : config.
Notation sconn := (sconn hstate).
Implicit Types c : sconn.

Definition cw_bounds c : Prop := (cf_maxWindow cfg / 2 <= sc_currentWindow c <= cf_maxWindow cfg)%Z.

(* a piece of a step that debits d bytes of received DATA *)
Record CStep c c' (d : Z) : Prop := mkCStep {
  cs_nonneg : (0 <= d)%Z;
  cs_readerQ : sc_readerQ c' = sc_readerQ c;
  cs_rl_done : sc_rl_done c' = sc_rl_done c;
  cs_wl_dead : sc_wl_dead c' = sc_wl_dead c;
  cs_sl_done : sc_sl_done c' = sc_sl_done c \/ sc_sl_done c' = true;
  cs_closing : sc_closing c = true -> sc_closing c' = true;
  cs_acc : exists new, sc_out c' = new ++ sc_out c /\
    (cfg_ok cfg -> cw_bounds c -> (d < FRAME_LEN_LIMIT)%Z -> cw_bounds c' /\ Forall credit_ok_out new) /\
    (sc_currentWindow c - d <= sc_currentWindow c' - conn_credit (rcredits (rev new)))%Z /\
    (sc_wl_dead c = false -> (sc_currentWindow c' - conn_credit (rcredits (rev new)) = sc_currentWindow c - d)%Z)
}.

Lemma CStep_trans a b c d1 d2 : CStep a b d1 -> CStep b c d2 -> CStep a c (d1 + d2).
Proof.
  intros [a0 a1 a2 a3 a4 a5 (n1 & E1 & B1 & I1 & Q1)] [b0 b1 b2 b3 b4 b5 (n2 & E2 & B2 & I2 & Q2)]. constructor.
  - clear - a0 b0. lia.
  - rewrite b1; exact a1.
  - rewrite b2; exact a2.
  - rewrite b3; exact a3.
  - destruct b4 as [E|E]; [rewrite E; exact a4 | right; exact E].
  - auto.
  - exists (n2 ++ n1). rewrite rev_app_distr, rcredits_app, conn_credit_app.
    split; [rewrite E2, E1, app_assoc; reflexivity|]. split; [|split].
    + intros C Bd Hd. destruct (B1 C Bd) as [Bb F1]; [clear - Hd a0 b0; lia|]. destruct (B2 C Bb) as [Bc F2]; [clear - Hd a0 b0; lia|].
      split; [exact Bc | apply Forall_app; split; assumption].
    + clear - I1 I2. lia.
    + intro W. specialize (Q1 W). assert (W' : sc_wl_dead b = false) by (rewrite a3; exact W). specialize (Q2 W'). clear - Q1 Q2. lia.
Qed.

Lemma CStep_eq c c' d d' : d = d' -> CStep c c' d -> CStep c c' d'.
Proof. intros ->. auto. Qed.

Lemma CStep_NoCredit c c' : NoCredit hstate c c' -> CStep c c' 0.
Proof.
  intros [[f1 f2 f3 f4 f5 f6 f7 f8] (new & E & F)]. constructor; try assumption; [apply Z.le_refl|].
  exists new. split; [exact E|].
  assert (R : rcredits (rev new) = []) by (apply rcredits_nowu, Forall_rev, F).
  rewrite R. cbn [conn_credit]. rewrite f1, !Z.sub_0_r. split; [|split; [apply Z.le_refl | reflexivity]].
  intros _ Bd _. split; [unfold cw_bounds in *; rewrite f1; exact Bd|].
  eapply Forall_impl; [|exact F]. apply nowu_credit_ok.
Qed.

Lemma CStep_Recv_fields c c' (d : Z) : Recv c c' -> (0 <= d)%Z ->
  (exists new, sc_out c' = new ++ sc_out c /\
    (cfg_ok cfg -> cw_bounds c -> (d < FRAME_LEN_LIMIT)%Z -> cw_bounds c' /\ Forall credit_ok_out new) /\
    (sc_currentWindow c - d <= sc_currentWindow c' - conn_credit (rcredits (rev new)))%Z /\
    (sc_wl_dead c = false -> (sc_currentWindow c' - conn_credit (rcredits (rev new)) = sc_currentWindow c - d)%Z)) ->
  CStep c c' d.
Proof.
  intros [r1 r2 r3 r4 r5 r6 r7 r8 r9 r10 r11] Hd A. constructor; try assumption.
  - left. exact r8.
  - intro. rewrite r10. assumption.
Qed.

(* one WINDOW_UPDATE: queued, queued late, or dropped *)
Lemma wu_cases c sid inc :
  exists pre, sc_out (write_window_update c sid inc) = pre ++ sc_out c /\
    ((pre = [] /\ sc_wl_dead c = true) \/ ((pre = [OWinUpd sid inc] \/ pre = [OLate (OWinUpd sid inc)]) /\ sc_wl_dead c = false)).
Proof.
  unfold write_window_update. rewrite sc_out_emit. destruct (sc_wl_dead c); [exists []; auto|].
  destruct (sc_sl_done c); [exists [OLate (OWinUpd sid inc)] | exists [OWinUpd sid inc]]; auto.
Qed.

Lemma credit_cstep c n : cfg_ok cfg -> (0 <= n)%Z -> CStep c (credit_conn_window cfg c n) n.
Proof.
  intros [C1 C2] Hn. apply CStep_Recv_fields; [apply Recv_credit | exact Hn|].
  unfold credit_conn_window. destruct (n <=? 0)%Z eqn:E0.
  - exists []. split; [reflexivity|]. cbn. split; [intros; split; [assumption | constructor]|]. split; [lia | intros _; lia].
  - destruct (sc_currentWindow c - n <? cf_maxWindow cfg / 2)%Z eqn:E1.
    + destruct (wu_cases (upd_currentWindow c (cf_maxWindow cfg)) 0 (cf_maxWindow cfg - (sc_currentWindow c - n))) as (pre & E & Hpre).
      exists pre. split; [exact E|]. unfold write_window_update. rewrite sc_currentWindow_emit. sc_cbn.
      split; [|split].
      * intros _ [B1 B2] Hd. split; [unfold cw_bounds; rewrite sc_currentWindow_emit; sc_cbn;
          split; [apply Z.div_le_upper_bound; lia | lia]|].
        assert (OK : credit_ok (cf_maxWindow cfg - (sc_currentWindow c - n))).
        { unfold credit_ok, MAX_WINDOW. unfold MAXWIN, FRAME_LEN_LIMIT in *.
          assert (cf_maxWindow cfg / 2 * 2 <= cf_maxWindow cfg)%Z by (pose proof (Z.mul_div_le (cf_maxWindow cfg) 2); lia).
          assert (cf_maxWindow cfg < (cf_maxWindow cfg / 2 + 1) * 2)%Z by (pose proof (Z.mul_succ_div_gt (cf_maxWindow cfg) 2); lia).
          lia. }
        destruct Hpre as [[-> _]|[[->| ->] _]]; [constructor | |]; (constructor; [|constructor]; intros s i X; cbn in X; inversion X; subst; exact OK).
      * assert (cf_maxWindow cfg / 2 <= cf_maxWindow cfg)%Z by (apply Z.div_le_upper_bound; lia).
        destruct Hpre as [[-> _]|[[->| ->] _]]; cbn; lia.
      * intro W. sc_cbn_in Hpre. destruct Hpre as [[_ X]|[[->| ->] _]]; [congruence | cbn; lia | cbn; lia].
    + exists []. split; [reflexivity|]. sc_cbn. cbn [rev rcredits flat_map conn_credit]. split; [|split; [lia | intros _; lia]].
      intros _ [B1 B2] _. split; [unfold cw_bounds; sc_cbn; lia | constructor].
Qed.

Lemma consume_cstep c s fr n : cfg_ok cfg -> (0 <= n < FRAME_LEN_LIMIT)%Z -> st_id s <> 0 -> CStep c (consume_recv_window cfg c s fr n) n.
Proof.
  intros Cfg [Hn Hlim] NZ. unfold consume_recv_window. destruct (n <=? 0)%Z eqn:E0.
  - assert (n = 0)%Z by lia. subst n. apply CStep_NoCredit, NoCredit_refl.
  - destruct (flag_has (sf_flags fr) FL_ES); [apply credit_cstep; assumption|].
    cut (CStep c (credit_conn_window cfg (write_window_update c (st_id s) n) n) (0 + n)); [intro X; exact X|].
    eapply CStep_trans; [|apply credit_cstep; assumption].
    apply CStep_Recv_fields; [apply Recv_write_window_update | lia|].
    destruct (wu_cases c (st_id s) n) as (pre & E & Hpre). exists pre. split; [exact E|].
    unfold write_window_update. rewrite sc_currentWindow_emit.
    assert (CC : conn_credit (rcredits (rev pre)) = 0%Z).
    { destruct Hpre as [[-> _]|[[->| ->] _]]; cbn; try reflexivity; destruct (N.eqb (st_id s) 0) eqn:Z; try reflexivity; lia. }
    rewrite CC. split; [|split; [lia | intros _; lia]].
    intros _ Bd _. split; [unfold cw_bounds in *; rewrite sc_currentWindow_emit; exact Bd|].
    assert (OK : credit_ok n) by (unfold credit_ok, MAX_WINDOW, FRAME_LEN_LIMIT in *; lia).
    destruct Hpre as [[-> _]|[[->| ->] _]]; [constructor | |]; (constructor; [|constructor]; intros s0 i X; cbn in X; inversion X; subst; exact OK).
Qed.

End Acc.

Definition dlen (fr : sframe) : Z := match sf_kind fr with KData => Z.of_N (sf_len fr) | _ => 0%Z end.
Definition wire_ok (fr : sframe) : Prop := (Z.of_N (sf_len fr) < FRAME_LEN_LIMIT)%Z.

Section Walk.
Variable hstate : Type.
Variable dec_field : hstate -> N -> bytes -> dec_res hstate.
Variable enc_field : hstate -> bytes -> bytes -> bool -> bytes * hstate.
Variable enc_set_max : hstate -> N -> hstate.
Variable cfg : config.
Notation sconn := (sconn hstate).
Implicit Types c : sconn.
Notation CStep := (CStep hstate cfg).
Notation NoCredit := (NoCredit hstate).

Lemma Origin_id c fr c1 s : Origin c fr c1 s -> st_id s = sf_sid fr.
Proof. destruct 1 as [s LE F|]; [apply strms_search_In in F; apply F | reflexivity]. Qed.

Lemma Origin_NoCredit c fr c1 s : Origin c fr c1 s -> NoCredit c c1.
Proof.
  intro O. destruct (Origin_Frame _ _ _ _ _ O) as [F Q]. split; [exact F | eapply out_ext_weaken; [apply quiet_nowu | exact Q]].
Qed.

Lemma dlen_nonneg fr : (0 <= dlen fr)%Z.
Proof. unfold dlen. destruct (sf_kind fr); flia. Qed.

Lemma sl_frame_cstep c fr : cfg_ok cfg -> fwd_ok fr -> wire_ok fr ->
  exists d, CStep c (fst (sl_frame dec_field enc_set_max cfg c fr)) d /\
    (d = dlen fr \/ (d = 0%Z /\ (sc_closing (fst (sl_frame dec_field enc_set_max cfg c fr)) = true \/
                                 sc_sl_done (fst (sl_frame dec_field enc_set_max cfg c fr)) = true))).
Proof.
  intros Cfg FW WO.
  destruct (sl_frame_SLF _ dec_field enc_set_max cfg c fr)
    as [c' Q D P3 | c' F O SD | Z K HW c0 newInit delta Fa | Z K W | NZ K | c1 s p NZ Or KH Hp | c1 s c2 cX sX NZ Or CL HF].
  - exists 0%Z. split; [apply CStep_NoCredit, NoCredit_Quiet, Q|].
    unfold dlen. destruct (sf_kind fr) eqn:K; auto. right. split; [reflexivity|]. apply D; [reflexivity|].
    intro Z. destruct (FW Z); congruence.
  - exists 0%Z. split; [apply CStep_NoCredit; split; [exact F | eapply out_ext_weaken; [apply quiet_nowu | exact O]]|].
    right. auto.
  - exists 0%Z. split; [|left; unfold dlen; rewrite K; reflexivity].
    apply CStep_NoCredit. eapply NoCredit_trans; [|apply flush_streams_NoCredit].
    eapply NoCredit_trans; [|apply (NoCredit_emit _ _ OSettingsAck I)].
    split; [|apply out_ext_same; sc_cbn; unfold c0, settings_c0; destruct (sf_set_hastable fr); reflexivity].
    eapply Frame_trans; [|apply Frame_upd_strms]. eapply Frame_trans; [|apply Frame_upd_initWin].
    unfold c0, settings_c0. destruct (sf_set_hastable fr); [apply Frame_upd_enc | apply Frame_refl].
  - exists 0%Z. split; [|left; unfold dlen; rewrite K; reflexivity].
    apply CStep_NoCredit. eapply NoCredit_trans; [apply NoCredit_upd_clientWindow | apply flush_streams_NoCredit].
  - exists (Z.of_N (sf_len fr)). split; [apply credit_cstep; [exact Cfg | flia]|]. left. unfold dlen. rewrite K. reflexivity.
  - exists 0%Z. split; [|left; unfold dlen; rewrite KH; reflexivity].
    apply CStep_NoCredit. eapply NoCredit_trans; [apply (Origin_NoCredit _ _ _ _ Or)|].
    eapply NoCredit_trans; [apply NoCredit_Quiet, Quiet_write_goaway | apply NoCredit_put].
  - (* the frame is handled on its stream *)
    pose proof (Origin_id _ _ _ _ Or) as Id.
    assert (M : CStep c2 cX (dlen fr)).
    { unfold HFok in HF. unfold dlen.
      destruct (fkind_eqb (sf_kind fr) KData) eqn:K.
      - assert (K' : sf_kind fr = KData) by (destruct (sf_kind fr); try discriminate; reflexivity). rewrite K'.
        pose proof (handle_frame_data _ dec_field cfg c2 s fr K') as Dt. cbv zeta in Dt. destruct (data_accepts s).
        + rewrite Dt in HF. match type of HF with context [if ?b then _ else _] => destruct b end.
          * destruct HF as (-> & _). eapply (CStep_eq _ _ _ _ (Z.of_N (sf_len fr) + 0)%Z); [flia|].
            eapply CStep_trans; [apply credit_cstep; [exact Cfg | flia] | apply CStep_NoCredit, NoCredit_Quiet, Quiet_write_reset].
          * destruct HF as (-> & _). apply consume_cstep; [exact Cfg | unfold wire_ok in WO; flia|].
            cbn [st_id set_recv]. rewrite Id. exact NZ.
        + destruct Dt as (code & NE & Dt). rewrite Dt in HF. destruct HF as (E & _). contradiction.
      - assert (ND : sf_kind fr <> KData) by (intro X; rewrite X in K; discriminate).
        replace (match sf_kind fr with KData => Z.of_N (sf_len fr) | _ => 0%Z end) with 0%Z by (destruct (sf_kind fr); try reflexivity; contradiction).
        pose proof (handle_frame_eff _ dec_field cfg c2 s fr) as (_ & _ & DDc). specialize (DDc ND).
        destruct (handle_frame dec_field cfg c2 s fr) as [[c3 s3] e]. cbn [fst] in DDc.
        apply CStep_NoCredit. eapply NoCredit_trans; [apply NoCredit_Quiet, DD_Quiet, DDc|].
        destruct e as [[code|code|]|].
        + destruct HF as (_ & -> & _). apply NoCredit_Quiet, Quiet_write_goaway.
        + destruct HF as (-> & _). apply NoCredit_Quiet, Quiet_write_reset.
        + contradiction.
        + destruct HF as (-> & _). apply NoCredit_refl. }
    exists (dlen fr). split; [|left; reflexivity].
    eapply (CStep_eq _ _ _ _ (0 + (0 + (dlen fr + 0)))%Z); [flia|].
    eapply CStep_trans; [apply CStep_NoCredit, (Origin_NoCredit _ _ _ _ Or)|].
    eapply CStep_trans; [apply CStep_NoCredit, NoCredit_Closes, CL|].
    eapply CStep_trans; [exact M|]. apply CStep_NoCredit, after_frame_NoCredit.
Qed.

End Walk.

Section Thm.
Variable hstate : Type.
Variable dec_field : hstate -> N -> bytes -> dec_res hstate.
Variable enc_field : hstate -> bytes -> bytes -> bool -> bytes * hstate.
Variable enc_set_max : hstate -> N -> hstate.
Variable cfg : config.
Variable h0 : hstate.
Notation sconn := (sconn hstate).
Implicit Types c : sconn.
Notation CStep := (CStep hstate cfg).
Notation NoCredit := (NoCredit hstate).
Notation step := (step dec_field enc_field enc_set_max cfg).
Notation run := (run dec_field enc_field enc_set_max cfg h0).
Notation cwb := (cw_bounds hstate cfg).

Lemma sl_done_NoCredit c sid r : NoCredit c (fst (sl_done enc_field cfg c sid r)).
Proof.
  unfold sl_done. destruct (take_stream (sc_gone c) sid) as [[s rest]|].
  - cbn [fst cont]. split.
    + eapply Frame_trans; [apply Frame_upd_gone | apply Frame_release_stream].
    + eapply out_ext_cons; [rewrite sc_out_release_stream; reflexivity | exact I].
  - destruct (strms_search (sc_strms c) sid) as [s|]; [|apply NoCredit_refl].
    destruct (negb (st_handlerRunning s)); [apply NoCredit_refl|].
    pose proof (finish_request_NoCredit _ enc_field c (set_flags s (st_responded s) false (st_abandoned s)) r) as N1.
    destruct (finish_request enc_field c _ r) as [[c1 s2] fin]. cbn [fst] in N1.
    match goal with |- context [if ?b then brk ?x else cont ?x] => assert (G : NoCredit c x) end.
    { eapply NoCredit_trans; [exact N1|]. destruct fin.
      - eapply NoCredit_trans; [apply NoCredit_put | apply NoCredit_Closes, Closes_close_stream].
      - apply NoCredit_put. }
    match goal with |- context [if ?b then brk ?x else cont ?x] => destruct b end; cbn [fst cont]; [|exact G].
    eapply NoCredit_trans; [exact G | apply NoCredit_Quiet, Quiet_brk].
Qed.

Lemma sl_timer_NoCredit c : NoCredit c (fst (sl_timer cfg c)).
Proof.
  unfold sl_timer. destruct (cf_maxRequestTime cfg <=? 0)%Z; cbn [fst cont]; [apply NoCredit_refl|].
  apply NoCredit_Closes, close_heads_Closes.
Qed.

(* (a), (b): the increments and the receive window *)

Definition AInv c : Prop :=
  cwb c /\ Forall wire_ok (sc_readerQ c) /\ Forall fwd_ok (sc_readerQ c) /\ Forall credit_ok_out (sc_out c).

(* every frame handed to the read loop has a length that fits the 24-bit length field *)
Definition wire_ev (e : event) : Prop := match e with EvRL (RFrame fr) => wire_ok fr | _ => True end.

Lemma AInv_cstep c c' d : cfg_ok cfg -> (d < FRAME_LEN_LIMIT)%Z -> CStep c c' d -> AInv c -> AInv c'.
Proof.
  intros Cfg Hd [c0 c1 c2 c3 c4 c5 (new & E & B & _)] (A1 & A2 & A3 & A4).
  destruct (B Cfg A1 Hd) as [B1 B2]. split; [exact B1|]. rewrite c1. split; [exact A2|]. split; [exact A3|].
  rewrite E. apply Forall_app. split; assumption.
Qed.

Lemma AInv_same c c' : sc_currentWindow c' = sc_currentWindow c -> sc_readerQ c' = sc_readerQ c -> sc_out c' = sc_out c ->
  AInv c -> AInv c'.
Proof. intros E1 E2 E3 (A1 & A2 & A3 & A4). unfold AInv, cw_bounds. rewrite E1, E2, E3. auto. Qed.

Lemma quiet_credit_ok new : Forall quiet_out new -> Forall credit_ok_out new.
Proof. apply Forall_impl. intros o H. apply nowu_credit_ok, quiet_nowu, H. Qed.

Lemma step_AInv c e : cfg_ok cfg -> wire_ev e -> AInv c -> AInv (step c e).
Proof.
  intros Cfg WE A. destruct e as [i| |sid r|t| | | |].
  - rewrite step_EvRL. destruct (sc_rl_done c); [exact A|].
    destruct (rl_step_eff _ cfg c i) as [[r1 r2 r3 r4 r5 r6 r7 r8 r9 (new & E & F)] Q].
    destruct A as (A1 & A2 & A3 & A4). split; [unfold cw_bounds; rewrite r4; exact A1|].
    assert (A4' : Forall credit_ok_out (sc_out (rl_step cfg c i))).
    { rewrite E. apply Forall_app. split; [apply quiet_credit_ok, F | exact A4]. }
    destruct Q as [[Q _]|(fr & -> & Q & FW & _)].
    + rewrite Q. auto.
    + rewrite Q. split; [apply Forall_app; split; [exact A2 | constructor; [exact WE | constructor]]|].
      split; [apply Forall_app; split; [exact A3 | constructor; [exact FW | constructor]] | exact A4'].
  - rewrite step_EvSL. destruct (sc_sl_done c); [exact A|].
    destruct (sc_readerQ c) as [|fr q] eqn:EQ.
    + destruct (sc_rl_done c); [|exact A].
      destruct A as (A1 & A2 & A3 & A4). split; [exact A1|]. cbn [sc_readerQ note upd_done upd_out]. rewrite EQ.
      split; [constructor|]. split; [constructor|]. cbn [sc_out]. constructor; [intros s i X; discriminate | exact A4].
    + destruct A as (A1 & A2 & A3 & A4). rewrite EQ in A2, A3. inversion A2; subst. inversion A3; subst.
      destruct (sl_frame_cstep _ dec_field enc_set_max cfg (upd_readerQ c q) fr Cfg) as (d & CS & Hd); try assumption.
      eapply (AInv_cstep (upd_readerQ c q)); [exact Cfg | | exact CS|].
      * destruct Hd as [->|[-> _]]; [unfold dlen; destruct (sf_kind fr); try (unfold FRAME_LEN_LIMIT; flia); assumption | unfold FRAME_LEN_LIMIT; flia].
      * split; [exact A1|]. sc_cbn. auto.
  - rewrite step_EvDone. destruct (sc_sl_done c); [exact A|].
    eapply AInv_cstep; [exact Cfg | | apply CStep_NoCredit, sl_done_NoCredit | exact A]. unfold FRAME_LEN_LIMIT; flia.
  - rewrite step_EvClock. destruct (sc_now c <? t)%Z; [|exact A]. eapply AInv_same; [..|exact A]; reflexivity.
  - rewrite step_EvTimer. destruct (sc_sl_done c); [exact A|].
    eapply AInv_cstep; [exact Cfg | | apply CStep_NoCredit, sl_timer_NoCredit | exact A]. unfold FRAME_LEN_LIMIT; flia.
  - rewrite step_EvIdle.
    pose proof (Quiet_idle _ c) as Q.
    eapply AInv_cstep; [exact Cfg | | apply CStep_NoCredit, NoCredit_Quiet, Q | exact A]. unfold FRAME_LEN_LIMIT; flia.
  - rewrite step_EvCloser. destruct (sc_closer c && negb (sc_sl_done c)); [|exact A].
    eapply AInv_cstep; [exact Cfg | | apply CStep_NoCredit, NoCredit_Quiet, Quiet_brk | exact A]. unfold FRAME_LEN_LIMIT; flia.
  - rewrite step_EvWriteFail. eapply AInv_same; [..|exact A]; reflexivity.
Qed.

Lemma AInv_init : cfg_ok cfg -> AInv (init_conn cfg h0).
Proof.
  intros [C1 C2]. split; [|split; [constructor | split; constructor]].
  unfold cw_bounds. cbn. split; [apply Z.div_le_upper_bound; flia | flia].
Qed.

Lemma AInv_run evs : cfg_ok cfg -> Forall wire_ev evs -> AInv (run evs).
Proof.
  intros Cfg. induction evs as [|e evs IH] using rev_ind; intro W; [apply AInv_init; exact Cfg|].
  apply Forall_app in W. destruct W as [W1 W2]. inversion W2; subst.
  rewrite run_snoc. apply step_AInv; auto.
Qed.

(* C14 (a): every WINDOW_UPDATE the server queues has an increment in 1 .. 2^31-1 *)
Theorem window_update_increments evs o sid inc : cfg_ok cfg -> Forall wire_ev evs ->
  In o (trace (run evs)) -> strip o = OWinUpd sid inc -> (0 < inc <= 2147483647)%Z.
Proof.
  intros Cfg W Hin Hs. apply trace_In in Hin. destruct (AInv_run evs Cfg W) as (_ & _ & _ & A4).
  rewrite Forall_forall in A4. exact (A4 o Hin sid inc Hs).
Qed.

(* C14 (b): the receive window stays between half of sc.maxWindow and sc.maxWindow *)
Theorem receive_window_bounds evs : cfg_ok cfg -> Forall wire_ev evs ->
  (cf_maxWindow cfg / 2 <= sc_currentWindow (run evs) <= cf_maxWindow cfg)%Z.
Proof. intros Cfg W. apply (AInv_run evs Cfg W). Qed.

End Thm.
