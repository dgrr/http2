(* Proofs/SrvFlowCDecomp.v - the decomposition of the stream loop's frame arm, leaf by leaf (SLX): the quiet leaves
   also say what they do to the ring of closed ids and which grants of the frame can touch a table stream; closing
   streams says why a stream left the table. The coarser reading SLF (Proofs/SrvFlowEff.v) follows from it. *)
From H2V Require Import Base.Bytes Base.MachineInt Base.Result Gen.GenConsts Impl.ServerConn Proofs.SrvBase
  Spec.FlowLedger Proofs.SrvFlowLedger Proofs.SrvFlowDefs Proofs.SrvFlowSend Proofs.SrvFlowEff.
From Coq Require Import ZArith Lia ZifyN ZifyNat ZifyBool List.
Import ListNotations.
Local Open Scope N_scope.
Set Default Proof Using "Type".

Section Decomp.
Variable hstate : Type.
Variable dec_field : hstate -> N -> bytes -> dec_res hstate.
Variable enc_set_max : hstate -> N -> hstate.
Variable cfg : config.
Notation sconn := (sconn hstate).
Implicit Types c : sconn.

(* ids in the ring of closed streams and in the table are ids the peer has used *)
Definition RI c : Prop :=
  (forall e, In e (sc_ring c) -> fst e <= sc_highestID c) /\ (forall s, In s (sc_strms c) -> st_id s <= sc_highestID c).
(* the second half of RI *)
Definition IdsHi c : Prop := forall s, In s (sc_strms c) -> st_id s <= sc_highestID c.
Definition RIP c c' : Prop := RI c -> RI c'.

Lemma RIP_refl c : RIP c c. Proof. intro H; exact H. Qed.
Lemma RIP_trans a b c : RIP a b -> RIP b c -> RIP a c. Proof. unfold RIP; auto. Qed.
Lemma RIP_same c c' : sc_ring c' = sc_ring c -> sc_strms c' = sc_strms c -> sc_highestID c <= sc_highestID c' -> RIP c c'.
Proof.
  intros E1 E2 E3 [A B]. split; [rewrite E1 | rewrite E2].
  - intros e He. specialize (A e He). flia.
  - intros s Hs. specialize (B s Hs). flia.
Qed.

Lemma mark_closed_ring_In c id w e : In e (sc_ring (mark_closed c id w)) -> e = (id, w) \/ In e (sc_ring c).
Proof.
  unfold mark_closed. destruct (in_ring c id); [auto|]. destruct (_ <? _); sc_cbn.
  - intro H. apply in_app_or in H. destruct H as [H|[H|[]]]; auto.
  - apply set_nth_N_In.
Qed.

Lemma RIP_mark_closed c id w : id <= sc_highestID c -> RIP c (mark_closed c id w).
Proof.
  intros Hid [A B]. split.
  - intros e He. rewrite sc_highestID_mark_closed. destruct (mark_closed_ring_In _ _ _ _ He) as [->|H]; [exact Hid | auto].
  - rewrite sc_strms_mark_closed, sc_highestID_mark_closed. exact B.
Qed.

Lemma RIP_emit c o : RIP c (emit c o).
Proof. rewrite emit_eq. apply RIP_same; [reflexivity | reflexivity | apply N.le_refl]. Qed.
Lemma RIP_write_goaway c sid code : RIP c (write_goaway c sid code).
Proof. rewrite write_goaway_upd. apply RIP_same; [reflexivity | reflexivity | apply N.le_refl]. Qed.
Lemma RIP_write_reset c sid code : RIP c (write_reset c sid code).
Proof. apply RIP_emit. Qed.
Lemma RIP_note c o : RIP c (note c o).
Proof. apply RIP_same; [reflexivity | reflexivity | apply N.le_refl]. Qed.
Lemma RIP_brk c : RIP c (fst (brk c)).
Proof. apply RIP_same; [reflexivity | reflexivity | apply N.le_refl]. Qed.
Lemma RIP_write_error c s e : RIP c (fst (write_error c s e)).
Proof. rewrite write_error_fst. destruct e, s; auto using RIP_write_goaway, RIP_write_reset, RIP_refl. Qed.
Lemma RIP_upd_enc c h : RIP c (upd_enc c h).
Proof. apply RIP_same; sc_cbn; try reflexivity; flia. Qed.
Lemma RIP_upd_highestID c n : sc_highestID c <= n -> RIP c (upd_highestID c n).
Proof. intro H. apply RIP_same; sc_cbn; try reflexivity; flia. Qed.
Lemma RIP_DD c c' : DD c c' -> RIP c c'.
Proof. intros (d & i & p & n & ->). apply RIP_same; sc_cbn; try reflexivity; flia. Qed.
Lemma RIP_Recv_ring c c' : Recv c c' -> sc_ring c' = sc_ring c -> RIP c c'.
Proof. intros R E. apply RIP_same; [exact E | apply R | rewrite (rv_highestID _ _ _ R); flia]. Qed.
Lemma RIP_credit c n : RIP c (credit_conn_window cfg c n).
Proof. rewrite credit_conn_window_eq. apply RIP_same; [reflexivity | reflexivity | apply N.le_refl]. Qed.
Lemma RIP_put c x : RIP c (put c x).
Proof.
  intros [A B]. split; [rewrite sc_ring_put, sc_highestID_put; exact A|].
  rewrite sc_highestID_put. unfold put. sc_cbn. intros s Hs.
  assert (I : In (st_id s) (map st_id (strms_put (sc_strms c) x))) by (apply in_map; exact Hs).
  rewrite strms_put_ids in I. apply in_map_iff in I. destruct I as (s0 & <- & H0). auto.
Qed.

Lemma discard_or_break_RIP c r : RIP c (fst r) -> RIP c (fst (discard_or_break r)).
Proof.
  destruct r as [c1 [e|]]; cbn [fst discard_or_break]; intro H; [|assumption].
  destruct e; (eapply RIP_trans; [eassumption|]).
  - eapply RIP_trans; [apply RIP_write_error | apply RIP_brk].
  - eapply RIP_trans; [apply RIP_write_error | apply RIP_brk].
  - eapply RIP_trans; [apply RIP_note | apply RIP_brk].
Qed.

(* a stream left the table for a reason the peer can see, or the connection is going down *)
Definition reset_seen (sid : N) c : Prop := exists o code, In o (sc_out c) /\ strip o = ORst sid code.
Definition AbortS (sid : N) c : Prop :=
  sc_sl_done c = true \/ sc_wl_dead c = true \/ sc_closing c = true \/ reset_seen sid c.

Lemma reset_seen_ext sid c c' P : out_ext P c c' -> reset_seen sid c -> reset_seen sid c'.
Proof. intros (new & E & _) (o & code & Hin & Ho). exists o, code. rewrite E. split; [apply in_or_app; right; exact Hin | exact Ho]. Qed.

Lemma AbortS_Frame sid c c' P : Frame c c' -> out_ext P c c' -> AbortS sid c -> AbortS sid c'.
Proof.
  intros F O [H|[H|[H|H]]].
  - left. destruct (f_sl_done _ _ _ F) as [E|E]; congruence.
  - right; left. rewrite (f_wl_dead _ _ _ F). exact H.
  - right; right; left. apply (f_closing _ _ _ F H).
  - right; right; right. eapply reset_seen_ext; eassumption.
Qed.

Lemma write_reset_seen c sid code : sc_wl_dead c = true \/ reset_seen sid (write_reset c sid code).
Proof.
  unfold write_reset, reset_seen. rewrite sc_out_emit. destruct (sc_wl_dead c); [left; reflexivity|]. right.
  destruct (sc_sl_done c); eexists _, code; (split; [left; reflexivity | reflexivity]).
Qed.

(* streams are closed by the server's own doing: each with an RST_STREAM *)
Record ClosesR c c' : Prop := mkClosesR {
  cr_closes : Closes c c';
  cr_ri : RIP c c';
  cr_why : forall sid, strms_search (sc_strms c') sid = strms_search (sc_strms c) sid \/ AbortS sid c'
}.

Lemma ClosesR_refl c : ClosesR c c.
Proof. constructor; [apply Closes_refl | apply RIP_refl | auto]. Qed.
Lemma ClosesR_trans a b c : ClosesR a b -> ClosesR b c -> ClosesR a c.
Proof.
  intros [A1 A2 A3] [B1 B2 B3]. constructor; [eapply Closes_trans; eassumption | eapply RIP_trans; eassumption|].
  intro sid. destruct (B3 sid) as [E|E]; [|right; exact E]. rewrite E. destruct (A3 sid) as [E'|E']; [left; exact E'|].
  right. eapply AbortS_Frame; [apply B1 | apply B1 | exact E'].
Qed.

Lemma RIP_close_stream c s : In (st_id s) (map st_id (sc_strms c)) -> RIP c (close_stream c s).
Proof.
  intros Hin [A B].
  assert (Hid : st_id s <= sc_highestID c).
  { apply in_map_iff in Hin. destruct Hin as (s0 & <- & H0). auto. }
  split.
  - rewrite sc_highestID_close_stream, sc_ring_close_stream. intros e He.
    destruct (mark_closed_ring_In _ _ _ _ He) as [->|H]; [exact Hid | auto].
  - rewrite sc_highestID_close_stream, sc_strms_close_stream. intros x Hx. apply B. eapply strms_del_In. exact Hx.
Qed.

(* one stream of the table is closed with an RST_STREAM, in either order *)
Lemma ClosesR_reset_close c s code : In (st_id s) (map st_id (sc_strms c)) ->
  ClosesR c (close_stream (write_reset c (st_id s) code) s).
Proof.
  intro Hin. constructor.
  - eapply Closes_trans; [apply Closes_write_reset | apply Closes_close_stream].
  - eapply RIP_trans; [apply RIP_write_reset|]. apply RIP_close_stream. rewrite sc_strms_write_reset. exact Hin.
  - intro sid. destruct (N.eq_dec sid (st_id s)) as [->|NE].
    + right. eapply AbortS_Frame; [apply Frame_close_stream | apply close_stream_out|].
      destruct (write_reset_seen c (st_id s) code) as [H|H]; [right; left; rewrite sc_wl_dead_write_reset; exact H|].
      right; right; right. exact H.
    + left. rewrite sc_strms_close_stream, sc_strms_write_reset. apply search_del_other. exact NE.
Qed.
Lemma ClosesR_close_reset c s code : In (st_id s) (map st_id (sc_strms c)) ->
  ClosesR c (write_reset (close_stream c s) (st_id s) code).
Proof.
  intro Hin. constructor.
  - eapply Closes_trans; [apply Closes_close_stream | apply Closes_write_reset].
  - eapply RIP_trans; [apply RIP_close_stream; exact Hin | apply RIP_write_reset].
  - intro sid. destruct (N.eq_dec sid (st_id s)) as [->|NE].
    + right. destruct (write_reset_seen (close_stream c s) (st_id s) code) as [H|H];
        [right; left; rewrite sc_wl_dead_write_reset; exact H | right; right; right; exact H].
    + left. rewrite sc_strms_write_reset, sc_strms_close_stream. apply search_del_other. exact NE.
Qed.

Lemma implicit_close_ClosesR fuel : forall c sid, ClosesR c (implicit_close fuel c sid).
Proof.
  induction fuel as [|fuel IH]; intros c sid; cbn [implicit_close]; [apply ClosesR_refl|].
  destruct (sc_strms c) as [|n t] eqn:E; [apply ClosesR_refl|].
  match goal with |- context [if ?b then _ else _] => destruct b end; [|apply ClosesR_refl].
  eapply ClosesR_trans; [|apply IH].
  apply (ClosesR_close_reset c (set_state (set_weReset n) SClosed) c_StreamCanceled).
  rewrite E. left. reflexivity.
Qed.

Lemma close_heads_ClosesR n : forall c, ClosesR c (close_heads n c).
Proof.
  induction n as [|n IH]; intro c; cbn [close_heads]; [apply ClosesR_refl|].
  destruct (sc_strms c) as [|s t] eqn:E; [apply ClosesR_refl|].
  eapply ClosesR_trans; [|apply IH].
  apply (ClosesR_reset_close c (set_state (set_weReset s) SClosed) c_StreamCanceled).
  rewrite E. left. reflexivity.
Qed.

(* the table stream a frame is for, as the stream loop looks it up *)
Definition found c (fr : sframe) : option stream :=
  if sf_sid fr <=? sc_lastID c then strms_search (sc_strms c) (sf_sid fr) else None.

Inductive SLX c (fr : sframe) : sconn -> Prop :=
| SLX_quiet c' : Quiet c c' -> RIP c c' ->
    (sf_sid fr = 0 -> lgrants_of fr = []) ->
    (sf_sid fr <> 0 -> lgrants_of fr = [] \/ found c fr = None) ->
    (sf_sid fr <> 0 -> sf_kind fr = KHeaders -> RI c -> sc_lastID c <= sc_highestID c -> sf_sid fr <= sc_highestID c') ->
    (sf_kind fr = KData -> sf_sid fr <> 0 -> sc_closing c' = true \/ sc_sl_done c' = true) ->
    SLX c fr c'
| SLX_dead c' : Frame c c' -> out_ext quiet_out c c' -> sc_sl_done c' = true -> SLX c fr c'
| SLX_settings : sf_sid fr = 0 -> sf_kind fr = KSettings -> sf_set_haswin fr = true ->
    let c0 := settings_c0 enc_set_max c fr in
    let newInit := signed 32 (sf_set_win fr) in
    let delta := (newInit - sc_initWin c)%Z in
    Forall (fun s => (st_window s + delta <= MAXWIN)%Z) (sc_strms c) ->
    SLX c fr (flush_streams (emit (upd_strms (upd_initWin c0 newInit) (map (bump delta) (sc_strms c))) OSettingsAck))
| SLX_winupd : sf_sid fr = 0 -> sf_kind fr = KWinUpd -> (sc_clientWindow c + Z.of_N (sf_inc fr) <= MAXWIN)%Z ->
    SLX c fr (flush_streams (upd_clientWindow c (sc_clientWindow c + Z.of_N (sf_inc fr))))
| SLX_credit : sf_sid fr <> 0 -> sf_kind fr = KData ->
    SLX c fr (credit_conn_window cfg c (Z.of_N (sf_len fr)))
| SLX_prev c1 s p : sf_sid fr <> 0 -> Origin c fr c1 s -> sf_kind fr = KHeaders -> In p (sc_strms c1) ->
    SLX c fr (put (write_goaway c1 (st_id p) c_ProtocolError) (set_state p SClosed))
| SLX_after c1 s c2 cX sX : sf_sid fr <> 0 -> Origin c fr c1 s -> ClosesR c1 c2 -> HFok dec_field cfg c2 s fr cX sX ->
    SLX c fr (fst (after_frame cfg cX sX fr (sc_closing c))).

(* ris / qs / fs / os prove RIP / Quiet / Frame / out_ext of a state built by nesting the stream loop's helpers
   (write_goaway, write_reset, mark_closed, brk, setters ...) around a start state: they peel the outermost helper with
   its lemma and transitivity until the start state is reached; they fail on any other shape *)
Ltac ris :=
  lazymatch goal with
  | |- RIP ?a ?a => apply RIP_refl
  | |- RIP _ (fst (cont ?x)) => change (fst (cont x)) with x; ris
  | |- RIP _ (write_goaway _ _ _) => eapply RIP_trans; [|apply RIP_write_goaway]; ris
  | |- RIP _ (write_reset _ _ _) => eapply RIP_trans; [|apply RIP_write_reset]; ris
  | |- RIP _ (mark_closed _ _ _) => eapply RIP_trans; [|apply RIP_mark_closed; rewrite ?sc_highestID_write_goaway, ?sc_highestID_write_reset, ?sc_highestID_emit, ?sc_highestID_note, ?sc_highestID_put; sc_cbn; flia]; ris
  | |- RIP _ (fst (brk _)) => eapply RIP_trans; [|apply RIP_brk]; ris
  | |- RIP _ (fst (write_error _ _ _)) => eapply RIP_trans; [|apply RIP_write_error]; ris
  | |- RIP _ (upd_enc _ _) => eapply RIP_trans; [|apply RIP_upd_enc]; ris
  | |- RIP _ (upd_highestID _ _) => eapply RIP_trans; [|apply RIP_upd_highestID; sc_cbn; flia]; ris
  | |- RIP _ (emit _ OSettingsAck) => eapply RIP_trans; [|apply RIP_emit]; ris
  | |- RIP _ (credit_conn_window _ _ _) => eapply RIP_trans; [|apply RIP_credit]; ris
  | |- RIP _ (fst (discard_or_break _)) => apply discard_or_break_RIP; ris
  | |- RIP _ (fst (discard_header_block _ _ _ _)) => eapply RIP_trans; [|apply RIP_DD, discard_header_block_DD]; ris
  | |- RIP ?a ?b => constr_eq a b; apply RIP_refl
  end.

Ltac qs :=
  lazymatch goal with
  | |- Quiet ?a ?a => apply Quiet_refl
  | |- Quiet _ (fst (cont ?x)) => change (fst (cont x)) with x; qs
  | |- Quiet _ (write_goaway _ _ _) => eapply Quiet_trans; [|apply Quiet_write_goaway]; qs
  | |- Quiet _ (write_reset _ _ _) => eapply Quiet_trans; [|apply Quiet_write_reset]; qs
  | |- Quiet _ (mark_closed _ _ _) => eapply Quiet_trans; [|apply Quiet_mark_closed]; qs
  | |- Quiet _ (fst (brk _)) => eapply Quiet_trans; [|apply Quiet_brk]; qs
  | |- Quiet _ (fst (write_error _ _ _)) => eapply Quiet_trans; [|apply Quiet_write_error]; qs
  | |- Quiet _ (upd_enc _ _) => eapply Quiet_trans; [|apply Quiet_upd_enc]; qs
  | |- Quiet _ (upd_highestID _ _) => eapply Quiet_trans; [|apply Quiet_upd_highestID; sc_cbn; flia]; qs
  | |- Quiet _ (emit _ OSettingsAck) => eapply Quiet_trans; [|apply Quiet_emit; exact I]; qs
  | |- Quiet _ (fst (discard_or_break _)) => apply discard_or_break_Quiet; qs
  | |- Quiet _ (fst (discard_header_block _ _ _ _)) => eapply Quiet_trans; [|apply DD_Quiet, discard_header_block_DD]; qs
  | |- Quiet ?a ?b => constr_eq a b; apply Quiet_refl
  end.

Ltac fs :=
  lazymatch goal with
  | |- Frame _ (fst (cont ?x)) => change (fst (cont x)) with x; fs
  | |- Frame _ (upd_clientWindow _ _) => eapply Frame_trans; [|apply Frame_upd_clientWindow]; fs
  | |- Frame _ (upd_strms _ _) => eapply Frame_trans; [|apply Frame_upd_strms]; fs
  | |- Frame _ (upd_initWin _ _) => eapply Frame_trans; [|apply Frame_upd_initWin]; fs
  | |- Frame _ (upd_enc _ _) => eapply Frame_trans; [|apply Frame_upd_enc]; fs
  | |- Frame _ (upd_open _ _) => eapply Frame_trans; [|apply Frame_upd_open]; fs
  | |- Frame _ (put _ _) => eapply Frame_trans; [|apply Frame_put]; fs
  | |- Frame _ (upd_lastID _ _) => eapply Frame_trans; [|apply Frame_upd_lastID; sc_cbn; flia]; fs
  | |- Frame _ (upd_highestID _ _) => eapply Frame_trans; [|apply Frame_upd_highestID; sc_cbn; flia]; fs
  | |- Frame _ (write_goaway _ _ _) => eapply Frame_trans; [|apply Quiet_Frame, Quiet_write_goaway]; fs
  | |- Frame _ (write_reset _ _ _) => eapply Frame_trans; [|apply Quiet_Frame, Quiet_write_reset]; fs
  | |- Frame _ (fst (brk _)) => eapply Frame_trans; [|apply Quiet_Frame, Quiet_brk]; fs
  | |- Frame _ (note _ _) => eapply Frame_trans; [|apply Frame_note]; fs
  | |- Frame _ (emit _ _) => eapply Frame_trans; [|apply Frame_emit]; fs
  | |- Frame _ (settings_c0 _ _ _) => unfold settings_c0; match goal with |- context [if ?b then _ else _] => destruct b end; fs
  | |- Frame ?a ?b => constr_eq a b; apply Frame_refl
  end.

Ltac os :=
  lazymatch goal with
  | |- out_ext _ _ (fst (cont ?x)) => change (fst (cont x)) with x; os
  | |- out_ext ?P ?a (upd_clientWindow ?x _) => apply (out_ext_trans _ P a x); [|apply out_ext_same; reflexivity]; os
  | |- out_ext ?P ?a (upd_strms ?x _) => apply (out_ext_trans _ P a x); [|apply out_ext_same; reflexivity]; os
  | |- out_ext ?P ?a (upd_initWin ?x _) => apply (out_ext_trans _ P a x); [|apply out_ext_same; reflexivity]; os
  | |- out_ext ?P ?a (upd_enc ?x _) => apply (out_ext_trans _ P a x); [|apply out_ext_same; reflexivity]; os
  | |- out_ext ?P ?a (upd_open ?x _) => apply (out_ext_trans _ P a x); [|apply out_ext_same; reflexivity]; os
  | |- out_ext ?P ?a (upd_lastID ?x _) => apply (out_ext_trans _ P a x); [|apply out_ext_same; reflexivity]; os
  | |- out_ext ?P ?a (upd_highestID ?x _) => apply (out_ext_trans _ P a x); [|apply out_ext_same; reflexivity]; os
  | |- out_ext ?P ?a (put ?x _) => apply (out_ext_trans _ P a x); [|apply out_ext_same; reflexivity]; os
  | |- out_ext _ _ (write_goaway _ _ _) => eapply out_ext_trans; [|apply q_out, Quiet_write_goaway]; os
  | |- out_ext _ _ (write_reset _ _ _) => eapply out_ext_trans; [|apply q_out, Quiet_write_reset]; os
  | |- out_ext _ _ (fst (brk _)) => eapply out_ext_trans; [|apply q_out, Quiet_brk]; os
  | |- out_ext _ _ (note _ (OPanic _ _)) => eapply out_ext_trans; [|apply out_ext_note; exact I]; os
  | |- out_ext _ _ (settings_c0 _ _ _) => unfold settings_c0; match goal with |- context [if ?b then _ else _] => destruct b end; os
  | |- out_ext _ ?a ?b => constr_eq a b; apply out_ext_refl
  end.

(* a refused DATA frame: not on this kind of frame, or a GOAWAY went out *)
Ltac pd := first [congruence | (intros _ _; left; apply sc_closing_write_goaway) | (intros _ H; exfalso; apply H; flia)].

Lemma sl_tail_SLX c fr c1 s : sf_sid fr <> 0 ->
  Origin c fr c1 s \/
  (sf_kind fr <> KHeaders /\ sf_kind fr <> KPriority /\ st_state s = SIdle /\ Frame c c1 /\ out_ext quiet_out c c1) ->
  SLX c fr (fst (sl_tail dec_field cfg fr (sc_closing c) c1 s)).
Proof.
  intros NZ HO.
  assert (FO : Frame c c1 /\ out_ext quiet_out c c1).
  { destruct HO as [HO|(_ & _ & _ & A & B)]; [eapply Origin_Frame; eassumption | auto]. }
  destruct FO as [FO OO].
  unfold sl_tail.
  assert (P2 : (exists p, sf_kind fr = KHeaders /\ In p (sc_strms c1) /\
                  SLX c fr (put (write_goaway c1 (st_id p) c_ProtocolError) (set_state p SClosed)) /\
                  (if fkind_eqb (sf_kind fr) KHeaders then
                     match get_previous_headers (sc_strms c1) with
                     | Some p =>
                       if negb (st_headersFinished p) then
                         let '(c2, p') := write_error c1 (Some p) (EGoAway c_ProtocolError) in
                         inl (cont (match p' with Some p' => put c2 p' | None => c2 end))
                       else inr (implicit_close (S (length (sc_strms c1))) c1 (st_id s))
                     | None => inr (implicit_close (S (length (sc_strms c1))) c1 (st_id s))
                     end
                   else inr c1) = inl (cont (put (write_goaway c1 (st_id p) c_ProtocolError) (set_state p SClosed))))
               \/
               (exists c2, ClosesR c1 c2 /\
                  (if fkind_eqb (sf_kind fr) KHeaders then
                     match get_previous_headers (sc_strms c1) with
                     | Some p =>
                       if negb (st_headersFinished p) then
                         let '(c2, p') := write_error c1 (Some p) (EGoAway c_ProtocolError) in
                         inl (cont (match p' with Some p' => put c2 p' | None => c2 end))
                       else inr (implicit_close (S (length (sc_strms c1))) c1 (st_id s))
                     | None => inr (implicit_close (S (length (sc_strms c1))) c1 (st_id s))
                     end
                   else inr c1) = inr c2)).
  { destruct (fkind_eqb (sf_kind fr) KHeaders) eqn:KH.
    - apply fkind_eqb_eq in KH.
      destruct (get_previous_headers (sc_strms c1)) as [p|] eqn:GP.
      + destruct (negb (st_headersFinished p)).
        * left. exists p. apply get_previous_headers_In in GP.
          split; [assumption|]. split; [assumption|]. split; [|reflexivity].
          destruct HO as [HO|(NH & _)]; [|contradiction]. eapply SLX_prev; eassumption.
        * right. eexists. split; [apply implicit_close_ClosesR | reflexivity].
      + right. eexists. split; [apply implicit_close_ClosesR | reflexivity].
    - right. exists c1. split; [apply ClosesR_refl | reflexivity]. }
  destruct P2 as [(p & KH & Hp & HS & ->) | (c2 & CLR & ->)]; [exact HS|].
  pose proof (cr_closes _ _ CLR) as CL.
  destruct (handle_frame dec_field cfg c2 s fr) as [[c3 s3] e] eqn:HF.
  assert (F2 : Frame c c2) by (eapply Frame_trans; [exact FO | apply CL]).
  assert (O2 : out_ext quiet_out c c2) by (eapply out_ext_trans; [exact OO | apply CL]).
  destruct e as [e|].
  - destruct e as [code|code|].
    + pose proof (handle_frame_fatal _ _ _ _ _ _ _ _ _ HF I) as D.
      cbn [write_error]. destruct (negb (code =? c_NoError)) eqn:NE.
      * apply SLX_dead; [| |reflexivity].
        -- eapply Frame_trans; [exact F2|]. eapply Frame_trans; [apply Quiet_Frame, DD_Quiet, D|]. fs.
        -- eapply out_ext_trans; [exact O2|]. eapply out_ext_trans; [apply q_out, DD_Quiet, D|]. os.
      * destruct HO as [HO|(NH & NP & SI & _)].
        -- eapply SLX_after; [exact NZ | exact HO | exact CLR|]. unfold HFok. rewrite HF. repeat split. flia.
        -- exfalso. unfold handle_frame, verify_state in HF. rewrite SI in HF.
           destruct (sf_kind fr); try contradiction; cbn in HF; inversion HF; subst; discriminate.
    + destruct HO as [HO|(NH & NP & SI & _)].
      * cbn [write_error]. eapply SLX_after; [exact NZ | exact HO | exact CLR|]. unfold HFok. rewrite HF. repeat split.
      * exfalso. unfold handle_frame, verify_state in HF. rewrite SI in HF.
        destruct (sf_kind fr); try contradiction; cbn in HF; inversion HF.
    + pose proof (handle_frame_fatal _ _ _ _ _ _ _ _ _ HF I) as D. cbn [write_error].
      apply SLX_dead; [| |reflexivity].
      * eapply Frame_trans; [exact F2|]. eapply Frame_trans; [apply Quiet_Frame, DD_Quiet, D|]. fs.
      * eapply out_ext_trans; [exact O2|]. eapply out_ext_trans; [apply q_out, DD_Quiet, D|]. os.
  - destruct HO as [HO|(NH & NP & SI & _)].
    + eapply SLX_after; [exact NZ | exact HO | exact CLR|]. unfold HFok. rewrite HF. split; reflexivity.
    + exfalso. unfold handle_frame, verify_state in HF. rewrite SI in HF.
      destruct (sf_kind fr); try contradiction; cbn in HF; inversion HF.
Qed.

Lemma in_ring_In c id : in_ring c id = true -> exists e, In e (sc_ring c) /\ fst e = id.
Proof.
  unfold in_ring. intro H. apply existsb_exists in H. destruct H as (e & He & E). exists e. split; [exact He|].
  apply N.eqb_eq in E. symmetry. exact E.
Qed.

Lemma quiet_hi cm c' sid : sid <= sc_highestID cm -> Quiet cm c' -> sid <= sc_highestID c'.
Proof. intros H Q. pose proof (q_highestID _ _ _ Q). flia. Qed.

Lemma lgrants_conn_nil fr : (sf_sid fr =? 0) = true -> sf_kind fr <> KWinUpd ->
  (sf_kind fr = KSettings -> sf_set_haswin fr = false) -> lgrants_of fr = [].
Proof.
  intros Z K1 K2. unfold lgrants_of. rewrite Z. destruct (sf_kind fr); try reflexivity; [rewrite K2; reflexivity | congruence].
Qed.
Lemma lgrants_strm_nil fr : (sf_sid fr =? 0) = false -> sf_kind fr <> KHeaders -> sf_kind fr <> KWinUpd -> lgrants_of fr = [].
Proof. intros Z K1 K2. unfold lgrants_of. rewrite Z. destruct (sf_kind fr); try reflexivity; congruence. Qed.

Theorem sl_frame_SLX c fr : SLX c fr (fst (sl_frame dec_field enc_set_max cfg c fr)).
Proof.
  destruct (sf_sid fr =? 0) eqn:Z0.
  - (* connection-level frames *)
    assert (ZZ : sf_sid fr = 0) by flia.
    destruct (sf_kind fr) eqn:K.
    5:{ rewrite sl_frame_settings by assumption. cbv zeta.
      destruct (sf_set_haswin fr) eqn:HW.
      - destruct (bumpall _ [] _) as [l' over] eqn:B. destruct over.
        + apply SLX_dead; [fs | os | reflexivity].
        + apply bumpall_false in B. destruct B as [-> F]. cbn [app fst cont].
          replace (sc_strms (upd_initWin (settings_c0 enc_set_max c fr) (signed 32 (sf_set_win fr)))) with (sc_strms c) in *
            by (unfold settings_c0; destruct (sf_set_hastable fr); reflexivity).
          replace (sc_initWin (settings_c0 enc_set_max c fr)) with (sc_initWin c) in *
            by (unfold settings_c0; destruct (sf_set_hastable fr); reflexivity).
          apply SLX_settings; try assumption.
      - apply SLX_quiet.
        + cbn [fst cont]. unfold settings_c0. destruct (sf_set_hastable fr); qs.
        + cbn [fst cont]. unfold settings_c0. destruct (sf_set_hastable fr); ris.
        + intros _. apply lgrants_conn_nil; [assumption | congruence | intros _; exact HW].
        + intro X; contradiction.
        + intro X; contradiction.
        + congruence. }
    all: unfold sl_frame; rewrite Z0, K.
    all: try (apply SLX_quiet; [qs | ris | (intros _; apply lgrants_conn_nil; [assumption | congruence | congruence])
                               | (intro X; contradiction) | (intro X; contradiction) | pd]).
    destruct (MAXWIN <? sc_clientWindow c + Z.of_N (sf_inc fr))%Z eqn:E.
    + apply SLX_dead; [fs | os | reflexivity].
    + apply SLX_winupd; [flia | assumption | flia].
  - (* stream frames *)
    assert (NZ : sf_sid fr <> 0) by flia.
    destruct (fkind_eqb (sf_kind fr) KCont && negb (sc_discardID c =? 0) && (sf_sid fr =? sc_discardID c)) eqn:DC.
    + assert (K : sf_kind fr = KCont).
      { destruct (fkind_eqb (sf_kind fr) KCont) eqn:E; [apply fkind_eqb_eq in E; exact E | discriminate]. }
      unfold sl_frame. rewrite Z0, DC. apply SLX_quiet; [qs | ris | (intro X; contradiction) | | | congruence].
      * intros _. left. apply lgrants_strm_nil; [assumption | congruence | congruence].
      * intros _ K'. congruence.
    + rewrite sl_frame_stream by assumption. unfold sl_pre. cbv zeta.
      destruct (if sf_sid fr <=? sc_lastID c then strms_search (sc_strms c) (sf_sid fr) else None) as [s|] eqn:FD.
      { destruct (sf_sid fr <=? sc_lastID c) eqn:LE; [|discriminate].
        apply sl_tail_SLX; [exact NZ|]. left. apply Or_found; [flia | assumption]. }
      assert (G1 : sf_sid fr <> 0 -> lgrants_of fr = [] \/ found c fr = None) by (intros _; right; exact FD).
      assert (G0 : sf_sid fr = 0 -> lgrants_of fr = []) by (intro X; contradiction).
      destruct (fkind_eqb (sf_kind fr) KRst) eqn:KR.
      { apply fkind_eqb_eq in KR.
        destruct ((sc_lastID c <? sf_sid fr) && (sc_highestID c <? sf_sid fr));
          (apply SLX_quiet; [qs | ris | exact G0 | exact G1 | intros _ K'; congruence | pd]). }
      destruct (in_ring c (sf_sid fr)) eqn:IR.
      { assert (HH : forall c', Quiet c c' -> RI c -> sf_sid fr <= sc_highestID c').
        { intros c' Q [A _]. destruct (in_ring_In _ _ IR) as (e & He & <-). eapply quiet_hi; [apply A, He | exact Q]. }
        destruct (sf_kind fr) eqn:K;
          try (apply SLX_quiet; [qs | ris | exact G0 | exact G1 | intros _ _ RR _; apply HH; [qs | exact RR] | pd]).
        - destruct (match ring_find c (sf_sid fr) with Some b => b | None => false end).
          + apply SLX_credit; [exact NZ | exact K].
          + apply SLX_quiet; [qs | ris | exact G0 | exact G1 | intros _ _ RR _; apply HH; [qs | exact RR] | pd].
        - destruct (match ring_find c (sf_sid fr) with Some b => b | None => false end);
            (apply SLX_quiet; [qs | ris | exact G0 | exact G1 | intros _ _ RR _; apply HH; [qs | exact RR] | pd]). }
      destruct (fkind_eqb (sf_kind fr) KPriority) eqn:KP.
      { apply fkind_eqb_eq in KP. destruct (sf_dep fr =? sf_sid fr);
          (apply SLX_quiet; [qs | ris | exact G0 | exact G1 | intros _ K'; congruence | pd]). }
      destruct (fkind_eqb (sf_kind fr) KHeaders) eqn:KH; cbn [andb].
      * apply fkind_eqb_eq in KH.
        destruct (sf_sid fr <=? sc_highestID c) eqn:HI.
        { apply SLX_quiet; [qs | ris | exact G0 | exact G1 | | pd]. intros _ _ _ _. apply (quiet_hi c); [flia | qs]. }
        sc_cbn.
        assert (HU : forall c', Quiet (upd_highestID c (sf_sid fr)) c' -> sf_sid fr <= sc_highestID c').
        { intros c' Q. eapply quiet_hi; [|exact Q]. sc_cbn. flia. }
        destruct ((cf_maxStreams cfg <=? sc_open c)%Z || sc_closing c).
        { apply SLX_quiet; [qs | ris | exact G0 | exact G1 | intros _ _ _ _; apply HU; qs | pd]. }
        destruct (sf_sid fr <? sc_lastID c) eqn:LT.
        { apply SLX_quiet; [qs | ris | exact G0 | exact G1 | intros _ _ _ _; apply HU; qs | pd]. }
        destruct (sc_closing c) eqn:CLO.
        { apply SLX_quiet; [qs | ris | exact G0 | exact G1 | intros _ _ _ _; apply HU; qs | pd]. }
        pose proof (Or_created _ c fr KH FD) as OC. unfold new_strm in OC.
        match goal with |- SLX c fr (fst (sl_tail _ _ fr false ?c1 ?s)) => pose proof (sl_tail_SLX c fr c1 s NZ) as T end.
        rewrite CLO in T. apply T. left. apply OC; flia.
      * destruct (sf_sid fr <? sc_lastID c) eqn:LT.
        { apply SLX_quiet; [qs | ris | exact G0 | exact G1 | intros _ K'; rewrite K' in KH; discriminate | pd]. }
        apply sl_tail_SLX; [exact NZ|]. right.
        split; [intro E; rewrite E in KH; discriminate|].
        split; [intro E; rewrite E in KP; discriminate|].
        split; [reflexivity|]. split; [fs | os].
Qed.

(* the coarser decomposition *)
Lemma SLX_SLF c fr c' : SLX c fr c' -> SLF dec_field enc_set_max cfg c fr c'.
Proof.
  destruct 1 as [c' Q R G0 G1 HH D | c' F O SD | Z K HW c0 newInit delta Fa | Z K W | NZ K | c1 s p NZ Or KH Hp | c1 s c2 cX sX NZ Or CL HF].
  - apply SLF_quiet; [exact Q | exact D|]. intros Z K. specialize (G0 Z). unfold lgrants_of in G0. rewrite K, Z in G0.
    destruct (sf_set_haswin fr); [discriminate | reflexivity].
  - apply SLF_dead; assumption.
  - apply SLF_settings; assumption.
  - apply SLF_winupd; assumption.
  - apply SLF_credit; assumption.
  - eapply SLF_prev; eassumption.
  - eapply SLF_after; [exact NZ | exact Or | apply (cr_closes _ _ CL) | exact HF].
Qed.

Theorem sl_frame_SLF c fr : SLF dec_field enc_set_max cfg c fr (fst (sl_frame dec_field enc_set_max cfg c fr)).
Proof. apply SLX_SLF, sl_frame_SLX. Qed.

End Decomp.
Arguments IdsHi {hstate}.
