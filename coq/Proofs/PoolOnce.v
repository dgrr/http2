(* The onDisconnect callback of a connection runs at most once (Impl/ClientPool.v): pl_closing - the Conn.Close calls
   between their CAS and their callback - never holds a connection twice, and a connection that is closed and not in it
   (its callback has run, or Client.Close closed it without one) never enters it again. *)
From Coq Require Import List NArith Bool.
From H2V Require Import Impl.ClientPool Proofs.PoolThms Proofs.PoolMono.
Import ListNotations.
Local Open Scope N_scope.

Lemma create_closing p d q c o : pl_create_conn p d = (q, c, o) -> pl_closing q = pl_closing p.
Proof. destruct d; cbn [pl_create_conn]; intro H; inversion H; subst; reflexivity. Qed.

Lemma pick_closing p d q r o : pl_pick_conn p d = (q, r, o) -> pl_closing q = pl_closing p.
Proof.
  unfold pl_pick_conn. destruct (pl_closed p); [intro H; inversion H; subst; reflexivity|].
  destruct (pl_walk p (pl_conns p)) as [l f]. destruct f as [id|]; [intro H; inversion H; subst; reflexivity|].
  destruct (pl_create_conn (pl_upd_conns p l) d) as [[p2 c] o2] eqn:C. intro H; inversion H; subst.
  rewrite (create_closing _ _ _ _ _ C). reflexivity.
Qed.

Lemma on_dropped_closing p id d q o : pl_on_dropped p id d = (q, o) -> pl_closing q = pl_closing p.
Proof.
  unfold pl_on_dropped. destruct (pl_closed p); [intro H; inversion H; subst; reflexivity|].
  destruct (pl_mem (pl_conns p) id); [|intro H; inversion H; subst; reflexivity].
  destruct (pl_create_conn (pl_upd_conns p (pl_remove (pl_conns p) id)) d) as [[p1 c] o1] eqn:E. intro H; inversion H; subst.
  rewrite (create_closing _ _ _ _ _ E). reflexivity.
Qed.

Lemma client_close_closing p q o : pl_client_close p = (q, o) -> pl_closing q = pl_closing p.
Proof.
  unfold pl_client_close. destruct (pl_closed p); [intro H; inversion H; subst; reflexivity|].
  intro H. destruct (close_all_fields _ _ _ _ H) as (_ & _ & C & _). exact C.
Qed.

(* what a step does to pl_closing *)
Lemma closing_step p e : let q := pl_state_of (pl_step p e) in
  pl_closing q = pl_closing p
  \/ (exists id c, e = PEvCloseBegin id /\ pl_find (pl_stat p) id = Some c /\ plc_closed c = false /\ pl_closing q = id :: pl_closing p)
  \/ (exists id d, e = PEvCloseEnd id d /\ In id (pl_closing p) /\ pl_closing q = pl_remove (pl_closing p) id).
Proof.
  unfold pl_state_of. destruct e as [d|id b|id|id d|]; cbn [pl_step].
  - destruct (pl_pick_conn p d) as [[q r] o] eqn:H. cbn [fst]. left. eapply pick_closing; exact H.
  - left. reflexivity.
  - rewrite close_begin_eq. unfold pl_is_closed. destruct (pl_find (pl_stat p) id) as [c|] eqn:F; [|left; reflexivity].
    destruct (plc_closed c) eqn:C; [left; reflexivity|]. right. left. exists id, c. auto.
  - destruct (pl_close_end p id d) as [q o] eqn:H. cbn [fst]. unfold pl_close_end in H.
    destruct (pl_mem (pl_closing p) id) eqn:M; [|inversion H; subst; left; reflexivity].
    right. right. exists id, d. split; [reflexivity|]. split; [apply pl_mem_In; exact M|].
    rewrite (on_dropped_closing _ _ _ _ _ H). reflexivity.
  - destruct (pl_client_close p) as [q o] eqn:H. cbn [fst]. left. eapply client_close_closing; exact H.
Qed.

Lemma closing_nodup_step p e : Inv p -> NoDup (pl_closing p) -> NoDup (pl_closing (pl_state_of (pl_step p e))).
Proof.
  intros I N. destruct (closing_step p e) as [E|[(id & c & _ & F & C & E)|(id & d & _ & _ & E)]]; rewrite E.
  - exact N.
  - constructor; [|exact N]. intro Hin. destruct (inv_closing p I id Hin) as [_ Cl].
    unfold pl_is_closed in Cl. rewrite F in Cl. congruence.
  - apply pl_remove_NoDup. exact N.
Qed.


(* no connection is between the halves of its Close twice *)
Theorem closing_nodup evs : NoDup (pl_closing (pl_run evs)).
Proof. apply (run_from_ind (fun p => NoDup (pl_closing p))); [exact closing_nodup_step | exact Inv_init | constructor]. Qed.

Definition done_with (p : pool) (x : N) : Prop := shut p x = true /\ ~ In x (pl_closing p).

Lemma done_step p e x : Inv p -> done_with p x -> done_with (pl_state_of (pl_step p e)) x.
Proof.
  intros I [S Nn]. split; [apply shut_step; assumption|].
  destruct (closing_step p e) as [E|[(id & c & _ & F & C & E)|(id & d & _ & _ & E)]]; rewrite E.
  - exact Nn.
  - intros [X|X]; [|exact (Nn X)]. subst id. unfold shut, shut_in in S. rewrite F in S. congruence.
  - intro X. apply Nn. eapply pl_remove_In. exact X.
Qed.


(* once a connection is closed and its callback is not pending, no later onDisconnect callback does anything for it:
   PEvCloseEnd on it is a no-op (no removal, no replacement dial) in every later state *)
Theorem callback_once evs1 evs2 x d : done_with (pl_run evs1) x ->
  pl_close_end (pl_run_from (pl_run evs1) evs2) x d = (pl_run_from (pl_run evs1) evs2, []).
Proof.
  intro D. destruct (run_from_ind (fun p => done_with p x) (fun p e => done_step p e x) _ evs2 (Inv_run evs1) D) as [_ Nn].
  unfold pl_close_end.
  destruct (pl_mem (pl_closing (pl_run_from (pl_run evs1) evs2)) x) eqn:M; [|reflexivity].
  exfalso. apply Nn. apply pl_mem_In. exact M.
Qed.

(* the callback that does run leaves the connection done_with *)
Theorem callback_finishes evs x d q o : In x (pl_closing (pl_run evs)) -> pl_close_end (pl_run evs) x d = (q, o) -> done_with q x.
Proof.
  intros Hin H. pose proof (Inv_run evs) as I. pose proof (closing_nodup evs) as N.
  destruct (inv_closing _ I x Hin) as [Hm Cl].
  assert (S : shut (pl_run evs) x = true).
  { unfold shut, shut_in. unfold pl_is_closed in Cl. destruct (pl_find_In_Some _ _ Hm) as [c F]. rewrite F in *. exact Cl. }
  assert (E : q = pl_state_of (pl_step (pl_run evs) (PEvCloseEnd x d))) by (unfold pl_state_of; cbn [pl_step]; rewrite H; reflexivity).
  split.
  - rewrite E. apply shut_step; assumption.
  - unfold pl_close_end in H. destruct (pl_mem (pl_closing (pl_run evs)) x) eqn:M.
    + rewrite (on_dropped_closing _ _ _ _ _ H). cbn [pl_upd_closing pl_closing]. apply pl_remove_not_In. exact N.
    + exfalso. apply pl_mem_In in Hin. congruence.
Qed.

Example ex_done : done_with (pl_run ex_evs) 1 /\
  In 1 (pl_closing (pl_run [PEvPick PDialOk; PEvSetCan 0 false; PEvPick PDialOk; PEvCloseBegin 1])).
Proof.
  split; [split|].
  - vm_compute. reflexivity.
  - vm_compute. tauto.
  - vm_compute. auto.
Qed.
