(* Proofs/TeardownCliLive1.v -- blocking-structure model (Impl/Teardown.v), client, S3 liveness (1): fair runs; Close gets
   through (done is closed, bwLck comes back, the socket is closed); one iteration of the write loop ends; once done is closed
   the write loop leaves its loop.
   Statements: Props/Teardown.v; overview: Proofs/TeardownProofs.v. *)
From Coq Require Import Arith Lia Bool List.
Import ListNotations.
From H2V Require Import Impl.Teardown Proofs.TeardownGen Proofs.TeardownCliInv.

Module CliL2.
Import Cli CliP.

(* the socket does not stay stalled for ever: the hypothesis of the liveness theorems *)
Definition Inv (cap : nat) (s : state) : Prop :=
  CliP.inv cap s /\ (stalled s = false \/ dead s = true).

Section P.
Variable cap : nat.
Hypothesis cap_pos : 1 <= cap.
Notation guard := (Cli.guard cap).
Notation reachable := (Cli.reachable cap).

Variable r : run guard eff.
Hypothesis F : fair_run cap r.
Hypothesis R0 : reachable (st r 0).
Hypothesis NS : forall i, stalled (st r i) = false \/ dead (st r i) = true.

Lemma Inv_run : forall i, Inv cap (st r i).
Proof using R0 NS. intros i. split; [apply reachable_inv, reach_run; auto | apply NS]. Qed.

Notation "P ~> Q" := (leadsto r P Q) (at level 70).
Notation step := (lt_step guard eff r (Inv cap) Inv_run).
Notation wait := (lt_wait guard eff r (Inv cap) Inv_run).
Notation enabled := (enabled guard).
Notation stable := (stable guard eff (Inv cap)).

Definition Fx : sfair g_x r := proj1 F.
Definition Fwl : sfair g_wl r := proj1 (proj2 (proj2 (proj2 F))).
Definition Frl : sfair g_rl r := proj1 (proj2 (proj2 (proj2 (proj2 F)))).
Definition Fuc : sfair g_uc r := proj1 (proj2 (proj2 (proj2 (proj2 (proj2 F))))).
Definition Fsd : sfair g_seldone r := proj1 (proj2 (proj2 (proj2 (proj2 (proj2 (proj2 F)))))).
Definition Fbody : sfair g_body r := proj1 (proj2 (proj2 (proj2 (proj2 (proj2 (proj2 (proj2 F))))))).
Definition Fso : sfair g_selout r := proj2 (proj2 (proj2 (proj2 (proj2 (proj2 (proj2 (proj2 F))))))).
Lemma S_of : forall p, sfair (g_of p) r.
Proof using F. intros [|[|p]]; [exact Fwl | exact Frl | exact Fuc]. Qed.
Definition weak := sfair_fair guard eff r.

Lemma done_stable : stable (fun s => done s = true).
Proof. intros s a _ H _; apply done_mono, H. Qed.
Lemma closed_stable : stable (fun s => closed s = true).
Proof. intros s a _ H _; apply closed_mono, H. Qed.
Lemma sclosed_stable : stable (fun s => sclosed s = true).
Proof. intros s a _ H _; apply sclosed_mono, H. Qed.
Lemma gone_stable : stable (fun s => gone s = true).
Proof. intros s a _ H _; apply gone_mono, H. Qed.

(* ---- Conn.Close, whoever runs it ---- *)
(* one step inside Close: from stage [c] to what [close_own] says *)
Lemma close_step : forall p c (Q : state -> Prop), p < 3 ->
  (forall s a, cpc p s = Some c -> g_of p a -> guard a s -> Q (eff a s)) ->
  (forall s, Inv cap s -> cpc p s = Some c -> Q s \/ enabled (g_of p) s) ->
  (fun s => cpc p s = Some c) ~> Q.
Proof using F R0 NS.
  intros p c Q Hp Hown Hen. apply (step (g_of p)); auto using weak, S_of.
  intros s a _ Hc G. destruct (cpc_frame cap p c a s Hc G); auto.
Qed.

(* whoever won the CAS closes c.done *)
Lemma cdone_step : forall p, p < 3 -> (fun s => cpc p s = Some CDone) ~> (fun s => done s = true).
Proof using F R0 NS.
  intros p Hp. apply close_step; auto.
  - intros s a Hc Ga G. apply (close_own cap p CDone a s Hp Hc Ga G).
  - intros s _ Hc. right. exists (CCloseDone p). split; [apply g_of_close; cbn; auto | cbn; auto].
Qed.

Lemma closed_to_done : (fun s => closed s = true) ~> (fun s => done s = true).
Proof using F R0 NS.
  intros i H. destruct (done (st r i)) eqn:E; [exists i; auto|].
  destruct (Inv_run i) as ((_ & I2 & _) & _).
  destruct (closed_not_done _ I2 H E) as (p & Hp & Hc). apply (cdone_step p Hp i Hc).
Qed.

(* the GOAWAY write returns: bwLck is handed back and the socket is closed *)
Lemma cwrite_step : forall p, p < 3 ->
  (fun s => cpc p s = Some CWrite) ~> (fun s => bw s = BwNone /\ sclosed s = true).
Proof using F R0 NS.
  intros p Hp. apply close_step; auto.
  - intros s a Hc Ga G. apply (close_own cap p CWrite a s Hp Hc Ga G).
  - intros s (_ & Hs) Hc. right. exists (CWriteRet p). split; [apply g_of_close; cbn; auto|].
    cbn; repeat split; auto; tauto.
Qed.

(* a socket write of the write loop returns *)
Lemma lwrite_release : (fun s => exists h, wl s = LWrite h) ~> (fun s => bw s = BwNone).
Proof using F R0 NS.
  apply (step g_wl); auto using weak, Fwl.
  - intros s a _ (h & Hw) G. destruct (wl_frame a s) as [Ga|[Ga|E]]; auto.
    + rewrite (body_guard cap a s Ga G) in Hw; discriminate.
    + right; left; exists h; congruence.
  - intros s a _ (h & Hw) Ga G. own_cases a Ga G; reflexivity.
  - intros s (_ & Hs) (h & Hw). right. destruct (dead s) eqn:E.
    + exists (LWriteFail false); cbn; eauto.
    + destruct Hs as [Hs|Hs]; [|congruence]. exists LWriteOk; cbn; eauto.
Qed.

Lemma bw_release : (fun s => bw s <> BwNone) ~> (fun s => bw s = BwNone).
Proof using F R0 NS.
  intros i Hb. destruct (Inv_run i) as ((I1 & _) & _).
  destruct (bw_holder _ I1 Hb) as [Hw|(p & Hp & Hc)].
  - apply lwrite_release; auto.
  - destruct (cwrite_step p Hp i Hc) as (j & Hj & Hq & _); eauto.
Qed.

(* c.bwLck.Lock() in Close gets the lock *)
Lemma clock_step : forall p, p < 3 ->
  (fun s => cpc p s = Some CLock) ~> (fun s => cpc p s = Some CWrite).
Proof using F R0 NS.
  intros p Hp.
  assert (forall s, cpc p s = Some CLock -> bw s = BwNone -> enabled (g_of p) s) as En.
  { intros s Hc Hb. exists (CLockB p). split; [apply g_of_close; cbn; auto | cbn; auto]. }
  apply (wait (g_of p)) with (B := fun s => bw s <> BwNone) (C := fun s => bw s = BwNone);
    auto using S_of, bw_release.
  - intros s a _ Hc G. destruct (cpc_frame cap p CLock a s Hc G); auto.
  - intros s a _ Hc Ga G. apply (close_own cap p CLock a s Hp Hc Ga G).
  - intros s _ Hc. destruct (bw s) eqn:E; auto; left; discriminate.
Qed.

Lemma done_to_sclosed : (fun s => done s = true) ~> (fun s => sclosed s = true).
Proof using F R0 NS.
  intros i Hd. destruct (Inv_run i) as ((_ & I2 & _) & _).
  destruct (done_late _ I2 Hd) as [Hs|(p & Hp & [Hc|Hc])]; [exists i; auto | |].
  - destruct (lt_trans _ _ _ _ _ _ (clock_step p Hp) (cwrite_step p Hp) i Hc) as (j & Hj & _ & Hs); eauto.
  - destruct (cwrite_step p Hp i Hc) as (j & Hj & _ & Hs); eauto.
Qed.

(* ---- the read loop lets go of X's Ctx.lck: dispatchLocked does not block ---- *)
Lemma rl_release : (fun s => rl_hold s = HX) ~> (fun s => rl_hold s <> HX).
Proof using F R0 NS.
  apply (step g_rl); auto using weak, Frl.
  - intros s a _ Hh G. destruct (rl_frame a s) as [Ga|E]; auto.
    right; left. unfold rl_hold in *. rewrite E; auto.
  - intros s a _ Hh Ga G. unfold rl_hold in *. own_cases a Ga G; discriminate.
  - intros s _ Hh. right. unfold rl_hold in Hh. destruct (rl s) eqn:E; try discriminate.
    exists (RHoldFinish false false); cbn; eauto.
Qed.
End P.

(* ---- one iteration of the write loop ends ---- *)
Definition pcw (p : wl_pc) : nat :=
  match p with LAcq => 4 | LLockB _ => 3 | LWrite _ => 2 | LRefill => 1 | _ => 0 end.
(* the variant: blocking units still allowed, the way through the present one, X not yet dealt with *)
Definition wm (s : state) : nat :=
  6 * bud s + pcw (wl s) + match xloc s with XWl => 1 | _ => 0 end.
Definition iter_pc (p : wl_pc) : Prop :=
  match p with LIter | LAcq | LLockB _ | LWrite _ | LRefill => True | _ => False end.
Definition wl_iter (s : state) : Prop :=
  match wl s with LIter | LAcq | LLockB _ | LWrite _ | LRefill => True | _ => False end.
Definition wl_t (s : state) : Prop :=
  match wl s with LT0 | LClose _ | LT2 | LT3 | LDone => True | _ => False end.
Definition iterQ (n : nat) (s : state) : Prop :=
  wl s = LSel \/ wl_t s \/ (wl_iter s /\ wm s < n).

Section Q.
Variable cap : nat.
Notation guard := (Cli.guard cap).
Notation reachable := (Cli.reachable cap).

(* nobody else touches the write loop's program point or its variant *)
Lemma iter_frame : forall s a, inv4 s -> guard a s ->
  g_wl a \/ g_body a \/ (wl (eff a s) = wl s /\ wm (eff a s) = wm s).
Proof.
  intros s a I G. pose proof (i_w1 _ I) as H1. clear I. unfold wm.
  guard_cases a G; cbn; auto; right; right; split; eff_simpl; auto; fwd; discriminate.
Qed.

(* every step of the write loop inside an iteration (and the return of the caller's body reader)
   ends the iteration or lowers the variant *)
Lemma iter_own : forall s a, wl_iter s -> g_wl a \/ g_body a -> guard a s -> iterQ (wm s) (eff a s).
Proof.
  intros s a Hi Ga G. unfold iterQ, wl_t, wl_iter, wm in *.
  destruct Ga as [Ga|Ga]; own_cases a Ga G; try contradiction; eff_simpl; auto.
  all:  right; right; (split; [exact I|lia]).
Qed.

Lemma iter_unless : forall p n s a, iter_pc p -> Inv cap s -> wl s = p /\ wm s = n -> guard a s ->
  (g_wl a \/ g_body a) \/ (wl (eff a s) = p /\ wm (eff a s) = n) \/ iterQ n (eff a s).
Proof.
  intros p n s a Hp ((_ & _ & _ & I4) & _) (Hw & Hn) G.
  destruct (iter_frame s a I4 G) as [Ga|[Ga|(E1 & E2)]]; auto. right; left; split; congruence.
Qed.
End Q.

Section R.
Variable cap : nat.
Hypothesis cap_pos : 1 <= cap.
Notation guard := (Cli.guard cap).
Notation reachable := (Cli.reachable cap).
Variable r : run guard eff.
Hypothesis F : fair_run cap r.
Hypothesis R0 : reachable (st r 0).
Hypothesis NS : forall i, stalled (st r i) = false \/ dead (st r i) = true.

Notation Inv_run := (Inv_run cap r R0 NS).
Notation "P ~> Q" := (leadsto r P Q) (at level 70).
Notation step := (lt_step guard eff r (Inv cap) Inv_run).
Notation wait := (lt_wait guard eff r (Inv cap) Inv_run).
Notation enabled := (enabled guard).

(* at a program point [p] inside an iteration: the obligations of the rules that do not depend on [p] *)
Section At.
Variables (p : wl_pc) (n : nat).
Hypothesis Hp : iter_pc p.
Let P := fun s => wl s = p /\ wm s = n.

Lemma at_own : forall s a, Inv cap s -> P s -> g_wl a \/ g_body a -> guard a s -> iterQ n (eff a s).
Proof using Hp.
  intros s a _ (Hw & <-) Ga G. apply (iter_own cap); auto. unfold wl_iter; rewrite Hw; exact Hp.
Qed.
(* [G] is the write loop or the body reader; a step of the other one is as good as [G]'s *)
Lemma at_others : forall G : act -> Prop,
  (forall a, g_wl a -> G a) \/ (forall a, g_body a -> G a) ->
  forall s a, Inv cap s -> P s -> guard a s -> G a \/ P (eff a s) \/ iterQ n (eff a s).
Proof using Hp.
  intros G HG s a I H Gd. destruct (iter_unless cap p n s a Hp I H Gd) as [Ga|K]; auto.
  destruct HG as [HG|HG], Ga as [Ga|Ga]; auto; right; right; apply at_own; auto.
Qed.
End At.
Notation at_wl p n := (at_others p n I g_wl (or_introl (fun _ H => H))).
Notation own_wl p n := (fun s a J H Ga => at_own p n I s a J H (or_introl Ga)).

Lemma wl_iter_step : forall n, (fun s => wl_iter s /\ wm s = n) ~> iterQ n.
Proof using F R0 NS.
  intros n i (Hi & Hn). unfold wl_iter in Hi.
  destruct (wl (st r i)) as [| | |h|h| | | | | |] eqn:E; try contradiction.
  - apply (step g_wl _ _ (at_wl LIter n) (own_wl LIter n)); auto using weak, Fwl.
    intros s _ (Hw & _). right. destruct (xloc s) eqn:Ex;
      try (exists LIterEnd; cbn; repeat split; auto; congruence).
    exists LRejectX; cbn; auto.
  - (* ctx.lck.Lock() on X's lock, which only the read loop can be holding *)
    apply (wait g_wl _ _ (at_wl LAcq n) (own_wl LAcq n))
      with (B := fun s => rl_hold s = HX) (C := fun s => rl_hold s <> HX);
      auto using Fwl, rl_release.
    + intros s _ _. destruct (rl_hold s); auto; right; discriminate.
    + intros s ((I1 & _) & _) (Hw & _) Hr. right.
      assert (lx s = LxNone) as Hl by (apply lx_none; auto; unfold wl_hold; rewrite Hw; discriminate).
      destruct (xdone s) eqn:Ex; [exists LAcqXFail | exists LAcqX]; cbn; auto.
  - apply (wait g_wl _ _ (at_wl (LLockB h) n) (own_wl (LLockB h) n))
      with (B := fun s => bw s <> BwNone) (C := fun s => bw s = BwNone);
      auto using Fwl, bw_release.
    + intros s _ _. destruct (bw s) eqn:Eb; auto; left; discriminate.
    + intros s _ (Hw & _) Hb. right. exists LLock; cbn; eauto.
  - apply (step g_wl _ _ (at_wl (LWrite h) n) (own_wl (LWrite h) n)); auto using weak, Fwl.
    intros s (_ & Hs) (Hw & _). right. destruct (dead s) eqn:Ed.
    + exists (LWriteFail false); cbn; eauto.
    + destruct Hs as [Hs|Hs]; [|congruence]. exists LWriteOk; cbn; eauto.
  - (* pb.stream.Read returns *)
    apply (step g_body _ _ (at_others LRefill n I g_body (or_intror (fun _ H => H)))
             (fun s a J H Ga => at_own LRefill n I s a J H (or_intror Ga))); auto using weak, Fbody.
    intros s _ (Hw & _). right. exists (EBodyRead false); cbn; auto.
Qed.

Lemma wl_iter_end : wl_iter ~> (fun s => wl s = LSel \/ wl_t s).
Proof using F R0 NS.
  apply (lt_variant guard eff r _ _ wm). intros n i H.
  destruct (wl_iter_step n i H) as (j & Hj & Hq). exists j; split; auto.
  unfold iterQ in Hq. tauto.
Qed.

(* ---- once c.done is closed the write loop leaves its loop (the done case of its select is
   served: strong fairness to that case) ---- *)
Lemma wl_t_stable : stable guard eff (Inv cap) wl_t.
Proof.
  intros s a _ Ht G. unfold wl_t in *. destruct (wl_frame a s) as [Ga|[Ga|E]].
  - own_cases a Ga G; try contradiction; eff_simpl; auto.
  - rewrite (body_guard cap a s Ga G) in Ht; contradiction.
  - rewrite E; auto.
Qed.

Definition wl_loop (s : state) : Prop := wl s = LSel \/ wl_iter s.

(* where the write loop goes from inside its loop *)
Lemma wl_loop_unless : forall s a, wl_loop s -> guard a s -> wl_loop (eff a s) \/ wl_t (eff a s).
Proof.
  intros s a Hl G. unfold wl_loop in *.
  assert (g_wl a \/ g_body a -> wl_iter s -> (wl (eff a s) = LSel \/ wl_iter (eff a s)) \/ wl_t (eff a s)) as K.
  { intros Ga Hi. destruct (iter_own cap s a Hi Ga G) as [H|[H|(H & _)]]; auto. }
  destruct (wl_frame a s) as [Ga|[Ga|E]].
  - destruct Hl as [Hl|Hl]; auto. unfold wl_iter, wl_t. own_cases a Ga G; cbn; auto.
  - apply K; auto. unfold wl_iter. rewrite (body_guard cap a s Ga G); exact I.
  - left. unfold wl_iter. rewrite E; auto.
Qed.

Lemma wl_to_t : (fun s => done s = true) ~> wl_t.
Proof using F R0 NS.
  assert ((fun s => done s = true /\ wl_loop s) ~> wl_t) as K.
  { apply (wait g_seldone) with (B := wl_iter) (C := fun s => wl s = LSel \/ wl_t s);
      auto using Fsd, wl_iter_end.
    - intros s a _ (Hd & Hl) G. right. destruct (wl_loop_unless s a Hl G); auto using done_mono.
    - intros s a _ (Hd & Hl) Ga G. destruct a; try contradiction. exact I.
    - intros s _ (_ & [Hl|Hl]); auto.
    - intros s _ (Hd & _) [Hs|Ht]; auto. right. exists LSelDone; cbn; auto. }
  intros i Hd. assert (wl_loop (st r i) \/ wl_t (st r i)) as [Hl|Ht].
  { unfold wl_loop, wl_iter, wl_t. destruct (wl (st r i)); auto. }
  - apply K; auto.
  - exists i; auto.
Qed.
End R.
End CliL2.
