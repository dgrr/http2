(* Proofs/SrvInvC13d.v - the statements of Props/C13.v (d)(e): what a handler is given, and the buffered header bytes. *)
From H2V Require Import Base.Bytes Base.MachineInt Base.Result Gen.GenConsts Impl.ServerConn Proofs.SrvBase
  Proofs.SrvInvMoves Proofs.SrvInvDecomp Proofs.SrvInvSteps Proofs.SrvInvSlots Proofs.SrvInvOut Proofs.SrvInvSOK.
From Coq Require Import ZArith Lia ZifyN ZifyNat ZifyBool.
Local Open Scope N_scope.

Section Carry.
Variable hstate : Type.
Variable dec_field : hstate -> N -> bytes -> dec_res hstate.
Variable cfg : config.

(* the carry-over of a header block that is being thrown away (sc_discardPrev): the function that stores it refuses a
   carry-over above the limit (the caller then ends the connection) *)
Theorem discard_fragment_carry (c : sconn hstate) id frag eh :
  snd (discard_fragment dec_field cfg c id frag eh) = None -> (0 < cf_maxHeaderList cfg)%Z ->
  (Z.of_N (len (sc_discardPrev (fst (discard_fragment dec_field cfg c id frag eh)))) <= cf_maxHeaderList cfg)%Z.
Proof.
  unfold discard_fragment.
  destruct (discard_loop dec_field _ eh (sc_dec c) (sc_discardFields c) _) as [[[d' fields] carry] e].
  destruct e; [discriminate|]. destruct eh; cbn [fst snd]; [intros _ HL; cbn; lia|].
  destruct ((0 <? cf_maxHeaderList cfg) && (cf_maxHeaderList cfg <? Z.of_N (len carry)))%Z eqn:Lim; cbn [fst snd]; [discriminate|].
  intros _. exact (limit_check_false _ _ Lim).
Qed.

End Carry.

Section C13d.
Variable hstate : Type.
Variable dec_field : hstate -> N -> bytes -> dec_res hstate.
Variable enc_field : hstate -> bytes -> bytes -> bool -> bytes * hstate.
Variable enc_set_max : hstate -> N -> hstate.
Variable cfg : config.
Variable h0 : hstate.
Notation run := (run dec_field enc_field enc_set_max cfg h0).
Notation Q := (SOK cfg).

Lemma SIO_SOK evs : SI cfg Q (run evs) /\ OI hstate dec_field Q (run evs).
Proof. apply SIO_run. apply SOK_closed. Qed.

(* a stream that is dispatchable has a complete, valid request: its header-list size is that of the request *)
Lemma dispatchable_size s : SOK cfg s -> dispatchable s ->
  st_headerListSize s = req_list_size (st_req s) /\
  (0 < cf_maxHeaderList cfg -> req_list_size (st_req s) <= cf_maxHeaderList cfg)%Z /\
  (0 < cf_maxBody cfg -> Z.of_N (len (rq_body (st_req s))) <= cf_maxBody cfg)%Z.
Proof.
  intros [K P B BL FL] (DS & DF & _).
  destruct FL as (F1 & F2 & F3); [congruence | assumption|].
  destruct K as [K1 K2 K3]. unfold hdr_list_size in K1. cbn [get_hdr hd_req hd_pMethod hd_pPath hd_pScheme hd_pAuth hd_headerListSize] in K1, K2, K3.
  rewrite F1, F2, F3 in K1. unfold psize, auth_of in K1.
  assert (E : st_headerListSize s = req_list_size (st_req s)).
  { rewrite K1. unfold req_list_size. rewrite K3. destruct (rq_authority (st_req s)); lia. }
  split; [exact E|]. split; [rewrite <- E; exact K2 | exact BL].
Qed.

(* (d) every request handed to a handler: its body is within MaxRequestBodySize, and its header list - all fields of
   all its header blocks, trailers included, plus the pseudo-headers, each counted name + value + 32 - is within
   MaxHeaderListSize (each limit when it is > 0) *)
Theorem dispatch_bounds evs sid rq : In (ODispatch sid rq) (trace (run evs)) ->
  (0 < cf_maxBody cfg -> Z.of_N (len (rq_body rq)) <= cf_maxBody cfg)%Z /\
  (0 < cf_maxHeaderList cfg -> req_list_size rq <= cf_maxHeaderList cfg)%Z.
Proof.
  intro H. apply trace_In in H. destruct (SIO_SOK evs) as [_ HO].
  destruct (oi_disp _ _ _ _ HO _ _ H) as [_ (s & Qs & Ds & ->)].
  destruct (dispatchable_size s Qs Ds) as (_ & A & B). split; assumption.
Qed.

Theorem table_streams_ok evs :
  let c := run evs in
  sc_sl_done c = false -> Forall (SOK cfg) (sc_strms c).
Proof. intros c Hd. destruct (SIO_SOK evs) as [HS _]. apply (si_Q _ _ _ _ HS Hd). Qed.

(* (e) header bytes carried over between the frames of a block: while the stream loop runs, every stream of the table
   holds at most MaxHeaderListSize of them (a longer carry-over ends the connection with ENHANCE_YOUR_CALM in the same
   step: it exceeds the limit by less than the one frame that brought it), and the size accumulated so far is within
   the limit too *)
Theorem prev_bound evs s :
  let c := run evs in
  sc_sl_done c = false -> In s (sc_strms c) -> (0 < cf_maxHeaderList cfg)%Z ->
  (Z.of_N (len (st_prev s)) <= cf_maxHeaderList cfg)%Z /\ (st_headerListSize s <= cf_maxHeaderList cfg)%Z.
Proof.
  intros c Hd I HL. pose proof (table_streams_ok evs Hd) as F. rewrite Forall_forall in F.
  destruct (F s I) as [[K1 K2 K3] P _ _ _]. split; [apply P; assumption | apply K2; assumption].
Qed.

(* the carry-over of a header block that is decoded only to be thrown away (sc_discardPrev) is within the limit while
   the stream loop runs *)
Definition DI (c : sconn hstate) : Prop := sc_sl_done c = false -> dp_ok cfg (sc_discardPrev c).

Lemma sc_discardPrev_close_stream (c : sconn hstate) x :
  sc_discardPrev (close_stream c x) = sc_discardPrev c \/ sc_discardPrev (close_stream c x) = st_prev x.
Proof.
  rewrite close_stream_eq. cbv zeta. unfold close_discard, release_stream, note, mark_closed.
  repeat match goal with |- context [if ?b then _ else _] => destruct b end; sc_cbn; auto.
Qed.

Lemma DI_mv o a b : mv hstate dec_field cfg Q o a b -> SI cfg Q a -> DI a -> DI b.
Proof.
  intros M HS HD. unfold DI in *.
  destruct M; rewrite ?sc_sl_done_write_goaway, ?sc_discardPrev_write_goaway, ?sc_sl_done_mark_closed, ?sc_discardPrev_mark_closed,
    ?sc_sl_done_release_stream, ?sc_discardPrev_release_stream, ?sc_sl_done_close_stream;
    try (intros _; apply HD; assumption); try discriminate.
  - intros _. apply (lite_dp _ _ _ _ H0). apply HD. assumption.
  - intros _. destruct (sc_discardPrev_close_stream c x) as [-> | ->]; [apply HD; assumption|].
    unfold dp_ok. apply (so_prev cfg x). apply H2. pose proof (si_Q _ _ _ _ HS H) as F. rewrite Forall_forall in F. apply F.
    apply strms_search_In in H0. tauto.
  - intros _. apply (lite_dp _ _ _ _ H0). apply HD. assumption.
  - destruct H0 as [SC _]. unfold same_core in SC. decompose [and] SC. intro Hd. congruence.
Qed.

Lemma DI_omv pc a b : omv hstate pc a b -> DI a -> DI b.
Proof.
  intros M HD Hd. destruct (omv_keeps _ _ _ _ M) as (_ & _ & _ & _ & _ & _ & E7 & E8). rewrite E7. apply HD, E8, Hd.
Qed.

Theorem discard_prev_bound evs :
  let c := run evs in
  sc_sl_done c = false -> (0 < cf_maxHeaderList cfg)%Z -> (Z.of_N (len (sc_discardPrev c)) <= cf_maxHeaderList cfg)%Z.
Proof.
  intros c.
  assert (H : SI cfg Q c /\ DI c).
  { unfold c. apply (inv_run hstate dec_field enc_field enc_set_max cfg Q (SOK_closed _ dec_field cfg) (fun c => SI cfg Q c /\ DI c)).
    - intros c0 [H _]. eapply SI_ids_ok; eassumption.
    - intros pc a b M [H1 H2]. split; [eapply SI_gmv; eassumption|].
      destruct M; [eapply DI_mv | eapply DI_omv]; eassumption.
    - split; [apply SI_init|]. intros _. apply dp_ok_nil. }
  destruct H as [_ HD]. intros Hd HL. exact (HD Hd HL).
Qed.

End C13d.
