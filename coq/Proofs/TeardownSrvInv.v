(* Proofs/TeardownSrvInv.v -- blocking-structure model (Impl/Teardown.v), server: invariants of the reachable states, the rank decreases.
   Statements: Props/Teardown.v; overview: Proofs/TeardownProofs.v. *)
From Coq Require Import Arith Lia Bool List.
Import ListNotations.
From H2V Require Import Impl.Teardown Proofs.TeardownGen.

Module SrvP.
Import Srv.

Ltac break :=
  repeat match goal with
         | H : _ /\ _ |- _ => destruct H
         | H : exists _, _ |- _ => destruct H
         end.
Ltac rw_pcs :=
  repeat match goal with
         | H : sv ?s = _ |- _ => rewrite H in *; clear H
         | H : sl ?s = _ |- _ => rewrite H in *; clear H
         | H : wl ?s = _ |- _ => rewrite H in *; clear H
         | H : pg ?s = _ |- _ => rewrite H in *; clear H
         end.
Ltac bools :=
  repeat match goal with
         | H : ?f ?s = true |- _ => rewrite H in *; clear H
         | H : ?f ?s = false |- _ => rewrite H in *; clear H
         end.

Section P.
Variable cap : nat.

Notation guard := (Srv.guard cap).
Notation reachable := (Srv.reachable cap).

Definition wl_is_done (p : wl_pc) : bool := match p with WDone => true | _ => false end.
Definition sl_is_done (p : sl_pc) : bool := match p with SDone => true | _ => false end.
Definition sl_past_a (p : sl_pc) : bool :=
  match p with SExitB | SExitC | SDone => true | _ => false end.
Definition sv_past_close (p : sv_pc) : bool := match p with VWait | VEnd => true | _ => false end.
Definition sv_is_end (p : sv_pc) : bool := match p with VEnd => true | _ => false end.
Definition wl_past_close (p : wl_pc) : bool :=
  match p with WCloseDone | WDone => true | _ => false end.
Definition wl_draining (p : wl_pc) : bool :=
  match p with WDrain | WFlush | WSock true | WCloseSock | WCloseDone | WDone => false | _ => true end.

Record inv (s : state) : Prop := {
  i_wdone : wdone s = wl_is_done (wl s);
  i_wstop : wstop s = sl_is_done (sl s);
  i_hstop : hstop s = sl_past_a (sl s);
  i_rdc : rdc s = sv_past_close (sv s);
  i_svend : sv_is_end (sv s) = true -> sclosed s = true;
  i_wlclose : wl_past_close (wl s) = true -> sclosed s = true;
  i_rd : rd s <= cap;
  i_wr : wr s <= cap;
  i_hd : hd s <= cap }.



Lemma inv_init : forall s, init s -> inv s.
Proof.
  unfold init; intros s H; break.
  constructor; try (rw_pcs; cbn; congruence); try lia.
  - destruct H; rw_pcs; cbn; congruence.
  - destruct H; rw_pcs; cbn; congruence.
Qed.

Lemma inv_step : forall s a, inv s -> guard a s -> inv (eff a s).
Proof.
  intros s a [] G.
  destruct a; try destruct c; cbn in G; break;
    constructor; cbn; rw_pcs; cbn in *;
      auto; try congruence; try lia;
      try (match goal with |- context [match ?x with _ => _ end] => destruct x end; cbn in *; auto; congruence).
Qed.

Lemma reachable_inv : forall s, reachable s -> inv s.
Proof. induction 1; auto using inv_init, inv_step. Qed.


Lemma dead_gone : forall s, gone s = true -> dead s = true.
Proof. unfold dead; intros s ->; auto. Qed.

Theorem rank_decreases : forall s a, refills a = false -> guard a s -> rank (eff a s) < rank s.
Proof.
  intros s a Hr G.
  destruct a; try discriminate Hr; try destruct c; cbn in G; break;
    unfold rank; cbn -[Nat.mul]; rw_pcs; bools; cbn -[Nat.mul];
    try lia;
    try (match goal with x : bool |- _ => destruct x end; cbn -[Nat.mul]; lia).
  - destruct (pg s), (i_armed s); cbn; lia.
  - destruct d, r, (i_armed s); cbn -[Nat.mul]; lia.
  - destruct (pg s); cbn; lia.
Qed.
End P.
End SrvP.
