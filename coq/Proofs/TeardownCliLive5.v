(* Proofs/TeardownCliLive5.v -- blocking-structure model (Impl/Teardown.v), client, S3 liveness (2): with the socket closed the read loop
   ends; the write loop gets through its teardown and its drain loop; both loops exit, and X's caller gets its delivery.
   Statements: Props/Teardown.v; overview: Proofs/TeardownProofs.v. *)
From Coq Require Import Arith Lia Bool List.
Import ListNotations.
From H2V Require Import Impl.Teardown Proofs.TeardownGen Proofs.TeardownCliInv Proofs.TeardownCliLive1 Proofs.TeardownCliGone0.

Module CliL6.
Import Cli CliP CliL2 CliGd.

Lemma rl_lowers : forall cap s a, g_rl a -> guard cap a s -> rm (eff a s) < rm s.
Proof.
  intros cap s a Ga G. unfold rm, rlr. own_cases a Ga G; eff_simpl; try lia.
  all: repeat match goal with |- context[match ?x with _ => _ end] => destruct x end; lia.
Qed.

Section P.
Variable cap : nat.
Hypothesis cap_pos : 1 <= cap.
Notation guard := (Cli.guard cap).
Notation reachable := (Cli.reachable cap).
Variable r : run guard eff.
Hypothesis F : fair_run cap r.
Hypothesis R0 : reachable (st r 0).
Hypothesis NS : forall i, stalled (st r i) = false \/ dead (st r i) = true.

Notation Inv_run := (CliL2.Inv_run cap r R0 NS).
Notation "P ~> Q" := (leadsto r P Q) (at level 70).
Notation step := (lt_step guard eff r (Inv cap) Inv_run).
Notation stable := (stable guard eff (Inv cap)).

(* -- (D) with the socket closed and the write loop in its teardown, the read loop ends -- *)
Definition PD (s : state) : Prop := sclosed s = true /\ done s = true /\ wl_t s.

Lemma PD_stable : stable PD.
Proof. repeat apply stable_and; auto using sclosed_stable, done_stable, wl_t_stable. Qed.

Lemma rl_step : forall n,
  (fun s => (PD s /\ rl s <> RDone) /\ rm s = n) ~> (fun s => PD s /\ rm s < n).
Proof using cap_pos F R0 NS.
  intros n. apply (step g_rl); auto using (weak cap r), (Frl cap r F).
  - intros s a I ((HP & Hr) & Hn) G. pose proof (PD_stable s a I HP G) as HP'.
    destruct (rd_frame cap a s G) as [Ga|(E1 & E2)]; auto.
    { unfold dead. rewrite (proj1 HP). apply orb_true_r. }
    right; left. unfold rm. rewrite E1, E2. auto.
  - intros s a I ((HP & Hr) & <-) Ga G. split; [apply (PD_stable s a I HP G) | apply (rl_lowers cap); auto].
  - intros s I (((Hs & Hd & Ht) & Hr) & Hn). right.
    destruct I as ((I1 & I2 & _) & Hst).
    assert (dead s = true) as Dd by (unfold dead; rewrite Hs; apply orb_true_r).
    destruct (rl s) eqn:E; try congruence.
    + exists RReadFail; cbn; auto.
    + exists (RIterEnd false); cbn; eauto.
    + assert (lx s = LxNone) as Hl.
      { apply lx_none; auto; unfold rl_hold, wl_hold, wl_t in *; [|rewrite E; discriminate].
        destruct (wl s); try contradiction; discriminate. }
      destruct (xdone s) eqn:Ex; [exists RAcqXFail | exists RAcqX]; cbn; auto.
    + exists (RHoldFinish false false); cbn; eauto.
    + exists RPostEnd; cbn; eauto.
    + exists RPostDone; cbn; eauto.
    + exists ROutDone; cbn; eauto.
    + exists RDeferClose; cbn; auto.
    + destruct c.
      * exists (CCasLose 1); cbn; rewrite E; repeat split; auto. apply (i_done _ I2); auto.
      * exists (CCloseDone 1); cbn; rewrite E; auto.
      * exists (CLockB 1); cbn; rewrite E; repeat split; auto.
        destruct (clock_free s 1 I1 I2) as [Hb|(h & Hw)]; auto.
        { unfold cpc; rewrite E; auto. }
        unfold wl_t in Ht; rewrite Hw in Ht; contradiction.
      * exists (CWriteRet 1); cbn; rewrite E; repeat split; auto; try lia; tauto.
Qed.

Lemma rl_finishes : PD ~> (fun s => rl s = RDone).
Proof using cap_pos F R0 NS.
  apply (lt_variant guard eff r PD (fun s => rl s = RDone) rm). intros n i (HP & Hn).
  assert (rl (st r i) = RDone \/ rl (st r i) <> RDone) as [E|E]
    by (destruct (rl (st r i)); auto; right; congruence).
  - exists i; auto.
  - destruct (rl_step n i) as (j & Hj & HP' & Hlt); [|exists j; split; auto].
    repeat split; auto; apply HP.
Qed.
End P.

(* -- (E) the write loop gets through its teardown and out of the drain loop -- *)
Definition PE (s : state) : Prop := closed s = true /\ done s = true /\ rl s = RDone /\ wl_t s.
Definition ws (p : wl_pc) : nat :=
  match p with
  | LT0 => 7 | LClose CCas => 6 | LClose CDone => 5 | LClose CLock => 4 | LClose CWrite => 3
  | LT2 => 2 | LT3 => 1 | _ => 0
  end.
(* what the drain loop may still have to take out of c.in and c.out: what is there, and who may
   still put something there now that Close has been entered *)
Definition tx_active (p : tx_pc) : nat :=
  match p with TArmed | TRes | TDel | TTake | TOut => 2 | _ => 0 end.
Definition V (s : state) : nat :=
  inq s + outq s + xin s + 2 * ow s + (match xc s with KW1 => 2 | _ => 0 end) + tx_active (tx s).
Definition xrk (p : xc_pc) : nat :=
  match p with KW1 => 4 | KW2 => 3 | KLck | KSelf => 2 | KErr => 1 | KTb | KRet => 0 end.

Section Q.
Variable cap : nat.
Notation guard := (Cli.guard cap).

(* with Close entered and the read loop gone nobody adds to that *)
Lemma V_others : forall s a, inv4 s -> closed s = true -> rl s = RDone -> guard a s ->
  g_wl a \/ V (eff a s) <= V s.
Proof.
  intros s a I Hc Hr G. pose proof (i_w1 _ I) as H1. clear I. unfold V, xin, tx_active.
  guard_cases a G; cbn; auto; try congruence; right; fwd; eff_simpl; try lia.
  all: destruct (tx s); cbn; lia.
Qed.

Lemma teardown_own : forall s a, wl_t s -> g_wl a -> guard a s ->
  wl (eff a s) = LDone \/ ws (wl (eff a s)) + V (eff a s) < ws (wl s) + V s.
Proof.
  intros s a Ht Ga G. unfold wl_t, V, xin in *.
  own_cases a Ga G; try contradiction; eff_simpl; auto; right; lia.
Qed.

Lemma x_own : forall s a, g_x a -> guard a s -> done s = true ->
  delivered (eff a s) \/ xrk (xc (eff a s)) < xrk (xc s).
Proof.
  intros s a Ga G Hd. unfold delivered. own_cases a Ga G; eff_simpl; auto.
Qed.
End Q.

Section R.
Variable cap : nat.
Notation guard := (Cli.guard cap).
Notation reachable := (Cli.reachable cap).
Variable r : run guard eff.
Hypothesis F : fair_run cap r.
Hypothesis R0 : reachable (st r 0).
Hypothesis NS : forall i, stalled (st r i) = false \/ dead (st r i) = true.

Notation Inv_run := (CliL2.Inv_run cap r R0 NS).
Notation "P ~> Q" := (leadsto r P Q) (at level 70).
Notation stable := (stable guard eff (Inv cap)).
Notation rank := (lt_rank guard eff r (Inv cap) Inv_run).
Notation weaken := (lt_weaken guard eff r (Inv cap) Inv_run).
Notation and_then := (lt_then guard eff r (Inv cap) Inv_run).

Lemma rl_done_stable : stable (fun s => rl s = RDone).
Proof.
  intros s a _ Hr G. destruct (rl_frame a s) as [Ga|E]; [|congruence]. own_cases a Ga G.
Qed.
Lemma wl_done_stable : stable (fun s => wl s = LDone).
Proof.
  intros s a _ Hw G. destruct (wl_frame a s) as [Ga|[Ga|E]]; [| |congruence].
  - own_cases a Ga G.
  - rewrite (body_guard cap a s Ga G) in Hw; discriminate.
Qed.
Lemma PE_stable : stable PE.
Proof. repeat apply stable_and; auto using closed_stable, done_stable, rl_done_stable, wl_t_stable. Qed.

Theorem wl_finishes : PE ~> (fun s => wl s = LDone).
Proof using F R0 NS.
  apply (rank g_wl PE _ (fun s => ws (wl s) + V s)); auto using (weak cap r), (Fwl cap r F).
  - intros s a I HP G. pose proof (PE_stable s a I HP G) as HP'.
    destruct I as ((_ & _ & _ & I4) & _). destruct HP as (Hc & Hd & Hr & Ht).
    destruct (V_others cap s a I4 Hc Hr G) as [Ga|Hv]; auto.
    destruct (wl_frame a s) as [Ga|[Ga|E]]; auto.
    + unfold wl_t in Ht. rewrite (body_guard cap a s Ga G) in Ht; contradiction.
    + right; right. rewrite E. split; auto; lia.
  - intros s a I HP Ga G. pose proof (PE_stable s a I HP G) as HP'.
    destruct (teardown_own cap s a (proj2 (proj2 (proj2 HP))) Ga G); auto.
  - intros s ((I1 & I2 & _) & Hst) (Hc & Hd & Hr & Ht). unfold wl_t in Ht.
    destruct (wl s) eqn:E; try contradiction; auto; right.
    + exists LSetErr; cbn; auto.
    + destruct c.
      * exists (CCasLose 0); cbn; rewrite E; repeat split; auto; lia.
      * exists (CCloseDone 0); cbn; rewrite E; repeat split; auto; lia.
      * exists (CLockB 0); cbn; rewrite E; repeat split; auto; try lia.
        destruct (clock_free s 0 I1 I2) as [Hb|(h & Hw)]; auto; [|congruence].
        unfold cpc; rewrite E; auto.
      * exists (CWriteRet 0); cbn; rewrite E; repeat split; auto; try lia; tauto.
    + exists LT2Take; cbn; auto.
    + destruct (Nat.eq_dec (inq s) 0) as [E1|E1]; [|exists LT3InO; cbn; repeat split; auto; lia].
      destruct (Nat.eq_dec (outq s) 0) as [E2|E2]; [|exists LT3Out; cbn; repeat split; auto; lia].
      destruct (xloc s) eqn:E3; try (exists LT3End; cbn; repeat split; auto; congruence).
      exists LT3InX; cbn; auto.
Qed.

(* -- after Close has been entered, by anyone, both loops exit -- *)
Hypothesis cap_pos : 1 <= cap.
Theorem both_loops_exit :
  (fun s => closed s = true) ~> (fun s => loops_exited s /\ done s = true).
Proof using cap_pos F R0 NS.
  pose proof (closed_stable cap) as S1. pose proof (done_stable cap) as S2.
  pose proof (wl_t_stable cap) as S3. pose proof (sclosed_stable cap) as S4.
  (* closed, then done, then wl_t, then sclosed, then rl = RDone, then wl = LDone: each is stable *)
  apply weaken with (P := fun s => closed s = true)
    (Q := fun s => ((((closed s = true /\ done s = true) /\ wl_t s) /\ sclosed s = true) /\ rl s = RDone) /\
                   wl s = LDone); [|auto|unfold loops_exited; tauto].
  repeat eapply and_then; auto using stable_and, rl_done_stable.
  - apply lt_refl.
  - apply (closed_to_done cap r F R0 NS).
  - eapply weaken; [apply (wl_to_t cap r F R0 NS) | tauto | auto].
  - eapply weaken; [apply (done_to_sclosed cap r F R0 NS) | tauto | auto].
  - eapply weaken; [apply (rl_finishes cap cap_pos r F R0 NS) | unfold PD; tauto | auto].
  - eapply weaken; [apply wl_finishes | unfold PE; tauto | auto].
Qed.

(* -- and X's caller gets its delivery, unless the write loop's own Close returned while c.done
      was still open (finding F4) -- *)
Definition LE (s : state) : Prop := wl s = LDone /\ rl s = RDone /\ done s = true.
Lemma LE_stable : stable LE.
Proof. repeat apply stable_and; auto using wl_done_stable, rl_done_stable, (done_stable cap). Qed.

Lemma kerr_resolved : forall s, Inv cap s -> wl s = LDone -> xc s = KErr ->
  raced s = true \/ xerr s = true.
Proof.
  intros s ((_ & _ & _ & I4) & _) Hw Hx. destruct I4.
  destruct (xloc s) eqn:E.
  - right; auto.
  - auto.
  - rewrite Hw in *; cbn in *. destruct i_drained0; auto; congruence.
  - rewrite Hw in *; cbn in *. destruct i_drained0; auto; congruence.
  - right. apply i_gone0; auto. rewrite Hx; auto.
Qed.

Theorem x_delivered : LE ~> (fun s => delivered s \/ raced s = true).
Proof using F R0 NS.
  apply (rank g_x LE _ (fun s => xrk (xc s))); auto using (weak cap r), (Fx cap r F).
  - intros s a I HL G. pose proof (LE_stable s a I HL G).
    destruct (xc_frame a s) as [Ga|E]; auto. right; right. rewrite E; auto.
  - intros s a I HL Ga G. pose proof (LE_stable s a I HL G).
    destruct (x_own cap s a Ga G (proj2 (proj2 HL))); auto.
  - intros s I (Hw & Hr & Hd). unfold delivered. destruct (xc s) eqn:Ex; auto.
    + right. exists KSeeDone; cbn; auto.
    + right. exists KCheckDone; cbn; auto.
    + right. exists KLockChk; cbn; repeat split; auto. destruct I as ((I1 & _) & _).
      apply lx_none; auto; unfold wl_hold, rl_hold; rewrite ?Hw, ?Hr; discriminate.
    + right. exists KResolve; cbn; auto.
    + destruct (kerr_resolved s I Hw Ex) as [H|H]; auto. right. exists KRecv; cbn; auto.
Qed.

(* S3, liveness: once Close has been entered -- by Client.Close, or by a loop that saw the
   connection die -- both loops exit and X's caller receives from ctx.Err, unless the write
   loop's own Close returned while c.done was still open. *)
Theorem no_stranding :
  (fun s => closed s = true) ~>
  (fun s => loops_exited s /\ (delivered s \/ raced s = true)).
Proof using cap_pos F R0 NS.
  apply weaken with (P := fun s => closed s = true)
    (Q := fun s => (loops_exited s /\ done s = true) /\ (delivered s \/ raced s = true)); [|auto|tauto].
  eapply and_then; [apply both_loops_exit | | eapply weaken; [apply x_delivered | | auto]].
  - unfold loops_exited. auto using stable_and, wl_done_stable, rl_done_stable, (done_stable cap).
  - unfold loops_exited, LE; tauto.
Qed.
End R.
End CliL6.
