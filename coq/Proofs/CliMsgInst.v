(* Proofs/CliMsgInst.v - C02 / C20 (client): the theorems of Proofs/CliMsgThm.v, CliMsgIds.v, CliMsgReq.v (the header
   blocks, C02 (b)) and the quiet moves of cancellation and timeouts (C02 (d)) for the client instantiated with the real
   HPACK model (Impl/ClientInst.v), in the vocabulary of Proofs/CliDefs.v; sample runs. *)
From H2V Require Import Base.Bytes Base.MachineInt Gen.GenConsts Impl.Hpack Impl.ServerConn Impl.ServerInst
  Impl.ClientConn Impl.ClientInst Spec.Http2Messages Spec.Http2Responses Proofs.CliBase Proofs.CliDefs Proofs.SrvIsoRef
  Proofs.CliMsgRef Proofs.CliMsgAuto Proofs.CliMsgMoves Proofs.CliMsgDisp Proofs.CliMsgStep Proofs.CliMsgInv Proofs.CliMsgFeed
  Proofs.CliMsgRun Proofs.CliMsgIds Proofs.CliMsgThm Proofs.CliMsgReq.
From Coq Require Import ZArith Lia ZifyN ZifyNat ZifyBool List Sorted String.
Local Open Scope string_scope.
Import ListNotations.
Local Open Scope N_scope.

Definition cli_ghost (cfg : cl_config) (first : bytes) (evs : list cevent) : gst :=
  cl_ghost cli_dec_field cli_enc_field set_max_table_size cfg cli_init_hpack first evs.
(* what has been received on stream id: complete header blocks (decoded by the reference decoder, in the one
   connection-wide context) and DATA frames, in order *)
Definition cli_items (cfg : cl_config) (first : bytes) (evs : list cevent) (id : N) : list ritem :=
  own id (g_items (cli_ghost cfg first evs)).
Definition cli_never_idle (cfg : cl_config) (first : bytes) (evs : list cevent) : Prop :=
  never_idle cli_dec_field cli_enc_field set_max_table_size cfg cli_init_hpack first evs.
Definition cli_never_idleb (cfg : cl_config) (first : bytes) (evs : list cevent) : bool :=
  never_idleb cli_dec_field cli_enc_field set_max_table_size cfg cli_init_hpack first evs.
Definition cli_takens (cfg : cl_config) (first : bytes) (evs : list cevent) : list sframe :=
  cl_takens cli_dec_field cli_enc_field set_max_table_size cfg cli_init_hpack first evs.

Lemma cli_never_idleb_ok cfg first evs : cli_never_idleb cfg first evs = true -> cli_never_idle cfg first evs.
Proof. apply never_idleb_ok. Qed.

Lemma header_ids_hdr_ids tr : header_ids tr = hdr_ids tr.
Proof.
  unfold header_ids, headers_of, hdr_ids. induction tr as [|o t IH]; [reflexivity|]. cbn [flat_map]. rewrite map_app, IH.
  destruct o; reflexivity.
Qed.

Theorem cli_stream_ids cfg first evs :
  exists k, header_ids (cli_tr cfg first evs) = odds k /\ (2 * N.of_nat k <= cl_maxStreamID + 1).
Proof.
  destruct (stream_ids cli_dec_field cli_enc_field set_max_table_size cfg cli_init_hpack first evs) as (k & A & B & _).
  exists k. split; [rewrite header_ids_hdr_ids; exact A | exact B].
Qed.

Lemma sorted_snoc (l : list N) a : StronglySorted N.lt l -> Forall (fun b => b < a) l -> StronglySorted N.lt (l ++ [a]).
Proof.
  induction l as [|b l IH]; intros S F; cbn [app]; [constructor; constructor|].
  inversion S; subst. inversion F; subst. constructor; [apply IH; assumption|].
  apply Forall_app. split; [assumption | constructor; [assumption | constructor]].
Qed.

Lemma odds_sorted k : StronglySorted N.lt (odds k) /\ Forall (fun id => N.odd id = true /\ id < 2 * N.of_nat k) (odds k).
Proof.
  induction k as [|k [IH1 IH2]]; [split; constructor|]. rewrite odds_S. split.
  - apply sorted_snoc; [exact IH1|]. eapply Forall_impl; [|exact IH2]. intros a [_ B]. lia.
  - apply Forall_app. split.
    + eapply Forall_impl; [|exact IH2]. intros a [A B]. split; [exact A | lia].
    + constructor; [|constructor]. split; [|lia]. rewrite N.add_comm, N.odd_add_mul_2. reflexivity.
Qed.

(* the statement of Props/C02_statements.v: odd, strictly increasing *)
Theorem cli_stream_ids_sorted cfg first evs :
  let ids := header_ids (cli_tr cfg first evs) in
  StronglySorted N.lt ids /\ Forall (fun id => N.odd id = true) ids /\ Forall (fun id => id <= cl_maxStreamID) ids.
Proof.
  destruct (cli_stream_ids cfg first evs) as (k & A & B). cbv zeta. rewrite A. destruct (odds_sorted k) as [S F].
  split; [exact S|]. split; eapply Forall_impl; try exact F; intros a [X Y]; [exact X | unfold cl_maxStreamID in *; lia].
Qed.

Theorem cli_own_response cfg first evs tag r resp :
  cli_never_idle cfg first evs -> In (tag, r, CENil, resp) (results_of (cli_tr cfg first evs)) ->
  let mine := first_end (cli_items cfg first evs (cst_sid (cli_run cfg first evs) tag)) in
  cst_sid (cli_run cfg first evs) tag <> 0 /\ lax_response mine = true /\ resp = asm cl_empty_resp mine.
Proof.
  intros NI H.
  assert (H' : In (COResult tag r CENil resp) (cli_tr cfg first evs)).
  { unfold results_of in H. apply in_flat_map in H. destruct H as (o & Ho & Hi). destruct o; try contradiction. destruct Hi as [Hi|[]]. inversion Hi; subst. exact Ho. }
  destruct (own_response cli_dec_field cli_enc_field set_max_table_size cfg cli_init_hpack first evs tag r resp NI H') as (x & G & S & L & R).
  unfold cst_sid, cst_ctx. change (cl_ctxs_get (cc_ctxs (cli_run cfg first evs)) tag) with (cl_ctx_get (cli_run cfg first evs) tag).
  unfold cli_run. rewrite G. cbv zeta. repeat split; assumption.
Qed.

Lemma lax_cl_fits_fields fs : cl_small fs = true -> cl_fits_fields fs = true.
Proof.
  unfold cl_small, cl_fits_fields. induction fs as [|f t IH]; [reflexivity|]. cbn [forallb]. intro H.
  apply andb_true_iff in H. destruct H as [H1 H2]. rewrite (IH H2), andb_true_r.
  destruct (has_name H_content_length f); [|reflexivity]. rewrite parse_uint_decimal in H1. destruct (decimal (snd f)) as [n|]; [|reflexivity].
  destruct (Z.of_N n <=? MAXINT)%Z; [reflexivity | discriminate].
Qed.

Lemma lax_after_final_cl_fits items : lax_after_final items = true -> cl_fits items = true.
Proof.
  induction items as [|i t IH]; [reflexivity|]. cbn [lax_after_final cl_fits forallb]. destruct i as [fs es|d es].
  - destruct es; [|discriminate]. intro H. apply andb_true_iff in H. destruct H as [H1 H2]. destruct t; [|discriminate].
    unfold lax_trailers, lax_common in H1. rewrite !andb_true_iff in H1. rewrite lax_cl_fits_fields by tauto. reflexivity.
  - destruct es; [destruct t; [reflexivity | discriminate]|]. exact IH.
Qed.

Lemma lax_response_cl_fits items : lax_response items = true -> cl_fits items = true.
Proof.
  induction items as [|i t IH]; [reflexivity|]. cbn [lax_response cl_fits forallb]. destruct i as [fs es|d es]; [|discriminate].
  intro H. apply andb_true_iff in H. destruct H as [H1 H2].
  assert (F : cl_fits_fields fs = true) by (unfold lax_head, lax_common in H1; rewrite !andb_true_iff in H1; apply lax_cl_fits_fields; tauto).
  rewrite F. cbn [andb]. destruct (lax_status_of fs <? 200)%Z; destruct es; try (destruct t; [reflexivity | discriminate]).
  - exact (IH H2).
  - exact (lax_after_final_cl_fits _ H2).
Qed.

(* ... in the words of RFC 7540: the response on that stream is well formed, and the caller holds its status, its
   fields in order (those of informational blocks and trailers included, content-length apart) and its body *)
Theorem cli_own_response_rfc cfg first evs tag r resp :
  cli_never_idle cfg first evs -> In (tag, r, CENil, resp) (results_of (cli_tr cfg first evs)) ->
  let mine := first_end (cli_items cfg first evs (cst_sid (cli_run cfg first evs) tag)) in
  wf_response mine = true /\
  cr_fields resp = kept_items mine /\ cl_resp_body resp = body_of mine /\
  forall n fs, final_head mine = Some (n, fs) -> cr_status resp = Z.of_N n.
Proof.
  intros NI H mine. destruct (cli_own_response cfg first evs tag r resp NI H) as (_ & L & R). fold mine in L, R.
  pose proof (lax_response_wf _ L) as W. split; [exact W|].
  destruct (asm_fields_body mine cl_empty_resp) as [A B]. rewrite R. split; [exact A|]. split; [exact B|].
  intros n fs FH. exact (asm_status mine cl_empty_resp n fs W (lax_response_cl_fits _ L) FH).
Qed.

Theorem cli_waiting_prefix cfg first evs id tag :
  cli_never_idle cfg first evs -> In (id, tag) (cc_reqQueued (cli_run cfg first evs)) ->
  existsb item_es (cli_items cfg first evs id) = false /\ exists p, run_items rinit (cli_items cfg first evs id) = ICont p.
Proof.
  intros NI H. destruct (waiting_prefix cli_dec_field cli_enc_field set_max_table_size cfg cli_init_hpack first evs id tag NI H) as (x & p & _ & _ & A & B).
  split; [exact B | exists p; exact A].
Qed.

Theorem cli_complete_response_delivered cfg first evs fr tag x r :
  let e := CEvRL (RFrame fr) in
  cli_never_idle cfg first (evs ++ [e]) -> cl_taken (cli_run cfg first evs) e = Some fr ->
  cl_req_find (cc_reqQueued (cli_run cfg first evs)) (sf_sid fr) = Some tag -> cl_acquire_for [] (cli_run cfg first evs) tag (sf_sid fr) = CLOk ->
  cst_ctx (cli_run cfg first evs) tag = Some x -> ct_err x = None -> ct_resolved x = false ->
  run_items rinit (cli_items cfg first (evs ++ [e]) (sf_sid fr)) = IDone r ->
  exists x3, cst_ctx (cli_run cfg first (evs ++ [e])) tag = Some x3 /\ ct_err x3 = Some CENil /\ ct_resp x3 = r /\
             cl_req_find (cc_reqQueued (cli_run cfg first (evs ++ [e]))) (sf_sid fr) = None.
Proof. apply complete_response_delivered. Qed.

(* ":status 100" / ":status 0200" as literals with the indexed name :status (static index 8);
   "content-length: 5" and "content-length: 7" with the indexed name content-length (static index 28) *)
Definition ex_block_100 : bytes := [8; 3; 49; 48; 48].
Definition ex_block_0200 : bytes := [8; 4; 48; 50; 48; 48].
Definition ex_block_200_cl_cl : bytes := [136; 15; 13; 1; 53; 15; 13; 1; 55].
Definition ex_block_xa_200 : bytes := [0; 3; 120; 45; 97; 1; 49; 136].          (* "x-a: 1" then ":status 200" *)
Definition ex_block_200_empty_name : bytes := [136; 0; 0; 1; 120].               (* ":status 200" then "": "x" *)

Definition ex_one (fs : list rl_input) : list cevent :=
  [CEvSubmit 0 ex_get true; CEvWLIn] ++ map CEvRL fs ++ [CEvReceive 0].

Definition ex_summary (evs : list cevent) :=
  (map (fun r => (fst (fst (fst r)), snd (fst r), cr_status (snd r), cr_cl (snd r), cr_fields (snd r), cl_resp_body (snd r)))
       (results_of (cli_tr ex_cfg [] evs)),
   cli_never_idleb ex_cfg [] evs).

(* two requests; the server answers the second first, interleaves the two responses and cuts the first one's header
   block in the middle of a field (HEADERS + CONTINUATION) *)
Definition ex_two_ok : list cevent :=
  [CEvSubmit 0 ex_get true; CEvWLIn; CEvSubmit 1 (ex_post (CBuf [1; 2; 3])) true; CEvWLIn;
   CEvRL (ex_headers 3 false ex_block_404);
   CEvRL (ex_frame KHeaders 0 1 [136; 0; 3; 120] 0 0 0);
   CEvRL (ex_frame KCont 4 1 [45; 97; 1; 49] 0 0 0);
   CEvRL (ex_data 3 false [110; 111]);
   CEvRL (ex_data 1 true [104; 105]);
   CEvRL (ex_data 3 true [116]);
   CEvReceive 0; CEvReceive 1].

Example ex_two_ids : header_ids (cli_tr ex_cfg [] ex_two_ok) = [1; 3] /\ odds 2 = [1; 3].
Proof. split; vm_compute; reflexivity. Qed.

Example ex_two_results :
  ex_summary ex_two_ok =
  ([(0, CENil, 200%Z, (-3)%Z, [([120; 45; 97], [49])], [104; 105]); (1, CENil, 404%Z, (-3)%Z, [], [110; 111; 116])], true).
Proof. vm_compute. reflexivity. Qed.

Example ex_two_items :
  cli_items ex_cfg [] ex_two_ok 1 = [RBlock [(octets ":status", octets "200"); (octets "x-a", octets "1")] false; RData [104; 105] true] /\
  cli_items ex_cfg [] ex_two_ok 3 = [RBlock [(octets ":status", octets "404")] false; RData [110; 111] false; RData [116] true] /\
  wf_response (cli_items ex_cfg [] ex_two_ok 1) = true /\ wf_response (cli_items ex_cfg [] ex_two_ok 3) = true /\
  cst_sid (cli_run ex_cfg [] ex_two_ok) 0 = 1 /\ cst_sid (cli_run ex_cfg [] ex_two_ok) 1 = 3.
Proof. repeat split; vm_compute; reflexivity. Qed.

(* a request still waiting: the response headers are in, the body is not *)
Definition ex_waiting : list cevent := [CEvSubmit 0 ex_get true; CEvWLIn; CEvRL (ex_headers 1 false ex_block_200_xa)].
Example ex_waiting_hyps :
  cli_never_idleb ex_cfg [] ex_waiting = true /\ In (1, 0) (cc_reqQueued (cli_run ex_cfg [] ex_waiting)) /\
  cli_items ex_cfg [] ex_waiting 1 = [RBlock [(octets ":status", octets "200"); (octets "x-a", octets "1")] false].
Proof. split; [vm_compute; reflexivity|]. split; [vm_compute; left; reflexivity | vm_compute; reflexivity]. Qed.

(* ... and the DATA frame that completes it: every hypothesis of cli_complete_response_delivered *)
Example ex_delivered_hyps :
  let fr := mkSFrame KData 1 1 2 [104; 105] 0 0 0 false 0 false 0 in
  let e := CEvRL (RFrame fr) in
  cli_never_idleb ex_cfg [] (ex_waiting ++ [e]) = true /\ cl_taken (cli_run ex_cfg [] ex_waiting) e = Some fr /\
  cl_req_find (cc_reqQueued (cli_run ex_cfg [] ex_waiting)) 1 = Some 0 /\ cl_acquire_for [] (cli_run ex_cfg [] ex_waiting) 0 1 = CLOk /\
  (exists x, cst_ctx (cli_run ex_cfg [] ex_waiting) 0 = Some x /\ ct_err x = None /\ ct_resolved x = false) /\
  run_items rinit (cli_items ex_cfg [] (ex_waiting ++ [e]) 1) = IDone (mkCResp 200 (-3) [(octets "x-a", octets "1")] [[104; 105]]) /\
  cst_ctx (cli_run ex_cfg [] (ex_waiting ++ [e])) 0 <> None.
Proof.
  cbv zeta. repeat split; try (vm_compute; reflexivity).
  - eexists. split; [vm_compute; reflexivity|]. split; reflexivity.
  - vm_compute. discriminate.
Qed.

(* D3 (repaired in /repo aaab76f): an informational block with END_STREAM used to be delivered as the response (nil,
   status 100); it is refused now, the request alone *)
Example ex_interim_end_refused :
  let evs := ex_one [ex_headers 1 true ex_block_100] in
  ex_summary evs = ([(0, CEMalformed, 100%Z, (-3)%Z, [], [])], true) /\
  cli_items ex_cfg [] evs 1 = [RBlock [(octets ":status", octets "100")] true] /\
  wf_response (cli_items ex_cfg [] evs 1) = false /\ lax_response (cli_items ex_cfg [] evs 1) = false.
Proof. cbv zeta. repeat split; vm_compute; reflexivity. Qed.

(* D1 (repaired in /repo 03dd30d): ":status: 0200" is not a three-digit status code; it used to be delivered as 200 *)
Example ex_status_digits_refused :
  let evs := ex_one [ex_headers 1 true ex_block_0200] in
  ex_summary evs = ([(0, CEMalformed, 0%Z, (-3)%Z, [], [])], true) /\
  cli_items ex_cfg [] evs 1 = [RBlock [(octets ":status", octets "0200")] true] /\
  wf_response (cli_items ex_cfg [] evs 1) = false /\ lax_response (cli_items ex_cfg [] evs 1) = false.
Proof. cbv zeta. repeat split; vm_compute; reflexivity. Qed.

(* conflicting content-length fields: accepted, the last one wins (well formed by the letter of 8.1.2, not by RFC 7230 3.3.2) *)
Example ex_two_content_lengths :
  let evs := ex_one [ex_headers 1 true ex_block_200_cl_cl] in
  ex_summary evs = ([(0, CENil, 200%Z, 7%Z, [], [])], true) /\
  wf_response (cli_items ex_cfg [] evs 1) = true /\ wf_response_strict (cli_items ex_cfg [] evs 1) = false.
Proof. cbv zeta. repeat split; vm_compute; reflexivity. Qed.

(* refused, the request alone: DATA before any HEADERS; :status after a regular field *)
Example ex_data_first : ex_summary (ex_one [ex_data 1 true [1; 2]]) = ([(0, CEMalformed, 0%Z, (-3)%Z, [], [1; 2])], true).
Proof. vm_compute. reflexivity. Qed.
Example ex_status_after_regular :
  ex_summary (ex_one [ex_headers 1 true ex_block_xa_200]) = ([(0, CEMalformed, 0%Z, (-3)%Z, [(octets "x-a", octets "1")], [])], true).
Proof. vm_compute. reflexivity. Qed.
(* an empty field name goes through (out of the scope of wf_response, as of wf_request) *)
Example ex_empty_name :
  ex_summary (ex_one [ex_headers 1 true ex_block_200_empty_name]) = ([(0, CENil, 200%Z, (-3)%Z, [([], [120])], [])], true).
Proof. vm_compute. reflexivity. Qed.

(* the hypothesis on the server does exclude something: a frame on stream 1 before the client has opened it *)
Example ex_idle_stream : cli_never_idleb ex_cfg [] [CEvRL (ex_headers 1 true ex_block_404); CEvSubmit 0 ex_get true; CEvWLIn] = false.
Proof. vm_compute. reflexivity. Qed.

(* generic in the coder; used by Props/C02.v *)
Lemma write_request_never_no_ids hstate enc_field enc_set_max (c : cconn hstate) tag :
  snd (cl_write_request enc_field enc_set_max c tag) <> CWRErr CENoIDs.
Proof. apply write_request_no_ids. Qed.

(* the RFC's own examples (8.1.3) are well formed, accepted, and run to nil *)
Example ex_rfc_examples :
  wf_response ex_304 = true /\ wf_response ex_200 = true /\ wf_response ex_100_200_trailers = true /\
  lax_response ex_100_200_trailers = true /\
  (exists r, run_items rinit ex_100_200_trailers = IDone r /\ cr_status r = 200%Z /\ cl_resp_body r = [1; 2; 3]).
Proof. repeat split; try reflexivity. eexists. split; [vm_compute; reflexivity | split; reflexivity]. Qed.

Theorem cli_request_blocks cfg first evs :
  exists l : list rentry,
    headers_of (cli_tr cfg first evs) = map re_hdr l /\
    (forall id tag rq blk, In (id, tag, rq, blk) l ->
       id <> 0 /\ exists x, cst_ctx (cli_run cfg first evs) tag = Some x /\ ct_sid x = id /\ ct_req x = rq) /\
    exists e, enc_chain cli_enc_field set_max_table_size (cc_enc (cli_init first)) (map re_rb l) e /\
              (cl_wl_live (cli_run cfg first evs) = true -> e = cc_enc (cli_run cfg first evs)).
Proof. exact (request_blocks cli_dec_field cli_enc_field set_max_table_size cfg cli_init_hpack first evs). Qed.

(* the two requests of ex_two_ok: GET without a body (END_STREAM on HEADERS), POST with one; the second block is encoded
   in the state the first one left the encoder in *)
Example ex_two_blocks :
  let e0 := cc_enc (cli_init []) in
  let b1 := cl_request_block cli_enc_field e0 ex_get in
  let b2 := cl_request_block cli_enc_field (snd b1) (ex_post (CBuf [1; 2; 3])) in
  headers_of (cli_tr ex_cfg [] ex_two_ok) = [(1, true, fst b1); (3, false, fst b2)] /\
  cc_enc (cli_run ex_cfg [] ex_two_ok) = snd b2 /\
  data_of 3 (cli_tr ex_cfg [] ex_two_ok) = [(true, [1; 2; 3])] /\ data_of 1 (cli_tr ex_cfg [] ex_two_ok) = [].
Proof. cbv zeta. repeat split; vm_compute; reflexivity. Qed.

Lemma update_window_cw hstate (c : cconn hstate) s n :
  cc_currentWindow (cl_update_window c s n) = cc_currentWindow c /\ cc_closed (cl_update_window c s n) = cc_closed c.
Proof. unfold cl_update_window, cl_write_out. destruct (cc_closed c) eqn:E; [split; [reflexivity | exact E] | split; [reflexivity | exact E]]. Qed.

(* DATA counts against the connection window whether or not a request is still waiting on its stream: the read loop's
   window after the frame does not depend on the Response, and neither does the connection-level WINDOW_UPDATE *)
Lemma data_window_counted hstate (dec_field : hstate -> N -> bytes -> dec_res hstate) (c : cconn hstate) fr res :
  sf_kind fr = KData ->
  let cur := cl_i32 (cc_currentWindow c - Z.of_N (sf_len fr)) in
  cc_currentWindow (fst (fst (fst (cl_read_stream dec_field c fr res)))) = (if (cur <? cl_maxWindow / 2)%Z then cl_maxWindow else cur) /\
  (cc_closed c = false -> (cur <? cl_maxWindow / 2)%Z = true ->
   exists q, cc_outQ (fst (fst (fst (cl_read_stream dec_field c fr res)))) = (q ++ [COWinUpd 0 (cl_maxWindow - cur)])%list).
Proof.
  intros K cur. unfold cl_read_stream. rewrite K. cbn [fst]. fold cur.
  set (c1 := ccu_currentWindow c cur).
  set (c2 := match res with
             | Some _ => if negb (sf_len fr =? 0) && negb (flag_has (sf_flags fr) FL_ES) then cl_update_window c1 (sf_sid fr) (Z.of_N (sf_len fr)) else c1
             | None => c1 end).
  assert (E : cc_currentWindow c2 = cur /\ cc_closed c2 = cc_closed c).
  { subst c2. destruct res; [destruct (negb (sf_len fr =? 0) && negb (flag_has (sf_flags fr) FL_ES))|]; try (split; reflexivity).
    destruct (update_window_cw hstate c1 (sf_sid fr) (Z.of_N (sf_len fr))) as [A B]. rewrite A, B. split; reflexivity. }
  destruct E as [E1 E2]. destruct (cur <? cl_maxWindow / 2)%Z eqn:LOW.
  - split.
    + destruct (update_window_cw hstate (ccu_currentWindow c2 cl_maxWindow) 0 (cl_maxWindow - cur)) as [A _]. rewrite A. reflexivity.
    + intros NC _. unfold cl_update_window, cl_write_out. change (cc_closed (ccu_currentWindow c2 cl_maxWindow)) with (cc_closed c2). rewrite E2, NC.
      exists (cc_outQ c2). reflexivity.
  - split; [exact E1 | discriminate].
Qed.

Lemma timeout_quiet hstate (c : cconn hstate) tag : qm q2 c (cl_timeout_fire c tag) /\ qm q2 c (cl_timeout_cancel c tag).
Proof. split; [apply qm_timeout_fire | apply qm_timeout_cancel]. Qed.
Lemma close_quiet hstate (c : cconn hstate) : qm q2 c (cl_close_call c) /\ qm q2 c (cl_close_finish c).
Proof. split; [apply qm_close_call | apply qm_close_finish]. Qed.

(* a cancelled request in the middle of its response, another one after it *)
Definition ex_summary_armed (evs : list cevent) :=
  (map (fun r => (fst (fst (fst r)), snd (fst r), cr_status (snd r), cr_cl (snd r), cr_fields (snd r), cl_resp_body (snd r)))
       (results_of (cli_tr ex_cfg_armed [] evs)),
   cli_never_idleb ex_cfg_armed [] evs).
(* ":status 200" then "x-a: 1" with incremental indexing (0x40): enters the dynamic table as index 62 *)
Definition ex_block_200_xa_indexed : bytes := [136; 64; 3; 120; 45; 97; 1; 49].
Definition ex_cancelled : list cevent :=
  [CEvSubmit 0 ex_get true; CEvWLIn; CEvSubmit 1 ex_get true; CEvWLIn;
   CEvTimeout 0; CEvTimeoutCancel 0; CEvReceive 0;
   CEvRL (ex_headers 1 false ex_block_200_xa_indexed);        (* for the cancelled request: decoded, dropped *)
   CEvRL (ex_data 1 true [104; 105]);
   CEvRL (ex_headers 3 false [136; 190]);                     (* ":status 200", then index 62 = x-a: 1 *)
   CEvRL (ex_data 3 true [104; 105]);
   CEvReceive 1].
Example ex_cancelled_ok :
  ex_summary_armed ex_cancelled =
  ([(0, CETimeout, 0%Z, (-3)%Z, [], []); (1, CENil, 200%Z, (-3)%Z, [([120; 45; 97], [49])], [104; 105])], true) /\
  cli_items ex_cfg_armed [] ex_cancelled 3 = [RBlock [(octets ":status", octets "200"); (octets "x-a", octets "1")] false; RData [104; 105] true] /\
  cli_items ex_cfg_armed [] ex_cancelled 1 = [RBlock [(octets ":status", octets "200"); (octets "x-a", octets "1")] false; RData [104; 105] true].
Proof. repeat split; vm_compute; reflexivity. Qed.
