(* Proofs/SrvFlowSafeC.v - C06 safety, part 3: every step of the model against the ledger, and the theorem. *)
From H2V Require Import Base.Bytes Base.MachineInt Base.Result Gen.GenConsts Impl.ServerConn Proofs.SrvBase
  Spec.FlowLedger Proofs.SrvFlowLedger Proofs.SrvFlowDefs Proofs.SrvFlowSend Proofs.SrvFlowEff Proofs.SrvFlowSafe
  Proofs.SrvFlowSafeB Proofs.SrvFlowCDecomp.
From Coq Require Import ZArith Lia ZifyN ZifyNat ZifyBool List.
Import ListNotations.
Local Open Scope N_scope.
Set Default Proof Using "Type".

(* grants that only add: opening a stream, WINDOW_UPDATE *)
Definition is_grant (e : levent) : Prop :=
  match e with LOpen _ => True | LGrant _ inc => (0 <= inc)%Z | _ => False end.

Lemma lgrants_is_grant fr : (sf_sid fr = 0 -> sf_kind fr = KSettings -> sf_set_haswin fr = false) ->
  Forall is_grant (lgrants_of fr).
Proof.
  intro H. unfold lgrants_of. destruct (sf_sid fr =? 0) eqn:Z.
  - destruct (sf_kind fr) eqn:K; try constructor; try (cbn; lia); try constructor.
    rewrite H by (try reflexivity; lia). constructor.
  - destruct (sf_kind fr); repeat constructor. cbn. lia.
Qed.

Lemma lvalid_grants l : Forall is_grant l -> forall L, lvalid L l.
Proof. induction 1 as [|e l He _ IH]; intro L; cbn [lvalid]; [exact I|]. split; [destruct e; try exact I; contradiction | apply IH]. Qed.

Section Safe3.
Variable hstate : Type.
Variable dec_field : hstate -> N -> bytes -> dec_res hstate.
Variable enc_field : hstate -> bytes -> bytes -> bool -> bytes * hstate.
Variable enc_set_max : hstate -> N -> hstate.
Variable cfg : config.
Notation sconn := (sconn hstate).
Implicit Types c : sconn.
Notation Sim := (SimX hstate None).
Notation GoodStep := (GoodStep hstate).

Lemma held_grant L e s : is_grant e -> held L s -> held (lstep L e) s.
Proof.
  intros G (w & Hw & Hle). destruct e as [|sid|sid inc|]; try contradiction; cbn [lstep].
  - destruct (l_strm L sid) eqn:E; [exists w; auto|]. unfold held. cbn [l_strm]. exists w. split; [|assumption].
    rewrite strm_upd_other; [assumption|]. intro; subst. congruence.
  - destruct (N.eqb sid 0); [exists w; auto|]. destruct (l_strm L sid) eqn:E; [|exists w; auto].
    unfold held. cbn [l_strm]. destruct (N.eq_dec (st_id s) sid) as [<-|NE].
    + rewrite strm_upd_same. rewrite Hw in E. inversion E; subst. eexists. split; [reflexivity|]. cbn in G. flia.
    + rewrite strm_upd_other by assumption. exists w. auto.
Qed.

Lemma SimX_grant ex c L e : is_grant e -> SimX hstate ex c L -> SimX hstate ex c (lstep L e).
Proof.
  intros G [i_init i_conn i_strm i_nodup i_le i_hi i_fresh]. constructor; auto.
  - destruct e; try contradiction; cbn [lstep]; [destruct (l_strm L sid); assumption|].
    destruct (N.eqb sid 0); [|destruct (l_strm L sid); assumption]. assumption.
  - destruct e as [|sid|sid inc|]; try contradiction; cbn [lstep]; [destruct (l_strm L sid); assumption|].
    cbn in G. destruct (N.eqb sid 0); [cbn [l_conn]; flia|]. destruct (l_strm L sid); assumption.
  - intros s Hs Hne. apply held_grant; auto.
  - destruct e as [|sid|sid inc|]; try contradiction; cbn [lstep].
    + destruct (l_strm L sid) eqn:E; [assumption|]. cbn [l_strm l_init]. intros sid0 w H0.
      destruct (N.eq_dec sid0 sid) as [->|NE].
      * rewrite strm_upd_same. intro X; inversion X; subst. flia.
      * rewrite strm_upd_other by assumption. eauto.
    + destruct (N.eqb sid 0); [assumption|]. destruct (l_strm L sid) eqn:E; [|assumption].
      cbn [l_strm l_init]. intros sid0 w H0. destruct (N.eq_dec sid0 sid) as [->|NE].
      * rewrite strm_upd_same. intro X; inversion X; subst. specialize (i_fresh _ _ H0 E). cbn in G. flia.
      * rewrite strm_upd_other by assumption. eauto.
Qed.

Lemma SimX_grants ex c l : Forall is_grant l -> forall L, SimX hstate ex c L -> SimX hstate ex c (lrun L l).
Proof. induction 1 as [|e l He _ IH]; intros L S; [assumption|]. rewrite lrun_cons. apply IH. apply SimX_grant; assumption. Qed.

Lemma held_grants l s : Forall is_grant l -> forall L, held L s -> held (lrun L l) s.
Proof. induction 1 as [|e l He _ IH]; intros L S; [assumption|]. rewrite lrun_cons. apply IH. apply held_grant; assumption. Qed.

Lemma Origin_Sim c fr c1 s L : sf_sid fr <> 0 -> Sim c L -> Origin c fr c1 s ->
  Sim c1 (lrun L (lgrants_of fr)) /\ held (lrun L (lgrants_of fr)) s /\ st_id s <= sc_lastID c1 /\ st_id s = sf_sid fr /\
  (sf_kind fr = KWinUpd -> exists w, l_strm (lrun L (lgrants_of fr)) (st_id s) = Some w /\
                                      (st_window s + Z.of_N (sf_inc fr) <= w)%Z).
Proof.
  intros NZ S O. destruct O as [s LE F | KH FD HI LA].
  - assert (G : Forall is_grant (lgrants_of fr)) by (apply lgrants_is_grant; intro; contradiction).
    apply strms_search_In in F. destruct F as [Hin Hid].
    assert (Hh : held L s) by (apply (sim_strm _ _ _ _ S); [assumption | discriminate]).
    split; [apply SimX_grants; assumption|]. split; [apply held_grants; assumption|].
    split; [apply (sim_le _ _ _ _ S); assumption|]. split; [assumption|].
    intro KW. unfold lgrants_of. destruct (sf_sid fr =? 0) eqn:Z; [flia|]. rewrite KW. cbn [lrun fold_left lstep].
    rewrite Z. destruct Hh as (w & Hw & Hle). rewrite <- Hid. rewrite Hw. cbn [l_strm]. rewrite strm_upd_same.
    eexists. split; [reflexivity | flia].
  - assert (E : lgrants_of fr = [LOpen (sf_sid fr)]).
    { unfold lgrants_of. destruct (sf_sid fr =? 0) eqn:Z; [flia|]. rewrite KH. reflexivity. }
    rewrite E. cbn [lrun fold_left].
    assert (G : is_grant (LOpen (sf_sid fr))) by exact I.
    pose proof (SimX_grant None c L _ G S) as S1.
    destruct S as [i_init i_conn i_strm i_nodup i_le i_hi i_fresh].
    assert (HN : held (lstep L (LOpen (sf_sid fr))) (new_strm c fr)).
    { unfold held, new_strm. cbn [lstep st_id st_window set_orig_started new_stream].
      destruct (l_strm L (sf_sid fr)) as [w|] eqn:Ew.
      - exists w. split; [assumption|]. rewrite i_init. eauto.
      - cbn [l_strm]. rewrite strm_upd_same. exists (l_init L). split; [reflexivity|]. rewrite i_init. flia. }
    assert (NI : ~ In (sf_sid fr) (map st_id (sc_strms c))).
    { intro Hin. apply in_map_iff in Hin. destruct Hin as (s0 & E0 & Hin).
      destruct (sf_sid fr <=? sc_lastID c) eqn:LE.
      - eapply strms_search_None; eauto.
      - specialize (i_le _ Hin). flia. }
    split; [|split; [exact HN|split; [unfold new_strm; sc_cbn; cbn; flia | split; [reflexivity | congruence]]]].
    destruct S1 as [j_init j_conn j_strm j_nodup j_le j_hi j_fresh].
    constructor; sc_cbn.
    + assumption.
    + assumption.
    + intros s0 Hs Hne. apply in_app_or in Hs. destruct Hs as [Hs|[<-|[]]]; [apply j_strm; assumption | exact HN].
    + rewrite map_app. cbn [map]. apply NoDup_app_one; assumption.
    + intros s0 Hs. apply in_app_or in Hs. destruct Hs as [Hs|[<-|[]]]; [specialize (i_le _ Hs); flia | cbn; flia].
    + flia.
    + intros sid0 w0 H0 Hw0. apply j_fresh with (sid := sid0); [flia | assumption].
Qed.
Lemma quiet_nodata o : quiet_out o -> nodata_out o.
Proof. unfold quiet_out, nodata_out. destruct (strip o); auto. Qed.
Lemma winupd_nodata o : winupd_out o -> nodata_out o.
Proof. unfold winupd_out, nodata_out. destruct (strip o); auto. Qed.

Lemma GoodStep_pre c L c1 c' : out_ext nodata_out c c1 -> GoodStep c1 L c' -> GoodStep c L c'.
Proof.
  intros O (L' & Led & H). exists L'. split; [|exact H]. eapply LedOn_trans; [apply LedOn_nodata; exact O | exact Led].
Qed.

Lemma SimX_Recv ex c c' L : Recv c c' -> SimX hstate ex c L -> SimX hstate ex c' L.
Proof. intros []. apply SimX_same; assumption. Qed.

Lemma settings_c0_fields c fr :
  sc_strms (settings_c0 enc_set_max c fr) = sc_strms c /\ sc_initWin (settings_c0 enc_set_max c fr) = sc_initWin c /\
  sc_clientWindow (settings_c0 enc_set_max c fr) = sc_clientWindow c /\ sc_lastID (settings_c0 enc_set_max c fr) = sc_lastID c /\
  sc_highestID (settings_c0 enc_set_max c fr) = sc_highestID c /\ sc_out (settings_c0 enc_set_max c fr) = sc_out c.
Proof. unfold settings_c0. destruct (sf_set_hastable fr); repeat split. Qed.

(* the two window changes the stream loop applies to the whole connection *)
Lemma settings_Sim c fr L : Sim c L ->
  let newInit := signed 32 (sf_set_win fr) in
  let delta := (newInit - sc_initWin c)%Z in
  Sim (emit (upd_strms (upd_initWin (settings_c0 enc_set_max c fr) newInit) (map (bump delta) (sc_strms c))) OSettingsAck)
      (lstep L (LInit newInit)).
Proof.
  intros S newInit delta.
  destruct (settings_c0_fields c fr) as (E1 & E2 & E3 & E4 & E5 & E6).
  destruct S as [i_init i_conn i_strm i_nodup i_le i_hi i_fresh].
  constructor; rewrite ?sc_initWin_emit, ?sc_clientWindow_emit, ?sc_strms_emit, ?sc_lastID_emit, ?sc_highestID_emit; sc_cbn.
  - reflexivity.
  - rewrite E3. assumption.
  - intros s Hs _. apply in_map_iff in Hs. destruct Hs as (s0 & <- & Hs0).
    destruct (i_strm s0 Hs0) as (w & Hw & Hle); [discriminate|].
    exists (w + (newInit - l_init L))%Z. cbn [l_strm lstep bump st_id set_window st_window]. rewrite Hw.
    split; [reflexivity|]. subst delta. rewrite i_init. flia.
  - rewrite map_map. cbn [bump st_id set_window]. assumption.
  - intros s Hs. apply in_map_iff in Hs. destruct Hs as (s0 & <- & Hs0). rewrite E4. apply (i_le s0 Hs0).
  - rewrite E4, E5. assumption.
  - rewrite E5. intros sid w H0. cbn [l_strm l_init lstep]. destruct (l_strm L sid) as [w0|] eqn:Ew; [|discriminate].
    intro X; inversion X; subst. specialize (i_fresh _ _ H0 Ew). flia.
Qed.

Lemma winupd_Sim c inc L : Sim c L ->
  Sim (upd_clientWindow c (sc_clientWindow c + Z.of_N inc)) (lstep L (LGrant 0 (Z.of_N inc))).
Proof.
  intro S. pose proof (SimX_grant None c L (LGrant 0 (Z.of_N inc))) as G.
  destruct G as [j_init j_conn j_strm j_nodup j_le j_hi j_fresh]; [cbn; flia | exact S|].
  constructor; sc_cbn; try assumption.
  destruct S as [i_init i_conn i_strm i_nodup i_le i_hi i_fresh]. cbn [lstep N.eqb l_conn]. flia.
Qed.

(* from the frame's stream to what afterFrame is given *)
Lemma after_pre_Sim c fr c1 s c2 cX sX L : Sim c L -> sf_sid fr <> 0 -> Origin c fr c1 s -> Closes c1 c2 ->
  HFok dec_field cfg c2 s fr cX sX ->
  Sim cX (lrun L (lgrants_of fr)) /\ held (lrun L (lgrants_of fr)) sX /\ st_id sX <= sc_lastID cX /\
  st_id sX = st_id s /\ out_ext nodata_out c cX.
Proof.
  intros S NZ Or CL HF.
  destruct (Origin_Sim c fr c1 s L NZ S Or) as (S1 & H1 & Le1 & Id1 & WU).
  set (L1 := lrun L (lgrants_of fr)) in *.
  pose proof (Sim_Closes _ _ _ _ CL S1) as S2.
  assert (Le2 : st_id s <= sc_lastID c2) by (rewrite (cl_lastID _ _ _ CL); exact Le1).
  destruct (HFok_eff _ dec_field cfg c2 s fr cX sX HF) as (c3 & s3 & R & Q & _ & SS & WW & SW & _).
  pose proof (SimX_Recv None _ _ _ R S2) as S3.
  assert (I3 : st_id s3 = st_id s) by apply SS.
  assert (H3 : held L1 s3).
  { destruct WW as [WW|[KW WW]].
    - eapply held_same_win; eassumption.
    - destruct (WU KW) as (w & Hw & Hle). exists w. rewrite I3, WW. auto. }
  assert (IX : st_id sX = st_id s3) by apply SW.
  split; [eapply SimX_Quiet; eassumption|].
  split; [eapply held_same_win; [exact IX | apply SW | exact H3]|].
  split; [rewrite IX, I3, (q_lastID _ _ _ Q), (rv_lastID _ _ _ R); exact Le2|].
  split; [congruence|].
  eapply out_ext_trans; [eapply out_ext_weaken; [apply quiet_nodata | apply (Origin_Frame _ _ _ _ _ Or)]|].
  eapply out_ext_trans; [eapply out_ext_weaken; [apply quiet_nodata | apply CL]|].
  eapply out_ext_trans; [eapply out_ext_weaken; [apply winupd_nodata | apply R]|].
  eapply out_ext_weaken; [apply quiet_nodata | apply Q].
Qed.

Lemma sl_frame_led c fr L : Sim c L ->
  GoodStep c (lrun L (lgrants_of fr)) (fst (sl_frame dec_field enc_set_max cfg c fr)).
Proof.
  intro S.
  destruct (sl_frame_SLF _ dec_field enc_set_max cfg c fr)
    as [c' Q D P3 | c' F O SD | Z K HW c0 newInit delta Fa | Z K W | NZ K | c1 s p NZ Or KH Hp | c1 s c2 cX sX NZ Or CL HF].
  - (* nothing that matters *)
    pose proof (SimX_grants None c _ (lgrants_is_grant fr P3) L S) as S1.
    exists (lrun L (lgrants_of fr)). split; [apply LedOn_quiet, Q | right; eapply SimX_Quiet; eassumption].
  - (* the loop ends *)
    exists (lrun L (lgrants_of fr)). split; [apply LedOn_quiet, O | left; exact SD].
  - (* SETTINGS_INITIAL_WINDOW_SIZE *)
    assert (E : lgrants_of fr = [LInit newInit]).
    { unfold lgrants_of. rewrite Z, K, HW. reflexivity. }
    rewrite E. cbn [lrun fold_left].
    pose proof (settings_Sim c fr L S) as S2. cbv zeta in S2. fold c0 newInit delta in S2.
    destruct (flush_streams_led _ _ _ S2) as (L' & Led & S').
    exists L'. split; [|right; exact S'].
    eapply LedOn_trans; [|exact Led]. apply LedOn_quiet.
    eapply out_ext_trans; [|apply out_ext_emit; exact I]. apply out_ext_same. sc_cbn. apply (settings_c0_fields c fr).
  - (* WINDOW_UPDATE on the connection *)
    assert (E : lgrants_of fr = [LGrant 0 (Z.of_N (sf_inc fr))]).
    { unfold lgrants_of. rewrite Z, K. reflexivity. }
    rewrite E. cbn [lrun fold_left].
    destruct (flush_streams_led _ _ _ (winupd_Sim c (sf_inc fr) L S)) as (L' & Led & S').
    exists L'. split; [|right; exact S'].
    eapply LedOn_trans; [|exact Led]. apply LedOn_quiet. apply out_ext_same. reflexivity.
  - (* DATA on a stream the server reset: credited to the connection *)
    assert (E : lgrants_of fr = []).
    { unfold lgrants_of. destruct (sf_sid fr =? 0) eqn:Z; [flia|]. rewrite K. reflexivity. }
    rewrite E. cbn [lrun fold_left].
    pose proof (Recv_credit _ cfg c (Z.of_N (sf_len fr))) as R.
    exists L. split; [|right; eapply SimX_Recv; eassumption].
    apply LedOn_nodata. eapply out_ext_weaken; [apply winupd_nodata | apply R].
  - (* the previous stream's header block is not finished *)
    destruct (Origin_Sim c fr c1 s L NZ S Or) as (S1 & _ & _ & _ & _).
    set (L1 := lrun L (lgrants_of fr)) in *.
    exists L1. split.
    + apply LedOn_quiet. eapply out_ext_trans; [apply (Origin_Frame _ _ _ _ _ Or)|].
      eapply out_ext_trans; [apply (q_out _ _ _ (Quiet_write_goaway _ c1 (st_id p) c_ProtocolError))|]. apply out_ext_same. reflexivity.
    + right. eapply SimX_put; [eapply SimX_Quiet; [apply Quiet_write_goaway | exact S1] | left; reflexivity | |].
      * eapply held_same_win; [| |apply (sim_strm _ _ _ _ S1 p Hp); discriminate]; reflexivity.
      * rewrite sc_lastID_write_goaway. apply (sim_le _ _ _ _ S1 p Hp).
  - (* the frame is handled on its stream *)
    destruct (after_pre_Sim c fr c1 s c2 cX sX L S NZ Or CL HF) as (SX & HX & LeX & _ & OX).
    eapply GoodStep_pre; [exact OX|].
    eapply after_frame_led with (ex := None); [exact SX | left; reflexivity | exact HX | exact LeX].
Qed.

Lemma sl_done_led c sid r L : Sim c L -> GoodStep c L (fst (sl_done enc_field cfg c sid r)).
Proof.
  intro S. unfold sl_done.
  destruct (take_stream (sc_gone c) sid) as [[s rest]|].
  - cbn [fst cont]. exists L.
    pose proof (Quiet_release_gone _ c rest (set_flags s (st_responded s) false true)) as Q.
    split; [apply LedOn_quiet, Q | right; eapply SimX_Quiet; eassumption].
  - destruct (strms_search (sc_strms c) sid) as [s|] eqn:F; [|exists L; split; [apply LedOn_refl | right; exact S]].
    destruct (negb (st_handlerRunning s)); [exists L; split; [apply LedOn_refl | right; exact S]|].
    apply strms_search_In in F. destruct F as [Hin Hid].
    set (s1 := set_flags s (st_responded s) false (st_abandoned s)).
    assert (H1 : held L s1).
    { eapply held_same_win; [| |apply (sim_strm _ _ _ _ S s Hin); discriminate]; reflexivity. }
    assert (Le1 : st_id s1 <= sc_lastID c) by apply (sim_le _ _ _ _ S s Hin).
    destruct (finish_request_led _ enc_field None c s1 r L S (or_introl eq_refl) H1 Le1) as (L1 & Led & S1 & Hh & I1 & Lid).
    destruct (finish_request enc_field c s1 r) as [[c1 s2] fin]. cbn [fst snd] in *.
    set (c2 := if fin then close_stream (put c1 (set_state s2 SClosed)) (set_state s2 SClosed) else put c1 s2).
    assert (G : LedOn hstate (fun _ => True) c L c2 L1 /\ Sim c2 L1).
    { subst c2. destruct fin.
      - assert (S2 : Sim (put c1 (set_state s2 SClosed)) L1).
        { eapply SimX_put; [exact S1 | right; cbn [st_id set_state]; rewrite I1; reflexivity | eapply held_same_win; [| |exact Hh]; reflexivity|].
          cbn [st_id set_state]. rewrite I1, Lid. exact Le1. }
        split; [|eapply SimX_close; [exact S2 | left; reflexivity]].
        eapply LedOn_trans; [eapply LedOn_weaken; [|exact Led]; auto|]. apply LedOn_quiet.
        apply (out_ext_trans _ _ c1 (put c1 (set_state s2 SClosed))); [apply out_ext_same; reflexivity | apply close_stream_out].
      - split; [|eapply SimX_put; [exact S1 | right; rewrite I1; reflexivity | exact Hh | rewrite I1, Lid; exact Le1]].
        eapply LedOn_trans; [eapply LedOn_weaken; [|exact Led]; auto|]. apply LedOn_quiet. apply out_ext_same. reflexivity. }
    destruct G as [Led2 S2].
    eapply GoodStep_brk_cont; eassumption.
Qed.

Lemma sl_timer_led c L : Sim c L -> GoodStep c L (fst (sl_timer cfg c)).
Proof.
  intro S. unfold sl_timer. destruct (cf_maxRequestTime cfg <=? 0)%Z; cbn [fst cont];
    [exists L; split; [apply LedOn_refl | right; exact S]|].
  pose proof (close_heads_Closes _ (count_due cfg (sc_now c) (sc_strms c)) c) as CL.
  exists L. split; [apply LedOn_quiet, CL | right; eapply Sim_Closes; eassumption].
Qed.

Variable h0 : hstate.
Notation step := (step dec_field enc_field enc_set_max cfg).
Notation tl_step := (tl_step hstate dec_field enc_field enc_set_max cfg).
Notation timeline_from := (timeline_from hstate dec_field enc_field enc_set_max cfg).

Definition Inv c (L : ledger) : Prop := sc_sl_done c = true \/ Sim c L.

(* what a step has to deliver *)
Definition StepOK c (L : ledger) (g : list levent) c' : Prop :=
  exists new, sc_out c' = new ++ sc_out c /\ data_on (fun _ => True) new /\
              lvalid L (g ++ ldatas (rev new)) /\ Inv c' (lrun L (g ++ ldatas (rev new))).

Lemma GoodStep_StepOK c L g c' : (forall e, In e g -> match e with LData _ _ => False | _ => True end) ->
  GoodStep c (lrun L g) c' -> StepOK c L g c'.
Proof.
  intros Hg (L' & (new & E & D & V & ->) & H). exists new. split; [assumption|]. split; [assumption|].
  rewrite lrun_app. split; [|exact H]. apply lvalid_app. split; [|assumption].
  clear -Hg. revert L. induction g as [|e g IH]; intro L; cbn [lvalid]; [exact I|].
  split; [|apply IH; intros; apply Hg; right; assumption].
  specialize (Hg e (or_introl eq_refl)). destruct e; try exact I. contradiction.
Qed.

Lemma StepOK_quiet c L c' : out_ext quiet_out c c' -> Inv c' L -> StepOK c L [] c'.
Proof.
  intros (new & E & F) H. exists new. cbn [app].
  rewrite (ldatas_quiet (rev new)) by (apply Forall_rev; assumption).
  split; [assumption|]. split; [apply data_on_quiet; assumption|]. split; [exact I | exact H].
Qed.

Lemma lgrants_nodata fr e : In e (lgrants_of fr) -> match e with LData _ _ => False | _ => True end.
Proof.
  unfold lgrants_of. destruct (sf_sid fr =? 0); destruct (sf_kind fr); try (destruct (sf_set_haswin fr));
    cbn [In]; intro H; repeat (destruct H as [H|H]); try contradiction; subst; exact I.
Qed.

Lemma Inv_same c c' L : sc_strms c' = sc_strms c -> sc_initWin c' = sc_initWin c ->
  sc_clientWindow c' = sc_clientWindow c -> sc_lastID c' = sc_lastID c -> sc_highestID c' = sc_highestID c ->
  sc_sl_done c' = sc_sl_done c -> Inv c L -> Inv c' L.
Proof.
  intros E1 E2 E3 E4 E5 E6 [H|H]; [left; congruence | right; eapply SimX_same; eassumption].
Qed.

Lemma step_StepOK c e L : Inv c L ->
  StepOK c L (match sl_takes hstate c e with Some fr => lgrants_of fr | None => [] end) (step c e).
Proof.
  intro H. destruct e as [i| |sid r|t| | | |]; cbn [sl_takes].
  - (* the read loop *)
    rewrite step_EvRL. destruct (sc_rl_done c); [apply StepOK_quiet; [apply out_ext_refl | exact H]|].
    destruct (rl_step_eff _ cfg c i) as [[] _].
    apply StepOK_quiet; [assumption|]. eapply Inv_same; eassumption.
  - (* the stream loop takes a frame *)
    rewrite step_EvSL. destruct (sc_sl_done c) eqn:SD; [apply StepOK_quiet; [apply out_ext_refl | left; exact SD]|].
    destruct H as [H|S]; [congruence|].
    destruct (sc_readerQ c) as [|fr q]; cbn [hd_error].
    + destruct (sc_rl_done c); [|apply StepOK_quiet; [apply out_ext_refl | right; exact S]].
      apply StepOK_quiet; [eapply out_ext_cons; [reflexivity | exact I] | left; reflexivity].
    + assert (S' : Sim (upd_readerQ c q) L) by (eapply SimX_same; [..|exact S]; reflexivity).
      pose proof (sl_frame_led _ fr L S') as G.
      apply GoodStep_StepOK in G; [|apply lgrants_nodata]. exact G.
  - (* a handler returns *)
    rewrite step_EvDone. destruct (sc_sl_done c) eqn:SD; [apply StepOK_quiet; [apply out_ext_refl | left; exact SD]|].
    destruct H as [H|S]; [congruence|].
    apply (GoodStep_StepOK c L []); [intros ? []|]. apply sl_done_led. exact S.
  - rewrite step_EvClock. destruct (sc_now c <? t)%Z; (apply StepOK_quiet; [apply out_ext_same; reflexivity|]); [|exact H].
    eapply Inv_same; [..|exact H]; reflexivity.
  - rewrite step_EvTimer. destruct (sc_sl_done c) eqn:SD; [apply StepOK_quiet; [apply out_ext_refl | left; exact SD]|].
    destruct H as [H|S]; [congruence|].
    apply (GoodStep_StepOK c L []); [intros ? []|]. apply sl_timer_led. exact S.
  - rewrite step_EvIdle.
    pose proof (Quiet_idle _ c) as Q.
    apply StepOK_quiet; [apply Q|]. destruct H as [H|S].
    + left. destruct (q_sl_done _ _ _ Q) as [E|E]; congruence.
    + right. eapply SimX_Quiet; eassumption.
  - rewrite step_EvCloser. destruct (sc_closer c && negb (sc_sl_done c)); [|apply StepOK_quiet; [apply out_ext_refl | exact H]].
    apply StepOK_quiet; [apply (q_out _ _ _ (Quiet_brk _ c)) | left; reflexivity].
  - rewrite step_EvWriteFail. apply StepOK_quiet; [apply out_ext_same; reflexivity|].
    eapply Inv_same; [..|exact H]; reflexivity.
Qed.

Lemma StepOK_tl c e L : Inv c L ->
  lvalid L (tl_step c e) /\ Inv (step c e) (lrun L (tl_step c e)) /\
  data_on (fun _ => True) (new_out hstate c (step c e)).
Proof.
  intro H. destruct (step_StepOK c e L H) as (new & E & D & V & H'). unfold SrvFlowDefs.tl_step.
  rewrite (new_out_ext _ _ _ _ E). split; [assumption|]. split; [assumption|]. apply data_on_rev. assumption.
Qed.

Lemma timeline_valid evs : forall c L, Inv c L -> lvalid L (timeline_from c evs).
Proof.
  induction evs as [|e evs IH]; intros c L H; cbn [SrvFlowDefs.timeline_from]; [exact I|].
  destruct (StepOK_tl c e L H) as (V & H' & _). apply lvalid_app. split; [assumption | apply IH; assumption].
Qed.

Lemma Inv_init : Inv (init_conn cfg h0) ledger0.
Proof.
  right. constructor; cbn; try reflexivity; try flia; try (intros ? []); try constructor; intros; discriminate.
Qed.

(* C06 safety: every DATA frame fits the peer's ledger at the moment it is queued *)
Theorem ledger_safe evs : lvalid ledger0 (timeline hstate dec_field enc_field enc_set_max cfg h0 evs).
Proof. apply timeline_valid, Inv_init. Qed.

Theorem ledger_within_grants evs : within_grants (timeline hstate dec_field enc_field enc_set_max cfg h0 evs).
Proof. apply lvalid_within_grants, ledger_safe. Qed.

(* C06, frame size: no DATA frame is longer than 16384 bytes, the smallest SETTINGS_MAX_FRAME_SIZE a peer can have *)
Definition small_data (o : outev) : Prop := forall sid es pl, strip o = OData sid es pl -> len pl <= 16384.

Lemma small_data_from evs : forall c L, Inv c L -> Forall small_data (sc_out c) ->
  Forall small_data (sc_out (run_from dec_field enc_field enc_set_max cfg c evs)).
Proof.
  induction evs as [|e evs IH]; intros c L H F; [exact F|].
  rewrite run_from_cons. destruct (step_StepOK c e L H) as (new & E & D & V & H').
  eapply IH; [exact H'|]. rewrite E. apply Forall_app. split; [|exact F].
  apply Forall_forall. intros o Ho sid es pl Hs. apply (D o sid es pl Ho Hs).
Qed.

Theorem data_frames_small evs o sid es pl :
  In o (trace (run dec_field enc_field enc_set_max cfg h0 evs)) -> strip o = OData sid es pl -> len pl <= 16384.
Proof.
  intros Hin Hs. apply trace_In in Hin.
  pose proof (small_data_from evs (init_conn cfg h0) ledger0 Inv_init) as F.
  rewrite <- run_eq in F. specialize (F ltac:(constructor)). rewrite Forall_forall in F. exact (F o Hin sid es pl Hs).
Qed.

End Safe3.
