(* Proofs/CliFlowStall.v - C07 (c), (d): no stall and completion. After any step of the write loop that ran
   sendPending to the end, a body still pending is blocked by a window that is not positive; every step that opens a
   window leaves the winCh token set, so the write loop will run flushPending; one buffered body goes out as the
   grants come in. *)
From H2V Require Import Base.Bytes Base.MachineInt Base.Result Gen.GenConsts Impl.ServerConn Impl.ClientConn
     Proofs.CliBase Proofs.CliDefs Spec.FlowLedger Proofs.CliFlowMoves Proofs.CliFlowOut Proofs.CliFlowSettings Proofs.CliFlowSafe Proofs.CliFlowEs.
From Coq Require Import ZArith Lia ZifyN ZifyNat ZifyBool List Bool.
Import ListNotations.
Local Open Scope N_scope.
Set Default Proof Using "Type".

Definition I32 (z : Z) : Prop := (-2147483648 <= z <= 2147483647)%Z.

(* a pending body that cannot go on: it has bytes to send and one of its two windows is not positive *)
Definition blockedw (cw : Z) (pb : cpending) : Prop := pb_body pb <> [] /\ (cl_zmin (pb_window pb) cw <= 0)%Z.

(* an upper bound on the iterations sendPending needs for the body *)
Definition mu (pb : cpending) : nat :=
  match pb_stream pb with
  | None => 2
  | Some r => if pb_drained pb then 2 else 2 * length r + (if cl_is_nil (pb_body pb) then 3 else 4)
  end.

Lemma refill_mu pb pb' : refill_cond pb = true -> cl_refill pb = Some pb' ->
  (mu pb' < mu pb)%nat /\ pb_id pb' = pb_id pb /\ pb_window pb' = pb_window pb.
Proof.
  unfold refill_cond, cl_refill, mu. destruct (pb_stream pb) as [reads|] eqn:S; [|rewrite andb_false_r; discriminate].
  intro RC. apply andb_prop in RC. destruct RC as [RC D0]. apply andb_prop in RC. destruct RC as [B0 _].
  apply negb_true_iff in D0. rewrite D0, B0.
  destruct reads as [|[ch e] t].
  - cbn [cl_is_nil]. intro H. inversion H. clear H.
    destruct ((0 <=? pb_size _) && _)%Z; cbn [pb_stream pb_drained pb_body pb_id pb_window pbu_drained pbu_stream pbu_read pbu_body length];
      repeat split; lia.
  - destruct e.
    + destruct (cl_is_nil ch) eqn:CN; [discriminate|]. intro H. inversion H. clear H.
      destruct ((0 <=? pb_size _) && _)%Z; cbn [pb_stream pb_drained pb_body pb_id pb_window pbu_drained pbu_stream pbu_read pbu_body length];
        rewrite ?D0, ?CN; repeat split; cbn [length]; lia.
    + intro H. inversion H. clear H.
      destruct (cl_is_nil ch); destruct ((0 <=? pb_size _) && _)%Z;
        cbn [pb_stream pb_drained pb_body pb_id pb_window pbu_drained pbu_stream pbu_read pbu_body length]; repeat split; cbn [length]; lia.
    + discriminate.
Qed.

Lemma zmin_le a b : (cl_zmin a b <= a)%Z /\ (cl_zmin a b <= b)%Z /\ (cl_zmin a b = a \/ cl_zmin a b = b).
Proof. unfold cl_zmin. destruct (a <? b)%Z eqn:E; [apply Z.ltb_lt in E | apply Z.ltb_ge in E]; lia. Qed.

Definition nclamp (z : Z) : Z := if (z <? 0)%Z then 0%Z else z.

Lemma zmin_min a b : cl_zmin a b = Z.min a b.
Proof. unfold cl_zmin. destruct (a <? b)%Z eqn:E; [apply Z.ltb_lt in E | apply Z.ltb_ge in E]; lia. Qed.
Lemma nclamp_max z : nclamp z = Z.max 0 z.
Proof. unfold nclamp. destruct (z <? 0)%Z eqn:E; [apply Z.ltb_lt in E | apply Z.ltb_ge in E]; lia. Qed.

Lemma blocked_arith (l w cw : Z) : (0 < l)%Z -> nclamp (cl_zmin (cl_zmin l w) cw) = 0%Z -> (cl_zmin w cw <= 0)%Z.
Proof. rewrite nclamp_max, !zmin_min. lia. Qed.

Lemma after_send_arith (l w cw n : Z) : n = nclamp (cl_zmin (cl_zmin l w) cw) -> (0 < n)%Z -> (n < l)%Z ->
  (cl_zmin (w - n) (cw - n) <= 0)%Z /\ nclamp (cl_zmin (cl_zmin (l - n) (w - n)) (cw - n)) = 0%Z.
Proof. rewrite !nclamp_max, !zmin_min. lia. Qed.

Lemma mu_ge2 pb : (2 <= mu pb)%nat.
Proof. unfold mu. destruct (pb_stream pb); [destruct (pb_drained pb); [|destruct (cl_is_nil (pb_body pb))]|]; lia. Qed.


Section Stall.
Variable hstate : Type.
Variable dec_field : hstate -> N -> bytes -> dec_res hstate.
Variable enc_field : hstate -> bytes -> bytes -> bool -> bytes * hstate.
Variable enc_set_max : hstate -> N -> hstate.
Variable cfg : cl_config.
Variable h0 : hstate.
Variable first : bytes.
Notation cconn := (cconn hstate).
Notation move := (move hstate).
Notation apply := (apply hstate enc_field enc_set_max).
Notation valid := (valid hstate).
Notation step := (cl_step dec_field enc_field enc_set_max cfg).
Notation run := (cl_run dec_field enc_field enc_set_max cfg h0 first).
Notation init := (cl_init enc_set_max h0 first).

(* the send windows are int32 values, the pending ids distinct *)
Record RNG (c : cconn) : Prop := mkRNG {
  r_cw : I32 (cc_connWindow c);
  r_sw : I32 (cc_streamWindow c);
  r_pb : forall pb, In pb (cc_pending c) -> I32 (pb_window pb);
  r_nd : NoDup (map pb_id (cc_pending c))
}.

Definition blocked (c : cconn) (pb : cpending) : Prop := blockedw (cc_connWindow c) pb.

(* the fields sendPending's helpers leave alone *)
Definition SF (c c' : cconn) : Prop :=
  cc_pending c' = cc_pending c /\ cc_connWindow c' = cc_connWindow c /\ cc_streamWindow c' = cc_streamWindow c /\
  cc_winCh c' = cc_winCh c /\ (cc_wl_stuck c = true -> cc_wl_stuck c' = true).

Lemma SF_refl c : SF c c. Proof. repeat split; auto. Qed.
Lemma SF_trans a b c : SF a b -> SF b c -> SF a c.
Proof. intros (A1 & A2 & A3 & A4 & A5) (B1 & B2 & B3 & B4 & B5). repeat split; try congruence. auto. Qed.

Lemma SF_ctx_upd (c : cconn) tag f : SF c (cl_ctx_upd c tag f).
Proof. unfold cl_ctx_upd. destruct (cl_ctx_get c tag); repeat split; auto. Qed.

Lemma SF_go_stuck who held (c : cconn) self tag : SF c (cl_go_stuck who held c self tag) /\ (who = 1 -> cc_wl_stuck (cl_go_stuck who held c self tag) = true).
Proof.
  unfold cl_go_stuck.
  assert (F : forall (c0 : cconn), SF c0 (fold_left (fun c t => cl_ctx_upd c t (fun x => ctu_lckStuck x true)) held c0)).
  { induction held as [|t r IH]; intro c0; cbn [fold_left]; [apply SF_refl|]. eapply SF_trans; [apply SF_ctx_upd | apply IH]. }
  specialize (F c). set (c1 := fold_left _ held c) in *. destruct F as (F1 & F2 & F3 & F4 & F5).
  split.
  - destruct (who =? 0); [|destruct (who =? 1)]; repeat split; cc_cbn; auto.
  - intros ->. reflexivity.
Qed.

Lemma SF_close_body (c : cconn) pb : SF c (cl_close_body c pb).
Proof.
  unfold cl_close_body. destruct (pb_stream pb); [|apply SF_refl].
  destruct (SF_ctx_upd c (pb_tag pb) (fun x => ctu_bodyClosed x true)) as (A1 & A2 & A3 & A4 & A5). repeat split; cc_cbn; auto.
Qed.

(* deletePending by the write loop *)
Lemma delete_pending_flow (c c1 : cconn) id stuck : cl_delete_pending 1 [] c id = (c1, stuck) ->
  cc_pending c1 = cl_pend_del (cc_pending c) id /\ cc_connWindow c1 = cc_connWindow c /\ cc_streamWindow c1 = cc_streamWindow c /\
  cc_winCh c1 = cc_winCh c /\ (stuck = true -> cc_wl_stuck c1 = true).
Proof.
  unfold cl_delete_pending. destruct (cl_pend_get (cc_pending c) id) as [pb|] eqn:G.
  - destruct (pb_stream pb).
    + destruct (cl_acquire_for _ _ _ _); intro H; inversion H; subst; clear H.
      * destruct (SF_close_body (ccu_pending c (cl_pend_del (cc_pending c) id)) pb) as (A1 & A2 & A3 & A4 & A5).
        rewrite A1, A2, A3, A4. repeat split; try discriminate.
      * repeat split; try discriminate.
      * destruct (SF_go_stuck 1 [] (ccu_pending c (cl_pend_del (cc_pending c) id)) true (pb_tag pb)) as ((A1 & A2 & A3 & A4 & A5) & B).
        rewrite A1, A2, A3, A4. repeat split; try (intros _; apply B; reflexivity).
      * destruct (SF_go_stuck 1 [] (ccu_pending c (cl_pend_del (cc_pending c) id)) false (pb_tag pb)) as ((A1 & A2 & A3 & A4 & A5) & B).
        rewrite A1, A2, A3, A4. repeat split; try (intros _; apply B; reflexivity).
    + intro H; inversion H; subst. repeat split; try discriminate.
  - intro H; inversion H; subst. repeat split; try discriminate.
    symmetry. apply pend_del_absent. apply cl_pend_get_None. exact G.
Qed.

Lemma SF_notes l : forall (c : cconn), SF c (cl_notes c l).
Proof. induction l as [|o t IH]; intro c; cbn [cl_notes]; [apply SF_refl|]. eapply SF_trans; [|apply IH]. repeat split; auto. Qed.

(* what one call of sendPending leaves behind *)
Record SPost (c : cconn) (id : N) (c' : cconn) (r : cl_spres) : Prop := mkSPost {
  sp_win : cc_winCh c' = false -> cc_winCh c = false;   (* a chunk handed back to the connection window sets the token *)
  sp_sw : cc_streamWindow c' = cc_streamWindow c;
  sp_cw : (cc_connWindow c' <= cc_connWindow c)%Z;
  sp_other : forall x, x <> id -> cl_pend_get (cc_pending c') x = cl_pend_get (cc_pending c) x;
  sp_ids : forall x, In x (map pb_id (cc_pending c')) -> In x (map pb_id (cc_pending c));
  sp_rng : RNG c';
  sp_res : match r with
           | CSPOk => cl_pend_get (cc_pending c') id = None \/ exists pb', cl_pend_get (cc_pending c') id = Some pb' /\ blocked c' pb'
           | CSPStuck => cc_wl_stuck c' = true
           | CSPWriteErr => True
           end
}.

Lemma RNG_del (c c' : cconn) id :
  cc_pending c' = cl_pend_del (cc_pending c) id -> cc_connWindow c' = cc_connWindow c -> cc_streamWindow c' = cc_streamWindow c ->
  RNG c -> RNG c'.
Proof.
  intros A B C [r1 r2 r3 r4]. constructor; rewrite ?A, ?B, ?C; auto.
  - intros pb HP. apply r3. eapply cl_pend_del_In. exact HP.
  - apply pend_del_NoDup. exact r4.
Qed.

Lemma SPost_deleted (c c' : cconn) id r :
  cc_pending c' = cl_pend_del (cc_pending c) id -> cc_connWindow c' = cc_connWindow c -> cc_streamWindow c' = cc_streamWindow c ->
  cc_winCh c' = cc_winCh c -> RNG c ->
  match r with CSPOk => True | CSPStuck => cc_wl_stuck c' = true | CSPWriteErr => True end ->
  SPost c id c' r.
Proof.
  intros A B C W R X. constructor; auto.
  - rewrite W. auto.
  - rewrite B. apply Z.le_refl.
  - intros x NE. rewrite A. apply pend_get_del_other. exact NE.
  - intros x. rewrite A. apply pend_del_ids_incl.
  - eapply RNG_del; eassumption.
  - destruct r; auto. left. rewrite A. apply pend_get_del_same. apply (r_nd _ R).
Qed.

Lemma SPost_trans (c c1 c' : cconn) id r : SPost c id c1 CSPWriteErr -> SPost c1 id c' r -> SPost c id c' r.
Proof.
  intros [a1 a2 a3 a4 a5 a6 _] [b1 b2 b3 b4 b5 b6 b7]. constructor; try congruence; auto.
  - flia.
  - intros x NE. rewrite b4, a4 by exact NE. reflexivity.
Qed.

Lemma i32_sub (z n : Z) : I32 z -> (0 <= n)%Z -> ((0 < n)%Z -> (n <= z)%Z) -> cl_i32 (z - n) = (z - n)%Z.
Proof. unfold I32. intros A B C. apply cl_i32_id. destruct (Z_lt_le_dec 0 n) as [P|P]; [specialize (C P)|]; flia. Qed.

(* the state after one critical section *)
Lemma cs_conn_facts (c : cconn) pb id : cl_pend_get (cc_pending c) id = Some pb -> RNG c ->
  let c2 := cs_conn c pb id in
  let n := cs_n c pb in
  cc_winCh c2 = cc_winCh c /\ cc_streamWindow c2 = cc_streamWindow c /\ cc_connWindow c2 = (cc_connWindow c - n)%Z /\
  (forall x, x <> id -> cl_pend_get (cc_pending c2) x = cl_pend_get (cc_pending c) x) /\
  (forall x, In x (map pb_id (cc_pending c2)) -> In x (map pb_id (cc_pending c))) /\
  RNG c2 /\ cc_wl_stuck c2 = cc_wl_stuck c /\
  (if cs_end c pb then cl_pend_get (cc_pending c2) id = None
   else cl_pend_get (cc_pending c2) id = Some (cs_pb c pb) /\ pb_window (cs_pb c pb) = (pb_window pb - n)%Z).
Proof.
  intros G [r1 r2 r3 r4]. cbv zeta. destruct (cl_pend_get_In _ _ _ G) as [HI EI].
  pose proof (cs_n_facts hstate c pb) as [N1 N2]. pose proof (r3 pb HI) as RW.
  assert (IC : cl_i32 (cc_connWindow c - cs_n c pb) = (cc_connWindow c - cs_n c pb)%Z) by (apply i32_sub; [exact r1 | flia | intro P; apply N2; exact P]).
  assert (IW : cl_i32 (pb_window pb - cs_n c pb) = (pb_window pb - cs_n c pb)%Z) by (apply i32_sub; [exact RW | flia | intro P; apply N2; exact P]).
  assert (I1 : I32 (cc_connWindow c - cs_n c pb)) by (rewrite <- IC; apply cl_i32_range).
  assert (I2 : I32 (pb_window pb - cs_n c pb)) by (rewrite <- IW; apply cl_i32_range).
  unfold cs_conn. rewrite IC. destruct (cs_end c pb); cc_cbn.
  - split; [reflexivity|]. split; [reflexivity|]. split; [reflexivity|].
    split; [intros x NE; apply pend_get_del_other; exact NE|].
    split; [intro x; apply pend_del_ids_incl|].
    split; [constructor; cc_cbn; auto; [intros p HP; apply r3; eapply cl_pend_del_In; exact HP | apply pend_del_NoDup; exact r4]|].
    split; [reflexivity|]. apply pend_get_del_same. exact r4.
  - assert (PI : pb_id (cs_pb c pb) = id) by (unfold cs_pb; cbn [pb_id pbu_body pbu_window]; exact EI).
    assert (PW : pb_window (cs_pb c pb) = (pb_window pb - cs_n c pb)%Z) by (unfold cs_pb; cbn [pb_window pbu_body pbu_window]; exact IW).
    split; [reflexivity|]. split; [reflexivity|]. split; [reflexivity|].
    split; [intros x NE; apply pend_get_put_other; rewrite PI; exact NE|].
    split; [intro x; rewrite cl_pend_put_ids; auto|].
    split.
    { constructor; cc_cbn; auto; [|rewrite cl_pend_put_ids; exact r4].
      intros p HP. apply (pend_put_In _ _ _ r4) in HP. destruct HP as [->|[HP _]]; [rewrite PW; exact I2 | apply r3; exact HP]. }
    split; [reflexivity|]. split; [|exact PW].
    rewrite <- PI. apply pend_get_put_same. rewrite PI, G. discriminate.
Qed.

Lemma not_end_body (c : cconn) pb : refill_cond pb = false -> cs_end c pb = false ->
  (cs_n c pb = 0%Z -> pb_body pb <> []) /\
  (pb_body (cs_pb c pb) = [] -> exists r, pb_stream pb = Some r /\ pb_drained pb = false).
Proof.
  unfold refill_cond, cs_end, cl_has_more, cs_pb. cbn [pb_body pb_stream pb_drained pbu_body pbu_window].
  intros RC E. apply negb_false_iff in E. split.
  - intros N0 B. rewrite N0 in E. cbn [Z.to_N dropN skipn N.to_nat] in E. rewrite B in *. cbn [cl_is_nil negb orb andb] in *.
    destruct (pb_stream pb); cbn [andb] in *; [rewrite E in RC; discriminate | discriminate].
  - intro B. rewrite B in E. cbn [cl_is_nil negb orb] in E. destruct (pb_stream pb) as [r|]; [|discriminate].
    cbn [andb] in E. apply negb_true_iff in E. exists r. split; [reflexivity | exact E].
Qed.

Lemma cs_n_clamp (c : cconn) pb :
  cs_n c pb = nclamp (cl_zmin (cl_zmin (Z.of_N (len (pb_body pb))) (pb_window pb)) (cc_connWindow c)).
Proof. reflexivity. Qed.

(* a critical section alone *)
Lemma SPost_cs (c : cconn) pb id r : cl_pend_get (cc_pending c) id = Some pb -> RNG c ->
  match r with
  | CSPOk => cl_pend_get (cc_pending (cs_conn c pb id)) id = None \/
             exists pb', cl_pend_get (cc_pending (cs_conn c pb id)) id = Some pb' /\ blocked (cs_conn c pb id) pb'
  | CSPStuck => cc_wl_stuck (cs_conn c pb id) = true
  | CSPWriteErr => True
  end -> SPost c id (cs_conn c pb id) r.
Proof.
  intros G R X. destruct (cs_conn_facts c pb id G R) as (W2 & SW2 & CW2 & O2 & ID2 & R2 & _). cbv zeta in *.
  pose proof (cs_n_facts hstate c pb) as [N1 _].
  constructor; auto; try (rewrite W2; auto; fail). rewrite CW2. clear - N1. lia.
Qed.

Lemma SPost_SF (c c1 c' : cconn) id r : SPost c id c1 CSPWriteErr -> SF c1 c' -> RNG c1 ->
  match r with
  | CSPOk => cl_pend_get (cc_pending c1) id = None
  | CSPStuck => cc_wl_stuck c' = true
  | CSPWriteErr => True
  end -> SPost c id c' r.
Proof.
  intros [a1 a2 a3 a4 a5 a6 _] (F1 & F2 & F3 & F4 & F5) [r1 r2 r3 r4] X.
  constructor; rewrite ?F1, ?F2, ?F3, ?F4; auto; [constructor; rewrite ?F1, ?F2, ?F3; auto | destruct r; auto].
Qed.

Lemma send_pending_post fuel : forall (c : cconn) id, RNG c ->
  (forall pb, cl_pend_get (cc_pending c) id = Some pb -> (mu pb <= fuel)%nat) ->
  SPost c id (fst (cl_send_pending fuel c id)) (snd (cl_send_pending fuel c id)).
Proof.
  induction fuel as [|fuel IH]; intros c id R MU.
  { cbn [cl_send_pending fst snd]. constructor; auto; try apply Z.le_refl.
    destruct (cl_pend_get (cc_pending c) id) as [pb|] eqn:G; [|left; reflexivity].
    specialize (MU pb eq_refl). pose proof (mu_ge2 pb) as M2. exfalso. clear - MU M2. lia. }
  destruct (send_pending_view hstate fuel c id)
    as [G|pb pb' G RC RF|pb c1 stuck G RC RF DP|pb G RC N0 EE|pb G RC ACQ CW|pb G RC ACQ V EE|pb G RC ACQ V EE|pb c3 stuck G RC ACQ DP|pb G RC];
    cbn [fst snd].
  - constructor; auto; try apply Z.le_refl; left; exact G.
  - (* the reader is asked for the next chunk *)
    specialize (MU pb G). destruct (cl_pend_get_In _ _ _ G) as [HI EI].
    destruct (refill_mu pb pb' RC RF) as (M1 & PI & PW).
    set (c1 := ccu_pending c (cl_pend_put (cc_pending c) pb')).
    assert (G1 : cl_pend_get (cc_pending c1) id = Some pb').
    { subst c1. cc_cbn. rewrite <- EI, <- PI. apply pend_get_put_same. rewrite PI, EI, G. discriminate. }
    assert (R1 : RNG c1).
    { destruct R as [r1 r2 r3 r4]. subst c1. constructor; cc_cbn; auto; [|rewrite cl_pend_put_ids; exact r4].
      intros p HP. apply (pend_put_In _ _ _ r4) in HP. destruct HP as [->|[HP _]]; [rewrite PW; apply r3; exact HI | apply r3; exact HP]. }
    assert (P1 : SPost c id c1 CSPWriteErr).
    { subst c1. constructor; cc_cbn; auto; [apply Z.le_refl | | intro x; rewrite cl_pend_put_ids; auto].
      intros x NE. apply pend_get_put_other. rewrite PI, EI. exact NE. }
    eapply SPost_trans; [exact P1|]. apply IH; [exact R1|]. intros p Gp. rewrite G1 in Gp. inversion Gp; subst p. clear - M1 MU. lia.
  - (* the reader failed: the request is ended by whoever takes it off the table; the write loop writes RST_STREAM itself *)
    destruct (delete_pending_flow _ _ _ _ DP) as (A1 & A2 & A3 & A4 & A5). unfold read_failed.
    destruct stuck; cbn [fst snd]; [apply SPost_deleted; auto|].
    destruct (cl_req_find (cc_reqQueued c1) id) as [tg|] eqn:RQ; cbn [fst snd]; [|apply SPost_deleted; auto].
    cbv zeta. set (c2 := cl_take_req_count c1 id).
    assert (S2 : SF c1 c2) by (subst c2; unfold cl_take_req_count, cl_req_del; rewrite RQ; repeat split; auto).
    pose proof (SF_trans _ _ _ S2 (SF_ctx_upd c2 (pb_tag pb) (fun x => cl_ctx_resolve (ctu_finished x true) CEBody))) as (B1 & B2 & B3 & B4 & B5).
    destruct (cl_can_write _); cbn [fst snd]; apply SPost_deleted; cc_cbn; try congruence; exact I.
  - (* nothing can be sent *)
    apply SPost_cs; [exact G | exact R|]. right.
    destruct (cs_conn_facts c pb id G R) as (_ & _ & CW2 & _ & _ & _ & _ & E2). cbv zeta in *. rewrite EE in E2. destruct E2 as [E2 PW].
    exists (cs_pb c pb). split; [exact E2|].
    destruct (not_end_body c pb RC EE) as [NB _]. specialize (NB N0).
    unfold blocked, blockedw. rewrite PW, CW2, N0, !Z.sub_0_r. unfold cs_pb. rewrite N0. cbn [pb_body pbu_body pbu_window Z.to_N dropN N.to_nat skipn].
    split; [exact NB|].
    assert (LP : (0 < Z.of_N (len (pb_body pb)))%Z) by (unfold len; destruct (pb_body pb); [congruence | cbn [length]; clear; lia]).
    apply (blocked_arith _ _ _ LP). rewrite <- cs_n_clamp. exact N0.
  - apply SPost_cs; [exact G | exact R | exact I].
  - (* the last chunk is written *)
    destruct (cs_conn_facts c pb id G R) as (_ & _ & _ & _ & _ & R2 & _ & E2). cbv zeta in *. rewrite EE in E2.
    eapply SPost_SF; [apply (SPost_cs c pb id CSPWriteErr G R I) | | exact R2 | exact E2].
    eapply SF_trans; [apply SF_notes | apply SF_close_body].
  - (* more to come: the next iteration *)
    specialize (MU pb G). unfold cs_sent. rewrite EE.
    destruct (cs_conn_facts c pb id G R) as (_ & _ & CW2 & _ & _ & R2 & _ & E2). cbv zeta in *. rewrite EE in E2. destruct E2 as [E2 PW].
    pose proof (cs_n_facts hstate c pb) as [N1 N2]. pose proof (cs_n_clamp c pb) as NCL.
    set (c2 := cs_conn c pb id) in *. set (n := cs_n c pb) in *.
    set (c3 := cl_notes c2 (cl_write_data (cc_maxFrame c) id (cs_chunk c pb) false)).
    destruct (SF_notes (cl_write_data (cc_maxFrame c) id (cs_chunk c pb) false) c2) as (F1 & F2 & F3 & F4 & F5). fold c3 in F1, F2, F3, F4, F5.
    assert (R3 : RNG c3) by (destruct R2 as [r1 r2 r3 r4]; constructor; rewrite ?F1, ?F2, ?F3; auto).
    assert (P3 : SPost c id c3 CSPWriteErr).
    { eapply SPost_SF; [apply (SPost_cs c pb id CSPWriteErr G R I) | apply SF_notes | exact R2 | exact I]. }
    eapply SPost_trans; [exact P3|].
    assert (NP : (0 < n)%Z).
    { destruct V as (pb0 & G0 & _ & Z0). rewrite G in G0. inversion G0; subst pb0. destruct (Z0 eq_refl) as [_ Z1]. fold n in Z1. rewrite EE in Z1.
      cbn [negb] in Z1. rewrite andb_true_r in Z1. apply Z.eqb_neq in Z1. clear - Z1 N1. lia. }
    destruct (pb_body (cs_pb c pb)) as [|b0 bt] eqn:BODY.
    + (* the buffer is empty: the reader is asked again, with less fuel needed *)
      destruct (not_end_body c pb RC EE) as [_ NB]. destruct (NB BODY) as (r & SR & DR).
      apply IH; [exact R3|]. intros p Gp. rewrite F1, E2 in Gp. inversion Gp; subst p.
      assert (BN : pb_body pb <> []).
      { intro X. assert (L0 : Z.of_N (len (pb_body pb)) = 0%Z) by (rewrite X; reflexivity). clear - L0 NP N1. lia. }
      unfold mu in *. unfold cs_pb at 1 2. cbn [pb_stream pb_drained pbu_body pbu_window]. rewrite SR, DR in *. rewrite BODY.
      destruct (pb_body pb); [congruence|]. cbn [cl_is_nil] in *. clear - MU. lia.
    + (* a window ran out: the next iteration sends nothing and stops *)
      assert (F1' : (1 <= fuel)%nat) by (pose proof (mu_ge2 pb) as M2; clear - M2 MU; lia).
      destruct fuel as [|fuel']; [exfalso; clear - F1'; lia|].
      assert (G3 : cl_pend_get (cc_pending c3) id = Some (cs_pb c pb)) by (rewrite F1; exact E2).
      assert (RC' : refill_cond (cs_pb c pb) = false) by (unfold refill_cond; rewrite BODY; reflexivity).
      destruct (cs_conn_facts c3 (cs_pb c pb) id G3 R3) as (_ & _ & CW4 & _ & _ & _ & _ & E4). cbv zeta in *.
      assert (LEN : (Z.of_N (len (pb_body (cs_pb c pb))) = Z.of_N (len (pb_body pb)) - n)%Z).
      { unfold cs_pb. fold n. cbn [pb_body pbu_body pbu_window]. rewrite len_dropN. clear - N1. lia. }
      assert (LPOS : (0 < Z.of_N (len (pb_body (cs_pb c pb))))%Z) by (rewrite BODY; unfold len; cbn [length]; clear; lia).
      assert (NL : (n < Z.of_N (len (pb_body pb)))%Z) by (clear - LEN LPOS; lia).
      destruct (after_send_arith _ _ _ n NCL NP NL) as [AS1 AS2].
      assert (N0 : cs_n c3 (cs_pb c pb) = 0%Z) by (rewrite cs_n_clamp, F2, CW2, PW, LEN; exact AS2).
      assert (EN' : cs_end c3 (cs_pb c pb) = false).
      { unfold cs_end, cl_has_more, cs_pb at 1. rewrite N0. cbn [pb_body pbu_body pbu_window Z.to_N dropN N.to_nat skipn]. rewrite BODY. reflexivity. }
      rewrite send_pending_S, G3, RC'. cbv zeta. rewrite N0, EN'. cbn [Z.eqb negb andb fst snd]. rewrite EN' in E4. destruct E4 as [E4 PW4].
      apply SPost_cs; [exact G3 | exact R3|].
      right. eexists. split; [exact E4|]. unfold blocked, blockedw. rewrite PW4, CW4, N0, !Z.sub_0_r.
      unfold cs_pb at 1. rewrite N0. cbn [pb_body pbu_body pbu_window Z.to_N dropN N.to_nat skipn]. split; [rewrite BODY; discriminate|].
      rewrite F2, CW2, PW. exact AS1.
  - (* the request has been taken back: the chunk goes back to the connection window *)
    destruct (cs_conn_facts c pb id G R) as (_ & _ & CW2 & _ & _ & R2 & _). cbv zeta in *.
    pose proof (SPost_cs c pb id CSPWriteErr G R I) as P2.
    assert (P2' : SPost c id (sb_pre hstate c pb id) CSPWriteErr).
    { unfold sb_pre. destruct (0 <? cs_n c pb)%Z eqn:NP0; [|exact P2].
      unfold cl_add_window, cl_signal_window. cbn [N.eqb].
      assert (CWB : cl_i32 (cc_connWindow (cs_conn c pb id) + cs_n c pb) = cc_connWindow c).
      { rewrite CW2. replace (cc_connWindow c - cs_n c pb + cs_n c pb)%Z with (cc_connWindow c) by (clear; lia). apply cl_i32_id. apply (r_cw _ R). }
      destruct P2 as [a1 a2 a3 a4 a5 a6 _]. constructor; cc_cbn; auto.
      - discriminate.
      - rewrite CWB. apply Z.le_refl.
      - destruct R2 as [q1 q2 q3 q4]. constructor; cc_cbn; auto. rewrite CWB. apply (r_cw _ R). }
    destruct (delete_pending_flow _ _ _ _ DP) as (A1 & A2 & A3 & A4 & A5).
    eapply SPost_trans; [exact P2'|].
    apply SPost_deleted; auto; [apply (sp_rng _ _ _ _ P2') | destruct stuck; [apply A5; reflexivity | exact I]].
  - destruct (cs_conn_facts c pb id G R) as (_ & _ & _ & _ & _ & R2 & _). cbv zeta in *.
    destruct (SF_go_stuck 1 [] (cs_conn c pb id) false (pb_tag pb)) as (SFG & B).
    eapply SPost_SF; [apply (SPost_cs c pb id CSPWriteErr G R I) | exact SFG | exact R2 | apply B; reflexivity].
Qed.

Lemma blockedw_mono cw cw' pb : blockedw cw pb -> (cw' <= cw)%Z -> blockedw cw' pb.
Proof. unfold blockedw. rewrite !zmin_min. intros [A B] L. split; [exact A | clear - B L; lia]. Qed.

Lemma send_fuel_mu (c : cconn) id pb : cl_pend_get (cc_pending c) id = Some pb -> (mu pb <= cl_send_fuel c id)%nat.
Proof.
  intro G. unfold cl_send_fuel, mu. rewrite G. destruct (pb_stream pb) as [r|]; [|clear; lia].
  destruct (pb_drained pb); [clear; lia|]. destruct (cl_is_nil (pb_body pb)); clear; lia.
Qed.

Lemma send_pending_fueled (c : cconn) id : RNG c ->
  SPost c id (fst (cl_send_pending (cl_send_fuel c id) c id)) (snd (cl_send_pending (cl_send_fuel c id) c id)).
Proof. intro R. apply send_pending_post; [exact R|]. intros pb G. apply send_fuel_mu. exact G. Qed.

Lemma pend_get_member l p : NoDup (map pb_id l) -> In p l -> cl_pend_get l (pb_id p) = Some p.
Proof.
  induction l as [|q t IH]; cbn [map cl_pend_get]; intros ND HI; [destruct HI|]. inversion ND; subst.
  destruct HI as [->|HI]; [rewrite N.eqb_refl; reflexivity|].
  destruct (pb_id q =? pb_id p) eqn:E; [|apply IH; assumption].
  apply N.eqb_eq in E. exfalso. apply H1. rewrite E. apply in_map. exact HI.
Qed.

(* flushPending *)
Record FPost (c : cconn) (ids : list N) (c' : cconn) (r : cl_spres) : Prop := mkFPost {
  fp_win : cc_winCh c' = false -> cc_winCh c = false;
  fp_cw : (cc_connWindow c' <= cc_connWindow c)%Z;
  fp_ids : forall x, In x (map pb_id (cc_pending c')) -> In x (map pb_id (cc_pending c));
  fp_other : forall x, ~ In x ids -> cl_pend_get (cc_pending c') x = cl_pend_get (cc_pending c) x;
  fp_rng : RNG c';
  fp_res : match r with
           | CSPOk => forall x, In x ids -> cl_pend_get (cc_pending c') x = None \/ exists pb', cl_pend_get (cc_pending c') x = Some pb' /\ blocked c' pb'
           | CSPStuck => cc_wl_stuck c' = true
           | CSPWriteErr => True
           end
}.

Lemma flush_pending_post ids : forall (c : cconn), RNG c ->
  FPost c ids (fst (cl_flush_pending c ids)) (snd (cl_flush_pending c ids)).
Proof.
  induction ids as [|id t IH]; intros c R; cbn [cl_flush_pending].
  - cbn [fst snd]. constructor; auto; [apply Z.le_refl | intros x []].
  - pose proof (send_pending_fueled c id R) as SP.
    destruct (cl_send_pending (cl_send_fuel c id) c id) as [c1 r1]. cbn [fst snd] in SP.
    destruct SP as [s1 s2 s3 s4 s5 s6 s7].
    destruct r1; cbn [fst snd].
    + specialize (IH c1 s6). destruct (cl_flush_pending c1 t) as [c' r]. cbn [fst snd] in IH.
      destruct IH as [f1 f2 f3 f4 f5 f6]. cbn [fst snd]. constructor.
      * intro X. apply s1, f1, X.
      * clear - f2 s3. lia.
      * intros x HX. apply s5, f3, HX.
      * intros x NI. rewrite f4 by (intro X; apply NI; right; exact X). apply s4. intro X. apply NI. left. symmetry. exact X.
      * exact f5.
      * destruct r; auto. intros x [<-|HI]; [|apply f6; exact HI].
        destruct (in_dec N.eq_dec id t) as [IT|NT]; [apply f6; exact IT|].
        rewrite (f4 id NT). destruct s7 as [s7|(pb' & G & B)]; [left; exact s7|]. right. exists pb'. split; [exact G|].
        eapply blockedw_mono; [exact B | exact f2].
    + constructor; auto. intros x NI. apply s4. intro X. apply NI. left. symmetry. exact X.
    + constructor; auto. intros x NI. apply s4. intro X. apply NI. left. symmetry. exact X.
Qed.

Lemma pending_order_complete (c : cconn) order p : In p (cc_pending c) -> In (pb_id p) (cl_pending_order c order).
Proof.
  intro HI. unfold cl_pending_order. apply in_or_app.
  assert (IDS : In (pb_id p) (map pb_id (cc_pending c))) by (apply in_map; exact HI).
  destruct (existsb (N.eqb (pb_id p)) order) eqn:E.
  - left. apply filter_In. apply existsb_exists in E. destruct E as (x & HX & EQ). apply N.eqb_eq in EQ. subst x.
    split; [exact HX|]. apply existsb_exists. exists (pb_id p). split; [exact IDS | apply N.eqb_refl].
  - right. apply filter_In. split; [exact IDS|]. rewrite E. reflexivity.
Qed.

(* the no-stall invariant: while the write loop runs and holds no winCh token, every pending body is blocked *)
Definition NS (c : cconn) : Prop :=
  cl_wl_live c = true -> cc_winCh c = false -> forall pb, In pb (cc_pending c) -> blocked c pb.

Lemma wl_exit_dead (c : cconn) le why : cl_wl_live (cl_wl_exit c le why) = false.
Proof. reflexivity. Qed.

Lemma wl_after_NS (c : cconn) : NS c -> RNG c -> NS (cl_wl_after cfg c) /\ RNG (cl_wl_after cfg c) \/ cl_wl_live (cl_wl_after cfg c) = false.
Proof. intros N R. unfold cl_wl_after. destruct (_ && _); [right; apply wl_exit_dead | left; split; assumption]. Qed.

Lemma wl_win_NS (c : cconn) order : RNG c -> NS c -> NS (cl_wl_win cfg c order).
Proof.
  intros R N0. unfold cl_wl_win. destruct (cc_winCh c) eqn:WC; cbn [negb]; [|exact N0].
  set (c1 := ccu_winCh c false).
  assert (R1 : RNG c1) by (destruct R as [r1 r2 r3 r4]; constructor; assumption).
  pose proof (flush_pending_post (cl_pending_order c1 order) c1 R1) as FP.
  destruct (cl_flush_pending c1 (cl_pending_order c1 order)) as [c2 r]. cbn [fst snd] in FP. destruct FP as [f1 f2 f3 f4 f5 f6].
  destruct r.
  - assert (N2 : NS c2).
    { intros _ _ pb HP. assert (IDS : In (pb_id pb) (map pb_id (cc_pending c1))) by (apply f3, in_map; exact HP).
      apply in_map_iff in IDS. destruct IDS as (p0 & E0 & H0).
      pose proof (pending_order_complete c1 order p0 H0) as IO. rewrite E0 in IO.
      destruct (f6 _ IO) as [X|(pb' & G & B)].
      - rewrite (pend_get_member _ _ (r_nd _ f5) HP) in X. discriminate.
      - rewrite (pend_get_member _ _ (r_nd _ f5) HP) in G. inversion G; subst pb'. exact B. }
    destruct (wl_after_NS c2 N2 f5) as [[X _]|X]; [exact X | intros Y; congruence].
  - intros Y. rewrite wl_exit_dead in Y. discriminate.
  - intros Y. unfold cl_wl_live in Y. rewrite f6, andb_false_r in Y. discriminate.
Qed.

(* the windows stay int32 values *)
Lemma mv_RNG m (c : cconn) : valid m c -> ES hstate c -> RNG c -> RNG (apply m c).
Proof.
  intros V E R. pose proof (es_nodup _ _ (mv_ES hstate enc_field enc_set_max m c V E)) as ND.
  destruct R as [r1 r2 r3 r4].
  assert (SAME : cc_connWindow (apply m c) = cc_connWindow c -> cc_streamWindow (apply m c) = cc_streamWindow c ->
                 (forall p, In p (cc_pending (apply m c)) -> In p (cc_pending c)) -> RNG (apply m c)).
  { intros A B C. constructor; rewrite ?A, ?B; auto. }
  destruct (flow_move hstate m) eqn:FM; [|destruct (apply_quiet hstate enc_field enc_set_max m c FM) as (A1 & A2 & A3 & _); apply SAME; rewrite ?A1; auto].
  destruct m; try discriminate FM; try (apply SAME; try reflexivity; auto; fail).
  - (* MSettings *)
    cbn [apply] in *. destruct (cl_settings_deserialize false payload) as [st|]; [|constructor; assumption].
    constructor; [| | |exact ND]; unfold cl_handle_settings, cl_apply_initial_window, cl_signal_window, cl_write_out; cc_cbn;
      destruct (cl_settings_has st c_HeaderTableSize), (cs_hasWin st); cc_cbn;
      match goal with |- context [if ?b then _ else _] => destruct b end; cc_cbn; auto; try apply cl_i32_range;
      intros p HP; apply in_map_iff in HP; destruct HP as (q & <- & HQ); cbn [pb_window pbu_window]; apply cl_i32_range.
  - (* MAddWindow *)
    cbn [apply] in *. constructor; [| | |exact ND]; unfold cl_add_window, cl_signal_window; destruct (sid =? 0); cc_cbn; auto; try apply cl_i32_range;
      destruct (cl_pend_get (cc_pending c) sid) as [pb|]; cc_cbn; auto.
    intros p HP. apply (pend_put_In _ _ _ r4) in HP. destruct HP as [->|[HP _]]; [cbn [pb_window pbu_window]; apply cl_i32_range | auto].
  - apply SAME; try reflexivity. cbn [apply]. cc_cbn. intros p. apply cl_pend_del_In.
  - apply SAME; try reflexivity. destruct V as [PI _]. cbn [apply]. cc_cbn.
    rewrite pend_del_app_last; [auto|]. intros p HP. pose proof (es_fresh _ _ E p HP). flia.
  - (* MRefill *)
    destruct V as (pb & pb' & G & RC & RF). cbn [apply] in *. rewrite G, RF in *. destruct (refill_same _ _ RF) as [RI RW].
    destruct (cl_pend_get_In _ _ _ G) as [HI EI].
    constructor; cc_cbn; auto. intros p HP. apply (pend_put_In _ _ _ r4) in HP. destruct HP as [->|[HP _]]; [rewrite RW; auto | auto].
  - (* MSend *)
    destruct V as (pb & G & _). cbn [apply] in *. rewrite G in *.
    destruct (cs_conn_facts c pb id G (mkRNG c r1 r2 r3 r4)) as (_ & _ & _ & _ & _ & R2 & _).
    destruct wr; [|exact R2].
    destruct (SF_notes (cl_write_data (cc_maxFrame (cs_conn c pb id)) id (cs_chunk c pb) (cs_end c pb)) (cs_conn c pb id)) as (F1 & F2 & F3 & _).
    destruct R2 as [q1 q2 q3 q4]. constructor; rewrite ?F1, ?F2, ?F3; auto.
  - (* MSendBack *)
    destruct V as (pb & G & _). cbn [apply] in *. rewrite G in *. unfold send_back in *. cbv zeta in *.
    destruct (cs_conn_facts c pb id G (mkRNG c r1 r2 r3 r4)) as (_ & _ & _ & _ & _ & R2 & _).
    assert (R3 : RNG (if (0 <? cs_n c pb)%Z then cl_add_window (cs_conn c pb id) 0 (cs_n c pb) else cs_conn c pb id)).
    { destruct (0 <? cs_n c pb)%Z; [|exact R2]. destruct R2 as [q1 q2 q3 q4].
      unfold cl_add_window, cl_signal_window. cbn [N.eqb]. constructor; cc_cbn; auto. apply cl_i32_range. }
    set (c3 := if (0 <? cs_n c pb)%Z then _ else _) in *.
    destruct (cl_pend_get (cc_pending c3) id); [|exact R3].
    apply (RNG_del c3 _ id); try reflexivity. exact R3.
  - (* MHeaders *)
    destruct V as (_ & _ & _ & _ & _ & PB & _). cbn [apply] in *. destruct opb as [pb|]; constructor; cc_cbn; auto.
    intros p HP. apply in_app_or in HP. destruct HP as [HP|[<-|[]]]; [auto|]. rewrite (proj2 (PB pb eq_refl)). exact r2.
Qed.

Lemma RNG_init : RNG init.
Proof.
  unfold cl_init. destruct (cl_settings_deserialize false first); constructor; cc_cbn; try apply cl_i32_range; try (intros p []); try constructor;
    unfold I32, c_defaultWindowSize; cbn; clear; lia.
Qed.

Lemma NS_same (c c' : cconn) :
  (forall p, In p (cc_pending c') -> In p (cc_pending c)) -> cc_connWindow c' = cc_connWindow c ->
  (cl_wl_live c' = true -> cl_wl_live c = true) -> (cc_winCh c' = false -> cc_winCh c = false) -> NS c -> NS c'.
Proof. intros A B C Dd N LV WC pb HP. unfold blocked. rewrite B. apply N; auto. Qed.

Definition quiet_flow (m : move) : Prop :=
  match m with MSend _ _ | MSendBack _ | MRefill _ | MHeaders _ _ | MPendAddDel _ | MWinCh => False | _ => True end.

Lemma winch_keep m (c : cconn) : m <> MWinCh -> cc_winCh c = true -> cc_winCh (apply m c) = true.
Proof.
  intros NW W. destruct m; cbn [apply]; try exact W; try congruence.
  - destruct (quietb o); exact W.
  - unfold cl_take_req_count. destruct (cl_req_find _ _); exact W.
  - destruct (pushb o); [|exact W]. unfold cl_write_out. destruct (cc_closed c); exact W.
  - destruct (cc_outQ c); exact W.
  - rewrite recv_data_eq. exact W.
  - destruct (cl_settings_deserialize false payload) as [st|]; [|exact W].
    unfold cl_handle_settings, cl_apply_initial_window, cl_signal_window, cl_write_out. cc_cbn.
    destruct (cl_settings_has st c_HeaderTableSize), (cs_hasWin st); cc_cbn; match goal with |- context [if ?b then _ else _] => destruct b end; cc_cbn; auto.
  - unfold cl_add_window, cl_signal_window. reflexivity.
  - destruct (cl_pend_get _ _) as [pb|]; [|exact W]. destruct (cl_refill pb); exact W.
  - destruct (cl_pend_get _ _) as [pb|]; [|exact W].
    assert (X : cc_winCh (cs_conn c pb id) = true) by (unfold cs_conn; destruct (cs_end c pb); exact W).
    destruct wr; [|exact X]. destruct (SF_notes (cl_write_data (cc_maxFrame (cs_conn c pb id)) id (cs_chunk c pb) (cs_end c pb)) (cs_conn c pb id)) as (_ & _ & _ & F4 & _).
    rewrite F4. exact X.
  - destruct (cl_pend_get _ _) as [pb|]; [|exact W]. sb_cases c pb; cc_cbn; auto.
  - destruct (negb _); exact W.
  - destruct opb; exact W.
Qed.

Lemma mv_NS m (c : cconn) : valid m c -> quiet_flow m -> NS c -> NS (apply m c).
Proof.
  intros V Q N. destruct (flow_move hstate m) eqn:FM.
  2:{ destruct (apply_quiet hstate enc_field enc_set_max m c FM) as (A1 & A2 & _).
      apply (NS_same c); rewrite ?A1; auto; [apply apply_live|].
      intro X. destruct (cc_winCh c) eqn:W; [|reflexivity]. rewrite (winch_keep m c) in X; [discriminate | intros ->; exact Q | exact W]. }
  destruct m; try discriminate FM; try destruct Q.
  - (* MSettings *)
    cbn [apply]. destruct (cl_settings_deserialize false payload) as [st|]; [|exact N].
    unfold cl_handle_settings, cl_apply_initial_window, cl_signal_window, cl_write_out.
    destruct (cl_settings_has st c_HeaderTableSize), (cs_hasWin st); cc_cbn; destruct (cc_closed c); cc_cbn;
      try (intros _ X; cc_cbn_in X; discriminate); apply (NS_same c); try reflexivity; auto.
  - (* MAddWindow *)
    cbn [apply]. unfold cl_add_window, cl_signal_window. intros _ X. cc_cbn_in X. discriminate.
  - apply (NS_same c); try reflexivity; auto. cbn [apply]. cc_cbn. intros p. apply cl_pend_del_In.
  - apply (NS_same c); try reflexivity; auto.
Qed.

Lemma pend_get_app_other l pb x : x <> pb_id pb -> cl_pend_get (l ++ [pb]) x = cl_pend_get l x.
Proof.
  intro NE. induction l as [|q t IH]; cbn [app cl_pend_get].
  - destruct (pb_id pb =? x) eqn:E; [apply N.eqb_eq in E; congruence | reflexivity].
  - destruct (pb_id q =? x); [reflexivity | exact IH].
Qed.

Lemma pend_get_app_new l pb : (forall p, In p l -> pb_id p <> pb_id pb) -> cl_pend_get (l ++ [pb]) (pb_id pb) = Some pb.
Proof.
  induction l as [|q t IH]; cbn [app cl_pend_get]; intro H.
  - rewrite N.eqb_refl. reflexivity.
  - destruct (pb_id q =? pb_id pb) eqn:E; [apply N.eqb_eq in E; exfalso; exact (H q (or_introl eq_refl) E)|].
    apply IH. intros p HP. apply H. right. exact HP.
Qed.

(* the windows-blocked part of NS, without the premise about the write loop *)
Definition NSb (c : cconn) : Prop := cc_winCh c = false -> forall pb, In pb (cc_pending c) -> blocked c pb.

Lemma NSb_NS (c : cconn) : NSb c -> NS c.
Proof. intros H _. exact H. Qed.

(* a new body has been put on c.pending and sendPending has run on it *)
Lemma open_body_NS (c c7 : cconn) pb : RNG c -> ES hstate c -> NSb c ->
  pb_id pb = cc_nextID c -> I32 (pb_window pb) ->
  cc_pending c7 = cc_pending c ++ [pb] -> cc_connWindow c7 = cc_connWindow c -> cc_streamWindow c7 = cc_streamWindow c ->
  cc_winCh c7 = cc_winCh c ->
  let res := cl_send_pending (cl_send_fuel c7 (pb_id pb)) c7 (pb_id pb) in
  match snd res with
  | CSPOk => NSb (fst res)
  | CSPStuck => cc_wl_stuck (fst res) = true
  | CSPWriteErr => True
  end.
Proof.
  intros R E N PI PW P7 C7 S7 W7. cbv zeta.
  assert (FR : forall p, In p (cc_pending c) -> pb_id p <> pb_id pb) by (intros p HP; pose proof (es_fresh _ _ E p HP); flia).
  assert (R7 : RNG c7).
  { destruct R as [r1 r2 r3 r4]. constructor; rewrite ?P7, ?C7, ?S7; auto.
    - intros p HP. apply in_app_or in HP. destruct HP as [HP|[<-|[]]]; auto.
    - rewrite map_app. cbn [map]. apply NoDup_app_snoc; [exact r4|]. intro X. apply in_map_iff in X. destruct X as (p & EQ & HP). exact (FR p HP EQ). }
  pose proof (send_pending_fueled c7 (pb_id pb) R7) as SP.
  destruct (cl_send_pending (cl_send_fuel c7 (pb_id pb)) c7 (pb_id pb)) as [c8 r]. cbn [fst snd] in *.
  destruct SP as [s1 s2 s3 s4 s5 s6 s7]. destruct r; [|exact I | exact s7].
  intros WC p HP. apply s1 in WC. rewrite W7 in WC.
  destruct (N.eq_dec (pb_id p) (pb_id pb)) as [EQ|NE].
  - pose proof (pend_get_member _ _ (r_nd _ s6) HP) as G. rewrite EQ in G.
    destruct s7 as [X|(pb' & X & B)]; rewrite G in X; [discriminate|]. inversion X; subst pb'. exact B.
  - pose proof (pend_get_member _ _ (r_nd _ s6) HP) as G. rewrite (s4 _ NE), P7, (pend_get_app_other _ _ _ NE) in G.
    apply cl_pend_get_In in G. destruct G as [HI _]. eapply blockedw_mono; [apply (N WC p HI)|]. rewrite <- C7. exact s3.
Qed.

Definition wr_post (c1 : cconn) (r : cl_wrres) : Prop :=
  match r with
  | CWRNil => NSb c1
  | CWRErr e => match e with CENoStreams => NSb c1 | _ => True end
  | CWRStuck => cc_wl_stuck c1 = true
  end.

Lemma write_request_NS (c : cconn) tag c1' r : RNG c -> ES hstate c -> NSb c ->
  cl_write_request enc_field enc_set_max c tag = (c1', r) -> wr_post c1' r.
Proof.
  intros R E N WR.
  assert (X : wr_post (fst (cl_write_request enc_field enc_set_max c tag)) (snd (cl_write_request enc_field enc_set_max c tag)));
    [|rewrite WR in X; exact X]. clear WR.
  destruct (write_request_view hstate enc_field enc_set_max c tag) as [CO|GX|x GX LS|x GX DN|x r' CO GX LS DN F1 SYN GO];
    cbn [fst snd wr_post]; try exact N.
  { apply (proj2 (SF_go_stuck 1 [] c false tag)). reflexivity. }
  assert (F : cc_pending (apply MEncSync c) = cc_pending c /\ cc_connWindow (apply MEncSync c) = cc_connWindow c /\
              cc_streamWindow (apply MEncSync c) = cc_streamWindow c /\ cc_winCh (apply MEncSync c) = cc_winCh c /\
              cc_nextID (apply MEncSync c) = cc_nextID c) by (cbn [apply]; destruct (negb _); repeat split).
  destruct F as (P1 & C1 & S1 & W1 & N1). set (c1 := apply MEncSync c) in *. clearbody c1.
  destruct GO as [IDS|blk opb IDS EO V|opb c8 stuck IDS EO CW DP]; cbn [fst snd wr_post]; [exact I | |].
  - destruct opb as [pb|]; cbn [fst snd wr_post].
    + destruct (new_pending_facts _ _ _ _ _ (eq_sym EO)) as (PI & _ & PW).
      set (c7 := apply (MHeaders blk (Some pb)) (wr_open hstate enc_field enc_set_max c1 x tag)).
      assert (IW : I32 (pb_window pb)) by (rewrite PW, S1; apply (r_sw _ R)).
      assert (P7 : cc_pending c7 = cc_pending c ++ [pb]) by (rewrite <- P1; reflexivity).
      assert (C7 : cc_connWindow c7 = cc_connWindow c) by (rewrite <- C1; reflexivity).
      assert (S7 : cc_streamWindow c7 = cc_streamWindow c) by (rewrite <- S1; reflexivity).
      assert (W7 : cc_winCh c7 = cc_winCh c) by (rewrite <- W1; reflexivity).
      pose proof (open_body_NS c c7 pb R E N (eq_trans PI N1) IW P7 C7 S7 W7) as OB. cbv zeta in OB. rewrite <- PI.
      destruct (cl_send_pending _ _ _) as [c8 r8]. destruct r8; exact OB.
    + intros WC p HP. unfold wr_open in *. cbn [apply] in *. cc_cbn_in WC. cc_cbn_in HP. unfold blocked. cc_cbn.
      rewrite C1. rewrite P1 in HP. rewrite W1 in WC. apply (N WC p HP).
  - destruct (delete_pending_flow _ _ _ _ DP) as (_ & _ & _ & _ & A5). destruct stuck; [apply A5; reflexivity | exact I].
Qed.

Lemma wl_after_NS2 (c : cconn) : NS c -> NS (cl_wl_after cfg c).
Proof. intro N. unfold cl_wl_after. destruct (_ && _); [intro X; rewrite wl_exit_dead in X; discriminate | exact N]. Qed.

Lemma NS_ctx_upd (c : cconn) tag f : NS c -> NS (cl_ctx_upd c tag f).
Proof. intro N. unfold cl_ctx_upd. destruct (cl_ctx_get c tag); [apply (NS_same c); try reflexivity; auto | exact N]. Qed.

Lemma wl_in_NS (c : cconn) : RNG c -> ES hstate c -> NS c -> cl_wl_live c = true -> NS (cl_wl_in enc_field enc_set_max cfg c).
Proof.
  intros R E N LV. unfold cl_wl_in. destruct (cc_inQ c) as [|tag q] eqn:Q; [exact N|].
  set (cq := ccu_inQ c q).
  assert (Rq : RNG cq) by (destruct R as [r1 r2 r3 r4]; constructor; assumption).
  assert (Eq : ES hstate cq) by (apply (ES_same hstate c); try reflexivity; auto).
  assert (Nq : NSb cq) by (intros WC p HP; apply (N LV WC p HP)).
  destruct (cl_write_request enc_field enc_set_max cq tag) as [c1 r] eqn:WR.
  pose proof (write_request_NS cq tag c1 r Rq Eq Nq WR) as X. unfold wr_post in X.
  destruct r as [|e|].
  - apply wl_after_NS2, NSb_NS, X.
  - destruct e; try (intro Y; rewrite wl_exit_dead in Y; discriminate).
    apply NS_ctx_upd, NSb_NS, X.
  - intro Y. unfold cl_wl_live in Y. rewrite X, andb_false_r in Y. discriminate.
Qed.

Lemma mvs_NS (c : cconn) ms c' : mvs enc_field enc_set_max c ms c' -> Forall quiet_flow ms -> NS c -> NS c'.
Proof. induction 1 as [c|c m ms c' V M IH]; intros F N; [exact N|]. inversion F; subst. apply IH; [assumption | apply mv_NS; assumption]. Qed.

Lemma step_NS (c : cconn) e : RNG c -> ES hstate c -> NS c -> NS (step c e).
Proof.
  intros R E N.
  assert (GEN : ~ is_wlf e -> NS (step c e)).
  { intro NW. destruct (step_D hstate dec_field enc_field enc_set_max cfg c e) as (ms & M & F & _).
    apply (mvs_NS c ms _ M); [|exact N]. eapply Forall_impl; [|exact F].
    intros m EV. destruct m; cbn [quiet_flow]; try exact I; cbn in EV; try (apply NW; exact EV); try (apply NW; rewrite EV; exact I).
    all: try (destruct e; try contradiction; apply NW; exact I). }
  destruct e; try (apply GEN; intros []; fail).
  - cbn [cl_step]. destruct (cl_wl_live c) eqn:LV; [apply wl_in_NS; assumption | exact N].
  - cbn [cl_step]. destruct (cl_wl_live c) eqn:LV; [apply wl_win_NS; assumption | exact N].
Qed.

Lemma step_RNG (c : cconn) e : ES hstate c -> RNG c -> RNG (step c e).
Proof.
  intros E R. destruct (step_D hstate dec_field enc_field enc_set_max cfg c e) as (ms & M & _).
  revert E R. generalize dependent (step c e). intros cf M.
  induction M as [c|c m ms c' V M IH]; intros E R; [exact R|]. apply IH; [apply mv_ES | apply mv_RNG]; assumption.
Qed.

Lemma NS_RNG_run evs : RNG (run evs) /\ NS (run evs).
Proof.
  unfold cl_run. pose proof (ES_run hstate dec_field enc_field enc_set_max cfg h0 first) as ER. unfold cl_run in ER.
  assert (G : forall evs (c : cconn), (forall evs', ES hstate (fold_left step evs' c)) -> RNG c -> NS c ->
                RNG (fold_left step evs c) /\ NS (fold_left step evs c)).
  { clear evs. induction evs as [|e t IH]; intros c EA R N; cbn [fold_left]; [split; assumption|].
    apply IH; [intros evs'; apply (EA (e :: evs')) | apply step_RNG; [apply (EA []) | exact R] | apply step_NS; [exact R | apply (EA []) | exact N]]. }
  apply G; [intros evs'; apply ER | apply RNG_init|].
  intros _ _ pb HP. exfalso. revert HP. unfold cl_init. destruct (cl_settings_deserialize false first); cc_cbn; intros [].
Qed.

(* C07 (c), no stall: after any events, while the write loop is running and there is no winCh token waiting for
   it, every body still pending has bytes buffered and is blocked by a window that is not positive: whenever a
   pending body could go on, either the token is set (the write loop will run flushPending) or the write loop has
   ended with the connection *)
Theorem no_stall evs pb :
  let c := run evs in
  cl_wl_live c = true -> cc_winCh c = false -> In pb (cc_pending c) ->
  pb_body pb <> [] /\ (cl_zmin (pb_window pb) (cc_connWindow c) <= 0)%Z.
Proof. cbv zeta. intros LV WC HP. destruct (NS_RNG_run evs) as [_ N]. exact (N LV WC pb HP). Qed.

(* sendPending, run to its end by the write loop, leaves the body it was called for gone or blocked, touches no other
   body, never raises the connection window and never takes the winCh token away (it sets it when it hands a chunk of
   a request that was taken back to the connection window again) *)
Theorem send_pending_runs_dry evs id :
  let c := run evs in
  let res := cl_send_pending (cl_send_fuel c id) c id in
  snd res = CSPOk ->
  (cl_pend_get (cc_pending (fst res)) id = None \/
   exists pb', cl_pend_get (cc_pending (fst res)) id = Some pb' /\ pb_body pb' <> [] /\ (cl_zmin (pb_window pb') (cc_connWindow (fst res)) <= 0)%Z) /\
  (forall x, x <> id -> cl_pend_get (cc_pending (fst res)) x = cl_pend_get (cc_pending c) x) /\
  (cc_connWindow (fst res) <= cc_connWindow c)%Z /\ (cc_winCh c = true -> cc_winCh (fst res) = true).
Proof.
  cbv zeta. intro OK. destruct (NS_RNG_run evs) as [R _]. destruct (send_pending_fueled (run evs) id R) as [s1 s2 s3 s4 s5 s6 s7].
  rewrite OK in s7. split; [exact s7|]. split; [exact s4|]. split; [exact s3|].
  intro T. destruct (cc_winCh (fst _)) eqn:W; [reflexivity|]. rewrite (s1 eq_refl) in T. discriminate.
Qed.

Lemma winch_grant m (c : cconn) : grants_of m <> [] -> cc_winCh (apply m c) = true.
Proof.
  destruct m; cbn [grants_of]; try congruence; intro G; cbn [apply].
  - destruct (cl_settings_deserialize false payload) as [st|] eqn:DS; [|congruence].
    destruct (deserialize_win _ _ DS) as [WO _]. unfold win_of in WO.
    destruct (cs_hasWin st) eqn:HW.
    + unfold cl_handle_settings, cl_apply_initial_window, cl_signal_window, cl_write_out. rewrite HW.
      destruct (cl_settings_has st c_HeaderTableSize); cc_cbn; match goal with |- context [if ?b then _ else _] => destruct b end; reflexivity.
    + exfalso. apply G. apply last_init_opt_none; [apply inits_of_linit | symmetry; exact WO].
  - unfold cl_add_window, cl_signal_window. reflexivity.
Qed.

Lemma mvs_winch (c : cconn) ms c' : mvs enc_field enc_set_max c ms c' -> Forall (fun m => m <> MWinCh) ms ->
  cc_winCh c = true \/ flat_map grants_of ms <> [] -> cc_winCh c' = true.
Proof.
  induction 1 as [c|c m ms c' V M IH]; intros F H; [destruct H as [H|H]; [exact H | exfalso; apply H; reflexivity]|].
  inversion F; subst. apply IH; [assumption|]. cbn [flat_map] in H.
  destruct H as [H|H]; [left; apply winch_keep; assumption|].
  destruct (grants_of m) eqn:G; [right; exact H | left; apply winch_grant; rewrite G; discriminate].
Qed.

(* a step in which the read loop applies a grant (WINDOW_UPDATE, or SETTINGS with INITIAL_WINDOW_SIZE) ends with the
   winCh token set: signalWindow. So a body that the grant has made sendable is never left without the write loop
   being told (no_stall: a token or nothing sendable) *)
Theorem window_opening_signals (c : cconn) e : g_ledger_in hstate c e <> [] -> cc_winCh (step c e) = true.
Proof.
  intro G. destruct (step_D hstate dec_field enc_field enc_set_max cfg c e) as (ms & M & F & GR & _).
  apply (mvs_winch c ms _ M); [|right; rewrite GR; exact G].
  assert (RL : is_rl e) by (destruct e; try (exfalso; apply G; reflexivity); exact I).
  eapply Forall_impl; [|exact F]. intros m EV ->. cbn in EV. destruct e; try contradiction.
Qed.

Lemma dropN_nil_iff (n : N) (b : bytes) : n <= len b -> (dropN n b = [] <-> n = len b).
Proof.
  intro L. unfold dropN, len in *. split; intro H.
  - assert (X : length (skipn (N.to_nat n) b) = 0%nat) by (rewrite H; reflexivity). rewrite skipn_length in X. clear - X L. lia.
  - apply length_zero_iff_nil. rewrite skipn_length. clear - H. lia.
Qed.

(* C07 (d): one call of sendPending for a buffered body whose request is still the caller's to send: exactly the next
   q = min(bytes left, stream window, connection window) bytes go out (none if that is not positive), in one run of
   DATA frames, both windows are debited by q; if that was all of it END_STREAM is on the last frame and the body leaves
   c.pending, otherwise it stays with the rest, blocked *)
Theorem send_pending_buffered (c : cconn) id pb fuel :
  RNG c -> cl_pend_get (cc_pending c) id = Some pb -> pb_stream pb = None -> pb_body pb <> [] ->
  cl_acquire_for [] (cs_conn c pb id) (pb_tag pb) id = CLOk -> cl_can_write c = true ->
  let q := cs_n c pb in
  let done := (q =? Z.of_N (len (pb_body pb)))%Z in
  let res := cl_send_pending (S (S fuel)) c id in
  snd res = CSPOk /\
  cc_out (fst res) = rev (cl_write_data (cc_maxFrame c) id (takeN (Z.to_N q) (pb_body pb)) done) ++ cc_out c /\
  cc_connWindow (fst res) = (cc_connWindow c - q)%Z /\
  (if done then cl_pend_get (cc_pending (fst res)) id = None
   else exists pb', cl_pend_get (cc_pending (fst res)) id = Some pb' /\ pb_body pb' = dropN (Z.to_N q) (pb_body pb) /\
                    pb_window pb' = (pb_window pb - q)%Z /\ pb_stream pb' = None /\ blocked (fst res) pb').
Proof.
  intros R G SN BN ACQ CW. cbv zeta.
  pose proof (cs_n_facts hstate c pb) as [N1 N2]. pose proof (cs_n_clamp c pb) as NCL.
  destruct (cs_conn_facts c pb id G R) as (W2 & SW2 & CW2 & O2 & ID2 & R2 & ST2 & E2). cbv zeta in *.
  assert (RC : refill_cond pb = false) by (unfold refill_cond; rewrite SN, andb_false_r; reflexivity).
  assert (LP : (0 < Z.of_N (len (pb_body pb)))%Z) by (unfold len; destruct (pb_body pb); [congruence | cbn [length]; clear; lia]).
  assert (ENDQ : cs_end c pb = (cs_n c pb =? Z.of_N (len (pb_body pb)))%Z).
  { unfold cs_end, cl_has_more, cs_pb. cbn [pb_body pb_stream pbu_body pbu_window]. rewrite SN. cbn [andb]. rewrite orb_false_r, negb_involutive.
    assert (LE : Z.to_N (cs_n c pb) <= len (pb_body pb)) by (clear - N1; lia).
    pose proof (dropN_nil_iff _ _ LE) as DI.
    destruct (cs_n c pb =? Z.of_N (len (pb_body pb)))%Z eqn:Q; [apply Z.eqb_eq in Q | apply Z.eqb_neq in Q].
    - assert (X : dropN (Z.to_N (cs_n c pb)) (pb_body pb) = []) by (apply DI; clear - Q; lia). rewrite X. reflexivity.
    - assert (NN : dropN (Z.to_N (cs_n c pb)) (pb_body pb) <> []) by (intro X; apply Q; apply (proj1 DI) in X; clear - X N1; lia).
      destruct (dropN (Z.to_N (cs_n c pb)) (pb_body pb)); [congruence | reflexivity]. }
  rewrite send_pending_S, G, RC. cbv zeta. rewrite ENDQ in *.
  set (q := cs_n c pb) in *. set (c2 := cs_conn c pb id) in *.
  assert (CW2' : cl_can_write c2 = true) by (subst c2; unfold cs_conn, cl_can_write in *; destruct (q =? _)%Z; exact CW).
  assert (MF2 : cc_maxFrame c2 = cc_maxFrame c) by (subst c2; unfold cs_conn; destruct (q =? _)%Z; reflexivity).
  assert (OUT2 : cc_out c2 = cc_out c) by (subst c2; unfold cs_conn; destruct (q =? _)%Z; reflexivity).
  destruct (q =? 0)%Z eqn:Q0.
  - (* nothing can be sent: a window is not positive *)
    apply Z.eqb_eq in Q0.
    assert (ND : (q =? Z.of_N (len (pb_body pb)))%Z = false) by (apply Z.eqb_neq; clear - Q0 LP; lia).
    rewrite ND in *. cbn [negb andb fst snd]. destruct E2 as [E2 PW].
    split; [reflexivity|]. split; [rewrite Q0; cbn [Z.to_N takeN firstn N.to_nat cl_write_data rev app]; exact OUT2|].
    split; [exact CW2|]. exists (cs_pb c pb). split; [exact E2|]. split; [reflexivity|]. split; [exact PW|]. split; [exact SN|].
    unfold blocked, blockedw. rewrite PW, CW2. fold q. rewrite Q0, !Z.sub_0_r. unfold cs_pb. fold q. rewrite Q0.
    cbn [pb_body pbu_body pbu_window Z.to_N dropN N.to_nat skipn]. split; [exact BN|].
    apply (blocked_arith _ _ _ LP). rewrite <- NCL. exact Q0.
  - apply Z.eqb_neq in Q0. assert (QP : (0 < q)%Z) by (clear - Q0 N1; lia). cbn [andb]. rewrite ACQ, CW2', MF2.
    set (c3 := cl_notes c2 _).
    destruct (SF_notes (cl_write_data (cc_maxFrame c) id (cs_chunk c pb) (q =? Z.of_N (len (pb_body pb)))%Z) c2) as (F1 & F2 & F3 & F4 & F5). fold c3 in F1, F2, F3, F4, F5.
    assert (OUT3 : cc_out c3 = rev (cl_write_data (cc_maxFrame c) id (cs_chunk c pb) (q =? Z.of_N (len (pb_body pb)))%Z) ++ cc_out c).
    { subst c3. rewrite (cc_out_cl_notes hstate), OUT2. reflexivity. }
    destruct (q =? Z.of_N (len (pb_body pb)))%Z eqn:DN.
    + (* the whole rest: END_STREAM *)
      cbn [fst snd]. unfold cl_close_body.
      assert (PS : pb_stream (cs_pb c pb) = None) by (unfold cs_pb; cbn [pb_stream pbu_body pbu_window]; exact SN). rewrite PS.
      split; [reflexivity|]. split; [exact OUT3|]. split; [rewrite F2; exact CW2 | rewrite F1; exact E2].
    + (* a window ran out: the next iteration stops *)
      destruct E2 as [E2 PW]. apply Z.eqb_neq in DN.
      assert (R3 : RNG c3) by (destruct R2 as [r1 r2 r3 r4]; constructor; rewrite ?F1, ?F2, ?F3; auto).
      assert (G3 : cl_pend_get (cc_pending c3) id = Some (cs_pb c pb)) by (rewrite F1; exact E2).
      assert (BODY : pb_body (cs_pb c pb) <> []).
      { unfold cs_pb. fold q. cbn [pb_body pbu_body pbu_window]. intro X. apply dropN_nil_iff in X; [|clear - N1; lia]. apply DN. clear - X N1. lia. }
      rewrite send_pending_S, G3.
      assert (RC' : refill_cond (cs_pb c pb) = false) by (unfold refill_cond, cs_pb; cbn [pb_stream pbu_body pbu_window]; rewrite SN, andb_false_r; reflexivity).
      rewrite RC'. cbv zeta.
      destruct (cs_conn_facts c3 (cs_pb c pb) id G3 R3) as (W4 & SW4 & CW4 & O4 & ID4 & R4 & ST4 & E4). cbv zeta in *.
      assert (LEN : (Z.of_N (len (pb_body (cs_pb c pb))) = Z.of_N (len (pb_body pb)) - q)%Z).
      { unfold cs_pb. fold q. cbn [pb_body pbu_body pbu_window]. rewrite len_dropN. clear - N1. lia. }
      assert (NL : (q < Z.of_N (len (pb_body pb)))%Z) by (clear - DN N1; lia).
      destruct (after_send_arith _ _ _ q NCL QP NL) as [AS1 AS2].
      assert (N0 : cs_n c3 (cs_pb c pb) = 0%Z) by (rewrite cs_n_clamp, F2, CW2, PW, LEN; exact AS2).
      assert (EN' : cs_end c3 (cs_pb c pb) = false).
      { unfold cs_end, cl_has_more, cs_pb at 1. rewrite N0. cbn [pb_body pbu_body pbu_window Z.to_N dropN N.to_nat skipn].
        destruct (pb_body (cs_pb c pb)); [congruence | reflexivity]. }
      rewrite N0, EN'. cbn [Z.eqb negb andb fst snd]. rewrite EN' in E4. destruct E4 as [E4 PW4].
      assert (OUT4 : cc_out (cs_conn c3 (cs_pb c pb) id) = cc_out c3) by (unfold cs_conn; rewrite EN'; reflexivity).
      split; [reflexivity|]. split; [rewrite OUT4; exact OUT3|]. split; [rewrite CW4, N0, Z.sub_0_r, F2; exact CW2|].
      eexists. split; [exact E4|].
      split; [unfold cs_pb at 1; rewrite N0; cbn [pb_body pbu_body pbu_window Z.to_N dropN N.to_nat skipn]; reflexivity|].
      split; [rewrite PW4, N0, Z.sub_0_r; exact PW|].
      split; [unfold cs_pb; cbn [pb_stream pbu_body pbu_window]; exact SN|].
      unfold blocked, blockedw. rewrite PW4, CW4, N0, !Z.sub_0_r. unfold cs_pb at 1. rewrite N0. cbn [pb_body pbu_body pbu_window Z.to_N dropN N.to_nat skipn].
      split; [exact BODY|]. rewrite F2, CW2, PW. exact AS1.
Qed.

(* completion, one grant at a time: WINDOW_UPDATE for a stream whose buffered body is waiting raises its window and
   sets the winCh token (addWindow); the call of sendPending the write loop then makes sends the next
   q = min(bytes left, window + increment, connection window) bytes. By induction on the server's grants one buffered
   body is therefore sent completely, with one END_STREAM, as soon as the grants cover it *)
Theorem stream_grant_resumes (c : cconn) id pb inc fuel :
  RNG c -> cl_pend_get (cc_pending c) id = Some pb -> pb_stream pb = None -> pb_body pb <> [] -> id <> 0 ->
  (0 <= inc)%Z -> (pb_window pb + inc <= 2147483647)%Z ->
  let c1 := cl_add_window c id inc in
  let pb1 := pbu_window pb (pb_window pb + inc)%Z in
  cl_acquire_for [] (cs_conn c1 pb1 id) (pb_tag pb) id = CLOk -> cl_can_write c = true ->
  cc_winCh c1 = true /\ cl_pend_get (cc_pending c1) id = Some pb1 /\
  let q := cs_n c1 pb1 in
  let done := (q =? Z.of_N (len (pb_body pb)))%Z in
  let res := cl_send_pending (S (S fuel)) c1 id in
  snd res = CSPOk /\
  cc_out (fst res) = rev (cl_write_data (cc_maxFrame c) id (takeN (Z.to_N q) (pb_body pb)) done) ++ cc_out c /\
  cc_connWindow (fst res) = (cc_connWindow c - q)%Z /\
  (if done then cl_pend_get (cc_pending (fst res)) id = None
   else exists pb', cl_pend_get (cc_pending (fst res)) id = Some pb' /\ pb_body pb' = dropN (Z.to_N q) (pb_body pb) /\
                    pb_window pb' = (pb_window pb + inc - q)%Z /\ pb_stream pb' = None /\ blocked (fst res) pb').
Proof.
  intros R G SN BN NZ IP IB. cbv zeta. intros ACQ CW.
  destruct (cl_pend_get_In _ _ _ G) as [HI EI]. destruct R as [r1 r2 r3 r4].
  assert (I32W : cl_i32 (pb_window pb + inc) = (pb_window pb + inc)%Z).
  { apply cl_i32_id. pose proof (r3 pb HI) as X. unfold I32 in X. clear - X IP IB. lia. }
  assert (C1 : cl_add_window c id inc = ccu_winCh (ccu_pending c (cl_pend_put (cc_pending c) (pbu_window pb (pb_window pb + inc)%Z))) true).
  { unfold cl_add_window, cl_signal_window. apply N.eqb_neq in NZ. rewrite NZ, G, I32W. reflexivity. }
  rewrite C1 in *. set (pb1 := pbu_window pb (pb_window pb + inc)%Z) in *.
  set (c1 := ccu_winCh (ccu_pending c (cl_pend_put (cc_pending c) pb1)) true) in *.
  assert (G1 : cl_pend_get (cc_pending c1) id = Some pb1).
  { subst c1. cc_cbn. rewrite <- EI. change (pb_id pb) with (pb_id pb1). apply pend_get_put_same. cbn [pb1 pb_id pbu_window]. rewrite EI, G. discriminate. }
  assert (R1 : RNG c1).
  { subst c1. constructor; cc_cbn; auto; [|rewrite cl_pend_put_ids; exact r4].
    intros p HP. apply (pend_put_In _ _ _ r4) in HP. destruct HP as [->|[HP _]]; [|auto].
    cbn [pb1 pb_window pbu_window]. rewrite <- I32W. apply cl_i32_range. }
  split; [reflexivity|]. split; [exact G1|].
  pose proof (send_pending_buffered c1 id pb1 fuel R1 G1 SN BN ACQ CW) as SPB. cbv zeta in SPB.
  exact SPB.
Qed.

End Stall.
