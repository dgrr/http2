(* Small facts about byte strings, byte-sized case tables (by computation over 0..255)
   and the machine arithmetic of the Go code: shared by the Huffman, HPACK and frame proofs. *)
From Coq Require Import List NArith ZArith Bool Lia.
From H2V Require Import Base.Bytes Base.MachineInt Base.Result.
Import ListNotations.
Local Open Scope N_scope.

Lemma len_nil : len [] = 0.
Proof. reflexivity. Qed.

Lemma len_cons x b : len (x :: b) = 1 + len b.
Proof. unfold len. cbn [length]. lia. Qed.

Lemma len_app a b : len (a ++ b) = len a + len b.
Proof. unfold len. rewrite app_length. lia. Qed.

Lemma len_length b : len b = N.of_nat (length b).
Proof. reflexivity. Qed.

Lemma bytes_ok_cons x b : bytes_ok (x :: b) = (x <? 256) && bytes_ok b.
Proof. reflexivity. Qed.

Lemma bytes_ok_app a b : bytes_ok (a ++ b) = bytes_ok a && bytes_ok b.
Proof. apply forallb_app. Qed.

Lemma bytes_ok_cons_iff x b : bytes_ok (x :: b) = true <-> x < 256 /\ bytes_ok b = true.
Proof. rewrite bytes_ok_cons, andb_true_iff, N.ltb_lt. tauto. Qed.

Lemma bytes_ok_app_iff a b : bytes_ok (a ++ b) = true <-> bytes_ok a = true /\ bytes_ok b = true.
Proof. rewrite bytes_ok_app. apply andb_true_iff. Qed.

Lemma bytes_ok_firstn n b : bytes_ok b = true -> bytes_ok (firstn n b) = true.
Proof.
  intros H. rewrite <- (firstn_skipn n b) in H. apply bytes_ok_app_iff in H. tauto.
Qed.

Lemma bytes_ok_skipn n b : bytes_ok b = true -> bytes_ok (skipn n b) = true.
Proof.
  intros H. rewrite <- (firstn_skipn n b) in H. apply bytes_ok_app_iff in H. tauto.
Qed.

Lemma bytes_ok_takeN n b : bytes_ok b = true -> bytes_ok (takeN n b) = true.
Proof. apply bytes_ok_firstn. Qed.

Lemma bytes_ok_dropN n b : bytes_ok b = true -> bytes_ok (dropN n b) = true.
Proof. apply bytes_ok_skipn. Qed.

Lemma takeN_dropN n b : takeN n b ++ dropN n b = b.
Proof. apply firstn_skipn. Qed.

Lemma len_takeN n b : n <= len b -> len (takeN n b) = n.
Proof. unfold len, takeN. intros H. rewrite firstn_length. lia. Qed.

Lemma len_dropN n b : len (dropN n b) = len b - n.
Proof. unfold len, dropN. rewrite skipn_length. lia. Qed.

Lemma takeN_len_app a b : takeN (len a) (a ++ b) = a.
Proof.
  unfold takeN, len. rewrite Nat2N.id. rewrite firstn_app, Nat.sub_diag, firstn_all. cbn. apply app_nil_r.
Qed.

Lemma dropN_len_app a b : dropN (len a) (a ++ b) = b.
Proof.
  unfold dropN, len. rewrite Nat2N.id. rewrite skipn_app, Nat.sub_diag, skipn_all. reflexivity.
Qed.

Lemma takeN_all a : takeN (len a) a = a.
Proof. unfold takeN, len. rewrite Nat2N.id. apply firstn_all. Qed.

Lemma dropN_all a : dropN (len a) a = [].
Proof. unfold dropN, len. rewrite Nat2N.id. apply skipn_all. Qed.

Lemma takeN_app n a y : n <= len a -> takeN n (a ++ y) = takeN n a.
Proof.
  unfold len, takeN. intros H. rewrite firstn_app.
  replace (N.to_nat n - length a)%nat with 0%nat by lia. cbn [firstn]. apply app_nil_r.
Qed.

Lemma dropN_app n a y : n <= len a -> dropN n (a ++ y) = dropN n a ++ y.
Proof.
  unfold len, dropN. intros H. rewrite skipn_app.
  replace (N.to_nat n - length a)%nat with 0%nat by lia. reflexivity.
Qed.

Lemma bytes_eqb_eq : forall a b, bytes_eqb a b = true <-> a = b.
Proof.
  induction a as [|x a IH]; destruct b as [|y b]; cbn [bytes_eqb]; split; intros H;
    try reflexivity; try discriminate.
  - apply andb_prop in H. destruct H as [H1 H2]. apply N.eqb_eq in H1. apply IH in H2. congruence.
  - injection H as -> ->. rewrite N.eqb_refl. cbn [andb]. apply IH. reflexivity.
Qed.

(* case tables over a byte *)
Lemma byte_table (P : N -> bool) :
  forallb P (map N.of_nat (seq 0 256)) = true -> forall x, x < 256 -> P x = true.
Proof.
  intros H x Hx. rewrite forallb_forall in H. apply H.
  rewrite in_map_iff. exists (N.to_nat x). split; [apply N2Nat.id|]. apply in_seq. lia.
Qed.

(* the dispatch of nextField on the first octet, against the specification's comparisons *)
Definition dispatch_okb (c : N) : bool :=
  Bool.eqb (N.land c 128 =? 128) (128 <=? c) &&
  (if c <? 128 then Bool.eqb (N.land c 64 =? 64) (64 <=? c) else true) &&
  (if c <? 64 then Bool.eqb (N.land c 240 =? 16) ((16 <=? c) && (c <? 32)) &&
                   Bool.eqb (N.land c 240 =? 0) (c <? 16) &&
                   Bool.eqb (N.land c 32 =? 32) (32 <=? c) else true) &&
  Bool.eqb (N.land c 15 =? 0) (c mod 16 =? 0) &&
  (if (64 <=? c) && (c <? 128) then Bool.eqb (c =? 64) (c mod 64 =? 0) else true).

Ltac split_andb :=
  repeat match goal with X : _ && _ = true |- _ => apply andb_prop in X; destruct X end.

Lemma dispatch_table : forallb dispatch_okb (map N.of_nat (seq 0 256)) = true.
Proof. vm_compute. reflexivity. Qed.

Lemma dispatch_128 c : c < 256 -> (N.land c 128 =? 128) = (128 <=? c).
Proof.
  intros H. pose proof (byte_table _ dispatch_table c H) as T. unfold dispatch_okb in T.
  split_andb. apply eqb_prop. assumption.
Qed.

Lemma dispatch_64 c : c < 128 -> (N.land c 64 =? 64) = (64 <=? c).
Proof.
  intros H. assert (H' : c < 256) by lia. pose proof (byte_table _ dispatch_table c H') as T.
  unfold dispatch_okb in T. apply N.ltb_lt in H. rewrite H in T.
  split_andb. apply eqb_prop. assumption.
Qed.

Lemma dispatch_low c : c < 64 ->
  (N.land c 240 =? 16) = ((16 <=? c) && (c <? 32)) /\
  (N.land c 240 =? 0) = (c <? 16) /\
  (N.land c 32 =? 32) = (32 <=? c).
Proof.
  intros H. assert (H' : c < 256) by lia. pose proof (byte_table _ dispatch_table c H') as T.
  unfold dispatch_okb in T. apply N.ltb_lt in H. rewrite H in T.
  split_andb.
  repeat match goal with X : Bool.eqb _ _ = true |- _ => apply eqb_prop in X end. auto.
Qed.

Lemma dispatch_15 c : c < 256 -> (N.land c 15 =? 0) = (c mod 16 =? 0).
Proof.
  intros H. pose proof (byte_table _ dispatch_table c H) as T. unfold dispatch_okb in T.
  split_andb. apply eqb_prop. assumption.
Qed.

Lemma dispatch_eq64 c : 64 <= c -> c < 128 -> (c =? 64) = (c mod 64 =? 0).
Proof.
  intros H1 H. assert (H' : c < 256) by lia. pose proof (byte_table _ dispatch_table c H') as T.
  unfold dispatch_okb in T. apply N.ltb_lt in H. apply N.leb_le in H1. rewrite H, H1 in T.
  split_andb. apply eqb_prop. assumption.
Qed.

(* masks only look at the low eight bits, whatever the N is *)
Lemma land_low8 c m : m < 256 -> N.land c m = N.land (c mod 256) m.
Proof.
  intros Hm. change 256 with (2 ^ 8). rewrite <- N.land_ones, <- N.land_assoc. f_equal.
  change (N.ones 8) with 255. symmetry.
  apply N.bits_inj. intros k. rewrite N.land_spec.
  destruct (N.ltb_spec k 8) as [Hk|Hk].
  - replace (N.testbit 255 k) with true; [reflexivity|].
    change 255 with (N.ones 8). symmetry. apply N.ones_spec_low. exact Hk.
  - replace (N.testbit m k) with false; [apply andb_false_r|]. symmetry.
    destruct (N.eq_dec m 0) as [->|Hm0]; [apply N.bits_0|].
    apply N.bits_above_log2. apply N.lt_le_trans with 8; [|exact Hk].
    apply N.log2_lt_pow2; [lia|]. exact Hm.
Qed.

Lemma wrap_small w x : x < 2 ^ w -> wrap w x = x.
Proof. apply N.mod_small. Qed.

Lemma u8_small x : x < 256 -> u8 x = x.
Proof. apply (wrap_small 8). Qed.

Lemma u32_small x : x < 2 ^ 32 -> u32 x = x.
Proof. apply (wrap_small 32). Qed.

Lemma u64_small x : x < 2 ^ 64 -> u64 x = x.
Proof. apply (wrap_small 64). Qed.

Lemma u8_lt x : u8 x < 256.
Proof. apply N.mod_lt. discriminate. Qed.

(* no borrow: the machine's subtraction is the natural one *)
Lemma subw_small w a b : b <= a -> a < 2 ^ w -> subw w a b = a - b.
Proof.
  intros H1 H2. unfold subw. rewrite (N.mod_small b) by lia.
  replace (a + 2 ^ w - b) with (a - b + 1 * 2 ^ w) by lia.
  rewrite N.mod_add by (apply N.pow_nonzero; discriminate). apply N.mod_small. lia.
Qed.

Lemma subw8_small a b : b <= a -> a < 256 -> subw 8 a b = a - b.
Proof. apply (subw_small 8). Qed.

Lemma subw32_small a b : b <= a -> a < 2 ^ 32 -> subw 32 a b = a - b.
Proof. apply (subw_small 32). Qed.

Lemma subw64_small a b : b <= a -> a < 2 ^ 64 -> subw 64 a b = a - b.
Proof. apply (subw_small 64). Qed.

(* bit operations as arithmetic *)
Lemma land_127 x : N.land x 127 = x mod 128.
Proof. change 127 with (N.ones 7). rewrite N.land_ones. reflexivity. Qed.

(* a multiple of 2^k and a number below 2^k have no bit in common: or is addition *)
Lemma land_mul_pow2_low a b k : b < 2 ^ k -> N.land (a * 2 ^ k) b = 0.
Proof.
  intros H. apply N.bits_inj. intros n. rewrite N.land_spec, N.bits_0.
  destruct (N.lt_ge_cases n k) as [L|G].
  - rewrite N.mul_pow2_bits_low by assumption. reflexivity.
  - replace (N.testbit b n) with false; [apply andb_false_r|].
    symmetry. rewrite <- (N.mod_small b (2 ^ k)) by assumption.
    apply N.mod_pow2_bits_high. assumption.
Qed.

Lemma lor_mul_pow2_add a b k : b < 2 ^ k -> N.lor (a * 2 ^ k) b = a * 2 ^ k + b.
Proof.
  intros H. pose proof (land_mul_pow2_low a b k H) as L.
  rewrite (N.add_nocarry_lxor _ _ L). symmetry. apply N.lxor_lor. assumption.
Qed.

Lemma lor_low_shift a x m : a < 2 ^ m -> N.lor a (x * 2 ^ m) = a + x * 2 ^ m.
Proof. intro H. rewrite N.lor_comm, N.add_comm. apply lor_mul_pow2_add, H. Qed.

Lemma pos_size_nat_gt p : N.pos p < 2 ^ N.of_nat (Pos.size_nat p).
Proof.
  induction p as [p IH|p IH|]; cbn [Pos.size_nat].
  - rewrite Nat2N.inj_succ, N.pow_succ_r'. lia.
  - rewrite Nat2N.inj_succ, N.pow_succ_r'. lia.
  - reflexivity.
Qed.

Lemma size_nat_gt n : n < 2 ^ N.of_nat (N.size_nat n).
Proof. destruct n as [|p]; [reflexivity | apply pos_size_nat_gt]. Qed.
