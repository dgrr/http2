(* C03: readInt against RFC 7541 5.1 (spec_dec_int), and its structural properties
   (no panic, progress, behaviour when more input is appended). *)
From Coq Require Import List NArith ZArith Bool Lia.
From H2V Require Import Base.Bytes Base.MachineInt Base.Result Gen.GenConsts Impl.Huffman Impl.Hpack
     Spec.Rfc7541 Proofs.HpackBytes.
Import ListNotations.
Local Open Scope N_scope.

Arguments N.shiftl : simpl never.
Arguments N.land : simpl never.
Arguments N.lor : simpl never.
Arguments N.pow : simpl never.
Arguments N.mul : simpl never.

(* structure: valid for any list of N *)
Lemma read_int_loop_cons x rest i nn b0 :
  read_int_loop (x :: rest) i nn b0 =
  if 56 <? (i - 1) * 7 then Err E_int_overflow
  else if negb (N.land x 128 =? 128)
       then Ok (rest, u64 (N.lor nn (shlw 64 (N.land x 127) ((i - 1) * 7)) + b0))
       else read_int_loop rest (i + 1) (N.lor nn (shlw 64 (N.land x 127) ((i - 1) * 7))) b0.
Proof. reflexivity. Qed.

Lemma read_int_cons n c rest :
  read_int n (c :: rest) =
  if negb (N.land (u8 (2 ^ n - 1)) c =? u8 (2 ^ n - 1)) then Ok (rest, N.land c (u8 (2 ^ n - 1)))
  else read_int_loop rest 1 0 (u8 (2 ^ n - 1)).
Proof. reflexivity. Qed.

Lemma read_int_loop_no_panic : forall bs i nn b0, is_panic (read_int_loop bs i nn b0) = false.
Proof.
  induction bs as [|x rest IH]; intros i nn b0; [reflexivity|].
  rewrite read_int_loop_cons.
  destruct (56 <? (i - 1) * 7); [reflexivity|].
  destruct (negb (N.land x 128 =? 128)); [reflexivity | apply IH].
Qed.

Lemma read_int_no_panic n b : is_panic (read_int n b) = false.
Proof.
  destruct b as [|c rest]; [reflexivity|]. rewrite read_int_cons.
  destruct (negb _); [reflexivity | apply read_int_loop_no_panic].
Qed.

(* the result is a proper suffix; appending input does not change a result, nor an overflow *)
Lemma read_int_loop_ok : forall bs i nn b0 rest v,
  read_int_loop bs i nn b0 = Ok (rest, v) ->
  exists pre, bs = pre ++ rest /\ pre <> [] /\
    forall y, read_int_loop (bs ++ y) i nn b0 = Ok (rest ++ y, v).
Proof.
  induction bs as [|x bs IH]; intros i nn b0 rest v H; [discriminate|].
  rewrite read_int_loop_cons in H.
  destruct (56 <? (i - 1) * 7) eqn:E1; [discriminate|].
  destruct (negb (N.land x 128 =? 128)) eqn:E2.
  - injection H as <- <-. exists [x]. split; [reflexivity|]. split; [discriminate|].
    intros y. cbn [app]. rewrite read_int_loop_cons, E1, E2. reflexivity.
  - destruct (IH _ _ _ _ _ H) as [pre [Hb [Hne Hy]]]. exists (x :: pre).
    split; [rewrite Hb; reflexivity|]. split; [discriminate|].
    intros y. cbn [app]. rewrite read_int_loop_cons, E1, E2. apply Hy.
Qed.

Lemma read_int_loop_err : forall bs i nn b0 e,
  read_int_loop bs i nn b0 = Err e ->
  e = E_unexpected_size \/ (e = E_int_overflow /\ forall y, read_int_loop (bs ++ y) i nn b0 = Err e).
Proof.
  induction bs as [|x bs IH]; intros i nn b0 e H.
  - injection H as <-. left. reflexivity.
  - rewrite read_int_loop_cons in H.
    destruct (56 <? (i - 1) * 7) eqn:E1.
    + injection H as <-. right. split; [reflexivity|]. intros y. cbn [app].
      rewrite read_int_loop_cons, E1. reflexivity.
    + destruct (negb (N.land x 128 =? 128)) eqn:E2; [discriminate|].
      destruct (IH _ _ _ _ H) as [Hl | [He Hy]]; [left; exact Hl|]. right. split; [exact He|].
      intros y. cbn [app]. rewrite read_int_loop_cons, E1, E2. apply Hy.
Qed.

Lemma read_int_ok n b rest v : read_int n b = Ok (rest, v) ->
  exists pre, b = pre ++ rest /\ pre <> [] /\ forall y, read_int n (b ++ y) = Ok (rest ++ y, v).
Proof.
  destruct b as [|c b]; [discriminate|]. rewrite read_int_cons.
  destruct (negb _) eqn:E; intros H.
  - injection H as <- <-. exists [c]. split; [reflexivity|]. split; [discriminate|].
    intros y. cbn [app]. rewrite read_int_cons, E. reflexivity.
  - destruct (read_int_loop_ok _ _ _ _ _ _ H) as [pre [Hb [Hne Hy]]]. exists (c :: pre).
    split; [rewrite Hb; reflexivity|]. split; [discriminate|].
    intros y. cbn [app]. rewrite read_int_cons, E. apply Hy.
Qed.

Lemma read_int_err n b e : read_int n b = Err e ->
  e = E_unexpected_size \/ (e = E_int_overflow /\ forall y, read_int n (b ++ y) = Err e).
Proof.
  destruct b as [|c b]; [intros H; injection H as <-; left; reflexivity|].
  rewrite read_int_cons. destruct (negb _) eqn:E; intros H; [discriminate|].
  destruct (read_int_loop_err _ _ _ _ _ H) as [Hl | [He Hy]]; [left; exact Hl|]. right.
  split; [exact He|]. intros y. cbn [app]. rewrite read_int_cons, E. apply Hy.
Qed.

Lemma read_int_ok_length n b rest v : read_int n b = Ok (rest, v) -> (length rest < length b)%nat.
Proof.
  intros H. destruct (read_int_ok _ _ _ _ H) as [pre [-> [Hne _]]]. rewrite app_length.
  destruct pre; [congruence | simpl; lia].
Qed.

(* value: RFC 7541 5.1 *)
Lemma pow2_pos m : 0 < 2 ^ m.
Proof. apply N.neq_0_lt_0. apply N.pow_nonzero. discriminate. Qed.

(* i is the 1-based number of the continuation octet, a the octets still allowed *)
Lemma read_int_loop_spec : forall bs a i nn b0,
  bytes_ok bs = true -> N.of_nat a + i = 10 -> 1 <= i -> nn < 2 ^ ((i - 1) * 7) -> b0 < 256 ->
  match dec_cont a bs ((i - 1) * 7) with
  | Some (w, r) => read_int_loop bs i nn b0 = Ok (r, nn + w + b0) /\ nn + w < 2 ^ 63
  | None => exists e, read_int_loop bs i nn b0 = Err e
  end.
Proof.
  induction bs as [|x bs IH]; intros a i nn b0 Hok Hai Hi Hnn Hb0.
  - destruct a; cbn [dec_cont]; exists E_unexpected_size; reflexivity.
  - apply bytes_ok_cons_iff in Hok. destruct Hok as [Hx Hbs].
    rewrite read_int_loop_cons.
    destruct a as [|a].
    + cbn [dec_cont]. assert (i = 10) as -> by lia. exists E_int_overflow. reflexivity.
    + cbn [dec_cont].
      set (m := (i - 1) * 7) in *.
      assert (Hm : m <= 56) by (unfold m; lia).
      replace (56 <? m) with false by (symmetry; apply N.ltb_ge; exact Hm).
      assert (HP : 2 ^ (m + 7) = 2 ^ m * 128) by (rewrite N.pow_add_r; reflexivity).
      assert (HP63 : 2 ^ (m + 7) <= 2 ^ 63) by (apply N.pow_le_mono_r; lia).
      pose proof (pow2_pos m) as Hpos.
      rewrite land_127, dispatch_128 by exact Hx.
      assert (Hsh : shlw 64 (x mod 128) m = (x mod 128) * 2 ^ m).
      { unfold shlw, wrap. rewrite N.shiftl_mul_pow2. apply N.mod_small.
        assert (x mod 128 < 128) by (apply N.mod_lt; discriminate).
        change (2 ^ 64) with (2 * 2 ^ 63). nia. }
      rewrite Hsh, lor_low_shift by exact Hnn.
      destruct (N.ltb_spec x 128) as [Hlt|Hge].
      * replace (128 <=? x) with false by (symmetry; apply N.leb_gt; exact Hlt). cbn [negb].
        rewrite N.mod_small by exact Hlt.
        assert (nn + x * 2 ^ m < 2 ^ 63) by nia.
        split; [|assumption]. rewrite u64_small; [reflexivity|]. change (2 ^ 64) with (2 * 2 ^ 63). lia.
      * replace (128 <=? x) with true by (symmetry; apply N.leb_le; exact Hge). cbn [negb].
        assert (Hxm : x mod 128 = x - 128).
        { replace x with ((x - 128) + 1 * 128) at 1 by lia. rewrite N.mod_add by discriminate.
          apply N.mod_small. lia. }
        rewrite Hxm.
        assert (Hm' : (i + 1 - 1) * 7 = m + 7) by (unfold m; lia).
        assert (Hnn' : nn + (x - 128) * 2 ^ m < 2 ^ ((i + 1 - 1) * 7)) by (rewrite Hm', HP; nia).
        specialize (IH a (i + 1) (nn + (x - 128) * 2 ^ m) b0 Hbs ltac:(lia) ltac:(lia) Hnn' Hb0).
        rewrite Hm' in IH.
        destruct (dec_cont a bs (m + 7)) as [[v r]|].
        -- destruct IH as [IH1 IH2]. split; [|lia]. rewrite IH1. do 2 f_equal. lia.
        -- exact IH.
Qed.

Lemma ones_byte n : 1 <= n <= 8 -> u8 (2 ^ n - 1) = N.ones n /\ N.ones n = 2 ^ n - 1 /\ 2 ^ n <= 256.
Proof.
  intros Hn. assert (H : 2 ^ n <= 2 ^ 8) by (apply N.pow_le_mono_r; lia).
  change (2 ^ 8) with 256 in H. pose proof (pow2_pos n).
  rewrite N.ones_equiv, <- N.sub_1_r. split; [apply u8_small; lia|]. split; [reflexivity | exact H].
Qed.

Theorem read_int_spec n b : 1 <= n <= 8 -> bytes_ok b = true ->
  match spec_dec_int n b with
  | Some (v, rest) => read_int n b = Ok (rest, v) /\ v < 2 ^ 63 + 256
  | None => exists e, read_int n b = Err e
  end.
Proof.
  intros Hn Hok. destruct b as [|c b]; [exists E_unexpected_size; reflexivity|].
  apply bytes_ok_cons_iff in Hok. destruct Hok as [Hc Hb].
  cbn [spec_dec_int]. rewrite read_int_cons.
  destruct (ones_byte n Hn) as [H1 [H2 H3]]. rewrite H1.
  rewrite (N.land_comm (N.ones n) c), N.land_ones, H2.
  assert (Hv : c mod 2 ^ n < 2 ^ n) by (apply N.mod_lt; apply N.pow_nonzero; discriminate).
  destruct (N.ltb_spec (c mod 2 ^ n) (2 ^ n - 1)) as [Hlt|Hge].
  - replace (c mod 2 ^ n =? 2 ^ n - 1) with false by (symmetry; apply N.eqb_neq; lia). cbn [negb].
    split; [reflexivity | lia].
  - replace (c mod 2 ^ n =? 2 ^ n - 1) with true by (symmetry; apply N.eqb_eq; lia). cbn [negb].
    pose proof (read_int_loop_spec b 9 1 0 (2 ^ n - 1) Hb eq_refl ltac:(lia) ltac:(cbn; lia) ltac:(lia)) as L.
    change ((1 - 1) * 7) with 0 in L. unfold max_cont_octets.
    destruct (dec_cont 9 b 0) as [[w r]|].
    + destruct L as [L1 L2]. rewrite L1. split; [do 2 f_equal; lia | lia].
    + exact L.
Qed.

(* a decoded integer is 0 exactly when the prefix bits of the first octet are 0 *)
Lemma spec_dec_int_prefix n c b v rest : 1 <= n -> spec_dec_int n (c :: b) = Some (v, rest) ->
  (v = 0 <-> c mod 2 ^ n = 0) .
Proof.
  intros Hn. cbn [spec_dec_int].
  assert (Hpos : 2 ^ 1 <= 2 ^ n) by (apply N.pow_le_mono_r; [discriminate | exact Hn]).
  change (2 ^ 1) with 2 in Hpos.
  destruct (N.ltb_spec (c mod 2 ^ n) (2 ^ n - 1)) as [Hlt|Hge].
  - intros H. injection H as <- <-. tauto.
  - destruct (dec_cont max_cont_octets b 0) as [[w r]|]; [|discriminate].
    intros H. injection H as <- <-. split; intros; lia.
Qed.
