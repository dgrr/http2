(* Proofs/TeardownSrvS1.v -- blocking-structure model (Impl/Teardown.v), server, S1: progress, termination, the ping timer winds down.
   Statements: Props/Teardown.v; overview: Proofs/TeardownProofs.v. *)
From Coq Require Import Arith Lia Bool List.
Import ListNotations.
From H2V Require Import Impl.Teardown Proofs.TeardownGen Proofs.TeardownSrvInv.

Module SrvP1.
Import Srv SrvP.

Section P.
Variable cap : nat.
Hypothesis cap_pos : 1 <= cap.
Notation guard := (Srv.guard cap).
Notation reachable := (Srv.reachable cap).
Notation inv := (SrvP.inv cap).

Definition proc_act (a : act) : Prop := is_env a = false.

Ltac fire a := right; exists a; split; [reflexivity | cbn; repeat split; eauto; try lia].

(* S1, deadlock freedom: with the peer gone, either nothing is left of the connection but handlers
   in user code and armed timers, or some goroutine can take a step. *)
Lemma progress_dead : forall s, inv s -> dead s = true ->
  quiet s \/ exists a, proc_act a /\ guard a s.
Proof.
  intros s I D. destruct I.
  (* the write loop moves unless parked in its select or gone; in both cases sc.write can complete *)
  assert (((wl s = WSelect /\ wr s = 0) \/ wl s = WDone) \/ exists a, proc_act a /\ guard a s) as [Hw|?]; auto.
  { destruct (wl s) eqn:Ewl; auto.
    - destruct (Nat.eq_dec (wr s) 0) as [Ewr|]; [auto | fire WTake].
    - fire WSockFail.
    - destruct (Nat.eq_dec (wr s) 0); [fire WDrainEmpty | fire WDrainTake].
    - fire WFlushRet.
    - fire WSockClose.
    - fire WDoneClose. }
  assert (exists c, wguard cap c s) as (c & Hc).
  { destruct Hw as [(_ & Hw)|Hw]; [exists ViaQueue; cbn; lia | exists ViaDone; cbn].
    rewrite i_wdone0, Hw; auto. }
  (* the stream loop moves unless its goroutine is through *)
  destruct (sl s) eqn:Esl.
  - destruct (closer s) eqn:?; [fire SCloser|].
    destruct (Nat.eq_dec (hd s) 0); [|fire STakeHd].
    destruct (rt s) eqn:?; [fire STakeTimer|].
    destruct (Nat.eq_dec (rd s) 0); [|fire (STakeRd false false)].
    destruct (sv s) eqn:Esv.
    + fire RReadFail.
    + fire RFwdSend.
    + fire (RWr c).
    + fire VStopTimers.
    + fire VCloseReader.
    + fire SRdClosed.
    + fire SRdClosed.
  - fire SBodyCont.
  - fire (SWr c).
  - fire SCloseHStop.
  - fire SStopPing.
  - fire SCloseWStop.
  - cbn in *. destruct Hw as [(Hw & _)|Hw]; [fire WStop|].
    destruct (sv s) eqn:Esv.
    + fire RReadFail.
    + fire RFwdStop.
    + fire (RWr c).
    + fire VStopTimers.
    + fire VCloseReader.
    + fire VWaitDone. rewrite i_wdone0, Hw; auto.
    + destruct (Nat.eq_dec (h_send s) 0); [|fire HStop].
      destruct (Nat.eq_dec (Srv.i_wr s) 0); [|fire (IWr c)].
      destruct (Nat.eq_dec (i_cl s) 0); [|fire ICloseCloser].
      destruct (pg s) eqn:Epg.
      * left; repeat split; auto; congruence.
      * fire (PWr c).
      * fire PCheckStop.
      * fire PRearm.
      * left; repeat split; auto; congruence.
Qed.

(* S1, termination: every action that is not a frame arriving, the request timer or the ping
   timer firing lowers the rank (SrvP.rank_decreases); so a path without those has at most
   [rank s] steps. *)
Definition no_refill (a : act) : Prop := refills a = false.

Theorem bounded_paths : forall s l s',
  path guard eff no_refill s l s' -> length l + rank s' <= rank s.
Proof.
  intros s l s' H.
  eapply (path_length_rank guard eff no_refill (fun _ => True) rank); eauto.
  intros; apply (rank_decreases cap); auto.
Qed.

Lemma dead_stable : forall s a, dead s = true -> dead (eff a s) = true.
Proof.
  unfold dead; intros s a H. apply orb_true_iff in H. apply orb_true_iff.
  destruct a; try destruct c; cbn; tauto.
Qed.

Lemma gone_stable : forall s a, gone s = true -> gone (eff a s) = true.
Proof. intros s a H; destruct a; try destruct c; cbn; auto. Qed.

(* S1, conclusion: from a reachable state where the peer is gone, the goroutines can always run
   to the quiet state, in at most [rank s] steps of their own ... *)
Theorem can_finish : forall n s, reachable s -> dead s = true -> rank s <= n ->
  exists l s', path guard eff proc_act s l s' /\ quiet s' /\ length l <= n.
Proof.
  induction n; intros s R D Hn;
    (destruct (progress_dead s (reachable_inv cap s R) D) as [Q|(a & Pa & G)];
     [exists [], s; split; [apply path_nil | split; [auto | cbn; lia]]|]);
    assert (refills a = false) as Hf by (destruct a; auto; discriminate);
    pose proof (rank_decreases cap s a Hf G); [lia|].
  destruct (IHn (eff a s)) as (l & s' & Hp & Hq & Hl);
    [apply reach_step; auto | apply dead_stable; auto | lia|].
  exists (a :: l), s'; split; [apply path_cons; auto | split; [auto | cbn; lia]].
Qed.

(* ... and whatever they do, they cannot avoid it: a sequence of their steps that cannot be
   extended ends in the quiet state. *)
Theorem must_finish : forall s l s', reachable s -> dead s = true ->
  path guard eff proc_act s l s' -> (forall a, proc_act a -> ~ guard a s') -> quiet s'.
Proof.
  intros s l s' R D Hp Hmax.
  assert (reachable s' /\ dead s' = true) as (R' & D').
  { clear Hmax. induction Hp; auto. apply IHHp; [apply reach_step; auto | apply dead_stable; auto]. }
  destruct (progress_dead s' (reachable_inv cap s' R') D') as [Q|(a & Pa & G)]; auto.
  exfalso; eapply Hmax; eauto.
Qed.

Lemma loops_exited_stable : forall s a, loops_exited s -> guard a s -> loops_exited (eff a s).
Proof.
  unfold loops_exited; intros s a (H1 & H2 & H3) G.
  destruct a; try destruct c; cbn in G |- *; break; try congruence; auto.
Qed.

(* once they have, nothing that is left can park: handlers that return, and the callbacks of
   timers that were re-armed, all find handlerStop / writeStop closed *)
Lemma exited_never_parks : forall s, inv s -> loops_exited s ->
  (0 < h_send s -> guard HStop s) /\ (pg s = PWrite -> guard (PWr ViaStop) s) /\
  (0 < Srv.i_wr s -> guard (IWr ViaStop) s).
Proof.
  intros s [] (H1 & H2 & H3). rewrite H2 in *; cbn in *. repeat split; auto.
Qed.

Lemma wstop_stable : forall s a, wstop s = true -> wstop (eff a s) = true.
Proof. intros s a H; destruct a; try destruct c; cbn; auto. Qed.

(* the ping timer winds down once writeStop is closed (sendPingAndSchedule checks it before
   re-arming): the potential never rises, every step of the timer lowers it -- so after that the
   timer fires at most once more (a callback that passed the check just before the close) *)
Theorem ping_winds_down : forall s a, wstop s = true -> guard a s ->
  pg_pot (pg (eff a s)) <= pg_pot (pg s) /\
  (pg_act a = true -> pg_pot (pg (eff a s)) < pg_pot (pg s)).
Proof.
  intros s a W G.
  destruct a; try destruct c; cbn in G; break; cbn; rw_pcs; cbn; try (split; [lia | intros; try discriminate; lia]).
  all: try congruence.
  all: destruct (pg s); cbn; split; try lia; intros; discriminate.
Qed.

Theorem ping_bounded_after_close : forall s l s', wstop s = true ->
  path guard eff (fun _ => True) s l s' -> count_pg l + pg_pot (pg s') <= pg_pot (pg s).
Proof.
  intros s l s' W H. induction H; cbn; [lia|].
  specialize (IHpath (wstop_stable _ _ W)).
  destruct (ping_winds_down _ _ W H0) as (H2 & H3).
  destruct (pg_act a); [specialize (H3 eq_refl)|]; lia.
Qed.
End P.
End SrvP1.
