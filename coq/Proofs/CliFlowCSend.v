(* Proofs/CliFlowCSend.v - C07, "and finishes": the bookkeeping Bk of Proofs/CliFlowCInv.v through sendPending,
   flushPending, writeRequest and the two select cases of the write loop that run them, then through every step. *)
From H2V Require Import Base.Bytes Base.MachineInt Base.Result Gen.GenConsts Impl.ServerConn Impl.ClientConn
     Proofs.CliBase Proofs.CliDefs Spec.FlowLedger Proofs.CliFlowMoves Proofs.CliFlowOut Proofs.CliFlowSettings Proofs.CliFlowSafe Proofs.CliFlowEs
     Proofs.CliFlowStall Proofs.CliFlowCBody Proofs.CliFlowCInv.
From Coq Require Import ZArith Lia ZifyN ZifyNat ZifyBool List Bool.
Import ListNotations.
Local Open Scope N_scope.

Section Send.
Variable hstate : Type.
Variable dec_field : hstate -> N -> bytes -> dec_res hstate.
Variable enc_field : hstate -> bytes -> bytes -> bool -> bytes * hstate.
Variable enc_set_max : hstate -> N -> hstate.
Variable cfg : cl_config.
Notation cconn := (cconn hstate).
Notation move := (move hstate).
Notation apply := (apply hstate enc_field enc_set_max).
Notation valid := (valid hstate).
Notation D := (D enc_field enc_set_max).
Notation step := (cl_step dec_field enc_field enc_set_max cfg).
Notation Bk := (Bk hstate).
Notation pget := (pget hstate).
Notation untouched := (untouched hstate).
Notation Dstep := (D_step hstate enc_field enc_set_max).
Notation Dany := (D_any hstate enc_field enc_set_max).
Notation Dtrans0 := (D_trans0 hstate enc_field enc_set_max).
Notation Drefl := (D_refl hstate enc_field enc_set_max).

(* the critical sections and refills of sendPending(id0) are those of id0 *)
Definition pin (id0 : N) (m : move) : Prop :=
  match m with MSend i _ | MSendBack i | MRefill i => i = id0 | _ => True end.

Lemma anym_pin id0 (m : move) : anym m -> pin id0 m.
Proof. destruct m; cbn; auto; intros []. Qed.

Lemma pin_untouched id0 id (m : move) : id <> id0 -> pin id0 m -> untouched id m.
Proof. intros NE. destruct m; cbn; auto; intros -> X; apply NE; symmetry; exact X. Qed.

Lemma send_pending_pin fuel (c : cconn) id : D (pin id) [] c (fst (cl_send_pending fuel c id)).
Proof. apply send_pending_DP. intros m [H|H]; [apply anym_pin; exact H | destruct m; try contradiction; cbn [pin]; auto]. Qed.

Lemma Bk_none (ex : Prop) B ok id (c : cconn) : Bk False B ok id c -> pget c id = None -> Bk ex B ok id c.
Proof. intros [b1 b2 b3 b4] G. constructor; auto. intros _ pb X. congruence. Qed.

Lemma Bk_any (ex : Prop) B ok id (c : cconn) : Bk True B ok id c -> Bk ex B ok id c.
Proof. apply (Bk_weaken hstate True ex). auto. Qed.
Lemma Bk_not (ex : Prop) B ok id (c : cconn) : ~ ex -> Bk False B ok id c -> Bk ex B ok id c.
Proof. intro H. apply (Bk_weaken hstate False ex). exact H. Qed.

Lemma Bk_esn0 (ex : Prop) B ok id (c : cconn) pb : Bk ex B ok id c -> pget c id = Some pb -> esn id (cc_out c) = 0%nat.
Proof. intros [b1 b2 b3 b4] G. destruct b3 as [b3|(_ & _ & _ & X)]; [exact b3 | congruence]. Qed.

(* the state after the critical section: what it does to the pending body of the stream *)
Lemma cs_conn_pget (c : cconn) pb id : cl_pend_get (cc_pending c) id = Some pb -> NoDup (map pb_id (cc_pending c)) ->
  cc_out (cs_conn c pb id) = cc_out c /\ cc_nextID (cs_conn c pb id) = cc_nextID c /\
  pget (cs_conn c pb id) id = if cs_end c pb then None else Some (cs_pb c pb).
Proof.
  intros G ND. destruct (cl_pend_get_In _ _ _ G) as [HI EI]. unfold CliFlowCInv.pget, cs_conn. destruct (cs_end c pb); cc_cbn.
  - split; [reflexivity|]. split; [reflexivity|]. apply pend_get_del_same. exact ND.
  - split; [reflexivity|]. split; [reflexivity|].
    assert (PI : pb_id (cs_pb c pb) = id) by (unfold cs_pb; cbn [pb_id pbu_body pbu_window]; exact EI).
    pose proof (pend_get_put_same (cc_pending c) (cs_pb c pb)) as X. rewrite PI in X. apply X. rewrite G. discriminate.
Qed.

(* the bytes are debited, nothing is written: the prefix stays a prefix; nothing is lost if nothing was debited *)
Lemma Bk_send_false (ex : Prop) B ok id (c : cconn) pb : cl_pend_get (cc_pending c) id = Some pb -> ES hstate c ->
  Bk ex B ok id c ->
  Bk False B ok id (cs_conn c pb id) /\ (cs_n c pb = 0%Z -> Bk ex B ok id (cs_conn c pb id)).
Proof.
  intros G E K. destruct (cs_conn_pget c pb id G (es_nodup _ _ E)) as (O2 & N2 & P2).
  pose proof (Bk_esn0 _ _ _ _ _ _ K G) as E0. destruct K as [b1 b2 b3 b4].
  split.
  - constructor; rewrite ?O2, ?N2; auto. intros [].
  - intro N0. constructor; rewrite ?O2, ?N2; auto. intros X p GP. rewrite P2 in GP.
    destruct (cs_end c pb); [discriminate|]. inversion GP; subst p.
    destruct (cs_all hstate c pb) as [A1 A2]. destruct (b4 X pb G) as [A3 A4].
    unfold cs_chunk in A1. rewrite N0 in A1. cbn [Z.to_N takeN N.to_nat firstn app] in A1. rewrite A1, A2. split; assumption.
Qed.

(* the bytes are debited and written *)
Lemma Bk_send_true B ok id (c : cconn) pb : cl_pend_get (cc_pending c) id = Some pb -> ES hstate c ->
  Bk True B ok id c ->
  Bk True B ok id (cl_notes (cs_conn c pb id) (cl_write_data (cc_maxFrame (cs_conn c pb id)) id (cs_chunk c pb) (cs_end c pb))).
Proof.
  intros G E K. destruct (cs_conn_pget c pb id G (es_nodup _ _ E)) as (O2 & N2 & P2).
  pose proof (Bk_esn0 _ _ _ _ _ _ K G) as E0. destruct K as [b1 b2 b3 b4].
  destruct (b4 Logic.I pb G) as [A3 A4]. destruct (cs_all hstate c pb) as [A1 A2].
  set (c2 := cs_conn c pb id) in *. set (l := cl_write_data (cc_maxFrame c2) id (cs_chunk c pb) (cs_end c pb)).
  assert (O3 : cc_out (cl_notes c2 l) = rev l ++ cc_out c) by (rewrite (cc_out_cl_notes hstate), O2; reflexivity).
  pose proof (cc_nextID_cl_notes _ c2 l) as F1. pose proof (cc_pending_cl_notes _ c2 l) as F2.
  assert (DB : dbytes id (cc_out (cl_notes c2 l)) = dbytes id (cc_out c) ++ cs_chunk c pb).
  { rewrite O3, dbytes_app. subst l. rewrite dbl_write_data, N.eqb_refl. reflexivity. }
  assert (EN : esn id (cc_out (cl_notes c2 l)) = if cs_end c pb then 1%nat else 0%nat).
  { rewrite O3, esn_app, E0. subst l. rewrite esl_write_data, N.eqb_refl. reflexivity. }
  assert (P3 : pget (cl_notes c2 l) id = if cs_end c pb then None else Some (cs_pb c pb)).
  { unfold CliFlowCInv.pget in *. rewrite F2. exact P2. }
  constructor.
  - rewrite F1, N2. exact b1.
  - exists (pb_all (cs_pb c pb)). rewrite DB, <- app_assoc, A1. exact A3.
  - rewrite EN, DB, P3. destruct (cs_end c pb) eqn:EE; [right | left; reflexivity].
    destruct (cs_end_all hstate c pb EE) as [Z1 Z2]. rewrite Z1, app_nil_r in A1.
    repeat split; [rewrite A1; exact A3 | congruence].
  - intros _ p GP. rewrite P3 in GP. destruct (cs_end c pb); [discriminate|]. inversion GP; subst p.
    rewrite DB, <- app_assoc, A1, A2. split; assumption.
Qed.

Definition sp_ok (r : cl_spres) : Prop := r = CSPOk.

(* sendPending(id) and the body of stream id itself *)
Lemma send_pending_same fuel B ok : forall (c : cconn) id, ES hstate c -> Bk True B ok id c ->
  Bk (sp_ok (snd (cl_send_pending fuel c id))) B ok id (fst (cl_send_pending fuel c id)).
Proof.
  induction fuel as [|fuel IH]; intros c id E K; [apply Bk_any; exact K|].
  destruct (send_pending_view hstate fuel c id)
    as [G|pb pb' G RC RF|pb c1 stuck G RC RF DP|pb G RC N0 EE|pb G RC ACQ CW|pb G RC ACQ V EE|pb G RC ACQ V EE|pb c3 stuck G RC ACQ DP|pb G RC];
    cbn [fst snd].
  - apply Bk_any. exact K.
  - pose proof (valid_refill hstate c id pb pb' G RC RF) as V. rewrite <- (apply_refill hstate enc_field enc_set_max c id pb pb' G RF).
    apply IH; [apply mv_ES | apply mv_Bk]; auto. exact I.
  - (* the reader failed: moves that leave the trace of the stream alone *)
    apply Bk_any. eapply (D_Bk hstate enc_field enc_set_max); [|intros m H; exact H | exact E | exact K].
    apply read_failed_D; [apply anym_untouched | exact I | eapply delete_pending_D'; exact DP].
  - apply Bk_any. exact (proj2 (Bk_send_false True B ok id c pb G E K) N0).
  - apply Bk_not; [discriminate|]. exact (proj1 (Bk_send_false True B ok id c pb G E K)).
  - pose proof (mv_ES hstate enc_field enc_set_max (MSend id true) c V E) as E3.
    rewrite (apply_send hstate enc_field enc_set_max c id pb true G) in E3.
    apply Bk_any. eapply D_Bk; [apply (close_body_D hstate enc_field enc_set_max) | apply anym_untouched | exact E3|].
    apply Bk_send_true; assumption.
  - apply IH; [|apply Bk_send_true; assumption]. rewrite <- (apply_send hstate enc_field enc_set_max c id pb true G). apply mv_ES; assumption.
  - (* the request has been taken back: the body is dropped *)
    destruct (Bk_send_false True B ok id c pb G E K) as [KF _]. pose proof (ES_sb_pre hstate c pb id E) as E2'.
    assert (KF' : Bk False B ok id (sb_pre hstate c pb id)).
    { unfold sb_pre. destruct (0 <? cs_n c pb)%Z; [|exact KF].
      apply (Bk_frame hstate False False B ok id (cs_conn c pb id)); [apply N.le_refl | reflexivity | reflexivity | | auto | exact KF].
      intros pb' G'. exists pb'. split; [exact G' | split; reflexivity]. }
    destruct (delete_pending_flow hstate _ _ _ _ DP) as (A1 & _).
    apply Bk_none.
    + eapply (D_Bk hstate enc_field enc_set_max); [eapply delete_pending_D'; exact DP | apply anym_untouched | exact E2' | exact KF'].
    + unfold CliFlowCInv.pget. rewrite A1. apply pend_get_del_same. apply (es_nodup _ _ E2').
  - apply Bk_not; [discriminate|].
    apply (D_Bk hstate enc_field enc_set_max anym [] False B ok id (cs_conn c pb id) _ (go_stuck_D hstate enc_field enc_set_max 1 [] _ false (pb_tag pb)));
      [apply anym_untouched | apply (ES_cs_conn hstate c pb id E)|].
    exact (proj1 (Bk_send_false True B ok id c pb G E K)).
Qed.

(* sendPending(id0) and every stream *)
Lemma send_pending_Bk fuel B ok id (c : cconn) id0 : ES hstate c -> Bk True B ok id c ->
  Bk (sp_ok (snd (cl_send_pending fuel c id0))) B ok id (fst (cl_send_pending fuel c id0)).
Proof.
  intros E K. destruct (N.eq_dec id id0) as [->|NE]; [apply send_pending_same; assumption|].
  apply Bk_any. eapply D_Bk; [apply (send_pending_pin fuel c id0) | intros m; apply pin_untouched; exact NE | exact E | exact K].
Qed.

Lemma send_pending_ES fuel (c : cconn) id0 : ES hstate c -> ES hstate (fst (cl_send_pending fuel c id0)).
Proof. intro E. eapply D_ES; [apply (send_pending_pin fuel c id0) | exact E]. Qed.

(* flushPending *)
Lemma flush_pending_Bk B ok id ids : forall (c : cconn), ES hstate c -> Bk True B ok id c ->
  Bk (sp_ok (snd (cl_flush_pending c ids))) B ok id (fst (cl_flush_pending c ids)) /\ ES hstate (fst (cl_flush_pending c ids)).
Proof.
  induction ids as [|id0 t IH]; intros c E K; cbn [cl_flush_pending].
  - cbn [fst snd]. split; [apply Bk_any; exact K | exact E].
  - pose proof (send_pending_Bk (cl_send_fuel c id0) B ok id c id0 E K) as K1.
    pose proof (send_pending_ES (cl_send_fuel c id0) c id0 E) as E1.
    destruct (cl_send_pending (cl_send_fuel c id0) c id0) as [c1 r]. cbn [fst snd] in K1, E1.
    destruct r; cbn [fst snd]; [|split; assumption | split; assumption].
    apply IH; [exact E1|]. apply (Bk_weaken hstate (sp_ok CSPOk) True); [intros _; reflexivity | exact K1].
Qed.

End Send.
