(* Proofs/SrvRfcFrame.v - C08: handleFrame on a stream of the table, frame type by frame type. *)
From H2V Require Import Base.Bytes Base.MachineInt Base.Result Gen.GenConsts Impl.ServerConn.
From H2V Require Import Proofs.SrvBase Proofs.SrvRfcDefs Proofs.SrvRfcSpec Proofs.SrvRfcModel Proofs.SrvRfcSim Proofs.SrvRfcEff
  Proofs.SrvRfcSend Proofs.SrvRfcStep Proofs.SrvRfcKit Proofs.SrvRfcRl Proofs.SrvRfcSl Proofs.SrvRfcKnown.
From Coq Require Import ZArith Lia ZifyN ZifyNat ZifyBool.
Local Open Scope N_scope.

Section Frame.
Variable hstate : Type.
Variable dec_field : hstate -> N -> bytes -> dec_res hstate.
Variable enc_field : hstate -> bytes -> bytes -> bool -> bytes * hstate.
Variable enc_set_max : hstate -> N -> hstate.
Variable cfg : config.
Notation sconn := (sconn hstate).
Notation feed := (feed hstate dec_field enc_field enc_set_max cfg).
Notation G := (G hstate).
Notation view := (view hstate).
Notation tbl := (tbl hstate).
Notation Sim := (Sim hstate).
Notation AuxT := (AuxT hstate).
Notation AuxH := (AuxH hstate).
Notation seq_ok := (seq_ok hstate).
Notation base := (base hstate).
Notation kctx := (kctx hstate).
Notation sfacts := (sfacts hstate).
Notation kin := (kin hstate).
Notation kfin := (kfin hstate).
Notation hf_eff := (hf_eff hstate).
Implicit Types c : sconn.

(* handleFrame returned a connection error: GOAWAY, and the stream loop ends *)
Lemma known_goaway c s ph fr ec' c2 l' h' cA s5 code :
  Sim c s ph -> sc_sl_done c = false -> kctx c ec' l' h' c2 -> hf_eff c2 cA ->
  feed c (IIn (RFrame fr)) = fst (brk (put (write_goaway cA (sf_sid fr) code) s5)) ->
  (RS.allowed s (RS.Frame (abs_frame fr)) (RS.ConnErr code) = true \/ known_deviation hstate c s (RFrame fr) = true) ->
  G c s ph (RFrame fr) (feed c (IIn (RFrame fr))).
Proof.
  intros HS Hsl KC HE E Ha. pose proof (S_aux _ _ _ _ HS) as [AT AH].
  destruct (kfin_of hstate c ec' l' h' c2 cA Hsl KC HE) as (dq & KF & Qq & Qnd).
  destruct KF as (K1 & K2 & K3 & K4 & K5 & K6 & K7 & K8 & K9 & K10 & K11 & K12).
  apply (G_goaway_over hstate dec_field enc_field enc_set_max cfg c s ph fr _ (sc_lastID cA) code dq E eq_refl); try assumption.
  - rewrite sc_out_brk, sc_out_put, sc_out_write_goaway, K7, K9, K12, (A_wl _ _ AT). reflexivity.
  - apply quiet_no_goaway, Qq.
Qed.

Lemma known_panic c s ph fr ec' c2 l' h' cA :
  Sim c s ph -> sc_sl_done c = false -> kctx c ec' l' h' c2 -> hf_eff c2 cA ->
  feed c (IIn (RFrame fr)) = fst (brk (note cA (OPanic 1 0))) ->
  (RS.allowed s (RS.Frame (abs_frame fr)) RS.ConnClose = true \/ known_deviation hstate c s (RFrame fr) = true) ->
  G c s ph (RFrame fr) (feed c (IIn (RFrame fr))).
Proof.
  intros HS Hsl KC HE E Ha. pose proof (S_aux _ _ _ _ HS) as [AT AH].
  destruct (kfin_of hstate c ec' l' h' c2 cA Hsl KC HE) as (dq & KF & Qq & Qnd).
  destruct KF as (K1 & K2 & K3 & K4 & K5 & K6 & K7 & K8 & K9 & K10 & K11 & K12).
  apply (G_over hstate dec_field enc_field enc_set_max cfg c s ph (RFrame fr) _ (OExit 1 0 :: OPanic 1 0 :: dq) E).
  - reflexivity.
  - rewrite sc_out_brk. cbn [sc_out note upd_out]. rewrite K12. reflexivity.
  - reflexivity.
  - cbn [abs_input input_sid filter noisy strip_late rev]. rewrite Qq. cbn [rev app]. rewrite classify_close; [exact Ha | | reflexivity].
    intros o [<-|[<-|[]]]; reflexivity.
  - intros sid rq [H|[H|H]]; try discriminate. exfalso. exact (Qnd sid rq H).
Qed.

(* the prelude of sl_known for HEADERS (implicit close of idle streams, the unfinished previous block) does nothing here *)

Lemma get_previous_snoc old new p : fkind_eqb (st_orig new) KHeaders = true ->
  get_previous_headers (old ++ [new]) = Some p -> In p old.
Proof.
  unfold get_previous_headers. rewrite rev_app_distr. cbn [rev app filter]. intros O H. rewrite O in H.
  destruct (filter (fun s => fkind_eqb (st_orig s) KHeaders) (rev old)) as [|b t] eqn:F; try discriminate. inversion H; subst.
  assert (X : In p (filter (fun s => fkind_eqb (st_orig s) KHeaders) (rev old))) by (rewrite F; left; reflexivity).
  apply filter_In in X. destruct X as [X _]. apply in_rev in X. exact X.
Qed.

Lemma implicit_close_noop k c sid :
  (forall n t, sc_strms c = n :: t -> ((st_id n <? sid) && sstate_eqb (st_state n) SIdle && fkind_eqb (st_orig n) KHeaders)%bool = false) ->
  implicit_close k c sid = c.
Proof.
  intro H. destruct k as [|k]; [reflexivity|]. cbn [implicit_close]. destruct (sc_strms c) as [|n t] eqn:E; [reflexivity|].
  rewrite (H n t eq_refl). reflexivity.
Qed.

Lemma sfacts_found c s ph fr st : Sim c s ph -> N.odd (sf_sid fr) = true -> tbl c (sf_sid fr) = Some st ->
  sfacts c s ph fr st (sc_lastID c) (sc_highestID c).
Proof.
  intros HS Od T. pose proof (S_aux _ _ _ _ HS) as [AT AH].
  pose proof (search_In _ _ _ T) as HIn. pose proof (search_id _ _ _ T) as Hid.
  destruct (A_st _ _ AT st HIn) as (A & B & C & D).
  pose proof (S_str _ _ _ _ HS _ Od) as R. unfold SrvRfcDefs.view in R. rewrite T in R.
  constructor.
  - exact Hid.
  - destruct A as [A|A]; rewrite A; auto.
  - destruct A as [A|A]; rewrite A in *; cbn [rel abs_st] in *; exact R.
  - intro X. destruct A as [A|A]; congruence.
  - intros _. split; [reflexivity|]. split; [exact T|]. split; [rewrite <- Hid; apply (S_ph _ _ _ _ HS st HIn)|]. split.
    + intro F. rewrite <- Hid. apply (A_fin _ _ AH st HIn F).
    + intro E. apply (A_ec _ _ AH st); [rewrite E; intro Z; rewrite Z in Od; discriminate | rewrite E; exact T].
  - exact B.
  - exact C.
  - exact D.
  - exact (A_snd _ _ AT st HIn).
Qed.

Lemma sfacts_created c s ph fr ec' c2 st : Sim c s ph -> N.odd (sf_sid fr) = true -> tbl c (sf_sid fr) = None ->
  sf_kind fr = KHeaders -> created hstate (upd_expectCont c ec') fr c2 st ->
  sfacts c s ph fr st (sf_sid fr) (sf_sid fr).
Proof.
  intros HS Od Tn KH (-> & Rn & Ll & Hc). rewrite KH in Hc. destruct Hc as (Hgt & Hcl & _).
  change (sc_highestID (upd_expectCont c ec')) with (sc_highestID c) in Hgt. change (sc_closing (upd_expectCont c ec')) with (sc_closing c) in Hcl.
  destruct (proj2 (unknown_state hstate dec_field enc_set_max c s ph _ HS Od Tn) Hgt) as [Hidle _].
  constructor; cbn.
  - reflexivity.
  - left. reflexivity.
  - exact Hidle.
  - intros _. repeat split; auto. apply (S_new _ _ _ _ HS Hcl _ Od Hgt).
  - intro X. congruence.
  - reflexivity.
  - intros [X|X]; discriminate.
  - discriminate.
  - unfold send_ok, has_more_to_send. cbn. discriminate.
Qed.

(* the part of sl_known after handleFrame *)

Definition tail (r : sconn * stream * option h2err) (fr : sframe) (wasClosing : bool) : sconn * bool :=
  let '(c3, s3, e) := r in
  match e with
  | Some e =>
    let '(c4, s4) := write_error c3 (Some s3) e in
    let s5 := match s4 with Some x => set_state x SClosed | None => set_state s3 SClosed end in
    match e with
    | EGoAway code => if negb (code =? c_NoError) then brk (put c4 s5) else after_frame cfg c4 s5 fr wasClosing
    | EReset _ => after_frame cfg c4 s5 fr wasClosing
    | EPanic => brk (note c3 (OPanic 1 0))
    end
  | None => after_frame cfg c3 s3 fr wasClosing
  end.

Lemma sl_known_tail c2 st fr wc :
  (sf_kind fr = KHeaders ->
   implicit_close (S (length (sc_strms c2))) c2 (st_id st) = c2 /\
   forall p, get_previous_headers (sc_strms c2) = Some p -> st_headersFinished p = true) ->
  sl_known hstate dec_field cfg c2 st fr wc = tail (handle_frame dec_field cfg c2 st fr) fr wc.
Proof.
  intro H. unfold sl_known, tail. destruct (fkind_eqb (sf_kind fr) KHeaders) eqn:K.
  - apply fkind_eqb_eq in K. destruct (H K) as [IC GP].
    destruct (get_previous_headers (sc_strms c2)) as [p|] eqn:G.
    + rewrite (GP p eq_refl). cbn [negb]. rewrite IC. reflexivity.
    + rewrite IC. reflexivity.
  - reflexivity.
Qed.

(* the three ways a frame can end badly, once handleFrame has answered *)
Lemma tail_goaway c3 s3 code fr wc : code <> c_NoError ->
  tail (c3, s3, Some (EGoAway code)) fr wc = brk (put (write_goaway c3 (st_id s3) code) (set_state (set_state s3 SClosed) SClosed)).
Proof. intro H. unfold tail. cbn [write_error]. replace (code =? c_NoError) with false by (symmetry; apply N.eqb_neq; exact H). reflexivity. Qed.

Lemma tail_reset c3 s3 code fr wc :
  tail (c3, s3, Some (EReset code)) fr wc =
  after_frame cfg (write_reset c3 (st_id s3) code) (set_state (set_state (set_weReset s3) SClosed) SClosed) fr wc.
Proof. reflexivity. Qed.

Lemma tail_panic c3 s3 fr wc : tail (c3, s3, Some EPanic) fr wc = brk (note c3 (OPanic 1 0)).
Proof. reflexivity. Qed.

Lemma tail_ok c3 s3 fr wc : tail (c3, s3, None) fr wc = after_frame cfg c3 s3 fr wc.
Proof. reflexivity. Qed.

Lemma kin_wr c s ph fr ec' c2 st l' h' : kin c s ph fr ec' c2 st l' h' -> sc_sl_done c2 = false /\ sc_wl_dead c2 = false.
Proof.
  intros [HS Hsl _ _ _ (K1 & K2 & K3 & K4 & K5 & K6 & K7 & K8 & K9 & K10 & K11 & K12) _ _].
  pose proof (S_aux _ _ _ _ HS) as [AT _]. rewrite K8, K6. split; [exact Hsl | apply (A_wl _ _ AT)].
Qed.

(* outside a header block (every frame but CONTINUATION): block is None, ec' is settled *)
Lemma kin_noblock c s ph fr ec' c2 st l' h' : kin c s ph fr ec' c2 st l' h' -> sf_kind fr <> KCont ->
  RS.block s = None /\ sc_expectCont c = 0 /\ ec' = (if fkind_eqb (sf_kind fr) KHeaders && negb (flag_has (sf_flags fr) FL_EH) then sf_sid fr else 0).
Proof.
  intros KI K. destruct (K_sq _ _ _ _ _ _ _ _ _ _ KI) as [(E0 & _ & E)|(_ & K' & _)]; [|congruence].
  split; [|auto]. rewrite (S_blk _ _ _ _ (K_S _ _ _ _ _ _ _ _ _ _ KI) : RS.block s = _), E0. reflexivity.
Qed.

(* a stream of the table that is outside a header block has all its headers *)
Lemma kin_fin c s ph fr ec' c2 st l' h' : kin c s ph fr ec' c2 st l' h' -> sf_kind fr <> KCont -> st_state st <> SIdle ->
  st_headersFinished st = true.
Proof.
  intros KI K NI. destruct (kin_noblock _ _ _ _ _ _ _ _ _ KI K) as (_ & E0 & _).
  destruct (F_h2 _ _ _ _ _ _ _ _ (K_f _ _ _ _ _ _ _ _ _ _ KI) NI) as (_ & T & _).
  destruct (S_aux _ _ _ _ (K_S _ _ _ _ _ _ _ _ _ _ KI)) as [AT AH]. apply (all_finished hstate c st AT AH E0), (search_In _ _ _ T).
Qed.

Lemma K_data c s ph fr ec' c2 st l' h' :
  kin c s ph fr ec' c2 st l' h' -> sf_kind fr = KData ->
  feed c (IIn (RFrame fr)) = fst (tail (handle_frame dec_field cfg c2 st fr) fr (sc_closing c)) ->
  G c s ph (RFrame fr) (feed c (IIn (RFrame fr))).
Proof.
  intros KI KK E. pose proof KI as [HS Hsl SQ Od HB KC CW SF].
  destruct (kin_wr _ _ _ _ _ _ _ _ _ KI) as [Sl2 Wl2].
  assert (NC : sf_kind fr <> KCont) by congruence.
  destruct (kin_noblock _ _ _ _ _ _ _ _ _ KI NC) as (BN & E0 & EC). rewrite KK in EC. cbn [fkind_eqb andb] in EC.
  assert (Znn : sf_sid fr <> 0) by (intro Z; rewrite Z in Od; discriminate).
  assert (V : RS.verdicts s (RS.Frame (abs_frame fr)) = RS.on_stream s (abs_frame fr)) by (apply verdicts_stream; [exact BN | exact Znn | rewrite KK; exact I]).
  destruct (handle_frame dec_field cfg c2 st fr) as [[c3 s3] e] eqn:HF.
  pose proof (handle_frame_eff hstate dec_field cfg c2 st fr c3 s3 e Sl2 Wl2 HF) as HE.
  assert (NI : st_state st <> SIdle).
  { intro X. destruct (F_h1 _ _ _ _ _ _ _ _ SF X) as (_ & _ & _ & KH & _). congruence. }
  pose proof (kin_fin _ _ _ _ _ _ _ _ _ KI NC NI) as Fin.
  destruct (F_h2 _ _ _ _ _ _ _ _ SF NI) as (Hh & Tb & Hph & _).
  unfold handle_frame, verify_state in HF. rewrite KK in HF. cbn [fkind_eqb orb andb] in HF. unfold continuing_headers in HF. rewrite KK in HF. cbn [fkind_eqb andb] in HF.
  destruct (F_state _ _ _ _ _ _ _ _ SF) as [X|[X|X]]; [congruence | |]; rewrite X in HF; cbn [sstate_rank N.leb] in HF.
  - (* open *)
    assert (Xo : RS.st_of s (sf_sid fr) = RS.Open) by (rewrite (F_x _ _ _ _ _ _ _ _ SF), X; reflexivity).
    rewrite Fin in HF. cbn [negb] in HF. replace (3 <=? 2) with false in HF by reflexivity.
    match type of HF with (if ?b then _ else _) = _ => destruct b eqn:OV end; injection HF as Ec Es Ee; subst e.
    + (* body too large: RST_STREAM(ENHANCE_YOUR_CALM) *)
      rewrite tail_reset, <- Es in E. cbn [st_id set_recv] in E. rewrite (F_id _ _ _ _ _ _ _ _ SF), Es in E.
      apply (after_reset hstate dec_field enc_field enc_set_max cfg c s ph fr ec' c2 st l' h' c3 s3 c_EnhanceYourCalm KI HE); try exact E.
      * rewrite <- Es. apply same_ctl_set_recv.
      * right. rewrite <- Ec, sc_discardID_credit_conn_window. apply KC.
      * intro Hne. congruence.
      * apply policy_allowed; auto; congruence.
      * congruence.
    + (* accepted *)
      rewrite tail_ok in E.
      apply (after_ok hstate dec_field enc_field enc_set_max cfg c s ph fr ec' c2 st l' h' c3 s3 KI HE); try exact E; try exact V.
      * rewrite <- Ec, sc_discardID_consume_recv_window. apply KC.
      * rewrite <- Es. apply same_ctl_set_recv.
      * intros _. rewrite <- Es. exact Fin.
      * unfold RS.may_process. rewrite V. unfold RS.on_stream, RS.by_state. change (RS.f_sid (abs_frame fr)) with (sf_sid fr). rewrite Xo.
        unfold abs_frame. cbn [RS.f_kind]. rewrite KK. reflexivity.
      * rewrite <- Es; cbn; rewrite Fin; discriminate.
      * intro Hne. congruence.
      * intros _. rewrite Hph, phase_of_handle, <- Es. cbn [st_state st_headersFinished set_recv].
        unfold phase_of, hs_state, abs_frame, RS.request_step. cbn [RS.f_kind RS.f_es]. rewrite KK, X, Fin. cbn.
        destruct (flag_has (sf_flags fr) FL_ES); reflexivity.
      * intro Y; congruence.
  - (* half-closed (remote): STREAM_CLOSED *)
    injection HF as Ec Es Ee; subst e.
    rewrite tail_goaway in E by discriminate. rewrite <- Es, (F_id _ _ _ _ _ _ _ _ SF) in E.
    apply (known_goaway c s ph fr ec' c2 l' h' c3 _ _ HS Hsl KC HE E).
    left. apply allowed_table. rewrite V. unfold RS.on_stream, RS.by_state. change (RS.f_sid (abs_frame fr)) with (sf_sid fr).
    rewrite (F_x _ _ _ _ _ _ _ _ SF), X. unfold abs_frame. cbn [RS.f_kind abs_st]. rewrite KK. reflexivity.
Qed.

(* shared preamble for frames that are not part of a header block, on a stream of the table *)
Lemma kin_plain c s ph fr ec' c2 st l' h' :
  kin c s ph fr ec' c2 st l' h' -> sf_kind fr <> KCont -> sf_kind fr <> KHeaders ->
  sc_sl_done c2 = false /\ sc_wl_dead c2 = false /\ RS.block s = None /\ ec' = 0 /\ sf_sid fr <> 0 /\
  st_state st <> SIdle /\ st_headersFinished st = true /\ h' = sc_highestID c /\ tbl c (sf_sid fr) = Some st /\
  ph (sf_sid fr) = phase_of st /\ sc_discardID c2 = sc_discardID c /\
  ((st_state st = SOpen /\ RS.st_of s (sf_sid fr) = RS.Open) \/ (st_state st = SHalfClosed /\ RS.st_of s (sf_sid fr) = RS.HalfClosedRemote)).
Proof.
  intros KI NC NH. pose proof KI as [HS Hsl SQ Od HB KC CW SF].
  destruct (kin_wr _ _ _ _ _ _ _ _ _ KI) as [Sl2 Wl2].
  destruct (kin_noblock _ _ _ _ _ _ _ _ _ KI NC) as (BN & E0 & EC).
  apply fkind_eqb_neq in NH. rewrite NH in EC. cbn [andb] in EC.
  assert (NI : st_state st <> SIdle).
  { intro X. destruct (F_h1 _ _ _ _ _ _ _ _ SF X) as (_ & _ & _ & KH & _). apply fkind_eqb_neq in NH. congruence. }
  destruct (F_h2 _ _ _ _ _ _ _ _ SF NI) as (Hh & Tb & Hph & _).
  repeat split; auto.
  - intro Z. rewrite Z in Od. discriminate.
  - apply (kin_fin _ _ _ _ _ _ _ _ _ KI NC NI).
  - destruct KC as (_ & _ & _ & _ & _ & _ & _ & _ & _ & _ & K11 & _). exact K11.
  - destruct (F_state _ _ _ _ _ _ _ _ SF) as [X|[X|X]]; [congruence | left | right]; (split; [exact X|]); rewrite (F_x _ _ _ _ _ _ _ _ SF), X; reflexivity.
Qed.

Lemma K_rst c s ph fr ec' c2 st l' h' :
  kin c s ph fr ec' c2 st l' h' -> sf_kind fr = KRst ->
  feed c (IIn (RFrame fr)) = fst (tail (handle_frame dec_field cfg c2 st fr) fr (sc_closing c)) ->
  G c s ph (RFrame fr) (feed c (IIn (RFrame fr))).
Proof.
  intros KI KK E. pose proof KI as [HS Hsl SQ Od HB KC CW SF].
  destruct (kin_plain _ _ _ _ _ _ _ _ _ KI ltac:(congruence) ltac:(congruence)) as (Sl2 & Wl2 & BN & EC & Znn & NI & Fin & Hh & Tb & Hph & DI & XS).
  assert (V : RS.verdicts s (RS.Frame (abs_frame fr)) = RS.on_stream s (abs_frame fr)) by (apply verdicts_stream; [exact BN | exact Znn | rewrite KK; exact I]).
  assert (HF : handle_frame dec_field cfg c2 st fr = (c2, st, None)).
  { unfold handle_frame, verify_state. rewrite KK. cbn [fkind_eqb orb andb]. unfold continuing_headers. rewrite KK. cbn [fkind_eqb andb orb].
    destruct XS as [[X _]|[X _]]; rewrite X; reflexivity. }
  rewrite HF, tail_ok in E.
  apply (after_ok hstate dec_field enc_field enc_set_max cfg c s ph fr ec' c2 st l' h' c2 st KI (hf_eff_refl hstate c2) DI (same_ctl_refl st) (fun _ => Fin) V); try exact E.
  - unfold RS.may_process. rewrite V. unfold RS.on_stream, RS.by_state. change (RS.f_sid (abs_frame fr)) with (sf_sid fr).
    destruct XS as [[_ X]|[_ X]]; rewrite X; unfold abs_frame; cbn [RS.f_kind]; rewrite KK; reflexivity.
  - rewrite Fin; discriminate.
  - intro Hne; congruence.
  - intro Y. exfalso. apply Y. rewrite handle_state_st. unfold hs_state. rewrite KK. reflexivity.
  - intros _ R1 R2 R3 R4. unfold known_deviation. rewrite KK. unfold SrvRfcDefs.tbl in Tb. rewrite Tb, R1, R2, R3. cbn [negb andb].
    destruct R4 as [R4|R4]; [rewrite R4; reflexivity|]. rewrite <- CW. apply Z.ltb_lt in R4. rewrite R4. apply orb_true_r.
Qed.

Lemma K_prio c s ph fr ec' c2 st l' h' :
  kin c s ph fr ec' c2 st l' h' -> sf_kind fr = KPriority ->
  feed c (IIn (RFrame fr)) = fst (tail (handle_frame dec_field cfg c2 st fr) fr (sc_closing c)) ->
  G c s ph (RFrame fr) (feed c (IIn (RFrame fr))).
Proof.
  intros KI KK E. pose proof KI as [HS Hsl SQ Od HB KC CW SF].
  destruct (kin_plain _ _ _ _ _ _ _ _ _ KI ltac:(congruence) ltac:(congruence)) as (Sl2 & Wl2 & BN & EC & Znn & NI & Fin & Hh & Tb & Hph & DI & XS).
  assert (V : RS.verdicts s (RS.Frame (abs_frame fr)) = RS.on_stream s (abs_frame fr)) by (apply verdicts_stream; [exact BN | exact Znn | rewrite KK; exact I]).
  assert (HF : handle_frame dec_field cfg c2 st fr = if sf_dep fr =? sf_sid fr then (c2, st, Some (EGoAway c_ProtocolError)) else (c2, st, None)).
  { unfold handle_frame, verify_state. rewrite KK. cbn [fkind_eqb orb andb]. unfold continuing_headers. rewrite KK. cbn [fkind_eqb andb orb].
    rewrite Fin, (F_id _ _ _ _ _ _ _ _ SF). destruct XS as [[X _]|[X _]]; rewrite X; cbn [sstate_eqb sstate_rank N.eqb negb andb]; reflexivity. }
  rewrite HF in E. clear HF.
  destruct (sf_dep fr =? sf_sid fr) eqn:SD.
  - rewrite tail_goaway in E by discriminate. rewrite (F_id _ _ _ _ _ _ _ _ SF) in E.
    apply (known_goaway c s ph fr ec' c2 l' h' c2 _ _ HS Hsl KC (hf_eff_refl hstate c2) E).
    left. apply allowed_table. rewrite V. unfold RS.on_stream, RS.by_state, RS.priority_frame. change (RS.f_sid (abs_frame fr)) with (sf_sid fr).
    destruct XS as [[_ X]|[_ X]]; rewrite X; unfold abs_frame; cbn [RS.f_kind RS.f_self]; rewrite KK, SD; reflexivity.
  - rewrite tail_ok in E.
    apply (after_ok hstate dec_field enc_field enc_set_max cfg c s ph fr ec' c2 st l' h' c2 st KI (hf_eff_refl hstate c2) DI (same_ctl_refl st) (fun _ => Fin) V); try exact E.
    + unfold RS.may_process. rewrite V. unfold RS.on_stream, RS.by_state, RS.priority_frame. change (RS.f_sid (abs_frame fr)) with (sf_sid fr).
      destruct XS as [[_ X]|[_ X]]; rewrite X; unfold abs_frame; cbn [RS.f_kind RS.f_self]; rewrite KK, SD; reflexivity.
    + rewrite Fin; discriminate.
    + intro Hne; congruence.
    + intros _. rewrite Hph, phase_of_handle. unfold phase_of, hs_state, abs_frame, RS.request_step. cbn [RS.f_kind]. rewrite KK, Fin.
      destruct XS as [[X _]|[X _]]; rewrite X; reflexivity.
    + intro Y; congruence.
Qed.

Lemma K_winupd c s ph fr ec' c2 st l' h' :
  kin c s ph fr ec' c2 st l' h' -> sf_kind fr = KWinUpd ->
  feed c (IIn (RFrame fr)) = fst (tail (handle_frame dec_field cfg c2 st fr) fr (sc_closing c)) ->
  G c s ph (RFrame fr) (feed c (IIn (RFrame fr))).
Proof.
  intros KI KK E. pose proof KI as [HS Hsl SQ Od HB KC CW SF].
  destruct (kin_plain _ _ _ _ _ _ _ _ _ KI ltac:(congruence) ltac:(congruence)) as (Sl2 & Wl2 & BN & EC & Znn & NI & Fin & Hh & Tb & Hph & DI & XS).
  assert (V : RS.verdicts s (RS.Frame (abs_frame fr)) = RS.on_stream s (abs_frame fr)) by (apply verdicts_stream; [exact BN | exact Znn | rewrite KK; exact I]).
  set (w := (st_window st + Z.of_N (sf_inc fr))%Z).
  assert (HF : handle_frame dec_field cfg c2 st fr =
               if sf_inc fr =? 0 then (c2, st, Some (EGoAway c_ProtocolError))
               else if (MAXWIN <? w)%Z then (c2, set_window st w, Some (EReset c_FlowControlError)) else (c2, set_window st w, None)).
  { unfold handle_frame, verify_state. rewrite KK. cbn [fkind_eqb orb andb]. unfold continuing_headers. rewrite KK. cbn [fkind_eqb andb orb].
    destruct XS as [[X _]|[X _]]; rewrite X; cbn [sstate_eqb sstate_rank N.eqb]; reflexivity. }
  rewrite HF in E. clear HF.
  assert (WUv : RS.on_stream s (abs_frame fr) = RS.window_update (abs_frame fr) ++ RS.policy).
  { unfold RS.on_stream, RS.by_state. change (RS.f_sid (abs_frame fr)) with (sf_sid fr).
    destruct XS as [[_ X]|[_ X]]; rewrite X; unfold abs_frame; cbn [RS.f_kind]; rewrite KK; reflexivity. }
  destruct (sf_inc fr =? 0) eqn:I0.
  - rewrite tail_goaway in E by discriminate. rewrite (F_id _ _ _ _ _ _ _ _ SF) in E.
    apply (known_goaway c s ph fr ec' c2 l' h' c2 _ _ HS Hsl KC (hf_eff_refl hstate c2) E).
    left. apply allowed_table. rewrite V, WUv. unfold RS.window_update, abs_frame. cbn [RS.f_inc]. rewrite I0. reflexivity.
  - destruct (MAXWIN <? w)%Z eqn:OV.
    + (* the window overflows: RST_STREAM(FLOW_CONTROL_ERROR) *)
      rewrite tail_reset in E. cbn [st_id set_window] in E. rewrite (F_id _ _ _ _ _ _ _ _ SF) in E.
      apply (after_reset hstate dec_field enc_field enc_set_max cfg c s ph fr ec' c2 st l' h' c2 (set_window st w) c_FlowControlError
               KI (hf_eff_refl hstate c2) (same_ctl_set_window st w)); try exact E.
      * right. exact DI.
      * intro Hne. congruence.
      * apply allowed_table. rewrite V, WUv. unfold RS.window_update, abs_frame. cbn [RS.f_inc]. rewrite I0. reflexivity.
      * congruence.
    + rewrite tail_ok in E.
      apply (after_ok hstate dec_field enc_field enc_set_max cfg c s ph fr ec' c2 st l' h' c2 (set_window st w) KI (hf_eff_refl hstate c2) DI (same_ctl_set_window st w) (fun _ => Fin) V); try exact E.
      * unfold RS.may_process. rewrite V, WUv. unfold RS.window_update, abs_frame. cbn [RS.f_inc]. rewrite I0. reflexivity.
      * cbn; rewrite Fin; discriminate.
      * intro Hne; congruence.
      * intros _. rewrite Hph, phase_of_handle. cbn [st_state st_headersFinished set_window].
        unfold phase_of, hs_state, abs_frame, RS.request_step. cbn [RS.f_kind]. rewrite KK, Fin.
        destruct XS as [[X _]|[X _]]; rewrite X; reflexivity.
      * intro Y; congruence.
Qed.

(* SETTINGS, GOAWAY (and the like) carrying a stream id *)
Lemma K_other c s ph fr ec' c2 st l' h' :
  kin c s ph fr ec' c2 st l' h' -> (sf_kind fr = KSettings \/ sf_kind fr = KGoAway) ->
  feed c (IIn (RFrame fr)) = fst (tail (handle_frame dec_field cfg c2 st fr) fr (sc_closing c)) ->
  G c s ph (RFrame fr) (feed c (IIn (RFrame fr))).
Proof.
  intros KI KK E. pose proof KI as [HS Hsl SQ Od HB KC CW SF].
  destruct (kin_plain _ _ _ _ _ _ _ _ _ KI ltac:(destruct KK; congruence) ltac:(destruct KK; congruence))
    as (Sl2 & Wl2 & BN & EC & Znn & NI & Fin & Hh & Tb & Hph & DI & XS).
  assert (V : RS.verdicts s (RS.Frame (abs_frame fr)) = [RS.CE c_ProtocolError]).
  { apply verdicts_stream_bad; [exact BN | exact Znn | destruct KK as [-> | ->]; exact I]. }
  assert (HF : exists code, handle_frame dec_field cfg c2 st fr = (c2, st, Some (EGoAway code)) /\ code <> c_NoError /\
                 (code = c_ProtocolError \/ (code = c_StreamClosedError /\ st_state st = SHalfClosed))).
  { unfold handle_frame, verify_state, continuing_headers.
    destruct XS as [[X _]|[X _]]; rewrite X; destruct KK as [K | K]; rewrite K; cbn [fkind_eqb orb andb];
      eexists; (split; [reflexivity|]); (split; [discriminate|]); auto. }
  destruct HF as (code & HF & NE & CD). rewrite HF, tail_goaway in E by exact NE. rewrite (F_id _ _ _ _ _ _ _ _ SF) in E.
  apply (known_goaway c s ph fr ec' c2 l' h' c2 _ _ HS Hsl KC (hf_eff_refl hstate c2) E).
  destruct CD as [-> | [-> X]].
  - left. apply allowed_table. rewrite V. reflexivity.
  - right. unfold known_deviation. unfold SrvRfcDefs.tbl in Tb. rewrite Tb, X.
    replace (sf_sid fr =? 0) with false by (symmetry; apply N.eqb_neq; exact Znn).
    destruct KK as [-> | ->]; cbn; apply orb_true_r.
Qed.

(* the checks handleHeaderFrame makes before it decodes anything *)
Definition hdr_refused (st : stream) (fr : sframe) : bool :=
  (st_headersFinished st && (negb (fkind_eqb (sf_kind fr) KHeaders) || negb (flag_has (sf_flags fr) FL_ES)))
  || (fkind_eqb (sf_kind fr) KHeaders && (sf_dep fr =? st_id st)).

Lemma hf_hdr c st fr c3 s3 e :
  sf_kind fr = KHeaders \/ sf_kind fr = KCont ->
  verify_state st fr = None -> ((3 <=? sstate_rank (st_state st)) && negb (continuing_headers st fr))%bool = false ->
  handle_frame dec_field cfg c st fr = (c3, s3, e) ->
  same_ctl st s3 /\
  if hdr_refused st fr then e = Some (EGoAway c_ProtocolError)
  else match e with
       | None => st_headersFinished s3 = flag_has (sf_flags fr) FL_EH /\ sc_discardID c3 = sc_discardID c
       | Some (EReset code) =>
         (code = c_ProtocolError \/ code = c_EnhanceYourCalm) /\
         ((st_headersFinished s3 = false /\ sc_discardID c3 = (if flag_has (sf_flags fr) FL_EH then 0 else st_id st)) \/
          (flag_has (sf_flags fr) FL_EH = true /\ st_headersFinished s3 = true /\ sc_discardID c3 = sc_discardID c))
       | Some e => hdr_err e
       end.
Proof.
  intros KK VS R3 HF. unfold handle_frame in HF. rewrite VS in HF.
  assert (HF' : (let '(c1, s1, e0) := handle_header_frame dec_field cfg c st fr in
                 match e0 with
                 | Some e1 => (c1, s1, Some e1)
                 | None =>
                   if flag_has (sf_flags fr) FL_EH then
                     let fin := match st_prev s1 with [] => true | _ => false end in
                     let s2 := set_headers_finished s1 fin in
                     if negb fin then (c1, s2, Some (EGoAway c_ProtocolError))
                     else match validate_request_pseudo_headers s2 with Some e1 => (c1, s2, Some e1) | None => (c1, s2, None) end
                   else (c1, s1, None)
                 end) = (c3, s3, e)).
  { destruct KK as [K|K]; rewrite K in HF; rewrite R3 in HF; exact HF. }
  clear HF.
  destruct (handle_header_frame dec_field cfg c st fr) as [[c1 s1] e0] eqn:HH.
  pose proof (handle_header_frame_spec hstate dec_field cfg c st fr c1 s1 e0 HH) as (DD & SC & Sp).
  unfold handle_header_frame in HH. unfold hdr_refused.
  destruct (st_headersFinished st && (negb (fkind_eqb (sf_kind fr) KHeaders) || negb (flag_has (sf_flags fr) FL_ES)))%bool eqn:C1.
  { inversion HH; subst c1 s1 e0. inversion HF'; subst. cbn [orb]. split; [apply same_ctl_refl | reflexivity]. }
  destruct (fkind_eqb (sf_kind fr) KHeaders && (sf_dep fr =? st_id st))%bool eqn:C2.
  { inversion HH; subst c1 s1 e0. inversion HF'; subst. cbn [orb]. split; [apply same_ctl_set_headers_finished | reflexivity]. }
  clear HH. cbn [orb].
  destruct e0 as [e0|].
  - inversion HF'; subst c3 s3 e. split; [exact SC|].
    destruct e0 as [code|code|]; [exact Sp | | exact I].
    destruct Sp as (F & Cd & Di). split; [exact Cd|]. left. split; [exact F | exact Di].
  - destruct Sp as (F & Di & Pv).
    destruct (flag_has (sf_flags fr) FL_EH) eqn:EH.
    + cbv zeta in HF'. rewrite (Pv eq_refl) in HF'. cbn [negb] in HF'.
      destruct (validate_request_pseudo_headers (set_headers_finished s1 true)) as [ev|] eqn:VR; inversion HF'; subst c3 s3 e.
      * split; [eapply same_ctl_trans; [exact SC | apply same_ctl_set_headers_finished]|].
        assert (ev = EReset c_ProtocolError) as ->.
        { revert VR. unfold validate_request_pseudo_headers.
          repeat match goal with
                 | |- context [if ?b then _ else _] => destruct b
                 | |- context [match ?l with [] => _ | _ :: _ => _ end] => destruct l
                 end; intro VR; inversion VR; reflexivity. }
        split; [left; reflexivity|]. right. split; [reflexivity|]. split; [reflexivity | exact Di].
      * split; [eapply same_ctl_trans; [exact SC | apply same_ctl_set_headers_finished]|]. split; [reflexivity | exact Di].
    + inversion HF'; subst c3 s3 e. split; [exact SC|]. split; [exact F | exact Di].
Qed.

(* what the table must allow for a header block frame that is decoded *)
Definition hdr_open_verdicts (s : RS.state) (fr : sframe) : Prop :=
  RS.may_process s (RS.Frame (abs_frame fr)) = true /\
  (forall code, code = c_ProtocolError \/ code = c_EnhanceYourCalm -> RS.allowed s (RS.Frame (abs_frame fr)) (RS.StreamErr code) = true) /\
  (forall code, code = c_ProtocolError \/ code = c_EnhanceYourCalm \/ code = c_CompressionError \/ code = c_InternalError ->
                RS.allowed s (RS.Frame (abs_frame fr)) (RS.ConnErr code) = true) /\
  RS.allowed s (RS.Frame (abs_frame fr)) RS.ConnClose = true.

Lemma hdr_open_of s fr l : RS.verdicts s (RS.Frame (abs_frame fr)) = RS.VProcess :: l ->
  (forall v, In v RS.policy -> In v l) -> (forall v, In v RS.block_errors -> In v l) -> hdr_open_verdicts s fr.
Proof.
  intros V P B.
  assert (AL : forall r, (exists v, In v (RS.VProcess :: l) /\ RS.admits v r = true) -> RS.allowed s (RS.Frame (abs_frame fr)) r = true).
  { intros r (v & Hin & Ha). apply allowed_table. rewrite V. apply existsb_exists. eauto. }
  split; [unfold RS.may_process; rewrite V; reflexivity|]. split; [|split].
  - intros code [-> | ->]; apply AL; [exists (RS.PE c_ProtocolError) | exists (RS.PE c_EnhanceYourCalm)]; (split; [right; apply P; cbn; tauto | reflexivity]).
  - intros code [-> | [-> | [-> | ->]]]; apply AL.
    + exists (RS.CE c_ProtocolError). split; [right; apply B; cbn; tauto | reflexivity].
    + exists (RS.CE c_EnhanceYourCalm). split; [right; apply B; cbn; tauto | reflexivity].
    + exists (RS.CE c_CompressionError). split; [right; apply B; cbn; tauto | reflexivity].
    + exists (RS.CE c_InternalError). split; [right; apply B; cbn; tauto | reflexivity].
  - apply AL. exists (RS.CE c_ProtocolError). split; [right; apply B; cbn; tauto | reflexivity].
Qed.

Lemma K_hdr_core c s ph fr ec' c2 st l' h' :
  kin c s ph fr ec' c2 st l' h' -> sf_kind fr = KHeaders \/ sf_kind fr = KCont ->
  verify_state st fr = None -> ((3 <=? sstate_rank (st_state st)) && negb (continuing_headers st fr))%bool = false ->
  RS.verdicts s (RS.Frame (abs_frame fr)) = RS.on_stream s (abs_frame fr) ->
  (hdr_refused st fr = true -> RS.allowed s (RS.Frame (abs_frame fr)) (RS.ConnErr c_ProtocolError) = true) ->
  (hdr_refused st fr = false -> hdr_open_verdicts s fr) ->
  (* the phase the frame leads to, if it is decoded *)
  (hdr_refused st fr = false ->
   RS.request_step (ph (sf_sid fr)) (abs_frame fr) =
   match hs_state (sf_kind fr) (flag_has (sf_flags fr) FL_ES) (st_state st), flag_has (sf_flags fr) FL_EH with
   | SOpen, false => RS.PHead false | SOpen, true => RS.PBody | SHalfClosed, false => RS.PHead true | SHalfClosed, true => RS.PDone
   | _, _ => RS.PBad end) ->
  feed c (IIn (RFrame fr)) = fst (tail (handle_frame dec_field cfg c2 st fr) fr (sc_closing c)) ->
  G c s ph (RFrame fr) (feed c (IIn (RFrame fr))).
Proof.
  intros KI KK VS R3 V Hrefd Hopen Hphase E. pose proof KI as [HS Hsl SQ Od HB KC CW SF].
  destruct (kin_wr _ _ _ _ _ _ _ _ _ KI) as [Sl2 Wl2].
  pose proof (ec'_hdr hstate c fr ec' SQ KK) as EC.
  destruct (handle_frame dec_field cfg c2 st fr) as [[c3 s3] e] eqn:HF.
  pose proof (handle_frame_eff hstate dec_field cfg c2 st fr c3 s3 e Sl2 Wl2 HF) as HE.
  destruct (hf_hdr c2 st fr c3 s3 e KK VS R3 HF) as (SC & Sp).
  assert (Id3 : st_id s3 = sf_sid fr) by (rewrite (proj1 SC); apply (F_id _ _ _ _ _ _ _ _ SF)).
  assert (DI2 : sc_discardID c2 = sc_discardID c) by (destruct KC as (_ & _ & _ & _ & _ & _ & _ & _ & _ & _ & K11 & _); exact K11).
  destruct (hdr_refused st fr) eqn:RF.
  - (* refused before decoding *)
    subst e. rewrite tail_goaway in E by discriminate. rewrite Id3 in E.
    apply (known_goaway c s ph fr ec' c2 l' h' c3 _ _ HS Hsl KC HE E). left. apply Hrefd. reflexivity.
  - destruct (Hopen eq_refl) as (Hmp & Hse & Hce & Hcc).
    destruct e as [[code|code|]|].
    + (* connection error *)
      assert (NE : code <> c_NoError) by (destruct Sp as [-> | [-> | [-> | ->]]]; discriminate).
      rewrite tail_goaway in E by exact NE. rewrite Id3 in E.
      apply (known_goaway c s ph fr ec' c2 l' h' c3 _ _ HS Hsl KC HE E). left. apply Hce. exact Sp.
    + (* stream error *)
      destruct Sp as (Cd & Sp).
      rewrite tail_reset, Id3 in E.
      apply (after_reset hstate dec_field enc_field enc_set_max cfg c s ph fr ec' c2 st l' h' c3 s3 code KI HE SC); try exact E.
      * destruct Sp as [[F _]|(_ & _ & D)]; [left; exact F | right; rewrite D; exact DI2].
      * intro Hne. destruct Sp as [[F _]|(EH & _ & _)]; [exact F|]. rewrite EC, EH in Hne. exfalso. apply Hne. reflexivity.
      * exact (Hse code Cd).
      * destruct KK; congruence.
    + (* the decoder panicked *)
      rewrite tail_panic in E. apply (known_panic c s ph fr ec' c2 l' h' c3 HS Hsl KC HE E). left. exact Hcc.
    + (* decoded *)
      destruct Sp as (Fin3 & Di3).
      rewrite tail_ok in E.
      apply (after_ok hstate dec_field enc_field enc_set_max cfg c s ph fr ec' c2 st l' h' c3 s3 KI HE); try exact E; try assumption.
      * rewrite Di3. exact DI2.
      * (* a stream that is being answered does not take header frames *)
        intro H. destruct (F_resp _ _ _ _ _ _ _ _ SF H) as [X Y]. exfalso.
        unfold verify_state in VS. rewrite X in VS. unfold continuing_headers in VS, R3. rewrite Y in VS, R3. rewrite X in R3.
        rewrite andb_false_r in VS, R3. cbn in R3. discriminate.
      * rewrite Fin3, EC. destruct (flag_has (sf_flags fr) FL_EH); [discriminate | reflexivity].
      * rewrite Fin3, EC. destruct (flag_has (sf_flags fr) FL_EH); [intro Hne; exfalso; apply Hne; reflexivity | reflexivity].
      * intros _. destruct SC as (_ & C2 & _). rewrite phase_of_handle, C2, Fin3. apply Hphase. reflexivity.
      * intro Y; destruct KK; congruence.
Qed.

Lemma K_hdr c s ph fr ec' c2 st l' h' :
  kin c s ph fr ec' c2 st l' h' -> sf_kind fr = KHeaders \/ sf_kind fr = KCont ->
  feed c (IIn (RFrame fr)) = fst (tail (handle_frame dec_field cfg c2 st fr) fr (sc_closing c)) ->
  G c s ph (RFrame fr) (feed c (IIn (RFrame fr))).
Proof.
  intros KI KK E. pose proof KI as [HS Hsl SQ Od HB KC CW SF].
  assert (Znn : sf_sid fr <> 0) by (intro Z; rewrite Z in Od; discriminate).
  pose proof (F_id _ _ _ _ _ _ _ _ SF) as Hid.
  destruct KK as [KH|KCn].
  - (* HEADERS *)
    assert (NC : sf_kind fr <> KCont) by congruence.
    destruct (kin_noblock _ _ _ _ _ _ _ _ _ KI NC) as (BN & E0 & _).
    assert (V : RS.verdicts s (RS.Frame (abs_frame fr)) = RS.on_stream s (abs_frame fr)) by (apply verdicts_stream; [exact BN | exact Znn | rewrite KH; exact I]).
    destruct (F_state _ _ _ _ _ _ _ _ SF) as [X|[X|X]].
    + (* a new stream *)
      destruct (F_h1 _ _ _ _ _ _ _ _ SF X) as (_ & _ & Hcl & _ & Fin & _ & _ & Hph & _).
      assert (Hidle : RS.st_of s (sf_sid fr) = RS.Idle) by (rewrite (F_x _ _ _ _ _ _ _ _ SF), X; reflexivity).
      pose proof (idle_headers_verdicts s fr BN Od KH Hidle) as IV. rewrite (S_ga _ _ _ _ HS), Hcl in IV.
      assert (RF : hdr_refused st fr = (sf_dep fr =? sf_sid fr)).
      { unfold hdr_refused. rewrite Fin, KH, Hid. reflexivity. }
      apply (K_hdr_core c s ph fr ec' c2 st l' h' KI (or_introl KH)); auto.
      * unfold verify_state. rewrite X, KH. reflexivity.
      * rewrite X. reflexivity.
      * rewrite RF. intro SD. apply allowed_table. rewrite IV, SD. reflexivity.
      * rewrite RF. intro SD. rewrite SD in IV. apply (hdr_open_of s fr (RS.policy ++ RS.block_errors) IV); intros v H; apply in_or_app; auto.
      * intros _. rewrite Hph. unfold RS.request_step, hs_state, abs_frame. cbn [RS.f_kind RS.f_es RS.f_eh]. rewrite X, KH. cbn.
        destruct (flag_has (sf_flags fr) FL_EH), (flag_has (sf_flags fr) FL_ES); reflexivity.
    + (* trailers *)
      assert (NI : st_state st <> SIdle) by congruence.
      pose proof (kin_fin _ _ _ _ _ _ _ _ _ KI NC NI) as Fin.
      destruct (F_h2 _ _ _ _ _ _ _ _ SF NI) as (_ & _ & Hph & _).
      assert (Xo : RS.st_of s (sf_sid fr) = RS.Open) by (rewrite (F_x _ _ _ _ _ _ _ _ SF), X; reflexivity).
      assert (OV : RS.on_stream s (abs_frame fr) =
                   (if negb (flag_has (sf_flags fr) FL_ES) || (sf_dep fr =? sf_sid fr) then [RS.SE c_ProtocolError] else RS.VProcess :: RS.block_errors) ++ RS.policy).
      { unfold RS.on_stream, RS.by_state. change (RS.f_sid (abs_frame fr)) with (sf_sid fr). rewrite Xo. unfold abs_frame. cbn [RS.f_kind RS.f_es RS.f_self].
        rewrite KH. reflexivity. }
      assert (RF : hdr_refused st fr = (negb (flag_has (sf_flags fr) FL_ES) || (sf_dep fr =? sf_sid fr))%bool).
      { unfold hdr_refused. rewrite Fin, KH, Hid. reflexivity. }
      apply (K_hdr_core c s ph fr ec' c2 st l' h' KI (or_introl KH)); auto.
      * unfold verify_state. rewrite X. reflexivity.
      * rewrite X. reflexivity.
      * rewrite RF. intro SD. apply allowed_table. rewrite V, OV, SD. reflexivity.
      * rewrite RF. intro SD. rewrite SD in OV. rewrite OV in V. apply (hdr_open_of s fr (RS.block_errors ++ RS.policy) V); intros v H; apply in_or_app; auto.
      * rewrite RF. intro SD. apply orb_false_iff in SD. destruct SD as [ES _]. apply negb_false_iff in ES.
        rewrite Hph. unfold phase_of, RS.request_step, hs_state, abs_frame. cbn [RS.f_kind RS.f_es RS.f_eh]. rewrite X, Fin, KH, ES. cbn.
        destruct (flag_has (sf_flags fr) FL_EH); reflexivity.
    + (* half-closed (remote): STREAM_CLOSED *)
      destruct (kin_wr _ _ _ _ _ _ _ _ _ KI) as [Sl2 Wl2].
      assert (HF : handle_frame dec_field cfg c2 st fr = (c2, st, Some (EGoAway c_StreamClosedError))).
      { unfold handle_frame, verify_state, continuing_headers. rewrite X, KH. reflexivity. }
      rewrite HF, tail_goaway in E by discriminate. rewrite Hid in E.
      apply (known_goaway c s ph fr ec' c2 l' h' c2 _ _ HS Hsl KC (hf_eff_refl hstate c2) E).
      left. apply allowed_table. rewrite V. unfold RS.on_stream, RS.by_state. change (RS.f_sid (abs_frame fr)) with (sf_sid fr).
      rewrite (F_x _ _ _ _ _ _ _ _ SF), X. unfold abs_frame. cbn [RS.f_kind abs_st]. rewrite KH. reflexivity.
  - (* CONTINUATION *)
    destruct SQ as [(_ & K & _)|(E0 & _ & Sd & _)]; [congruence|].
    assert (BS : RS.block s = Some (sf_sid fr)).
    { rewrite (S_blk _ _ _ _ HS : RS.block s = _). replace (sc_expectCont c =? 0) with false by (symmetry; apply N.eqb_neq; exact E0). congruence. }
    assert (V : RS.verdicts s (RS.Frame (abs_frame fr)) = RS.on_stream s (abs_frame fr)) by (apply verdicts_cont; assumption).
    assert (NI : st_state st <> SIdle).
    { intro X. destruct (F_h1 _ _ _ _ _ _ _ _ SF X) as (_ & _ & _ & KHx & _). congruence. }
    destruct (F_h2 _ _ _ _ _ _ _ _ SF NI) as (_ & _ & Hph & _ & Fe). pose proof (Fe (eq_sym Sd)) as Fin.
    assert (RF : hdr_refused st fr = false) by (unfold hdr_refused; rewrite Fin, KCn; reflexivity).
    assert (XS : (st_state st = SOpen /\ RS.st_of s (sf_sid fr) = RS.Open) \/ (st_state st = SHalfClosed /\ RS.st_of s (sf_sid fr) = RS.HalfClosedRemote)).
    { destruct (F_state _ _ _ _ _ _ _ _ SF) as [X|[X|X]]; [congruence | left | right]; (split; [exact X|]); rewrite (F_x _ _ _ _ _ _ _ _ SF), X; reflexivity. }
    assert (OV : RS.on_stream s (abs_frame fr) = (RS.VProcess :: RS.block_errors) ++ RS.policy).
    { unfold RS.on_stream, RS.by_state. change (RS.f_sid (abs_frame fr)) with (sf_sid fr).
      destruct XS as [[_ X]|[_ X]]; rewrite X; unfold abs_frame; cbn [RS.f_kind]; rewrite KCn; reflexivity. }
    apply (K_hdr_core c s ph fr ec' c2 st l' h' KI (or_intror KCn)); auto.
    + unfold verify_state, continuing_headers. rewrite KCn, Fin. destruct XS as [[X _]|[X _]]; rewrite X; reflexivity.
    + unfold continuing_headers. rewrite KCn, Fin. destruct XS as [[X _]|[X _]]; rewrite X; reflexivity.
    + rewrite RF. discriminate.
    + intros _. rewrite OV in V. apply (hdr_open_of s fr (RS.block_errors ++ RS.policy) V); intros v H; apply in_or_app; auto.
    + intros _. rewrite Hph. unfold phase_of, RS.request_step, hs_state, abs_frame. cbn [RS.f_kind RS.f_es RS.f_eh]. rewrite Fin, KCn. cbn.
      destruct XS as [[X _]|[X _]]; rewrite X; cbn; destruct (flag_has (sf_flags fr) FL_EH); reflexivity.
Qed.

Lemma K_any c s ph fr ec' c2 st l' h' :
  kin c s ph fr ec' c2 st l' h' -> match sf_kind fr with KPing | KPush => False | _ => True end ->
  feed c (IIn (RFrame fr)) = fst (tail (handle_frame dec_field cfg c2 st fr) fr (sc_closing c)) ->
  G c s ph (RFrame fr) (feed c (IIn (RFrame fr))).
Proof.
  intros KI Kok E. destruct (sf_kind fr) eqn:KK; try contradiction.
  - apply (K_data c s ph fr ec' c2 st l' h' KI KK E).
  - apply (K_hdr c s ph fr ec' c2 st l' h' KI (or_introl KK) E).
  - apply (K_prio c s ph fr ec' c2 st l' h' KI KK E).
  - apply (K_rst c s ph fr ec' c2 st l' h' KI KK E).
  - apply (K_other c s ph fr ec' c2 st l' h' KI (or_introl KK) E).
  - apply (K_other c s ph fr ec' c2 st l' h' KI (or_intror KK) E).
  - apply (K_winupd c s ph fr ec' c2 st l' h' KI KK E).
  - apply (K_hdr c s ph fr ec' c2 st l' h' KI (or_intror KK) E).
Qed.

(* a stream made for a frame that cannot open one: PROTOCOL_ERROR *)
Lemma K_created_other c s ph fr ec' c2 st :
  Sim c s ph -> sc_sl_done c = false -> seq_ok c fr ec' -> N.odd (sf_sid fr) = true -> tbl c (sf_sid fr) = None ->
  sf_kind fr <> KHeaders -> match sf_kind fr with KPing | KPush => False | _ => True end ->
  (fkind_eqb (sf_kind fr) KCont && negb (sc_discardID c =? 0) && (sf_sid fr =? sc_discardID c) = false)%bool ->
  created hstate (upd_expectCont c ec') fr c2 st ->
  feed c (IIn (RFrame fr)) = fst (sl_known hstate dec_field cfg c2 st fr (sc_closing c)) ->
  G c s ph (RFrame fr) (feed c (IIn (RFrame fr))).
Proof.
  intros HS Hsl SQ Od Tn NH Kok ND (Hst & Rn & Ll & Hc) E.
  pose proof (S_aux _ _ _ _ HS) as [AT AH].
  assert (Znn : sf_sid fr <> 0) by (intro Z; rewrite Z in Od; discriminate).
  assert (C2 : c2 = upd_strms (upd_expectCont c ec') (sc_strms c ++ [st])).
  { revert Hc Kok NH. destruct (sf_kind fr); intros; try contradiction; try congruence; exact Hc. }
  assert (KC : kctx c ec' (sc_lastID c) (sc_highestID c) c2) by (rewrite C2; repeat split).
  assert (Sst : st_state st = SIdle /\ st_id st = sf_sid fr) by (rewrite Hst; split; reflexivity).
  destruct Sst as [X Hid].
  assert (HF : handle_frame dec_field cfg c2 st fr = (c2, st, Some (EGoAway c_ProtocolError))).
  { unfold handle_frame, verify_state. rewrite X. revert Hc Kok NH. destruct (sf_kind fr); intros; try contradiction; try congruence; reflexivity. }
  rewrite sl_known_tail in E by (intro K; congruence).
  rewrite HF, tail_goaway in E by discriminate. rewrite Hid in E.
  apply (known_goaway c s ph fr ec' c2 _ _ c2 _ _ HS Hsl KC (hf_eff_refl hstate c2) E).
  (* the specification: idle, or closed long ago *)
  destruct (unknown_state hstate dec_field enc_set_max c s ph _ HS Od Tn) as [Hle Hgt].
  change (ring_find (upd_expectCont c ec') (sf_sid fr)) with (ring_find c (sf_sid fr)) in Rn.
  assert (St : RS.st_of s (sf_sid fr) = RS.Idle \/ RS.st_of s (sf_sid fr) = RS.Closed RS.Implicit).
  { pose proof (S_str _ _ _ _ HS _ Od) as R. rewrite (view_none hstate c _ Tn), Rn in R.
    destruct (sf_sid fr <=? sc_highestID c); cbn [rel] in R; auto. }
  destruct SQ as [(E0 & K & _)|(E0 & K & Sd & _)].
  - assert (BN : RS.block s = None) by (rewrite (S_blk _ _ _ _ HS : RS.block s = _), E0; reflexivity).
    left. apply allowed_table.
    revert Hc Kok NH K. destruct (sf_kind fr) eqn:KK; intros; try contradiction; try congruence;
      try (rewrite verdicts_stream_bad; [reflexivity | exact BN | exact Znn | rewrite KK; exact I]);
      (rewrite verdicts_stream; [|exact BN | exact Znn | rewrite KK; exact I];
       unfold RS.on_stream, RS.by_state, abs_frame; cbn [RS.f_kind RS.f_sid]; destruct St as [-> | ->]; rewrite KK; reflexivity).
  - (* CONTINUATION: the HEADERS of this block was a connection error *)
    left. apply allowed_dead; [|reflexivity].
    destruct (S_cont _ _ _ _ HS E0) as [Y|Y]; [rewrite <- Sd; exact Tn | | exact Y].
    exfalso. rewrite K in ND. cbn [fkind_eqb andb] in ND. rewrite Y, <- Sd in ND.
    replace (sf_sid fr =? 0) with false in ND by (symmetry; apply N.eqb_neq; exact Znn). rewrite N.eqb_refl in ND. discriminate.
Qed.

End Frame.
