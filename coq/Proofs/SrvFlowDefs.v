(* Proofs/SrvFlowDefs.v - how a run of the server model is read as a history of the ghost ledgers of
   Spec/FlowLedger.v (properties C06 and C14). Definitions and their list algebra only. *)
From H2V Require Import Base.Bytes Base.MachineInt Base.Result Gen.GenConsts Impl.ServerConn Proofs.SrvBase
  Spec.FlowLedger Proofs.SrvFlowLedger.
From Coq Require Import ZArith Lia ZifyN ZifyNat ZifyBool List.
Import ListNotations.
Local Open Scope N_scope.
Set Default Proof Using "Type".

(* lia, without letting it capture the HPACK coder (section variables whose types mention N or bool) *)
Ltac flia :=
  repeat match goal with
         | H : ?h -> N -> bytes -> dec_res ?h |- _ => clear H
         | H : ?h -> bytes -> bytes -> bool -> bytes * ?h |- _ => clear H
         | H : ?h -> N -> ?h |- _ => clear H
         end; lia.

(* an output queued after the stream loop ended (OLate) is counted like any other: the strongest reading *)
Fixpoint strip (o : outev) : outev := match o with OLate o' => strip o' | _ => o end.

Definition ldata_of (o : outev) : list levent :=
  match strip o with OData sid _ pl => [LData sid (Z.of_N (len pl))] | _ => [] end.
Definition ldatas (l : list outev) : list levent := flat_map ldata_of l.

Definition rcredit_of (o : outev) : list revent :=
  match strip o with OWinUpd sid inc => [RCredit sid inc] | _ => [] end.
Definition rcredits (l : list outev) : list revent := flat_map rcredit_of l.

Lemma ldatas_app a b : ldatas (a ++ b) = ldatas a ++ ldatas b.
Proof. apply flat_map_app. Qed.
Lemma rcredits_app a b : rcredits (a ++ b) = rcredits a ++ rcredits b.
Proof. apply flat_map_app. Qed.
Lemma ldatas_cons o l : ldatas (o :: l) = ldata_of o ++ ldatas l.
Proof. reflexivity. Qed.
Lemma rcredits_cons o l : rcredits (o :: l) = rcredit_of o ++ rcredits l.
Proof. reflexivity. Qed.

Lemma ldatas_is_ldata l : Forall is_ldata (ldatas l).
Proof.
  induction l as [|o l IH]; [constructor|]. rewrite ldatas_cons. apply Forall_app. split; [|assumption].
  unfold ldata_of. destruct (strip o); constructor; [exact I | constructor].
Qed.

(* the grants a frame carries, as the stream loop applies them (sl_frame) *)
Definition lgrants_of (fr : sframe) : list levent :=
  if sf_sid fr =? 0 then
    match sf_kind fr with
    | KSettings => if sf_set_haswin fr then [LInit (signed 32 (sf_set_win fr))] else []
    | KWinUpd => [LGrant 0 (Z.of_N (sf_inc fr))]
    | _ => []
    end
  else
    match sf_kind fr with
    | KHeaders => [LOpen (sf_sid fr)]
    | KWinUpd => [LGrant (sf_sid fr) (Z.of_N (sf_inc fr))]
    | _ => []
    end.

(* the flow-controlled length of a DATA frame the peer sent (payload + padding) *)
Definition rdata_of (fr : sframe) : list revent :=
  match sf_kind fr with KData => [RData (sf_sid fr) (Z.of_N (sf_len fr))] | _ => [] end.

Section Defs.
Variable hstate : Type.
Variable dec_field : hstate -> N -> bytes -> dec_res hstate.
Variable enc_field : hstate -> bytes -> bytes -> bool -> bytes * hstate.
Variable enc_set_max : hstate -> N -> hstate.
Variable cfg : config.
Variable h0 : hstate.

Notation step := (step dec_field enc_field enc_set_max cfg).
Notation run := (run dec_field enc_field enc_set_max cfg h0).
Notation run_from := (run_from dec_field enc_field enc_set_max cfg).
Notation sconn := (sconn hstate).

(* what a step added to the trace, oldest first *)
Definition new_out (c c' : sconn) : list outev :=
  rev (firstn (length (sc_out c') - length (sc_out c)) (sc_out c')).

Lemma new_out_ext (c c' : sconn) new : sc_out c' = new ++ sc_out c -> new_out c c' = rev new.
Proof.
  intro H. unfold new_out. rewrite H, app_length.
  replace (length new + length (sc_out c) - length (sc_out c))%nat with (length new + 0)%nat by flia.
  rewrite firstn_app_2. cbn [firstn]. rewrite app_nil_r. reflexivity.
Qed.

Lemma new_out_same (c c' : sconn) : sc_out c' = sc_out c -> new_out c c' = [].
Proof. intro H. apply (new_out_ext c c' []). assumption. Qed.

(* the frame the stream loop takes off sc.reader in this step / the frame the read loop gets *)
Definition sl_takes (c : sconn) (e : event) : option sframe :=
  match e with
  | EvSL => if sc_sl_done c then None else hd_error (sc_readerQ c)
  | _ => None
  end.
Definition rl_takes (c : sconn) (e : event) : option sframe :=
  match e with
  | EvRL (RFrame fr) => if sc_rl_done c then None else Some fr
  | _ => None
  end.

(* C06, the sender's history: grants take effect when the stream loop handles the frame that carries them
   (that is when the server starts to use them), DATA when it is queued for the peer *)
Definition tl_step (c : sconn) (e : event) : list levent :=
  match sl_takes c e with Some fr => lgrants_of fr | None => [] end ++ ldatas (new_out c (step c e)).

Fixpoint timeline_from (c : sconn) (evs : list event) : list levent :=
  match evs with
  | [] => []
  | e :: t => tl_step c e ++ timeline_from (step c e) t
  end.
Definition timeline (evs : list event) : list levent := timeline_from (init_conn cfg h0) evs.

Lemma timeline_from_app c a b : timeline_from c (a ++ b) = timeline_from c a ++ timeline_from (run_from c a) b.
Proof.
  revert c. induction a as [|e a IH]; intro c; [reflexivity|].
  cbn [app timeline_from]. rewrite IH, <- app_assoc. reflexivity.
Qed.

(* the same history with grants taking effect when the READ loop gets the frame, i.e. in the order the peer
   sent them relative to the server's output: what the peer itself can observe *)
Definition lgrants_rl (fr : sframe) : list levent :=
  if (sf_sid fr =? 0) && fkind_eqb (sf_kind fr) KSettings && flag_has (sf_flags fr) FL_ES then []   (* a SETTINGS ACK *)
  else lgrants_of fr.
Definition tl_step_rl (c : sconn) (e : event) : list levent :=
  match rl_takes c e with Some fr => lgrants_rl fr | None => [] end ++ ldatas (new_out c (step c e)).
Fixpoint timeline_rl_from (c : sconn) (evs : list event) : list levent :=
  match evs with
  | [] => []
  | e :: t => tl_step_rl c e ++ timeline_rl_from (step c e) t
  end.
Definition timeline_rl (evs : list event) : list levent := timeline_rl_from (init_conn cfg h0) evs.

(* C14, the peer's history of its own send windows: DATA counts when the read loop gets it,
   credit when the WINDOW_UPDATE is queued *)
Definition rtl_step (c : sconn) (e : event) : list revent :=
  match rl_takes c e with Some fr => rdata_of fr | None => [] end ++ rcredits (new_out c (step c e)).
Fixpoint rtimeline_from (c : sconn) (evs : list event) : list revent :=
  match evs with
  | [] => []
  | e :: t => rtl_step c e ++ rtimeline_from (step c e) t
  end.
Definition rtimeline (evs : list event) : list revent := rtimeline_from (init_conn cfg h0) evs.

Lemma rtimeline_from_app c a b : rtimeline_from c (a ++ b) = rtimeline_from c a ++ rtimeline_from (run_from c a) b.
Proof.
  revert c. induction a as [|e a IH]; intro c; [reflexivity|].
  cbn [app rtimeline_from]. rewrite IH, <- app_assoc. reflexivity.
Qed.

End Defs.
