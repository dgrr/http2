(* Proofs/SrvReqTraceB.v - C01, the trace-level statement for one request, part 2: a clean lock-step run of the
   header block of a request never carries more than the header-list limit over a frame boundary (the model answers
   that with GOAWAY, which a clean step does not emit). (That a state reached by a clean run and ready in the sense of
   the statement of Props/C01.v is `ready` in the sense of Proofs/SrvMsgStream.v is ready_of_clean, Proofs/SrvReqTrace.v.) *)
From H2V Require Import Base.Bytes Base.MachineInt Base.Result Gen.GenConsts Impl.ServerConn Spec.Http2Messages
  Proofs.SrvBase Proofs.SrvMsgDefs Proofs.SrvMsgPure Proofs.SrvMsgLoop Proofs.SrvMsgStream Proofs.SrvMsgPhase
  Proofs.SrvMsgReq Proofs.SrvMsgC20 Proofs.SrvInvSlots Proofs.SrvIsoRef Proofs.SrvIsoMoves Proofs.SrvIsoSteps Proofs.SrvIsoHdr
  Proofs.SrvIsoHdrStep Proofs.SrvIsoRun Proofs.SrvIsoTwoRunOdd.
From Coq Require Import ZArith Lia ZifyN ZifyNat ZifyBool List.
Import ListNotations.
Local Open Scope N_scope.

Section B.
Variable hstate : Type.
Variable dec_field : hstate -> N -> bytes -> dec_res hstate.
Variable enc_field : hstate -> bytes -> bytes -> bool -> bytes * hstate.
Variable enc_set_max : hstate -> N -> hstate.
Variable cfg : config.
Variable h0 : hstate.
Notation sconn := (sconn hstate).
Notation step := (step dec_field enc_field enc_set_max cfg).
Notation run := (run dec_field enc_field enc_set_max cfg h0).
Notation run_from := (run_from dec_field enc_field enc_set_max cfg).
Notation clean := (clean dec_field enc_field enc_set_max cfg h0).
Notation feed := (feed dec_field enc_field enc_set_max cfg).
Notation feeds := (feeds dec_field enc_field enc_set_max cfg).
Implicit Types c : sconn.

(* a clean step on a header-block fragment does not end the stream loop *)
Lemma clean_hdr_step_alive evs fr q :
  clean (evs ++ [EvSL]) -> sc_sl_done (run evs) = false -> sc_readerQ (run evs) = fr :: q -> is_hdr_frame fr = true ->
  sc_closing (run evs) = false -> sc_sl_done (run (evs ++ [EvSL])) = false.
Proof.
  intros CL Hd RQ IHF NC. apply clean_snoc in CL. destruct CL as [CL CS].
  assert (HT : hdr_taken (run evs) EvSL = [fr]).
  { unfold hdr_taken, sl_takes. rewrite Hd, RQ. cbn [hd_error]. rewrite IHF. reflexivity. }
  destruct (CS fr HT) as [W GC].
  destruct (hdr_step_reference _ dec_field enc_field enc_set_max cfg h0 evs fr q CL Hd RQ IHF W GC)
    as (n & carry & _ & (fs & n' & carry' & _ & EF & _)).
  rewrite run_snoc. destruct EF as (_ & _ & D). unfold done_eff in D. sc_cbn_in D.
  destruct D as [D|[_ [D|D]]]; [congruence | congruence | specialize (D W); lia].
Qed.

(* the read loop forwards a frame of the block *)
Lemma rl_blk c sid (iscont es eh : bool) frag :
  oddN sid -> sc_rl_done c = false -> sc_sl_done c = false -> sc_readerQ c = [] ->
  sc_expectCont c = (if iscont then sid else 0) ->
  step c (EvRL (RFrame (blk_frame iscont sid es eh frag))) =
  upd_readerQ (upd_expectCont c (if eh then 0 else sid)) [blk_frame iscont sid es eh frag].
Proof.
  intros O Rl Sl Q E. assert (NZ : sid <> 0) by (intro; subst; discriminate).
  rewrite step_EvRL, Rl.
  unfold rl_step, blk_frame. rewrite E.
  destruct iscont; cbn [sf_kind sf_sid sf_flags cont_frame headers_frame fkind_eqb negb andb orb].
  - replace (sid =? 0) with false by lia. rewrite N.eqb_refl, fl_has_eh. cbn [negb orb].
    unfold check_frame_with_stream. cbn [sf_sid sf_kind cont_frame headers_frame data_frame]. rewrite O. cbn [N.eqb Pos.eqb].
    unfold forward. destruct eh; sc_cbn; rewrite Sl, Q.
    + reflexivity.
    + replace (upd_expectCont c sid) with c; [reflexivity | rewrite <- E; symmetry; apply upd_expectCont_same].
  - cbn [N.eqb negb]. rewrite fl_has_eh. replace (sid =? 0) with false by lia. cbn [negb].
    unfold check_frame_with_stream. cbn [sf_sid sf_kind cont_frame headers_frame data_frame]. rewrite O. cbn [N.eqb Pos.eqb].
    unfold forward. destruct eh; cbn [negb]; sc_cbn; rewrite Sl, Q.
    + replace (upd_expectCont c 0) with c; [reflexivity | rewrite <- E; symmetry; apply upd_expectCont_same].
    + reflexivity.
Qed.

Lemma is_hdr_blk_frame iscont sid es eh frag : sid <> 0 -> is_hdr_frame (blk_frame iscont sid es eh frag) = true.
Proof.
  intro NZ. unfold is_hdr_frame, blk_frame. destruct iscont; cbn [sf_sid sf_kind cont_frame headers_frame];
    replace (sid =? 0) with false by lia; reflexivity.
Qed.

(* one frame of the block, fed in lock-step at the end of a clean run, from a state where both loops run *)
Lemma blk_feed_alive evsP sid (iscont es eh : bool) frag :
  oddN sid ->
  sc_rl_done (run evsP) = false -> sc_sl_done (run evsP) = false -> sc_readerQ (run evsP) = [] ->
  sc_expectCont (run evsP) = (if iscont then sid else 0) -> sc_closing (run evsP) = false ->
  clean (evsP ++ [EvRL (RFrame (blk_frame iscont sid es eh frag)); EvSL]) ->
  run (evsP ++ [EvRL (RFrame (blk_frame iscont sid es eh frag)); EvSL]) = feed (run evsP) (blk_frame iscont sid es eh frag) /\
  sc_sl_done (feed (run evsP) (blk_frame iscont sid es eh frag)) = false.
Proof.
  intros O Rl Sl Q E NC CL. assert (NZ : sid <> 0) by (intro; subst; discriminate).
  set (fr := blk_frame iscont sid es eh frag) in *.
  assert (ER : run (evsP ++ [EvRL (RFrame fr); EvSL]) = feed (run evsP) fr).
  { rewrite run_app. reflexivity. }
  split; [exact ER|]. rewrite <- ER.
  replace (evsP ++ [EvRL (RFrame fr); EvSL]) with ((evsP ++ [EvRL (RFrame fr)]) ++ [EvSL]) in * by (rewrite <- app_assoc; reflexivity).
  assert (X : run (evsP ++ [EvRL (RFrame fr)]) = upd_readerQ (upd_expectCont (run evsP) (if eh then 0 else sid)) [fr]).
  { rewrite run_snoc. apply rl_blk; assumption. }
  apply (clean_hdr_step_alive _ fr []); [exact CL | | | apply is_hdr_blk_frame; exact NZ |]; rewrite X; sc_cbn; assumption || reflexivity.
Qed.

(* the carried-over bytes stay within the limit *)
Variable c0 : sconn.
Variable sid : N.
Hypothesis R0 : ready cfg c0 sid.
Notation holds := (holds cfg c0 sid).

Lemma odd0 : oddN sid.
Proof. apply (rd_odd _ _ _ _ (proj1 R0)). Qed.

Lemma lockstep_cons fr frs : lockstep (fr :: frs) = [EvRL (RFrame fr); EvSL] ++ lockstep frs.
Proof. reflexivity. Qed.

Lemma cont_carries d n prev frags fs d' carries :
  block_dec dec_field d n prev frags fs d' carries ->
  forall evsP state st size rq recv stF,
    holds (run evsP) sid (PhBlock state st size n prev rq recv d) ->
    clean (evsP ++ lockstep (cont_frames sid frags)) ->
    list_over cfg (size + fsize fs) = false -> vrun cfg st fs = inr stF ->
    carries_over cfg carries = false.
Proof.
  induction 1 as [d n prev frag fs d' n' Hf | d n prev frag frags fs1 d1 n1 carry fs2 d' carries NE Hf B IH];
    intros evsP state st size rq recv stF H CL LO VR; [reflexivity|].
  cbn [cont_frames] in CL. replace (is_nil frags) with false in CL by (destruct frags; [congruence | reflexivity]).
  rewrite lockstep_cons, app_assoc in CL.
  pose proof (step_cont _ dec_field enc_field enc_set_max cfg c0 sid R0 (run evsP) state st size n prev rq recv d false frag
                        fs1 d1 n1 carry H Hf) as S.
  unfold blk_result in S. cbv zeta in S.
  rewrite fsize_app in LO. pose proof (fsize_nonneg fs2) as P2.
  rewrite (list_over_mono cfg (size + fsize fs1) (size + (fsize fs1 + fsize fs2)) ltac:(lia) LO) in S.
  rewrite vrun_app in VR. destruct (vrun cfg st fs1) as [code|st1]; [discriminate|].
  (* the step is clean: the stream loop is still running *)
  pose proof H as (AL & _ & _). destruct AL as [[Hb _ _ _ _ _ _] _]. destruct Hb as [Bc Bsl Brl Bwl Bq Bec _ _ _ _ _ _ _ _ _].
  pose proof (proj1 (clean_from_app _ _ _ _ _ _ _ _) CL) as [CL1 _].
  destruct (blk_feed_alive evsP sid true false false frag odd0 Brl Bsl Bq Bec Bc CL1) as [ER AL2].
  change (blk_frame true sid false false frag) with (cont_frame sid false frag) in *.
  cbn [carries_over existsb]. fold (carries_over cfg carries).
  destruct (carry_over cfg carry) eqn:CO.
  - exfalso. cbn [SrvMsgPhase.holds] in S. destruct S as [S _]. congruence.
  - cbn [orb]. rewrite <- ER in S.
    apply (IH _ state st1 (size + fsize fs1)%Z (req_fold rq fs1) recv stF S CL); [|exact VR].
    rewrite <- Z.add_assoc. exact LO.
Qed.

Lemma block_carries evs0 es hfrags fs d' carries stF :
  c0 = run evs0 ->
  block_dec dec_field (sc_dec c0) 0 [] hfrags fs d' carries ->
  clean (evs0 ++ lockstep (block_frames sid es hfrags)) ->
  list_over cfg (fsize fs) = false -> vrun cfg v0 fs = inr stF ->
  carries_over cfg carries = false.
Proof.
  intros E0 B CL LO VR.
  inversion B as [d_ n_ prev_ frag fs_ d'_ n' Hf | d_ n_ prev_ frag frags' fs1 d1 n1 carry fs2 d'_ carries' NE Hf B']; subst d_ n_ prev_;
    [reflexivity|]. subst hfrags fs carries d'_.
  cbn [block_frames] in CL. replace (is_nil frags') with false in CL by (destruct frags'; [congruence | reflexivity]).
  rewrite lockstep_cons, app_assoc in CL.
  pose proof (step_first _ dec_field enc_field enc_set_max cfg c0 sid R0 es false frag fs1 d1 n1 carry Hf) as S.
  unfold blk_result in S. cbv zeta in S. rewrite Z.add_0_l in S.
  rewrite fsize_app in LO. pose proof (fsize_nonneg fs2) as P2.
  rewrite (list_over_mono cfg (fsize fs1) (fsize fs1 + fsize fs2) ltac:(lia) LO) in S.
  rewrite vrun_app in VR. destruct (vrun cfg v0 fs1) as [code|st1]; [discriminate|].
  pose proof R0 as (Rs & Rl & Q & E). destruct Rs as [_ _ _ _ _ _ _ _ _ Hclosing Hsl _].
  pose proof (proj1 (clean_from_app _ _ _ _ _ _ _ _) CL) as [CL1 _].
  rewrite E0 in Rl, Q, E, Hclosing, Hsl.
  destruct (blk_feed_alive evs0 sid false es false frag odd0 Rl Hsl Q E Hclosing CL1) as [ER AL2].
  change (blk_frame false sid es false frag) with (headers_frame sid es false frag) in *.
  cbn [carries_over existsb]. fold (carries_over cfg carries').
  rewrite <- E0 in ER, AL2.
  destruct (carry_over cfg carry) eqn:CO.
  - exfalso. cbn [SrvMsgPhase.holds] in S. destruct S as [S _]. congruence.
  - cbn [orb]. rewrite <- ER in S.
    apply (cont_carries _ _ _ _ _ _ _ B' _ _ st1 (fsize fs1) (req_fold empty_req fs1) 0%Z stF S CL); [exact LO | exact VR].
Qed.

End B.
