(* Proofs/SrvMsgReq.v - C20: a whole request through the read loop and the stream loop, in lockstep. *)
From H2V Require Import Base.Bytes Base.MachineInt Base.Result Gen.GenConsts Impl.ServerConn Spec.Http2Messages
     Proofs.SrvBase Proofs.SrvMsgDefs Proofs.SrvMsgPure Proofs.SrvMsgLoop Proofs.SrvMsgStream Proofs.SrvMsgPhase Proofs.SrvMsgAck.
From Coq Require Import ZArith Lia ZifyN ZifyNat ZifyBool.
Local Open Scope N_scope.

Section Feed.
Variable hstate : Type.
Variable dec_field : hstate -> N -> bytes -> dec_res hstate.
Variable enc_field : hstate -> bytes -> bytes -> bool -> bytes * hstate.
Variable enc_set_max : hstate -> N -> hstate.
Variable cfg : config.
Notation sconn := (sconn hstate).
Notation step := (step dec_field enc_field enc_set_max cfg).
Notation sl_frame := (sl_frame dec_field enc_set_max cfg).
Notation run_from := (run_from dec_field enc_field enc_set_max cfg).
Implicit Types c : sconn.

(* the peer sends a frame: the read loop takes it, then the stream loop *)
Definition feed c (fr : sframe) : sconn := step (step c (EvRL (RFrame fr))) EvSL.
Definition feeds c (frs : list sframe) : sconn := fold_left feed frs c.

Lemma run_from_lockstep frs : forall c, run_from c (lockstep frs) = feeds c frs.
Proof.
  induction frs as [|f t IH]; intro c; [reflexivity|].
  unfold lockstep. cbn [flat_map app]. rewrite !run_from_cons. apply IH.
Qed.

Lemma feeds_app c a b : feeds c (a ++ b) = feeds (feeds c a) b.
Proof. apply fold_left_app. Qed.
Lemma feeds_cons c f t : feeds c (f :: t) = feeds (feed c f) t.
Proof. reflexivity. Qed.

Lemma upd_expectCont_same c : upd_expectCont c (sc_expectCont c) = c.
Proof. destruct c; reflexivity. Qed.
Lemma upd_readerQ_same c : upd_readerQ c (sc_readerQ c) = c.
Proof. destruct c; reflexivity. Qed.

(* the read loop lets the frames of a request through *)
Lemma feed_blk c sid (iscont es eh : bool) frag :
  N.land sid 1 = 1 -> sc_rl_done c = false -> sc_sl_done c = false -> sc_readerQ c = [] ->
  sc_expectCont c = (if iscont then sid else 0) ->
  feed c (blk_frame iscont sid es eh frag) =
  fst (sl_frame (upd_expectCont c (if eh then 0 else sid)) (blk_frame iscont sid es eh frag)).
Proof.
  intros O Rl Sl Q E. assert (NZ : sid <> 0) by (intro; subst; discriminate).
  unfold feed. rewrite step_EvRL, Rl.
  assert (X : rl_step cfg c (RFrame (blk_frame iscont sid es eh frag)) =
              upd_readerQ (upd_expectCont c (if eh then 0 else sid)) [blk_frame iscont sid es eh frag]).
  { unfold rl_step, blk_frame. rewrite E.
    destruct iscont; cbn [sf_kind sf_sid sf_flags cont_frame headers_frame fkind_eqb negb andb orb].
    - replace (sid =? 0) with false by lia. rewrite N.eqb_refl, fl_has_eh. cbn [negb orb].
      unfold check_frame_with_stream. cbn [sf_sid sf_kind cont_frame headers_frame data_frame]. rewrite O. cbn [N.eqb Pos.eqb].
      unfold forward. destruct eh; sc_cbn; rewrite Sl, Q.
      + reflexivity.
      + replace (upd_expectCont c sid) with c; [reflexivity | rewrite <- E; symmetry; apply upd_expectCont_same].
    - cbn [N.eqb negb]. rewrite fl_has_eh. replace (sid =? 0) with false by lia. cbn [negb].
      unfold check_frame_with_stream. cbn [sf_sid sf_kind cont_frame headers_frame data_frame]. rewrite O. cbn [N.eqb Pos.eqb].
      unfold forward. destruct eh; cbn [negb]; sc_cbn; rewrite Sl, Q.
      + replace (upd_expectCont c 0) with c; [reflexivity | rewrite <- E; symmetry; apply upd_expectCont_same].
      + reflexivity. }
  rewrite X, step_EvSL. sc_cbn. rewrite Sl. f_equal. f_equal.
  rewrite <- Q. destruct c; reflexivity.
Qed.

Lemma feed_data c sid es dt :
  N.land sid 1 = 1 -> sc_rl_done c = false -> sc_sl_done c = false -> sc_readerQ c = [] -> sc_expectCont c = 0 ->
  feed c (data_frame sid es dt) = fst (sl_frame c (data_frame sid es dt)).
Proof.
  intros O Rl Sl Q E. assert (NZ : sid <> 0) by (intro; subst; discriminate).
  unfold feed. rewrite step_EvRL, Rl.
  assert (X : rl_step cfg c (RFrame (data_frame sid es dt)) = upd_readerQ c [data_frame sid es dt]).
  { unfold rl_step. rewrite E. cbn [sf_kind sf_sid sf_flags data_frame fkind_eqb negb andb orb N.eqb].
    replace (sid =? 0) with false by lia. cbn [negb].
    unfold check_frame_with_stream. cbn [sf_sid sf_kind cont_frame headers_frame data_frame]. rewrite O. cbn [N.eqb Pos.eqb].
    unfold forward. rewrite Sl, Q. reflexivity. }
  rewrite X, step_EvSL. sc_cbn. rewrite Sl. f_equal. f_equal. rewrite <- Q. destruct c; reflexivity.
Qed.

(* once the stream loop has ended no handler starts *)
Definition nd (o : outev) : Prop := forall s rq, o <> ODispatch s rq.
Definition ext c c' : Prop := sc_sl_done c' = sc_sl_done c /\ exists l, sc_out c' = l ++ sc_out c /\ Forall nd l.

Lemma ext_refl c : ext c c.
Proof. split; [reflexivity|]. exists []. split; [reflexivity | constructor]. Qed.
Lemma ext_trans a b c : ext a b -> ext b c -> ext a c.
Proof.
  intros [S1 (l1 & E1 & F1)] [S2 (l2 & E2 & F2)]. split; [congruence|].
  exists (l2 ++ l1). split; [rewrite E2, E1, app_assoc; reflexivity | apply Forall_app; auto].
Qed.
Lemma ext_same c c' : sc_sl_done c' = sc_sl_done c -> sc_out c' = sc_out c -> ext c c'.
Proof. intros S O. split; [assumption|]. exists []. split; [assumption | constructor]. Qed.
Lemma ext_emit c o : nd o -> nd (OLate o) -> ext c (emit c o).
Proof.
  intros N1 N2. split; [apply sc_sl_done_emit|]. rewrite sc_out_emit.
  destruct (sc_wl_dead c); [exists []; split; [reflexivity | constructor]|].
  destruct (sc_sl_done c); [exists [OLate o] | exists [o]]; (split; [reflexivity | repeat constructor; assumption]).
Qed.
Lemma ext_note c o : nd o -> ext c (note c o).
Proof. intro N1. split; [reflexivity|]. exists [o]. split; [reflexivity | repeat constructor; assumption]. Qed.
Lemma ext_goaway c x code : ext c (write_goaway c x code).
Proof.
  rewrite write_goaway_eq. eapply ext_trans; [|apply ext_emit; intros s rq; discriminate].
  apply ext_same; reflexivity.
Qed.
Lemma ext_rl_exit c why : ext c (rl_exit c why).
Proof. unfold rl_exit. eapply ext_trans; [|apply ext_note; intros s rq; discriminate]. apply ext_same; reflexivity. Qed.
Lemma ext_rl_step c i : ext c (rl_step cfg c i).
Proof.
  apply (rl_step_rel _ cfg ext);
    [apply ext_refl | apply ext_trans | apply ext_same | apply ext_goaway | apply ext_rl_exit
    | intros a d; apply ext_emit; intros s rq; discriminate].
Qed.

Lemma ext_feed_gone c fr : sc_sl_done c = true -> ext c (feed c fr).
Proof.
  intro S. unfold feed. set (c1 := step c (EvRL (RFrame fr))).
  assert (E : ext c c1).
  { unfold c1. rewrite step_EvRL. destruct (sc_rl_done c); [apply ext_refl | apply ext_rl_step]. }
  rewrite step_EvSL. destruct E as [S1 E]. rewrite S1, S. split; [exact S1 | exact E].
Qed.

End Feed.

Arguments feed {hstate}. Arguments feeds {hstate}.

Section Req.
Variable hstate : Type.
Variable dec_field : hstate -> N -> bytes -> dec_res hstate.
Variable enc_field : hstate -> bytes -> bytes -> bool -> bytes * hstate.
Variable enc_set_max : hstate -> N -> hstate.
Variable cfg : config.
Notation sconn := (sconn hstate).
Notation sl_frame := (sl_frame dec_field enc_set_max cfg).
Notation tail := (tail dec_field cfg).
Notation feed := (feed dec_field enc_field enc_set_max cfg).
Notation feeds := (feeds dec_field enc_field enc_set_max cfg).
Notation frag_dec := (frag_dec dec_field).
Notation block_dec := (block_dec dec_field).
Implicit Types c : sconn.

Variable c0 : sconn.
Variable sid : N.
Hypothesis R0 : ready cfg c0 sid.
Let R : ready_sl cfg c0 sid := proj1 R0.

Notation holds := (holds cfg c0 sid).
Notation alive := (alive c0 sid).
Notation alive_core := (alive_core c0 sid).
Notation dead := (dead c0 sid).
Notation gone := (gone c0 sid).
Notation base := (base c0 sid).
Notation phase := (phase hstate).
Let win := sc_initWin c0.
Let t0 := sc_now c0.

Lemma odd : N.land sid 1 = 1.
Proof. apply (rd_odd _ _ _ _ R). Qed.
Lemma NZ : sid <> 0.
Proof. pose proof odd. intro; subst; discriminate. Qed.

(* the read loop's register is its own business *)
Lemma base_ec c ec ec' : base c ec -> base (upd_expectCont c ec') ec'.
Proof. intros []. constructor; sc_cbn; assumption || reflexivity. Qed.

Lemma alive_ec c ec ec' s d : alive c ec s d -> alive (upd_expectCont c ec') ec' s d.
Proof.
  intros [[] DI]. split; [|exact DI]. constructor; sc_cbn; try assumption. eapply base_ec; eassumption.
Qed.
Lemma dead_ec c ec ec' code d : dead c ec code d -> dead (upd_expectCont c ec') ec' code d.
Proof. intros []. constructor; sc_cbn; try assumption. eapply base_ec; eassumption. Qed.

Lemma holds_ec c ec ec' ph : holds c ec ph -> holds (upd_expectCont c ec') ec' ph.
Proof.
  destruct ph; cbn [SrvMsgPhase.holds].
  - intros (A & B). split; [apply (alive_ec _ ec); exact A | exact B].
  - intros (A & B). split; [apply (alive_ec _ ec); exact A | exact B].
  - intros (B & A). split; [eapply base_ec; eassumption | exact A].
  - intros (D & A). split; [apply (dead_ec _ ec); exact D | exact A].
  - apply dead_ec.
  - intros H; exact H.
Qed.

Lemma holds_gone_any c ec ec' : holds c ec PhGone -> holds c ec' PhGone.
Proof. intro H; exact H. Qed.

Lemma gone_feed c ec ec' fr : holds c ec PhGone -> holds (feed c fr) ec' PhGone.
Proof.
  cbn [SrvMsgPhase.holds]. intros [S (l & E & F)].
  destruct (ext_feed_gone _ dec_field enc_field enc_set_max cfg c fr S) as [S1 (l1 & E1 & F1)].
  split; [rewrite S1; exact S|]. exists (l1 ++ l). split; [rewrite E1, E, app_assoc; reflexivity|].
  apply Forall_app. split; [|exact F]. eapply Forall_impl; [|exact F1]. intros o Ho rq. apply Ho.
Qed.

Lemma gone_feeds frs : forall c ec, holds c ec PhGone -> holds (feeds c frs) 0 PhGone.
Proof.
  induction frs as [|f t IH]; intros c ec H; [exact H|]. rewrite feeds_cons. apply (IH _ 0). apply (gone_feed c ec 0). exact H.
Qed.

(* one frame of a header block *)
Definition carry_over (carry : bytes) : bool := list_over cfg (Z.of_N (len carry)).

(* the block is complete and every field was accepted *)
Definition blk_end (state' : sstate) (st' : vst) (size' : Z) (n' : N) (rq' : request) (recv : Z) (d' : hstate) : phase :=
  if v_valid st' then
    match state' with
    | SHalfClosed => if cl_okZ st' recv then PhDisp st' size' n' rq' recv d' else PhDead c_ProtocolError d'
    | _ => PhBody st' size' n' rq' recv d'
    end
  else PhDead c_ProtocolError d'.

Definition rej_ph (eh : bool) (d' : hstate) (n' : N) (carry : bytes) (ph : phase) : Prop :=
  ph = PhGone \/ exists code, ph = if eh then PhDead code d' else PhDeadBlock code carry n' d'.

Lemma blk_step c ec state h recv d (iscont es eh : bool) frag fs d' n' carry :
  alive c ec (S_of sid win t0 state h recv) d -> shape iscont es state h ->
  frag_dec eh d (if iscont then hd_blockFields h else 0) (hd_prev h ++ frag) fs d' n' carry ->
  list_over cfg (hd_headerListSize h) = false ->
  let c' := fst (tail c (S_of sid win t0 state h recv) (blk_frame iscont sid es eh frag) false) in
  let size' := (hd_headerListSize h + fsize fs)%Z in
  let rq' := req_fold (hd_req h) fs in
  if list_over cfg size' then exists ph, rej_ph eh d' n' carry ph /\ holds c' ec ph
  else match vrun cfg (v_start h) fs with
       | inl code => holds c' ec (if eh then PhDead code d' else if carry_over carry then PhGone else PhDeadBlock code carry n' d')
       | inr st' =>
         holds c' ec (if eh then blk_end (next_state iscont es state) st' size' n' rq' recv d'
                      else if carry_over carry then PhGone
                      else PhBlock (next_state iscont es state) st' size' n' carry rq' recv d')
       end.
Proof.
  intros AL SH Hdec H0 c' size' rq'.
  set (n0 := if iscont then hd_blockFields h else 0) in *.
  destruct (list_over cfg size') eqn:OV.
  - (* over the header-list limit: some field is refused *)
    destruct (fields_loop_over cfg fs (start_hdr h n0) H0 OV) as [e F].
    pose proof (blk_err _ dec_field enc_field enc_set_max cfg c0 sid R0 c ec state h recv d iscont es eh frag fs d' n' carry e AL SH Hdec F) as B.
    cbv zeta in B. fold c' in B.
    destruct (fields_loop_inl_kind cfg fs _ e F) as [-> | [code ->]].
    + exists PhGone. split; [left; reflexivity | apply B; discriminate].
    + destruct eh.
      * exists (PhDead code d'). split; [right; exists code; reflexivity | exact B].
      * destruct (list_over cfg (Z.of_N (len carry))).
        -- exists PhGone. split; [left; reflexivity | exact B].
        -- exists (PhDeadBlock code carry n' d'). split; [right; exists code; reflexivity | exact B].
  - destruct (vrun cfg (v_start h) fs) as [code|st'] eqn:V.
    + pose proof (fields_loop_inl cfg fs (start_hdr h n0) code OV V) as F.
      exact (blk_err _ dec_field enc_field enc_set_max cfg c0 sid R0 c ec state h recv d iscont es eh frag fs d' n' carry _ AL SH Hdec F).
    + exact (blk_ok _ dec_field enc_field enc_set_max cfg c0 sid R0 c ec state h recv d iscont es eh frag fs d' n' carry st' AL SH Hdec OV V).
Qed.

(* the frames of a request, one at a time, through both loops *)
Lemma lo0 : list_over cfg 0 = false.
Proof. unfold list_over. lia. Qed.

Lemma bo0 : body_over cfg 0 = false.
Proof. unfold body_over. lia. Qed.

Lemma ready_sl_ec c x : ready_sl cfg c sid -> ready_sl cfg (upd_expectCont c x) sid.
Proof. intros []. constructor; sc_cbn; assumption. Qed.

Definition blk_result (state' : sstate) (st : vst) (size : Z) (rq : request) (recv : Z) (eh : bool)
           (fs : list field) (d' : hstate) (n' : N) (carry : bytes) (c' : sconn) (ec' : N) : Prop :=
  let size' := (size + fsize fs)%Z in
  let rq' := req_fold rq fs in
  if list_over cfg size' then exists ph, rej_ph eh d' n' carry ph /\ holds c' ec' ph
  else match vrun cfg st fs with
       | inl code => holds c' ec' (if eh then PhDead code d' else if carry_over carry then PhGone else PhDeadBlock code carry n' d')
       | inr st' =>
         holds c' ec' (if eh then blk_end state' st' size' n' rq' recv d'
                       else if carry_over carry then PhGone else PhBlock state' st' size' n' carry rq' recv d')
       end.

Lemma step_first (es eh : bool) frag fs d' n' carry :
  frag_dec eh (sc_dec c0) 0 frag fs d' n' carry ->
  blk_result (if es then SHalfClosed else SOpen) v0 0 empty_req 0 eh fs d' n' carry
             (feed c0 (headers_frame sid es eh frag)) (if eh then 0 else sid).
Proof.
  intro Hdec. pose proof R0 as (Rs & Rl & Q & E). pose proof Rs as Rs'.
  destruct Rs' as [Hodd Hfresh Hlast Htab Hring Hold Hdisc Hquiet Hslot Hclosing Hsl Hwl].
  pose proof (feed_blk _ dec_field enc_field enc_set_max cfg c0 sid false es eh frag odd Rl Hsl Q E) as F.
  cbn [blk_frame] in F. rewrite F. set (ec' := if eh then 0 else sid). set (cx := upd_expectCont c0 ec').
  rewrite (sl_frame_fresh _ dec_field enc_field enc_set_max cfg cx sid es eh frag (ready_sl_ec c0 ec' Rs)).
  set (s := S_of sid (sc_initWin cx) (sc_now cx) SIdle h_init 0).
  set (c3 := upd_open (upd_strms (upd_lastID (upd_highestID cx sid) sid) (sc_strms cx ++ [s])) (sc_open cx + 1)).
  assert (AL : alive c3 ec' (S_of sid win t0 SIdle h_init 0) (sc_dec c0)).
  { split; [|unfold c3, cx; sc_cbn; assumption].
    constructor; unfold c3, cx; sc_cbn; try reflexivity.
    - constructor; sc_cbn; try assumption; reflexivity.
    - exists []. split; [reflexivity | constructor]. }
  pose proof (blk_step c3 ec' SIdle h_init 0 (sc_dec c0) false es eh frag fs d' n' carry AL
                       (or_introl (conj eq_refl (conj eq_refl eq_refl))) Hdec lo0) as B.
  cbv zeta in B. unfold blk_result. cbv zeta.
  change (hd_headerListSize h_init) with 0%Z in B. change (v_start h_init) with v0 in B.
  change (hd_req h_init) with empty_req in B. change (next_state false es SIdle) with (if es then SHalfClosed else SOpen) in B.
  exact B.
Qed.

(* a frame for the stream while it is in the table *)
Lemma feed_own c ec s d (iscont es eh : bool) frag :
  alive c ec s d -> st_id s = sid -> st_orig s = KHeaders -> ec = (if iscont then sid else 0) ->
  feed c (blk_frame iscont sid es eh frag) =
  fst (tail (upd_expectCont c (if eh then 0 else sid)) s (blk_frame iscont sid es eh frag) false) /\
  alive (upd_expectCont c (if eh then 0 else sid)) (if eh then 0 else sid) s d.
Proof.
  intros AL I O Ec. pose proof AL as [[Hb Hst Hd Hr Ho Hop Hout] DI]. pose proof Hb as B. destruct B as [Bc Bsl Brl Bwl Bq Bec Bl Bh Bg Be Bi Bcw Bcr Bcl Bn].
  assert (AL' := alive_ec c ec (if eh then 0 else sid) s d AL). split; [|exact AL'].
  rewrite (feed_blk _ dec_field enc_field enc_set_max cfg c sid iscont es eh frag odd Brl Bsl Bq) by congruence.
  set (cx := upd_expectCont c (if eh then 0 else sid)).
  rewrite (sl_frame_own _ dec_field enc_set_max cfg cx sid (sc_strms c0) s (blk_frame iscont sid es eh frag)).
  - unfold cx. sc_cbn. rewrite Bc. reflexivity.
  - unfold blk_frame. destruct iscont; reflexivity.
  - exact NZ.
  - unfold cx. sc_cbn. assumption.
  - apply (rd_table _ _ _ _ R).
  - assumption.
  - assumption.
  - unfold cx. sc_cbn. rewrite Bl. apply N.le_refl.
  - apply (rd_quiet _ _ _ _ R).
  - intros _. unfold cx. sc_cbn. assumption.
Qed.

Lemma step_cont c state st size nf carry0 rq recv d (eh : bool) frag fs d' n' carry :
  holds c sid (PhBlock state st size nf carry0 rq recv d) ->
  frag_dec eh d nf (carry0 ++ frag) fs d' n' carry ->
  blk_result state st size rq recv eh fs d' n' carry (feed c (cont_frame sid eh frag)) (if eh then 0 else sid).
Proof.
  cbn [SrvMsgPhase.holds]. intros (AL & ST & LS) Hdec.
  destruct (feed_own c sid _ d true false eh frag AL eq_refl eq_refl eq_refl) as [F AL'].
  cbn [blk_frame] in F. rewrite F.
  assert (SH : shape true false state (H_of false carry0 st size nf rq)) by (right; left; auto).
  pose proof (blk_step _ _ state (H_of false carry0 st size nf rq) recv d true false eh frag fs d' n' carry AL' SH Hdec LS) as B.
  cbv zeta in B. unfold blk_result. cbv zeta.
  rewrite (v_start_first (H_of false carry0 st size nf rq) eq_refl), vabs_H_of in B.
  exact B.
Qed.

Lemma step_trailers c st size nf rq recv d (eh : bool) frag fs d' n' carry :
  holds c 0 (PhBody st size nf rq recv d) ->
  frag_dec eh d 0 frag fs d' n' carry ->
  blk_result SHalfClosed (v_setr st) size rq recv eh fs d' n' carry (feed c (headers_frame sid true eh frag)) (if eh then 0 else sid).
Proof.
  cbn [SrvMsgPhase.holds]. intros (AL & V & LS) Hdec.
  destruct (feed_own c 0 _ d false true eh frag AL eq_refl eq_refl eq_refl) as [F AL'].
  cbn [blk_frame] in F. rewrite F.
  assert (SH : shape false true SOpen (H_of true [] st size nf rq)) by (right; right; auto).
  pose proof (blk_step _ _ SOpen (H_of true [] st size nf rq) recv d false true eh frag fs d' n' carry AL' SH Hdec LS) as B.
  cbv zeta in B. unfold blk_result. cbv zeta.
  rewrite (v_start_trailers (H_of true [] st size nf rq) eq_refl), vabs_H_of in B.
  exact B.
Qed.

Lemma step_data c st size nf rq recv d es dt :
  holds c 0 (PhBody st size nf rq recv d) ->
  let recv' := (recv + Z.of_N (len dt))%Z in
  let rq' := rq_append_body rq dt in
  holds (feed c (data_frame sid es dt)) 0
    (if body_over cfg recv' then PhDead c_EnhanceYourCalm d
     else if es then (if cl_okZ st recv' then PhDisp st size nf rq' recv' d else PhDead c_ProtocolError d)
     else PhBody st size nf rq' recv' d).
Proof.
  intros H recv' rq'. pose proof H as (AL & V & LS). pose proof AL as [[Hb Hst Hd Hr Ho Hop Hout] DI]. pose proof Hb as B. destruct B as [Bc Bsl Brl Bwl Bq Bec Bl Bh Bg Be Bi Bcw Bcr Bcl Bn].
  rewrite (feed_data _ dec_field enc_field enc_set_max cfg c sid es dt odd Brl Bsl Bq Bec).
  rewrite (sl_frame_own _ dec_field enc_set_max cfg c sid (sc_strms c0) _ (data_frame sid es dt) eq_refl NZ Hst
                        (rd_table _ _ _ _ R) eq_refl eq_refl (N.eq_le_incl _ _ (eq_sym Bl)) (rd_quiet _ _ _ _ R) ltac:(discriminate)).
  rewrite Bc.
  exact (data_step _ dec_field enc_set_max cfg c0 sid R0 c 0 st size nf rq recv d es dt H).
Qed.

(* ... and once it has been reset *)
Lemma step_dead_data c code d es dt :
  holds c 0 (PhDead code d) -> holds (feed c (data_frame sid es dt)) 0 (PhDead code d).
Proof.
  intro H. pose proof H as D. cbn [SrvMsgPhase.holds] in D. destruct D as [Db Dst Dr Dd Dop Dout]. destruct Db as [Bc Bsl Brl Bwl Bq Bec Bl Bh Bg Be Bi Bcw Bcr Bcl Bn].
  rewrite (feed_data _ dec_field enc_field enc_set_max cfg c sid es dt odd Brl Bsl Bq Bec).
  exact (dead_data_step _ dec_field enc_field enc_set_max cfg c0 sid R0 c 0 code d es dt H).
Qed.

Definition dead_result (code : N) (eh : bool) (d' : hstate) (n' : N) (carry : bytes) (c' : sconn) (ec' : N) : Prop :=
  holds c' ec' (if eh then PhDead code d' else if carry_over carry then PhGone else PhDeadBlock code carry n' d').

Lemma step_dead_headers c code d (es eh : bool) frag fs d' n' carry :
  holds c 0 (PhDead code d) ->
  frag_dec eh d 0 frag fs d' n' carry ->
  dead_result code eh d' n' carry (feed c (headers_frame sid es eh frag)) (if eh then 0 else sid).
Proof.
  cbn [SrvMsgPhase.holds]. intros D Hdec. pose proof D as D'. destruct D' as [Db Dst Dr Dd Dop Dout]. destruct Db as [Bc Bsl Brl Bwl Bq Bec Bl Bh Bg Be Bi Bcw Bcr Bcl Bn].
  pose proof (feed_blk _ dec_field enc_field enc_set_max cfg c sid false es eh frag odd Brl Bsl Bq Bec) as F.
  cbn [blk_frame] in F. unfold dead_result. rewrite F. set (cx := upd_expectCont c (if eh then 0 else sid)).
  assert (DX : dead cx (if eh then 0 else sid) code d) by (apply (dead_ec c 0); exact D).
  rewrite (sl_frame_dead_headers _ dec_field enc_field enc_set_max cfg cx sid es eh frag NZ).
  - exact (dead_frag _ dec_field cfg c0 sid cx _ code d false es eh frag fs d' n' carry DX ltac:(discriminate) Hdec).
  - unfold cx. sc_cbn. rewrite Dst. apply (rd_table _ _ _ _ R).
  - destruct DX as [_ _ X _ _ _]. exact X.
Qed.

Lemma step_dead_cont c code carry0 nf d (eh : bool) frag fs d' n' carry :
  holds c sid (PhDeadBlock code carry0 nf d) ->
  frag_dec eh d nf (carry0 ++ frag) fs d' n' carry ->
  dead_result code eh d' n' carry (feed c (cont_frame sid eh frag)) (if eh then 0 else sid).
Proof.
  cbn [SrvMsgPhase.holds]. intros (D & DI & DP & DF) Hdec. pose proof D as D'. destruct D' as [Db Dst Dr Dd Dop Dout]. destruct Db as [Bc Bsl Brl Bwl Bq Bec Bl Bh Bg Be Bi Bcw Bcr Bcl Bn].
  pose proof (feed_blk _ dec_field enc_field enc_set_max cfg c sid true false eh frag odd Brl Bsl Bq Bec) as F.
  cbn [blk_frame] in F. unfold dead_result. rewrite F. set (cx := upd_expectCont c (if eh then 0 else sid)).
  assert (DX : dead cx (if eh then 0 else sid) code d) by (apply (dead_ec c sid); exact D).
  rewrite (sl_frame_dead_cont _ dec_field enc_field enc_set_max cfg cx sid eh frag NZ) by (unfold cx; sc_cbn; exact DI).
  apply (dead_frag _ dec_field cfg c0 sid cx _ code d true false eh frag fs d' n' carry DX).
  - intros _. unfold cx. sc_cbn. exact DI.
  - unfold cx. sc_cbn. rewrite DP, DF. exact Hdec.
Qed.

Definition carries_over (carries : list bytes) : bool := existsb carry_over carries.

(* the stream is refused and the decoder has been through the whole block: reset (RST_STREAM sent), or the connection is gone *)
Definition rej (c' : sconn) (d' : hstate) : Prop := holds c' 0 PhGone \/ exists code, holds c' 0 (PhDead code d').

(* after the last frame of a block whose first frame found the stream in (state, st, size, rq, recv) *)
Definition blk_final (state : sstate) (st : vst) (size : Z) (rq : request) (recv : Z)
           (fs : list field) (d' : hstate) (carries : list bytes) (c' : sconn) : Prop :=
  if list_over cfg (size + fsize fs) || carries_over carries then rej c' d'
  else match vrun cfg st fs with
       | inl code => holds c' 0 (PhDead code d')
       | inr st' => exists nf, holds c' 0 (blk_end state st' (size + fsize fs)%Z nf (req_fold rq fs) recv d')
       end.

Lemma vrun_app st a b : vrun cfg st (a ++ b) = match vrun cfg st a with inl c => inl c | inr st1 => vrun cfg st1 b end.
Proof.
  revert st. induction a as [|[k v] t IH]; intro st; [reflexivity|]. cbn [app vrun].
  destruct (vstep cfg st (classify k) v); [reflexivity | apply IH].
Qed.

Lemma req_fold_app rq a b : req_fold rq (a ++ b) = req_fold (req_fold rq a) b.
Proof. apply fold_left_app. Qed.

Lemma list_over_add a b : (0 <= b)%Z -> list_over cfg a = true -> list_over cfg (a + b) = true.
Proof. unfold list_over. lia. Qed.

Lemma dead_cont_run d n prev frags fs d' carries :
  block_dec d n prev frags fs d' carries ->
  forall c code, holds c sid (PhDeadBlock code prev n d) ->
  rej (feeds c (cont_frames sid frags)) d' /\
  (carries_over carries = false -> holds (feeds c (cont_frames sid frags)) 0 (PhDead code d')).
Proof.
  induction 1 as [d n prev frag fs d' n' Hf | d n prev frag frags fs1 d1 n1 carry fs2 d' carries NE Hf _ IH]; intros c code H.
  - cbn [cont_frames is_nil]. rewrite feeds_cons. cbn [SrvMsgReq.feeds fold_left].
    pose proof (step_dead_cont c code prev n d true frag fs d' n' [] H Hf) as S. unfold dead_result in S.
    split; [right; exists code; exact S | intros _; exact S].
  - cbn [cont_frames]. replace (is_nil frags) with false by (destruct frags; [congruence | reflexivity]).
    rewrite feeds_cons.
    pose proof (step_dead_cont c code prev n d false frag fs1 d1 n1 carry H Hf) as S. unfold dead_result in S.
    cbn [carries_over existsb]. fold (carries_over carries).
    destruct (carry_over carry).
    + split; [left; apply (gone_feeds _ _ sid); exact S | discriminate].
    + destruct (IH _ code S) as [A B]. split; [exact A | exact B].
Qed.

Lemma rej_ph_cont_run d1 n1 carry frags fs2 d' carries ph c1 :
  block_dec d1 n1 carry frags fs2 d' carries -> rej_ph false d1 n1 carry ph -> holds c1 sid ph ->
  rej (feeds c1 (cont_frames sid frags)) d'.
Proof.
  intros B [-> | [code ->]] H.
  - left. apply (gone_feeds _ _ sid). exact H.
  - apply (dead_cont_run _ _ _ _ _ _ _ B c1 code H).
Qed.

Lemma blk_final_last state st size rq recv fs d' n' c' :
  blk_result state st size rq recv true fs d' n' [] c' 0 -> blk_final state st size rq recv fs d' [] c'.
Proof.
  unfold blk_result, blk_final. cbv zeta. cbn [carries_over existsb]. rewrite orb_false_r.
  destruct (list_over cfg (size + fsize fs)).
  - intros (ph & [-> | [code ->]] & H); [left; exact H | right; exists code; exact H].
  - destruct (vrun cfg st fs) as [code|st']; [auto|]. intro H. exists n'. exact H.
Qed.

Lemma blk_final_step state st size rq recv fs1 d1 n1 carry c1 frags fs2 d' carries :
  blk_result state st size rq recv false fs1 d1 n1 carry c1 sid ->
  block_dec d1 n1 carry frags fs2 d' carries ->
  (forall st1 size1 rq1, holds c1 sid (PhBlock state st1 size1 n1 carry rq1 recv d1) ->
                         blk_final state st1 size1 rq1 recv fs2 d' carries (feeds c1 (cont_frames sid frags))) ->
  blk_final state st size rq recv (fs1 ++ fs2) d' (carry :: carries) (feeds c1 (cont_frames sid frags)).
Proof.
  unfold blk_result. cbv zeta. intros BR B IH. unfold blk_final at 1.
  rewrite fsize_app, Z.add_assoc, vrun_app, req_fold_app. cbn [carries_over existsb]. fold (carries_over carries).
  pose proof (fsize_nonneg fs2) as P2.
  destruct (list_over cfg (size + fsize fs1)) eqn:O1.
  - rewrite (list_over_add _ _ P2 O1). cbn [orb].
    destruct BR as (ph & RP & H). exact (rej_ph_cont_run _ _ _ _ _ _ _ _ _ B RP H).
  - destruct (vrun cfg st fs1) as [code|st1].
    + destruct (carry_over carry).
      * rewrite orb_true_r. left. apply (gone_feeds _ _ sid). exact BR.
      * destruct (dead_cont_run _ _ _ _ _ _ _ B c1 code BR) as [A Bp].
        cbn [orb]. destruct (list_over cfg _ || carries_over carries)%bool eqn:X; [exact A|].
        apply Bp. apply orb_false_iff in X. apply X.
    + destruct (carry_over carry).
      * rewrite orb_true_r. left. apply (gone_feeds _ _ sid). exact BR.
      * cbn [orb]. exact (IH _ _ _ BR).
Qed.

Lemma cont_run d n prev frags fs d' carries :
  block_dec d n prev frags fs d' carries ->
  forall c state st size rq recv, holds c sid (PhBlock state st size n prev rq recv d) ->
  blk_final state st size rq recv fs d' carries (feeds c (cont_frames sid frags)).
Proof.
  induction 1 as [d n prev frag fs d' n' Hf | d n prev frag frags fs1 d1 n1 carry fs2 d' carries NE Hf B IH];
    intros c state st size rq recv H.
  - cbn [cont_frames is_nil]. rewrite feeds_cons. cbn [SrvMsgReq.feeds fold_left].
    apply (blk_final_last _ _ _ _ _ _ _ n'). exact (step_cont c state st size n prev rq recv d true frag fs d' n' [] H Hf).
  - cbn [cont_frames]. replace (is_nil frags) with false by (destruct frags; [congruence | reflexivity]).
    rewrite feeds_cons.
    apply (blk_final_step state st size rq recv fs1 d1 n1 carry _ frags fs2 d' carries).
    + exact (step_cont c state st size n prev rq recv d false frag fs1 d1 n1 carry H Hf).
    + exact B.
    + intros st1 size1 rq1 H1. apply IH. exact H1.
Qed.

(* a block from its HEADERS frame on, given what that frame does *)
Lemma block_run c state st size rq recv (es : bool) d frags fs d' carries :
  (forall (eh : bool) frag fs1 d1 n1 carry, frag_dec eh d 0 frag fs1 d1 n1 carry ->
     blk_result state st size rq recv eh fs1 d1 n1 carry (feed c (headers_frame sid es eh frag)) (if eh then 0 else sid)) ->
  block_dec d 0 [] frags fs d' carries ->
  blk_final state st size rq recv fs d' carries (feeds c (block_frames sid es frags)).
Proof.
  intros P B. inversion B as [d_ n_ prev_ frag fs_ d'_ n' Hf | d_ n_ prev_ frag frags' fs1 d1 n1 carry fs2 d'_ carries' NE Hf B'];
    subst.
  - cbn [block_frames is_nil cont_frames]. rewrite feeds_cons. cbn [SrvMsgReq.feeds fold_left].
    apply (blk_final_last _ _ _ _ _ _ _ n'). exact (P true frag fs d' n' [] Hf).
  - cbn [block_frames]. replace (is_nil frags') with false by (destruct frags'; [congruence | reflexivity]).
    rewrite feeds_cons.
    apply (blk_final_step state st size rq recv fs1 d1 n1 carry _ frags' fs2 d' carries').
    + exact (P false frag fs1 d1 n1 carry Hf).
    + exact B'.
    + intros st1 size1 rq1 H1. exact (cont_run _ _ _ _ _ _ _ B' _ _ _ _ _ _ H1).
Qed.

Definition bytes_len (chunks : list bytes) : Z := Z.of_N (len (concat chunks)).

Lemma bytes_len_cons d t : bytes_len (d :: t) = (Z.of_N (len d) + bytes_len t)%Z.
Proof. unfold bytes_len, len. cbn [concat]. rewrite app_length. lia. Qed.
Lemma bytes_len_nonneg l : (0 <= bytes_len l)%Z.
Proof. unfold bytes_len. lia. Qed.

Lemma rq_append_body_app rq a b : rq_append_body (rq_append_body rq a) b = rq_append_body rq (a ++ b).
Proof. unfold rq_append_body. cbn. rewrite app_assoc. reflexivity. Qed.
Lemma rq_append_body_nil rq : rq_append_body rq [] = rq.
Proof. destruct rq. unfold rq_append_body. cbn. rewrite app_nil_r. reflexivity. Qed.

Lemma dead_data_run chunks es : forall c code d,
  holds c 0 (PhDead code d) -> holds (feeds c (data_frames sid es chunks)) 0 (PhDead code d).
Proof.
  induction chunks as [|dt t IH]; intros c code d H; [exact H|].
  cbn [data_frames]. rewrite feeds_cons. apply IH. apply step_dead_data. exact H.
Qed.

Lemma body_over_add a b : (0 <= b)%Z -> body_over cfg a = true -> body_over cfg (a + b) = true.
Proof. unfold body_over. lia. Qed.

(* with es: END_STREAM on the last frame *)
Definition data_final (st : vst) (size : Z) (nf : N) (rq : request) (recv : Z) (d : hstate) (es : bool)
           (chunks : list bytes) (c' : sconn) : Prop :=
  let total := (recv + bytes_len chunks)%Z in
  let rq' := rq_append_body rq (concat chunks) in
  if body_over cfg total then holds c' 0 (PhDead c_EnhanceYourCalm d)
  else if es && negb (is_nil chunks)
       then holds c' 0 (if cl_okZ st total then PhDisp st size nf rq' total d else PhDead c_ProtocolError d)
       else holds c' 0 (PhBody st size nf rq' total d).

Lemma data_run chunks es : forall c st size nf rq recv d,
  holds c 0 (PhBody st size nf rq recv d) -> body_over cfg recv = false ->
  data_final st size nf rq recv d es chunks (feeds c (data_frames sid es chunks)).
Proof.
  induction chunks as [|dt t IH]; intros c st size nf rq recv d H B0; unfold data_final; cbv zeta.
  - cbn [data_frames SrvMsgReq.feeds fold_left concat is_nil negb]. unfold bytes_len. cbn [concat].
    change (Z.of_N (len [])) with 0%Z. rewrite Z.add_0_r, B0, andb_false_r, rq_append_body_nil. exact H.
  - cbn [data_frames]. rewrite feeds_cons. rewrite bytes_len_cons, Z.add_assoc. cbn [concat is_nil negb]. rewrite andb_true_r.
    pose proof (step_data c st size nf rq recv d (es && is_nil t) dt H) as S. cbv zeta in S.
    pose proof (bytes_len_nonneg t) as Pt.
    destruct (body_over cfg (recv + Z.of_N (len dt))) eqn:O1.
    + rewrite (body_over_add _ _ Pt O1).
      apply dead_data_run. exact S.
    + destruct t as [|dt2 t2].
      * (* the last DATA frame *)
        cbn [is_nil] in S. rewrite andb_true_r in S. cbn [data_frames SrvMsgReq.feeds fold_left].
        unfold bytes_len. cbn [concat]. change (Z.of_N (len [])) with 0%Z. rewrite Z.add_0_r, O1, app_nil_r.
        destruct es; exact S.
      * cbn [is_nil] in S. rewrite andb_false_r in S.
        specialize (IH _ _ _ _ _ _ _ S O1). unfold data_final in IH. cbv zeta in IH.
        cbn [is_nil negb] in IH. rewrite andb_true_r in IH. rewrite rq_append_body_app in IH.
        cbn [is_nil]. rewrite andb_false_r. exact IH.
Qed.

(* the rest of a request whose stream has been refused *)
Lemma dead_block_run c code d (es : bool) frags fs d' carries :
  holds c 0 (PhDead code d) -> block_dec d 0 [] frags fs d' carries ->
  rej (feeds c (block_frames sid es frags)) d' /\
  (carries_over carries = false -> holds (feeds c (block_frames sid es frags)) 0 (PhDead code d')).
Proof.
  intros H B. inversion B as [d_ n_ prev_ frag fs_ d'_ n' Hf | d_ n_ prev_ frag frags' fs1 d1 n1 carry fs2 d'_ carries' NE Hf B'];
    subst.
  - cbn [block_frames is_nil cont_frames]. rewrite feeds_cons. cbn [SrvMsgReq.feeds fold_left].
    pose proof (step_dead_headers c code d es true frag fs d' n' [] H Hf) as S. unfold dead_result in S.
    split; [right; exists code; exact S | intros _; exact S].
  - cbn [block_frames]. replace (is_nil frags') with false by (destruct frags'; [congruence | reflexivity]).
    rewrite feeds_cons.
    pose proof (step_dead_headers c code d es false frag fs1 d1 n1 carry H Hf) as S. unfold dead_result in S.
    cbn [carries_over existsb]. fold (carries_over carries').
    destruct (carry_over carry).
    + split; [left; apply (gone_feeds _ _ sid); exact S | discriminate].
    + exact (dead_cont_run _ _ _ _ _ _ _ B' _ code S).
Qed.

(* what follows the header block: DATA frames, then maybe a trailer block *)
Definition trailers_dec (d1 : hstate) (tfrags : option (list bytes)) (tr : list field) (d2 : hstate) (carries2 : list bytes) : Prop :=
  match tfrags with
  | Some tf => block_dec d1 0 [] tf tr d2 carries2
  | None => tr = [] /\ d2 = d1 /\ carries2 = []
  end.

Definition rest_frames (chunks : list bytes) (tfrags : option (list bytes)) : list sframe :=
  match tfrags with
  | Some tf => data_frames sid false chunks ++ block_frames sid true tf
  | None => data_frames sid true chunks
  end.

Lemma req_frames_eq hfrags chunks tfrags :
  req_frames sid hfrags chunks tfrags =
  block_frames sid (match tfrags with Some _ => false | None => is_nil chunks end) hfrags ++ rest_frames chunks tfrags.
Proof. destruct tfrags; reflexivity. Qed.

Lemma rest_from_dead c code d1 chunks tfrags tr d2 carries2 :
  holds c 0 (PhDead code d1) -> trailers_dec d1 tfrags tr d2 carries2 ->
  rej (feeds c (rest_frames chunks tfrags)) d2 /\
  (carries_over carries2 = false -> holds (feeds c (rest_frames chunks tfrags)) 0 (PhDead code d2)).
Proof.
  intros H T. destruct tfrags as [tf|]; cbn [rest_frames trailers_dec] in *.
  - rewrite feeds_app. apply (dead_block_run _ code d1 true tf tr d2 carries2); [|exact T].
    apply dead_data_run. exact H.
  - destruct T as (-> & -> & ->). pose proof (dead_data_run chunks true c code d1 H) as D.
    split; [right; exists code; exact D | intros _; exact D].
Qed.

Lemma rest_from_rej c d1 chunks tfrags tr d2 carries2 :
  rej c d1 -> trailers_dec d1 tfrags tr d2 carries2 -> rej (feeds c (rest_frames chunks tfrags)) d2.
Proof.
  intros [G | [code H]] T.
  - left. apply (gone_feeds _ _ 0). exact G.
  - apply (rest_from_dead c code d1 chunks tfrags tr d2 carries2 H T).
Qed.

(* pure facts used by the assembly *)
Lemma vstep_code st (k : cls) v code : vstep cfg st k v = inl code -> code = c_ProtocolError \/ code = c_EnhanceYourCalm.
Proof.
  unfold vstep. destruct k; try (intro E; inversion E; auto; fail);
    try (destruct (_ || _)%bool; intro E; inversion E; auto; fail).
  - destruct (bytes_eqb v S_trailers); intro E; inversion E; auto.
  - destruct (parse_uint v); [|intro E; inversion E; auto].
    destruct (body_over cfg z); [intro E; inversion E; auto|].
    destruct (_ && _)%bool; intro E; inversion E; auto.
Qed.

Lemma vrun_code : forall fs st code, vrun cfg st fs = inl code -> code = c_ProtocolError \/ code = c_EnhanceYourCalm.
Proof.
  induction fs as [|[k v] t IH]; intros st code; cbn [vrun]; [discriminate|].
  destruct (vstep cfg st (classify k) v) as [cd|st1] eqn:E; [|apply IH].
  intro X. inversion X; subst. eapply vstep_code. exact E.
Qed.

Lemma cl_okZ_ok st n : cl_okZ st (Z.of_N n) = v_cl_ok st n.
Proof. unfold cl_okZ, v_cl_ok. destruct (v_has st); cbn [andb negb]; [apply negb_involutive | reflexivity]. Qed.

(* in a trailer block nothing changes the pseudo-header flags *)
Lemma vstep_regular_valid st (k : cls) v st' : v_r st = true -> vstep cfg st k v = inr st' -> v_valid st' = v_valid st /\ v_r st' = true.
Proof.
  intros Hr. unfold vstep. rewrite Hr. cbn [orb]. destruct k; try discriminate.
  - destruct (bytes_eqb v S_trailers); [|discriminate]. intro E. inversion E. auto.
  - destruct (parse_uint v); [|discriminate]. destruct (body_over cfg z); [discriminate|].
    destruct (_ && _)%bool; [discriminate|]. intro E. inversion E. auto.
  - intro E. inversion E. auto.
Qed.

Lemma vrun_regular_valid : forall fs st st', v_r st = true -> vrun cfg st fs = inr st' -> v_valid st' = v_valid st.
Proof.
  induction fs as [|[k v] t IH]; intros st st' Hr; cbn [vrun].
  - intro E. inversion E. reflexivity.
  - destruct (vstep cfg st (classify k) v) as [cd|st1] eqn:E; [discriminate|].
    destruct (vstep_regular_valid _ _ _ _ Hr E) as [V1 R1]. intro X. rewrite (IH _ _ R1 X). exact V1.
Qed.

Lemma carries_over_app a b : carries_over (a ++ b) = carries_over a || carries_over b.
Proof. apply existsb_app. Qed.

Lemma forallb_negb_existsb {A} (f : A -> bool) l : forallb (fun x => negb (f x)) l = negb (existsb f l).
Proof. induction l as [|x t IH]; [reflexivity|]. cbn [forallb existsb]. rewrite IH, negb_orb. reflexivity. Qed.

(* the limits whose violation costs the connection (GOAWAY): the header list and the carried-over partial fields *)
Definition hlimit (fs tr : list field) (k1 k2 : list bytes) : bool :=
  negb (list_over cfg (fsize fs + fsize tr)) && negb (carries_over k1) && negb (carries_over k2).

Lemma within_limits_eq fs tr (k1 k2 : list bytes) n :
  within_limits cfg fs tr (k1 ++ k2) n = hlimit fs tr k1 k2 && negb (body_over cfg (Z.of_N n)).
Proof.
  unfold within_limits, hlimit. rewrite fsize_app.
  change (forallb (fun x => negb (list_over cfg (Z.of_N (len x)))) (k1 ++ k2)) with (forallb (fun x => negb (carry_over x)) (k1 ++ k2)).
  rewrite forallb_negb_existsb. fold (carries_over (k1 ++ k2)). rewrite carries_over_app, negb_orb, !andb_assoc. reflexivity.
Qed.

Definition final_req (fs : list field) (chunks : list bytes) (tr : list field) : request :=
  req_fold (rq_append_body (req_fold empty_req fs) (concat chunks)) tr.

Definition ok_code (code : N) : Prop := code = c_ProtocolError \/ code = c_EnhanceYourCalm.

Definition outcome (lim hlim acc : bool) (fs : list field) (chunks : list bytes) (tr : list field) (d2 : hstate) (c' : sconn) : Prop :=
  if lim && acc
  then exists st size nf, holds c' 0 (PhDisp st size nf (final_req fs chunks tr) (bytes_len chunks) d2)
  else rej c' d2 /\ (hlim = true -> exists code, ok_code code /\ holds c' 0 (PhDead code d2)).

Lemma outcome_cond lim hlim acc fs chunks tr d2 c' code :
  rej c' d2 -> (hlim = true -> holds c' 0 (PhDead code d2)) -> ok_code code -> lim && acc = false ->
  outcome lim hlim acc fs chunks tr d2 c'.
Proof. intros RJ H K F. unfold outcome. rewrite F. split; [exact RJ | intro L; exists code; auto]. Qed.

Lemma outcome_dead lim hlim acc fs chunks tr d2 c' code :
  holds c' 0 (PhDead code d2) -> ok_code code -> lim && acc = false -> outcome lim hlim acc fs chunks tr d2 c'.
Proof. intros H K F. apply (outcome_cond _ _ _ _ _ _ _ _ code); auto. right. exists code. exact H. Qed.

Lemma outcome_rej lim acc fs chunks tr d2 c' : rej c' d2 -> lim = false -> outcome lim false acc fs chunks tr d2 c'.
Proof. intros H ->. unfold outcome. cbn [andb]. split; [exact H | discriminate]. Qed.

Theorem request_run hfrags chunks tfrags fs tr d1 d2 carries1 carries2 :
  block_dec (sc_dec c0) 0 [] hfrags fs d1 carries1 ->
  trailers_dec d1 tfrags tr d2 carries2 ->
  let n := len (concat chunks) in
  outcome (within_limits cfg fs tr (carries1 ++ carries2) n) (hlimit fs tr carries1 carries2) (vacc2 cfg v0 fs tr n)
          fs chunks tr d2 (feeds c0 (req_frames sid hfrags chunks tfrags)).
Proof.
  intros B T n. rewrite req_frames_eq, feeds_app.
  set (esH := match tfrags with Some _ => false | None => is_nil chunks end).
  set (cH := feeds c0 (block_frames sid esH hfrags)).
  pose proof (block_run c0 (if esH then SHalfClosed else SOpen) v0 0 empty_req 0 esH (sc_dec c0) hfrags fs d1 carries1
                        (fun eh frag fs1 d1 n1 carry H => step_first esH eh frag fs1 d1 n1 carry H) B) as BF.
  fold cH in BF. unfold blk_final in BF. rewrite Z.add_0_l in BF.
  rewrite within_limits_eq. change (Z.of_N n) with (bytes_len chunks).
  set (hlim := hlimit fs tr carries1 carries2). set (lim := (hlim && _)%bool).
  assert (HLIM : hlim = true -> list_over cfg (fsize fs + fsize tr) = false /\ carries_over carries1 = false /\
                                carries_over carries2 = false).
  { unfold hlim, hlimit. intro H. repeat (apply andb_true_iff in H; destruct H as [H ?]).
    repeat match goal with X : negb _ = true |- _ => apply negb_true_iff in X end. auto. }
  assert (LIMH : lim = true -> hlim = true) by (unfold lim; intro H; apply andb_true_iff in H; apply H).
  assert (LIM : lim = true -> list_over cfg (fsize fs + fsize tr) = false /\ carries_over carries1 = false /\
                              carries_over carries2 = false /\ body_over cfg (bytes_len chunks) = false).
  { intro H. destruct (HLIM (LIMH H)) as (X1 & X2 & X3). repeat split; auto.
    unfold lim in H. apply andb_true_iff in H. destruct H as [_ H]. apply negb_true_iff in H. exact H. }
  assert (LIMI : list_over cfg (fsize fs + fsize tr) = false -> carries_over carries1 = false ->
                 carries_over carries2 = false -> body_over cfg (bytes_len chunks) = false -> lim = true).
  { unfold lim, hlim, hlimit. intros -> -> -> ->. reflexivity. }
  pose proof (fsize_nonneg tr) as Ptr.
  (* the stream is refused in the header block *)
  assert (DEAD1 : forall code, holds cH 0 (PhDead code d1) -> ok_code code -> lim && vacc2 cfg v0 fs tr n = false ->
                               outcome lim hlim (vacc2 cfg v0 fs tr n) fs chunks tr d2 (feeds cH (rest_frames chunks tfrags))).
  { intros code H K F. destruct (rest_from_dead cH code d1 chunks tfrags tr d2 carries2 H T) as [RJ PR].
    apply (outcome_cond _ _ _ _ _ _ _ _ code RJ); [|exact K | exact F]. intro L. apply PR. apply (HLIM L). }
  destruct (list_over cfg (fsize fs) || carries_over carries1)%bool eqn:A1.
  { (* over a limit in the header block *)
    assert (HL : hlim = false).
    { destruct hlim eqn:L; [|reflexivity]. destruct (HLIM eq_refl) as (L1 & L2 & _).
      apply orb_true_iff in A1. destruct A1 as [A1|A1]; [|congruence].
      rewrite (list_over_add _ _ Ptr A1) in L1. discriminate. }
    rewrite HL. apply outcome_rej; [|unfold lim; rewrite HL; reflexivity].
    exact (rest_from_rej cH d1 chunks tfrags tr d2 carries2 BF T). }
  apply orb_false_iff in A1. destruct A1 as [A1a A1b].
  unfold vacc2. unfold vacc2 in DEAD1.
  destruct (vrun cfg v0 fs) as [code|st1] eqn:V1.
  { apply (DEAD1 code BF (vrun_code _ _ _ V1)). apply andb_false_r. }
  destruct BF as [nf1 BF]. unfold blk_end in BF.
  destruct (v_valid st1) eqn:VV.
  2:{ apply (DEAD1 c_ProtocolError BF (or_introl eq_refl)). apply andb_false_r. }
  cbn [andb].
  destruct tfrags as [tf|]; cbn [trailers_dec rest_frames] in *.
  - (* trailers *)
    change esH with false in BF. cbn iota in BF. rewrite feeds_app.
    set (cD := feeds cH (data_frames sid false chunks)).
    pose proof (data_run chunks false cH st1 (fsize fs) nf1 (req_fold empty_req fs) 0 d1 BF bo0) as DR.
    fold cD in DR. unfold data_final in DR. cbv zeta in DR. cbn [andb] in DR. rewrite Z.add_0_l in DR.
    destruct (body_over cfg (bytes_len chunks)) eqn:BO.
    { assert (L : lim = false) by (destruct lim eqn:L; [destruct (LIM eq_refl) as (_ & _ & _ & X); congruence | reflexivity]).
      destruct (dead_block_run cD c_EnhanceYourCalm d1 true tf tr d2 carries2 DR T) as [RJ PR].
      apply (outcome_cond _ _ _ _ _ _ _ _ c_EnhanceYourCalm RJ); [|right; reflexivity | rewrite L; reflexivity].
      intro HL. apply PR. apply (HLIM HL). }
    pose proof (block_run cD SHalfClosed (v_setr st1) (fsize fs) (rq_append_body (req_fold empty_req fs) (concat chunks))
                          (bytes_len chunks) true d1 tf tr d2 carries2
                          (fun eh frag fs1 dd n1 carry H => step_trailers cD st1 (fsize fs) nf1 _ _ d1 eh frag fs1 dd n1 carry DR H) T) as TF.
    unfold blk_final in TF.
    destruct (list_over cfg (fsize fs + fsize tr) || carries_over carries2)%bool eqn:A2.
    { assert (HL : hlim = false).
      { destruct hlim eqn:L; [|reflexivity]. destruct (HLIM eq_refl) as (L1 & _ & L3).
        apply orb_true_iff in A2. destruct A2; congruence. }
      rewrite HL. apply outcome_rej; [exact TF | unfold lim; rewrite HL; reflexivity]. }
    apply orb_false_iff in A2. destruct A2 as [A2a A2b].
    assert (L : lim = true) by (apply LIMI; auto). rewrite L. unfold vacc.
    destruct (vrun cfg (v_setr st1) tr) as [code|st2] eqn:V2.
    { apply (outcome_dead true hlim false fs chunks tr d2 _ code TF (vrun_code _ _ _ V2) eq_refl). }
    destruct TF as [nf2 TF]. unfold blk_end in TF.
    rewrite (vrun_regular_valid tr (v_setr st1) st2 eq_refl V2) in TF. change (v_valid (v_setr st1)) with (v_valid st1) in TF.
    rewrite VV in TF. unfold bytes_len in TF at 1. fold n in TF. rewrite cl_okZ_ok in TF.
    destruct (v_cl_ok st2 n).
    + unfold outcome. cbn [andb]. exists st2, (fsize fs + fsize tr)%Z, nf2. exact TF.
    + apply (outcome_dead true hlim false fs chunks tr d2 _ c_ProtocolError TF (or_introl eq_refl) eq_refl).
  - (* no trailers *)
    destruct T as (-> & -> & ->). cbn [fsize fold_right] in LIMI. rewrite Z.add_0_r in LIMI.
    unfold vacc. cbn [vrun]. change (v_cl_ok (v_setr st1) n) with (v_cl_ok st1 n).
    destruct chunks as [|dt ch].
    + (* END_STREAM on the HEADERS frame *)
      change esH with true in BF. cbn iota in BF. cbn [data_frames SrvMsgReq.feeds fold_left].
      assert (L : lim = true) by (apply LIMI; auto using bo0). rewrite L.
      change 0%Z with (Z.of_N n) in BF at 1. rewrite cl_okZ_ok in BF.
      destruct (v_cl_ok st1 n).
      * unfold outcome. cbn [andb]. exists st1, (fsize fs), nf1. unfold final_req. cbn [concat req_fold fold_left].
        rewrite rq_append_body_nil. exact BF.
      * apply (outcome_dead true hlim false fs [] [] d1 _ c_ProtocolError BF (or_introl eq_refl) eq_refl).
    + change esH with false in BF. cbn iota in BF.
      pose proof (data_run (dt :: ch) true cH st1 (fsize fs) nf1 (req_fold empty_req fs) 0 d1 BF bo0) as DR.
      unfold data_final in DR. cbv zeta in DR. cbn [andb is_nil negb] in DR. rewrite Z.add_0_l in DR.
      destruct (body_over cfg (bytes_len (dt :: ch))) eqn:BO.
      { assert (L : lim = false) by (destruct lim eqn:L; [destruct (LIM eq_refl) as (_ & _ & _ & X); congruence | reflexivity]).
        apply (outcome_dead lim hlim _ fs (dt :: ch) [] d1 _ c_EnhanceYourCalm DR (or_intror eq_refl)). rewrite L. reflexivity. }
      assert (L : lim = true) by (apply LIMI; auto). rewrite L.
      unfold bytes_len in DR at 1. fold n in DR. rewrite cl_okZ_ok in DR.
      destruct (v_cl_ok st1 n).
      * unfold outcome. cbn [andb]. exists st1, (fsize fs), nf1. exact DR.
      * apply (outcome_dead true hlim false fs (dt :: ch) [] d1 _ c_ProtocolError DR (or_introl eq_refl) eq_refl).
Qed.

End Req.
