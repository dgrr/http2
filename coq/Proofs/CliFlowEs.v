(* Proofs/CliFlowEs.v - C07: DATA frame sizes against SETTINGS_MAX_FRAME_SIZE, END_STREAM exactly once and
   nothing on the stream after it, DATA only on streams whose body is pending. *)
From H2V Require Import Base.Bytes Base.MachineInt Base.Result Gen.GenConsts Impl.ServerConn Impl.ClientConn
     Proofs.CliBase Proofs.CliDefs Spec.FlowLedger Spec.Rfc7540Frames Proofs.CliFlowMoves Proofs.CliFlowOut Proofs.CliFlowSettings Proofs.CliFlowSafe.
From Coq Require Import ZArith Lia ZifyN ZifyNat ZifyBool List Bool.
Import ListNotations.
Local Open Scope N_scope.
Set Default Proof Using "Type".

Definition frames_of (sid : N) (l : list (bool * bytes)) : list coutev := map (fun x => COData sid (fst x) (snd x)) l.

(* END_STREAM on the last frame of the run, if at all *)
Inductive es_shape : list (bool * bytes) -> bool -> Prop :=
| es_none : es_shape [] false
| es_last e p : es_shape [(e, p)] e
| es_more p l e : es_shape l e -> l <> [] -> es_shape ((false, p) :: l) e.

Definition wd_step (mf : N) : N := if (mf =? 0) || (c_maxFrameSize <? mf) then c_defaultDataFrameSize else mf.

Lemma data_frames_shape fuel : forall sid step body endb, 0 < step -> (length body <= fuel)%nat ->
  exists l, cl_data_frames fuel sid step body endb = frames_of sid l /\ concat (map snd l) = body /\
            Forall (fun x => len (snd x) <= step) l /\ es_shape l endb /\ l <> [].
Proof.
  induction fuel as [|fuel IH]; intros sid step body endb ST FU; cbn [cl_data_frames].
  - exists [(endb, body)]. cbn [frames_of map fst snd concat]. rewrite app_nil_r.
    repeat split; try discriminate; [|constructor]. constructor; [|constructor]. cbn [snd]. unfold len. lia.
  - destruct (len body <=? step) eqn:E.
    + apply N.leb_le in E. exists [(endb, body)]. cbn [frames_of map fst snd concat]. rewrite app_nil_r.
      repeat split; try discriminate; [|constructor]. constructor; [exact E | constructor].
    + apply N.leb_gt in E.
      assert (FU' : (length (dropN step body) <= fuel)%nat) by (unfold dropN; rewrite skipn_length; unfold len in E; lia).
      destruct (IH sid step (dropN step body) endb ST FU') as (l & A & B & C & Dd & NE).
      exists ((false, takeN step body) :: l). cbn [frames_of map fst snd concat]. fold (frames_of sid l). rewrite A, B, takeN_dropN.
      repeat split; try discriminate.
      * constructor; [cbn [snd]; rewrite len_takeN; lia | exact C].
      * constructor; assumption.
Qed.

Lemma wd_step_pos mf : 0 < wd_step mf.
Proof.
  unfold wd_step. destruct (mf =? 0) eqn:E; cbn [orb]; [reflexivity|]. apply N.eqb_neq in E.
  destruct (c_maxFrameSize <? mf); [reflexivity | lia].
Qed.

Lemma write_data_shape mf sid body endb :
  exists l, cl_write_data mf sid body endb = frames_of sid l /\ concat (map snd l) = body /\
            Forall (fun x => len (snd x) <= wd_step mf) l /\ es_shape l endb /\ (l = [] <-> body = [] /\ endb = false).
Proof.
  unfold cl_write_data. fold (wd_step mf). destruct body as [|b0 bt].
  - destruct endb.
    + exists [(true, [])]. split; [reflexivity|]. split; [reflexivity|]. split; [constructor; [cbn; lia | constructor]|]. split; [constructor|]. split; [discriminate | intros [_ X]; discriminate].
    + exists []. split; [reflexivity|]. split; [reflexivity|]. split; [constructor|]. split; [constructor|]. split; auto.
  - destruct (data_frames_shape (length (b0 :: bt)) sid (wd_step mf) (b0 :: bt) endb (wd_step_pos mf) (le_n _)) as (l & A & B & C & Dd & NE).
    exists l. split; [exact A|]. split; [exact B|]. split; [exact C|]. split; [exact Dd|]. split; [intro; contradiction | intros [X _]; discriminate].
Qed.

Definition frame_sid (o : coutev) : option N :=
  match o with COHeaders sid _ _ | COData sid _ _ => Some sid | _ => None end.
Definition is_es (o : coutev) : bool :=
  match o with COHeaders _ es _ | COData _ es _ => es | _ => false end.

Lemma qclass_no_sid o : qclass o -> frame_sid o = None.
Proof. destruct o; cbn; try reflexivity; contradiction. Qed.

(* newest first: a frame is never preceded, on its stream, by a frame with END_STREAM *)
Fixpoint es_ok (l : list coutev) : Prop :=
  match l with
  | [] => True
  | o :: t => (forall sid, frame_sid o = Some sid -> forall o1, In o1 t -> frame_sid o1 = Some sid -> is_es o1 = false) /\ es_ok t
  end.

Lemma es_ok_quiet o t : frame_sid o = None -> es_ok t -> es_ok (o :: t).
Proof. intros H E. split; [intros sid X; congruence | exact E]. Qed.

Lemma es_shape_flags l e : es_shape l e -> forall x, In x l -> fst x = true -> e = true.
Proof.
  induction 1 as [|e p|p l e S IH NE]; intros x HI F.
  - destruct HI.
  - destruct HI as [<-|[]]. exact F.
  - destruct HI as [<-|HI]; [discriminate | apply (IH x HI F)].
Qed.

(* a run of DATA frames on sid after a trace none of whose frames on sid has END_STREAM *)
Lemma es_ok_run sid l e : es_shape l e -> forall out,
  es_ok out -> (forall o1, In o1 out -> frame_sid o1 = Some sid -> is_es o1 = false) ->
  es_ok (rev (frames_of sid l) ++ out).
Proof.
  induction 1 as [|e p|p l e S IH NE]; intros out E OLD; cbn [frames_of map rev app fst snd].
  - exact E.
  - split; [|exact E]. cbn [frame_sid]. intros s X. inversion X; subst s. exact OLD.
  - fold (frames_of sid l). rewrite <- app_assoc. cbn [app]. apply IH.
    + split; [|exact E]. cbn [frame_sid]. intros s X. inversion X; subst s. exact OLD.
    + intros o1 [<-|HI] F; [reflexivity | apply OLD; assumption].
Qed.

(* newest first: a DATA frame comes after a HEADERS frame without END_STREAM on its stream *)
Fixpoint hdr_ok (l : list coutev) : Prop :=
  match l with
  | [] => True
  | o :: t => (forall sid es p, o = COData sid es p -> exists blk, In (COHeaders sid false blk) t) /\ hdr_ok t
  end.

Lemma hdr_ok_run sid l : forall out, hdr_ok out -> (exists blk, In (COHeaders sid false blk) out) ->
  hdr_ok (rev (frames_of sid l) ++ out).
Proof.
  induction l as [|x l IH]; intros out H (blk & HB); cbn [frames_of map rev app]; [exact H|].
  fold (frames_of sid l). rewrite <- app_assoc. cbn [app]. apply IH.
  - split; [|exact H]. intros s es p X. inversion X; subst. exists blk. exact HB.
  - exists blk. right. exact HB.
Qed.

Lemma in_frames_of sid l o : In o (frames_of sid l) -> exists x, In x l /\ o = COData sid (fst x) (snd x).
Proof. unfold frames_of. intro H. apply in_map_iff in H. destruct H as (x & <- & HI). exists x. split; [exact HI | reflexivity]. Qed.

Lemma is_rl_dec e : is_rl e \/ ~ is_rl e.
Proof. destruct e; cbn; try (right; intros []; fail); left; exact I. Qed.

Section Es.
Variable hstate : Type.
Variable enc_field : hstate -> bytes -> bytes -> bool -> bytes * hstate.
Variable enc_set_max : hstate -> N -> hstate.
Notation cconn := (cconn hstate).
Notation move := (move hstate).
Notation apply := (apply hstate enc_field enc_set_max).
Notation valid := (valid hstate).
Notation items := (items hstate).

Record ES (c : cconn) : Prop := mkES {
  es_fresh : forall pb, In pb (cc_pending c) -> pb_id pb < cc_nextID c;
  es_nodup : NoDup (map pb_id (cc_pending c));
  es_q : Forall qclass (cc_outQ c);
  es_ids : forall o sid, In o (cc_out c) -> frame_sid o = Some sid -> sid < cc_nextID c;
  es_ended : forall o sid, In o (cc_out c) -> frame_sid o = Some sid -> is_es o = true -> ~ In sid (map pb_id (cc_pending c));
  es_hdr : forall id, In id (map pb_id (cc_pending c)) -> exists blk, In (COHeaders id false blk) (cc_out c);
  es_first : hdr_ok (cc_out c);
  es_out : es_ok (cc_out c)
}.

(* the pending ids shrink or stay, nothing else that matters changes *)
Lemma ES_sub (c c' : cconn) :
  cc_nextID c' = cc_nextID c -> cc_out c' = cc_out c -> (Forall qclass (cc_outQ c) -> Forall qclass (cc_outQ c')) ->
  (forall x, In x (map pb_id (cc_pending c')) -> In x (map pb_id (cc_pending c))) -> NoDup (map pb_id (cc_pending c')) ->
  ES c -> ES c'.
Proof.
  intros A B Q S ND [e1 e2 e3 e4 e5 e6 e7 e8]. constructor; rewrite ?A, ?B; auto.
  - intros pb HP. assert (X : In (pb_id pb) (map pb_id (cc_pending c))) by (apply S, in_map, HP).
    apply in_map_iff in X. destruct X as (q & <- & HQ). apply e1. exact HQ.
  - intros o sid HO F T X. exact (e5 o sid HO F T (S _ X)).
Qed.

Lemma ES_same (c c' : cconn) :
  cc_nextID c' = cc_nextID c -> cc_out c' = cc_out c -> (Forall qclass (cc_outQ c) -> Forall qclass (cc_outQ c')) ->
  cc_pending c' = cc_pending c -> ES c -> ES c'.
Proof.
  intros A B Q P E. apply (ES_sub c); auto; rewrite P; [auto | apply (es_nodup _ E)].
Qed.

Lemma hdr_ok_quiet l out : Forall qclass l -> hdr_ok out -> hdr_ok (l ++ out).
Proof. induction 1 as [|o t Q _ IH]; intro H; [exact H|]. split; [intros sid es p X; subst o; destruct Q | apply IH; exact H]. Qed.

Lemma es_ok_app_quiet l out : Forall qclass l -> es_ok out -> es_ok (l ++ out).
Proof. induction 1 as [|o t Q _ IH]; intro H; [exact H|]. apply es_ok_quiet; [apply qclass_no_sid; exact Q | apply IH; exact H]. Qed.

(* more items, none of them a frame on a stream *)
Lemma ES_quiet (c c' : cconn) l : cc_nextID c' = cc_nextID c -> cc_pending c' = cc_pending c -> Forall qclass (cc_outQ c') ->
  cc_out c' = l ++ cc_out c -> Forall qclass l -> ES c -> ES c'.
Proof.
  intros A B Q O QL [e1 e2 e3 e4 e5 e6 e7 e8].
  assert (OLD : forall o sid, In o (cc_out c') -> frame_sid o = Some sid -> In o (cc_out c)).
  { intros o sid HI F. rewrite O in HI. apply in_app_or in HI. destruct HI as [HI|HI]; [|exact HI].
    rewrite Forall_forall in QL. rewrite (qclass_no_sid o (QL o HI)) in F. discriminate. }
  constructor; rewrite ?A, ?B; auto.
  - intros o sid HI F. eauto.
  - intros o sid HI F. eauto.
  - intros id HI. destruct (e6 id HI) as (blk & H). exists blk. rewrite O. apply in_or_app. right. exact H.
  - rewrite O. apply hdr_ok_quiet; assumption.
  - rewrite O. apply es_ok_app_quiet; assumption.
Qed.

Lemma handle_settings_ids (c : cconn) st : map pb_id (cc_pending (cl_handle_settings c st)) = map pb_id (cc_pending c).
Proof.
  unfold cl_handle_settings. rewrite cc_pending_cl_write_out. unfold cl_apply_initial_window, cl_signal_window.
  destruct (cl_settings_has st c_HeaderTableSize), (cs_hasWin st); cc_cbn; try reflexivity; rewrite map_map; reflexivity.
Qed.

Lemma add_window_ids (c : cconn) sid inc : map pb_id (cc_pending (cl_add_window c sid inc)) = map pb_id (cc_pending c).
Proof.
  unfold cl_add_window, cl_signal_window. destruct (sid =? 0); [reflexivity|].
  destruct (cl_pend_get _ _); cc_cbn; [apply cl_pend_put_ids | reflexivity].
Qed.

(* a critical section takes the stream's body off c.pending, or updates it *)
Lemma cs_conn_sub (c : cconn) pb id x : In x (map pb_id (cc_pending (cs_conn c pb id))) -> In x (map pb_id (cc_pending c)).
Proof. unfold cs_conn. destruct (cs_end c pb); cc_cbn; [apply pend_del_ids_incl | rewrite cl_pend_put_ids; auto]. Qed.

Lemma cs_conn_nodup (c : cconn) pb id : NoDup (map pb_id (cc_pending c)) -> NoDup (map pb_id (cc_pending (cs_conn c pb id))).
Proof. intro ND. unfold cs_conn. destruct (cs_end c pb); cc_cbn; [apply pend_del_NoDup | rewrite cl_pend_put_ids]; exact ND. Qed.

Lemma ES_cs_conn (c : cconn) pb id : ES c -> ES (cs_conn c pb id).
Proof.
  intro E. apply (ES_sub c); [| | |apply cs_conn_sub | apply cs_conn_nodup, (es_nodup _ E) | exact E];
    unfold cs_conn; destruct (cs_end c pb); reflexivity || auto.
Qed.

Lemma ES_sb_pre (c : cconn) pb id : ES c -> ES (sb_pre hstate c pb id).
Proof.
  intro E. pose proof (ES_cs_conn c pb id E) as E2. unfold sb_pre. destruct (0 <? cs_n c pb)%Z; [|exact E2].
  apply (ES_sub (cs_conn c pb id)); [apply cc_nextID_cl_add_window | apply cc_out_cl_add_window | rewrite cc_outQ_cl_add_window; auto | | | exact E2];
    rewrite add_window_ids; [auto | apply (es_nodup _ E2)].
Qed.

Lemma mv_ES m (c : cconn) : valid m c -> ES c -> ES (apply m c).
Proof.
  intros V E.
  destruct (flow_move hstate m) eqn:FM.
  2:{ destruct (apply_quiet hstate enc_field enc_set_max m c FM) as (A1 & _ & _ & A4). pose proof (es_q _ E) as Q.
      apply (ES_quiet c _ (rev (items m c))); [exact A4 | exact A1 | apply outQ_apply; exact Q | apply out_apply | | exact E].
      apply Forall_rev, items_quiet; assumption. }
  destruct m; try discriminate FM.
  - (* MSettings *)
    cbn [apply]. destruct (cl_settings_deserialize false payload) as [st|] eqn:DS; [|exact E].
    pose proof (outQ_apply hstate enc_field enc_set_max (MSettings payload) c) as C. cbn [apply] in C. rewrite DS in C.
    apply (ES_sub c); [apply cc_nextID_cl_handle_settings | apply cc_out_cl_handle_settings | exact C | | | exact E];
      rewrite handle_settings_ids; [auto | apply (es_nodup _ E)].
  - (* MAddWindow *)
    cbn [apply]. apply (ES_sub c); [apply cc_nextID_cl_add_window | apply cc_out_cl_add_window | rewrite cc_outQ_cl_add_window; auto | | | exact E];
      rewrite add_window_ids; [auto | apply (es_nodup _ E)].
  - (* MPendDel *)
    cbn [apply]. apply (ES_sub c); try reflexivity; auto; cc_cbn.
    + intro x. apply pend_del_ids_incl.
    + apply pend_del_NoDup. apply (es_nodup _ E).
  - (* MPendAddDel *)
    destruct V as [PI IDS]. cbn [apply].
    assert (X : cl_pend_del (cc_pending c ++ [pb]) (pb_id pb) = cc_pending c).
    { apply pend_del_app_last. intros p HP. pose proof (es_fresh _ E p HP). flia. }
    rewrite X. apply (ES_same c); try reflexivity; auto.
  - (* MRefill *)
    destruct V as (pb & pb' & G & RC & RF). cbn [apply]. rewrite G, RF.
    apply (ES_sub c); try reflexivity; auto; cc_cbn; rewrite cl_pend_put_ids; [auto | apply (es_nodup _ E)].
  - (* MSend *)
    destruct V as (pb & G & RC & WR). rewrite (apply_send hstate enc_field enc_set_max c id pb wr G).
    destruct (cl_pend_get_In _ _ _ G) as [HI EI].
    assert (IDP : In id (map pb_id (cc_pending c))) by (rewrite <- EI; apply in_map; exact HI).
    pose proof (ES_cs_conn c pb id E) as E2.
    destruct wr; [|exact E2]. unfold cs_sent.
    destruct (write_data_shape (cc_maxFrame c) id (cs_chunk c pb) (cs_end c pb)) as (l & A & B & C & Dd & NE).
    rewrite A. set (c2 := cs_conn c pb id) in *.
    pose proof (cc_out_cl_notes hstate c2 (frames_of id l)) as OUT.
    assert (O2 : cc_out c2 = cc_out c) by (subst c2; unfold cs_conn; destruct (cs_end c pb); reflexivity).
    assert (N2 : cc_nextID c2 = cc_nextID c) by (subst c2; unfold cs_conn; destruct (cs_end c pb); reflexivity).
    assert (OLD : forall o1, In o1 (cc_out c2) -> frame_sid o1 = Some id -> is_es o1 = false).
    { intros o1 H1 F. destruct (is_es o1) eqn:T; [|reflexivity]. exfalso. rewrite O2 in H1. exact (es_ended _ E o1 id H1 F T IDP). }
    destruct (es_hdr _ E id IDP) as (blk & HB).
    destruct E2 as [e1 e2 e3 e4 e5 e6 e7 e8].
    constructor; rewrite ?cc_nextID_cl_notes, ?cc_pending_cl_notes, ?cc_outQ_cl_notes, ?OUT; auto.
    + intros o sid HO F. apply in_app_or in HO. destruct HO as [HO|HO]; [|eauto].
      apply in_rev, in_frames_of in HO. destruct HO as (x & _ & ->). cbn [frame_sid] in F. inversion F; subst sid.
      rewrite N2. pose proof (es_fresh _ E pb HI). rewrite EI in H. exact H.
    + intros o sid HO F T. apply in_app_or in HO. destruct HO as [HO|HO]; [|eauto].
      apply in_rev, in_frames_of in HO. destruct HO as (x & HX & ->). cbn [frame_sid is_es] in F, T. inversion F; subst sid.
      pose proof (es_shape_flags _ _ Dd x HX T) as EN. subst c2. unfold cs_conn. rewrite EN. cc_cbn.
      intro X. apply in_map_iff in X. destruct X as (p & PE & HP). exact (pend_del_not_In _ _ _ (es_nodup _ E) HP PE).
    + intros i HI2. destruct (e6 i HI2) as (b & H). exists b. apply in_or_app. right. exact H.
    + apply hdr_ok_run; [exact e7|]. exists blk. rewrite O2. exact HB.
    + apply (es_ok_run id l _ Dd); assumption.
  - (* MSendBack *)
    destruct V as (pb & G & RC). rewrite (apply_send_back hstate enc_field enc_set_max c id pb G). pose proof (ES_sb_pre c pb id E) as E3.
    destruct (cl_pend_get (cc_pending (sb_pre hstate c pb id)) id); [|exact E3].
    apply (ES_sub (sb_pre hstate c pb id)); try reflexivity; auto; cc_cbn; [intro x; apply pend_del_ids_incl | apply pend_del_NoDup, (es_nodup _ E3)].
  - (* MNextID *)
    cbn [apply]. cbn [valid] in V. rewrite (u32_next _ V). destruct E as [e1 e2 e3 e4 e5 e6 e7 e8]. constructor; cc_cbn; auto.
    + intros p HP. pose proof (e1 p HP). flia.
    + intros o sid HO F. pose proof (e4 o sid HO F). flia.
  - (* MHeaders *)
    destruct V as (CW & IDS & GA & OP & RQ & PB & _). cbn [apply]. rewrite (u32_next _ IDS).
    destruct E as [e1 e2 e3 e4 e5 e6 e7 e8].
    assert (NEW : forall o1, In o1 (cc_out c) -> frame_sid o1 = Some (cc_nextID c) -> is_es o1 = false).
    { intros o1 H1 F. pose proof (e4 o1 _ H1 F). flia. }
    assert (NIN : ~ In (cc_nextID c) (map pb_id (cc_pending c))).
    { intro X. apply in_map_iff in X. destruct X as (p & PE & HP). pose proof (e1 p HP). flia. }
    destruct opb as [pb|].
    + destruct (PB pb eq_refl) as [PI PW].
      constructor; cc_cbn; auto.
      * intros p HP. apply in_app_or in HP. destruct HP as [HP|[<-|[]]]; [pose proof (e1 p HP); flia | flia].
      * rewrite map_app. cbn [map]. apply NoDup_app_snoc; [exact e2 | rewrite PI; exact NIN].
      * intros o sid [<-|HO] F; [cbn [frame_sid] in F; inversion F; flia | pose proof (e4 o sid HO F); flia].
      * intros o sid [<-|HO] F T; [discriminate|]. rewrite map_app. cbn [map]. intro X. apply in_app_or in X.
        destruct X as [X|[X|[]]]; [exact (e5 o sid HO F T X)|]. rewrite PI in X. subst sid. pose proof (e4 o _ HO F). flia.
      * intros id HI. rewrite map_app in HI. cbn [map] in HI. apply in_app_or in HI. destruct HI as [HI|[<-|[]]].
        -- destruct (e6 id HI) as (b & H). exists b. right. exact H.
        -- exists blk. left. rewrite PI. reflexivity.
      * split; [|exact e7]. intros sid es p X. discriminate.
      * split; [|exact e8]. cbn [frame_sid]. intros s X. inversion X; subst s. exact NEW.
    + constructor; cc_cbn; auto.
      * intros p HP. pose proof (e1 p HP). flia.
      * intros o sid [<-|HO] F; [cbn [frame_sid] in F; inversion F; flia | pose proof (e4 o sid HO F); flia].
      * intros o sid [<-|HO] F T; [cbn [frame_sid] in F; inversion F; subst sid; exact NIN | eauto].
      * intros id HI. destruct (e6 id HI) as (b & H). exists b. right. exact H.
      * split; [|exact e7]. intros sid es p X. discriminate.
      * split; [|exact e8]. cbn [frame_sid]. intros s X. inversion X; subst s. exact NEW.
Qed.

End Es.

Section Fs.
Variable hstate : Type.
Variable dec_field : hstate -> N -> bytes -> dec_res hstate.
Variable enc_field : hstate -> bytes -> bytes -> bool -> bytes * hstate.
Variable enc_set_max : hstate -> N -> hstate.
Variable cfg : cl_config.
Variable h0 : hstate.
Variable first : bytes.
Notation cconn := (cconn hstate).
Notation move := (move hstate).
Notation apply := (apply hstate enc_field enc_set_max).
Notation valid := (valid hstate).
Notation items := (items hstate).
Notation mvs := (mvs enc_field enc_set_max).
Notation mitems := (mitems hstate enc_field enc_set_max).
Notation step := (cl_step dec_field enc_field enc_set_max cfg).
Notation run := (cl_run dec_field enc_field enc_set_max cfg h0 first).
Notation init := (cl_init enc_set_max h0 first).

(* the atomics the write loop reads are the server's values as merged so far, and MAX_FRAME_SIZE is in range *)
Record FS (c : cconn) : Prop := mkFS {
  fs_frame : cc_maxFrame c = cs_frame (cc_serverS c);
  fs_streams : cc_maxStreams c = cs_streams (cc_serverS c);
  fs_range : 16384 <= cc_maxFrame c <= 16777215
}.

Lemma apply_settings_fields m (c : cconn) : (forall p, m <> MSettings p) ->
  cc_maxFrame (apply m c) = cc_maxFrame c /\ cc_maxStreams (apply m c) = cc_maxStreams c /\ cc_serverS (apply m c) = cc_serverS c.
Proof.
  intro NS. destruct m; cbn [apply]; try (repeat split; fail).
  - destruct (quietb o); repeat split.
  - unfold cl_take_req_count. destruct (cl_req_find _ _); repeat split.
  - destruct (pushb o); [|repeat split]. unfold cl_write_out. destruct (cc_closed c); repeat split.
  - destruct (cc_outQ c); repeat split.
  - rewrite recv_data_eq. repeat split.
  - exfalso. exact (NS payload eq_refl).
  - unfold cl_add_window, cl_signal_window. destruct (sid =? 0); [repeat split|]. destruct (cl_pend_get _ _); repeat split.
  - destruct (cl_pend_get _ _) as [pb|]; [|repeat split]. destruct (cl_refill pb); repeat split.
  - destruct (cl_pend_get _ _) as [pb|]; [|repeat split].
    destruct wr; rewrite ?cc_maxFrame_cl_notes, ?cc_maxStreams_cl_notes, ?cc_serverS_cl_notes; unfold cs_conn; destruct (cs_end c pb); repeat split.
  - destruct (cl_pend_get _ _) as [pb|]; [|repeat split]. sb_cases c pb; repeat split.
  - destruct (negb _); repeat split.
  - destruct opb; repeat split.
Qed.

Lemma mv_FS m (c : cconn) : valid m c -> FS c -> FS (apply m c).
Proof.
  intros _ [f1 f2 f3].
  assert (SET : (exists p, m = MSettings p) \/ forall p, m <> MSettings p) by (destruct m; try (right; discriminate); left; eexists; reflexivity).
  destruct SET as [(p & ->)|NS].
  - cbn [apply]. destruct (cl_settings_deserialize false p) as [st|] eqn:DS; [|constructor; assumption].
    pose proof (settings_merge_delta _ _ (cc_serverS c) DS) as MD.
    destruct (deserialize_facts _ _ DS) as (_ & VAL & _).
    unfold cl_handle_settings, cl_apply_initial_window, cl_signal_window, cl_write_out. cc_cbn.
    assert (R : 16384 <= cs_frame (cl_settings_merge st (cc_serverS c)) <= 16777215).
    { rewrite MD. cbn [cs_frame]. apply pairs_last_frame_range; [exact VAL | rewrite <- f1; exact f3]. }
    destruct (cl_settings_has st c_HeaderTableSize), (cs_hasWin st); cc_cbn;
      match goal with |- context [if ?b then _ else _] => destruct b end; constructor; cc_cbn; auto.
  - destruct (apply_settings_fields m c NS) as (A & B & C). constructor; rewrite ?A, ?B, ?C; assumption.
Qed.

Lemma FS_init : cl_settings_deserialize false first <> None -> FS init.
Proof.
  intro NN. unfold cl_init. destruct (cl_settings_deserialize false first) as [st|] eqn:DS; [|congruence].
  pose proof (settings_merge_delta _ _ cl_settings_default DS) as MD.
  destruct (deserialize_facts _ _ DS) as (_ & VAL & _).
  constructor; cc_cbn; try reflexivity. rewrite MD. cbn [cs_frame]. apply pairs_last_frame_range; [exact VAL|].
  cbn [cl_settings_default cs_frame]. unfold c_defaultDataFrameSize. flia.
Qed.

(* a DATA frame a move writes is within the MAX_FRAME_SIZE in force, on a stream with a pending body *)
Lemma item_small m (c : cconn) sid es p : valid m c -> FS c -> ES hstate c ->
  In (COData sid es p) (items m c) -> len p <= cc_maxFrame c /\ In sid (map pb_id (cc_pending c)).
Proof.
  intros V F E HI. destruct m; cbn [items] in HI; try (destruct HI; fail).
  - destruct (quietb o) eqn:Q; [|destruct HI]. destruct HI as [->|[]]. discriminate.
  - destruct (cc_outQ c) as [|o q] eqn:Q; [destruct HI|]. destruct HI as [->|[]].
    pose proof (es_q _ _ E) as QQ. rewrite Q in QQ. inversion QQ as [|? ? QO QT]. destruct QO.
  - (* MWlReset *) destruct HI as [X|[]]. discriminate.
  - destruct V as (pb & G & _). rewrite G in HI. destruct wr; [|destruct HI].
    destruct (write_data_shape (cc_maxFrame c) id (cs_chunk c pb) (cs_end c pb)) as (l & A & _ & C & _).
    rewrite A in HI. apply in_frames_of in HI. destruct HI as (x & HX & X). inversion X; subst.
    rewrite Forall_forall in C. specialize (C x HX). destruct F as [_ _ [R1 R2]].
    assert (W : wd_step (cc_maxFrame c) = cc_maxFrame c).
    { unfold wd_step. destruct (cc_maxFrame c =? 0) eqn:Z0; [apply N.eqb_eq in Z0; flia|]. cbn [orb].
      destruct (c_maxFrameSize <? cc_maxFrame c) eqn:Z1; [apply N.ltb_lt in Z1; unfold c_maxFrameSize in Z1; flia | reflexivity]. }
    rewrite W in C. split; [exact C|]. destruct (cl_pend_get_In _ _ _ G) as [HP <-]. apply in_map. exact HP.
  - destruct HI as [X|[]]. discriminate.
Qed.

(* the ids with a pending body only grow by the stream a HEADERS frame opens; ids are handed out upwards *)
Lemma apply_ids m (c : cconn) : valid m c ->
  cc_nextID c <= cc_nextID (apply m c) /\
  forall x, In x (map pb_id (cc_pending (apply m c))) -> In x (map pb_id (cc_pending c)) \/ x = cc_nextID c.
Proof.
  intro V.
  assert (SAME : cc_nextID (apply m c) = cc_nextID c ->
                 (forall x, In x (map pb_id (cc_pending (apply m c))) -> In x (map pb_id (cc_pending c))) ->
                 cc_nextID c <= cc_nextID (apply m c) /\
                 forall x, In x (map pb_id (cc_pending (apply m c))) -> In x (map pb_id (cc_pending c)) \/ x = cc_nextID c).
  { intros -> S. split; [apply N.le_refl | intros x H; left; apply S; exact H]. }
  destruct (flow_move hstate m) eqn:FM; [|destruct (apply_quiet hstate enc_field enc_set_max m c FM) as (A1 & _ & _ & A4); apply SAME; rewrite ?A1; auto].
  destruct m; try discriminate FM.
  - apply SAME; cbn [apply]; destruct (cl_settings_deserialize false payload) as [st|]; auto;
      [apply cc_nextID_cl_handle_settings | rewrite handle_settings_ids; auto].
  - apply SAME; cbn [apply]; [apply cc_nextID_cl_add_window | rewrite add_window_ids; auto].
  - apply SAME; [reflexivity | cbn [apply]; cc_cbn; intro x; apply pend_del_ids_incl].
  - destruct V as [PI _]. cbn [apply]. split; [apply N.le_refl|]. intros x H. cc_cbn_in H. apply pend_del_ids_incl in H.
    rewrite map_app in H. apply in_app_or in H. destruct H as [H|[H|[]]]; [left; exact H | right; rewrite <- H; exact PI].
  - apply SAME; cbn [apply]; (destruct (cl_pend_get _ _) as [pb|]; [destruct (cl_refill pb)|]); cc_cbn; rewrite ?cl_pend_put_ids; auto.
  - destruct V as (pb & G & _). pose proof (cs_conn_sub hstate c pb id) as SUB.
    assert (N2 : cc_nextID (cs_conn c pb id) = cc_nextID c) by (unfold cs_conn; destruct (cs_end c pb); reflexivity).
    apply SAME; rewrite (apply_send hstate enc_field enc_set_max c id pb wr G); destruct wr; unfold cs_sent;
      rewrite ?cc_nextID_cl_notes, ?cc_pending_cl_notes; assumption.
  - destruct V as (pb & G & _). pose proof (cs_conn_sub hstate c pb id) as SUB.
    assert (N3 : cc_nextID (sb_pre hstate c pb id) = cc_nextID c) by (unfold sb_pre, cs_conn; destruct (0 <? cs_n c pb)%Z, (cs_end c pb); reflexivity).
    assert (S3 : forall x, In x (map pb_id (cc_pending (sb_pre hstate c pb id))) -> In x (map pb_id (cc_pending c))).
    { unfold sb_pre. destruct (0 <? cs_n c pb)%Z; [rewrite add_window_ids|]; exact SUB. }
    apply SAME; rewrite (apply_send_back hstate enc_field enc_set_max c id pb G);
      destruct (cl_pend_get (cc_pending (sb_pre hstate c pb id)) id); cc_cbn; try exact N3; try exact S3.
    intros x H. apply S3. apply pend_del_ids_incl in H. exact H.
  - cbn [valid] in V. cbn [apply]. cc_cbn. rewrite (u32_next _ V). split; [flia | intros x H; left; exact H].
  - destruct V as (_ & IDS & _ & _ & _ & PB & _). cbn [apply]. rewrite (u32_next _ IDS). destruct opb as [pb|]; cc_cbn.
    + split; [flia|]. intros x H. rewrite map_app in H. apply in_app_or in H. destruct H as [H|[H|[]]]; [left; exact H|].
      right. rewrite <- H. apply (PB pb eq_refl).
    + split; [flia | intros x H; left; exact H].
Qed.

Lemma items_rl_nodata e m (c : cconn) sid es p : is_rl e -> ev_ok e m -> ~ In (COData sid es p) (items m c).
Proof.
  intros R E HI. pose proof (items_rl_quiet hstate e m c R E) as Q.
  apply in_split in HI. destruct HI as (a & b & X). rewrite X in Q. rewrite ledger_out_app in Q.
  apply app_eq_nil in Q. destruct Q as [_ Q]. discriminate.
Qed.

Lemma mitems_rl_nodata e ms sid es p : is_rl e -> Forall (ev_ok e) ms -> forall (c0 : cconn), ~ In (COData sid es p) (mitems c0 ms).
Proof.
  intros R F. induction F as [|m' t' B1 B2 IH']; intros c0 HI; cbn [CliFlowOut.mitems] in HI; [destruct HI|].
  apply in_app_or in HI. destruct HI as [HI|HI]; [exact (items_rl_nodata e m' c0 sid es p R B1 HI) | exact (IH' _ HI)].
Qed.

Lemma mvs_data e (c : cconn) ms c' : mvs c ms c' -> Forall (ev_ok e) ms -> FS c -> ES hstate c ->
  forall sid es p, In (COData sid es p) (mitems c ms) ->
  len p <= cc_maxFrame c /\ (In sid (map pb_id (cc_pending c)) \/ cc_nextID c <= sid).
Proof.
  induction 1 as [c|c m ms c' V M IH]; intros FA F E sid es p HI; cbn [CliFlowOut.mitems] in HI; [destruct HI|].
  inversion FA as [|? ? A1 A2]; subst.
  apply in_app_or in HI. destruct HI as [HI|HI].
  - destruct (item_small m c sid es p V F E HI) as [X Y]. split; [exact X | left; exact Y].
  - assert (RL : is_rl e \/ ~ is_rl e) by apply is_rl_dec.
    destruct RL as [R|R].
    + exfalso. exact (mitems_rl_nodata e ms sid es p R A2 _ HI).
    + assert (NS : forall q, m <> MSettings q).
      { intros q ->. cbn in A1. destruct A1 as (fr & -> & _). apply R. exact I. }
      destruct (apply_settings_fields m c NS) as (S1 & _ & _).
      destruct (apply_ids m c V) as [I1 I2].
      destruct (IH A2 (mv_FS m c V F) (mv_ES hstate enc_field enc_set_max m c V E) sid es p HI) as [X Y].
      split; [rewrite <- S1; exact X|]. destruct Y as [Y|Y]; [|right; clear - I1 Y; lia].
      destruct (I2 _ Y) as [Z|Z]; [left; exact Z | right; rewrite Z; apply N.le_refl].
Qed.

Lemma ES_init : ES hstate init.
Proof.
  unfold cl_init. destruct (cl_settings_deserialize false first); constructor; cc_cbn; cbn [map es_ok hdr_ok];
    try exact I; try (constructor; fail); try (intros ? []; fail); try (intros ? ? []; fail).
Qed.

Lemma ES_run evs : ES hstate (run evs).
Proof. apply (run_inv hstate dec_field enc_field enc_set_max cfg h0 first); [exact ES_init | apply mv_ES]. Qed.

Lemma FS_run evs : cl_settings_deserialize false first <> None -> FS (run evs).
Proof. intro NN. apply (run_inv hstate dec_field enc_field enc_set_max cfg h0 first); [apply FS_init; exact NN | apply mv_FS]. Qed.

Lemma es_ok_split a : forall o2 b, es_ok (a ++ o2 :: b) ->
  forall sid o1, frame_sid o2 = Some sid -> In o1 b -> frame_sid o1 = Some sid -> is_es o1 = false.
Proof.
  induction a as [|x a IH]; intros o2 b E sid o1 F2 HI F1; cbn [app es_ok] in E.
  - destruct E as [E _]. exact (E sid F2 o1 HI F1).
  - destruct E as [_ E]. exact (IH _ _ E sid o1 F2 HI F1).
Qed.

(* C07 (b): of two frames (HEADERS or DATA) the client writes on one stream, the earlier one has no END_STREAM:
   at most one END_STREAM per stream, and no HEADERS or DATA after it *)
Theorem end_stream_once evs pre o1 mid o2 post sid :
  cl_trace (run evs) = pre ++ o1 :: mid ++ o2 :: post ->
  frame_sid o1 = Some sid -> frame_sid o2 = Some sid -> is_es o1 = false.
Proof.
  intros T F1 F2. pose proof (es_out _ _ (ES_run evs)) as E. unfold cl_trace in T.
  assert (O : cc_out (run evs) = rev post ++ o2 :: (rev mid ++ o1 :: rev pre)).
  { rewrite <- (rev_involutive (cc_out (run evs))), T. rewrite rev_app_distr. cbn [rev]. rewrite rev_app_distr. cbn [rev].
    rewrite <- !app_assoc. cbn [app]. reflexivity. }
  rewrite O in E. apply (es_ok_split _ _ _ E sid o1 F2); [|exact F1]. apply in_or_app. right. left. reflexivity.
Qed.

Lemma hdr_ok_split a : forall o b, hdr_ok (a ++ o :: b) ->
  forall sid es p, o = COData sid es p -> exists blk, In (COHeaders sid false blk) b.
Proof.
  induction a as [|x a IH]; intros o b H sid es p X; cbn [app hdr_ok] in H.
  - destruct H as [H _]. exact (H sid es p X).
  - destruct H as [_ H]. exact (IH _ _ H sid es p X).
Qed.

(* every DATA frame comes after a HEADERS frame without END_STREAM on its stream *)
Theorem data_after_headers evs pre sid es p post :
  cl_trace (run evs) = pre ++ COData sid es p :: post -> exists blk, In (COHeaders sid false blk) pre.
Proof.
  intro T. pose proof (es_first _ _ (ES_run evs)) as H. unfold cl_trace in T.
  assert (O : cc_out (run evs) = rev post ++ COData sid es p :: rev pre).
  { rewrite <- (rev_involutive (cc_out (run evs))), T. rewrite rev_app_distr. cbn [rev]. rewrite <- app_assoc. reflexivity. }
  rewrite O in H. destruct (hdr_ok_split _ _ _ H sid es p eq_refl) as (blk & HB). exists blk. apply in_rev. exact HB.
Qed.

(* C07 (a): no DATA frame is larger than the SETTINGS_MAX_FRAME_SIZE in force when the step that writes it starts
   (cc_maxFrame: the last value the read loop has stored, 16384 until the server says otherwise), and DATA is
   written only on a stream whose body is pending when the step starts, or that the step opens *)
Theorem data_frames_small evs e sid es p : cl_settings_deserialize false first <> None ->
  In (COData sid es p) (g_new hstate (run evs) (step (run evs) e)) ->
  len p <= cc_maxFrame (run evs) /\ 16384 <= cc_maxFrame (run evs) <= 16777215 /\
  (In sid (map pb_id (cc_pending (run evs))) \/ cc_nextID (run evs) <= sid).
Proof.
  intros NN HI. destruct (step_D hstate dec_field enc_field enc_set_max cfg (run evs) e) as (ms & M & F & _).
  rewrite (mvs_new _ _ _ _ _ _ M) in HI.
  destruct (mvs_data e _ _ _ M F (FS_run evs NN) (ES_run evs) sid es p HI) as [A B].
  split; [exact A|]. split; [apply (fs_range _ (FS_run evs NN)) | exact B].
Qed.

End Fs.
