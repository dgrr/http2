(* Proofs/SrvFlowCRing.v - C06 completion: the ids remembered in the ring of closed streams, and the ids in the table,
   are at most sc_highestID (for every event list, while the stream loop runs). Needed to know that a stream that
   is created in the table has never been opened in the peer's ledger before. *)
From H2V Require Import Base.Bytes Base.MachineInt Base.Result Gen.GenConsts Impl.ServerConn Proofs.SrvBase
  Spec.FlowLedger Proofs.SrvFlowLedger Proofs.SrvFlowDefs Proofs.SrvFlowSend Proofs.SrvFlowEff Proofs.SrvFlowSafe
  Proofs.SrvFlowSafeB Proofs.SrvFlowSafeC Proofs.SrvFlowCDecomp Proofs.SrvInvFrame.
From Coq Require Import ZArith Lia ZifyN ZifyNat ZifyBool List.
Import ListNotations.
Local Open Scope N_scope.
Set Default Proof Using "Type".

Section Ring.
Variable hstate : Type.
Variable dec_field : hstate -> N -> bytes -> dec_res hstate.
Variable enc_field : hstate -> bytes -> bytes -> bool -> bytes * hstate.
Variable enc_set_max : hstate -> N -> hstate.
Variable cfg : config.
Notation sconn := (sconn hstate).
Implicit Types c : sconn.
Notation RI := (RI hstate).
Notation RIP := (RIP hstate).

Lemma RIP_close_id c s : st_id s <= sc_highestID c -> RIP c (close_stream c s).
Proof.
  intros Hid [A B]. split.
  - rewrite sc_highestID_close_stream, sc_ring_close_stream. intros e He.
    destruct (mark_closed_ring_In _ _ _ _ _ He) as [->|H]; [exact Hid | auto].
  - rewrite sc_highestID_close_stream, sc_strms_close_stream. intros x Hx. apply B. eapply strms_del_In. exact Hx.
Qed.

Lemma SDL_RIP sid c n r k : SDL sid c n r k -> RIP c (fst (fst (fst r))).
Proof. intro H. rewrite (SDL_nf _ _ _ _ _ _ H). apply RIP_same; sc_cbn; try reflexivity; flia. Qed.

Lemma send_data_RIP c s : RIP c (fst (fst (send_data c s))).
Proof.
  unfold send_data.
  destruct (send_data_loop_SDL _ (st_id s) (send_data_fuel (get_snd s)) c (get_snd s)) as [k H].
  pose proof (SDL_RIP _ _ _ _ _ H) as R.
  destruct (send_data_loop (send_data_fuel (get_snd s)) c (st_id s) (get_snd s)) as [[[c1 n1] done] wr]. exact R.
Qed.

Lemma send_data_hi c s : sc_highestID (fst (fst (send_data c s))) = sc_highestID c.
Proof.
  unfold send_data.
  destruct (send_data_loop_SDL _ (st_id s) (send_data_fuel (get_snd s)) c (get_snd s)) as [k H].
  pose proof (SDL_Frame _ _ _ _ _ _ H) as (_ & _ & _ & _ & E).
  destruct (send_data_loop (send_data_fuel (get_snd s)) c (st_id s) (get_snd s)) as [[[c1 n1] done] wr]. exact E.
Qed.

Lemma send_data_id c s : st_id (snd (fst (send_data c s))) = st_id s.
Proof.
  unfold send_data.
  destruct (send_data_loop (send_data_fuel (get_snd s)) c (st_id s) (get_snd s)) as [[[c1 n1] done] wr].
  cbn [fst snd]. destruct wr; reflexivity.
Qed.

Lemma finish_request_RIP c s r : RIP c (fst (fst (finish_request enc_field c s r))).
Proof.
  unfold finish_request. destruct (response_block enc_field (sc_enc c) r) as [blk e'].
  match goal with |- context [if ?b then _ else _] => destruct b end; cbn [fst].
  - eapply RIP_trans; [apply RIP_upd_enc | apply RIP_emit].
  - eapply RIP_trans; [apply RIP_upd_enc|]. eapply RIP_trans; [apply RIP_emit | apply send_data_RIP].
Qed.

Lemma finish_request_id_hi c s r :
  st_id (snd (fst (finish_request enc_field c s r))) = st_id s /\
  sc_highestID (fst (fst (finish_request enc_field c s r))) = sc_highestID c.
Proof.
  unfold finish_request. destruct (response_block enc_field (sc_enc c) r) as [blk e'].
  match goal with |- context [if ?b then _ else _] => destruct b end; cbn [fst snd].
  - split; [reflexivity | rewrite sc_highestID_emit; reflexivity].
  - rewrite send_data_id, send_data_hi, sc_highestID_emit. split; reflexivity.
Qed.

Lemma flush_loop_RIP ids : forall c done, RIP c (fst (flush_loop c ids done)).
Proof.
  induction ids as [|id t IH]; intros c done; cbn [flush_loop]; [apply RIP_refl|].
  destruct (strms_search (sc_strms c) id) as [s|]; [|apply IH].
  destruct (st_responded s && negb (st_handlerRunning s) && has_more_to_send s); [|apply IH].
  pose proof (send_data_RIP c s) as R. destruct (send_data c s) as [[c1 s1] fin]. cbn [fst] in R.
  eapply RIP_trans; [exact R|]. eapply RIP_trans; [apply RIP_put | apply IH].
Qed.

Lemma close_all_RIP ids : forall c, RIP c (close_all c ids).
Proof.
  induction ids as [|id t IH]; intro c; cbn [close_all]; [apply RIP_refl|].
  destruct (strms_search (sc_strms c) id) as [s|] eqn:F; [|apply IH].
  eapply RIP_trans; [|apply IH]. apply RIP_close_stream. cbn [st_id set_state].
  apply strms_search_In in F. destruct F as [Hin <-]. apply in_map. exact Hin.
Qed.

Lemma flush_streams_RIP c : RIP c (flush_streams c).
Proof.
  unfold flush_streams. pose proof (flush_loop_RIP (map st_id (sc_strms c)) c []) as R.
  destruct (flush_loop c (map st_id (sc_strms c)) []) as [c1 done]. cbn [fst] in R.
  eapply RIP_trans; [exact R | apply close_all_RIP].
Qed.

Lemma after_frame_RIP c s fr wc : st_id s <= sc_highestID c -> RIP c (fst (after_frame cfg c s fr wc)).
Proof.
  intro Hid. destruct (after_frame_cases _ cfg c s fr wc) as (c2 & s2 & M & E).
  destruct (handle_state_eff fr s) as ((I1 & _) & _). set (s1 := handle_state fr s) in *.
  assert (M' : RIP c c2 /\ st_id s2 = st_id s /\ sc_highestID c2 = sc_highestID c).
  { destruct M as [s0 _ _|s0 _ _|c1 s3 fin _ _ SD|_ _].
    - split; [apply RIP_write_reset|]. split; [exact I1 | apply sc_highestID_write_reset].
    - split; [apply RIP_note|]. split; [exact I1 | reflexivity].
    - pose proof (send_data_RIP c s1) as R. pose proof (send_data_id c s1) as E1. pose proof (send_data_hi c s1) as E'.
      rewrite SD in *. cbn [fst snd] in *.
      split; [exact R|]. split; [destruct fin; cbn [st_id set_state]; congruence | exact E'].
    - split; [apply RIP_refl|]. split; [exact I1 | reflexivity]. }
  destruct M' as (R & I2 & H2).
  assert (G : RIP c (put_close c2 s2)).
  { eapply RIP_trans; [exact R|]. unfold put_close. destruct (sstate_eqb (st_state s2) SClosed).
    - eapply RIP_trans; [apply RIP_put|]. apply RIP_close_id. rewrite sc_highestID_put, I2, H2. exact Hid.
    - apply RIP_put. }
  destruct E as [-> | ->]; [exact G | eapply RIP_trans; [exact G | apply RIP_brk]].
Qed.

Lemma sc_ring_handle_frame c s fr : sc_ring (fst (fst (handle_frame dec_field cfg c s fr))) = sc_ring c.
Proof.
  destruct (fkind_eqb (sf_kind fr) KData) eqn:K.
  - assert (K' : sf_kind fr = KData) by (destruct (sf_kind fr); try discriminate; reflexivity).
    pose proof (handle_frame_data _ dec_field cfg c s fr K') as D. cbv zeta in D. destruct (data_accepts s).
    + rewrite D. match goal with |- context [if ?b then _ else _] => destruct b end; cbn [fst]; rewrite ?sc_ring_consume_recv_window, ?sc_ring_credit_conn_window; reflexivity.
    + destruct D as (code & _ & ->). reflexivity.
  - destruct (handle_frame_eff _ dec_field cfg c s fr) as (_ & _ & D).
    destruct D as (d & i & p & n & ->); [intro K'; rewrite K' in K; discriminate | reflexivity].
Qed.

Lemma HFok_RIP c2 s fr cX sX : HFok dec_field cfg c2 s fr cX sX -> RIP c2 cX /\ st_id sX = st_id s.
Proof.
  unfold HFok. intro HF.
  pose proof (sc_ring_handle_frame c2 s fr) as RG.
  pose proof (handle_frame_Recv _ dec_field cfg c2 s fr) as R.
  pose proof (handle_frame_eff _ dec_field cfg c2 s fr) as (SS & _ & _).
  destruct (handle_frame dec_field cfg c2 s fr) as [[c3 s3] e]. cbn [fst snd] in *.
  assert (I3 : st_id s3 = st_id s) by apply SS.
  assert (R3 : RIP c2 c3) by (apply RIP_Recv_ring; assumption).
  destruct e as [[code|code|]|].
  - destruct HF as (_ & -> & ->). split; [eapply RIP_trans; [exact R3 | apply RIP_write_goaway] | exact I3].
  - destruct HF as (-> & ->). split; [eapply RIP_trans; [exact R3 | apply RIP_write_reset] | exact I3].
  - contradiction.
  - destruct HF as (-> & ->). split; [exact R3 | exact I3].
Qed.

Lemma Origin_RIP c fr c1 s : Origin c fr c1 s -> RI c -> RI c1 /\ st_id s <= sc_highestID c1.
Proof.
  intros O [A B]. destruct O as [s LE F | KH FD HI LA].
  - split; [split; assumption|]. apply strms_search_In in F. destruct F as [Hin _]. auto.
  - sc_cbn. split; [|unfold new_strm; cbn; flia]. split.
    + sc_cbn. intros e He. specialize (A e He). flia.
    + sc_cbn. intros x Hx. apply in_app_or in Hx. destruct Hx as [Hx|[<-|[]]]; [specialize (B x Hx); flia | unfold new_strm; cbn; flia].
Qed.

Lemma sl_frame_RI c fr : RI c ->
  sc_sl_done (fst (sl_frame dec_field enc_set_max cfg c fr)) = true \/ RI (fst (sl_frame dec_field enc_set_max cfg c fr)).
Proof.
  intro H.
  destruct (sl_frame_SLX _ dec_field enc_set_max cfg c fr)
    as [c' Q R G0 G1 HH D | c' F O SD | Z K HW c0 newInit delta Fa | Z K W | NZ K | c1 s p NZ Or KH Hp | c1 s c2 cX sX NZ Or CL HF].
  - right. apply R, H.
  - left. exact SD.
  - right. apply flush_streams_RIP. destruct H as [A B]. split.
    + rewrite sc_ring_emit, sc_highestID_emit. sc_cbn. unfold c0, settings_c0. destruct (sf_set_hastable fr); exact A.
    + rewrite sc_strms_emit, sc_highestID_emit. sc_cbn. intros x Hx. apply in_map_iff in Hx. destruct Hx as (x0 & <- & H0).
      cbn [bump st_id set_window]. unfold c0, settings_c0. destruct (sf_set_hastable fr); apply B, H0.
  - right. apply flush_streams_RIP. revert H. apply RIP_same; sc_cbn; try reflexivity; flia.
  - right. revert H. apply RIP_credit.
  - right. destruct (Origin_RIP _ _ _ _ Or H) as [H1 _]. revert H1.
    eapply RIP_trans; [apply RIP_write_goaway | apply RIP_put].
  - right. destruct (Origin_RIP _ _ _ _ Or H) as [H1 I1].
    pose proof (cr_ri _ _ _ CL H1) as H2.
    destruct (HFok_RIP _ _ _ _ _ HF) as [RX IX]. pose proof (RX H2) as HX.
    apply after_frame_RIP; [|exact HX]. rewrite IX.
    destruct (HFok_eff _ dec_field cfg c2 s fr cX sX HF) as (c3 & s3 & Rc & Qc & _).
    pose proof (q_highestID _ _ _ Qc). pose proof (rv_highestID _ _ _ Rc). pose proof (cl_highestID _ _ _ (cr_closes _ _ _ CL)). flia.
Qed.

Lemma sc_ring_rl_step c i : sc_ring (rl_step cfg c i) = sc_ring c.
Proof. (* the ring is the fifth component of slview *)
  exact (f_equal (fun v => snd (fst (fst (fst (fst (fst v)))))) (rl_step_frame _ cfg c i)).
Qed.

Lemma sl_done_RI c sid r : RI c -> RI (fst (sl_done enc_field cfg c sid r)).
Proof.
  intro H. unfold sl_done. destruct (take_stream (sc_gone c) sid) as [[s rest]|].
  - cbn [fst cont]. revert H. rewrite release_stream_eq. apply RIP_same; [reflexivity | reflexivity | apply N.le_refl].
  - destruct (strms_search (sc_strms c) sid) as [s|] eqn:F; [|exact H].
    destruct (negb (st_handlerRunning s)); [exact H|].
    apply strms_search_In in F. destruct F as [Hin Hid].
    set (s1 := set_flags s (st_responded s) false (st_abandoned s)).
    pose proof (finish_request_RIP c s1 r H) as H1. destruct (finish_request_id_hi c s1 r) as [I1 E1].
    destruct (finish_request enc_field c s1 r) as [[c1 s2] fin]. cbn [fst snd] in *.
    assert (Hle : st_id s2 <= sc_highestID c1).
    { rewrite I1, E1. subst s1. cbn [st_id set_flags]. apply H, Hin. }
    match goal with |- context [if ?b then brk ?x else cont ?x] => assert (G : RI x) end.
    { destruct fin.
      - apply RIP_close_id; [rewrite sc_highestID_put; exact Hle | apply RIP_put, H1].
      - apply RIP_put, H1. }
    match goal with |- context [if ?b then brk ?x else cont ?x] => destruct b end; cbn [fst cont]; [|exact G].
    apply RIP_brk, G.
Qed.

Variable h0 : hstate.
Notation step := (step dec_field enc_field enc_set_max cfg).

Definition RInv c : Prop := sc_sl_done c = true \/ RI c.

Lemma step_RI c e : RInv c -> RInv (step c e).
Proof.
  intro H. destruct e as [i| |sid r|t| | | |].
  - rewrite step_EvRL. destruct (sc_rl_done c); [exact H|].
    destruct (rl_step_eff _ cfg c i) as [[r1 r2 r3 r4 r5 r6 r7 r8 r9 r10] _].
    destruct H as [H|H]; [left; congruence | right]. revert H.
    apply RIP_same; [apply sc_ring_rl_step | exact r1 | rewrite r6; flia].
  - rewrite step_EvSL. destruct (sc_sl_done c) eqn:SD; [left; exact SD|]. destruct H as [H|H]; [congruence|].
    destruct (sc_readerQ c) as [|fr q].
    + destruct (sc_rl_done c); [left; reflexivity | right; exact H].
    + apply sl_frame_RI. revert H. apply RIP_same; sc_cbn; try reflexivity; flia.
  - rewrite step_EvDone. destruct (sc_sl_done c) eqn:SD; [left; exact SD|]. destruct H as [H|H]; [congruence|].
    right. apply sl_done_RI, H.
  - rewrite step_EvClock. destruct (sc_now c <? t)%Z; [|exact H].
    destruct H as [H|H]; [left; exact H | right]. revert H. apply RIP_same; sc_cbn; try reflexivity; flia.
  - rewrite step_EvTimer. destruct (sc_sl_done c) eqn:SD; [left; exact SD|]. destruct H as [H|H]; [congruence|].
    right. unfold sl_timer. destruct (cf_maxRequestTime cfg <=? 0)%Z; cbn [fst cont]; [exact H|].
    apply (cr_ri _ _ _ (close_heads_ClosesR _ _ c)), H.
  - rewrite step_EvIdle. destruct H as [H|H]; [left; sc_cbn; rewrite sc_sl_done_write_goaway; exact H | right]. revert H.
    eapply RIP_trans; [apply RIP_write_goaway|]. apply RIP_same; sc_cbn; try reflexivity; flia.
  - rewrite step_EvCloser. destruct (sc_closer c && negb (sc_sl_done c)); [left; reflexivity | exact H].
  - rewrite step_EvWriteFail. destruct H as [H|H]; [left; exact H | right]. revert H. apply RIP_same; sc_cbn; try reflexivity; flia.
Qed.

Lemma RI_from evs : forall c, RInv c -> RInv (run_from dec_field enc_field enc_set_max cfg c evs).
Proof. induction evs as [|e evs IH]; intros c H; [exact H|]. rewrite run_from_cons. apply IH, step_RI, H. Qed.

Theorem RI_run evs : RInv (run dec_field enc_field enc_set_max cfg h0 evs).
Proof. rewrite run_eq. apply RI_from. right. split; [intros e [] | intros s []]. Qed.

End Ring.
