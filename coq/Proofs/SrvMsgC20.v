(* Proofs/SrvMsgC20.v - C20, server half: the statements of Props/C20.v.

   A request is the frames  HEADERS CONTINUATION* DATA* [HEADERS(END_STREAM) CONTINUATION*]  on a fresh stream id,
   fed in lockstep (read loop, stream loop) to a connection in any state that is `ready` for it.  The decoder is the
   abstract one; "the blocks decode to the header list fs and the trailer list tr" is the hypothesis request_decodes. *)
From H2V Require Import Base.Bytes Base.MachineInt Base.Result Gen.GenConsts Impl.ServerConn Spec.Http2Messages
     Proofs.SrvBase Proofs.SrvMsgDefs Proofs.SrvMsgPure Proofs.SrvMsgLoop Proofs.SrvMsgStream Proofs.SrvMsgPhase
     Proofs.SrvMsgReq Proofs.SrvInvSlots.
From Coq Require Import ZArith Lia ZifyN ZifyNat ZifyBool.
Local Open Scope N_scope.

Section C20.
Variable hstate : Type.
Variable dec_field : hstate -> N -> bytes -> dec_res hstate.
Variable enc_field : hstate -> bytes -> bytes -> bool -> bytes * hstate.
Variable enc_set_max : hstate -> N -> hstate.
Variable cfg : config.
Notation sconn := (sconn hstate).
Notation run_from := (run_from dec_field enc_field enc_set_max cfg).
Notation run := (run dec_field enc_field enc_set_max cfg).
Implicit Types c : sconn.

(* the header block decodes to fs, the trailer block (if any) to tr, leaving the decoder in d2;
   carries: what each frame boundary cut off *)
Definition request_decodes (d : hstate) (hfrags : list bytes) (tfrags : option (list bytes))
           (fs tr : list field) (d2 : hstate) (carries : list bytes) : Prop :=
  exists d1 k1 k2,
    decodes dec_field d hfrags fs d1 k1 /\
    match tfrags with
    | Some tf => decodes dec_field d1 tf tr d2 k2
    | None => tr = [] /\ d2 = d1 /\ k2 = []
    end /\
    carries = k1 ++ k2.

(* what the connection has put out since c0 (newest first) is l *)
Definition since (c0 c' : sconn) (l : list outev) : Prop := sc_out c' = l ++ sc_out c0.

(* the handler of sid was started between c0 and c' *)
Definition dispatched (c0 c' : sconn) (sid : N) : Prop := exists l rq, since c0 c' l /\ In (ODispatch sid rq) l.

Definition is_winupd (o : outev) : Prop := match o with OWinUpd _ _ => True | _ => False end.
(* the outputs of a refusal: RST_STREAM(code) on sid, the release of the stream, window updates *)
Definition refusal_out (sid code : N) (o : outev) : Prop :=
  match o with
  | OWinUpd _ _ => True
  | ORst s cd => s = sid /\ cd = code
  | ORelease s w => s = sid /\ w = true
  | _ => False
  end.

(* the part of the size policy that is enforced with GOAWAY: the header list and the partial fields carried over *)
Definition header_limits (fs tr : list field) (carries : list bytes) : bool :=
  negb (list_over cfg (fsize (fs ++ tr))) && forallb (fun x => negb (list_over cfg (Z.of_N (len x)))) carries.

Lemma within_limits_split fs tr carries n :
  within_limits cfg fs tr carries n = header_limits fs tr carries && negb (body_over cfg (Z.of_N n)).
Proof. reflexivity. Qed.

Lemma hlimit_header_limits fs tr k1 k2 : hlimit cfg fs tr k1 k2 = header_limits fs tr (k1 ++ k2).
Proof.
  unfold hlimit, header_limits. rewrite fsize_app, <- andb_assoc, <- negb_orb, <- carries_over_app.
  unfold carries_over, carry_over. rewrite <- forallb_negb_existsb. reflexivity.
Qed.

Definition the_request (fs : list field) (chunks : list bytes) (tr : list field) : request := final_req fs chunks tr.

(* the fields of the connection that a request must leave alone, whatever its fate *)
Definition untouched (c0 c' : sconn) : Prop :=
  sc_closing c' = sc_closing c0 /\ sc_closeRef c' = sc_closeRef c0 /\
  sc_sl_done c' = false /\ sc_rl_done c' = false /\ sc_wl_dead c' = false /\ sc_closer c' = sc_closer c0 /\
  sc_readerQ c' = [] /\ sc_expectCont c' = 0 /\
  sc_gone c' = sc_gone c0 /\ sc_enc c' = sc_enc c0 /\ sc_initWin c' = sc_initWin c0 /\
  sc_clientWindow c' = sc_clientWindow c0 /\ sc_now c' = sc_now c0.

Section Run.
Variable c0 : sconn.
Variable sid : N.
Hypothesis R0 : ready cfg c0 sid.
Variables (hfrags chunks : list bytes) (tfrags : option (list bytes)).
Variables (fs tr : list field) (d2 : hstate) (carries : list bytes).
Hypothesis DEC : request_decodes (sc_dec c0) hfrags tfrags fs tr d2 carries.
Let n := len (concat chunks).
Let c' := run_from c0 (lockstep (req_frames sid hfrags chunks tfrags)).

Lemma base_untouched ec c : base c0 sid c ec -> ec = 0 -> sc_closing c0 = false -> untouched c0 c.
Proof. intros [] -> C. unfold untouched. rewrite C. repeat split; assumption. Qed.

Lemma run_outcome :
  exists k1 k2, carries = k1 ++ k2 /\
  outcome hstate cfg c0 sid (within_limits cfg fs tr carries n) (hlimit cfg fs tr k1 k2) (vacc2 cfg v0 fs tr n) fs chunks tr d2 c'.
Proof.
  destruct DEC as (d1 & k1 & k2 & D1 & D2 & ->). exists k1, k2. split; [reflexivity|].
  unfold c'. rewrite run_from_lockstep.
  apply (request_run _ dec_field enc_field enc_set_max cfg c0 sid R0 hfrags chunks tfrags fs tr d1 d2 k1 k2 D1).
  destruct tfrags; exact D2.
Qed.

(* (a) within the size policy, the handler runs iff the request is well formed *)
Theorem server_iff :
  (Z.of_N n <= MAXINT)%Z -> within_limits cfg fs tr carries n = true ->
  (dispatched c0 c' sid <-> wf_request fs tr n = true).
Proof.
  intros Hn L. destruct run_outcome as (k1 & k2 & E & O). unfold outcome in O. rewrite L in O. cbn [andb] in O.
  assert (B : body_over cfg (Z.of_N n) = false).
  { unfold within_limits in L. apply andb_true_iff in L. destruct L as [_ L]. apply negb_true_iff in L. exact L. }
  rewrite (vacc2_wf cfg n B Hn) in O.
  destruct (wf_request fs tr n).
  - split; [reflexivity|]. intros _. destruct O as (st & size & nf & _ & _ & _ & _ & _ & l & Eo & _).
    exists (ODispatch sid (final_req fs chunks tr) :: l), (final_req fs chunks tr). split; [exact Eo | left; reflexivity].
  - split; [|discriminate]. intros (l & rq & S & I). exfalso.
    destruct O as [[[_ (l' & E' & F')] | [code D]] _].
    + unfold since in S. rewrite E' in S. apply app_inv_tail in S. subst l'.
      rewrite Forall_forall in F'. exact (F' _ I rq eq_refl).
    + cbn [holds] in D. destruct D as [_ _ _ _ _ (l' & E' & F' & _)].
      unfold since in S. rewrite E' in S. apply app_inv_tail in S. subst l'.
      rewrite Forall_forall in F'. specialize (F' _ I). exact F'.
Qed.

Lemma not_dispatched_gone c : gone c0 sid c -> ~ dispatched c0 c sid.
Proof.
  intros [_ (l' & E' & F')] (l & rq & S & I).
  unfold since in S. rewrite E' in S. apply app_inv_tail in S. subst l'.
  rewrite Forall_forall in F'. exact (F' _ I rq eq_refl).
Qed.
Lemma not_dispatched_dead c ec code d : dead c0 sid c ec code d -> ~ dispatched c0 c sid.
Proof.
  intros [_ _ _ _ _ (l' & E' & F' & _)] (l & rq & S & I).
  unfold since in S. rewrite E' in S. apply app_inv_tail in S. subst l'.
  rewrite Forall_forall in F'. exact (F' _ I).
Qed.
Lemma not_dispatched_rej c d : rej hstate cfg c0 sid c d -> ~ dispatched c0 c sid.
Proof. intros [G | [code D]]; [apply not_dispatched_gone; exact G | eapply not_dispatched_dead; exact D]. Qed.

(* over the size policy: never dispatched *)
Theorem server_over_limits : within_limits cfg fs tr carries n = false -> ~ dispatched c0 c' sid.
Proof.
  intros L. destruct run_outcome as (k1 & k2 & E & O). unfold outcome in O. rewrite L in O. cbn [andb] in O.
  destruct O as [RJ _]. apply (not_dispatched_rej _ _ RJ).
Qed.

(* a well-formed request: exactly what happens *)
Theorem server_accepts :
  (Z.of_N n <= MAXINT)%Z -> within_limits cfg fs tr carries n = true -> wf_request fs tr n = true ->
  exists l s',
    since c0 c' (ODispatch sid (the_request fs chunks tr) :: l) /\ Forall is_winupd l /\
    sc_strms c' = sc_strms c0 ++ [s'] /\ st_id s' = sid /\ st_handlerRunning s' = true /\ st_state s' = SHalfClosed /\
    st_req s' = the_request fs chunks tr /\
    sc_dec c' = d2 /\ sc_ring c' = sc_ring c0 /\ sc_open c' = (sc_open c0 + 1)%Z /\
    sc_lastID c' = sid /\ sc_highestID c' = sid /\ untouched c0 c'.
Proof.
  intros Hn L W. destruct run_outcome as (k1 & k2 & E & O). unfold outcome in O. rewrite L in O. cbn [andb] in O.
  assert (B : body_over cfg (Z.of_N n) = false).
  { unfold within_limits in L. apply andb_true_iff in L. destruct L as [_ L]. apply negb_true_iff in L. exact L. }
  rewrite (vacc2_wf cfg n B Hn), W in O.
  destruct O as (st & size & nf & Bs & St & De & Ri & Op & l & Eo & Fo).
  exists l, (D_of hstate c0 sid (H_of true [] st size nf (final_req fs chunks tr)) (bytes_len chunks)).
  assert (U : untouched c0 c') by (apply (base_untouched 0 c' Bs eq_refl), (rd_closing _ _ _ _ (proj1 R0))).
  destruct Bs.
  split; [exact Eo|]. split; [eapply Forall_impl; [|exact Fo]; intros o Ho; destruct o; exact Ho|].
  split; [exact St|]. do 4 (split; [reflexivity|]).
  repeat (split; [assumption|]). exact U.
Qed.

(* a malformed request within the header-list policy: the stream alone is refused *)
Theorem server_refuses :
  header_limits fs tr carries = true ->
  (Z.of_N n <= MAXINT)%Z ->
  within_limits cfg fs tr carries n && wf_request fs tr n = false ->
  exists code l,
    (code = c_ProtocolError \/ code = c_EnhanceYourCalm) /\
    since c0 c' l /\ In (ORst sid code) l /\ Forall (refusal_out sid code) l /\
    sc_strms c' = sc_strms c0 /\ ring_find c' sid = Some true /\
    sc_dec c' = d2 /\ sc_open c' = sc_open c0 /\
    sc_lastID c' = sid /\ sc_highestID c' = sid /\ untouched c0 c'.
Proof.
  intros HL Hn F.
  destruct DEC as (d1 & k1' & k2' & D1 & D2 & Ec).
  assert (O : outcome hstate cfg c0 sid (within_limits cfg fs tr carries n) (hlimit cfg fs tr k1' k2') (vacc2 cfg v0 fs tr n)
                      fs chunks tr d2 c').
  { subst carries. unfold c'. rewrite run_from_lockstep.
    apply (request_run _ dec_field enc_field enc_set_max cfg c0 sid R0 hfrags chunks tfrags fs tr d1 d2 k1' k2' D1).
    destruct tfrags; exact D2. }
  assert (HL' : hlimit cfg fs tr k1' k2' = true) by (rewrite hlimit_header_limits, <- Ec; exact HL).
  unfold outcome in O.
  assert (F' : within_limits cfg fs tr carries n && vacc2 cfg v0 fs tr n = false).
  { destruct (within_limits cfg fs tr carries n) eqn:L; [|reflexivity]. cbn [andb] in *.
    assert (B : body_over cfg (Z.of_N n) = false).
    { unfold within_limits in L. apply andb_true_iff in L. destruct L as [_ L]. apply negb_true_iff in L. exact L. }
    rewrite (vacc2_wf cfg n B Hn). exact F. }
  rewrite F' in O. destruct O as [_ O]. destruct (O HL') as (code & K & D).
  cbn [holds] in D. pose proof D as D'. destruct D' as [Bs St Ri De Op (l & Eo & Fo & Io)].
  exists code, l.
  assert (U : untouched c0 c') by (apply (base_untouched 0 c' Bs eq_refl), (rd_closing _ _ _ _ (proj1 R0))).
  destruct Bs.
  split; [exact K|]. split; [exact Eo|]. split; [exact Io|].
  split; [eapply Forall_impl; [|exact Fo]; intros o Ho; destruct o; exact Ho|].
  repeat (split; [assumption|]). exact U.
Qed.

End Run.
End C20.

(* positions in a connection's history *)
Section Positions.
Variable hstate : Type.
Variable cfg : config.

(* a new connection is ready for any odd stream id *)
Lemma ready_init (h0 : hstate) sid : N.land sid 1 = 1 -> (0 < cf_maxStreams cfg)%Z -> ready cfg (init_conn cfg h0) sid.
Proof.
  intros O M. assert (NZ : sid <> 0) by (intro; subst; discriminate).
  split; [|repeat split]. constructor; unfold init_conn; sc_cbn; try reflexivity; try assumption.
  all: try (unfold closedStrmsCap; lia). constructor.
Qed.

End Positions.

(* in a state reached by ANY history, the table part of `ready` comes for free (the structural invariant SI of C13:
   every id in the table is at most sc_lastID <= sc_highestID): what is left to check is the rest *)
Section Reachable.
Variable hstate : Type.
Variable dec_field : hstate -> N -> bytes -> dec_res hstate.
Variable enc_field : hstate -> bytes -> bytes -> bool -> bytes * hstate.
Variable enc_set_max : hstate -> N -> hstate.
Variable cfg : config.
Variable h0 : hstate.

Theorem ready_reachable (c : sconn hstate) sid :
  reachable dec_field enc_field enc_set_max cfg h0 c ->
  N.land sid 1 = 1 -> sc_highestID c < sid ->
  in_ring c sid = false -> sc_oldest c < closedStrmsCap -> sc_discardID c <> sid ->
  Forall quiet (sc_strms c) -> (sc_open c < cf_maxStreams cfg)%Z -> sc_closing c = false ->
  sc_sl_done c = false -> sc_wl_dead c = false -> sc_rl_done c = false -> sc_readerQ c = [] -> sc_expectCont c = 0 ->
  ready cfg c sid.
Proof.
  intros RC O F R OL D Q SL CL S W RL RQ EC.
  pose proof (SI_reachable_T hstate dec_field enc_field enc_set_max cfg h0 c RC) as SI.
  destruct SI as [_ _ _ _ _ _ _ HI IDS _]. destruct (IDS S) as [_ LE].
  split; [|repeat split; assumption]. constructor; try assumption.
  apply (Proofs.SrvInvDecomp.search_none_gt (sc_strms c) (sc_lastID c) sid); [|lia].
  intros s I. apply LE. apply in_or_app. left. exact I.
Qed.
End Reachable.

Arguments request_decodes {hstate}. Arguments since {hstate}. Arguments dispatched {hstate}. Arguments untouched {hstate}.
