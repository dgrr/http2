(* Proofs/SrvRfcTimer.v - C08: the request timer (maxRequestTime): the streams at the head of the table that are
   overdue are reset with CANCEL and closed, one after the other. *)
From H2V Require Import Base.Bytes Base.MachineInt Base.Result Gen.GenConsts Impl.ServerConn.
From H2V Require Import Proofs.SrvBase Proofs.SrvRfcDefs Proofs.SrvRfcSpec Proofs.SrvRfcModel Proofs.SrvRfcSim Proofs.SrvRfcStep Proofs.SrvRfcKit.
From Coq Require Import ZArith Lia ZifyN ZifyNat ZifyBool.
Local Open Scope N_scope.

Lemma rel1_vdrift m m' x : rel1 m x -> vdrift m m' -> rel1 m' x.
Proof.
  intros R [->|[Hm Hm']]; [exact R|].
  assert (A : active x = false).
  { destruct m as [st|b| |]; try contradiction; cbn [rel1 rel] in R; try exact R.
    destruct b; [subst; reflexivity | destruct R; subst; reflexivity]. }
  destruct m' as [st|b| |]; try contradiction; exact A.
Qed.

Lemma after_outs_app s d1 d2 : after_outs (after_outs s d1) d2 = after_outs s (d2 ++ d1).
Proof. unfold after_outs. rewrite filter_app, rev_app_distr, flat_map_app, fold_left_app. reflexivity. Qed.

Section Timer.
Variable hstate : Type.
Notation sconn := (sconn hstate).
Notation tbl := (tbl hstate).
Notation view := (view hstate).
Notation AuxT := (AuxT hstate).
Notation AuxH := (AuxH hstate).
Notation Sim := (Sim hstate).
Notation live_tuple := (live_tuple hstate).
Implicit Types c : sconn.

Lemma Sim_live c s ph : Sim c s ph -> live_tuple c s ph.
Proof.
  intros HS. split; [exact (S_aux _ _ _ _ HS)|]. split; [intros id O; apply rel_rel1, (S_str _ _ _ _ HS id O)|].
  split; [exact (S_blk _ _ _ _ HS)|]. split; [exact (S_ga _ _ _ _ HS)|]. split; [exact (S_hi _ _ _ _ HS)|].
  split; [exact (S_cont _ _ _ _ HS)|]. split; [exact (S_ph _ _ _ _ HS) | exact (S_new _ _ _ _ HS)].
Qed.

(* what the timer does to one stream *)
Definition tclose c (st : stream) : sconn :=
  close_stream (write_reset c (st_id st) c_StreamCanceled) (set_state (set_weReset st) SClosed).

Lemma close_head_live c s ph st :
  In st (sc_strms c) -> sc_sl_done c = false -> wf s -> live_tuple c s ph ->
  exists d, sc_out (tclose c st) = d ++ sc_out c /\ sc_sl_done (tclose c st) = false /\
            (forall sid rq, ~ In (ODispatch sid rq) d) /\
            live_tuple (tclose c st) (after_outs s d) ph.
Proof.
  intros HIn Hsl W ((AT & AH) & Hrel & Hblk & Hga & Hhi & Hcont & Hph & Hnew).
  pose proof AH as [F1 F2 F3 F4]. pose proof (A_nodup _ _ AT) as ND.
  set (id := st_id st) in *.
  pose proof (tbl_In hstate c ND st HIn) as T0. fold id in T0.
  unfold tclose. fold id. rewrite (write_reset_wr hstate c _ _ (conj Hsl (A_wl _ _ AT))).
  set (sX := set_state (set_weReset st) SClosed). set (c' := close_stream (note c (ORst id c_StreamCanceled)) sX).
  pose proof (sc_strms_close_stream hstate _ sX : sc_strms c' = strms_del (sc_strms c) id) as S'.
  destruct (close_stream_ring hstate (note c (ORst id c_StreamCanceled)) c sX eq_refl eq_refl) as [R' Ol']. fold c' in R', Ol'.
  destruct (leave_ring hstate c c' id true (A_ring _ _ AT) R' Ol') as (_ & RfS & RfO).
  assert (Rn : ring_find c id = None).
  { pose proof (A_tr _ _ AT st HIn) as X. rewrite in_ring_find in X. fold id in X. destruct (ring_find c id); [discriminate | reflexivity]. }
  rewrite Rn in RfS.
  pose proof (tbl_del_same hstate c c' id ND S') as TbS. pose proof (tbl_del_other hstate c c' id S') as TbO.
  assert (InO : forall st', In st' (sc_strms c') -> In st' (sc_strms c) /\ st_id st' <> id) by (intros st' H; rewrite S' in H; apply (del_In _ _ _ ND H)).
  set (d := (if st_handlerRunning st then [] else [ORelease id true]) ++ [ORst id c_StreamCanceled]).
  assert (O' : sc_out c' = d ++ sc_out c).
  { unfold c', d. rewrite sc_out_close_stream. change (st_handlerRunning sX) with (st_handlerRunning st).
    destruct (st_handlerRunning st); reflexivity. }
  assert (AO : after_outs s d = RS.spec_sent s (RS.SentRst id)) by (unfold d; destruct (st_handlerRunning st); reflexivity).
  assert (D' : sc_discardID c' = if negb (st_headersFinished st) && negb (sc_discardID c =? id) then id else sc_discardID c).
  { unfold c'. rewrite sc_discardID_close_stream. reflexivity. }
  pose proof (sc_lastID_close_stream hstate _ sX : sc_lastID c' = sc_lastID c) as E5.
  pose proof (sc_highestID_close_stream hstate _ sX : sc_highestID c' = sc_highestID c) as E6.
  pose proof (sc_closing_close_stream hstate _ sX : sc_closing c' = sc_closing c) as E7.
  pose proof (sc_expectCont_close_stream hstate _ sX : sc_expectCont c' = sc_expectCont c) as E8.
  assert (Xid : RS.st_of s id = RS.Open \/ RS.st_of s id = RS.HalfClosedRemote).
  { pose proof (Hrel id (proj1 (A_ids _ _ AT st HIn))) as X. unfold SrvRfcDefs.view in X. rewrite T0 in X. cbn [rel1 rel] in X.
    destruct (proj1 (A_st _ _ AT st HIn)) as [Y|Y]; rewrite Y in X; auto. }
  exists d. split; [exact O'|]. split; [unfold c'; rewrite sc_sl_done_close_stream; exact Hsl|]. split.
  { intros sid rq H. unfold d in H. apply in_app_or in H. destruct H as [H|[H|[]]]; [|discriminate].
    destruct (st_handlerRunning st); [destruct H | destruct H as [H|[]]; discriminate]. }
  rewrite AO.
  split; [split|].
  - apply (AuxT_leave hstate c c' id true AT S' R' Ol' (sc_rl_done_close_stream hstate _ sX) (sc_wl_dead_close_stream hstate _ sX)
             (sc_readerQ_close_stream hstate _ sX)); [rewrite E5; apply N.le_refl | rewrite E5, E6; apply (A_last _ _ AT)].
  -
    constructor.
    + intros st' H Hf. rewrite E8. apply F1; [apply (InO st' H) | exact Hf].
    + rewrite E8. intros st' Hne T'. apply (F2 st' Hne).
      destruct (N.eq_dec (sc_expectCont c) id) as [X|X]; [rewrite X, TbS in T'; discriminate | rewrite (TbO _ X) in T'; exact T'].
    + rewrite E8. exact F3.
    + rewrite D', E6. destruct (negb (st_headersFinished st) && negb (sc_discardID c =? id))%bool.
      * intros _. split; [exact TbS|]. exact (N.le_trans _ _ _ (proj2 (A_ids _ _ AT st HIn)) (A_last _ _ AT)).
      * intro Hne. destruct (F4 Hne) as [X Y]. split; [|exact Y].
        destruct (N.eq_dec (sc_discardID c) id) as [Z|Z]; [rewrite Z; exact TbS | rewrite (TbO _ Z); exact X].
  - split; [|split; [|split; [|split; [|split; [|split]]]]].
    +
      intros i O. rewrite (st_of_spec_sent s _ i W). cbn [sent_sid].
      destruct (id =? i) eqn:Ei.
      * apply N.eqb_eq in Ei. subst i. unfold SrvRfcDefs.view. rewrite TbS, RfS. cbn [rel1 rel].
        destruct Xid as [X|X]; rewrite X; reflexivity.
      * assert (Hn : i <> id) by (apply N.eqb_neq in Ei; congruence).
        apply (rel1_vdrift (view c i)); [apply Hrel, O|].
        apply vdrift_intro; [rewrite (TbO i Hn); reflexivity | apply RfO, Hn].
    + unfold R_block. rewrite block_spec_sent, E8. exact Hblk.
    + rewrite goaway_spec_sent, E7. exact Hga.
    + rewrite highest_spec_sent by exact W. rewrite E6. exact Hhi.
    + rewrite E8, D', dead_spec_sent. intros Hne T'.
      assert (Tc : (exists st0, tbl c (sc_expectCont c) = Some st0) \/ tbl c (sc_expectCont c) = None) by (destruct (tbl c (sc_expectCont c)); eauto).
      destruct Tc as [[st0 Tc]|Tc].
      * (* the block's stream is the one being closed *)
        assert (X : sc_expectCont c = id).
        { destruct (N.eq_dec (sc_expectCont c) id) as [X|X]; [exact X | rewrite (TbO _ X), Tc in T'; discriminate]. }
        rewrite X in Tc. assert (st0 = st) by congruence. subst st0.
        pose proof (F2 st Hne) as Fin. rewrite X in Fin. specialize (Fin Tc). rewrite Fin. cbn [negb andb].
        left. destruct (sc_discardID c =? id) eqn:Q; cbn [negb]; [apply N.eqb_eq in Q; congruence | congruence].
      * destruct (negb (st_headersFinished st) && negb (sc_discardID c =? id))%bool eqn:Arm.
        -- exfalso. apply andb_true_iff in Arm. destruct Arm as [Arm _]. apply negb_true_iff in Arm.
           pose proof (F1 st HIn Arm) as X. fold id in X. rewrite <- X, T0 in Tc. discriminate.
        -- exact (Hcont Hne Tc).
    + intros st' H. apply Hph, (InO st' H).
    + rewrite E7, E6. exact Hnew.
Qed.

(* ... and to the overdue streams at the head of the table *)
Lemma close_heads_live n : forall c s ph, sc_sl_done c = false -> wf s -> live_tuple c s ph ->
  exists d, sc_out (close_heads n c) = d ++ sc_out c /\ sc_sl_done (close_heads n c) = false /\
            (forall sid rq, ~ In (ODispatch sid rq) d) /\
            live_tuple (close_heads n c) (after_outs s d) ph.
Proof.
  induction n as [|n IH]; intros c s ph Hsl W L; cbn [close_heads].
  - exists []. split; [reflexivity|]. split; [exact Hsl|]. split; [intros sid rq []|]. exact L.
  - destruct (sc_strms c) as [|st t] eqn:ES.
    + exists []. split; [reflexivity|]. split; [exact Hsl|]. split; [intros sid rq []|]. exact L.
    + assert (HIn : In st (sc_strms c)) by (rewrite ES; left; reflexivity).
      destruct (close_head_live c s ph st HIn Hsl W L) as (d1 & O1 & Sl1 & Nd1 & L1).
      fold (tclose c st).
      destruct (IH (tclose c st) (after_outs s d1) ph Sl1 (wf_after_outs s d1 W) L1) as (d2 & O2 & Sl2 & Nd2 & L2).
      exists (d2 ++ d1). split; [rewrite O2, O1, app_assoc; reflexivity|]. split; [exact Sl2|]. split.
      * intros sid rq H. apply in_app_or in H. destruct H as [H|H]; [exact (Nd2 sid rq H) | exact (Nd1 sid rq H)].
      * rewrite <- after_outs_app. exact L2.
Qed.

End Timer.
