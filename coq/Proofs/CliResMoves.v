(* Proofs/CliResMoves.v - C12/C11: one step of the model, summarised: what it does to each Ctx (`cmove`), which
   Ctx it creates, and what it adds to the trace (`item_ok`). Generic in the analysis parameters (cparams). *)
From H2V Require Import Base.Bytes Base.MachineInt Gen.GenConsts Impl.ServerConn Impl.ClientConn Proofs.CliBase Proofs.CliMsgMoves
     Proofs.CliResInv Proofs.CliResStep.
From Coq Require Import ZArith Lia ZifyN ZifyNat ZifyBool List Bool.
Import ListNotations.
Local Open Scope N_scope.

(* the Ctx as roundTripOnce leaves it after <-ctx.Err: takeBack, and back to the pool if reusable *)
Definition recv_ctx (x : cctx) : cctx :=
  let stopped := if ct_armed x then negb (ct_fired x) else true in
  let x1 := ctu_armed (ctu_err x None) false in
  ctu_pooled (ctu_returned (ctu_resolved (ctu_done x1 true) true) true) (stopped && ct_finished x1).

Definition outs {hstate} (P : coutev -> Prop) (c c' : cconn hstate) : Prop :=
  exists l, cc_out c' = l ++ cc_out c /\ Forall P l.

Lemma outs_refl {hstate} P (c : cconn hstate) : outs P c c.
Proof. exists []. split; [reflexivity | constructor]. Qed.
Lemma outs_trans {hstate} P (a b c : cconn hstate) : outs P a b -> outs P b c -> outs P a c.
Proof.
  intros (l1 & H1 & F1) (l2 & H2 & F2). exists (l2 ++ l1). rewrite H2, H1, app_assoc. split; [reflexivity | apply Forall_app; auto].
Qed.
Lemma outs_same {hstate} P (c c' : cconn hstate) : cc_out c' = cc_out c -> outs P c c'.
Proof. intro H. exists []. split; [exact H | constructor]. Qed.

Section Moves.
Context {hstate : Type} {CP : cparams} {NR : cplain CP}.
Variable dec_field : hstate -> N -> bytes -> dec_res hstate.
Variable enc_field : hstate -> bytes -> bytes -> bool -> bytes * hstate.
Variable enc_set_max : hstate -> N -> hstate.
Variable cfg : cl_config.
Implicit Types c : cconn hstate.
Notation step := (cl_step dec_field enc_field enc_set_max cfg).

Definition no_panic_dec : Prop := forall d n b, dec_field d n b <> DPanic hstate.

(* what one step may add to the trace *)
Definition item_ok c (e : cevent) (o : coutev) : Prop :=
  benign o = true \/
  match o with
  | COHeaders sid es blk =>
    e = CEvWLIn /\ cl_wl_live c = true /\ cc_goAway c = false /\ sid = cc_nextID c /\
    exists tag q x, cc_inQ c = tag :: q /\ cl_ctx_get c tag = Some x /\ ct_done x = false
  | COResult t r er resp =>
    e = CEvReceive t /\ exists x, cl_ctx_get c t = Some x /\ ct_returned x = false /\ ct_err x = Some er /\
                                 r = cl_retryable er /\ resp = ct_resp x
  | COPoolPut t =>
    e = CEvReceive t /\ exists x, cl_ctx_get c t = Some x /\ ct_returned x = false /\ ct_err x <> None /\
                                 ct_finished x = true /\ (ct_armed x = true -> ct_fired x = false)
  | COPanic w => ~ no_panic_dec
  | _ => False
  end.

Lemma item_ok_benign c e o : benign o = true -> item_ok c e o.
Proof. intro H. left. exact H. Qed.

(* what one step does to the Ctx of tag t *)
Inductive cmove c (e : cevent) (t : N) (x x' : cctx) : Prop :=
| cm_cev : cev x x' -> cmove c e t x x'
| cm_check : e = CEvSubmitCheck t -> ct_writing x = true ->
    x' = ctu_writing x false \/
    (cc_closed c = true /\ ct_sid x = 0 /\ x' = cl_ctx_resolve (ctu_done (ctu_writing x false) true) (cl_close_err c)) ->
    cmove c e t x x'
| cm_fire : e = CEvTimeout t -> ct_armed x = true -> ct_fired x = false ->
    x' = cl_ctx_resolve (ctu_fired x true) CETimeout -> cmove c e t x x'
| cm_cancel : e = CEvTimeoutCancel t -> ct_fired x = true -> ct_cancelled x = false ->
    cev (ctu_cancelled x true) x' -> cmove c e t x x'
| cm_recv : e = CEvReceive t -> ct_returned x = false -> ct_err x <> None -> x' = recv_ctx x -> cmove c e t x x'
| cm_admit : e = CEvWLIn -> cl_wl_live c = true -> (exists q, cc_inQ c = t :: q) -> ct_done x = false -> ct_sid x = 0 -> cc_goAway c = false ->
    cev (ctu_sid (ctu_conn x true) (cc_nextID c)) x' -> cmove c e t x x'
| cm_deq : e = CEvWLIn -> cl_wl_live c = true -> (exists q, cc_inQ c = t :: q) -> cl_can_open_stream c = false -> ct_sid x = 0 ->
    x' = cl_ctx_resolve x CENoStreams -> cmove c e t x x'.

(* a Ctx that was not there before *)
Definition cnew c c' (e : cevent) (t : N) (x' : cctx) : Prop :=
  exists rq q, e = CEvSubmit t rq q /\ ct_tag x' = t /\ ct_sid x' = 0 /\ ct_conn x' = false /\ ct_returned x' = false /\
    ct_resolved x' = false /\ ct_done x' = false /\ ct_fired x' = false /\ ct_finished x' = false /\ ct_pooled x' = false /\
    ((ct_err x' = None /\ ct_writing x' = true /\ In t (cc_inQ c')) \/
     (ct_err x' = Some (cl_close_err c) /\ cc_closed c = true /\ ~ In t (cc_inQ c') /\ ct_writing x' = false)).

Definition is_result (o : coutev) : bool := match o with COResult _ _ _ _ => true | _ => false end.
Definition is_headers (o : coutev) : bool := match o with COHeaders _ _ _ => true | _ => false end.

Record step_sum c (e : cevent) c' : Prop := mkStepSum {
  ss_old : forall t x, cl_ctx_get c t = Some x -> exists x', cl_ctx_get c' t = Some x' /\ cmove c e t x x';
  ss_new : forall t x', cl_ctx_get c t = None -> cl_ctx_get c' t = Some x' -> cnew c c' e t x';
  (* the trace grows by items of this step; at most one result; HEADERS only when a stream id is used up *)
  ss_out : exists l, cc_out c' = l ++ cc_out c /\ Forall (item_ok c e) l /\ (length (filter is_result l) <= 1)%nat /\
           (existsb is_headers l = true -> cc_nextID c' = cc_nextID c + 2);
  ss_next : cc_nextID c' = cc_nextID c \/ cc_nextID c' = cc_nextID c + 2;
  (* a result in the trace is a receive that went through *)
  ss_res : forall t r er resp, In (COResult t r er resp) (cc_out c') -> ~ In (COResult t r er resp) (cc_out c) ->
           exists x, cl_ctx_get c t = Some x /\ cl_ctx_get c' t = Some (recv_ctx x);
  (* and a receive that went through shows in the trace *)
  ss_recv : forall t x, cl_ctx_get c t = Some x -> cl_ctx_get c' t = Some (recv_ctx x) -> ct_returned x = false ->
            exists er, ct_err x = Some er /\ In (COResult t (cl_retryable er) er (ct_resp x)) (cc_out c');
  ss_goAway : cc_goAway c = true -> cc_goAway c' = true;
  ss_inQ : forall t, In t (cc_inQ c') -> In t (cc_inQ c) \/ (exists rq q, e = CEvSubmit t rq q)
}.

Lemma returned_resolve x e : ct_returned (cl_ctx_resolve x e) = ct_returned x.
Proof. rewrite cl_ctx_resolve_eq. destruct (_ && _); reflexivity. Qed.

Lemma recv_returned x : ct_returned (recv_ctx x) = true.
Proof. reflexivity. Qed.

(* no Ctx of c' is a received version of its former self *)
Lemma no_recv_of_old c (e : cevent) c' :
  (forall t x, cl_ctx_get c t = Some x -> exists x', cl_ctx_get c' t = Some x' /\ ct_returned x' = ct_returned x) ->
  forall t x, cl_ctx_get c t = Some x -> cl_ctx_get c' t = Some (recv_ctx x) -> ct_returned x = false ->
  exists er, ct_err x = Some er /\ In (COResult t (cl_retryable er) er (ct_resp x)) (cc_out c').
Proof.
  intros H t x G G' R. exfalso. destruct (H _ _ G) as (x' & Gx & Rx). rewrite G' in Gx. inversion Gx; subst x'.
  rewrite recv_returned in Rx. congruence.
Qed.

Lemma outs_nil c c' e : cc_out c' = cc_out c ->
  exists l, cc_out c' = l ++ cc_out c /\ Forall (item_ok c e) l /\ (length (filter is_result l) <= 1)%nat /\
            (existsb is_headers l = true -> cc_nextID c' = cc_nextID c + 2).
Proof. intro H. exists []. cbn. repeat split; auto. discriminate. Qed.

Lemma sum_refl c e : step_sum c e c.
Proof.
  constructor.
  - intros t x G. exists x. split; [exact G | apply cm_cev, cev_refl].
  - intros t x' G G'. congruence.
  - apply outs_nil. reflexivity.
  - left. reflexivity.
  - intros t r er resp H N. contradiction.
  - apply (no_recv_of_old c e c). intros t x G. exists x. auto.
  - auto.
  - auto.
Qed.

(* the connection's own steps: no result, no HEADERS *)
Definition plain_item (o : coutev) : Prop := benign o = true \/ (exists w, o = COPanic w) /\ ~ no_panic_dec.

Lemma plain_filters l : Forall plain_item l -> filter is_result l = [] /\ existsb is_headers l = false.
Proof.
  induction 1 as [|o l H _ [IH1 IH2]]; [auto|]. cbn [filter existsb]. rewrite IH1, IH2.
  destruct H as [H|[[w ->] _]]; [destruct o; try discriminate; auto | auto].
Qed.

Lemma sum_of_effo c e c' : effo plain_item c c' -> step_sum c e c'.
Proof.
  intros [E _]. constructor.
  - intros t x G. destruct (e_ctx _ _ _ E _ _ G) as (x' & G' & V). exists x'. split; [exact G' | apply cm_cev, V].
  - intros t x' G G'. rewrite (eff_ctx_none _ _ _ _ E G) in G'. discriminate.
  - destruct (e_out _ _ _ E) as (l & Hl & Fl). exists l. destruct (plain_filters l Fl) as [F1 F2]. rewrite F1, F2.
    repeat split; auto; [|discriminate].
    eapply Forall_impl; [|exact Fl]. intros o [H|[[w ->] H]]; [left; exact H | right; exact H].
  - left. apply (e_nextID _ _ _ E).
  - intros t r er resp H N. exfalso. destruct (e_out _ _ _ E) as (l & Hl & Fl). rewrite Hl in H. apply in_app_iff in H.
    destruct H as [H|H]; [|contradiction]. rewrite Forall_forall in Fl. destruct (Fl _ H) as [B|[[w B] _]]; discriminate.
  - apply (no_recv_of_old c e c'). intros t x G. destruct (e_ctx _ _ _ E _ _ G) as (x' & G' & V). exists x'. split; [exact G' | apply (cev_returned _ _ V)].
  - apply (e_goAway _ _ _ E).
  - intros t H. left. destruct (e_inQ _ _ _ E) as [p Hp]. rewrite Hp in H. apply filter_In in H. apply H.
Qed.

Lemma Pben_plain : forall o, benign o = true -> plain_item o.
Proof. intros o H. left. exact H. Qed.

(* a step of the caller of t (or of its timer) on its own Ctx *)
Lemma sum_of_put c e x x' : cl_ctx_get c (ct_tag x') = Some x -> cmove c e (ct_tag x') x x' -> ct_returned x' = ct_returned x ->
  step_sum c e (cl_ctx_put c x').
Proof.
  intros G M Rr. constructor.
  - intros t y Gy. rewrite cl_ctx_get_put. destruct (t =? ct_tag x') eqn:E.
    + apply N.eqb_eq in E. subst t. rewrite Gy. exists x'. split; [reflexivity|]. rewrite G in Gy. inversion Gy; subst y. exact M.
    + exists y. split; [exact Gy | apply cm_cev, cev_refl].
  - intros t y' Gn G'. rewrite cl_ctx_get_put in G'. destruct (t =? ct_tag x'); [rewrite Gn in G'; discriminate | congruence].
  - apply outs_nil. reflexivity.
  - left. reflexivity.
  - intros t r er resp H N. contradiction.
  - apply (no_recv_of_old c e). intros t y Gy. rewrite cl_ctx_get_put. destruct (t =? ct_tag x') eqn:E.
    + apply N.eqb_eq in E. subst t. rewrite Gy. exists x'. split; [reflexivity|]. rewrite G in Gy. inversion Gy; subst y. exact Rr.
    + exists y. auto.
  - auto.
  - auto.
Qed.

Definition rl_ok c (i : rl_input) : Prop :=
  (forall c c' : cconn hstate, Wok hstate c c') /\ (forall x x', Vok x x') /\
  (forall fr, i = RFrame fr -> cl_rl_live c = true -> cc_netClosed c = false ->
     forall c1, (sf_kind fr <> KWinUpd -> sf_kind fr <> KGoAway -> c1 = c) -> nil_at dec_field c1 fr -> Eok (sf_sid fr) CENil) /\
  (forall fr, i = RFrame fr -> sf_kind fr = KGoAway -> sf_sid fr = 0 -> cl_rl_live c = true -> cc_netClosed c = false ->
     forall id, sf_dep fr < id -> Eok id CEGoAway).

Lemma Pben_item c e : forall o, benign o = true -> item_ok c e o.
Proof. intros o H. left. exact H. Qed.

Lemma sum_submit c tag rq q : inv c -> step_sum c (CEvSubmit tag rq q) (cl_submit cfg c tag rq q).
Proof.
  intros [St A]. unfold cl_submit. destruct (cl_ctx_get c tag) eqn:GN; [apply sum_refl|].
  set (new := cl_new_ctx tag rq (ccf_armTimers cfg)). set (c1 := ccu_ctxs c (cc_ctxs c ++ [new])).
  pose proof (ctx_get_addctx c tag rq (ccf_armTimers cfg) GN) as G1. fold new c1 in G1.
  assert (NQ : ~ In tag (cc_inQ c)). { intro J. destruct (s_inQ _ St _ J) as (x & G & _). congruence. }
  destruct (cc_closed c1 && negb q) eqn:B.
  - set (y := cl_ctx_resolve new (cl_close_err c1)).
    assert (L : forall t, cl_ctx_get (cl_resolve c1 tag (cl_close_err c1)) t = if t =? tag then Some y else cl_ctx_get c t).
    { intro t. rewrite cl_ctx_get_resolve, G1. destruct (t =? tag); reflexivity. }
    constructor.
    + intros t x G. exists x. split; [|apply cm_cev, cev_refl]. rewrite L. destruct (t =? tag) eqn:E; [|exact G].
      apply N.eqb_eq in E. subst t. congruence.
    + intros t x' Gn G'. rewrite L in G'. destruct (t =? tag) eqn:E; [|congruence]. apply N.eqb_eq in E. subst t.
      inversion G'; subst x'. exists rq, q. split; [reflexivity|]. unfold y. rewrite cl_ctx_resolve_eq. cbn.
      repeat split; auto. right. apply andb_true_iff in B. destruct B as [B _]. repeat split; auto.
      rewrite cc_inQ_cl_resolve. exact NQ.
    + apply outs_nil. rewrite cc_out_cl_resolve. reflexivity.
    + left. rewrite cc_nextID_cl_resolve. reflexivity.
    + intros t r er resp H N. rewrite cc_out_cl_resolve in H. contradiction.
    + apply (no_recv_of_old c (CEvSubmit tag rq q)). intros t x G. exists x. split; [|reflexivity]. rewrite L.
      destruct (t =? tag) eqn:E; [|exact G]. apply N.eqb_eq in E. subst t. congruence.
    + rewrite cc_goAway_cl_resolve. auto.
    + intros t H. left. rewrite cc_inQ_cl_resolve in H. exact H.
  - set (y := ctu_writing new true).
    set (c2 := ccu_inQ c1 (cc_inQ c1 ++ [tag])).
    assert (L : forall t, cl_ctx_get (cl_ctx_upd c2 tag (fun x => ctu_writing x true)) t = if t =? tag then Some y else cl_ctx_get c t).
    { intro t. rewrite cl_ctx_get_upd by reflexivity. unfold cl_ctx_get at 1 2. cbn [cc_ctxs ccu_inQ c2]. fold (cl_ctx_get c1 t).
      rewrite G1. destruct (t =? tag); reflexivity. }
    constructor.
    + intros t x G. exists x. split; [|apply cm_cev, cev_refl]. rewrite L. destruct (t =? tag) eqn:E; [|exact G].
      apply N.eqb_eq in E. subst t. congruence.
    + intros t x' Gn G'. rewrite L in G'. destruct (t =? tag) eqn:E; [|congruence]. apply N.eqb_eq in E. subst t.
      inversion G'; subst x'. exists rq, q. split; [reflexivity|]. cbn. repeat split; auto. left. repeat split; auto.
      rewrite cc_inQ_cl_ctx_upd. cbn [c2 cc_inQ ccu_inQ c1 ccu_ctxs]. apply in_app_iff. right. left. reflexivity.
    + apply outs_nil. rewrite cc_out_cl_ctx_upd. reflexivity.
    + left. rewrite cc_nextID_cl_ctx_upd. reflexivity.
    + intros t r er resp H N. rewrite cc_out_cl_ctx_upd in H. contradiction.
    + apply (no_recv_of_old c (CEvSubmit tag rq q)). intros t x G. exists x. split; [|reflexivity]. rewrite L.
      destruct (t =? tag) eqn:E; [|exact G]. apply N.eqb_eq in E. subst t. congruence.
    + rewrite cc_goAway_cl_ctx_upd. auto.
    + intros t H. rewrite cc_inQ_cl_ctx_upd in H. cbn [c2 cc_inQ ccu_inQ c1 ccu_ctxs] in H. apply in_app_iff in H.
      destruct H as [H|[H|[]]]; [left; exact H | right; subst t; eauto].
Qed.

Lemma sum_submit_check c tag : inv c -> step_sum c (CEvSubmitCheck tag) (cl_submit_check c tag).
Proof.
  intros [St A]. unfold cl_submit_check. destruct (cl_ctx_get c tag) as [x|] eqn:G; [|apply sum_refl].
  destruct (ct_writing x) eqn:Wr; [|apply sum_refl]. cbn [negb].
  destruct (cl_ctxs_get_In _ _ _ G) as [_ T]. pose proof (proj1 (s_nostuck _ St) _ _ G) as LK.
  destruct (cc_closed c) eqn:CL; cbn [negb].
  2:{ apply sum_of_put with x; [cbn; rewrite T; exact G | | reflexivity]. cbn [ct_tag ctu_writing]. rewrite T. apply cm_check; auto. }
  cbn [ct_lckStuck ctu_writing]. rewrite LK. cbn [ct_sid ctu_writing]. destruct (ct_sid x =? 0) eqn:Z.
  - set (x2 := cl_ctx_resolve _ _). assert (T2 : ct_tag x2 = tag) by (unfold x2; rewrite ct_tag_cl_ctx_resolve; cbn; exact T).
    apply sum_of_put with x; [rewrite T2; exact G | | unfold x2; rewrite returned_resolve; reflexivity].
    rewrite T2. apply cm_check; auto. right. split; [exact CL|]. split; [apply N.eqb_eq, Z | reflexivity].
  - apply sum_of_put with x; [cbn; rewrite T; exact G | | reflexivity]. cbn [ct_tag ctu_writing]. rewrite T. apply cm_check; auto.
Qed.

Lemma sum_timeout_fire c tag : inv c -> step_sum c (CEvTimeout tag) (cl_timeout_fire c tag).
Proof.
  intros [St A]. unfold cl_timeout_fire. destruct (cl_ctx_get c tag) as [x|] eqn:G; [|apply sum_refl].
  destruct (ct_armed x) eqn:Ar; [|apply sum_refl]. destruct (ct_fired x) eqn:Fi; [apply sum_refl|]. cbn [negb andb].
  destruct (cl_ctxs_get_In _ _ _ G) as [_ T].
  set (x2 := cl_ctx_resolve _ _). assert (T2 : ct_tag x2 = tag) by (unfold x2; rewrite ct_tag_cl_ctx_resolve; cbn; exact T).
  apply sum_of_put with x; [rewrite T2; exact G | | unfold x2; rewrite returned_resolve; reflexivity]. rewrite T2. apply cm_fire; auto.
Qed.

Lemma sum_timeout_cancel c tag : inv c -> step_sum c (CEvTimeoutCancel tag) (cl_timeout_cancel c tag).
Proof.
  intros [St A]. unfold cl_timeout_cancel. destruct (cl_ctx_get c tag) as [x|] eqn:G; [|apply sum_refl].
  destruct (ct_fired x) eqn:Fi; [|apply sum_refl]. destruct (ct_cancelled x) eqn:Ca; [apply sum_refl|]. cbn [negb andb].
  destruct (cl_ctxs_get_In _ _ _ G) as [_ T].
  set (x1 := ctu_cancelled x true). set (c1 := cl_ctx_put c x1).
  assert (G1 : cl_ctx_get c (ct_tag x1) = Some x) by (cbn; rewrite T; exact G).
  assert (M1 : cmove c (CEvTimeoutCancel tag) tag x x1) by (apply cm_cancel; auto; apply cev_refl).
  destruct (negb (ct_conn x) || (ct_sid x =? 0)); [apply (sum_of_put c _ x x1 G1); [cbn [ct_tag x1 ctu_cancelled]; rewrite T; exact M1 | reflexivity]|].
  assert (S1 : st_ok c1).
  { pose proof (s_ret _ St _ _ G) as [R1 R2]. apply st_ok_put with x; auto. apply (proj1 (s_nostuck _ St) _ _ G). }
  set (P := plain_item).
  destruct (effo_delete_pending P Pben_plain 3 c1 (ct_sid x) (s_nostuck _ S1)) as [[E2 _] F2].
  destruct (cl_delete_pending 3 [] c1 (ct_sid x)) as [c2 stuck]. cbn [fst snd] in *. subst stuck.
  assert (E3 : eff P c1 (cl_cancel_stream (cl_take_req_count c2 (ct_sid x)) (ct_sid x) c_StreamCanceled)).
  { eapply eff_trans; [exact E2|]. eapply eff_trans; [apply eff_take_req_count | apply effo_eff, effo_cancel_stream]. }
  assert (L1 : forall t, cl_ctx_get c1 t = if t =? tag then Some x1 else cl_ctx_get c t).
  { intro t. unfold c1. rewrite cl_ctx_get_put. cbn [ct_tag x1 ctu_cancelled]. rewrite T. destruct (t =? tag) eqn:E; [|reflexivity].
    apply N.eqb_eq in E. subst t. rewrite G. reflexivity. }
  constructor.
  - intros t y Gy. destruct (t =? tag) eqn:E.
    + apply N.eqb_eq in E. subst t. rewrite G in Gy. inversion Gy; subst y.
      destruct (e_ctx _ _ _ E3 tag x1) as (x' & G' & V); [rewrite L1, N.eqb_refl; reflexivity|].
      exists x'. split; [exact G' | apply cm_cancel; auto].
    + destruct (e_ctx _ _ _ E3 t y) as (x' & G' & V); [rewrite L1, E; exact Gy|]. exists x'. split; [exact G' | apply cm_cev, V].
  - intros t y' Gn G'. assert (G1n : cl_ctx_get c1 t = None).
    { rewrite L1. destruct (t =? tag) eqn:E; [apply N.eqb_eq in E; subst t; congruence | exact Gn]. }
    rewrite (eff_ctx_none _ _ _ _ E3 G1n) in G'. discriminate.
  - destruct (e_out _ _ _ E3) as (l & Hl & Fl). exists l. destruct (plain_filters l Fl) as [F1 F2]. rewrite F1, F2.
    repeat split; auto; [|discriminate].
    eapply Forall_impl; [|exact Fl]. intros o [H|[[w ->] H]]; [left; exact H | right; exact H].
  - left. rewrite (e_nextID _ _ _ E3). reflexivity.
  - intros t r er resp H N. exfalso. destruct (e_out _ _ _ E3) as (l & Hl & Fl). rewrite Hl in H. apply in_app_iff in H.
    destruct H as [H|H]; [|unfold c1 in N; contradiction]. rewrite Forall_forall in Fl. destruct (Fl _ H) as [B|[[w B] _]]; discriminate.
  - apply (no_recv_of_old c (CEvTimeoutCancel tag)). intros t y Gy. destruct (t =? tag) eqn:E.
    + apply N.eqb_eq in E. subst t. rewrite G in Gy. inversion Gy; subst y.
      destruct (e_ctx _ _ _ E3 tag x1) as (x' & G' & V); [rewrite L1, N.eqb_refl; reflexivity|]. exists x'. split; [exact G' | apply (cev_returned _ _ V)].
    + destruct (e_ctx _ _ _ E3 t y) as (x' & G' & V); [rewrite L1, E; exact Gy|]. exists x'. split; [exact G' | apply (cev_returned _ _ V)].
  - apply (e_goAway _ _ _ E3).
  - intros t H. left. destruct (e_inQ _ _ _ E3) as [p Hp]. rewrite Hp in H. apply filter_In in H. apply H.
Qed.

Lemma sum_receive c tag : inv c -> step_sum c (CEvReceive tag) (cl_receive c tag).
Proof.
  intros [St A]. unfold cl_receive. destruct (cl_ctx_get c tag) as [x|] eqn:G; [|apply sum_refl].
  destruct (ct_returned x) eqn:R; [apply sum_refl|]. destruct (ct_err x) as [er|] eqn:Er; [|apply sum_refl].
  destruct (cl_ctxs_get_In _ _ _ G) as [_ T]. pose proof (proj1 (s_nostuck _ St) _ _ G) as LK.
  cbv zeta. cbn [ct_lckStuck ctu_armed ctu_err]. rewrite LK.
  change (ctu_pooled _ _) with (recv_ctx x). set (x2 := recv_ctx x).
  assert (T2 : ct_tag x2 = tag) by (cbn; exact T).
  set (res := COResult tag (cl_retryable er) er (ct_resp x2)).
  assert (IR : item_ok c (CEvReceive tag) res).
  { right. split; [reflexivity|]. exists x. repeat split; auto. }
  assert (HF : forall final l, cc_ctxs final = cc_ctxs (cl_ctx_put c x2) -> cc_nextID final = cc_nextID c ->
             cc_goAway final = cc_goAway c -> cc_inQ final = cc_inQ c ->
             cc_out final = l ++ cc_out c -> Forall (item_ok c (CEvReceive tag)) l -> In res l ->
             (length (filter is_result l) <= 1)%nat -> existsb is_headers l = false -> step_sum c (CEvReceive tag) final).
  { intros final l HC HN HGA HIQ HO FI IRl HL HH.
    assert (L : forall t, cl_ctx_get final t = if t =? tag then Some x2 else cl_ctx_get c t).
    { intro t. unfold cl_ctx_get. rewrite HC. fold (cl_ctx_get (cl_ctx_put c x2) t). rewrite cl_ctx_get_put, T2.
      destruct (t =? tag) eqn:E; [|reflexivity]. apply N.eqb_eq in E. subst t. rewrite G. reflexivity. }
    constructor.
    - intros t y Gy. rewrite L. destruct (t =? tag) eqn:E.
      + apply N.eqb_eq in E. subst t. rewrite G in Gy. inversion Gy; subst y. exists x2. split; [reflexivity|]. apply cm_recv; auto. congruence.
      + exists y. split; [exact Gy | apply cm_cev, cev_refl].
    - intros t y' Gn G'. rewrite L in G'. destruct (t =? tag) eqn:E; [apply N.eqb_eq in E; subst t; congruence | congruence].
    - exists l. rewrite HH. repeat split; auto. discriminate.
    - left. exact HN.
    - intros t r er' resp H Nn. rewrite HO in H. apply in_app_iff in H. destruct H as [H|H]; [|contradiction].
      rewrite Forall_forall in FI. destruct (FI _ H) as [B|(Et & _)]; [discriminate|]. inversion Et; subst t.
      exists x. split; [exact G|]. rewrite L, N.eqb_refl. reflexivity.
    - intros t y Gy G' Ry. rewrite L in G'. destruct (t =? tag) eqn:E.
      + apply N.eqb_eq in E. subst t. rewrite G in Gy. inversion Gy; subst y. exists er. split; [exact Er|].
        rewrite HO. apply in_app_iff. left. exact IRl.
      + rewrite Gy in G'. inversion G' as [H0]. exfalso. pose proof (recv_returned y) as RR. rewrite <- H0 in RR. congruence.
    - rewrite HGA. auto.
    - rewrite HIQ. auto. }
  destruct ((if ct_armed x then negb (ct_fired x) else true) && ct_finished (ctu_armed (ctu_err x None) false)) eqn:RU.
  - apply (HF _ [COPoolPut tag; res]); try reflexivity; try (right; left; reflexivity); try (cbn; auto; fail).
    constructor; [|constructor; [exact IR | constructor]].
    right. split; [reflexivity|]. exists x. apply andb_true_iff in RU. destruct RU as [RU1 RU2].
    cbn in RU2. repeat split; auto; [congruence|]. intro Ar. rewrite Ar in RU1. destruct (ct_fired x); [discriminate | reflexivity].
  - apply (HF _ [res]); try reflexivity; try (left; reflexivity); try (cbn; auto; fail); try (constructor; [exact IR | constructor]).
Qed.

Theorem step_moves c e : inv c -> (forall i, e = CEvRL i -> rl_ok c i) ->
  step_sum c e (step c e).
Proof.
  intros Hi Hrl. pose proof Hi as [St A]. destruct e; cbn [cl_step].
  - apply sum_submit, Hi.
  - apply sum_submit_check, Hi.
  - (* case <-c.in *)
    destruct (cl_wl_live c) eqn:WL; [|apply sum_refl].
    assert (WD : cc_wl_done c = false) by (unfold cl_wl_live in WL; destruct (cc_wl_done c); [discriminate | reflexivity]).
    destruct (cc_inQ c) as [|tag q] eqn:IQ; [unfold cl_wl_in; rewrite IQ; apply sum_refl|].
    set (P := fun o => plain_item o \/ exists es blk, o = COHeaders (cc_nextID c) es blk).
    destruct (wl_in_cases enc_field enc_set_max cfg P c tag q) as [[(x & G & D) [CO' [E _]]]|[[CO ->]|(c6 & x & l & AD & E)]]; auto.
    + intros o H. left. left. exact H.
    + intros _ x _ _ es blk. right. eauto.
    + (* a Ctx its caller had taken back: nothing is written. P-items of this branch are plain *)
      assert (E' : effo plain_item c (cl_wl_in enc_field enc_set_max cfg c)).
      { unfold cl_wl_in. rewrite IQ. unfold cl_write_request.
        assert (CO0 : cl_can_open_stream (ccu_inQ c q) = true) by exact CO'. rewrite CO0. cbn [negb].
        assert (G0 : cl_ctx_get (ccu_inQ c q) tag = Some x) by exact G. rewrite G0.
        rewrite (proj1 (s_nostuck _ St) _ _ G), D.
        eapply effo_trans; [eapply effo_dequeue_done; eassumption|]. apply effo_wl_after; [apply Pben_plain|].
        apply (st_ok_eff plain_item c); [exact St | eapply eff_dequeue; eassumption]. }
      apply sum_of_effo, E'.
    + (* no stream can be opened: the Ctx is answered ErrNotAvailableStreams and never gets a stream *)
      destruct (s_inQ _ St tag) as (x & G & Sx & Cx); [rewrite IQ; left; reflexivity|].
      set (c' := cl_resolve (ccu_inQ c q) tag CENoStreams).
      assert (L : forall t, cl_ctx_get c' t = if t =? tag then Some (cl_ctx_resolve x CENoStreams) else cl_ctx_get c t).
      { intro t. unfold c'. rewrite cl_ctx_get_resolve. destruct (t =? tag) eqn:Et; [|reflexivity].
        apply N.eqb_eq in Et. subst t. assert (G0 : cl_ctx_get (ccu_inQ c q) tag = Some x) by exact G. rewrite G0. reflexivity. }
      constructor.
      * intros t y Gy. rewrite L. destruct (t =? tag) eqn:Et.
        -- apply N.eqb_eq in Et. subst t. rewrite G in Gy. inversion Gy; subst y. eexists. split; [reflexivity|].
           apply cm_deq; auto. exists q. exact IQ.
        -- exists y. split; [exact Gy | apply cm_cev, cev_refl].
      * intros t y' Gn G'. rewrite L in G'. destruct (t =? tag) eqn:Et; [apply N.eqb_eq in Et; subst t; congruence | congruence].
      * apply outs_nil. unfold c'. rewrite cc_out_cl_resolve. reflexivity.
      * left. unfold c'. rewrite cc_nextID_cl_resolve. reflexivity.
      * intros t r er resp H Nn. unfold c' in H. rewrite cc_out_cl_resolve in H. contradiction.
      * apply (no_recv_of_old c CEvWLIn). intros t y Gy. rewrite L. destruct (t =? tag) eqn:Et; [|exists y; auto].
        apply N.eqb_eq in Et. subst t. rewrite G in Gy. inversion Gy; subst y. eexists. split; [reflexivity | apply returned_resolve].
      * unfold c'. rewrite cc_goAway_cl_resolve. auto.
      * intros t H. left. unfold c' in H. rewrite cc_inQ_cl_resolve in H. cbn [cc_inQ ccu_inQ] in H. rewrite IQ. right. exact H.
    + destruct AD. constructor.
      * intros t y Gy. destruct (t =? tag) eqn:Et.
        -- apply N.eqb_eq in Et. subst t. rewrite ad_get in Gy. inversion Gy; subst y.
           destruct (e_ctx _ _ _ (proj1 E) tag (ctu_sid (ctu_conn x true) (cc_nextID c))) as (x' & G' & V); [rewrite ad_ctx, N.eqb_refl; reflexivity|].
           exists x'. split; [exact G' | apply cm_admit; auto]. exists q. exact ad_inQ.
        -- destruct (e_ctx _ _ _ (proj1 E) t y) as (x' & G' & V); [rewrite ad_ctx, Et; exact Gy|]. exists x'. split; [exact G' | apply cm_cev, V].
      * intros t y' Gn G'. assert (G6 : cl_ctx_get c6 t = None).
        { rewrite ad_ctx. destruct (t =? tag) eqn:Et; [apply N.eqb_eq in Et; subst t; congruence | exact Gn]. }
        rewrite (eff_ctx_none _ _ _ _ (proj1 E) G6) in G'. discriminate.
      * destruct (e_out _ _ _ (proj1 E)) as (l0 & Hl & Fl). exists l0. rewrite <- ad_out. split; [exact Hl|].
        assert (NRs : filter is_result l0 = []).
        { clear - Fl. induction Fl as [|o l0 H _ IH]; [reflexivity|]. cbn [filter]. rewrite IH.
          destruct H as [[H|[[w ->] _]]|(es & blk & ->)]; [destruct o; try discriminate; reflexivity | reflexivity | reflexivity]. }
        rewrite NRs. split; [|split; [cbn; auto | intros _; rewrite (e_nextID _ _ _ (proj1 E)); exact ad_next]].
        eapply Forall_impl; [|exact Fl]. intros o [[H|[[w ->] H]]|(es & blk & ->)]; [left; exact H | right; exact H|].
        right. repeat split; auto. exists tag, q, x. auto.
      * right. rewrite (e_nextID _ _ _ (proj1 E)). exact ad_next.
      * intros t r er resp H Nn. exfalso. destruct (e_out _ _ _ (proj1 E)) as (l0 & Hl & Fl). rewrite Hl, ad_out in H.
        apply in_app_iff in H. destruct H as [H|H]; [|contradiction]. rewrite Forall_forall in Fl.
        destruct (Fl _ H) as [[B|[[w B] _]]|(es & blk & B)]; discriminate.
      * apply (no_recv_of_old c CEvWLIn). intros t y Gy. destruct (t =? tag) eqn:Et.
        -- apply N.eqb_eq in Et. subst t. rewrite ad_get in Gy. inversion Gy; subst y.
           destruct (e_ctx _ _ _ (proj1 E) tag (ctu_sid (ctu_conn x true) (cc_nextID c))) as (x' & G' & V); [rewrite ad_ctx, N.eqb_refl; reflexivity|].
           exists x'. split; [exact G' | apply (cev_returned _ _ V)].
        -- destruct (e_ctx _ _ _ (proj1 E) t y) as (x' & G' & V); [rewrite ad_ctx, Et; exact Gy|]. exists x'. split; [exact G' | apply (cev_returned _ _ V)].
      * intro H. apply (e_goAway _ _ _ (proj1 E)). rewrite ad_goAway'. exact H.
      * intros t H. left. destruct (e_inQ _ _ _ (proj1 E)) as [p Hp]. rewrite Hp, ad_inQ' in H. apply filter_In in H. rewrite ad_inQ. right. apply H.
  - destruct (cl_wl_live c); [|apply sum_refl]. apply sum_of_effo, effo_wl_out; [apply Pben_plain | exact St].
  - destruct (cl_wl_live c); [|apply sum_refl]. apply sum_of_effo, effo_wl_win; [apply Pben_plain | exact St].
  - destruct (cl_wl_live c); [|apply sum_refl]. apply sum_of_effo, effo_wl_ping; [apply Pben_plain | exact St].
  - destruct (cl_wl_live c); [|apply sum_refl]. apply sum_of_effo, effo_wl_done; [apply Pben_plain | exact St].
  - destruct (cl_rl_live c) eqn:RLv; [|apply sum_refl]. destruct (Hrl i eq_refl) as (Hw & Hv & Hn & Hg).
    apply sum_of_effo, effo_rl_step; auto; [apply Pben_plain | intro NP; right; split; [eexists; reflexivity | exact NP] | |].
    + intros fr Hi' K Z NC. apply (Hg fr Hi' K Z RLv NC).
    + intros fr Hi' NC. apply (Hn fr Hi' RLv NC).
  - apply sum_timeout_fire, Hi.
  - apply sum_timeout_cancel, Hi.
  - apply sum_receive, Hi.
  - apply sum_of_effo, effo_close_call.
  - apply sum_of_effo, effo_close_finish, Pben_plain.
  - apply sum_of_effo, effo_write_fail.
Qed.


(* case <-c.in always takes the head of the queue, whatever becomes of it *)
Lemma wl_in_dequeues c t q : inv c -> cl_wl_live c = true -> cc_inQ c = t :: q ->
  ~ In t (cc_inQ (step c CEvWLIn)).
Proof.
  intros [St A] WL IQ. cbn [cl_step]. rewrite WL.
  assert (WD : cc_wl_done c = false) by (unfold cl_wl_live in WL; destruct (cc_wl_done c); [discriminate | reflexivity]).
  assert (NQ : ~ In t q). { pose proof (s_inQ_nodup _ St) as ND. rewrite IQ in ND. inversion ND. assumption. }
  set (P := fun _ : coutev => True).
  destruct (wl_in_cases enc_field enc_set_max cfg P c t q (fun _ _ => I) (fun _ _ _ _ _ _ => I) (conj St A) IQ WD)
    as [[_ [_ [_ E]]]|[[_ ->]|(c6 & x & l & AD & E)]].
  - destruct (e_inQ _ _ _ E) as [p Hp]. rewrite Hp. cbn [cc_inQ ccu_inQ]. intro H. apply filter_In in H. apply NQ, H.
  - rewrite cc_inQ_cl_resolve. exact NQ.
  - destruct (e_inQ _ _ _ (proj1 E)) as [p Hp]. rewrite Hp, (ad_inQ' _ _ _ _ _ _ AD). intro H. apply filter_In in H. apply NQ, H.
Qed.

End Moves.
