(* Proofs/CliMsgRun.v - C02 (c) / C20 (client): the invariant along every run. *)
From H2V Require Import Base.Bytes Base.MachineInt Gen.GenConsts Impl.ServerConn Impl.ClientConn
  Spec.Http2Messages Spec.Http2Responses Proofs.CliBase Proofs.SrvIsoRef Proofs.CliMsgRef Proofs.CliMsgAuto Proofs.CliMsgMoves
  Proofs.CliMsgDisp Proofs.CliMsgStep Proofs.CliMsgInv Proofs.CliMsgFeed.
From Coq Require Import ZArith Lia ZifyN ZifyNat ZifyBool List.
Import ListNotations.
Local Open Scope N_scope.

Section Run.
Context {hstate : Type}.
Variable dec_field : hstate -> N -> bytes -> dec_res hstate.
Variable enc_field : hstate -> bytes -> bytes -> bool -> bytes * hstate.
Variable enc_set_max : hstate -> N -> hstate.
Variable cfg : cl_config.
Implicit Types c : cconn hstate.
Implicit Types g : @gst hstate.

Notation step := (cl_step dec_field enc_field enc_set_max cfg).
Notation mvs := (mvs dec_field enc_field enc_set_max).
Notation mv1 := (mv1 enc_field enc_set_max).
Notation gstep := (gstep dec_field).
Notation Inv := (Inv (hstate := hstate)).

Definition gopt g (tk : option sframe) : gst := match tk with Some fr => gstep g fr | None => g end.

Lemma Inv_result g c tag x e :
  Inv g c -> cl_ctx_get c tag = Some x -> ct_err x = Some e ->
  let x2 := ctu_pooled (ctu_returned (ctu_resolved (ctu_done (ctu_armed (ctu_err x None) false) true) true) true)
                       ((if ct_armed x then negb (ct_fired x) else true) && ct_finished x) in
  Inv g (cl_note (cl_ctx_put c x2) (COResult tag (cl_retryable e) e (ct_resp x2))).
Proof.
  intros I G E x2.
  assert (T : ct_tag x = tag) by (destruct (cl_ctxs_get_In _ _ _ G); assumption).
  assert (Q : qm q0 c (cl_ctx_put c x2)).
  { apply (qm_ctx_put _ _ x); [cbn; rewrite T; exact G|]. repeat split; auto. cbn. discriminate. }
  pose proof (Inv_qm0 g c _ I Q) as I2.
  assert (G2 : cl_ctx_get (cl_ctx_put c x2) tag = Some x2).
  { rewrite cl_ctx_get_put. change (ct_tag x2) with (ct_tag x). rewrite T, N.eqb_refl, G. reflexivity. }
  destruct I2 as [j1 j2 j3 j4 j5 j6 j7 j8 j9 j10 j11]. constructor; try assumption.
  intros t r resp H. cbn in H. destruct H as [H|H]; [|exact (j7 t r resp H)].
  inversion H; subst t r resp. assert (e = CENil) by congruence. subst e.
  destruct (i_nil _ _ I tag x G E) as [A B]. exists x2. repeat split; assumption.
Qed.

Lemma Inv_mv1 g c c' : Inv g c -> Idle g c -> mv1 c c' -> Inv g c' /\ Idle g c' /\ cc_nextID c <= cc_nextID c'.
Proof.
  intros I ID M. destruct M as [c c' Q|c tag rq armed G|c tag x G S NI|c|c tag x G S NI LE L|c tag x c' G S NI LE Q L F|c tag x e G E].
  - split; [eapply Inv_qm; eassumption | split; [eapply Idle_qm; eassumption | rewrite (qm_next _ _ _ Q); lia]].
  - split; [eapply Inv_addctx; assumption | split; [exact ID | cbn; lia]].
  - split; [eapply Inv_inq; eassumption | split; [exact ID | cbn; lia]].
  - split; [eapply Inv_encsize; assumption | split; [exact ID | cbn; lia]].
  - destruct (reg_Inv dec_field enc_field enc_set_max g c tag x I ID G S NI LE) as (I2 & ID2 & NX & _ & _).
    unfold reg_state in *. destruct (cl_request_block enc_field (cc_enc (ccu_nextID c (u32 (cc_nextID c + 2)))) (ct_req x)) as [blk e']. cbn [fst] in *.
    match goal with |- Inv g (cl_note ?R ?o) /\ _ => assert (Q : qm q0 R (cl_note R o)) by (apply qm_note; reflexivity) end.
    split; [eapply Inv_qm0; eassumption | split; [eapply Idle_qm; eassumption|]]. cbn [cl_note cc_nextID ccu_out]. rewrite NX. lia.
  - destruct (reg_Inv dec_field enc_field enc_set_max g c tag x I ID G S NI LE) as (I2 & ID2 & NX & _ & _).
    split; [eapply Inv_qm; eassumption | split; [eapply Idle_qm; eassumption|]]. rewrite (qm_next _ _ _ Q), NX. lia.
  - split; [exact (Inv_result g c tag x e I G E) | split; [exact ID | cbn; lia]].
Qed.

Lemma Inv_mvs g c c' tk : mvs tk c c' -> Inv g c -> Idle g c -> (forall fr, tk = Some fr -> sf_sid fr < cc_nextID c) ->
  Inv (gopt g tk) c' /\ Idle (gopt g tk) c'.
Proof.
  intro M. revert g. induction M as [c|tk c c1 c2 M1 M IH|fr c c1 c2 F M IH]; intros g I ID LT.
  - split; assumption.
  - destruct (Inv_mv1 g c c1 I ID M1) as (I1 & ID1 & LE). apply IH; try assumption. intros fr E. specialize (LT fr E). lia.
  - destruct (Inv_feedmove dec_field g c fr c1 I F) as [I1 NX].
    destruct F as (L & S0 & FS & _).
    assert (ID1 : Idle (gstep g fr) c1) by (eapply Idle_feedmove; try eassumption; exact (LT fr eq_refl)).
    destruct (IH (gstep g fr) I1 ID1) as [I2 ID2]; [intros fr0 E; discriminate|]. split; assumption.
Qed.

Theorem Inv_step g c e :
  Inv g c -> Idle g c -> (forall fr, cl_taken c e = Some fr -> sf_sid fr < cc_nextID c) ->
  Inv (gopt g (cl_taken c e)) (step c e) /\ Idle (gopt g (cl_taken c e)) (step c e).
Proof.
  intros I ID LT. apply (Inv_mvs g c (step c e) (cl_taken c e)); try assumption.
  apply step_mvs. eapply Inv_Pre; eassumption.
Qed.

Fixpoint takens_from c (evs : list cevent) : list sframe :=
  match evs with
  | [] => []
  | e :: t => (match cl_taken c e with Some fr => [fr] | None => [] end) ++ takens_from (step c e) t
  end.

(* the server never sends a frame on a stream the client has not opened yet *)
Fixpoint never_idle_from c (evs : list cevent) : Prop :=
  match evs with
  | [] => True
  | e :: t => (forall fr, cl_taken c e = Some fr -> sf_sid fr < cc_nextID c) /\ never_idle_from (step c e) t
  end.

Lemma fold_gopt g tk l : fold_left gstep ((match tk with Some fr => [fr] | None => [] end) ++ l) g = fold_left gstep l (gopt g tk).
Proof. destruct tk; reflexivity. Qed.

Lemma Inv_run_from evs : forall g c, Inv g c -> Idle g c -> never_idle_from c evs ->
  Inv (fold_left gstep (takens_from c evs) g) (fold_left step evs c) /\ Idle (fold_left gstep (takens_from c evs) g) (fold_left step evs c).
Proof.
  induction evs as [|e t IH]; intros g c I ID NI; [split; assumption|].
  cbn [takens_from fold_left never_idle_from] in *. destruct NI as [N1 N2]. rewrite fold_gopt.
  destruct (Inv_step g c e I ID N1) as [I1 ID1]. apply IH; assumption.
Qed.

Lemma Inv_init h0 first : Inv (ginit h0) (cl_init enc_set_max h0 first) /\ Idle (ginit h0) (cl_init enc_set_max h0 first).
Proof.
  assert (A : forall c : cconn hstate, cc_ctxs c = [] -> cc_reqQueued c = [] -> cc_inQ c = [] -> cc_out c = [] -> cc_outQ c = [] ->
              cc_dec c = h0 -> cc_hdrStream c = 0 -> cc_hdrErr c = None -> cc_nextID c = 1 ->
              (forall e, cc_lastErr c = Some e -> err_special e = false) -> Inv (ginit h0) c /\ Idle (ginit h0) c).
  { intros c E1 E2 E3 E4 E5 E6 E7 E8 E9 E10. split; [|split; [intros s i [] | exact Logic.I]].
    constructor.
    - intros _. split; [symmetry; exact E6 | exact E7].
    - rewrite E8. discriminate.
    - rewrite E2. intros id tag [].
    - rewrite E2. constructor.
    - unfold cl_ctx_get. rewrite E1. discriminate.
    - unfold cl_ctx_get. rewrite E1. discriminate.
    - rewrite E4. intros tag r resp [].
    - rewrite E3. split; [constructor | intros t []].
    - exact E10.
    - rewrite E5. reflexivity.
    - rewrite E9. lia. }
  unfold cl_init. destruct (cl_settings_deserialize false first) as [st|]; apply A; try reflexivity.
  - discriminate.
  - intros e H. inversion H. reflexivity.
Qed.

Variable h0 : hstate.
Variable first : bytes.
Notation run := (cl_run dec_field enc_field enc_set_max cfg h0 first).

Definition cl_takens (evs : list cevent) : list sframe := takens_from (cl_init enc_set_max h0 first) evs.
Definition cl_ghost (evs : list cevent) : gst := fold_left gstep (cl_takens evs) (ginit h0).
Definition never_idle (evs : list cevent) : Prop := never_idle_from (cl_init enc_set_max h0 first) evs.

Theorem Inv_run evs : never_idle evs -> Inv (cl_ghost evs) (run evs) /\ Idle (cl_ghost evs) (run evs).
Proof. intro NI. destruct (Inv_init h0 first) as [I ID]. exact (Inv_run_from evs _ _ I ID NI). Qed.

End Run.
