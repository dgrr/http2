(* Proofs/CliMsgRef.v - C02 (c) / C20 (client): the decoding loop of readHeaderFragment against the
   reference "decode everything" semantics of Proofs/SrvIsoRef.v (the one the server's C09 (a) is stated with).

   cl_hdr_loop threads dec_field over carry ++ fragment exactly as the reference does, WHETHER OR NOT a response
   is there to take the fields (res = None: the request was cancelled / timed out / never existed) and whether or
   not an earlier field was refused (herr): the decoder state, the field count, the carry and the class of the
   error are functions of (fuel, eh, d, n, b) alone; the response and the validation registers are the fold of
   readHeaderField over the decoded fields.  No assumption on dec_field. *)
From H2V Require Import Base.Bytes Base.MachineInt Gen.GenConsts Impl.ServerConn Impl.ClientConn
  Proofs.SrvIsoRef.
From Coq Require Import ZArith Lia.
Local Open Scope N_scope.
Set Default Proof Using "Type".

(* (hdrRegularSeen, hdrStatus, hdrErr, res) *)
Definition hacc : Type := (bool * Z * option cerr * option cresponse)%type.

Definition hf_step (a : hacc) (kv : bytes * bytes) : hacc :=
  let '(rseen, status, herr, res) := a in
  match res, herr with
  | Some r, None =>
    let '(rseen', status', r', e) := cl_read_header_field rseen status r (fst kv) (snd kv) in
    (rseen', status', e, Some r')
  | _, _ => a
  end.
Definition hf_fold (a : hacc) (fs : list (bytes * bytes)) : hacc := fold_left hf_step fs a.

Lemma hf_fold_app a fs1 fs2 : hf_fold a (fs1 ++ fs2) = hf_fold (hf_fold a fs1) fs2.
Proof. apply fold_left_app. Qed.

Lemma hf_fold_none rs st he fs : hf_fold (rs, st, he, None) fs = (rs, st, he, None).
Proof. induction fs as [|kv t IH]; [reflexivity|]. cbn [hf_fold fold_left hf_step]. exact IH. Qed.

Lemma hf_fold_err rs st e r fs : hf_fold (rs, st, Some e, r) fs = (rs, st, Some e, r).
Proof.
  induction fs as [|kv t IH]; [reflexivity|]. cbn [hf_fold fold_left hf_step].
  destruct r; exact IH.
Qed.

(* the response is there afterwards iff it was there before *)
Lemma hf_fold_some rs st he r fs : exists rs' st' he' r', hf_fold (rs, st, he, Some r) fs = (rs', st', he', Some r').
Proof.
  revert rs st he r. induction fs as [|kv t IH]; intros rs st he r; [repeat eexists|].
  cbn [hf_fold fold_left hf_step]. destruct he as [e|].
  - apply IH.
  - destruct (cl_read_header_field rs st r (fst kv) (snd kv)) as [[[rs1 st1] r1] e1]. apply IH.
Qed.

Definition err_class {hstate} (r : ref_res hstate) : cl_rserr :=
  match r with
  | ROk _ _ _ _ => CRSNone
  | RBad => CRSConn CEConn
  | RFuel => CRSConn CEConn
  | RPanic => CRSPanic
  end.

Section Ref.
Variable hstate : Type.
Variable dec_field : hstate -> N -> bytes -> dec_res hstate.

Local Arguments DField {hstate}. Local Arguments DNone {hstate}. Local Arguments DShort {hstate}.
Local Arguments DFail {hstate}. Local Arguments DPanic {hstate}.

(* the class of the error is the reference's *)
Lemma cl_hdr_loop_class fuel : forall eh d n rs st he res b,
  snd (cl_hdr_loop hstate dec_field fuel eh d n rs st he res b) = err_class (ref_loop dec_field fuel eh d n b).
Proof.
  induction fuel as [|fuel IH]; intros eh d n rs st he res b; cbn [cl_hdr_loop ref_loop]; [reflexivity|].
  destruct b as [|x b]; [reflexivity|].
  destruct (dec_field d n (x :: b)) as [k v rest d1|d1|d1|d1|] eqn:E; try reflexivity.
  - assert (G : forall rs st he res,
               snd (cl_hdr_loop hstate dec_field fuel eh d1 (n + 1) rs st he res rest) =
               err_class (match ref_loop dec_field fuel eh d1 (n + 1) rest with
                          | ROk fs d'' n'' carry => ROk ((k, v) :: fs) d'' n'' carry
                          | r => r end)).
    { intros. rewrite IH. destruct (ref_loop dec_field fuel eh d1 (n + 1) rest); reflexivity. }
    destruct res as [r|]; [destruct he as [e|]|]; try apply G.
    destruct (cl_read_header_field rs st r k v) as [[[rs1 st1] r1] e1]. apply G.
  - destruct eh; reflexivity.
Qed.

(* when the bytes decode, everything is the reference's, and the response is the fold *)
Lemma cl_hdr_loop_ok fuel : forall eh d n rs st he res b fs d' n' carry,
  ref_loop dec_field fuel eh d n b = ROk fs d' n' carry ->
  cl_hdr_loop hstate dec_field fuel eh d n rs st he res b =
  (let '(rs', st', he', res') := hf_fold (rs, st, he, res) fs in (d', n', rs', st', he', res', carry, CRSNone)).
Proof.
  induction fuel as [|fuel IH]; intros eh d n rs st he res b fs d' n' carry; cbn [cl_hdr_loop ref_loop]; [discriminate|].
  destruct b as [|x b]; [intro H; inversion H; subst; reflexivity|].
  destruct (dec_field d n (x :: b)) as [k v rest d1|d1|d1|d1|] eqn:E; try discriminate.
  - destruct (ref_loop dec_field fuel eh d1 (n + 1) rest) as [fs1 d2 n2 c2| | |] eqn:R; try discriminate.
    intro H; inversion H; subst. cbn [hf_fold fold_left hf_step fst snd].
    destruct res as [r|]; [destruct he as [e|]|].
    + exact (IH _ _ _ _ _ _ _ _ _ _ _ _ R).
    + destruct (cl_read_header_field rs st r k v) as [[[rs1 st1] r1] e1]. exact (IH _ _ _ _ _ _ _ _ _ _ _ _ R).
    + exact (IH _ _ _ _ _ _ _ _ _ _ _ _ R).
  - intro H; inversion H; subst. reflexivity.
  - destruct eh; cbn [negb]; [discriminate|]. intro H; inversion H; subst. reflexivity.
Qed.

(* the decoder part of the result never depends on the response side *)
Lemma cl_hdr_loop_dec_indep fuel : forall eh d n rs st he res rs2 st2 he2 res2 b,
  let o1 := cl_hdr_loop hstate dec_field fuel eh d n rs st he res b in
  let o2 := cl_hdr_loop hstate dec_field fuel eh d n rs2 st2 he2 res2 b in
  match o1, o2 with
  | (d1, n1, _, _, _, _, p1, e1), (d2, n2, _, _, _, _, p2, e2) => d1 = d2 /\ n1 = n2 /\ p1 = p2 /\ e1 = e2
  end.
Proof.
  induction fuel as [|fuel IH]; intros eh d n rs st he res rs2 st2 he2 res2 b; cbn [cl_hdr_loop]; [auto|].
  destruct b as [|x b]; [auto|].
  destruct (dec_field d n (x :: b)) as [k v rest d1|d1|d1|d1|] eqn:E; auto.
  - destruct res as [r|]; [destruct he as [e|]|]; (destruct res2 as [r2|]; [destruct he2 as [e2|]|]);
      repeat match goal with |- context [cl_read_header_field ?a ?b ?c ?d ?e] =>
               destruct (cl_read_header_field a b c d e) as [[[? ?] ?] ?] end; apply IH.
  - destruct eh; cbn [negb]; auto.
Qed.

End Ref.
