(* C04, part 6: header blocks, table size changes, and the connection history.

   [Inv enc dec pend] relates the encoder to the decoder of the specification between two
   operations: in step when no size change is pending; otherwise the decoder is where the encoder
   will be once it has applied the size updates the next block starts with (RFC 7541 4.2).
   [history] is the induction over the operations: C04_encoder_in_sync. *)
From Coq Require Import List NArith ZArith Bool Lia.
From H2V Require Import Base.Bytes Base.MachineInt Base.Result Gen.GenConsts Gen.GenStatic
     Impl.Huffman Impl.Hpack Spec.Rfc7541Huffman Spec.Rfc7541
     Proofs.HpackDefs Proofs.HpackBytes Proofs.HpackStatic Proofs.HpackTable
     Proofs.HpackEncInt Proofs.HpackEncString Proofs.HpackEncHeader Proofs.HpackEncSearch
     Proofs.HpackEncSpecInt Proofs.HpackEncSpecRT Proofs.HpackEncField Proofs.HpackEncDefs.
Import ListNotations.
Local Open Scope N_scope.

(* reflexivity of the boolean comparisons of the statement *)
Lemma bytes_eqb_refl a : bytes_eqb a a = true.
Proof. apply bytes_eqb_eq. reflexivity. Qed.

Lemma entry_eqb_refl e : entry_eqb e e = true.
Proof. unfold entry_eqb. rewrite !bytes_eqb_refl. reflexivity. Qed.

Lemma entries_eqb_refl l : entries_eqb l l = true.
Proof. induction l as [|e l IH]; [reflexivity|]. cbn [entries_eqb]. rewrite entry_eqb_refl, IH. reflexivity. Qed.

Lemma hfield_eqb_refl f : hfield_eqb f f = true.
Proof. unfold hfield_eqb. rewrite entry_eqb_refl, Bool.eqb_reflx. reflexivity. Qed.

Lemma hfields_eqb_refl l : hfields_eqb l l = true.
Proof. induction l as [|f l IH]; [reflexivity|]. cbn [hfields_eqb]. rewrite hfield_eqb_refl, IH. reflexivity. Qed.

Lemma in_sync_abs enc : in_sync enc (abs enc) = true.
Proof. unfold in_sync. rewrite entries_eqb_refl. cbn [abs dt_max dt_limit]. rewrite !N.eqb_refl. reflexivity. Qed.

Lemma enc_field_ok_fld p : enc_field_ok p = true -> fld_ok (fst p).
Proof.
  unfold enc_field_ok, fld_ok, fsize. intros H.
  apply andb_prop in H. destruct H as [H H3]. apply andb_prop in H. destruct H as [H1 H2].
  apply N.ltb_lt in H3. repeat split; assumption.
Qed.

(* the fields of a block, no size change pending *)
Fixpoint freprs (hp : hpack_state) (fs : list (field * bool)) : list repr :=
  match fs with
  | [] => []
  | (hf, store) :: fs' => frepr hp hf store :: freprs (snd (afield hp hf store)) fs'
  end.

Lemma ahdr_not_pending hp hf store : h_pending hp = false -> ahdr hp hf store = afield hp hf store.
Proof.
  intros H. unfold ahdr, aupd. rewrite H. destruct (afield hp hf store). reflexivity.
Qed.

Lemma afields_cons_np hp hf store fs : h_pending hp = false ->
  afields hp ((hf, store) :: fs) =
  (fst (afield hp hf store) ++ fst (afields (snd (afield hp hf store)) fs),
   snd (afields (snd (afield hp hf store)) fs)).
Proof.
  intros Hp. cbn [afields]. rewrite (ahdr_not_pending hp hf store Hp).
  destruct (afield hp hf store) as [x hp1]. cbn [fst snd].
  destruct (afields hp1 fs) as [y hp2]. reflexivity.
Qed.

Lemma sem_from_cons_field t a r rs f t' : spec_step t a r = Some (Some f, t') ->
  sem_from t a (r :: rs) =
  match sem_from t' false rs with Some (fs, t'') => Some (f :: fs, t'') | None => None end.
Proof. intros H. cbn [sem_from]. rewrite H. reflexivity. Qed.

Record fields_fact (hp : hpack_state) (fs : list (field * bool)) : Prop := mkFsF {
  fs_bytes : fst (afields hp fs) = spec_enc_block (freprs hp fs);
  fs_wf : Forall repr_wf (freprs hp fs);
  fs_canon : map canon (freprs hp fs) = freprs hp fs;
  fs_sem : forall a, sem_from (abs hp) a (freprs hp fs)
                     = Some (map (fun p => triple_of (fst p)) fs, abs (snd (afields hp fs)));
  fs_K : K (snd (afields hp fs));
  fs_max : h_max (snd (afields hp fs)) = h_max hp;
  fs_pending : h_pending (snd (afields hp fs)) = false;
  fs_sens : sens_ok (freprs hp fs) fs = true;
  fs_head : match freprs hp fs with r :: _ => is_update r = false | [] => True end
}.

Theorem fields_step : forall fs hp, K hp -> h_pending hp = false -> forallb enc_field_ok fs = true ->
  fields_fact hp fs.
Proof.
  induction fs as [|[hf store] fs IH]; intros hp HK Hp Hok.
  - constructor; try reflexivity; try assumption. constructor.
  - cbn [forallb] in Hok. apply andb_prop in Hok. destruct Hok as [Hf Hfs].
    apply enc_field_ok_fld in Hf. cbn [fst] in Hf.
    destruct (field_step hp hf store HK Hf) as [B W C S K1 M P Sn U].
    rewrite Hp in P.
    specialize (IH (snd (afield hp hf store)) K1 P Hfs).
    destruct IH as [B' W' C' S' K' M' P' Sn' _].
    pose proof (afields_cons_np hp hf store fs Hp) as Ec.
    constructor; rewrite ?Ec; cbn [freprs fst snd].
    + rewrite spec_enc_block_cons, B, B'. reflexivity.
    + constructor; assumption.
    + cbn [map]. rewrite C, C'. reflexivity.
    + intros a. rewrite (sem_from_cons_field _ a _ _ _ _ (S a)), (S' false). reflexivity.
    + exact K'.
    + rewrite M'. exact M.
    + exact P'.
    + cbn [sens_ok]. rewrite Sn', andb_true_r.
      destruct (f_sens hf) eqn:Es; [|reflexivity].
      destruct (Sn eq_refl) as [nr [a [b [v ->]]]]. reflexivity.
    + exact U.
Qed.

(* the size updates in front of the first field *)
Definition upd_sizes (hp : hpack_state) : list N :=
  if h_pending hp
  then (if h_pending_min hp <? h_max hp then [h_pending_min hp] else []) ++ [h_max hp]
  else [].

(* the state AppendHeader continues with after the "if hp.pendingSizeUpdate" block *)
Definition settled (hp : hpack_state) : hpack_state := if h_pending hp then with_pending hp false else hp.

Lemma settled_pending hp : h_pending (settled hp) = false.
Proof. unfold settled. destruct (h_pending hp) eqn:E; [destruct hp; reflexivity | exact E]. Qed.

Lemma settled_abs hp : abs (settled hp) = abs hp.
Proof. unfold settled. destruct (h_pending hp); [destruct hp|]; reflexivity. Qed.

Lemma settled_K hp : K hp -> K (settled hp).
Proof. unfold settled. destruct (h_pending hp); [destruct hp|]; intros H; exact H. Qed.

Lemma settled_max hp : h_max (settled hp) = h_max hp.
Proof. unfold settled. destruct (h_pending hp); [destruct hp|]; reflexivity. Qed.

Lemma afields_first hp fs : fs <> [] ->
  afields hp fs = (aupd hp ++ fst (afields (settled hp) fs), snd (afields (settled hp) fs)).
Proof.
  destruct fs as [|[hf store] fs]; [congruence|]. intros _.
  cbn [afields]. rewrite (ahdr_not_pending (settled hp) hf store (settled_pending hp)).
  unfold ahdr. fold (settled hp).
  destruct (afield (settled hp) hf store) as [x hp1].
  destruct (afields hp1 fs) as [y hp2]. cbn [fst snd]. rewrite <- app_assoc. reflexivity.
Qed.

Lemma enc_update n : n < 2 ^ 63 -> aint 32 5 n = spec_enc_repr (SizeUpdate n).
Proof.
  intros H. cbn [spec_enc_repr]. apply aint_is_spec; [lia | reflexivity | reflexivity | apply pow63_64; exact H].
Qed.

Lemma aupd_is_spec hp : h_max hp < 2 ^ 31 -> aupd hp = spec_enc_block (map SizeUpdate (upd_sizes hp)).
Proof.
  intros HM. unfold aupd, upd_sizes.
  assert (h_max hp < 2 ^ 63) as HM' by (change (2 ^ 31) with 2147483648 in HM; change (2 ^ 63) with 9223372036854775808; lia).
  destruct (h_pending hp); [|reflexivity].
  destruct (h_pending_min hp <? h_max hp) eqn:E.
  - apply N.ltb_lt in E. cbn [app map]. rewrite !spec_enc_block_cons. cbn [spec_enc_block flat_map].
    rewrite app_nil_r, <- !enc_update by lia. reflexivity.
  - cbn [app map]. rewrite spec_enc_block_cons. cbn [spec_enc_block flat_map].
    rewrite app_nil_r, <- enc_update by lia. reflexivity.
Qed.

Lemma upd_sizes_wf hp : h_max hp < 2 ^ 31 -> Forall repr_wf (map SizeUpdate (upd_sizes hp)).
Proof.
  intros HM. unfold upd_sizes.
  assert (h_max hp < 2 ^ 63) as HM' by (change (2 ^ 31) with 2147483648 in HM; change (2 ^ 63) with 9223372036854775808; lia).
  destruct (h_pending hp); [|constructor].
  destruct (h_pending_min hp <? h_max hp) eqn:E.
  - apply N.ltb_lt in E. cbn [app map]. repeat constructor; cbn [repr_wf]; lia.
  - cbn [app map]. repeat constructor. exact HM'.
Qed.

Lemma map_canon_updates ns : map canon (map SizeUpdate ns) = map SizeUpdate ns.
Proof. induction ns as [|n ns IH]; [reflexivity|]. cbn [map canon]. rewrite IH. reflexivity. Qed.

Lemma leading_updates_app ns rs : match rs with r :: _ => is_update r = false | [] => True end ->
  leading_updates (map SizeUpdate ns ++ rs) = ns /\ drop_updates (map SizeUpdate ns ++ rs) = rs.
Proof.
  intros H. induction ns as [|n ns [IH1 IH2]].
  - cbn [map app]. destruct rs as [|[i|m nr a b v|n] rs]; try (split; reflexivity). discriminate.
  - cbn [map app leading_updates drop_updates]. rewrite IH1, IH2. split; reflexivity.
Qed.

Lemma evict_evict : forall l a b, evict_to a (evict_to b l) = evict_to (N.min a b) l.
Proof.
  induction l as [|e l IH]; intros a b; [reflexivity|].
  cbn [evict_to].
  destruct (N.leb_spec (entry_size e) b) as [Hb|Hb].
  - cbn [evict_to]. destruct (N.leb_spec (entry_size e) a) as [Ha|Ha].
    + replace (entry_size e <=? N.min a b) with true by (symmetry; apply N.leb_le; lia).
      rewrite IH. f_equal. f_equal. lia.
    + replace (entry_size e <=? N.min a b) with false by (symmetry; apply N.leb_gt; lia). reflexivity.
  - replace (entry_size e <=? N.min a b) with false by (symmetry; apply N.leb_gt; lia). reflexivity.
Qed.

Lemma evict_idem_le l a b : a <= b -> evict_to b (evict_to a l) = evict_to a l.
Proof. intros H. rewrite evict_evict. f_equal. lia. Qed.

(* the invariant of a connection *)
Definition changed (m0 : N) (pend : list N) : bool := existsb (fun n => negb (n =? m0)) pend.

Definition Inv (enc : hpack_state) (dec : dtable) (pend : list N) : Prop :=
  K enc /\ dt_limit dec = h_max enc /\
  if h_pending enc then
    dt_entries (abs enc) = evict_to (h_pending_min enc) (dt_entries dec) /\
    h_pending_min enc <= h_max enc /\
    last pend 0 = h_max enc /\
    N.min (h_pending_min enc) (dt_max dec) = fold_left N.min pend (dt_max dec) /\
    changed (dt_max dec) pend = true
  else dec = abs enc /\ changed (dt_max dec) pend = false.

Lemma Inv_init nc nd : Inv (hpack_init nc nd) (dtable_init c_defaultHeaderTableSize) [].
Proof.
  unfold Inv, K, hpack_init, dtable_init, c_defaultHeaderTableSize.
  cbn [h_max h_max_settings h_dynamic h_pending dt_limit fsum fold_right].
  repeat split; try reflexivity. change (2 ^ 31) with 2147483648. lia.
Qed.

Lemma sem_update t n rs : n <= dt_limit t ->
  sem_from t true (SizeUpdate n :: rs) = sem_from (set_max t n) true rs.
Proof.
  intros H. cbn [sem_from spec_step andb].
  replace (n <=? dt_limit t) with true by (symmetry; apply N.leb_le; exact H). reflexivity.
Qed.

(* decoding the size updates brings the decoder to the encoder's table *)
Lemma updates_sem enc dec pend rs : Inv enc dec pend ->
  sem_from dec true (map SizeUpdate (upd_sizes enc) ++ rs) = sem_from (abs enc) true rs.
Proof.
  intros [[K1 [K2 K3]] [HL HI]]. unfold upd_sizes.
  destruct (h_pending enc) eqn:Ep.
  - destruct HI as [HE [Hmin _]].
    destruct dec as [es mx lim]. cbn [dt_entries dt_max dt_limit] in *.
    assert (abs enc = mkDT (evict_to (h_pending_min enc) es) (h_max enc) lim) as Eabs.
    { unfold abs in *. cbn [dt_entries] in HE. rewrite HE, HL, <- K1. reflexivity. }
    destruct (h_pending_min enc <? h_max enc) eqn:E.
    + cbn [app map]. rewrite sem_update by (cbn [dt_limit]; lia).
      rewrite sem_update by (cbn [set_max dt_limit]; lia).
      unfold set_max. cbn [dt_entries dt_max dt_limit].
      rewrite evict_idem_le by exact Hmin. rewrite Eabs. reflexivity.
    + apply N.ltb_ge in E. assert (h_pending_min enc = h_max enc) as Emin by lia.
      cbn [app map]. rewrite sem_update by (cbn [dt_limit]; lia).
      unfold set_max. cbn [dt_entries dt_max dt_limit].
      rewrite Eabs, Emin. reflexivity.
  - destruct HI as [-> _]. reflexivity.
Qed.

Lemma fold_min_le : forall l a, fold_left N.min l a <= a.
Proof.
  induction l as [|x l IH]; intros a; cbn [fold_left]; [lia|].
  specialize (IH (N.min a x)). lia.
Qed.

Lemma fold_min_app l x a : fold_left N.min (l ++ [x]) a = N.min (fold_left N.min l a) x.
Proof. rewrite fold_left_app. reflexivity. Qed.

Lemma unchanged_fold : forall pend m0, changed m0 pend = false -> fold_left N.min pend m0 = m0.
Proof.
  induction pend as [|x pend IH]; intros m0 H; [reflexivity|].
  cbn [changed existsb] in H. apply orb_false_elim in H. destruct H as [H1 H2].
  apply negb_false_iff, N.eqb_eq in H1. subst x. cbn [fold_left]. rewrite N.min_id. apply IH. exact H2.
Qed.

Lemma changed_app m0 pend x : changed m0 (pend ++ [x]) = changed m0 pend || negb (x =? m0).
Proof. unfold changed. rewrite existsb_app. cbn [existsb]. rewrite orb_false_r. reflexivity. Qed.

Lemma last_snoc {A} (l : list A) x d : last (l ++ [x]) d = x.
Proof. apply last_last. Qed.

(* RFC 7541 4.2 *)
Lemma updates_ok_inv enc dec pend : Inv enc dec pend ->
  updates_ok (dt_max dec) pend (upd_sizes enc) = true.
Proof.
  intros [[K1 [K2 K3]] [HL HI]]. unfold updates_ok, upd_sizes. fold (changed (dt_max dec) pend).
  destruct (h_pending enc).
  - destruct HI as [_ [Hmin [Hlast [Hfold Hch]]]]. rewrite Hch.
    destruct (h_pending_min enc <? h_max enc) eqn:E.
    + apply N.ltb_lt in E. cbn [app length Nat.leb Nat.eqb negb andb last fold_left].
      rewrite Hlast, N.eqb_refl. cbn [andb]. apply N.eqb_eq. rewrite <- Hfold. lia.
    + apply N.ltb_ge in E. cbn [app length Nat.leb Nat.eqb negb andb last fold_left].
      rewrite Hlast, N.eqb_refl. cbn [andb]. apply N.eqb_eq. rewrite <- Hfold. lia.
  - destruct HI as [_ Hch]. rewrite Hch. reflexivity.
Qed.

Lemma set_max_unfold hp size : set_max_table_size hp size =
  if (h_max hp =? size) && (h_max_settings hp =? size) then hp
  else shrink (mkH (h_no_compress hp) (h_no_dynamic hp) (h_dynamic hp) size size true
                   (if negb (h_pending hp) || (size <? h_pending_min hp) then size else h_pending_min hp)).
Proof. reflexivity. Qed.

Theorem set_max_step enc dec pend n : Inv enc dec pend -> n < 2 ^ 31 ->
  Inv (set_max_table_size enc n) (spec_set_limit dec n) (pend ++ [n]) /\
  table_size (dt_entries (abs (set_max_table_size enc n))) <= n.
Proof.
  intros [[K1 [K2 K3]] [HL HI]] Hn. rewrite set_max_unfold.
  destruct ((h_max enc =? n) && (h_max_settings enc =? n)) eqn:Esame.
  - (* nothing changes *)
    apply andb_prop in Esame. destruct Esame as [E1 _]. apply N.eqb_eq in E1.
    split; [|rewrite table_size_abs; lia].
    unfold Inv. split; [repeat split; assumption|]. split; [cbn; lia|].
    cbn [spec_set_limit dt_entries dt_max dt_limit].
    destruct (h_pending enc).
    + destruct HI as [HE [Hmin [Hlast [Hfold Hch]]]].
      repeat split.
      * exact HE.
      * exact Hmin.
      * rewrite last_snoc. lia.
      * rewrite fold_min_app, <- Hfold. lia.
      * rewrite changed_app, Hch. reflexivity.
    + destruct HI as [-> Hch]. split.
      * unfold abs. cbn [dt_entries dt_max dt_limit]. rewrite <- K1, E1. reflexivity.
      * rewrite changed_app, Hch. cbn [abs dt_max]. rewrite E1, N.eqb_refl. reflexivity.
  - (* the size changes: shrink at once, announce later *)
    set (pmin := if negb (h_pending enc) || (n <? h_pending_min enc) then n else h_pending_min enc).
    set (enc1 := mkH (h_no_compress enc) (h_no_dynamic enc) (h_dynamic enc) n n true pmin).
    assert (fsum (h_dynamic enc1) < 2 ^ 32) as Hs.
    { cbn [enc1 h_dynamic]. change (2 ^ 31) with 2147483648 in *. change (2 ^ 32) with 4294967296. lia. }
    rewrite (shrink_dynamic enc1 Hs). cbn [enc1 h_max h_dynamic].
    assert (dt_entries (abs (with_dynamic enc1 (fit n (h_dynamic enc)))) = evict_to n (dt_entries (abs enc))) as Hent.
    { unfold abs. cbn [with_dynamic enc1 h_dynamic dt_entries]. apply (fit_evict n (h_dynamic enc)). }
    split.
    2:{ rewrite table_size_abs. cbn [with_dynamic h_dynamic]. apply fsum_fit_le. }
    unfold Inv. split; [|split].
    + unfold K. cbn [with_dynamic enc1 h_max h_max_settings h_dynamic].
      split; [reflexivity|]. split; [exact Hn | apply fsum_fit_le].
    + reflexivity.
    + cbn [with_dynamic enc1 h_pending h_pending_min h_max spec_set_limit dt_entries dt_max dt_limit].
      rewrite Hent.
      destruct (h_pending enc) eqn:Ep.
      * destruct HI as [HE [Hmin [Hlast [Hfold Hch]]]].
        cbn [negb orb] in pmin.
        assert (pmin = N.min n (h_pending_min enc)) as Epm.
        { subst pmin. destruct (N.ltb_spec n (h_pending_min enc)); lia. }
        repeat split.
        -- rewrite HE, evict_evict, Epm. reflexivity.
        -- lia.
        -- apply last_snoc.
        -- rewrite fold_min_app, <- Hfold. lia.
        -- rewrite changed_app, Hch. reflexivity.
      * destruct HI as [-> Hch].
        cbn [negb orb] in pmin. subst pmin.
        repeat split.
        -- lia.
        -- apply last_snoc.
        -- rewrite fold_min_app, (unchanged_fold _ _ Hch). lia.
        -- rewrite changed_app, Hch. cbn [orb abs dt_max].
           apply negb_true_iff, N.eqb_neq. intros ->.
           rewrite <- K1, N.eqb_refl in Esame. discriminate.
Qed.

Inductive block_fact (enc : hpack_state) (dec : dtable) (pend : list N) (fs : list (field * bool)) : Prop :=
| mkBF (rs : list repr) (enc' : hpack_state)
    (bf_encode : encode_block enc fs = Ok (spec_enc_block rs, enc'))
    (bf_decode : spec_decode_block dec (spec_enc_block rs)
                 = Some (map (fun p => triple_of (fst p)) fs, if is_nil fs then dec else abs enc'))
    (bf_parse : spec_parse_block (spec_enc_block rs) = Some rs)
    (bf_size : table_size (dt_entries (abs enc')) <= dt_limit dec)
    (bf_updates : is_nil fs = false -> updates_ok (dt_max dec) pend (leading_updates rs) = true)
    (bf_sens : sens_ok (drop_updates rs) fs = true)
    (bf_inv : Inv enc' (if is_nil fs then dec else abs enc') (if is_nil fs then pend else [])).

Theorem block_step enc dec pend fs : Inv enc dec pend -> forallb enc_field_ok fs = true ->
  block_fact enc dec pend fs.
Proof.
  intros HInv Hok. pose proof HInv as [[K1 [K2 K3]] [HL HI]].
  destruct fs as [|p fs].
  - (* no AppendHeader call: nothing is written, nothing changes *)
    apply (mkBF enc dec pend [] [] enc); cbn [is_nil].
    + reflexivity.
    + reflexivity.
    + reflexivity.
    + rewrite table_size_abs. lia.
    + discriminate.
    + reflexivity.
    + exact HInv.
  - set (fs1 := p :: fs) in *.
    assert (fs1 <> []) as Hne by discriminate.
    pose proof (fields_step fs1 (settled enc) (settled_K enc (conj K1 (conj K2 K3))) (settled_pending enc) Hok)
      as [B W C S K' M' P' Sn Hd].
    set (enc' := snd (afields (settled enc) fs1)) in *.
    set (rs := map SizeUpdate (upd_sizes enc) ++ freprs (settled enc) fs1).
    assert (Forall repr_wf rs) as Hwf.
    { apply Forall_app. split; [apply upd_sizes_wf; exact K2 | exact W]. }
    assert (map canon rs = rs) as Hcanon.
    { unfold rs. rewrite map_app, map_canon_updates, C. reflexivity. }
    destruct (leading_updates_app (upd_sizes enc) (freprs (settled enc) fs1) Hd) as [Hlead Hdrop].
    apply (mkBF enc dec pend fs1 rs enc'); change (is_nil fs1) with false; cbv iota.
    + rewrite encode_block_pure, (afields_first enc fs1 Hne). fold enc'.
      unfold rs. rewrite spec_enc_block_app, <- (aupd_is_spec enc K2), B. reflexivity.
    + rewrite (spec_decode_enc_block dec rs Hwf). unfold spec_sem, rs.
      rewrite (updates_sem enc dec pend _ HInv), <- (settled_abs enc). apply S.
    + rewrite (spec_parse_enc_block rs Hwf), Hcanon. reflexivity.
    + rewrite table_size_abs. destruct K' as [_ [_ K3']]. fold enc' in K3', M'.
      rewrite M', settled_max in K3'. lia.
    + intros _. fold rs in Hlead. rewrite Hlead. apply (updates_ok_inv enc dec pend HInv).
    + fold rs in Hdrop. rewrite Hdrop. exact Sn.
    + unfold Inv. split; [exact K'|]. split.
      * cbn [abs dt_limit]. destruct K' as [K1' _]. symmetry. exact K1'.
      * fold enc' in P'. rewrite P'. split; reflexivity.
Qed.

Theorem history : forall ops enc dec pend, Inv enc dec pend -> forallb enc_op_ok ops = true ->
  c04_run enc dec pend ops = true.
Proof.
  induction ops as [|op ops IH]; intros enc dec pend HInv Hok; [reflexivity|].
  cbn [forallb] in Hok. apply andb_prop in Hok. destruct Hok as [Hop Hops].
  destruct op as [n | fs]; cbn [enc_op_ok] in Hop.
  - apply N.ltb_lt in Hop.
    destruct (set_max_step enc dec pend n HInv Hop) as [HInv' Hsz].
    cbn [c04_run]. apply N.leb_le in Hsz. rewrite Hsz. cbn [andb].
    apply IH; assumption.
  - destruct (block_step enc dec pend fs HInv Hop) as [rs enc' E D P Sz U Sn HInv'].
    cbn [c04_run]. rewrite E, D, P.
    rewrite hfields_eqb_refl. apply N.leb_le in Sz. rewrite Sz. rewrite Sn.
    destruct (is_nil fs) eqn:En.
    + cbn [orb andb]. apply IH; assumption.
    + rewrite (U eq_refl), in_sync_abs. cbn [orb andb]. apply IH; assumption.
Qed.

(* C04_encoder_in_sync *)
Theorem encoder_in_sync : forall no_compress no_dynamic ops,
  forallb enc_op_ok ops = true -> c04_check no_compress no_dynamic ops = true.
Proof.
  intros nc nd ops Hok. unfold c04_check. apply history; [apply Inv_init | exact Hok].
Qed.
