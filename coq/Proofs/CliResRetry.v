(* Proofs/CliResRetry.v - C11 (d): RoundTrip's loop over connections (client.go), as a function over the outcomes of
   the successive roundTripOnce calls. Pure Gallina; the per-connection facts come from Proofs/CliResGoAway.v. *)
From H2V Require Import Impl.ClientConn.
From Coq Require Import List Bool Lia.
Import ListNotations.

(* what one roundTripOnce did, as far as servers can tell: the error it returned, whether the connection it picked
   wrote the request's HEADERS, and whether the server of that connection disclaimed the stream (GOAWAY with a
   last-stream-id below it) *)
Record attempt : Type := mkAttempt { at_err : cerr; at_sent : bool; at_disclaimed : bool }.

(* roundTripAttempts *)
Definition round_trip_attempts : nat := 4.

(* RoundTrip: for attempt := 0; ; attempt++ { err = roundTripOnce(); if err == nil || !retryable(err) { return false, err };
   if attempt == roundTripAttempts-1 { return true, err } }.
   outcomes: what each further roundTripOnce would return. Result: the attempts made, and (retry, err) as returned to
   fasthttp (None: the list of outcomes ran out, i.e. the loop is still going) *)
Fixpoint round_trip_from (n : nat) (outcomes : list attempt) : list attempt * option (bool * cerr) :=
  match outcomes with
  | [] => ([], None)
  | a :: rest =>
    if negb (cl_retryable (at_err a)) then ([a], Some (false, at_err a))
    else match n with
         | O => ([a], Some (true, at_err a))
         | S n' => let '(made, r) := round_trip_from n' rest in (a :: made, r)
         end
  end.
Definition round_trip (outcomes : list attempt) := round_trip_from (round_trip_attempts - 1) outcomes.

(* a server has (maybe) processed the request of this attempt: its HEADERS went out and were not disclaimed *)
Definition processed (a : attempt) : bool := at_sent a && negb (at_disclaimed a).

(* what Proofs/CliResGoAway.v (retry_sound) says of every connection *)
Definition attempt_sound (a : attempt) : Prop := cl_retryable (at_err a) = true -> processed a = false.

Lemma round_trip_from_spec n outcomes : Forall attempt_sound outcomes ->
  (length (fst (round_trip_from n outcomes)) <= S n)%nat /\
  (forall a, In a (removelast (fst (round_trip_from n outcomes))) -> processed a = false) /\
  (forall e, snd (round_trip_from n outcomes) = Some (true, e) ->
     cl_retryable e = true /\ forall a, In a (fst (round_trip_from n outcomes)) -> processed a = false).
Proof.
  revert outcomes. induction n as [|n IH]; intros outcomes H; destruct outcomes as [|a rest]; cbn [round_trip_from].
  - cbn. split; [lia|]. split; [intros a []|]. intros e E. discriminate.
  - inversion H as [|? ? Ha Hr]; subst. destruct (cl_retryable (at_err a)) eqn:R; cbn [negb fst snd length removelast].
    + split; [lia|]. split; [intros a0 []|]. intros e E. inversion E; subst. split; [exact R|]. intros a0 [<-|[]]. apply Ha, R.
    + split; [lia|]. split; [intros a0 []|]. intros e E. discriminate.
  - cbn. split; [lia|]. split; [intros a []|]. intros e E. discriminate.
  - inversion H as [|? ? Ha Hr]; subst. destruct (cl_retryable (at_err a)) eqn:R; cbn [negb].
    + destruct (IH rest Hr) as (L & P & Q). destruct (round_trip_from n rest) as [made r]. cbn [fst snd] in *.
      split; [cbn [length]; lia|]. split.
      * intros a0 H0. destruct made as [|b made]; [destruct H0|]. cbn [removelast] in H0. destruct H0 as [<-|H0]; [apply Ha, R | apply P, H0].
      * intros e E. destruct (Q e E) as [Q1 Q2]. split; [exact Q1|]. intros a0 [<-|H0]; [apply Ha, R | apply Q2, H0].
    + cbn [fst snd length removelast]. split; [lia|]. split; [intros a0 []|]. intros e E. discriminate.
Qed.

Lemma filter_nothing {A} (f : A -> bool) l : (forall a, In a l -> f a = false) -> filter f l = [].
Proof.
  induction l as [|a l IH]; intro H; [reflexivity|]. cbn [filter]. rewrite (H a); [|left; reflexivity]. apply IH. intros b Hb. apply H. right. exact Hb.
Qed.

Lemma filter_removelast_bound {A} (f : A -> bool) l : (forall a, In a (removelast l) -> f a = false) -> (length (filter f l) <= 1)%nat.
Proof.
  induction l as [|a l IH]; intro H; [cbn; lia|]. destruct l as [|b l].
  - cbn. destruct (f a); cbn; lia.
  - cbn [filter]. rewrite (H a); [|left; reflexivity]. apply IH. intros a0 H0. apply H. right. exact H0.
Qed.

(* C11 (d): over one RoundTrip the request's HEADERS reach a server that may process them at most once; every attempt
   but the last was turned away unprocessed; at most roundTripAttempts attempts; and when RoundTrip hands the request back
   to fasthttp as retryable no server can have processed it *)
Theorem round_trip_at_most_once outcomes : Forall attempt_sound outcomes ->
  let made := fst (round_trip outcomes) in
  (length made <= round_trip_attempts)%nat /\ (length (filter processed made) <= 1)%nat /\
  (forall a, In a (removelast made) -> processed a = false) /\
  (forall e, snd (round_trip outcomes) = Some (true, e) -> cl_retryable e = true /\ filter processed made = []).
Proof.
  intro H. cbv zeta. unfold round_trip. destruct (round_trip_from_spec (round_trip_attempts - 1) outcomes H) as (L & P & Q).
  split; [exact L|]. split; [apply filter_removelast_bound, P|]. split; [exact P|].
  intros e E. destruct (Q e E) as [Q1 Q2]. split; [exact Q1|]. apply filter_nothing, Q2.
Qed.
