(* Proofs/SrvFlowLedger.v - facts about the ghost ledgers of Spec/FlowLedger.v (no reference to the model). *)
From Coq Require Import ZArith List Lia Bool.
From H2V Require Import Spec.FlowLedger.
Import ListNotations.
Local Open Scope Z_scope.

Lemma lrun_app L a b : lrun L (a ++ b) = lrun (lrun L a) b.
Proof. apply fold_left_app. Qed.

Lemma lrun_nil L : lrun L [] = L.
Proof. reflexivity. Qed.

Lemma lrun_cons L e t : lrun L (e :: t) = lrun (lstep L e) t.
Proof. reflexivity. Qed.

Lemma lvalid_app L a b : lvalid L (a ++ b) <-> lvalid L a /\ lvalid (lrun L a) b.
Proof.
  revert L. induction a as [|e a IH]; intro L; cbn [app lvalid].
  - rewrite lrun_nil. tauto.
  - rewrite lrun_cons, IH. tauto.
Qed.

(* the windows as granted - sent *)

Lemma sent_conn_app a b : sent_conn (a ++ b) = sent_conn a + sent_conn b.
Proof. induction a as [|[] a IH]; cbn [app sent_conn]; lia. Qed.

Lemma sent_strm_app sid a b : sent_strm sid (a ++ b) = sent_strm sid a + sent_strm sid b.
Proof. induction a as [|[] a IH]; cbn [app sent_strm]; lia. Qed.

Lemma l_conn_lrun L evs : l_conn (lrun L evs) = l_conn L + (granted_conn evs - DEFAULT_WINDOW) - sent_conn evs.
Proof.
  revert L. induction evs as [|e t IH]; intro L.
  - cbn. lia.
  - rewrite lrun_cons, IH. destruct e as [v|sid|sid inc|sid n]; cbn [lstep granted_conn sent_conn].
    + cbn [l_conn]. lia.
    + destruct (l_strm L sid); cbn [l_conn]; lia.
    + destruct (N.eqb sid 0); [cbn [l_conn]; lia|]. destruct (l_strm L sid); cbn [l_conn]; lia.
    + cbn [l_conn]. lia.
Qed.

Lemma strm_upd_same f sid v : strm_upd f sid v sid = v.
Proof. unfold strm_upd. rewrite N.eqb_refl. reflexivity. Qed.

Lemma strm_upd_other f sid v x : x <> sid -> strm_upd f sid v x = f x.
Proof. intro H. unfold strm_upd. destruct (N.eqb x sid) eqn:E; [apply N.eqb_eq in E; contradiction | reflexivity]. Qed.

Lemma l_strm_lrun evs : forall L sid, lvalid L evs ->
  l_strm (lrun L evs) sid =
  match l_strm L sid with
  | Some w => Some (w + granted_strm_from sid (l_init L) true evs - sent_strm sid evs)
  | None => if opened_in sid evs then Some (granted_strm_from sid (l_init L) false evs - sent_strm sid evs) else None
  end.
Proof.
  induction evs as [|e t IH]; intros L sid V.
  - cbn. destruct (l_strm L sid); [f_equal; lia | reflexivity].
  - destruct V as [A V]. rewrite lrun_cons, (IH _ sid V). clear IH V.
    assert (NE : forall s, N.eqb s sid = false -> sid <> s).
    { intros s E ->. rewrite N.eqb_refl in E. discriminate. }
    assert (FIN : forall (a : option Z) (x y : Z), x = y ->
              match a with Some w => Some (w + x) | None => if opened_in sid t then Some x else None end =
              match a with Some w => Some (w + y) | None => if opened_in sid t then Some y else None end).
    { intros a x y ->. reflexivity. }
    destruct e as [v|s|s inc|s n]; cbn [lstep granted_strm_from sent_strm opened_in].
    + cbn [l_strm l_init]. destruct (l_strm L sid); cbn [andb orb negb]; [f_equal; lia|].
      destruct (opened_in sid t); [f_equal; lia | reflexivity].
    + destruct (N.eqb s sid) eqn:E; cbn [andb orb negb].
      * apply N.eqb_eq in E. subst s. destruct (l_strm L sid) eqn:F.
        -- rewrite ?F. reflexivity.
        -- cbn [l_strm l_init]. rewrite strm_upd_same. try (f_equal; lia); try reflexivity.
      * apply NE in E. destruct (l_strm L s) eqn:F; [reflexivity|]. cbn [l_strm l_init].
        rewrite strm_upd_other by assumption. reflexivity.
    + destruct (N.eqb s 0) eqn:Z0; cbn [negb andb].
      * cbn [l_strm l_init]. destruct (l_strm L sid); [f_equal; lia|]. destruct (opened_in sid t); [f_equal; lia | reflexivity].
      * destruct (N.eqb s sid) eqn:E; cbn [negb andb].
        -- apply N.eqb_eq in E. subst s. destruct (l_strm L sid) eqn:F.
           ++ cbn [l_strm l_init]. rewrite strm_upd_same. try (f_equal; lia); try reflexivity.
           ++ rewrite ?F. destruct (opened_in sid t); [f_equal; lia | reflexivity].
        -- apply NE in E. destruct (l_strm L s) eqn:F.
           ++ cbn [l_strm l_init]. rewrite strm_upd_other by assumption.
              destruct (l_strm L sid); [f_equal; lia|]. destruct (opened_in sid t); [f_equal; lia | reflexivity].
           ++ destruct (l_strm L sid); [f_equal; lia|]. destruct (opened_in sid t); [f_equal; lia | reflexivity].
    + destruct A as (w & Hw & _). cbn [l_strm l_init]. rewrite Hw.
      destruct (N.eqb s sid) eqn:E.
      * apply N.eqb_eq in E. subst s. rewrite strm_upd_same, Hw. try (f_equal; lia); try reflexivity.
      * apply NE in E. rewrite strm_upd_other by assumption.
        destruct (l_strm L sid); [f_equal; lia|]. destruct (opened_in sid t); [f_equal; lia | reflexivity].
Qed.

(* C06 safety in the totals form of the property's text follows from the window form *)
Theorem lvalid_within_grants evs : lvalid ledger0 evs -> within_grants evs.
Proof.
  intros V pre sid n post -> Hn.
  apply lvalid_app in V. destruct V as [Vp [A _]]. cbn [lallowed] in A. destruct A as (w & Hw & [->|(_ & Hc & Hs)]); [lia|].
  split.
  - rewrite sent_conn_app. cbn [sent_conn]. rewrite l_conn_lrun in Hc. cbn [ledger0 l_conn] in Hc. lia.
  - rewrite sent_strm_app. cbn [sent_strm]. rewrite N.eqb_refl.
    rewrite (l_strm_lrun _ _ sid Vp) in Hw. cbn [ledger0 l_strm l_init] in Hw.
    destruct (opened_in sid pre); [|discriminate]. inversion Hw; subst w. unfold granted_strm. lia.
Qed.

Definition is_ldata (e : levent) : Prop := match e with LData _ _ => True | _ => False end.

Lemma l_init_lrun_data L evs : Forall is_ldata evs -> l_init (lrun L evs) = l_init L.
Proof.
  revert L. induction evs as [|e t IH]; intros L H; [reflexivity|]. inversion H; subst.
  rewrite lrun_cons, IH by assumption. destruct e; try contradiction. reflexivity.
Qed.

(* data on other streams leaves a stream's window alone *)
Lemma l_strm_lrun_data_other L evs sid :
  Forall (fun e => match e with LData s _ => s <> sid | _ => False end) evs -> l_strm (lrun L evs) sid = l_strm L sid.
Proof.
  revert L. induction evs as [|e t IH]; intros L H; [reflexivity|]. inversion H; subst.
  rewrite lrun_cons, IH by assumption. destruct e as [| | |s n]; try contradiction. cbn [lstep l_strm].
  destruct (l_strm L s); [|reflexivity]. apply strm_upd_other. congruence.
Qed.

Lemma peer_conn_window_app w0 a b : peer_conn_window w0 (a ++ b) = peer_conn_window (peer_conn_window w0 a) b.
Proof. revert w0. induction a as [|[] a IH]; intro w0; cbn [app peer_conn_window]; auto. Qed.

Lemma peer_strm_window_app sid w0 a b : peer_strm_window sid w0 (a ++ b) = peer_strm_window sid (peer_strm_window sid w0 a) b.
Proof. revert w0. induction a as [|[] a IH]; intro w0; cbn [app peer_strm_window]; auto. Qed.

Lemma peer_conn_window_shift w0 d evs : peer_conn_window (w0 + d) evs = peer_conn_window w0 evs + d.
Proof.
  revert w0. induction evs as [|[s inc|s n] t IH]; intro w0; cbn [peer_conn_window]; [reflexivity| |].
  - destruct (N.eqb s 0); [|apply IH]. replace (w0 + d + inc) with (w0 + inc + d) by lia. apply IH.
  - replace (w0 + d - n) with (w0 - n + d) by lia. apply IH.
Qed.
