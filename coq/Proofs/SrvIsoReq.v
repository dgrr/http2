(* Proofs/SrvIsoReq.v - C01 (a), part 1: what the handler is given.
   Pure part: the request record that the field-by-field loop (header_field, folded by hfold of
   Proofs/SrvIsoRef.v) builds from a decoded field list is the list read as a request: the pseudo-header
   values, the regular fields in order. *)
From H2V Require Import Base.Bytes Base.MachineInt Base.Result Gen.GenConsts Impl.ServerConn Proofs.SrvBase
  Proofs.HpackBytes Proofs.SrvIsoRef.
From Coq Require Import ZArith Lia ZifyN ZifyNat ZifyBool.
Local Open Scope N_scope.

Definition regular_fields (fs : list (bytes * bytes)) : list (bytes * bytes) :=
  filter (fun kv => negb (is_pseudo (fst kv))) fs.

(* the value of the (first) field called name *)
Definition field_val (name : bytes) (fs : list (bytes * bytes)) : option bytes :=
  match find (fun kv => bytes_eqb (fst kv) name) fs with Some kv => Some (snd kv) | None => None end.

Definition opt_or (o : option bytes) (d : bytes) : bytes := match o with Some v => v | None => d end.

(* the request a complete, accepted header list stands for (r0: what the stream had before - empty_req for a
   new stream) *)
Definition request_of (r0 : request) (fs : list (bytes * bytes)) : request :=
  mkReq (opt_or (field_val S_method fs) (rq_method r0)) (opt_or (field_val S_path fs) (rq_uri r0))
        (opt_or (field_val S_scheme fs) (rq_scheme r0))
        (match field_val S_authority fs with Some v => Some v | None => rq_authority r0 end)
        (rq_fields r0 ++ regular_fields fs) (rq_body r0).

Ltac fin := try (intro HH); match goal with HH : inr _ = inr _ |- _ => inversion HH; subst; cbn end.

Section Req.
Variable cfg : config.

(* one accepted field *)
Lemma header_field_accept h k v h' : header_field cfg h k v = inr h' ->
  (is_pseudo k = false /\ hd_req h' = rq_add_field (hd_req h) k v /\
   hd_pMethod h' = hd_pMethod h /\ hd_pPath h' = hd_pPath h /\ hd_pScheme h' = hd_pScheme h /\ hd_pAuth h' = hd_pAuth h /\
   hd_regularSeen h' = true /\ hd_path h' = hd_path h) \/
  (is_pseudo k = true /\ hd_regularSeen h = false /\ hd_regularSeen h' = false /\
   ((k = S_method /\ hd_pMethod h = false /\ hd_pMethod h' = true /\ hd_req h' = rq_set_method (hd_req h) v /\
     hd_pPath h' = hd_pPath h /\ hd_pScheme h' = hd_pScheme h /\ hd_pAuth h' = hd_pAuth h /\ hd_path h' = hd_path h) \/
    (k = S_path /\ hd_pPath h = false /\ hd_pPath h' = true /\ hd_req h' = rq_set_uri (hd_req h) v /\ hd_path h' = v /\
     hd_pMethod h' = hd_pMethod h /\ hd_pScheme h' = hd_pScheme h /\ hd_pAuth h' = hd_pAuth h) \/
    (k = S_scheme /\ hd_pScheme h = false /\ hd_pScheme h' = true /\ hd_req h' = rq_set_scheme (hd_req h) v /\
     hd_pMethod h' = hd_pMethod h /\ hd_pPath h' = hd_pPath h /\ hd_pAuth h' = hd_pAuth h /\ hd_path h' = hd_path h) \/
    (k = S_authority /\ hd_pAuth h = false /\ hd_pAuth h' = true /\ hd_req h' = rq_set_authority (hd_req h) v /\
     hd_pMethod h' = hd_pMethod h /\ hd_pPath h' = hd_pPath h /\ hd_pScheme h' = hd_pScheme h /\ hd_path h' = hd_path h))).
Proof.
  unfold header_field. cbv zeta.
  cbn [hd_pMethod hd_pPath hd_pScheme hd_pAuth hd_regularSeen hd_contentLength hd_hasCL hd_blockFields hd_path hd_req
       hd_headersFinished hd_prev hd_headerListSize].
  destruct (_ && _)%bool; [discriminate|]. destruct (has_upper_case k); [discriminate|].
  destruct (is_pseudo k) eqn:PK.
  - cbn [hd_regularSeen]. destruct (hd_regularSeen h) eqn:RS; [discriminate|]. right. split; [reflexivity|]. split; [reflexivity|].
    destruct (bytes_eqb k S_method) eqn:K1.
    { apply bytes_eqb_eq in K1. cbn [hd_pMethod]. destruct (hd_pMethod h) eqn:PM; [discriminate|].
      fin. split; [reflexivity|]. left. repeat split; auto. }
    destruct (bytes_eqb k S_path) eqn:K2.
    { apply bytes_eqb_eq in K2. cbn [hd_pPath]. destruct (hd_pPath h) eqn:PP; [discriminate|].
      fin. split; [reflexivity|]. right. left. repeat split; auto. }
    destruct (bytes_eqb k S_scheme) eqn:K3.
    { apply bytes_eqb_eq in K3. cbn [hd_pScheme]. destruct (hd_pScheme h) eqn:PS; [discriminate|].
      fin. split; [reflexivity|]. right. right. left. repeat split; auto. }
    destruct (bytes_eqb k S_authority) eqn:K4; [|discriminate].
    apply bytes_eqb_eq in K4. cbn [hd_pAuth]. destruct (hd_pAuth h) eqn:PA; [discriminate|].
    fin. split; [reflexivity|]. right. right. right. repeat split; auto.
  - destruct (is_connection_specific k); [discriminate|]. destruct (_ && _)%bool; [discriminate|].
    left. split; [reflexivity|].
    destruct (bytes_eqb k S_content_length).
    + destruct (parse_uint v); [|discriminate]. destruct (_ && _)%bool; [discriminate|]. destruct (_ && _)%bool; [discriminate|].
      fin. repeat split; auto.
    + fin. repeat split; auto.
Qed.

Lemma is_pseudo_names : is_pseudo S_method = true /\ is_pseudo S_path = true /\ is_pseudo S_scheme = true /\ is_pseudo S_authority = true.
Proof. repeat split. Qed.

(* the regular fields, in order; the body is not touched *)
Lemma hfold_fields fs : forall h hF, hfold cfg h fs = Some hF ->
  rq_fields (hd_req hF) = rq_fields (hd_req h) ++ regular_fields fs /\ rq_body (hd_req hF) = rq_body (hd_req h).
Proof.
  induction fs as [|[k v] t IH]; intros h hF; cbn [hfold regular_fields filter fst].
  - intro H; inversion H; subst. rewrite app_nil_r. auto.
  - destruct (header_field cfg h k v) as [|h1] eqn:HF; [discriminate|]. intro H. destruct (IH _ _ H) as [E1 E2].
    fold (regular_fields t). rewrite E1, E2.
    destruct (header_field_accept _ _ _ _ HF) as [(PK & RQ & _)|(PK & _ & _ & C)].
    + rewrite PK, RQ. cbn [negb rq_add_field rq_fields rq_body]. rewrite <- app_assoc. auto.
    + rewrite PK. cbn [negb]. destruct C as [C|[C|[C|C]]]; decompose [and] C;
        match goal with E : hd_req h1 = _ |- _ => rewrite E end; cbn; auto.
Qed.

(* one pseudo-header: a flag pf (seen), a value pv *)
Section Slot.
Variable name : bytes.
Variable pf : hdr -> bool.
Variable pv : hdr -> option bytes.
Variable slot_step : forall h k v h', header_field cfg h k v = inr h' ->
  (k = name -> pf h = false /\ pf h' = true /\ pv h' = Some v) /\ (k <> name -> pf h' = pf h /\ pv h' = pv h).

Lemma slot_fold fs : forall h hF, hfold cfg h fs = Some hF ->
  (pf h = true -> field_val name fs = None /\ pv hF = pv h /\ pf hF = true) /\
  (pf h = false -> match field_val name fs with
                   | Some v => pv hF = Some v /\ pf hF = true
                   | None => pv hF = pv h /\ pf hF = false
                   end).
Proof.
  induction fs as [|[k v] t IH]; intros h hF; cbn [hfold].
  - intro H; inversion H; subst. unfold field_val. cbn [find]. auto.
  - destruct (header_field cfg h k v) as [|h1] eqn:HF; [discriminate|]. intro H.
    destruct (slot_step _ _ _ _ HF) as [S1 S2]. destruct (IH _ _ H) as [I1 I2].
    unfold field_val in *. cbn [find fst snd].
    destruct (bytes_eqb k name) eqn:KN.
    + apply bytes_eqb_eq in KN. destruct (S1 KN) as (F0 & F1 & V1). split; [congruence|]. intros _.
      destruct (I1 F1) as (_ & Vh & Fh). cbn [snd]. split; congruence.
    + assert (KN' : k <> name) by (intro E; apply bytes_eqb_eq in E; congruence).
      destruct (S2 KN') as [Fe Ve]. rewrite Fe in I1, I2. rewrite Ve in I1, I2. auto.
Qed.
End Slot.

Lemma names_distinct : S_method <> S_path /\ S_method <> S_scheme /\ S_method <> S_authority /\ S_path <> S_scheme /\
  S_path <> S_authority /\ S_scheme <> S_authority.
Proof. repeat split; discriminate. Qed.

Ltac slot_tac HF :=
  destruct (header_field_accept _ _ _ _ HF) as [(PK & RQ & E1 & E2 & E3 & E4 & _ & E6)|(PK & _ & _ & C)];
  [split; [intro; subst; discriminate PK | intros _; rewrite ?RQ, ?E1, ?E2, ?E3, ?E4, ?E6; auto]
  |destruct C as [C|[C|[C|C]]]; decompose [and] C; subst; split; intro;
   try (exfalso; congruence); try discriminate;
   repeat match goal with E : hd_req _ = _ |- _ => rewrite E end; cbn; auto; try (split; congruence)].

Lemma slot_method h k v h' : header_field cfg h k v = inr h' ->
  (k = S_method -> hd_pMethod h = false /\ hd_pMethod h' = true /\ Some (rq_method (hd_req h')) = Some v) /\
  (k <> S_method -> hd_pMethod h' = hd_pMethod h /\ Some (rq_method (hd_req h')) = Some (rq_method (hd_req h))).
Proof. intro HF. slot_tac HF. Qed.

Lemma slot_path h k v h' : header_field cfg h k v = inr h' ->
  (k = S_path -> hd_pPath h = false /\ hd_pPath h' = true /\ Some (rq_uri (hd_req h')) = Some v) /\
  (k <> S_path -> hd_pPath h' = hd_pPath h /\ Some (rq_uri (hd_req h')) = Some (rq_uri (hd_req h))).
Proof. intro HF. slot_tac HF. Qed.

Lemma slot_hpath h k v h' : header_field cfg h k v = inr h' ->
  (k = S_path -> hd_pPath h = false /\ hd_pPath h' = true /\ Some (hd_path h') = Some v) /\
  (k <> S_path -> hd_pPath h' = hd_pPath h /\ Some (hd_path h') = Some (hd_path h)).
Proof. intro HF. slot_tac HF. Qed.

Lemma slot_scheme h k v h' : header_field cfg h k v = inr h' ->
  (k = S_scheme -> hd_pScheme h = false /\ hd_pScheme h' = true /\ Some (rq_scheme (hd_req h')) = Some v) /\
  (k <> S_scheme -> hd_pScheme h' = hd_pScheme h /\ Some (rq_scheme (hd_req h')) = Some (rq_scheme (hd_req h))).
Proof. intro HF. slot_tac HF. Qed.

Lemma slot_authority h k v h' : header_field cfg h k v = inr h' ->
  (k = S_authority -> hd_pAuth h = false /\ hd_pAuth h' = true /\ rq_authority (hd_req h') = Some v) /\
  (k <> S_authority -> hd_pAuth h' = hd_pAuth h /\ rq_authority (hd_req h') = rq_authority (hd_req h)).
Proof. intro HF. slot_tac HF. Qed.

Definition is_some (o : option bytes) : bool := match o with Some _ => true | None => false end.

(* C01 (a), the pure part: a field list accepted field by field, starting with no pseudo-header seen, gives the
   request it spells; the flags say which pseudo-headers were present *)
Theorem hfold_request h fs hF : hfold cfg h fs = Some hF ->
  hd_pMethod h = false -> hd_pPath h = false -> hd_pScheme h = false -> hd_pAuth h = false ->
  hd_req hF = request_of (hd_req h) fs /\
  hd_pMethod hF = is_some (field_val S_method fs) /\ hd_pPath hF = is_some (field_val S_path fs) /\
  hd_pScheme hF = is_some (field_val S_scheme fs) /\ hd_pAuth hF = is_some (field_val S_authority fs) /\
  hd_path hF = opt_or (field_val S_path fs) (hd_path h).
Proof.
  intros HF M0 P0 S0 A0.
  destruct (hfold_fields _ _ _ HF) as [EF EB].
  destruct (slot_fold S_method hd_pMethod (fun x => Some (rq_method (hd_req x))) slot_method _ _ _ HF) as [_ SM].
  destruct (slot_fold S_path hd_pPath (fun x => Some (rq_uri (hd_req x))) slot_path _ _ _ HF) as [_ SP].
  destruct (slot_fold S_path hd_pPath (fun x => Some (hd_path x)) slot_hpath _ _ _ HF) as [_ SH].
  destruct (slot_fold S_scheme hd_pScheme (fun x => Some (rq_scheme (hd_req x))) slot_scheme _ _ _ HF) as [_ SS].
  destruct (slot_fold S_authority hd_pAuth (fun x => rq_authority (hd_req x)) slot_authority _ _ _ HF) as [_ SA].
  specialize (SM M0). specialize (SP P0). specialize (SH P0). specialize (SS S0). specialize (SA A0).
  unfold request_of.
  destruct (field_val S_method fs); destruct (field_val S_path fs); destruct (field_val S_scheme fs);
    destruct (field_val S_authority fs); cbn [opt_or is_some];
    destruct SM as [SM1 SM2]; destruct SP as [SP1 SP2]; destruct SH as [SH1 SH2]; destruct SS as [SS1 SS2]; destruct SA as [SA1 SA2];
    inversion SM1; inversion SP1; inversion SH1; inversion SS1;
    (split; [destruct (hd_req hF); cbn in *; congruence | repeat split; congruence]).
Qed.

(* trailers (and anything after a regular field): only regular fields are accepted, they are appended *)
Lemma hfold_regular fs : forall h hF, hfold cfg h fs = Some hF -> hd_regularSeen h = true ->
  regular_fields fs = fs /\ hd_req hF = mkReq (rq_method (hd_req h)) (rq_uri (hd_req h)) (rq_scheme (hd_req h))
                                           (rq_authority (hd_req h)) (rq_fields (hd_req h) ++ fs) (rq_body (hd_req h)) /\
  hd_pMethod hF = hd_pMethod h /\ hd_pPath hF = hd_pPath h /\ hd_pScheme hF = hd_pScheme h /\ hd_pAuth hF = hd_pAuth h /\
  hd_path hF = hd_path h.
Proof.
  induction fs as [|[k v] t IH]; intros h hF; cbn [hfold regular_fields filter fst].
  - intros H _. inversion H; subst. rewrite app_nil_r. destruct (hd_req hF); cbn. repeat split; reflexivity.
  - destruct (header_field cfg h k v) as [|h1] eqn:HF; [discriminate|]. intros H RS.
    destruct (header_field_accept _ _ _ _ HF) as [(PK & RQ & E1 & E2 & E3 & E4 & RS1 & E6)|(PK & RS0 & _)]; [|congruence].
    destruct (IH _ _ H RS1) as (R1 & R2 & F1 & F2 & F3 & F4 & F5).
    rewrite PK. cbn [negb]. fold (regular_fields t). rewrite R1. split; [reflexivity|].
    rewrite R2, RQ. cbn [rq_add_field rq_method rq_uri rq_scheme rq_authority rq_fields rq_body].
    rewrite <- app_assoc. cbn [app]. repeat split; congruence.
Qed.

End Req.

(* the steps of a request on its own stream (see also hf_out in Proofs/SrvIsoHdr.v for HEADERS /
   CONTINUATION: the stream's header state becomes hfold over the reference-decoded fields) *)
Section Own.
Set Default Proof Using "Type".
Variable hstate : Type.
Variable dec_field : hstate -> N -> bytes -> dec_res hstate.
Variable cfg : config.
Notation sconn := (sconn hstate).
Implicit Types c : sconn.

(* DATA on an open stream whose headers are complete, within the body limit: the payload (padding excluded) is
   appended to the body; the windows are credited for the whole frame (padding included) *)
Lemma handle_frame_data_ok c s fr :
  sf_kind fr = KData -> st_headersFinished s = true -> st_state s = SOpen ->
  ((0 <? cf_maxBody cfg) && (cf_maxBody cfg <? st_recvBody s + Z.of_N (len (sf_payload fr))))%Z = false ->
  handle_frame dec_field cfg c s fr =
  (consume_recv_window cfg c (set_recv s (st_recvBody s + Z.of_N (len (sf_payload fr)))%Z (rq_append_body (st_req s) (sf_payload fr)))
                       fr (Z.of_N (sf_len fr)),
   set_recv s (st_recvBody s + Z.of_N (len (sf_payload fr)))%Z (rq_append_body (st_req s) (sf_payload fr)), None).
Proof.
  intros K HF ST LIM. unfold handle_frame, verify_state. rewrite ST, K, HF. cbn [negb sstate_rank].
  change (3 <=? 2) with false. cbv zeta. rewrite LIM. reflexivity.
Qed.

(* the request is complete (the stream is half-closed (remote), its headers are finished, content-length agrees):
   the handler is started with exactly the request collected so far *)
Lemma after_frame_dispatch c s fr wc :
  st_state (handle_state fr s) = SHalfClosed -> st_headersFinished s = true -> st_responded s = false ->
  (st_hasCL s && negb (st_recvBody s =? st_contentLength s)%Z)%bool = false ->
  after_frame cfg c s fr wc =
  (let s2 := set_flags (set_flags (handle_state fr s) true (st_handlerRunning s) (st_abandoned s)) true true (st_abandoned s) in
   let c3 := put (note c (ODispatch (st_id s) (st_req s))) s2 in
   if wc && can_close_after_goaway c3 then brk c3 else cont c3).
Proof.
  intros HS HF R CL. unfold after_frame.
  assert (E : forall x, handle_state fr s = x -> st_headersFinished x = st_headersFinished s /\ st_responded x = st_responded s /\
              st_hasCL x = st_hasCL s /\ st_recvBody x = st_recvBody s /\ st_contentLength x = st_contentLength s /\
              st_id x = st_id s /\ st_req x = st_req s /\ st_handlerRunning x = st_handlerRunning s /\ st_abandoned x = st_abandoned s).
  { intros x <-. unfold handle_state. destruct (fkind_eqb _ _); cbn [set_state st_state];
    repeat match goal with
           | |- context [match st_state ?y with _ => _ end] => destruct (st_state y)
           | |- context [if ?b then _ else _] => destruct b
           end; repeat split. }
  destruct (E _ eq_refl) as (E1 & E2 & E3 & E4 & E5 & E6 & E7 & E8 & E9).
  set (s1 := handle_state fr s) in *.
  unfold sstate_eqb. rewrite HS, E1, E2, HF, R. cbn [sstate_rank negb andb]. change (3 =? 3) with true. cbn [andb].
  cbn [set_flags st_hasCL st_recvBody st_contentLength st_id st_req st_state st_handlerRunning st_abandoned].
  rewrite E3, E4, E5, CL, E6, E7, E8, E9.
  cbn [set_flags st_state]. rewrite HS. cbn [sstate_rank]. change (3 =? 4) with false. reflexivity.
Qed.

End Own.
