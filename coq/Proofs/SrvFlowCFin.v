(* Proofs/SrvFlowCFin.v - C06 completion, the whole-run theorems: a buffered response is sent in order, and at any
   moment it is either complete (END_STREAM on its last frame) or waiting with the rest of the body while one of the
   two windows OF THE PEER'S LEDGER is not positive. *)
From H2V Require Import Base.Bytes Base.MachineInt Base.Result Gen.GenConsts Impl.ServerConn Proofs.SrvBase
  Spec.FlowLedger Proofs.SrvFlowLedger Proofs.SrvFlowDefs Proofs.SrvFlowSend Proofs.SrvFlowEff Proofs.SrvFlowSafe
  Proofs.SrvFlowSafeB Proofs.SrvFlowSafeC Proofs.SrvFlowEs Proofs.SrvFlowRecv Proofs.SrvFlowStall Proofs.SrvFlowFuel
  Proofs.SrvFlowDone Proofs.SrvFlowCDecomp Proofs.SrvFlowCRing Proofs.SrvFlowCMono Proofs.SrvFlowCExact Proofs.SrvFlowCExactB
  Proofs.SrvFlowCExactC Proofs.SrvFlowCView Proofs.SrvFlowCEarly Proofs.SrvFlowCTrack Proofs.SrvFlowCTrackB Proofs.SrvFlowCTrackC.
From Coq Require Import ZArith Lia ZifyN ZifyNat ZifyBool List.
Import ListNotations.
Local Open Scope N_scope.
Set Default Proof Using "Type".

Section Fin.
Variable hstate : Type.
Variable dec_field : hstate -> N -> bytes -> dec_res hstate.
Variable enc_field : hstate -> bytes -> bytes -> bool -> bytes * hstate.
Variable enc_set_max : hstate -> N -> hstate.
Variable cfg : config.
Variable h0 : hstate.
Notation sconn := (sconn hstate).
Implicit Types c : sconn.
Notation Sim := (SimX hstate None).
Notation step := (step dec_field enc_field enc_set_max cfg).
Notation run := (run dec_field enc_field enc_set_max cfg h0).
Notation run_from := (run_from dec_field enc_field enc_set_max cfg).
Notation timeline := (timeline hstate dec_field enc_field enc_set_max cfg h0).
Notation Inv := (Inv hstate).
Notation NEInv := (NEInv hstate).
Notation Track := (Track hstate).
Notation AbortS := (AbortS hstate).

(* the frames the stream loop takes off sc.reader during the events, in order *)
Fixpoint taken_from c (evs : list event) : list sframe :=
  match evs with
  | [] => []
  | e :: t => match sl_takes hstate c e with Some fr => [fr] | None => [] end ++ taken_from (step c e) t
  end.

Lemma step_Track sid B c e L : Inv c L -> NEInv c -> Track sid B c ->
  (forall fr, sl_takes hstate c e = Some fr -> sf_sid fr = sid -> sf_kind fr <> KRst) -> Track sid B (step c e).
Proof.
  intros HI HN H NR. pose proof (step_Mono _ dec_field enc_field enc_set_max cfg c e) as M.
  destruct (sc_sl_done c) eqn:SD; [left; left; apply (m_sl _ _ _ M SD)|].
  destruct HI as [HI|S]; [congruence|]. destruct HN as [HN|HN]; [congruence|].
  destruct e as [i| |sid' r|t| | | |].
  - rewrite step_EvRL. destruct (sc_rl_done c); [exact H|].
    destruct (rl_step_eff _ cfg c i) as [[r1 r2 r3 r4 r5 r6 r7 r8 r9 r10] _].
    eapply Track_Keeps; [| |exact H].
    + constructor; [rewrite r1; reflexivity | | rewrite r6; flia].
      destruct (out_quiet_noframe _ _ _ r10) as (new & E & Fn). rewrite E, rf_app, (rf_noframe _ _ Fn). reflexivity.
    + constructor; [exact r8 | left; exact r7 | exact r9 | rewrite r6; flia | eapply out_any, r10].
  - rewrite step_EvSL, SD. cbn [sl_takes] in NR. rewrite SD in NR. destruct (sc_readerQ c) as [|fr q] eqn:RQ.
    + destruct (sc_rl_done c); [left; left; reflexivity | exact H].
    + apply (sl_frame_Track _ dec_field enc_set_max cfg sid B (upd_readerQ c q) fr L).
      * eapply SimX_same; [..|exact S]; reflexivity.
      * revert HN. apply NE_noframe; sc_cbn; auto; [flia | unfold closing_mono; auto | apply out_ext_same; reflexivity].
      * eapply Track_Keeps; [| |exact H]; [constructor; sc_cbn; try reflexivity; try flia|].
        constructor; sc_cbn; auto; [flia | apply out_ext_same; reflexivity].
      * apply NR. reflexivity.
  - rewrite step_EvDone, SD. apply sl_done_Track, H.
  - rewrite step_EvClock. destruct (sc_now c <? t)%Z; [|exact H].
    eapply Track_Keeps; [| |exact H]; [constructor; sc_cbn; try reflexivity; try flia|].
    constructor; sc_cbn; auto; [flia | apply out_ext_same; reflexivity].
  - rewrite step_EvTimer, SD. unfold sl_timer. destruct (cf_maxRequestTime cfg <=? 0)%Z; cbn [fst cont]; [exact H|].
    eapply Track_ClosesR; [apply close_heads_ClosesR | exact H].
  - rewrite step_EvIdle. left. right; right; left. sc_cbn. apply sc_closing_write_goaway.
  - rewrite step_EvCloser. destruct (sc_closer c && negb (sc_sl_done c)); [left; left; reflexivity | exact H].
  - rewrite step_EvWriteFail. left. right; left. reflexivity.
Qed.

Lemma Track_from sid B evs : forall c L, Inv c L -> NEInv c -> Track sid B c ->
  (forall fr, In fr (taken_from c evs) -> sf_sid fr = sid -> sf_kind fr <> KRst) -> Track sid B (run_from c evs).
Proof.
  induction evs as [|e evs IH]; intros c L HI HN H NR; [exact H|]. rewrite run_from_cons.
  destruct (StepOK_tl _ dec_field enc_field enc_set_max cfg c e L HI) as (_ & HI' & _).
  eapply IH; [exact HI' | eapply step_NE; eassumption | |].
  - eapply step_Track; try eassumption. intros fr T. apply NR. cbn [taken_from]. rewrite T. left. reflexivity.
  - intros fr Hin. apply NR. cbn [taken_from]. apply in_or_app. right. exact Hin.
Qed.

Lemma Inv_run evs : Inv (run evs) (lrun ledger0 (timeline evs)).
Proof.
  assert (G : forall evs c L, Inv c L -> Inv (run_from c evs) (lrun L (timeline_from hstate dec_field enc_field enc_set_max cfg c evs))).
  { clear evs. induction evs as [|e evs IH]; intros c L HI; [exact HI|]. rewrite run_from_cons. cbn [timeline_from]. rewrite lrun_app.
    destruct (StepOK_tl _ dec_field enc_field enc_set_max cfg c e L HI) as (_ & HI' & _). apply IH, HI'. }
  rewrite run_eq. apply G, Inv_init.
Qed.

(* C06, progress in the peer's terms (any kind of body): while both loops run, a stream whose response has bytes
   left is held back by a window of the PEER'S LEDGER that is not positive, and the server's windows are that ledger's *)
Theorem waiting_blocked_by_ledger evs s :
  let c := run evs in
  let L := lrun ledger0 (timeline evs) in
  sc_sl_done c = false -> sc_wl_dead c = false -> In s (sc_strms c) -> wants s = true ->
  l_conn L = sc_clientWindow c /\ l_strm L (st_id s) = Some (st_window s) /\
  ((st_window s <= 0)%Z \/ (l_conn L <= 0)%Z).
Proof.
  cbv zeta. intros SD WD Hin W.
  destruct (windows_exact _ dec_field enc_field enc_set_max cfg h0 evs SD WD) as [XC XS].
  pose proof (no_stall _ dec_field enc_field enc_set_max cfg h0 evs s SD Hin W) as NS. rewrite zmin_min in NS.
  split; [exact XC|]. split; [apply XS, Hin|]. rewrite XC. flia.
Qed.

(* C06, the "and finishes" half. *)
Theorem response_progress evs1 sid r B evs2 :
  let c1 := run evs1 in
  let evs := evs1 ++ EvDone sid r :: evs2 in
  let c := run evs in
  let L := lrun ledger0 (timeline evs) in
  rs_body r = BBuffered B ->
  (* the handler of sid returns while its stream is in the table *)
  sc_sl_done c1 = false -> take_stream (sc_gone c1) sid = None ->
  (exists s, strms_search (sc_strms c1) sid = Some s /\ st_handlerRunning s = true) ->
  (* now: both loops run, no GOAWAY, nobody has reset the stream *)
  sc_sl_done c = false -> sc_wl_dead c = false -> sc_closing c = false ->
  (forall o code, In o (trace c) -> strip o <> ORst sid code) ->
  (forall fr, In fr (taken_from (step c1 (EvDone sid r)) evs2) -> sf_sid fr = sid -> sf_kind fr <> KRst) ->
  exists blk frames,
    rf sid (trace c) = OHeaders sid (isnil B) blk :: frames_out sid frames /\ Forall small frames /\
    ((strms_search (sc_strms c) sid = None /\ concat (map snd frames) = B /\ es_shape frames (negb (isnil B)))
     \/
     (exists s, strms_search (sc_strms c) sid = Some s /\ st_pending s <> [] /\ concat (map snd frames) ++ st_pending s = B /\
                st_bodyStream s = None /\ es_shape frames false /\
                ((st_window s <= 0)%Z \/ (sc_clientWindow c <= 0)%Z) /\
                l_strm L sid = Some (st_window s) /\ l_conn L = sc_clientWindow c)).
Proof.
  cbv zeta. intros RB SD1 TG HS SD WD CLO NoR NoP.
  set (c1 := run evs1) in *. set (evs := evs1 ++ EvDone sid r :: evs2) in *.
  assert (RE : run evs = run_from (step c1 (EvDone sid r)) evs2).
  { unfold evs, c1. rewrite run_app, run_from_cons. reflexivity. }
  pose proof (Inv_run evs1) as I1. fold c1 in I1.
  pose proof (NE_run _ dec_field enc_field enc_set_max cfg h0 evs1) as N1. fold c1 in N1.
  destruct I1 as [I1|S1]; [congruence|]. destruct N1 as [N1|N1]; [congruence|].
  assert (T1 : Track sid B (step c1 (EvDone sid r))).
  { rewrite step_EvDone, SD1. eapply sl_done_start; eassumption. }
  destruct (StepOK_tl _ dec_field enc_field enc_set_max cfg c1 (EvDone sid r) _ (or_intror S1)) as (_ & I2 & _).
  pose proof (step_NE _ dec_field enc_field enc_set_max cfg c1 (EvDone sid r) _ (or_intror S1) (or_intror N1)) as N2.
  pose proof (Track_from sid B evs2 _ _ I2 N2 T1 NoP) as T. rewrite <- RE in T.
  set (c := run evs) in *.
  assert (RV : forall out, rf sid (rev out) = rev (rf sid out)) by (intro; apply rf_rev).
  destruct T as [Ab|[Lv|Cp]].
  - exfalso. destruct Ab as [X|[X|[X|(o & code & Hin & Ho)]]]; try congruence.
    apply (NoR o code); [unfold trace; apply in_rev in Hin; rewrite <- in_rev; apply in_rev; exact Hin | exact Ho].
  - destruct Lv as (s & frames & F & PT & BS & PE & PN & (blk & Q) & CB & ES & FS).
    assert (NB : isnil B = false).
    { apply isnil_false. intro X. rewrite X in CB. apply app_eq_nil in CB. destruct CB. contradiction. }
    pose proof (strms_search_In _ _ _ F) as [Hin Hid].
    assert (W : wants s = true).
    { unfold wants. unfold phase in PT. rewrite PT. apply has_more_pending, PN. }
    destruct (waiting_blocked_by_ledger evs s SD WD Hin W) as (XC & XS & NS). fold c in XC, XS, NS.
    exists blk, frames. split; [unfold trace; rewrite RV, Q, rev_app_distr, rev_involutive, NB; reflexivity|].
    split; [exact FS|]. right. exists s. rewrite <- Hid at 2. rewrite XS, XC.
    repeat (split; [assumption|]). split; [rewrite <- XC; exact NS | split; reflexivity].
  - destruct Cp as (F & _ & (frames & (blk & Q) & CB & ES & FS)).
    exists blk, frames. split; [unfold trace; rewrite RV, Q, rev_app_distr, rev_involutive; reflexivity|].
    split; [exact FS|]. left. auto.
Qed.

(* so: when the grants the stream loop has applied leave both windows of the peer's ledger positive, the response
   is complete: all of the body sent in order, END_STREAM on the last frame and nowhere else *)
Corollary completes_when_granted evs1 sid r B evs2 :
  let c1 := run evs1 in
  let evs := evs1 ++ EvDone sid r :: evs2 in
  let c := run evs in
  let L := lrun ledger0 (timeline evs) in
  rs_body r = BBuffered B ->
  sc_sl_done c1 = false -> take_stream (sc_gone c1) sid = None ->
  (exists s, strms_search (sc_strms c1) sid = Some s /\ st_handlerRunning s = true) ->
  sc_sl_done c = false -> sc_wl_dead c = false -> sc_closing c = false ->
  (forall o code, In o (trace c) -> strip o <> ORst sid code) ->
  (forall fr, In fr (taken_from (step c1 (EvDone sid r)) evs2) -> sf_sid fr = sid -> sf_kind fr <> KRst) ->
  (0 < l_conn L)%Z -> (forall w, l_strm L sid = Some w -> (0 < w)%Z) ->
  exists blk frames,
    rf sid (trace c) = OHeaders sid (isnil B) blk :: frames_out sid frames /\ Forall small frames /\
    strms_search (sc_strms c) sid = None /\ concat (map snd frames) = B /\ es_shape frames (negb (isnil B)).
Proof.
  cbv zeta. intros RB SD1 TG HS SD WD CLO NoR NoP GC GS.
  destruct (response_progress evs1 sid r B evs2 RB SD1 TG HS SD WD CLO NoR NoP) as (blk & frames & Q & FS & [X|X]).
  - exists blk, frames. tauto.
  - exfalso. destruct X as (s & _ & _ & _ & _ & _ & NS & XS & XC). specialize (GS _ XS). rewrite XC in GC. flia.
Qed.

End Fin.
