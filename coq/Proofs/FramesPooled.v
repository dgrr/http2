(* The FrameHeader and the frame bodies are pooled objects: what they held before does not
   show in the next read, nor in the next write. *)
From Coq Require Import List NArith ZArith Bool Lia.
From Coq Require Import ZifyN ZifyNat ZifyBool.
From H2V Require Import Base.Bytes Base.MachineInt Base.Result Gen.GenConsts Spec.Rfc7540Frames
  Impl.Pools Impl.Frames Impl.FrameView Proofs.HpackBytes Proofs.FramesBits Proofs.FramesSpec Proofs.FramesRead
  Proofs.FramesC16 Proofs.FramesWrite.
Import ListNotations.
Local Open Scope N_scope.

(* what is known of an object in a frame pool: it is of the pool's type, and a Ping's data
   is the [8]byte array it is *)
Definition pooled_body_ok (k : Z) (b : body) : Prop :=
  body_type b = k /\ match b with BPing _ d => length d = 8%nat | _ => True end.

Definition pools_ok (ps : pools) : Prop :=
  forall k b, p_frame ps k = Some b -> pooled_body_ok k b.

(* AcquireFrameHeader gives the same header whatever the pool held *)
Lemma acquire_header_from_any p : acquire_header_from p = acquire_header.
Proof. destruct p; reflexivity. Qed.

Definition acq_equiv (a1 a2 : Z -> result body) : Prop :=
  forall k,
    match a1 k, a2 k with
    | Ok b1, Ok b2 => forall fl p n, deserialize b1 fl p n = deserialize b2 fl p n
    | Err e1, Err e2 => e1 = e2
    | Panic w1, Panic w2 => w1 = w2
    | _, _ => False
    end.

Lemma ping_set_data_any d p : length d = 8%nat -> len p = 8 -> ping_set_data d p = ping_set_data zeros8 p.
Proof.
  intros D L. unfold ping_set_data. assert (length p = 8%nat) as E by (unfold len in L; lia).
  rewrite (firstn_all2 p) by lia. rewrite E. f_equal.
  rewrite skipn_all2 by lia. reflexivity.
Qed.

(* Reset brings every body but a Ping to what New makes *)
Lemma acquire_frame_type b :
  acquire_frame (body_type b) = Ok (match b with BPing _ _ => BPing false zeros8 | _ => body_reset b end).
Proof. destruct b; reflexivity. Qed.

(* AcquireFrame on a used object and on a new one: Deserialize cannot tell them apart *)
Lemma acquire_frame_from_equiv pf :
  (forall k b, pf k = Some b -> pooled_body_ok k b) -> acq_equiv (acquire_frame_from pf) acquire_frame.
Proof.
  intros OK k. unfold acquire_frame_from.
  destruct ((k <? 0)%Z || (Z.of_N c_FrameContinuation <? k)%Z) eqn:R.
  { unfold acquire_frame. rewrite R. reflexivity. }
  destruct (pf k) as [prev|] eqn:P.
  - destruct (OK k prev P) as [T S]. subst k. rewrite acquire_frame_type.
    destruct prev as [| | | | | |ack d| | |]; try (intros; reflexivity).
    intros fl p n. cbn [body_reset]. unfold deserialize.
    destruct (len p =? 8) eqn:L; cbn [negb]; [|reflexivity].
    apply N.eqb_eq in L. rewrite (ping_set_data_any d p S L). reflexivity.
  - destruct (acquire_frame k); intros; reflexivity.
Qed.

Definition is_some {A} (o : option A) : bool := match o with Some _ => true | None => false end.

Definition rf_equiv (r1 r2 : rf_out) : Prop :=
  rf_err r1 = rf_err r2 /\ rf_used r1 = rf_used r2 /\ rf_alloc r1 = rf_alloc r2 /\
  rf_events r1 = rf_events r2 /\ (forall u, rf_err r1 = Ok u -> rf_f r1 = rf_f r2) /\
  is_some (fh_body (rf_f r1)) = is_some (fh_body (rf_f r2)).

Lemma rf_equiv_refl r : rf_equiv r r.
Proof. unfold rf_equiv. auto 10. Qed.

Lemma read_from_gen_equiv a1 a2 f input :
  acq_equiv a1 a2 -> rf_equiv (read_from_gen a1 f input) (read_from_gen a2 f input).
Proof.
  intros E. unfold read_from_gen.
  destruct (len input <? c_DefaultFrameSize); [apply rf_equiv_refl|].
  destruct (parse_values (takeN c_DefaultFrameSize input)) as [[[[n kind] fl] sid]|e|w]; try apply rf_equiv_refl.
  destruct (check_len n (fh_maxLen f)); [apply rf_equiv_refl|].
  destruct ((kind <? Z.of_N c_FrameData)%Z || (Z.of_N c_FrameContinuation <? kind)%Z); [apply rf_equiv_refl|].
  specialize (E kind).
  destruct (a1 kind) as [b1|e1|w1]; destruct (a2 kind) as [b2|e2|w2]; try contradiction;
    try (subst; apply rf_equiv_refl).
  destruct (0 <? n).
  - destruct (len (dropN c_DefaultFrameSize input) <? n).
    + unfold rf_equiv. cbn. repeat split; try reflexivity. intros u X; discriminate X.
    + cbn [fh_payload set_payload]. rewrite E.
      destruct (deserialize b2 fl _ n); unfold rf_equiv; cbn; repeat split; try reflexivity; intros u X; discriminate X.
  - cbn [fh_payload put_body]. rewrite E.
    destruct (deserialize b2 fl _ n); unfold rf_equiv; cbn; repeat split; try reflexivity; intros u X; discriminate X.
Qed.

Lemma finish_read_equiv r1 r2 : rf_equiv r1 r2 -> finish_read r1 = finish_read r2.
Proof.
  intros (E & U & A & V & F & S). unfold finish_read. rewrite <- E, <- U, <- A, <- V.
  destruct (rf_err r1) as [u|e|w] eqn:X.
  - rewrite (F u eq_refl). reflexivity.
  - destruct (fh_body (rf_f r1)); destruct (fh_body (rf_f r2)); try discriminate S; reflexivity.
  - reflexivity.
Qed.

(* C16: a read depends on its own limit and on the bytes, and on nothing the pooled
   FrameHeader or the pooled frame body held before *)
Theorem read_pool_independent ps lim input :
  pools_ok ps ->
  read_frame_pooled ps lim input =
  read_frame_with_size (match lim with Some m => m | None => c_defaultMaxLen end) input.
Proof.
  intros OK. unfold read_frame_pooled, read_frame_with_size, read_from.
  rewrite acquire_header_from_any.
  assert ((match lim with Some m => set_maxlen acquire_header m | None => acquire_header end) =
          set_maxlen acquire_header (match lim with Some m => m | None => c_defaultMaxLen end)) as ->
    by (destruct lim; reflexivity).
  apply finish_read_equiv, read_from_gen_equiv, acquire_frame_from_equiv. exact OK.
Qed.

(* C05, write: every value built through the API (AcquireFrameHeader or a FrameHeader in any
   previous state, SetFlags, SetStream, SetBody, the setters of the body) is written as the RFC
   encoding of its frame, and an independent parser reads the same frame back, with nothing left over. *)
Theorem write_frame_parses_on prev pre stream bd padn :
  pre < 256 -> stream < 2 ^ 32 -> body_ok bd -> 9 <= padn -> padn < 256 ->
  let fr := frame_of pre stream bd padn in
  payload_len fr < 2 ^ 24 ->
  exists f',
    write_to (build_on prev pre stream bd) padn = Ok (spec_write fr, f') /\
    spec_parse (spec_write fr) = Some (fr, []) /\ wf fr /\
    firstn 9 (spec_write fr) = header_bytes (payload_len fr) (type_code (f_body fr)) (flags_of pre bd)
                                            (top_bit stream) (low31 stream).
Proof.
  intros Hp Hs Ho L9 L256 fr Hl.
  destruct (write_to_spec (build_on prev pre stream bd) bd padn eq_refl eq_refl Hp Hs Ho L9 L256 Hl)
    as (W & f' & bd' & E & _).
  exists f'. split; [exact E|]. split.
  - rewrite <- (app_nil_r (spec_write fr)). apply spec_parse_write. exact W.
  - split; [exact W|]. unfold spec_write.
    set (hdr := header_bytes (payload_len fr) (type_code (f_body fr)) (f_flags fr) (f_rsv fr) (f_stream fr)).
    assert (length hdr = 9%nat) as E9.
    { unfold hdr, header_bytes. rewrite !app_length, !be_length. reflexivity. }
    rewrite firstn_app, E9, Nat.sub_diag, firstn_O, app_nil_r.
    rewrite firstn_all2 by (rewrite E9; apply le_n). reflexivity.
Qed.

(* the same value written again (a retransmission, a frame kept for reuse) goes out as
   the same frame, with the newly drawn pad length *)
Theorem write_twice_on prev pre stream bd padn padn2 :
  pre < 256 -> stream < 2 ^ 32 -> body_ok bd -> 9 <= padn -> padn < 256 -> 9 <= padn2 -> padn2 < 256 ->
  payload_len (frame_of pre stream bd padn) < 2 ^ 24 ->
  payload_len (frame_of (flags_of pre bd) stream bd padn2) < 2 ^ 24 ->
  exists f1 f2,
    write_to (build_on prev pre stream bd) padn = Ok (spec_write (frame_of pre stream bd padn), f1) /\
    write_to f1 padn2 = Ok (spec_write (frame_of (flags_of pre bd) stream bd padn2), f2).
Proof.
  intros Hp Hs Ho L9 L256 M9 M256 Hl1 Hl2.
  destruct (write_to_spec (build_on prev pre stream bd) bd padn eq_refl eq_refl Hp Hs Ho L9 L256 Hl1)
    as (W & f1 & bd1 & E & B1 & (T1 & O1 & V1) & K1 & F1 & S1).
  cbn [fh_flags fh_stream fh_kind build_on set_body set_stream set_flags] in *.
  assert (fh_flags f1 < 256) as Hf1 by (rewrite F1; apply flags_of_lt; assumption).
  assert (payload_len (frame_of (fh_flags f1) (fh_stream f1) bd1 padn2) < 2 ^ 24) as Hl2'.
  { rewrite V1, F1, S1. exact Hl2. }
  assert (fh_stream f1 < 2 ^ 32) as Hs1 by (rewrite S1; assumption).
  assert (fh_kind f1 = body_type bd1) as Hk1 by (rewrite K1, T1; reflexivity).
  destruct (write_to_spec f1 bd1 padn2 B1 Hk1 Hf1 Hs1 (O1 Ho) M9 M256 Hl2') as (_ & f2 & bd2 & E2 & _).
  exists f1, f2. split; [exact E|]. rewrite E2, V1, F1, S1. reflexivity.
Qed.

(* a different frame written next on the same header (a SETTINGS ack after the SETTINGS that
   was read into, or written from, that header): the second frame is as if the header were new *)
Theorem write_after_write prev pre stream bd padn pre2 stream2 bd2 padn2 :
  pre < 256 -> stream < 2 ^ 32 -> body_ok bd -> 9 <= padn -> padn < 256 ->
  payload_len (frame_of pre stream bd padn) < 2 ^ 24 ->
  pre2 < 256 -> stream2 < 2 ^ 32 -> body_ok bd2 -> 9 <= padn2 -> padn2 < 256 ->
  payload_len (frame_of pre2 stream2 bd2 padn2) < 2 ^ 24 ->
  exists f1 f2,
    write_to (build_on prev pre stream bd) padn = Ok (spec_write (frame_of pre stream bd padn), f1) /\
    write_to (build_on f1 pre2 stream2 bd2) padn2 = Ok (spec_write (frame_of pre2 stream2 bd2 padn2), f2).
Proof.
  intros Hp Hs Ho L9 L256 Hl Hp2 Hs2 Ho2 M9 M256 Hl2.
  destruct (write_frame_parses_on prev pre stream bd padn Hp Hs Ho L9 L256 Hl) as (f1 & E1 & _).
  destruct (write_frame_parses_on f1 pre2 stream2 bd2 padn2 Hp2 Hs2 Ho2 M9 M256 Hl2) as (f2 & E2 & _).
  exists f1, f2. split; assumption.
Qed.
