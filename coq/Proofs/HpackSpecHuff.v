(* C03: the executable Huffman decoder of the specification (Spec/Rfc7541.v, spec_huff_decode)
   decides exactly spec_valid, and agrees with the model of HuffmanDecode.
   Depends only on the specification and the C15 proofs. *)
From Coq Require Import List NArith Bool Lia.
From H2V Require Import Base.Bytes Base.MachineInt Base.Result Gen.GenHuffman
  Spec.XNetTables Spec.Rfc7541Huffman Spec.Rfc7541 Impl.Huffman
  Proofs.HuffmanBits Proofs.HuffmanTable Proofs.HuffmanEncode Proofs.HuffmanDecode.
Import ListNotations.
Local Open Scope N_scope.
Local Opaque huffman_root.

Lemma strip_prefix_some : forall p l r, strip_prefix p l = Some r -> l = p ++ r.
Proof.
  induction p as [|x p IH]; intros l r H.
  - simpl in H. injection H as <-. reflexivity.
  - destruct l as [|y l]; simpl in H; [discriminate|].
    destruct (Bool.eqb x y) eqn:E; [|discriminate].
    apply Bool.eqb_prop in E. subst y. simpl. f_equal. apply IH. exact H.
Qed.

Lemma strip_prefix_none : forall p l, strip_prefix p l = None -> ~ is_prefix p l.
Proof.
  induction p as [|x p IH]; intros l H [r Hr].
  - simpl in H. discriminate.
  - destruct l as [|y l]; simpl in Hr; [discriminate|].
    injection Hr as -> ->. simpl in H. rewrite Bool.eqb_reflx in H.
    apply (IH _ H). exists r. reflexivity.
Qed.

Lemma first_symbol_some : forall tbl bits sym rest,
  first_symbol tbl bits = Some (sym, rest) -> exists w, In (sym, w) tbl /\ bits = w ++ rest.
Proof.
  induction tbl as [|[s w] tbl IH]; intros bits sym rest H; simpl in H; [discriminate|].
  destruct (strip_prefix w bits) as [r|] eqn:E.
  - injection H as -> ->. exists w. split; [left; reflexivity | apply strip_prefix_some; exact E].
  - destruct (IH _ _ _ H) as [w' [Hin Hb]]. exists w'. split; [right; exact Hin | exact Hb].
Qed.

Lemma first_symbol_none : forall tbl bits,
  first_symbol tbl bits = None -> forall s w, In (s, w) tbl -> ~ is_prefix w bits.
Proof.
  induction tbl as [|[s0 w0] tbl IH]; intros bits H s w Hin; simpl in Hin; [contradiction|].
  simpl in H. destruct (strip_prefix w0 bits) as [r|] eqn:E; [discriminate|].
  destruct Hin as [Heq | Hin].
  - injection Heq as <- <-. apply strip_prefix_none. exact E.
  - eapply IH; eassumption.
Qed.

Lemma in_code_words_by_symbol s w : In (s, w) code_words_by_symbol -> s < 256 /\ w = code_bits s.
Proof.
  unfold code_words_by_symbol. rewrite in_map_iff. intros [i [Heq Hin]].
  injection Heq as <- <-. apply in_seq in Hin. split; [lia | reflexivity].
Qed.

Lemma code_words_by_symbol_in a : a < 256 -> In (a, code_bits a) code_words_by_symbol.
Proof.
  intros Ha. unfold code_words_by_symbol. rewrite in_map_iff. exists (N.to_nat a).
  rewrite N2Nat.id. split; [reflexivity|]. apply in_seq. lia.
Qed.

Definition lift_out (out : bytes) (r : option bytes) : option bytes :=
  match r with Some s => Some (rev out ++ s) | None => None end.

Lemma huff_dec_bits_parses : forall fuel bits out, (length bits < fuel)%nat ->
  parses bits out (lift_out out (huff_dec_bits fuel bits)).
Proof.
  induction fuel as [|fuel IH]; intros bits out Hlen; [lia|].
  cbn [huff_dec_bits].
  destruct (first_symbol code_words_by_symbol bits) as [[sym rest]|] eqn:E.
  - destruct (first_symbol_some _ _ _ _ E) as [w [Hin Hb]].
    destruct (in_code_words_by_symbol _ _ Hin) as [Hs ->]. subst bits.
    pose proof (code_bits_len_bounds sym Hs) as Hcl.
    rewrite app_length in Hlen.
    assert (Hr : (length rest < fuel)%nat) by lia.
    pose proof (IH rest (sym :: out) Hr) as HP.
    replace (lift_out out match huff_dec_bits fuel rest with Some s => Some (sym :: s) | None => None end)
      with (lift_out (sym :: out) (huff_dec_bits fuel rest)).
    + apply parses_step; assumption.
    + destruct (huff_dec_bits fuel rest) as [s|]; [|reflexivity].
      unfold lift_out. cbn [rev]. rewrite <- app_assoc. reflexivity.
  - replace (lift_out out (if (length bits <? 8)%nat && forallb (fun x : bool => x) bits then Some [] else None))
      with (finish bits out).
    + apply parses_done. intros a Ha Hp.
      apply (first_symbol_none _ _ E a (code_bits a)); [apply code_words_by_symbol_in; exact Ha | exact Hp].
    + unfold finish.
      replace (length bits <=? 7)%nat with (length bits <? 8)%nat.
      * destruct ((length bits <? 8)%nat && forallb (fun b : bool => b) bits); [|reflexivity].
        unfold lift_out. rewrite app_nil_r. reflexivity.
      * destruct (Nat.ltb_spec (length bits) 8), (Nat.leb_spec (length bits) 7); try reflexivity; lia.
Qed.

Lemma spec_huff_decode_parses b : parses (bytes_bits b) [] (spec_huff_decode b).
Proof.
  pose proof (huff_dec_bits_parses (S (length (bytes_bits b))) (bytes_bits b) [] (Nat.lt_succ_diag_r _)) as H.
  unfold spec_huff_decode. change (flat_map byte_bits b) with (bytes_bits b).
  destruct (huff_dec_bits (S (length (bytes_bits b))) (bytes_bits b)); exact H.
Qed.

Theorem spec_huff_decode_encode : forall s, bytes_ok s = true -> spec_huff_decode (spec_encode s) = Some s.
Proof.
  intros s Hs. pose proof (spec_huff_decode_parses (spec_encode s)) as HP.
  rewrite spec_encode_bits in HP.
  destruct (pad_len_props (length (code_string s))) as [P1 _].
  apply parses_complete in HP; [|exact Hs|lia]. exact HP.
Qed.

Theorem spec_huff_decode_exact : forall b s, bytes_ok b = true ->
  (spec_huff_decode b = Some s <-> spec_valid b s).
Proof.
  intros b s Hb. split.
  - intros Hd. pose proof (spec_huff_decode_parses b) as HP. rewrite Hd in HP.
    destruct (parses_sound _ _ _ HP s eq_refl) as [t [r [E1 [E2 [E3 E4]]]]].
    simpl in E1. subst t. eapply valid_of_bits; eassumption.
  - intros [Hs <-]. apply spec_huff_decode_encode. exact Hs.
Qed.

(* the model of HuffmanDecode and the specification's decoder accept the same strings with the
   same result *)
Theorem spec_huff_agrees : forall b, bytes_ok b = true ->
  match huffman_decode b with Ok s => Some s | _ => None end = spec_huff_decode b.
Proof.
  intros b Hb. pose proof (decode_total b Hb) as Htot.
  destruct (huffman_decode b) as [s|e|w] eqn:E.
  - symmetry. apply spec_huff_decode_exact; [exact Hb|]. apply decode_exact; assumption.
  - destruct (spec_huff_decode b) as [s|] eqn:E2; [|reflexivity].
    apply spec_huff_decode_exact in E2; [|exact Hb]. apply decode_exact in E2; [|exact Hb].
    rewrite E in E2. discriminate.
  - simpl in Htot. discriminate.
Qed.

Lemma spec_huff_decode_ok b s : bytes_ok b = true -> spec_huff_decode b = Some s ->
  bytes_ok s = true /\ (5 * length s <= 8 * length b)%nat.
Proof.
  intros Hb Hd. pose proof (spec_huff_agrees b Hb) as HA. rewrite Hd in HA.
  destruct (huffman_decode b) as [s'|e|w] eqn:E; try discriminate.
  injection HA as ->. split.
  - apply decode_exact in E; [|exact Hb]. exact (proj1 E).
  - apply decode_output_bound; assumption.
Qed.
