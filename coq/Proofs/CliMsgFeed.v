(* Proofs/CliMsgFeed.v - C02 (c) / C20 (client): one frame through dispatch keeps the invariant, the ghost
   (reference receiver) taking the same frame. *)
From H2V Require Import Base.Bytes Base.MachineInt Gen.GenConsts Impl.ServerConn Impl.ClientConn
  Spec.Http2Messages Spec.Http2Responses Proofs.CliBase Proofs.SrvIsoRef Proofs.CliMsgRef Proofs.CliMsgAuto Proofs.CliMsgMoves
  Proofs.CliMsgDisp Proofs.CliMsgStep Proofs.CliMsgInv Proofs.CliResInv.
From Coq Require Import ZArith Lia ZifyN ZifyNat ZifyBool List.
Import ListNotations.
Local Open Scope N_scope.

Section Feed.
Context {hstate : Type}.
Variable dec_field : hstate -> N -> bytes -> dec_res hstate.
Implicit Types c : cconn hstate.
Implicit Types g : @gst hstate.

Notation Inv := (Inv (hstate := hstate)).

Definition open_on g (id : N) : Prop := match g_open g with Some (s, _, _) => s = id | None => True end.

(* what the request that takes the frame gets when the automaton says "done" *)
Definition fwd g' (c3 : cconn hstate) (id : N) (ok : option cctx) : Prop :=
  match ok with
  | Some x => ct_err x = None -> ct_resolved x = false ->
              forall r, run_items rinit (own id (g_items g')) = IDone r ->
              exists x3, cl_ctx_get c3 (ct_tag x) = Some x3 /\ ct_err x3 = Some CENil /\ ct_resp x3 = r
  | None => True
  end.

Lemma own_extra id i (items extra : list (N * ritem)) :
  (forall p, In p extra -> fst p = id) -> i <> id -> own i (items ++ extra) = own i items.
Proof.
  intros H NE. rewrite own_app. replace (own i extra) with (@nil ritem); [apply app_nil_r|].
  unfold own. induction extra as [|p t IH]; [reflexivity|]. cbn [filter].
  rewrite (H p (or_introl eq_refl)). replace (id =? i) with false by lia. apply IH. intros q Hq. apply H. right. exact Hq.
Qed.

(* the frame conditions of a feed: everything but the decoder registers and the Ctx that takes the frame *)
Definition ctx_rel (tg : option N) c c' : Prop :=
  forall t, tg <> Some t -> match cl_ctx_get c' t, cl_ctx_get c t with Some x', Some x => ctx_q x x' | None, None => True | _, _ => False end.

Record fm (tg : option N) c c' : Prop := mkFM {
  fm_next : cc_nextID c' = cc_nextID c;
  fm_rq : (forall p, In p (cc_reqQueued c') -> In p (cc_reqQueued c)) /\ (NoDup (map fst (cc_reqQueued c)) -> NoDup (map fst (cc_reqQueued c')));
  fm_inq : (forall t, In t (cc_inQ c') -> In t (cc_inQ c)) /\ (NoDup (cc_inQ c) -> NoDup (cc_inQ c'));
  fm_le : forall e, cc_lastErr c' = Some e -> err_special e = true -> cc_lastErr c = Some e;
  fm_out : exists new, cc_out c' = new ++ cc_out c /\ forallb q2 new = true;
  fm_outq : forallb q2 (cc_outQ c) = true -> forallb q2 (cc_outQ c') = true;
  fm_ctx : ctx_rel tg c c';
  fm_rl : cl_rl_live c' = true -> cl_rl_live c = true;
  fm_wl : cl_wl_live c' = true -> cl_wl_live c = true;
  fm_enc : cc_enc c' = cc_enc c
}.

Lemma fm_trans tg a b c : fm tg a b -> fm tg b c -> fm tg a c.
Proof.
  intros [] []. constructor; try congruence; auto.
  - destruct fm_rq0, fm_rq1. split; auto.
  - destruct fm_inq0, fm_inq1. split; auto.
  - destruct fm_out0 as (n0 & E0 & F0), fm_out1 as (n1 & E1 & F1). exists (n1 ++ n0). split.
    + rewrite E1, E0, app_assoc. reflexivity.
    + rewrite forallb_app, F1, F0. reflexivity.
  - intros t NT. specialize (fm_ctx0 t NT). specialize (fm_ctx1 t NT).
    destruct (cl_ctx_get c t), (cl_ctx_get b t), (cl_ctx_get a t); try contradiction; try exact Logic.I.
    eapply ctx_q_trans; eassumption.
Qed.

Lemma fm_qm tg c c' : qm q2 c c' -> fm tg c c'.
Proof.
  intro Q. destruct Q. constructor; auto. intros t _. exact (qm_ctx t).
Qed.

Lemma fm_refl tg c : fm tg c c.
Proof. apply fm_qm, qm_refl. Qed.

(* writing the fed Ctx back *)
Lemma fm_put c x x2 : cl_ctx_get c (ct_tag x) = Some x -> ct_tag x2 = ct_tag x -> fm (Some (ct_tag x)) c (cl_ctx_put c x2).
Proof.
  intros G T. constructor; try reflexivity; auto.
  - exists []. split; reflexivity.
  - intros t NT. rewrite cl_ctx_get_put, T. destruct (t =? ct_tag x) eqn:E; [exfalso; apply NT; f_equal; lia|].
    destruct (cl_ctx_get c t); [apply ctx_q_refl | exact Logic.I].
Qed.

Lemma fm_ctx_upd c tag f : (forall x, ct_tag (f x) = ct_tag x) -> fm (Some tag) c (cl_ctx_upd c tag f).
Proof.
  intro F. unfold cl_ctx_upd. destruct (cl_ctx_get c tag) as [x|] eqn:G; [|apply fm_refl].
  destruct (cl_ctxs_get_In _ _ _ G) as [_ E]. rewrite <- E. apply fm_put; [rewrite E; exact G | apply F].
Qed.

Lemma fm_finish c tag id e : fm (Some tag) c (cl_finish c tag id e).
Proof.
  rewrite cl_finish_eq. eapply fm_trans; [apply fm_qm, qm_finish_drop | apply fm_ctx_upd; intro x; rewrite ct_tag_cl_ctx_resolve; reflexivity].
Qed.

Lemma Inv_feed_gen g g' c c' (id : N) (tg : option N) :
  Inv g c -> id <> 0 ->
  (cl_rl_live c' = true -> dec_clause g' c') ->
  (forall e, cc_hdrErr c' = Some e -> e = CEMalformed) ->
  fm tg c c' ->
  (exists extra, g_items g' = g_items g ++ extra /\ forall p, In p extra -> fst p = id) ->
  open_on g id -> open_on g' id ->
  match tg with
  | Some t => exists x x', cl_ctx_get c t = Some x /\ cl_ctx_get c' t = Some x' /\ ct_sid x = id /\ ct_sid x' = id /\ In (id, t) (cc_reqQueued c) /\
                (ct_err x' = Some CENil -> run_items rinit (own id (g_items g')) = IDone (ct_resp x') /\ forall p, In p (cc_reqQueued c') -> fst p <> id) /\
                (In (id, t) (cc_reqQueued c') -> ct_err x' <> Some CENil /\ TabRel g' c' id x')
  | None => forall p, In p (cc_reqQueued c') -> fst p <> id
  end ->
  Inv g' c'.
Proof.
  intros I ID0 HDEC HERR [HNEXT [HRQ1 HRQ2] [HINQ1 HINQ2] HLE (new & HOUT & HNEW) HOUTQ HCTX _ _ _] (extra & HIT & HEX) OP OP' HFED.
  assert (CTXB : forall t x', tg <> Some t -> cl_ctx_get c' t = Some x' -> exists x, cl_ctx_get c t = Some x /\ ctx_q x x').
  { intros t x' NT G. specialize (HCTX t NT). rewrite G in HCTX. destruct (cl_ctx_get c t) as [x|]; [eauto | contradiction]. }
  assert (CTXF : forall t x, tg <> Some t -> cl_ctx_get c t = Some x -> exists x', cl_ctx_get c' t = Some x' /\ ctx_q x x').
  { intros t x NT G. specialize (HCTX t NT). rewrite G in HCTX. destruct (cl_ctx_get c' t) as [x'|]; [eauto | contradiction]. }
  (* a Ctx on the table under id is the fed one *)
  assert (ONLY : forall t', In (id, t') (cc_reqQueued c) -> match tg with Some t => t' = t | None => True end).
  { intros t' H. destruct tg as [t|]; [|exact Logic.I]. destruct HFED as (x & x' & _ & _ & _ & _ & HIN & _).
    pose proof (i_nodup _ _ I) as ND. clear -ND H HIN. revert ND H HIN. induction (cc_reqQueued c) as [|[i u] l IH]; intros ND H HIN; [destruct H|].
    cbn [map fst] in ND. inversion ND as [|? ? NI ND']; subst.
    destruct H as [H|H], HIN as [H2|H2].
    - congruence.
    - inversion H; subst. exfalso. apply NI. apply in_map_iff. exists (id, t). split; [reflexivity | exact H2].
    - inversion H2; subst. exfalso. apply NI. apply in_map_iff. exists (id, t'). split; [reflexivity | exact H].
    - exact (IH ND' H H2). }
  constructor.
  - exact HDEC.
  - exact HERR.
  - intros i t H. pose proof (HRQ1 _ H) as H0. destruct (i_tab _ _ I i t H0) as (x & G & S & N0 & LT & NE & T).
    destruct (N.eq_dec i id) as [->|NEI].
    + pose proof (ONLY t H0) as O. destruct tg as [t0|].
      * subst t0. destruct HFED as (x0 & x' & G0 & G' & S0 & S' & HIN & _ & HT). destruct (HT H) as [NE' T'].
        exists x'. repeat split; try assumption. rewrite HNEXT. exact LT.
      * exfalso. exact (HFED _ H eq_refl).
    + assert (NT : tg <> Some t).
      { intro E. subst tg. destruct HFED as (x0 & x' & G0 & _ & S0 & _). rewrite G in G0. inversion G0; subst x0. congruence. }
      destruct (CTXF t x NT G) as (x' & G' & QX). destruct (ctx_q_view _ _ QX) as (V1 & V2 & V3 & V4).
      pose proof (proj2 (N.eqb_neq id i) (fun E => NEI (eq_sym E))) as NEB.
      exists x'. repeat split; try congruence.
      * intro E. apply NE. exact (ctx_q_nil _ _ QX E).
      * destruct T as (r0 & got & T1 & T2 & T3). exists r0, got. rewrite HIT, (own_extra id i _ _ HEX NEI). repeat split; [exact T1 | congruence|].
        assert (R0 : ct_resp x = r0).
        { unfold open_on in OP. destruct (g_open g) as [[[s es] fs]|]; [|exact T3]. subst s. rewrite NEB in T3. exact T3. }
        unfold open_on in OP'. destruct (g_open g') as [[[s es] fs]|]; [|congruence]. subst s. rewrite NEB. congruence.
  - exact (HRQ2 (i_nodup _ _ I)).
  - intros t x' G' S. destruct tg as [t0|] eqn:ET.
    + destruct (N.eq_dec t t0) as [->|NT].
      * destruct HFED as (x0 & x1 & _ & G1 & _ & S1 & _). rewrite G' in G1. inversion G1; subst x1. congruence.
      * destruct (CTXB t x' ltac:(congruence) G') as (x & G & QX). destruct (ctx_q_view _ _ QX) as (V1 & V2 & V3 & V4).
        destruct (i_fresh _ _ I t x G ltac:(congruence)) as (A & B & C). repeat split; try congruence. intro E. apply C. exact (ctx_q_nil _ _ QX E).
    + destruct (CTXB t x' ltac:(congruence) G') as (x & G & QX). destruct (ctx_q_view _ _ QX) as (V1 & V2 & V3 & V4).
      destruct (i_fresh _ _ I t x G ltac:(congruence)) as (A & B & C). repeat split; try congruence. intro E. apply C. exact (ctx_q_nil _ _ QX E).
  - intros t x' G' E.
    assert (OTHER : tg <> Some t -> ct_sid x' <> 0 /\ run_items rinit (own (ct_sid x') (g_items g')) = IDone (ct_resp x')).
    { intro NT. destruct (CTXB t x' NT G') as (x & G & QX). destruct (ctx_q_view _ _ QX) as (V1 & V2 & V3 & V4).
      destruct (i_nil _ _ I t x G (ctx_q_nil _ _ QX E)) as [A B]. rewrite V1, V2. split; [exact A|].
      rewrite HIT, own_app. apply run_items_done_stable. exact B. }
    destruct tg as [t0|]; [|apply OTHER; discriminate].
    destruct (N.eq_dec t t0) as [->|NT]; [|apply OTHER; congruence].
    destruct HFED as (x0 & x1 & _ & G1 & _ & S1 & _ & HN & _). rewrite G' in G1. inversion G1; subst x1.
    rewrite S1. split; [exact ID0 | exact (proj1 (HN E))].
  - intros t r resp H. rewrite HOUT in H. apply in_app_or in H. destruct H as [H|H].
    { exfalso. rewrite forallb_forall in HNEW. specialize (HNEW _ H). discriminate. }
    destruct (i_res _ _ I t r resp H) as (x & G & S & R).
    assert (NT : tg <> Some t).
    { intro E. subst tg. destruct HFED as (x0 & x' & G0 & _ & S0 & _ & HIN & _). rewrite G in G0. inversion G0; subst x0.
      destruct (i_tab _ _ I id t HIN) as (y & Gy & _ & _ & _ & _ & (r0 & got & T1 & _)). rewrite S0 in R. congruence. }
    destruct (CTXF t x NT G) as (x' & G' & QX). destruct (ctx_q_view _ _ QX) as (V1 & V2 & V3 & V4).
    exists x'. rewrite V1. repeat split; try assumption. rewrite HIT, own_app. apply run_items_done_stable. exact R.
  - destruct (i_inq _ _ I) as [N1 N2]. split; [exact (HINQ2 N1)|]. intros t H. destruct (N2 t (HINQ1 t H)) as (x & G & S).
    assert (NT : tg <> Some t).
    { intro E. subst tg. destruct HFED as (x0 & x' & G0 & _ & S0 & _). rewrite G in G0. inversion G0; subst x0. congruence. }
    destruct (CTXF t x NT G) as (x' & G' & QX). destruct (ctx_q_view _ _ QX) as (V1 & _). exists x'. split; [exact G' | congruence].
  - intros e H. destruct (err_special e) eqn:S; [|reflexivity]. rewrite <- S. exact (i_le _ _ I e (HLE e H S)).
  - exact (HOUTQ (i_outq _ _ I)).
  - rewrite HNEXT. exact (i_next _ _ I).
Qed.


Definition regs c := (cc_dec c, cc_hdrStream c, cc_hdrPrev c, cc_hdrFields c, cc_hdrEndStream c, cc_hdrRegularSeen c, cc_hdrStatus c, cc_hdrErr c).

Lemma regs_qm P c c' : qm P c c' -> regs c' = regs c.
Proof. intros []. unfold regs. congruence. Qed.
Lemma regs_ctx_upd c t f : regs (cl_ctx_upd c t f) = regs c.
Proof. unfold cl_ctx_upd. destruct (cl_ctx_get c t); reflexivity. Qed.
Lemma regs_finish c tag id e : regs (cl_finish c tag id e) = regs c.
Proof.
  rewrite cl_finish_eq, regs_ctx_upd. exact (regs_qm _ _ _ (qm_finish_drop c id)).
Qed.

Lemma finish_rq c tag id e p : In p (cc_reqQueued (cl_finish c tag id e)) -> fst p <> id /\ In p (cc_reqQueued c).
Proof.
  rewrite cc_reqQueued_cl_finish. intro H. apply filter_In in H. destruct H as [H1 H2]. split; [|exact H1].
  apply negb_true_iff in H2. lia.
Qed.


Lemma close_body_ctx c pb t x : cl_ctx_get c t = Some x ->
  exists x2, cl_ctx_get (cl_close_body c pb) t = Some x2 /\ (x2 = x \/ x2 = ctu_bodyClosed x true).
Proof.
  intro G. unfold cl_close_body. destruct (pb_stream pb); [|exists x; auto].
  change (cl_ctx_get (cl_note ?a ?o) t) with (cl_ctx_get a t).
  rewrite cl_ctx_get_upd by reflexivity. rewrite G. destruct (t =? pb_tag pb); [exists (ctu_bodyClosed x true) | exists x]; auto.
Qed.

(* the Ctx after finish: Response and stream id as they were; Err gets e if it was free *)
Lemma finish_ctx c tag id e x : cl_ctx_get c tag = Some x ->
  exists x3, cl_ctx_get (cl_finish c tag id e) tag = Some x3 /\ ct_sid x3 = ct_sid x /\ ct_resp x3 = ct_resp x /\ ct_gotStatus x3 = ct_gotStatus x /\
             (forall e', ct_err x3 = Some e' -> ct_err x = Some e' \/ e' = e) /\
             (ct_err x = None -> ct_resolved x = false -> ct_err x3 = Some e).
Proof.
  intro G. rewrite cl_finish_eq. set (c2 := finish_drop c id).
  assert (G1 : cl_ctx_get (cl_take_req_count c id) tag = Some x) by (unfold cl_ctx_get; rewrite cc_ctxs_cl_take_req_count; exact G).
  assert (G2 : exists x2, cl_ctx_get c2 tag = Some x2 /\ (x2 = x \/ x2 = ctu_bodyClosed x true)).
  { subst c2. unfold finish_drop. destruct (cl_pend_get _ id) as [pb|]; [|exists x; auto]. apply close_body_ctx. exact G1. }
  destruct G2 as (x2 & G2 & EX).
  rewrite cl_ctx_get_upd by (intro y; rewrite ct_tag_cl_ctx_resolve; reflexivity). rewrite N.eqb_refl, G2.
  exists (cl_ctx_resolve (ctu_finished x2 true) e). split; [reflexivity|].
  rewrite cl_ctx_resolve_eq.
  destruct (negb (ct_resolved (ctu_finished x2 true)) && match ct_err (ctu_finished x2 true) with None => true | Some _ => false end) eqn:B;
    destruct EX as [-> | ->]; cbn; cbn in B; repeat split; try reflexivity;
    try (intros e' H; solve [inversion H; auto | auto]);
    try (intros H1 H2; rewrite H1, H2 in B; discriminate).
Qed.


Definition after_ga c : cconn hstate := if cl_gone_away c then cl_rl_exit c 2 else c.
Lemma rl_after_ga c : rl_after (c, if cl_gone_away c then CDStop else CDCont) = after_ga c.
Proof. unfold after_ga. destruct (cl_gone_away c); reflexivity. Qed.
Lemma rl_exit_ctxs c w : cc_ctxs (cl_rl_exit c w) = cc_ctxs c.
Proof. apply cc_ctxs_cl_conn_close. Qed.
Lemma rl_exit_rq c w : cc_reqQueued (cl_rl_exit c w) = cc_reqQueued c.
Proof. apply cc_reqQueued_cl_conn_close. Qed.
Lemma rl_exit_dead c w : cl_rl_live (cl_rl_exit c w) = false.
Proof. reflexivity. Qed.
Lemma after_ga_qm c : qm q2 c (after_ga c).
Proof. unfold after_ga. destruct (cl_gone_away c); [apply qm_rl_exit | apply qm_refl]. Qed.
Lemma after_ga_ctxs c : cc_ctxs (after_ga c) = cc_ctxs c.
Proof. unfold after_ga. destruct (cl_gone_away c); [apply rl_exit_ctxs | reflexivity]. Qed.
Lemma after_ga_rq c : cc_reqQueued (after_ga c) = cc_reqQueued c.
Proof. unfold after_ga. destruct (cl_gone_away c); [apply rl_exit_rq | reflexivity]. Qed.

Definition fatal (e : cl_rserr) : Prop := match e with CRSConn _ | CRSPanic => True | _ => False end.

Lemma tail_none c2 id ended err2 : (forall e, err2 = CRSConn e -> err_special e = false) ->
  qm q2 c2 (rl_after (disp_tail c2 id None ended err2)) /\ (fatal err2 -> cl_rl_live (rl_after (disp_tail c2 id None ended err2)) = false).
Proof.
  intro HC. unfold disp_tail. destruct err2 as [|e|e|]; try rewrite rl_after_ga; cbn [rl_after fatal].
  - split; [apply after_ga_qm | intros []].
  - split; [apply after_ga_qm | intros []].
  - split; [|reflexivity]. eapply qm_trans; [|apply qm_rl_exit]. apply qm_set_last_err. apply HC. reflexivity.
  - split; [apply qm_rl_panic | reflexivity].
Qed.

Lemma tail_some c2 id x2 ended err2 :
  cl_ctx_get c2 (ct_tag x2) = Some x2 ->
  (forall e, err2 = CRSConn e -> err_special e = false) -> (forall e, err2 = CRSStream e -> err_special e = false) ->
  let c3 := rl_after (disp_tail c2 id (Some x2) ended err2) in
  fm (Some (ct_tag x2)) c2 c3 /\ regs c3 = regs c2 /\
  ((err2 = CRSNone /\ ended = false /\ cl_ctx_get c3 (ct_tag x2) = Some x2 /\ cc_reqQueued c3 = cc_reqQueued c2) \/
   ((forall p, In p (cc_reqQueued c3) -> fst p <> id) /\
    exists x3, cl_ctx_get c3 (ct_tag x2) = Some x3 /\ ct_sid x3 = ct_sid x2 /\ ct_resp x3 = ct_resp x2 /\
      (ct_err x3 = Some CENil -> ct_err x2 = Some CENil \/ (err2 = CRSNone /\ ended = true)) /\
      (fatal err2 -> cl_rl_live c3 = false) /\
      (err2 = CRSNone -> ended = true /\ (ct_err x2 = None -> ct_resolved x2 = false -> ct_err x3 = Some CENil)))).
Proof.
  intros G2 HC HS c3. subst c3. unfold disp_tail.
  (* finish, then maybe the loop's exit *)
  assert (FIN : forall c e w, cl_ctx_get c (ct_tag x2) = Some x2 -> (e = CENil -> w = true) ->
            let c3 := after_ga (cl_finish c (ct_tag x2) id e) in
            fm (Some (ct_tag x2)) c c3 /\ regs c3 = regs c /\
            (forall p, In p (cc_reqQueued c3) -> fst p <> id) /\
            exists x3, cl_ctx_get c3 (ct_tag x2) = Some x3 /\ ct_sid x3 = ct_sid x2 /\ ct_resp x3 = ct_resp x2 /\
              (ct_err x3 = Some CENil -> ct_err x2 = Some CENil \/ w = true) /\
              (ct_err x2 = None -> ct_resolved x2 = false -> ct_err x3 = Some e)).
  { intros c e w G W c3. subst c3. split; [|split; [|split]].
    - eapply fm_trans; [apply fm_finish | apply fm_qm, after_ga_qm].
    - rewrite (regs_qm _ _ _ (after_ga_qm _)). apply regs_finish.
    - intros p H. rewrite after_ga_rq in H. exact (proj1 (finish_rq _ _ _ _ _ H)).
    - destruct (finish_ctx c (ct_tag x2) id e x2 G) as (x3 & G3 & S3 & R3 & _ & E3 & F3).
      exists x3. unfold cl_ctx_get. rewrite after_ga_ctxs. repeat split; try assumption.
      intro H. destruct (E3 _ H) as [A|A]; [left; exact A | right; apply W; symmetry; exact A]. }
  destruct err2 as [|e|e|].
  - destruct ended.
    + rewrite rl_after_ga. destruct (FIN c2 CENil true G2 ltac:(auto)) as (A & B & C & x3 & G3 & S3 & R3 & E3 & F3).
      split; [exact A | split; [exact B|]]. right. split; [exact C|]. exists x3. repeat split; try assumption.
      * intro H. destruct (E3 H); [left; assumption | right; auto].
      * intros [].
    + rewrite rl_after_ga. split; [apply fm_qm, after_ga_qm | split; [apply (regs_qm _ _ _ (after_ga_qm _))|]].
      left. repeat split; [unfold cl_ctx_get; rewrite after_ga_ctxs; exact G2 | apply after_ga_rq].
  - rewrite rl_after_ga. destruct (FIN c2 e false G2) as (A & B & C & x3 & G3 & S3 & R3 & E3 & F3).
    { intros ->. specialize (HS CENil eq_refl). discriminate. }
    split; [exact A | split; [exact B|]]. right. split; [exact C|]. exists x3. repeat split; try assumption; try discriminate.
    + intro H. destruct (E3 H); [left; assumption | discriminate].
    + intros [].
  - cbn [rl_after]. pose proof (HC e eq_refl) as SE.
    assert (G2' : cl_ctx_get (cl_set_last_err c2 e) (ct_tag x2) = Some x2) by (unfold cl_set_last_err; destruct (cc_lastErr c2); exact G2).
    destruct (finish_ctx (cl_set_last_err c2 e) (ct_tag x2) id e x2 G2') as (x3 & G3 & S3 & R3 & _ & E3 & F3).
    split; [|split].
    + eapply fm_trans; [apply fm_qm, qm_set_last_err, SE|]. eapply fm_trans; [apply fm_finish | apply fm_qm, qm_rl_exit].
    + rewrite (regs_qm _ _ _ (qm_rl_exit _ _)), regs_finish. apply (regs_qm q2). apply qm_set_last_err, SE.
    + right. split.
      * intros p H. rewrite rl_exit_rq in H. exact (proj1 (finish_rq _ _ _ _ _ H)).
      * exists x3. unfold cl_ctx_get. rewrite rl_exit_ctxs. repeat split; try assumption; try discriminate.
        intro H. destruct (E3 _ H) as [A|A]; [left; exact A | subst e; discriminate].
  - cbn [rl_after]. pose proof (qm_rl_panic c2) as Q.
    split; [apply fm_qm, Q | split; [exact (regs_qm _ _ _ Q)|]]. right. split.
    + intros p H. exfalso. revert H. unfold cl_rl_panic. rewrite rl_exit_rq. cbn. intros [].
    + pose proof (qm_ctx _ _ _ Q (ct_tag x2)) as QC. rewrite G2 in QC.
      destruct (cl_ctx_get (cl_rl_panic c2) (ct_tag x2)) as [x3|]; [|contradiction].
      destruct (ctx_q_view _ _ QC) as (V1 & V2 & _). exists x3. repeat split; try assumption; try discriminate.
      intro H. left. exact (ctx_q_nil _ _ QC H).
Qed.

Definition data_resp (res : option cresponse) (d : bytes) : option cresponse :=
  match res with
  | Some r => if cl_is_nil d then Some r else Some (cl_resp_append_body r d)
  | None => None
  end.

(* what the window bookkeeping of a DATA frame does to the connection: a quiet move that touches no Ctx and no table entry *)
Definition wmove c c' : Prop := qm q2 c c' /\ cc_ctxs c' = cc_ctxs c /\ cc_reqQueued c' = cc_reqQueued c.

Lemma wmove_refl c : wmove c c.
Proof. split; [apply qm_refl | split; reflexivity]. Qed.
Lemma wmove_trans a b c : wmove a b -> wmove b c -> wmove a c.
Proof. intros (Q & C & R) (Q' & C' & R'). split; [exact (qm_trans _ _ _ _ Q Q') | split; congruence]. Qed.
Lemma wmove_currentWindow c w : wmove c (ccu_currentWindow c w).
Proof. split; [apply qm_same; reflexivity | split; reflexivity]. Qed.
Lemma wmove_update_window c sid n : wmove c (cl_update_window c sid n).
Proof. split; [apply qm_update_window | split; [apply cc_ctxs_cl_update_window | apply cc_reqQueued_cl_update_window]]. Qed.

Lemma read_stream_data c fr res : sf_kind fr = KData ->
  exists dw, cl_read_stream dec_field c fr res = (dw, data_resp res (sf_payload fr), flag_has (sf_flags fr) FL_ES, CRSNone) /\
             qm q2 c dw /\ cc_ctxs dw = cc_ctxs c /\ cc_reqQueued dw = cc_reqQueued c.
Proof.
  intro K. unfold cl_read_stream. rewrite K. eexists. split; [reflexivity|].
  set (c1 := ccu_currentWindow c _).
  assert (W1 : wmove c c1) by apply wmove_currentWindow. clearbody c1.
  set (c2 := match res with Some _ => _ | None => c1 end).
  assert (W2 : wmove c1 c2).
  { subst c2. destruct res; [destruct (negb _ && _)|]; [apply wmove_update_window | apply wmove_refl | apply wmove_refl]. }
  clearbody c2. apply (wmove_trans _ _ _ W1), (wmove_trans _ _ _ W2).
  match goal with |- context [if ?b then _ else _] => destruct b end; [|apply wmove_refl].
  exact (wmove_trans _ _ _ (wmove_currentWindow _ _) (wmove_update_window _ _ _)).
Qed.

Lemma req_find_not_in (l : list (N * N)) id : cl_req_find l id = None -> forall p, In p l -> fst p <> id.
Proof. intros H p I E. apply cl_req_find_None in H. apply H. apply in_map_iff. exists p. split; assumption. Qed.

Lemma own_snoc id (items : list (N * ritem)) it : own id (items ++ [(id, it)]) = own id items ++ [it].
Proof. rewrite own_app. unfold own at 2. cbn. rewrite N.eqb_refl. reflexivity. Qed.

Notation gstep := (gstep dec_field).
Notation feedmove := (feedmove dec_field).

Definition feed_state c (fr : sframe) (ok : option cctx) : cconn hstate :=
  rl_after (let '(c2, ok2, ended, err2) := disp_feed dec_field c fr ok in disp_tail c2 (sf_sid fr) ok2 ended err2).
Definition feed_pre c (fr : sframe) (ok : option cctx) : Prop :=
  cl_rl_live c = true /\ sf_sid fr <> 0 /\ frame_in_seq c fr = true /\
  match ok with
  | Some x => cl_req_find (cc_reqQueued c) (sf_sid fr) = Some (ct_tag x) /\ cl_ctx_get c (ct_tag x) = Some x /\ ct_sid x = sf_sid fr
  | None => cl_req_find (cc_reqQueued c) (sf_sid fr) = None
  end.

Lemma feed_data g c fr ok : Inv g c -> sf_kind fr = KData -> feed_pre c fr ok ->
  Inv (gstep g fr) (feed_state c fr ok) /\ cc_nextID (feed_state c fr ok) = cc_nextID c /\ fwd (gstep g fr) (feed_state c fr ok) (sf_sid fr) ok.
Proof.
  intros I K (L & S0 & FS & OK). unfold feed_state.
  assert (HS0 : cc_hdrStream c = 0).
  { unfold frame_in_seq in FS. rewrite K in FS. cbn [fkind_eqb negb andb] in FS. destruct (cc_hdrStream c =? 0) eqn:E; [lia | discriminate]. }
  destruct (i_dec _ _ I L) as [GD GO].
  assert (GN : g_open g = None).
  { destruct (g_open g) as [[[s es] fs]|]; [|reflexivity]. destruct GO as (A & B & _). congruence. }
  set (id := sf_sid fr) in *. set (es := flag_has (sf_flags fr) FL_ES).
  set (g' := gstep g fr).
  assert (G'I : g_items g' = g_items g ++ [(id, RData (sf_payload fr) es)]) by (unfold g', CliMsgInv.gstep; rewrite K; reflexivity).
  assert (G'O : g_open g' = None) by (unfold g', CliMsgInv.gstep; rewrite K; exact GN).
  assert (G'D : g_d g' = g_d g) by (unfold g', CliMsgInv.gstep; rewrite K; reflexivity).
  unfold disp_feed.
  destruct (read_stream_data c fr (match ok with Some x => Some (ct_resp x) | None => None end) K) as (dw & RS & QW & CW & RW).
  rewrite RS. rewrite K. cbn [fkind_eqb orb andb].
  assert (DEC : forall c', regs c' = regs c -> cl_rl_live c' = true -> dec_clause g' c').
  { intros c' R _. unfold regs in R. inversion R. unfold dec_clause. rewrite G'O, G'D. split; congruence. }
  assert (HERR : forall c', regs c' = regs c -> forall e, cc_hdrErr c' = Some e -> e = CEMalformed).
  { intros c' R e H. unfold regs in R. inversion R. apply (i_herr _ _ I). congruence. }
  assert (EXTRA : exists extra, g_items g' = g_items g ++ extra /\ forall p, In p extra -> fst p = id).
  { exists [(id, RData (sf_payload fr) es)]. split; [exact G'I|]. intros p [<-|[]]. reflexivity. }
  destruct ok as [x|].
  - destruct OK as (F & G & SX). set (tag := ct_tag x) in *.
    pose proof (cl_req_find_In _ _ _ F) as HIN.
    destruct (i_tab _ _ I id tag HIN) as (x0 & G0 & _ & _ & _ & NE & (r0 & got & T1 & T2 & T3)).
    rewrite G in G0. inversion G0; subst x0. rewrite GN in T3.
    cbn [data_resp]. 
    set (r' := if cl_is_nil (sf_payload fr) then ct_resp x else cl_resp_append_body (ct_resp x) (sf_payload fr)).
    assert (RE : (if cl_is_nil (sf_payload fr) then Some (ct_resp x) else Some (cl_resp_append_body (ct_resp x) (sf_payload fr))) = Some r')
      by (subst r'; destruct (cl_is_nil (sf_payload fr)); reflexivity).
    rewrite RE. set (x1 := ctu_resp x r').
    replace ((cc_hdrStream dw =? 0) && false) with false by (destruct (cc_hdrStream dw =? 0); reflexivity).
    cbn [ct_gotStatus ctu_resp].
    set (err2 := if negb (ct_gotStatus x) then CRSStream CEMalformed else CRSNone).
    assert (G2 : cl_ctx_get (cl_ctx_put dw x1) (ct_tag x1) = Some x1).
    { rewrite cl_ctx_get_put, N.eqb_refl. unfold cl_ctx_get. rewrite CW. change (ct_tag x1) with tag. unfold cl_ctx_get in G. rewrite G. reflexivity. }
    change (ct_gotStatus x1) with (ct_gotStatus x). fold es. fold err2.
    assert (HE : forall e, err2 = CRSStream e -> err_special e = false) by (subst err2; destruct (negb (ct_gotStatus x)); intros e H; inversion H; reflexivity).
    assert (HC : forall e, err2 = CRSConn e -> err_special e = false) by (subst err2; destruct (negb (ct_gotStatus x)); intros e H; inversion H).
    destruct (tail_some (cl_ctx_put dw x1) id x1 es err2 G2 HC HE) as (FM & RG & CASES).
    set (c3 := rl_after (disp_tail (cl_ctx_put dw x1) id (Some x1) es err2)) in *.
    assert (GW : cl_ctx_get dw (ct_tag x) = Some x) by (unfold cl_ctx_get; rewrite CW; exact G).
    assert (FMC : fm (Some tag) c c3).
    { eapply fm_trans; [apply fm_qm, QW|]. eapply fm_trans; [|exact FM]. exact (fm_put dw x x1 GW eq_refl). }
    assert (R3 : regs c3 = regs c) by (rewrite RG; change (regs (cl_ctx_put dw x1)) with (regs dw); exact (regs_qm _ _ _ QW)).
    assert (OWN : own id (g_items g') = own id (g_items g) ++ [RData (sf_payload fr) es]) by (rewrite G'I; apply own_snoc).
    assert (STEP : run_items rinit (own id (g_items g')) = data_step (r0, got) (sf_payload fr) es).
    { rewrite OWN, run_items_app, T1. cbn [run_items item_step]. destruct (data_step (r0, got) (sf_payload fr) es); reflexivity. }
    unfold data_step in STEP. cbn [fst snd] in STEP. rewrite <- T2, <- T3 in STEP. fold r' in STEP.
    split; [|split; [exact (fm_next _ _ _ FMC)|]].
    2:{ (* the forward direction *)
        intros EN0 RN0 r DONE. rewrite STEP in DONE. subst err2. destruct (ct_gotStatus x) eqn:GS; cbn [negb] in *; [|discriminate].
        destruct es eqn:EES; [|discriminate]. inversion DONE; subst r.
        destruct CASES as [(E2 & EE & _) | (NOE & x3 & G3 & S3 & R3' & EN & _ & FW)]; [discriminate|].
        destruct (FW eq_refl) as [_ FW2]. exists x3. split; [exact G3|]. split; [exact (FW2 EN0 RN0) | exact R3']. }
    apply (Inv_feed_gen g g' c c3 id (Some tag) I S0 (DEC c3 R3) (HERR c3 R3) FMC EXTRA); [unfold open_on; rewrite GN; exact Logic.I | unfold open_on; rewrite G'O; exact Logic.I|].
    exists x. destruct CASES as [(E2 & EE & G3 & RQ3) | (NOE & x3 & G3 & S3 & R3' & EN & _)].
    + exists x1. split; [exact G|]. split; [exact G3|]. split; [exact SX|]. split; [exact SX|]. split; [exact HIN|]. split.
      * intro H. exfalso. apply NE. exact H.
      * intros _. split; [exact NE|]. exists r', true. subst err2. destruct (ct_gotStatus x) eqn:GS; [|discriminate]. cbn [negb] in STEP. rewrite EE in STEP.
        split; [exact STEP|]. split; [exact GS|]. rewrite G'O. reflexivity.
    + exists x3. split; [exact G|]. split; [exact G3|]. split; [exact SX|]. split; [rewrite S3; exact SX|]. split; [exact HIN|]. split.
      * intro H. split; [|exact NOE]. destruct (EN H) as [A|[A B]]; [contradiction|]. subst err2. destruct (ct_gotStatus x); [|discriminate]. cbn [negb] in STEP.
        rewrite B in STEP. rewrite R3'. exact STEP.
      * intro H. exfalso. exact (NOE _ H eq_refl).
  - cbn [data_resp].
    replace ((cc_hdrStream dw =? 0) && false) with false by (destruct (cc_hdrStream dw =? 0); reflexivity).
    destruct (tail_none dw id (flag_has (sf_flags fr) FL_ES) CRSNone ltac:(discriminate)) as [QT _].
    set (c3 := rl_after (disp_tail dw id None (flag_has (sf_flags fr) FL_ES) CRSNone)) in *.
    assert (Q3 : qm q2 c c3) by (eapply qm_trans; eassumption).
    assert (R3 : regs c3 = regs c) by exact (regs_qm _ _ _ Q3).
    split; [|split; [exact (qm_next _ _ _ Q3) | exact Logic.I]].
    apply (Inv_feed_gen g g' c c3 id None I S0 (DEC c3 R3) (HERR c3 R3) (fm_qm None _ _ Q3) EXTRA); [unfold open_on; rewrite GN; exact Logic.I | unfold open_on; rewrite G'O; exact Logic.I|].
    intros p H. destruct (qm_rq _ _ _ Q3) as [A _]. exact (req_find_not_in _ _ OK p (A p H)).
Qed.


Lemma hf_fold_herr : forall fs rs st he res,
  (forall e, he = Some e -> e = CEMalformed) ->
  forall e, snd (fst (hf_fold (rs, st, he, res) fs)) = Some e -> e = CEMalformed.
Proof.
  induction fs as [|[k v] t IH]; intros rs st he res H; [exact H|]. cbn [hf_fold fold_left hf_step fst snd].
  destruct res as [r|]; [destruct he as [e0|]|]; try (apply IH; exact H).
  pose proof (rhf_err rs st r k v) as E. destruct (cl_read_header_field rs st r k v) as [[[rs1 st1] r1] e1]. apply IH. exact E.
Qed.

Lemma cl_hdr_loop_res_some fuel : forall eh d n rs st he r b,
  match cl_hdr_loop dec_field fuel eh d n rs st he (Some r) b with
  | (_, _, _, _, _, Some _, _, _) => True
  | _ => False
  end.
Proof.
  induction fuel as [|fuel IH]; intros eh d n rs st he r b; cbn [cl_hdr_loop]; [exact Logic.I|].
  destruct b as [|x b]; [exact Logic.I|].
  destruct (dec_field d n (x :: b)) as [k v rest d1|d1|d1|d1|]; try exact Logic.I.
  - destruct he as [e0|]; [apply IH|]. destruct (cl_read_header_field rs st r k v) as [[[rs1 st1] r1] e1]. apply IH.
  - destruct (negb eh); exact Logic.I.
Qed.

Definition nonregs c := (cc_nextID c, cc_ctxs c, cc_reqQueued c, cc_inQ c, cc_lastErr c, cc_out c, cc_outQ c, cl_rl_live c, cl_wl_live c, cc_enc c).

Lemma fm_same tg c c' : nonregs c' = nonregs c -> fm tg c c'.
Proof.
  unfold nonregs. intro H. inversion H. constructor; try congruence.
  - rewrite H3. split; auto.
  - rewrite H4. split; auto.
  - exists []. split; [rewrite H6; reflexivity | reflexivity].
  - intros t _. unfold cl_ctx_get. rewrite H2. destruct (cl_ctxs_get (cc_ctxs c) t); [apply ctx_q_refl | exact Logic.I].
Qed.

(* disp_feed with readStream's answer as a parameter *)
Definition disp_feed' (rsres : cconn hstate * option cresponse * bool * cl_rserr) (fr : sframe) (ok : option cctx)
  : cconn hstate * option cctx * bool * cl_rserr :=
  let '(c1, res', ended, err) := rsres in
  let '(ok2, err2) := disp_chk c1 fr (disp_ok1 ok res') err in
  (match ok2 with Some x => cl_ctx_put c1 x | None => c1 end, ok2, ended, disp_err3 fr ok2 err2).

Lemma disp_feed_eq c0 fr ok :
  disp_feed dec_field c0 fr ok = disp_feed' (cl_read_stream dec_field c0 fr (match ok with Some x => Some (ct_resp x) | None => None end)) fr ok.
Proof. reflexivity. Qed.


Lemma dec_clause_regs g' c c' : regs c' = regs c -> dec_clause g' c -> dec_clause g' c'.
Proof. unfold regs, dec_clause. intro R. inversion R. intros [A B]. split; [congruence|]. destruct (g_open g') as [[[s es] fs]|]; [|congruence]. destruct B as (B1 & B2 & B3 & B4 & B5). repeat split; congruence. Qed.

Lemma TabRel_regs g c c' id x : regs c' = regs c -> TabRel g c id x -> TabRel g c' id x.
Proof.
  unfold regs. intro R. inversion R. intros (r0 & got & T1 & T2 & T3). exists r0, got. repeat split; try assumption.
  destruct (g_open g) as [[[s es] fs]|]; [|exact T3]. destruct (s =? id); [|exact T3]. congruence.
Qed.

Lemma regs_put c x : regs (cl_ctx_put c x) = regs c. Proof. reflexivity. Qed.

Lemma feed_finish g g' c c1 id ok ok2 ended err2 :
  Inv g c -> id <> 0 -> nonregs c1 = nonregs c ->
  (~ fatal err2 -> dec_clause g' c1) ->
  (forall e, cc_hdrErr c1 = Some e -> e = CEMalformed) ->
  (exists extra, g_items g' = g_items g ++ extra /\ forall p, In p extra -> fst p = id) ->
  open_on g id -> open_on g' id ->
  (forall e, err2 = CRSConn e -> err_special e = false) -> (forall e, err2 = CRSStream e -> err_special e = false) ->
  match ok, ok2 with
  | Some x, Some x2 =>
    cl_req_find (cc_reqQueued c) id = Some (ct_tag x) /\ cl_ctx_get c (ct_tag x) = Some x /\ ct_sid x = id /\
    ct_tag x2 = ct_tag x /\ ct_sid x2 = id /\ ct_err x2 = ct_err x /\
    (err2 = CRSNone -> ended = false -> TabRel g' c1 id x2) /\
    (err2 = CRSNone -> ended = true -> run_items rinit (own id (g_items g')) = IDone (ct_resp x2)) /\
    ct_resolved x2 = ct_resolved x /\
    (err2 <> CRSNone -> forall r, run_items rinit (own id (g_items g')) <> IDone r)
  | None, None => cl_req_find (cc_reqQueued c) id = None
  | _, _ => False
  end ->
  let c3 := rl_after (disp_tail (match ok2 with Some x2 => cl_ctx_put c1 x2 | None => c1 end) id ok2 ended err2) in
  Inv g' c3 /\ cc_nextID c3 = cc_nextID c /\ fwd g' c3 id ok.
Proof.
  intros I ID0 NR DECH HERR EXTRA OP OP' HC HS LINK c3. subst c3.
  assert (F1 : forall tg, fm tg c c1) by (intro tg; apply fm_same, NR).
  assert (CX : cc_ctxs c1 = cc_ctxs c) by (unfold nonregs in NR; inversion NR; reflexivity).
  assert (RQ : cc_reqQueued c1 = cc_reqQueued c) by (unfold nonregs in NR; inversion NR; reflexivity).
  destruct ok as [x|], ok2 as [x2|]; try contradiction.
  - destruct LINK as (F & G & SX & T2 & S2 & E2 & LCONT & LDONE & RS2 & LERR).
    pose proof (cl_req_find_In _ _ _ F) as HIN.
    destruct (i_tab _ _ I id (ct_tag x) HIN) as (x0 & G0 & _ & _ & _ & NE & _). rewrite G in G0. inversion G0; subst x0.
    assert (G1 : cl_ctx_get c1 (ct_tag x) = Some x) by (unfold cl_ctx_get; rewrite CX; exact G).
    assert (G2 : cl_ctx_get (cl_ctx_put c1 x2) (ct_tag x2) = Some x2).
    { rewrite cl_ctx_get_put, N.eqb_refl, T2, G1. reflexivity. }
    destruct (tail_some (cl_ctx_put c1 x2) id x2 ended err2 G2 HC HS) as (FM & RG & CASES).
    set (c3 := rl_after (disp_tail (cl_ctx_put c1 x2) id (Some x2) ended err2)) in *.
    assert (FMC : fm (Some (ct_tag x)) c c3).
    { eapply fm_trans; [apply F1|]. eapply fm_trans; [exact (fm_put c1 x x2 G1 T2)|]. rewrite <- T2. exact FM. }
    assert (R3 : regs c3 = regs c1) by (rewrite RG; apply regs_put).
    split; [|split; [exact (fm_next _ _ _ FMC)|]].
    + apply (Inv_feed_gen g g' c c3 id (Some (ct_tag x)) I ID0); try assumption.
      * intro L3. destruct CASES as [(E & _)|(_ & x3 & _ & _ & _ & _ & DEAD & _)].
        -- apply (dec_clause_regs g' c1 c3 R3). apply DECH. rewrite E. intros [].
        -- destruct err2; try (exfalso; rewrite (DEAD Logic.I) in L3; discriminate);
             apply (dec_clause_regs g' c1 c3 R3); apply DECH; intros [].
      * intros e H. apply HERR. unfold regs in R3. inversion R3. congruence.
      * exists x. rewrite T2 in *. destruct CASES as [(E & EE & G3 & RQ3) | (NOE & x3 & G3 & S3 & R3' & EN & _)].
        -- exists x2. split; [exact G|]. split; [exact G3|]. split; [exact SX|]. split; [exact S2|]. split; [exact HIN|]. split.
           ++ intro H. exfalso. apply NE. rewrite <- E2. exact H.
           ++ intros _. split; [rewrite E2; exact NE|]. apply (TabRel_regs g' c1 c3 id x2 R3). exact (LCONT E EE).
        -- exists x3. split; [exact G|]. split; [exact G3|]. split; [exact SX|]. split; [rewrite S3; exact S2|]. split; [exact HIN|]. split.
           ++ intro H. split; [|exact NOE]. destruct (EN H) as [A|[A B]]; [exfalso; apply NE; rewrite <- E2; exact A|].
              rewrite R3'. exact (LDONE A B).
           ++ intro H. exfalso. exact (NOE _ H eq_refl).
    + (* the forward direction *)
      intros EN0 RN0 r DONE.
      assert (E0 : err2 = CRSNone).
      { destruct err2; try reflexivity; exfalso; eapply LERR; try eassumption; discriminate. }
      rewrite T2 in *. destruct CASES as [(E & EE & G3 & RQ3) | (NOE & x3 & G3 & S3 & R3' & EN & _ & FW)].
      * exfalso. destruct (LCONT E EE) as (r0 & got & T1 & _). congruence.
      * destruct (FW E0) as [EE FW2]. exists x3. split; [exact G3|]. split; [apply FW2; congruence|].
        rewrite R3'. pose proof (LDONE E0 EE) as D. congruence.
  - destruct (tail_none c1 id ended err2 HC) as [QT DEAD].
    set (c3 := rl_after (disp_tail c1 id None ended err2)) in *.
    assert (FMC : fm None c c3) by (eapply fm_trans; [apply F1 | apply fm_qm, QT]).
    assert (R3 : regs c3 = regs c1) by exact (regs_qm _ _ _ QT).
    split; [|split; [exact (fm_next _ _ _ FMC) | exact Logic.I]].
    apply (Inv_feed_gen g g' c c3 id None I ID0); try assumption.
    + intro L3. apply (dec_clause_regs g' c1 c3 R3). apply DECH. intro FT. rewrite (DEAD FT) in L3. discriminate.
    + intros e H. apply HERR. unfold regs in R3. inversion R3. congruence.
    + intros p H. destruct (fm_rq _ _ _ FMC) as [A _]. exact (req_find_not_in _ _ LINK p (A p H)).
Qed.

Definition is_hc (k : fkind) : bool := fkind_eqb k KHeaders || fkind_eqb k KCont.
Lemma is_hc_not_data k : is_hc k = true -> fkind_eqb k KData = false.
Proof. destruct k; cbn; congruence. Qed.

Lemma dfeed_none c1 res' ended e fr : disp_feed' (c1, res', ended, e) fr None = (c1, None, ended, e).
Proof. unfold disp_feed', disp_chk, disp_ok1, disp_err3. destruct res', e; reflexivity. Qed.

Lemma dfeed_err c1 r' ended e fr x : e <> CRSNone ->
  disp_feed' (c1, Some r', ended, e) fr (Some x) = (cl_ctx_put c1 (ctu_resp x r'), Some (ctu_resp x r'), ended, e).
Proof. intro H. unfold disp_feed', disp_chk, disp_ok1, disp_err3. destruct e; try contradiction; reflexivity. Qed.

Lemma dfeed_open c1 r' fr x : cc_hdrStream c1 <> 0 -> is_hc (sf_kind fr) = true ->
  disp_feed' (c1, Some r', false, CRSNone) fr (Some x) = (cl_ctx_put c1 (ctu_resp x r'), Some (ctu_resp x r'), false, CRSNone).
Proof.
  intros H K. unfold disp_feed', disp_chk, disp_ok1, disp_err3. replace (cc_hdrStream c1 =? 0) with false by lia. cbn [andb]. rewrite (is_hc_not_data _ K). reflexivity.
Qed.

Lemma dfeed_block c1 r' ended fr x : cc_hdrStream c1 = 0 -> is_hc (sf_kind fr) = true ->
  disp_feed' (c1, Some r', ended, CRSNone) fr (Some x) =
  (let x1 := ctu_resp x r' in
   if (cc_hdrStatus c1 =? 0)%Z
   then (cl_ctx_put c1 x1, Some x1, ended, if negb (ct_gotStatus x) || negb (cc_hdrEndStream c1) then CRSStream CEMalformed else CRSNone)
   else if ct_gotStatus x then (cl_ctx_put c1 x1, Some x1, ended, CRSStream CEMalformed)
        else (cl_ctx_put c1 (ctu_gotStatus x1 (200 <=? cc_hdrStatus c1)%Z), Some (ctu_gotStatus x1 (200 <=? cc_hdrStatus c1)%Z), ended,
              if negb (200 <=? cc_hdrStatus c1)%Z && cc_hdrEndStream c1 then CRSStream CEMalformed else CRSNone)).
Proof.
  intros H K. unfold disp_feed', disp_chk, disp_ok1, disp_err3. rewrite H. unfold is_hc in K. rewrite K. cbn [N.eqb andb]. rewrite (is_hc_not_data _ K). cbn [andb ct_gotStatus ctu_resp].
  destruct (cc_hdrStatus c1 =? 0)%Z.
  - destruct (negb (ct_gotStatus x) || negb (cc_hdrEndStream c1)); reflexivity.
  - destruct (ct_gotStatus x); [reflexivity|]. cbv zeta. destruct (negb (200 <=? cc_hdrStatus c1)%Z && cc_hdrEndStream c1); reflexivity.
Qed.


Lemma rhf_result cb id frag eh res :
  (forall e, cc_hdrErr cb = Some e -> e = CEMalformed) ->
  match ref_loop dec_field (S (length (cc_hdrPrev cb ++ frag))) eh (cc_dec cb) (cc_hdrFields cb) (cc_hdrPrev cb ++ frag) with
  | ROk fs d' n' carry =>
    forall rs' st' he' res', hf_fold (cc_hdrRegularSeen cb, cc_hdrStatus cb, cc_hdrErr cb, res) fs = (rs', st', he', res') ->
    let c1 := ccu_hdrErr (ccu_hdrStatus (ccu_hdrRegularSeen (ccu_hdrFields (ccu_hdrPrev (ccu_dec cb d') carry) n') rs') st') he' in
    cl_read_header_fragment dec_field cb id frag eh res =
    if negb eh
    then (if cl_maxHeaderPrev <? len carry then (ccu_hdrStream c1 0, res', false, CRSConn CEConn) else (ccu_hdrStream c1 id, res', false, CRSNone))
    else match he' with
         | Some he => (ccu_hdrPrev (ccu_hdrStream c1 0) [], res', false, CRSStream he)
         | None => (ccu_hdrPrev (ccu_hdrStream c1 0) [], res', cc_hdrEndStream cb, CRSNone)
         end
  | _ =>
    exists c1 res' e, cl_read_header_fragment dec_field cb id frag eh res = (c1, res', false, e) /\ fatal e /\
                      (forall e0, e = CRSConn e0 -> e0 = CEConn) /\ nonregs c1 = nonregs cb /\
                      (forall e0, cc_hdrErr c1 = Some e0 -> e0 = CEMalformed)
  end.
Proof.
  intro HE. set (b := cc_hdrPrev cb ++ frag).
  pose proof (cl_hdr_loop_class _ dec_field (S (length b)) eh (cc_dec cb) (cc_hdrFields cb) (cc_hdrRegularSeen cb) (cc_hdrStatus cb) (cc_hdrErr cb) res b) as CL.
  pose proof (hdr_loop_herr dec_field (S (length b)) eh (cc_dec cb) (cc_hdrFields cb) (cc_hdrRegularSeen cb) (cc_hdrStatus cb) (cc_hdrErr cb) res b HE) as HH.
  destruct (ref_loop dec_field (S (length b)) eh (cc_dec cb) (cc_hdrFields cb) b) as [fs d' n' carry| | |] eqn:RL.
  - intros rs' st' he' res' HF c1. subst c1. unfold cl_read_header_fragment. fold b.
    rewrite (cl_hdr_loop_ok _ dec_field _ _ _ _ _ _ _ _ _ _ _ _ _ RL), HF.
    destruct eh; cbn [negb]; [destruct he'; reflexivity|]. destruct (cl_maxHeaderPrev <? len carry); reflexivity.
  - unfold cl_read_header_fragment. fold b.
    destruct (cl_hdr_loop dec_field (S (length b)) eh (cc_dec cb) (cc_hdrFields cb) (cc_hdrRegularSeen cb) (cc_hdrStatus cb) (cc_hdrErr cb) res b)
      as [[[[[[[d1 n1] rs1] st1] he1] res1] prev1] e1]. cbn [snd err_class] in CL. subst e1.
    eexists _, res1, (CRSConn CEConn). split; [reflexivity|]. split; [exact Logic.I|]. split; [intros e0 H; inversion H; reflexivity|].
    split; [reflexivity | exact HH].
  - unfold cl_read_header_fragment. fold b.
    destruct (cl_hdr_loop dec_field (S (length b)) eh (cc_dec cb) (cc_hdrFields cb) (cc_hdrRegularSeen cb) (cc_hdrStatus cb) (cc_hdrErr cb) res b)
      as [[[[[[[d1 n1] rs1] st1] he1] res1] prev1] e1]. cbn [snd err_class] in CL. subst e1.
    eexists _, res1, CRSPanic. split; [reflexivity|]. split; [exact Logic.I|]. split; [intros e0 H; inversion H|].
    split; [reflexivity | exact HH].
  - unfold cl_read_header_fragment. fold b.
    destruct (cl_hdr_loop dec_field (S (length b)) eh (cc_dec cb) (cc_hdrFields cb) (cc_hdrRegularSeen cb) (cc_hdrStatus cb) (cc_hdrErr cb) res b)
      as [[[[[[[d1 n1] rs1] st1] he1] res1] prev1] e1]. cbn [snd err_class] in CL. subst e1.
    eexists _, res1, (CRSConn CEConn). split; [reflexivity|]. split; [exact Logic.I|]. split; [intros e0 H; inversion H; reflexivity|].
    split; [reflexivity | exact HH].
Qed.


Lemma nonregs_sets (cb : cconn hstate) d p n rs st he hs :
  nonregs (ccu_hdrStream (ccu_hdrErr (ccu_hdrStatus (ccu_hdrRegularSeen (ccu_hdrFields (ccu_hdrPrev (ccu_dec cb d) p) n) rs) st) he) hs) = nonregs cb.
Proof. reflexivity. Qed.

Lemma feed_hdr_gen g c cb fr ok es0 fs0 :
  Inv g c -> sf_sid fr <> 0 -> is_hc (sf_kind fr) = true ->
  nonregs cb = nonregs c -> g_d g = cc_dec cb -> cc_hdrEndStream cb = es0 ->
  (forall e, cc_hdrErr cb = Some e -> e = CEMalformed) ->
  open_on g (sf_sid fr) ->
  match ok with
  | Some x => cl_req_find (cc_reqQueued c) (sf_sid fr) = Some (ct_tag x) /\ cl_ctx_get c (ct_tag x) = Some x /\ ct_sid x = sf_sid fr /\
              exists r0 got, run_items rinit (own (sf_sid fr) (g_items g)) = ICont (r0, got) /\ ct_gotStatus x = got /\
                 hf_fold (false, 0%Z, None, Some r0) fs0 = (cc_hdrRegularSeen cb, cc_hdrStatus cb, cc_hdrErr cb, Some (ct_resp x))
  | None => cl_req_find (cc_reqQueued c) (sf_sid fr) = None
  end ->
  let eh := flag_has (sf_flags fr) FL_EH in
  let g' := gfrag dec_field g (sf_sid fr) es0 fs0 (cc_hdrFields cb) (cc_hdrPrev cb ++ sf_payload fr) eh in
  let c3 := rl_after (let '(c2, ok2, ended, err2) :=
                         disp_feed' (cl_read_header_fragment dec_field cb (sf_sid fr) (sf_payload fr) eh (match ok with Some x => Some (ct_resp x) | None => None end)) fr ok
                       in disp_tail c2 (sf_sid fr) ok2 ended err2) in
  Inv g' c3 /\ cc_nextID c3 = cc_nextID c /\ fwd g' c3 (sf_sid fr) ok.
Proof.
  intros I S0 K NR GD ES HE OP LINK eh g' c3. subst c3 g'. set (id := sf_sid fr) in *.
  set (res := match ok with Some x => Some (ct_resp x) | None => None end).
  pose proof (rhf_result cb id (sf_payload fr) eh res HE) as RR. unfold gfrag. rewrite GD.
  destruct (ref_loop dec_field (S (length (cc_hdrPrev cb ++ sf_payload fr))) eh (cc_dec cb) (cc_hdrFields cb) (cc_hdrPrev cb ++ sf_payload fr))
    as [fs d' n' carry| | |] eqn:RL.
  2,3,4: (destruct RR as (c1 & res' & e & RS & FT & EC & NR1 & HE1); rewrite RS;
          assert (NRC : nonregs c1 = nonregs c) by congruence;
          assert (HC : forall e0, e = CRSConn e0 -> err_special e0 = false) by (intros e0 H; rewrite (EC e0 H); reflexivity);
          assert (HS : forall e0, e = CRSStream e0 -> err_special e0 = false) by (intros e0 H; subst e; destruct FT);
          assert (EX0 : exists extra : list (N * ritem), g_items g = g_items g ++ extra /\ (forall p, In p extra -> fst p = id))
            by (exists []; split; [rewrite app_nil_r; reflexivity | intros p []]);
          destruct ok as [x|];
          [ destruct LINK as (F & G & SX & r0 & got & T1 & _); subst res; destruct res' as [r'|];
            [ rewrite dfeed_err by (intro; subst e; destruct FT);
              apply (feed_finish g g c c1 id (Some x) (Some (ctu_resp x r')) false e I S0 NRC); try assumption;
              [ intro NF; contradiction
              | repeat split; try assumption; try reflexivity;
                try (intros E0; subst e; destruct FT); try (intros _ r H; rewrite T1 in H; discriminate) ]
            | exfalso; revert RS; unfold cl_read_header_fragment;
              match goal with |- context [cl_hdr_loop dec_field ?f ?a ?b ?n ?r ?s ?h (Some ?rr) ?bb] =>
                pose proof (cl_hdr_loop_res_some f a b n r s h rr bb) as RSOME;
                destruct (cl_hdr_loop dec_field f a b n r s h (Some rr) bb) as [[[[[[[? ?] ?] ?] ?] rz] ?] ez] end;
              destruct rz; [|contradiction]; destruct ez; try destruct (negb eh); try destruct (cl_maxHeaderPrev <? len _); try destruct o; intro HH; inversion HH ]
          | rewrite dfeed_none;
            apply (feed_finish g g c c1 id None None false e I S0 NRC); try assumption; intro NF; contradiction ]).
  (* the bytes decode *)
  destruct (hf_fold (cc_hdrRegularSeen cb, cc_hdrStatus cb, cc_hdrErr cb, res) fs) as [[[rs' st'] he'] res'] eqn:HF.
  specialize (RR rs' st' he' res' eq_refl). cbv zeta in RR. rewrite RR. clear RR.
  set (c1 := ccu_hdrErr (ccu_hdrStatus (ccu_hdrRegularSeen (ccu_hdrFields (ccu_hdrPrev (ccu_dec cb d') carry) n') rs') st') he').
  assert (HE1 : forall e, he' = Some e -> e = CEMalformed).
  { pose proof (hf_fold_herr fs (cc_hdrRegularSeen cb) (cc_hdrStatus cb) (cc_hdrErr cb) res HE) as H. rewrite HF in H. exact H. }
  assert (OWNB : forall FS, own id (g_items g ++ [(id, RBlock FS es0)]) = own id (g_items g) ++ [RBlock FS es0]) by (intro; apply own_snoc).
  destruct eh eqn:EH; cbn [negb].
  - (* END_HEADERS: the block is complete *)
    set (cF := ccu_hdrPrev (ccu_hdrStream c1 0) []).
    set (FS := fs0 ++ fs).
    set (g' := mkG d' n' [] None (g_items g ++ [(id, RBlock FS es0)])).
    assert (NRF : nonregs cF = nonregs c) by (rewrite <- NR; reflexivity).
    assert (DEC : dec_clause g' cF) by (split; reflexivity).
    assert (HEF : forall e, cc_hdrErr cF = Some e -> e = CEMalformed) by exact HE1.
    assert (EXT : exists extra, g_items g' = g_items g ++ extra /\ forall p, In p extra -> fst p = id).
    { exists [(id, RBlock FS es0)]. split; [reflexivity|]. intros p [<-|[]]. reflexivity. }
    assert (OP' : open_on g' id) by exact Logic.I.
    destruct ok as [x|].
    + destruct LINK as (F & G & SX & r0 & got & T1 & T2 & T3). subst res.
      assert (FULL : hf_fold (false, 0%Z, None, Some r0) FS = (rs', st', he', res')) by (unfold FS; rewrite hf_fold_app, T3; exact HF).
      destruct (hf_fold_some (cc_hdrRegularSeen cb) (cc_hdrStatus cb) (cc_hdrErr cb) (ct_resp x) fs) as (a1 & a2 & a3 & r' & E).
      rewrite HF in E. inversion E; subst a1 a2 a3 res'. clear E.
      assert (RUN : run_items rinit (own id (g_items g')) = block_step (r0, got) FS es0).
      { cbn [g_items g']. rewrite OWNB, run_items_app, T1. cbn [run_items item_step]. destruct (block_step (r0, got) FS es0); reflexivity. }
      unfold block_step in RUN. cbn [fst snd] in RUN. rewrite FULL in RUN.
      destruct he' as [he|].
      * rewrite dfeed_err by discriminate.
        apply (feed_finish g g' c cF id (Some x) (Some (ctu_resp x r')) false (CRSStream he) I S0 NRF); try assumption.
        -- intros _. exact DEC.
        -- discriminate.
        -- intros e H. inversion H; subst e. rewrite (HE1 he eq_refl). reflexivity.
        -- repeat split; try assumption; try reflexivity; try discriminate. intros _ r H. rewrite RUN in H. discriminate.
      * rewrite (dfeed_block cF r' (cc_hdrEndStream cb) fr x eq_refl K). cbv zeta.
        change (cc_hdrStatus cF) with st'. change (cc_hdrEndStream cF) with (cc_hdrEndStream cb). rewrite ES. rewrite <- T2 in RUN.
        destruct (st' =? 0)%Z eqn:Z0.
        -- apply (feed_finish g g' c cF id (Some x) (Some (ctu_resp x r')) es0 _ I S0 NRF); try assumption.
           ++ intros _. exact DEC.
           ++ destruct (negb (ct_gotStatus x) || negb es0); discriminate.
           ++ destruct (negb (ct_gotStatus x) || negb es0); intros e H; inversion H; reflexivity.
           ++ repeat split; try assumption; try reflexivity.
              ** intros E1 E2. subst es0. rewrite E2 in E1. rewrite orb_true_r in E1. discriminate.
              ** intros E1 E2. destruct (negb (ct_gotStatus x) || negb es0); [discriminate | exact RUN].
              ** intros E1 r H. rewrite RUN in H. destruct (negb (ct_gotStatus x) || negb es0); [discriminate | contradiction].
        -- destruct (ct_gotStatus x) eqn:GS.
           ++ apply (feed_finish g g' c cF id (Some x) (Some (ctu_resp x r')) es0 (CRSStream CEMalformed) I S0 NRF); try assumption.
              ** intros _. exact DEC.
              ** discriminate.
              ** intros e H. inversion H; reflexivity.
              ** repeat split; try assumption; try reflexivity; try discriminate. intros _ r H. rewrite RUN in H. discriminate.
           ++ apply (feed_finish g g' c cF id (Some x) (Some (ctu_gotStatus (ctu_resp x r') (200 <=? st')%Z)) es0
                       (if negb (200 <=? st')%Z && es0 then CRSStream CEMalformed else CRSNone) I S0 NRF); try assumption.
              ** intros _. exact DEC.
              ** destruct (negb (200 <=? st')%Z && es0); discriminate.
              ** destruct (negb (200 <=? st')%Z && es0); intros e H; inversion H; reflexivity.
              ** repeat split; try assumption; try reflexivity.
                 --- intros _ E2. rewrite E2 in RUN. exists r', (200 <=? st')%Z. repeat split; try reflexivity; exact RUN.
                 --- intros E1 E2. rewrite E2 in RUN, E1. destruct (200 <=? st')%Z; [exact RUN | discriminate].
                 --- intros E1 r H. rewrite RUN in H. destruct es0; [|rewrite andb_false_r in E1; contradiction].
                     destruct (200 <=? st')%Z; [contradiction | discriminate].
    + destruct he' as [he|]; rewrite dfeed_none.
      * apply (feed_finish g g' c cF id None None false (CRSStream he) I S0 NRF); try assumption.
        -- intros _. exact DEC.
        -- discriminate.
        -- intros e H. inversion H; subst. rewrite (HE1 _ eq_refl). reflexivity.
      * apply (feed_finish g g' c cF id None None (cc_hdrEndStream cb) CRSNone I S0 NRF); try assumption.
        -- intros _. exact DEC.
        -- discriminate.
        -- discriminate.
  - (* no END_HEADERS: the block stays open *)
    destruct (cl_maxHeaderPrev <? len carry) eqn:BIG.
    + set (cF := ccu_hdrStream c1 0).
      assert (NRF : nonregs cF = nonregs c) by (rewrite <- NR; reflexivity).
      assert (EX0 : exists extra : list (N * ritem), g_items g = g_items g ++ extra /\ (forall p, In p extra -> fst p = id))
        by (exists []; split; [rewrite app_nil_r; reflexivity | intros p []]).
      destruct ok as [x|].
      * destruct LINK as (F & G & SX & r0 & got & T1 & _). subst res.
        destruct (hf_fold_some (cc_hdrRegularSeen cb) (cc_hdrStatus cb) (cc_hdrErr cb) (ct_resp x) fs) as (a1 & a2 & a3 & r' & E).
        rewrite HF in E. inversion E; subst a1 a2 a3 res'. clear E.
        rewrite dfeed_err by discriminate.
        apply (feed_finish g g c cF id (Some x) (Some (ctu_resp x r')) false (CRSConn CEConn) I S0 NRF); try assumption.
        -- intro NF. exfalso. apply NF. exact Logic.I.
        -- intros e H. inversion H; reflexivity.
        -- discriminate.
        -- repeat split; try assumption; try reflexivity; try discriminate. intros _ r H. rewrite T1 in H. discriminate.
      * rewrite dfeed_none.
        apply (feed_finish g g c cF id None None false (CRSConn CEConn) I S0 NRF); try assumption.
        -- intro NF. exfalso. apply NF. exact Logic.I.
        -- intros e H. inversion H; reflexivity.
        -- discriminate.
    + set (cF := ccu_hdrStream c1 id).
      set (FS := fs0 ++ fs).
      set (g' := mkG d' n' carry (Some (id, es0, FS)) (g_items g)).
      assert (NRF : nonregs cF = nonregs c) by (rewrite <- NR; reflexivity).
      assert (DEC : dec_clause g' cF) by (split; [reflexivity|]; cbn; repeat split; [exact S0 | exact ES]).
      assert (HEF : forall e, cc_hdrErr cF = Some e -> e = CEMalformed) by exact HE1.
      assert (EXT : exists extra, g_items g' = g_items g ++ extra /\ forall p, In p extra -> fst p = id)
        by (exists []; split; [cbn; rewrite app_nil_r; reflexivity | intros p []]).
      assert (OP' : open_on g' id) by reflexivity.
      destruct ok as [x|].
      * destruct LINK as (F & G & SX & r0 & got & T1 & T2 & T3). subst res.
        assert (FULL : hf_fold (false, 0%Z, None, Some r0) FS = (rs', st', he', res')) by (unfold FS; rewrite hf_fold_app, T3; exact HF).
        destruct (hf_fold_some (cc_hdrRegularSeen cb) (cc_hdrStatus cb) (cc_hdrErr cb) (ct_resp x) fs) as (a1 & a2 & a3 & r' & E).
        rewrite HF in E. inversion E; subst a1 a2 a3 res'. clear E.
        rewrite (dfeed_open cF r' fr x S0 K).
        apply (feed_finish g g' c cF id (Some x) (Some (ctu_resp x r')) false CRSNone I S0 NRF); try assumption.
        -- intros _. exact DEC.
        -- discriminate.
        -- discriminate.
        -- repeat split; try assumption; try reflexivity.
           ++ intros _ _. exists r0, got. repeat split; [exact T1 | exact T2|]. cbn [g_open g']. rewrite N.eqb_refl. exact FULL.
           ++ discriminate.
           ++ intro H. contradiction.
      * rewrite dfeed_none.
        apply (feed_finish g g' c cF id None None false CRSNone I S0 NRF); try assumption.
        -- intros _. exact DEC.
        -- discriminate.
        -- discriminate.
Qed.


Lemma TabRel_same g c id x x2 : ct_gotStatus x2 = ct_gotStatus x -> ct_resp x2 = ct_resp x -> TabRel g c id x -> TabRel g c id x2.
Proof. intros A B (r0 & got & T1 & T2 & T3). exists r0, got. rewrite A, B. repeat split; assumption. Qed.

(* one frame through dispatch: the invariant goes on, the ghost taking the same frame *)
Theorem Inv_feed_at g c fr ok : Inv g c -> feed_pre c fr ok ->
  Inv (gstep g fr) (feed_state c fr ok) /\ cc_nextID (feed_state c fr ok) = cc_nextID c /\ fwd (gstep g fr) (feed_state c fr ok) (sf_sid fr) ok.
Proof.
  intros I FM. destruct (sf_kind fr) eqn:K; try (apply (feed_data g c fr ok I K FM)).
  all: destruct FM as (L & S0 & FS & OK); unfold feed_state; destruct (i_dec _ _ I L) as [GD GO].
  all: try (
    (* frames that carry nothing for the response *)
    assert (GS : gstep g fr = g) by (unfold CliMsgInv.gstep; rewrite K; reflexivity); rewrite GS;
    rewrite (disp_feed_other dec_field c fr ok) by (unfold hcd; rewrite K; reflexivity);
    assert (EX0 : exists extra : list (N * ritem), g_items g = g_items g ++ extra /\ (forall p, In p extra -> fst p = sf_sid fr))
      by (exists []; split; [rewrite app_nil_r; reflexivity | intros p []]);
    assert (OPN : open_on g (sf_sid fr))
      by (unfold open_on; unfold frame_in_seq in FS; rewrite K in FS; cbn [fkind_eqb negb andb] in FS;
          destruct (g_open g) as [[[s es] fs]|]; [|exact Logic.I]; destruct GO as (A & B & _);
          destruct (cc_hdrStream c =? 0) eqn:E; [exfalso; apply B; lia | discriminate]);
    assert (DC : dec_clause g c) by (split; assumption);
    destruct ok as [x|];
    [ destruct OK as (F & G & SX);
      destruct (i_tab _ _ I _ _ (cl_req_find_In _ _ _ F)) as (x0 & G0 & _ & _ & _ & _ & TR); rewrite G in G0; inversion G0; subst x0;
      apply (feed_finish g g c c (sf_sid fr) (Some x) (Some (ctu_resp x (ct_resp x))) false _ I S0 eq_refl); try assumption;
      [ intros _; exact DC
      | exact (i_herr _ _ I)
      | destruct (fkind_eqb (sf_kind fr) KRst); discriminate
      | destruct (fkind_eqb (sf_kind fr) KRst); intros e H; inversion H; reflexivity
      | repeat split; try assumption; try reflexivity;
        [ intros _ _; apply (TabRel_same g c _ x); [reflexivity | reflexivity | exact TR]
        | destruct (fkind_eqb (sf_kind fr) KRst); discriminate
        | intros _ r H; destruct TR as (r0 & got & T1 & _); rewrite T1 in H; discriminate ] ]
    | apply (feed_finish g g c c (sf_sid fr) None None false _ I S0 eq_refl); try assumption;
      [ intros _; exact DC
      | exact (i_herr _ _ I)
      | destruct (fkind_eqb (sf_kind fr) KRst); discriminate
      | destruct (fkind_eqb (sf_kind fr) KRst); intros e H; inversion H; reflexivity ] ]).
  - (* HEADERS *)
    assert (HS0 : cc_hdrStream c = 0).
    { unfold frame_in_seq in FS. rewrite K in FS. cbn [fkind_eqb negb andb] in FS. destruct (cc_hdrStream c =? 0) eqn:E; [lia | discriminate]. }
    assert (GN : g_open g = None).
    { destruct (g_open g) as [[[s es] fs]|]; [|reflexivity]. destruct GO as (A & B & _). congruence. }
    rewrite disp_feed_eq. unfold cl_read_stream, CliMsgInv.gstep. rewrite K.
    set (cb := ccu_hdrEndStream (ccu_hdrErr (ccu_hdrStatus (ccu_hdrRegularSeen (ccu_hdrFields (ccu_hdrPrev c []) 0) false) 0%Z) None) (flag_has (sf_flags fr) FL_ES)).
    apply (feed_hdr_gen g c cb fr ok (flag_has (sf_flags fr) FL_ES) [] I S0); try reflexivity.
    + unfold is_hc. rewrite K. reflexivity.
    + exact GD.
    + discriminate.
    + unfold open_on. rewrite GN. exact Logic.I.
    + destruct ok as [x|]; [|exact OK]. destruct OK as (F & G & SX). repeat split; try assumption.
      destruct (i_tab _ _ I _ _ (cl_req_find_In _ _ _ F)) as (x0 & G0 & _ & _ & _ & _ & (r0 & got & T1 & T2 & T3)). rewrite G in G0. inversion G0; subst x0.
      rewrite GN in T3. exists r0, got. repeat split; try assumption. cbn. rewrite T3. reflexivity.
  - (* CONTINUATION *)
    assert (HS1 : cc_hdrStream c <> 0 /\ sf_sid fr = cc_hdrStream c).
    { unfold frame_in_seq in FS. rewrite K in FS. cbn [fkind_eqb negb andb] in FS. destruct (cc_hdrStream c =? 0) eqn:E; [discriminate|]. lia. }
    destruct HS1 as [HS1 HS2].
    destruct (g_open g) as [[[s es] fs]|] eqn:GOE; [|congruence]. destruct GO as (A & B & C & D & E).
    rewrite disp_feed_eq. unfold cl_read_stream, CliMsgInv.gstep. rewrite K, GOE, D, E.
    replace s with (sf_sid fr) by congruence.
    apply (feed_hdr_gen g c c fr ok es fs I S0); try reflexivity; try assumption.
    + unfold is_hc. rewrite K. reflexivity.
    + exact (i_herr _ _ I).
    + unfold open_on. rewrite GOE. congruence.
    + destruct ok as [x|]; [|exact OK]. destruct OK as (F & G & SX). repeat split; try assumption.
      destruct (i_tab _ _ I _ _ (cl_req_find_In _ _ _ F)) as (x0 & G0 & _ & _ & _ & _ & (r0 & got & T1 & T2 & T3)). rewrite G in G0. inversion G0; subst x0.
      rewrite GOE in T3. replace (s =? sf_sid fr) with true in T3 by lia. exists r0, got. repeat split; assumption.
Qed.

Theorem Inv_feedmove g c fr c3 : Inv g c -> feedmove fr c c3 -> Inv (gstep g fr) c3 /\ cc_nextID c3 = cc_nextID c.
Proof.
  intros I (L & S0 & FS & ok & OK & ->). destruct (Inv_feed_at g c fr ok I) as (A & B & _); [repeat split; assumption|]. split; assumption.
Qed.

(* never a frame on a stream the client has not opened: Idle goes on *)
Lemma Idle_feedmove g c fr c3 : Idle g c -> sf_sid fr < cc_nextID c -> cc_nextID c3 = cc_nextID c -> Idle (gstep g fr) c3.
Proof.
  intros [ID1 ID2] LT NX. unfold Idle. rewrite NX.
  assert (GI : forall s i, In (s, i) (g_items (gstep g fr)) -> s < cc_nextID c).
  { intros s i H. unfold CliMsgInv.gstep in H. destruct (sf_kind fr); try (exact (ID1 s i H)).
    - cbn [g_items] in H. apply in_app_or in H. destruct H as [H|[H|[]]]; [exact (ID1 s i H) | inversion H; subst; exact LT].
    - unfold gfrag in H. destruct (ref_loop _ _ _ _ _ _); try (exact (ID1 s i H)). destruct (flag_has (sf_flags fr) FL_EH).
      + cbn [g_items] in H. apply in_app_or in H. destruct H as [H|[H|[]]]; [exact (ID1 s i H) | inversion H; subst; exact LT].
      + destruct (cl_maxHeaderPrev <? len carry); exact (ID1 s i H).
    - destruct (g_open g) as [[[s0 es0] fs0]|]; [|exact (ID1 s i H)]. unfold gfrag in H.
      destruct (ref_loop _ _ _ _ _ _); try (exact (ID1 s i H)). destruct (flag_has (sf_flags fr) FL_EH).
      + cbn [g_items] in H. apply in_app_or in H. destruct H as [H|[H|[]]]; [exact (ID1 s i H) | inversion H; subst; exact ID2].
      + destruct (cl_maxHeaderPrev <? len carry); exact (ID1 s i H). }
  split; [exact GI|].
  unfold CliMsgInv.gstep. destruct (sf_kind fr); try exact ID2.
  - unfold gfrag. destruct (ref_loop _ _ _ _ _ _); try exact ID2. destruct (flag_has (sf_flags fr) FL_EH); [exact Logic.I|].
    destruct (cl_maxHeaderPrev <? len carry); [exact ID2 | exact LT].
  - destruct (g_open g) as [[[s0 es0] fs0]|] eqn:GOE; [|rewrite GOE; exact Logic.I]. unfold gfrag.
    destruct (ref_loop _ _ _ _ _ _); try (rewrite GOE; exact ID2). destruct (flag_has (sf_flags fr) FL_EH); [exact Logic.I|].
    destruct (cl_maxHeaderPrev <? len carry); [rewrite GOE; exact ID2 | exact ID2].
Qed.

End Feed.
