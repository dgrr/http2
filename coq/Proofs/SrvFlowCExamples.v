(* Proofs/SrvFlowCExamples.v - the scenario for the examples of the completion theorems of Props/C06.v, and
   boolean forms of their hypotheses about the trace (decided by computation). *)
From H2V Require Import Base.Bytes Base.MachineInt Base.Result Gen.GenConsts Impl.Hpack Impl.ServerConn Impl.ServerInst
  Proofs.SrvBase Spec.FlowLedger Proofs.SrvFlowLedger Proofs.SrvFlowDefs Proofs.SrvFlowEs Proofs.SrvFlowDone Proofs.SrvFlowExamples
  Proofs.SrvFlowCView Proofs.SrvFlowCTrack Proofs.SrvFlowCFin.
From Coq Require Import ZArith List Bool.
Import ListNotations.
Local Open Scope N_scope.

(* two requests; the responses (100000 and 70000 bytes) are ready before any grant; the peer then grants 50000 on the
   connection, lowers INITIAL_WINDOW_SIZE to 20000 (both stream windows go negative), grants 60000 on stream 3,
   200000 on the connection and 100000 on stream 1 *)
Definition ex_two_pre : list event :=
  [ EvRL (RFrame (fHeaders 1 5)); EvSL; EvRL (RFrame (fHeaders 3 5)); EvSL ].
Definition ex_two_mid : list event :=
  [ EvDone 3 (resp 70000);
    EvRL (RFrame (fWinUpd 0 50000)); EvSL;
    EvRL (RFrame (fSettingsWin 20000)); EvSL;
    EvRL (RFrame (fWinUpd 3 60000)); EvSL ].
Definition ex_two_end : list event :=
  [ EvRL (RFrame (fWinUpd 0 200000)); EvSL;
    EvRL (RFrame (fWinUpd 1 100000)); EvSL ].

Definition srv_taken_from (cfg : config) (c : sconn hpack_state) (evs : list event) : list sframe :=
  taken_from hpack_state srv_dec_field srv_enc_field set_max_table_size cfg c evs.
Definition srv_ledger (cfg : config) (evs : list event) : ledger := lrun ledger0 (srv_timeline cfg evs).

(* no RST_STREAM for sid in the trace / among the frames *)
Definition no_rst_out (sid : N) (tr : list outev) : bool :=
  forallb (fun o => match strip o with ORst s _ => negb (s =? sid) | _ => true end) tr.
Definition no_rst_in (sid : N) (frs : list sframe) : bool :=
  forallb (fun fr => negb ((sf_sid fr =? sid) && fkind_eqb (sf_kind fr) KRst)) frs.

Lemma no_rst_out_ok sid tr : no_rst_out sid tr = true -> forall o code, In o tr -> strip o <> ORst sid code.
Proof.
  unfold no_rst_out. rewrite forallb_forall. intros H o code Hin E. specialize (H o Hin). rewrite E, N.eqb_refl in H. discriminate.
Qed.
Lemma no_rst_in_ok sid frs : no_rst_in sid frs = true -> forall fr, In fr frs -> sf_sid fr = sid -> sf_kind fr <> KRst.
Proof.
  unfold no_rst_in. rewrite forallb_forall. intros H fr Hin E K. specialize (H fr Hin). rewrite E, N.eqb_refl, K in H. discriminate.
Qed.

Definition frame_lens (frames : list (bool * bytes)) : list (bool * N) := map (fun f => (fst f, len (snd f))) frames.

(* What the examples of Props/C06.v read off the run in which both responses wait for grants, and off the run in which
   every grant has arrived. The runs carry bodies of 100000 and 70000 bytes: each is evaluated once, here, and the
   examples quote these facts. *)
Lemma ex_two_waiting :
  let c1 := srv_run ex_cfg ex_two_pre in
  let evs := ex_two_pre ++ EvDone 1 (resp 100000) :: ex_two_mid in
  let c := srv_run ex_cfg evs in
  let L := srv_ledger ex_cfg evs in
  let tr := srv_trace c in
  let s3 := nth 1 (sc_strms c) (new_stream 0 0) in
  (sc_sl_done c = false /\ sc_wl_dead c = false /\ sc_closing c = false) /\
  map (fun s => (st_id s, st_window s, len (st_pending s))) (sc_strms c) = [(1, (-45535)%Z, 34465); (3, 30000%Z, 20000)] /\
  (sc_clientWindow c = 0%Z /\ l_conn L = 0%Z /\ l_strm L 1 = Some (-45535)%Z /\ l_strm L 3 = Some 30000%Z) /\
  (st_id s3 = 3 /\ st_responded s3 && negb (st_handlerRunning s3) && has_more_to_send s3 = true /\ st_window s3 = 30000%Z) /\
  (no_rst_out 1 tr = true /\
   no_rst_in 1 (srv_taken_from ex_cfg (srv_step ex_cfg c1 (EvDone 1 (resp 100000))) ex_two_mid) = true) /\
  map brief (rf 1 tr) = [BH 1 false; BD 1 false 16384; BD 1 false 16384; BD 1 false 16384; BD 1 false 16383] /\
  option_map (fun s => (len (st_pending s), st_window s, st_bodyStream s)) (strms_search (sc_strms c) 1)
    = Some (34465, (-45535)%Z, None).
Proof. vm_compute. repeat split. Qed.

Lemma ex_two_granted :
  let c1 := srv_run ex_cfg ex_two_pre in
  let evs2 := ex_two_mid ++ ex_two_end in
  let evs := ex_two_pre ++ EvDone 1 (resp 100000) :: evs2 in
  let c := srv_run ex_cfg evs in
  let L := srv_ledger ex_cfg evs in
  let tr := srv_trace c in
  (sc_sl_done c = false /\ sc_wl_dead c = false /\ sc_closing c = false) /\
  (no_rst_out 1 tr = true /\
   no_rst_in 1 (srv_taken_from ex_cfg (srv_step ex_cfg c1 (EvDone 1 (resp 100000))) evs2) = true) /\
  (l_conn L = 145535%Z /\ l_strm L 1 = Some 20000%Z) /\
  strms_search (sc_strms c) 1 = None /\
  map brief (rf 1 tr) =
    [BH 1 false; BD 1 false 16384; BD 1 false 16384; BD 1 false 16384; BD 1 false 16383;
     BD 1 false 16384; BD 1 false 16384; BD 1 true 1697] /\
  map brief (rf 3 tr) =
    [BH 3 false; BD 3 false 16384; BD 3 false 16384; BD 3 false 16384; BD 3 false 848; BD 3 false 16384; BD 3 true 3616].
Proof. vm_compute. repeat split. Qed.
