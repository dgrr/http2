(* Proofs/SrvReqTraceI.v - two structural facts about the states of clean runs that `ready` (Proofs/SrvMsgStream.v)
   asks for (Theorem RES_run):
     - the cursor of the ring of closed streams stays below its capacity;
     - while the stream loop runs, no stream of the table is idle: a stream enters the table with the frame that
       opens it and leaves `idle` in the same step (clean runs: the HEADERS prelude never finds an unfinished block).
   Same plan as Proofs/SrvIsoTwoRunOdd.v, which also says what the helpers leave alone (tv, sv): one lemma per model
   function. *)
From H2V Require Import Base.Bytes Base.MachineInt Base.Result Gen.GenConsts Impl.ServerConn Proofs.SrvBase
  Proofs.SrvInvDecomp Proofs.SrvIsoMoves Proofs.SrvIsoSteps Proofs.SrvInvFrame Proofs.SrvIsoTwoRunOdd Proofs.SrvIsoHdr Proofs.SrvIsoHdrStep Proofs.SrvIsoRun
  Proofs.SrvRfcModel Proofs.SrvInvSlots.
From Coq Require Import ZArith Lia ZifyN ZifyNat ZifyBool List.
Import ListNotations.
Local Open Scope N_scope.

Definition nidle (s : stream) : Prop := st_state s <> SIdle.

Section Inv.
Variable hstate : Type.
Variable dec_field : hstate -> N -> bytes -> dec_res hstate.
Variable enc_field : hstate -> bytes -> bytes -> bool -> bytes * hstate.
Variable enc_set_max : hstate -> N -> hstate.
Variable cfg : config.
Notation sconn := (sconn hstate).
Implicit Types c : sconn.

Definition TT c : Prop := sc_oldest c < closedStrmsCap /\ Forall nidle (sc_strms c).
(* what a whole step guarantees: a panic of the decoder may leave the new stream behind, the loop is over then *)
Definition RES c : Prop := sc_oldest c < closedStrmsCap /\ (sc_sl_done c = false -> Forall nidle (sc_strms c)).

Lemma TT_RES c : TT c -> RES c.
Proof. intros [A B]. split; auto. Qed.
Lemma TT_tv c c' : sc_strms c' = sc_strms c -> sc_oldest c' = sc_oldest c -> TT c -> TT c'.
Proof. intros E1 E2 [A B]. split; [rewrite E2 | rewrite E1]; assumption. Qed.
Lemma TT_tveq c c' : tv c' = tv c -> TT c -> TT c'.
Proof. unfold tv. intro E. inversion E. apply TT_tv; assumption. Qed.

Lemma old_mark_closed c id w : sc_oldest c < closedStrmsCap -> sc_oldest (mark_closed c id w) < closedStrmsCap.
Proof.
  intro H. unfold mark_closed. destruct (in_ring c id); [exact H|]. destruct (_ <? _); sc_cbn; [exact H|].
  apply N.mod_lt. unfold closedStrmsCap. lia.
Qed.
Lemma TT_mark_closed c id w : TT c -> TT (mark_closed c id w).
Proof. intros [A B]. split; [apply old_mark_closed, A | rewrite sc_strms_mark_closed; exact B]. Qed.
Lemma TT_put c x : TT c -> nidle x -> TT (put c x).
Proof. intros [A B] X. split; [rewrite sc_oldest_put; exact A|]. unfold put. sc_cbn. apply strms_put_Forall; assumption. Qed.
Lemma TT_close_stream c s : TT c -> TT (close_stream c s).
Proof.
  intros [A B]. split.
  - rewrite sc_oldest_close_stream. apply old_mark_closed, A.
  - rewrite sc_strms_close_stream. apply strms_del_Forall, B.
Qed.
Lemma TT_brk c : TT c -> TT (fst (brk c)).
Proof. apply TT_tv; reflexivity. Qed.
Lemma TT_brk_if (b : bool) c : TT c -> TT (fst (if b then brk c else cont c)).
Proof. destruct b; [apply TT_brk | auto]. Qed.
Lemma TT_write_reset c sid code : TT c -> TT (write_reset c sid code).
Proof. apply TT_tveq, tv_emit. Qed.
Lemma TT_write_goaway c sid code : TT c -> TT (write_goaway c sid code).
Proof. apply TT_tveq, tv_write_goaway. Qed.
Lemma TT_note c o : TT c -> TT (note c o).
Proof. apply TT_tv; reflexivity. Qed.
Lemma TT_emit c o : TT c -> TT (emit c o).
Proof. apply TT_tveq, tv_emit. Qed.
Lemma TT_write_error c s e : TT c -> TT (fst (write_error c s e)).
Proof. apply TT_tveq, tv_write_error. Qed.

Lemma sv_nidle s x : sv x = sv s -> nidle s -> nidle x.
Proof. unfold sv, nidle. intro E. inversion E. congruence. Qed.

Lemma handle_state_nidle fr s : nidle s \/ fkind_eqb (sf_kind fr) KHeaders = true -> nidle (handle_state fr s).
Proof.
  unfold nidle, handle_state. intros [H|H].
  - destruct (fkind_eqb (sf_kind fr) KRst); cbn [st_state set_state].
    + discriminate.
    + destruct (st_state s) eqn:E; [congruence| | | |];
        repeat match goal with |- context [if ?b then _ else _] => destruct b end; cbn [st_state set_state]; rewrite ?E; congruence.
  - rewrite H. assert (NR : fkind_eqb (sf_kind fr) KRst = false) by (destruct (sf_kind fr); try discriminate H; reflexivity).
    rewrite NR. destruct (st_state s) eqn:E;
      repeat match goal with |- context [if ?b then _ else _] => destruct b end; cbn [st_state set_state]; rewrite ?E; congruence.
Qed.

(* the working copy s may be written back over its table entry: the table, with any stream that is not idle in its place,
   has no idle stream (the table has none, or s is the new stream at its end) *)
Definition PUT c (sid : N) : Prop := forall x, st_id x = sid -> nidle x -> Forall nidle (strms_put (sc_strms c) x).
Definition TP c sid : Prop := sc_oldest c < closedStrmsCap /\ PUT c sid.

Lemma TT_TP c sid : TT c -> TP c sid.
Proof. intros [A B]. split; [exact A|]. intros x _ X. apply strms_put_Forall; assumption. Qed.
Lemma TP_tv c c' sid : sc_strms c' = sc_strms c -> sc_oldest c' = sc_oldest c -> TP c sid -> TP c' sid.
Proof. intros E1 E2 [A B]. split; [rewrite E2; exact A|]. unfold PUT. rewrite E1. exact B. Qed.
Lemma TP_tveq c c' sid : tv c' = tv c -> TP c sid -> TP c' sid.
Proof. unfold tv. intro E. inversion E. apply TP_tv; assumption. Qed.
Lemma TP_put c sid x : TP c sid -> st_id x = sid -> nidle x -> TT (put c x).
Proof. intros [A B] I X. split; [rewrite sc_oldest_put; exact A|]. unfold put. sc_cbn. apply B; assumption. Qed.

Lemma TT_write_back c2 s2 wc : TP c2 (st_id s2) -> nidle s2 -> TT (fst (write_back c2 s2 wc)).
Proof.
  intros H N2. unfold write_back. cbv zeta. apply TT_brk_if.
  destruct (sstate_eqb _ _); [apply TT_close_stream|]; apply (TP_put _ (st_id s2)); auto.
Qed.

Lemma TT_after_frame c s fr wc : TP c (st_id s) -> nidle s \/ fkind_eqb (sf_kind fr) KHeaders = true ->
  TT (fst (after_frame cfg c s fr wc)).
Proof.
  intros H O. rewrite after_frame_eq.
  pose proof (handle_state_nidle fr s O) as N1. rewrite <- (handle_state_id fr s) in H. set (s1 := handle_state fr s) in *.
  assert (M : TP (fst (af_sel c s1)) (st_id s1) /\ st_id (snd (af_sel c s1)) = st_id s1 /\ nidle (snd (af_sel c s1))).
  { unfold af_sel. destruct (_ && _ && _)%bool.
    - destruct (_ && _)%bool; cbn [fst snd].
      + split; [revert H; apply TP_tveq, tv_emit|]. split; [reflexivity | unfold nidle; cbn; discriminate].
      + split; [revert H; apply TP_tv; reflexivity|]. split; [reflexivity | exact N1].
    - destruct (_ && _ && _)%bool; [|split; [exact H | split; [reflexivity | exact N1]]].
      pose proof (tv_send_data _ c s1) as T. pose proof (sv_send_data _ c s1) as I.
      destruct (send_data c s1) as [[c1 s2] fin]. cbn [fst snd] in *.
      split; [revert H; apply TP_tveq, T|]. unfold sv in I. inversion I as [[Ii Is]].
      destruct fin; cbn [st_id set_state]; (split; [congruence|]); unfold nidle in *; cbn [st_state set_state]; [discriminate | congruence]. }
  destruct (af_sel c s1) as [c2 s2]. cbn [fst snd] in M. destruct M as (H2 & I2 & N2).
  apply TT_write_back; [rewrite I2; exact H2 | exact N2].
Qed.

Lemma TT_flush_loop ids : forall c done, TT c -> TT (fst (flush_loop c ids done)).
Proof.
  induction ids as [|id t IH]; intros c done H; cbn [flush_loop]; [exact H|].
  destruct (strms_search (sc_strms c) id) as [s|] eqn:F; [|apply IH, H].
  destruct (_ && _ && _)%bool; [|apply IH, H].
  pose proof (tv_send_data _ c s) as T. pose proof (sv_send_data _ c s) as I.
  destruct (send_data c s) as [[c1 s1] fin]. cbn [fst snd] in T, I.
  apply IH. apply TT_put; [revert H; apply TT_tveq, T|].
  apply (sv_nidle s); [exact I|]. destruct H as [_ B]. rewrite Forall_forall in B. apply B.
  apply strms_search_In in F. tauto.
Qed.
Lemma TT_close_all ids : forall c, TT c -> TT (close_all c ids).
Proof.
  induction ids as [|id t IH]; intros c H; cbn [close_all]; [exact H|].
  destruct (strms_search (sc_strms c) id) as [s|] eqn:F; [|apply IH, H].
  apply IH. apply TT_close_stream, H.
Qed.
Lemma TT_flush_streams c : TT c -> TT (flush_streams c).
Proof.
  intro H. unfold flush_streams. pose proof (TT_flush_loop (map st_id (sc_strms c)) c [] H) as T.
  destruct (flush_loop c (map st_id (sc_strms c)) []) as [c1 done]. cbn [fst] in T. apply TT_close_all, T.
Qed.
Lemma TT_close_heads n : forall c, TT c -> TT (close_heads n c).
Proof.
  induction n as [|n IH]; intros c H; cbn [close_heads]; [exact H|].
  destruct (sc_strms c) as [|s t] eqn:E; [exact H|]. apply IH. apply TT_close_stream. apply TT_write_reset, H.
Qed.
Lemma TT_sl_timer c : TT c -> TT (fst (sl_timer cfg c)).
Proof. intro H. unfold sl_timer. destruct (_ <=? _)%Z; cbn [cont fst]; [exact H | apply TT_close_heads, H]. Qed.

Lemma TT_sl_done c sid r : TT c -> TT (fst (sl_done enc_field cfg c sid r)).
Proof.
  intro H. unfold sl_done. destruct (take_stream _ _) as [[s rest]|].
  - cbn [cont fst]. revert H. apply TT_tveq. rewrite tv_release_stream. reflexivity.
  - destruct (strms_search (sc_strms c) sid) as [s|] eqn:F; [|exact H]. destruct (negb _); [exact H|].
    assert (Ns : nidle s).
    { destruct H as [_ B]. rewrite Forall_forall in B. apply B. apply strms_search_In in F. tauto. }
    set (s1 := set_flags s (st_responded s) false (st_abandoned s)).
    pose proof (tv_finish_request _ enc_field c s1 r) as T. pose proof (sv_finish_request _ enc_field c s1 r) as I.
    destruct (finish_request enc_field c s1 r) as [[c1 s2] fin]. cbn [fst snd] in T, I. cbv zeta.
    match goal with |- context [if ?b then brk ?x else cont ?x] => apply (TT_brk_if b x) end.
    assert (H1 : TT c1) by (revert H; apply TT_tveq, T).
    destruct fin; [apply TT_close_stream|]; apply TT_put; try exact H1.
    + unfold nidle. cbn. discriminate.
    + apply (sv_nidle s1); [exact I | exact Ns].
Qed.

Lemma TT_discard_or_break (r : sconn * option h2err) : TT (fst r) -> TT (fst (discard_or_break r)).
Proof.
  destruct r as [c1 [e|]]; cbn [fst discard_or_break]; intro H; [|exact H].
  destruct e; apply TT_brk; try apply TT_write_error; try apply TT_note; exact H.
Qed.
Lemma TT_discard_header_block c fr : TT c -> TT (fst (discard_or_break (discard_header_block dec_field cfg c fr))).
Proof. intro H. apply TT_discard_or_break. revert H. apply TT_tveq, tv_discard_header_block. Qed.

Lemma RES_ftail_rest c s e fr wc : TP c (st_id s) -> (e = None -> nidle s \/ fkind_eqb (sf_kind fr) KHeaders = true) ->
  RES (fst (ftail_rest cfg c s e fr wc)).
Proof.
  intros H O. unfold ftail_rest. destruct e as [e|]; [|apply TT_RES, TT_after_frame; auto].
  assert (T : TP (fst (write_error c (Some s) e)) (st_id s)) by (revert H; apply TP_tveq, tv_write_error).
  pose proof (write_error_id _ c s e) as I.
  destruct (write_error c (Some s) e) as [c4 s4]. cbn [fst snd] in T, I.
  set (s5 := match s4 with Some x => set_state x SClosed | None => set_state s SClosed end).
  assert (I5 : st_id s5 = st_id s) by (unfold s5; destruct s4 as [x|]; cbn [st_id set_state]; [apply I|]; reflexivity).
  assert (N5 : nidle s5) by (unfold s5, nidle; destruct s4; cbn [st_state set_state]; discriminate).
  assert (T5 : TP c4 (st_id s5)) by (rewrite I5; exact T).
  destruct e as [code|code|].
  - destruct (negb _); apply TT_RES; [apply TT_brk, (TP_put _ (st_id s)); assumption | apply TT_after_frame; [exact T5 | left; exact N5]].
  - apply TT_RES, TT_after_frame; [exact T5 | left; exact N5].
  - split; [rewrite sc_oldest_brk; unfold note; sc_cbn; apply H | rewrite sc_sl_done_brk; discriminate].
Qed.
Definition okfr (s : stream) (fr : sframe) : Prop :=
  nidle s \/ fkind_eqb (sf_kind fr) KHeaders = true \/ fkind_eqb (sf_kind fr) KPriority = false.

Lemma RES_ftail c s fr wc : TP c (st_id s) -> okfr s fr ->
  RES (fst (ftail dec_field cfg c s fr wc)).
Proof.
  intros H O. unfold ftail. pose proof (handle_frame_tv _ dec_field cfg c s fr) as [T I].
  destruct (handle_frame dec_field cfg c s fr) as [[c3 s3] e] eqn:HFe. cbn [fst snd] in T, I.
  unfold sv in I. inversion I as [[Ii Is]].
  apply RES_ftail_rest; [rewrite Ii; revert H; apply TP_tveq, T|].
  intros ->. unfold nidle. rewrite Is.
  destruct (st_state s) eqn:ES; try (left; discriminate).
  destruct (fkind_eqb (sf_kind fr) KHeaders) eqn:KH; [right; reflexivity|]. exfalso.
  destruct O as [O|[O|O]]; [apply O; exact ES | congruence|].
  unfold handle_frame, verify_state in HFe. rewrite ES, KH, O in HFe. cbn [orb] in HFe. inversion HFe.
Qed.

(* the RFC 5.1.1 loop closes idle streams at the head of the table: there is none *)
Definition HD c (sid : N) : Prop := match sc_strms c with n :: _ => nidle n \/ st_id n = sid | [] => True end.
Lemma implicit_close_id fuel c sid : HD c sid -> implicit_close fuel c sid = c.
Proof.
  intro H. destruct fuel as [|fuel]; [reflexivity|]. cbn [implicit_close]. unfold HD in H.
  destruct (sc_strms c) as [|n t]; [reflexivity|].
  destruct H as [H|H].
  - unfold nidle in H. replace (sstate_eqb (st_state n) SIdle) with false; [rewrite andb_false_r; reflexivity|].
    destruct (st_state n); try reflexivity. congruence.
  - replace (st_id n <? sid) with false by lia. reflexivity.
Qed.

Lemma RES_fwork c s fr wc : TP c (st_id s) -> HD c (st_id s) -> okfr s fr ->
  (fkind_eqb (sf_kind fr) KHeaders = true -> forall p, get_previous_headers (sc_strms c) = Some p -> st_headersFinished p = true) ->
  RES (fst (fwork dec_field cfg c s fr wc)).
Proof.
  intros H D O GP. unfold fwork. cbv zeta. destruct (fkind_eqb (sf_kind fr) KHeaders) eqn:KH; [|apply RES_ftail; assumption].
  rewrite (implicit_close_id _ c (st_id s) D).
  destruct (get_previous_headers _) as [p|]; [|apply RES_ftail; assumption].
  rewrite (GP eq_refl p eq_refl). cbn [negb]. apply RES_ftail; assumption.
Qed.

Lemma strms_put_last l s x : (forall y, In y l -> st_id y <> st_id x) -> st_id s = st_id x -> strms_put (l ++ [s]) x = l ++ [x].
Proof.
  intros NM E. induction l as [|y t IH]; cbn [app strms_put].
  - rewrite E, N.eqb_refl. reflexivity.
  - replace (st_id y =? st_id x) with false by (symmetry; apply N.eqb_neq, NM; left; reflexivity).
    rewrite IH; [reflexivity|]. intros z Iz. apply NM. right. exact Iz.
Qed.

Lemma TT_HD c sid : TT c -> HD c sid.
Proof. intros [_ B]. unfold HD. destruct (sc_strms c) as [|n t]; [exact I|]. left. exact (Forall_inv B). Qed.

Lemma Forall2_tr_nidle own k l l' : Forall2 (tr own k) l l' -> Forall nidle l -> Forall nidle l'.
Proof.
  induction 1 as [|a b l l' T _ IH]; intro F; [constructor|]. inversion F as [|? ? Na Fl]; subst. constructor; [|auto].
  destruct T as (_ & _ & R & _). unfold nidle in *. destruct (st_state a); try congruence; destruct (st_state b); cbn in R; try lia; discriminate.
Qed.

Lemma RES_sl_frame c fr : TT c -> (forall s, In s (sc_strms c) -> st_id s <= sc_lastID c) ->
  (sf_sid fr <> 0 -> fkind_eqb (sf_kind fr) KHeaders = true -> forall s, In s (sc_strms c) -> st_headersFinished s = true) ->
  RES (fst (sl_frame dec_field enc_set_max cfg c fr)).
Proof.
  intros H IDS AH. unfold sl_frame.
  destruct (sf_sid fr =? 0) eqn:Z0.
  { apply TT_RES. destruct (sf_kind fr); try exact H.
    - (* SETTINGS *)
      set (c0 := if sf_set_hastable fr then upd_enc c (enc_set_max (sc_enc c) (sf_set_table fr)) else c).
      assert (H0 : TT c0) by (subst c0; destruct (sf_set_hastable fr); [revert H; apply TT_tv; reflexivity | exact H]).
      destruct (sf_set_haswin fr); [|apply TT_emit, H0].
      cbv zeta.
      match goal with |- context [let '(aa, bb) := ?B in _] =>
        assert (BS : exists l', fst B = [] ++ l' /\ Forall2 (tr 0 false) (sc_strms (upd_initWin c0 (signed 32 (sf_set_win fr)))) l')
          by (apply (bumpall_tr 0 false (signed 32 (sf_set_win fr) - sc_initWin c0)));
        destruct B as [lB over] end.
      destruct BS as (lq & E & F2). cbn [fst app] in E. subst lB.
      assert (H1 : TT (upd_strms (upd_initWin c0 (signed 32 (sf_set_win fr))) lq)).
      { split; [apply H0|]. sc_cbn. eapply Forall2_tr_nidle; [exact F2|]. sc_cbn. apply H0. }
      destruct over; [apply TT_brk, TT_write_goaway, H1 | apply TT_flush_streams, TT_emit, H1].
    - (* WINDOW_UPDATE *)
      cbv zeta. assert (H1 : TT (upd_clientWindow c (sc_clientWindow c + Z.of_N (sf_inc fr)))) by (revert H; apply TT_tv; reflexivity).
      destruct (_ <? _)%Z; [apply TT_brk, TT_write_goaway, H1 | apply TT_flush_streams, H1]. }
  assert (NZ : sf_sid fr <> 0) by lia.
  destruct (_ && _ && _)%bool; [apply TT_RES, TT_discard_header_block, H|].
  cbv zeta.
  change (match ?pre with inl r => r | inr (c1, s) => _ end) with
    (match pre with inl r => r | inr (c1, s) => fwork dec_field cfg c1 s fr (sc_closing c) end).
  destruct (if sf_sid fr <=? sc_lastID c then strms_search (sc_strms c) (sf_sid fr) else None) as [s|] eqn:Found.
  { assert (SS : strms_search (sc_strms c) (sf_sid fr) = Some s) by (destruct (_ <=? _); [exact Found | discriminate]).
    destruct (strms_search_In _ _ _ SS) as [Is Es].
    assert (Ns : nidle s) by (destruct H as [_ B]; rewrite Forall_forall in B; apply B; exact Is).
    apply RES_fwork; [apply TT_TP, H | apply TT_HD, H | left; exact Ns |].
    intros KH p GP. apply (AH NZ KH). eapply get_previous_headers_In. exact GP. }
  destruct (fkind_eqb (sf_kind fr) KRst).
  { apply TT_RES. destruct (_ && _)%bool; [apply TT_write_goaway, H | exact H]. }
  destruct (in_ring c (sf_sid fr)).
  { apply TT_RES. destruct (sf_kind fr); cbn [cont fst]; try exact H; try (apply TT_write_goaway, H);
      destruct (match ring_find c (sf_sid fr) with Some b => b | None => false end);
      try (apply TT_write_goaway, H); try apply TT_discard_header_block, H.
    revert H. apply TT_tveq, tv_credit_conn_window. }
  destruct (fkind_eqb (sf_kind fr) KPriority) eqn:KP.
  { apply TT_RES. destruct (sf_dep fr =? sf_sid fr); cbn [cont fst]; [apply TT_write_reset, H | exact H]. }
  destruct (_ && _)%bool; [apply TT_RES, TT_write_goaway, H|].
  set (c0 := if fkind_eqb (sf_kind fr) KHeaders then upd_highestID c (sf_sid fr) else c).
  assert (H0 : TT c0) by (subst c0; destruct (fkind_eqb _ _); [revert H; apply TT_tv; reflexivity | exact H]).
  destruct (_ && _)%bool.
  { apply TT_RES, TT_discard_header_block. apply TT_mark_closed. apply TT_write_reset, H0. }
  destruct (_ <? _); [apply TT_RES, TT_write_goaway, H0|].
  destruct (_ && _)%bool.
  { apply TT_RES, TT_discard_header_block. apply TT_mark_closed. apply TT_write_reset, H0. }
  set (c1 := if fkind_eqb (sf_kind fr) KHeaders then upd_lastID c0 (sf_sid fr) else c0).
  assert (E1 : sc_strms c1 = sc_strms c /\ sc_oldest c1 = sc_oldest c).
  { subst c1 c0. destruct (fkind_eqb _ _); split; reflexivity. }
  destruct E1 as [E1 E2].
  (* the new stream: nobody in the table has its id *)
  assert (NM : forall y, In y (sc_strms c) -> st_id y <> sf_sid fr).
  { intros y Iy E. destruct (sf_sid fr <=? sc_lastID c) eqn:LE.
    - eapply strms_search_None; [exact Found | exact Iy | exact E].
    - specialize (IDS y Iy). lia. }
  set (s := set_orig_started _ _ _).
  assert (Is : st_id s = sf_sid fr) by reflexivity.
  assert (T3 : TP (upd_strms c1 (sc_strms c1 ++ [s])) (st_id s) /\ HD (upd_strms c1 (sc_strms c1 ++ [s])) (st_id s)).
  { split; [split|].
    - sc_cbn. rewrite E2. apply H.
    - intros x Ix Nx. sc_cbn. rewrite E1, strms_put_last; [|intros y Iy; rewrite Ix, Is; apply NM; exact Iy | congruence].
      apply Forall_app. split; [apply H | constructor; [exact Nx | constructor]].
    - unfold HD. sc_cbn. rewrite E1. destruct H as [_ B]. destruct (sc_strms c) as [|n t]; cbn [app]; [right; reflexivity | left; exact (Forall_inv B)]. }
  destruct T3 as [T3 D3].
  apply RES_fwork.
  - destruct (fkind_eqb _ _); [revert T3; apply TP_tv; reflexivity | exact T3].
  - destruct (fkind_eqb _ _); [exact D3 | exact D3].
  - right. right. exact KP.
  - intros KH p GP. apply (AH NZ KH).
    assert (G2 : get_previous_headers (sc_strms c ++ [s]) = Some p).
    { rewrite <- E1. destruct (fkind_eqb (sf_kind fr) KHeaders); exact GP. }
    eapply get_previous_headers_new; [|exact G2].
    unfold s. cbn. destruct (sf_kind fr); try discriminate KH; reflexivity.
Qed.

Variable h0 : hstate.
Notation step := (step dec_field enc_field enc_set_max cfg).
Notation run := (run dec_field enc_field enc_set_max cfg h0).
Notation clean := (clean dec_field enc_field enc_set_max cfg h0).

Lemma RES_same c c' : sc_strms c' = sc_strms c -> sc_oldest c' = sc_oldest c -> sc_sl_done c' = sc_sl_done c -> RES c -> RES c'.
Proof. intros E1 E2 E3 [A B]. split; [rewrite E2; exact A | rewrite E1, E3; exact B]. Qed.
Lemma RES_over c c' : sc_oldest c' = sc_oldest c -> sc_sl_done c' = true -> RES c -> RES c'.
Proof. intros E2 E3 [A B]. split; [rewrite E2; exact A | rewrite E3; discriminate]. Qed.

Theorem RES_run evs : clean evs -> RES (run evs).
Proof.
  induction evs as [|e evs IH] using rev_ind.
  - intros _. split; [unfold closedStrmsCap; cbn; lia | intros _; constructor].
  - intro CL. apply clean_snoc in CL. destruct CL as [CL CS]. specialize (IH CL). rewrite run_snoc.
    set (c := run evs) in *.
    destruct e as [i| |sid r|t| | | |].
    + pose proof (read_loop_event_frame _ dec_field enc_field enc_set_max cfg c i) as E.
      unfold slview in E. inversion E as [[E1 E2 E3 E4 E5 E6 E7 E8 E9 E10 E11 E12 E13]].
      revert IH. apply RES_same; assumption.
    + rewrite step_EvSL. destruct (sc_sl_done c) eqn:Hd; [exact IH|].
      destruct (sc_readerQ c) as [|fr q] eqn:RQ.
      * destruct (sc_rl_done c); [|exact IH]. revert IH. apply RES_over; reflexivity.
      * destruct IH as [A B]. specialize (B Hd).
        apply RES_sl_frame.
        -- split; sc_cbn; assumption.
        -- sc_cbn. intros s Is.
           destruct (SI_run_T _ dec_field enc_field enc_set_max cfg h0 evs) as [_ _ _ _ _ _ _ _ IDS _].
           destruct (IDS Hd) as [_ LE]. apply LE. apply in_or_app. left. exact Is.
        -- sc_cbn. intros NZ KH.
           destruct (run_inv _ dec_field enc_field enc_set_max cfg h0 evs CL) as (n & carry & _ & IHd).
           destruct (IHd Hd) as [G (fin & Wk & _)]. fold c in Wk, G. rewrite RQ in Wk. cbn [qwalk] in Wk.
           assert (IHF : is_hdr_frame fr = true).
           { unfold is_hdr_frame, is_hdr_kind. rewrite KH. replace (sf_sid fr =? 0) with false by lia. reflexivity. }
           assert (IC : is_cont fr = false) by (unfold is_cont; destruct (sf_kind fr); try discriminate KH; reflexivity).
           rewrite IHF, IC in Wk.
           destruct (cur_of (hframes dec_field enc_field enc_set_max cfg h0 evs) =? 0) eqn:C0; [|discriminate Wk].
           apply N.eqb_eq in C0. pose proof (hg_inv _ _ _ _ _ G) as HV. rewrite C0 in HV. destruct HV as [_ FP IDS _ _ _].
           apply all_hf_of_P0; [intros s Is; apply IDS; exact Is | exact FP].
    + rewrite step_EvDone. destruct (sc_sl_done c) eqn:Hd; [exact IH|]. destruct IH as [A B].
      apply TT_RES, TT_sl_done. split; auto.
    + rewrite step_EvClock. destruct (_ <? _)%Z; [|exact IH]. revert IH. apply RES_same; reflexivity.
    + rewrite step_EvTimer. destruct (sc_sl_done c) eqn:Hd; [exact IH|]. destruct IH as [A B].
      apply TT_RES, TT_sl_timer. split; auto.
    + rewrite step_EvIdle. revert IH. apply RES_same; [apply sc_strms_write_goaway | apply sc_oldest_write_goaway | apply sc_sl_done_write_goaway].
    + rewrite step_EvCloser. destruct (_ && _)%bool; [|exact IH]. revert IH. apply RES_over; reflexivity.
    + rewrite step_EvWriteFail. revert IH. apply RES_same; reflexivity.
Qed.

End Inv.
