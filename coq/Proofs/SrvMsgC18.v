(* Proofs/SrvMsgC18.v - C18, server half: the tie between the frame parser's verdict on a SETTINGS frame and the
   read loop's reaction; the refutation of "no HEADERS frame larger than the peer's MAX_FRAME_SIZE"; examples. *)
From H2V Require Import Base.Bytes Base.MachineInt Base.Result Gen.GenConsts Spec.Rfc7540Frames
     Impl.Pools Impl.Frames Impl.FrameView Impl.Hpack Impl.ServerConn Impl.ServerInst Spec.Http2Messages
     Proofs.FramesC16 Proofs.SrvBase Proofs.SrvMsgDefs Proofs.SrvMsgStream Proofs.SrvMsgC20 Proofs.SrvMsgExamples
     Proofs.SrvMsgAck Proofs.SrvMsgSettings.
From Coq Require Import ZArith Lia String.
Local Open Scope N_scope.
Import ListNotations.

(* (b) the parser's error classes and the h2 codes they carry *)

(* Impl/Frames.v: E_settings_proto is NewGoAwayError(ProtocolError), E_settings_flow NewGoAwayError(FlowControlError) from
   Settings.Read, E_frame_size NewGoAwayError(FrameSizeError); the read loop sends the code of such an error in GOAWAY
   (errors.As(err, &h2err) && h2err.frameType == FrameGoAway) and ends *)
Definition class_code (e : N) : option N :=
  if e =? E_settings_proto then Some c_ProtocolError
  else if e =? E_settings_flow then Some c_FlowControlError
  else if e =? E_frame_size then Some c_FrameSizeError
  else None.

Definition rl_input_of_error (e : N) : rl_input :=
  if e =? E_unknown_type then RUnknownType
  else if e =? E_eof then RLEof
  else RBadFrame (class_code e).

(* a SETTINGS frame announcing a value RFC 7540 6.5.2 forbids: the parser refuses it with PROTOCOL_ERROR or
   FLOW_CONTROL_ERROR, and the read loop that gets this verdict sends GOAWAY with that code and ends *)
Theorem invalid_settings_goaway :
  forall f rest max, wf f -> settings_valid (f_body f) = false -> payload_len f <= effective_limit max -> bytes_ok rest = true ->
  exists e code,
    ro_res (read_frame_with_size max (spec_write f ++ rest)) = Err e /\
    rl_input_of_error e = RBadFrame (Some code) /\ (code = c_ProtocolError \/ code = c_FlowControlError) /\
    forall (hstate : Type) dec_field enc_field enc_set_max cfg (c : sconn hstate),
      sc_rl_done c = false -> sc_wl_dead c = false -> sc_sl_done c = false ->
      let c' := step dec_field enc_field enc_set_max cfg c (EvRL (rl_input_of_error e)) in
      sc_out c' = OExit 0 1 :: OGoAway (sc_lastID c) code :: sc_out c /\ sc_rl_done c' = true /\ sc_closing c' = true /\
      sc_readerQ c' = sc_readerQ c.
Proof.
  intros f rest max W V L B.
  destruct (read_written_bad_settings f rest max W V L B) as [(e & E & K) _].
  assert (X : exists code, rl_input_of_error e = RBadFrame (Some code) /\ (code = c_ProtocolError \/ code = c_FlowControlError)).
  { destruct K as [-> | ->]; [exists c_ProtocolError | exists c_FlowControlError]; split; auto. }
  destruct X as (code & RI & CK). exists e, code. repeat split; try assumption.
  all: intros; rewrite RI;
    destruct (bad_frame_goaway hstate dec_field enc_field enc_set_max cfg c code H) as (A1 & A2 & A3 & A4);
    rewrite ?H0, ?H1 in A4; assumption.
Qed.

(* (c) "no HEADERS frame larger than the peer's MAX_FRAME_SIZE": false *)

(* the peer of these runs never announces a MAX_FRAME_SIZE, so its limit is the initial 16384 (RFC 7540 6.5.2) *)
Definition headers_fit_statement : Prop :=
  forall cfg evs sid es blk, In (OHeaders sid es blk) (srv_trace (srv_run cfg evs)) -> len blk <= 16384.

Definition big_resp : response := mkResp 200 [(octets "x-big", repeat 97 40000)] (BBuffered []).
Definition evs_big : list event := lockstep (req_frames 1 [blk fs2] [] None) ++ [EvDone 1 big_resp].

Definition hdr_lens (l : list outev) : list (N * N) :=
  flat_map (fun o => match o with OHeaders s _ b => [(s, len b)] | _ => [] end) l.

Lemma hdr_lens_In l s n : In (s, n) (hdr_lens l) -> exists es b, In (OHeaders s es b) l /\ len b = n.
Proof.
  unfold hdr_lens. intro H. apply in_flat_map in H. destruct H as (o & Io & H).
  destruct o; cbn [In] in H; try contradiction. destruct H as [H|[]]. inversion H; subst. eauto.
Qed.

Example big_headers_one_frame : hdr_lens (srv_trace (srv_run cfgE evs_big)) = [(1, 25011)].
Proof. vm_compute. reflexivity. Qed.

Theorem headers_frame_size_refuted : ~ headers_fit_statement.
Proof.
  intro H. destruct (hdr_lens_In (srv_trace (srv_run cfgE evs_big)) 1 25011) as (es & b & I & L).
  - rewrite big_headers_one_frame. left. reflexivity.
  - specialize (H cfgE evs_big 1 es b I). rewrite L in H. vm_compute in H. apply H. reflexivity.
Qed.

Definition fSettings (ack hastable : bool) (table : N) (haswin : bool) (win : N) : sframe :=
  mkSFrame KSettings (if ack then 1 else 0) 0 0 [] 0 0 0 hastable table haswin win.

(* two SETTINGS frames read before the stream loop looks at the first one, an ACK of ours in between (ignored):
   two acknowledgements, in the steps that take the frames, table size then initial window applied *)
Definition evs_set : list event :=
  [EvRL (RFrame (fSettings false true 100 false 0)); EvRL (RFrame (fSettings true false 0 false 0));
   EvRL (RFrame (fSettings false false 0 true 1000)); EvSL; EvSL].

Example ex_settings_acks :
  srv_trace (srv_run cfgE evs_set) = [OSettingsAck; OSettingsAck] /\
  h_max_settings (sc_enc (srv_run cfgE evs_set)) = 100 /\ sc_initWin (srv_run cfgE evs_set) = 1000%Z /\
  forwarded srv_dec_field srv_enc_field set_max_table_size cfgE c_init evs_set =
    [fSettings false true 100 false 0; fSettings false false 0 true 1000] /\
  taken srv_dec_field srv_enc_field set_max_table_size cfgE c_init evs_set =
    [fSettings false true 100 false 0; fSettings false false 0 true 1000] /\
  applied srv_dec_field srv_enc_field set_max_table_size cfgE c_init evs_set = 2%nat.
Proof. repeat split; vm_compute; reflexivity. Qed.

(* a SETTINGS frame still in the queue is not acknowledged yet *)
Example ex_settings_pending :
  let evs := [EvRL (RFrame (fSettings false true 100 false 0)); EvRL (RFrame (fSettings false false 0 true 1000)); EvSL] in
  srv_trace (srv_run cfgE evs) = [OSettingsAck] /\
  sc_readerQ (srv_run cfgE evs) = [fSettings false false 0 true 1000].
Proof. split; vm_compute; reflexivity. Qed.

(* a response is encoded after the new table size is in force: HEADER_TABLE_SIZE=0 is applied to the encoder in the
   acknowledging step *)
Example ex_table_size_before_headers :
  let evs := lockstep (req_frames 1 [blk fs2] [] None) ++
             [EvRL (RFrame (fSettings false true 0 false 0)); EvSL; EvDone 1 (mkResp 200 [] (BBuffered []))] in
  map (fun o => match o with OHeaders s e _ => OHeaders s e [] | ODispatch s _ => ODispatch s empty_req | o => o end)
      (srv_trace (srv_run cfgE evs)) =
  [ODispatch 1 empty_req; OSettingsAck; OHeaders 1 true []; ORelease 1 true] /\
  h_max_settings (sc_enc (srv_run cfgE evs)) = 0.
Proof. split; vm_compute; reflexivity. Qed.

(* the parser's verdict PROTOCOL_ERROR at the read loop: GOAWAY(last stream, PROTOCOL_ERROR), then the loop ends *)
Example ex_bad_settings_goaway :
  srv_trace (srv_run cfgE (lockstep (req_frames 1 [blk fs2] [] None) ++ [EvRL (rl_input_of_error E_settings_proto)])) =
  [ODispatch 1 (the_request fs2 [] []); OGoAway 1 c_ProtocolError; OExit 0 1].
Proof. vm_compute. reflexivity. Qed.

(* INITIAL_WINDOW_SIZE pushing a stream window over 2^31-1: GOAWAY(FLOW_CONTROL_ERROR), no acknowledgement *)
Example ex_settings_overflow :
  let evs := lockstep (req_frames 1 [blk fs2] [] None) ++
             [EvRL (RFrame (mkSFrame KWinUpd 0 1 4 [] 0 0 2147418112 false 0 false 0)); EvSL;
              EvRL (RFrame (fSettings false false 0 true 131070)); EvSL] in
  srv_trace (srv_run cfgE evs) =
  [ODispatch 1 (the_request fs2 [] []); OGoAway 1 c_FlowControlError; OExit 1 0] /\
  applied srv_dec_field srv_enc_field set_max_table_size cfgE c_init evs = 0%nat.
Proof. split; vm_compute; reflexivity. Qed.
