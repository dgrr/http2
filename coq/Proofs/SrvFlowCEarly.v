(* Proofs/SrvFlowCEarly.v - C06 completion: nothing of a response is queued before the handler has returned it.
   For every event list, while the stream loop runs: a table stream whose response is not being sent (not answered
   yet, or its handler still running) has no HEADERS or DATA frame in the trace and no body stream attached; a
   handler that runs has been dispatched; a table stream in state closed means the connection is closing. *)
From H2V Require Import Base.Bytes Base.MachineInt Base.Result Gen.GenConsts Impl.ServerConn Proofs.SrvBase
  Spec.FlowLedger Proofs.SrvFlowLedger Proofs.SrvFlowDefs Proofs.SrvFlowSend Proofs.SrvFlowEff Proofs.SrvFlowSafe
  Proofs.SrvFlowSafeB Proofs.SrvFlowSafeC Proofs.SrvFlowEs Proofs.SrvFlowRecv Proofs.SrvFlowStall Proofs.SrvFlowCDecomp
  Proofs.SrvFlowCMono Proofs.SrvFlowCView.
From Coq Require Import ZArith Lia ZifyN ZifyNat ZifyBool List.
Import ListNotations.
Local Open Scope N_scope.
Set Default Proof Using "Type".

(* the response of the stream is being sent: answered, and the handler has returned *)
Definition phase (s : stream) : bool := st_responded s && negb (st_handlerRunning s).

Section Early.
Variable hstate : Type.
Variable dec_field : hstate -> N -> bytes -> dec_res hstate.
Variable enc_field : hstate -> bytes -> bytes -> bool -> bytes * hstate.
Variable enc_set_max : hstate -> N -> hstate.
Variable cfg : config.
Notation sconn := (sconn hstate).
Implicit Types c : sconn.
Notation Sim := (SimX hstate None).

(* a working copy *)
Definition PSw c (s : stream) : Prop :=
  (st_handlerRunning s = true -> st_responded s = true) /\
  (phase s = false -> st_bodyStream s = None /\ rf (st_id s) (sc_out c) = []).
(* a stream of the table *)
Definition PS c (s : stream) : Prop := PSw c s /\ (st_state s = SClosed -> sc_closing c = true).

Definition NE c : Prop :=
  (forall s, In s (sc_strms c) -> PS c s) /\ (forall sid, sc_highestID c < sid -> rf sid (sc_out c) = []).

Definition closing_mono c c' : Prop := sc_closing c = true -> sc_closing c' = true.

Lemma PSw_fields c a b : st_id b = st_id a -> st_responded b = st_responded a -> st_handlerRunning b = st_handlerRunning a ->
  st_bodyStream b = st_bodyStream a -> PSw c a -> PSw c b.
Proof. unfold PSw, phase. intros -> -> -> ->. auto. Qed.

Lemma PSw_rf c c' s : (phase s = false -> rf (st_id s) (sc_out c') = rf (st_id s) (sc_out c)) -> PSw c s -> PSw c' s.
Proof. intros E [A B]. split; [exact A|]. intro P. rewrite (E P). auto. Qed.

Lemma PS_rf c c' s : (phase s = false -> rf (st_id s) (sc_out c') = rf (st_id s) (sc_out c)) -> closing_mono c c' -> PS c s -> PS c' s.
Proof. intros E M [A B]. split; [eapply PSw_rf; eassumption | auto]. Qed.

(* the table shrinks or stays, the trace grows by frames on stream i (or by none: i = None) *)
Lemma NE_step (i : option N) c c' :
  (forall s, In s (sc_strms c') -> In s (sc_strms c) /\ Some (st_id s) <> i) ->
  sc_highestID c <= sc_highestID c' -> closing_mono c c' ->
  (forall sid, Some sid <> i -> rf sid (sc_out c') = rf sid (sc_out c)) ->
  (forall sid, i = Some sid -> sid <= sc_highestID c) ->
  NE c -> NE c'.
Proof.
  intros HS HH HC HR HI [A B]. split.
  - intros s Hs. destruct (HS s Hs) as [Hin Hne]. eapply PS_rf; [intros _; apply HR, Hne | exact HC | apply A, Hin].
  - intros sid Hsid. rewrite HR; [apply B; flia|]. intro E. symmetry in E. specialize (HI _ E). flia.
Qed.

Lemma NE_noframe c c' : (forall s, In s (sc_strms c') -> In s (sc_strms c)) -> sc_highestID c <= sc_highestID c' ->
  closing_mono c c' -> out_ext noframe_out c c' -> NE c -> NE c'.
Proof.
  intros HS HH HC (new & E & F). apply (NE_step None); auto; try discriminate.
  - intros s Hs. split; [auto | discriminate].
  - intros sid _. rewrite E, rf_app, (rf_noframe _ _ F). reflexivity.
Qed.

Lemma NE_Quiet c c' : Quiet c c' -> NE c -> NE c'.
Proof.
  intro Q. apply NE_noframe; [rewrite (q_strms _ _ _ Q); auto | apply Q | exact (q_closing _ _ _ Q) | apply out_quiet_noframe, Q].
Qed.
Lemma NE_Closes c c' : Closes c c' -> NE c -> NE c'.
Proof.
  intro Q. apply NE_noframe; [apply Dels_In, Q | rewrite (cl_highestID _ _ _ Q); flia | exact (f_closing _ _ _ (cl_frame _ _ _ Q)) | apply out_quiet_noframe, Q].
Qed.
Lemma NE_Recv c c' : Recv c c' -> NE c -> NE c'.
Proof.
  intro Q. apply NE_noframe; [rewrite (rv_strms _ _ _ Q); auto | rewrite (rv_highestID _ _ _ Q); flia | unfold closing_mono; rewrite (rv_closing _ _ _ Q); auto|].
  eapply out_ext_weaken; [apply winupd_noframe | apply Q].
Qed.

Lemma rf_emit_noframe c o sid : noframe_out o -> rf sid (sc_out (emit c o)) = rf sid (sc_out c).
Proof.
  intro H. destruct (emit_cases _ c o) as (pre & E & Hpre). rewrite E, rf_app, rf_noframe; [reflexivity|].
  destruct Hpre as [->|[->| ->]]; repeat constructor; exact H.
Qed.

Lemma PSw_Keeps c c' s : Keeps hstate (st_id s) c c' -> PSw c s -> PSw c' s.
Proof. intro K. apply PSw_rf. intros _. apply K. Qed.

Lemma phase_flags a b : st_responded b = st_responded a -> st_handlerRunning b = st_handlerRunning a -> phase b = phase a.
Proof. unfold phase. intros -> ->. reflexivity. Qed.

(* writing back the stream that was worked on, after frames on it have been queued *)
Lemma NE_put c c2 s2 : NoDup (map st_id (sc_strms c)) -> st_id s2 <= sc_highestID c -> NE c ->
  sc_strms c2 = sc_strms c -> sc_highestID c2 = sc_highestID c -> closing_mono c c2 -> ext_on hstate (st_id s2) c c2 ->
  PS c2 s2 -> NE (put c2 s2).
Proof.
  intros ND Hid [A B] E1 E2 HC O P2. split.
  - intros x Hx. unfold put in Hx. sc_cbn_in Hx. rewrite E1 in Hx. apply strms_put_In_strong in Hx; [|exact ND].
    destruct Hx as [->|[Hx NEq]].
    + destruct P2 as [[P1 P2] P3]. split; [split; [exact P1|] | exact P3]. intro X. unfold put. sc_cbn. auto.
    + eapply PS_rf; [| |apply A, Hx].
      * intros _. unfold put. sc_cbn. eapply ext_on_rf; [exact O | congruence].
      * unfold closing_mono, put. sc_cbn. exact HC.
  - unfold put. sc_cbn. rewrite E2. intros sid Hs. rewrite (ext_on_rf _ _ _ _ _ O) by flia. auto.
Qed.

Lemma NE_close c c2 s2 : NoDup (map st_id (sc_strms c)) -> st_id s2 <= sc_highestID c -> NE c ->
  sc_strms c2 = sc_strms c -> sc_highestID c2 = sc_highestID c -> closing_mono c c2 -> ext_on hstate (st_id s2) c c2 ->
  NE (close_stream (put c2 s2) s2).
Proof.
  intros ND Hid [A B] E1 E2 HC O.
  assert (O2 : ext_on hstate (st_id s2) c (close_stream (put c2 s2) s2)).
  { eapply ext_on_trans; [exact O|]. eapply ext_on_trans; [apply (ext_on_same _ _ c2 (put c2 s2)); reflexivity|].
    apply ext_on_quiet, close_stream_out. }
  assert (C2 : closing_mono c (close_stream (put c2 s2) s2)).
  { unfold closing_mono. rewrite sc_closing_close_stream. unfold put. sc_cbn. exact HC. }
  split.
  - intros x Hx. rewrite sc_strms_close_stream in Hx. unfold put in Hx. sc_cbn_in Hx. rewrite E1 in Hx.
    assert (ND' : NoDup (map st_id (strms_put (sc_strms c) s2))) by (rewrite strms_put_ids; exact ND).
    pose proof (strms_del_not_In _ _ _ ND' Hx) as NEq. apply del_put_In in Hx.
    eapply PS_rf; [| exact C2 | apply A, Hx]. intros _. eapply ext_on_rf; [exact O2 | congruence].
  - rewrite sc_highestID_close_stream. unfold put. sc_cbn. rewrite E2. intros sid Hs. rewrite (ext_on_rf _ _ _ _ _ O2) by flia. auto.
Qed.

Lemma send_data_closing c s : closing_mono c (fst (fst (send_data c s))).
Proof. exact (f_closing _ _ _ (proj1 (send_data_NoCredit _ c s))). Qed.

Lemma sstate_eqb_closed x : sstate_eqb x SClosed = false -> x <> SClosed.
Proof. intros H ->. discriminate. Qed.

Lemma after_frame_NE c s fr wc : NoDup (map st_id (sc_strms c)) -> st_id s <= sc_highestID c -> NE c -> PSw c s ->
  NE (fst (after_frame cfg c s fr wc)).
Proof.
  intros ND Hid H P. destruct (after_frame_cases _ cfg c s fr wc) as (c2 & s2 & M & E).
  destruct (handle_state_eff fr s) as ((I1 & _ & _ & _ & _ & B1 & _) & R1 & Ru1 & _).
  set (s1 := handle_state fr s) in *.
  assert (P1 : PSw c s1) by (eapply PSw_fields; eassumption).
  assert (M' : sc_strms c2 = sc_strms c /\ sc_highestID c2 = sc_highestID c /\ closing_mono c c2 /\
               ext_on hstate (st_id s) c c2 /\ PSw c2 s2 /\ st_id s2 = st_id s).
  { assert (NR : sstate_eqb (st_state s1) SHalfClosed && st_headersFinished s1 && negb (st_responded s1) = true ->
                 st_bodyStream s1 = None /\ rf (st_id s1) (sc_out c) = []).
    { intro C1. apply Bool.andb_true_iff in C1. destruct C1 as [_ C1].
      destruct P1 as [_ P1b]. apply P1b. unfold phase. destruct (st_responded s1); [discriminate | reflexivity]. }
    destruct M as [s0 C1 _|s0 C1 _|c1 s3 fin _ C2 SD|_ _].
    - destruct (NR C1) as [BS RF].
      rewrite sc_strms_write_reset, sc_highestID_write_reset. split; [reflexivity|]. split; [reflexivity|].
      split; [unfold closing_mono; rewrite sc_closing_write_reset; auto|].
      split; [apply ext_on_quiet, (q_out _ _ _ (Quiet_write_reset _ c _ _))|]. split; [|exact I1].
      split; [reflexivity|]. intros _. split; [exact BS|]. cbn [st_id set_state set_weReset set_flags].
      erewrite k_rf; [exact RF|]. apply Keeps_Quiet, Quiet_write_reset.
    - destruct (NR C1) as [BS RF].
      split; [reflexivity|]. split; [reflexivity|]. split; [unfold closing_mono; auto|].
      split; [apply ext_on_quiet, (q_out _ _ _ (Quiet_note _ c (ODispatch _ _) I))|]. split; [|exact I1].
      split; [reflexivity|]. intros _. split; [exact BS|]. cbn [st_id set_flags].
      erewrite k_rf; [exact RF|]. apply Keeps_Quiet, (Quiet_note _ c (ODispatch _ _) I).
    - assert (PT : phase s1 = true).
      { apply Bool.andb_true_iff in C2. destruct C2 as [C2 _]. exact C2. }
      destruct (send_data_stream _ c s1) as (A1 & A2 & A3 & A4 & A5 & A6 & A7). pose proof (send_data_closing c s1) as A8.
      cbv zeta in *. rewrite SD in *. cbn [fst snd] in *.
      split; [exact A5|]. split; [exact A6|]. split; [exact A8|]. split; [rewrite <- I1; exact A7|].
      assert (PT2 : phase (if fin then set_state s3 SClosed else s3) = true).
      { rewrite <- PT. destruct fin; apply phase_flags; assumption. }
      split; [|destruct fin; cbn [st_id set_state]; congruence].
      split; [|rewrite PT2; discriminate].
      intro X. unfold phase in PT2. destruct (st_responded (if fin then set_state s3 SClosed else s3)); [reflexivity | discriminate].
    - split; [reflexivity|]. split; [reflexivity|]. split; [unfold closing_mono; auto|].
      split; [apply ext_on_refl|]. split; [exact P1 | exact I1]. }
  destruct M' as (E1 & E2 & HC & O & P2 & I2). rewrite <- I2 in O, Hid.
  assert (G : NE (put_close c2 s2)).
  { unfold put_close. destruct (sstate_eqb (st_state s2) SClosed) eqn:CLS.
    - eapply NE_close; eassumption.
    - eapply NE_put; try eassumption. split; [exact P2|]. intro X. apply sstate_eqb_closed in CLS. contradiction. }
  destruct E as [-> | ->]; [exact G | eapply NE_Quiet; [apply Quiet_brk | exact G]].
Qed.

Lemma flush_loop_NE ids : forall c done, NoDup (map st_id (sc_strms c)) -> IdsHi c ->
  NE c -> NE (fst (flush_loop c ids done)).
Proof.
  induction ids as [|id t IH]; intros c done ND HI H; cbn [flush_loop]; [exact H|].
  destruct (strms_search (sc_strms c) id) as [s|] eqn:F; [|apply IH; assumption].
  destruct (st_responded s && negb (st_handlerRunning s) && has_more_to_send s) eqn:W; [|apply IH; assumption].
  apply strms_search_In in F. destruct F as [Hin Hid].
  assert (PT : phase s = true) by (apply Bool.andb_true_iff in W; destruct W as [W _]; exact W).
  destruct (send_data_stream _ c s) as (A1 & A2 & A3 & A4 & A5 & A6 & A7). pose proof (send_data_closing c s) as A8.
  cbv zeta in *. destruct (send_data c s) as [[c1 s1] fin]. cbn [fst snd] in *.
  assert (PT1 : phase s1 = true) by (rewrite <- PT; apply phase_flags; assumption).
  destruct (proj1 H s Hin) as [[Pa Pb] Pc].
  assert (G : NE (put c1 s1)).
  { eapply NE_put; try eassumption; [rewrite A1; apply HI, Hin | rewrite A1; exact A7|].
    split; [split|].
    - rewrite A3, A4. exact Pa.
    - rewrite PT1. discriminate.
    - rewrite A2. intro X. apply A8, Pc, X. }
  apply IH; [unfold put; sc_cbn; rewrite strms_put_ids, A5; exact ND | | exact G].
  unfold IdsHi, put. sc_cbn. rewrite A6. intros x Hx. assert (I : In (st_id x) (map st_id (strms_put (sc_strms c1) s1))) by (apply in_map; exact Hx).
  rewrite strms_put_ids, A5 in I. apply in_map_iff in I. destruct I as (x0 & <- & H0). apply HI, H0.
Qed.

Lemma flush_streams_NE c : NoDup (map st_id (sc_strms c)) -> IdsHi c ->
  NE c -> NE (flush_streams c).
Proof.
  intros ND HI H. unfold flush_streams. pose proof (flush_loop_NE (map st_id (sc_strms c)) c [] ND HI H) as G.
  destruct (flush_loop c (map st_id (sc_strms c)) []) as [c1 done]. cbn [fst] in G.
  eapply NE_Closes; [apply close_all_Closes | exact G].
Qed.

Lemma PS_new c fr : (forall sid, sc_highestID c < sid -> rf sid (sc_out c) = []) -> sc_highestID c < sf_sid fr ->
  forall c', sc_out c' = sc_out c -> PS c' (new_strm c fr).
Proof.
  intros B HI c' E. unfold PS, PSw, new_strm. cbn. rewrite E. split; [split; [discriminate|]|discriminate].
  intros _. split; [reflexivity | apply B, HI].
Qed.

Lemma Origin_NE c fr c1 s : Origin c fr c1 s -> NE c -> NE c1 /\ PSw c1 s.
Proof.
  intros O [A B]. destruct O as [s LE F | KH FD HI LA].
  - split; [split; assumption|]. apply strms_search_In in F. apply A, F.
  - pose proof (PS_new c fr B HI) as PN. split; [split|].
    + sc_cbn. intros x Hx. apply in_app_or in Hx. destruct Hx as [Hx|[<-|[]]]; [|apply PN; reflexivity].
      eapply PS_rf; [| |apply A, Hx]; [intros _; reflexivity | unfold closing_mono; sc_cbn; auto].
    + sc_cbn. intros sid Hs. apply B. flia.
    + apply PN. reflexivity.
Qed.

Lemma HFok_PSw c2 s fr cX sX : HFok dec_field cfg c2 s fr cX sX -> PSw c2 s -> PSw cX sX /\ st_id sX = st_id s.
Proof.
  intros HF P.
  destruct (HFok_eff _ dec_field cfg c2 s fr cX sX HF) as (c3 & s3 & R & Q & _ & SS & _ & SW & RX & RuX).
  destruct SS as (i3 & _ & _ & _ & _ & _ & b3 & _ & _ & r3 & ru3 & _).
  destruct SW as (iX & _ & _ & _ & _ & bX & _).
  assert (IX : st_id sX = st_id s) by congruence.
  split; [|exact IX].
  eapply PSw_fields; [exact IX | congruence | congruence | congruence|].
  eapply PSw_Keeps; [|exact P]. eapply Keeps_trans; [apply Keeps_Recv, R | apply Keeps_Quiet, Q].
Qed.

Lemma sl_frame_NE c fr L : Sim c L -> NE c ->
  sc_sl_done (fst (sl_frame dec_field enc_set_max cfg c fr)) = true \/ NE (fst (sl_frame dec_field enc_set_max cfg c fr)).
Proof.
  intros S H.
  destruct (sl_frame_SLF _ dec_field enc_set_max cfg c fr)
    as [c' Q D P3 | c' F O SD | Z K HW c0 newInit delta Fa | Z K W | NZ K | c1 s p NZ Or KH Hp | c1 s c2 cX sX NZ Or CL HF].
  - right. eapply NE_Quiet; eassumption.
  - left. exact SD.
  - right. pose proof (settings_Sim _ enc_set_max c fr L S) as S2. cbv zeta in S2. fold newInit delta in S2. subst c0.
    destruct (settings_c0_fields _ enc_set_max c fr) as (E1 & E2 & E3 & E4 & E5 & E6). destruct H as [A B].
    set (cS := emit (upd_strms (upd_initWin (settings_c0 enc_set_max c fr) newInit) (map (bump delta) (sc_strms c))) OSettingsAck) in *.
    assert (RFS : forall sid, rf sid (sc_out cS) = rf sid (sc_out c)).
    { intro sid. unfold cS. rewrite rf_emit_noframe by reflexivity. sc_cbn. rewrite E6. reflexivity. }
    assert (CLS : sc_closing cS = sc_closing c).
    { unfold cS. rewrite sc_closing_emit. sc_cbn. unfold settings_c0. destruct (sf_set_hastable fr); reflexivity. }
    apply flush_streams_NE; [apply (sim_nodup _ _ _ _ S2) | |].
    + intros x Hx. pose proof (sim_le _ _ _ _ S2 x Hx). pose proof (sim_hi _ _ _ _ S2). flia.
    + split.
      * unfold cS at 1. rewrite sc_strms_emit. sc_cbn. intros x Hx. apply in_map_iff in Hx. destruct Hx as (x0 & <- & H0).
        destruct (A x0 H0) as [PW PC]. split.
        -- apply (PSw_fields cS x0 (bump delta x0)); try reflexivity. eapply PSw_rf; [|exact PW]. intros _. apply RFS.
        -- cbn [bump st_state set_window]. intro X. rewrite CLS. apply PC, X.
      * unfold cS at 1. rewrite sc_highestID_emit. sc_cbn. rewrite E5. intros sid Hs. rewrite RFS. apply B, Hs.
  - right. apply flush_streams_NE; [apply (sim_nodup _ _ _ _ S) | |].
    + unfold IdsHi. sc_cbn. intros x Hx. pose proof (sim_le _ _ _ _ S x Hx). pose proof (sim_hi _ _ _ _ S). flia.
    + revert H. apply NE_noframe; sc_cbn; auto; [flia | unfold closing_mono; auto | apply out_ext_same; reflexivity].
  - right. eapply NE_Recv; [apply Recv_credit | exact H].
  - right. destruct (Origin_NE _ _ _ _ Or H) as [[A B] _]. split.
    + unfold put. sc_cbn. rewrite sc_strms_write_goaway. intros x Hx. apply strms_put_In in Hx.
      assert (KQ : forall y, PS c1 y -> PSw (upd_strms (write_goaway c1 (st_id p) c_ProtocolError) (strms_put (sc_strms c1) (set_state p SClosed))) y).
      { intros y [PW _]. eapply PSw_rf; [|exact PW]. intros _.
        apply (k_rf _ _ _ _ (Keeps_Quiet _ (st_id y) _ _ (Quiet_write_goaway _ c1 (st_id p) c_ProtocolError))). }
      destruct Hx as [->|Hx]; (split; [|intros _; sc_cbn; apply sc_closing_write_goaway]).
      * eapply PSw_fields with (a := p); try reflexivity. apply KQ, A, Hp.
      * apply KQ, A, Hx.
    + unfold put. sc_cbn. rewrite sc_highestID_write_goaway. intros sid Hs.
      rewrite (k_rf _ _ _ _ (Keeps_Quiet _ sid _ _ (Quiet_write_goaway _ c1 (st_id p) c_ProtocolError))). apply B, Hs.
  - destruct (Origin_NE _ _ _ _ Or H) as [H1 P1].
    destruct (after_pre_Sim _ dec_field cfg c fr c1 s c2 cX sX L S NZ Or CL HF) as (SX & _ & LeX & IX & _).
    destruct (HFok_eff _ dec_field cfg c2 s fr cX sX HF) as (c3 & s3 & R & Q & _).
    assert (HX : NE cX).
    { eapply NE_Quiet; [exact Q|]. eapply NE_Recv; [exact R|]. eapply NE_Closes; eassumption. }
    assert (P2 : PSw c2 s).
    { eapply PSw_rf; [|exact P1]. intros _. destruct (out_quiet_noframe _ _ _ (cl_out _ _ _ CL)) as (new & E & Fn).
      rewrite E, rf_app, (rf_noframe _ _ Fn). reflexivity. }
    destruct (HFok_PSw _ _ _ _ _ HF P2) as [PX _].
    right. apply after_frame_NE; [apply (sim_nodup _ _ _ _ SX) | | exact HX | exact PX].
    pose proof (sim_hi _ _ _ _ SX). flia.
Qed.

Lemma sl_done_NE c sid r L : Sim c L -> NE c -> NE (fst (sl_done enc_field cfg c sid r)).
Proof.
  intros S H. unfold sl_done.
  destruct (take_stream (sc_gone c) sid) as [[s rest]|].
  - cbn [fst cont].
    pose proof (Quiet_release_gone _ c rest (set_flags s (st_responded s) false true)) as Q.
    eapply NE_Quiet; eassumption.
  - destruct (strms_search (sc_strms c) sid) as [s|] eqn:F; [|exact H].
    destruct (negb (st_handlerRunning s)) eqn:RU; [exact H|].
    apply strms_search_In in F. destruct F as [Hin Hid].
    set (s1 := set_flags s (st_responded s) false (st_abandoned s)).
    destruct (proj1 H s Hin) as [[Pa Pb] Pc].
    assert (RS : st_responded s = true) by (apply Pa; destruct (st_handlerRunning s); [reflexivity | discriminate]).
    destruct (finish_request_stream _ enc_field c s1 r) as (A1 & A2 & A3 & A4 & A5 & A6 & A7). cbv zeta in *.
    assert (A8 : closing_mono c (fst (fst (finish_request enc_field c s1 r)))).
    { exact (f_closing _ _ _ (proj1 (finish_request_NoCredit _ enc_field c s1 r))). }
    destruct (finish_request enc_field c s1 r) as [[c1 s2] fin]. cbn [fst snd] in *.
    assert (Hle : st_id s2 <= sc_highestID c).
    { rewrite A1. subst s1. cbn [st_id set_flags]. exact (N.le_trans _ _ _ (sim_le _ _ _ _ S s Hin) (sim_hi _ _ _ _ S)). }
    assert (O : ext_on hstate (st_id s2) c c1) by (rewrite A1; exact A7).
    match goal with |- context [if ?b then brk ?x else cont ?x] => assert (G : NE x) end.
    { destruct fin.
      - apply (NE_close c c1 (set_state s2 SClosed)); try assumption. apply (sim_nodup _ _ _ _ S).
      - eapply NE_put; try eassumption; [apply (sim_nodup _ _ _ _ S)|].
        assert (PT : phase s2 = true) by (unfold phase; rewrite A3, A4; subst s1; cbn [st_responded st_handlerRunning set_flags]; rewrite RS; reflexivity).
        split; [split|].
        + rewrite A3. intros _. exact RS.
        + rewrite PT. discriminate.
        + rewrite A2. subst s1. cbn [st_state set_flags]. intro X. apply A8, Pc, X. }
    match goal with |- context [if ?b then brk ?x else cont ?x] => destruct b end; cbn [fst cont]; [|exact G].
    eapply NE_Quiet; [apply Quiet_brk | exact G].
Qed.

Variable h0 : hstate.
Notation step := (step dec_field enc_field enc_set_max cfg).
Notation Inv := (Inv hstate).

Definition NEInv c : Prop := sc_sl_done c = true \/ NE c.

Lemma step_NE c e L : Inv c L -> NEInv c -> NEInv (step c e).
Proof.
  intros HI H. pose proof (step_Mono _ dec_field enc_field enc_set_max cfg c e) as M.
  destruct (sc_sl_done c) eqn:SD; [left; apply (m_sl _ _ _ M SD)|].
  destruct H as [H|H]; [congruence|]. destruct HI as [HI|S]; [congruence|].
  destruct e as [i| |sid r|t| | | |].
  - rewrite step_EvRL. destruct (sc_rl_done c); [right; exact H|].
    destruct (rl_step_eff _ cfg c i) as [[r1 r2 r3 r4 r5 r6 r7 r8 r9 r10] _]. right. revert H.
    apply NE_noframe; [rewrite r1; auto | rewrite r6; flia | exact r9 | apply out_quiet_noframe, r10].
  - rewrite step_EvSL, SD. destruct (sc_readerQ c) as [|fr q].
    + destruct (sc_rl_done c); [left; reflexivity | right; exact H].
    + apply (sl_frame_NE (upd_readerQ c q) fr L); [eapply SimX_same; [..|exact S]; reflexivity|].
      revert H. apply NE_noframe; sc_cbn; auto; [flia | unfold closing_mono; auto | apply out_ext_same; reflexivity].
  - rewrite step_EvDone, SD. right. eapply sl_done_NE; eassumption.
  - rewrite step_EvClock. destruct (sc_now c <? t)%Z; [|right; exact H]. right. revert H.
    apply NE_noframe; sc_cbn; auto; [flia | unfold closing_mono; auto | apply out_ext_same; reflexivity].
  - rewrite step_EvTimer, SD. right. unfold sl_timer.
    destruct (cf_maxRequestTime cfg <=? 0)%Z; cbn [fst cont]; [exact H|].
    eapply NE_Closes; [apply close_heads_Closes | exact H].
  - rewrite step_EvIdle. right.
    pose proof (Quiet_idle _ c) as Q.
    eapply NE_Quiet; eassumption.
  - rewrite step_EvCloser. destruct (sc_closer c && negb (sc_sl_done c)); [left; reflexivity | right; exact H].
  - rewrite step_EvWriteFail. right. revert H.
    apply NE_noframe; sc_cbn; auto; [flia | unfold closing_mono; auto | apply out_ext_same; reflexivity].
Qed.

Lemma NE_from evs : forall c L, Inv c L -> NEInv c -> NEInv (run_from dec_field enc_field enc_set_max cfg c evs).
Proof.
  induction evs as [|e evs IH]; intros c L HI H; [exact H|]. rewrite run_from_cons.
  destruct (StepOK_tl _ dec_field enc_field enc_set_max cfg c e L HI) as (_ & HI' & _).
  eapply IH; [exact HI' | eapply step_NE; eassumption].
Qed.

Theorem NE_run evs : NEInv (run dec_field enc_field enc_set_max cfg h0 evs).
Proof.
  rewrite run_eq. eapply NE_from; [apply Inv_init|]. right. split; [intros s [] | intros sid _; reflexivity].
Qed.

End Early.
