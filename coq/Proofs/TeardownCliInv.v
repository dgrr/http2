(* Proofs/TeardownCliInv.v -- blocking-structure model (Impl/Teardown.v), client: what each goroutine can change (frames), and
   the invariants of the reachable states.
   Statements: Props/Teardown.v; overview: Proofs/TeardownProofs.v. *)
From Coq Require Import Arith Lia Bool List.
Import ListNotations.
From H2V Require Import Impl.Teardown.

Module CliP.
Import Cli.

Ltac break :=
  repeat match goal with
         | H : _ /\ _ |- _ => destruct H
         | H : exists _, _ |- _ => destruct H
         end.
(* the program points named by hypotheses are put in everywhere *)
Ltac rwk :=
  repeat match goal with
         | H : xc ?s = _ |- _ => progress (rewrite H in * )
         | H : tx ?s = _ |- _ => progress (rewrite H in * )
         | H : wl ?s = _ |- _ => progress (rewrite H in * )
         | H : rl ?s = _ |- _ => progress (rewrite H in * )
         | H : uc ?s = _ |- _ => progress (rewrite H in * )
         | H : xloc ?s = _ |- _ => progress (rewrite H in * )
         end.
(* the implications whose premise is at hand are applied *)
Ltac fwd :=
  repeat match goal with
         | H : ?A -> _, H' : ?A |- _ => match type of A with Prop => specialize (H H') end
         | H : ?x = ?x -> _ |- _ => specialize (H eq_refl)
         end.
(* Close is run by 0 the write loop, 1 the read loop, 2 a user goroutine *)
Ltac who p := destruct p as [|[|[|p]]]; [ | | |try lia].
(* [rwk] for the goal alone *)
Ltac rwg :=
  repeat match goal with
         | H : xc ?s = _ |- context[xc ?s] => rewrite H
         | H : tx ?s = _ |- context[tx ?s] => rewrite H
         | H : wl ?s = _ |- context[wl ?s] => rewrite H
         | H : rl ?s = _ |- context[rl ?s] => rewrite H
         | H : uc ?s = _ |- context[uc ?s] => rewrite H
         | H : xloc ?s = _ |- context[xloc ?s] => rewrite H
         end.
(* [eff a s] for a constructor [a] is a chain of field updates, except for a few conditionals on
   the state ([resolveX], what becomes of X's table entry): they are split, so that a projection
   of [eff a s] computes *)
Ltac eff_split :=
  unfold resolveX; cbn;
  repeat match goal with
         | |- context[if xres ?s then _ else _] =>
             is_var s; let E := fresh in destruct (xres s) eqn:E; cbn; rewrite ?E
         | |- context[if xsid ?s then _ else _] =>
             is_var s; let E := fresh in destruct (xsid s) eqn:E; cbn; rewrite ?E
         | |- context[match xloc ?s with _ => _ end] =>
             is_var s; let E := fresh in destruct (xloc s) eqn:E; cbn; rewrite ?E
         end; cbn.
Ltac eff_simpl := cbn; unfold wl_hold, rl_hold, rl_k, rl_stop; rwg; cbn; eff_split; rwg; cbn.

Definition is_mid (o : option close_pc) : bool :=
  match o with Some CDone | Some CLock | Some CWrite => true | _ => false end.
Definition is_cdone (o : option close_pc) : bool :=
  match o with Some CDone => true | _ => false end.
Definition is_late (o : option close_pc) : bool :=
  match o with Some CLock | Some CWrite => true | _ => false end.
Definition midn (s : state) : nat :=
  b2n (is_mid (cpc 0 s)) + b2n (is_mid (cpc 1 s)) + b2n (is_mid (cpc 2 s)).
Definition wl_torn (p : wl_pc) : bool := match p with LT2 | LT3 | LDone => true | _ => false end.
Definition wl_drained (p : wl_pc) : bool := match p with LT3 | LDone => true | _ => false end.
Definition wl_early (p : wl_pc) : bool := match p with LIter | LAcq => true | _ => false end.
Definition waiting (p : xc_pc) : bool :=
  match p with KW1 | KW2 | KLck | KSelf | KErr => true | _ => false end.
Definition tx_fired (p : tx_pc) : bool := match p with TDel | TTake | TOut | TDone => true | _ => false end.
Definition is_ret (p : xc_pc) : bool := match p with KRet => true | _ => false end.

Definition is_hx (h : hold) : bool := match h with HX => true | _ => false end.
Definition lx_is_wl (l : lx_t) : bool := match l with LxWl => true | _ => false end.
Definition lx_is_rl (l : lx_t) : bool := match l with LxRl => true | _ => false end.
Definition bw_is_wl (b : bw_t) : bool := match b with BwWl => true | _ => false end.
Definition bw_is_rl (b : bw_t) : bool := match b with BwRl => true | _ => false end.
Definition bw_is_uc (b : bw_t) : bool := match b with BwUc => true | _ => false end.
Definition wl_has_b (p : wl_pc) : bool := match p with LWrite _ | LClose CWrite => true | _ => false end.
Definition rl_has_b (p : rl_pc) : bool := match p with RClose CWrite => true | _ => false end.
Definition uc_has_b (p : uc_pc) : bool := match p with UClose CWrite => true | _ => false end.

(* the two mutexes that are held across blocking operations, one goroutine at a time: X's Ctx.lck
   and bwLck are held by exactly the goroutine whose program point says so *)
Record inv1 (s : state) : Prop := {
  c_lxw : lx_is_wl (lx s) = is_hx (wl_hold s);
  c_lxr : lx_is_rl (lx s) = is_hx (rl_hold s);
  c_bww : bw_is_wl (bw s) = wl_has_b (wl s);
  c_bwr : bw_is_rl (bw s) = rl_has_b (rl s);
  c_bwu : bw_is_uc (bw s) = uc_has_b (uc s) }.
(* Conn.Close: one goroutine at most is past the CAS and not yet out; done, the socket *)
Record inv2 (s : state) : Prop := {
  i_done : done s = true -> closed s = true;
  i_mid0 : closed s = false -> midn s = 0;
  i_mid1 : midn s <= 1;
  i_cd : closed s && negb (done s) = is_cdone (cpc 0 s) || is_cdone (cpc 1 s) || is_cdone (cpc 2 s);
  i_late : forall p, is_late (cpc p s) = true -> done s = true;
  i_scl : sclosed s = true -> done s = true;
  i_raced : wl_torn (wl s) = true -> done s = true \/ raced s = true;
  i_fin : done s = true ->
          sclosed s = true \/ is_late (cpc 0 s) || is_late (cpc 1 s) || is_late (cpc 2 s) = true;
  i_rdone : rl s = RDone -> closed s = true;
  i_wtorn : wl_torn (wl s) = true -> closed s = true }.
Record inv3 (cap : nat) (s : state) : Prop := {
  i_in : inq s + xin s <= cap;
  i_out : outq s <= cap }.
Record inv4 (s : state) : Prop := {
  i_w1 : xc s = KW1 -> xloc s = XOut;
  i_w2 : xc s = KW2 -> xloc s <> XOut;
  i_w3 : xc s = KLck -> xloc s <> XOut;
  i_sid : xsid s = true -> xloc s = XTab \/ xloc s = XGone;
  i_acq : wl s = LAcq -> xloc s = XWl \/ xloc s = XTab \/ xloc s = XGone;
  i_res : xres s = true -> xc s = KRet;
  i_xdone : waiting (xc s) = true -> xdone s = true -> xerr s = true;
  i_gone : waiting (xc s) = true -> xloc s = XGone -> xerr s = true;
  i_fired : waiting (xc s) = true -> tx_fired (tx s) = true -> xerr s = true;
  i_out_err : xc s = KErr -> xloc s = XOut -> xerr s = true;
  i_xwl : xloc s = XWl -> wl_early (wl s) = true;
  i_drained : wl_drained (wl s) = true -> xloc s <> XTab /\ xloc s <> XWl;
  i_j : xc s = KErr -> xloc s = XIn -> wl s = LDone -> raced s = true \/ xerr s = true }.

Lemma cpc_some : forall p s c, cpc p s = Some c ->
  match p with 0 => wl s = LClose c | 1 => rl s = RClose c | 2 => uc s = UClose c | _ => False end.
Proof.
  intros [|[|[|p]]] s c; cbn; try discriminate;
    [destruct (wl s) | destruct (rl s) | destruct (uc s)]; try discriminate; intros [= ->]; auto.
Qed.

(* the cases of an enabled action [a] ([G : guard a s]): the guard broken into its equations, a
   Close action split by who runs it, the parameters of the action split *)
Ltac guard_cases a G :=
  destruct a; cbn in G; break;
  try match goal with H : cpc ?p _ = Some _ |- _ => who p; apply cpc_some in H; cbn in H end;
  repeat match goal with b : bool |- _ => destruct b | h : hold |- _ => destruct h end;
  rwk.
(* the same for the actions of one goroutine ([Ga : g_wl a], say): the cases whose guard names
   another program point than the context does are closed *)
Ltac own_cases a Ga G :=
  destruct a; cbn in Ga; try contradiction; try subst; cbn -[cpc] in G; break;
  try match goal with H : cpc _ _ = Some _ |- _ => apply cpc_some in H; cbn in H end;
  rwk; try congruence;
  repeat match goal with b : bool |- _ => destruct b | h : hold |- _ => destruct h end.

Section P.
Variable cap : nat.
Notation guard := (Cli.guard cap).
Notation reachable := (Cli.reachable cap).
Notation inv3 := (inv3 cap).

Definition inv (s : state) : Prop := inv1 s /\ inv2 s /\ inv3 s /\ inv4 s.

(* ---- frames: who writes what.  "The action is the goroutine's own, or the field is as it was." ---- *)
Ltac frame := intros a s; destruct a; cbn; auto;
  try match goal with p : nat |- _ => who p end; cbn; auto; unfold release; eff_split; auto;
  repeat match goal with |- context[match ?h with _ => _ end] => destruct h end; auto.

Lemma xc_frame : forall a s, g_x a \/ xc (eff a s) = xc s.
Proof. frame. Qed.
Lemma wl_frame : forall a s, g_wl a \/ g_body a \/ wl (eff a s) = wl s.
Proof. frame. Qed.
Lemma rl_frame : forall a s, g_rl a \/ rl (eff a s) = rl s.
Proof. frame. Qed.
Lemma uc_frame : forall a s, guard a s -> g_uc a \/ a = EUserClose \/ uc (eff a s) = uc s.
Proof. intros a s G; guard_cases a G; cbn; auto; eff_simpl; auto. Qed.
(* with the socket dead no frame arrives: only the read loop touches its side of the socket *)
Lemma rd_frame : forall a s, guard a s -> dead s = true ->
  g_rl a \/ (rl (eff a s) = rl s /\ rdy (eff a s) = rdy s).
Proof.
  intros a s G D. unfold dead in D. guard_cases a G; cbn; auto; try (right; split; eff_simpl; auto; fail).
  rewrite H, H0 in D; discriminate.
Qed.
Lemma body_guard : forall a s, g_body a -> guard a s -> wl s = LRefill.
Proof. intros a s Ga G; destruct a; try contradiction; exact G. Qed.

Lemma done_mono : forall a s, done s = true -> done (eff a s) = true.
Proof. frame. Qed.
Lemma closed_mono : forall a s, closed s = true -> closed (eff a s) = true.
Proof. frame. Qed.
Lemma sclosed_mono : forall a s, sclosed s = true -> sclosed (eff a s) = true.
Proof. frame. Qed.
Lemma gone_mono : forall a s, gone s = true -> gone (eff a s) = true.
Proof. frame. Qed.

Definition g_of (p : nat) : act -> Prop :=
  match p with 0 => g_wl | 1 => g_rl | _ => g_uc end.
Lemma g_of_close : forall p a, p < 3 -> g_close p a -> g_of p a.
Proof. intros p a Hp; who p; destruct a; cbn; auto. Qed.

Lemma cpc_frame : forall p c a s, cpc p s = Some c -> guard a s -> g_of p a \/ cpc p (eff a s) = Some c.
Proof.
  intros p c a s Hc G. pose proof (cpc_some p s c Hc) as E. destruct p as [|[|[|p]]]; [ | | |contradiction]; cbn.
  - destruct (wl_frame a s) as [Ga|[Ga|E']]; auto; [|right; rewrite E', E; auto].
    rewrite (body_guard a s Ga G) in E; discriminate.
  - destruct (rl_frame a s) as [Ga|E']; auto. right; rewrite E', E; auto.
  - destruct (uc_frame a s G) as [Ga|[->|E']]; auto; [|right; rewrite E', E; auto].
    cbn in G; congruence.
Qed.

(* what the step of [p] inside Close achieves, by where it is *)
Lemma close_own : forall p c a s, p < 3 -> cpc p s = Some c -> g_of p a -> guard a s ->
  match c with
  | CCas => closed (eff a s) = true
  | CDone => done (eff a s) = true
  | CLock => cpc p (eff a s) = Some CWrite
  | CWrite => bw (eff a s) = BwNone /\ sclosed (eff a s) = true
  end.
Proof.
  intros p c a s Hp Hc Ga G. apply cpc_some in Hc. who p; cbn in Hc, Ga; own_cases a Ga G; injection Hc as <-; cbn; auto.
Qed.

Lemma inv1_step : forall s a, inv1 s -> guard a s -> inv1 (eff a s).
Proof.
  intros s a [] G. unfold wl_hold, rl_hold in *.
  guard_cases a G.
  all: constructor; cbn; try assumption; eff_simpl; try assumption.
  all: repeat match goal with
              | H : lx ?s = _ |- _ => rewrite H in *; clear H
              | H : bw ?s = _ |- _ => rewrite H in *; clear H
              end; cbn in *; auto; try congruence.
  all: destruct (lx s), (bw s); cbn in *; congruence.
Qed.

Lemma inv3_step : forall s a, inv3 s -> guard a s -> inv3 (eff a s).
Proof.
  intros s a [] G. unfold xin in *.
  guard_cases a G.
  all: constructor; cbn; try assumption; unfold xin; eff_simpl; try assumption.
  all: try lia. all: congruence.
Qed.

(* the actions of Conn.Close, and the three that enter it *)
Definition closing (a : act) : bool :=
  match a with
  | CCasWin _ | CCasLose _ | CCloseDone _ | CLockB _ | CWriteRet _ | LSetErr | RDeferClose | EUserClose => true
  | _ => false
  end.
(* nothing else touches what the Close protocol is about *)
Lemma close_frame : forall s a, guard a s -> closing a = false ->
  (forall p, cpc p (eff a s) = cpc p s) /\ closed (eff a s) = closed s /\ done (eff a s) = done s /\
  sclosed (eff a s) = sclosed s /\ raced (eff a s) = raced s /\
  wl_torn (wl (eff a s)) = wl_torn (wl s) /\ (rl (eff a s) = RDone -> rl s = RDone).
Proof.
  intros s a G C. guard_cases a G; try discriminate C.
  all: repeat split; try (intros p; destruct p as [|[|[|p]]]); eff_simpl; auto; try discriminate.
Qed.

Lemma inv2_step : forall s a, inv2 s -> guard a s -> inv2 (eff a s).
Proof.
  intros s a I G. destruct (closing a) eqn:C.
  - (* a step of the protocol, by who takes it: the guard fixes his program point; what is left in
       the end speaks about the other two, through [cpc q s], and is settled by cases on them *)
    destruct I. guard_cases a G; try discriminate C; unfold midn, cpc in *; rwk.
    all: constructor; unfold midn, cpc; cbn; try assumption; eff_simpl; try assumption.
    all: try (intros q; destruct q as [|[|[|q]]]; [specialize (i_late0 0)|specialize (i_late0 1)|specialize (i_late0 2)|]; cbn in * ).
    all: auto; try lia; try congruence; try discriminate.
    all: intros; fwd; cbn in *; auto; try lia; try congruence.
    all: destruct (done s) eqn:?, (closed s) eqn:?; cbn in *; fwd; auto; try congruence; try lia.
    all: change (match wl s with LClose c => Some c | _ => None end) with (cpc 0 s) in *;
      change (match rl s with RClose c => Some c | _ => None end) with (cpc 1 s) in *;
      change (match uc s with UClose c => Some c | _ => None end) with (cpc 2 s) in *;
      try (destruct i_raced0 as [|R]; [discriminate|rewrite R; auto; fail]);
      destruct (cpc 0 s) as [[]|], (cpc 1 s) as [[]|], (cpc 2 s) as [[]|]; cbn in *; auto; try lia; try congruence.
  - (* any other step: nothing the invariant reads has changed *)
    destruct (close_frame s a G C) as (F0 & F1 & F2 & F3 & F4 & F5 & F6). destruct I.
    constructor; unfold midn; rewrite ?F0, ?F1, ?F2, ?F3, ?F4, ?F5; auto.
    intros p; rewrite F0; apply i_late0.
Qed.

Lemma inv4_step : forall s a, inv2 s -> inv4 s -> guard a s -> inv4 (eff a s).
Proof.
  intros s a I2 [] G. pose proof (i_raced _ I2) as Hr. clear I2.
  guard_cases a G.
  all: constructor; cbn; try assumption; eff_simpl; try assumption.
  all: intros; fwd; cbn in *; auto; try congruence.
  all: rwk; cbn in *; rewrite ?orb_false_r in *; intuition (try congruence).
Qed.

Lemma inv_init : forall s, init cap s -> inv s.
Proof.
  intros [] H; unfold init in H; cbn in H; break; subst.
  repeat split; cbn; intros; try congruence; try lia.
  - destruct p as [|[|[|p]]]; discriminate.
  - destruct H0; subst; discriminate.
Qed.

Lemma inv_step : forall s a, inv s -> guard a s -> inv (eff a s).
Proof.
  intros s a (I1 & I2 & I3 & I4) G.
  exact (conj (inv1_step _ _ I1 G) (conj (inv2_step _ _ I2 G) (conj (inv3_step _ _ I3 G)
    (inv4_step _ _ I2 I4 G)))).
Qed.

Lemma reachable_inv : forall s, reachable s -> inv s.
Proof. induction 1; auto using inv_init, inv_step. Qed.

Lemma lx_none : forall s, inv1 s -> wl_hold s <> HX -> rl_hold s <> HX -> lx s = LxNone.
Proof.
  intros s [] Hw Hr. destruct (lx s), (wl_hold s), (rl_hold s); cbn in *; congruence.
Qed.
Lemma bw_holder : forall s, inv1 s -> bw s <> BwNone ->
  (exists h, wl s = LWrite h) \/ exists p, p < 3 /\ cpc p s = Some CWrite.
Proof.
  intros s [] Hb. destruct (bw s); try congruence; cbn in *.
  - destruct (wl s) as [| | | |h| | |[]| | |] eqn:E; try discriminate; eauto. right; exists 0; cbn; rewrite E; auto.
  - destruct (rl s) as [| | | | | | | |[]|] eqn:E; try discriminate. right; exists 1; cbn; rewrite E; auto.
  - destruct (uc s) as [|[]|] eqn:E; try discriminate. right; exists 2; cbn; rewrite E; auto.
Qed.

(* whoever waits for bwLck inside Close is kept waiting by the write loop only *)
Lemma clock_free : forall s p, inv1 s -> inv2 s -> p < 3 -> cpc p s = Some CLock ->
  bw s = BwNone \/ exists h, wl s = LWrite h.
Proof.
  intros s p I1 I2 Hp Hc. destruct (bw s) eqn:Eb; auto;
    (destruct (bw_holder s I1) as [Hw|(q & Hq & Hc')]; [congruence|auto|]);
    pose proof (i_mid1 _ I2) as Hm; unfold midn in Hm; exfalso;
    who p; who q; rewrite ?Hc, ?Hc' in *; cbn in Hm; try lia; congruence.
Qed.

Lemma closed_not_done : forall s, inv2 s -> closed s = true -> done s = false ->
  exists p, p < 3 /\ cpc p s = Some CDone.
Proof.
  intros s I Hc Hd. pose proof (i_cd _ I) as H. rewrite Hc, Hd in H. symmetry in H.
  apply orb_true_iff in H. rewrite orb_true_iff in H.
  assert (forall p, is_cdone (cpc p s) = true -> cpc p s = Some CDone) as K
    by (intros p; destruct (cpc p s) as [[]|]; auto; discriminate).
  destruct H as [[H|H]|H]; [exists 0 | exists 1 | exists 2]; auto.
Qed.
Lemma done_late : forall s, inv2 s -> done s = true ->
  sclosed s = true \/ exists p, p < 3 /\ (cpc p s = Some CLock \/ cpc p s = Some CWrite).
Proof.
  intros s I Hd. destruct (i_fin _ I Hd) as [H|H]; auto. right.
  apply orb_true_iff in H. rewrite orb_true_iff in H.
  assert (forall p, is_late (cpc p s) = true -> cpc p s = Some CLock \/ cpc p s = Some CWrite) as K
    by (intros p; destruct (cpc p s) as [[]|]; auto; discriminate).
  destruct H as [[H|H]|H]; [exists 0 | exists 1 | exists 2]; auto.
Qed.
End P.
End CliP.
