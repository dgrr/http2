(* Proofs/SrvIsoNI.v - C09 (c) / C01 (c): each step only touches the stream it is about.
   `oth own c c'` (Proofs/SrvIsoMoves.v): every stream of c' other than `own` was in c with the same id, the same
   request collected so far (rqv: pseudo-header flags, content-length, header list size, path, the request record
   with its fields and body, bytes of body received) and the same place in its header block (hv: headersFinished,
   previousHeaderBytes, blockFields). *)
From H2V Require Import Base.Bytes Base.MachineInt Base.Result Gen.GenConsts Impl.ServerConn Proofs.SrvBase
  Proofs.SrvIsoRef Proofs.SrvIsoMoves Proofs.SrvIsoSteps Proofs.SrvIsoHdr Proofs.SrvIsoHdrStep Proofs.SrvIsoRun.
From Coq Require Import ZArith Lia ZifyN ZifyNat ZifyBool.
Local Open Scope N_scope.

Section NI.
Variable hstate : Type.
Variable dec_field : hstate -> N -> bytes -> dec_res hstate.
Variable enc_field : hstate -> bytes -> bytes -> bool -> bytes * hstate.
Variable enc_set_max : hstate -> N -> hstate.
Variable cfg : config.
Variable h0 : hstate.
Notation sconn := (sconn hstate).
Notation step := (step dec_field enc_field enc_set_max cfg).
Notation run := (run dec_field enc_field enc_set_max cfg h0).
Implicit Types c : sconn.

(* the stream a step is about: the stream of the frame the stream loop takes, the stream whose handler returns *)
Definition step_own c (e : event) : N :=
  match e with
  | EvSL => match sc_readerQ c with fr :: _ => sf_sid fr | [] => 0 end
  | EvDone sid _ => sid
  | _ => 0
  end.

Theorem other_streams_untouched evs e :
  clean dec_field enc_field enc_set_max cfg h0 evs -> clean_step dec_field enc_field enc_set_max cfg (run evs) e ->
  sc_sl_done (step (run evs) e) = false ->
  oth (step_own (run evs) e) (run evs) (step (run evs) e).
Proof.
  intros CL CS Hd'. set (c := run evs) in *.
  destruct (hdr_taken c e) as [|fr l] eqn:HT.
  - (* no header-block fragment *)
    apply plain_step_oth; [exact HT | | exact Hd']. intros fr ST _. unfold sl_takes in ST.
    destruct e; try discriminate ST. cbn [step_own]. destruct (sc_sl_done c); [discriminate ST|].
    destruct (sc_readerQ c); [discriminate ST|]. injection ST as ->. reflexivity.
  - unfold hdr_taken, sl_takes in HT. destruct e; try discriminate HT. cbn [step_own].
    destruct (sc_sl_done c) eqn:Hd; [discriminate HT|]. destruct (sc_readerQ c) as [|fr' q] eqn:RQ; [discriminate HT|].
    cbn [hd_error] in HT. destruct (is_hdr_frame fr') eqn:IHF; [|discriminate HT].
    assert (HT' : hdr_taken c EvSL = [fr']) by (unfold hdr_taken, sl_takes; rewrite Hd, RQ; cbn [hd_error]; rewrite IHF; reflexivity).
    destruct (CS fr' HT') as [W G].
    destruct (hdr_step_reference _ dec_field enc_field enc_set_max cfg h0 evs fr' q CL Hd RQ IHF W G)
      as (n & carry & _ & (fs & n' & carry' & _ & _ & GP)).
    destruct (GP Hd') as (_ & O & _). eapply oth_trans; [|exact O]. apply oth_same_strms. reflexivity.
Qed.

End NI.
Arguments step_own {hstate}.
