(* Proofs/SrvMsgStream.v - C20: one request, frame by frame, through the stream loop. *)
From H2V Require Import Base.Bytes Base.MachineInt Base.Result Gen.GenConsts Impl.ServerConn Spec.Http2Messages
     Proofs.SrvBase Proofs.SrvMsgDefs Proofs.SrvMsgPure Proofs.SrvMsgLoop.
From Coq Require Import ZArith Lia ZifyN ZifyNat ZifyBool.
Local Open Scope N_scope.

(* a stream opened by HEADERS that has not been answered: everything but the request side is at rest *)
Definition h_init : hdr := mkHdr false [] false false false false false 0 false 0 0 [] empty_req.

Definition S_of (sid : N) (win t0 : Z) (state : sstate) (h : hdr) (recv : Z) : stream :=
  mkStream sid win state KHeaders t0 (hd_headersFinished h) (hd_prev h) (hd_pMethod h) (hd_pScheme h) (hd_pPath h)
           (hd_pAuth h) (hd_regularSeen h) (hd_contentLength h) (hd_hasCL h) recv (hd_headerListSize h) (hd_blockFields h)
           (hd_path h) (hd_req h) [] false None 0 0 false false false false.

Lemma new_S_of sid win t0 : set_orig_started (new_stream sid win) KHeaders t0 = S_of sid win t0 SIdle h_init 0.
Proof. reflexivity. Qed.
Lemma get_hdr_S_of sid win t0 st h r : get_hdr (S_of sid win t0 st h r) = h.
Proof. destruct h; reflexivity. Qed.
Lemma set_hdr_S_of sid win t0 st h r h' : set_hdr (S_of sid win t0 st h r) h' = S_of sid win t0 st h' r.
Proof. reflexivity. Qed.
Lemma set_state_S_of sid win t0 st h r st' : set_state (S_of sid win t0 st h r) st' = S_of sid win t0 st' h r.
Proof. reflexivity. Qed.

Definition hdr_fin (h : hdr) (b : bool) : hdr :=
  mkHdr b (hd_prev h) (hd_pMethod h) (hd_pScheme h) (hd_pPath h) (hd_pAuth h) (hd_regularSeen h)
        (hd_contentLength h) (hd_hasCL h) (hd_headerListSize h) (hd_blockFields h) (hd_path h) (hd_req h).
Lemma set_headers_finished_S_of sid win t0 st h r b :
  set_headers_finished (S_of sid win t0 st h r) b = S_of sid win t0 st (hdr_fin h b) r.
Proof. reflexivity. Qed.

Definition hdr_req (h : hdr) (rq : request) : hdr :=
  mkHdr (hd_headersFinished h) (hd_prev h) (hd_pMethod h) (hd_pScheme h) (hd_pPath h) (hd_pAuth h) (hd_regularSeen h)
        (hd_contentLength h) (hd_hasCL h) (hd_headerListSize h) (hd_blockFields h) (hd_path h) rq.
Lemma set_recv_S_of sid win t0 st h r r' rq : set_recv (S_of sid win t0 st h r) r' rq = S_of sid win t0 st (hdr_req h rq) r'.
Proof. reflexivity. Qed.

Definition H_of (hf : bool) (prev : bytes) (st : vst) (size : Z) (nf : N) (rq : request) : hdr :=
  mkHdr hf prev (v_m st) (v_s st) (v_p st) (v_a st) (v_r st) (v_cl st) (v_has st) size nf (v_path st) rq.

Lemma hdr_of_H_of h st size nf rq : hdr_of h st size nf rq = H_of (hd_headersFinished h) (hd_prev h) st size nf rq.
Proof. reflexivity. Qed.
Lemma H_of_eta h : h = H_of (hd_headersFinished h) (hd_prev h) (vabs h) (hd_headerListSize h) (hd_blockFields h) (hd_req h).
Proof. destruct h; reflexivity. Qed.
Lemma vabs_H_of hf prev st size nf rq : vabs (H_of hf prev st size nf rq) = st.
Proof. destruct st; reflexivity. Qed.

(* the flags a header block starts with: a trailer block (the headers were finished) starts as if a regular field had been seen *)
Definition v_start (h : hdr) : vst :=
  mkV (hd_pMethod h) (hd_pScheme h) (hd_pPath h) (hd_pAuth h) (hd_regularSeen h || hd_headersFinished h)
      (hd_contentLength h) (hd_hasCL h) (hd_path h).
Lemma v_start_first h : hd_headersFinished h = false -> v_start h = vabs h.
Proof. intro H. unfold v_start, vabs. rewrite H, orb_false_r. reflexivity. Qed.
Lemma v_start_trailers h : hd_headersFinished h = true -> v_start h = v_setr (vabs h).
Proof. intro H. unfold v_start, vabs, v_setr. rewrite H, orb_true_r. reflexivity. Qed.

Definition start_hdr (h : hdr) (n0 : N) : hdr :=
  mkHdr false [] (hd_pMethod h) (hd_pScheme h) (hd_pPath h) (hd_pAuth h)
        (hd_regularSeen h || hd_headersFinished h) (hd_contentLength h) (hd_hasCL h) (hd_headerListSize h)
        n0 (hd_path h) (hd_req h).

(* what header_field can answer *)
Lemma fields_loop_inl_kind cfg : forall fs h e,
  fields_loop cfg h fs = inl e -> e = EGoAway c_EnhanceYourCalm \/ exists code, e = EReset code.
Proof.
  induction fs as [|[k v] t IH]; intros h e; cbn [fields_loop]; [discriminate|].
  rewrite header_field_vstep. cbv zeta. destruct (list_over cfg _).
  - intro E. inversion E. left. reflexivity.
  - destruct (vstep cfg (vabs h) (classify k) v) as [code|st1].
    + intro E. inversion E. right. eauto.
    + apply IH.
Qed.

(* a frame of a header block *)
Definition blk_frame (iscont : bool) (sid : N) (es eh : bool) (frag : bytes) : sframe :=
  if iscont then cont_frame sid eh frag else headers_frame sid es eh frag.

(* the stream table with our stream at the end *)
Lemma search_snoc l s : strms_search l (st_id s) = None -> strms_search (l ++ [s]) (st_id s) = Some s.
Proof. intro H. rewrite strms_search_app_None by assumption. cbn [strms_search]. rewrite N.eqb_refl. reflexivity. Qed.

Lemma put_snoc l s s' : strms_search l (st_id s) = None -> st_id s' = st_id s -> strms_put (l ++ [s]) s' = l ++ [s'].
Proof.
  intros H E. induction l as [|x t IH]; cbn [app strms_put strms_search] in *.
  - rewrite E, N.eqb_refl. reflexivity.
  - rewrite E. destruct (st_id x =? st_id s); [discriminate|]. rewrite IH by assumption. reflexivity.
Qed.

Lemma del_snoc l s : strms_search l (st_id s) = None -> strms_del (l ++ [s]) (st_id s) = l.
Proof.
  intros H. induction l as [|x t IH]; cbn [app strms_del strms_search] in *.
  - rewrite N.eqb_refl. reflexivity.
  - destruct (st_id x =? st_id s); [discriminate|]. rewrite IH by assumption. reflexivity.
Qed.

(* the other streams are at rest: their header blocks are complete and none is idle *)
Definition quiet (x : stream) : Prop := st_orig x = KHeaders -> st_headersFinished x = true /\ st_state x <> SIdle.


Lemma prev_headers_snoc l s p :
  Forall quiet l -> st_orig s = KHeaders -> get_previous_headers (l ++ [s]) = Some p -> st_headersFinished p = true.
Proof.
  intros Q O. unfold get_previous_headers. rewrite rev_app_distr. cbn [rev app filter]. rewrite O. cbn [fkind_eqb].
  destruct (filter (fun s0 => fkind_eqb (st_orig s0) KHeaders) (rev l)) as [|q r] eqn:F; [discriminate|].
  intro E. inversion E; subst q.
  assert (I : In p (filter (fun s0 => fkind_eqb (st_orig s0) KHeaders) (rev l))) by (rewrite F; left; reflexivity).
  apply filter_In in I. destruct I as [I1 I2]. apply in_rev in I1. apply fkind_eqb_eq in I2.
  rewrite Forall_forall in Q. destruct (Q p I1 I2). assumption.
Qed.

(* the ring of closed ids *)
Definition rfind (r : list (N * bool)) (id : N) : option bool :=
  match find (fun e => N.eqb id (fst e)) r with Some e => Some (snd e) | None => None end.
Definition rmem (r : list (N * bool)) (id : N) : bool := existsb (fun e => N.eqb id (fst e)) r.

Lemma rfind_snoc r id w : rmem r id = false -> rfind (r ++ [(id, w)]) id = Some w.
Proof.
  unfold rfind, rmem. induction r as [|e t IH]; cbn [app find existsb fst snd].
  - rewrite N.eqb_refl. reflexivity.
  - intro H. apply orb_false_iff in H. destruct H as [H1 H2]. rewrite H1. apply IH. assumption.
Qed.

Lemma rfind_set_nth r k id w : (k < length r)%nat -> rmem r id = false -> rfind (set_nth_N r k (id, w)) id = Some w.
Proof.
  unfold rfind, rmem. revert k. induction r as [|e t IH]; intros k Hk; cbn [length] in Hk; [lia|].
  destruct k as [|k]; cbn [set_nth_N find existsb fst snd].
  - rewrite N.eqb_refl. reflexivity.
  - intro H. apply orb_false_iff in H. destruct H as [H1 H2]. rewrite H1. apply IH; [lia | assumption].
Qed.

Section Stream.
Variable hstate : Type.
Variable dec_field : hstate -> N -> bytes -> dec_res hstate.
Variable enc_field : hstate -> bytes -> bytes -> bool -> bytes * hstate.
Variable enc_set_max : hstate -> N -> hstate.
Variable cfg : config.
Notation sconn := (sconn hstate).
Notation step := (step dec_field enc_field enc_set_max cfg).
Notation sl_frame := (sl_frame dec_field enc_set_max cfg).
Notation frag_dec := (frag_dec dec_field).
Implicit Types c : sconn.

Lemma implicit_close_quiet fuel c sid l s :
  sc_strms c = l ++ [s] -> Forall quiet l -> st_id s = sid -> implicit_close fuel c sid = c.
Proof.
  intros E Q I. destruct fuel as [|fuel]; [reflexivity|]. cbn [implicit_close]. rewrite E.
  destruct l as [|x t]; cbn [app].
  - rewrite I, N.ltb_irrefl. reflexivity.
  - inversion Q as [|? ? Qx _]; subst.
    destruct (fkind_eqb (st_orig x) KHeaders) eqn:O; [|rewrite andb_false_r; reflexivity].
    apply fkind_eqb_eq in O. destruct (Qx O) as [_ NI].
    replace (sstate_eqb (st_state x) SIdle) with false; [rewrite andb_false_r; reflexivity|].
    destruct (st_state x); try reflexivity. congruence.
Qed.

(* what follows the stream lookup and the HEADERS prelude *)
Definition tail (c2 : sconn) (s : stream) (fr : sframe) (wasClosing : bool) : sconn * bool :=
  let '(c3, s3, e) := handle_frame dec_field cfg c2 s fr in
  match e with
  | Some e =>
    let '(c4, s4) := write_error c3 (Some s3) e in
    let s5 := match s4 with Some x => set_state x SClosed | None => set_state s3 SClosed end in
    match e with
    | EGoAway code => if negb (code =? c_NoError) then brk (put c4 s5) else after_frame cfg c4 s5 fr wasClosing
    | EReset _ => after_frame cfg c4 s5 fr wasClosing
    | EPanic => brk (note c3 (OPanic 1 0))
    end
  | None => after_frame cfg c3 s3 fr wasClosing
  end.

(* a connection ready for a new request on sid *)
Record ready_sl (c : sconn) (sid : N) : Prop := mkReady {
  rd_odd : N.land sid 1 = 1;
  rd_fresh : sc_highestID c < sid;
  rd_last : sc_lastID c <= sc_highestID c;
  rd_table : strms_search (sc_strms c) sid = None;
  rd_ring : in_ring c sid = false;
  rd_oldest : sc_oldest c < closedStrmsCap;
  rd_disc : sc_discardID c <> sid;
  rd_quiet : Forall quiet (sc_strms c);
  rd_slot : (sc_open c < cf_maxStreams cfg)%Z;
  rd_closing : sc_closing c = false;
  rd_sl : sc_sl_done c = false;
  rd_wl : sc_wl_dead c = false
}.
(* ... and the read loop is between two header blocks, with nothing queued for the stream loop *)
Definition ready (c : sconn) (sid : N) : Prop :=
  ready_sl c sid /\ sc_rl_done c = false /\ sc_readerQ c = [] /\ sc_expectCont c = 0.

Lemma sid_nz sid : N.land sid 1 = 1 -> sid <> 0.
Proof. intros H E. subst. discriminate. Qed.

(* the first HEADERS frame opens the stream *)
Lemma sl_frame_fresh c sid es eh frag :
  ready_sl c sid ->
  let s := S_of sid (sc_initWin c) (sc_now c) SIdle h_init 0 in
  let c3 := upd_open (upd_strms (upd_lastID (upd_highestID c sid) sid) (sc_strms c ++ [s])) (sc_open c + 1) in
  sl_frame c (headers_frame sid es eh frag) = tail c3 s (headers_frame sid es eh frag) false.
Proof.
  intros R s c3. destruct R. pose proof (sid_nz _ rd_odd0) as NZ.
  unfold sl_frame. cbn [sf_sid sf_kind headers_frame fkind_eqb andb].
  replace (sid =? 0) with false by lia.
  replace (sid <=? sc_lastID c) with false by lia.
  rewrite rd_ring0. replace (sid <=? sc_highestID c) with false by lia.
  sc_cbn. rewrite rd_closing0. replace (cf_maxStreams cfg <=? sc_open c)%Z with false by lia. cbn [orb].
  replace (sid <? sc_lastID c) with false by lia.
  rewrite new_S_of. fold s. sc_cbn.
  assert (Q : Forall quiet (sc_strms c)) by assumption.
  destruct (get_previous_headers (sc_strms c ++ [s])) as [p|] eqn:P.
  - rewrite (prev_headers_snoc (sc_strms c) s p Q eq_refl P). cbn [negb].
    erewrite implicit_close_quiet; [reflexivity | sc_cbn; reflexivity | assumption | reflexivity].
  - erewrite implicit_close_quiet; [reflexivity | sc_cbn; reflexivity | assumption | reflexivity].
Qed.

(* a frame for the stream at the end of the table *)
Lemma sl_frame_own c sid l s fr :
  sf_sid fr = sid -> sid <> 0 -> sc_strms c = l ++ [s] -> strms_search l sid = None -> st_id s = sid ->
  st_orig s = KHeaders -> sid <= sc_lastID c -> Forall quiet l ->
  (sf_kind fr = KCont -> sc_discardID c <> sid) ->
  sl_frame c fr = tail c s fr (sc_closing c).
Proof.
  intros Hs NZ E HN I O L Q D. unfold sl_frame. rewrite Hs.
  replace (sid =? 0) with false by lia.
  assert (X : (fkind_eqb (sf_kind fr) KCont && negb (sc_discardID c =? 0) && (sid =? sc_discardID c))%bool = false).
  { destruct (fkind_eqb (sf_kind fr) KCont) eqn:K; [|reflexivity]. apply fkind_eqb_eq in K. specialize (D K).
    replace (sid =? sc_discardID c) with false by lia. apply andb_false_r. }
  rewrite X. replace (sid <=? sc_lastID c) with true by lia.
  rewrite E. rewrite <- I at 1. rewrite search_snoc by (rewrite I; assumption).
  destruct (fkind_eqb (sf_kind fr) KHeaders) eqn:K; [|reflexivity].
  destruct (get_previous_headers (sc_strms c)) as [p|] eqn:P.
  - rewrite E in P. rewrite (prev_headers_snoc l s p Q O P). cbn [negb].
    erewrite implicit_close_quiet; [reflexivity | exact E | assumption | reflexivity].
  - erewrite implicit_close_quiet; [reflexivity | exact E | assumption | reflexivity].
Qed.

(* frames for a stream the server has reset and remembers *)
Lemma ring_find_in c id b : ring_find c id = Some b -> in_ring c id = true.
Proof.
  unfold ring_find, in_ring. destruct (find _ (sc_ring c)) as [e|] eqn:F; [|discriminate]. intros _.
  apply find_some in F. destruct F as [F1 F2]. apply existsb_exists. exists e. auto.
Qed.

Lemma sl_frame_dead_data c sid es d :
  sid <> 0 -> strms_search (sc_strms c) sid = None -> ring_find c sid = Some true ->
  sl_frame c (data_frame sid es d) = cont (credit_conn_window cfg c (Z.of_N (len d))).
Proof.
  intros NZ S R. unfold sl_frame. cbn [sf_sid sf_kind sf_len data_frame fkind_eqb andb].
  replace (sid =? 0) with false by lia. rewrite S.
  destruct (sid <=? sc_lastID c); rewrite (ring_find_in _ _ _ R), R; reflexivity.
Qed.

Lemma sl_frame_dead_headers c sid es eh frag :
  sid <> 0 -> strms_search (sc_strms c) sid = None -> ring_find c sid = Some true ->
  sl_frame c (headers_frame sid es eh frag) =
  discard_or_break (discard_header_block dec_field cfg c (headers_frame sid es eh frag)).
Proof.
  intros NZ S R. unfold sl_frame. cbn [sf_sid sf_kind headers_frame fkind_eqb andb].
  replace (sid =? 0) with false by lia. rewrite S.
  destruct (sid <=? sc_lastID c); rewrite (ring_find_in _ _ _ R), R; reflexivity.
Qed.

Lemma sl_frame_dead_cont c sid eh frag :
  sid <> 0 -> sc_discardID c = sid ->
  sl_frame c (cont_frame sid eh frag) = discard_or_break (discard_header_block dec_field cfg c (cont_frame sid eh frag)).
Proof.
  intros NZ D. unfold sl_frame. cbn [sf_sid sf_kind cont_frame fkind_eqb andb].
  replace (sid =? 0) with false by lia. rewrite D. replace (sid =? 0) with false by lia. rewrite N.eqb_refl. reflexivity.
Qed.

Lemma ring_find_eq c id : ring_find c id = rfind (sc_ring c) id.
Proof. reflexivity. Qed.
Lemma in_ring_eq c id : in_ring c id = rmem (sc_ring c) id.
Proof. reflexivity. Qed.

Lemma rfind_mark_closed c id w :
  in_ring c id = false -> sc_oldest c < closedStrmsCap -> rfind (sc_ring (mark_closed c id w)) id = Some w.
Proof.
  intros H O. unfold mark_closed. rewrite H.
  destruct (N.of_nat (length (sc_ring c)) <? closedStrmsCap) eqn:E; sc_cbn.
  - apply rfind_snoc. exact H.
  - apply rfind_set_nth; [unfold closedStrmsCap in *; lia | exact H].
Qed.

(* RST_STREAM(code) for the stream at the end of the table, which is then closed *)
Definition kill (c : sconn) (sX : stream) (code : N) : sconn := close_stream (put (write_reset c (st_id sX) code) sX) sX.

Lemma kill_strms c l s sX code :
  sc_strms c = l ++ [s] -> strms_search l (st_id s) = None -> st_id sX = st_id s -> sc_strms (kill c sX code) = l.
Proof.
  intros E HN I. unfold kill. rewrite sc_strms_close_stream, sc_strms_put, sc_strms_write_reset, E.
  rewrite put_snoc by assumption. apply (del_snoc l sX). rewrite I. assumption.
Qed.

Lemma kill_ring c sX code :
  in_ring c (st_id sX) = false -> sc_oldest c < closedStrmsCap -> st_weReset sX = true ->
  ring_find (kill c sX code) (st_id sX) = Some true.
Proof.
  intros R O W. rewrite ring_find_eq. unfold kill. rewrite sc_ring_close_stream, W.
  apply rfind_mark_closed.
  - rewrite in_ring_eq, sc_ring_put, sc_ring_write_reset. exact R.
  - rewrite sc_oldest_put, sc_oldest_write_reset. exact O.
Qed.

Lemma kill_out c sX code :
  sc_wl_dead c = false -> sc_sl_done c = false -> st_handlerRunning sX = false ->
  sc_out (kill c sX code) = ORelease (st_id sX) true :: ORst (st_id sX) code :: sc_out c.
Proof.
  intros W S H. unfold kill. rewrite sc_out_close_stream, H, sc_out_put, sc_out_write_reset, sc_out_emit, W, S. reflexivity.
Qed.

Lemma kill_open c sX code :
  st_handlerRunning sX = false -> st_orig sX = KHeaders -> sc_open (kill c sX code) = (sc_open c - 1)%Z.
Proof. intros H O. unfold kill. rewrite sc_open_close_stream, H, O, sc_open_put, sc_open_write_reset. reflexivity. Qed.

Lemma fl_has_es es eh : flag_has (fl_of es eh) FL_ES = es.
Proof. destruct es, eh; reflexivity. Qed.
Lemma fl_has_eh es eh : flag_has (fl_of es eh) FL_EH = eh.
Proof. destruct es, eh; reflexivity. Qed.

Lemma upd_dec_discard_twice c d1 a b n d2 a' b' n' :
  upd_discard (upd_dec (upd_discard (upd_dec c d1) a b n) d2) a' b' n' = upd_discard (upd_dec c d2) a' b' n'.
Proof. reflexivity. Qed.

Section HHF.
Variables (c : sconn) (sid : N) (win t0 : Z) (state : sstate) (h : hdr) (recv : Z).
Variables (iscont es eh : bool) (frag : bytes).
Variables (fs : list field) (d' : hstate) (n' : N) (carry : bytes).
Let s := S_of sid win t0 state h recv.
Let fr := blk_frame iscont sid es eh frag.
Let n0 := if iscont then hd_blockFields h else 0.
Hypothesis NZ : sid <> 0.
Hypothesis Htr : hd_headersFinished h = true -> iscont = false /\ es = true.
Hypothesis Hdec : frag_dec eh (sc_dec c) n0 (hd_prev h ++ frag) fs d' n' carry.

Let h1 := start_hdr h n0.

Lemma hhf_unfold :
  handle_header_frame dec_field cfg c s fr =
  let '(d1, h2, e, rest) := header_loop dec_field (S (length (hd_prev h ++ frag))) cfg eh (sc_dec c) h1 (hd_prev h ++ frag) in
  let c1 := upd_dec c d1 in
  let s1 := S_of sid win t0 state h2 recv in
  match e with
  | Some (EReset code) =>
    let c2 := upd_discard c1 (sc_discardID c1) [] (hd_blockFields h2 + 1) in
    match discard_fragment dec_field cfg c2 sid rest eh with
    | (c3, Some de) => (c3, s1, Some de)
    | (c3, None) => (c3, s1, Some (EReset code))
    end
  | Some e => (c1, s1, Some e)
  | None =>
    if list_over cfg (Z.of_N (len (hd_prev h2))) then (c1, s1, Some (EGoAway c_EnhanceYourCalm)) else (c1, s1, None)
  end.
Proof.
  unfold handle_header_frame, fr, blk_frame, s.
  assert (A : (st_headersFinished (S_of sid win t0 state h recv) &&
               (negb (fkind_eqb (sf_kind (if iscont then cont_frame sid eh frag else headers_frame sid es eh frag)) KHeaders)
                || negb (flag_has (sf_flags (if iscont then cont_frame sid eh frag else headers_frame sid es eh frag)) FL_ES)))%bool = false).
  { cbn [st_headersFinished S_of]. destruct (hd_headersFinished h) eqn:F; [|reflexivity].
    destruct (Htr eq_refl) as [-> ->]. cbn [headers_frame sf_kind sf_flags fkind_eqb negb orb andb]. rewrite fl_has_es. reflexivity. }
  rewrite A.
  assert (B : (fkind_eqb (sf_kind (if iscont then cont_frame sid eh frag else headers_frame sid es eh frag)) KHeaders &&
               (sf_dep (if iscont then cont_frame sid eh frag else headers_frame sid es eh frag) =? st_id (S_of sid win t0 state h recv)))%bool = false).
  { destruct iscont; cbn; [reflexivity|]. destruct sid; [exfalso; apply NZ; reflexivity | reflexivity]. }
  rewrite B. rewrite get_hdr_S_of.
  assert (P : sf_payload (if iscont then cont_frame sid eh frag else headers_frame sid es eh frag) = frag) by (destruct iscont; reflexivity).
  assert (E : flag_has (sf_flags (if iscont then cont_frame sid eh frag else headers_frame sid es eh frag)) FL_EH = eh)
    by (destruct iscont; cbn [sf_flags cont_frame headers_frame]; apply fl_has_eh).
  assert (K : (if fkind_eqb (sf_kind (if iscont then cont_frame sid eh frag else headers_frame sid es eh frag)) KCont
               then hd_blockFields h else 0) = n0) by (unfold n0; destruct iscont; reflexivity).
  rewrite P, E, K. fold (start_hdr h n0). fold h1. cbv zeta.
  destruct (header_loop dec_field (S (length (hd_prev h ++ frag))) cfg eh (sc_dec c) h1 (hd_prev h ++ frag)) as [[[d1 h2] e] rest].
  rewrite set_hdr_S_of. cbn [st_id S_of]. unfold list_over. reflexivity.
Qed.

(* every field of the fragment is accepted *)
Lemma hhf_ok st' :
  list_over cfg (hd_headerListSize h + fsize fs) = false ->
  vrun cfg (v_start h) fs = inr st' ->
  handle_header_frame dec_field cfg c s fr =
  (upd_dec c d',
   S_of sid win t0 state (H_of false carry st' (hd_headerListSize h + fsize fs) n' (req_fold (hd_req h) fs)) recv,
   if list_over cfg (Z.of_N (len carry)) then Some (EGoAway c_EnhanceYourCalm) else None).
Proof.
  intros Hs Hv. rewrite hhf_unfold.
  assert (F : fields_loop cfg h1 fs = inr (hdr_of h1 st' (hd_headerListSize h + fsize fs) (n0 + N.of_nat (length fs)) (req_fold (hd_req h) fs))).
  { apply (fields_loop_inr cfg fs h1 st'); [exact Hs | exact Hv]. }
  rewrite (header_loop_ok _ dec_field cfg _ _ _ _ _ _ _ _ Hdec h1 _ _ eq_refl F) by lia.
  rewrite hdr_of_H_of. unfold h1. cbn [hd_headersFinished hd_prev start_hdr add_prev H_of app].
  rewrite <- (frag_dec_count _ dec_field _ _ _ _ _ _ _ _ Hdec).
  destruct (list_over cfg (Z.of_N (len carry))); reflexivity.
Qed.

(* a field is refused *)
Lemma hhf_err e :
  fields_loop cfg h1 fs = inl e ->
  exists c1 h_e e',
    handle_header_frame dec_field cfg c s fr = (c1, S_of sid win t0 state h_e recv, Some e') /\
    hd_headersFinished h_e = false /\ hd_prev h_e = [] /\
    match e with
    | EReset code =>
      c1 = upd_discard (upd_dec c d') (if eh then 0 else sid) (if eh then [] else carry) n' /\
      e' = (if eh then EReset code else if list_over cfg (Z.of_N (len carry)) then EGoAway c_EnhanceYourCalm else EReset code)
    | _ => e' = e /\ exists d1, c1 = upd_dec c d1
    end.
Proof.
  intro F. rewrite hhf_unfold.
  destruct (header_loop_err _ dec_field cfg _ _ _ _ _ _ _ _ Hdec h1 e (S (length (hd_prev h ++ frag))) eq_refl F ltac:(lia))
    as (d1 & h2 & rest & fs2 & L & D2 & F2 & P2).
  rewrite L. cbv zeta. unfold h1 in F2, P2. cbn [start_hdr hd_headersFinished hd_prev] in F2, P2.
  destruct e as [code|code|].
  - exists (upd_dec c d1), h2, (EGoAway code). repeat split; eauto.
  - set (c2 := upd_discard (upd_dec c d1) (sc_discardID (upd_dec c d1)) [] (hd_blockFields h2 + 1)).
    assert (D3 : frag_dec eh (sc_dec c2) (sc_discardFields c2) (sc_discardPrev c2 ++ rest) fs2 d' n' carry) by exact D2.
    rewrite (discard_fragment_ok _ dec_field cfg c2 sid rest eh _ _ _ _ D3).
    destruct eh.
    + eexists _, h2, _. repeat split; eauto.
    + destruct (list_over cfg (Z.of_N (len carry))); eexists _, h2, _; repeat split; eauto.
  - exists (upd_dec c d1), h2, EPanic. repeat split; eauto.
Qed.

End HHF.

End Stream.

Arguments kill {hstate}.
Arguments tail {hstate}.
Arguments ready {hstate}.
Arguments ready_sl {hstate}.
