(* C03: sanity tests by computation -- RFC 7541 Appendix C and the corner cases of the statements;
   and witnesses that the hypotheses of the C03 theorems hold for non-trivial inputs. *)
From Coq Require Import List NArith ZArith Bool Lia.
From H2V Require Import Base.Bytes Base.MachineInt Base.Result Gen.GenConsts Gen.GenStatic
     Impl.Huffman Impl.Hpack Spec.Rfc7541Huffman Spec.Rfc7541 Proofs.HpackDefs.
Import ListNotations.
Local Open Scope N_scope.

Definition st0 : hpack_state := hpack_init false false.

Definition agree (st : hpack_state) (b : bytes) : bool :=
  match proj (block_decode st b), spec_decode_block (abs st) b with
  | Some (fs, t), Some (fs', t') =>
      (Nat.eqb (length fs) (length fs')) &&
      forallb (fun p => bytes_eqb (fst (fst (fst p))) (fst (fst (snd p))) && bytes_eqb (snd (fst (fst p))) (snd (fst (snd p)))
                        && Bool.eqb (snd (fst p)) (snd (snd p))) (combine fs fs') &&
      (dt_max t =? dt_max t') && (dt_limit t =? dt_limit t') &&
      bytes_eqb (concat (map (fun e => fst e ++ [256] ++ snd e ++ [257]) (dt_entries t)))
                (concat (map (fun e => fst e ++ [256] ++ snd e ++ [257]) (dt_entries t')))
  | None, None => true
  | _, _ => false
  end.

Definition state_after (st : hpack_state) (b : bytes) : hpack_state :=
  match block_decode st b with Ok (_, st') => st' | _ => st end.

(* C.4.1 - C.4.3: three requests with Huffman coding on one connection *)
Definition c41 : bytes := [130;134;132;65;140;241;227;194;229;242;58;107;160;171;144;244;255].
Definition c42 : bytes := [130;134;132;190;88;134;168;235;16;100;156;191].
Definition c43 : bytes := [130;135;133;191;64;136;37;168;73;233;91;169;125;127;137;37;168;73;233;91;184;232;180;191].

Lemma sanity_appendix_c4 :
  agree st0 c41 && agree (state_after st0 c41) c42 && agree (state_after (state_after st0 c41) c42) c43
  && is_ok (block_decode (state_after (state_after st0 c41) c42) c43) = true.
Proof. vm_compute. reflexivity. Qed.

(* C.2.3 never indexed; size updates alone, twice, above the limit, after a field; index 0; index past the
   table; truncated field; over-long integer (10 continuation octets) *)
Lemma sanity_corner_cases :
  forallb (agree st0)
    [ [16;8;112;97;115;115;119;111;114;100;6;115;101;99;114;101;116];
      [32]; [63;225;31]; [32;63;225;31;130]; [63;226;31]; [130;32]; [128]; [190]; [64;1;97]; [64];
      [255;128;128;128;128;128;128;128;128;128;128;0]; [0;1;97;129;255] ] = true.
Proof. vm_compute. reflexivity. Qed.

Lemma sanity_rejects :
  map (fun b => is_ok (block_decode st0 b)) [ [130;32]; [128]; [190]; [64;1;97]; [63;226;31]; [32] ]
  = [false; false; false; false; false; true].
Proof. vm_compute. reflexivity. Qed.

(* split invariance on C.4.1 cut after every octet, and on a size update followed by a field *)
Definition split_ok (st : hpack_state) (b : bytes) (k : nat) : bool :=
  match block_decode_frames st (frames_of true [firstn k b; skipn k b]), block_decode st b with
  | Ok (fs, s1), Ok (fs', s2) =>
      (Nat.eqb (length fs) (length fs')) &&
      forallb (fun p => bytes_eqb (f_key (fst p)) (f_key (snd p)) && bytes_eqb (f_value (fst p)) (f_value (snd p)))
              (combine fs fs') && (h_max s1 =? h_max s2) && Nat.eqb (length (h_dynamic s1)) (length (h_dynamic s2))
  | Err _, Err _ => true
  | _, _ => false
  end.

Lemma sanity_split :
  forallb (split_ok st0 c41) (seq 0 18) && forallb (split_ok st0 [32;63;225;31;0;1;97;1;98]) (seq 0 10) = true.
Proof. vm_compute. reflexivity. Qed.

Definition ex_reprs : list repr :=
  [SizeUpdate 100; Indexed 2; Literal Incremental (NameIdx 1) false true [119;119;119];
   Literal Never (NameLit [120]) true false [121]; Indexed 62; Literal Without (NameIdx 62) false false []].

Lemma sanity_self_consistent :
  match spec_decode_block (dtable_init 4096) (spec_enc_block ex_reprs), spec_sem (dtable_init 4096) ex_reprs with
  | Some (fs, t), Some (fs', t') => Nat.eqb (length fs) 5 && Nat.eqb (length fs') 5 && (dt_max t =? 100) && (dt_max t' =? 100)
  | _, _ => false
  end = true.
Proof. vm_compute. reflexivity. Qed.

(* the hypotheses of the theorems hold for these inputs *)
Definition table_okb (st : hpack_state) : bool :=
  forallb field_ok (h_dynamic st) && (table_size (dt_entries (abs st)) <=? h_max st) &&
  (h_max st <=? h_max_settings st) && (h_max_settings st <? 2 ^ 32).

Lemma table_okb_sound st : table_okb st = true -> table_ok st.
Proof.
  unfold table_okb, table_ok. rewrite !andb_true_iff, !N.leb_le, N.ltb_lt. tauto.
Qed.

Definition block_smallb (st : hpack_state) (b : bytes) : bool :=
  2 * len b + 2 * h_max_settings st + 64 <? 2 ^ 32.

Lemma block_smallb_sound st b : block_smallb st b = true -> block_small st b.
Proof. unfold block_smallb, block_small. apply N.ltb_lt. Qed.

(* every hypothesis about C.4 in one boolean, so that the three blocks are decoded in one evaluation *)
Lemma c4_hyps_check :
  let st1 := state_after st0 c41 in let st2 := state_after st1 c42 in
  table_okb st0 && table_okb st1 && table_okb st2 &&
  Nat.eqb (length (h_dynamic st1)) 1 && Nat.eqb (length (h_dynamic st2)) 2 &&
  forallb bytes_ok [c41; c42; c43] && forallb (block_smallb st0) [c41; c42; c43] && block_smallb st2 c43 &&
  match decode_history st0 [c41; c42; c43] return bool with
  | Ok (fss, st3) =>
      (if list_eq_dec Nat.eq_dec (map (@length field) fss) [4; 5; 5]%nat then true else false) &&
      Nat.eqb (length (h_dynamic st3)) 3
  | _ => false
  end = true.
Proof. vm_compute. reflexivity. Qed.

(* the initial state is reachable; so is the state after C.4.1 and C.4.2, which holds two entries;
   the three blocks are small byte strings and all three are accepted (4, 5 and 5 fields, the third
   block inserts a third entry) *)
Lemma hypotheses_appendix_c4 :
  let st1 := state_after st0 c41 in let st2 := state_after st1 c42 in
  table_ok st0 /\ table_ok st1 /\ table_ok st2 /\
  length (h_dynamic st1) = 1%nat /\ length (h_dynamic st2) = 2%nat /\
  forallb bytes_ok [c41; c42; c43] = true /\
  Forall (block_small st0) [c41; c42; c43] /\ block_small st2 c43 /\
  match decode_history st0 [c41; c42; c43] return Prop with
  | Ok (fss, st3) => map (@length field) fss = [4; 5; 5]%nat /\ length (h_dynamic st3) = 3%nat
  | _ => False
  end.
Proof.
  pose proof c4_hyps_check as H. cbv zeta in *.
  apply andb_prop in H as [H D]. apply andb_prop in H as [H S2]. apply andb_prop in H as [H S0].
  apply andb_prop in H as [H B]. apply andb_prop in H as [H L2]. apply andb_prop in H as [H L1].
  apply andb_prop in H as [H T2]. apply andb_prop in H as [T0 T1].
  split; [apply table_okb_sound, T0|]. split; [apply table_okb_sound, T1|]. split; [apply table_okb_sound, T2|].
  split; [apply Nat.eqb_eq, L1|]. split; [apply Nat.eqb_eq, L2|]. split; [exact B|].
  split; [rewrite forallb_forall in S0; apply Forall_forall; intros b Hb; apply block_smallb_sound, S0, Hb|].
  split; [apply block_smallb_sound, S2|].
  revert D. generalize (decode_history st0 [c41; c42; c43]). intros [[fss st3]| |] D; try discriminate D.
  apply andb_prop in D. destruct D as [D1 D2].
  split; [destruct (list_eq_dec Nat.eq_dec (map (@length field) fss) [4; 5; 5]%nat); [assumption | discriminate D1] | apply Nat.eqb_eq, D2].
Qed.

(* C.4.1 cut into three fragments (the second cut falls inside the Huffman string): hypotheses of
   split invariance, and the frames are what the statement says *)
Definition c41_frags : list bytes := [firstn 3 c41; firstn 7 (skipn 3 c41); skipn 10 c41].

Lemma hypotheses_split :
  c41_frags <> [] /\ forallb bytes_ok c41_frags = true /\ concat c41_frags = c41 /\
  block_small st0 (concat c41_frags) /\
  frames_of true c41_frags =
    [([130;134;132], false, false); ([65;140;241;227;194;229;242], false, true);
     ([58;107;160;171;144;244;255], true, true)] /\
  is_ok (block_decode_frames st0 (frames_of true c41_frags)) = true.
Proof.
  split; [discriminate|]. split; [vm_compute; reflexivity|]. split; [vm_compute; reflexivity|].
  split; [apply block_smallb_sound; vm_compute; reflexivity|].
  split; vm_compute; reflexivity.
Qed.

(* the hypotheses of spec self-consistency hold for a list with every kind of representation *)
Lemma hypotheses_self_consistent :
  forallb repr_ok ex_reprs = true /\
  (forall r, In r ex_reprs -> match r with
     | Literal _ nr _ _ v => len v < 2 ^ 32 /\ match nr with NameLit n => len n < 2 ^ 32 | _ => True end
     | _ => True end) /\
  spec_enc_block ex_reprs = [63;69; 130; 65;131;241;227;199; 16;129;243;1;121; 190; 15;47;0].
Proof.
  split; [vm_compute; reflexivity|]. split; [|vm_compute; reflexivity].
  intros r Hin. cbn [ex_reprs In] in Hin.
  repeat (destruct Hin as [<-|Hin];
          [first [exact I | split; [vm_compute; reflexivity | first [exact I | vm_compute; reflexivity]]]|]).
  contradiction.
Qed.

(* nextField: a call that consumes a size update and a field; progress and the result *)
Lemma example_next_field :
  let o := next_field st0 empty_field true 0 [63;69;130;134] in
  nf_res o = Ok ([134], true) /\ h_max (nf_hp o) = 100 /\ f_key (nf_hf o) = [58;109;101;116;104;111;100].
Proof. vm_compute. repeat split; reflexivity. Qed.
