(* Proofs/SrvRfcBatch.v - C08: tools for the steps in which the server sends on its own account: what the
   outputs of a step tell the specification about one stream id (sents_on), what finishRequest does, the end of
   the stream loop after such a step, and streams rewritten in place (same_shape). *)
From H2V Require Import Base.Bytes Base.MachineInt Base.Result Gen.GenConsts Impl.ServerConn.
From H2V Require Import Proofs.SrvBase Proofs.SrvRfcDefs Proofs.SrvRfcSpec Proofs.SrvRfcModel Proofs.SrvRfcSim
  Proofs.SrvRfcSend Proofs.SrvRfcStep Proofs.SrvRfcKnown.
From Coq Require Import ZArith Lia ZifyN ZifyNat ZifyBool.
Local Open Scope N_scope.

(* what the outputs of a step tell the specification about one stream id *)
Definition sents_on (id : N) (d : list outev) : list RS.sent :=
  filter (on_id id) (flat_map sent_of (rev (filter noisy d))).

Section Batch.
Variable hstate : Type.
Notation sconn := (sconn hstate).
Notation view := (view hstate).
Notation tbl := (tbl hstate).
Notation Sim := (Sim hstate).
Notation AuxT := (AuxT hstate).
Notation AuxH := (AuxH hstate).
Notation live_tuple := (live_tuple hstate).
Implicit Types c : sconn.

Lemma st_of_after_on s d id : wf s -> RS.st_of (after_outs s d) id = fold_left sent_st (sents_on id d) (RS.st_of s id).
Proof. intro W. unfold after_outs, sents_on. apply st_of_fold_sent, W. Qed.

End Batch.

Section Batch2.
Variable hstate : Type.
Variable dec_field : hstate -> N -> bytes -> dec_res hstate.
Variable enc_field : hstate -> bytes -> bytes -> bool -> bytes * hstate.
Variable enc_set_max : hstate -> N -> hstate.
Variable cfg : config.
Notation sconn := (sconn hstate).
Notation step := (step dec_field enc_field enc_set_max cfg).
Notation feed := (feed hstate dec_field enc_field enc_set_max cfg).
Notation Gloc := (Gloc hstate).
Notation view := (view hstate).
Notation tbl := (tbl hstate).
Notation Sim := (Sim hstate).
Notation AuxT := (AuxT hstate).
Notation AuxH := (AuxH hstate).
Implicit Types c : sconn.

Lemma has_close_exit d : existsb is_exit d = true -> has_close (flat_map sent_of (rev (filter noisy d))) = true.
Proof.
  intro H. apply existsb_exists in H. destruct H as (o & Hin & He). unfold has_close. apply existsb_exists.
  exists RS.Closed_connection. split; [|reflexivity]. apply in_flat_map. exists o. split.
  - apply in_rev. rewrite rev_involutive. apply filter_In. split; [exact Hin|].
    unfold noisy, is_exit in *. destruct (strip_late o); try discriminate; reflexivity.
  - unfold sent_of, is_exit in *. destruct (strip_late o); try discriminate; left; reflexivity.
Qed.

Lemma Gloc_over c s ph c' d : sc_sl_done c' = true -> sc_out c' = d ++ sc_out c -> existsb is_exit d = true ->
  (forall sid rq, ~ In (ODispatch sid rq) d) -> Gloc c s ph c'.
Proof.
  intros Hsl Ho He Hd. exists d. split; [exact Ho|]. rewrite Hsl. split; [|exact Hd].
  unfold after_outs. rewrite dead_fold_sent, (has_close_exit d He). apply orb_true_r.
Qed.

(* the same step followed by the end of the stream loop *)
Lemma Gloc_finish c s ph c3 d (b : bool) :
  sc_out c3 = d ++ sc_out c -> (forall sid rq, ~ In (ODispatch sid rq) d) ->
  (b = false -> Gloc c s ph c3) -> Gloc c s ph (fst (if b then brk c3 else cont c3)).
Proof.
  intros Ho Hd H. destruct b; [|apply H; reflexivity].
  apply (Gloc_over c s ph _ (OExit 1 0 :: d)).
  - reflexivity.
  - rewrite sc_out_brk, Ho. reflexivity.
  - reflexivity.
  - intros sid rq [X|X]; [discriminate | exact (Hd sid rq X)].
Qed.

Definition hdr_data_rst (o : outev) : Prop := match o with OHeaders _ _ _ | OData _ _ _ | ORst _ _ => True | _ => False end.

Lemma hdr_data_rst_facts d : Forall hdr_data_rst d ->
  (forall sid rq, ~ In (ODispatch sid rq) d) /\ (forall o, In o d -> is_goaway o = None) /\ existsb is_exit d = false.
Proof.
  intro F. split; [|split].
  - intros sid rq H. rewrite Forall_forall in F. exact (F _ H).
  - intros o H. rewrite Forall_forall in F. specialize (F _ H). destruct o; try contradiction; reflexivity.
  - induction F as [|o t Ho _ IH]; [reflexivity|]. cbn [existsb]. rewrite IH. destruct o; try contradiction; reflexivity.
Qed.

Lemma finish_request_spec c s r c1 s1 fin : wr hstate c -> finish_request enc_field c s r = (c1, s1, fin) ->
  exists d e w, c1 = upd_clientWindow (upd_out (upd_enc c e) (d ++ sc_out c)) w /\ Forall hdr_data_rst d /\
    st_id s1 = st_id s /\ st_state s1 = st_state s /\ st_headersFinished s1 = st_headersFinished s /\
    st_responded s1 = st_responded s /\ st_handlerRunning s1 = st_handlerRunning s /\
    (if fin then
       (exists o, filter noisy d = [o] /\ sent_of o = [RS.SentEndStream (st_id s)] /\ st_weReset s1 = st_weReset s) \/
       (filter noisy d = [ORst (st_id s) c_InternalError] /\ st_weReset s1 = true)
     else filter noisy d = [] /\ st_weReset s1 = st_weReset s /\ send_ok s1).
Proof.
  intros W. unfold finish_request.
  destruct (response_block enc_field (sc_enc c) r) as [blk e'].
  set (hasBody := match rs_body r with BStream _ _ => true | BBuffered [] => false | BBuffered (_ :: _) => true end).
  assert (W1 : wr hstate (upd_enc c e')) by exact W.
  rewrite (emit_wr hstate _ _ W1).
  set (o0 := OHeaders (st_id s) (negb hasBody) blk).
  set (cH := note (upd_enc c e') o0).
  destruct hasBody eqn:HB; cbn [negb].
  - (* a body follows *)
    set (n := match rs_body r with
              | BStream reads size => mkSnd (st_window s) [] false (Some reads) size 0
              | BBuffered b => mkSnd (st_window s) b true (st_bodyStream s) (st_bodySize s) (st_bodyRead s)
              end).
    assert (HM : has_more_to_send (set_snd s n) = true /\ send_ok (set_snd s n)).
    { unfold n, hasBody in *. destruct (rs_body r) as [[|b0 b']|reads size]; try discriminate.
      - split; [reflexivity|]. intros _ _. reflexivity.
      - split; [unfold has_more_to_send; cbn; reflexivity|]. intros _ B. cbn in B. discriminate. }
    destruct HM as [HM SO]. intro SD.
    assert (WH : wr hstate cH) by (unfold cH; apply wr_note, W1).
    destruct (send_data_spec hstate cH (set_snd s n) c1 s1 fin WH HM SO SD) as (ds & SDd & FD & Sid & Sst & Sfin & Sresp & Srun & Sorig & Sout).
    exists (ds ++ [o0]), e', (sc_clientWindow c1). split; [|split].
    + unfold sd in SDd. rewrite SDd at 1. unfold cH, note. sc_cbn. rewrite <- app_assoc. reflexivity.
    + apply Forall_app. split; [|repeat constructor].
      rewrite Forall_forall in *. intros o H. specialize (FD o H). destruct o; try contradiction; exact I.
    + assert (Fq : filter noisy (ds ++ [o0]) = filter noisy ds) by (rewrite filter_app; cbn; apply app_nil_r).
      rewrite Fq. repeat split; auto.
      destruct fin.
      * destruct Sout as [(ch & Fn & Wr)|(Fn & Wr)]; [left | right].
        -- exists (OData (st_id s) true ch). cbn in Fn. split; [exact Fn|]. split; [reflexivity | exact Wr].
        -- split; [exact Fn | exact Wr].
      * exact Sout.
  - (* no body: the HEADERS frame ends the stream *)
    intro H. inversion H; subst c1 s1 fin. exists [o0], e', (sc_clientWindow c). split; [|split].
    + unfold cH, note. destruct c; reflexivity.
    + repeat constructor.
    + repeat split; auto. left. exists o0. split; [reflexivity|]. split; reflexivity.
Qed.

Lemma sents_on_quiet id d : filter noisy d = [] -> sents_on id d = [].
Proof. unfold sents_on. intros ->. reflexivity. Qed.

Lemma sents_on_one id d o so : filter noisy d = [o] -> sent_of o = [so] -> sents_on id d = if on_id id so then [so] else [].
Proof. unfold sents_on. intros -> . cbn [rev app flat_map]. intros ->. cbn [app filter]. reflexivity. Qed.

Lemma quiet_exit_false d : filter noisy d = [] -> existsb is_exit d = false.
Proof.
  intro Q. induction d as [|o t IH]; [reflexivity|]. cbn [filter] in Q. cbn [existsb]. destruct (noisy o) eqn:N; [discriminate|].
  rewrite (IH Q), orb_false_r. unfold noisy, is_exit in *. destruct (strip_late o); try discriminate; reflexivity.
Qed.

Definition same_shape (a b : stream) : Prop :=
  st_id b = st_id a /\ st_state b = st_state a /\ st_headersFinished b = st_headersFinished a /\ (strm_ok a -> strm_ok b).

Lemma same_shape_refl a : same_shape a a. Proof. unfold same_shape. auto. Qed.

Lemma Forall2_shape_refl l : Forall2 same_shape l l.
Proof. induction l; constructor; [apply same_shape_refl | assumption]. Qed.

Lemma Forall2_ids l l' : Forall2 same_shape l l' -> map st_id l' = map st_id l.
Proof. induction 1 as [|a b l l' H _ IH]; [reflexivity|]. cbn [map]. destruct H as [-> _]. rewrite IH. reflexivity. Qed.

Lemma Forall2_search l l' id : Forall2 same_shape l l' ->
  match strms_search l id, strms_search l' id with
  | Some a, Some b => same_shape a b
  | None, None => True
  | _, _ => False
  end.
Proof.
  induction 1 as [|a b l l' H _ IH]; cbn [strms_search]; [exact I|].
  destruct H as (Hid & Hr). rewrite Hid. destruct (st_id a =? id); [split; [exact Hid | exact Hr] | exact IH].
Qed.

End Batch2.
