(* Proofs/SrvIsoTwoRunOdd.v - ids the server knows are ids a client may use: every stream in the table, every id
   remembered in the ring of closed streams, every stream frame waiting in the reader queue has an ODD id - the read
   loop (checkFrameWithStream) lets nothing else through. For every event list. *)
From H2V Require Import Base.Bytes Base.MachineInt Base.Result Gen.GenConsts Impl.ServerConn Proofs.SrvBase
  Proofs.SrvIsoMoves Proofs.SrvIsoSteps Proofs.SrvInvFrame.
From Coq Require Import ZArith Lia ZifyN ZifyNat ZifyBool.
Local Open Scope N_scope.

Definition oddN (n : N) : Prop := N.land n 1 = 1.

Section Odd.
Variable hstate : Type.
Variable dec_field : hstate -> N -> bytes -> dec_res hstate.
Variable enc_field : hstate -> bytes -> bytes -> bool -> bytes * hstate.
Variable enc_set_max : hstate -> N -> hstate.
Variable cfg : config.
Notation sconn := (sconn hstate).
Implicit Types c : sconn.

(* table and ring *)
Definition OT c : Prop :=
  (forall i, In i (map st_id (sc_strms c)) -> oddN i) /\ (forall e, In e (sc_ring c) -> oddN (fst e)).
(* reader queue *)
Definition OQ c : Prop := forall fr, In fr (sc_readerQ c) -> sf_sid fr <> 0 -> oddN (sf_sid fr).

(* what most of the stream loop leaves alone: the table, the ring and its cursor; of the working copy of
   a stream, its id and state *)
Definition tv c := (sc_strms c, sc_ring c, sc_oldest c).
Definition sv (s : stream) := (st_id s, st_state s).

Lemma sv_id s x : sv x = sv s -> st_id x = st_id s.
Proof. intro E. inversion E. reflexivity. Qed.

Lemma tv_emit c o : tv (emit c o) = tv c.
Proof. rewrite emit_eq. reflexivity. Qed.
Lemma tv_write_goaway c sid code : tv (write_goaway c sid code) = tv c.
Proof. rewrite write_goaway_eq, tv_emit. reflexivity. Qed.
Lemma tv_write_error c s e : tv (fst (write_error c s e)) = tv c.
Proof. rewrite write_error_fst. destruct e, s; first [apply tv_write_goaway | apply tv_emit | reflexivity]. Qed.
Lemma tv_credit_conn_window c n : tv (credit_conn_window cfg c n) = tv c.
Proof. unfold tv. rewrite sc_strms_credit_conn_window, sc_ring_credit_conn_window, sc_oldest_credit_conn_window. reflexivity. Qed.
Lemma tv_consume_recv_window c s fr n : tv (consume_recv_window cfg c s fr n) = tv c.
Proof. unfold tv. rewrite sc_strms_consume_recv_window, sc_ring_consume_recv_window, sc_oldest_consume_recv_window. reflexivity. Qed.
Lemma tv_release_stream c s : tv (release_stream c s) = tv c.
Proof. unfold release_stream. destruct (fkind_eqb _ _); reflexivity. Qed.

Lemma tv_send_data c s : tv (fst (fst (send_data c s))) = tv c.
Proof.
  unfold send_data.
  pose proof (send_data_loop_rel _ (fun a b => tv b = tv a) (fun _ => eq_refl) (fun a b d H1 H2 => eq_trans H2 H1) tv_emit
                (fun _ _ => eq_refl) (send_data_fuel (get_snd s)) c (st_id s) (get_snd s)) as L.
  destruct (send_data_loop _ c (st_id s) (get_snd s)) as [[[c1 n1] dn] wr]. exact L.
Qed.
Lemma sv_send_data c s : sv (snd (fst (send_data c s))) = sv s.
Proof.
  unfold send_data.
  destruct (send_data_loop (send_data_fuel (get_snd s)) c (st_id s) (get_snd s)) as [[[c1 n1] done] wr].
  cbn [fst snd]. destruct wr; reflexivity.
Qed.
Lemma tv_finish_request c s r : tv (fst (fst (finish_request enc_field c s r))) = tv c.
Proof.
  unfold finish_request. destruct (response_block enc_field (sc_enc c) r) as [blk e'].
  match goal with |- context [if ?b then _ else _] => destruct b end; cbn [fst snd]; rewrite ?tv_send_data, tv_emit; reflexivity.
Qed.
Lemma sv_finish_request c s r : sv (snd (fst (finish_request enc_field c s r))) = sv s.
Proof.
  unfold finish_request. destruct (response_block enc_field (sc_enc c) r) as [blk e'].
  match goal with |- context [if ?b then _ else _] => destruct b end; cbn [fst snd]; [reflexivity|].
  rewrite sv_send_data. destruct (rs_body r); reflexivity.
Qed.

Lemma write_error_id c s e x : snd (write_error c (Some s) e) = Some x -> st_id x = st_id s.
Proof. destruct e; cbn [write_error snd]; intro H; inversion H; reflexivity. Qed.
Lemma handle_state_id fr s : st_id (handle_state fr s) = st_id s.
Proof. unfold handle_state. repeat match goal with |- context [if ?b then _ else _] => destruct b | |- context [match st_state ?x with _ => _ end] => destruct (st_state x) end; reflexivity. Qed.

(* header blocks: only the decoder and the discard registers *)
Lemma tv_discard_fragment c id fragment eh : tv (fst (discard_fragment dec_field cfg c id fragment eh)) = tv c.
Proof.
  unfold discard_fragment. destruct (discard_loop _ _ _ _ _ _) as [[[d' fields] carry] e].
  destruct e; [reflexivity|]. destruct eh; [reflexivity|]. destruct (_ && _)%bool; reflexivity.
Qed.
Lemma tv_discard_header_block c fr : tv (fst (discard_header_block dec_field cfg c fr)) = tv c.
Proof. unfold discard_header_block. rewrite tv_discard_fragment. destruct (fkind_eqb _ _); reflexivity. Qed.

Lemma handle_header_frame_tv c s fr :
  tv (fst (fst (handle_header_frame dec_field cfg c s fr))) = tv c /\
  sv (snd (fst (handle_header_frame dec_field cfg c s fr))) = sv s.
Proof.
  unfold handle_header_frame.
  destruct (_ && _)%bool; [split; reflexivity|]. destruct (_ && _)%bool; [split; reflexivity|].
  cbv zeta. destruct (header_loop _ _ _ _ _ _ _) as [[[d' h2] e] rest].
  destruct e as [[code|code|]|]; try (split; reflexivity).
  - match goal with |- context [discard_fragment ?a ?b ?c0 ?d ?e ?f] =>
      pose proof (tv_discard_fragment c0 d e f) as T; destruct (discard_fragment a b c0 d e f) as [c3 [de|]] end;
      cbn [fst snd] in *; (split; [exact T | reflexivity]).
  - destruct (_ && _)%bool; split; reflexivity.
Qed.

Lemma handle_frame_tv c s fr :
  tv (fst (fst (handle_frame dec_field cfg c s fr))) = tv c /\
  sv (snd (fst (handle_frame dec_field cfg c s fr))) = sv s.
Proof.
  destruct (is_hdr_kind (sf_kind fr)) eqn:HK.
  - rewrite (handle_frame_hdr _ dec_field cfg c s fr HK). destruct (verify_state s fr); [split; reflexivity|].
    unfold hframe_hdr. destruct (_ && _)%bool; [split; reflexivity|].
    pose proof (handle_header_frame_tv c s fr) as [T I].
    destruct (handle_header_frame dec_field cfg c s fr) as [[c1 s1] [e|]]; cbn [fst snd] in T, I; [split; assumption|].
    destruct (flag_has _ _); [|split; assumption]. cbv zeta. destruct (negb _); [split; assumption|].
    destruct (validate_request_pseudo_headers _); split; assumption.
  - unfold handle_frame. destruct (verify_state s fr); [split; reflexivity|].
    destruct (sf_kind fr); try discriminate HK;
      try (repeat (match goal with |- context [if ?b then _ else _] => destruct b end); split; reflexivity).
    (* DATA *)
    destruct (negb _); [split; reflexivity|]. destruct (_ <=? _); [split; reflexivity|]. cbv zeta.
    destruct (_ && _)%bool; cbn [fst snd]; (split; [|reflexivity]); [apply tv_credit_conn_window | apply tv_consume_recv_window].
Qed.

Lemma OT_tveq c c' : tv c' = tv c -> OT c -> OT c'.
Proof. unfold tv. intros E [A B]. inversion E as [[E1 E2 E3]]. split; [rewrite E1 | rewrite E2]; assumption. Qed.
Lemma OT_found c id s : OT c -> strms_search (sc_strms c) id = Some s -> oddN (st_id s).
Proof. intros [A _] F. apply strms_search_In in F. destruct F as [I _]. apply A. apply in_map. exact I. Qed.
Lemma OT_head c n t : OT c -> sc_strms c = n :: t -> oddN (st_id n).
Proof. intros [A _] E. apply A. rewrite E. left. reflexivity. Qed.

Lemma OT_mark_closed c id w : oddN id -> OT c -> OT (mark_closed c id w).
Proof.
  intros O [A B]. split; [rewrite sc_strms_mark_closed; exact A|].
  intros e He. destruct (mark_closed_ring_In _ _ _ _ _ He) as [->|H]; [exact O | auto].
Qed.
Lemma OT_put c x : OT c -> OT (put c x).
Proof. intros [A B]. split; [|exact B]. unfold put. sc_cbn. rewrite strms_put_ids. exact A. Qed.
Lemma OT_close_stream c s : oddN (st_id s) -> OT c -> OT (close_stream c s).
Proof.
  intros O H. split.
  - rewrite sc_strms_close_stream. intros i Hi. apply (proj1 H). eapply strms_del_ids_incl. exact Hi.
  - rewrite sc_ring_close_stream. apply OT_mark_closed; assumption.
Qed.
Lemma OT_brk c : OT c -> OT (fst (brk c)).
Proof. apply OT_tveq. reflexivity. Qed.
Lemma OT_brk_if (b : bool) c : OT c -> OT (fst (if b then brk c else cont c)).
Proof. destruct b; [apply OT_brk | auto]. Qed.
Lemma OT_write_reset c sid code : OT c -> OT (write_reset c sid code).
Proof. apply OT_tveq, tv_emit. Qed.
Lemma OT_write_goaway c sid code : OT c -> OT (write_goaway c sid code).
Proof. apply OT_tveq, tv_write_goaway. Qed.
Lemma OT_note c o : OT c -> OT (note c o).
Proof. apply OT_tveq. reflexivity. Qed.
Lemma OT_emit c o : OT c -> OT (emit c o).
Proof. apply OT_tveq, tv_emit. Qed.
Lemma OT_write_error c s e : OT c -> OT (fst (write_error c s e)).
Proof. apply OT_tveq, tv_write_error. Qed.
Lemma OT_send_data c s : OT c -> OT (fst (fst (send_data c s))).
Proof. apply OT_tveq, tv_send_data. Qed.
Lemma OT_finish_request c s r : OT c -> OT (fst (fst (finish_request enc_field c s r))).
Proof. apply OT_tveq, tv_finish_request. Qed.

Lemma OT_write_back c2 s2 wc : OT c2 -> oddN (st_id s2) -> OT (fst (write_back c2 s2 wc)).
Proof.
  intros H O. unfold write_back. cbv zeta. apply OT_brk_if.
  destruct (sstate_eqb _ _); [apply OT_close_stream; [exact O|]|]; apply OT_put; exact H.
Qed.

Lemma OT_after_frame c s fr wc : OT c -> oddN (st_id s) -> OT (fst (after_frame cfg c s fr wc)).
Proof.
  intros H O. rewrite after_frame_eq. rewrite <- (handle_state_id fr s) in O. set (s1 := handle_state fr s) in *.
  assert (M : OT (fst (af_sel c s1)) /\ st_id (snd (af_sel c s1)) = st_id s1).
  { unfold af_sel. destruct (_ && _ && _)%bool.
    - destruct (_ && _)%bool; cbn [fst snd]; (split; [|reflexivity]); [apply OT_write_reset | apply OT_note]; exact H.
    - destruct (_ && _ && _)%bool; [|split; [exact H | reflexivity]].
      pose proof (OT_send_data c s1 H) as T. pose proof (sv_id _ _ (sv_send_data c s1)) as I.
      destruct (send_data c s1) as [[c1 s2] fin]. cbn [fst snd] in *. split; [exact T|].
      rewrite <- I. destruct fin; reflexivity. }
  destruct (af_sel c s1) as [c2 s2]. cbn [fst snd] in M. destruct M as [H2 I2]. apply OT_write_back; [exact H2 | rewrite I2; exact O].
Qed.

Lemma OT_flush_loop ids : forall c done, OT c -> OT (fst (flush_loop c ids done)).
Proof.
  induction ids as [|id t IH]; intros c done H; cbn [flush_loop]; [exact H|].
  destruct (strms_search (sc_strms c) id) as [s|]; [|apply IH, H].
  destruct (_ && _ && _)%bool; [|apply IH, H].
  pose proof (OT_send_data c s H) as T. destruct (send_data c s) as [[c1 s1] fin]. cbn [fst] in T.
  apply IH. apply OT_put. exact T.
Qed.
Lemma OT_close_all ids : forall c, OT c -> OT (close_all c ids).
Proof.
  induction ids as [|id t IH]; intros c H; cbn [close_all]; [exact H|].
  destruct (strms_search (sc_strms c) id) as [s|] eqn:F; [|apply IH, H].
  apply IH. apply OT_close_stream; [|exact H]. cbn [st_id set_state]. eapply OT_found; eassumption.
Qed.
Lemma OT_flush_streams c : OT c -> OT (flush_streams c).
Proof.
  intro H. unfold flush_streams. pose proof (OT_flush_loop (map st_id (sc_strms c)) c [] H) as T.
  destruct (flush_loop c (map st_id (sc_strms c)) []) as [c1 done]. cbn [fst] in T. apply OT_close_all, T.
Qed.
Lemma OT_implicit_close fuel : forall c sid, OT c -> OT (implicit_close fuel c sid).
Proof.
  induction fuel as [|fuel IH]; intros c sid H; cbn [implicit_close]; [exact H|].
  destruct (sc_strms c) as [|n t] eqn:E; [exact H|]. destruct (_ && _ && _)%bool; [|exact H].
  apply IH. apply OT_write_reset. apply OT_close_stream; [|exact H]. cbn [st_id set_state set_weReset].
  eapply OT_head; eassumption.
Qed.
Lemma OT_close_heads n : forall c, OT c -> OT (close_heads n c).
Proof.
  induction n as [|n IH]; intros c H; cbn [close_heads]; [exact H|].
  destruct (sc_strms c) as [|s t] eqn:E; [exact H|]. apply IH. apply OT_close_stream.
  - cbn [st_id set_state set_weReset]. eapply OT_head; eassumption.
  - apply OT_write_reset, H.
Qed.
Lemma OT_sl_timer c : OT c -> OT (fst (sl_timer cfg c)).
Proof. intro H. unfold sl_timer. destruct (_ <=? _)%Z; cbn [cont fst]; [exact H | apply OT_close_heads, H]. Qed.

Lemma OT_sl_done c sid r : OT c -> OT (fst (sl_done enc_field cfg c sid r)).
Proof.
  intro H. unfold sl_done. destruct (take_stream _ _) as [[s rest]|].
  - cbn [cont fst]. revert H. apply OT_tveq. rewrite tv_release_stream. reflexivity.
  - destruct (strms_search (sc_strms c) sid) as [s|] eqn:F; [|exact H]. destruct (negb _); [exact H|].
    pose proof (OT_found _ _ _ H F) as O.
    set (s1 := set_flags s (st_responded s) false (st_abandoned s)).
    pose proof (OT_finish_request c s1 r H) as T. pose proof (sv_id _ _ (sv_finish_request c s1 r)) as I.
    destruct (finish_request enc_field c s1 r) as [[c1 s2] fin]. cbn [fst snd] in T, I. cbv zeta.
    match goal with |- context [if ?b then brk ?x else cont ?x] => apply (OT_brk_if b x) end.
    destruct fin; [apply OT_close_stream; [cbn [st_id set_state]; rewrite I; exact O|]|]; apply OT_put, T.
Qed.

Lemma OT_discard_or_break (r : sconn * option h2err) : OT (fst r) -> OT (fst (discard_or_break r)).
Proof.
  destruct r as [c1 [e|]]; cbn [fst discard_or_break]; intro H; [|exact H].
  destruct e; apply OT_brk; try apply OT_write_error; try apply OT_note; exact H.
Qed.
Lemma OT_discard_header_block c fr : OT c -> OT (fst (discard_or_break (discard_header_block dec_field cfg c fr))).
Proof. intro H. apply OT_discard_or_break. revert H. apply OT_tveq, tv_discard_header_block. Qed.

Lemma OT_ftail_rest c s e fr wc : OT c -> oddN (st_id s) -> OT (fst (ftail_rest cfg c s e fr wc)).
Proof.
  intros H O. unfold ftail_rest. destruct e as [e|]; [|apply OT_after_frame; assumption].
  pose proof (OT_write_error c (Some s) e H) as T. pose proof (write_error_id c s e) as I.
  destruct (write_error c (Some s) e) as [c4 s4]. cbn [fst snd] in T, I.
  assert (O5 : oddN (st_id (match s4 with Some x => set_state x SClosed | None => set_state s SClosed end))).
  { destruct s4 as [x|]; cbn [st_id set_state]; [rewrite (I x eq_refl)|]; exact O. }
  destruct e as [code|code|].
  - destruct (negb _); [apply OT_brk, OT_put, T | apply OT_after_frame; assumption].
  - apply OT_after_frame; assumption.
  - apply OT_brk, OT_note, H.
Qed.
Lemma OT_ftail c s fr wc : OT c -> oddN (st_id s) -> OT (fst (ftail dec_field cfg c s fr wc)).
Proof.
  intros H O. unfold ftail. pose proof (handle_frame_tv c s fr) as [T I].
  destruct (handle_frame dec_field cfg c s fr) as [[c3 s3] e]. cbn [fst snd] in T, I.
  apply OT_ftail_rest; [revert H; apply OT_tveq, T | rewrite (sv_id _ _ I); exact O].
Qed.
Lemma OT_fwork c s fr wc : OT c -> oddN (st_id s) -> OT (fst (fwork dec_field cfg c s fr wc)).
Proof.
  intros H O. unfold fwork. cbv zeta. destruct (fkind_eqb _ _); [|apply OT_ftail; assumption].
  destruct (get_previous_headers _) as [p|].
  - destruct (negb _).
    + pose proof (OT_write_error c (Some p) (EGoAway c_ProtocolError) H) as T.
      destruct (write_error c (Some p) (EGoAway c_ProtocolError)) as [c2 p']. cbn [fst] in T. cbn [cont fst].
      destruct p'; [apply OT_put|]; exact T.
    + apply OT_ftail; [apply OT_implicit_close, H | exact O].
  - apply OT_ftail; [apply OT_implicit_close, H | exact O].
Qed.

Lemma OT_sl_frame c fr : OT c -> (sf_sid fr <> 0 -> oddN (sf_sid fr)) ->
  OT (fst (sl_frame dec_field enc_set_max cfg c fr)).
Proof.
  intros H OF. unfold sl_frame.
  destruct (sf_sid fr =? 0) eqn:Z0.
  { destruct (sf_kind fr); try exact H.
    - (* SETTINGS *)
      set (c0 := if sf_set_hastable fr then upd_enc c (enc_set_max (sc_enc c) (sf_set_table fr)) else c).
      assert (H0 : OT c0) by (subst c0; destruct (sf_set_hastable fr); [revert H; apply OT_tveq; reflexivity | exact H]).
      destruct (sf_set_haswin fr); [|apply OT_emit, H0].
      cbv zeta.
      match goal with |- context [let '(aa, bb) := ?B in _] =>
        assert (BS : exists l', fst B = [] ++ l' /\ Forall2 (tr 0 false) (sc_strms (upd_initWin c0 (signed 32 (sf_set_win fr)))) l')
          by (apply (bumpall_tr 0 false (signed 32 (sf_set_win fr) - sc_initWin c0)));
        destruct B as [lB over] end.
      destruct BS as (lq & E & F2). cbn [fst app] in E. subst lB.
      assert (H1 : OT (upd_strms (upd_initWin c0 (signed 32 (sf_set_win fr))) lq)).
      { split; [|apply H0]. sc_cbn. rewrite (Forall2_tr_ids _ _ _ _ F2). sc_cbn. apply H0. }
      destruct over; [apply OT_brk, OT_write_goaway, H1 | apply OT_flush_streams, OT_emit, H1].
    - (* WINDOW_UPDATE *)
      cbv zeta. assert (H1 : OT (upd_clientWindow c (sc_clientWindow c + Z.of_N (sf_inc fr)))) by (revert H; apply OT_tveq; reflexivity).
      destruct (_ <? _)%Z; [apply OT_brk, OT_write_goaway, H1 | apply OT_flush_streams, H1]. }
  assert (O : oddN (sf_sid fr)) by (apply OF; lia).
  destruct (_ && _ && _)%bool; [apply OT_discard_header_block, H|].
  cbv zeta.
  change (match ?pre with inl r => r | inr (c1, s) => _ end) with
    (match pre with inl r => r | inr (c1, s) => fwork dec_field cfg c1 s fr (sc_closing c) end).
  destruct (if sf_sid fr <=? sc_lastID c then strms_search (sc_strms c) (sf_sid fr) else None) as [s|] eqn:Found.
  { assert (SS : strms_search (sc_strms c) (sf_sid fr) = Some s) by (destruct (_ <=? _); [exact Found | discriminate]).
    apply OT_fwork; [exact H | eapply OT_found; eassumption]. }
  destruct (fkind_eqb (sf_kind fr) KRst).
  { destruct (_ && _)%bool; [apply OT_write_goaway, H | exact H]. }
  destruct (in_ring c (sf_sid fr)).
  { destruct (sf_kind fr); cbn [cont fst]; try exact H; try (apply OT_write_goaway, H);
      destruct (match ring_find c (sf_sid fr) with Some b => b | None => false end);
      try (apply OT_write_goaway, H); try apply OT_discard_header_block, H.
    revert H. apply OT_tveq, tv_credit_conn_window. }
  destruct (fkind_eqb (sf_kind fr) KPriority).
  { destruct (sf_dep fr =? sf_sid fr); cbn [cont fst]; [apply OT_write_reset, H | exact H]. }
  destruct (_ && _)%bool; [apply OT_write_goaway, H|].
  set (c0 := if fkind_eqb (sf_kind fr) KHeaders then upd_highestID c (sf_sid fr) else c).
  assert (H0 : OT c0) by (subst c0; destruct (fkind_eqb _ _); [revert H; apply OT_tveq; reflexivity | exact H]).
  destruct (_ && _)%bool.
  { apply OT_discard_header_block. apply OT_mark_closed; [exact O | apply OT_write_reset, H0]. }
  destruct (_ <? _); [apply OT_write_goaway, H0|].
  destruct (_ && _)%bool.
  { apply OT_discard_header_block. apply OT_mark_closed; [exact O | apply OT_write_reset, H0]. }
  set (c1 := if fkind_eqb (sf_kind fr) KHeaders then upd_lastID c0 (sf_sid fr) else c0).
  assert (H1 : OT c1) by (subst c1; destruct (fkind_eqb _ _); [revert H0; apply OT_tveq; reflexivity | exact H0]).
  apply OT_fwork; [|exact O].
  set (s := set_orig_started _ _ _).
  assert (H2 : OT (upd_strms c1 (sc_strms c1 ++ [s]))).
  { split; [|apply H1]. sc_cbn. rewrite map_app. intros i Hi. apply in_app_or in Hi. destruct Hi as [Hi|[<-|[]]]; [apply H1, Hi | exact O]. }
  destruct (fkind_eqb _ _); [revert H2; apply OT_tveq; reflexivity | exact H2].
Qed.

(* the read loop: what it forwards *)
Lemma OQ_same c c' : sc_readerQ c' = sc_readerQ c -> OQ c -> OQ c'.
Proof. unfold OQ. intros ->. auto. Qed.
Lemma OQ_forward c fr : (sf_sid fr <> 0 -> oddN (sf_sid fr)) -> OQ c -> OQ (forward c fr).
Proof.
  intros O H. unfold forward. destruct (sc_sl_done c); [revert H; apply OQ_same; reflexivity|].
  unfold OQ. sc_cbn. intros f Hf. apply in_app_or in Hf. destruct Hf as [Hf|[<-|[]]]; [apply H, Hf | exact O].
Qed.
(* rl_step on a frame: the gate (is the frame what the header block in progress allows?), then the frame itself *)
Definition rl_gate (c : sconn) (fr : sframe) : sconn + sconn :=
  if negb (sc_expectCont c =? 0) then
    if negb (fkind_eqb (sf_kind fr) KCont) || negb (sf_sid fr =? sc_expectCont c) then
      inl (rl_exit (write_goaway c 0 c_ProtocolError) 1)
    else if flag_has (sf_flags fr) FL_EH then inr (upd_expectCont c 0) else inr c
  else if fkind_eqb (sf_kind fr) KCont then inl (rl_exit (write_goaway c 0 c_ProtocolError) 1)
  else if fkind_eqb (sf_kind fr) KHeaders && negb (flag_has (sf_flags fr) FL_EH) then inr (upd_expectCont c (sf_sid fr))
  else inr c.
Lemma rl_step_RFrame c fr :
  rl_step cfg c (RFrame fr) = match rl_gate c fr with inl c' => c' | inr c1 => rl_dispatch c1 fr end.
Proof. reflexivity. Qed.

Lemma check_frame_oddN fr : check_frame_with_stream fr = None -> oddN (sf_sid fr).
Proof.
  unfold check_frame_with_stream, oddN. destruct (N.land (sf_sid fr) 1 =? 0) eqn:E; [discriminate|]. intros _.
  apply N.eqb_neq in E. pose proof (N.land_ones (sf_sid fr) 1) as L. change (N.ones 1) with 1 in L. change (2 ^ 1) with 2 in L.
  pose proof (N.mod_upper_bound (sf_sid fr) 2 ltac:(lia)) as U. lia.
Qed.

Lemma OQ_goaway_exit c sid code why : OQ c -> OQ (rl_exit (write_goaway c sid code) why).
Proof. apply OQ_same. rewrite sc_readerQ_rl_exit. apply sc_readerQ_write_goaway. Qed.

Lemma OQ_rl_dispatch c1 fr : OQ c1 -> OQ (rl_dispatch c1 fr).
Proof.
  intro Q. unfold rl_dispatch. destruct (negb (sf_sid fr =? 0)) eqn:Z.
  - destruct (check_frame_with_stream fr) as [e|] eqn:CK.
    + revert Q. apply OQ_same. rewrite sc_readerQ_rl_exit. apply sc_readerQ_write_error.
    + apply OQ_forward; [intros _; apply check_frame_oddN, CK | exact Q].
  - apply negb_false_iff, N.eqb_eq in Z.
    destruct (sf_kind fr); repeat match goal with |- context [if ?b then _ else _] => destruct b end;
      try exact Q; try (apply OQ_forward; [intro; contradiction | exact Q]); try (apply OQ_goaway_exit, Q);
      revert Q; apply OQ_same; first [apply sc_readerQ_emit | reflexivity].
Qed.

Lemma OQ_rl_step c i : OQ c -> OQ (rl_step cfg c i).
Proof.
  intro H. destruct i as [fr| |[code|]|].
  - rewrite rl_step_RFrame.
    assert (Q : match rl_gate c fr with inl c' => OQ c' | inr c1 => OQ c1 end).
    { unfold rl_gate. repeat match goal with |- context [if ?b then _ else _] => destruct b end;
        try exact H; try (apply OQ_goaway_exit, H); revert H; apply OQ_same; reflexivity. }
    destruct (rl_gate c fr) as [c'|c1]; [exact Q | apply OQ_rl_dispatch, Q].
  - cbn [rl_step]. destruct (negb _); [apply OQ_goaway_exit, H | exact H].
  - apply OQ_goaway_exit, H.
  - revert H. apply OQ_same. reflexivity.
  - revert H. apply OQ_same. reflexivity.
Qed.

Notation step := (step dec_field enc_field enc_set_max cfg).
Definition OI c : Prop := OT c /\ OQ c.

Lemma slview_tv c c' : slview _ c' = slview _ c -> tv c' = tv c.
Proof. unfold slview, tv. intro E. inversion E. reflexivity. Qed.

Theorem OI_step c e : OI c -> OI (step c e).
Proof.
  intros [HT HQ]. destruct e as [i| |sid r|t| | | |].
  - split.
    + revert HT. apply OT_tveq, slview_tv. apply (read_loop_event_frame _ dec_field enc_field enc_set_max cfg).
    + rewrite step_EvRL. destruct (sc_rl_done c); [exact HQ | apply OQ_rl_step, HQ].
  - assert (QQ : OQ (step c EvSL)).
    { destruct (stream_loop_event_frame _ dec_field enc_field enc_set_max cfg c EvSL I) as (_ & _ & [E|[fr E]]).
      - revert HQ. apply OQ_same, E.
      - unfold OQ in *. intros f Hf. apply HQ. rewrite E. right. exact Hf. }
    split; [|exact QQ]. rewrite step_EvSL. destruct (sc_sl_done c); [exact HT|].
    destruct (sc_readerQ c) as [|fr q] eqn:RQ.
    + destruct (sc_rl_done c); [|exact HT]. revert HT. apply OT_tveq; reflexivity.
    + apply OT_sl_frame; [revert HT; apply OT_tveq; reflexivity|]. apply HQ. rewrite RQ. left. reflexivity.
  - split.
    + rewrite step_EvDone. destruct (sc_sl_done c); [exact HT | apply OT_sl_done, HT].
    + destruct (stream_loop_event_frame _ dec_field enc_field enc_set_max cfg c (EvDone sid r) I) as (_ & _ & [E|[fr E]]).
      * revert HQ. apply OQ_same, E.
      * unfold OQ in *. intros f Hf. apply HQ. rewrite E. right. exact Hf.
  - rewrite step_EvClock. destruct (_ <? _)%Z; [|split; assumption].
    split; [revert HT; apply OT_tveq; reflexivity | revert HQ; apply OQ_same; reflexivity].
  - split.
    + rewrite step_EvTimer. destruct (sc_sl_done c); [exact HT | apply OT_sl_timer, HT].
    + destruct (stream_loop_event_frame _ dec_field enc_field enc_set_max cfg c EvTimer I) as (_ & _ & [E|[fr E]]).
      * revert HQ. apply OQ_same, E.
      * unfold OQ in *. intros f Hf. apply HQ. rewrite E. right. exact Hf.
  - rewrite step_EvIdle. split; [revert HT; apply OT_tveq, tv_write_goaway | revert HQ; apply OQ_same, sc_readerQ_write_goaway].
  - rewrite step_EvCloser. destruct (_ && _)%bool; [|split; assumption].
    split; [apply OT_brk, HT | revert HQ; apply OQ_same; rewrite ?sc_readerQ_rl_exit, ?sc_readerQ_write_goaway, ?sc_readerQ_emit; reflexivity].
  - rewrite step_EvWriteFail. split; [revert HT; apply OT_tveq; reflexivity | revert HQ; apply OQ_same; reflexivity].
Qed.

Theorem OI_run h0 evs : OI (run dec_field enc_field enc_set_max cfg h0 evs).
Proof.
  apply run_ind; [|intros c e H; apply OI_step, H].
  split; [split|]; cbn; intros ? [].
Qed.

(* an id remembered in the ring is odd, in every reachable state *)
Theorem ring_ids_odd h0 evs id b :
  ring_find (run dec_field enc_field enc_set_max cfg h0 evs) id = Some b -> oddN id.
Proof.
  intro F. destruct (OI_run h0 evs) as [[_ B] _]. unfold ring_find in F.
  destruct (find _ _) as [e|] eqn:E; [|discriminate]. apply find_some in E. destruct E as [I Q].
  apply N.eqb_eq in Q. subst id. apply B, I.
Qed.

End Odd.

Arguments tv {hstate}. Arguments rl_gate {hstate}. Arguments rl_dispatch {hstate}.
