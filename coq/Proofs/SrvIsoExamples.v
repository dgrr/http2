(* Proofs/SrvIsoExamples.v - concrete event lists for the theorems of C09 (and C01), on the model instantiated
   with the real HPACK model (Impl/ServerInst.v). Everything here is by computation. *)
From H2V Require Import Base.Bytes Base.MachineInt Base.Result Gen.GenConsts Impl.Hpack Impl.ServerConn Impl.ServerInst
  Proofs.SrvBase Proofs.SrvIsoRef Proofs.SrvIsoMoves Proofs.SrvIsoSteps Proofs.SrvIsoHdr Proofs.SrvIsoHdrStep
  Proofs.SrvIsoRun Proofs.SrvIsoErr.
From H2V Require Import Proofs.SrvIsoReq Proofs.SrvFlowSend Proofs.SrvIsoResp Proofs.SrvIsoNI.
From H2V Require Import Proofs.SrvIsoOwn Proofs.SrvIsoLog.
Local Open Scope N_scope.

Definition xfr (k : fkind) (fl sid : N) (payload : bytes) : sframe :=
  mkSFrame k fl sid (len payload) payload 0 0 0 false 0 false 0.
(* the read loop gets the frame, the stream loop handles it *)
Definition rx (f : sframe) : list event := [EvRL (RFrame f); EvSL].

Notation s_clean := (clean srv_dec_field srv_enc_field set_max_table_size).
Notation s_cleanb := (cleanb _ srv_dec_field srv_enc_field set_max_table_size).
Notation s_hframes := (hframes srv_dec_field srv_enc_field set_max_table_size).

(* one connection, at most 2 concurrent streams:
   stream 1: a request whose body never comes (stays open), its block adds ("a","b") to the dynamic table;
   stream 3: HEADERS without END_HEADERS whose second field has an upper-case name (stream error), cut in the
             middle of a third field that adds ("c","d"); the CONTINUATION brings the rest;
   stream 5: a request that refers to ("c","d") by index 62 - it decodes only if the block of stream 3 was
             decoded to its end;
   stream 7: refused (two streams are open); its block adds ("g","h");
   stream 5 is answered; stream 9: refers to ("g","h") by index 62. *)
Definition ex_cfg : config := mkCfg 2 0 0 0 65535.
Definition ex_evs : list event :=
  rx (xfr KHeaders 4 1 [130;132;135; 64;1;97;1;98]) ++
  rx (xfr KHeaders 0 3 [130; 0;1;65;1;98; 64;1;99]) ++ rx (xfr KCont 4 3 [1;100]) ++
  rx (xfr KHeaders 5 5 [130;132;135;190]) ++
  rx (xfr KHeaders 5 7 [64;1;103;1;104]) ++
  [EvDone 5 (mkResp 200 [] (BBuffered [1;2;3]))] ++
  rx (xfr KHeaders 5 9 [130;132;135;190]).

Definition ex_req (f : list (bytes * bytes)) : request := mkReq [71;69;84] [47] [104;116;116;112;115] None f [].

(* the state the run ends in, evaluated once *)
Definition ex_final := Eval vm_compute in srv_run ex_cfg ex_evs.
Lemma ex_final_eq : srv_run ex_cfg ex_evs = ex_final.
Proof. vm_compute. reflexivity. Qed.

Lemma ex_trace : srv_trace (srv_run ex_cfg ex_evs) =
  [ORst 3 c_ProtocolError; ORelease 3 true; ODispatch 5 (ex_req [([99],[100])]); ORst 7 c_RefusedStreamError;
   OHeaders 5 false [136]; OData 5 true [1;2;3]; ORelease 5 true; ODispatch 9 (ex_req [([103],[104])])].
Proof. rewrite ex_final_eq. reflexivity. Qed.

Lemma ex_cleanb : s_cleanb ex_cfg srv_init_hpack ex_evs = true.
Proof. vm_compute. reflexivity. Qed.

Lemma ex_clean : s_clean ex_cfg srv_init_hpack ex_evs.
Proof. apply cleanb_sound. exact ex_cleanb. Qed.

Lemma ex_frags : map frag (s_hframes ex_cfg srv_init_hpack ex_evs) =
  [(false, true, [130;132;135; 64;1;97;1;98]); (false, false, [130; 0;1;65;1;98; 64;1;99]); (true, true, [1;100]);
   (false, true, [130;132;135;190]); (false, true, [64;1;103;1;104]); (false, true, [130;132;135;190])].
Proof. vm_compute. reflexivity. Qed.

(* the decoder state after the run is the reference folded over the six fragments *)
Lemma ex_reference :
  ref_fold _ srv_dec_field (srv_init_hpack, 0, []) (s_hframes ex_cfg srv_init_hpack ex_evs) =
  Some (sc_dec (srv_run ex_cfg ex_evs), 4, []).
Proof. rewrite ex_final_eq. vm_compute. reflexivity. Qed.

Lemma ex_dynamic_table : map (fun f => (f_key f, f_value f)) (h_dynamic (sc_dec (srv_run ex_cfg ex_evs))) =
  [([97],[98]); ([99],[100]); ([103],[104])].
Proof. rewrite ex_final_eq. reflexivity. Qed.

(* a second run: other limits (4 concurrent streams: nothing is refused), other fates; the stream loop
   handles the same fragments in the same order *)
Definition ex_cfg' : config := mkCfg 4 0 0 0 65535.
Definition ex_evs' : list event :=
  rx (xfr KHeaders 5 1 [130;132;135; 64;1;97;1;98]) ++
  [EvDone 1 (mkResp 204 [] (BBuffered []))] ++
  rx (xfr KHeaders 0 3 [130; 0;1;65;1;98; 64;1;99]) ++ rx (xfr KCont 4 3 [1;100]) ++
  rx (xfr KHeaders 5 5 [130;132;135;190]) ++
  rx (xfr KHeaders 5 7 [64;1;103;1;104]) ++
  rx (xfr KHeaders 5 9 [130;132;135;190]).

Lemma ex_cleanb' : s_cleanb ex_cfg' srv_init_hpack ex_evs' = true.
Proof. vm_compute. reflexivity. Qed.
Lemma ex_frags' : map frag (s_hframes ex_cfg' srv_init_hpack ex_evs') = map frag (s_hframes ex_cfg srv_init_hpack ex_evs).
Proof. vm_compute. reflexivity. Qed.
Lemma ex_trace' : srv_trace (srv_run ex_cfg' ex_evs') =
  [ODispatch 1 (ex_req [([97],[98])]); OHeaders 1 true [137]; ORelease 1 true;
   ORst 3 c_ProtocolError; ORelease 3 true; ODispatch 5 (ex_req [([99],[100])]);
   ORst 7 c_ProtocolError; ORelease 7 true; ODispatch 9 (ex_req [([103],[104])])].
Proof. vm_compute. reflexivity. Qed.

(* the finding: an oversized header LIST is a connection error (serverConn.go:1419) *)
Definition ex_cfg_limit : config := mkCfg 10 200 0 0 65535.
Definition ex_evs_oversized : list event :=
  rx (xfr KHeaders 4 1 [130;132;135]) ++
  rx (xfr KHeaders 5 3 [130;132;135; 0;1;97;1;98; 0;1;99;1;100; 0;1;101;1;102]).
Lemma ex_oversized_header_list : srv_trace (srv_run ex_cfg_limit ex_evs_oversized) = [OGoAway 3 c_EnhanceYourCalm; OExit 1 0].
Proof. vm_compute. reflexivity. Qed.

(* C01: multiplexed requests *)

(* a frame with a padded length and a priority dependency *)
Definition pfr (k : fkind) (fl sid len_ : N) (payload : bytes) (dep : N) : sframe :=
  mkSFrame k fl sid len_ payload dep 0 0 false 0 false 0.
Definition m_cfg : config := mkCfg 10 0 0 0 65535.
(* stream 1: POST / https, content-length: 5, x: y; the block cut in three (inside the content-length literal);
   HEADERS padded; body "hello" as DATA "he" (padded), "" , "llo" (END_STREAM), then trailers are not used here.
   stream 3: GET / https with :authority h, END_STREAM on HEADERS, with a priority field (depends on 1).
   stream 5: POST with a body "ab" and a trailer block t: u (HEADERS with END_STREAM), cut in two.
   Interleaved; the handlers finish 3, 5, 1. *)
Definition m_b1 : bytes := [131;132;135; 92;1;53; 64;1;120;1;121].
Definition m_b3 : bytes := [130;132;135; 65;1;104].
Definition m_b5 : bytes := [131;132;135].
Definition m_t5 : bytes := [0;1;116;1;117].
Definition m_evs : list event :=
  rx (pfr KHeaders 0 1 9 (firstn 4 m_b1) 0) ++
  rx (xfr KCont 0 1 (firstn 3 (skipn 4 m_b1))) ++
  rx (xfr KCont 4 1 (skipn 7 m_b1)) ++
  rx (pfr KHeaders 5 3 11 m_b3 1) ++
  rx (xfr KHeaders 4 5 m_b5) ++
  rx (pfr KData 0 1 7 [104;101] 0) ++
  rx (xfr KData 0 5 [97;98]) ++
  rx (xfr KData 0 1 []) ++
  [EvDone 3 (mkResp 200 [([88],[49])] (BBuffered [111;107]))] ++
  rx (xfr KHeaders 1 5 (firstn 2 m_t5)) ++ rx (xfr KCont 4 5 (skipn 2 m_t5)) ++
  [EvDone 5 (mkResp 201 [] (BBuffered [33]))] ++
  rx (xfr KData 1 1 [108;108;111]) ++
  [EvDone 1 (mkResp 204 [] (BBuffered []))].

Definition m_rq1 : request :=
  mkReq [80;79;83;84] [47] [104;116;116;112;115] None
        [([99;111;110;116;101;110;116;45;108;101;110;103;116;104], [53]); ([120],[121])] [104;101;108;108;111].
Definition m_rq3 : request := mkReq [71;69;84] [47] [104;116;116;112;115] (Some [104]) [] [].
Definition m_rq5 : request := mkReq [80;79;83;84] [47] [104;116;116;112;115] None [([116],[117])] [97;98].

Lemma m_trace : srv_trace (srv_run m_cfg m_evs) =
  [ODispatch 3 m_rq3; OWinUpd 1 7; OWinUpd 5 2;
   OHeaders 3 false [136;0;129;243;129;15]; OData 3 true [111;107]; ORelease 3 true;
   ODispatch 5 m_rq5; OHeaders 5 false [72;130;16;3]; OData 5 true [33]; ORelease 5 true;
   ODispatch 1 m_rq1; OHeaders 1 true [137]; ORelease 1 true].
Proof. vm_compute. reflexivity. Qed.

Lemma m_cleanb : s_cleanb m_cfg srv_init_hpack m_evs = true.
Proof. vm_compute. reflexivity. Qed.

(* the response blocks are response_block of what the handlers returned *)
Lemma m_resp_block3 :
  fst (response_block srv_enc_field srv_init_hpack (mkResp 200 [([88],[49])] (BBuffered [111;107]))) = [136;0;129;243;129;15].
Proof. vm_compute. reflexivity. Qed.

(* the request the field list of stream 1 stands for *)
Lemma m_request_of :
  request_of empty_req [([58;109;101;116;104;111;100],[80;79;83;84]); ([58;112;97;116;104],[47]);
                        ([58;115;99;104;101;109;101],[104;116;116;112;115]);
                        ([99;111;110;116;101;110;116;45;108;101;110;103;116;104],[53]); ([120],[121])] =
  mkReq [80;79;83;84] [47] [104;116;116;112;115] None
        [([99;111;110;116;101;110;116;45;108;101;110;103;116;104], [53]); ([120],[121])] [].
Proof. vm_compute. reflexivity. Qed.

(* C09 (c): in-flight frames on a stream the server has reset leave the others alone - the same run with and
   without DATA / trailers arriving for stream 3 after its reset gives the same outputs for streams 1 and 5
   (the difference: the connection window is credited for the dropped DATA) *)
Definition n_cfg : config := mkCfg 10 0 0 0 65535.
Definition n_common1 : list event :=
  rx (xfr KHeaders 4 1 [131;132;135; 64;1;97;1;98]) ++            (* stream 1: POST, body to come *)
  rx (xfr KHeaders 4 3 [131;132;135; 0;1;65;1;98]).              (* stream 3: upper-case field name: reset *)
Definition n_inflight : list event :=
  rx (xfr KData 0 3 [1;2;3]) ++ rx (xfr KHeaders 5 3 [64;1;116;1;117]).  (* DATA and trailers for stream 3, still in flight *)
Definition n_common2 : list event :=
  rx (xfr KHeaders 5 5 [130;132;135; 190]) ++                    (* stream 5 refers to the newest table entry *)
  rx (xfr KData 1 1 [120]) ++
  [EvDone 5 (mkResp 200 [] (BBuffered [53])); EvDone 1 (mkResp 200 [] (BBuffered [49]))].
Definition about (ids : list N) (o : outev) : bool :=
  match o with
  | OHeaders s _ _ | OData s _ _ | ORst s _ | ODispatch s _ | ORelease s _ => existsb (N.eqb s) ids
  | _ => false
  end.
Lemma n_with_inflight :
  filter (about [1;5]) (srv_trace (srv_run n_cfg (n_common1 ++ n_inflight ++ n_common2))) =
  [ODispatch 5 (ex_req [([116],[117])]); ODispatch 1 (mkReq [80;79;83;84] [47] [104;116;116;112;115] None [([97],[98])] [120]);
   OHeaders 5 false [136]; OData 5 true [53]; ORelease 5 true; OHeaders 1 false [136]; OData 1 true [49]; ORelease 1 true].
Proof. vm_compute. reflexivity. Qed.

(* C09 (b): "sc_sl_done is unchanged by a stream error" is false - after a GOAWAY that left the loop running (DATA
   on the closed stream 3), the stream error of the last open stream completes the shutdown in the same step *)
Definition sd_evs : list event :=
  rx (xfr KHeaders 4 1 [131;132;135]) ++
  rx (xfr KHeaders 5 3 [130;132;135]) ++ [EvDone 3 (mkResp 204 [] (BBuffered []))] ++
  rx (xfr KData 0 3 [1]) ++
  rx (xfr KHeaders 5 1 [0;1;65;1;98]).
Lemma sd_before : srv_trace (srv_run ex_cfg' (removelast sd_evs)) =
  [ODispatch 3 (ex_req []); OHeaders 3 true [137]; ORelease 3 true; OGoAway 3 c_StreamClosedError].
Proof. vm_compute. reflexivity. Qed.
Lemma sd_after : srv_trace (srv_run ex_cfg' sd_evs) =
  [ODispatch 3 (ex_req []); OHeaders 3 true [137]; ORelease 3 true; OGoAway 3 c_StreamClosedError;
   ORst 1 c_ProtocolError; ORelease 1 true; OExit 1 0].
Proof. vm_compute. reflexivity. Qed.

(* C01_assembled_request on the three fragments of stream 1's block in m_evs and its DATA frames *)
Definition a_f1 : sframe := pfr KHeaders 0 1 9 (firstn 4 m_b1) 0.
Definition a_f2 : sframe := xfr KCont 0 1 (firstn 3 (skipn 4 m_b1)).
Definition a_f3 : sframe := xfr KCont 4 1 (skipn 7 m_b1).
Definition a_frs : list (sframe * list (bytes * bytes) * bytes) :=
  [(a_f1, [(S_method, [80;79;83;84]); (S_path, [47]); (S_scheme, [104;116;116;112;115])], [92]);
   (a_f2, [(S_content_length, [53])], [64]);
   (a_f3, [([120],[121])], [])].
Definition a_ds : list sframe := [pfr KData 0 1 7 [104;101] 0; xfr KData 0 1 []; xfr KData 1 1 [108;108;111]].
Lemma a_block : block_items true a_frs.
Proof. repeat split. Qed.
Lemma a_accepted : exists hF, hfold m_cfg hdr0 (fields_of a_frs) = Some hF.
Proof. eexists. vm_compute. reflexivity. Qed.
Lemma a_request : hd_req (fst (asm m_cfg (items_of a_frs ++ map LD a_ds))) = m_rq1.
Proof. vm_compute. reflexivity. Qed.
