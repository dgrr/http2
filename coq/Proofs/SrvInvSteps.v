(* Proofs/SrvInvSteps.v - every step of the model is a sequence of moves: the stream-loop moves of
   Proofs/SrvInvDecomp.v, the read-loop moves and a few others.  `gmvs_step` is the one place where `step`
   is unfolded; invariants are proved by closure under `gmv` (Theorem inv_step / inv_run). *)
From H2V Require Import Base.Bytes Base.MachineInt Base.Result Gen.GenConsts Impl.ServerConn Proofs.SrvBase
  Proofs.SrvInvMoves Proofs.SrvInvDecomp.
From Coq Require Import ZArith Lia ZifyN ZifyNat ZifyBool.
Local Open Scope N_scope.

Section Steps.
Variable hstate : Type.
Variable dec_field : hstate -> N -> bytes -> dec_res hstate.
Variable enc_field : hstate -> bytes -> bytes -> bool -> bytes * hstate.
Variable enc_set_max : hstate -> N -> hstate.
Variable cfg : config.
Variable Q : stream -> Prop.
Notation sconn := (sconn hstate).
Notation mv := (mv hstate dec_field cfg Q).
Notation mvs := (mvs hstate dec_field cfg Q).
Notation step := (step dec_field enc_field enc_set_max cfg).
Implicit Types c : sconn.

(* the moves of the read loop, of the timers and of the environment.
   The index is the GOAWAY code the event itself brings, if any: the code of the frame parser's error, or NO_ERROR for
   the idle timer. *)
Inductive omv (pc : option N) : sconn -> sconn -> Prop :=
| omv_pop c fr q : sc_sl_done c = false -> sc_readerQ c = fr :: q -> omv pc c (upd_readerQ c q)
| omv_slexit c : sc_sl_done c = false -> sc_rl_done c = true -> sc_readerQ c = [] ->
    omv pc c (note (upd_done c true true) (OExit 1 1))
| omv_rl_goaway c code : sc_rl_done c = false -> code = c_ProtocolError \/ pc = Some code ->
    omv pc c (write_goaway c 0 code)                                               (* the read loop *)
| omv_rl_exit c why : sc_rl_done c = false -> omv pc c (rl_exit c why)
| omv_rl_expect c n : sc_rl_done c = false -> omv pc c (upd_expectCont c n)
| omv_rl_fwd c fr : sc_rl_done c = false -> sc_sl_done c = false -> omv pc c (upd_readerQ c (sc_readerQ c ++ [fr]))
| omv_rl_emit c o : sc_rl_done c = false -> is_frame o -> omv pc c (emit c o)
| omv_idle c : pc = Some c_NoError -> omv pc c (upd_closer (write_goaway c 0 c_NoError) true)   (* closeIdleConn *)
| omv_now c t : omv pc c (upd_now c t)
| omv_wl_dead c : omv pc c (upd_wl_dead c true).

Inductive omvs (pc : option N) : sconn -> sconn -> Prop :=
| omvs_nil c : omvs pc c c
| omvs_cons a b c : omv pc a b -> omvs pc b c -> omvs pc a c.

Inductive gmv (pc : option N) : sconn -> sconn -> Prop :=
| gmv_sl o a b : mv o a b -> gmv pc a b
| gmv_o a b : omv pc a b -> gmv pc a b.

Inductive gmvs (pc : option N) : sconn -> sconn -> Prop :=
| gmvs_nil c : gmvs pc c c
| gmvs_cons a b c : gmv pc a b -> gmvs pc b c -> gmvs pc a c.

(* what the moves of the read loop and of the environment leave alone *)
Lemma omv_keeps pc a b : omv pc a b ->
  sc_strms b = sc_strms a /\ sc_gone b = sc_gone a /\ sc_open b = sc_open a /\ sc_ring b = sc_ring a /\
  sc_lastID b = sc_lastID a /\ sc_highestID b = sc_highestID a /\ sc_discardPrev b = sc_discardPrev a /\
  (sc_sl_done b = false -> sc_sl_done a = false).
Proof.
  destruct 1; try (repeat split; try discriminate; exact (fun h => h)).
  - rewrite write_goaway_upd. repeat split. exact (fun h => h).
  - rewrite emit_eq. repeat split. exact (fun h => h).
  - rewrite write_goaway_upd. repeat split. exact (fun h => h).
Qed.

Lemma omvs_keeps pc a b : omvs pc a b ->
  sc_strms b = sc_strms a /\ sc_gone b = sc_gone a /\ sc_open b = sc_open a /\ sc_ring b = sc_ring a /\
  sc_lastID b = sc_lastID a /\ sc_highestID b = sc_highestID a /\ sc_discardPrev b = sc_discardPrev a /\
  (sc_sl_done b = false -> sc_sl_done a = false).
Proof.
  induction 1 as [c|a b c M _ IH]; [repeat split; auto|].
  destruct (omv_keeps _ _ _ M) as (A1 & A2 & A3 & A4 & A5 & A6 & A7 & A8).
  destruct IH as (B1 & B2 & B3 & B4 & B5 & B6 & B7 & B8). repeat split; try congruence. auto.
Qed.

(* what they add to the output: frames, GOAWAYs and exit notes (late or not) *)
Definition omv_item (o : outev) : Prop :=
  match o with ODispatch _ _ | ORelease _ _ | OPanic _ _ => False | _ => True end.

Lemma omv_out pc a b : omv pc a b -> exists l, sc_out b = l ++ sc_out a /\ Forall omv_item l.
Proof.
  assert (E : forall c o, omv_item o -> exists l, sc_out (emit c o) = l ++ sc_out c /\ Forall omv_item l).
  { intros c o Ho. rewrite sc_out_emit. destruct (sc_wl_dead c); [exists []; split; [reflexivity | constructor]|].
    destruct (sc_sl_done c); eexists [_]; (split; [reflexivity | repeat constructor; assumption]). }
  destruct 1; try (exists []; split; [reflexivity | constructor]).
  - eexists [_]. split; [reflexivity | repeat constructor].
  - rewrite write_goaway_eq. exact (E (upd_closing c true _) (OGoAway _ _) I).
  - eexists [_]. split; [reflexivity | repeat constructor].
  - apply E. destruct o; try exact I; contradiction.
  - rewrite write_goaway_eq. exact (E (upd_closing c true _) (OGoAway _ _) I).
Qed.

Definition parser_code (e : event) : option N :=
  match e with EvRL (RBadFrame (Some code)) => Some code | EvIdle => Some c_NoError | _ => None end.

Lemma omvs_one pc a b : omv pc a b -> omvs pc a b.
Proof. intro H. econstructor; [eassumption | constructor]. Qed.
Lemma omvs_trans pc a b c : omvs pc a b -> omvs pc b c -> omvs pc a c.
Proof. induction 1; intro H2; [assumption|]. econstructor; [eassumption | auto]. Qed.
Lemma omvs_ind_inv pc (P : sconn -> Prop) : (forall a b, omv pc a b -> P a -> P b) -> forall a b, omvs pc a b -> P a -> P b.
Proof. intros H a b M. induction M; eauto. Qed.

Lemma gmvs_one pc a b : gmv pc a b -> gmvs pc a b.
Proof. intro H. econstructor; [eassumption | constructor]. Qed.
Lemma gmvs_trans pc a b c : gmvs pc a b -> gmvs pc b c -> gmvs pc a c.
Proof. induction 1; intro H2; [assumption|]. econstructor; [eassumption | auto]. Qed.
Lemma gmvs_mvs pc l a b : mvs l a b -> gmvs pc a b.
Proof. induction 1; [constructor|]. econstructor; [eapply gmv_sl; eassumption | assumption]. Qed.
Lemma gmvs_omvs pc a b : omvs pc a b -> gmvs pc a b.
Proof. induction 1; [constructor|]. econstructor; [eapply gmv_o; eassumption | assumption]. Qed.

Lemma gmvs_ind_inv pc (P : sconn -> Prop) : (forall a b, gmv pc a b -> P a -> P b) -> forall a b, gmvs pc a b -> P a -> P b.
Proof. intros H a b M. induction M; eauto. Qed.
Lemma gmvs_ind_rel pc (R : sconn -> sconn -> Prop) :
  (forall a, R a a) -> (forall a b c, R a b -> R b c -> R a c) -> (forall a b, gmv pc a b -> R a b) ->
  forall a b, gmvs pc a b -> R a b.
Proof. intros Hr Ht Hm a b M. induction M; eauto. Qed.

Lemma omvs_forward pc c fr : sc_rl_done c = false -> omvs pc c (forward c fr).
Proof.
  intro Hr. unfold forward. destruct (sc_sl_done c) eqn:Hd; apply omvs_one; [apply omv_rl_exit | apply omv_rl_fwd]; assumption.
Qed.

Lemma omvs_goaway_exit pc c code why : sc_rl_done c = false -> code = c_ProtocolError \/ pc = Some code ->
  omvs pc c (rl_exit (write_goaway c 0 code) why).
Proof.
  intros Hr Hc. eapply omvs_trans; apply omvs_one; [apply omv_rl_goaway | apply omv_rl_exit]; [assumption | assumption|].
  rewrite sc_rl_done_write_goaway. assumption.
Qed.

Theorem omvs_rl_step c i : sc_rl_done c = false -> omvs (parser_code (EvRL i)) c (rl_step cfg c i).
Proof.
  intro Hr. unfold rl_step. destruct i as [fr| |[code|]|].
  - (* a frame *)
    assert (R : forall c1 : sconn, sc_rl_done c1 = false -> omvs None c1 (rl_dispatch c1 fr)).
    { intros c1 H1. unfold rl_dispatch. destruct (negb (sf_sid fr =? 0)).
      - destruct (check_frame_with_stream fr) as [e|] eqn:CF; [|apply omvs_forward; assumption].
        unfold check_frame_with_stream in CF.
        assert (e = EGoAway c_ProtocolError) as ->.
        { destruct (_ =? 0); [congruence|]. destruct (sf_kind fr); congruence. }
        cbn [write_error fst]. apply omvs_goaway_exit; [assumption | left; reflexivity].
      - destruct (sf_kind fr); try (apply omvs_goaway_exit; [assumption | left; reflexivity]).
        + destruct (negb _); [apply omvs_forward; assumption | constructor].
        + destruct (negb _); [|constructor]. apply omvs_one, omv_rl_emit; [assumption | exact I].
        + apply omvs_one, omv_rl_exit. assumption.
        + destruct (sf_inc fr =? 0); [apply omvs_goaway_exit; [assumption | left; reflexivity] | apply omvs_forward; assumption]. }
    destruct (negb (sc_expectCont c =? 0)).
    + destruct (_ || _)%bool; [apply omvs_goaway_exit; [assumption | left; reflexivity]|].
      destruct (flag_has (sf_flags fr) FL_EH); [|apply R; assumption].
      eapply omvs_trans; [apply omvs_one, omv_rl_expect; assumption | apply R; assumption].
    + destruct (fkind_eqb (sf_kind fr) KCont); [apply omvs_goaway_exit; [assumption | left; reflexivity]|].
      destruct (_ && _)%bool; [|apply R; assumption].
      eapply omvs_trans; [apply omvs_one, omv_rl_expect; assumption | apply R; assumption].
  - destruct (negb _); [apply omvs_goaway_exit; [assumption | left; reflexivity] | constructor].
  - apply omvs_goaway_exit; [assumption | right; reflexivity].
  - apply omvs_one, omv_rl_exit; assumption.
  - apply omvs_one, omv_rl_exit; assumption.
Qed.

Hypothesis HQc : Qclosed hstate dec_field cfg Q.

(* the shape of a step: EvDone either does nothing or starts with the return of that handler;
   every other event is a few moves of the environment / read loop followed by unlabelled stream-loop moves *)
Definition done_noop (c : sconn) (sid : N) : Prop :=
  sc_sl_done c = true \/
  (take_stream (sc_gone c) sid = None /\ forall s, strms_search (sc_strms c) sid = Some s -> st_handlerRunning s = false).

Theorem step_shape c e : (sc_sl_done c = false -> ids_ok c) ->
  match e with
  | EvDone sid r =>
      (step c e = c /\ done_noop c sid) \/
      (sc_sl_done c = false /\ exists b, mv (Some sid) c b /\ mvs [] b (step c e))
  | _ => exists c0, omvs (parser_code e) c c0 /\ mvs [] c0 (step c e)
  end.
Proof.
  intro IO. destruct e as [i| |sid r|t| | | |].
  - rewrite step_EvRL. eexists. split; [|constructor].
    destruct (sc_rl_done c) eqn:Hr; [constructor | apply omvs_rl_step; assumption].
  - rewrite step_EvSL. destruct (sc_sl_done c) eqn:Hd; [eexists; split; constructor|].
    destruct (sc_readerQ c) as [|fr q] eqn:RQ.
    + eexists. split; [|constructor].
      destruct (sc_rl_done c) eqn:Hr; [|constructor]. apply omvs_one, omv_slexit; assumption.
    + exists (upd_readerQ c q). split; [apply omvs_one, (omv_pop _ c fr q); assumption|].
      apply (mvs_sl_frame hstate dec_field enc_set_max cfg Q HQc (upd_readerQ c q) fr Hd (IO eq_refl)).
  - rewrite step_EvDone. destruct (sc_sl_done c) eqn:Hd; [left; split; [reflexivity | left; assumption]|].
    destruct (mvs_sl_done hstate dec_field enc_field cfg Q HQc c sid r Hd) as [(E & N1 & N2)|(b & M1 & M)].
    + left. split; [assumption | right; split; assumption].
    + right. split; [reflexivity|]. exists b. split; assumption.
  - rewrite step_EvClock. eexists. split; [|constructor]. destruct (_ <? _)%Z; [apply omvs_one, omv_now | constructor].
  - rewrite step_EvTimer. exists c. split; [constructor|]. destruct (sc_sl_done c) eqn:Hd; [constructor|].
    apply mvs_sl_timer; assumption.
  - rewrite step_EvIdle. eexists. split; [apply omvs_one, omv_idle; reflexivity | constructor].
  - rewrite step_EvCloser. exists c. split; [constructor|]. destruct (_ && _)%bool eqn:B; [|constructor].
    apply andb_prop in B. destruct B as [_ B]. apply negb_true_iff in B.
    apply mvs0_one, mv_brk. assumption.
  - rewrite step_EvWriteFail. eexists. split; [apply omvs_one, omv_wl_dead | constructor].
Qed.

Theorem gmvs_step c e : (sc_sl_done c = false -> ids_ok c) -> gmvs (parser_code e) c (step c e).
Proof.
  intro IO. pose proof (step_shape c e IO) as S.
  destruct e as [i| |sid r|t| | | |];
    try (destruct S as (c0 & O & M); eapply gmvs_trans; [apply gmvs_omvs; exact O | eapply gmvs_mvs; exact M]).
  destruct S as [(E & _)|(_ & b & M1 & M)]; [rewrite E; constructor|].
  eapply gmvs_trans; [apply gmvs_one, (gmv_sl _ _ _ _ M1) | eapply gmvs_mvs; exact M].
Qed.

(* invariants: closed under the moves (and strong enough to give ids_ok) => preserved by every step *)
Theorem inv_step (P : sconn -> Prop) :
  (forall c, P c -> sc_sl_done c = false -> ids_ok c) ->
  (forall pc a b, gmv pc a b -> P a -> P b) ->
  forall c e, P c -> P (step c e).
Proof.
  intros HI HM c e H. eapply gmvs_ind_inv; [exact (HM (parser_code e)) | | exact H]. apply gmvs_step. auto.
Qed.

Theorem inv_run (P : sconn -> Prop) (h0 : hstate) :
  (forall c, P c -> sc_sl_done c = false -> ids_ok c) ->
  (forall pc a b, gmv pc a b -> P a -> P b) ->
  P (init_conn cfg h0) ->
  forall evs, P (run dec_field enc_field enc_set_max cfg h0 evs).
Proof. intros HI HM H0. apply run_ind; [exact H0|]. intros c e. apply inv_step; assumption. Qed.

End Steps.
