(* Proofs/SrvRfcKit.v - C08: tools for the leaves of the case analysis: steps that leave the
   table and the ring alone, steps that touch one stream id, a stream id going to the ring, and
   how the specification state moves in them. *)
From H2V Require Import Base.Bytes Base.MachineInt Base.Result Gen.GenConsts Impl.ServerConn.
From H2V Require Import Proofs.SrvBase Proofs.SrvRfcDefs Proofs.SrvRfcSpec Proofs.SrvRfcModel Proofs.SrvRfcSim Proofs.SrvRfcStep.
From Coq Require Import ZArith Lia ZifyN ZifyNat ZifyBool.
Local Open Scope N_scope.

Lemma rel_rel1 m x : rel m x -> rel1 m x.
Proof. destruct m as [st|b| |]; cbn; auto; intros ->; reflexivity. Qed.

Lemma after_outs_quiet s1 d : filter noisy d = [] -> after_outs s1 d = s1.
Proof. unfold after_outs. intros ->. reflexivity. Qed.

Lemma after_outs_eq s1 d nz : filter noisy d = nz -> after_outs s1 d = fold_left RS.spec_sent (flat_map sent_of (rev nz)) s1.
Proof. unfold after_outs. intros ->. reflexivity. Qed.

(* a reaction that leaves every stream where it is *)
Definition stays (s : RS.state) (f : RS.frame) (r : RS.reaction) : Prop :=
  conn_err r = true \/ RS.f_sid f = 0 \/ next_st (RS.st_of s (RS.f_sid f)) f r = RS.st_of s (RS.f_sid f).

Lemma stays_highest s f r : wf s -> stays s f r -> RS.highest (RS.spec_next s (RS.Frame f) r) = RS.highest s.
Proof.
  intros W H. rewrite highest_spec_next.
  destruct (conn_err r) eqn:CE; [reflexivity|]. destruct (RS.f_sid f =? 0) eqn:Z; [reflexivity|]. cbn [negb andb].
  destruct H as [H|[H|H]]; [congruence | lia |].
  destruct r; try reflexivity; try discriminate; rewrite H;
    (destruct (RS.st_of s (RS.f_sid f)) eqn:X; cbn [andb]; try reflexivity;
     assert (RS.f_sid f <= RS.highest s) by (apply st_of_notidle_le; [assumption | congruence]); lia).
Qed.

Lemma stays_st_of s f r id : wf s -> stays s f r -> RS.st_of (RS.spec_next s (RS.Frame f) r) id = RS.st_of s id.
Proof.
  intros W H. destruct (N.eq_dec id (RS.f_sid f)) as [->|Hne].
  - destruct (N.odd (RS.f_sid f)) eqn:O.
    + rewrite st_of_spec_next_same by assumption. destruct (conn_err r) eqn:CE; [reflexivity|].
      destruct H as [H|[H|H]]; [congruence | rewrite H in O; discriminate | exact H].
    + rewrite !st_of_even by (rewrite <- N.negb_odd, O; reflexivity). reflexivity.
  - rewrite st_of_spec_next_other by assumption. rewrite stays_highest by assumption.
    destruct (RS.st_of s id) eqn:X; try reflexivity.
    destruct (N.odd id) eqn:O; cbn [andb]; [|reflexivity].
    pose proof (st_of_idle_gt s id W O X). replace (id <=? RS.highest s) with false by lia. reflexivity.
Qed.

Lemma allowed_table s i r : existsb (fun v => RS.admits v r) (RS.verdicts s i) = true -> RS.allowed s i r = true.
Proof. intro H. unfold RS.allowed. rewrite H. reflexivity. Qed.

Lemma allowed_dead s i r : RS.dead s = true -> RS.is_error r = true -> RS.allowed s i r = true.
Proof. intros H1 H2. unfold RS.allowed. rewrite H1, H2. rewrite orb_true_r. reflexivity. Qed.

Lemma verdicts_block_other s fr b : RS.block s = Some b ->
  (sf_kind fr <> KCont \/ sf_sid fr <> b) ->
  RS.verdicts s (RS.Frame (abs_frame fr)) = [RS.CE c_ProtocolError].
Proof.
  intros B H. unfold RS.verdicts, abs_frame. cbn [RS.f_kind RS.f_sid]. rewrite B.
  revert H. destruct (sf_kind fr); cbn [abs_kind]; intro H; try reflexivity.
  destruct H as [H|H]; [congruence|]. replace (sf_sid fr =? b) with false by lia. reflexivity.
Qed.

Lemma verdicts_cont_noblock s fr : RS.block s = None -> sf_kind fr = KCont ->
  RS.verdicts s (RS.Frame (abs_frame fr)) = [RS.CE c_ProtocolError].
Proof. intros B K. unfold RS.verdicts, abs_frame. cbn [RS.f_kind RS.f_sid]. rewrite B, K. reflexivity. Qed.

Lemma verdicts_conn s fr : RS.block s = None -> sf_kind fr <> KCont -> sf_sid fr = 0 ->
  RS.verdicts s (RS.Frame (abs_frame fr)) = RS.on_connection (abs_frame fr).
Proof.
  intros B K Z. unfold RS.verdicts, abs_frame. cbn [RS.f_kind RS.f_sid]. rewrite B, Z.
  destruct (sf_kind fr); cbn [abs_kind]; reflexivity.
Qed.

Lemma verdicts_stream s fr : RS.block s = None -> sf_sid fr <> 0 ->
  match sf_kind fr with KCont | KSettings | KPing | KGoAway | KPush => False | _ => True end ->
  RS.verdicts s (RS.Frame (abs_frame fr)) = RS.on_stream s (abs_frame fr).
Proof.
  intros B Z K. unfold RS.verdicts. rewrite B. unfold abs_frame. cbn [RS.f_kind RS.f_sid].
  replace (sf_sid fr =? 0) with false by lia.
  revert K. destruct (sf_kind fr); cbn [abs_kind]; intro K; try reflexivity; contradiction.
Qed.

Lemma verdicts_stream_bad s fr : RS.block s = None -> sf_sid fr <> 0 ->
  match sf_kind fr with KSettings | KPing | KGoAway | KPush => True | _ => False end ->
  RS.verdicts s (RS.Frame (abs_frame fr)) = [RS.CE c_ProtocolError].
Proof.
  intros B Z K. unfold RS.verdicts. rewrite B. unfold abs_frame. cbn [RS.f_kind RS.f_sid].
  replace (sf_sid fr =? 0) with false by lia.
  revert K. destruct (sf_kind fr); cbn [abs_kind]; intro K; try reflexivity; contradiction.
Qed.

Lemma verdicts_cont s fr : RS.block s = Some (sf_sid fr) -> sf_kind fr = KCont ->
  RS.verdicts s (RS.Frame (abs_frame fr)) = RS.on_stream s (abs_frame fr).
Proof.
  intros B K. unfold RS.verdicts. rewrite B. unfold abs_frame. cbn [RS.f_kind RS.f_sid]. rewrite K. cbn [abs_kind].
  rewrite N.eqb_refl. reflexivity.
Qed.

Lemma spec_quiet s f r d : wf s -> filter noisy d = [] -> stays s f r ->
  (forall id, RS.st_of (after_outs (RS.spec_next s (RS.Frame f) r) d) id = RS.st_of s id) /\
  RS.highest (after_outs (RS.spec_next s (RS.Frame f) r) d) = RS.highest s /\
  RS.goaway (after_outs (RS.spec_next s (RS.Frame f) r) d) = RS.goaway s || conn_err r /\
  RS.dead (after_outs (RS.spec_next s (RS.Frame f) r) d) = RS.dead s || conn_err r.
Proof.
  intros W Q St. rewrite (after_outs_quiet _ _ Q).
  split; [intro id; apply stays_st_of; assumption|]. split; [apply stays_highest; assumption|].
  split; [apply goaway_spec_next | apply dead_spec_next].
Qed.

Lemma spec_goaway s f code d l : wf s -> filter noisy d = [OGoAway l code] ->
  (forall id, RS.st_of (after_outs (RS.spec_next s (RS.Frame f) (RS.ConnErr code)) d) id = RS.st_of s id) /\
  RS.highest (after_outs (RS.spec_next s (RS.Frame f) (RS.ConnErr code)) d) = RS.highest s /\
  RS.goaway (after_outs (RS.spec_next s (RS.Frame f) (RS.ConnErr code)) d) = true /\
  RS.dead (after_outs (RS.spec_next s (RS.Frame f) (RS.ConnErr code)) d) = true.
Proof.
  intros W Q. rewrite (after_outs_eq _ _ _ Q). cbn [rev app flat_map sent_of strip_late fold_left].
  assert (St : stays s f (RS.ConnErr code)) by (left; reflexivity).
  assert (W1 : wf (RS.spec_next s (RS.Frame f) (RS.ConnErr code))) by (apply wf_spec_next, W).
  split; [intro id; rewrite st_of_spec_sent by assumption; cbn [sent_sid]; apply stays_st_of; assumption|].
  split; [rewrite highest_spec_sent by assumption; apply stays_highest; assumption|].
  split; [rewrite goaway_spec_sent; reflexivity|].
  rewrite dead_spec_sent, dead_spec_next. apply orb_true_r.
Qed.

Lemma spec_rst s f code d : wf s -> filter noisy d = [ORst (RS.f_sid f) code] ->
  stays s f (RS.StreamErr code) -> active (RS.st_of s (RS.f_sid f)) = false ->
  (forall id, RS.st_of (after_outs (RS.spec_next s (RS.Frame f) (RS.StreamErr code)) d) id = RS.st_of s id) /\
  RS.highest (after_outs (RS.spec_next s (RS.Frame f) (RS.StreamErr code)) d) = RS.highest s /\
  RS.goaway (after_outs (RS.spec_next s (RS.Frame f) (RS.StreamErr code)) d) = RS.goaway s /\
  RS.dead (after_outs (RS.spec_next s (RS.Frame f) (RS.StreamErr code)) d) = RS.dead s.
Proof.
  intros W Q St Ac. rewrite (after_outs_eq _ _ _ Q). cbn [rev app flat_map sent_of strip_late fold_left].
  assert (W1 : wf (RS.spec_next s (RS.Frame f) (RS.StreamErr code))) by (apply wf_spec_next, W).
  split.
  { intro id. rewrite st_of_spec_sent by assumption. cbn [sent_sid]. rewrite stays_st_of by assumption.
    destruct (RS.f_sid f =? id) eqn:E; [|reflexivity]. apply N.eqb_eq in E. subst id.
    destruct (RS.st_of s (RS.f_sid f)); try discriminate; reflexivity. }
  split; [rewrite highest_spec_sent by assumption; apply stays_highest; assumption|].
  split; [rewrite goaway_spec_sent, goaway_spec_next; apply orb_false_r|].
  rewrite dead_spec_sent, dead_spec_next. apply orb_false_r.
Qed.

(* nothing observed: the specification decides between "took effect" and "dropped" *)
Lemma allowed_quiet s i :
  RS.may_process s i = true \/ existsb (fun v => RS.admits v RS.Ignore) (RS.verdicts s i) = true ->
  RS.allowed s i (resolve s i RS.Process) = true.
Proof.
  intros H. cbn [resolve]. destruct (RS.may_process s i) eqn:M.
  - apply allowed_table. exact M.
  - destruct H as [H|H]; [discriminate|]. apply allowed_table. exact H.
Qed.

Lemma stays_quiet s f : RS.receive (RS.st_of s (RS.f_sid f)) f = RS.st_of s (RS.f_sid f) ->
  stays s f (resolve s (RS.Frame f) RS.Process).
Proof. intro H. cbn [resolve]. destruct (RS.may_process _ _); right; right; [exact H | reflexivity]. Qed.

Lemma conn_err_resolve_quiet s i : conn_err (resolve s i RS.Process) = false.
Proof. cbn [resolve]. destruct (RS.may_process s i); reflexivity. Qed.

Section Kit.
Variable hstate : Type.
Notation sconn := (sconn hstate).
Notation view := (view hstate).
Notation tbl := (tbl hstate).
Notation Sim := (Sim hstate).
Notation Aux := (Aux hstate).
Notation AuxT := (AuxT hstate).
Notation AuxH := (AuxH hstate).
Notation live_tuple := (live_tuple hstate).
Implicit Types c : sconn.

(* a step that leaves the table, the ring and the ids alone *)
Definition static c c' : Prop :=
  sc_strms c' = sc_strms c /\ sc_ring c' = sc_ring c /\ sc_oldest c' = sc_oldest c /\ sc_lastID c' = sc_lastID c /\
  sc_highestID c' = sc_highestID c /\ sc_rl_done c' = sc_rl_done c /\ sc_wl_dead c' = sc_wl_dead c /\
  sc_readerQ c' = sc_readerQ c.

Lemma static_refl c : static c c. Proof. repeat split. Qed.
Lemma static_trans a b c : static a b -> static b c -> static a c.
Proof.
  unfold static. intros (A1 & A2 & A3 & A4 & A5 & A6 & A7 & A8) (B1 & B2 & B3 & B4 & B5 & B6 & B7 & B8).
  repeat split; etransitivity; eassumption.
Qed.

Lemma view_static c c' id : static c c' -> view c' id = view c id.
Proof. intros (A1 & A2 & _ & _ & A5 & _). apply view_eq; assumption. Qed.

Lemma tbl_static c c' id : static c c' -> tbl c' id = tbl c id.
Proof. intros (A1 & _). apply tbl_ext, A1. Qed.

Lemma ring_ok_ext (x c : sconn) : sc_ring x = sc_ring c -> sc_oldest x = sc_oldest c -> ring_ok hstate c -> ring_ok hstate x.
Proof. intros R O. unfold ring_ok. rewrite R, O. auto. Qed.

Lemma ring_find_ext (x c : sconn) id : sc_ring x = sc_ring c -> ring_find x id = ring_find c id.
Proof. intros R. unfold ring_find. rewrite R. reflexivity. Qed.

(* c' holds some of the streams of c, as they were *)
Lemma AuxT_sub c c' : AuxT c ->
  sc_rl_done c' = sc_rl_done c -> sc_wl_dead c' = sc_wl_dead c -> sc_readerQ c' = sc_readerQ c ->
  NoDup (map st_id (sc_strms c')) -> sc_lastID c <= sc_lastID c' -> sc_lastID c' <= sc_highestID c' -> ring_ok hstate c' ->
  (forall st, In st (sc_strms c') -> In st (sc_strms c) /\ in_ring c' (st_id st) = false) -> AuxT c'.
Proof.
  intros [B1 B2 B3 B4 B5 B6 B7 B8 B9 B10] E1 E2 E3 ND L1 L2 RO Sub.
  constructor; rewrite ?E1, ?E2, ?E3; try assumption.
  - intros st H. destruct (B5 st (proj1 (Sub st H))) as [O Le]. split; [exact O | exact (N.le_trans _ _ _ Le L1)].
  - intros st H. apply Sub, H.
  - intros st H. apply B9, Sub, H.
  - intros st H. apply B10, Sub, H.
Qed.

Lemma AuxT_static c c' : static c c' -> AuxT c -> AuxT c'.
Proof.
  intros (A1 & A2 & A3 & A4 & A5 & A6 & A7 & A8) AT. apply (AuxT_sub c c' AT A6 A7 A8).
  - rewrite A1. apply (A_nodup _ _ AT).
  - rewrite A4. apply N.le_refl.
  - rewrite A4, A5. apply (A_last _ _ AT).
  - apply (ring_ok_ext _ _ A2 A3), (A_ring _ _ AT).
  - intros st H. rewrite A1 in H. split; [exact H|]. unfold in_ring. rewrite A2. apply (A_tr _ _ AT st H).
Qed.

Lemma live_tuple_static c c' s s2 ph ph' :
  Sim c s ph -> static c c' -> AuxH c' ->
  (forall id, RS.st_of s2 id = RS.st_of s id) -> RS.highest s2 = RS.highest s ->
  R_block hstate c' s2 -> RS.goaway s2 = sc_closing c' ->
  (sc_expectCont c' <> 0 -> tbl c' (sc_expectCont c') = None -> sc_discardID c' = sc_expectCont c' \/ RS.dead s2 = true) ->
  (forall st, In st (sc_strms c) -> ph' (st_id st) = ph (st_id st)) ->
  (sc_closing c' = false -> forall id, N.odd id = true -> sc_highestID c < id -> ph' id = RS.PStart) ->
  live_tuple c' s2 ph'.
Proof.
  intros HS St AH Hst Hhi Hb Hg Hc Hp Hn. pose proof St as (A1 & A2 & A3 & A4 & A5 & A6 & A7 & A8).
  split; [split; [eapply AuxT_static; [exact St | exact (proj1 (S_aux _ _ _ _ HS))] | exact AH]|].
  split; [intros id O; rewrite (view_static _ _ _ St), Hst; apply rel_rel1, (S_str _ _ _ _ HS), O|].
  split; [exact Hb|]. split; [exact Hg|]. split; [rewrite Hhi, A5; exact (S_hi _ _ _ _ HS)|].
  split; [exact Hc|]. split.
  - intros st H. rewrite A1 in H. rewrite (Hp st H). exact (S_ph _ _ _ _ HS st H).
  - rewrite A5. exact Hn.
Qed.

Lemma sdrift_next s f r id : wf s -> id <> RS.f_sid f -> sdrift (RS.st_of s id) (RS.st_of (RS.spec_next s (RS.Frame f) r) id).
Proof.
  intros W Hne. rewrite st_of_spec_next_other by assumption. unfold sdrift.
  destruct (RS.st_of s id); auto. destruct (_ && _)%bool; auto.
Qed.

(* the outputs of the step concern stream sid only *)
Definition outs_on (sid : N) (d : list outev) : Prop :=
  forall o, In o (flat_map sent_of (rev (filter noisy d))) -> sent_sid o = Some sid \/ sent_sid o = None.

Lemma sdrift_after s f r d id : wf s -> id <> RS.f_sid f -> outs_on (RS.f_sid f) d ->
  sdrift (RS.st_of s id) (RS.st_of (after_outs (RS.spec_next s (RS.Frame f) r) d) id).
Proof.
  intros W Hne Ho. unfold after_outs. rewrite st_of_fold_sent_untouched.
  - apply sdrift_next; assumption.
  - apply wf_spec_next, W.
  - intros o Hin E. destruct (Ho o Hin) as [X|X]; congruence.
Qed.

Lemma live_tuple_one c c' s s2 ph ph' sid :
  Sim c s ph -> Aux c' ->
  (forall id, id <> sid -> option_map st_state (tbl c' id) = option_map st_state (tbl c id) /\
                           (ring_find c' id = ring_find c id \/ ring_find c' id = None)) ->
  (N.odd sid = true -> rel1 (view c' sid) (RS.st_of s2 sid)) ->
  (forall id, id <> sid -> sdrift (RS.st_of s id) (RS.st_of s2 id)) ->
  R_block hstate c' s2 -> RS.goaway s2 = sc_closing c' -> RS.highest s2 = sc_highestID c' ->
  (sc_expectCont c' <> 0 -> tbl c' (sc_expectCont c') = None -> sc_discardID c' = sc_expectCont c' \/ RS.dead s2 = true) ->
  (forall st, In st (sc_strms c') -> ph' (st_id st) = phase_of st) ->
  (sc_closing c' = false -> forall id, N.odd id = true -> sc_highestID c' < id -> ph' id = RS.PStart) ->
  live_tuple c' s2 ph'.
Proof.
  intros HS HA Hv Hsid Hsd Hb Hg Hh Hc Hp Hn.
  split; [exact HA|]. split.
  { intros id O. destruct (N.eq_dec id sid) as [->|Hne]; [apply Hsid, O|].
    destruct (Hv id Hne) as [V1 V2].
    eapply rel_drift; [apply (S_str _ _ _ _ HS id O) | apply vdrift_intro; assumption | apply Hsd, Hne]. }
  repeat split; assumption.
Qed.

(* marking an id closed only reads the ring *)
Lemma mark_closed_ring_ext (x c : sconn) j w : sc_ring x = sc_ring c -> sc_oldest x = sc_oldest c ->
  sc_ring (mark_closed x j w) = sc_ring (mark_closed c j w) /\ sc_oldest (mark_closed x j w) = sc_oldest (mark_closed c j w).
Proof.
  intros R O. unfold mark_closed, in_ring. rewrite R, O.
  destruct (existsb _ (sc_ring c)); [auto|]. destruct (_ <? _); sc_cbn; auto.
Qed.

(* closing a stream in a state whose ring is that of c *)
Lemma close_stream_ring (x c : sconn) s : sc_ring x = sc_ring c -> sc_oldest x = sc_oldest c ->
  sc_ring (close_stream x s) = sc_ring (mark_closed c (st_id s) (st_weReset s)) /\
  sc_oldest (close_stream x s) = sc_oldest (mark_closed c (st_id s) (st_weReset s)).
Proof. intros R O. rewrite sc_ring_close_stream, sc_oldest_close_stream. apply mark_closed_ring_ext; assumption. Qed.

(* marking an id closed reads and writes nothing but the ring *)
Lemma mark_closed_as (x c : sconn) j w : sc_ring x = sc_ring c -> sc_oldest x = sc_oldest c ->
  mark_closed x j w = upd_ring x (sc_ring (mark_closed c j w)) (sc_oldest (mark_closed c j w)).
Proof.
  intros R O. destruct (mark_closed_ring_ext x c j w R O) as [<- <-]. unfold mark_closed.
  destruct (in_ring x j); [destruct x; reflexivity|]. destruct (_ <? _); reflexivity.
Qed.

(* a stream id is marked closed in the ring: its entry, and what the other ids keep *)
Lemma leave_ring c c' id w : ring_ok hstate c ->
  sc_ring c' = sc_ring (mark_closed c id w) -> sc_oldest c' = sc_oldest (mark_closed c id w) ->
  ring_ok hstate c' /\ ring_find c' id = Some (match ring_find c id with Some b => b | None => w end) /\
  forall i, i <> id -> ring_find c' i = ring_find c i \/ ring_find c' i = None.
Proof.
  intros RO R O. split; [apply (ring_ok_ext _ _ R O), ring_ok_mark, RO|].
  split; [rewrite (ring_find_ext _ _ _ R); apply ring_find_mark_same, RO|].
  intros i Hn. rewrite (ring_find_ext _ _ _ R). apply ring_find_mark_other; assumption.
Qed.

(* the table loses the stream id (if it had it), the other streams stay as they are *)
Lemma AuxT_leave c c' id w : AuxT c ->
  sc_strms c' = strms_del (sc_strms c) id ->
  sc_ring c' = sc_ring (mark_closed c id w) -> sc_oldest c' = sc_oldest (mark_closed c id w) ->
  sc_rl_done c' = sc_rl_done c -> sc_wl_dead c' = sc_wl_dead c -> sc_readerQ c' = sc_readerQ c ->
  sc_lastID c <= sc_lastID c' -> sc_lastID c' <= sc_highestID c' -> AuxT c'.
Proof.
  intros AT S R O E1 E2 E3 L1 L2. destruct (leave_ring c c' id w (A_ring _ _ AT) R O) as (RO' & _ & RfO).
  apply (AuxT_sub c c' AT E1 E2 E3); try assumption.
  - rewrite S. apply strms_del_NoDup, (A_nodup _ _ AT).
  - intros st H. rewrite S in H. destruct (del_In _ _ _ (A_nodup _ _ AT) H) as [X Y]. split; [exact X|].
    pose proof (A_tr _ _ AT st X) as Z. rewrite in_ring_find in Z |- *. destruct (RfO _ Y) as [Q|Q]; rewrite Q; [exact Z | reflexivity].
Qed.

End Kit.
