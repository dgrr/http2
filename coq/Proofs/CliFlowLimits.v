(* Proofs/CliFlowLimits.v - C18, client role: SETTINGS acknowledged once, in order, after the values are merged;
   invalid SETTINGS end the connection; the server's limits (MAX_CONCURRENT_STREAMS, HEADER_TABLE_SIZE) and the
   client's own settings (ENABLE_PUSH = 0) as the connection enforces them. *)
From H2V Require Import Base.Bytes Base.MachineInt Base.Result Gen.GenConsts Impl.ServerConn Impl.ClientConn
     Proofs.CliBase Proofs.CliDefs Spec.FlowLedger Spec.Rfc7540Frames Proofs.CliFlowMoves Proofs.CliFlowOut Proofs.CliFlowSettings
     Proofs.CliFlowSafe Proofs.CliFlowEs.
From Coq Require Import ZArith Lia ZifyN ZifyNat ZifyBool List Bool.
Import ListNotations.
Local Open Scope N_scope.
Set Default Proof Using "Type".

Definition is_ack (o : coutev) : bool := match o with COSettingsAck => true | _ => false end.
Definition acks (l : list coutev) : nat := length (filter is_ack l).

Lemma acks_app a b : acks (a ++ b) = (acks a + acks b)%nat.
Proof. unfold acks. rewrite filter_app, app_length. reflexivity. Qed.

Lemma acks_frames sid l : acks (frames_of sid l) = 0%nat.
Proof. unfold acks, frames_of. induction l as [|x t IH]; cbn [map filter is_ack]; [reflexivity | exact IH]. Qed.

Lemma acks_rev l : acks (rev l) = acks l.
Proof.
  unfold acks. induction l as [|o t IH]; cbn [rev filter]; [reflexivity|].
  rewrite filter_app, app_length, IH. cbn [filter]. destruct (is_ack o); cbn [length]; lia.
Qed.

Section Limits.
Variable hstate : Type.
Variable dec_field : hstate -> N -> bytes -> dec_res hstate.
Variable enc_field : hstate -> bytes -> bytes -> bool -> bytes * hstate.
Variable enc_set_max : hstate -> N -> hstate.
Variable cfg : cl_config.
Variable h0 : hstate.
Variable first : bytes.
Notation cconn := (cconn hstate).
Notation move := (move hstate).
Notation apply := (apply hstate enc_field enc_set_max).
Notation valid := (valid hstate).
Notation items := (items hstate).
Notation mvs := (mvs enc_field enc_set_max).
Notation mitems := (mitems hstate enc_field enc_set_max).
Notation step := (cl_step dec_field enc_field enc_set_max cfg).
Notation run := (cl_run dec_field enc_field enc_set_max cfg h0 first).
Notation init := (cl_init enc_set_max h0 first).

(* a SETTINGS frame that is not an ACK, on stream 0, taken in by a running read loop *)
Definition settings_taken (c : cconn) (fr : sframe) : Prop :=
  cl_rl_live c = true /\ cc_netClosed c = false /\ sf_kind fr = KSettings /\ sf_sid fr = 0 /\ flag_has (sf_flags fr) FL_ES = false.

Lemma rl_step_settings (c : cconn) fr st : settings_taken c fr -> cl_settings_deserialize false (sf_payload fr) = Some st ->
  step c (CEvRL (RFrame fr)) = cl_handle_settings c st.
Proof.
  intros (LV & NC & K & S0 & ACK) DS. cbn [cl_step]. rewrite LV. unfold cl_rl_step. rewrite NC, S0, K, ACK. cbn [N.eqb]. rewrite DS. reflexivity.
Qed.

Lemma rl_step_settings_invalid (c : cconn) fr : settings_taken c fr -> cl_settings_deserialize false (sf_payload fr) = None ->
  step c (CEvRL (RFrame fr)) = cl_rl_fail c.
Proof.
  intros (LV & NC & K & S0 & ACK) DS. cbn [cl_step]. rewrite LV. unfold cl_rl_step. rewrite NC, S0, K, ACK. cbn [N.eqb]. rewrite DS. reflexivity.
Qed.

(* C18 (client): the SETTINGS frame is merged into what the client knows of the server (only the parameters
   present change, each to the last value sent for it), the atomics the write loop reads are stored, the send
   windows are adjusted, and then one ACK is queued behind whatever is already in c.out; nothing is written *)
Theorem settings_ack_step (c : cconn) fr st :
  settings_taken c fr -> cl_settings_deserialize false (sf_payload fr) = Some st ->
  let c' := step c (CEvRL (RFrame fr)) in
  let ps := settings_pairs (sf_payload fr) in
  cc_serverS c' = cl_settings_merge st (cc_serverS c) /\
  cc_maxStreams c' = pairs_last ps 3 (cs_streams (cc_serverS c)) /\
  cc_maxFrame c' = pairs_last ps 5 (cs_frame (cc_serverS c)) /\
  cc_encTableSize c' = (if pairs_has ps 1 then pairs_last ps 1 0 else cc_encTableSize c) /\
  cc_streamWindow c' = (if pairs_has ps 4 then Z.of_N (pairs_last ps 4 0) else cc_streamWindow c) /\
  cc_out c' = cc_out c /\
  cc_outQ c' = (if cc_closed c then cc_outQ c else cc_outQ c ++ [COSettingsAck]).
Proof.
  intros T DS. cbv zeta. rewrite (rl_step_settings c fr st T DS).
  pose proof (settings_merge_delta _ _ (cc_serverS c) DS) as MD.
  destruct (deserialize_facts _ _ DS) as (E & _ & _ & HW & HAS).
  assert (H1 : cl_settings_has st c_HeaderTableSize = pairs_has (settings_pairs (sf_payload fr)) 1) by (apply HAS; clear; lia).
  destruct (deserialize_win _ _ DS) as [_ WS]. unfold win_of in WS.
  unfold cl_handle_settings, cl_apply_initial_window, cl_signal_window, cl_write_out. rewrite H1, HW.
  assert (TB : cs_table st = pairs_last (settings_pairs (sf_payload fr)) 1 (cs_table cl_settings_default)) by (rewrite E; reflexivity).
  assert (WN : cs_window st = pairs_last (settings_pairs (sf_payload fr)) 4 (cs_window cl_settings_default)) by (rewrite E; reflexivity).
  destruct (pairs_has (settings_pairs (sf_payload fr)) 1) eqn:P1, (pairs_has (settings_pairs (sf_payload fr)) 4) eqn:P4; cc_cbn;
    destruct (cc_closed c) eqn:CL; cc_cbn; rewrite ?CL; cc_cbn; rewrite MD; cbn [cs_streams cs_frame];
    repeat split; try reflexivity;
    try (rewrite TB; unfold pairs_last; apply plast_present; exact P1);
    try (rewrite HW in WS; cbn [win_small] in WS; rewrite cl_i32_id by flia; rewrite WN; f_equal; unfold pairs_last; apply plast_present; exact P4).
Qed.

(* invalid values (ENABLE_PUSH above 1, INITIAL_WINDOW_SIZE above 2^31-1, MAX_FRAME_SIZE outside 2^14 .. 2^24-1) or
   a payload that is not a multiple of six bytes: the read loop returns and the connection is closed *)
Theorem settings_invalid_step (c : cconn) fr :
  settings_taken c fr ->
  (len (sf_payload fr) mod 6 =? 0) && forallb setting_valid (settings_pairs (sf_payload fr)) = false ->
  let c' := step c (CEvRL (RFrame fr)) in
  cc_rl_done c' = true /\ cc_closed c' = true /\ (cc_closed c = false -> cc_netClosed c' = true) /\ cc_lastErr c' <> None /\
  cc_outQ c' = cc_outQ c /\ acks (cc_out c') = acks (cc_out c).
Proof.
  intros T BAD. cbv zeta.
  assert (DS : cl_settings_deserialize false (sf_payload fr) = None) by (rewrite settings_deserialize_spec, BAD; reflexivity).
  rewrite (rl_step_settings_invalid c fr T DS).
  unfold cl_rl_fail, cl_rl_exit, cl_conn_close, cl_close_begin, cl_close_net, cl_set_last_err.
  destruct (cc_lastErr c) eqn:LE; cc_cbn; destruct (cc_closed c) eqn:CL; cc_cbn; rewrite ?LE, ?CL; cc_cbn;
    try (destruct (cl_can_write _); cc_cbn); repeat split; try discriminate; try reflexivity; try (rewrite LE; discriminate).
Qed.

(* the move applies a SETTINGS payload *)
Definition eff (m : move) : nat :=
  match m with
  | MSettings p => match cl_settings_deserialize false p with Some _ => 1 | None => 0 end
  | _ => 0
  end.

Record KInv (c : cconn) (n : nat) : Prop := mkKInv {
  k_le : (acks (cc_out c) + acks (cc_outQ c) <= n)%nat;
  k_eq : cc_closed c = false -> cl_can_write c = true -> (acks (cc_out c) + acks (cc_outQ c))%nat = n
}.

Lemma KInv_same (c c' : cconn) n :
  cc_out c' = cc_out c -> cc_outQ c' = cc_outQ c -> (cc_closed c' = false -> cc_closed c = false) ->
  (cl_can_write c' = true -> cl_can_write c = true) -> KInv c n -> KInv c' n.
Proof. intros A B C Dd [k1 k2]. constructor; rewrite ?A, ?B; auto. Qed.

Lemma acks_cons o l : acks (o :: l) = ((if is_ack o then 1 else 0) + acks l)%nat.
Proof. unfold acks. cbn [filter]. destruct (is_ack o); reflexivity. Qed.

Lemma mv_K m (c : cconn) n : valid m c -> KInv c n -> KInv (apply m c) (n + eff m).
Proof.
  intros V K. destruct m; cbn [eff]; rewrite ?Nat.add_0_r;
    try (apply (KInv_same c); try reflexivity; auto; fail).
  - (* MNote *)
    cbn [apply]. destruct (quietb o) eqn:Q; [|exact K]. destruct K as [k1 k2].
    assert (E : acks (o :: cc_out c) = acks (cc_out c)) by (rewrite acks_cons; destruct o; try discriminate; reflexivity).
    constructor; cc_cbn; rewrite E; auto.
  - (* MClosed *) apply (KInv_same c); try reflexivity; auto. cbn [apply]. cc_cbn. discriminate.
  - (* MNetClosed *) apply (KInv_same c); try reflexivity; auto. unfold cl_can_write. cbn [apply]. cc_cbn. rewrite andb_false_r. discriminate.
  - (* MWriteFail *) apply (KInv_same c); try reflexivity; auto. unfold cl_can_write. cbn [apply]. cc_cbn. discriminate.
  - (* MReqTake *)
    cbn [apply]. unfold cl_take_req_count. destruct (cl_req_find _ _); [|exact K]. apply (KInv_same c); try reflexivity; auto.
  - (* MQClear *)
    cbn [valid] in V. destruct K as [k1 k2]. constructor; cbn [apply]; cc_cbn; [unfold acks at 2; cbn [filter length]; flia|].
    intro X. congruence.
  - (* MOutQPush *)
    cbn [apply]. destruct (pushb o) eqn:Q; [|exact K]. unfold cl_write_out. destruct (cc_closed c) eqn:CL; [exact K|].
    destruct K as [k1 k2].
    assert (E : acks (cc_outQ c ++ [o]) = acks (cc_outQ c)).
    { rewrite acks_app, acks_cons. destruct o; try discriminate; cbn; flia. }
    constructor; cc_cbn; rewrite E; auto.
  - (* MWlWrite *)
    destruct V as [CW NE]. destruct K as [k1 k2]. cbn [apply]. destruct (cc_outQ c) as [|o q] eqn:Q; [congruence|].
    rewrite acks_cons in k1, k2. constructor; cc_cbn; rewrite acks_cons; [flia|]. intros X Y. specialize (k2 X Y). flia.
  - (* MWlReset *)
    cbn [apply]. destruct K as [k1 k2]. constructor; cc_cbn; rewrite acks_cons; cbn [is_ack Nat.add]; auto.
  - (* MOutQDrop *)
    cbn [valid] in V. destruct K as [k1 k2]. constructor; cbn [apply]; cc_cbn.
    + destruct (cc_outQ c) as [|o q]; cbn [tl]; [exact k1|]. rewrite acks_cons in k1. flia.
    + intros _ X. unfold cl_can_write in *. cc_cbn_in X. congruence.
  - (* MRecvData *)
    cbn [apply]. destruct K as [k1 k2].
    assert (E2 : acks (cc_outQ (recv_data c fr has_res)) = acks (cc_outQ c)).
    { unfold recv_data, cl_update_window, cl_write_out.
      repeat match goal with |- context [if ?b then _ else _] => destruct b end; cc_cbn;
        unfold acks; rewrite ?filter_app, ?app_length; cbn [filter is_ack length]; flia. }
    rewrite recv_data_eq. constructor; cc_cbn; unfold cl_can_write; cc_cbn; rewrite E2; auto.
  - (* MSettings *)
    cbn [apply]. destruct (cl_settings_deserialize false payload) as [st|]; [|rewrite Nat.add_0_r; exact K].
    destruct K as [k1 k2].
    unfold cl_handle_settings, cl_apply_initial_window, cl_signal_window, cl_write_out, cl_can_write. cc_cbn.
    destruct (cl_settings_has st c_HeaderTableSize), (cs_hasWin st); cc_cbn;
      destruct (cc_closed c) eqn:CL; constructor; cc_cbn; rewrite ?acks_app; cbn [acks filter is_ack length];
      try flia; intros X Y; try congruence; unfold cl_can_write in k2; specialize (k2 eq_refl Y); flia.
  - (* MAddWindow *)
    cbn [apply]. unfold cl_add_window, cl_signal_window. destruct (sid =? 0); [apply (KInv_same c); try reflexivity; auto|].
    destruct (cl_pend_get _ _); apply (KInv_same c); try reflexivity; auto.
  - (* MRefill *)
    cbn [apply]. destruct (cl_pend_get _ _) as [pb|]; [|exact K]. destruct (cl_refill pb); [|exact K]. apply (KInv_same c); try reflexivity; auto.
  - (* MSend *)
    cbn [apply]. destruct (cl_pend_get _ _) as [pb|]; [|exact K].
    assert (X : KInv (cs_conn c pb id) n) by (apply (KInv_same c); unfold cs_conn; destruct (cs_end c pb); try reflexivity; auto).
    destruct wr; [|exact X].
    destruct (write_data_shape (cc_maxFrame (cs_conn c pb id)) id (cs_chunk c pb) (cs_end c pb)) as (l & E & _).
    rewrite E. destruct X as [k1 k2].
    constructor; rewrite (cc_out_cl_notes hstate), cc_outQ_cl_notes, acks_app, acks_rev, acks_frames, ?cc_closed_cl_notes, ?(can_write_notes hstate);
      cbn [Nat.add]; assumption.
  - (* MSendBack *)
    cbn [apply]. destruct (cl_pend_get _ _) as [pb|]; [|exact K]. sb_cases c pb; apply (KInv_same c); try reflexivity; auto.
  - (* MEncSync *) cbn [apply]. destruct (negb _); [|exact K]. apply (KInv_same c); try reflexivity; auto.
  - (* MHeaders *)
    cbn [apply]. destruct K as [k1 k2]. destruct opb; constructor; cc_cbn; rewrite acks_cons; cbn [is_ack Nat.add]; auto.
Qed.

Fixpoint sum_eff (ms : list move) : nat := match ms with [] => 0 | m :: t => eff m + sum_eff t end.

Lemma mvs_K (c : cconn) ms c' : mvs c ms c' -> forall n, KInv c n -> KInv c' (n + sum_eff ms).
Proof.
  induction 1 as [c|c m ms c' V M IH]; intros n K; cbn [sum_eff]; [rewrite Nat.add_0_r; exact K|].
  rewrite Nat.add_assoc. apply IH. apply mv_K; assumption.
Qed.

Lemma sum_eff0 ms : Forall (fun m => eff m = 0%nat) ms -> sum_eff ms = 0%nat.
Proof. induction 1 as [|m t H Ht IH]; cbn [sum_eff]; [reflexivity|]. rewrite H, IH. reflexivity. Qed.

(* the step takes a valid SETTINGS frame in *)
Definition nset (c : cconn) (e : cevent) : nat :=
  match e with
  | CEvRL (RFrame fr) =>
    if cl_rl_live c && negb (cc_netClosed c) && fkind_eqb (sf_kind fr) KSettings && (sf_sid fr =? 0) && negb (flag_has (sf_flags fr) FL_ES)
    then match cl_settings_deserialize false (sf_payload fr) with Some _ => 1 | None => 0 end
    else 0
  | _ => 0
  end.

Lemma D_eff0_K (c c' : cconn) g n : D enc_field enc_set_max (fun m => eff m = 0%nat) g c c' -> KInv c n -> KInv c' n.
Proof.
  intros (ms & M & F & _) K. pose proof (mvs_K c ms c' M n K) as H. rewrite (sum_eff0 ms F), Nat.add_0_r in H. exact H.
Qed.

Lemma step_K (c : cconn) e n : KInv c n -> KInv (step c e) (n + nset c e).
Proof.
  intro K.
  destruct (step_D hstate dec_field enc_field enc_set_max cfg c e) as (ms & M & F & _).
  (* unless the event is a SETTINGS frame for the connection that is not an ACK, no move applies settings *)
  assert (GEN : (forall fr, e = CEvRL (RFrame fr) -> sf_kind fr = KSettings -> sf_sid fr = 0 -> flag_has (sf_flags fr) FL_ES = false ->
                            cl_settings_deserialize false (sf_payload fr) = None) ->
                KInv (step c e) n).
  { intro H. pose proof (mvs_K c ms _ M n K) as X. rewrite sum_eff0, Nat.add_0_r in X; [exact X|].
    eapply Forall_impl; [|exact F]. intros m E. destruct m; try reflexivity. cbn in E. destruct E as (fr & E1 & E2 & E3 & E4 & ->).
    cbn [eff]. rewrite (H fr E1 E2 E3 E4). reflexivity. }
  destruct e as [| | | | | | |i| | | | | |]; cbn [nset]; rewrite ?Nat.add_0_r; try (apply GEN; intros fr X; discriminate).
  destruct i as [fr| | |]; rewrite ?Nat.add_0_r; try (apply GEN; intros fr X; discriminate).
  destruct (fkind_eqb (sf_kind fr) KSettings) eqn:KS; rewrite ?andb_false_r; cbn [andb]; rewrite ?Nat.add_0_r;
    [apply fkind_eqb_eq in KS | apply GEN; intros fr' X Y; inversion X; subst fr'; rewrite Y in KS; discriminate].
  destruct (sf_sid fr =? 0) eqn:S0; rewrite ?andb_false_r; cbn [andb]; rewrite ?Nat.add_0_r;
    [apply N.eqb_eq in S0 | apply GEN; intros fr' X _ Y; inversion X; subst fr'; rewrite Y in S0; discriminate].
  destruct (flag_has (sf_flags fr) FL_ES) eqn:ACK; rewrite ?andb_false_r; cbn [negb andb]; rewrite ?Nat.add_0_r;
    [apply GEN; intros fr' X _ _ Y; inversion X; subst fr'; congruence|].
  destruct (cl_settings_deserialize false (sf_payload fr)) as [st|] eqn:DS;
    [|destruct (_ && _); rewrite Nat.add_0_r; apply GEN; intros fr' X _ _ _; inversion X; subst fr'; exact DS].
  destruct (cl_rl_live c) eqn:LV; cbn [andb]; [|rewrite Nat.add_0_r; cbn [cl_step]; rewrite LV; exact K].
  destruct (cc_netClosed c) eqn:NC; cbn [negb andb].
  - rewrite Nat.add_0_r. cbn [cl_step]. rewrite LV. unfold cl_rl_step. rewrite NC.
    apply (D_eff0_K c _ []); [|exact K]. apply rl_fail_DP; [intros m A; destruct m; try reflexivity; destruct A | reflexivity].
  - assert (T : settings_taken c fr) by (repeat split; assumption).
    rewrite (rl_step_settings c fr st T DS).
    pose proof (mv_K (MSettings (sf_payload fr)) c n I K) as X. cbn [apply eff] in X. rewrite DS in X. exact X.
Qed.

Fixpoint nsets_from (c : cconn) (evs : list cevent) : nat :=
  match evs with
  | [] => 0
  | e :: t => nset c e + nsets_from (step c e) t
  end.

Lemma K_from evs : forall (c : cconn) n, KInv c n -> KInv (fold_left step evs c) (n + nsets_from c evs).
Proof.
  induction evs as [|e t IH]; intros c n K; cbn [fold_left nsets_from]; [rewrite Nat.add_0_r; exact K|].
  rewrite Nat.add_assoc. apply IH. apply step_K. exact K.
Qed.

(* C18 (client): exactly one ACK per SETTINGS frame taken in. The ACKs written plus those waiting in c.out never
   exceed the number of valid non-ACK SETTINGS frames the read loop has taken in, and are exactly as many while the
   connection has not been closed and writes reach the socket. (They leave c.out in the order they were queued:
   the write loop takes the head of the queue, MWlWrite.) *)
Theorem settings_acks evs :
  let c := run evs in
  (acks (cl_trace c) + acks (cc_outQ c) <= nsets_from init evs)%nat /\
  (cc_closed c = false -> cl_can_write c = true -> (acks (cl_trace c) + acks (cc_outQ c))%nat = nsets_from init evs).
Proof.
  cbv zeta. assert (K0 : KInv init 0).
  { unfold cl_init. destruct (cl_settings_deserialize false first); constructor; cc_cbn; intros; reflexivity. }
  destruct (K_from evs init 0 K0) as [k1 k2]. fold (run evs) in *. cbn [Nat.add] in *.
  unfold cl_trace. rewrite acks_rev. split; assumption.
Qed.

(* the fields the limits are about, move by move: what each move can change *)
Lemma apply_fields m (c : cconn) :
  (cc_netClosed c = true -> cc_netClosed (apply m c) = true) /\
  ((forall p, m <> MSettings p) -> cc_encTableSize (apply m c) = cc_encTableSize c) /\
  (m <> MEncSync -> cc_encTableSeen (apply m c) = cc_encTableSeen c) /\
  (m <> MEncSync -> (forall rq, m <> MEnc rq) -> cc_enc (apply m c) = cc_enc c).
Proof.
  destruct m; cbn [apply]; try (repeat split; auto; fail).
  - destruct (quietb o); repeat split; auto.
  - unfold cl_take_req_count. destruct (cl_req_find _ _); repeat split; auto.
  - destruct (pushb o); [|repeat split; auto]. unfold cl_write_out. destruct (cc_closed c); repeat split; auto.
  - destruct (cc_outQ c); repeat split; auto.
  - rewrite recv_data_eq. repeat split; auto.
  - destruct (cl_settings_deserialize false payload) as [st|]; [|repeat split; auto].
    rewrite cc_netClosed_cl_handle_settings, cc_encTableSeen_cl_handle_settings, cc_enc_cl_handle_settings. repeat split; auto.
    intro H. exfalso. exact (H payload eq_refl).
  - rewrite cc_netClosed_cl_add_window, cc_encTableSize_cl_add_window, cc_encTableSeen_cl_add_window, cc_enc_cl_add_window. repeat split; auto.
  - destruct (cl_pend_get _ _) as [pb|]; [|repeat split; auto]. destruct (cl_refill pb); repeat split; auto.
  - destruct (cl_pend_get _ _) as [pb|]; [|repeat split; auto].
    assert (X : cc_netClosed (cs_conn c pb id) = cc_netClosed c /\ cc_encTableSeen (cs_conn c pb id) = cc_encTableSeen c /\
                cc_encTableSize (cs_conn c pb id) = cc_encTableSize c /\ cc_enc (cs_conn c pb id) = cc_enc c)
      by (unfold cs_conn; destruct (cs_end c pb); repeat split).
    destruct X as (X1 & X2 & X3 & X4). destruct wr.
    + rewrite cc_netClosed_cl_notes, cc_encTableSeen_cl_notes, cc_encTableSize_cl_notes, cc_enc_cl_notes, X1, X2, X3, X4. repeat split; auto.
    + rewrite X1, X2, X3, X4. repeat split; auto.
  - destruct (cl_pend_get _ _) as [pb|]; [|repeat split; auto]. sb_cases c pb; repeat split; auto.
  - destruct (negb _); repeat split; auto; intro H; exfalso; apply H; reflexivity.
  - repeat split; auto. intros _ H. exfalso. exact (H rq eq_refl).
  - destruct opb; repeat split; auto.
Qed.

Lemma netclosed_items m (c : cconn) : valid m c -> cc_netClosed c = true -> Forall (fun o => quietb o = true) (items m c).
Proof.
  intros V NC. assert (CW : cl_can_write c = false) by (unfold cl_can_write; rewrite NC, andb_false_r; reflexivity).
  destruct m; cbn [items]; try constructor.
  - destruct (quietb o) eqn:Q; constructor; [exact Q | constructor].
  - destruct V as [X _]. congruence.
  - (* MWlReset *) cbn [valid] in V. congruence.
  - constructor.
  - destruct V as (pb & G & _ & WR). rewrite G. destruct wr; [|constructor]. destruct (WR eq_refl) as [X _]. congruence.
  - destruct V as (X & _). congruence.
  - constructor.
Qed.

(* C18 (client): once c.c.Close() has been called - by the read loop's own Close when it is the first to close the
   connection, otherwise by the second half of the caller's Close - nothing is written any more: the items a step
   adds to the trace are results and notes, never frames *)
Theorem no_frames_after_close (c : cconn) e : cc_netClosed c = true ->
  cc_netClosed (step c e) = true /\ Forall (fun o => quietb o = true) (g_new hstate c (step c e)).
Proof.
  intro NC. destruct (step_D hstate dec_field enc_field enc_set_max cfg c e) as (ms & M & _).
  rewrite (mvs_new _ _ _ _ _ _ M). generalize dependent (step c e). intros cf M.
  induction M as [c|c m ms c' V M IH]; cbn [CliFlowOut.mitems]; [split; [exact NC | constructor]|].
  destruct (apply_fields m c) as (A & _). destruct (IH (A NC)) as [X Y]. split; [exact X|].
  apply Forall_app. split; [apply netclosed_items; assumption | exact Y].
Qed.

(* while the server has not sent GOAWAY the counter the client checks is at least the number of streams on its table *)
Definition OInv (c : cconn) : Prop := cc_goAway c = false -> (Z.of_nat (length (cc_reqQueued c)) <= cc_open c)%Z.

Lemma filter_find_length (l : list (N * N)) id t : cl_req_find l id = Some t ->
  (S (length (filter (fun e => negb (fst e =? id)%N) l)) <= length l)%nat.
Proof.
  induction l as [|[i t0] r IH]; cbn [cl_req_find filter fst length]; [discriminate|].
  destruct (i =? id); cbn [negb].
  - intros _. assert (X : forall (f : N * N -> bool) (r0 : list (N * N)), (length (filter f r0) <= length r0)%nat).
    { clear. intros f r0. induction r0 as [|a t IH]; cbn [filter length]; [lia|]. destruct (f a); cbn [length]; lia. }
    pose proof (X (fun e => negb (fst e =? id)) r). flia.
  - intro H. specialize (IH H). cbn [length]. flia.
Qed.

Lemma mv_O m (c : cconn) : valid m c -> OInv c -> OInv (apply m c).
Proof.
  intros V O. unfold OInv in *.
  destruct m; cbn [apply]; try exact O.
  - destruct (quietb o); exact O.
  - cc_cbn. discriminate.
  - unfold cl_take_req_count, cl_req_del. destruct (cl_req_find _ _) eqn:F; [|exact O]. cc_cbn. intro G. specialize (O G).
    pose proof (filter_find_length _ _ _ F). flia.
  - cc_cbn. intro G. specialize (O G). rewrite app_length. cbn [length]. flia.
  - cbn [valid] in V. cc_cbn. congruence.
  - cbn [valid] in V. cc_cbn. congruence.
  - cc_cbn. intro G. specialize (O G). cbn [length]. flia.
  - destruct (pushb o); [|exact O]. unfold cl_write_out. destruct (cc_closed c); exact O.
  - destruct (cc_outQ c); exact O.
  - rewrite recv_data_eq. exact O.
  - destruct (cl_settings_deserialize false payload) as [st|]; [|exact O].
    rewrite cc_goAway_cl_handle_settings, cc_reqQueued_cl_handle_settings, cc_open_cl_handle_settings. exact O.
  - rewrite cc_goAway_cl_add_window, cc_reqQueued_cl_add_window, cc_open_cl_add_window. exact O.
  - destruct (cl_pend_get _ _) as [pb|]; [|exact O]. destruct (cl_refill pb); exact O.
  - destruct (cl_pend_get _ _) as [pb|]; [|exact O].
    assert (X : cc_goAway (cs_conn c pb id) = cc_goAway c /\ cc_reqQueued (cs_conn c pb id) = cc_reqQueued c /\ cc_open (cs_conn c pb id) = cc_open c)
      by (unfold cs_conn; destruct (cs_end c pb); repeat split).
    destruct X as (X1 & X2 & X3). destruct wr.
    + rewrite cc_reqQueued_cl_notes, cc_open_cl_notes, cc_goAway_cl_notes, X1, X2, X3. exact O.
    + rewrite X1, X2, X3. exact O.
  - destruct (cl_pend_get _ _) as [pb|]; [|exact O]. sb_cases c pb; exact O.
  - destruct (negb _); exact O.
  - destruct opb; exact O.
Qed.

Lemma O_run evs : OInv (run evs).
Proof.
  apply (run_inv hstate dec_field enc_field enc_set_max cfg h0 first); [|exact mv_O].
  unfold OInv, cl_init. destruct (cl_settings_deserialize false first); cc_cbn; intros _; cbn [length]; clear; lia.
Qed.

(* HEADERS is written by the write loop's case ctx := <-c.in only, after CanOpenStream said yes *)
Lemma mitems_headers e (c : cconn) ms c' sid es blk : mvs c ms c' -> Forall (ev_ok e) ms -> ES hstate c ->
  In (COHeaders sid es blk) (mitems c ms) -> e = CEvWLIn.
Proof.
  induction 1 as [c|c m ms c' V M IH]; intros F E HI; cbn [CliFlowOut.mitems] in HI; [destruct HI|].
  inversion F as [|? ? F1 F2]; subst. apply in_app_or in HI. destruct HI as [HI|HI]; [|exact (IH F2 (mv_ES hstate enc_field enc_set_max m c V E) HI)].
  destruct m; cbn [items] in HI; try (destruct HI; fail).
  - destruct (quietb o) eqn:Q; [|destruct HI]. destruct HI as [->|[]]. discriminate.
  - destruct (cc_outQ c) as [|o q] eqn:Q; [destruct HI|]. destruct HI as [->|[]].
    pose proof (es_q _ _ E) as QQ. rewrite Q in QQ. inversion QQ as [|? ? QO QT]. destruct QO.
  - (* MWlReset *) destruct HI as [X|[]]. discriminate.
  - destruct (cl_pend_get _ _) as [pb|]; [|destruct HI]. destruct wr; [|destruct HI].
    destruct (write_data_shape (cc_maxFrame c) id (cs_chunk c pb) (cs_end c pb)) as (l & A & _). rewrite A in HI.
    apply in_frames_of in HI. destruct HI as (x & _ & X). discriminate.
  - exact F1.
Qed.

Lemma wl_in_no_open (c : cconn) : cl_can_open_stream c = false -> cc_out (cl_wl_in enc_field enc_set_max cfg c) = cc_out c.
Proof.
  intro CO. unfold cl_wl_in. destruct (cc_inQ c) as [|tag q]; [reflexivity|]. unfold cl_write_request.
  change (cl_can_open_stream (ccu_inQ c q)) with (cl_can_open_stream c). rewrite CO. cbn [negb].
  unfold cl_resolve, cl_ctx_upd. destruct (cl_ctx_get _ _); reflexivity.
Qed.

(* C18 (client), MAX_CONCURRENT_STREAMS: a step that writes HEADERS is the write loop's case ctx := <-c.in, and when
   it starts the counter openStreams is below the server's SETTINGS_MAX_CONCURRENT_STREAMS as last merged, no GOAWAY
   has been seen, and the streams on the client's table are at most that counter: with the new one, at most the limit.
   (A SETTINGS frame that lowers the limit later closes nothing: it only stops new streams from being opened.) *)
Theorem headers_within_limit evs e sid es blk : cl_settings_deserialize false first <> None ->
  In (COHeaders sid es blk) (g_new hstate (run evs) (step (run evs) e)) ->
  let c := run evs in
  e = CEvWLIn /\ cl_wl_live c = true /\ cc_goAway c = false /\
  (Z.of_nat (length (cc_reqQueued c)) <= cc_open c < Z.of_N (cc_maxStreams c))%Z /\
  cc_maxStreams c = cs_streams (cc_serverS c).
Proof.
  intros NN HI. cbv zeta. set (c := run evs) in *.
  destruct (step_D hstate dec_field enc_field enc_set_max cfg c e) as (ms & M & F & _).
  pose proof HI as HI2. rewrite (mvs_new _ _ _ _ _ _ M) in HI2.
  pose proof (mitems_headers e c ms _ sid es blk M F (ES_run hstate dec_field enc_field enc_set_max cfg h0 first evs) HI2) as EW.
  subst e. split; [reflexivity|]. cbn [cl_step] in HI.
  destruct (cl_wl_live c) eqn:LV; [|rewrite (g_new_ext hstate c c []) in HI by reflexivity; destruct HI].
  split; [reflexivity|].
  destruct (cl_can_open_stream c) eqn:CO; [|rewrite (g_new_ext hstate c _ []) in HI by (rewrite wl_in_no_open by exact CO; reflexivity); destruct HI].
  unfold cl_can_open_stream in CO. apply andb_prop in CO. destruct CO as [CO C3]. apply andb_prop in CO. destruct CO as [C1 C2].
  apply negb_true_iff in C1. apply Z.ltb_lt in C3.
  split; [exact C1|]. split; [split; [apply (O_run evs); exact C1 | exact C3]|].
  apply (fs_streams _ _ (FS_run hstate dec_field enc_field enc_set_max cfg h0 first evs NN)).
Qed.

(* the encoder's history: m is the last maximum the write loop gave it with SetMaxTableSize (4096 before any) *)
Inductive enc_hist : hstate -> N -> Prop :=
| eh_init : enc_hist h0 c_defaultHeaderTableSize
| eh_set h n m : enc_hist h n -> enc_hist (enc_set_max h m) m
| eh_field h n k v b : enc_hist h n -> enc_hist (snd (enc_field h k v b)) n.

Lemma enc_req_fields_hist l : forall h n, enc_hist h n -> enc_hist (snd (cl_enc_req_fields enc_field h l)) n.
Proof.
  induction l as [|[k v] t IH]; intros h n H; cbn [cl_enc_req_fields snd]; [exact H|].
  destruct (cl_is_user_agent k); [apply IH; exact H|]. destruct (is_connection_specific _); [apply IH; exact H|].
  pose proof (eh_field h n (cl_to_lower k) v false H) as H1. destruct (enc_field h (cl_to_lower k) v false) as [b1 e1]. cbn [snd] in H1.
  specialize (IH e1 n H1). destruct (cl_enc_req_fields enc_field e1 t) as [b2 e2]. exact IH.
Qed.

Lemma request_block_hist h n rq : enc_hist h n -> enc_hist (snd (cl_request_block enc_field h rq)) n.
Proof.
  intro H. unfold cl_request_block.
  pose proof (eh_field h n S_authority (cq_host rq) true H) as H1. destruct (enc_field h S_authority (cq_host rq) true) as [b1 e1]. cbn [snd] in H1.
  pose proof (eh_field e1 n S_method (cq_method rq) true H1) as H2. destruct (enc_field e1 S_method (cq_method rq) true) as [b2 e2]. cbn [snd] in H2.
  pose proof (eh_field e2 n S_path (cq_path rq) true H2) as H3. destruct (enc_field e2 S_path (cq_path rq) true) as [b3 e3]. cbn [snd] in H3.
  pose proof (eh_field e3 n S_scheme (cq_scheme rq) true H3) as H4. destruct (enc_field e3 S_scheme (cq_scheme rq) true) as [b4 e4]. cbn [snd] in H4.
  pose proof (eh_field e4 n S_user_agent (cq_ua rq) true H4) as H5. destruct (enc_field e4 S_user_agent (cq_ua rq) true) as [b5 e5]. cbn [snd] in H5.
  pose proof (enc_req_fields_hist (cq_fields rq) e5 n H5) as H6. destruct (cl_enc_req_fields enc_field e5 (cq_fields rq)) as [b6 e6]. exact H6.
Qed.

Definition TI (c : cconn) : Prop := enc_hist (cc_enc c) (cc_encTableSeen c).

Lemma mv_TI m (c : cconn) : valid m c -> TI c -> TI (apply m c).
Proof.
  intros V T. unfold TI in *. destruct (apply_fields m c) as (_ & _ & A & B).
  assert (CASES : m = MEncSync \/ (exists rq, m = MEnc rq) \/ (m <> MEncSync /\ forall rq, m <> MEnc rq)).
  { destruct m; try (right; right; split; [discriminate | intros; discriminate]); [left; reflexivity | right; left; eexists; reflexivity]. }
  destruct CASES as [->|[(rq & ->)|[N1 N2]]].
  - cbn [apply]. destruct (negb _); [|exact T]. cc_cbn. eapply eh_set. exact T.
  - cbn [apply]. cc_cbn. apply request_block_hist. exact T.
  - rewrite (A N1), (B N1 N2). exact T.
Qed.

Lemma TI_run evs : TI (run evs).
Proof.
  apply (run_inv hstate dec_field enc_field enc_set_max cfg h0 first); [|exact mv_TI].
  unfold TI, cl_init. destruct (cl_settings_deserialize false first) as [st|]; cc_cbn; [|apply eh_init].
  destruct (cs_table st <=? c_defaultHeaderTableSize); [eapply eh_set; apply eh_init | apply eh_init].
Qed.

(* within a step of the write loop the stored size does not change, and once the encoder is in step with it, it stays *)
Lemma mvs_sync (c : cconn) ms c' : mvs c ms c' -> Forall (ev_ok CEvWLIn) ms -> ES hstate c ->
  cc_encTableSize c' = cc_encTableSize c /\
  (cc_encTableSeen c = cc_encTableSize c -> cc_encTableSeen c' = cc_encTableSize c') /\
  (forall sid es blk, In (COHeaders sid es blk) (mitems c ms) -> cc_encTableSeen c' = cc_encTableSize c').
Proof.
  induction 1 as [c|c m ms c' V M IH]; intros F E; cbn [CliFlowOut.mitems].
  - split; [reflexivity|]. split; [auto | intros ? ? ? []].
  - inversion F as [|? ? F1 F2]; subst.
    destruct (IH F2 (mv_ES hstate enc_field enc_set_max m c V E)) as (I1 & I2 & I3).
    destruct (apply_fields m c) as (_ & A & B & _).
    assert (NS : forall p, m <> MSettings p) by (intros p ->; cbn in F1; destruct F1 as (fr & X & _); discriminate).
    specialize (A NS).
    assert (KEEP : cc_encTableSeen c = cc_encTableSize c -> cc_encTableSeen (apply m c) = cc_encTableSize (apply m c)).
    { intro H. rewrite A. destruct m; try (rewrite B by discriminate; exact H).
      cbn [apply]. destruct (cc_encTableSize c =? cc_encTableSeen c) eqn:X; cbn [negb]; [exact H | reflexivity]. }
    split; [rewrite I1; exact A|]. split; [intro H; apply I2, KEEP, H|].
    intros sid es blk HI. apply in_app_or in HI. destruct HI as [HI|HI]; [|exact (I3 _ _ _ HI)].
    apply I2, KEEP. destruct m; cbn [items] in HI; try (destruct HI; fail).
    + destruct (quietb o) eqn:Q; [|destruct HI]. destruct HI as [->|[]]. discriminate.
    + destruct (cc_outQ c) as [|o q] eqn:Q; [destruct HI|]. destruct HI as [->|[]].
      pose proof (es_q _ _ E) as QQ. rewrite Q in QQ. inversion QQ as [|? ? QO QT]. destruct QO.
    + (* MWlReset *) destruct HI as [X|[]]. discriminate.
    + destruct (cl_pend_get _ _) as [pb|]; [|destruct HI]. destruct wr; [|destruct HI].
      destruct (write_data_shape (cc_maxFrame c) id (cs_chunk c pb) (cs_end c pb)) as (l & X & _). rewrite X in HI.
      apply in_frames_of in HI. destruct HI as (x & _ & Y). discriminate.
    + destruct V as (_ & _ & _ & _ & _ & _ & SY). exact SY.
Qed.

(* C18 (client), HEADER_TABLE_SIZE: after a step that writes HEADERS, the encoder that produced the block has as its
   maximum table size the value the read loop had last stored when the step started (encTableSize: the last
   SETTINGS_HEADER_TABLE_SIZE received, settings_ack_step; at the handshake the server's value if it is at most 4096,
   else 4096): the write loop calls SetMaxTableSize before it encodes the next block *)
Theorem table_size_in_force evs e sid es blk :
  In (COHeaders sid es blk) (g_new hstate (run evs) (step (run evs) e)) ->
  let c := run evs in let c' := step c e in
  enc_hist (cc_enc c') (cc_encTableSize c) /\ cc_encTableSeen c' = cc_encTableSize c /\ cc_encTableSize c' = cc_encTableSize c.
Proof.
  intros HI. cbv zeta. set (c := run evs) in *.
  destruct (step_D hstate dec_field enc_field enc_set_max cfg c e) as (ms & M & F & _).
  pose proof HI as HI2. rewrite (mvs_new _ _ _ _ _ _ M) in HI2.
  pose proof (ES_run hstate dec_field enc_field enc_set_max cfg h0 first evs) as E. fold c in E.
  pose proof (mitems_headers e c ms _ sid es blk M F E HI2) as EW. subst e.
  destruct (mvs_sync c ms _ M F E) as (S1 & _ & S3). specialize (S3 _ _ _ HI2).
  pose proof (TI_run (evs ++ [CEvWLIn])) as T. unfold cl_run in T. rewrite fold_left_app in T. cbn [fold_left] in T. fold (run evs) in T. fold c in T.
  unfold TI in T. rewrite S3, S1 in T. split; [exact T|]. split; [rewrite S3; exact S1 | exact S1].
Qed.

Theorem handshake_table_size st : cl_settings_deserialize false first = Some st ->
  cc_encTableSize init = (if cs_table st <=? c_defaultHeaderTableSize then cs_table st else c_defaultHeaderTableSize) /\
  cc_encTableSeen init = cc_encTableSize init /\ cc_encTableSize init <= c_defaultHeaderTableSize.
Proof.
  intro DS. unfold cl_init. rewrite DS. cc_cbn. split; [reflexivity|]. split; [reflexivity|].
  destruct (cs_table st <=? c_defaultHeaderTableSize) eqn:E; [apply N.leb_le in E; exact E | apply N.le_refl].
Qed.

(* ENABLE_PUSH = 0 is what the client announces: a PUSH_PROMISE frame on a stream ends the connection *)
Theorem push_promise_is_connection_error (c : cconn) fr :
  cl_rl_live c = true -> cc_netClosed c = false -> sf_kind fr = KPush -> sf_sid fr <> 0 ->
  let c' := step c (CEvRL (RFrame fr)) in
  cc_rl_done c' = true /\ cc_closed c' = true /\ (cc_closed c = false -> cc_netClosed c' = true) /\ cc_lastErr c' <> None.
Proof.
  intros LV NC K NZ. cbv zeta. cbn [cl_step]. rewrite LV. unfold cl_rl_step. rewrite NC. apply N.eqb_neq in NZ. rewrite NZ.
  unfold cl_rl_frame. rewrite K. cbn [fkind_eqb].
  unfold cl_rl_exit, cl_conn_close, cl_close_begin, cl_close_net, cl_set_last_err.
  destruct (cc_lastErr c) eqn:LE; cc_cbn; destruct (cc_closed c) eqn:CL; cc_cbn; rewrite ?LE, ?CL; cc_cbn;
    try (destruct (cl_can_write _); cc_cbn); repeat split; try discriminate; try reflexivity; try (rewrite LE; discriminate).
Qed.

(* a frame the reader refuses (above the client's MAX_FRAME_SIZE of 16384, which is what it announces by leaving the
   default, or malformed) ends the connection *)
Theorem bad_frame_is_connection_error (c : cconn) code :
  cl_rl_live c = true ->
  let c' := step c (CEvRL (RBadFrame code)) in
  cc_rl_done c' = true /\ cc_closed c' = true /\ (cc_closed c = false -> cc_netClosed c' = true) /\ cc_lastErr c' <> None.
Proof.
  intros LV. cbv zeta. cbn [cl_step]. rewrite LV. unfold cl_rl_step.
  assert (X : (if cc_netClosed c then cl_rl_fail c else cl_rl_fail c) = cl_rl_fail c) by (destruct (cc_netClosed c); reflexivity).
  rewrite X. unfold cl_rl_fail, cl_rl_exit, cl_conn_close, cl_close_begin, cl_close_net, cl_set_last_err.
  destruct (cc_lastErr c) eqn:LE; cc_cbn; destruct (cc_closed c) eqn:CL; cc_cbn; rewrite ?LE, ?CL; cc_cbn;
    try (destruct (cl_can_write _); cc_cbn); repeat split; try discriminate; try reflexivity; try (rewrite LE; discriminate).
Qed.

End Limits.
