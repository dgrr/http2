(* Proofs/SrvRfcSl.v - C08: frames on a stream the table does not hold (closed, refused,
   forgotten, never opened).  sl_frame is cut in two (sl_pre finds or makes the stream, sl_known
   handles the frame on it); here the leaves of sl_pre: those that leave the table and the ring
   alone, the refused HEADERS (its id goes to the ring), and those where the stream loop ends. *)
From H2V Require Import Base.Bytes Base.MachineInt Base.Result Gen.GenConsts Impl.ServerConn.
From H2V Require Import Proofs.SrvBase Proofs.SrvRfcDefs Proofs.SrvRfcSpec Proofs.SrvRfcModel Proofs.SrvRfcSim Proofs.SrvRfcEff
  Proofs.SrvRfcStep Proofs.SrvRfcKit Proofs.SrvRfcRl.
From Coq Require Import ZArith Lia ZifyN ZifyNat ZifyBool.
Local Open Scope N_scope.

Section Sl.
Variable hstate : Type.
Variable dec_field : hstate -> N -> bytes -> dec_res hstate.
Variable enc_field : hstate -> bytes -> bytes -> bool -> bytes * hstate.
Variable enc_set_max : hstate -> N -> hstate.
Variable cfg : config.
Notation sconn := (sconn hstate).
Notation feed := (feed hstate dec_field enc_field enc_set_max cfg).
Notation G := (G hstate).
Notation view := (view hstate).
Notation tbl := (tbl hstate).
Notation Sim := (Sim hstate).
Notation static := (static hstate).
Notation seq_ok := (seq_ok hstate).
Implicit Types c : sconn.

(* the header-block register of the specification follows the read loop *)
Lemma block_after c s fr ec' r d : seq_ok c fr ec' -> sf_sid fr <> 0 -> R_block hstate c s ->
  RS.block (after_outs (RS.spec_next s (RS.Frame (abs_frame fr)) r) d) = if ec' =? 0 then None else Some ec'.
Proof.
  intros SQ Zn B. unfold after_outs. rewrite block_fold_sent, block_spec_next. unfold R_block in B.
  unfold RS.in_sequence, abs_frame. cbn [RS.f_kind RS.f_sid RS.f_eh]. rewrite B.
  destruct SQ as [(E0 & K & ->)|(E0 & K & Sd & ->)].
  - rewrite E0. cbn [N.eqb]. revert K. destruct (sf_kind fr); intro K; cbn [abs_kind fkind_eqb andb]; try reflexivity; try congruence.
    destruct (flag_has (sf_flags fr) FL_EH); cbn [negb]; [reflexivity|].
    replace (sf_sid fr =? 0) with false by lia. reflexivity.
  - replace (sc_expectCont c =? 0) with false by lia. rewrite K. cbn [abs_kind].
    replace (sf_sid fr =? sc_expectCont c) with true by lia.
    destruct (flag_has (sf_flags fr) FL_EH); [reflexivity|].
    replace (sf_sid fr =? 0) with false by lia. reflexivity.
Qed.

Lemma view_none c id : tbl c id = None ->
  view c id = match ring_find c id with Some b => MRing b | None => if id <=? sc_highestID c then MOld else MNew end.
Proof. intro H. unfold SrvRfcDefs.view. rewrite H. reflexivity. Qed.

Lemma ec'_cases c fr ec' : seq_ok c fr ec' -> ec' = 0 \/ ec' = sf_sid fr.
Proof.
  intros [(_ & _ & ->)|(_ & _ & _ & ->)].
  - destruct (_ && _)%bool; auto.
  - destruct (flag_has _ _); auto.
Qed.

(* a frame on an id the table does not hold, after which the table and the ring are as before *)
Lemma G_sl_static c s ph fr ec' c' d :
  Sim c s ph -> seq_ok c fr ec' -> N.odd (sf_sid fr) = true -> tbl c (sf_sid fr) = None ->
  feed c (IIn (RFrame fr)) = c' -> static c c' -> sc_sl_done c' = false -> sc_expectCont c' = ec' ->
  sc_out c' = d ++ sc_out c -> (forall sid rq, ~ In (ODispatch sid rq) d) ->
  (RS.allowed s (RS.Frame (abs_frame fr)) (react s fr d) = true \/
   known_deviation hstate c s (RFrame fr) = true) ->
  (forall id, RS.st_of (spec_after s fr d) id = RS.st_of s id) ->
  RS.highest (spec_after s fr d) = RS.highest s ->
  RS.goaway (spec_after s fr d) = sc_closing c' ->
  (sc_discardID c' = sc_discardID c \/ sc_discardID c' = 0 \/ (sc_discardID c' = sf_sid fr /\ sf_sid fr <= sc_highestID c)) ->
  (ec' <> 0 -> sc_discardID c' = ec' \/
               RS.dead (spec_after s fr d) = true) ->
  (sc_closing c' = false -> sc_highestID c < sf_sid fr -> sf_kind fr = KPriority) ->
  G c s ph (RFrame fr) (feed c (IIn (RFrame fr))).
Proof.
  intros HS SQ Od Tn E St Hsl' Hec Ho Hnd Ha Hst Hhi Hga Hdi Hcont Hnew.
  rewrite E. exists d. split; [exact Ho|]. cbn [abs_input input_sid]. split; [exact Ha|].
  rewrite Hsl'. split; [|intros sid rq H; exfalso; exact (Hnd sid rq H)].
  pose proof (S_aux _ _ _ _ HS) as [AT AH]. pose proof St as (A1 & A2 & A3 & A4 & A5 & A6 & A7 & A8).
  pose proof (tbl_None_In hstate c _ Tn) as Tn'.
  (* the specification's goaway flag only grows *)
  assert (Cl : sc_closing c' = false -> sc_closing c = false).
  { intro Hc. rewrite <- (S_ga _ _ _ _ HS). rewrite <- Hga in Hc. unfold spec_after, after_outs in Hc.
    rewrite goaway_fold_sent, goaway_spec_next in Hc. destruct (RS.goaway s); [discriminate | reflexivity]. }
  apply (live_tuple_static hstate c c' s (spec_after s fr d) ph).
  - exact HS.
  - exact St.
  -
    pose proof AH as [F1 F2 F3 F4]. constructor.
    + intros st H Hf. rewrite A1 in H. exfalso. destruct SQ as [(E0 & _)|(E0 & K & Sd & _)].
      * rewrite (all_finished hstate c st AT AH E0 H) in Hf. discriminate.
      * apply (Tn' st H). rewrite Sd. exact (F1 st H Hf).
    + intros st Hne H. rewrite Hec in H. rewrite (tbl_static hstate _ _ _ St) in H.
      destruct (ec'_cases _ _ _ SQ) as [Z|Z]; [congruence|]. rewrite Z in H. congruence.
    + rewrite Hec. intro Hne. destruct (ec'_cases _ _ _ SQ) as [Z|Z]; [congruence | rewrite Z; exact Od].
    + intro Hne. rewrite (tbl_static hstate _ _ _ St), A5. destruct Hdi as [X|[X|[X Y]]].
      * rewrite X in *. apply F4, Hne.
      * congruence.
      * rewrite X. split; [exact Tn | exact Y].
  - exact Hst.
  - exact Hhi.
  - unfold R_block. rewrite Hec. apply (block_after c s fr ec' _ d SQ); [|exact (S_blk _ _ _ _ HS)].
    intro Z. rewrite Z in Od. discriminate.
  - exact Hga.
  - rewrite Hec. intros Hne _. apply Hcont, Hne.
  - intros st H. cbn [ph_next]. replace (st_id st =? sf_sid fr) with false; [reflexivity|].
    symmetry. apply N.eqb_neq. apply Tn', H.
  - intros Hc id O L. cbn [ph_next]. destruct (id =? sf_sid fr) eqn:X.
    + apply N.eqb_eq in X. subst id. rewrite (S_new _ _ _ _ HS); [| | exact O | exact L].
      * pose proof (Hnew Hc L) as K. unfold abs_frame. cbn [RS.request_step RS.f_kind]. rewrite K. reflexivity.
      * apply Cl, Hc.
    + apply (S_new _ _ _ _ HS); [apply Cl, Hc | exact O | exact L].
Qed.

Lemma Zn_of_odd n : N.odd n = true -> (n =? 0) = false.
Proof. intro O. destruct (n =? 0) eqn:Z; [apply N.eqb_eq in Z; rewrite Z in O; discriminate | reflexivity]. Qed.

Lemma classify_rst sid code : (sid =? 0) = false -> classify sid [ORst sid code] = RS.StreamErr code.
Proof. intro Z. unfold classify. cbn [first_some is_goaway strip_late existsb is_exit orb]. rewrite Z. cbn [first_some is_rst strip_late]. rewrite N.eqb_refl. reflexivity. Qed.

(* what the specification thinks of an id the table does not hold *)
Lemma unknown_state c s ph id : Sim c s ph -> N.odd id = true -> tbl c id = None ->
  (id <= sc_highestID c -> exists w, RS.st_of s id = RS.Closed w) /\
  (sc_highestID c < id -> RS.st_of s id = RS.Idle /\ ring_find c id = None).
Proof.
  intros HS O Tn. pose proof (S_str _ _ _ _ HS id O) as R. rewrite (view_none c id Tn) in R.
  destruct (ring_find c id) as [b|] eqn:F.
  - assert (X : exists w, RS.st_of s id = RS.Closed w).
    { destruct b; cbn [rel] in R; [eauto | destruct R; eauto]. }
    split; [intros _; exact X|]. intro L. destruct X as [w Hw].
    pose proof (st_of_closed_le s id w (S_wf _ _ _ _ HS) Hw). rewrite (S_hi _ _ _ _ HS) in H. lia.
  - destruct (id <=? sc_highestID c) eqn:L; cbn [rel] in R.
    + split; [intros _; eauto | intro; lia].
    + split; [intro; lia | intros _; auto].
Qed.

Lemma ring_state c s ph id b : Sim c s ph -> N.odd id = true -> tbl c id = None -> ring_find c id = Some b ->
  if b then RS.st_of s id = RS.Closed RS.WeRst
  else RS.st_of s id = RS.Closed RS.PeerEnd \/ RS.st_of s id = RS.Closed RS.PeerRst.
Proof.
  intros HS O Tn F. pose proof (S_str _ _ _ _ HS id O) as R. rewrite (view_none c id Tn), F in R.
  destruct b; exact R.
Qed.

(* facts about the state the stream loop starts from *)
Lemma c1_facts c ec' : static c (upd_expectCont c ec') /\ sc_sl_done (upd_expectCont c ec') = sc_sl_done c /\
  sc_wl_dead (upd_expectCont c ec') = sc_wl_dead c /\ sc_expectCont (upd_expectCont c ec') = ec' /\
  sc_closing (upd_expectCont c ec') = sc_closing c /\ sc_discardID (upd_expectCont c ec') = sc_discardID c /\
  sc_out (upd_expectCont c ec') = sc_out c.
Proof. repeat split. Qed.

Lemma G_sl_goaway c s ph fr ec' code :
  Sim c s ph -> sc_sl_done c = false -> seq_ok c fr ec' -> N.odd (sf_sid fr) = true -> tbl c (sf_sid fr) = None ->
  feed c (IIn (RFrame fr)) = write_goaway (upd_expectCont c ec') (sf_sid fr) code ->
  (RS.allowed s (RS.Frame (abs_frame fr)) (RS.ConnErr code) = true \/ known_deviation hstate c s (RFrame fr) = true) ->
  G c s ph (RFrame fr) (feed c (IIn (RFrame fr))).
Proof.
  intros HS Hsl SQ Od Tn E Ha.
  pose proof (S_aux _ _ _ _ HS) as [AT AH].
  rewrite (write_goaway_wr hstate (upd_expectCont c ec') _ _ (conj Hsl (A_wl _ _ AT))) in E.
  destruct (spec_goaway s (abs_frame fr) code [OGoAway (sc_lastID c) code] (sc_lastID c) (S_wf _ _ _ _ HS) eq_refl) as (Q1 & Q2 & Q3 & Q4).
  apply (G_sl_static c s ph fr ec' _ [OGoAway (sc_lastID c) code] HS SQ Od Tn E);
    unfold spec_after, react; cbn [filter noisy strip_late rev app classify first_some is_goaway resolve]; try assumption; try reflexivity.
  - repeat split.
  - intros sid rq [H|[]]; discriminate.
  - left. reflexivity.
  - intros _. right. exact Q4.
  - discriminate.
Qed.

Lemma G_sl_quiet c s ph fr ec' c' d :
  Sim c s ph -> sc_sl_done c = false -> seq_ok c fr ec' -> N.odd (sf_sid fr) = true -> tbl c (sf_sid fr) = None ->
  feed c (IIn (RFrame fr)) = c' -> static c c' -> sc_sl_done c' = false -> sc_expectCont c' = ec' -> sc_closing c' = sc_closing c ->
  sc_out c' = d ++ sc_out c -> filter noisy d = [] -> (forall sid rq, ~ In (ODispatch sid rq) d) ->
  ((RS.may_process s (RS.Frame (abs_frame fr)) = true \/
    existsb (fun v => RS.admits v RS.Ignore) (RS.verdicts s (RS.Frame (abs_frame fr))) = true) \/
   known_deviation hstate c s (RFrame fr) = true) ->
  RS.receive (RS.st_of s (sf_sid fr)) (abs_frame fr) = RS.st_of s (sf_sid fr) ->
  (sc_discardID c' = sc_discardID c \/ sc_discardID c' = 0 \/ (sc_discardID c' = sf_sid fr /\ sf_sid fr <= sc_highestID c)) ->
  (ec' <> 0 -> sc_discardID c' = ec') ->
  (sc_closing c = false -> sc_highestID c < sf_sid fr -> sf_kind fr = KPriority) ->
  G c s ph (RFrame fr) (feed c (IIn (RFrame fr))).
Proof.
  intros HS Hsl SQ Od Tn E St Hsl' Hec Hcl Ho Hq Hnd Ha Hrec Hdi Hcont Hnew.
  assert (Stay : stays s (abs_frame fr) (resolve s (RS.Frame (abs_frame fr)) RS.Process)) by (apply stays_quiet; exact Hrec).
  destruct (spec_quiet s (abs_frame fr) _ d (S_wf _ _ _ _ HS) Hq Stay) as (Q1 & Q2 & Q3 & Q4).
  apply (G_sl_static c s ph fr ec' c' d);
    [exact HS | exact SQ | exact Od | exact Tn | exact E | exact St | exact Hsl' | exact Hec | exact Ho | exact Hnd | | | | | | | ];
    unfold spec_after, react; rewrite ?Hq; cbn [rev classify first_some existsb];
    try replace (sf_sid fr =? 0) with false by (destruct (sf_sid fr =? 0) eqn:Z; [apply N.eqb_eq in Z; rewrite Z in Od; discriminate | reflexivity]).
  - destruct Ha as [Ha|Ha]; [left; apply allowed_quiet, Ha | right; exact Ha].
  - exact Q1.
  - exact Q2.
  - rewrite Q3, conn_err_resolve_quiet, orb_false_r, Hcl. exact (S_ga _ _ _ _ HS).
  - exact Hdi.
  - intro H. left. apply Hcont, H.
  - rewrite Hcl. exact Hnew.
Qed.

(* the frame is dropped: nothing changes but the header-block register *)
Lemma G_sl_drop c s ph fr ec' :
  Sim c s ph -> sc_sl_done c = false -> seq_ok c fr ec' -> N.odd (sf_sid fr) = true -> tbl c (sf_sid fr) = None ->
  feed c (IIn (RFrame fr)) = upd_expectCont c ec' -> ec' = 0 ->
  ((RS.may_process s (RS.Frame (abs_frame fr)) = true \/
    existsb (fun v => RS.admits v RS.Ignore) (RS.verdicts s (RS.Frame (abs_frame fr))) = true) \/
   known_deviation hstate c s (RFrame fr) = true) ->
  RS.receive (RS.st_of s (sf_sid fr)) (abs_frame fr) = RS.st_of s (sf_sid fr) ->
  (sc_closing c = false -> sc_highestID c < sf_sid fr -> sf_kind fr = KPriority) ->
  G c s ph (RFrame fr) (feed c (IIn (RFrame fr))).
Proof.
  intros HS Hsl SQ Od Tn E EC Ha Hrec Hnew.
  apply (G_sl_quiet c s ph fr ec' _ [] HS Hsl SQ Od Tn E); try assumption; try reflexivity.
  - repeat split.
  - intros sid rq [].
  - left. reflexivity.
  - intro Hne. exfalso. exact (Hne EC).
Qed.

Lemma G_sl_rst c s ph fr ec' code :
  Sim c s ph -> sc_sl_done c = false -> seq_ok c fr ec' -> N.odd (sf_sid fr) = true -> tbl c (sf_sid fr) = None ->
  feed c (IIn (RFrame fr)) = write_reset (upd_expectCont c ec') (sf_sid fr) code ->
  (RS.allowed s (RS.Frame (abs_frame fr)) (RS.StreamErr code) = true \/ known_deviation hstate c s (RFrame fr) = true) ->
  RS.reset (RS.st_of s (sf_sid fr)) (abs_frame fr) = RS.st_of s (sf_sid fr) ->
  ec' = 0 ->
  (sc_closing c = false -> sc_highestID c < sf_sid fr -> sf_kind fr = KPriority) ->
  G c s ph (RFrame fr) (feed c (IIn (RFrame fr))).
Proof.
  intros HS Hsl SQ Od Tn E Ha Hres EC Hnew.
  pose proof (S_aux _ _ _ _ HS) as [AT AH].
  rewrite (write_reset_wr hstate (upd_expectCont c ec') _ _ (conj Hsl (A_wl _ _ AT))) in E.
  pose proof (Zn_of_odd _ Od) as Zn.
  assert (Ac : active (RS.st_of s (sf_sid fr)) = false).
  { destruct (N.le_gt_cases (sf_sid fr) (sc_highestID c)) as [L|L].
    - destruct (proj1 (unknown_state c s ph _ HS Od Tn) L) as [w ->]. reflexivity.
    - destruct (proj2 (unknown_state c s ph _ HS Od Tn) L) as [-> _]. reflexivity. }
  assert (Stay : stays s (abs_frame fr) (RS.StreamErr code)) by (right; right; exact Hres).
  destruct (spec_rst s (abs_frame fr) code [ORst (sf_sid fr) code] (S_wf _ _ _ _ HS) eq_refl Stay Ac) as (Q1 & Q2 & Q3 & Q4).
  apply (G_sl_static c s ph fr ec' _ [ORst (sf_sid fr) code] HS SQ Od Tn E);
    unfold spec_after, react; cbn [filter noisy strip_late rev app]; rewrite ?(classify_rst _ _ Zn); cbn [resolve]; try assumption; try reflexivity.
  - repeat split.
  - intros sid rq [H|[]]; discriminate.
  - rewrite Q3. exact (S_ga _ _ _ _ HS).
  - left. reflexivity.
  - intro H. exfalso. apply H. exact EC.
Qed.

(* sl_frame in two halves: auxiliary definitions, equal to the model's text *)

(* the stream to work on, or the outcome when the frame is dealt with without one *)
Definition sl_pre c (fr : sframe) : (sconn * bool) + (sconn * stream) :=
  let wasClosing := sc_closing c in
  match (if sf_sid fr <=? sc_lastID c then strms_search (sc_strms c) (sf_sid fr) else None) with
  | Some s => inr (c, s)
  | None =>
    if fkind_eqb (sf_kind fr) KRst then
      if (sc_lastID c <? sf_sid fr) && (sc_highestID c <? sf_sid fr)
      then inl (cont (write_goaway c (sf_sid fr) c_ProtocolError)) else inl (cont c)
    else if in_ring c (sf_sid fr) then
      let weReset := match ring_find c (sf_sid fr) with Some b => b | None => false end in
      match sf_kind fr with
      | KPriority | KWinUpd | KRst => inl (cont c)
      | KData =>
        if weReset then inl (cont (credit_conn_window cfg c (Z.of_N (sf_len fr))))
        else inl (cont (write_goaway c (sf_sid fr) c_StreamClosedError))
      | KHeaders =>
        if weReset then inl (discard_or_break (discard_header_block dec_field cfg c fr))
        else inl (cont (write_goaway c (sf_sid fr) c_StreamClosedError))
      | _ => inl (cont (write_goaway c (sf_sid fr) c_StreamClosedError))
      end
    else if fkind_eqb (sf_kind fr) KPriority then
      if sf_dep fr =? sf_sid fr then inl (cont (write_reset c (sf_sid fr) c_ProtocolError)) else inl (cont c)
    else if fkind_eqb (sf_kind fr) KHeaders && (sf_sid fr <=? sc_highestID c) then
      inl (cont (write_goaway c (sf_sid fr) c_ProtocolError))
    else
    let c := if fkind_eqb (sf_kind fr) KHeaders then upd_highestID c (sf_sid fr) else c in
    if fkind_eqb (sf_kind fr) KHeaders && ((cf_maxStreams cfg <=? sc_open c)%Z || wasClosing) then
      let c1 := mark_closed (write_reset c (sf_sid fr) c_RefusedStreamError) (sf_sid fr) true in
      inl (discard_or_break (discard_header_block dec_field cfg c1 fr))
    else if sf_sid fr <? sc_lastID c then inl (cont (write_goaway c (sf_sid fr) c_ProtocolError))
    else
      if fkind_eqb (sf_kind fr) KHeaders && sc_closing c then
        let c1 := mark_closed (write_reset c (sf_sid fr) c_RefusedStreamError) (sf_sid fr) true in
        inl (discard_or_break (discard_header_block dec_field cfg c1 fr))
      else
        let c1 := if fkind_eqb (sf_kind fr) KHeaders then upd_lastID c (sf_sid fr) else c in
        let s := set_orig_started (new_stream (sf_sid fr) (sc_initWin c1)) (sf_kind fr) (sc_now c1) in
        let c2 := upd_strms c1 (sc_strms c1 ++ [s]) in
        let c3 := if fkind_eqb (sf_kind fr) KHeaders then upd_open c2 (sc_open c2 + 1) else c2 in
        inr (c3, s)
  end.

(* the frame on its stream *)
Definition sl_known c1 (s : stream) (fr : sframe) (wasClosing : bool) : sconn * bool :=
  let pre2 : (sconn * bool) + sconn :=
    if fkind_eqb (sf_kind fr) KHeaders then
      match get_previous_headers (sc_strms c1) with
      | Some p =>
        if negb (st_headersFinished p) then
          let '(c2, p') := write_error c1 (Some p) (EGoAway c_ProtocolError) in
          inl (cont (match p' with Some p' => put c2 p' | None => c2 end))
        else inr (implicit_close (S (length (sc_strms c1))) c1 (st_id s))
      | None => inr (implicit_close (S (length (sc_strms c1))) c1 (st_id s))
      end
    else inr c1 in
  match pre2 with
  | inl r => r
  | inr c2 =>
    let '(c3, s3, e) := handle_frame dec_field cfg c2 s fr in
    match e with
    | Some e =>
      let '(c4, s4) := write_error c3 (Some s3) e in
      let s5 := match s4 with Some x => set_state x SClosed | None => set_state s3 SClosed end in
      match e with
      | EGoAway code => if negb (code =? c_NoError) then brk (put c4 s5) else after_frame cfg c4 s5 fr wasClosing
      | EReset _ => after_frame cfg c4 s5 fr wasClosing
      | EPanic => brk (note c3 (OPanic 1 0))
      end
    | None => after_frame cfg c3 s3 fr wasClosing
    end
  end.

Lemma sl_frame_split c fr : (sf_sid fr =? 0) = false ->
  sl_frame dec_field enc_set_max cfg c fr =
  if fkind_eqb (sf_kind fr) KCont && negb (sc_discardID c =? 0) && (sf_sid fr =? sc_discardID c)
  then discard_or_break (discard_header_block dec_field cfg c fr)
  else match sl_pre c fr with
       | inl r => r
       | inr (c1, s) => sl_known c1 s fr (sc_closing c)
       end.
Proof. intro Z. unfold sl_frame. rewrite Z. reflexivity. Qed.

Lemma existsb_rev {A} (f : A -> bool) l : existsb f (rev l) = existsb f l.
Proof.
  induction l as [|a t IH]; [reflexivity|]. cbn [rev existsb]. rewrite existsb_app, IH. cbn [existsb].
  rewrite orb_false_r. apply orb_comm.
Qed.

Lemma exit_noisy l : existsb is_exit (filter noisy l) = existsb is_exit l.
Proof.
  induction l as [|o t IH]; [reflexivity|]. cbn [filter existsb]. destruct (noisy o) eqn:N; cbn [existsb]; rewrite IH; [reflexivity|].
  unfold noisy, is_exit in *. destruct (strip_late o); try discriminate; reflexivity.
Qed.

Lemma classify_exit sid l : existsb is_exit l = true -> conn_err (classify sid l) = true.
Proof. intro H. unfold classify. destruct (first_some is_goaway l); [reflexivity|]. rewrite H. reflexivity. Qed.

Lemma G_over c s ph i c' d :
  feed c (IIn i) = c' -> sc_sl_done c' = true -> sc_out c' = d ++ sc_out c -> existsb is_exit d = true ->
  (RS.allowed s (abs_input i) (classify (input_sid i) (rev (filter noisy d))) = true \/ known_deviation hstate c s i = true) ->
  (forall sid rq, In (ODispatch sid rq) d -> ph_next ph (IIn i) sid = RS.PDone) ->
  G c s ph i (feed c (IIn i)).
Proof.
  intros E Hsl Ho Hex Ha Hd. rewrite E. exists d. split; [exact Ho|].
  assert (CE : conn_err (classify (input_sid i) (rev (filter noisy d))) = true).
  { apply classify_exit. rewrite existsb_rev, exit_noisy. exact Hex. }
  assert (RE : resolve s (abs_input i) (classify (input_sid i) (rev (filter noisy d))) = classify (input_sid i) (rev (filter noisy d))).
  { destruct (classify _ _); try discriminate; reflexivity. }
  cbv zeta. rewrite RE. split; [exact Ha|]. rewrite Hsl. split; [|exact Hd].
  apply dead_after_outs, dead_spec_next_conn, CE.
Qed.

Lemma first_goaway_skip l t : (forall o, In o l -> is_goaway o = None) -> first_some is_goaway (l ++ t) = first_some is_goaway t.
Proof.
  induction l as [|o l IH]; intros H; [reflexivity|]. cbn [app first_some]. rewrite (H o (or_introl eq_refl)).
  apply IH. intros o' Ho'. apply H. right. exact Ho'.
Qed.

Lemma classify_goaway sid l l0 code t : (forall o, In o l -> is_goaway o = None) ->
  classify sid (l ++ OGoAway l0 code :: t) = RS.ConnErr code.
Proof. intro H. unfold classify. rewrite first_goaway_skip by exact H. reflexivity. Qed.

Lemma classify_close sid l : (forall o, In o l -> is_goaway o = None) -> existsb is_exit l = true ->
  classify sid l = RS.ConnClose.
Proof.
  intros H X. unfold classify. rewrite <- (app_nil_r l) at 1. rewrite first_goaway_skip by exact H. cbn [first_some].
  rewrite X. reflexivity.
Qed.

Lemma no_goaway_rev_filter dX : (forall o, In o dX -> is_goaway o = None) ->
  forall o, In o (rev (filter noisy dX)) -> is_goaway o = None.
Proof. intros H o Hin. apply in_rev in Hin. apply filter_In in Hin. apply H, Hin. Qed.

(* the stream loop ends with GOAWAY(code); dX: what the step had queued before *)
Lemma G_goaway_over c s ph fr c' l code dX :
  feed c (IIn (RFrame fr)) = c' -> sc_sl_done c' = true -> sc_out c' = OExit 1 0 :: OGoAway l code :: dX ++ sc_out c ->
  (forall o, In o dX -> is_goaway o = None) -> (forall sid rq, ~ In (ODispatch sid rq) dX) ->
  (RS.allowed s (RS.Frame (abs_frame fr)) (RS.ConnErr code) = true \/ known_deviation hstate c s (RFrame fr) = true) ->
  G c s ph (RFrame fr) (feed c (IIn (RFrame fr))).
Proof.
  intros E Hsl Ho Hng Hnd Ha. apply (G_over c s ph (RFrame fr) c' (OExit 1 0 :: OGoAway l code :: dX) E Hsl Ho eq_refl).
  - cbn [abs_input input_sid filter noisy strip_late rev]. rewrite <- app_assoc. cbn [app].
    rewrite classify_goaway by (apply no_goaway_rev_filter, Hng). exact Ha.
  - intros sid rq [H|[H|H]]; try discriminate. exfalso. exact (Hnd sid rq H).
Qed.

(* discardHeaderBlock failed: GOAWAY (or a panic) and the stream loop ends *)
Lemma G_discard_break c s ph fr cX cD e dX :
  feed c (IIn (RFrame fr)) = fst (discard_or_break (cD, Some e)) -> disc_err e ->
  dd hstate cX cD -> sc_out cX = dX ++ sc_out c -> sc_sl_done cX = false -> sc_wl_dead cX = false ->
  (forall sid rq, ~ In (ODispatch sid rq) dX) -> (forall o, In o dX -> is_goaway o = None) ->
  (match e with
   | EGoAway code => RS.allowed s (RS.Frame (abs_frame fr)) (RS.ConnErr code) = true
   | _ => RS.allowed s (RS.Frame (abs_frame fr)) RS.ConnClose = true
   end \/ known_deviation hstate c s (RFrame fr) = true) ->
  G c s ph (RFrame fr) (feed c (IIn (RFrame fr))).
Proof.
  intros E De (dv & di & dp & dn & ->) Ho Hsl Hwl Hnd Hng Ha.
  destruct e as [code|code|]; [ | contradiction | ].
  - (* GOAWAY(code) *)
    cbn [discard_or_break write_error fst] in E.
    apply (G_goaway_over c s ph fr _ (sc_lastID cX) code dX E eq_refl); try assumption.
    rewrite sc_out_brk, sc_out_write_goaway. sc_cbn. rewrite Hwl, Hsl, Ho. reflexivity.
  - (* panic *)
    cbn [discard_or_break fst] in E.
    apply (G_over c s ph (RFrame fr) _ (OExit 1 0 :: OPanic 1 0 :: dX) E).
    + reflexivity.
    + rewrite sc_out_brk. cbn [sc_out note upd_out]. sc_cbn. rewrite Ho. reflexivity.
    + reflexivity.
    + cbn [abs_input input_sid filter noisy strip_late rev]. rewrite classify_close; [exact Ha | |].
      * intros o Hin. apply in_app_or in Hin. destruct Hin as [Hin|[<-|[]]]; [|reflexivity].
        apply in_app_or in Hin. destruct Hin as [Hin|[<-|[]]]; [|reflexivity]. apply (no_goaway_rev_filter dX Hng), Hin.
      * rewrite existsb_app. cbn [existsb is_exit strip_late]. apply orb_true_r.
    + intros sid rq [H|[H|H]]; try discriminate. exfalso. exact (Hnd sid rq H).
Qed.

Lemma G_live c s ph fr c' d :
  feed c (IIn (RFrame fr)) = c' -> sc_sl_done c' = false -> sc_out c' = d ++ sc_out c ->
  (RS.allowed s (RS.Frame (abs_frame fr)) (react s fr d) = true \/
   known_deviation hstate c s (RFrame fr) = true) ->
  live_tuple hstate c' (spec_after s fr d)
             (ph_next ph (IIn (RFrame fr))) ->
  (forall sid rq, In (ODispatch sid rq) d -> ph_next ph (IIn (RFrame fr)) sid = RS.PDone) ->
  G c s ph (RFrame fr) (feed c (IIn (RFrame fr))).
Proof.
  intros E Hsl Ho Ha Hl Hd. rewrite E. exists d. split; [exact Ho|]. cbn [abs_input input_sid]. cbv zeta.
  split; [exact Ha|]. rewrite Hsl. split; [exact Hl | exact Hd].
Qed.

(* the verdicts for HEADERS on an idle odd stream *)
Lemma idle_headers_verdicts s fr : RS.block s = None -> N.odd (sf_sid fr) = true -> sf_kind fr = KHeaders ->
  RS.st_of s (sf_sid fr) = RS.Idle ->
  RS.verdicts s (RS.Frame (abs_frame fr)) =
  (if sf_dep fr =? sf_sid fr then [RS.SE c_ProtocolError] else if RS.goaway s then [RS.VIgnore] else [RS.VProcess])
  ++ RS.policy ++ RS.block_errors.
Proof.
  intros B O K Hi. rewrite verdicts_stream; [|exact B | intro Z; rewrite Z in O; discriminate | rewrite K; exact I].
  unfold RS.on_stream, RS.by_state, abs_frame. cbn [RS.f_kind RS.f_sid RS.f_self]. rewrite Hi, K. cbn [abs_kind].
  rewrite <- N.negb_odd, O. cbn [negb]. rewrite app_nil_r. reflexivity.
Qed.

(* HEADERS for a new stream refused: RST_STREAM(REFUSED_STREAM), its block decoded and dropped *)
Lemma G_refuse c s ph fr ec' :
  Sim c s ph -> sc_sl_done c = false -> seq_ok c fr ec' -> N.odd (sf_sid fr) = true -> tbl c (sf_sid fr) = None ->
  sf_kind fr = KHeaders -> ring_find c (sf_sid fr) = None -> sc_highestID c < sf_sid fr ->
  feed c (IIn (RFrame fr)) =
    fst (discard_or_break (discard_header_block dec_field cfg
           (mark_closed (write_reset (upd_highestID (upd_expectCont c ec') (sf_sid fr)) (sf_sid fr) c_RefusedStreamError) (sf_sid fr) true) fr)) ->
  G c s ph (RFrame fr) (feed c (IIn (RFrame fr))).
Proof.
  intros HS Hsl SQ Od Tn KK Rn Hgt E.
  pose proof (S_aux _ _ _ _ HS) as [AT AH]. pose proof (A_wl _ _ AT) as Hwl. pose proof (S_wf _ _ _ _ HS) as W.
  pose proof (Zn_of_odd _ Od) as Zn.
  assert (EC : sc_expectCont c = 0 /\ ec' = if flag_has (sf_flags fr) FL_EH then 0 else sf_sid fr).
  { destruct SQ as [(E0 & _ & ->)|(_ & K & _)]; [|congruence]. split; [exact E0|]. rewrite KK. cbn [fkind_eqb andb].
    destruct (flag_has _ _); reflexivity. }
  destruct EC as [E0 EC].
  assert (BN : RS.block s = None) by (rewrite (S_blk _ _ _ _ HS : RS.block s = _), E0; reflexivity).
  destruct (proj2 (unknown_state c s ph _ HS Od Tn) Hgt) as [Hidle _].
  pose proof (idle_headers_verdicts s fr BN Od KK Hidle) as V.
  (* the connection the block is discarded on: c with the new highest id and block register, RST_STREAM queued, the id in the ring *)
  rewrite (write_reset_wr hstate (upd_highestID (upd_expectCont c ec') (sf_sid fr)) _ _ (conj Hsl Hwl)) in E.
  rewrite (mark_closed_as hstate) with (c := c) in E by reflexivity.
  set (cR := upd_ring _ _ _) in E.
  destruct (discard_header_block_spec hstate dec_field cfg cR fr) as [DD DE].
  destruct (discard_header_block dec_field cfg cR fr) as [cD [e|]]; cbn [fst snd] in DD, DE.
  - (* the block does not decode: connection error *)
    apply (G_discard_break c s ph fr cR cD e [ORst (sf_sid fr) c_RefusedStreamError] E DE DD eq_refl Hsl Hwl).
    + intros sid rq [H|[]]; discriminate.
    + intros o [<-|[]]; reflexivity.
    + left. destruct e as [code|code|]; cbn in DE; try contradiction; apply allowed_table; rewrite V.
      * destruct DE as [-> | [-> | ->]]; destruct (sf_dep fr =? sf_sid fr), (RS.goaway s); reflexivity.
      * destruct (sf_dep fr =? sf_sid fr), (RS.goaway s); reflexivity.
  - (* refused *)
    cbn [discard_or_break fst cont] in E. destruct DD as (dv & di & dp & dn & ->). sc_cbn_in DE.
    set (cD := upd_discard _ _ _ _) in *.
    assert (Tb : forall id, tbl cD id = tbl c id) by reflexivity.
    destruct (leave_ring hstate c cD (sf_sid fr) true (A_ring _ _ AT) eq_refl eq_refl) as (_ & RfS & RfO). rewrite Rn in RfS.
    pose proof (A_last _ _ AT) as LL.
    assert (CL : classify (sf_sid fr) (rev (filter noisy [ORst (sf_sid fr) c_RefusedStreamError])) = RS.StreamErr c_RefusedStreamError).
    { apply classify_rst, Zn. }
    apply (G_live c s ph fr cD [ORst (sf_sid fr) c_RefusedStreamError] E Hsl eq_refl); unfold spec_after, react; rewrite ?CL; cbn [resolve].
    + left. apply allowed_table. rewrite V. destruct (sf_dep fr =? sf_sid fr), (RS.goaway s); reflexivity.
    + set (s1 := RS.spec_next s (RS.Frame (abs_frame fr)) (RS.StreamErr c_RefusedStreamError)).
      assert (W1 : wf s1) by (apply wf_spec_next, W).
      assert (S1sid : RS.st_of s1 (sf_sid fr) = RS.Closed RS.WeRst).
      { unfold s1. rewrite (st_of_spec_next_same s (abs_frame fr)) by exact Od. cbn [conn_err next_st].
        change (RS.f_sid (abs_frame fr)) with (sf_sid fr). rewrite Hidle. unfold RS.reset, abs_frame. cbn [RS.f_kind]. rewrite KK. reflexivity. }
      assert (S1hi : RS.highest s1 = sf_sid fr).
      { unfold s1. rewrite highest_spec_next. cbn [conn_err negb andb next_st]. change (RS.f_sid (abs_frame fr)) with (sf_sid fr).
        rewrite Zn, Hidle. unfold RS.reset, abs_frame. cbn [RS.f_kind negb andb]. rewrite KK. cbn [abs_kind].
        rewrite (S_hi _ _ _ _ HS). apply N.max_r, N.lt_le_incl, Hgt. }
      assert (AO : after_outs s1 [ORst (sf_sid fr) c_RefusedStreamError] = RS.spec_sent s1 (RS.SentRst (sf_sid fr))) by reflexivity.
      pose proof (tbl_None_In hstate c _ Tn) as NotIn.
      apply (live_tuple_one hstate c cD s _ ph _ (sf_sid fr) HS).
      *
        split.
        -- apply (AuxT_leave hstate c cD (sf_sid fr) true AT); try reflexivity.
           ++ symmetry. apply strms_del_notfound, Tn.
           ++ exact (N.le_trans _ _ _ LL (N.lt_le_incl _ _ Hgt)).
        -- pose proof AH as [H1 H2 H3 H4]. constructor.
           ++ intros st H Hf. rewrite (all_finished hstate c st AT AH E0 H) in Hf. discriminate.
           ++ intros st Hne H. rewrite Tb in H.
              destruct (ec'_cases c fr ec' SQ) as [Z|Z]; [exact (False_ind _ (Hne Z)) | change (sc_expectCont cD) with ec' in H; rewrite Z in H; congruence].
           ++ intro Hne. destruct (ec'_cases c fr ec' SQ) as [Z|Z]; [exact (False_ind _ (Hne Z)) | change (sc_expectCont cD) with ec'; rewrite Z; exact Od].
           ++ change (sc_discardID cD) with di. rewrite DE. destruct (flag_has (sf_flags fr) FL_EH); [congruence|]. intros _.
              split; [rewrite Tb; exact Tn | apply N.le_refl].
      * intros id Hne. split; [rewrite Tb; reflexivity | apply RfO, Hne].
      * intros _. rewrite AO. rewrite (view_none cD _ (eq_trans (Tb _) Tn)), RfS.
        cbn [rel1 rel]. rewrite st_of_spec_sent by exact W1. cbn [sent_sid]. rewrite N.eqb_refl, S1sid. reflexivity.
      * intros id Hne. rewrite AO. rewrite st_of_spec_sent by exact W1. cbn [sent_sid].
        replace (sf_sid fr =? id) with false by (symmetry; apply N.eqb_neq; congruence). apply sdrift_next; [exact W | exact Hne].
      * apply (block_after c s fr ec' _ _ SQ); [intro Z; rewrite Z in Od; discriminate | exact (S_blk _ _ _ _ HS)].
      * rewrite AO, goaway_spec_sent. unfold s1. rewrite goaway_spec_next. cbn [conn_err]. rewrite orb_false_r. exact (S_ga _ _ _ _ HS).
      * rewrite AO, highest_spec_sent by exact W1. exact S1hi.
      * intros Hne _. left. change (di = ec'). rewrite DE, EC. reflexivity.
      * intros st H. cbn [ph_next]. replace (st_id st =? sf_sid fr) with false by (symmetry; apply N.eqb_neq, NotIn, H).
        exact (S_ph _ _ _ _ HS st H).
      * intros Hc id O L. cbn [ph_next]. change (sc_highestID cD) with (sf_sid fr) in L.
        replace (id =? sf_sid fr) with false by (symmetry; apply N.eqb_neq, N.neq_sym, N.lt_neq, L).
        apply (S_new _ _ _ _ HS); [exact Hc | exact O | exact (N.lt_trans _ _ _ Hgt L)].
    + intros sid rq [H|[]]; discriminate.
Qed.

Lemma ec'_hdr c fr ec' : seq_ok c fr ec' -> sf_kind fr = KHeaders \/ sf_kind fr = KCont ->
  ec' = if flag_has (sf_flags fr) FL_EH then 0 else sf_sid fr.
Proof.
  intros [(_ & K & ->)|(_ & K & _ & ->)] [H|H]; try congruence.
  rewrite H. cbn [fkind_eqb andb]. destruct (flag_has _ _); reflexivity.
Qed.

Lemma receive_closed w f : RS.receive (RS.Closed w) f = RS.Closed w.
Proof. unfold RS.receive. destruct (RS.f_kind f); reflexivity. Qed.

(* a header block frame on a stream we reset: decoded and dropped *)
Lemma G_sl_discard c s ph fr ec' :
  Sim c s ph -> sc_sl_done c = false -> seq_ok c fr ec' -> N.odd (sf_sid fr) = true -> tbl c (sf_sid fr) = None ->
  sf_kind fr = KHeaders \/ sf_kind fr = KCont -> sf_sid fr <= sc_highestID c ->
  RS.verdicts s (RS.Frame (abs_frame fr)) = RS.VIgnore :: RS.block_errors ->
  feed c (IIn (RFrame fr)) = fst (discard_or_break (discard_header_block dec_field cfg (upd_expectCont c ec') fr)) ->
  G c s ph (RFrame fr) (feed c (IIn (RFrame fr))).
Proof.
  intros HS Hsl SQ Od Tn KK Hle V E.
  pose proof (S_aux _ _ _ _ HS) as [AT AH]. pose proof (A_wl _ _ AT) as Hwl.
  destruct (proj1 (unknown_state c s ph _ HS Od Tn) Hle) as [w Hw].
  set (c1 := upd_expectCont c ec') in *.
  destruct (discard_header_block_spec hstate dec_field cfg c1 fr) as [DD DE].
  destruct (discard_header_block dec_field cfg c1 fr) as [cD [e|]] eqn:DH; cbn [fst snd] in DD, DE.
  - apply (G_discard_break c s ph fr c1 cD e [] E DE DD); try reflexivity; try assumption.
    + intros sid rq [].
    + intros o [].
    + left. destruct e as [code|code|]; cbn in DE; try contradiction; apply allowed_table; rewrite V.
      * destruct DE as [-> | [-> | ->]]; reflexivity.
      * reflexivity.
  - cbn [discard_or_break fst cont] in E. destruct DD as (dv & di & dp & dn & DD).
    apply (G_sl_quiet c s ph fr ec' cD []); try assumption.
    + rewrite DD. repeat split.
    + rewrite DD. exact Hsl.
    + rewrite DD. reflexivity.
    + rewrite DD. reflexivity.
    + rewrite DD. reflexivity.
    + reflexivity.
    + intros sid rq [].
    + left. right. rewrite V. reflexivity.
    + rewrite Hw. apply receive_closed.
    + rewrite DE. destruct (flag_has _ _); [right; left; reflexivity | right; right; split; [reflexivity | exact Hle]].
    + intros _. rewrite DE. symmetry. apply (ec'_hdr c fr ec' SQ KK).
    + intros _ L. lia.
Qed.

(* crediting the connection window: the window moves, and at most a WINDOW_UPDATE on stream 0 goes out *)
Lemma credit_eff c n : sc_sl_done c = false -> sc_wl_dead c = false ->
  exists dw w, credit_conn_window cfg c n = upd_currentWindow (upd_out c (dw ++ sc_out c)) w /\
               filter noisy dw = [] /\ (forall sid rq, ~ In (ODispatch sid rq) dw).
Proof.
  intros A B. unfold credit_conn_window. destruct (n <=? 0)%Z.
  - exists [], (sc_currentWindow c). split; [destruct c; reflexivity|]. split; [reflexivity | intros sid rq []].
  - destruct (_ <? _)%Z.
    + exists [OWinUpd 0 (cf_maxWindow cfg - (sc_currentWindow c - n))%Z], (cf_maxWindow cfg). split.
      * unfold write_window_update. rewrite emit_wr by (split; assumption). reflexivity.
      * split; [reflexivity | intros sid rq [H|[]]; discriminate].
    + exists [], (sc_currentWindow c - n)%Z. split; [reflexivity|]. split; [reflexivity | intros sid rq []].
Qed.

(* a stream made for this frame *)
Definition created c (fr : sframe) (c2 : sconn) (st : stream) : Prop :=
  st = set_orig_started (new_stream (sf_sid fr) (sc_initWin c)) (sf_kind fr) (sc_now c) /\
  ring_find c (sf_sid fr) = None /\ sc_lastID c <= sf_sid fr /\
  match sf_kind fr with
  | KHeaders => sc_highestID c < sf_sid fr /\ sc_closing c = false /\
                c2 = upd_open (upd_strms (upd_lastID (upd_highestID c (sf_sid fr)) (sf_sid fr)) (sc_strms c ++ [st])) (sc_open c + 1)
  | KRst | KPriority => False
  | _ => c2 = upd_strms c (sc_strms c ++ [st])
  end.

Lemma closed_verdicts_hdr s fr w : RS.st_of s (sf_sid fr) = RS.Closed w -> w <> RS.Implicit ->
  RS.block s = None -> sf_sid fr <> 0 -> sf_kind fr = KHeaders ->
  RS.verdicts s (RS.Frame (abs_frame fr)) =
  match w with
  | RS.WeRst => RS.VIgnore :: RS.block_errors
  | RS.PeerRst => [RS.SE c_StreamClosedError]
  | _ => [RS.CE c_StreamClosedError; RS.SE c_StreamClosedError]
  end.
Proof.
  intros Hw Hi B Z K. rewrite verdicts_stream; [|exact B | exact Z | rewrite K; exact I].
  unfold RS.on_stream, RS.by_state, abs_frame. cbn [RS.f_kind RS.f_sid]. rewrite Hw, K. cbn [abs_kind].
  destruct w; try congruence; rewrite app_nil_r; reflexivity.
Qed.

Lemma sl_pre_unknown c s ph fr ec' :
  Sim c s ph -> sc_sl_done c = false -> seq_ok c fr ec' -> N.odd (sf_sid fr) = true ->
  match sf_kind fr with KPing | KPush => False | _ => True end -> tbl c (sf_sid fr) = None ->
  (fkind_eqb (sf_kind fr) KCont && negb (sc_discardID c =? 0) && (sf_sid fr =? sc_discardID c) = false)%bool ->
  match sl_pre (upd_expectCont c ec') fr with
  | inl r => feed c (IIn (RFrame fr)) = fst r -> G c s ph (RFrame fr) (feed c (IIn (RFrame fr)))
  | inr (c2, st) => created (upd_expectCont c ec') fr c2 st
  end.
Proof.
  intros HS Hsl SQ Od Kok Tn ND.
  pose proof (S_aux _ _ _ _ HS) as [AT AH]. pose proof (A_wl _ _ AT) as Hwl. pose proof (S_wf _ _ _ _ HS) as W.
  pose proof (Zn_of_odd _ Od) as Zn. assert (Znn : sf_sid fr <> 0) by lia.
  set (c1 := upd_expectCont c ec').
  unfold sl_pre.
  replace (if sf_sid fr <=? sc_lastID c1 then strms_search (sc_strms c1) (sf_sid fr) else None) with (@None stream)
    by (change (strms_search (sc_strms c1) (sf_sid fr)) with (tbl c (sf_sid fr)); rewrite Tn; destruct (_ <=? _); reflexivity).
  cbv zeta.
  destruct (unknown_state c s ph _ HS Od Tn) as [Hle Hgt].
  assert (BK : (sf_kind fr <> KCont /\ RS.block s = None /\ sc_expectCont c = 0) \/
               (sf_kind fr = KCont /\ RS.block s = Some (sf_sid fr) /\ sc_expectCont c = sf_sid fr)).
  { pose proof (S_blk _ _ _ _ HS : RS.block s = _) as B. destruct SQ as [(E0 & K & _)|(E0 & K & Sd & _)].
    - left. rewrite B, E0. auto.
    - right. rewrite B. replace (sc_expectCont c =? 0) with false by lia. rewrite Sd. auto. }
  change (sc_lastID c1) with (sc_lastID c). change (sc_highestID c1) with (sc_highestID c). change (in_ring c1 (sf_sid fr)) with (in_ring c (sf_sid fr)).
  change (ring_find c1 (sf_sid fr)) with (ring_find c (sf_sid fr)). change (sc_closing c1) with (sc_closing c).
  (* RST_STREAM *)
  destruct (fkind_eqb (sf_kind fr) KRst) eqn:KR.
  { apply fkind_eqb_eq in KR. destruct BK as [(K & BN & E0)|(K & _)]; [|congruence].
    assert (V : RS.verdicts s (RS.Frame (abs_frame fr)) = RS.on_stream s (abs_frame fr))
      by (apply verdicts_stream; [exact BN | exact Znn | rewrite KR; exact I]).
    destruct ((sc_lastID c <? sf_sid fr) && (sc_highestID c <? sf_sid fr))%bool eqn:C; cbn [fst cont]; intro E.
    - apply andb_true_iff in C. destruct C as [_ C2]. destruct (Hgt ltac:(lia)) as [Hidle _].
      apply (G_sl_goaway c s ph fr ec' c_ProtocolError HS Hsl SQ Od Tn E).
      left. apply allowed_table. rewrite V. unfold RS.on_stream, RS.by_state, abs_frame. cbn [RS.f_kind RS.f_sid]. rewrite Hidle, KR. reflexivity.
    - assert (L : sf_sid fr <= sc_highestID c).
      { apply andb_false_iff in C. pose proof (A_last _ _ AT). destruct C as [C|C]; lia. }
      destruct (Hle L) as [w Hw].
      apply (G_sl_drop c s ph fr ec' HS Hsl SQ Od Tn E).
      + destruct SQ as [(_ & _ & ->)|(_ & K' & _)]; [rewrite KR; reflexivity | congruence].
      + left. right. rewrite V. unfold RS.on_stream, RS.by_state, abs_frame. cbn [RS.f_kind RS.f_sid]. rewrite Hw, KR. cbn [abs_kind].
        destruct w; reflexivity.
      + rewrite Hw. apply receive_closed.
      + intros _ L'. lia. }
  apply fkind_eqb_neq in KR.
  (* remembered in the ring *)
  destruct (in_ring c (sf_sid fr)) eqn:IR.
  { rewrite in_ring_find in IR. destruct (ring_find c (sf_sid fr)) as [b|] eqn:RF; [|discriminate].
    pose proof (ring_state c s ph _ b HS Od Tn RF) as RSt.
    assert (L : sf_sid fr <= sc_highestID c).
    { destruct (N.le_gt_cases (sf_sid fr) (sc_highestID c)) as [L|L]; [exact L|]. destruct (Hgt L) as [_ X]. congruence. }
    destruct (Hle L) as [w Hw].
    cbv beta iota.
    destruct BK as [(K & BN & E0)|(K & BS & E0)].
    - (* outside a header block *)
      assert (V : match sf_kind fr with KCont | KSettings | KPing | KGoAway | KPush => True | _ =>
                  RS.verdicts s (RS.Frame (abs_frame fr)) = RS.on_stream s (abs_frame fr) end).
      { destruct (sf_kind fr) eqn:KK; try exact I; apply verdicts_stream; try assumption; rewrite KK; exact I. }
      assert (EC0 : sf_kind fr <> KHeaders -> ec' = 0).
      { intro NH. destruct SQ as [(_ & _ & ->)|(_ & K' & _)]; [|congruence]. apply fkind_eqb_neq in NH. rewrite NH. reflexivity. }
      revert Kok V EC0. destruct (sf_kind fr) eqn:KK; intros Kok V EC0; try contradiction; try congruence.
      + (* DATA *)
        destruct b; cbn [fst cont]; intro E.
        * destruct (credit_eff c1 (Z.of_N (sf_len fr)) Hsl Hwl) as (dw & cw & Ec & Hq & Hnd). rewrite Ec in E.
          apply (G_sl_quiet c s ph fr ec' _ dw HS Hsl SQ Od Tn E); try assumption; try reflexivity.
          -- repeat split.
          -- left. right. rewrite V. unfold RS.on_stream, RS.by_state, abs_frame. cbn [RS.f_kind RS.f_sid]. rewrite RSt, KK. reflexivity.
          -- rewrite Hw. apply receive_closed.
          -- left. reflexivity.
          -- intro Hne. exfalso. apply Hne, EC0. discriminate.
          -- intros _ L'. lia.
        * apply (G_sl_goaway c s ph fr ec' c_StreamClosedError HS Hsl SQ Od Tn E).
          left. apply allowed_table. rewrite V. unfold RS.on_stream, RS.by_state, abs_frame. cbn [RS.f_kind RS.f_sid].
          destruct RSt as [-> | ->]; rewrite KK; reflexivity.
      + (* HEADERS *)
        destruct b; cbn [fst cont]; intro E.
        * apply (G_sl_discard c s ph fr ec' HS Hsl SQ Od Tn); auto.
          rewrite (closed_verdicts_hdr s fr RS.WeRst RSt); auto. discriminate.
        * apply (G_sl_goaway c s ph fr ec' c_StreamClosedError HS Hsl SQ Od Tn E).
          left. apply allowed_table.
          destruct RSt as [X | X]; rewrite (closed_verdicts_hdr s fr _ X) by (auto; discriminate); reflexivity.
      + (* PRIORITY *)
        cbn [fst cont]. intro E.
        apply (G_sl_drop c s ph fr ec' HS Hsl SQ Od Tn E).
        * apply EC0. discriminate.
        * left. right. rewrite V. unfold RS.on_stream, RS.by_state, abs_frame. cbn [RS.f_kind RS.f_sid RS.f_self]. rewrite Hw, KK. cbn [abs_kind].
          destruct w; reflexivity.
        * rewrite Hw. apply receive_closed.
        * intros _ L'. lia.
      + (* SETTINGS with a stream id *)
        cbn [fst cont]. intro E.
        apply (G_sl_goaway c s ph fr ec' c_StreamClosedError HS Hsl SQ Od Tn E).
        right. unfold known_deviation. rewrite KK, Zn, in_ring_find, RF. reflexivity.
      + (* GOAWAY with a stream id *)
        cbn [fst cont]. intro E.
        apply (G_sl_goaway c s ph fr ec' c_StreamClosedError HS Hsl SQ Od Tn E).
        right. unfold known_deviation. rewrite KK, Zn, in_ring_find, RF. reflexivity.
      + (* WINDOW_UPDATE *)
        cbn [fst cont]. intro E.
        apply (G_sl_drop c s ph fr ec' HS Hsl SQ Od Tn E).
        * apply EC0. discriminate.
        * destruct b.
          -- left. right. rewrite V. unfold RS.on_stream, RS.by_state, abs_frame. cbn [RS.f_kind RS.f_sid]. rewrite RSt, KK. reflexivity.
          -- destruct RSt as [X | X].
             ++ left. right. rewrite V. unfold RS.on_stream, RS.by_state, abs_frame. cbn [RS.f_kind RS.f_sid]. rewrite X, KK. reflexivity.
             ++ right. unfold known_deviation. rewrite KK, RF, X. reflexivity.
        * rewrite Hw. apply receive_closed.
        * intros _ L'. lia.
    - (* CONTINUATION of a block whose HEADERS was a connection error *)
      rewrite K. cbn [fst cont]. intro E.
      apply (G_sl_goaway c s ph fr ec' c_StreamClosedError HS Hsl SQ Od Tn E).
      left. apply allowed_dead; [|reflexivity].
      assert (Hne : sc_expectCont c <> 0) by lia.
      destruct (S_cont _ _ _ _ HS Hne) as [X|X]; [rewrite E0; exact Tn | | exact X].
      exfalso. rewrite K in ND. cbn [fkind_eqb andb] in ND. rewrite X, E0 in ND. rewrite Zn, N.eqb_refl in ND. discriminate. }
  (* not remembered *)
  rewrite in_ring_find in IR. destruct (ring_find c (sf_sid fr)) as [b|] eqn:RN; [discriminate|]. clear IR.
  assert (Old : sf_sid fr <= sc_highestID c -> RS.st_of s (sf_sid fr) = RS.Closed RS.Implicit).
  { intro L. pose proof (S_str _ _ _ _ HS _ Od) as R. rewrite (view_none c _ Tn), RN in R.
    replace (sf_sid fr <=? sc_highestID c) with true in R by lia. exact R. }
  assert (DeadCont : sf_kind fr = KCont -> RS.dead s = true).
  { intro K. destruct BK as [(K' & _)|(_ & _ & E0)]; [congruence|].
    assert (Hne : sc_expectCont c <> 0) by lia.
    destruct (S_cont _ _ _ _ HS Hne) as [X|X]; [rewrite E0; exact Tn | | exact X].
    exfalso. rewrite K in ND. cbn [fkind_eqb andb] in ND. rewrite X, E0 in ND. rewrite Zn, N.eqb_refl in ND. discriminate. }
  (* PRIORITY *)
  destruct (fkind_eqb (sf_kind fr) KPriority) eqn:KP.
  { apply fkind_eqb_eq in KP. destruct BK as [(K & BN & E0)|(K & _)]; [|congruence].
    assert (V : RS.verdicts s (RS.Frame (abs_frame fr)) = RS.on_stream s (abs_frame fr))
      by (apply verdicts_stream; [exact BN | exact Znn | rewrite KP; exact I]).
    assert (EC0 : ec' = 0) by (destruct SQ as [(_ & _ & ->)|(_ & K' & _)]; [rewrite KP; reflexivity | congruence]).
    assert (St : (exists w, RS.st_of s (sf_sid fr) = RS.Closed w) \/ RS.st_of s (sf_sid fr) = RS.Idle).
    { destruct (N.le_gt_cases (sf_sid fr) (sc_highestID c)) as [L|L]; [left; apply Hle, L | right; apply Hgt, L]. }
    destruct (sf_dep fr =? sf_sid fr) eqn:SD; cbn [fst cont]; intro E.
    - apply (G_sl_rst c s ph fr ec' c_ProtocolError HS Hsl SQ Od Tn E); auto.
      + left. apply allowed_table. rewrite V. unfold RS.on_stream, RS.by_state, RS.priority_frame, abs_frame. cbn [RS.f_kind RS.f_sid RS.f_self].
        rewrite KP, SD. cbn [abs_kind]. destruct St as [[w ->] | ->]; try destruct w; reflexivity.
      + unfold RS.reset, abs_frame. cbn [RS.f_kind]. rewrite KP. cbn [abs_kind]. destruct St as [[w ->] | ->]; try destruct w; reflexivity.
    - apply (G_sl_drop c s ph fr ec' HS Hsl SQ Od Tn E EC0).
      + left. destruct St as [[w Hw] | Hi].
        * right. rewrite V. unfold RS.on_stream, RS.by_state, abs_frame. cbn [RS.f_kind RS.f_sid RS.f_self]. rewrite Hw, KP, SD. destruct w; reflexivity.
        * left. unfold RS.may_process. rewrite V. unfold RS.on_stream, RS.by_state, RS.priority_frame, abs_frame. cbn [RS.f_kind RS.f_sid RS.f_self].
          rewrite Hi, KP, SD. reflexivity.
      + unfold RS.receive, abs_frame. cbn [RS.f_kind]. rewrite KP. cbn [abs_kind]. destruct St as [[w ->] | ->]; try destruct w; reflexivity.
      + intros _ _. exact KP. }
  apply fkind_eqb_neq in KP.
  (* HEADERS on an id already used *)
  destruct (fkind_eqb (sf_kind fr) KHeaders && (sf_sid fr <=? sc_highestID c))%bool eqn:HH.
  { apply andb_true_iff in HH. destruct HH as [KH L]. apply fkind_eqb_eq in KH. cbn [fst cont]. intro E.
    destruct BK as [(K & BN & E0)|(K & _)]; [|congruence].
    apply (G_sl_goaway c s ph fr ec' c_ProtocolError HS Hsl SQ Od Tn E).
    left. apply allowed_table. rewrite verdicts_stream; [|exact BN | exact Znn | rewrite KH; exact I].
    unfold RS.on_stream, RS.by_state, abs_frame. cbn [RS.f_kind RS.f_sid]. rewrite (Old ltac:(lia)), KH. reflexivity. }
  destruct (fkind_eqb (sf_kind fr) KHeaders) eqn:KH.
  - (* HEADERS on a new id *)
    apply fkind_eqb_eq in KH. cbn [andb] in HH. assert (Gt : sc_highestID c < sf_sid fr) by lia.
    change (sc_open (upd_highestID c1 (sf_sid fr))) with (sc_open c).
    change (sc_lastID (upd_highestID c1 (sf_sid fr))) with (sc_lastID c).
    change (sc_closing (upd_highestID c1 (sf_sid fr))) with (sc_closing c).
    cbn [andb].
    destruct ((cf_maxStreams cfg <=? sc_open c)%Z || sc_closing c)%bool eqn:RFS.
    + intro E. apply (G_refuse c s ph fr ec' HS Hsl SQ Od Tn KH RN Gt E).
    + apply orb_false_iff in RFS. destruct RFS as [_ CL].
      pose proof (A_last _ _ AT) as LL. replace (sf_sid fr <? sc_lastID c) with false by lia. rewrite CL.
      unfold created. rewrite KH. repeat split; try assumption; try lia. change (sc_lastID c1) with (sc_lastID c). lia.
  - (* any other frame *)
    cbn [andb]. apply fkind_eqb_neq in KH. change (sc_lastID c1) with (sc_lastID c).
    destruct (sf_sid fr <? sc_lastID c) eqn:LT.
    + cbn [fst cont]. intro E. apply (G_sl_goaway c s ph fr ec' c_ProtocolError HS Hsl SQ Od Tn E).
      pose proof (A_last _ _ AT) as LL. pose proof (Old ltac:(lia)) as Hi.
      left. destruct BK as [(K & BN & E0)|(K & _)]; [|apply allowed_dead; [apply DeadCont, K | reflexivity]].
      apply allowed_table. revert Kok KR KP KH K. destruct (sf_kind fr) eqn:KK; intros; try contradiction; try congruence;
        try (rewrite verdicts_stream_bad; [reflexivity | exact BN | exact Znn | rewrite KK; exact I]);
        (rewrite verdicts_stream; [|exact BN | exact Znn | rewrite KK; exact I];
         unfold RS.on_stream, RS.by_state, abs_frame; cbn [RS.f_kind RS.f_sid]; rewrite Hi, KK; reflexivity).
    + unfold created. split; [reflexivity|]. split; [exact RN|]. split; [change (sc_lastID c1) with (sc_lastID c); lia|].
      revert Kok KR KP KH. destruct (sf_kind fr); intros; try contradiction; try congruence; reflexivity.
Qed.

End Sl.
