(* Proofs/SrvIsoLog.v - C01 (a)+(c), multiplexed: in any clean run, whatever the interleaving of streams, handler
   completions and timers, every stream in the table has collected exactly what its OWN frames brought:
   its header state is the field-by-field fold (hfold) over the reference-decoded fields of its own header-block
   fragments, in order; its body the concatenation of the payloads of its own DATA frames.

   The log of a run (ghost): one item per header-block fragment handled (with the fields and the carry the reference
   decoder gives it, from the decoder state at that moment) and per DATA frame taken. `asm` replays the items of one
   stream from a fresh stream. *)
From H2V Require Import Base.Bytes Base.MachineInt Base.Result Gen.GenConsts Impl.ServerConn Proofs.SrvBase
  Proofs.SrvIsoRef Proofs.SrvIsoMoves Proofs.SrvIsoSteps Proofs.SrvIsoHdr Proofs.SrvIsoHdrStep Proofs.SrvIsoRun
  Proofs.SrvIsoOwn.
From H2V Require Import Proofs.SrvIsoReq Proofs.SrvFlowSend.
From Coq Require Import ZArith Lia ZifyN ZifyNat ZifyBool.
Local Open Scope N_scope.

Inductive litem : Type :=
| LH (fr : sframe) (fs : list (bytes * bytes)) (carry : bytes)   (* a fragment, the fields it decodes to, the carry it leaves *)
| LD (fr : sframe).                                               (* a DATA frame *)
Definition lsid (i : litem) : N := match i with LH fr _ _ | LD fr => sf_sid fr end.
Definition own_items (g : N) (L : list litem) : list litem := filter (fun i => lsid i =? g) L.

Lemma own_items_app g a b : own_items g (a ++ b) = own_items g a ++ own_items g b.
Proof. apply filter_app. Qed.

(* the header state of a stream nothing has happened to *)
Definition hdr0 : hdr := mkHdr false [] false false false false false 0 false 0 0 [] empty_req.
(* hh1 (Proofs/SrvIsoHdr.v) on the header state alone *)
Definition hh1h (h0 : hdr) (fr : sframe) : hdr :=
  mkHdr false [] (hd_pMethod h0) (hd_pScheme h0) (hd_pPath h0) (hd_pAuth h0)
        (hd_regularSeen h0 || hd_headersFinished h0) (hd_contentLength h0) (hd_hasCL h0) (hd_headerListSize h0)
        (if fkind_eqb (sf_kind fr) KCont then hd_blockFields h0 else 0) (hd_path h0) (hd_req h0).
Definition hdr_append_body (h : hdr) (d : bytes) : hdr :=
  mkHdr (hd_headersFinished h) (hd_prev h) (hd_pMethod h) (hd_pScheme h) (hd_pPath h) (hd_pAuth h)
        (hd_regularSeen h) (hd_contentLength h) (hd_hasCL h) (hd_headerListSize h) (hd_blockFields h)
        (hd_path h) (rq_append_body (hd_req h) d).

Section Log.
Variable hstate : Type.
Variable dec_field : hstate -> N -> bytes -> dec_res hstate.
Variable enc_field : hstate -> bytes -> bytes -> bool -> bytes * hstate.
Variable enc_set_max : hstate -> N -> hstate.
Variable cfg : config.
Variable h0 : hstate.
Notation sconn := (sconn hstate).
Notation step := (step dec_field enc_field enc_set_max cfg).
Notation run := (run dec_field enc_field enc_set_max cfg h0).
Implicit Types c : sconn.

(* one item replayed: (header state, body bytes received) *)
Definition asm_item (a : hdr * Z) (i : litem) : hdr * Z :=
  match i with
  | LH fr fs carry =>
    match hfold cfg (hh1h (fst a) fr) fs with
    | Some hF => (if eh_of fr then hd_set_fin (hd_set_prev hF []) true else hd_set_prev hF carry, snd a)
    | None => a
    end
  | LD fr => (hdr_append_body (fst a) (sf_payload fr), (snd a + Z.of_N (len (sf_payload fr)))%Z)
  end.
Definition asm (L : list litem) : hdr * Z := fold_left asm_item L (hdr0, 0%Z).

(* the DATA frame (stream id <> 0) the stream loop takes in this step *)
Definition data_taken c (e : event) : option sframe :=
  match sl_takes c e with
  | Some fr => if fkind_eqb (sf_kind fr) KData && negb (sf_sid fr =? 0) then Some fr else None
  | None => None
  end.

(* the log of a run, with the reference decoder state it ends in *)
Inductive logged : list event -> list litem -> hst hstate -> Prop :=
| lg_nil : logged [] [] (h0, 0, [])
| lg_hdr evs L st e fr fs st' : logged evs L st -> hdr_taken (run evs) e = [fr] ->
    ref_run dec_field (eh_of fr) (fst (fst st)) (if is_cont fr then snd (fst st) else 0)
            ((if is_cont fr then snd st else []) ++ sf_payload fr) fs (fst (fst st')) (snd (fst st')) (snd st') ->
    logged (evs ++ [e]) (L ++ [LH fr fs (snd st')]) st'
| lg_data evs L st e fr : logged evs L st -> data_taken (run evs) e = Some fr -> logged (evs ++ [e]) (L ++ [LD fr]) st
| lg_other evs L st e : logged evs L st -> hdr_taken (run evs) e = [] -> data_taken (run evs) e = None ->
    logged (evs ++ [e]) L st.

Lemma data_not_hdr c e fr : data_taken c e = Some fr -> hdr_taken c e = [].
Proof.
  unfold data_taken, hdr_taken. destruct (sl_takes c e) as [f|]; [|discriminate].
  destruct (fkind_eqb (sf_kind f) KData && negb (sf_sid f =? 0))%bool eqn:E; [|discriminate]. intros _.
  apply andb_prop in E. destruct E as [K _]. unfold is_hdr_frame, is_hdr_kind.
  destruct (sf_kind f); try discriminate K. rewrite andb_false_r. reflexivity.
Qed.

Lemma logged_ref_frames evs L st : logged evs L st -> ref_frames dec_field (h0, 0, []) (hframes dec_field enc_field enc_set_max cfg h0 evs) st.
Proof.
  induction 1 as [|evs L st e fr fs st' LG IH HT R|evs L st e fr LG IH DT|evs L st e LG IH HT DT]; [constructor| | |].
  - rewrite hframes_snoc, HT. eapply rf_snoc; [exact IH|]. exists fs. exact R.
  - rewrite hframes_snoc, (data_not_hdr _ _ _ DT), app_nil_r. exact IH.
  - rewrite hframes_snoc, HT, app_nil_r. exact IH.
Qed.

(* a step that takes neither a header-block fragment nor a DATA frame keeps every stream's request state *)
Lemma step_kept c e : hdr_taken c e = [] -> data_taken c e = None -> sc_sl_done (step c e) = false ->
  oth 0 c (step c e) /\ sc_highestID c <= sc_highestID (step c e).
Proof.
  intros HT DT. apply plain_step_oth; [exact HT|]. intros fr ST K. unfold data_taken in DT. rewrite ST, K in DT.
  cbn [fkind_eqb andb] in DT. destruct (sf_sid fr =? 0) eqn:Z; [apply N.eqb_eq; exact Z | discriminate DT].
Qed.

Definition table_assembled c (L : list litem) : Prop :=
  (forall x, In x (sc_strms c) -> (get_hdr x, st_recvBody x) = asm (own_items (st_id x) L)) /\
  (forall i, In i L -> lsid i <= sc_highestID c).

Lemma get_hdr_data_applied s fr :
  get_hdr (data_applied s fr) = hdr_append_body (get_hdr s) (sf_payload fr) /\
  st_recvBody (data_applied s fr) = (st_recvBody s + Z.of_N (len (sf_payload fr)))%Z.
Proof. split; reflexivity. Qed.

Lemma own_items_none g L m : (forall i, In i L -> lsid i <= m) -> m < g -> own_items g L = [].
Proof.
  intros B Lt. induction L as [|i t IH]; [reflexivity|]. cbn [own_items filter].
  replace (lsid i =? g) with false by (specialize (B i (or_introl eq_refl)); lia).
  apply IH. intros j Ij. apply B. right. exact Ij.
Qed.

Lemma asm_snoc L i : asm (L ++ [i]) = asm_item (asm L) i.
Proof. unfold asm. rewrite fold_left_app. reflexivity. Qed.

(* streams other than the one the step is about: nothing changes, their own items are the same *)
Lemma kept_transfer c c' L g :
  oth g c c' -> table_assembled c L ->
  forall x, In x (sc_strms c') -> st_id x <> g -> (get_hdr x, st_recvBody x) = asm (own_items (st_id x) L).
Proof.
  intros O [TA _] x Ix NG. destruct (O x Ix NG) as (s & Is & Ei & Er & Eh).
  destruct (get_hdr_views _ _ Eh Er) as [GH GR]. rewrite GH, GR, <- Ei. apply TA. exact Is.
Qed.

Theorem log_inv evs : clean dec_field enc_field enc_set_max cfg h0 evs ->
  exists L st, logged evs L st /\ fst (fst st) = sc_dec (run evs) /\
    (sc_sl_done (run evs) = false -> table_assembled (run evs) L).
Proof.
  induction evs as [|e evs IH] using rev_ind.
  - intros _. exists [], (h0, 0, []). split; [constructor|]. split; [reflexivity|]. intros _. split; [intros x []|intros i []].
  - intro CL. pose proof CL as CL2. apply clean_snoc in CL. destruct CL as [CL CS].
    destruct (IH CL) as (L & st & LG & ED & TA). rewrite run_snoc.
    set (c := run evs) in *.
    pose proof (run_inv _ dec_field enc_field enc_set_max cfg h0 evs CL) as (n & carry & RF & RI).
    pose proof (ref_frames_det _ dec_field _ _ _ (logged_ref_frames _ _ _ LG) _ RF) as ES. subst st. cbn [fst snd] in *.
    (* ids of the streams of the next state are not 0 *)
    assert (NZ' : sc_sl_done (step c e) = false -> forall x, In x (sc_strms (step c e)) -> st_id x <> 0).
    { intros Hd' x Ix. pose proof (run_inv _ dec_field enc_field enc_set_max cfg h0 (evs ++ [e]) CL2) as (n2 & k2 & _ & RI2).
      rewrite run_snoc in RI2. destruct (RI2 Hd') as [[[_ _ IDS _ _ _] _] _]. apply IDS. exact Ix. }
    assert (HdM : sc_sl_done (step c e) = false -> sc_sl_done c = false).
    { intro Hd'. destruct (sc_sl_done c) eqn:E; [|reflexivity]. rewrite (sl_done_mono _ dec_field enc_field enc_set_max cfg c e E) in Hd'. discriminate. }
    destruct (hdr_taken c e) as [|fr [|fr2 t]] eqn:HT.
    + destruct (data_taken c e) as [fr|] eqn:DT.
      * (* a DATA frame *)
        exists (L ++ [LD fr]), (sc_dec c, n, carry). split; [eapply lg_data; eassumption|].
        split; [cbn [fst]; symmetry; apply dec_frame_condition; exact HT|].
        intro Hd'. specialize (HdM Hd'). destruct (RI HdM) as [[HI _] _]. specialize (TA HdM).
        unfold data_taken, sl_takes in DT. destruct e; try discriminate DT. rewrite HdM in DT.
        destruct (sc_readerQ c) as [|f q] eqn:RQ; [discriminate|]. cbn [hd_error] in DT.
        destruct (fkind_eqb (sf_kind f) KData && negb (sf_sid f =? 0))%bool eqn:KD; [|discriminate]. inversion DT; subst f.
        apply andb_prop in KD. destruct KD as [K Z]. apply negb_true_iff in Z.
        assert (Kd : sf_kind fr = KData) by (destruct (sf_kind fr); try discriminate K; reflexivity).
        assert (Zn : sf_sid fr <> 0) by lia.
        rewrite step_EvSL in *. rewrite HdM, RQ in *.
        set (c0 := upd_readerQ c q) in *.
        assert (HI0 : HInv (eq (cur_of (hframes dec_field enc_field enc_set_max cfg h0 evs))) c0) by (eapply HInv_ext; [..|exact HI]; reflexivity).
        assert (TA0 : table_assembled c0 L) by exact TA.
        assert (IHF : is_hdr_frame fr = false) by (unfold is_hdr_frame, is_hdr_kind; rewrite Kd; cbn; rewrite andb_false_r; reflexivity).
        pose proof (hmvs_sl_frame_other _ dec_field enc_set_max cfg (sf_sid fr) false c0 fr IHF (fun _ => eq_refl) (no_open_block_false _ _)) as M.
        split.
        -- intros x Ix. destruct (N.eq_dec (st_id x) (sf_sid fr)) as [Ex|Nx].
           ++ destruct (data_step_own _ dec_field enc_set_max cfg _ c0 fr Kd Zn HI0 HdM Hd' x Ix Ex) as (s & SS & Eh & Er).
              assert (Eh' : hv x = hv (data_applied s fr)) by (rewrite Eh; reflexivity).
              destruct (get_hdr_views _ _ Eh' Er) as [GH GR].
              rewrite Ex, own_items_app. cbn [own_items filter lsid]. rewrite N.eqb_refl. rewrite asm_snoc.
              destruct TA0 as [TA1 _]. destruct (strms_search_In _ _ _ SS) as [Is Es].
              rewrite <- Es, <- (TA1 s Is). cbn [asm_item fst snd]. rewrite GH, GR.
              destruct (get_hdr_data_applied s fr) as [-> ->]. reflexivity.
           ++ rewrite own_items_app. cbn [own_items filter lsid]. replace (sf_sid fr =? st_id x) with false by lia. rewrite app_nil_r.
              eapply (kept_transfer c0); [eapply hmvs_other; [exact M | exact Hd'] | exact TA0 | exact Ix | exact Nx].
        -- intros i Ii. pose proof (hmvs_highest _ _ _ _ _ M Hd') as HM. replace (sc_highestID c0) with (sc_highestID c) in HM by reflexivity.
           apply in_app_or in Ii. destruct Ii as [Ii|[<-|[]]].
           ++ destruct TA as [_ TB]. specialize (TB i Ii). lia.
           ++ cbn [lsid]. pose proof (data_step_bound _ dec_field enc_set_max cfg _ c0 fr Kd Zn HI0 Hd'). replace (sc_highestID c0) with (sc_highestID c) in * by reflexivity. lia.
      * (* nothing for any stream's request *)
        exists L, (sc_dec c, n, carry). split; [eapply lg_other; eassumption|].
        split; [cbn [fst]; symmetry; apply dec_frame_condition; exact HT|].
        intro Hd'. specialize (HdM Hd'). specialize (TA HdM).
        destruct (step_kept c e HT DT Hd') as [O HM]. split.
        -- intros x Ix. eapply (kept_transfer c); [exact O | exact TA | exact Ix | apply NZ'; assumption].
        -- intros i Ii. destruct TA as [_ TB]. specialize (TB i Ii). lia.
    + (* a header-block fragment *)
      destruct (CS fr HT) as [W GC].
      unfold hdr_taken, sl_takes in HT. destruct e; try discriminate HT.
      assert (Hd : sc_sl_done c = false) by (destruct (sc_sl_done c); [discriminate HT | reflexivity]). rewrite Hd in HT.
      destruct (sc_readerQ c) as [|fr' q] eqn:RQ; [discriminate HT|].
      cbn [hd_error] in HT. destruct (is_hdr_frame fr') eqn:IHF; [|discriminate HT]. inversion HT; subst fr'.
      destruct (hdr_step_reference _ dec_field enc_field enc_set_max cfg h0 evs fr q CL Hd RQ IHF W GC)
        as (n1 & carry1 & RF1 & (fs & n' & carry' & R & _ & GP)).
      pose proof (ref_frames_det _ dec_field _ _ _ RF1 _ RF) as E1. inversion E1; subst n1 carry1.
      exists (L ++ [LH fr fs carry']), (sc_dec (step c EvSL), n', carry').
      split.
      * eapply (lg_hdr evs L (sc_dec c, n, carry) EvSL fr fs (sc_dec (step c EvSL), n', carry')); [exact LG | | exact R].
        fold c. unfold hdr_taken, sl_takes. rewrite Hd, RQ. cbn [hd_error]. rewrite IHF. reflexivity.
      * split; [reflexivity|]. intro Hd'. specialize (TA Hd).
        destruct (GP Hd') as (_ & O & OP & IP & HM & HS).
        set (c0 := upd_readerQ c q) in *.
        assert (TA0 : table_assembled c0 L) by exact TA.
        split.
        -- intros x Ix. destruct (N.eq_dec (st_id x) (sf_sid fr)) as [Ex|Nx].
           ++ destruct (OP x Ix Ex) as (hF & HF & GH & GR).
              rewrite Ex, own_items_app. cbn [own_items filter lsid]. rewrite N.eqb_refl. rewrite asm_snoc.
              assert (EB : (get_hdr (entry_before _ c0 fr), st_recvBody (entry_before _ c0 fr)) = asm (own_items (sf_sid fr) L)).
              { unfold entry_before. destruct (strms_search (sc_strms c0) (sf_sid fr)) as [s|] eqn:SS.
                - destruct (strms_search_In _ _ _ SS) as [Is Es]. destruct TA0 as [TA1 _]. rewrite <- Es. apply TA1. exact Is.
                - destruct (IP x Ix) as [I2|[_ I3]].
                  + exfalso. rewrite Ex in I2. apply in_map_iff in I2. destruct I2 as (y & Ey & Iy).
                    eapply strms_search_None; [exact SS | exact Iy | exact Ey].
                  + destruct TA0 as [_ TB]. rewrite (own_items_none _ _ _ TB I3). reflexivity. }
              cbn [asm_item]. rewrite <- EB. cbn [fst snd].
              replace (hh1h (get_hdr (entry_before _ c0 fr)) fr) with (hh1 (entry_before _ c0 fr) fr) by reflexivity.
              unfold c0, c. rewrite HF, GH, GR. reflexivity.
           ++ rewrite own_items_app. cbn [own_items filter lsid]. replace (sf_sid fr =? st_id x) with false by lia. rewrite app_nil_r.
              eapply (kept_transfer c0); [exact O | exact TA0 | exact Ix | exact Nx].
        -- intros i Ii. change (sc_highestID c <= sc_highestID (step c EvSL)) in HM.
           apply in_app_or in Ii. destruct Ii as [Ii|[<-|[]]].
           ++ destruct TA as [_ TB]. specialize (TB i Ii). lia.
           ++ cbn [lsid]. exact HS.
    + unfold hdr_taken in HT. destruct (sl_takes c e); [destruct (is_hdr_frame s)|]; discriminate.
Qed.

End Log.


Section Asm.
Variable cfg : config.

Definition data_payloads (L : list litem) : list bytes :=
  flat_map (fun i => match i with LD fr => [sf_payload fr] | LH _ _ _ => [] end) L.

(* the body collected is the concatenation of the DATA payloads, whatever header blocks came in between *)
Lemma asm_body_gen L : forall a,
  rq_body (hd_req (fst (fold_left (asm_item cfg) L a))) = rq_body (hd_req (fst a)) ++ concat (data_payloads L) /\
  snd (fold_left (asm_item cfg) L a) = (snd a + Z.of_N (len (concat (data_payloads L))))%Z.
Proof.
  induction L as [|i t IH]; intro a; cbn [fold_left data_payloads flat_map concat].
  - rewrite app_nil_r. split; [reflexivity | unfold len; cbn; lia].
  - destruct (IH (asm_item cfg a i)) as [E1 E2]. fold (data_payloads t) in *. rewrite E1, E2.
    destruct i as [fr fs carry|fr]; cbn [asm_item app concat].
    + destruct (hfold cfg (hh1h (fst a) fr) fs) as [hF|] eqn:HF; [|split; reflexivity].
      destruct (hfold_fields cfg _ _ _ HF) as [_ EB]. cbn [hh1h hd_req] in EB.
      cbn [fst snd]. split; [|reflexivity]. f_equal.
      destruct (eh_of fr); cbn [hd_set_fin hd_set_prev hd_req]; exact EB.
    + cbn [fst snd hdr_append_body hd_req rq_append_body rq_body]. rewrite <- app_assoc. split; [reflexivity|].
      rewrite len_app. lia.
Qed.

Theorem asm_body L :
  rq_body (hd_req (fst (asm cfg L))) = concat (data_payloads L) /\ snd (asm cfg L) = Z.of_N (len (concat (data_payloads L))).
Proof. destruct (asm_body_gen L (hdr0, 0%Z)) as [E1 E2]. unfold asm. rewrite E1, E2. cbn [fst snd hdr0 hd_req empty_req rq_body app]. split; [reflexivity | lia]. Qed.

(* header_field does not look at the carried bytes *)
Lemma header_field_set_prev h p k v :
  header_field cfg (hd_set_prev h p) k v =
  match header_field cfg h k v with inl e => inl e | inr h' => inr (hd_set_prev h' p) end.
Proof.
  unfold header_field, hd_set_prev. cbv zeta.
  cbn [hd_pMethod hd_pPath hd_pScheme hd_pAuth hd_regularSeen hd_contentLength hd_hasCL hd_blockFields hd_path hd_req
       hd_headersFinished hd_prev hd_headerListSize].
  repeat match goal with
         | |- context [if ?b then _ else _] => destruct b
         | |- context [match parse_uint ?v with _ => _ end] => destruct (parse_uint v)
         end; reflexivity.
Qed.

Lemma hfold_set_prev fs : forall h p,
  hfold cfg (hd_set_prev h p) fs = match hfold cfg h fs with Some x => Some (hd_set_prev x p) | None => None end.
Proof.
  induction fs as [|[k v] t IH]; intros h p; cbn [hfold]; [reflexivity|].
  rewrite header_field_set_prev. destruct (header_field cfg h k v); [reflexivity | apply IH].
Qed.

Lemma hd_set_prev_twice h p q : hd_set_prev (hd_set_prev h p) q = hd_set_prev h q.
Proof. reflexivity. Qed.

(* the fragments of one block: a HEADERS frame, then CONTINUATION frames; END_HEADERS on the last only *)
Fixpoint block_items (first : bool) (frs : list (sframe * list (bytes * bytes) * bytes)) : Prop :=
  match frs with
  | [] => False
  | [(fr, _, _)] => is_cont fr = negb first /\ eh_of fr = true
  | (fr, _, _) :: t => is_cont fr = negb first /\ eh_of fr = false /\ block_items false t
  end.
Definition items_of (frs : list (sframe * list (bytes * bytes) * bytes)) : list litem :=
  map (fun x => LH (fst (fst x)) (snd (fst x)) (snd x)) frs.
Definition fields_of (frs : list (sframe * list (bytes * bytes) * bytes)) : list (bytes * bytes) :=
  flat_map (fun x => snd (fst x)) frs.

Lemma hh1h_cont h carry fr : is_cont fr = true -> hd_headersFinished h = false ->
  hh1h (hd_set_prev h carry) fr = hd_set_prev h [].
Proof.
  unfold is_cont. intros IC HF. unfold hh1h, hd_set_prev. rewrite IC. cbn. rewrite HF, orb_false_r. reflexivity.
Qed.

(* a block cut into fragments is folded as a whole *)
Lemma asm_block_conts frs : forall hA carry r, block_items false frs -> hd_headersFinished hA = false ->
  forall hF, hfold cfg (hd_set_prev hA []) (fields_of frs) = Some hF ->
  fold_left (asm_item cfg) (items_of frs) (hd_set_prev hA carry, r) = (hd_set_fin hF true, r).
Proof.
  induction frs as [|[[fr fs] cr] t IH]; intros hA carry r BI HA hF HF; [destruct BI|].
  cbn [items_of map fold_left fst snd asm_item]. cbn [fields_of flat_map fst snd] in HF.
  rewrite hfold_app in HF.
  destruct t as [|y t'].
  - destruct BI as [IC EH]. rewrite (hh1h_cont _ _ _ IC HA). cbn [flat_map] in HF.
    destruct (hfold cfg (hd_set_prev hA []) fs) as [h1|] eqn:H1; [|discriminate]. cbn [hfold] in HF. inversion HF; subst.
    rewrite EH. cbn [fold_left fst snd]. destruct (hfold_frame cfg _ _ _ H1) as (PV & _ & _). cbn [hd_set_prev hd_prev] in PV.
    unfold hd_set_fin, hd_set_prev. cbn. rewrite PV. reflexivity.
  - destruct BI as (IC & EH & BI'). rewrite (hh1h_cont _ _ _ IC HA).
    destruct (hfold cfg (hd_set_prev hA []) fs) as [h1|] eqn:H1; [|discriminate].
    rewrite EH. cbn [fst snd].
    destruct (hfold_frame cfg _ _ _ H1) as (PV & _ & HF1). cbn [hd_set_prev hd_prev hd_headersFinished] in PV, HF1.
    apply (IH h1 cr r BI'); [congruence|].
    replace (hd_set_prev h1 []) with h1; [exact HF|]. destruct h1. cbn in *. subst. reflexivity.
Qed.

Lemma hh1h_first fr : is_cont fr = false -> hh1h hdr0 fr = hdr0.
Proof. unfold is_cont. intro IC. unfold hh1h, hdr0. rewrite IC. reflexivity. Qed.

Lemma hdr_append_nil h : hdr_append_body h [] = h.
Proof. destruct h as [a b c d e f g i j k l m rq]. destruct rq. unfold hdr_append_body, rq_append_body. cbn. rewrite app_nil_r. reflexivity. Qed.
Lemma hdr_append_app h a b : hdr_append_body (hdr_append_body h a) b = hdr_append_body h (a ++ b).
Proof. unfold hdr_append_body, rq_append_body. cbn. rewrite app_assoc. reflexivity. Qed.

Lemma asm_datas ds : forall h r,
  fold_left (asm_item cfg) (map LD ds) (h, r) =
  (hdr_append_body h (concat (map sf_payload ds)), (r + Z.of_N (len (concat (map sf_payload ds))))%Z).
Proof.
  induction ds as [|d t IH]; intros h r; cbn [map fold_left concat].
  - rewrite hdr_append_nil. f_equal. unfold len. cbn. lia.
  - cbn [asm_item fst snd]. rewrite IH, hdr_append_app, len_app. f_equal. lia.
Qed.

(* C01 (a), for one stream, read off its own items: a block (HEADERS CONTINUATION*, cut anywhere) whose fields the
   model accepts, then DATA frames: the stream holds the request the fields spell, with the DATA payloads as body *)
Theorem asm_request frs ds hF :
  block_items true frs -> hfold cfg hdr0 (fields_of frs) = Some hF ->
  let a := asm cfg (items_of frs ++ map LD ds) in
  hd_req (fst a) = rq_append_body (request_of empty_req (fields_of frs)) (concat (map sf_payload ds)) /\
  hd_headersFinished (fst a) = true /\
  snd a = Z.of_N (len (concat (map sf_payload ds))) /\
  hd_pMethod (fst a) = is_some (field_val S_method (fields_of frs)) /\
  hd_pPath (fst a) = is_some (field_val S_path (fields_of frs)) /\
  hd_pScheme (fst a) = is_some (field_val S_scheme (fields_of frs)) /\
  hd_path (fst a) = opt_or (field_val S_path (fields_of frs)) [].
Proof.
  intros BI HF. cbv zeta. unfold asm. rewrite fold_left_app.
  assert (B : fold_left (asm_item cfg) (items_of frs) (hdr0, 0%Z) = (hd_set_fin hF true, 0%Z)).
  { destruct frs as [|[[fr fs] cr] t]; [destruct BI|].
    cbn [items_of map fold_left fst snd asm_item]. cbn [fields_of flat_map fst snd] in HF. rewrite hfold_app in HF.
    destruct t as [|y t'].
    - destruct BI as [IC EH]. cbn [negb] in IC. rewrite (hh1h_first _ IC). cbn [flat_map] in HF.
      destruct (hfold cfg hdr0 fs) as [h1|] eqn:H1; [|discriminate]. cbn [hfold] in HF. inversion HF; subst.
      rewrite EH. cbn [fold_left fst snd]. destruct (hfold_frame cfg _ _ _ H1) as (PV & _ & _). cbn [hdr0 hd_prev] in PV.
      unfold hd_set_fin, hd_set_prev. cbn. rewrite PV. reflexivity.
    - destruct BI as (IC & EH & BI'). cbn [negb] in IC. rewrite (hh1h_first _ IC).
      destruct (hfold cfg hdr0 fs) as [h1|] eqn:H1; [|discriminate]. rewrite EH. cbn [fst snd].
      destruct (hfold_frame cfg _ _ _ H1) as (PV & _ & HF1). cbn [hdr0 hd_prev hd_headersFinished] in PV, HF1.
      apply (asm_block_conts (y :: t') h1 cr 0%Z BI' HF1).
      replace (hd_set_prev h1 []) with h1; [exact HF|]. destruct h1. cbn in *. subst. reflexivity. }
  rewrite B, asm_datas. cbn [fst snd].
  destruct (hfold_request cfg hdr0 _ _ HF eq_refl eq_refl eq_refl eq_refl) as (RQ & PM & PP & PS & _ & PH).
  cbn [hdr_append_body hd_set_fin hd_req hd_headersFinished hd_pMethod hd_pPath hd_pScheme hd_path].
  rewrite RQ. repeat split; auto.
Qed.

End Asm.
