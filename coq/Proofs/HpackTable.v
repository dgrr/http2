(* C03/C04: the dynamic table. shrink / addDynamic (uint32 sizes, oldest-first slice) against
   evict_to / add_entry of the specification (newest-first list); peek against lookup. *)
From Coq Require Import List NArith ZArith Bool Lia.
From H2V Require Import Base.Bytes Base.MachineInt Base.Result Gen.GenConsts Gen.GenStatic
     Impl.Huffman Impl.Hpack Spec.Rfc7541Huffman Spec.Rfc7541
     Proofs.HpackDefs Proofs.HpackBytes Proofs.HpackStatic.
Import ListNotations.
Local Open Scope N_scope.

Definition fsize (f : field) : N := len (f_key f) + len (f_value f) + 32.
Definition fsum (dyn : list field) : N := fold_right (fun f a => fsize f + a) 0 dyn.

Lemma fsum_cons f dyn : fsum (f :: dyn) = fsize f + fsum dyn.
Proof. reflexivity. Qed.

Lemma fsum_app a b : fsum (a ++ b) = fsum a + fsum b.
Proof. induction a as [|f a IH]; [reflexivity|]. cbn [app]. rewrite !fsum_cons, IH. lia. Qed.

Lemma fsize_ge f : 32 <= fsize f.
Proof. unfold fsize. lia. Qed.

Lemma fsum_length dyn : 32 * N.of_nat (length dyn) <= fsum dyn.
Proof.
  induction dyn as [|f dyn IH]; [cbn; lia|]. rewrite fsum_cons. pose proof (fsize_ge f).
  cbn [length]. lia.
Qed.

Lemma fsum_in f dyn : In f dyn -> fsize f <= fsum dyn.
Proof.
  induction dyn as [|g dyn IH]; [contradiction|]. rewrite fsum_cons. intros [->|Hin]; [lia|].
  specialize (IH Hin). lia.
Qed.

Lemma entry_size_of f : entry_size (entry_of f) = fsize f.
Proof. reflexivity. Qed.

Lemma table_size_app l e : table_size (l ++ [e]) = table_size l + entry_size e.
Proof.
  induction l as [|x l IH]; [cbn [app table_size fold_right]; lia|].
  cbn [app]. change (table_size (x :: l ++ [e])) with (entry_size x + table_size (l ++ [e])).
  change (table_size (x :: l)) with (entry_size x + table_size l). rewrite IH. lia.
Qed.

Lemma table_size_rev_map dyn : table_size (rev (map entry_of dyn)) = fsum dyn.
Proof.
  induction dyn as [|f dyn IH]; [reflexivity|].
  cbn [map rev]. rewrite table_size_app, IH, entry_size_of, fsum_cons. lia.
Qed.

Lemma abs_entries st : dt_entries (abs st) = rev (map entry_of (h_dynamic st)).
Proof. reflexivity. Qed.

Lemma table_size_abs st : table_size (dt_entries (abs st)) = fsum (h_dynamic st).
Proof. rewrite abs_entries. apply table_size_rev_map. Qed.

Lemma field_size_exact f : fsize f < 2 ^ 32 -> field_size f = fsize f.
Proof. intros H. unfold field_size. apply u32_small. exact H. Qed.

Lemma dynamic_size_from : forall dyn a, a + fsum dyn < 2 ^ 32 ->
  fold_left (fun n hf => u32 (n + field_size hf)) dyn a = a + fsum dyn.
Proof.
  induction dyn as [|f dyn IH]; intros a H; [cbn; lia|].
  rewrite fsum_cons in H. cbn [fold_left]. rewrite field_size_exact by lia.
  rewrite u32_small by lia. rewrite IH by lia. rewrite fsum_cons. lia.
Qed.

Lemma dynamic_size_exact dyn : fsum dyn < 2 ^ 32 -> dynamic_size dyn = fsum dyn.
Proof. intros H. unfold dynamic_size. rewrite dynamic_size_from by lia. lia. Qed.

(* shrink: the longest suffix (newest entries) that fits *)
Fixpoint fit (mx : N) (dyn : list field) : list field :=
  match dyn with
  | [] => []
  | f :: rest => if mx <? fsum dyn then fit mx rest else dyn
  end.

Lemma shrink_loop_fit_from : forall dyn mx, fsum dyn < 2 ^ 32 -> shrink_loop dyn (fsum dyn) mx = fit mx dyn.
Proof.
  induction dyn as [|f dyn IH]; intros mx H; [reflexivity|].
  cbn [shrink_loop fit]. destruct (mx <? fsum (f :: dyn)); [|reflexivity].
  rewrite fsum_cons in *. rewrite field_size_exact by lia.
  rewrite subw32_small by lia. replace (fsize f + fsum dyn - fsize f) with (fsum dyn) by lia.
  apply IH. lia.
Qed.

Lemma shrink_loop_fit dyn mx : fsum dyn < 2 ^ 32 -> shrink_loop dyn (dynamic_size dyn) mx = fit mx dyn.
Proof. intros H. rewrite dynamic_size_exact by exact H. apply shrink_loop_fit_from. exact H. Qed.

Lemma fit_all mx dyn : fsum dyn <= mx -> fit mx dyn = dyn.
Proof.
  destruct dyn as [|f dyn]; [reflexivity|]. intros H. cbn [fit].
  replace (mx <? fsum (f :: dyn)) with false by (symmetry; apply N.ltb_ge; exact H). reflexivity.
Qed.

Lemma fsum_fit_le mx dyn : fsum (fit mx dyn) <= mx.
Proof.
  induction dyn as [|f dyn IH]; [cbn; lia|]. cbn [fit].
  destruct (N.ltb_spec mx (fsum (f :: dyn))); [exact IH | assumption].
Qed.

Lemma fit_suffix mx dyn : exists pre, dyn = pre ++ fit mx dyn.
Proof.
  induction dyn as [|f dyn [pre IH]]; [exists []; reflexivity|]. cbn [fit].
  destruct (mx <? fsum (f :: dyn)).
  - exists (f :: pre). cbn [app]. f_equal. exact IH.
  - exists []. reflexivity.
Qed.

Lemma fit_fit a b dyn : fit a (fit b dyn) = fit (N.min a b) dyn.
Proof.
  induction dyn as [|f dyn IH]; [reflexivity|]. cbn [fit].
  destruct (N.ltb_spec b (fsum (f :: dyn))) as [Hb|Hb].
  - rewrite IH. replace (N.min a b <? fsum (f :: dyn)) with true by (symmetry; apply N.ltb_lt; lia).
    reflexivity.
  - destruct (N.ltb_spec (N.min a b) (fsum (f :: dyn))) as [Hm|Hm].
    + cbn [fit]. replace (a <? fsum (f :: dyn)) with true by (symmetry; apply N.ltb_lt; lia).
      replace (N.min a b) with a by lia. reflexivity.
    + cbn [fit]. replace (a <? fsum (f :: dyn)) with false by (symmetry; apply N.ltb_ge; lia). reflexivity.
Qed.

Lemma fit_app_new mx dyn f : fit mx (dyn ++ [f]) = fit mx (fit mx dyn ++ [f]).
Proof.
  induction dyn as [|g dyn IH]; [reflexivity|].
  cbn [app fit].
  destruct (N.ltb_spec mx (fsum (g :: dyn))) as [H1|H1].
  - replace (mx <? fsum (g :: dyn ++ [f])) with true.
    + exact IH.
    + symmetry. apply N.ltb_lt. change (g :: dyn ++ [f]) with ((g :: dyn) ++ [f]). rewrite fsum_app. lia.
  - reflexivity.
Qed.

Lemma evict_fits : forall l budget, table_size l <= budget -> evict_to budget l = l.
Proof.
  induction l as [|e l IH]; intros budget H; [reflexivity|].
  change (table_size (e :: l)) with (entry_size e + table_size l) in H.
  cbn [evict_to]. replace (entry_size e <=? budget) with true by (symmetry; apply N.leb_le; lia).
  f_equal. apply IH. lia.
Qed.

Lemma evict_app_over : forall l e budget, budget < table_size (l ++ [e]) ->
  evict_to budget (l ++ [e]) = evict_to budget l.
Proof.
  induction l as [|x l IH]; intros e budget H.
  - cbn [app] in *. cbn [evict_to]. cbn [table_size fold_right] in H.
    replace (entry_size e <=? budget) with false by (symmetry; apply N.leb_gt; lia). reflexivity.
  - cbn [app] in *. change (table_size (x :: l ++ [e])) with (entry_size x + table_size (l ++ [e])) in H.
    cbn [evict_to]. destruct (N.leb_spec (entry_size x) budget) as [Hx|Hx]; [|reflexivity].
    f_equal. apply IH. lia.
Qed.

Lemma evict_size_le : forall l budget, table_size (evict_to budget l) <= budget.
Proof.
  induction l as [|e l IH]; intros budget; [cbn; lia|].
  cbn [evict_to]. destruct (N.leb_spec (entry_size e) budget) as [He|He]; [|cbn; lia].
  change (table_size (e :: evict_to (budget - entry_size e) l))
    with (entry_size e + table_size (evict_to (budget - entry_size e) l)).
  specialize (IH (budget - entry_size e)). lia.
Qed.

Lemma fit_evict mx dyn : rev (map entry_of (fit mx dyn)) = evict_to mx (rev (map entry_of dyn)).
Proof.
  induction dyn as [|f dyn IH]; [reflexivity|].
  cbn [fit]. destruct (N.ltb_spec mx (fsum (f :: dyn))) as [H|H].
  - rewrite IH. cbn [map rev]. symmetry. apply evict_app_over.
    rewrite table_size_app, table_size_rev_map, entry_size_of. rewrite fsum_cons in H. lia.
  - symmetry. apply evict_fits. rewrite table_size_rev_map. exact H.
Qed.

(* shrink and addDynamic on the abstraction *)
Lemma shrink_dynamic st : fsum (h_dynamic st) < 2 ^ 32 ->
  shrink st = with_dynamic st (fit (h_max st) (h_dynamic st)).
Proof. intros H. unfold shrink. rewrite shrink_loop_fit by exact H. reflexivity. Qed.

Lemma abs_shrink st : fsum (h_dynamic st) < 2 ^ 32 ->
  abs (shrink st) = mkDT (evict_to (h_max st) (dt_entries (abs st))) (h_max st) (h_max_settings st).
Proof.
  intros H. rewrite shrink_dynamic by exact H. unfold abs at 1. cbn [with_dynamic h_dynamic h_max h_max_settings].
  rewrite abs_entries. f_equal. apply fit_evict.
Qed.

Lemma add_dynamic_fit st f : fsum (h_dynamic st) + fsize f < 2 ^ 32 ->
  add_dynamic st f = with_dynamic st (fit (h_max st) (h_dynamic st ++ [f])).
Proof.
  intros H. unfold add_dynamic. rewrite shrink_dynamic.
  - destruct st; reflexivity.
  - cbn [with_dynamic h_dynamic]. rewrite fsum_app. cbn [fsum fold_right]. lia.
Qed.

Lemma abs_add_dynamic st f : fsum (h_dynamic st) + fsize f < 2 ^ 32 ->
  abs (add_dynamic st f) = add_entry (abs st) (entry_of f).
Proof.
  intros H. rewrite add_dynamic_fit by exact H. unfold abs at 1, add_entry.
  cbn [with_dynamic h_dynamic h_max h_max_settings]. f_equal.
  change (map (fun f0 => (f_key f0, f_value f0))) with (map entry_of).
  rewrite fit_evict, map_app, rev_app_distr. cbn [map rev app].
  cbn [evict_to]. change (dt_max (abs st)) with (h_max st). rewrite abs_entries. reflexivity.
Qed.

Lemma nth_error_rev {A} (l : list A) k : (k < length l)%nat ->
  nth_error (rev l) k = nth_error l (length l - 1 - k).
Proof.
  intros H. assert (d : A) by (destruct l as [|d l0]; [simpl in H; lia | exact d]).
  rewrite (nth_error_nth' (rev l) d) by (rewrite rev_length; exact H).
  rewrite (nth_error_nth' l d) by lia. f_equal.
  rewrite rev_nth by exact H. f_equal. lia.
Qed.

Lemma signed64_small x : x < 2 ^ 63 -> signed 64 x = Z.of_N x.
Proof.
  intros H. unfold signed. rewrite N.mod_small by (change (2 ^ 64) with (2 * 2 ^ 63); lia).
  change (64 - 1) with 63. replace (x <? 2 ^ 63) with true by (symmetry; apply N.ltb_lt; exact H). reflexivity.
Qed.

Lemma signed64_big x : 2 ^ 63 <= x -> x < 2 ^ 64 -> signed 64 x = (Z.of_N x - 2 ^ 64)%Z.
Proof.
  intros H1 H2. unfold signed. rewrite N.mod_small by exact H2.
  change (64 - 1) with 63. replace (x <? 2 ^ 63) with false by (symmetry; apply N.ltb_ge; exact H1). reflexivity.
Qed.

Lemma int64_spec z : exists q : Z, int64 z = (z + q * 2 ^ 64)%Z /\ (- 2 ^ 63 <= int64 z < 2 ^ 63)%Z.
Proof.
  unfold int64, of_signed. change (Z.of_N (2 ^ 64)) with (2 ^ 64)%Z.
  pose proof (Z.mod_pos_bound z (2 ^ 64) ltac:(lia)) as Hb.
  pose proof (Z.div_mod z (2 ^ 64) ltac:(lia)) as Hd.
  set (m := (z mod 2 ^ 64)%Z) in *.
  assert (Hm : Z.of_N (Z.to_N m) = m) by (apply Z2N.id; lia).
  destruct (Z.ltb_spec m (2 ^ 63)) as [Hlt|Hge].
  - rewrite signed64_small by (apply N2Z.inj_lt; rewrite Hm; exact Hlt).
    rewrite Hm. exists (- (z / 2 ^ 64))%Z. lia.
  - rewrite signed64_big.
    + rewrite Hm. exists (- (z / 2 ^ 64) - 1)%Z. lia.
    + apply N2Z.inj_le. rewrite Hm. exact Hge.
    + apply N2Z.inj_lt. rewrite Hm. lia.
Qed.

Lemma zidx_some {A} (l : list A) i x : zidx l i = Some x ->
  (0 <= i < Z.of_nat (length l))%Z /\ nth_error l (Z.to_nat i) = Some x.
Proof.
  unfold zidx. destruct (Z.ltb_spec i 0); [discriminate|].
  destruct (Z.leb_spec (Z.of_nat (length l)) i); [discriminate|]. intros Hn. split; [lia | exact Hn].
Qed.

Lemma zidx_in_range {A} (l : list A) i : (0 <= i < Z.of_nat (length l))%Z -> zidx l i = nth_error l (Z.to_nat i).
Proof.
  intros H. unfold zidx. destruct (Z.ltb_spec i 0); [lia|].
  destruct (Z.leb_spec (Z.of_nat (length l)) i); [lia|]. reflexivity.
Qed.

Lemma zidx_out_of_range {A} (l : list A) i : (i < 0 \/ Z.of_nat (length l) <= i)%Z -> zidx l i = None.
Proof.
  intros H. unfold zidx. destruct (Z.ltb_spec i 0); [reflexivity|].
  destruct (Z.leb_spec (Z.of_nat (length l)) i); [reflexivity|]. lia.
Qed.

Theorem peek_lookup st n : n < 2 ^ 64 -> N.of_nat (length (h_dynamic st)) < 2 ^ 62 ->
  option_map entry_of (peek st n) = lookup (abs st) n.
Proof.
  intros Hn HL. unfold peek, lookup. rewrite static_len_61. change c_maxIndex with 62.
  destruct (N.ltb_spec n 62) as [Hlt|Hge].
  - destruct (N.eqb_spec n 0) as [->|Hn0].
    + reflexivity.
    + replace (n <=? 61) with true by (symmetry; apply N.leb_le; lia).
      rewrite subw64_small by lia. rewrite signed64_small by lia.
      rewrite zidx_in_range by (rewrite static_fields_length; lia).
      unfold idx. rewrite <- static_fields_map, nth_error_map. replace (Z.to_nat (Z.of_N (n - 1))) with (N.to_nat (n - 1)) by lia. reflexivity.
  - replace (n =? 0) with false by (symmetry; apply N.eqb_neq; lia).
    replace (n <=? 61) with false by (symmetry; apply N.leb_gt; lia).
    rewrite subw64_small by lia.
    set (L := length (h_dynamic st)) in *.
    rewrite abs_entries, rev_length, map_length. fold L.
    destruct (int64_spec (Z.of_nat L - signed 64 (n - 62))) as [q1 [E1 R1]].
    destruct (int64_spec (int64 (Z.of_nat L - signed 64 (n - 62)) - 1)) as [q2 [E2 R2]].
    assert (HL' : (Z.of_nat L < 2 ^ 62)%Z) by lia.
    destruct (N.ltb_spec (n - 62) (2 ^ 63)) as [Hk|Hk].
    + rewrite signed64_small in * by exact Hk.
      assert (q1 = 0%Z) by lia. subst q1.
      assert (q2 = 0%Z) by lia. subst q2.
      rewrite E2, E1.
      destruct (N.leb_spec n (61 + N.of_nat L)) as [Hin|Hout].
      * rewrite zidx_in_range by lia. unfold idx.
        rewrite nth_error_rev by (rewrite map_length; fold L; lia).
        rewrite nth_error_map, map_length. fold L. do 2 f_equal. lia.
      * rewrite zidx_out_of_range by lia. reflexivity.
    + rewrite signed64_big in * by lia.
      replace (n <=? 61 + N.of_nat L) with false by (symmetry; apply N.leb_gt; lia).
      rewrite zidx_out_of_range; [reflexivity|]. lia.
Qed.

Lemma peek_in st n f : peek st n = Some f -> In f static_fields \/ In f (h_dynamic st).
Proof.
  unfold peek. destruct (n <? c_maxIndex); intros H; apply zidx_some in H; destruct H as [_ H];
    apply nth_error_In in H; auto.
Qed.

Lemma table_ok_fsum st : table_ok st -> fsum (h_dynamic st) <= h_max st /\ h_max st < 2 ^ 32.
Proof. intros [_ [H2 [H3 H4]]]. rewrite table_size_abs in H2. lia. Qed.

Lemma table_ok_length st : table_ok st -> N.of_nat (length (h_dynamic st)) < 2 ^ 62.
Proof.
  intros H. apply table_ok_fsum in H. pose proof (fsum_length (h_dynamic st)).
  change (2 ^ 62) with 4611686018427387904. change (2 ^ 32) with 4294967296 in H. lia.
Qed.

Lemma forallb_suffix {A} (P : A -> bool) pre l : forallb P (pre ++ l) = true -> forallb P l = true.
Proof. rewrite forallb_app. intros H. apply andb_prop in H. tauto. Qed.

Lemma forallb_fit mx dyn : forallb field_ok dyn = true -> forallb field_ok (fit mx dyn) = true.
Proof.
  intros H. destruct (fit_suffix mx dyn) as [pre Hp]. rewrite Hp in H. eapply forallb_suffix. exact H.
Qed.
