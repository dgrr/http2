(* Proofs/CliBase.v - shared base for every proof about Impl/ClientConn.v (the client connection model).

   Conventions introduced here (they hold in every file that imports CliBase):
   - `hstate` is an IMPLICIT argument of every ClientConn definition of the Section that takes one
     (`cc_ctxs c`, `ccu_out c l`, `cl_note c o`, `cl_step dec_field enc_field enc_set_max cfg c e`,
     `cl_run dec enc sm cfg h0 first evs`, `cl_init sm h0 first`, `cl_trace c`, ...). The type `cconn hstate` keeps it explicit.
     With the instance: `cc_out (c : cst)`, NOT `cc_out hpack_state c` (write `@cc_out hpack_state c` if you must).
   - projection lemmas are named <field>_<function>: `cc_out_ccu_ctxs`, `ct_err_ctu_done`, `pb_id_pbu_body`, `cc_reqQueued_cl_note`,
     `cc_out_cl_resolve`, ...: rewrite with the one that is meant.
   - `cc_cbn` / `cc_cbn_in H` / `cc_cbn_all`: reduce projections of the generated setters (connection, Ctx, pending body)
     and of cl_note by computation (the setters are transparent).
   - `cc_unf`: unfold the small helpers (cl_note, cl_ctx_upd, cl_resolve, cl_write_out, cl_take_req_count, cl_conn_close, ...),
     split their `if`s and close the goal by reflexivity: for frame ("does not change") goals.
   - `cl_run_ind` / `cl_run_ind_reach` / `cl_reachable`: invariants over all event lists. `cl_run_app`, `cl_run_snoc`.
   The mechanical part (Arguments, tactics, ~2700 projection / frame lemmas) lives in Proofs/CliBaseProj.v,
   re-exported here. *)
From H2V Require Import Base.Bytes Base.MachineInt Base.Result Gen.GenConsts Impl.ServerConn Impl.ClientConn.
From H2V Require Export Proofs.CliBaseProj.
From Coq Require Import ZArith Lia ZifyN ZifyNat ZifyBool List.
Import ListNotations.
Local Open Scope N_scope.

Section Tables.

Lemma cl_ctxs_get_In l tag x : cl_ctxs_get l tag = Some x -> In x l /\ ct_tag x = tag.
Proof.
  induction l as [|y t IH]; cbn [cl_ctxs_get]; [discriminate|].
  destruct (ct_tag y =? tag) eqn:E; intro H.
  - inversion H; subst. split; [left; reflexivity | lia].
  - destruct (IH H); split; [right|]; assumption.
Qed.

Lemma cl_ctxs_get_None l tag : cl_ctxs_get l tag = None -> forall x, In x l -> ct_tag x <> tag.
Proof.
  induction l as [|y t IH]; cbn [cl_ctxs_get]; intros H x []; subst.
  - destruct (ct_tag x =? tag) eqn:E; [discriminate | lia].
  - destruct (ct_tag y =? tag); [discriminate | auto].
Qed.

Lemma cl_ctxs_get_None_tags l tag : cl_ctxs_get l tag = None <-> ~ In tag (map ct_tag l).
Proof.
  induction l as [|y t IH]; cbn [cl_ctxs_get map In]; [tauto|].
  destruct (ct_tag y =? tag) eqn:E.
  - split; [discriminate|]. intro H; exfalso; apply H; left; lia.
  - rewrite IH. split; [intros H [A|A]; [lia | auto] | tauto].
Qed.

Lemma cl_ctxs_get_Some_tags l tag : cl_ctxs_get l tag <> None <-> In tag (map ct_tag l).
Proof.
  destruct (in_dec N.eq_dec tag (map ct_tag l)) as [H|H].
  - split; [auto|]. intros _ E. apply cl_ctxs_get_None_tags in E. auto.
  - split; [|tauto]. intro E. exfalso. apply E, cl_ctxs_get_None_tags, H.
Qed.

Lemma cl_ctxs_get_app l l' tag :
  cl_ctxs_get (l ++ l') tag = match cl_ctxs_get l tag with Some x => Some x | None => cl_ctxs_get l' tag end.
Proof.
  induction l as [|y t IH]; cbn [cl_ctxs_get app]; [reflexivity|].
  destruct (ct_tag y =? tag); [reflexivity | assumption].
Qed.

(* same tags, same order: put only overwrites *)
Lemma cl_ctxs_put_tags l x : map ct_tag (cl_ctxs_put l x) = map ct_tag l.
Proof.
  induction l as [|y t IH]; cbn [cl_ctxs_put map]; [reflexivity|].
  destruct (ct_tag y =? ct_tag x) eqn:E; cbn [map]; [f_equal; lia | congruence].
Qed.

Lemma cl_ctxs_put_length l x : length (cl_ctxs_put l x) = length l.
Proof. rewrite <- (map_length ct_tag), cl_ctxs_put_tags, map_length. reflexivity. Qed.

Lemma cl_ctxs_get_put l x tag :
  cl_ctxs_get (cl_ctxs_put l x) tag =
  if tag =? ct_tag x then match cl_ctxs_get l tag with Some _ => Some x | None => None end else cl_ctxs_get l tag.
Proof.
  induction l as [|y t IH]; cbn [cl_ctxs_put cl_ctxs_get].
  - destruct (tag =? ct_tag x); reflexivity.
  - destruct (ct_tag y =? ct_tag x) eqn:E; cbn [cl_ctxs_get].
    + destruct (tag =? ct_tag x) eqn:F.
      * replace (ct_tag x =? tag) with true by lia. replace (ct_tag y =? tag) with true by lia. reflexivity.
      * replace (ct_tag x =? tag) with false by lia. replace (ct_tag y =? tag) with false by lia. reflexivity.
    + destruct (ct_tag y =? tag) eqn:G.
      * replace (tag =? ct_tag x) with false by lia. reflexivity.
      * apply IH.
Qed.

Lemma cl_ctxs_get_put_same l x : cl_ctxs_get l (ct_tag x) <> None -> cl_ctxs_get (cl_ctxs_put l x) (ct_tag x) = Some x.
Proof. intro H. rewrite cl_ctxs_get_put, N.eqb_refl. destruct (cl_ctxs_get l (ct_tag x)); [reflexivity | contradiction]. Qed.

Lemma cl_ctxs_get_put_other l x tag : tag <> ct_tag x -> cl_ctxs_get (cl_ctxs_put l x) tag = cl_ctxs_get l tag.
Proof. intro H. rewrite cl_ctxs_get_put. replace (tag =? ct_tag x) with false by lia. reflexivity. Qed.

Lemma cl_ctxs_put_In l x y : In y (cl_ctxs_put l x) -> y = x \/ In y l.
Proof.
  induction l as [|z t IH]; cbn [cl_ctxs_put]; [intros []|].
  destruct (ct_tag z =? ct_tag x); cbn [In]; intros [H|H]; auto.
  destruct (IH H); auto.
Qed.

Lemma cl_ctxs_put_Forall (P : cctx -> Prop) l x : Forall P l -> P x -> Forall P (cl_ctxs_put l x).
Proof.
  intros Hl Hx. apply Forall_forall. intros s Hs. destruct (cl_ctxs_put_In _ _ _ Hs); [subst; assumption|].
  rewrite Forall_forall in Hl. auto.
Qed.

Lemma cl_ctxs_put_absent l x : cl_ctxs_get l (ct_tag x) = None -> cl_ctxs_put l x = l.
Proof.
  induction l as [|y t IH]; cbn [cl_ctxs_put cl_ctxs_get]; [reflexivity|].
  destruct (ct_tag y =? ct_tag x); [discriminate|]. intro H. rewrite (IH H). reflexivity.
Qed.

(* with distinct tags, membership is lookup *)
Lemma cl_ctxs_get_NoDup l x : NoDup (map ct_tag l) -> In x l -> cl_ctxs_get l (ct_tag x) = Some x.
Proof.
  induction l as [|y t IH]; cbn [map cl_ctxs_get In]; [intros _ []|].
  intros ND [->|H]; [rewrite N.eqb_refl; reflexivity|].
  inversion ND as [|? ? NI ND']; subst.
  destruct (ct_tag y =? ct_tag x) eqn:E; [|auto].
  exfalso. apply NI. replace (ct_tag y) with (ct_tag x) by lia. apply in_map, H.
Qed.

(* pending bodies *)
Lemma cl_pend_get_In l id p : cl_pend_get l id = Some p -> In p l /\ pb_id p = id.
Proof.
  induction l as [|y t IH]; cbn [cl_pend_get]; [discriminate|].
  destruct (pb_id y =? id) eqn:E; intro H.
  - inversion H; subst. split; [left; reflexivity | lia].
  - destruct (IH H); split; [right|]; assumption.
Qed.

Lemma cl_pend_get_None l id : cl_pend_get l id = None -> forall p, In p l -> pb_id p <> id.
Proof.
  induction l as [|y t IH]; cbn [cl_pend_get]; intros H x []; subst.
  - destruct (pb_id x =? id) eqn:E; [discriminate | lia].
  - destruct (pb_id y =? id); [discriminate | auto].
Qed.

Lemma cl_pend_del_In l id p : In p (cl_pend_del l id) -> In p l.
Proof.
  induction l as [|y t IH]; cbn [cl_pend_del]; [intros []|].
  destruct (pb_id y =? id); cbn [In]; intros H; [right; assumption|]. destruct H; auto.
Qed.

Lemma cl_pend_put_In l x p : In p (cl_pend_put l x) -> p = x \/ In p l.
Proof.
  induction l as [|z t IH]; cbn [cl_pend_put]; [intros []|].
  destruct (pb_id z =? pb_id x); cbn [In]; intros [H|H]; auto.
  destruct (IH H); auto.
Qed.

Lemma cl_pend_put_ids l x : map pb_id (cl_pend_put l x) = map pb_id l.
Proof.
  induction l as [|y t IH]; cbn [cl_pend_put map]; [reflexivity|].
  destruct (pb_id y =? pb_id x) eqn:E; cbn [map]; [f_equal; lia | congruence].
Qed.

Lemma cl_pend_get_put l x id :
  cl_pend_get (cl_pend_put l x) id =
  if id =? pb_id x then match cl_pend_get l id with Some _ => Some x | None => None end else cl_pend_get l id.
Proof.
  induction l as [|y t IH]; cbn [cl_pend_put cl_pend_get].
  - destruct (id =? pb_id x); reflexivity.
  - destruct (pb_id y =? pb_id x) eqn:E; cbn [cl_pend_get].
    + destruct (id =? pb_id x) eqn:F.
      * replace (pb_id x =? id) with true by lia. replace (pb_id y =? id) with true by lia. reflexivity.
      * replace (pb_id x =? id) with false by lia. replace (pb_id y =? id) with false by lia. reflexivity.
    + destruct (pb_id y =? id) eqn:G.
      * replace (id =? pb_id x) with false by lia. reflexivity.
      * apply IH.
Qed.

(* reqQueued *)
Lemma cl_req_find_In l id t : cl_req_find l id = Some t -> In (id, t) l.
Proof.
  induction l as [|[i u] r IH]; cbn [cl_req_find]; [discriminate|].
  destruct (i =? id) eqn:E; intro H.
  - inversion H; subst. left. f_equal. lia.
  - right. auto.
Qed.

Lemma cl_req_find_None l id : cl_req_find l id = None <-> ~ In id (map fst l).
Proof.
  induction l as [|[i u] r IH]; cbn [cl_req_find map In fst]; [tauto|].
  destruct (i =? id) eqn:E.
  - split; [discriminate|]. intro H; exfalso; apply H; left; lia.
  - rewrite IH. split; [intros H [A|A]; [lia | auto] | tauto].
Qed.

Lemma cl_req_find_NoDup l id t : NoDup (map fst l) -> In (id, t) l -> cl_req_find l id = Some t.
Proof.
  induction l as [|[i u] r IH]; cbn [map cl_req_find In fst]; [intros _ []|].
  intros ND [H|H].
  - inversion H; subst. rewrite N.eqb_refl. reflexivity.
  - inversion ND as [|? ? NI ND']; subst. destruct (i =? id) eqn:E; [|auto].
    exfalso. apply NI. replace i with id by lia. change id with (fst (id, t)). apply in_map, H.
Qed.

Lemma cl_req_find_app l l' id :
  cl_req_find (l ++ l') id = match cl_req_find l id with Some t => Some t | None => cl_req_find l' id end.
Proof.
  induction l as [|[i u] r IH]; cbn [cl_req_find app]; [reflexivity|].
  destruct (i =? id); [reflexivity | assumption].
Qed.

End Tables.

(* what the small helpers do change (what they leave alone: the generated frame lemmas of CliBaseProj) *)
Section Helpers.
Variable hstate : Type.
Implicit Types c : cconn hstate.

Lemma cc_out_cl_note c o : cc_out (cl_note c o) = o :: cc_out c.
Proof. reflexivity. Qed.
Lemma cc_out_cl_notes c l : cc_out (cl_notes c l) = rev l ++ cc_out c.
Proof. rewrite cl_notes_eq. reflexivity. Qed.

(* Ctx lookups *)
Lemma cl_ctx_get_eq c tag : cl_ctx_get c tag = cl_ctxs_get (cc_ctxs c) tag.
Proof. reflexivity. Qed.
Lemma cc_ctxs_cl_ctx_put c x : cc_ctxs (cl_ctx_put c x) = cl_ctxs_put (cc_ctxs c) x.
Proof. reflexivity. Qed.

Lemma cl_ctx_get_put c x tag :
  cl_ctx_get (cl_ctx_put c x) tag =
  if tag =? ct_tag x then match cl_ctx_get c tag with Some _ => Some x | None => None end else cl_ctx_get c tag.
Proof. unfold cl_ctx_get. rewrite cc_ctxs_cl_ctx_put. apply cl_ctxs_get_put. Qed.

(* an update that keeps the tag *)
Lemma cc_ctxs_cl_ctx_upd c tag f :
  cc_ctxs (cl_ctx_upd c tag f) =
  match cl_ctx_get c tag with Some x => cl_ctxs_put (cc_ctxs c) (f x) | None => cc_ctxs c end.
Proof. unfold cl_ctx_upd. destruct (cl_ctx_get c tag); reflexivity. Qed.

Lemma cl_ctx_get_upd c tag f t : (forall x, ct_tag (f x) = ct_tag x) ->
  cl_ctx_get (cl_ctx_upd c tag f) t =
  if t =? tag then match cl_ctx_get c t with Some x => Some (f x) | None => None end else cl_ctx_get c t.
Proof.
  intro Hf. unfold cl_ctx_upd. destruct (cl_ctx_get c tag) as [x|] eqn:E.
  - rewrite cl_ctx_get_put, Hf. destruct (cl_ctxs_get_In _ _ _ E) as [_ Ht]. rewrite Ht.
    destruct (t =? tag) eqn:F; [|reflexivity]. replace t with tag by lia. rewrite E. reflexivity.
  - destruct (t =? tag) eqn:F; [|reflexivity]. replace t with tag by lia. rewrite E. reflexivity.
Qed.

Lemma tags_cl_ctx_put c x : map ct_tag (cc_ctxs (cl_ctx_put c x)) = map ct_tag (cc_ctxs c).
Proof. apply cl_ctxs_put_tags. Qed.
Lemma tags_cl_ctx_upd c tag f : map ct_tag (cc_ctxs (cl_ctx_upd c tag f)) = map ct_tag (cc_ctxs c).
Proof. rewrite cc_ctxs_cl_ctx_upd. destruct (cl_ctx_get c tag); [apply cl_ctxs_put_tags | reflexivity]. Qed.
Lemma tags_cl_resolve c tag e : map ct_tag (cc_ctxs (cl_resolve c tag e)) = map ct_tag (cc_ctxs c).
Proof. apply tags_cl_ctx_upd. Qed.
Lemma tags_cl_resolve_all c tags e : map ct_tag (cc_ctxs (cl_resolve_all c tags e)) = map ct_tag (cc_ctxs c).
Proof.
  revert c. induction tags as [|t r IH]; intro c; cbn [cl_resolve_all]; [reflexivity|]. rewrite IH. apply tags_cl_resolve.
Qed.

Lemma ct_tag_cl_ctx_resolve x e : ct_tag (cl_ctx_resolve x e) = ct_tag x.
Proof. unfold cl_ctx_resolve. destruct (ct_resolved x); [reflexivity|]. destruct (ct_err x); reflexivity. Qed.

(* ctx.resolve: the only thing it can change is an empty Err of a Ctx not yet taken back *)
Lemma cl_ctx_resolve_eq x e :
  cl_ctx_resolve x e = if negb (ct_resolved x) && match ct_err x with None => true | Some _ => false end then ctu_err x (Some e) else x.
Proof. unfold cl_ctx_resolve. destruct (ct_resolved x); [reflexivity|]. destruct (ct_err x); reflexivity. Qed.

Lemma cl_ctx_get_resolve c tag e t :
  cl_ctx_get (cl_resolve c tag e) t =
  if t =? tag then match cl_ctx_get c t with Some x => Some (cl_ctx_resolve x e) | None => None end else cl_ctx_get c t.
Proof. unfold cl_resolve. apply cl_ctx_get_upd. intro x. apply ct_tag_cl_ctx_resolve. Qed.

(* lastErr is set once *)
Lemma cc_lastErr_cl_set_last_err c e :
  cc_lastErr (cl_set_last_err c e) = match cc_lastErr c with None => Some e | Some e0 => Some e0 end.
Proof. unfold cl_set_last_err. destruct (cc_lastErr c) eqn:E; [exact E | reflexivity]. Qed.

Lemma cc_reqQueued_cl_req_del c id :
  cc_reqQueued (cl_req_del c id) = filter (fun e => negb (fst e =? id)) (cc_reqQueued c).
Proof. reflexivity. Qed.
Lemma cc_reqQueued_cl_take_req_count c id :
  cc_reqQueued (cl_take_req_count c id) = filter (fun e => negb (fst e =? id)) (cc_reqQueued c).
Proof.
  unfold cl_take_req_count. destruct (cl_req_find (cc_reqQueued c) id) eqn:E; [reflexivity|].
  symmetry. apply cl_req_find_None in E. induction (cc_reqQueued c) as [|[i u] r IH]; cbn [filter fst]; [reflexivity|].
  cbn [map In fst] in E. destruct (i =? id) eqn:F; [exfalso; apply E; left; lia|]. cbn [negb]. f_equal. apply IH. tauto.
Qed.
Lemma cc_open_cl_take_req_count c id :
  cc_open (cl_take_req_count c id) = match cl_req_find (cc_reqQueued c) id with Some _ => (cc_open c - 1)%Z | None => cc_open c end.
Proof. unfold cl_take_req_count. destruct (cl_req_find (cc_reqQueued c) id); reflexivity. Qed.

Lemma cc_outQ_cl_write_out c o : cc_outQ (cl_write_out c o) = if cc_closed c then cc_outQ c else cc_outQ c ++ [o].
Proof. unfold cl_write_out. destruct (cc_closed c); reflexivity. Qed.

(* Close *)
Lemma cc_closed_cl_conn_close c : cc_closed (cl_conn_close c) = true.
Proof. unfold cl_conn_close, cl_close_begin, cl_close_net. destruct (cc_closed c) eqn:E; [assumption|]. destruct (cl_can_write _); reflexivity. Qed.
Lemma cc_netClosed_cl_conn_close c : cc_netClosed (cl_conn_close c) = if cc_closed c then cc_netClosed c else true.
Proof. unfold cl_conn_close, cl_close_begin, cl_close_net. destruct (cc_closed c) eqn:E; [reflexivity|]. destruct (cl_can_write _); reflexivity. Qed.
Lemma cc_out_cl_close_net c :
  cc_out (cl_close_net c) = if cl_can_write c then COGoAway 0 c_NoError :: cc_out c else cc_out c.
Proof. unfold cl_close_net. destruct (cl_can_write c); reflexivity. Qed.
Lemma cc_out_cl_conn_close c :
  cc_out (cl_conn_close c) = if negb (cc_closed c) && cl_can_write c then COGoAway 0 c_NoError :: cc_out c else cc_out c.
Proof.
  unfold cl_conn_close, cl_close_begin. destruct (cc_closed c) eqn:E; [reflexivity|]. cbn [negb andb].
  rewrite cc_out_cl_close_net. reflexivity.
Qed.

End Helpers.

Section Run.
Variable hstate : Type.
Variable dec_field : hstate -> N -> bytes -> dec_res hstate.
Variable enc_field : hstate -> bytes -> bytes -> bool -> bytes * hstate.
Variable enc_set_max : hstate -> N -> hstate.
Variable cfg : cl_config.
Variable h0 : hstate.
Variable first : bytes.

Notation step := (cl_step dec_field enc_field enc_set_max cfg).
Notation run := (cl_run dec_field enc_field enc_set_max cfg h0 first).
Notation init := (cl_init enc_set_max h0 first).
Notation cconn := (cconn hstate).

(* the state reached from any state (cl_run = cl_run_from init) *)
Definition cl_run_from (c : cconn) (evs : list cevent) : cconn := fold_left step evs c.

Lemma cl_run_eq evs : run evs = cl_run_from init evs.
Proof. reflexivity. Qed.
Lemma cl_run_nil : run [] = init.
Proof. reflexivity. Qed.
Lemma cl_run_from_app c evs1 evs2 : cl_run_from c (evs1 ++ evs2) = cl_run_from (cl_run_from c evs1) evs2.
Proof. apply fold_left_app. Qed.
Lemma cl_run_app evs1 evs2 : run (evs1 ++ evs2) = cl_run_from (run evs1) evs2.
Proof. apply fold_left_app. Qed.
Lemma cl_run_snoc evs e : run (evs ++ [e]) = step (run evs) e.
Proof. rewrite cl_run_app. reflexivity. Qed.
Lemma cl_run_from_cons c e evs : cl_run_from c (e :: evs) = cl_run_from (step c e) evs.
Proof. reflexivity. Qed.
Lemma cl_run_from_nil c : cl_run_from c [] = c.
Proof. reflexivity. Qed.
Lemma cl_run_from_snoc c evs e : cl_run_from c (evs ++ [e]) = step (cl_run_from c evs) e.
Proof. rewrite cl_run_from_app. reflexivity. Qed.

(* reachable states *)
Inductive cl_reachable : cconn -> Prop :=
| cl_reach_init : cl_reachable init
| cl_reach_step c e : cl_reachable c -> cl_reachable (step c e).

Lemma cl_run_from_reachable c evs : cl_reachable c -> cl_reachable (cl_run_from c evs).
Proof. revert c. induction evs as [|e evs IH]; intros c H; [assumption|]. rewrite cl_run_from_cons. apply IH. constructor. assumption. Qed.
Lemma cl_run_reachable evs : cl_reachable (run evs).
Proof. rewrite cl_run_eq. apply cl_run_from_reachable. constructor. Qed.
Lemma cl_reachable_run c : cl_reachable c -> exists evs, c = run evs.
Proof.
  induction 1 as [|c e _ [evs ->]]; [exists []; reflexivity|]. exists (evs ++ [e]). symmetry. apply cl_run_snoc.
Qed.

(* invariants over all event lists *)
Lemma cl_run_from_ind (P : cconn -> Prop) :
  (forall c e, P c -> P (step c e)) -> forall evs c, P c -> P (cl_run_from c evs).
Proof. intros Hs evs. induction evs as [|e evs IH]; intros c H; [assumption|]. rewrite cl_run_from_cons. apply IH, Hs, H. Qed.

Lemma cl_run_ind (P : cconn -> Prop) :
  P init -> (forall c e, P c -> P (step c e)) -> forall evs, P (run evs).
Proof. intros Hi Hs evs. rewrite cl_run_eq. apply cl_run_from_ind; assumption. Qed.

(* the same with reachability of c available in the step case (so that earlier invariants can be used) *)
Lemma cl_run_ind_reach (P : cconn -> Prop) :
  P init -> (forall c e, cl_reachable c -> P c -> P (step c e)) -> forall evs, P (run evs).
Proof.
  intros Hi Hs evs.
  assert (H : cl_reachable (run evs) /\ P (run evs)); [|apply H].
  apply (cl_run_ind (fun c => cl_reachable c /\ P c)).
  - split; [constructor | assumption].
  - intros c e [R H]. split; [constructor; assumption | auto].
Qed.

Lemma cl_reachable_ind_inv (P : cconn -> Prop) :
  P init -> (forall c e, cl_reachable c -> P c -> P (step c e)) -> forall c, cl_reachable c -> P c.
Proof. intros Hi Hs c R. induction R; auto. Qed.

(* a property of pairs (state, later state): holds along every run *)
Lemma cl_run_from_rel (R : cconn -> cconn -> Prop) :
  (forall c, R c c) -> (forall a b c, R a b -> R b c -> R a c) -> (forall c e, R c (step c e)) ->
  forall evs c, R c (cl_run_from c evs).
Proof.
  intros Hr Ht Hs evs. induction evs as [|e evs IH]; intros c; [apply Hr|].
  rewrite cl_run_from_cons. eapply Ht; [apply Hs | apply IH].
Qed.

(* every prefix of a run is a run: a property of all (state, event, next state) triples of a run *)
Lemma cl_run_prefix_steps (P : cconn -> cevent -> cconn -> Prop) :
  (forall c e, cl_reachable c -> P c e (step c e)) ->
  forall evs pre e post, evs = pre ++ e :: post -> P (run pre) e (run (pre ++ [e])).
Proof. intros H evs pre e post _. rewrite cl_run_snoc. apply H, cl_run_reachable. Qed.

(* step, event by event (all by computation) *)
Lemma cl_step_CEvSubmit c tag rq q : step c (CEvSubmit tag rq q) = cl_submit cfg c tag rq q.
Proof. reflexivity. Qed.
Lemma cl_step_CEvSubmitCheck c tag : step c (CEvSubmitCheck tag) = cl_submit_check c tag.
Proof. reflexivity. Qed.
Lemma cl_step_CEvWLIn c : step c CEvWLIn = if cl_wl_live c then cl_wl_in enc_field enc_set_max cfg c else c.
Proof. reflexivity. Qed.
Lemma cl_step_CEvWLOut c : step c CEvWLOut = if cl_wl_live c then cl_wl_out cfg c else c.
Proof. reflexivity. Qed.
Lemma cl_step_CEvWLWin c order : step c (CEvWLWin order) = if cl_wl_live c then cl_wl_win cfg c order else c.
Proof. reflexivity. Qed.
Lemma cl_step_CEvWLPing c : step c CEvWLPing = if cl_wl_live c then cl_wl_ping cfg c else c.
Proof. reflexivity. Qed.
Lemma cl_step_CEvWLDone c : step c CEvWLDone = if cl_wl_live c then cl_wl_done c else c.
Proof. reflexivity. Qed.
Lemma cl_step_CEvRL c i : step c (CEvRL i) = if cl_rl_live c then cl_rl_step dec_field c i else c.
Proof. reflexivity. Qed.
Lemma cl_step_CEvTimeout c tag : step c (CEvTimeout tag) = cl_timeout_fire c tag.
Proof. reflexivity. Qed.
Lemma cl_step_CEvTimeoutCancel c tag : step c (CEvTimeoutCancel tag) = cl_timeout_cancel c tag.
Proof. reflexivity. Qed.
Lemma cl_step_CEvReceive c tag : step c (CEvReceive tag) = cl_receive c tag.
Proof. reflexivity. Qed.
Lemma cl_step_CEvClose c : step c CEvClose = cl_close_call c.
Proof. reflexivity. Qed.
Lemma cl_step_CEvCloseNet c : step c CEvCloseNet = cl_close_finish c.
Proof. reflexivity. Qed.
Lemma cl_step_CEvWriteFail c : step c CEvWriteFail = ccu_writeFail c true.
Proof. reflexivity. Qed.

Lemma cl_trace_In (c : cconn) o : In o (cl_trace c) <-> In o (cc_out c).
Proof. unfold cl_trace. symmetry. apply in_rev. Qed.

End Run.

Arguments cl_run_from {hstate}.
Arguments cl_reachable {hstate}.
