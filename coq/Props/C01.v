(* Property C01: end-to-end request / response integrity - on the server model (Impl/ServerConn.v), generic in the
   HPACK coder. Statements only; proofs in Proofs/SrvIso*.v. The property is assembled from:

   REQUEST
     - how a fragment is decoded, whatever the split: C09_hpack_fragment / C09_hpack_run (Props/C09.v): the decoder
       and the carry follow the reference ref_run over the fragments (for the real HPACK instance, decoding fragment
       by fragment with the carry = decoding the concatenation: C03_split_invariance, Props/C03.v);
     - what handle_frame makes of a HEADERS / CONTINUATION frame: C09_cat_header_frame_outcomes: the stream's header
       state becomes hfold (header_field folded) over the reference-decoded fields;
     - C01_request_of_fields, C01_trailers_appended: what hfold builds IS the field list read as a request;
     - C01_data_appended: DATA payloads (padding excluded) are appended to the body;
     - C01_dispatch_carries_request: the handler is started with exactly the request collected;
     - exactly once: C17_dispatch_once (Props/C17.v): one ODispatch per stream id, ever.
   RESPONSE
     - C01_response_buffered: HEADERS carrying response_block of status and fields (for the real instance it decodes
       back to them: C04, Props/C04.v), DATA frames whose payloads concatenate to the body, END_STREAM on the last
       frame only, then the release; nothing else on the stream. Framing in general (streamed bodies, windows that
       open later): at most one END_STREAM per stream and nothing after it is end_stream_once (Proofs/SrvFlowEs.v, C06).
   MULTIPLEXING
     - C01_other_streams_untouched: a step about one stream leaves the request state of every other stream alone;
       the decoder / encoder states thread through in frame order / completion order (C09_hpack_run; sc_enc is only
       written by finish_request: C01_response_buffered gives its new value).
     - C01_multiplexed_assembly: over whole clean runs, any interleaving: every stream in the table holds exactly what
       replaying its own frames gives (C01_assembled_body / C01_assembled_request read that as body and request).
   The trace-level statement for one request (C01_request_integrity_statement: "exactly one ODispatch sid rq appears")
   is proved for every coder whose decoder consumes input with every field it decodes (C01_request_integrity_progress)
   and, with no hypothesis left, for the real HPACK coder (C01_request_integrity_hpack): see below. *)
From H2V Require Import Base.Bytes Base.MachineInt Base.Result Gen.GenConsts Impl.Hpack Impl.ServerConn Impl.ServerInst
  Proofs.SrvBase Proofs.SrvIsoRef Proofs.SrvIsoMoves Proofs.SrvIsoSteps Proofs.SrvIsoHdr Proofs.SrvIsoHdrStep
  Proofs.SrvIsoRun Proofs.SrvIsoErr Proofs.SrvIsoReq Proofs.SrvFlowSend Proofs.SrvIsoResp Proofs.SrvIsoNI Proofs.SrvIsoOwn
  Proofs.SrvIsoLog Proofs.SrvIsoExamples Proofs.SrvIsoInst Proofs.SrvMsgDefs Proofs.SrvMsgExamples Proofs.SrvReqTrace Proofs.SrvReqTraceEx.
From Coq Require Import ZArith.
Local Open Scope N_scope.

(* ================= (a) the request ================= *)

(* request_of r0 fs: :method / :path / :scheme / :authority values of fs (r0's where absent), the regular fields of
   fs in order appended to r0's. A field list accepted field by field from a state where no pseudo-header has been
   seen (a new stream: hh1 of new_stream) yields exactly that; the flags record which pseudo-headers were present
   (validate_request_pseudo_headers then insists on :method, :scheme, :path and a non-empty path). *)
Theorem C01_request_of_fields : forall cfg h fs hF,
  hfold cfg h fs = Some hF ->
  hd_pMethod h = false -> hd_pPath h = false -> hd_pScheme h = false -> hd_pAuth h = false ->
  hd_req hF = request_of (hd_req h) fs /\
  hd_pMethod hF = is_some (field_val S_method fs) /\ hd_pPath hF = is_some (field_val S_path fs) /\
  hd_pScheme hF = is_some (field_val S_scheme fs) /\ hd_pAuth hF = is_some (field_val S_authority fs) /\
  hd_path hF = opt_or (field_val S_path fs) (hd_path h).
Proof. exact hfold_request. Qed.
Print Assumptions C01_request_of_fields.

(* trailers (handle_header_frame starts a second block with regularSeen set): every accepted field is a regular
   field and is appended, in order; nothing else of the request changes *)
Theorem C01_trailers_appended : forall cfg fs h hF,
  hfold cfg h fs = Some hF -> hd_regularSeen h = true ->
  regular_fields fs = fs /\
  hd_req hF = mkReq (rq_method (hd_req h)) (rq_uri (hd_req h)) (rq_scheme (hd_req h)) (rq_authority (hd_req h))
                    (rq_fields (hd_req h) ++ fs) (rq_body (hd_req h)) /\
  hd_pMethod hF = hd_pMethod h /\ hd_pPath hF = hd_pPath h /\ hd_pScheme hF = hd_pScheme h /\ hd_pAuth hF = hd_pAuth h /\
  hd_path hF = hd_path h.
Proof. exact hfold_regular. Qed.
Print Assumptions C01_trailers_appended.

(* DATA on an open stream whose headers are complete, within the body limit: the payload (padding excluded) is
   appended to the body; the windows are credited for the whole frame (sf_len: padding included); empty DATA
   frames append nothing *)
Theorem C01_data_appended :
  forall hstate (dec_field : hstate -> N -> bytes -> dec_res hstate) cfg (c : sconn hstate) s fr,
    sf_kind fr = KData -> st_headersFinished s = true -> st_state s = SOpen ->
    ((0 <? cf_maxBody cfg) && (cf_maxBody cfg <? st_recvBody s + Z.of_N (len (sf_payload fr))))%Z = false ->
    handle_frame dec_field cfg c s fr =
    (consume_recv_window cfg c (set_recv s (st_recvBody s + Z.of_N (len (sf_payload fr)))%Z (rq_append_body (st_req s) (sf_payload fr)))
                         fr (Z.of_N (sf_len fr)),
     set_recv s (st_recvBody s + Z.of_N (len (sf_payload fr)))%Z (rq_append_body (st_req s) (sf_payload fr)), None).
Proof. exact handle_frame_data_ok. Qed.
Print Assumptions C01_data_appended.

(* the frame that completes the request (END_STREAM seen, headers finished, content-length agrees): the handler is
   started with exactly the request collected so far, once (the stream is marked answered and running) *)
Theorem C01_dispatch_carries_request :
  forall hstate cfg (c : sconn hstate) s fr wc,
    st_state (handle_state fr s) = SHalfClosed -> st_headersFinished s = true -> st_responded s = false ->
    (st_hasCL s && negb (st_recvBody s =? st_contentLength s)%Z)%bool = false ->
    after_frame cfg c s fr wc =
    (let s2 := set_flags (set_flags (handle_state fr s) true (st_handlerRunning s) (st_abandoned s)) true true (st_abandoned s) in
     let c3 := put (note c (ODispatch (st_id s) (st_req s))) s2 in
     if wc && can_close_after_goaway c3 then brk c3 else cont c3).
Proof. exact after_frame_dispatch. Qed.
Print Assumptions C01_dispatch_carries_request.

(* ================= (b) the response ================= *)

(* data_outs sid chunks: DATA frames for the chunks, END_STREAM on the last only; chunk_ok: non-empty, at most
   16384 octets. A handler of an open stream returns a response with a buffered body that the stream and
   connection windows admit: the new outputs are exactly HEADERS (END_STREAM iff there is no body) with
   response_block of the response, the DATA frames, the release of the stream (and OExit if this completes a
   shutdown); the encoder state is response_block's; the stream leaves the table. *)
Theorem C01_response_buffered :
  forall hstate (enc_field : hstate -> bytes -> bytes -> bool -> bytes * hstate) cfg (c : sconn hstate) sid s r b,
    take_stream (sc_gone c) sid = None -> strms_search (sc_strms c) sid = Some s -> st_handlerRunning s = true ->
    rs_body r = BBuffered b -> st_bodyStream s = None ->
    sc_wl_dead c = false -> sc_sl_done c = false ->
    (Z.of_N (len b) <= st_window s)%Z -> (Z.of_N (len b) <= sc_clientWindow c)%Z ->
    exists chunks tail,
      concat chunks = b /\ Forall chunk_ok chunks /\ (tail = [] \/ tail = [OExit 1 0]) /\
      sc_out (fst (sl_done enc_field cfg c sid r)) =
        tail ++ ORelease sid true :: rev (data_outs sid chunks) ++
        OHeaders sid (no_body b) (fst (response_block enc_field (sc_enc c) r)) :: sc_out c /\
      sc_enc (fst (sl_done enc_field cfg c sid r)) = snd (response_block enc_field (sc_enc c) r) /\
      sc_strms (fst (sl_done enc_field cfg c sid r)) = strms_del (sc_strms c) sid.
Proof. exact sl_done_buffered. Qed.
Print Assumptions C01_response_buffered.

(* ================= (c) multiplexing ================= *)
Theorem C01_other_streams_untouched :
  forall hstate (dec_field : hstate -> N -> bytes -> dec_res hstate) enc_field enc_set_max cfg h0 evs e,
    clean dec_field enc_field enc_set_max cfg h0 evs ->
    let c := run dec_field enc_field enc_set_max cfg h0 evs in
    let c' := step dec_field enc_field enc_set_max cfg c e in
    clean_step dec_field enc_field enc_set_max cfg c e -> sc_sl_done c' = false ->
    forall x, In x (sc_strms c') -> st_id x <> step_own c e ->
    exists s, In s (sc_strms c) /\ st_id s = st_id x /\ rqv x = rqv s /\ hv x = hv s.
Proof. exact other_streams_untouched. Qed.
Print Assumptions C01_other_streams_untouched.

(* MULTIPLEXED REQUEST ASSEMBLY. The (ghost) log of a run - `logged .. evs L st`: one item per header-block fragment the
   stream loop handled, `LH fr fs carry` with the fields fs and the carry the reference decoder gives it from the
   decoder state at that moment (st threads that state), and one item `LD fr` per DATA frame taken. `asm cfg items`
   replays the items of ONE stream from a fresh stream: hfold (header_field folded) over the fields of each fragment,
   DATA payloads appended. In any clean run, whatever the interleaving of streams, handler completions, timers and
   the fates of other streams: every stream in the table holds exactly what replaying ITS OWN items gives. *)
Theorem C01_multiplexed_assembly :
  forall hstate (dec_field : hstate -> N -> bytes -> dec_res hstate) enc_field enc_set_max cfg h0 evs,
    clean dec_field enc_field enc_set_max cfg h0 evs ->
    exists L st,
      logged hstate dec_field enc_field enc_set_max cfg h0 evs L st /\
      fst (fst st) = sc_dec (run dec_field enc_field enc_set_max cfg h0 evs) /\
      (sc_sl_done (run dec_field enc_field enc_set_max cfg h0 evs) = false ->
       (forall x, In x (sc_strms (run dec_field enc_field enc_set_max cfg h0 evs)) ->
          (get_hdr x, st_recvBody x) = asm cfg (own_items (st_id x) L)) /\
       (forall i, In i L -> lsid i <= sc_highestID (run dec_field enc_field enc_set_max cfg h0 evs))).
Proof. exact log_inv. Qed.
Print Assumptions C01_multiplexed_assembly.

(* reading asm: the body is the concatenation of the stream's DATA payloads, whatever came in between ... *)
Theorem C01_assembled_body : forall cfg L,
  rq_body (hd_req (fst (asm cfg L))) = concat (data_payloads L) /\ snd (asm cfg L) = Z.of_N (len (concat (data_payloads L))).
Proof. exact asm_body. Qed.
Print Assumptions C01_assembled_body.

(* ... and a block HEADERS CONTINUATION* cut anywhere (block_items: END_HEADERS on the last fragment only) whose
   fields - all fragments together - the model accepts, followed by DATA frames, gives the request the fields spell
   (request_of), with the payloads as body; headers finished; the pseudo-header flags say which were present *)
Theorem C01_assembled_request : forall cfg frs ds hF,
  block_items true frs -> hfold cfg hdr0 (fields_of frs) = Some hF ->
  let a := asm cfg (items_of frs ++ map LD ds) in
  hd_req (fst a) = rq_append_body (request_of empty_req (fields_of frs)) (concat (map sf_payload ds)) /\
  hd_headersFinished (fst a) = true /\
  snd a = Z.of_N (len (concat (map sf_payload ds))) /\
  hd_pMethod (fst a) = is_some (field_val S_method (fields_of frs)) /\
  hd_pPath (fst a) = is_some (field_val S_path (fields_of frs)) /\
  hd_pScheme (fst a) = is_some (field_val S_scheme (fields_of frs)) /\
  hd_path (fst a) = opt_or (field_val S_path (fields_of frs)) [].
Proof. exact asm_request. Qed.
Print Assumptions C01_assembled_request.

(* The whole-run statement for one request. Proved below (Proofs/SrvReqTrace*.v) from the lock-step run of a request from any
   `ready` state (Props/C20.v, core `request_run` in Proofs/SrvMsgReq.v), the invariants of clean runs (Proofs/SrvIsoRun.v
   run_inv; Proofs/SrvReqTraceI.v: no idle stream in the table, the ring cursor below its capacity) and "exactly once"
   = the dispatch, preceded by window updates only.
   frames_of_request: HEADERS CONTINUATION* (any split hfrags of the block), DATA* (any chunking), END_STREAM on the
   last frame; the fragments decode (by the reference, from the decoder state at that moment) to fs; the model
   accepts fs (hfold, validate) and the body is within the limit and agrees with content-length. *)
Definition req_frames (sid : N) (hfrags : list bytes) (chunks : list bytes) : list sframe :=
  match hfrags with
  | [] => []
  | f0 :: rest =>
    mkSFrame KHeaders ((if match rest with [] => true | _ => false end then FL_EH else 0) +
                       (if match chunks with [] => true | _ => false end then FL_ES else 0)) sid (len f0) f0 0 0 0 false 0 false 0 ::
    (fix conts (l : list bytes) : list sframe :=
       match l with
       | [] => []
       | [f] => [mkSFrame KCont FL_EH sid (len f) f 0 0 0 false 0 false 0]
       | f :: t => mkSFrame KCont 0 sid (len f) f 0 0 0 false 0 false 0 :: conts t
       end) rest ++
    (fix datas (l : list bytes) : list sframe :=
       match l with
       | [] => []
       | [d] => [mkSFrame KData FL_ES sid (len d) d 0 0 0 false 0 false 0]
       | d :: t => mkSFrame KData 0 sid (len d) d 0 0 0 false 0 false 0 :: datas t
       end) chunks
  end.
Definition C01_request_integrity_statement : Prop :=
  forall hstate (dec_field : hstate -> N -> bytes -> dec_res hstate) enc_field enc_set_max cfg h0 evs0 sid hfrags chunks fs n1 hF,
    let c0 := run dec_field enc_field enc_set_max cfg h0 evs0 in
    let evs := flat_map (fun f => [EvRL (RFrame f); EvSL]) (req_frames sid hfrags chunks) in
    clean dec_field enc_field enc_set_max cfg h0 (evs0 ++ evs) ->
    (* the connection is ready for a new request on sid *)
    N.land sid 1 = 1 -> sc_highestID c0 < sid -> (sc_open c0 < cf_maxStreams cfg)%Z -> sc_closing c0 = false ->
    sc_sl_done c0 = false -> sc_rl_done c0 = false -> sc_wl_dead c0 = false -> sc_readerQ c0 = [] -> sc_expectCont c0 = 0 ->
    (* the block decodes to fs, which the model accepts *)
    ref_frames_fs dec_field (sc_dec c0, 0, []) (filter is_hdr_frame (req_frames sid hfrags chunks)) fs
                  (sc_dec (run dec_field enc_field enc_set_max cfg h0 (evs0 ++ evs)), n1, []) ->
    hfold cfg (hh1 (new_stream sid (sc_initWin c0)) (mkSFrame KHeaders 0 sid 0 [] 0 0 0 false 0 false 0)) fs = Some hF ->
    hd_pMethod hF = true -> hd_pScheme hF = true -> hd_pPath hF = true -> hd_path hF <> [] ->
    ((0 <? cf_maxBody cfg) && (cf_maxBody cfg <? Z.of_N (len (concat chunks))))%Z = false ->
    (hd_hasCL hF = true -> hd_contentLength hF = Z.of_N (len (concat chunks))) ->
    exists pre post,
      trace (run dec_field enc_field enc_set_max cfg h0 (evs0 ++ evs)) =
      trace c0 ++ pre ++ ODispatch sid (rq_append_body (request_of empty_req fs) (concat chunks)) :: post /\
      (forall rq, ~ In (ODispatch sid rq) (pre ++ post)).

(* The statement as written is generic in the HPACK coder with NO hypothesis on dec_field. The proof goes through the
   lock-step development (Proofs/SrvMsg*.v), whose decoding relation asks that every decoded field consumes input (this is
   what makes the fuel `length b + 1` of handleHeaderFrame's loop sufficient). For a decoder that returns a field without
   consuming anything the model may still accept the block within its fuel, so the statement above is believed true as
   written, but that case is not covered: C01_request_integrity_statement stays a Definition, and what is proved is
   (1) the same statement under the extra hypothesis `progress` on the abstract decoder (clearly an assumption on the
       coder, not on the run), and
   (2) the statement itself, word for word, at the real HPACK decoder srv_dec_field (progress: Proofs/SrvIsoInst.v
       srv_dec_shrinks, from C03's next_field_progress), for any encoder. *)
Definition C01_request_integrity_progress_statement : Prop :=
  forall hstate (dec_field : hstate -> N -> bytes -> dec_res hstate) enc_field enc_set_max cfg h0,
    (* EXTRA HYPOTHESIS: a decoded field consumes at least one octet of its input *)
    (forall d n b k v rest d1, dec_field d n b = DField hstate k v rest d1 -> (length rest < length b)%nat) ->
    forall evs0 sid hfrags chunks fs n1 hF,
    let c0 := run dec_field enc_field enc_set_max cfg h0 evs0 in
    let evs := flat_map (fun f => [EvRL (RFrame f); EvSL]) (req_frames sid hfrags chunks) in
    clean dec_field enc_field enc_set_max cfg h0 (evs0 ++ evs) ->
    N.land sid 1 = 1 -> sc_highestID c0 < sid -> (sc_open c0 < cf_maxStreams cfg)%Z -> sc_closing c0 = false ->
    sc_sl_done c0 = false -> sc_rl_done c0 = false -> sc_wl_dead c0 = false -> sc_readerQ c0 = [] -> sc_expectCont c0 = 0 ->
    ref_frames_fs dec_field (sc_dec c0, 0, []) (filter is_hdr_frame (req_frames sid hfrags chunks)) fs
                  (sc_dec (run dec_field enc_field enc_set_max cfg h0 (evs0 ++ evs)), n1, []) ->
    hfold cfg (hh1 (new_stream sid (sc_initWin c0)) (mkSFrame KHeaders 0 sid 0 [] 0 0 0 false 0 false 0)) fs = Some hF ->
    hd_pMethod hF = true -> hd_pScheme hF = true -> hd_pPath hF = true -> hd_path hF <> [] ->
    ((0 <? cf_maxBody cfg) && (cf_maxBody cfg <? Z.of_N (len (concat chunks))))%Z = false ->
    (hd_hasCL hF = true -> hd_contentLength hF = Z.of_N (len (concat chunks))) ->
    exists pre post,
      trace (run dec_field enc_field enc_set_max cfg h0 (evs0 ++ evs)) =
      trace c0 ++ pre ++ ODispatch sid (rq_append_body (request_of empty_req fs) (concat chunks)) :: post /\
      (forall rq, ~ In (ODispatch sid rq) (pre ++ post)).

Theorem C01_request_integrity_progress : C01_request_integrity_progress_statement.
Proof. exact request_integrity_core. Qed.
Print Assumptions C01_request_integrity_progress.

(* C01_request_integrity_statement at the real HPACK decoder (hstate := hpack_state, dec_field := srv_dec_field), any encoder *)
Theorem C01_request_integrity_hpack :
  forall enc_field enc_set_max cfg h0 evs0 sid hfrags chunks fs n1 hF,
    let c0 := run srv_dec_field enc_field enc_set_max cfg h0 evs0 in
    let evs := flat_map (fun f => [EvRL (RFrame f); EvSL]) (req_frames sid hfrags chunks) in
    clean srv_dec_field enc_field enc_set_max cfg h0 (evs0 ++ evs) ->
    N.land sid 1 = 1 -> sc_highestID c0 < sid -> (sc_open c0 < cf_maxStreams cfg)%Z -> sc_closing c0 = false ->
    sc_sl_done c0 = false -> sc_rl_done c0 = false -> sc_wl_dead c0 = false -> sc_readerQ c0 = [] -> sc_expectCont c0 = 0 ->
    ref_frames_fs srv_dec_field (sc_dec c0, 0, []) (filter is_hdr_frame (req_frames sid hfrags chunks)) fs
                  (sc_dec (run srv_dec_field enc_field enc_set_max cfg h0 (evs0 ++ evs)), n1, []) ->
    hfold cfg (hh1 (new_stream sid (sc_initWin c0)) (mkSFrame KHeaders 0 sid 0 [] 0 0 0 false 0 false 0)) fs = Some hF ->
    hd_pMethod hF = true -> hd_pScheme hF = true -> hd_pPath hF = true -> hd_path hF <> [] ->
    ((0 <? cf_maxBody cfg) && (cf_maxBody cfg <? Z.of_N (len (concat chunks))))%Z = false ->
    (hd_hasCL hF = true -> hd_contentLength hF = Z.of_N (len (concat chunks))) ->
    exists pre post,
      trace (run srv_dec_field enc_field enc_set_max cfg h0 (evs0 ++ evs)) =
      trace c0 ++ pre ++ ODispatch sid (rq_append_body (request_of empty_req fs) (concat chunks)) :: post /\
      (forall rq, ~ In (ODispatch sid rq) (pre ++ post)).
Proof. exact request_integrity_hpack. Qed.
Print Assumptions C01_request_integrity_hpack.

(* The hypotheses are satisfiable, on the real HPACK instance (Proofs/SrvReqTraceEx.v): stream 1 has been dispatched and its
   handler still runs (the stream is in the table); a POST arrives on stream 3, its block cut into three fragments inside
   fields, its body in two DATA frames. The run is clean, the state is ready, the block decodes to fs1 and is accepted; the
   trace gains the window update for the first DATA frame and THE dispatch, with the request the peer sent. *)
Example C01_example_request_integrity :
  clean srv_dec_field srv_enc_field set_max_table_size cfgE srv_init_hpack (x_evs0 ++ x_evs) /\
  (map (fun s => (st_id s, st_state s, st_handlerRunning s))
       (sc_strms (run srv_dec_field srv_enc_field set_max_table_size cfgE srv_init_hpack x_evs0)) = [(1, SHalfClosed, true)] /\
   N.land 3 1 = 1 /\ sc_highestID (run srv_dec_field srv_enc_field set_max_table_size cfgE srv_init_hpack x_evs0) < 3 /\
   (sc_open (run srv_dec_field srv_enc_field set_max_table_size cfgE srv_init_hpack x_evs0) < cf_maxStreams cfgE)%Z /\
   sc_closing (run srv_dec_field srv_enc_field set_max_table_size cfgE srv_init_hpack x_evs0) = false /\
   sc_sl_done (run srv_dec_field srv_enc_field set_max_table_size cfgE srv_init_hpack x_evs0) = false /\
   sc_rl_done (run srv_dec_field srv_enc_field set_max_table_size cfgE srv_init_hpack x_evs0) = false /\
   sc_wl_dead (run srv_dec_field srv_enc_field set_max_table_size cfgE srv_init_hpack x_evs0) = false /\
   sc_readerQ (run srv_dec_field srv_enc_field set_max_table_size cfgE srv_init_hpack x_evs0) = [] /\
   sc_expectCont (run srv_dec_field srv_enc_field set_max_table_size cfgE srv_init_hpack x_evs0) = 0) /\
  x_evs = flat_map (fun f => [EvRL (RFrame f); EvSL]) (req_frames 3 x_hfrags x_chunks) /\
  length x_hfrags = 3%nat /\ length x_chunks = 2%nat /\
  ref_frames_fs srv_dec_field (sc_dec (run srv_dec_field srv_enc_field set_max_table_size cfgE srv_init_hpack x_evs0), 0, [])
                (filter is_hdr_frame (req_frames 3 x_hfrags x_chunks)) fs1
                (sc_dec (run srv_dec_field srv_enc_field set_max_table_size cfgE srv_init_hpack (x_evs0 ++ x_evs)), 7, []) /\
  (exists hF,
     hfold cfgE (hh1 (new_stream 3 (sc_initWin (run srv_dec_field srv_enc_field set_max_table_size cfgE srv_init_hpack x_evs0)))
                     (mkSFrame KHeaders 0 3 0 [] 0 0 0 false 0 false 0)) fs1 = Some hF /\
     hd_pMethod hF = true /\ hd_pScheme hF = true /\ hd_pPath hF = true /\ hd_path hF <> [] /\
     (hd_hasCL hF = true -> hd_contentLength hF = Z.of_N (len (concat x_chunks)))) /\
  ((0 <? cf_maxBody cfgE) && (cf_maxBody cfgE <? Z.of_N (len (concat x_chunks))))%Z = false /\
  trace (run srv_dec_field srv_enc_field set_max_table_size cfgE srv_init_hpack (x_evs0 ++ x_evs)) =
  trace (run srv_dec_field srv_enc_field set_max_table_size cfgE srv_init_hpack x_evs0) ++
  [OWinUpd 3 2] ++ ODispatch 3 (rq_append_body (request_of empty_req fs1) (concat x_chunks)) :: [].
Proof.
  exact (conj x_clean (conj x_ready (conj eq_refl (conj eq_refl (conj eq_refl (conj x_decodes (conj x_accepted (conj x_body x_trace)))))))).
Qed.

(* ================= examples (real HPACK instance; by computation) ================= *)
(* Three requests multiplexed on one connection: stream 1 - POST, its block cut in three (inside a literal), HEADERS
   padded, body as DATA "he" (padded), "" (empty), "llo"; stream 3 - GET with :authority, a priority field,
   END_STREAM on HEADERS; stream 5 - POST with a body and a trailer block cut in two. The handlers finish in the
   order 3, 5, 1. Each handler sees exactly its request, each response goes out on its stream as HEADERS then DATA
   with END_STREAM once. *)
Example C01_example_multiplexed :
  clean srv_dec_field srv_enc_field set_max_table_size m_cfg srv_init_hpack m_evs /\
  srv_trace (srv_run m_cfg m_evs) =
  [ODispatch 3 m_rq3; OWinUpd 1 7; OWinUpd 5 2;
   OHeaders 3 false [136;0;129;243;129;15]; OData 3 true [111;107]; ORelease 3 true;
   ODispatch 5 m_rq5; OHeaders 5 false [72;130;16;3]; OData 5 true [33]; ORelease 5 true;
   ODispatch 1 m_rq1; OHeaders 1 true [137]; ORelease 1 true] /\
  fst (response_block srv_enc_field srv_init_hpack (mkResp 200 [([88],[49])] (BBuffered [111;107]))) = [136;0;129;243;129;15].
Proof. split; [apply cleanb_sound; exact m_cleanb|]. split; [exact m_trace | exact m_resp_block3]. Qed.
Print Assumptions C01_example_multiplexed.

Example C01_example_request_of :
  request_of empty_req [([58;109;101;116;104;111;100],[80;79;83;84]); ([58;112;97;116;104],[47]);
                        ([58;115;99;104;101;109;101],[104;116;116;112;115]);
                        ([99;111;110;116;101;110;116;45;108;101;110;103;116;104],[53]); ([120],[121])] =
  mkReq [80;79;83;84] [47] [104;116;116;112;115] None
        [([99;111;110;116;101;110;116;45;108;101;110;103;116;104], [53]); ([120],[121])] [].
Proof. exact m_request_of. Qed.

(* C01_assembled_request on stream 1 of the example above: the three fragments of its block with the fields the
   reference decodes from each (and the carries [92], [64], []), then its three DATA frames: the request is m_rq1,
   the one its handler was started with *)
Example C01_example_assembled :
  block_items true a_frs /\ (exists hF, hfold m_cfg hdr0 (fields_of a_frs) = Some hF) /\
  hd_req (fst (asm m_cfg (items_of a_frs ++ map LD a_ds))) = m_rq1.
Proof. split; [exact a_block|]. split; [exact a_accepted | exact a_request]. Qed.
