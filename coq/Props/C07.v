(* C07 - the client never sends DATA beyond the server's windows, and finishes.
   Only statements here; every proof is one lemma of Proofs/CliFlow*.v. All theorems are about the model of
   Impl/ClientConn.v (tied to conn.go by the lockstep suite "client"), for ALL event lists, generic in the HPACK coder.

   How a run is read as a history of the server's ledger (Spec/FlowLedger.v): `g_ledger` (Proofs/CliFlowSafe.v;
   `cli_ledger` is its instance with the real HPACK coder) lists the SETTINGS_INITIAL_WINDOW_SIZE values of the
   handshake SETTINGS, then, step by step, the grants of the frame the READ LOOP takes in in that step (WINDOW_UPDATE,
   SETTINGS_INITIAL_WINDOW_SIZE) followed by the streams the step opens (HEADERS) and the DATA payload bytes it writes.
   The read loop applies a grant itself, under sendLck (addWindow / applyInitialWindow), and queues the SETTINGS ACK only
   AFTER that (handleSettings; C18_client_settings_ack_step): the ACK is written by the write loop, the only writer of
   DATA, in a later select case, so every DATA frame behind the ACK on the wire was decided with the new value, and a
   frame decided with the old, higher value is on the wire before the ACK (RFC 7540 6.9.2 allows exactly that). For an
   increase the client may use the new value before the ACK is out; the server announced it, so it holds from the
   moment the server sent the frame.

   Atomicity. One select case of the write loop is one step: a sendLck critical section of sendPending subtracts
   n = min(len body, stream window, connection window) under the lock and the DATA run of exactly those n bytes is
   written right after it by the same goroutine (flushData), before the write loop can write anything else. In Go the
   read loop can run between the two: a SETTINGS frame that lowers INITIAL_WINDOW_SIZE then applies its delta to the
   window that has already been debited (the ledger's LData stands for the critical section), and one that changes
   MAX_FRAME_SIZE is read by writeData when it cuts the frames: the value in force when a frame is written binds, which
   is at most as old as the one the model uses (the step's start).

   Hypothesis of the safety theorems, `GOK ledger0 h`: after every prefix of the history no window of the ledger is
   above 2^31-1, i.e. the server keeps its own side of 6.9.1. Without it the int32 sums of addWindow wrap
   (C07_int32_wrap_observation): the client then sends LESS than it may, never more, but the ledger form as stated
   needs the hypothesis. *)
From Coq Require Import List NArith ZArith Bool.
From H2V Require Import Base.Bytes Base.MachineInt Base.Result Gen.GenConsts Impl.Hpack Impl.ServerConn Impl.ServerInst
  Impl.ClientConn Impl.ClientInst Proofs.CliDefs Spec.FlowLedger Proofs.SrvFlowLedger
  Proofs.CliFlowMoves Proofs.CliFlowOut Proofs.CliFlowSettings Proofs.CliFlowSafe Proofs.CliFlowEs Proofs.CliFlowStall Proofs.CliFlowExamples.
Import ListNotations.
Local Open Scope N_scope.

(* (a) safety, window form: every DATA frame fits the connection window and its stream's window of the server's
   ledger at the moment it is written (an empty DATA frame is always allowed), on a stream the client has opened *)
Theorem C07_ledger_valid : forall (hstate : Type) (dec_field : hstate -> N -> bytes -> dec_res hstate)
    (enc_field : hstate -> bytes -> bytes -> bool -> bytes * hstate) (enc_set_max : hstate -> N -> hstate)
    (cfg : cl_config) (h0 : hstate) (first : bytes) (evs : list cevent),
  cl_settings_deserialize false first <> None ->
  GOK ledger0 (g_ledger hstate dec_field enc_field enc_set_max cfg h0 first evs) ->
  lvalid ledger0 (g_ledger hstate dec_field enc_field enc_set_max cfg h0 first evs).
Proof. exact ledger_safe. Qed.
Print Assumptions C07_ledger_valid.

(* (a) safety, totals form (the property's text): whenever DATA is written, the payload bytes sent so far on the
   connection and on that stream, this frame included, are within what has been granted *)
Theorem C07_within_grants : forall (hstate : Type) (dec_field : hstate -> N -> bytes -> dec_res hstate)
    (enc_field : hstate -> bytes -> bytes -> bool -> bytes * hstate) (enc_set_max : hstate -> N -> hstate)
    (cfg : cl_config) (h0 : hstate) (first : bytes) (evs : list cevent),
  cl_settings_deserialize false first <> None ->
  GOK ledger0 (g_ledger hstate dec_field enc_field enc_set_max cfg h0 first evs) ->
  within_grants (g_ledger hstate dec_field enc_field enc_set_max cfg h0 first evs).
Proof. exact ledger_within_grants. Qed.
Print Assumptions C07_within_grants.

(* (a) no DATA frame is larger than the SETTINGS_MAX_FRAME_SIZE in force when the step that writes it starts
   (cc_maxFrame: 16384 until the server says otherwise, then the last value merged, always within 2^14 .. 2^24-1 so
   that writeData's fallback to the default never applies), and DATA is written only on a stream whose body is pending
   when the step starts or that the step itself opens: nothing after finish / cancel / reset has dropped the body *)
Theorem C07_frame_size : forall (hstate : Type) (dec_field : hstate -> N -> bytes -> dec_res hstate)
    (enc_field : hstate -> bytes -> bytes -> bool -> bytes * hstate) (enc_set_max : hstate -> N -> hstate)
    (cfg : cl_config) (h0 : hstate) (first : bytes) (evs : list cevent) (e : cevent) (sid : N) (es : bool) (p : bytes),
  cl_settings_deserialize false first <> None ->
  In (COData sid es p) (g_new hstate (cl_run dec_field enc_field enc_set_max cfg h0 first evs)
                              (cl_step dec_field enc_field enc_set_max cfg (cl_run dec_field enc_field enc_set_max cfg h0 first evs) e)) ->
  len p <= cc_maxFrame (cl_run dec_field enc_field enc_set_max cfg h0 first evs) /\
  16384 <= cc_maxFrame (cl_run dec_field enc_field enc_set_max cfg h0 first evs) <= 16777215 /\
  (In sid (map pb_id (cc_pending (cl_run dec_field enc_field enc_set_max cfg h0 first evs))) \/
   cc_nextID (cl_run dec_field enc_field enc_set_max cfg h0 first evs) <= sid).
Proof. exact data_frames_small. Qed.
Print Assumptions C07_frame_size.

(* (a) one call of writeData: the frames carry exactly the bytes it was given, in order, each at most the step
   (maxFrameSize, or 16384 if that is 0 or above 2^24-1), END_STREAM on the last frame and only there; an empty body
   gives one empty frame when it ends the stream and nothing otherwise *)
Theorem C07_data_run : forall (mf sid : N) (body : bytes) (endb : bool),
  exists l : list (bool * bytes),
    cl_write_data mf sid body endb = frames_of sid l /\ concat (map snd l) = body /\
    Forall (fun x => len (snd x) <= wd_step mf) l /\ es_shape l endb /\ (l = [] <-> body = [] /\ endb = false).
Proof. exact write_data_shape. Qed.
Print Assumptions C07_data_run.

(* (b) END_STREAM exactly once: of two frames (HEADERS or DATA) the client writes on one stream, the earlier one has no
   END_STREAM; so a stream gets at most one END_STREAM and no HEADERS or DATA after it (RST_STREAM from a cancel is
   not such a frame) *)
Theorem C07_end_stream_once : forall (hstate : Type) (dec_field : hstate -> N -> bytes -> dec_res hstate)
    (enc_field : hstate -> bytes -> bytes -> bool -> bytes * hstate) (enc_set_max : hstate -> N -> hstate)
    (cfg : cl_config) (h0 : hstate) (first : bytes) (evs : list cevent) pre o1 mid o2 post sid,
  cl_trace (cl_run dec_field enc_field enc_set_max cfg h0 first evs) = pre ++ o1 :: mid ++ o2 :: post ->
  frame_sid o1 = Some sid -> frame_sid o2 = Some sid -> is_es o1 = false.
Proof. exact end_stream_once. Qed.
Print Assumptions C07_end_stream_once.

(* (b) every DATA frame comes after a HEADERS frame without END_STREAM on its stream *)
Theorem C07_data_after_headers : forall (hstate : Type) (dec_field : hstate -> N -> bytes -> dec_res hstate)
    (enc_field : hstate -> bytes -> bytes -> bool -> bytes * hstate) (enc_set_max : hstate -> N -> hstate)
    (cfg : cl_config) (h0 : hstate) (first : bytes) (evs : list cevent) pre sid es p post,
  cl_trace (cl_run dec_field enc_field enc_set_max cfg h0 first evs) = pre ++ COData sid es p :: post ->
  exists blk, In (COHeaders sid false blk) pre.
Proof. exact data_after_headers. Qed.
Print Assumptions C07_data_after_headers.

(* (c) no stall: after any events, while the write loop runs and no winCh token is waiting for it, every body still
   pending has bytes buffered and is blocked by a window that is not positive. So whenever a pending body could go
   on, the token is set and the write loop will run flushPending (or the write loop has ended, with the connection) *)
Theorem C07_no_stall : forall (hstate : Type) (dec_field : hstate -> N -> bytes -> dec_res hstate)
    (enc_field : hstate -> bytes -> bytes -> bool -> bytes * hstate) (enc_set_max : hstate -> N -> hstate)
    (cfg : cl_config) (h0 : hstate) (first : bytes) (evs : list cevent) (pb : cpending),
  let c := cl_run dec_field enc_field enc_set_max cfg h0 first evs in
  cl_wl_live c = true -> cc_winCh c = false -> In pb (cc_pending c) ->
  pb_body pb <> [] /\ (cl_zmin (pb_window pb) (cc_connWindow c) <= 0)%Z.
Proof. exact no_stall. Qed.
Print Assumptions C07_no_stall.

(* (c) every step in which the read loop applies a grant (WINDOW_UPDATE, SETTINGS with INITIAL_WINDOW_SIZE) ends with
   the winCh token set (signalWindow) *)
Theorem C07_window_opening_signals : forall (hstate : Type) (dec_field : hstate -> N -> bytes -> dec_res hstate)
    (enc_field : hstate -> bytes -> bytes -> bool -> bytes * hstate) (enc_set_max : hstate -> N -> hstate)
    (cfg : cl_config) (c : cconn hstate) (e : cevent),
  g_ledger_in hstate c e <> [] -> cc_winCh (cl_step dec_field enc_field enc_set_max cfg c e) = true.
Proof. exact window_opening_signals. Qed.
Print Assumptions C07_window_opening_signals.

(* (c) sendPending, run to its end by the write loop (the fuel the model gives it is enough), leaves the body it was
   called for gone or blocked, touches no other body, never raises the connection window, never takes the winCh token
   away. (Until /repo 35b3178 it left winCh alone; it now sets the token when it hands the chunk of a request that was
   taken back to the connection window again, addWindow(0, n): the last clause was an equation before) *)
Theorem C07_send_pending_runs_dry : forall (hstate : Type) (dec_field : hstate -> N -> bytes -> dec_res hstate)
    (enc_field : hstate -> bytes -> bytes -> bool -> bytes * hstate) (enc_set_max : hstate -> N -> hstate)
    (cfg : cl_config) (h0 : hstate) (first : bytes) (evs : list cevent) (id : N),
  let c := cl_run dec_field enc_field enc_set_max cfg h0 first evs in
  let res := cl_send_pending (cl_send_fuel c id) c id in
  snd res = CSPOk ->
  (cl_pend_get (cc_pending (fst res)) id = None \/
   exists pb', cl_pend_get (cc_pending (fst res)) id = Some pb' /\ pb_body pb' <> [] /\
               (cl_zmin (pb_window pb') (cc_connWindow (fst res)) <= 0)%Z) /\
  (forall x, x <> id -> cl_pend_get (cc_pending (fst res)) x = cl_pend_get (cc_pending c) x) /\
  (cc_connWindow (fst res) <= cc_connWindow c)%Z /\ (cc_winCh c = true -> cc_winCh (fst res) = true).
Proof. exact send_pending_runs_dry. Qed.
Print Assumptions C07_send_pending_runs_dry.

(* (a), (d) one call of sendPending for a buffered body whose request is still the caller's to send: the critical
   section subtracts exactly q = min(bytes left, stream window, connection window) (0 if that is not positive) from
   both windows and the DATA run written right after it carries exactly the next q bytes of the body; if that was all
   of it END_STREAM is on the last frame and the body leaves c.pending, otherwise the rest stays, blocked *)
Theorem C07_send_pending_buffered : forall (hstate : Type) (c : cconn hstate) (id : N) (pb : cpending) (fuel : nat),
  RNG hstate c -> cl_pend_get (cc_pending c) id = Some pb -> pb_stream pb = None -> pb_body pb <> [] ->
  cl_acquire_for [] (cs_conn c pb id) (pb_tag pb) id = CLOk -> cl_can_write c = true ->
  let q := cs_n c pb in
  let done := (q =? Z.of_N (len (pb_body pb)))%Z in
  let res := cl_send_pending (S (S fuel)) c id in
  snd res = CSPOk /\
  cc_out (fst res) = rev (cl_write_data (cc_maxFrame c) id (takeN (Z.to_N q) (pb_body pb)) done) ++ cc_out c /\
  cc_connWindow (fst res) = (cc_connWindow c - q)%Z /\
  (if done then cl_pend_get (cc_pending (fst res)) id = None
   else exists pb', cl_pend_get (cc_pending (fst res)) id = Some pb' /\ pb_body pb' = dropN (Z.to_N q) (pb_body pb) /\
                    pb_window pb' = (pb_window pb - q)%Z /\ pb_stream pb' = None /\ blocked hstate (fst res) pb').
Proof. exact send_pending_buffered. Qed.
Print Assumptions C07_send_pending_buffered.

(* (d) completion, one grant at a time: WINDOW_UPDATE for a stream whose buffered body is waiting raises its window
   and sets the winCh token; the sendPending the write loop then runs sends the next
   q = min(bytes left, window + increment, connection window) bytes. By induction on the server's grants one buffered
   body is sent completely, with one END_STREAM, as soon as the grants cover it. (Several bodies sharing the connection
   window, and streamed bodies, follow from C07_no_stall and C07_send_pending_runs_dry; not spelled out as one theorem.) *)
Theorem C07_stream_grant_resumes : forall (hstate : Type) (c : cconn hstate) (id : N) (pb : cpending) (inc : Z) (fuel : nat),
  RNG hstate c -> cl_pend_get (cc_pending c) id = Some pb -> pb_stream pb = None -> pb_body pb <> [] -> id <> 0 ->
  (0 <= inc)%Z -> (pb_window pb + inc <= 2147483647)%Z ->
  let c1 := cl_add_window c id inc in
  let pb1 := pbu_window pb (pb_window pb + inc)%Z in
  cl_acquire_for [] (cs_conn c1 pb1 id) (pb_tag pb) id = CLOk -> cl_can_write c = true ->
  cc_winCh c1 = true /\ cl_pend_get (cc_pending c1) id = Some pb1 /\
  let q := cs_n c1 pb1 in
  let done := (q =? Z.of_N (len (pb_body pb)))%Z in
  let res := cl_send_pending (S (S fuel)) c1 id in
  snd res = CSPOk /\
  cc_out (fst res) = rev (cl_write_data (cc_maxFrame c) id (takeN (Z.to_N q) (pb_body pb)) done) ++ cc_out c /\
  cc_connWindow (fst res) = (cc_connWindow c - q)%Z /\
  (if done then cl_pend_get (cc_pending (fst res)) id = None
   else exists pb', cl_pend_get (cc_pending (fst res)) id = Some pb' /\ pb_body pb' = dropN (Z.to_N q) (pb_body pb) /\
                    pb_window pb' = (pb_window pb + inc - q)%Z /\ pb_stream pb' = None /\ blocked hstate (fst res) pb').
Proof. exact stream_grant_resumes. Qed.
Print Assumptions C07_stream_grant_resumes.

(* ---------- examples (the instance with the real HPACK model) ---------- *)

(* initial window 10, a 25-byte body: 10 + 7 + 8 bytes as the grants come in; the history satisfies the hypothesis *)
Example C07_ledger_valid_example :
  cl_settings_deserialize false ex_first_w10 <> None /\
  cli_ledger ex_cfg ex_first_w10 ex_upload =
    [LInit 10; LOpen 1; LData 1 10; LGrant 0 1000; LGrant 1 7; LData 1 7; LGrant 1 100; LData 1 8] /\
  GOK ledger0 (cli_ledger ex_cfg ex_first_w10 ex_upload).
Proof.
  split; [vm_compute; discriminate|]. split; [vm_compute; reflexivity|]. apply gokb_sound. vm_compute. reflexivity.
Qed.

Example C07_within_grants_example :
  (* just before the last DATA frame: 17 bytes sent on the stream; granted 10 + 7 + 100 *)
  sent_strm 1 [LInit 10; LOpen 1; LData 1 10; LGrant 0 1000; LGrant 1 7; LData 1 7; LGrant 1 100] = 17%Z /\
  granted_strm 1 [LInit 10; LOpen 1; LData 1 10; LGrant 0 1000; LGrant 1 7; LData 1 7; LGrant 1 100] = 117%Z /\
  granted_conn [LInit 10; LOpen 1; LData 1 10; LGrant 0 1000; LGrant 1 7; LData 1 7; LGrant 1 100] = 66535%Z.
Proof. vm_compute. repeat split. Qed.

(* a 40000-byte body under the default MAX_FRAME_SIZE, and after the server has raised it to 32768 *)
Example C07_frame_size_example :
  map brief (cli_step_items ex_cfg [] [CEvSubmit 0 (ex_post (CBuf (repeat 7 (N.to_nat 40000)))) true] CEvWLIn)
    = [COHeaders 1 false []; COData 1 false [16384]; COData 1 false [16384]; COData 1 true [7232]] /\
  map brief (cli_step_items ex_cfg [] [CEvRL (RFrame ex_settings_frame); CEvSubmit 0 (ex_post (CBuf (repeat 7 (N.to_nat 40000)))) true] CEvWLIn)
    = [COHeaders 1 false []; COData 1 false [32768]; COData 1 true [7232]] /\
  cc_maxFrame (cli_run ex_cfg [] [CEvRL (RFrame ex_settings_frame)]) = 32768.
Proof. vm_compute. repeat split. Qed.

Example C07_data_run_example :
  map brief (cl_write_data 16384 1 (repeat 7 (N.to_nat 40000)) true) = [COData 1 false [16384]; COData 1 false [16384]; COData 1 true [7232]] /\
  cl_write_data 0 1 [] true = [COData 1 true []] /\ cl_write_data 16384 1 [] false = [].
Proof. vm_compute. repeat split. Qed.

Example C07_end_stream_once_example :
  map brief (cli_tr ex_cfg ex_first_w10 ex_upload) = [COHeaders 1 false []; COData 1 false [10]; COData 1 false [7]; COData 1 true [8]] /\
  exists pre o1 mid o2 post,
    cli_tr ex_cfg ex_first_w10 ex_upload = pre ++ o1 :: mid ++ o2 :: post /\
    frame_sid o1 = Some 1 /\ frame_sid o2 = Some 1 /\ is_es o1 = false /\ is_es o2 = true.
Proof.
  split; [vm_compute; reflexivity|].
  exists (firstn 1 (cli_tr ex_cfg ex_first_w10 ex_upload)), (nth 1 (cli_tr ex_cfg ex_first_w10 ex_upload) COPing),
         (firstn 1 (skipn 2 (cli_tr ex_cfg ex_first_w10 ex_upload))), (nth 3 (cli_tr ex_cfg ex_first_w10 ex_upload) COPing),
         (skipn 4 (cli_tr ex_cfg ex_first_w10 ex_upload)).
  vm_compute. repeat split.
Qed.

Example C07_data_after_headers_example :
  exists pre es p post blk, cli_tr ex_cfg ex_first_w10 ex_upload = pre ++ COData 1 es p :: post /\ In (COHeaders 1 false blk) pre.
Proof.
  exists (firstn 1 (cli_tr ex_cfg ex_first_w10 ex_upload)), false, (firstn 10 ex_body25), (skipn 2 (cli_tr ex_cfg ex_first_w10 ex_upload)).
  eexists. split; [vm_compute; reflexivity|]. vm_compute. left. reflexivity.
Qed.

(* observation (recorded, not a theorem of conformance): WINDOW_UPDATE increments whose sum with the window is above
   2^31-1 wrap the int32 negative: the client sends nothing more although the server has granted everything. The
   server has broken 6.9.1 first (the hypothesis GOK fails), and the client should answer with FLOW_CONTROL_ERROR
   rather than stall. SETTINGS lowered in the middle of an upload drive the window negative the intended way: the
   same amount granted back does not yet let anything out *)
Example C07_int32_wrap_observation :
  map brief (cli_tr ex_cfg ex_first_w10 ex_wrap) = [COHeaders 1 false []; COData 1 false [10]] /\
  map pb_window (cc_pending (cli_run ex_cfg ex_first_w10 ex_wrap)) = [(-2147483549)%Z] /\
  gokb (cli_ledger ex_cfg ex_first_w10 ex_wrap) = false.
Proof. vm_compute. repeat split. Qed.

Example C07_negative_window_example :
  let evs := [CEvSubmit 0 (ex_post (CBuf ex_body25)) true; CEvWLIn;
              CEvRL (ex_settings 4 3); CEvWLWin []; CEvWLOut;
              CEvRL (ex_winupd 1 7); CEvWLWin []] in
  map pb_window (cc_pending (cli_run ex_cfg ex_first_w10 evs)) = [0%Z] /\
  map brief (cli_tr ex_cfg ex_first_w10 evs) = [COHeaders 1 false []; COData 1 false [10]; COSettingsAck] /\
  GOK ledger0 (cli_ledger ex_cfg ex_first_w10 evs).
Proof. cbv zeta. split; [vm_compute; reflexivity|]. split; [vm_compute; reflexivity|]. apply gokb_sound. vm_compute. reflexivity. Qed.

(* the upload after its first 10 bytes: the write loop runs, no token, the body is blocked by its stream window *)
Example C07_no_stall_example :
  let c := cli_run ex_cfg ex_first_w10 (firstn 2 ex_upload) in
  cl_wl_live c = true /\ cc_winCh c = false /\
  map (fun pb => (len (pb_body pb), pb_window pb)) (cc_pending c) = [(15, 0%Z)] /\ cc_connWindow c = 65525%Z.
Proof. vm_compute. repeat split. Qed.

Example C07_window_opening_signals_example :
  let c := cli_run ex_cfg ex_first_w10 (firstn 4 ex_upload) in
  g_ledger_in hpack_state c (CEvRL (ex_winupd 1 7)) = [LGrant 1 7] /\
  cc_winCh c = false /\ cc_winCh (cli_step ex_cfg c (CEvRL (ex_winupd 1 7))) = true.
Proof. vm_compute. repeat split. Qed.

Example C07_send_pending_runs_dry_example :
  let c := cli_run ex_cfg ex_first_w10 (firstn 5 ex_upload) in
  let res := cl_send_pending (cl_send_fuel c 1) c 1 in
  snd res = CSPOk /\ map (fun pb => (len (pb_body pb), pb_window pb)) (cc_pending (fst res)) = [(8, 0%Z)].
Proof. vm_compute. repeat split. Qed.

(* 15 bytes left, stream window 0 + 7 granted: 7 bytes go out, 8 stay *)
Example C07_send_pending_buffered_example :
  let c := cli_run ex_cfg ex_first_w10 (firstn 5 ex_upload) in
  exists pb, cl_pend_get (cc_pending c) 1 = Some pb /\ pb_stream pb = None /\ len (pb_body pb) = 15 /\ pb_window pb = 7%Z /\
             cl_acquire_for [] (cs_conn c pb 1) (pb_tag pb) 1 = CLOk /\ cl_can_write c = true /\ cs_n c pb = 7%Z /\
             map brief (cc_out (fst (cl_send_pending 2 c 1))) = COData 1 false [7] :: map brief (cc_out c).
Proof. cbv zeta. eexists. split; [vm_compute; reflexivity|]. vm_compute. repeat split. Qed.

(* the last grant: WINDOW_UPDATE(1, 100) on the state with 8 bytes left lets them out with END_STREAM *)
Example C07_stream_grant_resumes_example :
  let c := cli_run ex_cfg ex_first_w10 (firstn 6 ex_upload) in
  exists pb, cl_pend_get (cc_pending c) 1 = Some pb /\ pb_stream pb = None /\ len (pb_body pb) = 8 /\ pb_window pb = 0%Z /\
             let c1 := cl_add_window c 1 100 in
             cc_winCh c1 = true /\
             map brief (cc_out (fst (cl_send_pending 2 c1 1))) = COData 1 true [8] :: map brief (cc_out c) /\
             cc_pending (fst (cl_send_pending 2 c1 1)) = [].
Proof. cbv zeta. eexists. split; [vm_compute; reflexivity|]. vm_compute. repeat split. Qed.

(* ====================================================================================================================
   (d) "... and finishes", over all event lists: streamed bodies, any number of uploads sharing the connection window.
   Proofs/CliFlowC*.v.

   The body of a request as the connection will see it is `rq_body rq = (B, ok)` (Proofs/CliFlowCBody.v): a buffered body
   is its bytes; a streamed one is the chunks its scripted reader answers with, as refillPending consumes them, up to
   EOF, to the declared length being reached, or to the reader failing / answering (0, nil) (ok = false: the body cannot
   be finished). What is left of it in a pending body pb is `pb_all pb` (the buffered rest, then what the reader will
   still deliver). `data_bytes sid tr` / `end_streams sid tr` (Proofs/CliDefs.v): the DATA payload written on the stream,
   in order; the END_STREAM flags written on it (HEADERS or DATA).

   The caveat of the header applies: one select case of the write loop is one step. *)
From H2V Require Import Proofs.CliFlowCBody Proofs.CliFlowCInv Proofs.CliFlowCWin Proofs.CliFlowCExact Proofs.CliFlowCThm Proofs.CliFlowCEx.

(* the Request a Ctx carries is the one its caller submitted under that tag (tags name Ctx objects) *)
Theorem C07_request_is_submitted : forall (hstate : Type) (dec_field : hstate -> N -> bytes -> dec_res hstate)
    (enc_field : hstate -> bytes -> bytes -> bool -> bytes * hstate) (enc_set_max : hstate -> N -> hstate)
    (cfg : cl_config) (h0 : hstate) (first : bytes) (evs : list cevent) (tag : N) (x : cctx),
  cl_ctx_get (cl_run dec_field enc_field enc_set_max cfg h0 first evs) tag = Some x ->
  exists pre rq q post, evs = pre ++ CEvSubmit tag rq q :: post /\
    cl_ctx_get (cl_run dec_field enc_field enc_set_max cfg h0 first pre) tag = None /\ ct_req x = rq.
Proof. exact ctx_submitted. Qed.
Print Assumptions C07_request_is_submitted.

(* after ANY events, for every request that writeRequest has given a stream (ct_conn; the stream is ct_sid):
   - the DATA payloads written on its stream are, in order, a prefix of its body;
   - END_STREAM has been written on the stream at most once, and if it has, all of the body is out, its reader ended
     well, and nothing of it is pending;
   - while the write loop runs, a body still pending holds exactly the rest (no END_STREAM yet), and if no winCh token is
     waiting it has bytes buffered and is blocked by a send window that is not positive (C07_no_stall);
   - while the write loop runs, the request is on the request table and its caller has not taken the Ctx back, the body
     is pending or END_STREAM is out: nobody drops the body of a live request.
   (Frame sizes: C07_frame_size. No frame after END_STREAM: C07_end_stream_once.) *)
Theorem C07_upload_whole_run : forall (hstate : Type) (dec_field : hstate -> N -> bytes -> dec_res hstate)
    (enc_field : hstate -> bytes -> bytes -> bool -> bytes * hstate) (enc_set_max : hstate -> N -> hstate)
    (cfg : cl_config) (h0 : hstate) (first : bytes) (evs : list cevent) (tag : N) (x : cctx),
  let c := cl_run dec_field enc_field enc_set_max cfg h0 first evs in
  cl_ctx_get c tag = Some x -> ct_conn x = true ->
  let id := ct_sid x in
  let B := fst (rq_body (ct_req x)) in
  let ok := snd (rq_body (ct_req x)) in
  (exists rest, data_bytes id (cl_trace c) ++ rest = B) /\
  (end_streams id (cl_trace c) <= 1)%nat /\
  (end_streams id (cl_trace c) = 1%nat -> data_bytes id (cl_trace c) = B /\ ok = true /\ cl_pend_get (cc_pending c) id = None) /\
  (cl_wl_live c = true -> forall pb, cl_pend_get (cc_pending c) id = Some pb ->
     end_streams id (cl_trace c) = 0%nat /\ data_bytes id (cl_trace c) ++ pb_all pb = B /\ pb_ok pb = ok /\
     (cc_winCh c = false -> pb_body pb <> [] /\ (cl_zmin (pb_window pb) (cc_connWindow c) <= 0)%Z)) /\
  (cl_wl_live c = true -> In (id, tag) (cc_reqQueued c) -> ct_done x = false ->
     cl_pend_get (cc_pending c) id <> None \/ end_streams id (cl_trace c) = 1%nat).
Proof. exact upload_whole_run. Qed.
Print Assumptions C07_upload_whole_run.

(* the same as one alternative. The write loop runs and has caught up (no winCh token), the request is on the request
   table (not answered, reset, cancelled, refused by GOAWAY) and its caller has not taken the Ctx back: EITHER all of the
   body is out and END_STREAM was written, exactly once, OR the rest of the body is pending, with bytes buffered, and one
   of the two send windows (the body's, the connection's) is not positive *)
Theorem C07_upload_dichotomy : forall (hstate : Type) (dec_field : hstate -> N -> bytes -> dec_res hstate)
    (enc_field : hstate -> bytes -> bytes -> bool -> bytes * hstate) (enc_set_max : hstate -> N -> hstate)
    (cfg : cl_config) (h0 : hstate) (first : bytes) (evs : list cevent) (tag : N) (x : cctx),
  let c := cl_run dec_field enc_field enc_set_max cfg h0 first evs in
  cl_ctx_get c tag = Some x -> cl_wl_live c = true -> cc_winCh c = false ->
  In (ct_sid x, tag) (cc_reqQueued c) -> ct_done x = false ->
  let id := ct_sid x in
  let B := fst (rq_body (ct_req x)) in
  (data_bytes id (cl_trace c) = B /\ end_streams id (cl_trace c) = 1%nat /\ snd (rq_body (ct_req x)) = true /\
   cl_pend_get (cc_pending c) id = None) \/
  (exists pb, cl_pend_get (cc_pending c) id = Some pb /\ data_bytes id (cl_trace c) ++ pb_all pb = B /\
              end_streams id (cl_trace c) = 0%nat /\ pb_body pb <> [] /\ (cl_zmin (pb_window pb) (cc_connWindow c) <= 0)%Z).
Proof. exact upload_dichotomy. Qed.
Print Assumptions C07_upload_dichotomy.

(* the client's send windows against the server's ledger (the ledger of C07_ledger_valid) after any events, whether the
   write loop runs or not: never above it (the safety theorem), and a pending body's window is below its ledger window
   by at most what the connection window is below the ledger's. The only thing that takes them below is a critical
   section of sendPending whose bytes are debited and then neither written nor handed back: it debits both windows by
   the same amount (and ends the write loop: C07_windows_exact). A chunk handed back to the connection window
   (addWindow(0, n), /repo 35b3178) is no grant of the server's: the ledger never saw the window go down for it *)
Theorem C07_windows_vs_ledger : forall (hstate : Type) (dec_field : hstate -> N -> bytes -> dec_res hstate)
    (enc_field : hstate -> bytes -> bytes -> bool -> bytes * hstate) (enc_set_max : hstate -> N -> hstate)
    (cfg : cl_config) (h0 : hstate) (first : bytes) (evs : list cevent),
  cl_settings_deserialize false first <> None ->
  GOK ledger0 (g_ledger hstate dec_field enc_field enc_set_max cfg h0 first evs) ->
  let c := cl_run dec_field enc_field enc_set_max cfg h0 first evs in
  let L := lrun ledger0 (g_ledger hstate dec_field enc_field enc_set_max cfg h0 first evs) in
  (0 <= cc_connWindow c <= l_conn L)%Z /\
  forall pb, In pb (cc_pending c) ->
    exists w, l_strm L (pb_id pb) = Some w /\ (pb_window pb <= w)%Z /\ (w - pb_window pb <= l_conn L - cc_connWindow c)%Z.
Proof. exact windows_vs_ledger. Qed.
Print Assumptions C07_windows_vs_ledger.

(* while the write loop runs the client's send windows ARE the server's ledger windows (the client-side analogue of
   C06_windows_exact): the connection window, and the window of every pending body. A critical section whose bytes are
   debited and neither written nor handed back happens only when the DATA write fails or the write loop parks for ever
   on a Ctx lock, and both end the write loop in the same select case *)
Theorem C07_windows_exact : forall (hstate : Type) (dec_field : hstate -> N -> bytes -> dec_res hstate)
    (enc_field : hstate -> bytes -> bytes -> bool -> bytes * hstate) (enc_set_max : hstate -> N -> hstate)
    (cfg : cl_config) (h0 : hstate) (first : bytes) (evs : list cevent),
  cl_settings_deserialize false first <> None ->
  GOK ledger0 (g_ledger hstate dec_field enc_field enc_set_max cfg h0 first evs) ->
  cl_wl_live (cl_run dec_field enc_field enc_set_max cfg h0 first evs) = true ->
  cc_connWindow (cl_run dec_field enc_field enc_set_max cfg h0 first evs)
    = l_conn (lrun ledger0 (g_ledger hstate dec_field enc_field enc_set_max cfg h0 first evs)) /\
  forall pb, In pb (cc_pending (cl_run dec_field enc_field enc_set_max cfg h0 first evs)) ->
    l_strm (lrun ledger0 (g_ledger hstate dec_field enc_field enc_set_max cfg h0 first evs)) (pb_id pb) = Some (pb_window pb).
Proof. exact windows_exact. Qed.
Print Assumptions C07_windows_exact.

(* the corollary, in terms of what the SERVER granted only: if in the server's ledger (initial windows + the grants the
   read loop has applied - the DATA bytes written) the connection window and the stream's window are positive, then under
   the hypotheses of the dichotomy the whole body and END_STREAM have been sent, END_STREAM exactly once. (Before /repo
   35b3178 this needed the hypothesis `cc_connWindow c = l_conn L` and was false without it: sendPending did not hand
   back the chunk of a request that had been taken back, see ex_leak in Proofs/CliFlowCEx.v) *)
Theorem C07_completes_when_granted : forall (hstate : Type) (dec_field : hstate -> N -> bytes -> dec_res hstate)
    (enc_field : hstate -> bytes -> bytes -> bool -> bytes * hstate) (enc_set_max : hstate -> N -> hstate)
    (cfg : cl_config) (h0 : hstate) (first : bytes) (evs : list cevent) (tag : N) (x : cctx) (w : Z),
  let c := cl_run dec_field enc_field enc_set_max cfg h0 first evs in
  let L := lrun ledger0 (g_ledger hstate dec_field enc_field enc_set_max cfg h0 first evs) in
  cl_settings_deserialize false first <> None ->
  GOK ledger0 (g_ledger hstate dec_field enc_field enc_set_max cfg h0 first evs) ->
  cl_ctx_get c tag = Some x -> cl_wl_live c = true -> cc_winCh c = false ->
  In (ct_sid x, tag) (cc_reqQueued c) -> ct_done x = false ->
  (0 < l_conn L)%Z -> l_strm L (ct_sid x) = Some w -> (0 < w)%Z ->
  data_bytes (ct_sid x) (cl_trace c) = fst (rq_body (ct_req x)) /\ end_streams (ct_sid x) (cl_trace c) = 1%nat /\
  cl_pend_get (cc_pending c) (ct_sid x) = None.
Proof. exact completes_when_granted. Qed.
Print Assumptions C07_completes_when_granted.

(* the same for the instance with the real HPACK coder: the statement that the run ex_leak refuted before the fix *)
Theorem C07_completes_when_granted_strong : completes_when_granted_strong_statement.
Proof. exact completes_when_granted_strong. Qed.
Print Assumptions C07_completes_when_granted_strong.

(* ---------- examples ---------- *)

Example C07_request_is_submitted_example :
  option_map (fun x => (ct_sid x, match cq_body (ct_req x) with CBuf b => len b | CStream _ _ => 0 end))
             (cl_ctx_get (cli_run ex_cfg [] ex_two_uploads_blocked) 1) = Some (3, 70000).
Proof. vm_compute. reflexivity. Qed.

(* two uploads, 100000 bytes streamed in eight odd-sized reads on stream 1 and 70000 bytes buffered on stream 3, share the
   connection window; grants arrive in pieces on the connection and on stream 1, SETTINGS lowers INITIAL_WINDOW_SIZE to
   60000 and raises MAX_FRAME_SIZE to 32768 in between. After ex_two_uploads_blocked: 65535 bytes of the first body and
   30000 of the second are out, in order, no END_STREAM; the rest is pending (12578 bytes buffered and two reads to come;
   40000 bytes); both stream windows are positive, the connection window is 0 *)
Example C07_upload_whole_run_example :
  let c := cli_run ex_cfg [] ex_two_uploads_blocked in
  ex_flow c = ([(1, 12578, 14465%Z); (3, 40000, 30000%Z)], 0%Z, false, 32768, [(1, 0); (3, 1)]) /\
  cl_wl_live c = true /\
  option_map (fun x => (ct_conn x, ct_sid x, ct_done x, len (fst (rq_body (ct_req x))), snd (rq_body (ct_req x)))) (cl_ctx_get c 0)
    = Some (true, 1, false, 100000, true) /\
  len (data_bytes 1 (cl_trace c)) = 65535 /\ end_streams 1 (cl_trace c) = 0%nat /\
  len (data_bytes 3 (cl_trace c)) = 30000 /\ end_streams 3 (cl_trace c) = 0%nat /\
  map (fun pb => len (pb_all pb)) (cc_pending c) = [34465; 40000] /\
  map brief (cl_trace c) =
    [COHeaders 1 false []; COData 1 false [7001]; COData 1 false [12345]; COData 1 false [16384]; COData 1 false [9999];
     COData 1 false [16383]; COData 1 false [3423]; COHeaders 3 false []; COData 3 false [16384]; COData 3 false [13616];
     COSettingsAck; COSettingsAck].
Proof. vm_compute. repeat split. Qed.

(* the second alternative of the dichotomy holds there for both requests (blocked by the connection window); after
   ex_two_uploads_done the first one: everything out, END_STREAM once, on the last frame *)
Example C07_upload_dichotomy_example :
  let c := cli_run ex_cfg [] ex_two_uploads_done in
  ex_flow c = ([], 25535%Z, false, 32768, [(1, 0); (3, 1)]) /\ cl_wl_live c = true /\
  option_map (fun x => (ct_sid x, ct_done x, bytes_eqb (data_bytes 1 (cl_trace c)) (fst (rq_body (ct_req x))))) (cl_ctx_get c 0)
    = Some (1, false, true) /\
  option_map (fun x => (ct_sid x, ct_done x, bytes_eqb (data_bytes 3 (cl_trace c)) (fst (rq_body (ct_req x))))) (cl_ctx_get c 1)
    = Some (3, false, true) /\
  end_streams 1 (cl_trace c) = 1%nat /\ end_streams 3 (cl_trace c) = 1%nat /\
  map brief (skipn 12 (cl_trace c)) =
    [COData 1 false [12578]; COData 1 false [1887]; COData 3 false [30000]; COData 1 false [9224]; COData 1 true [10776];
     COBodyClosed 0; COData 3 true [10000]].
Proof. vm_compute. repeat split. Qed.

(* the ledger after ex_two_uploads_done: the client's windows are exactly the server's *)
Example C07_windows_vs_ledger_example :
  let L := lrun ledger0 (cli_ledger ex_cfg [] ex_two_uploads_done) in
  GOK ledger0 (cli_ledger ex_cfg [] ex_two_uploads_done) /\
  (l_conn L, l_strm L 1, l_strm L 3) = (25535%Z, Some 30000%Z, Some 40000%Z) /\
  cc_connWindow (cli_run ex_cfg [] ex_two_uploads_done) = l_conn L /\
  (let L1 := lrun ledger0 (cli_ledger ex_cfg [] ex_two_uploads_blocked) in
   (l_conn L1, l_strm L1 1, l_strm L1 3) = (0%Z, Some 14465%Z, Some 30000%Z)).
Proof.
  destruct ex_two_uploads_done_ledger as (G & T & CW & _).
  refine (conj (gokb_sound _ G) (conj T (conj CW _))). vm_compute. reflexivity.
Qed.

(* the hypotheses of the corollary hold after ex_two_uploads_done, for both requests *)
Example C07_completes_when_granted_example :
  let c := cli_run ex_cfg [] ex_two_uploads_done in
  let L := lrun ledger0 (cli_ledger ex_cfg [] ex_two_uploads_done) in
  cl_settings_deserialize false [] <> None /\ GOK ledger0 (cli_ledger ex_cfg [] ex_two_uploads_done) /\
  cl_wl_live c = true /\ cc_winCh c = false /\ cc_reqQueued c = [(1, 0); (3, 1)] /\
  cc_connWindow c = l_conn L /\ (0 < l_conn L)%Z /\ l_strm L 1 = Some 30000%Z /\ l_strm L 3 = Some 40000%Z.
Proof.
  destruct ex_two_uploads_done_ledger as (G & _ & CW & P & T1 & T3 & LV & WC & RQ).
  refine (conj _ (conj (gokb_sound _ G) (conj LV (conj WC (conj RQ (conj CW (conj (proj1 (Z.ltb_lt _ _) P) (conj T1 T3)))))))).
  vm_compute. discriminate.
Qed.

(* the former leak (Proofs/CliFlowCEx.v): before /repo 35b3178 ex_leak ended with 465 bytes of the second upload pending,
   the client's connection window 0 and the server's 64990. Now the 64990 bytes the write loop debited for the request
   that had been taken back are handed back: the second upload goes out completely and the windows agree *)
Example C07_former_conn_window_leak_completes :
  let c := cli_run ex_cfg_armed ex_first_w10 ex_leak in
  let L := lrun ledger0 (cli_ledger ex_cfg_armed ex_first_w10 ex_leak) in
  ex_flow c = ([], 64525%Z, false, 16384, [(3, 1)]) /\ cl_wl_live c = true /\
  (l_conn L, l_strm L 3) = (64525%Z, Some 1010%Z) /\ GOK ledger0 (cli_ledger ex_cfg_armed ex_first_w10 ex_leak) /\
  map brief (cl_trace c) =
    [COHeaders 1 false []; COData 1 false [10]; COResult 0 false CETimeout cl_empty_resp; CORst 1 8;
     COHeaders 3 false []; COData 3 false [10]; COData 3 true [990]] /\
  (* after the chunk has been handed back: the connection window is whole again, the token is set *)
  ex_flow (cli_run ex_cfg_armed ex_first_w10 (firstn 6 ex_leak)) = ([], 65525%Z, true, 16384, []).
Proof.
  cbv zeta. split; [vm_compute; reflexivity|]. split; [vm_compute; reflexivity|]. split; [vm_compute; reflexivity|].
  split; [apply gokb_sound; vm_compute; reflexivity|]. split; vm_compute; reflexivity.
Qed.

(* observation: a streamed body whose reader hands over more bytes than the declared length is sent as read: the read
   that reaches the length ends the body (refillPending sets drained) but is not cut to it. Here content-length 3 and a
   reader that answers with 5 bytes: 5 bytes of DATA with END_STREAM (RFC 7540 8.1.2.6 makes such a request malformed;
   fasthttp's own writer would have stopped at 3) *)
Example C07_declared_length_overshoot_observation :
  let evs := [CEvSubmit 0 (ex_post (CStream [([1; 2; 3; 4; 5], RNil); ([6], REof)] 3)) true; CEvWLIn] in
  map brief (cl_trace (cli_run ex_cfg [] evs)) = [COHeaders 1 false []; COData 1 true [5]; COBodyClosed 0] /\
  data_bytes 1 (cl_trace (cli_run ex_cfg [] evs)) = [1; 2; 3; 4; 5].
Proof. cbv zeta. vm_compute. split; reflexivity. Qed.
