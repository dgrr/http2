(* Blocking structure ("Teardown"): the part of C10 (iv), C12 and C17 that the functional connection
   models cannot express.  Statements only; model: Impl/Teardown.v (two labelled transition systems,
   data erased: program points, channel occupancy against a symbolic capacity [cap], closed flags,
   holders of Ctx.lck / bwLck); proofs: Proofs/Teardown*.v (collected in Proofs/TeardownProofs.v); notes, the correspondence with the
   Go lines and the findings in prose: tools/teardown_notes.md.

   Everything holds for every capacity cap >= 1 (the Go code uses 128) and every interleaving.

   Vocabulary (Impl/Teardown.v):
     guard cap a s / eff a s     the action a is enabled in s / its effect; is_env marks the peer,
                                 the user's handler, the clocks, a user calling Close
     reachable cap s             reachable from an initial state
     path guard eff ok s l s'    finite path whose actions all satisfy ok
     run, fair, sfair, leadsto   infinite runs (stuttering allowed), weak / strong fairness towards a
                                 group of actions, "every instant where P holds is followed by one
                                 where Q holds"
   Server:  dead s = gone s || sclosed s (reads and writes fail); sl_exited (the stream loop has
     left its loop), sv_leaving (the read loop is on its way out of readLoop), loops_exited (Serve
     has returned and ServeConn closed the socket; the stream-loop and write-loop goroutines are
     gone), quiet (besides, no handler is parked and no timer callback is running).
   Client:  one request X is followed; delivered (X's caller has received from ctx.Err),
     loops_exited, closed (the CAS in Conn.Close has been won), raced (ghost: the write loop's own
     Close returned while c.done was still open), wants / holds (the wait-for graph of Ctx.lck and
     bwLck), nest (which mutex each step takes under which). *)
From Coq Require Import Arith Lia Bool List.
From H2V Require Import Impl.Teardown.
From H2V Require Proofs.TeardownProofs.
Import ListNotations.

Module P := TeardownProofs.Final.

(* ---- (0) ordered acquisition admits no wait cycle (DESIGN 4.5a) ---- *)
Theorem Teardown_ordered_no_wait_cycle :
  forall (Proc : Type) (wants : Proc -> option nat) (holds : Proc -> nat -> Prop),
    ordered wants holds -> ~ wait_cycle wants holds.
Proof. exact P.ordered_no_wait_cycle. Qed.
Print Assumptions Teardown_ordered_no_wait_cycle.

(* ================================================================================================ *)
(** * Server                                                                                        *)
(* ================================================================================================ *)
Section Server.
Import Srv.
Variable cap : nat.
Hypothesis cap_pos : 1 <= cap.
Notation guard := (Srv.guard cap).
Notation reachable := (Srv.reachable cap).

(* ---- (S1) C17: once the peer is gone everything that is not a handler in user code ends ---- *)

(* the rank: every action other than "a frame arrives", "the request timer fires", "the ping
   interval elapses" lowers it -- every step of every goroutine does, everywhere *)
Theorem S1_rank : forall s a, refills a = false -> guard a s -> rank (eff a s) < rank s.
Proof. exact (P.S1_rank cap cap_pos). Qed.

Theorem S1_bounded : forall s l s',
  path guard eff P.srv_no_refill s l s' -> length l + rank s' <= rank s.
Proof. exact (P.S1_bounded cap cap_pos). Qed.

(* no deadlock: with the socket dead, either nothing is left but handlers in user code and armed
   timers, or some goroutine can move *)
Theorem S1_progress : forall s, reachable s -> dead s = true ->
  quiet s \/ exists a, is_env a = false /\ guard a s.
Proof. exact (P.S1_progress cap cap_pos). Qed.

(* Serve returns: the goroutines can reach the quiet state in at most [rank s] steps of their own,
   and they cannot avoid it: a sequence of their steps that cannot be extended ends there *)
Theorem S1_can_finish : forall s, reachable s -> dead s = true ->
  exists l s', path guard eff P.srv_step s l s' /\ quiet s' /\ length l <= rank s.
Proof. exact (P.S1_can_finish cap cap_pos). Qed.

Theorem S1_must_finish : forall s l s', reachable s -> dead s = true ->
  path guard eff P.srv_step s l s' -> (forall a, is_env a = false -> ~ guard a s') -> quiet s'.
Proof. exact (P.S1_must_finish cap cap_pos). Qed.

(* what has exited stays exited, and whatever comes later (a handler that returns, a timer that had
   been re-armed) finds handlerStop / writeStop closed and does not park *)
Theorem S1_exited_stay : forall s a, loops_exited s -> guard a s -> loops_exited (eff a s).
Proof. exact (P.S1_exited_stay cap cap_pos). Qed.

Theorem S1_exited_never_parks : forall s, reachable s -> loops_exited s ->
  (0 < h_send s -> guard HStop s) /\ (pg s = PWrite -> guard (PWr ViaStop) s) /\
  (0 < Srv.i_wr s -> guard (IWr ViaStop) s).
Proof. exact (P.S1_exited_never_parks cap cap_pos). Qed.

Example S1_example : exists s,
  reachable s /\ dead s = true /\ sv s = RWrite false /\ sl s = SBody /\ wr s = 1 /\ h_run s = 1 /\
  ~ quiet s.
Proof. exact (P.S1_example cap cap_pos). Qed.

(* ---- (S2) C10 (iv): after a connection error has ended the stream loop, whatever the peer does.
   Runs fair (weakly) to every goroutine and to the drain timeout. ---- *)
Section Runs.
Variable r : run guard eff.
Hypothesis F : fair_run cap r.
Hypothesis R0 : reachable (st r 0).

Theorem S2_stream_goroutine_finishes : leadsto r sl_exited (fun s => sl s = SDone).
Proof. exact (P.S2_stream_goroutine_finishes cap cap_pos r F R0). Qed.

(* the read loop does not stay parked on reader, nor in sc.write *)
Theorem S2_unpark_forward :
  leadsto r (fun s => sl_exited s /\ sv s = RFwd) (fun s => sv s <> RFwd).
Proof. exact (P.S2_unpark_forward cap cap_pos r F R0). Qed.

Theorem S2_unpark_write :
  leadsto r (fun s => sl_exited s /\ exists b, sv s = RWrite b) (fun s => forall b, sv s <> RWrite b).
Proof. exact (P.S2_unpark_write cap cap_pos r F R0). Qed.

(* once the read loop is on its way out, Serve returns (writeDone or the drain timeout), the socket
   is closed, which unblocks a write loop stuck in a socket write, and all three are gone *)
Theorem S2_serve_returns :
  leadsto r (fun s => sl_exited s /\ sv_leaving cap s) loops_exited.
Proof. exact (P.S2_serve_returns cap cap_pos r F R0). Qed.

(* and from any position of the read loop once the socket is dead (the peer closed, or the write
   loop finished its drain and closed it) *)
Theorem S2_dead_returns :
  leadsto r (fun s => sl_exited s /\ dead s = true) loops_exited.
Proof. exact (P.S2_dead_returns cap cap_pos r F R0). Qed.
End Runs.

Example S2_example : exists s,
  reachable s /\ sl_exited s /\ sv_leaving cap s /\ sv s = RWrite true /\ wr s = 1 /\
  stalled s = true.
Proof. exact (P.S2_example cap cap_pos). Qed.

(* FINDING (C10 iv, C17).  What S2 cannot promise, because it is false: a peer that has stopped
   reading and then says nothing keeps Serve from returning.  The write loop is in the socket write
   of its drain, the read loop in the socket read, the drain timeout is not even armed (Serve is
   still inside readLoop); only the peer can move. *)
Theorem S2_silent_state : exists s,
  reachable s /\ sv s = RRead /\ sl s = SDone /\ wl s = WSock true /\ stalled s = true /\
  gone s = false /\ sclosed s = false /\
  forall a, guard a s -> (exists b, a = EPeerSend b) \/ a = EPeerClose \/ (exists b, a = EReqTimer b).
Proof. exact (P.S2_silent_state cap cap_pos). Qed.

Theorem S2_silent_peer_never_returns :
  exists r : run guard eff,
    fair_run cap r /\ reachable (st r 0) /\ sl_exited (st r 0) /\
    forall i, sv (st r i) = RRead /\ wl (st r i) = WSock true /\ sv (st r i) <> VEnd.
Proof. exact (P.S2_silent_peer_never_returns cap cap_pos). Qed.

(* the ping timer (fixed upstream: sendPingAndSchedule checks writeStop before it re-arms).  Once
   writeStop is closed it stays closed, the potential [pg_pot] of the timer never rises, and every
   step of the timer, firing included, lowers it: after the stream goroutine has closed writeStop
   the timer takes at most [pg_pot <= 5] more steps -- it fires at most once more (a callback that
   had passed the check just before the close) and then stays stopped. *)
Theorem S1_ping_winds_down : forall s a, wstop s = true -> guard a s ->
  wstop (eff a s) = true /\
  pg_pot (pg (eff a s)) <= pg_pot (pg s) /\
  (pg_act a = true -> pg_pot (pg (eff a s)) < pg_pot (pg s)).
Proof. exact (P.S1_ping_winds_down cap cap_pos). Qed.

Theorem S1_ping_bounded : forall s l s', wstop s = true ->
  path guard eff (fun _ => True) s l s' -> count_pg l + pg_pot (pg s') <= pg_pot (pg s).
Proof. exact (P.S1_ping_bounded cap cap_pos). Qed.
End Server.
Print Assumptions S1_rank.
Print Assumptions S1_bounded.
Print Assumptions S1_progress.
Print Assumptions S1_can_finish.
Print Assumptions S1_must_finish.
Print Assumptions S1_exited_stay.
Print Assumptions S1_exited_never_parks.
Print Assumptions S1_example.
Print Assumptions S2_stream_goroutine_finishes.
Print Assumptions S2_unpark_forward.
Print Assumptions S2_unpark_write.
Print Assumptions S2_serve_returns.
Print Assumptions S2_dead_returns.
Print Assumptions S2_example.
Print Assumptions S2_silent_state.
Print Assumptions S2_silent_peer_never_returns.
Print Assumptions S1_ping_winds_down.
Print Assumptions S1_ping_bounded.

(* the same with the read loop parked in forward on a full reader (cap = 1) *)
Example S2_example_reader_full : exists s,
  Srv.reachable 1 s /\ Srv.sl_exited s /\ Srv.sv_leaving 1 s /\ Srv.sv s = Srv.RFwd /\
  Srv.rd s = 1 /\ Srv.stalled s = true.
Proof. exact P.S2_example_reader_full. Qed.
Print Assumptions S2_example_reader_full.

(* ================================================================================================ *)
(** * Client                                                                                        *)
(* ================================================================================================ *)
Section Client.
Import Cli.
Variable cap : nat.
Hypothesis cap_pos : 1 <= cap.
Notation guard := (Cli.guard cap).
Notation reachable := (Cli.reachable cap).

(* ---- (S3) C12, locks.  The order  Client.lck < Ctx.lck < reqLck < sendLck < lastErrLck < resLck <
   bwLck  (Cli.mrank); the only mutex ever held while another is taken is a Ctx.lck. ---- *)
Theorem S3_lock_order : forall a o i, In (o, i) (nest a) -> mrank o < mrank i.
Proof. exact P.S3_lock_order. Qed.

(* whoever is parked in Lock holds only smaller mutexes: no wait cycle, no re-lock *)
Theorem S3_ordered : forall s, reachable s -> ordered (wants s) (holds s).
Proof. exact (P.S3_ordered cap cap_pos). Qed.

Theorem S3_no_wait_cycle : forall s, reachable s -> ~ wait_cycle (wants s) (holds s).
Proof. exact (P.S3_no_wait_cycle cap cap_pos). Qed.

Theorem S3_no_self_wait : forall s p m, reachable s -> wants s p = Some m -> ~ holds s p m.
Proof. exact (P.S3_no_self_wait cap cap_pos). Qed.

(* the write loop, the only receiver of c.out, never sends on it (fixed upstream: on a failed body
   read it writes the RST_STREAM itself, writeReset): none of its steps lengthens c.out *)
Theorem S3_write_loop_never_sends_on_out : forall s a,
  g_wl a -> guard a s -> outq (eff a s) <= outq s.
Proof. exact (P.S3_write_loop_never_sends_on_out cap cap_pos). Qed.

(* and whoever is parked on a send into c.out -- the read loop, X's timer -- holds no mutex (fixed
   upstream: dispatch queues the WINDOW_UPDATE frames of c.outBuf after dispatchLocked has released
   the Ctx.lck): no reachable state has the read loop parked on c.out while it holds a Ctx.lck *)
Theorem S3_out_parks_hold_nothing : forall s p m,
  reachable s -> parked_on_out s p -> ~ holds s p m.
Proof. exact (P.S3_out_parks_hold_nothing cap cap_pos). Qed.

(* ---- (S3) C12, nothing stranded.  Runs strongly fair to every goroutine, to the done case and
   the c.out case of the write loop's select and to the caller's body reader, in which at every
   instant the peer is
   reading or the connection is dead.  Once Close has been entered (Client.Close, or a loop that saw
   the connection die), both loops exit and X's caller receives from ctx.Err -- unless the write
   loop's own Close returned while c.done was still open (finding F4). ---- *)
Section Runs.
Variable r : run guard eff.
Hypothesis F : fair_run cap r.
Hypothesis R0 : reachable (st r 0).
Hypothesis NS : forall i, stalled (st r i) = false \/ dead (st r i) = true.

Theorem S3_both_loops_exit :
  leadsto r (fun s => closed s = true) (fun s => loops_exited s /\ done s = true).
Proof. exact (P.S3_both_loops_exit cap cap_pos r F R0 NS). Qed.

Theorem S3_no_stranding :
  leadsto r (fun s => closed s = true)
    (fun s => loops_exited s /\ (delivered s \/ raced s = true)).
Proof. exact (P.S3_no_stranding cap cap_pos r F R0 NS). Qed.

(* the stronger trigger: nobody needs to call Close.  Once the peer is gone (reads and writes fail)
   somebody notices -- the read loop gets out of whatever it is doing and fails its read, or the
   write loop fails a write -- and enters Close; then as above. *)
Theorem S3_gone_closes :
  leadsto r (fun s => gone s = true) (fun s => closed s = true).
Proof. exact (P.S3_gone_closes cap cap_pos r F R0 NS). Qed.

Theorem S3_gone_no_stranding :
  leadsto r (fun s => gone s = true)
    (fun s => loops_exited s /\ (delivered s \/ raced s = true)).
Proof. exact (P.S3_gone_no_stranding cap cap_pos r F R0 NS). Qed.
End Runs.

Example S3_example : exists s,
  reachable s /\ closed s = true /\ done s = false /\ stalled s = false /\
  wl s = LWrite HX /\ rl s = RHold HO /\ uc s = UClose CDone /\
  xc s = KErr /\ xloc s = XTab /\ xerr s = false.
Proof. exact (P.S3_example cap cap_pos). Qed.

(* ---- FINDINGS (C12): reachable states in which only the environment can move.  The
   interleavings are the *_trace lists in Proofs/TeardownCliEx.v (module CliEx). ---- *)

(* F1: Conn.Close parked on bwLck behind a socket write that does not return; c.done is closed, the
   socket never is, the request is not resolved *)
Theorem F1_close_behind_stuck_write : exists s,
  reachable s /\ P.only_env cap s /\
  wl s = LWrite HX /\ uc s = UClose CLock /\ done s = true /\
  sclosed s = false /\ xc s = KErr /\ xerr s = false.
Proof. exact (P.F1_close_behind_stuck_write cap cap_pos). Qed.

(* ... and with a timeout armed the caller does get the error, then parks in takeBack *)
Theorem F1b_roundtrip_stuck_in_takeback : exists s,
  reachable s /\ P.only_env cap s /\
  xc s = KTb /\ lx s = LxWl /\ wl s = LWrite HX /\ tx s = TDone.
Proof. exact (P.F1b_roundtrip_stuck_in_takeback cap cap_pos). Qed.

(* F2: Conn.Write parked on a full c.in behind a stuck write loop, c.done open, the request's own
   timeout already fired *)
Theorem F2_write_parked_past_timeout : exists s,
  reachable s /\ P.only_env cap s /\
  xc s = KW1 /\ xerr s = true /\ tx s = TDone /\ done s = false /\
  wl s = LWrite HO /\ inq s = cap.
Proof. exact (P.F2_write_parked_past_timeout cap cap_pos). Qed.

(* F4: Close is CAS then close(done): both loops gone, the request sits in c.in *)
Theorem F4_stranded_by_close_race : exists s,
  reachable s /\ loops_exited s /\ done s = true /\
  xc s = KErr /\ xloc s = XIn /\ xerr s = false /\ tx s = TOff /\ raced s = true /\
  (forall a, guard a s -> a = EPeerStall \/ a = ETick \/ a = EUserClose).
Proof. exact (P.F4_stranded_by_close_race cap cap_pos). Qed.

End Client.
Print Assumptions S3_lock_order.
Print Assumptions S3_ordered.
Print Assumptions S3_no_wait_cycle.
Print Assumptions S3_no_self_wait.
Print Assumptions S3_both_loops_exit.
Print Assumptions S3_no_stranding.
Print Assumptions S3_example.
Print Assumptions F1_close_behind_stuck_write.
Print Assumptions F1b_roundtrip_stuck_in_takeback.
Print Assumptions F2_write_parked_past_timeout.
Print Assumptions F4_stranded_by_close_race.
Print Assumptions S3_write_loop_never_sends_on_out.
Print Assumptions S3_out_parks_hold_nothing.
Print Assumptions S3_gone_closes.
Print Assumptions S3_gone_no_stranding.
