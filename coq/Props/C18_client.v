(* C18 (client role) - SETTINGS are acknowledged once, in order, and the server's limits are obeyed from then on.
   Only statements here; every proof is one lemma of Proofs/CliFlowSettings.v / CliFlowLimits.v / CliFlowEs.v. All
   theorems are about the model of Impl/ClientConn.v, for ALL event lists, generic in the HPACK coder.

   What is true, and what is not:
   - one ACK per valid non-ACK SETTINGS frame taken in, queued in the same step AFTER the values are merged and the
     send windows adjusted, written by the write loop in queue order; while the connection is open and writable the
     count is exact (C18_client_settings_acks);
   - merging is per parameter (MergeTo): only the parameters present change, each to the LAST value sent for it
     (C18_client_merge_delta);
   - invalid values end the read loop and close the connection (C18_client_settings_invalid). "No frame is written
     afterwards" holds from the moment the socket is closed (C18_client_no_frames_after_close): at once when the read
     loop's deferred Close is the first Close; if a caller's Close is between its two halves the write loop can still
     write a request that was already queued (C18_client_headers_during_close_observation);
   - MAX_CONCURRENT_STREAMS: checked by CanOpenStream when the write loop takes the request off c.in, in the same
     select case that writes HEADERS; a later SETTINGS frame that lowers it closes nothing
     (C18_client_max_concurrent_streams). The counter is the client's own table: a response that ends while the request
     body is still pending takes the stream off the table without END_STREAM or RST_STREAM from the client, so the
     server may count a stream the client does not (observation; C08/C11 territory);
   - HEADER_TABLE_SIZE: the write loop calls SetMaxTableSize with the value the read loop stored before it encodes
     the next block (C18_client_header_table_size); at the handshake at most 4096;
   - MAX_FRAME_SIZE: DATA frames respect it (C07_frame_size); a request header block is ONE HEADERS frame whatever
     its size: C18_client_headers_frame_size_refuted (known finding);
   - advertised = enforced: ENABLE_PUSH = 0, the default MAX_FRAME_SIZE for what the client reads. *)
From Coq Require Import List NArith ZArith Bool.
From H2V Require Import Base.Bytes Base.MachineInt Base.Result Gen.GenConsts Impl.Hpack Impl.ServerConn Impl.ServerInst
  Impl.ClientConn Impl.ClientInst Proofs.CliDefs Spec.FlowLedger Spec.Rfc7540Frames
  Proofs.CliFlowMoves Proofs.CliFlowOut Proofs.CliFlowSettings Proofs.CliFlowSafe Proofs.CliFlowEs Proofs.CliFlowLimits Proofs.CliFlowExamples.
Import ListNotations.
Local Open Scope N_scope.

(* Settings.Deserialize / Read: a payload is accepted iff its length is a multiple of six and every value is one RFC
   7540 6.5.2 allows (setting_valid of Spec/Rfc7540Frames.v), and then reads as the last value of each parameter *)
Theorem C18_client_settings_read : forall d : bytes,
  cl_settings_deserialize false d =
  if (len d mod 6 =? 0) && forallb setting_valid (settings_pairs d)
  then Some (read_result (settings_pairs d) cl_settings_default) else None.
Proof. exact settings_deserialize_spec. Qed.
Print Assumptions C18_client_settings_read.

(* MergeTo: exactly the parameters present change, each to the last value sent for it; nothing is reset to a default *)
Theorem C18_client_merge_delta : forall (d : bytes) (st dst : csettings),
  cl_settings_deserialize false d = Some st ->
  cl_settings_merge st dst =
  mkCS (pairs_last (settings_pairs d) 1 (cs_table dst))
       (plast (fun v => negb (v =? 0)) (settings_pairs d) 2 (cs_push dst))
       (pairs_last (settings_pairs d) 3 (cs_streams dst))
       (pairs_last (settings_pairs d) 4 (cs_window dst))
       (pairs_last (settings_pairs d) 5 (cs_frame dst))
       (pairs_last (settings_pairs d) 6 (cs_hdr dst))
       (cs_hasWin dst) (cs_present dst).
Proof. exact settings_merge_delta. Qed.
Print Assumptions C18_client_merge_delta.

(* the step that takes a valid SETTINGS frame in: merge, store the atomics, adjust the send windows, THEN queue one
   ACK behind whatever is already in c.out; nothing is written in this step *)
Theorem C18_client_settings_ack_step : forall (hstate : Type) (dec_field : hstate -> N -> bytes -> dec_res hstate)
    (enc_field : hstate -> bytes -> bytes -> bool -> bytes * hstate) (enc_set_max : hstate -> N -> hstate)
    (cfg : cl_config) (c : cconn hstate) (fr : sframe) (st : csettings),
  settings_taken hstate c fr -> cl_settings_deserialize false (sf_payload fr) = Some st ->
  let c' := cl_step dec_field enc_field enc_set_max cfg c (CEvRL (RFrame fr)) in
  let ps := settings_pairs (sf_payload fr) in
  cc_serverS c' = cl_settings_merge st (cc_serverS c) /\
  cc_maxStreams c' = pairs_last ps 3 (cs_streams (cc_serverS c)) /\
  cc_maxFrame c' = pairs_last ps 5 (cs_frame (cc_serverS c)) /\
  cc_encTableSize c' = (if pairs_has ps 1 then pairs_last ps 1 0 else cc_encTableSize c) /\
  cc_streamWindow c' = (if pairs_has ps 4 then Z.of_N (pairs_last ps 4 0) else cc_streamWindow c) /\
  cc_out c' = cc_out c /\
  cc_outQ c' = (if cc_closed c then cc_outQ c else cc_outQ c ++ [COSettingsAck]).
Proof. exact settings_ack_step. Qed.
Print Assumptions C18_client_settings_ack_step.

(* exactly one ACK per SETTINGS frame: the ACKs written plus those waiting in c.out never exceed the number of valid
   non-ACK SETTINGS frames taken in, and are exactly as many while the connection has not been closed and writes
   reach the socket *)
Theorem C18_client_settings_acks : forall (hstate : Type) (dec_field : hstate -> N -> bytes -> dec_res hstate)
    (enc_field : hstate -> bytes -> bytes -> bool -> bytes * hstate) (enc_set_max : hstate -> N -> hstate)
    (cfg : cl_config) (h0 : hstate) (first : bytes) (evs : list cevent),
  let c := cl_run dec_field enc_field enc_set_max cfg h0 first evs in
  let n := nsets_from hstate dec_field enc_field enc_set_max cfg (cl_init enc_set_max h0 first) evs in
  (acks (cl_trace c) + acks (cc_outQ c) <= n)%nat /\
  (cc_closed c = false -> cl_can_write c = true -> (acks (cl_trace c) + acks (cc_outQ c))%nat = n).
Proof. exact settings_acks. Qed.
Print Assumptions C18_client_settings_acks.

(* invalid SETTINGS: the read loop returns, the connection is closed (done is closed; the socket too unless a
   caller's Close is already on its way to do it), no ACK is queued or written *)
Theorem C18_client_settings_invalid : forall (hstate : Type) (dec_field : hstate -> N -> bytes -> dec_res hstate)
    (enc_field : hstate -> bytes -> bytes -> bool -> bytes * hstate) (enc_set_max : hstate -> N -> hstate)
    (cfg : cl_config) (c : cconn hstate) (fr : sframe),
  settings_taken hstate c fr ->
  (len (sf_payload fr) mod 6 =? 0) && forallb setting_valid (settings_pairs (sf_payload fr)) = false ->
  let c' := cl_step dec_field enc_field enc_set_max cfg c (CEvRL (RFrame fr)) in
  cc_rl_done c' = true /\ cc_closed c' = true /\ (cc_closed c = false -> cc_netClosed c' = true) /\ cc_lastErr c' <> None /\
  cc_outQ c' = cc_outQ c /\ acks (cc_out c') = acks (cc_out c).
Proof. exact settings_invalid_step. Qed.
Print Assumptions C18_client_settings_invalid.

(* once the socket has been closed nothing is written: a step adds results and notes to the trace, never a frame *)
Theorem C18_client_no_frames_after_close : forall (hstate : Type) (dec_field : hstate -> N -> bytes -> dec_res hstate)
    (enc_field : hstate -> bytes -> bytes -> bool -> bytes * hstate) (enc_set_max : hstate -> N -> hstate)
    (cfg : cl_config) (c : cconn hstate) (e : cevent),
  cc_netClosed c = true ->
  cc_netClosed (cl_step dec_field enc_field enc_set_max cfg c e) = true /\
  Forall (fun o => quietb o = true) (g_new hstate c (cl_step dec_field enc_field enc_set_max cfg c e)).
Proof. exact no_frames_after_close. Qed.
Print Assumptions C18_client_no_frames_after_close.

(* MAX_CONCURRENT_STREAMS: HEADERS is written only by the write loop's case ctx := <-c.in, and when that step starts
   no GOAWAY has been seen, openStreams is below the limit as last merged, and the streams on the client's table are
   at most openStreams: with the new one, at most the limit *)
Theorem C18_client_max_concurrent_streams : forall (hstate : Type) (dec_field : hstate -> N -> bytes -> dec_res hstate)
    (enc_field : hstate -> bytes -> bytes -> bool -> bytes * hstate) (enc_set_max : hstate -> N -> hstate)
    (cfg : cl_config) (h0 : hstate) (first : bytes) (evs : list cevent) (e : cevent) (sid : N) (es : bool) (blk : bytes),
  cl_settings_deserialize false first <> None ->
  In (COHeaders sid es blk) (g_new hstate (cl_run dec_field enc_field enc_set_max cfg h0 first evs)
                                   (cl_step dec_field enc_field enc_set_max cfg (cl_run dec_field enc_field enc_set_max cfg h0 first evs) e)) ->
  let c := cl_run dec_field enc_field enc_set_max cfg h0 first evs in
  e = CEvWLIn /\ cl_wl_live c = true /\ cc_goAway c = false /\
  (Z.of_nat (length (cc_reqQueued c)) <= cc_open c < Z.of_N (cc_maxStreams c))%Z /\
  cc_maxStreams c = cs_streams (cc_serverS c).
Proof. exact headers_within_limit. Qed.
Print Assumptions C18_client_max_concurrent_streams.

(* HEADER_TABLE_SIZE: after a step that writes HEADERS the encoder that produced the block has, as the last maximum
   given to it by SetMaxTableSize, the value the read loop had stored when the step started (enc_hist: the history
   of the encoder value; with C04 the dynamic table is never larger than that maximum) *)
Theorem C18_client_header_table_size : forall (hstate : Type) (dec_field : hstate -> N -> bytes -> dec_res hstate)
    (enc_field : hstate -> bytes -> bytes -> bool -> bytes * hstate) (enc_set_max : hstate -> N -> hstate)
    (cfg : cl_config) (h0 : hstate) (first : bytes) (evs : list cevent) (e : cevent) (sid : N) (es : bool) (blk : bytes),
  In (COHeaders sid es blk) (g_new hstate (cl_run dec_field enc_field enc_set_max cfg h0 first evs)
                                   (cl_step dec_field enc_field enc_set_max cfg (cl_run dec_field enc_field enc_set_max cfg h0 first evs) e)) ->
  let c := cl_run dec_field enc_field enc_set_max cfg h0 first evs in
  let c' := cl_step dec_field enc_field enc_set_max cfg c e in
  enc_hist hstate enc_field enc_set_max h0 (cc_enc c') (cc_encTableSize c) /\
  cc_encTableSeen c' = cc_encTableSize c /\ cc_encTableSize c' = cc_encTableSize c.
Proof. exact table_size_in_force. Qed.
Print Assumptions C18_client_header_table_size.

Theorem C18_client_handshake_table_size : forall (hstate : Type) (enc_set_max : hstate -> N -> hstate) (h0 : hstate) (first : bytes) (st : csettings),
  cl_settings_deserialize false first = Some st ->
  cc_encTableSize (cl_init enc_set_max h0 first) = (if cs_table st <=? c_defaultHeaderTableSize then cs_table st else c_defaultHeaderTableSize) /\
  cc_encTableSeen (cl_init enc_set_max h0 first) = cc_encTableSize (cl_init enc_set_max h0 first) /\
  cc_encTableSize (cl_init enc_set_max h0 first) <= c_defaultHeaderTableSize.
Proof. exact handshake_table_size. Qed.
Print Assumptions C18_client_handshake_table_size.

(* MAX_FRAME_SIZE and HEADERS: REFUTED. "Every HEADERS frame written is at most the MAX_FRAME_SIZE in force" is false:
   writeRequest puts the whole header block into one HEADERS frame (no CONTINUATION), known finding *)
Theorem C18_client_headers_frame_size_refuted :
  ~ (forall cfg first evs e sid es blk, In (COHeaders sid es blk) (cli_step_items cfg first evs e) ->
                                        len blk <= cc_maxFrame (cli_run cfg first evs)).
Proof.
  intro H. destruct ex_big_request_one_frame as [E M].
  specialize (H ex_cfg [] [CEvSubmit 0 ex_big_request true] CEvWLIn). rewrite M in H. revert E H.
  generalize (cli_step_items ex_cfg [] [CEvSubmit 0 ex_big_request true] CEvWLIn). intros l E H.
  destruct l as [|o [|]]; try discriminate. destruct o; try discriminate. cbn [map] in E. injection E as _ _ E.
  specialize (H _ _ _ (or_introl eq_refl)). rewrite E in H. apply H. reflexivity.
Qed.
Print Assumptions C18_client_headers_frame_size_refuted.

(* advertised = enforced: ENABLE_PUSH = 0; a PUSH_PROMISE frame on a stream ends the connection *)
Theorem C18_client_push_promise : forall (hstate : Type) (dec_field : hstate -> N -> bytes -> dec_res hstate)
    (enc_field : hstate -> bytes -> bytes -> bool -> bytes * hstate) (enc_set_max : hstate -> N -> hstate)
    (cfg : cl_config) (c : cconn hstate) (fr : sframe),
  cl_rl_live c = true -> cc_netClosed c = false -> sf_kind fr = KPush -> sf_sid fr <> 0 ->
  let c' := cl_step dec_field enc_field enc_set_max cfg c (CEvRL (RFrame fr)) in
  cc_rl_done c' = true /\ cc_closed c' = true /\ (cc_closed c = false -> cc_netClosed c' = true) /\ cc_lastErr c' <> None.
Proof. exact push_promise_is_connection_error. Qed.
Print Assumptions C18_client_push_promise.

(* a frame the frame reader refuses - longer than the 16384 the client accepts by announcing no MAX_FRAME_SIZE (C05),
   or malformed - ends the connection *)
Theorem C18_client_bad_frame : forall (hstate : Type) (dec_field : hstate -> N -> bytes -> dec_res hstate)
    (enc_field : hstate -> bytes -> bytes -> bool -> bytes * hstate) (enc_set_max : hstate -> N -> hstate)
    (cfg : cl_config) (c : cconn hstate) (code : option N),
  cl_rl_live c = true ->
  let c' := cl_step dec_field enc_field enc_set_max cfg c (CEvRL (RBadFrame code)) in
  cc_rl_done c' = true /\ cc_closed c' = true /\ (cc_closed c = false -> cc_netClosed c' = true) /\ cc_lastErr c' <> None.
Proof. exact bad_frame_is_connection_error. Qed.
Print Assumptions C18_client_bad_frame.

(* ---------- examples (the instance with the real HPACK model) ---------- *)

Example C18_client_settings_read_example :
  settings_pairs ex_settings_payload = [(3, 1); (5, 32768); (3, 7); (1, 100)] /\
  cl_settings_deserialize false ex_settings_payload <> None /\
  cl_settings_deserialize false [0; 5; 0; 0; 0; 100] = None /\ cl_settings_deserialize false [0; 2; 0; 0; 0; 2] = None /\
  cl_settings_deserialize false [0; 4; 128; 0; 0; 0] = None /\ cl_settings_deserialize false [0; 3; 0; 0; 0] = None.
Proof. vm_compute. repeat split. discriminate. Qed.

(* MAX_CONCURRENT_STREAMS sent twice: the last value; MAX_FRAME_SIZE and HEADER_TABLE_SIZE change; the window and the
   header list size, not sent, keep the values they had (here: not the defaults) *)
Example C18_client_merge_delta_example :
  let dst := mkCS 4096 false 100 12345 16384 777 true 0 in
  exists st, cl_settings_deserialize false ex_settings_payload = Some st /\
             cl_settings_merge st dst = mkCS 100 false 7 12345 32768 777 true 0.
Proof. eexists. split; vm_compute; reflexivity. Qed.

Example C18_client_settings_ack_step_example :
  let c := cli_run ex_cfg [] [] in
  settings_taken hpack_state c ex_settings_frame /\
  let c' := cli_step ex_cfg c (CEvRL (RFrame ex_settings_frame)) in
  cc_maxStreams c' = 7 /\ cc_maxFrame c' = 32768 /\ cc_encTableSize c' = 100 /\ cc_outQ c' = [COSettingsAck] /\ cc_out c' = [].
Proof. vm_compute. repeat split. Qed.

(* two SETTINGS frames, one ACK written, one still in c.out *)
Example C18_client_settings_acks_example :
  let evs := [CEvRL (RFrame ex_settings_frame); CEvRL (ex_settings 4 100); CEvWLOut] in
  nsets_from hpack_state cli_dec_field cli_enc_field set_max_table_size ex_cfg (cli_init []) evs = 2%nat /\
  cli_tr ex_cfg [] evs = [COSettingsAck] /\ cc_outQ (cli_run ex_cfg [] evs) = [COSettingsAck] /\
  cc_closed (cli_run ex_cfg [] evs) = false /\ cl_can_write (cli_run ex_cfg [] evs) = true.
Proof. vm_compute. repeat split. Qed.

(* MAX_FRAME_SIZE = 100 is not a value the RFC allows *)
Example C18_client_settings_invalid_example :
  let c := cli_run ex_cfg [] [] in
  let c' := cli_step ex_cfg c (CEvRL (ex_settings 5 100)) in
  cc_rl_done c' = true /\ cc_closed c' = true /\ cc_netClosed c' = true /\ map brief (cli_trace c') = [COGoAway 0 0; COExit 0 0].
Proof. vm_compute. repeat split. Qed.

Example C18_client_no_frames_after_close_example :
  let evs := [CEvSubmit 0 ex_get true; CEvRL (ex_settings 5 100)] in
  cc_netClosed (cli_run ex_cfg [] evs) = true /\ map brief (cli_step_items ex_cfg [] evs CEvWLIn) = [COExit 1 1].
Proof. vm_compute. repeat split. Qed.

(* observation: a caller's Close is between its two halves (done closed, socket still open) when the invalid SETTINGS
   frame comes in: the read loop returns, and the write loop still writes the request that was already on c.in *)
Example C18_client_headers_during_close_observation :
  map brief (cli_tr ex_cfg [] [CEvSubmit 0 ex_get true; CEvClose; CEvRL (ex_settings 5 100); CEvWLIn]) = [COExit 0 0; COHeaders 1 true []].
Proof. vm_compute. reflexivity. Qed.

(* the server allows one stream: the first request goes out, the second is refused (retryable) without a frame *)
Example C18_client_max_concurrent_streams_example :
  map brief (cli_tr ex_cfg [0; 3; 0; 0; 0; 1] [CEvSubmit 0 ex_get true; CEvSubmit 1 ex_get true; CEvWLIn; CEvWLIn; CEvReceive 1])
  = [COHeaders 1 true []; COResult 1 true CENoStreams cl_empty_resp] /\
  cc_open (cli_run ex_cfg [0; 3; 0; 0; 0; 1] [CEvSubmit 0 ex_get true]) = 0%Z /\
  cc_maxStreams (cli_run ex_cfg [0; 3; 0; 0; 0; 1] [CEvSubmit 0 ex_get true]) = 1.
Proof. vm_compute. repeat split. Qed.

(* HEADER_TABLE_SIZE = 100 arrives; the next request block is encoded after SetMaxTableSize(100) *)
Example C18_client_header_table_size_example :
  let evs := [CEvRL (RFrame ex_settings_frame); CEvSubmit 0 ex_get true] in
  cc_encTableSize (cli_run ex_cfg [] evs) = 100 /\ cc_encTableSeen (cli_run ex_cfg [] evs) = 4096 /\
  cc_encTableSeen (cli_step ex_cfg (cli_run ex_cfg [] evs) CEvWLIn) = 100 /\
  h_max (cc_enc (cli_step ex_cfg (cli_run ex_cfg [] evs) CEvWLIn)) = 100 /\
  cc_encTableSize (cli_init [0; 1; 0; 0; 32; 0]) = 4096 /\ cc_encTableSize (cli_init [0; 1; 0; 0; 0; 200]) = 200.
Proof. vm_compute. repeat split. Qed.

(* the witness of the refutation: a 40000-byte header value gives one HEADERS frame of about 25000 bytes under MAX_FRAME_SIZE 16384 *)
Example C18_client_headers_frame_size_refuted_example :
  map (fun o => match o with COHeaders s e b => COHeaders s e [len b] | _ => o end)
      (cli_step_items ex_cfg [] [CEvSubmit 0 ex_big_request true] CEvWLIn) = [COHeaders 1 true [25014]] /\
  cc_maxFrame (cli_run ex_cfg [] [CEvSubmit 0 ex_big_request true]) = 16384.
Proof. exact ex_big_request_one_frame. Qed.

Example C18_client_push_promise_example :
  let c' := cli_step ex_cfg (cli_run ex_cfg [] []) (CEvRL (ex_frame KPush 4 2 [] 0 0 0)) in
  cc_rl_done c' = true /\ cc_closed c' = true /\ cc_netClosed c' = true.
Proof. vm_compute. repeat split. Qed.

Example C18_client_bad_frame_example :
  let c' := cli_step ex_cfg (cli_run ex_cfg [] []) (CEvRL (RBadFrame None)) in
  cc_rl_done c' = true /\ cc_closed c' = true /\ cc_netClosed c' = true.
Proof. vm_compute. repeat split. Qed.
