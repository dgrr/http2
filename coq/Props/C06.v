(* C06 - the server never sends DATA beyond the peer's flow-control windows, and finishes.
   Only statements here; every proof is one lemma of Proofs/SrvFlow*.v. All theorems are about the model of
   Impl/ServerConn.v (tied to serverConn.go by the lockstep suite), for ALL event lists, generic in the HPACK coder.

   How a run is read as a history of the peer's ledger (Spec/FlowLedger.v): `timeline` (Proofs/SrvFlowDefs.v)
   lists, step by step, the grants of the frame the STREAM LOOP handles in that step (SETTINGS_INITIAL_WINDOW_SIZE,
   HEADERS opening a stream, WINDOW_UPDATE) followed by the DATA frames the step queues. Why the stream loop and
   not the read loop: a grant is in force at the sender from the moment it applies it. For WINDOW_UPDATE that is no
   earlier than the moment the peer sent it and increments are positive, so counting them late only makes the
   claim stronger. For SETTINGS it is exactly the moment the peer can observe: C06_settings_ack_first shows that
   the SETTINGS ACK is the first output of the step that applies the setting, so every DATA frame after the ACK is
   checked against the new INITIAL_WINDOW_SIZE and every one before it against the old one (RFC 7540 6.5.3; a
   decrease may leave a window negative, 6.9.2, and then nothing is sent on that stream until it is positive again).
   With grants counted when the READ loop gets them the statement would be false, and rightly so: a lowering
   SETTINGS frame that is still waiting in sc.reader cannot bind the sender yet. *)
From Coq Require Import List NArith ZArith Bool.
From H2V Require Import Base.Bytes Base.MachineInt Base.Result Impl.Hpack Impl.ServerConn Impl.ServerInst
  Proofs.SrvBase Spec.FlowLedger Proofs.SrvFlowLedger Proofs.SrvFlowDefs Proofs.SrvFlowEff
  Proofs.SrvFlowSafeC Proofs.SrvFlowEs Proofs.SrvFlowStall Proofs.SrvFlowAck Proofs.SrvFlowDone Proofs.SrvFlowGrant
  Proofs.SrvFlowExamples
  Proofs.SrvFlowDone Proofs.SrvFlowCDecomp Proofs.SrvFlowCExactC Proofs.SrvFlowCView Proofs.SrvFlowCTrack Proofs.SrvFlowCFin
  Proofs.SrvFlowCExamples.
Import ListNotations.
Local Open Scope N_scope.

(* safety, window form: every DATA frame fits the connection window and its stream's window of the peer's ledger
   at the moment it is queued (an empty DATA frame is always allowed), on a stream the peer has opened *)
Theorem C06_safety : forall (hstate : Type) (dec_field : hstate -> N -> bytes -> dec_res hstate)
    (enc_field : hstate -> bytes -> bytes -> bool -> bytes * hstate) (enc_set_max : hstate -> N -> hstate) cfg h0 evs,
  lvalid ledger0 (timeline hstate dec_field enc_field enc_set_max cfg h0 evs).
Proof. exact ledger_safe. Qed.
Print Assumptions C06_safety.

(* safety, totals form (the property's text): whenever DATA is sent, the payload bytes sent so far on the connection
   and on that stream, this frame included, are within what has been granted: 65535 + connection WINDOW_UPDATEs;
   the initial window in force when the stream was opened + later SETTINGS deltas + the stream's WINDOW_UPDATEs *)
Theorem C06_safety_totals : forall (hstate : Type) (dec_field : hstate -> N -> bytes -> dec_res hstate)
    (enc_field : hstate -> bytes -> bytes -> bool -> bytes * hstate) (enc_set_max : hstate -> N -> hstate) cfg h0 evs,
  within_grants (timeline hstate dec_field enc_field enc_set_max cfg h0 evs).
Proof. exact ledger_within_grants. Qed.
Print Assumptions C06_safety_totals.

(* the totals form follows from the window form for every history, not only the model's *)
Theorem C06_window_form_implies_totals : forall evs, lvalid ledger0 evs -> within_grants evs.
Proof. exact lvalid_within_grants. Qed.
Print Assumptions C06_window_form_implies_totals.

(* no DATA frame is longer than 16384 bytes, the smallest SETTINGS_MAX_FRAME_SIZE a peer can announce *)
Theorem C06_frame_size : forall (hstate : Type) (dec_field : hstate -> N -> bytes -> dec_res hstate)
    (enc_field : hstate -> bytes -> bytes -> bool -> bytes * hstate) (enc_set_max : hstate -> N -> hstate) cfg h0 evs o sid es pl,
  In o (trace (run dec_field enc_field enc_set_max cfg h0 evs)) -> strip o = OData sid es pl -> len pl <= 16384.
Proof. exact data_frames_small. Qed.
Print Assumptions C06_frame_size.

(* the SETTINGS ACK is the first output of the step that applies the settings *)
Theorem C06_settings_ack_first : forall (hstate : Type) (dec_field : hstate -> N -> bytes -> dec_res hstate)
    (enc_field : hstate -> bytes -> bytes -> bool -> bytes * hstate) (enc_set_max : hstate -> N -> hstate) cfg (c : sconn hstate) fr q,
  sc_sl_done c = false -> sc_wl_dead c = false -> sc_readerQ c = fr :: q ->
  sf_sid fr = 0 -> sf_kind fr = KSettings ->
  sc_sl_done (step dec_field enc_field enc_set_max cfg c EvSL) = false ->
  exists rest, new_out hstate c (step dec_field enc_field enc_set_max cfg c EvSL) = OSettingsAck :: rest.
Proof. exact settings_ack_first. Qed.
Print Assumptions C06_settings_ack_first.

(* framing: of two response frames (HEADERS or DATA) on one stream, the earlier one has no END_STREAM; so a stream
   gets at most one END_STREAM and nothing after it *)
Theorem C06_end_stream_once : forall (hstate : Type) (dec_field : hstate -> N -> bytes -> dec_res hstate)
    (enc_field : hstate -> bytes -> bytes -> bool -> bytes * hstate) (enc_set_max : hstate -> N -> hstate) cfg h0 evs pre o1 mid o2 post sid,
  trace (run dec_field enc_field enc_set_max cfg h0 evs) = pre ++ o1 :: mid ++ o2 :: post ->
  frame_sid o1 = Some sid -> frame_sid o2 = Some sid -> is_es o1 = false.
Proof. exact end_stream_once. Qed.
Print Assumptions C06_end_stream_once.

(* progress, the no-stall invariant: after any events, while the stream loop runs, a stream of the table whose
   response has been handed over and still has bytes to send is blocked by a window that is not positive *)
Theorem C06_no_stall : forall (hstate : Type) (dec_field : hstate -> N -> bytes -> dec_res hstate)
    (enc_field : hstate -> bytes -> bytes -> bool -> bytes * hstate) (enc_set_max : hstate -> N -> hstate) cfg h0 evs s,
  let c := run dec_field enc_field enc_set_max cfg h0 evs in
  sc_sl_done c = false -> In s (sc_strms c) ->
  st_responded s && negb (st_handlerRunning s) && has_more_to_send s = true ->
  (zmin (st_window s) (sc_clientWindow c) <= 0)%Z.
Proof. exact no_stall. Qed.
Print Assumptions C06_no_stall.

(* completion, for a buffered response body: one call of sendData (the stream loop makes one whenever a window of a
   blocked stream has grown, and when the handler returns) queues exactly the next q bytes of the body,
   q = min(bytes left, stream window, connection window), in frames of at most 16384 bytes, debits both windows by q,
   and says "finished" exactly when nothing is left; END_STREAM is on the last frame of the response and only there *)
Theorem C06_send_data_buffered : forall (hstate : Type) (c : sconn hstate) s,
  st_bodyStream s = None -> st_pendingEnd s = true -> sc_wl_dead c = false -> sc_sl_done c = false ->
  let q := Z.to_N (Z.max 0 (Z.min (Z.of_N (len (st_pending s))) (Z.min (st_window s) (sc_clientWindow c)))) in
  let r := send_data c s in
  exists frames,
    sc_out (fst (fst r)) = rev (frames_out (st_id s) frames) ++ sc_out c /\
    concat (map snd frames) = takeN q (st_pending s) /\
    st_pending (snd (fst r)) = dropN q (st_pending s) /\
    Forall (fun f => 0 < len (snd f) <= 16384) frames /\
    es_shape frames (snd r && negb (match st_pending s with [] => true | _ => false end)) /\
    snd r = (q =? len (st_pending s)) /\
    st_window (snd (fst r)) = (st_window s - Z.of_N q)%Z /\
    sc_clientWindow (fst (fst r)) = (sc_clientWindow c - Z.of_N q)%Z.
Proof. exact send_data_buffered. Qed.
Print Assumptions C06_send_data_buffered.

(* so once the peer has granted enough on both windows, the whole rest of the body goes out with one END_STREAM.
   Together with C06_no_stall (a stream with bytes left is never left with both windows positive) this is the
   completion half of the property for buffered bodies, in terms of the server's own windows. What remains for the
   statement in terms of the PEER's ledger is the exactness of the bookkeeping: C06_safety shows the server's
   windows are at most the ledger's; equality (while the write loop lives) is C06_windows_exact below. *)
Theorem C06_send_data_completes : forall (hstate : Type) (c : sconn hstate) s,
  st_bodyStream s = None -> st_pendingEnd s = true -> sc_wl_dead c = false -> sc_sl_done c = false ->
  st_pending s <> [] ->
  (Z.of_N (len (st_pending s)) <= st_window s)%Z -> (Z.of_N (len (st_pending s)) <= sc_clientWindow c)%Z ->
  let r := send_data c s in
  snd r = true /\ st_pending (snd (fst r)) = [] /\
  exists frames,
    sc_out (fst (fst r)) = rev (frames_out (st_id s) frames) ++ sc_out c /\
    concat (map snd frames) = st_pending s /\
    Forall (fun f => 0 < len (snd f) <= 16384) frames /\ es_shape frames true.
Proof. exact send_data_completes. Qed.
Print Assumptions C06_send_data_completes.

(* completion, one grant at a time: when the stream loop handles a WINDOW_UPDATE for a stream whose buffered
   response is waiting, it sends the next q = min(left, stream window + increment, connection window) bytes in that
   same step; if that is all of it the stream ends with one END_STREAM and leaves the table, otherwise it stays
   blocked with the rest. By induction on the peer's grants a single buffered response therefore completes as soon
   as the grants cover it. (For several streams sharing the connection window, for connection WINDOW_UPDATE /
   SETTINGS grants and for streamed bodies the same follows from C06_no_stall and C06_send_data_buffered; it has not
   been spelled out as one theorem.) *)
Theorem C06_stream_grant_resumes : forall (hstate : Type) (dec_field : hstate -> N -> bytes -> dec_res hstate)
    (enc_set_max : hstate -> N -> hstate) cfg (c : sconn hstate) fr s,
  sc_sl_done c = false -> sc_wl_dead c = false -> NoDup (map st_id (sc_strms c)) ->
  sf_kind fr = KWinUpd -> sf_sid fr <> 0 -> sf_sid fr <= sc_lastID c ->
  strms_search (sc_strms c) (sf_sid fr) = Some s -> blocked_buffered s ->
  sf_inc fr <> 0 -> (st_window s + Z.of_N (sf_inc fr) <= MAXWIN)%Z ->
  let w := (st_window s + Z.of_N (sf_inc fr))%Z in
  let q := Z.to_N (Z.max 0 (Z.min (Z.of_N (len (st_pending s))) (Z.min w (sc_clientWindow c)))) in
  let c' := fst (sl_frame dec_field enc_set_max cfg c fr) in
  exists frames rest,
    sc_out c' = rest ++ rev (frames_out (sf_sid fr) frames) ++ sc_out c /\ Forall quiet_out rest /\
    concat (map snd frames) = takeN q (st_pending s) /\
    Forall (fun f => 0 < len (snd f) <= 16384) frames /\
    sc_clientWindow c' = (sc_clientWindow c - Z.of_N q)%Z /\
    (if q =? len (st_pending s)
     then es_shape frames true /\ strms_search (sc_strms c') (sf_sid fr) = None
     else es_shape frames false /\
          exists s', strms_search (sc_strms c') (sf_sid fr) = Some s' /\ blocked_buffered s' /\
                     st_pending s' = dropN q (st_pending s) /\ st_window s' = (w - Z.of_N q)%Z).
Proof. exact stream_grant_resumes. Qed.
Print Assumptions C06_stream_grant_resumes.

(* ---------- examples (the instance with the real HPACK model) ---------- *)

(* the peer lowers INITIAL_WINDOW_SIZE to 10 while the handler runs, grants 5, lowers it to 0 (window -10),
   grants 12, then 100: the 30-byte response goes out as 10 + 5 + 2 + 13 *)
Example C06_safety_example :
  srv_timeline ex_cfg ex_send =
  [LOpen 1; LInit 10; LData 1 10; LGrant 1 5; LData 1 5; LInit 0; LGrant 1 12; LData 1 2; LGrant 1 100; LData 1 13]
  /\ srv_brief ex_cfg ex_send =
     [BDisp 1; BSA; BH 1 false; BD 1 false 10; BD 1 false 5; BSA; BD 1 false 2; BD 1 true 13; BRel 1].
Proof. split; vm_compute; reflexivity. Qed.

Example C06_safety_totals_example :
  (* just before the third DATA frame: 15 bytes sent; granted on the stream 0 (setting now in force) + 5 + 12 = 17 *)
  sent_strm 1 [LOpen 1; LInit 10; LData 1 10; LGrant 1 5; LData 1 5; LInit 0; LGrant 1 12] = 15%Z /\
  granted_strm 1 [LOpen 1; LInit 10; LData 1 10; LGrant 1 5; LData 1 5; LInit 0; LGrant 1 12] = 17%Z.
Proof. split; vm_compute; reflexivity. Qed.

Example C06_frame_size_example :
  srv_brief ex_cfg ex_big = [BDisp 1; BH 1 false; BD 1 false 16384; BD 1 true 3616; BRel 1].
Proof. vm_compute. reflexivity. Qed.

Example C06_settings_ack_first_example :
  let c := srv_run ex_cfg (firstn 3 ex_send) in
  sc_sl_done c = false /\ sc_wl_dead c = false /\ sc_readerQ c = [fSettingsWin 10] /\
  new_out hpack_state c (srv_step ex_cfg c EvSL) = [OSettingsAck].
Proof. vm_compute. repeat split. Qed.

Example C06_end_stream_once_example :
  exists pre o1 mid o2 post,
    srv_trace (srv_run ex_cfg ex_send) = pre ++ o1 :: mid ++ o2 :: post /\
    frame_sid o1 = Some 1 /\ frame_sid o2 = Some 1 /\ is_es o1 = false /\ is_es o2 = true.
Proof.
  exists (firstn 2 (srv_trace (srv_run ex_cfg ex_send))), (nth 2 (srv_trace (srv_run ex_cfg ex_send)) OSettingsAck),
         (firstn 4 (skipn 3 (srv_trace (srv_run ex_cfg ex_send)))),
         (nth 7 (srv_trace (srv_run ex_cfg ex_send)) OSettingsAck), (skipn 8 (srv_trace (srv_run ex_cfg ex_send))).
  vm_compute. repeat split.
Qed.

(* the response is blocked: 20 bytes left, stream window 0 *)
Example C06_no_stall_example :
  let c := srv_run ex_cfg ex_blocked in
  sc_sl_done c = false /\
  exists s, In s (sc_strms c) /\ st_responded s && negb (st_handlerRunning s) && has_more_to_send s = true /\
            len (st_pending s) = 20 /\ st_window s = 0%Z /\ sc_clientWindow c = 65525%Z.
Proof.
  split; [vm_compute; reflexivity|].
  exists (hd (new_stream 0 0) (sc_strms (srv_run ex_cfg ex_blocked))). vm_compute. repeat split. left. reflexivity.
Qed.

(* the blocked stream of the previous example: 20 bytes left, windows 0 / 65525; after the peer's WINDOW_UPDATE(1, 100)
   sendData would send them all: here on a copy of the stream whose window has been raised to 100 *)
Example C06_send_data_completes_example :
  let c := srv_run ex_cfg ex_blocked in
  let s := set_window (hd (new_stream 0 0) (sc_strms c)) 100 in
  st_bodyStream s = None /\ st_pendingEnd s = true /\ sc_wl_dead c = false /\ sc_sl_done c = false /\
  len (st_pending s) = 20 /\
  map brief (sc_out (fst (fst (send_data c s)))) = BD 1 true 20 :: map brief (sc_out c) /\
  snd (send_data c s) = true.
Proof. vm_compute. repeat split. Qed.

(* why grants are counted when the stream loop applies them: counted when the READ loop gets them the statement is
   false. INITIAL_WINDOW_SIZE = 0 is still in sc.reader when the handler returns; the 10-byte response goes out
   BEFORE the SETTINGS ACK, as RFC 7540 6.9.2 allows ("the sender might send data that exceeds the lower limit prior
   to processing the SETTINGS frame") *)
Example C06_read_loop_order_counterexample :
  srv_timeline_rl ex_cfg ex_inflight = [LOpen 1; LInit 0; LData 1 10] /\
  ~ lvalid ledger0 (srv_timeline_rl ex_cfg ex_inflight) /\
  srv_brief ex_cfg ex_inflight = [BDisp 1; BH 1 false; BD 1 true 10; BRel 1; BSA] /\
  lvalid ledger0 (srv_timeline ex_cfg ex_inflight).
Proof.
  assert (E : srv_timeline_rl ex_cfg ex_inflight = [LOpen 1; LInit 0; LData 1 10]) by (vm_compute; reflexivity).
  split; [exact E|]. split; [|split; [vm_compute; reflexivity | unfold srv_timeline; apply C06_safety]].
  rewrite E. cbn [lvalid]. intros (_ & _ & A & _). cbn [lallowed lstep ledger0 l_strm l_init l_conn] in A.
  unfold strm_upd in A. cbn [N.eqb Pos.eqb] in A. destruct A as (w & Hw & [X|(_ & _ & X)]); [discriminate|].
  inversion Hw; subst. unfold DEFAULT_WINDOW in X. apply Z.leb_le in X. discriminate.
Qed.

(* the blocked stream again: WINDOW_UPDATE(1, 5) lets 5 of the 20 bytes out, WINDOW_UPDATE(1, 100) all of them *)
Example C06_stream_grant_resumes_example :
  let c := srv_run ex_cfg ex_blocked in
  sc_sl_done c = false /\ sc_wl_dead c = false /\ NoDup (map st_id (sc_strms c)) /\
  (exists s, strms_search (sc_strms c) 1 = Some s /\ blocked_buffered s /\ len (st_pending s) = 20 /\ st_window s = 0%Z) /\
  map brief (sc_out (fst (sl_frame srv_dec_field set_max_table_size ex_cfg c (fWinUpd 1 5)))) = BD 1 false 5 :: map brief (sc_out c) /\
  map brief (sc_out (fst (sl_frame srv_dec_field set_max_table_size ex_cfg c (fWinUpd 1 100)))) = BRel 1 :: BD 1 true 20 :: map brief (sc_out c).
Proof.
  cbv zeta. split; [vm_compute; reflexivity|]. split; [vm_compute; reflexivity|].
  split; [vm_compute; repeat constructor; intros []|].
  split; [|split; vm_compute; reflexivity].
  eexists. split; [vm_compute; reflexivity|]. split; [|split; vm_compute; reflexivity].
  unfold blocked_buffered. vm_compute. repeat split. discriminate.
Qed.

(* ====================================================================================================
   The "and finishes" half, over whole runs, in terms of what the PEER has granted.
   `timeline evs` is the history of C06_safety: grants count when the stream loop applies them, DATA when queued;
   L = lrun ledger0 (timeline evs) is the peer's ledger after the run.
   ==================================================================================================== *)

(* exactness of the bookkeeping (C06_safety shows "at most"): after any events, while the stream loop and the write
   loop run, the connection send window and the send window of EVERY stream of the table are the windows of the ledger:
   initial window in force at opening + SETTINGS deltas + WINDOW_UPDATEs applied - DATA bytes queued *)
Theorem C06_windows_exact : forall (hstate : Type) (dec_field : hstate -> N -> bytes -> dec_res hstate)
    (enc_field : hstate -> bytes -> bytes -> bool -> bytes * hstate) (enc_set_max : hstate -> N -> hstate) cfg h0 evs,
  let c := run dec_field enc_field enc_set_max cfg h0 evs in
  let L := lrun ledger0 (timeline hstate dec_field enc_field enc_set_max cfg h0 evs) in
  sc_sl_done c = false -> sc_wl_dead c = false ->
  l_conn L = sc_clientWindow c /\ forall s, In s (sc_strms c) -> l_strm L (st_id s) = Some (st_window s).
Proof. exact windows_exact. Qed.
Print Assumptions C06_windows_exact.

(* progress in the peer's terms, for ANY kind of body (buffered or streamed) and any number of streams sharing the
   connection window: a table stream whose response has been handed over and still has bytes to send is held back by
   a window of the peer's ledger that is not positive *)
Theorem C06_waiting_blocked_by_ledger : forall (hstate : Type) (dec_field : hstate -> N -> bytes -> dec_res hstate)
    (enc_field : hstate -> bytes -> bytes -> bool -> bytes * hstate) (enc_set_max : hstate -> N -> hstate) cfg h0 evs s,
  let c := run dec_field enc_field enc_set_max cfg h0 evs in
  let L := lrun ledger0 (timeline hstate dec_field enc_field enc_set_max cfg h0 evs) in
  sc_sl_done c = false -> sc_wl_dead c = false -> In s (sc_strms c) ->
  st_responded s && negb (st_handlerRunning s) && has_more_to_send s = true ->
  l_conn L = sc_clientWindow c /\ l_strm L (st_id s) = Some (st_window s) /\
  ((st_window s <= 0)%Z \/ (l_conn L <= 0)%Z).
Proof. exact waiting_blocked_by_ledger. Qed.
Print Assumptions C06_waiting_blocked_by_ledger.

(* the whole-run theorem, for a BUFFERED body B (the restriction to buffered bodies is in this theorem only: for a
   streamed body the bytes come from scripted reads and "the rest of the body" has no closed form in the model).
   For every event list evs1 ++ EvDone sid r :: evs2 (all schedules, any number of other streams): if the handler's
   return is taken while the stream is in the table with its handler running, and at the end both loops run, the
   connection is not closing, the server has sent no RST_STREAM on sid and the stream loop has taken none from the
   peer, THEN the response frames of sid in the trace are exactly HEADERS followed by DATA frames (each 1..16384
   bytes) whose payloads concatenate, in order, to a prefix of B, and EITHER the stream has left the table with all of
   B sent and END_STREAM on the last frame and nowhere else (on the HEADERS when B is empty), OR it is in the table
   holding exactly the rest of B, no END_STREAM sent, and one of its two windows is not positive, where the windows
   are the ledger's. (`rf sid` filters the HEADERS/DATA frames of sid; `taken_from c evs` lists the frames the stream
   loop takes during evs.) *)
Theorem C06_response_progress : forall (hstate : Type) (dec_field : hstate -> N -> bytes -> dec_res hstate)
    (enc_field : hstate -> bytes -> bytes -> bool -> bytes * hstate) (enc_set_max : hstate -> N -> hstate) cfg h0
    evs1 sid r B evs2,
  let c1 := run dec_field enc_field enc_set_max cfg h0 evs1 in
  let evs := evs1 ++ EvDone sid r :: evs2 in
  let c := run dec_field enc_field enc_set_max cfg h0 evs in
  let L := lrun ledger0 (timeline hstate dec_field enc_field enc_set_max cfg h0 evs) in
  rs_body r = BBuffered B ->
  sc_sl_done c1 = false -> take_stream (sc_gone c1) sid = None ->
  (exists s, strms_search (sc_strms c1) sid = Some s /\ st_handlerRunning s = true) ->
  sc_sl_done c = false -> sc_wl_dead c = false -> sc_closing c = false ->
  (forall o code, In o (trace c) -> strip o <> ORst sid code) ->
  (forall fr, In fr (taken_from hstate dec_field enc_field enc_set_max cfg
                       (step dec_field enc_field enc_set_max cfg c1 (EvDone sid r)) evs2) ->
              sf_sid fr = sid -> sf_kind fr <> KRst) ->
  exists blk frames,
    rf sid (trace c) = OHeaders sid (isnil B) blk :: frames_out sid frames /\ Forall small frames /\
    ((strms_search (sc_strms c) sid = None /\ concat (map snd frames) = B /\ es_shape frames (negb (isnil B)))
     \/
     (exists s, strms_search (sc_strms c) sid = Some s /\ st_pending s <> [] /\ concat (map snd frames) ++ st_pending s = B /\
                st_bodyStream s = None /\ es_shape frames false /\
                ((st_window s <= 0)%Z \/ (sc_clientWindow c <= 0)%Z) /\
                l_strm L sid = Some (st_window s) /\ l_conn L = sc_clientWindow c)).
Proof. exact response_progress. Qed.
Print Assumptions C06_response_progress.

(* every response completes once the peer has granted enough: under the same hypotheses, if the grants applied so far
   leave both windows of the peer's ledger positive, all of B has been sent, in order, with END_STREAM exactly once *)
Theorem C06_completes_when_granted : forall (hstate : Type) (dec_field : hstate -> N -> bytes -> dec_res hstate)
    (enc_field : hstate -> bytes -> bytes -> bool -> bytes * hstate) (enc_set_max : hstate -> N -> hstate) cfg h0
    evs1 sid r B evs2,
  let c1 := run dec_field enc_field enc_set_max cfg h0 evs1 in
  let evs := evs1 ++ EvDone sid r :: evs2 in
  let c := run dec_field enc_field enc_set_max cfg h0 evs in
  let L := lrun ledger0 (timeline hstate dec_field enc_field enc_set_max cfg h0 evs) in
  rs_body r = BBuffered B ->
  sc_sl_done c1 = false -> take_stream (sc_gone c1) sid = None ->
  (exists s, strms_search (sc_strms c1) sid = Some s /\ st_handlerRunning s = true) ->
  sc_sl_done c = false -> sc_wl_dead c = false -> sc_closing c = false ->
  (forall o code, In o (trace c) -> strip o <> ORst sid code) ->
  (forall fr, In fr (taken_from hstate dec_field enc_field enc_set_max cfg
                       (step dec_field enc_field enc_set_max cfg c1 (EvDone sid r)) evs2) ->
              sf_sid fr = sid -> sf_kind fr <> KRst) ->
  (0 < l_conn L)%Z -> (forall w, l_strm L sid = Some w -> (0 < w)%Z) ->
  exists blk frames,
    rf sid (trace c) = OHeaders sid (isnil B) blk :: frames_out sid frames /\ Forall small frames /\
    strms_search (sc_strms c) sid = None /\ concat (map snd frames) = B /\ es_shape frames (negb (isnil B)).
Proof. exact completes_when_granted. Qed.
Print Assumptions C06_completes_when_granted.

(* ---------- examples: two responses (100000 and 70000 bytes) sharing the connection window ---------- *)

(* after: both handlers returned, WINDOW_UPDATE(0, 50000), SETTINGS_INITIAL_WINDOW_SIZE = 20000, WINDOW_UPDATE(3, 60000).
   Stream 1 sent 65535 bytes and waits with 34465, its window driven to -45535 by the SETTINGS change; stream 3 sent
   50000, has a POSITIVE window 30000 and waits on the connection window (0). Server windows = ledger windows. *)
Example C06_windows_exact_example :
  let evs := ex_two_pre ++ EvDone 1 (resp 100000) :: ex_two_mid in
  let c := srv_run ex_cfg evs in
  sc_sl_done c = false /\ sc_wl_dead c = false /\
  map (fun s => (st_id s, st_window s, len (st_pending s))) (sc_strms c) = [(1, (-45535)%Z, 34465); (3, 30000%Z, 20000)] /\
  sc_clientWindow c = 0%Z /\ l_conn (srv_ledger ex_cfg evs) = 0%Z /\
  l_strm (srv_ledger ex_cfg evs) 1 = Some (-45535)%Z /\ l_strm (srv_ledger ex_cfg evs) 3 = Some 30000%Z.
Proof.
  destruct ex_two_waiting as ((D & W & _) & T & (CW & LC & L1 & L3) & _).
  exact (conj D (conj W (conj T (conj CW (conj LC (conj L1 L3)))))).
Qed.

(* stream 3 of that state: bytes left, its own window positive, held back by the connection window of the ledger *)
Example C06_waiting_blocked_by_ledger_example :
  let evs := ex_two_pre ++ EvDone 1 (resp 100000) :: ex_two_mid in
  let c := srv_run ex_cfg evs in
  exists s, In s (sc_strms c) /\ st_id s = 3 /\
    st_responded s && negb (st_handlerRunning s) && has_more_to_send s = true /\
    st_window s = 30000%Z /\ l_strm (srv_ledger ex_cfg evs) 3 = Some 30000%Z /\ l_conn (srv_ledger ex_cfg evs) = 0%Z.
Proof.
  destruct ex_two_waiting as (_ & T & (_ & LC & _ & L3) & (I3 & F3 & W3) & _).
  cbv zeta. exists (nth 1 (sc_strms (srv_run ex_cfg (ex_two_pre ++ EvDone 1 (resp 100000) :: ex_two_mid))) (new_stream 0 0)).
  split; [|exact (conj I3 (conj F3 (conj W3 (conj L3 LC))))].
  apply nth_In. apply (f_equal (@length _)) in T. rewrite map_length in T. rewrite T. repeat constructor.
Qed.

(* the hypotheses of C06_response_progress hold for stream 1 in that run, and the conclusion is the WAITING branch:
   HEADERS + 16384 + 16384 + 16384 + 16383 bytes sent (a prefix of the body), 34465 left, stream window -45535 *)
Example C06_response_progress_example :
  let c1 := srv_run ex_cfg ex_two_pre in
  let evs := ex_two_pre ++ EvDone 1 (resp 100000) :: ex_two_mid in
  let c := srv_run ex_cfg evs in
  sc_sl_done c1 = false /\ take_stream (sc_gone c1) 1 = None /\
  (exists s, strms_search (sc_strms c1) 1 = Some s /\ st_handlerRunning s = true) /\
  sc_sl_done c = false /\ sc_wl_dead c = false /\ sc_closing c = false /\
  (forall o code, In o (srv_trace c) -> strip o <> ORst 1 code) /\
  (forall fr, In fr (srv_taken_from ex_cfg (srv_step ex_cfg c1 (EvDone 1 (resp 100000))) ex_two_mid) ->
              sf_sid fr = 1 -> sf_kind fr <> KRst) /\
  map brief (rf 1 (srv_trace c)) = [BH 1 false; BD 1 false 16384; BD 1 false 16384; BD 1 false 16384; BD 1 false 16383] /\
  option_map (fun s => (len (st_pending s), st_window s, st_bodyStream s)) (strms_search (sc_strms c) 1)
    = Some (34465, (-45535)%Z, None) /\
  l_strm (srv_ledger ex_cfg evs) 1 = Some (-45535)%Z /\ l_conn (srv_ledger ex_cfg evs) = sc_clientWindow c.
Proof.
  destruct ex_two_waiting as ((D & W & G) & _ & (CW & LC & L1 & _) & _ & (RO & RI) & B & P).
  cbv zeta. split; [vm_compute; reflexivity|]. split; [vm_compute; reflexivity|].
  split; [eexists; split; vm_compute; reflexivity|].
  refine (conj D (conj W (conj G (conj (no_rst_out_ok _ _ RO) (conj (no_rst_in_ok _ _ RI) (conj B (conj P (conj L1 _)))))))).
  exact (eq_trans LC (eq_sym CW)).
Qed.

(* the rest of the grants arrive (WINDOW_UPDATE(0, 200000), WINDOW_UPDATE(1, 100000)): both ledger windows of
   stream 1 are positive (connection 145535, stream 20000) and the response is complete: 7 DATA frames, 100000 bytes,
   END_STREAM on the last one only; the same for stream 3 (70000 bytes) *)
Example C06_completes_when_granted_example :
  let c1 := srv_run ex_cfg ex_two_pre in
  let evs2 := ex_two_mid ++ ex_two_end in
  let evs := ex_two_pre ++ EvDone 1 (resp 100000) :: evs2 in
  let c := srv_run ex_cfg evs in
  sc_sl_done c = false /\ sc_wl_dead c = false /\ sc_closing c = false /\
  (forall o code, In o (srv_trace c) -> strip o <> ORst 1 code) /\
  (forall fr, In fr (srv_taken_from ex_cfg (srv_step ex_cfg c1 (EvDone 1 (resp 100000))) evs2) ->
              sf_sid fr = 1 -> sf_kind fr <> KRst) /\
  l_conn (srv_ledger ex_cfg evs) = 145535%Z /\ l_strm (srv_ledger ex_cfg evs) 1 = Some 20000%Z /\
  strms_search (sc_strms c) 1 = None /\
  map brief (rf 1 (srv_trace c)) =
    [BH 1 false; BD 1 false 16384; BD 1 false 16384; BD 1 false 16384; BD 1 false 16383;
     BD 1 false 16384; BD 1 false 16384; BD 1 true 1697] /\
  map brief (rf 3 (srv_trace c)) =
    [BH 3 false; BD 3 false 16384; BD 3 false 16384; BD 3 false 16384; BD 3 false 848; BD 3 false 16384; BD 3 true 3616].
Proof.
  destruct ex_two_granted as ((D & W & G) & (RO & RI) & (LC & L1) & S1 & B1 & B3).
  exact (conj D (conj W (conj G (conj (no_rst_out_ok _ _ RO) (conj (no_rst_in_ok _ _ RI)
           (conj LC (conj L1 (conj S1 (conj B1 B3))))))))).
Qed.
